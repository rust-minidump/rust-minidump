(* C16/Proofs.v — what every proof file of the directory builds on, then the fetch machine of C16/Model.v:
   runs as fold_left (fold_inv, fold_inv_seen, fold_sim); the tmp directory as a list (fresh names, rm / write);
   cache_eq and tmp_inv with their lemmas, the cache and tmp effect of commit_cache_file;
   the invariant Inv of Model.step over all event lists and its readings (the net_ lemmas);
   whole lookups (locate_split, the cache-hit lemma rehit_same_on, the request log). *)
From Coq Require Import Lia.
From RM Require Import Base.ListFacts C16.Model.
Open Scope Z_scope.

(* The machines of this directory run by fold_left of a step function over the events.  An invariant of the step is one of
   the run, also when it speaks of the events seen so far; a simulation of steps is one of runs. *)
Lemma fold_inv : forall (S E : Type) (step : S -> E -> S) (P : S -> Prop),
  (forall s e, P s -> P (step s e)) -> forall evs s, P s -> P (fold_left step evs s).
Proof. intros S E step P Hstep. induction evs as [|e evs IH]; intros s H; [exact H|]. apply IH, Hstep, H. Qed.

Lemma fold_inv_seen : forall (S E : Type) (step : S -> E -> S) (P : list E -> S -> Prop),
  (forall seen s e, P seen s -> P (seen ++ [e]) (step s e)) -> forall evs s, P [] s -> P evs (fold_left step evs s).
Proof.
  intros S E step P Hstep evs. change evs with ([] ++ evs) at 1. generalize (@nil E).
  induction evs as [|e evs IH]; intros seen s H; [rewrite app_nil_r; exact H|].
  replace (seen ++ e :: evs) with ((seen ++ [e]) ++ evs) by (rewrite <- app_assoc; reflexivity). apply IH, Hstep, H.
Qed.

Lemma fold_sim : forall (S1 S2 E : Type) (step1 : S1 -> E -> S1) (step2 : S2 -> E -> S2) (emb : S1 -> S2),
  (forall s e, step2 (emb s) e = emb (step1 s e)) ->
  forall evs s, fold_left step2 evs (emb s) = emb (fold_left step1 evs s).
Proof. intros S1 S2 E step1 step2 emb H. induction evs as [|e evs IH]; intros s; [reflexivity|]. cbn [fold_left]. rewrite H. apply IH. Qed.

Lemma fresh_gt : forall l e, In e l -> fst e < fresh l.
Proof.
  induction l as [|a l IH]; intros e H; cbn [In] in H; [contradiction|].
  change (fresh (a :: l)) with (Z.max (fst a + 1) (fresh l)).
  destruct H as [H|H]; [subst; lia|]. specialize (IH e H). lia.
Qed.

Lemma rm_fresh : forall l c,
  filter (fun e : Z * bytes => negb (fst e =? fresh l)) ((fresh l, c) :: l) = l.
Proof.
  intros l c. cbn [filter fst]. rewrite Z.eqb_refl. cbn [negb].
  apply filter_all. intros e He. pose proof (fresh_gt l e He) as H.
  destruct (Z.eqb_spec (fst e) (fresh l)); [lia|reflexivity].
Qed.

Lemma write_fresh : forall l c c',
  map (fun e : Z * bytes => if fst e =? fresh l then (fresh l, c') else e) ((fresh l, c) :: l) = (fresh l, c') :: l.
Proof.
  intros l c c'. cbn [map fst]. rewrite Z.eqb_refl. f_equal.
  rewrite <- (map_id l) at 2. apply map_ext_in. intros e He. pose proof (fresh_gt l e He) as H.
  destruct (Z.eqb_spec (fst e) (fresh l)); [lia|reflexivity].
Qed.

Lemma write_write : forall f n x y, write_tmp (write_tmp f n x) n y = write_tmp f n y.
Proof.
  intros f n x y. unfold write_tmp. cbn [cache cdir tmp]. f_equal. rewrite map_map. apply map_ext. intros a.
  destruct (Z.eqb_spec (fst a) n) as [E|E]; cbn [fst]; [rewrite Z.eqb_refl; reflexivity|].
  destruct (Z.eqb_spec (fst a) n); [contradiction|reflexivity].
Qed.

Lemma rm_write : forall f n x, rm_tmp (write_tmp f n x) n = rm_tmp f n.
Proof.
  intros f n x. unfold rm_tmp, write_tmp. cbn [cache cdir tmp]. f_equal.
  induction (tmp f) as [|a l IH]; cbn [map filter]; [reflexivity|].
  destruct (Z.eqb_spec (fst a) n) as [E|E]; cbn [fst].
  - rewrite Z.eqb_refl. cbn [negb]. exact IH.
  - destruct (Z.eqb_spec (fst a) n); [contradiction|]. cbn [negb]. f_equal. exact IH.
Qed.

Lemma drop_drop : forall f tf, drop_temp (drop_temp f tf) tf = drop_temp f tf.
Proof.
  intros f [n|]; [|reflexivity]. unfold drop_temp, rm_tmp. cbn [cache cdir tmp]. f_equal.
  induction (tmp f) as [|a l IH]; cbn [filter]; [reflexivity|].
  destruct (negb (fst a =? n)) eqn:E; cbn [filter]; [rewrite E; f_equal; exact IH|exact IH].
Qed.

Lemma ends_nl_sep_nil : forall b, ends_nl b = true -> sep b = [].
Proof. intros b H. unfold sep. rewrite H. reflexivity. Qed.

Definition cache_eq (f g : fs) : Prop := forall q, cache f q = cache g q.

(* tmp is as it was in f0, but for the one file the handle [tf] owns.  Its name is [fresh] of the old list, which is above
   every name in it (fresh_gt): that is why removing or rewriting that name touches nothing else (rm_fresh, write_fresh). *)
Definition tmp_inv (f0 f : fs) (tf : option Z) : Prop :=
  match tf with
  | None => tmp f = tmp f0
  | Some n => n = fresh (tmp f0) /\ exists c, tmp f = (n, c) :: tmp f0
  end.

Lemma tmp_inv_drop : forall f0 f tf, tmp_inv f0 f tf -> tmp (drop_temp f tf) = tmp f0.
Proof.
  intros f0 f [n|] H; cbn [drop_temp tmp_inv] in *; [|exact H].
  destruct H as [Hn [c Hc]]. cbn [rm_tmp tmp]. rewrite Hc, Hn. apply rm_fresh.
Qed.

Lemma tmp_inv_write : forall f0 f n c, tmp_inv f0 f (Some n) -> tmp (write_tmp f n c) = (n, c) :: tmp f0.
Proof. intros f0 f n c [Hn [c0 Ht]]. cbn [write_tmp tmp]. rewrite Ht, Hn. apply write_fresh. Qed.

Lemma create_tmp_inv : forall p e f0 f, tmp f = tmp f0 ->
  tmp_inv f0 (fst (create_cache_file p e f)) (snd (create_cache_file p e f)).
Proof.
  intros p e f0 f H. unfold create_cache_file.
  destruct (mk_ok e); [destruct (create_ok e)|]; cbn [fst snd tmp_inv add_tmp set_cdir tmp]; try exact H.
  rewrite H. split; [reflexivity|]. exists []. reflexivity.
Qed.

Lemma create_cache_eq : forall p e f, cache_eq (fst (create_cache_file p e f)) f.
Proof. intros p e f q. unfold create_cache_file. destruct (mk_ok e); [destruct (create_ok e)|]; reflexivity. Qed.

Lemma commit_tmp_rm : forall p e f n body u, tmp (commit_cache_file p e f n body u) = tmp (rm_tmp f n).
Proof.
  intros p e f n body u. unfold commit_cache_file.
  destruct (negb (ends_nl body) && negb (wr_ok e _)); [reflexivity|].
  destruct (negb (wr_ok e _)); [reflexivity|].
  destruct (cache f p) as [[c|]|]; [destruct (rm_ok e)| |]; try reflexivity; destruct (persist_ok e); reflexivity.
Qed.

Lemma commit_tmp : forall p e f0 f n body u,
  tmp_inv f0 f (Some n) -> tmp (commit_cache_file p e f n body u) = tmp f0.
Proof. intros p e f0 f n body u H. rewrite commit_tmp_rm. exact (tmp_inv_drop f0 f (Some n) H). Qed.

(* a file system that agrees with f0 on the cache and owns at most the handle's file in tmp: after a write, after the drop *)
Lemma written_inv : forall f0 f1 n c, cache_eq f1 f0 -> tmp_inv f0 f1 (Some n) ->
  cache_eq (write_tmp f1 n c) f0 /\ tmp_inv f0 (write_tmp f1 n c) (Some n).
Proof.
  intros f0 f1 n c Hc Ht. split; [exact Hc|]. split; [exact (proj1 Ht)|]. exists c. apply tmp_inv_write. exact Ht.
Qed.

Lemma dropped_unchanged : forall f0 f1 tf, cache_eq f1 f0 -> tmp_inv f0 f1 tf ->
  cache_eq (drop_temp f1 tf) f0 /\ tmp (drop_temp f1 tf) = tmp f0.
Proof. intros f0 f1 tf Hc Ht. split; [destruct tf; exact Hc|apply tmp_inv_drop; exact Ht]. Qed.

Section Inv.
  Variable T : Type.
  Variable parse : bytes -> option (T * option bytes).
  Variable early : bytes -> bool.
  Variable p : path.

  Notation step := (step T parse early p).
  Notation run := (run T parse early p).
  Notation next_server := (next_server T).
  Notation net_start := (net_start T).
  Notation locate := (locate T parse early p).
  Notation st := (st T).

  (* outcome of a successful download at the cache path *)
  Definition commit_post (f0 f : fs) (body u : bytes) : Prop :=
    cache f p = Some (File (cached_form body u)) \/
    cache f p = cache f0 p \/
    (cache f p = None /\ exists c, cache f0 p = Some (File c)).

  Lemma commit_post_eq : forall f0 f1 f' b u, cache_eq f1 f0 -> commit_post f1 f' b u -> commit_post f0 f' b u.
  Proof.
    intros f0 f1 f' b u Hc [H|[H|[H [c Hc1]]]]; [left; exact H|right; left; rewrite H; apply Hc|].
    right. right. split; [exact H|]. exists c. rewrite <- Hc. exact Hc1.
  Qed.

  (* what commit_cache_file does to the cache: nothing off the path; at the path one of the three outcomes *)
  Lemma commit_cache : forall e f n body u,
    (forall q, q <> p -> cache (commit_cache_file p e f n body u) q = cache f q) /\
    commit_post f (commit_cache_file p e f n body u) body u.
  Proof.
    intros e f n body u. unfold commit_cache_file.
    assert (Hsame : forall g, cache_eq g f -> (forall q, q <> p -> cache g q = cache f q) /\ commit_post f g body u)
      by (intros g Hg; split; [intros q _; apply Hg|right; left; apply Hg]).
    assert (Hset : forall (h : fs) v q, q <> p -> cache (set_cache h p v) q = cache h q)
      by (intros h v q Hq; cbn [set_cache cache]; destruct (Z.eqb_spec q p); [contradiction|reflexivity]).
    assert (Hat : forall (h : fs) v, cache (set_cache h p v) p = v)
      by (intros h v; cbn [set_cache cache]; rewrite Z.eqb_refl; reflexivity).
    destruct (negb (ends_nl body) && negb (wr_ok e _)); [apply Hsame; intro; reflexivity|].
    destruct (negb (wr_ok e _)); [apply Hsame; intro; reflexivity|].
    destruct (cache f p) as [[c1|]|] eqn:Hp; [destruct (rm_ok e)| |]; try (apply Hsame; intro; reflexivity);
      (destruct (persist_ok e); cbn [rm_tmp cache];
       [split; [intros q Hq; rewrite !Hset by exact Hq; reflexivity|left; apply Hat]|]).
    - (* the old entry was removed and persist failed *)
      split; [intros q Hq; apply Hset; exact Hq|]. right. right. split; [apply Hat|exists c1; exact Hp].
    - split; [reflexivity|right; left; reflexivity].
  Qed.

  (* the response being received: a non-error head, then chunks whose concatenation is [got] *)
  Definition receiving (evs : list event) (got : bytes) : Prop :=
    exists pre code chunks, evs = pre ++ EHead code :: map EChunk chunks /\ code < 400 /\ got = concat chunks.

  Lemma receiving_head : forall evs code, code < 400 -> receiving (evs ++ [EHead code]) [].
  Proof. intros evs code H. exists evs, code, []. auto. Qed.

  Lemma receiving_chunk : forall evs got bs, receiving evs got -> receiving (evs ++ [EChunk bs]) (got ++ bs).
  Proof.
    intros evs got bs [pre [code [chunks [Hev [Hcode Hgot]]]]]. exists pre, code, (chunks ++ [bs]).
    split; [rewrite Hev, map_app, <- app_assoc; reflexivity|]. split; [exact Hcode|].
    rewrite concat_app, Hgot. cbn [concat]. rewrite app_nil_r. reflexivity.
  Qed.

  (* ... and received as a whole: the clean end of the body has been seen *)
  Definition received (evs : list event) (got : bytes) : Prop :=
    exists pre code chunks post,
      evs = pre ++ EHead code :: map EChunk chunks ++ EEof :: post /\ code < 400 /\ got = concat chunks.

  Lemma received_eof : forall evs got, receiving evs got -> received (evs ++ [EEof]) got.
  Proof.
    intros evs got [pre [code [chunks [Hev [Hcode Hgot]]]]]. exists pre, code, chunks, [].
    split; [rewrite Hev, <- app_assoc; reflexivity|auto].
  Qed.

  Lemma received_more : forall evs got e, received evs got -> received (evs ++ [e]) got.
  Proof.
    intros evs got e [pre [code [chunks [post [Hev H]]]]]. exists pre, code, chunks, (post ++ [e]).
    split; [rewrite Hev, <- app_assoc; cbn [app]; rewrite <- app_assoc; reflexivity|exact H].
  Qed.

  (* the requests made so far went to the servers in front of [rest], one each, in order *)
  Definition asked (ss : list server) (log : list Z) (rest : list server) : Prop :=
    exists dn, ss = dn ++ rest /\ log = map s_id dn.

  Lemma asked_next : forall ss log s rest, asked ss log (s :: rest) -> asked ss (log ++ [s_id s]) rest /\ In s ss.
  Proof.
    intros ss log s rest [dn [-> ->]]. split; [|apply in_or_app; right; left; reflexivity].
    exists (dn ++ [s]). rewrite <- app_assoc, map_app. split; reflexivity.
  Qed.

  Definition Inv (f0 : fs) (ss : list server) (evs : list event) (s : st) : Prop :=
    match s_l s with
    | LRun rest cur PSend =>
        cache_eq (s_fs s) f0 /\ tmp (s_fs s) = tmp f0 /\ asked ss (s_log s) rest /\ In cur ss
    | LRun rest cur (PBody tf got) =>
        cache_eq (s_fs s) f0 /\ tmp_inv f0 (s_fs s) tf /\ (asked ss (s_log s) rest /\ In cur ss) /\ receiving evs got
    | LDropped | LDone RNotFound =>
        cache_eq (s_fs s) f0 /\ tmp (s_fs s) = tmp f0 /\ exists rest, asked ss (s_log s) rest
    | LDone RParse => False      (* the network part never answers RParse: only a local hit does (Model.locate) *)
    | LDone (ROk t u) =>
        tmp (s_fs s) = tmp f0 /\ (forall q, q <> p -> cache (s_fs s) q = cache f0 q) /\
        (exists rest, asked ss (s_log s) rest) /\
        exists cur got x,
          received evs got /\ In cur ss /\ parse got = Some (t, x) /\ u = Some (s_url cur) /\
          commit_post f0 (s_fs s) got (s_url cur)
    end.

  Lemma inv_next : forall f0 ss evs f log rest,
    cache_eq f f0 -> tmp f = tmp f0 -> asked ss log rest -> Inv f0 ss evs (next_server f log rest).
  Proof.
    intros f0 ss evs f log rest Hc Ht Ha. unfold Inv, Model.next_server.
    destruct rest as [|s r]; cbn [s_l s_fs s_log]; (split; [exact Hc|]); (split; [exact Ht|]).
    - exists []. exact Ha.
    - apply asked_next. exact Ha.
  Qed.

  Lemma inv_step : forall f0 ss evs s e, Inv f0 ss evs s -> Inv f0 ss (evs ++ [e]) (step s e).
  Proof.
    intros f0 ss evs s e H. unfold Inv in H. unfold Model.step.
    destruct (s_l s) as [rest cur ph|r|] eqn:Hl.
    - destruct ph as [|tf got].
      + (* awaiting the head: every error goes on to the next server *)
        destruct H as [Hc [Ht Ha]].
        assert (Hnext : Inv f0 ss (evs ++ [e]) (next_server (s_fs s) (s_log s) rest))
          by (apply inv_next; [exact Hc|exact Ht|apply Ha]).
        destruct e as [code| |bs| | |]; try exact Hnext; [|split; [exact Hc|split; [exact Ht|exists rest; apply Ha]]].
        destruct (Z.leb_spec 400 code) as [_|Hcode]; [exact Hnext|].
        pose proof (create_tmp_inv p (s_env cur) f0 (s_fs s) Ht) as Hcr.
        pose proof (create_cache_eq p (s_env cur) (s_fs s)) as Hcc.
        destruct (create_cache_file p (s_env cur) (s_fs s)) as [f1 tf]. unfold Inv. cbn [s_l s_fs s_log fst snd] in *.
        split; [intro q; rewrite Hcc; apply Hc|]. split; [exact Hcr|]. split; [exact Ha|apply receiving_head; exact Hcode].
      + (* inside parse_async: every error drops the temp file and goes on *)
        destruct H as [Hc [Ht [Ha Hrcv]]].
        pose proof (tmp_inv_drop f0 (s_fs s) tf Ht) as Hdt.
        assert (Hdc : cache_eq (drop_temp (s_fs s) tf) f0) by (destruct tf; exact Hc).
        assert (Hnext : Inv f0 ss (evs ++ [e]) (next_server (drop_temp (s_fs s) tf) (s_log s) rest))
          by (apply inv_next; [exact Hdc|exact Hdt|apply Ha]).
        destruct e as [code'| |bs| | |]; try exact Hnext.
        * (* chunk: the tee writes, or gives caching up *)
          destruct (early (got ++ bs)); [exact Hnext|].
          pose proof (receiving_chunk evs got bs Hrcv) as Hrcv'.
          unfold tee_write. destruct tf as [n|]; [destruct (wr_ok (s_env cur) _)|];
            unfold Inv; cbn [s_l s_fs s_log]; (split; [exact Hc|]); (split; [|split; [exact Ha|exact Hrcv']]).
          -- split; [exact (proj1 Ht)|]. exists (got ++ bs). apply tmp_inv_write. exact Ht.
          -- exact Hdt.
          -- exact Ht.
        * (* end of body: commit, if the parser accepts *)
          destruct (parse got) as [[t x]|] eqn:Hp; [|exact Hnext].
          unfold Inv; cbn [s_l s_fs s_log].
          assert (Hex : forall f', commit_post f0 f' got (s_url cur) ->
                    (exists rest0, asked ss (s_log s) rest0) /\
                    exists cur0 got0 x0, received (evs ++ [EEof]) got0 /\ In cur0 ss /\ parse got0 = Some (t, x0) /\
                      Some (s_url cur) = Some (s_url cur0) /\ commit_post f0 f' got0 (s_url cur0)).
          { intros f' Hpost. split; [exists rest; apply Ha|]. exists cur, got, x.
            split; [apply received_eof; exact Hrcv|]. split; [apply Ha|auto]. }
          destruct tf as [n|].
          -- destruct (commit_cache (s_env cur) (s_fs s) n got (s_url cur)) as [Hoth Hpost].
             split; [apply commit_tmp; exact Ht|]. split; [intros q Hq; rewrite Hoth by exact Hq; apply Hc|].
             apply Hex. eapply commit_post_eq; [exact Hc|exact Hpost].
          -- split; [exact Ht|]. split; [intros q _; apply Hc|]. apply Hex. right. left. apply Hc.
        * (* drop *)
          split; [exact Hdc|]. split; [exact Hdt|exists rest; apply Ha].
    - (* done: absorbing *)
      unfold Inv. rewrite Hl. destruct r as [t u| |]; try exact H.
      destruct H as [H1 [H2 [H3 [cur [got [x [Hrcv Hrest]]]]]]].
      split; [exact H1|]. split; [exact H2|]. split; [exact H3|].
      exists cur, got, x. split; [apply received_more; exact Hrcv|exact Hrest].
    - unfold Inv. rewrite Hl. exact H.
  Qed.

  Lemma inv_net : forall f0 ss evs, Inv f0 ss evs (run (net_start f0 ss) evs).
  Proof.
    intros f0 ss evs. apply (fold_inv_seen _ _ step (Inv f0 ss)); [apply inv_step|].
    apply inv_next; [intro q; reflexivity|reflexivity|exists []; split; reflexivity].
  Qed.

  Definition finished (s : st) : Prop :=
    match s_l s with LRun _ _ _ => False | _ => True end.
  Definition succeeded (s : st) : Prop :=
    match s_l s with LDone (ROk _ _) => True | _ => False end.

  (* the tmp half of the invariant: what the machine owns in tmp is the file of the handle in its state *)
  Definition TInv (f0 : fs) (s : st) : Prop :=
    match s_l s with
    | LRun _ _ (PBody tf _) => tmp_inv f0 (s_fs s) tf
    | _ => tmp (s_fs s) = tmp f0
    end.

  (* tmp is as before once the lookup has finished, and holds at most the one in-flight file while it runs *)
  Definition no_stray (f0 : fs) (s : st) : Prop :=
    (finished s -> tmp (s_fs s) = tmp f0) /\
    (tmp (s_fs s) = tmp f0 \/ exists c, tmp (s_fs s) = (fresh (tmp f0), c) :: tmp f0).

  Lemma no_stray_of_tinv : forall f0 s, TInv f0 s -> no_stray f0 s.
  Proof.
    intros f0 s H. unfold TInv in H. unfold no_stray, finished.
    destruct (s_l s) as [rest cur [|[n|] got]|r|]; try (split; [intros _; exact H|left; exact H]).
    destruct H as [Hn [c Hc]]. split; [contradiction|]. right. exists c. rewrite Hc, Hn. reflexivity.
  Qed.

  (* Read off Inv here; RaiiProofs.net_no_stray_tmp_own derives the same statement from the ownership semantics, and
     that is the proof C16/Properties.v takes. *)
  Lemma net_no_stray_tmp : forall f0 ss evs,
    let s := run (net_start f0 ss) evs in
    (finished s -> tmp (s_fs s) = tmp f0) /\
    (tmp (s_fs s) = tmp f0 \/ exists c, tmp (s_fs s) = (fresh (tmp f0), c) :: tmp f0).
  Proof.
    intros f0 ss evs. apply no_stray_of_tinv. pose proof (inv_net f0 ss evs) as H. unfold Inv in H. unfold TInv.
    destruct (s_l (run (net_start f0 ss) evs)) as [rest cur [|tf got]|[t u| |]|]; try apply H. contradiction.
  Qed.

  Lemma net_failed_cache_unchanged : forall f0 ss evs,
    let s := run (net_start f0 ss) evs in
    ~ succeeded s -> forall q, cache (s_fs s) q = cache f0 q.
  Proof.
    intros f0 ss evs s Hns. pose proof (inv_net f0 ss evs) as H. fold s in H.
    unfold Inv in H. unfold succeeded in Hns.
    destruct (s_l s) as [rest cur [|tf got]|[t u| |]|]; try apply H; contradiction.
  Qed.

  Lemma net_commit_only_after_ok : forall f0 ss evs q c,
    let s := run (net_start f0 ss) evs in
    cache (s_fs s) q = Some (File c) -> cache f0 q <> Some (File c) ->
    q = p /\
    exists pre cur code chunks post t x,
      evs = pre ++ EHead code :: map EChunk chunks ++ EEof :: post /\ In cur ss /\ code < 400 /\
      parse (concat chunks) = Some (t, x) /\
      s_l s = LDone (ROk t (Some (s_url cur))) /\
      c = cached_form (concat chunks) (s_url cur).
  Proof.
    intros f0 ss evs q c s Hq Hne. pose proof (inv_net f0 ss evs) as H. fold s in H. unfold Inv in H.
    destruct (s_l s) as [rest cur [|tf got]|[t u| |]|];
      try solve [exfalso; apply Hne; rewrite <- Hq; symmetry; apply H]; [|contradiction].
    destruct H as [_ [Hoth [_ [cur [got [x [[pre [code [chunks [post [Hev [Hcode ->]]]]]] [Hin [Hp [-> Hcp]]]]]]]]]].
    destruct (Z.eq_dec q p) as [->|Hqp]; [|exfalso; apply Hne; rewrite <- Hq; symmetry; apply Hoth; exact Hqp].
    split; [reflexivity|]. exists pre, cur, code, chunks, post, t, x.
    split; [exact Hev|]. split; [exact Hin|]. split; [exact Hcode|]. split; [exact Hp|]. split; [reflexivity|].
    destruct Hcp as [H1|[H1|[H1 _]]]; rewrite H1 in Hq; [inversion Hq; reflexivity|contradiction|discriminate].
  Qed.

  Lemma run_done : forall evs f log r, run (mkst f log (LDone r)) evs = mkst f log (LDone r).
  Proof. induction evs as [|e evs IH]; intros; [reflexivity|]. cbn [Model.run fold_left]. apply IH. Qed.

  Lemma locate_local_hit : forall f locals race ss evs c,
    first_file (locals ++ [cache_file f p]) = Some c ->
    let s := locate f locals race ss evs in
    s_fs s = f /\ s_log s = [] /\
    s_l s = LDone (match parse c with Some (t, u) => ROk t u | None => RParse end).
  Proof.
    intros f locals race ss evs c Hc. unfold Model.locate. rewrite Hc.
    destruct (parse c) as [[t u]|]; cbn [s_fs s_log s_l]; auto.
  Qed.

  Lemma first_file_snoc : forall l x,
    first_file (l ++ [x]) = match first_file l with Some c => Some c | None => x end.
  Proof. induction l as [|[a|] l IH]; intros x; cbn [app first_file]; [destruct x; reflexivity|reflexivity|apply IH]. Qed.

  Lemma first_file_app_some : forall l x c, first_file l = Some c -> first_file (l ++ [x]) = Some c.
  Proof. intros l x c H. rewrite first_file_snoc, H. reflexivity. Qed.

  (* the parser contract the cache-hit theorem needs: terminating the last line (if it is unterminated) and appending
     an INFO URL record changes nothing but the url — for the URLs of the servers that are asked *)
  Definition trailer_contract_on (ss : list server) : Prop :=
    forall b t x cur, In cur ss -> parse b = Some (t, x) ->
      parse (cached_form b (s_url cur)) = Some (t, Some (s_url cur)).

  Lemma rehit_same_on : forall f0 locals ss evs t u ss2 evs2,
    trailer_contract_on ss ->
    let s1 := locate f0 locals None ss evs in
    s_l s1 = LDone (ROk t u) ->
    (exists c, cache (s_fs s1) p = Some (File c)) ->
    let s2 := locate (s_fs s1) locals None ss2 evs2 in
    s_l s2 = LDone (ROk t u) /\ s_log s2 = [] /\ s_fs s2 = s_fs s1.
  Proof.
    intros f0 locals ss evs t u ss2 evs2 Hct s1 Hr [c Hc] s2.
    destruct (first_file (locals ++ [cache_file f0 p])) as [c0|] eqn:Hff.
    - (* the first lookup was a local / cache hit *)
      destruct (locate_local_hit f0 locals None ss evs c0 Hff) as [Hf [_ Hl]]. fold s1 in Hf, Hl.
      assert (Hff2 : first_file (locals ++ [cache_file (s_fs s1) p]) = Some c0) by (rewrite Hf; exact Hff).
      destruct (locate_local_hit (s_fs s1) locals None ss2 evs2 c0 Hff2) as [Hf2 [Hlog2 Hl2]]. fold s2 in Hf2, Hlog2, Hl2.
      rewrite Hl2, <- Hl, Hr. auto.
    - (* it went to the network *)
      pose proof Hff as Hcf. rewrite first_file_snoc in Hcf. destruct (first_file locals) eqn:Hloc; [discriminate|].
      assert (Hs1 : s1 = run (net_start f0 ss) evs).
      { unfold s1, Model.locate. rewrite Hff. destruct ss; reflexivity. }
      rewrite Hs1 in Hr, Hc.
      destruct (net_commit_only_after_ok f0 ss evs p c Hc) as [_ [pre [cur [code [chunks [post [t' [x [_ [Hin [_ [Hp [Hl' Hcont]]]]]]]]]]]]].
      { intro Hx. unfold cache_file in Hcf. rewrite Hx in Hcf. discriminate. }
      rewrite Hr in Hl'. inversion Hl'; subst t' u.
      assert (Hff2 : first_file (locals ++ [cache_file (s_fs s1) p]) = Some c).
      { rewrite first_file_snoc, Hloc. unfold cache_file. rewrite Hs1, Hc. reflexivity. }
      destruct (locate_local_hit (s_fs s1) locals None ss2 evs2 c Hff2) as [Hf2 [Hlog2 Hl2]]. fold s2 in Hf2, Hlog2, Hl2.
      rewrite Hl2, Hcont, (Hct _ _ _ cur Hin Hp). auto.
  Qed.

  (* a lookup without interference from another process is a local hit, which touches nothing, or the network run *)
  Lemma locate_split : forall f locals ss evs,
    s_fs (locate f locals None ss evs) = f \/ locate f locals None ss evs = run (net_start f ss) evs.
  Proof.
    intros f locals ss evs. unfold Model.locate. destruct (first_file (locals ++ [cache_file f p])) as [c|].
    - left. destruct (parse c) as [[t u]|]; reflexivity.
    - right. reflexivity.
  Qed.

  Lemma locate_no_stray : forall f locals ss evs,
    no_stray f (run (net_start f ss) evs) -> no_stray f (locate f locals None ss evs).
  Proof.
    intros f locals ss evs H. destruct (locate_split f locals ss evs) as [Hf|Hn]; [|rewrite Hn; exact H].
    unfold no_stray. rewrite Hf. split; [reflexivity|left; reflexivity].
  Qed.

  Lemma locate_no_stray_tmp : forall f locals ss evs,
    let s := locate f locals None ss evs in
    (finished s -> tmp (s_fs s) = tmp f) /\
    (tmp (s_fs s) = tmp f \/ exists c, tmp (s_fs s) = (fresh (tmp f), c) :: tmp f).
  Proof. intros f locals ss evs. apply locate_no_stray, net_no_stray_tmp. Qed.

  Lemma net_requests_prefix : forall f ss evs,
    let s := run (net_start f ss) evs in
    exists dn rest, ss = dn ++ rest /\ s_log s = map s_id dn.
  Proof.
    intros f ss evs s. pose proof (inv_net f ss evs) as H. fold s in H. unfold Inv in H.
    assert (Ha : exists rest, asked ss (s_log s) rest)
      by (destruct (s_l s) as [rest cur [|tf got]|[t u| |]|]; [exists rest; apply H|exists rest; apply H|apply H|apply H|contradiction|apply H]).
    destruct Ha as [rest [dn Ha]]. exists dn, rest. exact Ha.
  Qed.
End Inv.
