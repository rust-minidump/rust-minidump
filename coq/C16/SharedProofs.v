(* C16/SharedProofs.v — invariant of the shared-cache machine for every schedule (any number of
   clients, any interleaving of their network events and file-system operations), and what one
   step of one client can do to the cache path. *)
From RM Require Import C16.Model C16.Proofs C16.Shared.
Open Scope Z_scope.

Lemma tmp_set_same : forall f i v, m_tmp (set_mtmp f i v) i = v.
Proof. intros. cbn. rewrite Z.eqb_refl. reflexivity. Qed.
Lemma tmp_set_other : forall f i j v, j <> i -> m_tmp (set_mtmp f i v) j = m_tmp f j.
Proof. intros. cbn. destruct (Z.eqb_spec j i); [contradiction|reflexivity]. Qed.

Lemma exec_op_frame : forall e i body u f o j, j <> i -> m_tmp (fst (exec_op e i body u f o)) j = m_tmp f j.
Proof.
  intros e i body u f o j Hj. assert (E : (j =? i) = false) by (apply Z.eqb_neq; exact Hj).
  destruct o; cbn [exec_op].
  - destruct (mk_ok e); reflexivity.
  - destruct (m_cache f) as [[c|]|]; [destruct (rm_ok e)| |]; reflexivity.
  - destruct (create_ok e); cbn; rewrite ?E; reflexivity.
  - destruct (m_tmp f i); [destruct (ends_nl body); [|destruct (wr_ok e _)]|]; cbn; rewrite ?E; reflexivity.
  - destruct (m_tmp f i); [destruct (wr_ok e _)|]; cbn; rewrite ?E; reflexivity.
  - destruct (m_tmp f i); [destruct (m_cache f); [|destruct (persist_ok e)]|]; cbn; rewrite ?E; reflexivity.
Qed.

Lemma exec_op_create : forall e i body u f o, create_allowed o = true ->
  m_cache (fst (exec_op e i body u f o)) = m_cache f /\
  (forall b, m_tmp (fst (exec_op e i body u f o)) i = Some b -> b = [] \/ m_tmp f i = Some b).
Proof.
  intros e i body u f o Ha. destruct o; try discriminate Ha; cbn [exec_op].
  - destruct (mk_ok e); cbn; auto.
  - destruct (create_ok e); [|cbn; auto]. cbn [fst]. split; [reflexivity|].
    intros b. rewrite tmp_set_same. intros E. inversion E. auto.
Qed.

Section SharedInv.
  Variable T : Type.
  Variable parse : bytes -> option (T * option bytes).
  Variable create_ops : list fsop.
  Variable commit_ops : list fsop.
  (* what the theorems need of the two programs (checked by computation on the generated lists) *)
  Hypothesis Hcreate : forallb create_allowed create_ops = true.
  Hypothesis Hcommit : commit_ops = std_commit.
  Variable c0 : option node.      (* what was at the cache path before any client started *)

  Let client := client T.
  Let mstate := mstate T.
  Let step_client := step_client T parse create_ops commit_ops.
  Let mstep := mstep T parse create_ops commit_ops.
  Let mrun := mrun T parse create_ops commit_ops.

  (* a complete entry: the file that was there at the beginning, or the committed form of a body
     that the parser accepted as a whole *)
  Definition Good (c : bytes) : Prop :=
    c0 = Some (File c) \/ exists body u t x, parse body = Some (t, x) /\ c = cached_form body u.

  Definition cache_good (f : mfs) : Prop :=
    match m_cache f with Some (File c) => Good c | Some Dir => c0 = Some Dir | None => True end.

  (* where a client inside commit_cache_file stands: the operations still to run, and what its temp file holds *)
  Definition commit_pos (ops : list fsop) (body u : bytes) (tm : option bytes) : Prop :=
    (ops = std_commit /\ tm = Some body) \/
    (ops = [OWriteNote; ORemoveIfExists; OPersist] /\ tm = Some (body ++ sep body)) \/
    (ops = [ORemoveIfExists; OPersist] /\ tm = Some (cached_form body u)) \/
    (ops = [OPersist] /\ tm = Some (cached_form body u)) \/
    (ops = [] /\ tm = None).

  Definition client_ok (i : Z) (f : mfs) (c : client) : Prop :=
    match c_ph c with
    | CIdle | CSend | CDone _ | CDropped => m_tmp f i = None
    | CCreate ops => forallb create_allowed ops = true /\ (forall b, m_tmp f i = Some b -> b = [])
    | CBody got => forall b, m_tmp f i = Some b -> b = got
    | CCommit ops body t => (exists x, parse body = Some (t, x)) /\ commit_pos ops body (url_of T c) (m_tmp f i)
    end.

  Definition Inv (s : mstate) : Prop :=
    cache_good (ms_fs s) /\ forall i, client_ok i (ms_fs s) (ms_cl s i).

  (* one operation of commit_cache_file, run at its position: the next position is reached, or the operation fails;
     the entry is unchanged, removed, or becomes the committed form *)
  Lemma exec_op_commit : forall e i body u f o r, commit_pos (o :: r) body u (m_tmp f i) ->
    (snd (exec_op e i body u f o) = true -> commit_pos r body u (m_tmp (fst (exec_op e i body u f o)) i)) /\
    (m_cache (fst (exec_op e i body u f o)) = m_cache f \/
     m_cache (fst (exec_op e i body u f o)) = None \/
     m_cache (fst (exec_op e i body u f o)) = Some (File (cached_form body u))).
  Proof.
    intros e i body u f o r [[E Et]|[[E Et]|[[E Et]|[[E Et]|[E _]]]]]; inversion E; subst o r; clear E;
      cbn [exec_op]; try rewrite Et.
    - (* OWriteSep *)
      assert (Hnext : forall c, c = body ++ sep body -> commit_pos [OWriteNote; ORemoveIfExists; OPersist] body u (Some c))
        by (intros c ->; right; left; split; reflexivity).
      unfold sep in Hnext. destruct (ends_nl body).
      + split; [|left; reflexivity]. intros _. cbn [fst]. rewrite Et. apply Hnext. symmetry. apply app_nil_r.
      + destruct (wr_ok e _); (split; [|left; reflexivity]); [|discriminate].
        intros _. cbn [fst]. rewrite tmp_set_same. apply Hnext. reflexivity.
    - (* OWriteNote *)
      destruct (wr_ok e _); (split; [|left; reflexivity]); [|discriminate].
      intros _. right. right. left. split; [reflexivity|]. cbn [fst]. rewrite tmp_set_same. unfold cached_form.
      rewrite <- app_assoc. reflexivity.
    - (* ORemoveIfExists: the temp file is not touched *)
      assert (Hnext : commit_pos [OPersist] body u (m_tmp f i)) by (right; right; right; left; split; [reflexivity|exact Et]).
      destruct (m_cache f) as [[c|]|] eqn:Ec; [destruct (rm_ok e)| |]; cbn [fst snd].
      + split; [intros _; exact Hnext|right; left; reflexivity].
      + split; [discriminate|left; exact Ec].
      + split; [discriminate|left; exact Ec].
      + split; [intros _; exact Hnext|left; exact Ec].
    - (* OPersist *)
      destruct (m_cache f) eqn:Ec; [split; [discriminate|left; exact Ec]|].
      destruct (persist_ok e); [|split; [discriminate|left; exact Ec]].
      split; [|right; right; reflexivity]. intros _. right. right. right. right. split; [reflexivity|apply tmp_set_same].
  Qed.

  Lemma client_ok_fail_over : forall i f (c : client), m_tmp f i = None -> client_ok i f (fail_over T c).
  Proof.
    intros i f [[|a [|b r]] ph] H; exact H.
  Qed.

  (* client c, inside commit_cache_file, makes the entry [v]: it removes an older one, or persists the committed form
     of the body it received *)
  Definition commits (c : client) (v : option node) : Prop :=
    exists ops body t x, c_ph c = CCommit ops body t /\ parse body = Some (t, x) /\
      (v = None \/ v = Some (File (cached_form body (url_of T c)))).

  (* What a step of client i does: its own temp file stays as its phase says, the temp files of the others stay, and the
     entry changes only by a commit of this client. *)
  Definition step_post (i : Z) (f : mfs) (c : client) (r : mfs * client) : Prop :=
    client_ok i (fst r) (snd r) /\
    (forall j, j <> i -> m_tmp (fst r) j = m_tmp f j) /\
    (m_cache (fst r) = m_cache f \/ commits c (m_cache (fst r))).

  Lemma post_same : forall i f (c c1 : client), client_ok i f c1 -> step_post i f c (f, c1).
  Proof. intros i f c c1 H. split; [exact H|]. split; [reflexivity|left; reflexivity]. Qed.

  Lemma post_tmp : forall i f (c c1 : client) v, client_ok i (set_mtmp f i v) c1 -> step_post i f c (set_mtmp f i v, c1).
  Proof.
    intros i f c c1 v H. split; [exact H|]. split; [|left; reflexivity].
    intros j Hj. apply tmp_set_other. exact Hj.
  Qed.

  Lemma step_client_inv : forall i f (c : client) a, client_ok i f c -> step_post i f c (step_client i f c a).
  Proof.
    intros i f [srv ph] a Hc. unfold client_ok in Hc. cbn [c_ph] in Hc.
    unfold step_client, Shared.step_client. cbn [c_ph].
    assert (Hdrop : forall c1 : client, client_ok i (set_mtmp f i None) (fail_over T c1))
      by (intros c1; apply client_ok_fail_over, tmp_set_same).
    destruct ph as [| |ops|got|ops body t|r|].
    - (* CIdle *)
      destruct a; try (apply post_same; exact Hc).
      destruct (m_cache f) as [[b|]|]; apply post_same; try exact Hc; destruct srv; exact Hc.
    - (* CSend: only a head < 400 starts create_cache_file; a drop and the actions the phase ignores keep [Hc]; every other
         event fails over, which needs no temp file either *)
      destruct a as [|[code| |bs| | |]|]; try (apply post_same; first [exact Hc|apply client_ok_fail_over; exact Hc]).
      destruct (400 <=? code); apply post_same; [apply client_ok_fail_over; exact Hc|].
      split; [exact Hcreate|]. intros b Hb. cbn [c_ph] in Hb. rewrite Hc in Hb. discriminate.
    - (* CCreate *)
      destruct Hc as [Hall Hemp].
      destruct a as [|ev|]; try (destruct ops; apply post_same; split; assumption).
      destruct ops as [|o r]; [apply post_same; exact Hemp|].
      cbn [forallb] in Hall. apply andb_prop in Hall. destruct Hall as [Ho Hr].
      set (c := {| c_srv := srv; c_ph := CCreate (o :: r) |}).
      destruct (exec_op_create (env_of T c) i [] (url_of T c) f o Ho) as [Hcache Htmp].
      pose proof (exec_op_frame (env_of T c) i [] (url_of T c) f o) as Hfr.
      destruct (exec_op (env_of T c) i [] (url_of T c) f o) as [f1 ok]. cbn [fst] in Hcache, Htmp, Hfr.
      destruct ok; cbn [fst snd]; (split; [|split; [|left; exact Hcache]]).
      + split; [exact Hr|]. intros b Hb. destruct (Htmp b Hb) as [E|E]; [exact E|apply Hemp; exact E].
      + exact Hfr.
      + intros b Hb. cbn [fst] in Hb. rewrite tmp_set_same in Hb. discriminate.
      + intros j Hj. cbn [fst]. rewrite tmp_set_other by exact Hj. apply Hfr. exact Hj.
    - (* CBody: chunk and end of body below; the ignored actions keep [Hc]; every other event empties the temp slot [Hdrop] *)
      destruct a as [|[code| |bs| | |]|]; try (apply post_same; exact Hc); try (apply post_tmp; apply Hdrop).
      + (* chunk: the tee writes, or gives up *)
        destruct (m_tmp f i) as [b|] eqn:Et.
        * destruct (wr_ok _ _); apply post_tmp; intros b' Hb'; cbn [fst] in Hb'; rewrite tmp_set_same in Hb'; inversion Hb'; reflexivity.
        * apply post_same. intros b' Hb'. cbn [c_ph] in Hb'. rewrite Et in Hb'. discriminate.
      + (* end of body *)
        destruct (parse got) as [[t x]|] eqn:Ep; [|apply post_tmp; apply Hdrop].
        destruct (m_tmp f i) as [b|] eqn:Et; apply post_same; [|exact Et].
        split; [exists x; exact Ep|]. left. split; [exact Hcommit|]. rewrite ?Et. f_equal. apply Hc. reflexivity.
      + apply post_tmp. apply tmp_set_same.
    - (* CCommit *)
      destruct Hc as [[x Hp] Hpos].
      destruct a as [|ev|]; try (destruct ops; apply post_same; exact (conj (ex_intro _ x Hp) Hpos)).
      destruct ops as [|o r]; [apply post_tmp; apply tmp_set_same|].
      set (c := {| c_srv := srv; c_ph := CCommit (o :: r) body t |}) in *.
      change (url_of T {| c_srv := srv; c_ph := CCommit (o :: r) body t |}) with (url_of T c) in Hpos.
      destruct (exec_op_commit (env_of T c) i body (url_of T c) f o r Hpos) as [Hnext Hcache].
      pose proof (exec_op_frame (env_of T c) i body (url_of T c) f o) as Hfr.
      destruct (exec_op (env_of T c) i body (url_of T c) f o) as [f1 ok]. cbn [fst snd] in Hnext, Hcache, Hfr.
      assert (Hch : m_cache f1 = m_cache f \/ commits c (m_cache f1)).
      { destruct Hcache as [E|E]; [left; exact E|]. right. exists (o :: r), body, t, x. auto. }
      destruct ok; cbn [fst snd]; (split; [|split; [|exact Hch]]).
      + split; [exists x; exact Hp|apply Hnext; reflexivity].
      + exact Hfr.
      + apply tmp_set_same.
      + intros j Hj. cbn [fst]. rewrite tmp_set_other by exact Hj. apply Hfr. exact Hj.
    - (* CDone *)
      destruct a as [|[]|]; apply post_same; exact Hc.
    - (* CDropped *)
      destruct a as [|[]|]; apply post_same; exact Hc.
  Qed.

  Lemma mstep_inv : forall s x, Inv s -> Inv (mstep s x).
  Proof.
    intros s [i a] [Hg Hc]. unfold mstep, Shared.mstep.
    pose proof (step_client_inv i (ms_fs s) (ms_cl s i) a (Hc i)) as [Hc1 [Hfr Hch]].
    fold step_client. destruct (step_client i (ms_fs s) (ms_cl s i) a) as [f1 c1]. cbn [fst snd ms_fs ms_cl] in *.
    split.
    - unfold cache_good in *. cbn [ms_fs]. destruct Hch as [E|[ops [body [t [x [_ [Hp [E|E]]]]]]]]; rewrite E; [exact Hg|exact I|].
      right. exists body, (url_of T (ms_cl s i)), t, x. split; [exact Hp|reflexivity].
    - intros j. cbn [ms_fs ms_cl]. destruct (Z.eqb_spec j i) as [->|Hne]; [exact Hc1|].
      specialize (Hc j). unfold client_ok in *. rewrite (Hfr j Hne). exact Hc.
  Qed.

  Lemma reach_inv : forall f srv sched, m_cache f = c0 -> (forall i, m_tmp f i = None) -> Inv (mrun (minit T f srv) sched).
  Proof.
    intros f srv sched Hc Ht. apply (fold_inv _ _ mstep Inv); [exact mstep_inv|]. split; [|intros i; apply Ht].
    unfold cache_good, Good. cbn [minit ms_fs]. rewrite Hc. destruct c0 as [[c|]|]; [left; reflexivity|reflexivity|exact I].
  Qed.

  Lemma mstep_cache : forall s i a, Inv s ->
    m_cache (ms_fs (mstep s (i, a))) = m_cache (ms_fs s) \/ commits (ms_cl s i) (m_cache (ms_fs (mstep s (i, a)))).
  Proof.
    intros s i a [_ Hcl].
    pose proof (step_client_inv i (ms_fs s) (ms_cl s i) a (Hcl i)) as [_ [_ Hch]].
    unfold mstep, Shared.mstep. fold step_client.
    destruct (step_client i (ms_fs s) (ms_cl s i) a) as [f1 c1]. exact Hch.
  Qed.

  Lemma quiet_cache : forall sched s, Inv s -> quiet T parse create_ops commit_ops s sched ->
    m_cache (ms_fs (mrun s sched)) = m_cache (ms_fs s).
  Proof.
    induction sched as [|[i a] r IH]; intros s Hi Hq; [reflexivity|]. destruct Hq as [Hn Hq]. cbn [fst] in Hn.
    change (mrun s ((i, a) :: r)) with (mrun (mstep s (i, a)) r).
    rewrite (IH _ (mstep_inv s (i, a) Hi) Hq).
    destruct (mstep_cache s i a Hi) as [E|[ops [body [t [x [Eph _]]]]]]; [exact E|].
    rewrite Eph in Hn. discriminate.
  Qed.
End SharedInv.
