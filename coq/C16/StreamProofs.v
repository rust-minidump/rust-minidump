(* C16/StreamProofs.v — fetch_symbol_file over the streaming parser (C16/Stream.v): a cache entry is made only
   from the whole body, for every chunking; no temp file survives any exit edge.
   Read after C16/StreamRaiiProofs.v: the facts about the tee (tee_name, tee_at, res_at, tee_step_at, res_at_name, tee0_name)
   stand at its head, and the two lemmas here about a dropped / suspended download are instances of its loop invariant. *)
From Coq Require Import ZArith List Bool.
From RM Require Import Base.Word C09.Model C10.Model C10.Stream C10.ProofsStream C16.Model C16.Proofs C16.Stream C16.StreamRaii C16.StreamRaiiProofs.
Import ListNotations.
Open Scope Z_scope.

Section StreamFetchProofs.
  Variable L : Type.
  Variable llen : L -> Z.
  Variable PS : Type.
  Variable init_ps : PS.
  Variable recog : PS -> L -> PS + Z.
  Variable bump : PS -> PS.
  Variable lineno : PS -> Z.
  Variable T : Type.
  Variable finish : PS -> option T.
  Variable split : bytes -> list L * Z.
  Variable p : path.
  Hypothesis llen_pos : forall l, 1 <= llen l.

  Notation sres := (@sres L PS).
  Notation step_stream := (step_stream L llen PS recog bump lineno).
  Notation iter_stream := (iter_stream L llen PS recog bump lineno).
  Notation iter_fetch := (iter_fetch L llen PS recog bump lineno).
  Notation steps_fetch := (steps_fetch L llen PS recog bump lineno).
  Notation tee_step := (tee_step L llen PS bump).
  Notation stream_fetch := (stream_fetch L llen PS init_ps recog bump lineno T finish split p).
  Notation stream_fetch_dropped := (stream_fetch_dropped L llen PS init_ps recog bump lineno split p).
  Notation stream_fetch_inflight := (stream_fetch_inflight L llen PS init_ps recog bump lineno split p).
  Notation drive_stream := (drive_stream L llen PS init_ps recog bump lineno).
  Notation res_at := (res_at L PS).

  (* the tee never changes the loop *)
  Lemma iter_fetch_fst : forall e q x w, fst (iter_fetch e q x w) = iter_stream q x.
  Proof.
    intros e. induction q as [q IH|q IH|]; intros x w; cbn [Stream.iter_fetch Stream.iter_stream].
    - destruct (step_stream x) as [x1|r x1|t] eqn:S; cbn [fst]; try reflexivity.
      pose proof (IH x1 (tee_step e x (SNext x1) w)) as H1.
      destruct (iter_fetch e q x1 (tee_step e x (SNext x1) w)) as [r1 w1]. cbn [fst] in H1. rewrite <- H1.
      destruct r1 as [x2|r2 x2|t2]; cbn [fst]; try reflexivity. apply IH.
    - pose proof (IH x w) as H1. destruct (iter_fetch e q x w) as [r1 w1]. cbn [fst] in H1. rewrite <- H1.
      destruct r1 as [x2|r2 x2|t2]; cbn [fst]; try reflexivity. apply IH.
    - reflexivity.
  Qed.

  (* a property of the tee that every iteration establishes holds when the loop returns *)
  Lemma iter_fetch_inv : forall e (P : tee -> Prop) (R : sres -> tee -> Prop),
    (forall x w, P w -> R (step_stream x) (tee_step e x (step_stream x) w)) -> (forall r w, R r w -> P w) ->
    forall q x w, P w -> R (fst (iter_fetch e q x w)) (snd (iter_fetch e q x w)).
  Proof.
    intros e P R Hstep Hback. induction q as [q IH|q IH|]; intros x w H; cbn [Stream.iter_fetch].
    - pose proof (Hstep x w H) as H0.
      destruct (step_stream x) as [x1|r x1|t] eqn:S; cbn [fst snd]; try exact H0.
      pose proof (IH x1 _ (Hback _ _ H0)) as H1.
      destruct (iter_fetch e q x1 (tee_step e x (SNext x1) w)) as [r1 w1]. cbn [fst snd] in H1.
      destruct r1 as [x2|r2 x2|t2]; cbn [fst snd]; try exact H1.
      apply IH. eapply Hback. exact H1.
    - pose proof (IH x w H) as H1. destruct (iter_fetch e q x w) as [r1 w1]. cbn [fst snd] in H1.
      destruct r1 as [x2|r2 x2|t2]; cbn [fst snd]; try exact H1.
      apply IH. eapply Hback. exact H1.
    - apply Hstep. exact H.
  Qed.

  Lemma take_all : forall (b : bytes), take (Z.of_nat (length b)) b = b.
  Proof. intros b. unfold take. rewrite Nat2Z.id. apply firstn_all. Qed.

  Definition writes_ok (e : env) : Prop := forall n, wr_ok e n = true.

  Definition tee_open (w : tee) : Prop := match w with TOpen _ _ => True | TNone => False end.

  Lemma tee_to_open : forall e c w, writes_ok e -> tee_open w -> tee_open (tee_to e c w).
  Proof.
    intros e c [n len|] He H; cbn [tee_to tee_open] in *; [|exact H].
    destruct (c =? len); [exact I|]. rewrite He. exact I.
  Qed.

  Lemma tee_step_open : forall e x r w, writes_ok e -> tee_open w -> tee_open (tee_step e x r w).
  Proof.
    intros e x r w He H. unfold Stream.tee_step.
    assert (H1 : tee_open (if pr (core x) then tee_to e (cbsum (recovery L llen PS bump (core x))) w else w)).
    { destruct (pr (core x)); [apply tee_to_open; assumption|exact H]. }
    destruct r; try (apply tee_to_open; assumption). exact H1.
  Qed.

  (* The loop inside stream_fetch, for a script that delivers the whole input: it returns (never out of fuel, never a panic)
     what drive_stream returns, the temp file holds exactly what the callback has been given, an Ok comes only after the
     callback has been given everything, and a tee whose writes succeed stays open.
     C10's stream_total speaks of iter_stream; iter_fetch_fst carries it over to iter_fetch, and iter_fetch_inv is used twice
     for the tee: with tee_name / res_at (what the file holds) and with tee_open. *)
  Lemma fetch_loop : forall e tf lines tail script, delivered script = input_len L llen lines tail ->
    exists r0 x0 w,
      iter_fetch e (fuel_for L llen lines tail) (init_stream L llen PS init_ps lines tail script) (tee0 tf) = (SDone r0 x0, w) /\
      drive_stream lines tail script = Ret (r0, x0) /\ tee_at tf (cbsum (core x0)) w /\
      (forall ps, r0 = C09.Model.ROk ps -> cbsum (core x0) = input_len L llen lines tail) /\
      (writes_ok e -> tee_open (tee0 tf) -> tee_open w).
  Proof.
    intros e tf lines tail script Hd.
    destruct (stream_total L llen PS init_ps recog bump lineno llen_pos lines tail script Hd) as [r0 [x0 [Hdrv [_ [_ Hok]]]]].
    set (q := fuel_for L llen lines tail) in *. set (x := init_stream L llen PS init_ps lines tail script) in *.
    pose proof (iter_fetch_fst e q x (tee0 tf)) as Hf.
    pose proof (iter_fetch_inv e (tee_name tf) (res_at tf) (fun y w0 => tee_step_at L llen PS bump e y _ w0 tf)
                  (res_at_name L PS tf) q x (tee0 tf) (tee0_name tf)) as Hat.
    assert (Hop : writes_ok e -> tee_open (tee0 tf) -> tee_open (snd (iter_fetch e q x (tee0 tf))))
      by (intro He; apply (iter_fetch_inv e tee_open (fun _ => tee_open)); [intros y w0; apply tee_step_open; exact He|trivial]).
    unfold Stream.drive_stream in Hdrv. fold q x in Hdrv. rewrite <- Hf in Hdrv.
    destruct (iter_fetch e q x (tee0 tf)) as [[x1|r1 x1|t1] w]; try discriminate. inversion Hdrv; subst r1 x1.
    exists r0, x0, w. split; [reflexivity|]. split; [unfold Stream.drive_stream; fold q x; rewrite <- Hf; reflexivity|].
    split; [exact Hat|]. split; [exact Hok|exact Hop].
  Qed.

  (* [b] is the byte string the body delivers; [split] decomposes it faithfully *)
  Definition split_ok (b : bytes) : Prop :=
    input_len L llen (fst (split b)) (snd (split b)) = Z.of_nat (length b).

  Definition unchanged (f f' : fs) : Prop := cache_eq f' f /\ tmp f' = tmp f.

  (* Everything the property says about ONE download through the streaming parser, for every body script. *)
  Lemma stream_fetch_cases : forall e u f b script,
    split_ok b -> delivered script = Z.of_nat (length b) ->
    let f' := fst (stream_fetch e u f b script) in
    tmp f' = tmp f /\ (forall q, q <> p -> cache f' q = cache f q) /\
    match snd (stream_fetch e u f b script) with
    | FOk t =>
        fails script = false /\
        (exists ps x, drive_stream (fst (split b)) (snd (split b)) script = Ret (C09.Model.ROk ps, x) /\
                      finish ps = Some t /\ cbsum (core x) = Z.of_nat (length b)) /\
        commit_post p f f' b u
    | FErr c =>
        cache_eq f' f /\
        exists ln x, drive_stream (fst (split b)) (snd (split b)) script = Ret (C09.Model.RErr c ln, x)
    | FPanic => cache_eq f' f
    | FFuel => False
    end.
  Proof.
    intros e u f b script Hs Hd. unfold Stream.stream_fetch.
    pose proof (create_cache_eq p e f) as Hc. pose proof (create_tmp_inv p e f f eq_refl) as Ht.
    destruct (create_cache_file p e f) as [f1 tf]. cbn [fst snd] in Hc, Ht.
    unfold split_ok in Hs. destruct (split b) as [lines tail]. cbn [fst snd] in *.
    rewrite <- Hs in Hd.
    destruct (fetch_loop e tf lines tail script Hd) as [r0 [x0 [w [-> [Hdr [Hat [Hok _]]]]]]].
    destruct (dropped_unchanged f f1 tf Hc Ht) as [Hgc Hgt].
    assert (Hgone : tmp (drop_temp f1 tf) = tmp f /\ (forall q, q <> p -> cache (drop_temp f1 tf) q = cache f q))
      by (split; [exact Hgt|intros q _; apply Hgc]).
    destruct r0 as [ps|c ln]; cbn [fst snd].
    - destruct (finish ps) as [t|] eqn:Hfin; cbn [fst snd]; [|split; [apply Hgone|split; [apply Hgone|exact Hgc]]].
      assert (Hfl : fails script = false).
      { destruct (fails script) eqn:Hfl; [|reflexivity]. exfalso.
        exact (stream_fail_not_ok L llen PS init_ps recog bump lineno llen_pos lines tail script Hd Hfl _ x0 Hdr ps eq_refl). }
      pose proof (Hok ps eq_refl) as Hcb.
      assert (Hwhole : exists ps0 x, drive_stream lines tail script = Ret (C09.Model.ROk ps0, x) /\
                         finish ps0 = Some t /\ cbsum (core x) = Z.of_nat (length b))
        by (exists ps, x0; rewrite Hcb; auto).
      destruct w as [n len|]; cbn [fst snd].
      + (* the temp file holds the whole body: commit *)
        destruct Hat as [-> Hlen]. rewrite Hlen, Hcb, Hs, take_all.
        destruct (written_inv f f1 n b Hc Ht) as [Hwc Hwt].
        destruct (commit_cache p e (write_tmp f1 n b) n b u) as [H2 H3].
        split; [apply (commit_tmp p e f); exact Hwt|]. split; [intros q Hq; rewrite H2 by exact Hq; apply Hwc|].
        split; [exact Hfl|]. split; [exact Hwhole|]. eapply commit_post_eq; [exact Hwc|exact H3].
      + split; [apply Hgone|]. split; [apply Hgone|]. split; [exact Hfl|]. split; [exact Hwhole|]. right. left. apply Hgc.
    - split; [apply Hgone|]. split; [apply Hgone|]. split; [exact Hgc|]. exists ln, x0. exact Hdr.
  Qed.

  (* the verdict does not depend on the chunking: it is the schedule-free [spec] of the whole body *)
  Definition verdict (lines : list L) (tail : Z) : fres T :=
    match spec L PS init_ps recog lineno lines tail with
    | C09.Model.ROk ps => match finish ps with Some t => FOk t | None => FPanic end
    | C09.Model.RErr c _ => FErr c
    end.

  Lemma stream_fetch_verdict : forall e u f b script,
    split_ok b -> delivered script = Z.of_nat (length b) ->
    short_lines llen (fst (split b)) (snd (split b)) -> fails script = false ->
    snd (stream_fetch e u f b script) = verdict (fst (split b)) (snd (split b)).
  Proof.
    intros e u f b script Hs Hd Hshort Hfl. unfold Stream.stream_fetch, verdict.
    destruct (create_cache_file p e f) as [f1 tf].
    unfold split_ok in Hs. destruct (split b) as [lines tail]. cbn [fst snd] in *.
    rewrite <- Hs in Hd.
    destruct (stream_is_spec L llen PS init_ps recog bump lineno llen_pos lines tail Hshort script Hd) as [x1 Hspec].
    destruct (fetch_loop e tf lines tail script Hd) as [r0 [x0 [w [-> [Hdr _]]]]].
    rewrite Hdr in Hspec. unfold spec_stream in Hspec. rewrite Hfl in Hspec. inversion Hspec; subst r0.
    destruct (spec L PS init_ps recog lineno lines tail) as [ps|c ln]; [|reflexivity].
    destruct (finish ps); [|reflexivity]. destruct w; reflexivity.
  Qed.

  (* a body that fails (connection cut, framing error, timeout) never yields Ok, whatever was delivered *)
  Lemma stream_fetch_failed_body : forall e u f b script,
    split_ok b -> delivered script = Z.of_nat (length b) -> fails script = true ->
    unchanged f (fst (stream_fetch e u f b script)) /\ forall t, snd (stream_fetch e u f b script) <> FOk t.
  Proof.
    intros e u f b script Hs Hd Hfl.
    pose proof (stream_fetch_cases e u f b script Hs Hd) as H. cbv zeta in H.
    destruct H as [Ht [Ho H]].
    destruct (snd (stream_fetch e u f b script)) as [t|c| |].
    - destruct H as [H _]. rewrite Hfl in H. discriminate.
    - destruct H as [H _]. split; [split; assumption|intros t; discriminate].
    - split; [split; assumption|intros t; discriminate].
    - contradiction.
  Qed.

  (* dropped / in flight: Stream.v's functions are those of the ownership machine, whose loop invariant says it *)
  Lemma stream_fetch_dropped_clean : forall e f b script k,
    unchanged f (stream_fetch_dropped e f b script k).
  Proof. intros e f b script k. exact (proj1 (stream_dropped_from_ownership L llen PS init_ps recog bump lineno split p e f b script k)). Qed.

  Lemma stream_fetch_inflight_one : forall e f b script k,
    let g := stream_fetch_inflight e f b script k in
    cache_eq g f /\ (tmp g = tmp f \/ exists n c, n = fresh (tmp f) /\ tmp g = (n, c) :: tmp f).
  Proof. intros e f b script k. exact (proj2 (stream_dropped_from_ownership L llen PS init_ps recog bump lineno split p e f b script k)). Qed.

  (* what the download does, without any loop: create, then by the verdict on the whole body *)
  Definition fetch_closed (e : env) (u : bytes) (f : fs) (b : bytes) : fs * fres T :=
    let '(f1, tf) := create_cache_file p e f in
    match verdict (fst (split b)) (snd (split b)) with
    | FOk t => (match tf with
                | Some n => commit_cache_file p e (write_tmp f1 n b) n b u
                | None => f1
                end, FOk t)
    | r => (drop_temp f1 tf, r)
    end.

  Lemma stream_fetch_closed_form : forall e u f b script,
    writes_ok e -> split_ok b -> delivered script = Z.of_nat (length b) ->
    short_lines llen (fst (split b)) (snd (split b)) -> fails script = false ->
    stream_fetch e u f b script = fetch_closed e u f b.
  Proof.
    intros e u f b script He Hs Hd Hshort Hfl.
    pose proof (stream_fetch_verdict e u f b script Hs Hd Hshort Hfl) as Hv.
    unfold Stream.stream_fetch, fetch_closed in *.
    destruct (create_cache_file p e f) as [f1 tf].
    unfold split_ok in Hs. destruct (split b) as [lines tail]. cbn [fst snd] in *.
    rewrite <- Hs in Hd.
    destruct (fetch_loop e tf lines tail script Hd) as [r0 [x0 [w [El [_ [Hat [Hok Hop]]]]]]]. rewrite El in *.
    destruct r0 as [ps|c ln]; [|rewrite <- Hv; reflexivity].
    destruct (finish ps) as [t|]; rewrite <- Hv; [|reflexivity]. destruct w as [n len|].
    - destruct Hat as [-> Hlen]. rewrite Hlen, (Hok ps eq_refl), Hs, take_all. reflexivity.
    - destruct tf as [n|]; [exfalso; apply (Hop He I)|reflexivity].
  Qed.

  (* the whole network part of a lookup *)
  Variable note_src report_src : urlsrc.
  Notation lookup_stream := (lookup_stream L llen PS init_ps recog bump lineno T finish split p note_src report_src).

  Definition resp_ok (sr : server * resp) : Prop :=
    match snd sr with
    | RHead _ _ b script => split_ok b /\ delivered script = Z.of_nat (length b)
    | RNoHead => True
    end.
  Definition ids (l : list (server * resp)) : list Z := map (fun sr => s_id (fst sr)) l.

  (* what a lookup over the server list [ss], started on [f], has done when it returns R = (file system, result, request log) *)
  Definition lookup_post (f : fs) (ss : list (server * resp)) (R : fs * option (T * bytes) * list Z) : Prop :=
    tmp (fst (fst R)) = tmp f /\ (forall q, q <> p -> cache (fst (fst R)) q = cache f q) /\
    match snd (fst R) with
    | None => cache_eq (fst (fst R)) f /\ snd R = ids ss
    | Some (t, u) =>
        exists pre s code final b script post,
          ss = pre ++ (s, RHead code final b script) :: post /\ u = pick_url report_src (s_url s) final /\
          code < 400 /\ fails script = false /\
          (exists ps x, drive_stream (fst (split b)) (snd (split b)) script = Ret (C09.Model.ROk ps, x) /\
                        finish ps = Some t /\ cbsum (core x) = Z.of_nat (length b)) /\
          commit_post p f (fst (fst R)) b (pick_url note_src (s_url s) final) /\
          snd R = ids (pre ++ [(s, RHead code final b script)])
    end.

  (* a server that is passed over (no head, an error status, a failed download) has left cache and tmp as they were,
     so what the rest of the list does is what the whole list does, with one more request in the log *)
  Lemma lookup_skip : forall f g sr rest g' res lg, cache_eq g f -> tmp g = tmp f ->
    lookup_post g rest (g', res, lg) -> lookup_post f (sr :: rest) (g', res, s_id (fst sr) :: lg).
  Proof.
    intros f g sr rest g' res lg Hgc Hgt H. unfold lookup_post in *. cbn [fst snd] in *. destruct H as [I1 [I2 I3]].
    split; [rewrite I1; exact Hgt|]. split; [intros q Hq; rewrite I2 by exact Hq; apply Hgc|].
    destruct res as [[t u]|].
    - destruct I3 as [pre [s0 [code [final [b [script [post [E [Eu [Hcode [Hfl [Hdr [Hpost Hlg]]]]]]]]]]]]].
      exists (sr :: pre), s0, code, final, b, script, post.
      split; [rewrite E; reflexivity|]. split; [exact Eu|]. split; [exact Hcode|]. split; [exact Hfl|].
      split; [exact Hdr|]. split; [eapply commit_post_eq; [exact Hgc|exact Hpost]|]. rewrite Hlg. reflexivity.
    - destruct I3 as [I3 Hlg]. split; [intros q; rewrite I3; apply Hgc|]. rewrite Hlg. reflexivity.
  Qed.

  Lemma lookup_stream_post : forall ss f, Forall resp_ok ss -> lookup_post f ss (lookup_stream f ss).
  Proof.
    induction ss as [|[s r] rest IH]; intros f Hok; cbn [Stream.lookup_stream].
    - split; [reflexivity|]. split; [reflexivity|]. split; [intros q; reflexivity|reflexivity].
    - apply Forall_cons_iff in Hok. destruct Hok as [Hr Hrest].
      assert (Hskip : forall g, cache_eq g f -> tmp g = tmp f ->
                lookup_post f ((s, r) :: rest) (let '(g', res, lg) := lookup_stream g rest in (g', res, s_id s :: lg))).
      { intros g Hgc Hgt. specialize (IH g Hrest). destruct (lookup_stream g rest) as [[g' res] lg].
        exact (lookup_skip f g (s, r) rest g' res lg Hgc Hgt IH). }
      destruct r as [|code final b script]; [apply Hskip; [intros q; reflexivity|reflexivity]|].
      destruct (Z.leb_spec 400 code) as [Hge|Hlt]; [apply Hskip; [intros q; reflexivity|reflexivity]|].
      destruct Hr as [Hs Hd]. cbn [snd] in Hs, Hd.
      pose proof (stream_fetch_cases (s_env s) (pick_url note_src (s_url s) final) f b script Hs Hd) as H. cbv zeta in H.
      destruct (stream_fetch (s_env s) (pick_url note_src (s_url s) final) f b script) as [f1 res1]. cbn [fst snd] in H.
      destruct H as [H1 [H2 H3]].
      destruct res1 as [t|c| |]; [|apply Hskip; [apply H3|exact H1]|apply Hskip; assumption|contradiction].
      destruct H3 as [Hfl [Hdr Hpost]]. split; [exact H1|]. split; [exact H2|].
      exists [], s, code, final, b, script, rest.
      split; [reflexivity|]. split; [reflexivity|]. split; [exact Hlt|]. split; [exact Hfl|].
      split; [exact Hdr|]. split; [exact Hpost|reflexivity].
  Qed.

  (* lookup_stream_post with lookup_post written out *)
  Lemma lookup_stream_cases : forall ss f, Forall resp_ok ss ->
    let f' := fst (fst (lookup_stream f ss)) in
    tmp f' = tmp f /\ (forall q, q <> p -> cache f' q = cache f q) /\
    match snd (fst (lookup_stream f ss)) with
    | None => cache_eq f' f /\ snd (lookup_stream f ss) = ids ss
    | Some (t, u) =>
        exists pre s code final b script post,
          ss = pre ++ (s, RHead code final b script) :: post /\ u = pick_url report_src (s_url s) final /\
          code < 400 /\ fails script = false /\
          (exists ps x, drive_stream (fst (split b)) (snd (split b)) script = Ret (C09.Model.ROk ps, x) /\
                        finish ps = Some t /\ cbsum (core x) = Z.of_nat (length b)) /\
          commit_post p f f' b (pick_url note_src (s_url s) final) /\
          snd (lookup_stream f ss) = ids (pre ++ [(s, RHead code final b script)])
    end.
  Proof. exact lookup_stream_post. Qed.
End StreamFetchProofs.
