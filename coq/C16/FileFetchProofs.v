(* C16/FileFetchProofs.v — invariant of the fetch_lookup / locate_file machine (C16/FileFetch.v) over all event lists: the cache
   and the events.  Read after C16/FileRaiiProofs.v, from which the statement about tmp is taken. *)
From RM Require Import C16.Model C16.Proofs C16.FileFetch C16.FileRaiiProofs.
Open Scope Z_scope.

Section FileFetchProofs.
  Variable p : path.
  Notation qstep := (qstep p).
  Notation qrun := (qrun p).
  Notation locate_file := (locate_file p).

  Definition QInv (f0 : fs) (evs : list event) (s : qst) : Prop :=
    match q_l s with
    | QRun rest cur (QBody n got) => cache_eq (q_fs s) f0 /\ receiving evs got
    | QDone QLocal => False
    | QDone (QFetched _) =>
        (forall q, q <> p -> cache (q_fs s) q = cache f0 q) /\ cache f0 p = None /\
        exists got, received evs got /\ cache (q_fs s) p = Some (File got)
    | _ => cache_eq (q_fs s) f0
    end.

  Lemma qinv_next : forall f0 evs f log rest, cache_eq f f0 -> QInv f0 evs (qnext f log rest).
  Proof. intros f0 evs f log [|s r] Hc; exact Hc. Qed.

  Lemma qinv_step : forall f0 evs s e, QInv f0 evs s -> QInv f0 (evs ++ [e]) (qstep s e).
  Proof.
    intros f0 evs s e H. unfold QInv in H. unfold FileFetch.qstep.
    destruct (q_l s) as [rest cur ph|r|] eqn:Hl.
    - assert (Hc : cache_eq (q_fs s) f0) by (destruct ph; apply H).
      assert (Hnext : forall g, cache_eq g (q_fs s) -> QInv f0 (evs ++ [e]) (qnext g (q_log s) rest))
        by (intros g Hg; apply qinv_next; intro q; rewrite Hg; apply Hc).
      destruct ph as [|n got].
      + destruct e as [code| |bs| | |]; try (apply Hnext; intro; reflexivity); [|exact Hc].
        destruct (Z.leb_spec 400 code) as [_|Hcode]; [apply Hnext; intro; reflexivity|].
        pose proof (create_cache_eq p (s_env cur) (q_fs s)) as Hcc.
        destruct (create_cache_file p (s_env cur) (q_fs s)) as [f1 [n|]]; [|apply Hnext; exact Hcc].
        split; [intro q; rewrite Hcc; apply Hc|apply receiving_head; exact Hcode].
      + destruct H as [_ Hrcv].
        destruct e as [code'| |bs| | |]; try (apply Hnext; intro; reflexivity); [| |exact Hc].
        * destruct (wr_ok (s_env cur) _); [|apply Hnext; intro; reflexivity].
          split; [exact Hc|apply receiving_chunk; exact Hrcv].
        * (* persist_noclobber: only onto an empty path *)
          destruct (cache (q_fs s) p) as [x|] eqn:Hp; [apply Hnext; intro; reflexivity|].
          destruct (persist_ok (s_env cur)); [|apply Hnext; intro; reflexivity].
          unfold QInv; cbn [q_l q_fs rm_tmp set_cache cache].
          split; [intros q Hq; destruct (Z.eqb_spec q p); [contradiction|apply Hc]|].
          split; [rewrite <- Hc; exact Hp|].
          exists got. split; [apply received_eof; exact Hrcv|]. rewrite Z.eqb_refl. reflexivity.
    - unfold QInv. rewrite Hl. destruct r as [|i|]; [exact H| |exact H].
      destruct H as [H2 [H3 [got [Hrcv Hp]]]].
      split; [exact H2|]. split; [exact H3|]. exists got. split; [apply received_more; exact Hrcv|exact Hp].
    - unfold QInv. rewrite Hl. exact H.
  Qed.

  Lemma qinv_net : forall f0 ss evs, QInv f0 evs (qrun (qnet_start f0 ss) evs).
  Proof.
    intros f0 ss evs. apply (fold_inv_seen _ _ qstep (QInv f0)); [apply qinv_step|].
    apply qinv_next. intro q. reflexivity.
  Qed.

  Definition q_finished (s : qst) : Prop := match q_l s with QRun _ _ _ => False | _ => True end.
  Definition q_downloaded (s : qst) : Prop := match q_l s with QDone (QFetched _) => True | _ => False end.

  Lemma locate_file_cases : forall f locals ss evs,
    locate_file f locals ss evs = mkq f [] (QDone QLocal) \/ locate_file f locals ss evs = qrun (qnet_start f ss) evs.
  Proof.
    intros f locals ss evs. unfold FileFetch.locate_file.
    destruct (existsb (fun x => x) locals || _); [left|right]; reflexivity.
  Qed.

  Lemma file_entry_only_whole_body : forall f locals ss evs q c,
    cache (q_fs (locate_file f locals ss evs)) q = Some (File c) -> cache f q <> Some (File c) ->
    q = p /\ cache f p = None /\
    exists pre code chunks post,
      evs = pre ++ EHead code :: map EChunk chunks ++ EEof :: post /\ code < 400 /\ c = concat chunks /\
      exists i, q_l (locate_file f locals ss evs) = QDone (QFetched i).
  Proof.
    intros f locals ss evs q c H1 H2.
    destruct (locate_file_cases f locals ss evs) as [E|E]; rewrite E in *; [cbn [q_fs] in H1; contradiction|].
    pose proof (qinv_net f ss evs) as H. unfold QInv in H.
    destruct (q_l (qrun (qnet_start f ss) evs)) as [rest cur [|n got]|[|i|]|] eqn:Hl;
      try solve [exfalso; apply H2; rewrite <- H1; symmetry; apply H].
    - contradiction.
    - destruct H as [Ho [Hn [got [[pre [code [chunks [post [Hev [Hcode ->]]]]]] Hp]]]].
      destruct (Z.eq_dec q p) as [->|Hq]; [|exfalso; apply H2; rewrite <- (Ho q Hq); exact H1].
      split; [reflexivity|]. split; [exact Hn|]. exists pre, code, chunks, post.
      split; [exact Hev|]. split; [exact Hcode|]. split; [rewrite Hp in H1; inversion H1; reflexivity|exists i; reflexivity].
  Qed.

  Lemma file_no_stray_tmp : forall f locals ss evs,
    let s := locate_file f locals ss evs in
    (q_finished s -> tmp (q_fs s) = tmp f) /\
    (tmp (q_fs s) = tmp f \/ exists n got, tmp (q_fs s) = (n, got) :: tmp f /\ n = fresh (tmp f)).
  Proof.
    intros f locals ss evs. cbv zeta.
    destruct (locate_file_cases f locals ss evs) as [E|E]; rewrite E; [cbn [q_fs]; split; [intros _; reflexivity|left; reflexivity]|].
    pose proof (file_no_stray_tmp_from_ownership p f ss evs) as H. cbv zeta in H. unfold q_finished.
    destruct (q_l (qrun (qnet_start f ss) evs)) as [rest cur [|n got]|r|]; try (split; [intros _; exact H|left; exact H]).
    destruct H as [Hn [c Ht]]. split; [contradiction|right; exists n, c; split; assumption].
  Qed.

  Lemma file_failed_leaves_cache : forall f locals ss evs,
    ~ q_downloaded (locate_file f locals ss evs) -> cache_eq (q_fs (locate_file f locals ss evs)) f.
  Proof.
    intros f locals ss evs Hn.
    destruct (locate_file_cases f locals ss evs) as [E|E]; rewrite E in *; [intro q; reflexivity|].
    pose proof (qinv_net f ss evs) as H. unfold QInv, q_downloaded in *.
    destruct (q_l (qrun (qnet_start f ss) evs)) as [rest cur [|n got]|[|i|]|]; try apply H; [contradiction|].
    exfalso. apply Hn. exact I.
  Qed.

  Lemma file_existing_never_replaced : forall f locals ss evs x,
    cache f p = Some x -> cache (q_fs (locate_file f locals ss evs)) p = Some x.
  Proof.
    intros f locals ss evs x Hx.
    destruct (locate_file_cases f locals ss evs) as [E|E]; rewrite E; [exact Hx|].
    pose proof (qinv_net f ss evs) as H. unfold QInv in H.
    destruct (q_l (qrun (qnet_start f ss) evs)) as [rest cur [|n got]|[|i|]|];
      try solve [rewrite <- Hx; apply H].
    - contradiction.
    - destruct H as [_ [Hnone _]]. rewrite Hnone in Hx. discriminate.
  Qed.
End FileFetchProofs.
