(* C16/StreamRaiiProofs.v — the ownership semantics of the streaming download (C16/StreamRaii.v), after the facts about the
   tee of C16/Stream.v that both this file and C16/StreamProofs.v use (which handle it names, how much it has written):
   (1) it IS C16/Stream.v: own_fetch = stream_fetch, own_dropped = stream_fetch_dropped, fst own_inflight = stream_fetch_inflight
       (the [drop_temp]s of Stream.v and the tmp directory it computes from the handle are what the ownership rules and the
       eager writes produce);
   (2) proved on the ownership machine itself, by an invariant over the loop: whatever the frame owns is the ONE file in tmp
       that was not there before, so leaving the frame — anywhere — restores tmp; the cache is never touched before the commit. *)
From Coq Require Import ZArith List Bool.
From RM Require Import Base.Word C09.Model C10.Model C10.Stream C16.Model C16.Proofs C16.Stream C16.StreamRaii.
Import ListNotations.
Open Scope Z_scope.

Section StreamRaiiProofs.
  Variable L : Type.
  Variable llen : L -> Z.
  Variable PS : Type.
  Variable init_ps : PS.
  Variable recog : PS -> L -> PS + Z.
  Variable bump : PS -> PS.
  Variable lineno : PS -> Z.
  Variable T : Type.
  Variable finish : PS -> option T.
  Variable split : bytes -> list L * Z.
  Variable p : path.

  Notation sres := (@sres L PS).
  Notation step_stream := (step_stream L llen PS recog bump lineno).
  Notation iter_fetch := (iter_fetch L llen PS recog bump lineno).
  Notation steps_fetch := (steps_fetch L llen PS recog bump lineno).
  Notation tee_step := (tee_step L llen PS bump).
  Notation own_tee_step := (own_tee_step L llen PS bump).
  Notation own_iter := (own_iter L llen PS recog bump lineno).
  Notation own_steps := (own_steps L llen PS recog bump lineno).
  Notation own_enter := (own_enter p).
  Notation own_fetch := (own_fetch L llen PS init_ps recog bump lineno T finish split p).
  Notation own_inflight := (own_inflight L llen PS init_ps recog bump lineno split p).
  Notation own_dropped := (own_dropped L llen PS init_ps recog bump lineno split p).
  Notation stream_fetch := (stream_fetch L llen PS init_ps recog bump lineno T finish split p).
  Notation stream_fetch_dropped := (stream_fetch_dropped L llen PS init_ps recog bump lineno split p).
  Notation stream_fetch_inflight := (stream_fetch_inflight L llen PS init_ps recog bump lineno split p).

  (* the handle is the one create_cache_file returned *)
  Definition tee_name (tf : option Z) (w : tee) : Prop :=
    match w with TOpen n _ => tf = Some n | TNone => True end.
  (* ... and the file holds exactly the bytes the callback has been given *)
  Definition tee_at (tf : option Z) (c : Z) (w : tee) : Prop :=
    match w with TOpen n len => tf = Some n /\ len = c | TNone => True end.

  Lemma tee_at_name : forall tf c w, tee_at tf c w -> tee_name tf w.
  Proof. intros tf c [n len|]; cbn; [intros [H _]; exact H|trivial]. Qed.

  Lemma tee_to_at : forall e c w tf, tee_name tf w -> tee_at tf c (tee_to e c w).
  Proof.
    intros e c [n len|] tf H; cbn [tee_to tee_name tee_at] in *; [|trivial].
    destruct (Z.eqb_spec c len) as [E|E]; cbn [tee_at]; [split; [exact H|symmetry; exact E]|].
    destruct (wr_ok e c); cbn [tee_at]; [split; [exact H|reflexivity]|trivial].
  Qed.

  Definition res_at (tf : option Z) (r : sres) (w : tee) : Prop :=
    match r with
    | SNext x' => tee_at tf (cbsum (core x')) w
    | SDone _ x' => tee_at tf (cbsum (core x')) w
    | SPanic _ => tee_name tf w
    end.

  Lemma tee_step_at : forall e x r w tf, tee_name tf w -> res_at tf r (tee_step e x r w).
  Proof.
    intros e x r w tf H. unfold Stream.tee_step.
    assert (H1 : tee_name tf (if pr (core x) then tee_to e (cbsum (recovery L llen PS bump (core x))) w else w)).
    { destruct (pr (core x)); [|exact H]. eapply tee_at_name. apply tee_to_at. exact H. }
    destruct r as [x'|r' x'|t]; cbn [res_at]; [apply tee_to_at; exact H1|apply tee_to_at; exact H1|exact H1].
  Qed.

  Lemma res_at_name : forall tf r w, res_at tf r w -> tee_name tf w.
  Proof. intros tf [x'|r' x'|t] w H; cbn [res_at] in H; [eapply tee_at_name; exact H|eapply tee_at_name; exact H|exact H]. Qed.

  Lemma tee0_name : forall tf, tee_name tf (tee0 tf).
  Proof. intros [n|]; cbn; trivial. Qed.


  (* Stream.v's reconstruction of the file system from the handle state *)
  Definition fs_of (f1 : fs) (tf : option Z) (b : bytes) (w : tee) : fs :=
    match w with TOpen n len => write_tmp f1 n (take len b) | TNone => drop_temp f1 tf end.
  Lemma own_tee_to_eq : forall e b c f1 tf w, tee_name tf w ->
    own_tee_to e b c (fs_of f1 tf b w, w) = (fs_of f1 tf b (tee_to e c w), tee_to e c w).
  Proof.
    intros e b c f1 tf [n len|] H; cbn [own_tee_to tee_to tee_name fs_of] in *; [|reflexivity].
    subst tf. destruct (c =? len); [reflexivity|].
    destruct (wr_ok e c); cbn [fs_of].
    - rewrite write_write. reflexivity.
    - unfold own_assign_none. cbn [handle drop_temp]. rewrite rm_write. reflexivity.
  Qed.

  Lemma tee_step_named : forall e x r w tf, tee_name tf w -> tee_name tf (tee_step e x r w).
  Proof. intros e x r w tf H. eapply res_at_name, tee_step_at. exact H. Qed.

  Lemma own_tee_step_eq : forall e b x r f1 tf w, tee_name tf w ->
    own_tee_step e b x r (fs_of f1 tf b w, w) = (fs_of f1 tf b (tee_step e x r w), tee_step e x r w).
  Proof.
    intros e b x r f1 tf w H. unfold StreamRaii.own_tee_step, Stream.tee_step.
    destruct (pr (core x)).
    - rewrite (own_tee_to_eq e b _ f1 tf w H).
      pose proof (tee_at_name _ _ _ (tee_to_at e (cbsum (recovery L llen PS bump (core x))) w tf H)) as H1.
      destruct r; [apply own_tee_to_eq; exact H1|apply own_tee_to_eq; exact H1|reflexivity].
    - destruct r; [apply own_tee_to_eq; exact H|apply own_tee_to_eq; exact H|reflexivity].
  Qed.

  Definition lift (f1 : fs) (tf : option Z) (b : bytes) (rw : sres * tee) : sres * (fs * tee) :=
    (fst rw, (fs_of f1 tf b (snd rw), snd rw)).

  Lemma own_iter_eq : forall e b f1 tf q x w, tee_name tf w ->
    own_iter e b q x (fs_of f1 tf b w, w) = lift f1 tf b (iter_fetch e q x w) /\ tee_name tf (snd (iter_fetch e q x w)).
  Proof.
    intros e b f1 tf. induction q as [q IH|q IH|]; intros x w H; cbn [StreamRaii.own_iter Stream.iter_fetch].
    - rewrite (own_tee_step_eq e b x (step_stream x) f1 tf w H).
      pose proof (tee_step_named e x (step_stream x) w tf H) as H0.
      destruct (step_stream x) as [x1|r x1|t] eqn:S; try (split; [reflexivity|exact H0]).
      destruct (IH x1 (tee_step e x (SNext x1) w) H0) as [E1 N1]. rewrite E1.
      destruct (iter_fetch e q x1 (tee_step e x (SNext x1) w)) as [r1 w1]. unfold lift at 1. cbn [fst snd] in *.
      destruct r1 as [x2|r2 x2|t2]; try (split; [reflexivity|exact N1]).
      apply IH. exact N1.
    - destruct (IH x w H) as [E1 N1]. rewrite E1.
      destruct (iter_fetch e q x w) as [r1 w1]. unfold lift at 1. cbn [fst snd] in *.
      destruct r1 as [x2|r2 x2|t2]; try (split; [reflexivity|exact N1]).
      apply IH. exact N1.
    - rewrite (own_tee_step_eq e b x (step_stream x) f1 tf w H). split; [reflexivity|].
      apply tee_step_named. exact H.
  Qed.

  Lemma own_steps_eq : forall e b f1 tf k x w, tee_name tf w ->
    own_steps e b k x (fs_of f1 tf b w, w) = lift f1 tf b (steps_fetch e k x w) /\ tee_name tf (snd (steps_fetch e k x w)).
  Proof.
    intros e b f1 tf. induction k as [|k IH]; intros x w H; cbn [StreamRaii.own_steps Stream.steps_fetch].
    - split; [reflexivity|exact H].
    - rewrite (own_tee_step_eq e b x (step_stream x) f1 tf w H).
      pose proof (tee_step_named e x (step_stream x) w tf H) as H0.
      destruct (step_stream x) as [x1|r x1|t] eqn:S; try (split; [reflexivity|exact H0]).
      apply IH. exact H0.
  Qed.

  (* the frame as create_cache_file leaves it: the new file is empty, i.e. holds the first 0 bytes *)
  Lemma enter_eq : forall e f b,
    own_enter e f = (fs_of (fst (create_cache_file p e f)) (snd (create_cache_file p e f)) b (tee0 (snd (create_cache_file p e f))),
                     tee0 (snd (create_cache_file p e f))) /\
    tee_name (snd (create_cache_file p e f)) (tee0 (snd (create_cache_file p e f))).
  Proof.
    intros e f b. unfold StreamRaii.own_enter, create_cache_file.
    destruct (mk_ok e); [destruct (create_ok e)|]; cbn [fst snd tee0 fs_of drop_temp tee_name]; try (split; [reflexivity|trivial]).
    split; [|reflexivity]. f_equal. unfold write_tmp, add_tmp, take. cbn [cache cdir tmp set_cdir firstn Z.to_nat].
    f_equal. symmetry. apply write_fresh.
  Qed.

  Lemma leave_fs_of : forall f1 tf b w, tee_name tf w -> own_leave (fs_of f1 tf b w) w = drop_temp f1 tf.
  Proof.
    intros f1 tf b [n len|] H; cbn [tee_name fs_of own_leave handle drop_temp] in *; [|reflexivity].
    subst tf. cbn [drop_temp]. apply rm_write.
  Qed.

  Theorem own_fetch_is_stream_fetch : forall e u f b script,
    own_fetch e u f b script = stream_fetch e u f b script.
  Proof.
    intros e u f b script. unfold StreamRaii.own_fetch, Stream.stream_fetch.
    destruct (enter_eq e f b) as [E0 N0]. rewrite E0.
    destruct (create_cache_file p e f) as [f1 tf]. cbn [fst snd] in *.
    destruct (split b) as [lines tail].
    destruct (own_iter_eq e b f1 tf (fuel_for L llen lines tail) (init_stream L llen PS init_ps lines tail script) (tee0 tf) N0) as [E1 N1].
    rewrite E1. destruct (iter_fetch e (fuel_for L llen lines tail) (init_stream L llen PS init_ps lines tail script) (tee0 tf)) as [r w].
    unfold lift. cbn [fst snd] in *.
    destruct r as [x1|[ps|c ln] x1|t1]; try (rewrite (leave_fs_of f1 tf b w N1); reflexivity).
    destruct (finish ps) as [t|]; [|rewrite (leave_fs_of f1 tf b w N1); reflexivity].
    destruct w as [n len|]; cbn [fst snd fs_of own_leave handle drop_temp]; reflexivity.
  Qed.

  (* suspended after k iterations, and dropped there *)
  Theorem own_suspended_is_stream : forall e f b script k,
    own_dropped e f b script k = stream_fetch_dropped e f b script k /\
    fst (own_inflight e f b script k) = stream_fetch_inflight e f b script k.
  Proof.
    intros e f b script k. unfold StreamRaii.own_dropped, StreamRaii.own_inflight, Stream.stream_fetch_dropped, Stream.stream_fetch_inflight.
    destruct (enter_eq e f b) as [E0 N0]. rewrite E0.
    destruct (create_cache_file p e f) as [f1 tf]. cbn [fst snd] in *.
    destruct (split b) as [lines tail].
    destruct (own_steps_eq e b f1 tf k (init_stream L llen PS init_ps lines tail script) (tee0 tf) N0) as [E1 N1].
    rewrite E1. destruct (steps_fetch e k (init_stream L llen PS init_ps lines tail script) (tee0 tf)) as [r w].
    unfold lift. cbn [fst snd] in *. rewrite (leave_fs_of f1 tf b w N1).
    destruct w as [n len|]; cbn [tee_name fs_of] in *; (split; [|reflexivity]).
    - subst tf. cbn [drop_temp]. symmetry. apply rm_write.
    - symmetry. apply drop_drop.
  Qed.

  (* what the frame owns is the one file in tmp that was not there before; the cache is as it was *)
  Definition OInv (f : fs) (gw : fs * tee) : Prop :=
    let '(g, w) := gw in
    (forall q, cache g q = cache f q) /\
    match handle w with
    | Some n => n = fresh (tmp f) /\ exists c, tmp g = (n, c) :: tmp f
    | None => tmp g = tmp f
    end.

  Lemma oinv_intro : forall f g w, cache_eq g f -> tmp_inv f g (handle w) -> OInv f (g, w).
  Proof. intros f g w Hc Ht. split; assumption. Qed.

  Lemma oinv_enter : forall e f, OInv f (own_enter e f).
  Proof.
    intros e f. unfold StreamRaii.own_enter.
    pose proof (create_cache_eq p e f) as Hc. pose proof (create_tmp_inv p e f f eq_refl) as Ht.
    destruct (create_cache_file p e f) as [f1 [n|]]; apply oinv_intro; assumption.
  Qed.

  Lemma oinv_tee_to : forall e b c f gw, OInv f gw -> OInv f (own_tee_to e b c gw).
  Proof.
    intros e b c f [g [n len|]] H; cbn [own_tee_to]; [|exact H].
    destruct (c =? len); [exact H|]. destruct H as [Hc Ht].
    destruct (wr_ok e c); apply oinv_intro.
    - exact Hc.
    - apply (written_inv f g n _ Hc Ht).
    - exact Hc.
    - exact (tmp_inv_drop f g (Some n) Ht).
  Qed.

  Lemma oinv_tee_step : forall e b x r f gw, OInv f gw -> OInv f (own_tee_step e b x r gw).
  Proof.
    intros e b x r f gw H. unfold StreamRaii.own_tee_step.
    assert (H1 : OInv f (if pr (core x) then own_tee_to e b (cbsum (recovery L llen PS bump (core x))) gw else gw))
      by (destruct (pr (core x)); [apply oinv_tee_to|]; exact H).
    destruct r; [apply oinv_tee_to; exact H1|apply oinv_tee_to; exact H1|exact H1].
  Qed.

  Lemma oinv_steps : forall e b f k x gw, OInv f gw -> OInv f (snd (own_steps e b k x gw)).
  Proof.
    intros e b f. induction k as [|k IH]; intros x gw H; cbn [StreamRaii.own_steps]; [exact H|].
    pose proof (oinv_tee_step e b x (step_stream x) f gw H) as H0.
    destruct (step_stream x) as [x1|r x1|t]; [apply IH; exact H0|exact H0|exact H0].
  Qed.

  Lemma oinv_iter : forall e b f q x gw, OInv f gw -> OInv f (snd (own_iter e b q x gw)).
  Proof.
    intros e b f. induction q as [q IH|q IH|]; intros x gw H; cbn [StreamRaii.own_iter].
    - pose proof (oinv_tee_step e b x (step_stream x) f gw H) as H0.
      destruct (step_stream x) as [x1|r x1|t]; try exact H0.
      pose proof (IH x1 _ H0) as H1.
      destruct (own_iter e b q x1 (own_tee_step e b x (SNext x1) gw)) as [r1 gw1]. cbn [snd] in H1.
      destruct r1 as [x2|r2 x2|t2]; try exact H1. apply IH. exact H1.
    - pose proof (IH x gw H) as H1. destruct (own_iter e b q x gw) as [r1 gw1]. cbn [snd] in H1.
      destruct r1 as [x2|r2 x2|t2]; try exact H1. apply IH. exact H1.
    - apply oinv_tee_step. exact H.
  Qed.

  (* leaving the frame — anywhere — restores tmp and has never touched the cache *)
  Lemma oinv_leave : forall f g w, OInv f (g, w) ->
    (forall q, cache (own_leave g w) q = cache f q) /\ tmp (own_leave g w) = tmp f.
  Proof. intros f g w [Hc Ht]. exact (dropped_unchanged f g (handle w) Hc Ht). Qed.

  (* the future dropped after ANY number of loop iterations; in flight: at most the file the frame owns *)
  Theorem own_inflight_owned : forall e f b script k, OInv f (own_inflight e f b script k).
  Proof.
    intros e f b script k. unfold StreamRaii.own_inflight. destruct (split b) as [lines tail].
    apply oinv_steps. apply oinv_enter.
  Qed.

  Theorem own_dropped_clean : forall e f b script k,
    (forall q, cache (own_dropped e f b script k) q = cache f q) /\ tmp (own_dropped e f b script k) = tmp f.
  Proof.
    intros e f b script k. unfold StreamRaii.own_dropped. pose proof (own_inflight_owned e f b script k) as H.
    destruct (own_inflight e f b script k) as [g w]. apply oinv_leave. exact H.
  Qed.

  (* every exit edge of the completed call that is not the commit: tmp restored, cache untouched *)
  Theorem own_fetch_error_clean : forall e u f b script,
    (forall t, snd (own_fetch e u f b script) <> FOk t) ->
    (forall q, cache (fst (own_fetch e u f b script)) q = cache f q) /\ tmp (fst (own_fetch e u f b script)) = tmp f.
  Proof.
    intros e u f b script. unfold StreamRaii.own_fetch. destruct (split b) as [lines tail].
    pose proof (oinv_iter e b f (fuel_for L llen lines tail) (init_stream L llen PS init_ps lines tail script) (own_enter e f) (oinv_enter e f)) as H.
    destruct (own_iter e b (fuel_for L llen lines tail) (init_stream L llen PS init_ps lines tail script) (own_enter e f)) as [r [g w]].
    cbn [snd] in H.
    destruct r as [x1|[ps|c ln] x1|t1]; cbn [fst snd]; intros Hne; try (apply oinv_leave; exact H).
    destruct (finish ps) as [t|]; cbn [fst snd] in *; [exfalso; apply (Hne t); reflexivity|apply oinv_leave; exact H].
  Qed.
  (* the statement about Stream.v's functions, FROM the ownership machine: (1) turns them into own_dropped / own_inflight,
     (2) is the invariant of that machine *)
  Theorem stream_dropped_from_ownership : forall e f b script k,
    ((forall q, cache (stream_fetch_dropped e f b script k) q = cache f q) /\ tmp (stream_fetch_dropped e f b script k) = tmp f) /\
    let g := stream_fetch_inflight e f b script k in
    (forall q, cache g q = cache f q) /\ (tmp g = tmp f \/ exists n c, n = fresh (tmp f) /\ tmp g = (n, c) :: tmp f).
  Proof.
    intros e f b script k. destruct (own_suspended_is_stream e f b script k) as [<- <-]. split.
    - apply own_dropped_clean.
    - cbv zeta.
      pose proof (own_inflight_owned e f b script k) as H.
      destruct (own_inflight e f b script k) as [g w]. cbn [fst]. destruct H as [Hc Ht]. split; [exact Hc|].
      destruct (handle w) as [n|]; [right|left; exact Ht].
      destruct Ht as [Hn [c Ht]]. exists n, c. split; assumption.
  Qed.
End StreamRaiiProofs.
