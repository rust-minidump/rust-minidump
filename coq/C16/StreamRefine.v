(* C16/StreamRefine.v — the abstract state machine of C16/Model.v against the streaming download of C16/Stream.v.
   Model.v is given the whole-body verdict of the streaming parser as its [parse] parameter; for ONE response — a head with
   a non-error status, the body in chunks, a clean end — its run is the closed form [fetch_closed], which is also what
   [stream_fetch] computes under every chunking (StreamProofs.stream_fetch_closed_form).  So for bodies with lines shorter
   than 80 KiB and environments in which the tee's writes succeed (create_dir_all, NamedTempFile::new_in, remove_file,
   persist stay arbitrary), the model with the abstract parser and "the temp file holds all bytes received" is not a
   simplification of the streaming code: both compute the same file system and the same result. *)
From Coq Require Import Lia ZArith List Bool.
From RM Require Import Base.Word C09.Model C10.Model C10.Stream C10.ProofsStream C16.Model C16.Proofs C16.Stream C16.StreamProofs.
Import ListNotations.
Open Scope Z_scope.

Lemma fs_eta : forall f : fs, mkfs (cache f) (cdir f) (tmp f) = f.
Proof. intros [c d t]. reflexivity. Qed.

Lemma create_write_nil : forall p e f f1 n,
  create_cache_file p e f = (f1, Some n) -> write_tmp f1 n [] = f1.
Proof.
  intros p e f f1 n H. unfold create_cache_file in H.
  destruct (mk_ok e); [destruct (create_ok e)|]; inversion H; subst; clear H.
  unfold write_tmp, add_tmp, set_cdir. cbn [cache cdir tmp]. f_equal. apply write_fresh.
Qed.

Section Refine.
  Variable L : Type.
  Variable llen : L -> Z.
  Variable PS : Type.
  Variable init_ps : PS.
  Variable recog : PS -> L -> PS + Z.
  Variable bump : PS -> PS.
  Variable lineno : PS -> Z.
  Variable T : Type.
  Variable finish : PS -> option T.
  Variable split : bytes -> list L * Z.
  Variable p : path.
  Hypothesis llen_pos : forall l, 1 <= llen l.

  Notation verdict := (verdict L PS init_ps recog lineno T finish).
  Notation fetch_closed := (fetch_closed L PS init_ps recog lineno T finish split p).

  (* the whole-body verdict of the streaming parser as the parser parameter of Model.v *)
  Definition parse_v (b : bytes) : option (T * option bytes) :=
    match verdict (fst (split b)) (snd (split b)) with FOk t => Some (t, None) | _ => None end.
  Definition never (b : bytes) : bool := false.

  Notation mrun := (Model.run T parse_v never p).

  (* the tee over a list of chunks when every write succeeds *)
  Definition teed (f : fs) (tf : option Z) (got : bytes) (chunks : list bytes) : fs :=
    match tf, chunks with
    | Some n, _ :: _ => write_tmp f n (got ++ concat chunks)
    | _, _ => f
    end.

  Lemma run_chunks : forall e rest cur log chunks f tf got,
    s_env cur = e -> writes_ok e ->
    mrun (mkst f log (LRun rest cur (PBody tf got))) (map EChunk chunks)
    = mkst (teed f tf got chunks) log (LRun rest cur (PBody tf (got ++ concat chunks))).
  Proof.
    intros e rest cur log chunks. induction chunks as [|c chunks IH]; intros f tf got He Hw.
    - cbn [map Model.run fold_left concat teed]. rewrite app_nil_r. destruct tf; reflexivity.
    - cbn [map Model.run fold_left]. unfold Model.step at 2. cbn [s_l s_fs s_log never].
      unfold tee_write. destruct tf as [n|].
      + rewrite He, Hw.
        change (fold_left (Model.step T parse_v never p) (map EChunk chunks) ?s) with (mrun s (map EChunk chunks)).
        rewrite (IH (write_tmp f n (got ++ c)) (Some n) (got ++ c) He Hw).
        cbn [concat teed]. rewrite <- app_assoc. f_equal.
        destruct chunks as [|c2 chunks']; [cbn [concat]; rewrite app_nil_r; reflexivity|].
        rewrite write_write. cbn [concat]. rewrite <- ?app_assoc. reflexivity.
      + change (fold_left (Model.step T parse_v never p) (map EChunk chunks) ?s) with (mrun s (map EChunk chunks)).
        rewrite (IH f None (got ++ c) He Hw). cbn [concat teed]. rewrite <- app_assoc. reflexivity.
  Qed.

  Lemma teed_drop : forall f tf got chunks, drop_temp (teed f tf got chunks) tf = drop_temp f tf.
  Proof. intros f [n|] got [|c chunks]; try reflexivity. apply rm_write. Qed.

  (* ONE response with a clean end, as the model sees it *)
  Lemma model_response : forall e u rest cur log f code chunks,
    s_env cur = e -> s_url cur = u -> writes_ok e -> code < 400 ->
    let b := concat chunks in
    mrun (mkst f log (LRun rest cur PSend)) (EHead code :: map EChunk chunks ++ [EEof])
    = match snd (fetch_closed e u f b) with
      | FOk t => mkst (fst (fetch_closed e u f b)) log (LDone (ROk t (Some u)))
      | _ => next_server T (fst (fetch_closed e u f b)) log rest
      end.
  Proof.
    intros e u rest cur log f code chunks He Hu Hw Hcode b.
    cbn [Model.run fold_left]. unfold Model.step at 2. cbn [s_l s_fs s_log].
    destruct (Z.leb_spec 400 code) as [H|_]; [lia|]. rewrite He.
    unfold StreamProofs.fetch_closed.
    destruct (create_cache_file p e f) as [f1 tf] eqn:Hcr.
    rewrite fold_left_app.
    change (fold_left (Model.step T parse_v never p) (map EChunk chunks) ?s) with (mrun s (map EChunk chunks)).
    rewrite (run_chunks e rest cur log chunks f1 tf [] He Hw). cbn [app fold_left].
    unfold Model.step. cbn [s_l s_fs s_log]. fold b.
    unfold parse_v.
    destruct (verdict (fst (split b)) (snd (split b))) as [t|c| |]; cbn [fst snd].
    - rewrite He, Hu. f_equal.
      destruct tf as [n|]; [|reflexivity].
      unfold teed. destruct chunks as [|c1 chunks'].
      + (* no chunk at all: the temp file is still empty, and so is the body *)
        cbn [concat] in b. subst b. rewrite (create_write_nil p e f f1 n Hcr). reflexivity.
      + cbn [app]. reflexivity.
    - rewrite teed_drop. reflexivity.
    - rewrite teed_drop. reflexivity.
    - rewrite teed_drop. reflexivity.
  Qed.

  Notation stream_fetch := (stream_fetch L llen PS init_ps recog bump lineno T finish split p).

  (* ... and under EVERY chunking the streaming download computes exactly that *)
  Lemma model_response_is_stream_fetch : forall e u rest cur log f code chunks script,
    s_env cur = e -> s_url cur = u -> writes_ok e -> code < 400 ->
    let b := concat chunks in
    split_ok L llen split b -> delivered script = Z.of_nat (length b) ->
    short_lines llen (fst (split b)) (snd (split b)) -> fails script = false ->
    mrun (mkst f log (LRun rest cur PSend)) (EHead code :: map EChunk chunks ++ [EEof])
    = match snd (stream_fetch e u f b script) with
      | FOk t => mkst (fst (stream_fetch e u f b script)) log (LDone (ROk t (Some u)))
      | _ => next_server T (fst (stream_fetch e u f b script)) log rest
      end.
  Proof.
    intros e u rest cur log f code chunks script He Hu Hw Hcode b Hs Hd Hsh Hfl.
    rewrite (stream_fetch_closed_form L llen PS init_ps recog bump lineno T finish split p llen_pos e u f b script Hw Hs Hd Hsh Hfl).
    apply model_response; assumption.
  Qed.

  (* a response whose body fails: the model moves on to the next server with the temp file dropped — and so does the
     streaming download, whatever had been delivered (ALL inputs, every write outcome) *)
  Lemma stream_fetch_failed_fs : forall e u f b script,
    split_ok L llen split b -> delivered script = Z.of_nat (length b) -> fails script = true ->
    fst (stream_fetch e u f b script)
    = drop_temp (fst (create_cache_file p e f)) (snd (create_cache_file p e f)).
  Proof.
    intros e u f b script Hs Hd Hfl.
    destruct (stream_fetch_failed_body L llen PS init_ps recog bump lineno T finish split p llen_pos e u f b script Hs Hd Hfl) as [_ Hne].
    unfold Stream.stream_fetch in *.
    destruct (create_cache_file p e f) as [f1 tf]. destruct (split b) as [lines tail].
    destruct (iter_fetch L llen PS recog bump lineno e (fuel_for L llen lines tail) (init_stream L llen PS init_ps lines tail script) (tee0 tf)) as [r w].
    cbn [fst snd] in *.
    destruct r as [x1|[ps|c ln] x1|t1]; try reflexivity.
    destruct (finish ps) as [t|]; [|reflexivity].
    destruct w; exfalso; apply (Hne t); reflexivity.
  Qed.

  Lemma model_failed_response : forall e rest cur log f code chunks,
    s_env cur = e -> writes_ok e -> code < 400 ->
    mrun (mkst f log (LRun rest cur PSend)) (EHead code :: map EChunk chunks ++ [EBodyErr])
    = next_server T (drop_temp (fst (create_cache_file p e f)) (snd (create_cache_file p e f))) log rest.
  Proof.
    intros e rest cur log f code chunks He Hw Hcode.
    cbn [Model.run fold_left]. unfold Model.step at 2. cbn [s_l s_fs s_log].
    destruct (Z.leb_spec 400 code) as [H|_]; [lia|]. rewrite He.
    destruct (create_cache_file p e f) as [f1 tf]. cbn [fst snd].
    rewrite fold_left_app.
    change (fold_left (Model.step T parse_v never p) (map EChunk chunks) ?s) with (mrun s (map EChunk chunks)).
    rewrite (run_chunks e rest cur log chunks f1 tf [] He Hw). cbn [app fold_left].
    unfold Model.step. cbn [s_l s_fs s_log]. rewrite teed_drop. reflexivity.
  Qed.
End Refine.
