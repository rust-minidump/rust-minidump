(* C16/RaiiProofs.v — (1) resource safety of the interpreter of C16/Raii.v for EVERY program: whatever the steps, their
   order, the events and the outcomes of the file-system calls, a frame that has been left owns nothing in the tmp
   directory; (2) the state machine of C16/Model.v IS that interpreter on the step list translated from the source
   (Gen/C16Ops.v fetch_steps): state by state, for every event. *)
From RM Require Import C16.Model C16.Proofs C16.Shared Gen.C16Ops C16.Raii.
Open Scope Z_scope.

Section RaiiProofs.
  Variable T : Type.
  Variable parse : bytes -> option (T * option bytes).
  Variable early : bytes -> bool.
  Variable p : path.

  Notation leave := (leave T).
  Notation silent := (silent T p).
  Notation inext := (inext T).
  Notation exit_err := (exit_err T).
  Notation istep := (istep T parse early p).
  Notation irun := (irun T parse early p).
  Notation istart := (istart T).
  Notation ist := (ist T).

  (* [f0]: the file system when the lookup started.  While a call is running the tmp directory holds at most the file
     the frame owns; once the frame has been left — Ok, Err, dropped — it is as it was. *)
  Definition IInv (f0 : fs) (s : ist) : Prop :=
    match i_l s with
    | IRun _ _ _ fr => tmp_inv f0 (i_fs s) (fr_temp fr)
    | IDone _ | IDropped => tmp (i_fs s) = tmp f0
    end.

  Section AnyProgram.
    Variable prog : list fstep.

    Lemma inext_inv : forall f0 f log ss, tmp f = tmp f0 -> IInv f0 (inext prog f log ss).
    Proof. intros f0 f log [|s r] H; unfold IInv; cbn; exact H. Qed.

    Lemma exit_err_inv : forall f0 f log rest fr, tmp_inv f0 f (fr_temp fr) -> IInv f0 (exit_err prog f log rest fr).
    Proof. intros. unfold Raii.exit_err. apply inext_inv. apply tmp_inv_drop. assumption. Qed.

    Lemma silent_inv : forall f0 n f log rest cur pc fr,
      tmp_inv f0 f (fr_temp fr) -> IInv f0 (silent prog n f log rest cur pc fr).
    Proof.
      intros f0. induction n as [|k IH]; intros f log rest cur pc fr H; cbn [Raii.silent]; [exact H|].
      destruct pc as [|[| | | | |] pc']; try exact H.
      - apply exit_err_inv; exact H.
      - (* FCreate *)
        cbn [Raii.assign_temp]. pose proof (create_tmp_inv p (s_env cur) f0 (drop_temp f (fr_temp fr)) (tmp_inv_drop f0 f _ H)) as Hc.
        destruct (create_cache_file p (s_env cur) (drop_temp f (fr_temp fr))) as [f1 tf]. cbn [fst snd] in Hc.
        apply IH. cbn [fr_temp]. exact Hc.
      - apply IH; exact H.
      - (* FCommitIfTemp *)
        destruct (fr_temp fr) as [n0|] eqn:E; [|apply IH; rewrite E; exact H].
        apply IH. cbn [fr_temp tmp_inv]. apply (commit_tmp p _ f0). exact H.
      - (* FReturnOk *)
        destruct (fr_sym fr); [unfold IInv; cbn [i_l i_fs]; apply tmp_inv_drop; exact H|apply exit_err_inv; exact H].
    Qed.

    Lemma tee_inv : forall f0 e f fr got', tmp_inv f0 f (fr_temp fr) ->
      tmp_inv f0 (fst (Raii.tee T e f fr got')) (fr_temp (snd (Raii.tee T e f fr got'))).
    Proof.
      intros f0 e f fr got' H. unfold Raii.tee. destruct (fr_temp fr) as [n|] eqn:E; cbn [fst snd fr_temp]; [|exact H].
      destruct (wr_ok e (Z.of_nat (length got'))); cbn [fst snd fr_temp Raii.assign_temp].
      - split; [exact (proj1 H)|]. exists got'. apply tmp_inv_write. exact H.
      - rewrite E. exact (tmp_inv_drop f0 f (Some n) H).
    Qed.

    Lemma istep_inv : forall f0 s ev, IInv f0 s -> IInv f0 (istep prog s ev).
    Proof.
      intros f0 s ev H. unfold Raii.istep. unfold IInv in H.
      destruct (i_l s) as [rest cur pc fr|r|] eqn:El; [|unfold IInv; rewrite El; exact H|unfold IInv; rewrite El; exact H].
      assert (Hdrop : IInv f0 (mkist (leave (i_fs s) fr) (i_log s) IDropped)).
      { unfold IInv; cbn [i_l i_fs]. apply tmp_inv_drop. exact H. }
      assert (Herr : IInv f0 (exit_err prog (i_fs s) (i_log s) rest fr)) by (apply exit_err_inv; exact H).
      (* only a program suspended at an await reacts to an event; every other case leaves the frame *)
      destruct pc as [|[| | | | |] pc']; try (destruct ev; first [exact Hdrop|exact Herr]).
      - (* FSend *)
        destruct ev as [code| | | | |]; try exact Herr; [|exact Hdrop].
        destruct (400 <=? code); [exact Herr|]. apply silent_inv. exact H.
      - (* FParseTee *)
        destruct ev as [code| |bs| | |]; try exact Hdrop; destruct (negb (fr_res fr)); try exact Herr.
        + destruct (early (fr_got fr ++ bs)); [exact Herr|].
          pose proof (tee_inv f0 (s_env cur) (i_fs s) fr (fr_got fr ++ bs) H) as Ht.
          destruct (Raii.tee T (s_env cur) (i_fs s) fr (fr_got fr ++ bs)) as [f1 fr1]. exact Ht.
        + destruct (parse (fr_got fr)) as [[t x]|]; [|exact Herr]. apply silent_inv. exact H.
    Qed.

    (* EVERY program, every server list, every event list (EDrop anywhere), every outcome of every fs call *)
    Lemma raii_any_program : forall f0 ss evs, IInv f0 (irun prog (istart prog f0 ss) evs).
    Proof. intros. apply (fold_inv _ _ _ (IInv f0)); [apply istep_inv|]. apply inext_inv. reflexivity. Qed.
  End AnyProgram.

  Definition body_pc : list fstep := [FParseTee; FSetUrl; FCommitIfTemp; FReturnOk].

  Definition embed (s : st T) : ist :=
    mkist (s_fs s) (s_log s)
      match s_l s with
      | LRun rest cur PSend => IRun rest cur fetch_steps (frame0 T)
      | LRun rest cur (PBody tf got) => IRun rest cur body_pc (mkframe true tf got None)
      | LDone r => IDone r
      | LDropped => IDropped
      end.

  (* leaving the frame with an error is the model going on to the next server with the temp file dropped; with the empty
     frame: starting on the next server *)
  Lemma embed_exit : forall f log rest fr,
    exit_err fetch_steps f log rest fr = embed (next_server T (drop_temp f (fr_temp fr)) log rest).
  Proof. intros f log [|s r] fr; reflexivity. Qed.

  Lemma embed_step : forall s ev, istep fetch_steps (embed s) ev = embed (step T parse early p s ev).
  Proof.
    intros [f log l] ev. unfold embed, Raii.istep, Model.step. cbn [s_l s_fs s_log i_l i_fs i_log].
    destruct l as [rest cur ph|r|]; [|reflexivity|reflexivity].
    destruct ph as [|tf got].
    - (* awaiting send() *)
      change fetch_steps with [FSend; FCreate; FParseTee; FSetUrl; FCommitIfTemp; FReturnOk].
      destruct ev as [code| |bs| | |]; try apply embed_exit; [|reflexivity].
      destruct (400 <=? code); [apply embed_exit|].
      unfold Raii.go. cbn [length Raii.silent Raii.assign_temp Raii.frame0 fr_temp fr_res fr_got fr_sym drop_temp].
      destruct (create_cache_file p (s_env cur) f) as [f1 tf]. reflexivity.
    - (* inside parse_async *)
      unfold body_pc. cbn [fr_res negb fr_got].
      destruct ev as [code| |bs| | |]; try apply embed_exit; [| |reflexivity].
      + (* chunk *)
        destruct (early (got ++ bs)); [apply embed_exit|].
        unfold Raii.tee, Model.tee_write. cbn [fr_temp fr_res fr_sym].
        destruct tf as [n|]; [|reflexivity].
        destruct (wr_ok (s_env cur) (Z.of_nat (length (got ++ bs)))); reflexivity.
      + (* end of body *)
        destruct (parse got) as [[t x]|]; [|apply embed_exit].
        unfold Raii.go. cbn [length Raii.silent fr_temp fr_res fr_got fr_sym].
        destruct tf as [n|]; reflexivity.
  Qed.

  Lemma model_is_program : forall f0 ss evs,
    embed (run T parse early p (net_start T f0 ss) evs) = irun fetch_steps (istart fetch_steps f0 ss) evs.
  Proof.
    intros. unfold Raii.irun, Model.run. rewrite <- (fold_sim _ _ _ _ _ embed embed_step).
    apply f_equal. symmetry. exact (embed_exit f0 [] ss (frame0 T)).
  Qed.

  (* the RAII statement about the state machine of Model.v, derived from (1) and (2) *)
  Lemma no_stray_tmp_from_ownership : forall f0 ss evs, TInv T f0 (run T parse early p (net_start T f0 ss) evs).
  Proof.
    intros f0 ss evs. set (s := run T parse early p (net_start T f0 ss) evs).
    pose proof (raii_any_program fetch_steps f0 ss evs) as H. rewrite <- model_is_program in H. fold s in H.
    unfold IInv, embed in H. cbn [i_l i_fs] in H. unfold TInv.
    destruct (s_l s) as [rest cur [|tf got]|r|]; exact H.
  Qed.

  Lemma net_no_stray_tmp_own : forall f0 ss evs,
    let s := run T parse early p (net_start T f0 ss) evs in
    (finished T s -> tmp (s_fs s) = tmp f0) /\
    (tmp (s_fs s) = tmp f0 \/ exists c, tmp (s_fs s) = (fresh (tmp f0), c) :: tmp f0).
  Proof. intros f0 ss evs. apply no_stray_of_tinv, no_stray_tmp_from_ownership. Qed.
End RaiiProofs.
