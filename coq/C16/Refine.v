(* C16/Refine.v — the operation programs of C16/Shared.v, run to their end without interleaving,
   against the one-step function commit_cache_file of C16/Model.v (the model that the single-client theorems are
   about and that is compared with the real code on every case); create_cache_file: Properties.c16_create_program_refines. *)
From RM Require Import C16.Model C16.Proofs C16.Shared C16.SharedProofs.
Open Scope Z_scope.

(* a program run to its end by client i (no interleaving); false: an operation returned Err and the
   function was left at that point (the caller then drops the NamedTempFile) *)
Fixpoint run_ops (e : env) (i : Z) (body u : bytes) (f : mfs) (ops : list fsop) : mfs * bool :=
  match ops with
  | [] => (f, true)
  | o :: r =>
      let '(f1, ok) := exec_op e i body u f o in
      if ok then run_ops e i body u f1 r else (f1, false)
  end.

Section Refine.
  Variable T : Type.
  Variable parse : bytes -> option (T * option bytes).
  Variable create_ops commit_ops : list fsop.
  Let step_client := step_client T parse create_ops commit_ops.

  Fixpoint ticks (n : nat) (i : Z) (f : mfs) (c : client T) : mfs * client T :=
    match n with
    | O => (f, c)
    | S k => let '(f1, c1) := step_client i f c ATick in ticks k i f1 c1
    end.

  Lemma ticks_done : forall n i f srv r,
    ticks n i f (mkclient T srv (CDone r)) = (f, mkclient T srv (CDone r)).
  Proof. induction n as [|n IH]; intros; [reflexivity|]. cbn. apply IH. Qed.

  (* commit_cache_file of the machine = its program run to the end, then the temp handle dropped *)
  Lemma ticks_commit : forall ops i f srv body t,
    ticks (S (length ops)) i f (mkclient T srv (CCommit ops body t)) =
    (set_mtmp (fst (run_ops (env_of T (mkclient T srv CIdle)) i body (url_of T (mkclient T srv CIdle)) f ops)) i None,
     mkclient T srv (CDone (ROk t (Some (url_of T (mkclient T srv CIdle)))))).
  Proof.
    induction ops as [|o r IH]; intros i f srv body t.
    - reflexivity.
    - cbn [length].
      change (ticks (S (S (length r))) i f (mkclient T srv (CCommit (o :: r) body t)))
        with (let '(f1, c1) := step_client i f (mkclient T srv (CCommit (o :: r) body t)) ATick in ticks (S (length r)) i f1 c1).
      unfold step_client, Shared.step_client. unfold env_of, url_of in *. cbn [c_ph run_ops c_srv] in *.
      destruct (exec_op (match srv with s :: _ => s_env s | [] => env_ok end) i body
                        (match srv with s :: _ => s_url s | [] => [] end) f o) as [f1 ok].
      destruct ok; unfold set_ph; cbn [c_srv url_of]; cbv beta iota zeta.
      + fold step_client. rewrite IH. reflexivity.
      + fold step_client. rewrite ticks_done. reflexivity.
  Qed.
End Refine.

(* OWriteSep on the temp file of the download: fails where the model's first test does; otherwise the file holds
   body ++ sep body (written, or already so) and nothing else has changed *)
Lemma write_sep_step : forall e i body u g, m_tmp g i = Some body ->
  (negb (ends_nl body) && negb (wr_ok e (Z.of_nat (length (body ++ sep body)))) = true /\
   exec_op e i body u g OWriteSep = (g, false)) \/
  (negb (ends_nl body) && negb (wr_ok e (Z.of_nat (length (body ++ sep body)))) = false /\
   exists g2, exec_op e i body u g OWriteSep = (g2, true) /\ m_cache g2 = m_cache g /\ m_tmp g2 i = Some (body ++ sep body)).
Proof.
  intros e i body u g Ht. cbn [exec_op]. rewrite Ht. unfold sep. destruct (ends_nl body); cbn [negb andb].
  - right. split; [reflexivity|]. exists g. rewrite app_nil_r. auto.
  - destruct (wr_ok e _); cbn [negb]; [right|left; auto].
    split; [reflexivity|]. eexists. split; [reflexivity|]. split; [reflexivity|apply tmp_set_same].
Qed.

Lemma commit_refines : forall p e f n body u g i,
  m_cache g = cache f p -> m_tmp g i = Some body ->
  let f' := commit_cache_file p e f n body u in
  let r := run_ops e i body u g std_commit in
  m_cache (set_mtmp (fst r) i None) = cache f' p /\
  (forall q, q <> p -> cache f' q = cache f q) /\
  tmp f' = tmp (rm_tmp f n) /\
  (snd r = true -> m_tmp (fst r) i = None /\ m_cache (fst r) = Some (File (cached_form body u))).
Proof.
  intros p e f n body u g i Hc Ht. cbv zeta.
  enough (H : m_cache (set_mtmp (fst (run_ops e i body u g std_commit)) i None) = cache (commit_cache_file p e f n body u) p /\
              (snd (run_ops e i body u g std_commit) = true ->
               m_tmp (fst (run_ops e i body u g std_commit)) i = None /\
               m_cache (fst (run_ops e i body u g std_commit)) = Some (File (cached_form body u)))).
  { split; [apply H|]. split; [apply (commit_cache p e f n body u)|]. split; [apply commit_tmp_rm|apply H]. }
  assert (Hat : forall (h : fs) v, cache (set_cache h p v) p = v) by (intros h v; cbn; rewrite Z.eqb_refl; reflexivity).
  unfold commit_cache_file, std_commit. cbn [run_ops].
  destruct (write_sep_step e i body u g Ht) as [[Hf Ex]|[Hf [g2 [Ex [Hc2 Ht2]]]]]; rewrite Hf, Ex.
  { split; [exact Hc|discriminate]. }
  assert (Hg2 : m_cache g2 = cache f p) by (rewrite Hc2; exact Hc).
  (* OWriteNote: the file then holds the committed form *)
  cbn [run_ops exec_op]. rewrite Ht2.
  replace ((body ++ sep body) ++ trailer u) with (cached_form body u) by apply app_assoc.
  destruct (wr_ok e (Z.of_nat (length (cached_form body u)))); cbn [negb]; [|split; [exact Hg2|discriminate]].
  (* ORemoveIfExists, OPersist *)
  cbn [m_cache set_mtmp]. rewrite Hg2.
  destruct (cache f p) as [[c|]|] eqn:Ec; [destruct (rm_ok e)| |]; cbn [m_tmp set_mtmp set_mcache m_cache];
    rewrite ?Z.eqb_refl, ?Hg2.
  - destruct (persist_ok e); cbn [fst snd rm_tmp cache]; rewrite ?Hat.
    + split; [reflexivity|]. intros _. split; [apply tmp_set_same|reflexivity].
    + split; [reflexivity|discriminate].
  - split; [cbn; rewrite Ec; exact Hg2|discriminate].
  - split; [cbn; rewrite Ec; exact Hg2|discriminate].
  - destruct (persist_ok e); cbn [fst snd rm_tmp cache]; rewrite ?Hat.
    + split; [reflexivity|]. intros _. split; [apply tmp_set_same|reflexivity].
    + split; [cbn; rewrite Ec; exact Hg2|discriminate].
Qed.
