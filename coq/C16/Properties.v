(* C16/Properties.v — the property theorems of C16, each with its full statement, a short proof from the lemmas of the
   lemma files (an instance, or a few lines) and its Print Assumptions; and the non-vacuity examples.
   All theorems hold for every symbol-table type T, every parser verdict function [parse]
   (a function of the byte string only), every early-rejection predicate [early], every cache
   path p, every initial file system, every list of servers with arbitrary outcomes of the
   file-system calls, and EVERY event list — in particular with EDrop (the future is dropped)
   at any position.  They are full statements about the state machine.
   The removal of the temp file on every exit edge is a theorem about ownership: the state machine of C16/Model.v is
   proved to be (c16_model_is_ownership_semantics) the interpreter of C16/Raii.v — a frame of owned locals, ONE drop site
   (the frame is left: return, `?`, or the future dropped at an await), a NamedTempFile's drop removes its file, passing it
   by value to commit_cache_file moves it — run on the step list that translate/c16_fsops.py extracts from
   fetch_symbol_file, and that interpreter leaves no temp file behind for EVERY program (c16_raii_every_program).
   What stays outside: that rustc runs drops where the language says, tempfile's Drop implementation, and a killed
   process (no drops at all).  The property as a whole stays partial (manifest): the
   events are what reqwest/hyper/tokio deliver, persist is one step by the kernel's rename
   atomicity, a concurrently writing second process is outside the model. *)
(* C12's names (run, step, outcome, ..) must not shadow C16.Model's: C12 is loaded FIRST and always written with its full name *)
From RM Require C12.Model C12.Proofs C12.FileModel C12.FileProofs.
From RM Require Import C09.Grammar C10.Model C16.Model C16.Proofs.
From RM Require C10.ProofsCache.
From RM Require Import C16.Driver C16.Shared C16.SharedProofs C16.Refine Gen.C16Ops.
From RM Require C09.Model C10.Stream C16.Stream C16.StreamProofs C16.StreamInst C16.StreamProofs2 C16.StreamPins C16.StaleFlag C16.Raii C16.RaiiProofs C16.StreamRefine C16.LocateSrc Gen.C16Locate C16.StreamRaii C16.StreamRaiiProofs C16.InProcess C16.FileFetch C16.FileFetchProofs C16.FileFetchSrc C16.FileRaii C16.FileRaiiProofs.
Open Scope Z_scope.

Section Statements.
  Variable T : Type.
  Variable parse : bytes -> option (T * option bytes).
  Variable early : bytes -> bool.
  Variable p : path.
  Let run := run T parse early p.
  Let net_start := net_start T.
  Let locate := locate T parse early p.

  (* A regular file appears (or changes) at a cache path only at the module's own path, only
     in a run in which one server answered with a non-error status, its whole body arrived
     (clean end of body, no error in between) and the parser accepted exactly those bytes;
     the lookup then returns that table with that server's URL. *)
  Theorem c16_commit_only_after_ok : forall f0 ss evs q c,
    let s := run (net_start f0 ss) evs in
    cache (s_fs s) q = Some (File c) -> cache f0 q <> Some (File c) ->
    q = p /\
    exists pre cur code chunks post t x,
      evs = pre ++ EHead code :: map EChunk chunks ++ EEof :: post /\ In cur ss /\ code < 400 /\
      parse (concat chunks) = Some (t, x) /\
      s_l s = LDone (ROk t (Some (s_url cur))) /\
      c = cached_form (concat chunks) (s_url cur).
  Proof. exact (net_commit_only_after_ok T parse early p). Qed.

  (* ... and it consists of exactly the downloaded bytes followed by `INFO URL u\n`; if the
     downloaded bytes do not end in a newline, one newline separates them from the record *)
  Theorem c16_content : forall f0 ss evs q c,
    let s := run (net_start f0 ss) evs in
    cache (s_fs s) q = Some (File c) -> cache f0 q <> Some (File c) ->
    exists pre cur code chunks post,
      evs = pre ++ EHead code :: map EChunk chunks ++ EEof :: post /\ In cur ss /\
      (ends_nl (concat chunks) = true -> c = concat chunks ++ trailer (s_url cur)) /\
      (ends_nl (concat chunks) = false -> c = concat chunks ++ [NL] ++ trailer (s_url cur)).
  Proof.
    intros f0 ss evs q c s Hq Hne.
    destruct (net_commit_only_after_ok T parse early p f0 ss evs q c Hq Hne)
      as [_ [pre [cur [code [chunks [post [t [x [Hev [Hin [_ [_ [_ Hc]]]]]]]]]]]]].
    exists pre, cur, code, chunks, post. split; [exact Hev|]. split; [exact Hin|].
    unfold cached_form, sep in Hc. split; intro He; rewrite He in Hc; exact Hc.
  Qed.

  (* After any finished run — success, failure, or drop at any point — the tmp directory is
     as before; while a run is pending there is at most the one in-flight temp file. *)
  Theorem c16_no_stray_tmp : forall f0 ss evs,
    let s := run (net_start f0 ss) evs in
    (finished T s -> tmp (s_fs s) = tmp f0) /\
    (tmp (s_fs s) = tmp f0 \/ exists c, tmp (s_fs s) = (fresh (tmp f0), c) :: tmp f0).
  Proof. exact (RM.C16.RaiiProofs.net_no_stray_tmp_own T parse early p). Qed.

  (* Every run that does not end in success (HTTP error, send error, cut body, corrupt
     content, dropped, still pending) leaves the whole cache as it was — a pre-existing entry
     at the path stays intact. *)
  Theorem c16_failed_leaves_no_entry : forall f0 ss evs,
    let s := run (net_start f0 ss) evs in
    ~ succeeded T s -> forall q, cache (s_fs s) q = cache f0 q.
  Proof. exact (net_failed_cache_unchanged T parse early p). Qed.

  (* What a successful download does at the path: the new entry, or nothing (caching given up
     or a step of the commit failed), or — when a regular file was already there, it was
     removed and persist then failed — no entry at all.  Other paths are untouched. *)
  Theorem c16_success_cases : forall f0 ss evs t u,
    let s := run (net_start f0 ss) evs in
    s_l s = LDone (ROk t u) ->
    (forall q, q <> p -> cache (s_fs s) q = cache f0 q) /\
    exists pre cur code chunks post x,
      evs = pre ++ EHead code :: map EChunk chunks ++ EEof :: post /\ In cur ss /\ code < 400 /\
      parse (concat chunks) = Some (t, x) /\ u = Some (s_url cur) /\
      (cache (s_fs s) p = Some (File (cached_form (concat chunks) (s_url cur))) \/
       cache (s_fs s) p = cache f0 p \/
       (cache (s_fs s) p = None /\ exists c, cache f0 p = Some (File c))).
  Proof.
    intros f0 ss evs t u s Hs. pose proof (inv_net T parse early p f0 ss evs) as H.
    unfold Proofs.Inv in H. unfold s, run, net_start in Hs. rewrite Hs in H.
    destruct H as [_ [H2 [_ [cur [got [x [[pre [code [chunks [post [Hev [Hcode ->]]]]]] [Hin [Hp [Hu Hpost]]]]]]]]]].
    split; [exact H2|]. exists pre, cur, code, chunks, post, x. auto 6.
  Qed.

  (* The same three statements for whole lookups (local paths, cache, then network). *)
  Theorem c16_locate_entry_only_after_ok : forall f locals ss evs q c,
    let s := locate f locals None ss evs in
    cache (s_fs s) q = Some (File c) -> cache f q <> Some (File c) ->
    q = p /\
    exists pre cur code chunks post t x,
      evs = pre ++ EHead code :: map EChunk chunks ++ EEof :: post /\ In cur ss /\ code < 400 /\
      parse (concat chunks) = Some (t, x) /\
      s_l s = LDone (ROk t (Some (s_url cur))) /\
      c = cached_form (concat chunks) (s_url cur).
  Proof.
    intros f locals ss evs q c s. unfold s, locate.
    destruct (locate_split T parse early p f locals ss evs) as [Hf|Hn].
    - rewrite Hf. intros H1 H2. contradiction.
    - rewrite Hn. apply net_commit_only_after_ok.
  Qed.

  Theorem c16_locate_no_stray_tmp : forall f locals ss evs,
    let s := locate f locals None ss evs in
    (finished T s -> tmp (s_fs s) = tmp f) /\
    (tmp (s_fs s) = tmp f \/ exists c, tmp (s_fs s) = (fresh (tmp f), c) :: tmp f).
  Proof.
    intros f locals ss evs. apply (locate_no_stray T parse early p), RM.C16.RaiiProofs.net_no_stray_tmp_own.
  Qed.

  Theorem c16_locate_failed_leaves_no_entry : forall f locals ss evs,
    let s := locate f locals None ss evs in
    ~ succeeded T s -> forall q, cache (s_fs s) q = cache f q.
  Proof.
    intros f locals ss evs s. unfold s, locate.
    destruct (locate_split T parse early p f locals ss evs) as [Hf|Hn].
    - rewrite Hf. reflexivity.
    - rewrite Hn. apply net_failed_cache_unchanged.
  Qed.

  (* Only NotFound cascades: a file in a local symbol path or in the cache decides the lookup
     (Ok or parse error), no request is made and nothing is written. *)
  Theorem c16_only_notfound_cascades : forall f locals race ss evs c,
    first_file (locals ++ [cache_file f p]) = Some c ->
    let s := locate f locals race ss evs in
    s_log s = [] /\ s_fs s = f /\ (parse c = None -> s_l s = LDone RParse).
  Proof.
    intros f locals race ss evs c Hc s.
    destruct (locate_local_hit T parse early p f locals race ss evs c Hc) as [Hf [Hlog Hl]].
    split; [exact Hlog|]. split; [exact Hf|]. intro Hp. unfold s, locate. rewrite Hl, Hp. reflexivity.
  Qed.

  (* A later lookup that finds an entry at the path yields the same table and the same URL,
     makes no request and writes nothing — under the stated contract of the parser:
     terminating an unterminated last line and appending an INFO URL record changes nothing
     but the url.  (Without the separating newline the record would be glued to an over-long
     unterminated last line and be discarded with it: finding F-C16a, fixed in the code.) *)
  Theorem c16_rehit_same_any_parser :
    (forall b t x u, parse b = Some (t, x) -> parse (cached_form b u) = Some (t, Some u)) ->
    forall f0 locals ss evs t u ss2 evs2,
    let s1 := locate f0 locals None ss evs in
    s_l s1 = LDone (ROk t u) ->
    (exists c, cache (s_fs s1) p = Some (File c)) ->
    let s2 := locate (s_fs s1) locals None ss2 evs2 in
    s_l s2 = LDone (ROk t u) /\ s_log s2 = [] /\ s_fs s2 = s_fs s1.
  Proof.
    intros Hct f0 locals ss evs t u ss2 evs2. apply (rehit_same_on T parse early p).
    intros b t0 x cur _ Hp. apply (Hct b t0 x (s_url cur) Hp).
  Qed.

  (* Requests go to the servers in the configured order, at most one per server, and none
     after the lookup has finished (the log is map s_id of a prefix of the server list). *)
  Theorem c16_requests_in_order : forall f ss evs,
    let s := run (net_start f ss) evs in
    exists dn rest, ss = dn ++ rest /\ s_log s = map s_id dn.
  Proof. exact (net_requests_prefix T parse early p). Qed.
End Statements.

Print Assumptions c16_commit_only_after_ok.
Print Assumptions c16_content.
Print Assumptions c16_no_stray_tmp.
Print Assumptions c16_failed_leaves_no_entry.
Print Assumptions c16_success_cases.
Print Assumptions c16_locate_entry_only_after_ok.
Print Assumptions c16_locate_no_stray_tmp.
Print Assumptions c16_locate_failed_leaves_no_entry.
Print Assumptions c16_only_notfound_cascades.
Print Assumptions c16_rehit_same_any_parser.
Print Assumptions c16_requests_in_order.


(* The cache-hit theorem for the parser model of C09/C10 ([parse_bytes]: the whole-input verdict
   that SymbolFile::parse/parse_async return under every chunking when all lines are shorter than
   80 KiB, c10_chunk_independent).  The parser contract is not assumed: it is
   c10_cached_form_parse.  Only hypothesis: the servers' URLs are [url_ok] (one line, valid
   UTF-8, not starting with a blank) — `Url::to_string()` of the url crate always is: it starts
   with the scheme and percent-encodes blanks, controls and non-ASCII bytes. *)
Theorem c16_rehit_same : forall early p f0 locals ss evs t u ss2 evs2,
  Forall (fun s => url_ok (s_url s)) ss ->
  let s1 := locate Grammar.table parse_bytes early p f0 locals None ss evs in
  s_l s1 = LDone (ROk t u) ->
  (exists c, cache (s_fs s1) p = Some (File c)) ->
  let s2 := locate Grammar.table parse_bytes early p (s_fs s1) locals None ss2 evs2 in
  s_l s2 = LDone (ROk t u) /\ s_log s2 = [] /\ s_fs s2 = s_fs s1.
Proof.
  intros early p f0 locals ss evs t u ss2 evs2 Hok. apply (rehit_same_on Grammar.table parse_bytes early p).
  intros b t0 x cur Hin Hp. apply (RM.C10.ProofsCache.cached_form_parse b (s_url cur) t0 x); [|exact Hp].
  rewrite Forall_forall in Hok. apply (Hok cur Hin).
Qed.
Print Assumptions c16_rehit_same.

(* non-vacuity: concrete runs with the driver's line recogniser *)
Definition ex_body1 : bytes := [77; 79; 68; 85; 76; 69; 32; 97; 32; 98; 32; 49; 32; 99; 10].   (* "MODULE a b 1 c\n" *)
Definition ex_body2 : bytes := [80; 85; 66; 76; 73; 67; 32; 49; 32; 48; 32; 120; 10].           (* "PUBLIC 1 0 x\n" *)
Definition ex_url : bytes := [104; 116; 116; 112; 58; 47; 47; 115; 47; 120].                    (* "http://s/x" *)
Definition ex_env : env := mk_env true true (-1) true true.
Definition ex_srv : server := mkserver 0 ex_url ex_env.
Definition ex_fs : fs := init_fs 0 [].

(* a complete download commits exactly body ++ INFO URL record, leaves tmp empty, and the
   next lookup is served from the cache with the same table and URL and without a request *)
Example c16_nonvacuous_commit :
  let s := lookup ex_fs [] None [ex_srv] [EHead 200; EChunk ex_body1; EChunk ex_body2; EEof] in
  o_cache s = Some (File (ex_body1 ++ ex_body2 ++ trailer ex_url)) /\ o_tmp s = [] /\
  o_result s = (0, (0, 1), Some ex_url) /\
  let s2 := lookup (o_fs s) [] None [ex_srv] [EHead 404] in
  o_result s2 = (0, (0, 1), Some ex_url) /\ o_log s2 = [].
Proof. vm_compute. repeat split; reflexivity. Qed.

(* a temp file is in flight mid-body; dropping the future there removes it and leaves no entry *)
Example c16_nonvacuous_drop :
  o_tmp (lookup ex_fs [] None [ex_srv] [EHead 200; EChunk ex_body1]) = [15] /\
  let s := lookup ex_fs [] None [ex_srv] [EHead 200; EChunk ex_body1; EDrop; EChunk ex_body2; EEof] in
  o_cache s = None /\ o_tmp s = [] /\ o_result s = (3, (0, 0), None).
Proof. vm_compute. repeat split; reflexivity. Qed.

(* cut body, corrupt line, 404 then 200: only the good server's file is cached *)
Example c16_nonvacuous_failures :
  o_cache (lookup ex_fs [] None [ex_srv] [EHead 200; EChunk ex_body1; EBodyErr]) = None /\
  o_cache (lookup ex_fs [] None [ex_srv] [EHead 200; EChunk ex_body1; EChunk [88; 10]; EEof]) = None /\
  let s := lookup ex_fs [] None [mkserver 0 [48] ex_env; mkserver 1 ex_url ex_env]
                  [EHead 404; EHead 200; EChunk ex_body1; EEof] in
  o_cache s = Some (File (ex_body1 ++ trailer ex_url)) /\ o_log s = [0; 1].
Proof. vm_compute. repeat split; reflexivity. Qed.

(* F-C16a: why the separating newline is there (over-long threshold scaled down to 20 bytes).
   Body = MODULE line + an over-long unterminated line (accepted: the line is discarded).
   Gluing the record to it loses the URL on re-parse; the committed form keeps it. *)
Example c16_nonvacuous_sep_needed :
  let body := ex_body1 ++ repeat 120 25 in
  parse_lite_g 20 body = Some ((0, 0), None) /\
  parse_lite_g 20 (body ++ trailer ex_url) = Some ((0, 0), None) /\
  parse_lite_g 20 (cached_form body ex_url) = Some ((0, 0), Some ex_url).
Proof. vm_compute. repeat split; reflexivity. Qed.

(* the hypotheses of c16_rehit_same are satisfiable: a download parsed by parse_bytes is committed *)
Example c16_nonvacuous_rehit_bytes :
  url_ok ex_url /\
  let s := locate Grammar.table parse_bytes (fun _ => false) P0 ex_fs [] None [ex_srv]
                  [EHead 200; EChunk ex_body1; EChunk ex_body2; EEof] in
  (match s_l s with LDone (ROk _ u) => u = Some ex_url | _ => False end) /\
  cache (s_fs s) P0 = Some (File (ex_body1 ++ ex_body2 ++ trailer ex_url)).
Proof.
  split.
  - unfold url_ok. split; [|split; vm_compute; reflexivity].
    unfold ex_url. repeat (constructor; [split; discriminate|]). constructor.
  - vm_compute. split; reflexivity.
Qed.


(* Shared cache: ANY number of clients (HttpSymbolSupplier instances or processes; client =
   a key in Z) share one cache path and one tmp directory; the scheduler interleaves their network
   events and their file-system operations one operation at a time, in every possible way (the
   schedule is an arbitrary list of (client, action)).  The operation programs are the ones
   translate/c16_fsops.py extracts from create_cache_file / commit_cache_file of http.rs
   (RM.Gen.C16Ops.create_ops / commit_ops): the two side conditions are discharged by computation
   on those lists, so an operation moved or reordered in the source makes these proofs fail. *)
Section SharedStatements.
  Variable T : Type.
  Variable parse : bytes -> option (T * option bytes).
  Let mrun := mrun T parse create_ops commit_ops.
  Let mstep := mstep T parse create_ops commit_ops.
  Let quiet := quiet T parse create_ops commit_ops.

  (* Invariant, for every schedule: whatever regular file is at the cache path is complete — the file
     that was there before, or body ++ (newline iff missing) ++ INFO URL note for a body the parser
     accepted as a whole; a client that is finished (or never started) owns no temp file; the temp file
     of a client in flight holds exactly what that client received / prepared. *)
  Theorem c16_shared_cache_inv : forall (c0 : option node) f srv sched,
    m_cache f = c0 -> (forall i, m_tmp f i = None) ->
    let s := mrun (minit T f srv) sched in
    (forall c, m_cache (ms_fs s) = Some (File c) ->
       c0 = Some (File c) \/ exists body u t x, parse body = Some (t, x) /\ c = cached_form body u) /\
    (forall i, cfinished T (c_ph (ms_cl s i)) = true -> m_tmp (ms_fs s) i = None) /\
    (forall i b, m_tmp (ms_fs s) i = Some b ->
       match c_ph (ms_cl s i) with
       | CCreate _ => b = []
       | CBody got => b = got
       | CCommit _ body _ => exists x t, parse body = Some (t, x) /\
                             (b = body \/ b = body ++ sep body \/ b = cached_form body (url_of T (ms_cl s i)))
       | _ => False
       end).
  Proof.
    intros c0 f srv sched Hc Ht s.
    destruct (reach_inv T parse create_ops commit_ops eq_refl eq_refl c0 f srv sched Hc Ht) as [Hg Hcl].
    fold mrun in Hg, Hcl. fold s in Hg, Hcl. split; [|split].
    - intros c E. unfold cache_good in Hg. rewrite E in Hg. exact Hg.
    - intros i Hf. specialize (Hcl i). unfold client_ok in Hcl.
      destruct (c_ph (ms_cl s i)); try discriminate Hf; exact Hcl.
    - intros i b Hb. specialize (Hcl i). unfold client_ok in Hcl.
      destruct (c_ph (ms_cl s i)) as [| |ops|got|ops body t|r|]; try (rewrite Hcl in Hb; discriminate).
      + apply (proj2 Hcl). exact Hb.
      + apply Hcl. exact Hb.
      + destruct Hcl as [[x Hp] Hpos]. exists x, t. split; [exact Hp|].
        destruct Hpos as [[_ Et]|[[_ Et]|[[_ Et]|[[_ Et]|[_ Et]]]]]; rewrite Et in Hb; inversion Hb; auto.
  Qed.

  (* The cache path changes only in a step of a client that is inside commit_cache_file, i.e. after
     the clean end of its body and parser Ok on all of it. *)
  Theorem c16_shared_cache_changes_only_in_commit : forall (c0 : option node) f srv sched i a,
    m_cache f = c0 -> (forall i, m_tmp f i = None) ->
    let s := mrun (minit T f srv) sched in
    m_cache (ms_fs (mstep s (i, a))) <> m_cache (ms_fs s) ->
    exists ops body t x, c_ph (ms_cl s i) = CCommit ops body t /\ parse body = Some (t, x).
  Proof.
    intros c0 f srv sched i a Hc Ht s Hne.
    destruct (mstep_cache T parse create_ops commit_ops eq_refl eq_refl c0 s i a (reach_inv T parse create_ops commit_ops eq_refl eq_refl c0 f srv sched Hc Ht))
      as [E|[ops [body [t [x [Eph [Hp _]]]]]]]; [contradiction|].
    exists ops, body, t, x. split; assumption.
  Qed.

  (* Hence: once an entry is at the path, every continuation of the history in which no client
     commits — other clients' downloads start, receive their head (create_cache_file runs), stream,
     fail in any way, or are dropped at any point — leaves that entry exactly as it is. *)
  Theorem c16_shared_failed_downloads_keep_entry : forall (c0 : option node) f srv pre post,
    m_cache f = c0 -> (forall i, m_tmp f i = None) ->
    let s1 := mrun (minit T f srv) pre in
    quiet s1 post ->
    m_cache (ms_fs (mrun s1 post)) = m_cache (ms_fs s1).
  Proof.
    intros c0 f srv pre post Hc Ht s1 Hq.
    apply (quiet_cache T parse create_ops commit_ops eq_refl eq_refl c0); [|exact Hq].
    exact (reach_inv T parse create_ops commit_ops eq_refl eq_refl c0 f srv pre Hc Ht).
  Qed.
End SharedStatements.

Print Assumptions c16_shared_cache_inv.
Print Assumptions c16_shared_cache_changes_only_in_commit.
Print Assumptions c16_shared_failed_downloads_keep_entry.

(* The same machine with the operation order of seeded change C16-3 (the removal of an existing entry
   moved from commit_cache_file into create_cache_file): a history in which client 1 commits a complete
   entry and client 0, which never gets as far as commit_cache_file, then deletes it. *)
Definition u_parse (b : bytes) : option (unit * option bytes) := match b with [] => None | _ => Some (tt, None) end.
Definition u_srv (i : Z) : list server := [mkserver i [104; 48 + i] env_ok].
Definition u_f0 : mfs := mkmfs None false (fun _ => None).
Definition u_pre : list (Z * action) :=
  [(0, AStart); (1, AStart); (1, ANet (EHead 200)); (1, ATick); (1, ATick); (1, ATick); (1, ATick);
   (1, ANet (EChunk [65; 10])); (1, ANet EEof); (1, ATick); (1, ATick); (1, ATick); (1, ATick); (1, ATick)].
Definition u_post : list (Z * action) :=
  [(0, ANet (EHead 200)); (0, ATick); (0, ATick); (0, ATick); (0, ATick); (0, ANet (EChunk [66])); (0, ANet EBodyErr)].

Theorem c16_shared_seeded_order_refuted :
  let cr := [OMkdirAll; ORemoveIfExists; ONewTemp] in
  let cm := [OWriteSep; OWriteNote; OPersist] in
  let s1 := mrun unit u_parse cr cm (minit unit u_f0 u_srv) u_pre in
  m_cache (ms_fs s1) = Some (File (cached_form [65; 10] [104; 49])) /\
  quiet unit u_parse cr cm s1 u_post /\
  m_cache (ms_fs (mrun unit u_parse cr cm s1 u_post)) = None.
Proof. vm_compute. repeat split; reflexivity. Qed.
Print Assumptions c16_shared_seeded_order_refuted.

(* non-vacuity: the same history on the programs of the source keeps the entry, leaves no temp file,
   and the failing client ends NotFound *)
Example c16_nonvacuous_shared :
  let s1 := mrun unit u_parse create_ops commit_ops (minit unit u_f0 u_srv) u_pre in
  let s2 := mrun unit u_parse create_ops commit_ops s1 u_post in
  m_cache (ms_fs s1) = Some (File (cached_form [65; 10] [104; 49])) /\
  quiet unit u_parse create_ops commit_ops s1 u_post /\
  m_cache (ms_fs s2) = Some (File (cached_form [65; 10] [104; 49])) /\
  m_tmp (ms_fs s2) 0 = None /\ m_tmp (ms_fs s2) 1 = None /\
  c_ph (ms_cl s2 0) = CDone RNotFound.
Proof. vm_compute. repeat split; reflexivity. Qed.

(* non-vacuity: both succeed; the later commit replaces the earlier entry by its own complete file *)
Example c16_nonvacuous_shared_both :
  let sched := u_pre ++ [(0, ANet (EHead 200)); (0, ATick); (0, ATick); (0, ATick); (0, ANet (EChunk [66; 10])); (0, ANet EEof);
                         (0, ATick); (0, ATick); (0, ATick); (0, ATick); (0, ATick)] in
  let s := mrun unit u_parse create_ops commit_ops (minit unit u_f0 u_srv) sched in
  m_cache (ms_fs s) = Some (File (cached_form [66; 10] [104; 48])) /\ m_tmp (ms_fs s) 0 = None.
Proof. vm_compute. split; reflexivity. Qed.

(* the order in which fetch_symbol_file takes its steps (translated from the source) is the one the
   step function of the machines was written for: send + status check, create_cache_file, parse with
   the tee callback and `?`, url, commit only `if let Some(temp)`, Ok *)
Example c16_fetch_steps_as_modelled :
  fetch_steps = [FSend; FCreate; FParseTee; FSetUrl; FCommitIfTemp; FReturnOk] /\
  create_ops = [OMkdirAll; ONewTemp] /\ commit_ops = std_commit.
Proof. repeat split; reflexivity. Qed.
Print Assumptions c16_fetch_steps_as_modelled.

(* The operation programs against the one-step functions of C16/Model.v (the model of the theorems
   above, compared with the real code on every single-client case): run to its end without
   interleaving, the translated program of commit_cache_file has exactly the effect of
   Model.commit_cache_file on the cache path — on every error branch (write of the separator or of
   the note fails, remove_file fails or hits a directory, persist fails) and on success — other
   paths are untouched, the temp file is gone from tmp in every branch, and when every operation
   succeeded the entry is cached_form body u.  Likewise create_cache_file. *)
Theorem c16_commit_program_refines : forall p e f n body u g i,
  m_cache g = cache f p -> m_tmp g i = Some body ->
  let f' := Model.commit_cache_file p e f n body u in
  let r := run_ops e i body u g commit_ops in
  m_cache (set_mtmp (fst r) i None) = cache f' p /\
  (forall q, q <> p -> cache f' q = cache f q) /\
  tmp f' = tmp (rm_tmp f n) /\
  (snd r = true -> m_tmp (fst r) i = None /\ m_cache (fst r) = Some (File (cached_form body u))).
Proof. exact commit_refines. Qed.
Print Assumptions c16_commit_program_refines.

Theorem c16_create_program_refines : forall p e f g i u,
  m_cdir g = cdir f p -> m_tmp g i = None ->
  let r := run_ops e i [] u g create_ops in
  let fr := Model.create_cache_file p e f in
  m_cache (fst r) = m_cache g /\
  m_cdir (fst r) = cdir (fst fr) p /\
  (forall q, cache (fst fr) q = cache f q) /\
  (snd r = true -> snd fr <> None /\ m_tmp (fst r) i = Some []) /\
  (snd r = false -> snd fr = None /\ m_tmp (fst r) i = None /\ tmp (fst fr) = tmp f).
Proof.
  intros p e f g i u Hd Ht. cbn zeta. unfold create_cache_file. change create_ops with [OMkdirAll; ONewTemp]. cbn [run_ops exec_op].
  destruct (mk_ok e); [|cbn; repeat split; auto; discriminate].
  destruct (create_ok e); cbn; rewrite ?Z.eqb_refl; repeat split; auto; try discriminate.
Qed.
Print Assumptions c16_create_program_refines.

(* the machine's commit phase IS that program: |ops|+1 scheduler steps of one client, uninterrupted *)
Theorem c16_machine_commit_is_program : forall (T : Type) (parse : bytes -> option (T * option bytes)) ops i f srv body t,
  ticks T parse create_ops commit_ops (S (length ops)) i f (mkclient T srv (CCommit ops body t)) =
  (set_mtmp (fst (run_ops (env_of T (mkclient T srv CIdle)) i body (url_of T (mkclient T srv CIdle)) f ops)) i None,
   mkclient T srv (CDone (ROk t (Some (url_of T (mkclient T srv CIdle)))))).
Proof. exact (fun T parse => ticks_commit T parse create_ops commit_ops). Qed.
Print Assumptions c16_machine_commit_is_program.

Example c16_nonvacuous_commit_program :
  let g := mkmfs (Some (File [1])) true (fun j => if j =? 3 then Some [65] else None) in
  let r := run_ops env_ok 3 [65] [104] g commit_ops in
  snd r = true /\ m_cache (fst r) = Some (File (cached_form [65] [104])) /\ m_tmp (fst r) 3 = None.
Proof. vm_compute. repeat split; reflexivity. Qed.

(* Provenance, for every schedule: the step that makes a file appear (or change) at the shared cache
   path is a step of a client i inside commit_cache_file — its persist — and the file is the committed
   form of exactly the body client i received before the clean end of its response, which the parser
   accepted as a whole, annotated with the URL of the server client i is talking to. *)
Theorem c16_shared_new_entry_provenance :
  forall (T : Type) (parse : bytes -> option (T * option bytes)) (c0 : option node) f srv sched i a cc,
  m_cache f = c0 -> (forall i, m_tmp f i = None) ->
  let s := mrun T parse create_ops commit_ops (minit T f srv) sched in
  m_cache (ms_fs (mstep T parse create_ops commit_ops s (i, a))) = Some (File cc) ->
  m_cache (ms_fs s) <> Some (File cc) ->
  exists ops body t x, c_ph (ms_cl s i) = CCommit ops body t /\ parse body = Some (t, x) /\
                       cc = cached_form body (url_of T (ms_cl s i)).
Proof.
  intros T parse c0 f srv sched i a cc Hc Ht s H1 H0.
  destruct (mstep_cache T parse create_ops commit_ops eq_refl eq_refl c0 s i a (reach_inv T parse create_ops commit_ops eq_refl eq_refl c0 f srv sched Hc Ht))
    as [E|[ops [body [t [x [Eph [Hp [E|E]]]]]]]]; rewrite E in H1; [contradiction|discriminate|].
  exists ops, body, t, x. split; [exact Eph|]. split; [exact Hp|]. inversion H1. reflexivity.
Qed.
Print Assumptions c16_shared_new_entry_provenance.

(* The structure of HttpSymbolSupplier::locate_symbols is the source's (translate/c16_locate.py -> Gen/C16Locate.v).
   [cascades] is TRANSLATED from the pattern of `if !matches!(local_result, Err(SymbolError::NotFound)) { return local_result.map(..) }`
   (which outcomes of the local lookup — symbol paths, then the cache — go on to the network), [server_loop] from the arms of
   `match sym { Ok(symbols) => { return Ok(..) } Err(e) => { trace!(..) } }`, [after_loop] from the final `Err(SymbolError::NotFound)`;
   every other statement of the function is pinned.  Model.locate — what c16_only_notfound_cascades, c16_locate_* and the
   correspondence run are about — is the function assembled from them: a widened cascade pattern (`Err(_)`) or a loop that does
   not return at the first Ok makes this theorem fail / the translator abort. *)
Theorem c16_locate_is_source :
  RM.Gen.C16Locate.server_loop = RM.Gen.C16Locate.SReturnFirstOk /\ RM.Gen.C16Locate.after_loop = RM.Gen.C16Locate.ANotFound /\
  forall (T : Type) (parse : bytes -> option (T * option bytes)) (early : bytes -> bool) (p : path) f locals race ss evs,
    Model.locate T parse early p f locals race ss evs = RM.C16.LocateSrc.locate_src T parse early p f locals race ss evs.
Proof.
  split; [reflexivity|]. split; [reflexivity|].
  intros T parse early p. exact (proj2 (proj2 (RM.C16.LocateSrc.locate_is_source T parse early p))).
Qed.
Print Assumptions c16_locate_is_source.

(* RAII as a theorem about ownership (C16/Raii.v, C16/RaiiProofs.v).
   [irun prog]: fetch_symbol_file's body as a list of steps run under ownership rules — the droppable locals live in a frame;
   the ONLY drop sites are [leave] (applied by the interpreter whenever the frame is left: `Ok(..)`, an error through `?`, the
   future dropped while suspended at an await) and the overwriting of `temp`; a dropped NamedTempFile removes its file;
   `commit_cache_file(temp, ..)` takes it by value (the callee persists it or drops it: c16_commit_program_refines). *)

(* EVERY program over these steps (any order, any repetition), every list of servers, every event list (EDrop anywhere),
   every outcome of every file-system call: once a call of the function has been left the tmp directory is as it was when
   the lookup started; while one is running it holds at most the file the frame owns. *)
Theorem c16_raii_every_program :
  forall (T : Type) (parse : bytes -> option (T * option bytes)) (early : bytes -> bool) (p : path)
         (prog : list fstep) f0 ss evs,
  let s := RM.C16.Raii.irun T parse early p prog (RM.C16.Raii.istart T prog f0 ss) evs in
  match RM.C16.Raii.i_l s with
  | RM.C16.Raii.IRun _ _ _ fr => tmp_inv f0 (RM.C16.Raii.i_fs s) (RM.C16.Raii.fr_temp fr)
  | _ => tmp (RM.C16.Raii.i_fs s) = tmp f0
  end.
Proof. exact RM.C16.RaiiProofs.raii_any_program. Qed.
Print Assumptions c16_raii_every_program.

(* The state machine of C16/Model.v (what all theorems above are about, and what is compared with the real code) IS that
   interpreter on the step list translated from the source (Gen/C16Ops.v fetch_steps): same file system, request log, result
   and continuation after every event list.  So the drop_temp calls in Model.step are exactly the drops the ownership
   rules produce — none missing, none extra. *)
Theorem c16_model_is_ownership_semantics :
  forall (T : Type) (parse : bytes -> option (T * option bytes)) (early : bytes -> bool) (p : path) f0 ss evs,
  RM.C16.RaiiProofs.embed T (run T parse early p (net_start T f0 ss) evs)
  = RM.C16.Raii.irun T parse early p fetch_steps (RM.C16.Raii.istart T fetch_steps f0 ss) evs.
Proof. exact RM.C16.RaiiProofs.model_is_program. Qed.
Print Assumptions c16_model_is_ownership_semantics.

(* non-vacuity: a program that forgets nothing still cannot leak — and one that creates the temp file twice
   (`FCreate; FCreate`) does not either: the first handle is dropped by the assignment *)
Example c16_nonvacuous_raii_double_create :
  let prog := [FSend; FCreate; FCreate; FParseTee; FReturnOk] in
  let s := RM.C16.Raii.irun (Z * Z) parse_drv early_drv 7 prog
             (RM.C16.Raii.istart (Z * Z) prog (init_fs 0 []) [mkserver 0 [104] (mk_env true true (-1) true true)])
             [EHead 200; EChunk [77; 79; 68]] in
  List.length (tmp (RM.C16.Raii.i_fs s)) = 1%nat /\
  tmp (RM.C16.Raii.i_fs (RM.C16.Raii.istep (Z * Z) parse_drv early_drv 7 prog s EDrop)) = [].
Proof. vm_compute. split; reflexivity. Qed.

(* The download with the REAL streaming parser inside (C16/Stream.v).
   Above, the parser is a function of the whole byte string and "the temp file holds all bytes received" is a
   simplification.  Here fetch_symbol_file is composed with the loop of SymbolFile::parse_async itself
   (C10/Stream.v [step_stream]: circular buffer indices, fully_consumed / tried_to_grow / recovery flags, the refill
   block that skips empty chunks) and with the tee callback: the body is a script of what `response.chunk().await`
   returns — chunks of ANY size, EMPTY chunks, a failure at any point — the loop decides by itself when the body has
   ended (a 0-byte read with `fully_consumed` set), every callback call writes to the temp file (or gives up caching
   when the write fails), and commit_cache_file runs only after Ok.  Generic in the recogniser (parse_more's verdict on
   one complete line) and in finish().  [b] is what the body delivers; [split b] its lines and unterminated rest. *)
Module S := RM.C16.Stream.
Module SP := RM.C16.StreamProofs.

(* ONE download, every body script, every outcome of every file-system call:
   - tmp is as before and no other cache path is touched, whatever happens;
   - Ok is returned only if the body did not fail, the loop returned Ok, and the callback had been given EVERY byte of
     the body (cbsum = |b|: the loop never takes a 0-byte read for the end of the body while bytes are outstanding);
     the cache path then holds cached_form b u (the WHOLE body + note), or is unchanged (caching given up / commit
     failed early), or — an older entry was removed and persist failed — is empty;
   - every error leaves the whole cache untouched. *)
Theorem c16_stream_entry_only_from_whole_body :
  forall (L : Type) (llen : L -> Z) (PS : Type) (init_ps : PS) (recog : PS -> L -> PS + Z) (bump : PS -> PS)
         (lineno : PS -> Z) (T : Type) (finish : PS -> option T) (split : bytes -> list L * Z) (p : path),
  (forall l, 1 <= llen l) ->
  forall e u f b script,
  SP.split_ok L llen split b -> C10.Stream.delivered script = Z.of_nat (length b) ->
  let f' := fst (S.stream_fetch L llen PS init_ps recog bump lineno T finish split p e u f b script) in
  tmp f' = tmp f /\ (forall q, q <> p -> cache f' q = cache f q) /\
  match snd (S.stream_fetch L llen PS init_ps recog bump lineno T finish split p e u f b script) with
  | S.FOk t =>
      C10.Stream.fails script = false /\
      (exists ps x, C10.Stream.drive_stream L llen PS init_ps recog bump lineno (fst (split b)) (snd (split b)) script
                    = Ret (C09.Model.ROk ps, x) /\
                    finish ps = Some t /\ C09.Model.cbsum (C10.Stream.core x) = Z.of_nat (length b)) /\
      commit_post p f f' b u
  | S.FErr c =>
      cache_eq f' f /\
      exists ln x, C10.Stream.drive_stream L llen PS init_ps recog bump lineno (fst (split b)) (snd (split b)) script
                   = Ret (C09.Model.RErr c ln, x)
  | S.FPanic => cache_eq f' f
  | S.FFuel => False
  end.
Proof. exact SP.stream_fetch_cases. Qed.
Print Assumptions c16_stream_entry_only_from_whole_body.

(* Lines shorter than 80 KiB: the verdict of the download is the schedule-free verdict of the whole body — the same for
   every chunking (pieces ending exactly at line ends, empty chunks, one byte at a time, ...). *)
Theorem c16_stream_verdict_chunk_independent :
  forall (L : Type) (llen : L -> Z) (PS : Type) (init_ps : PS) (recog : PS -> L -> PS + Z) (bump : PS -> PS)
         (lineno : PS -> Z) (T : Type) (finish : PS -> option T) (split : bytes -> list L * Z) (p : path),
  (forall l, 1 <= llen l) ->
  forall e u f b script,
  SP.split_ok L llen split b -> C10.Stream.delivered script = Z.of_nat (length b) ->
  short_lines llen (fst (split b)) (snd (split b)) -> C10.Stream.fails script = false ->
  snd (S.stream_fetch L llen PS init_ps recog bump lineno T finish split p e u f b script)
  = SP.verdict L PS init_ps recog lineno T finish (fst (split b)) (snd (split b)).
Proof. exact SP.stream_fetch_verdict. Qed.
Print Assumptions c16_stream_verdict_chunk_independent.

(* ALL inputs: a body that fails (connection cut, framing error, timeout) never yields Ok and leaves cache and tmp as
   they were — also when the bytes delivered so far happen to be a well-formed shorter file. *)
Theorem c16_stream_failed_body_leaves_nothing :
  forall (L : Type) (llen : L -> Z) (PS : Type) (init_ps : PS) (recog : PS -> L -> PS + Z) (bump : PS -> PS)
         (lineno : PS -> Z) (T : Type) (finish : PS -> option T) (split : bytes -> list L * Z) (p : path),
  (forall l, 1 <= llen l) ->
  forall e u f b script,
  SP.split_ok L llen split b -> C10.Stream.delivered script = Z.of_nat (length b) -> C10.Stream.fails script = true ->
  SP.unchanged f (fst (S.stream_fetch L llen PS init_ps recog bump lineno T finish split p e u f b script)) /\
  forall t, snd (S.stream_fetch L llen PS init_ps recog bump lineno T finish split p e u f b script) <> S.FOk t.
Proof. exact SP.stream_fetch_failed_body. Qed.
Print Assumptions c16_stream_failed_body_leaves_nothing.

(* The streaming download under OWNERSHIP rules (C16/StreamRaii.v).  C16/Stream.v places the removal of
   the temp file by hand ([gone := drop_temp f1 tf] on every exit edge) and reconstructs the tmp directory of a dropped / suspended
   download after the fact.  The ownership machine threads the file system through parse_async's loop — every callback call WRITES
   when it happens, a failed write runs `temp = None` (an assignment: the old value is dropped) —, keeps `temp` in the loop state
   and has ONE drop site, applied whenever the frame is left: Ok, `?`, unwinding, the future dropped in `response.chunk().await`
   after any number of iterations; `commit_cache_file(temp, ..)` takes the handle by value.  These functions ARE Stream.v's,
   for every recogniser, body script, outcome of every fs call and number of iterations. *)
Theorem c16_stream_is_ownership_semantics :
  forall (L : Type) (llen : L -> Z) (PS : Type) (init_ps : PS) (recog : PS -> L -> PS + Z) (bump : PS -> PS)
         (lineno : PS -> Z) (T : Type) (finish : PS -> option T) (split : bytes -> list L * Z) (p : path) e u f b script k,
  RM.C16.StreamRaii.own_fetch L llen PS init_ps recog bump lineno T finish split p e u f b script
    = S.stream_fetch L llen PS init_ps recog bump lineno T finish split p e u f b script /\
  RM.C16.StreamRaii.own_dropped L llen PS init_ps recog bump lineno split p e f b script k
    = S.stream_fetch_dropped L llen PS init_ps recog bump lineno split p e f b script k /\
  fst (RM.C16.StreamRaii.own_inflight L llen PS init_ps recog bump lineno split p e f b script k)
    = S.stream_fetch_inflight L llen PS init_ps recog bump lineno split p e f b script k.
Proof.
  intros. split; [apply RM.C16.StreamRaiiProofs.own_fetch_is_stream_fetch|apply RM.C16.StreamRaiiProofs.own_suspended_is_stream].
Qed.
Print Assumptions c16_stream_is_ownership_semantics.

(* RAII on the ownership machine itself (an invariant over the loop, not read off hand-placed drops): while the download runs the
   frame owns at most ONE file in tmp — the one that was not there before — and the cache is as it was; leaving the frame after
   ANY number of iterations restores tmp; so does every exit of the completed call that is not Ok. *)
Theorem c16_stream_raii :
  forall (L : Type) (llen : L -> Z) (PS : Type) (init_ps : PS) (recog : PS -> L -> PS + Z) (bump : PS -> PS)
         (lineno : PS -> Z) (T : Type) (finish : PS -> option T) (split : bytes -> list L * Z) (p : path) e u f b script k,
  RM.C16.StreamRaiiProofs.OInv f (RM.C16.StreamRaii.own_inflight L llen PS init_ps recog bump lineno split p e f b script k) /\
  (let g := RM.C16.StreamRaii.own_dropped L llen PS init_ps recog bump lineno split p e f b script k in
   (forall q, cache g q = cache f q) /\ tmp g = tmp f) /\
  (let r := RM.C16.StreamRaii.own_fetch L llen PS init_ps recog bump lineno T finish split p e u f b script in
   (forall t, snd r <> S.FOk t) -> (forall q, cache (fst r) q = cache f q) /\ tmp (fst r) = tmp f).
Proof.
  intros. split; [apply RM.C16.StreamRaiiProofs.own_inflight_owned|].
  split; [apply RM.C16.StreamRaiiProofs.own_dropped_clean|apply RM.C16.StreamRaiiProofs.own_fetch_error_clean].
Qed.
Print Assumptions c16_stream_raii.

(* The future dropped after ANY number of loop iterations (the loop's only await is response.chunk()): cache and tmp as
   before; while in flight: at most our one temp file.
   It follows from the two theorems above (RM.C16.StreamRaiiProofs.stream_dropped_from_ownership). *)
Theorem c16_stream_dropped_leaves_nothing :
  forall (L : Type) (llen : L -> Z) (PS : Type) (init_ps : PS) (recog : PS -> L -> PS + Z) (bump : PS -> PS)
         (lineno : PS -> Z) (split : bytes -> list L * Z) (p : path) e f b script k,
  SP.unchanged f (S.stream_fetch_dropped L llen PS init_ps recog bump lineno split p e f b script k) /\
  let g := S.stream_fetch_inflight L llen PS init_ps recog bump lineno split p e f b script k in
  cache_eq g f /\ (tmp g = tmp f \/ exists n c, n = fresh (tmp f) /\ tmp g = (n, c) :: tmp f).
Proof. exact RM.C16.StreamRaiiProofs.stream_dropped_from_ownership. Qed.
Print Assumptions c16_stream_dropped_leaves_nothing.

(* The loop these theorems are about is the loop of the SOURCE: [step_stream] equals the function assembled from the
   conditions, flag updates and buffer arithmetic that translate/symfile_loop.py extracts from parse_async
   (coq/Gen/SymFileLoop.v, the async_ definitions) and the refill block that translate/c10_stream.py extracts (coq/Gen/C10Stream.v). *)
Theorem c16_stream_loop_is_source :
  forall (L : Type) (llen : L -> Z) (PS : Type) (recog : PS -> L -> PS + Z) (bump : PS -> PS) (lineno : PS -> Z) x,
  C10.Stream.step_stream L llen PS recog bump lineno x = RM.C16.StreamPins.step_stream_src L llen PS recog bump lineno x.
Proof. exact RM.C16.StreamPins.step_stream_is_source. Qed.
Print Assumptions c16_stream_loop_is_source.

(* The model of the real parser (C09/Grammar.v) as the recogniser: the download under ANY chunking followed by a cache hit
   (the whole-file parse of the entry): the entry is the whole body + note, and reading it back gives the table the
   download returned and the URL of the note.  Lines < 80 KiB; url_ok as in c16_rehit_same. *)
Theorem c16_stream_download_then_cache_hit :
  forall p e u f b script t c,
  RM.C16.StreamProofs2.short_bytes b -> url_ok u -> C10.Stream.delivered script = Z.of_nat (length b) ->
  snd (RM.C16.StreamInst.stream_fetch_c p e u f b script) = S.FOk t ->
  cache (fst (RM.C16.StreamInst.stream_fetch_c p e u f b script)) p = Some (File c) ->
  cache f p <> Some (File c) ->
  c = cached_form b u /\ parse_bytes c = Some (set_url t None, Some u).
Proof. exact RM.C16.StreamProofs2.stream_then_rehit. Qed.
Print Assumptions c16_stream_download_then_cache_hit.

(* non-vacuity.  `MODULE a b c d / FILE 1 x / PUBLIC 20 0 g` (38 bytes) delivered as [15 bytes = exactly the first line;
   an EMPTY chunk; the other 23 bytes]: Ok, one PUBLIC, entry = whole body + note, tmp empty. *)
Definition ex_sbody : bytes :=
  [77;79;68;85;76;69;32;97;32;98;32;99;32;100;10; 70;73;76;69;32;49;32;120;10; 80;85;66;76;73;67;32;50;48;32;48;32;103;10].
Definition ex_senv : env := mkenv true true (fun _ => true) true true.
Definition ex_sfs : fs := mkfs (fun _ => None) (fun _ => false) [].

Example c16_nonvacuous_stream_aligned_pieces :
  let script := [C10.Stream.SChunk 15; C10.Stream.SChunk 0; C10.Stream.SChunk 23] in
  let r := RM.C16.StreamInst.stream_fetch_c 7 ex_senv [104] ex_sfs ex_sbody script in
  C10.Stream.delivered script = Z.of_nat (length ex_sbody) /\ C10.Stream.fails script = false /\
  (exists t, snd r = S.FOk t /\ length (t_publics t) = 1%nat) /\
  cache (fst r) 7 = Some (File (cached_form ex_sbody [104])) /\ tmp (fst r) = [].
Proof.
  vm_compute. split; [reflexivity|]. split; [reflexivity|]. split; [eexists; split; reflexivity|]. split; reflexivity.
Qed.

Example c16_nonvacuous_stream_short_bytes : RM.C16.StreamProofs2.short_bytes ex_sbody /\ url_ok [104].
Proof.
  split.
  - unfold RM.C16.StreamProofs2.short_bytes, short_lines.
    set (sp := RM.C16.StreamInst.split_c ex_sbody). vm_compute in sp. subst sp. cbn [fst snd]. split.
    + repeat (apply Forall_cons; [apply Z.leb_le; vm_compute; reflexivity|]). apply Forall_nil.
    + apply Z.ltb_lt. vm_compute. reflexivity.
  - unfold url_ok. split; [repeat constructor; discriminate|]. split; vm_compute; reflexivity.
Qed.

(* the class of seeded/C16-7: the first piece ends exactly at a line end and everything before it is parsed
   (fully_consumed = true); the rest of the body is an unterminated record.  The loop must not take the 0-byte read
   at the end of the body for a clean EOF: error 4 (unexpected EOF), nothing cached, tmp empty. *)
Example c16_nonvacuous_stream_aligned_then_unterminated :
  let b := firstn 23 ex_sbody in
  let script := [C10.Stream.SChunk 15; C10.Stream.SChunk 8] in
  let r := RM.C16.StreamInst.stream_fetch_c 7 ex_senv [104] ex_sfs b script in
  C10.Stream.delivered script = Z.of_nat (length b) /\ snd r = S.FErr 4 /\ cache (fst r) 7 = None /\ tmp (fst r) = [].
Proof. vm_compute. repeat split; reflexivity. Qed.

(* the body fails after the first line (a well-formed one-line file has been delivered): load error, nothing cached *)
Example c16_nonvacuous_stream_failed_body :
  let b := firstn 15 ex_sbody in
  let script := [C10.Stream.SChunk 15; C10.Stream.SFail; C10.Stream.SChunk 23] in
  let r := RM.C16.StreamInst.stream_fetch_c 7 ex_senv [104] ex_sfs b script in
  C10.Stream.delivered script = Z.of_nat (length b) /\ C10.Stream.fails script = true /\
  snd r = S.FErr 8 /\ cache (fst r) 7 = None /\ tmp (fst r) = [].
Proof. vm_compute. repeat split; reflexivity. Qed.

(* The whole network part of a lookup — `for url in &self.urls { match fetch_symbol_file(..).await { Ok => return, Err => next } }` —
   with the streaming download inside, for every list of servers and EVERY response of each (no head; any status; any body script):
   tmp is as before, no other cache path is touched; a lookup that fails leaves the whole cache untouched and has asked every
   server once, in order; a lookup that succeeds has asked the servers up to the successful one, whose status was < 400, whose
   body did not fail and was handed to the callback to the last byte, and the cache path holds that WHOLE body + note with that
   server's URL (or is unchanged / an older entry removed and persist failed). *)
Theorem c16_stream_lookup_entry_only_from_whole_body :
  forall (L : Type) (llen : L -> Z) (PS : Type) (init_ps : PS) (recog : PS -> L -> PS + Z) (bump : PS -> PS)
         (lineno : PS -> Z) (T : Type) (finish : PS -> option T) (split : bytes -> list L * Z) (p : path),
  (forall l, 1 <= llen l) ->
  forall ss f, Forall (SP.resp_ok L llen split) ss ->
  let R := S.lookup_stream L llen PS init_ps recog bump lineno T finish split p note_url_src report_url_src f ss in
  let f' := fst (fst R) in
  tmp f' = tmp f /\ (forall q, q <> p -> cache f' q = cache f q) /\
  match snd (fst R) with
  | None => cache_eq f' f /\ snd R = SP.ids ss
  | Some (t, u) =>
      exists pre s code final b script post,
        ss = pre ++ (s, S.RHead code final b script) :: post /\ u = pick_url report_url_src (s_url s) final /\
        code < 400 /\ C10.Stream.fails script = false /\
        (exists ps x, C10.Stream.drive_stream L llen PS init_ps recog bump lineno (fst (split b)) (snd (split b)) script
                      = Ret (C09.Model.ROk ps, x) /\
                      finish ps = Some t /\ C09.Model.cbsum (C10.Stream.core x) = Z.of_nat (length b)) /\
        commit_post p f f' b (pick_url note_url_src (s_url s) final) /\
        snd R = SP.ids (pre ++ [(s, S.RHead code final b script)])
  end.
Proof. exact (fun L llen PS init_ps recog bump lineno T finish split p H => SP.lookup_stream_cases L llen PS init_ps recog bump lineno T finish split p H note_url_src report_url_src). Qed.
Print Assumptions c16_stream_lookup_entry_only_from_whole_body.

(* Redirects.  Every response carries two URLs: the one requested and the one it finally came from ([final] is arbitrary:
   reqwest follows redirects inside send()).  Which one fetch_symbol_file reports to the caller and which one it writes into the
   note are translated from http.rs (Gen/C16Ops.v report_url_src: `symbol_file.url = Some(url.to_string())`; note_url_src: the
   third argument of commit_cache_file).  They are the same source, hence for EVERY final URL the entry a successful lookup
   creates is annotated with exactly the URL the lookup reported — which is what the cache hit will report
   (c16_stream_download_then_cache_hit).  With seeded/C16-8 the translator emits note_url_src = UFinal and this is no longer
   provable: the note names the redirect target, the caller was told the requested URL. *)
Theorem c16_stream_note_is_reported_url :
  note_url_src = report_url_src /\
  forall (L : Type) (llen : L -> Z) (PS : Type) (init_ps : PS) (recog : PS -> L -> PS + Z) (bump : PS -> PS)
         (lineno : PS -> Z) (T : Type) (finish : PS -> option T) (split : bytes -> list L * Z) (p : path),
  (forall l, 1 <= llen l) ->
  forall ss f t u c, Forall (SP.resp_ok L llen split) ss ->
  let R := S.lookup_stream L llen PS init_ps recog bump lineno T finish split p note_url_src report_url_src f ss in
  snd (fst R) = Some (t, u) ->
  cache (fst (fst R)) p = Some (File c) -> cache f p <> Some (File c) ->
  exists b, c = cached_form b u.
Proof.
  split; [reflexivity|].
  intros L llen PS init_ps recog bump lineno T finish split p Hl ss f t u c Hok R Hres Hc Hnew.
  pose proof (SP.lookup_stream_cases L llen PS init_ps recog bump lineno T finish split p Hl note_url_src report_url_src ss f Hok) as H.
  cbv zeta in H. destruct H as [_ [_ H]]. subst R. rewrite Hres in H.
  destruct H as [pre [s [code [final [b [script [post [_ [Eu [_ [_ [_ [Hpost _]]]]]]]]]]]]].
  exists b. replace (pick_url note_url_src (s_url s) final) with u in Hpost by (rewrite Eu; reflexivity).
  destruct Hpost as [H|[H|[H _]]]; rewrite H in Hc; [inversion Hc; reflexivity|contradiction|discriminate].
Qed.
Print Assumptions c16_stream_note_is_reported_url.

(* The abstract machine of C16/Model.v against the streaming download, for every chunking.
   Model.v takes the whole-body verdict of the streaming parser as its parser ([parse_v]) and says "the temp file holds all bytes
   received"; for a response with a non-error head, the body in ANY chunks and a clean end its run is — file system, request log,
   result, continuation with the next server — exactly what [stream_fetch] computes under EVERY body script that delivers those
   bytes (lines < 80 KiB; environments in which the tee's writes succeed — create_dir_all, NamedTempFile::new_in, remove_file and
   persist stay arbitrary).  So every theorem above about Model.run is, for such responses, a theorem about the download with the
   real loop inside; with a failing body both move on with the temp file dropped (ALL inputs). *)
Module SR := RM.C16.StreamRefine.
Theorem c16_model_response_is_stream_fetch :
  forall (L : Type) (llen : L -> Z) (PS : Type) (init_ps : PS) (recog : PS -> L -> PS + Z) (bump : PS -> PS)
         (lineno : PS -> Z) (T : Type) (finish : PS -> option T) (split : bytes -> list L * Z) (p : path),
  (forall l, 1 <= llen l) ->
  forall e u rest cur log f code chunks script,
  s_env cur = e -> s_url cur = u -> SP.writes_ok e -> code < 400 ->
  let b := concat chunks in
  SP.split_ok L llen split b -> C10.Stream.delivered script = Z.of_nat (length b) ->
  short_lines llen (fst (split b)) (snd (split b)) -> C10.Stream.fails script = false ->
  Model.run T (SR.parse_v L PS init_ps recog lineno T finish split) SR.never p
            (mkst f log (LRun rest cur PSend)) (EHead code :: map EChunk chunks ++ [EEof])
  = match snd (S.stream_fetch L llen PS init_ps recog bump lineno T finish split p e u f b script) with
    | S.FOk t => mkst (fst (S.stream_fetch L llen PS init_ps recog bump lineno T finish split p e u f b script)) log
                      (LDone (ROk t (Some u)))
    | _ => next_server T (fst (S.stream_fetch L llen PS init_ps recog bump lineno T finish split p e u f b script)) log rest
    end.
Proof. exact SR.model_response_is_stream_fetch. Qed.
Print Assumptions c16_model_response_is_stream_fetch.

Theorem c16_model_failed_response_is_stream_fetch :
  forall (L : Type) (llen : L -> Z) (PS : Type) (init_ps : PS) (recog : PS -> L -> PS + Z) (bump : PS -> PS)
         (lineno : PS -> Z) (T : Type) (finish : PS -> option T) (split : bytes -> list L * Z) (p : path),
  (forall l, 1 <= llen l) ->
  forall e u rest cur log f code chunks b script,
  s_env cur = e -> SP.writes_ok e -> code < 400 ->
  SP.split_ok L llen split b -> C10.Stream.delivered script = Z.of_nat (length b) -> C10.Stream.fails script = true ->
  Model.run T (SR.parse_v L PS init_ps recog lineno T finish split) SR.never p
            (mkst f log (LRun rest cur PSend)) (EHead code :: map EChunk chunks ++ [EBodyErr])
  = next_server T (fst (S.stream_fetch L llen PS init_ps recog bump lineno T finish split p e u f b script)) log rest.
Proof.
  intros L llen PS init_ps recog bump lineno T finish split p Hl e u rest cur log f code chunks b script He Hw Hc Hs Hd Hf.
  rewrite (SR.stream_fetch_failed_fs L llen PS init_ps recog bump lineno T finish split p Hl e u f b script Hs Hd Hf).
  apply SR.model_failed_response; assumption.
Qed.
Print Assumptions c16_model_failed_response_is_stream_fetch.

(* Non-vacuity of the ownership machine: the C09/C10 recogniser, the 38-byte example body in pieces [15][0][23]; suspended after one
   iteration the frame owns temp file 0, which holds the first line (15 bytes: what the callback has been given); dropped there:
   tmp empty, cache empty; run to the end: the entry. *)
Example c16_nonvacuous_stream_ownership :
  let script := [C10.Stream.SChunk 15; C10.Stream.SChunk 0; C10.Stream.SChunk 23] in
  let infl := RM.C16.StreamRaii.own_inflight rle cllen C09.Grammar.pst init_pst recog_pst bump_pst lineno_pst RM.C16.StreamInst.split_c 7 ex_senv ex_sfs ex_sbody script 1 in
  let drp := RM.C16.StreamRaii.own_dropped rle cllen C09.Grammar.pst init_pst recog_pst bump_pst lineno_pst RM.C16.StreamInst.split_c 7 ex_senv ex_sfs ex_sbody script 1 in
  let fin := RM.C16.StreamRaii.own_fetch rle cllen C09.Grammar.pst init_pst recog_pst bump_pst lineno_pst Grammar.table RM.C16.StreamInst.finish_c RM.C16.StreamInst.split_c 7 ex_senv [104] ex_sfs ex_sbody script in
  tmp (fst infl) = [(0, firstn 15 ex_sbody)] /\ snd infl = S.TOpen 0 15 /\ cache (fst infl) 7 = None /\
  tmp drp = [] /\ cache drp 7 = None /\
  tmp (fst fin) = [] /\ cache (fst fin) 7 = Some (File (cached_form ex_sbody [104])).
Proof. vm_compute. repeat split; reflexivity. Qed.

(* Several lookups of the SAME module at the same time inside ONE process (C16/InProcess.v).  Every lookup
   goes through the Symbolizer's per-module slot; C12's model of it (any tasks, any lookups, EVERY executor schedule, the supplier
   future suspended anywhere) calls the supplier at most once per module key (C12.Proofs.at_most_once = c12_at_most_once).  One call
   of the supplier is one [locate] of C16/Model.v.  Composed, for every configuration and schedule of the process, every initial file
   system, every server list and every event list of each call: the process does to the servers and to the cache directory what ONE
   lookup does (or nothing) — the request log of the whole process for that module is a prefix of the server list, each server at
   most once —, so every single-lookup theorem above holds for the process as a whole; two downloads of one entry at the same time can
   only come from different processes (the shared-cache machine: the c16_shared theorems). *)
Theorem c16_process_is_one_lookup :
  forall (T : Type) (parse : bytes -> option (T * option bytes)) (early : bytes -> bool) (p : path)
         (locals : list (option bytes)) (ss : list server) (evs_of : nat -> list event)
         (c : C12.Model.config) (sched : list C12.Model.task) (k : C12.Model.key) (f : fs),
  let pr := RM.C16.InProcess.process T parse early p locals ss evs_of c sched k f in
  let one := locate T parse early p f locals None ss (evs_of 0%nat) in
  (pr = ([], f) \/ pr = (s_log one, s_fs one)) /\
  exists dn rest, ss = dn ++ rest /\ fst pr = map s_id dn.
Proof.
  intros. split; [apply RM.C16.InProcess.process_is_one_lookup|apply RM.C16.InProcess.process_requests_prefix].
Qed.
Print Assumptions c16_process_is_one_lookup.

(* ... and for files: HttpSymbolSupplier keeps a slot per (module, kind) in front of its fetch closure; C12/FileModel.v + FileProofs.v:
   the closure runs at most once per file key under every schedule (c12_files_at_most_once).  One run of the closure is one
   [locate_file] of C16/FileFetch.v: the process does to the servers and the cache what ONE locate_file does, or nothing — the
   c16_file_ theorems hold for the process as a whole. *)
Theorem c16_process_file_is_one_lookup :
  forall (p : path) (locals : list bool) (ss : list server) (evs_of : nat -> list event)
         (fc : C12.FileModel.fconfig) (sched : list C12.Model.task) (fk : C12.FileModel.fkey) (f : fs),
  let pr := RM.C16.InProcess.process_file p locals ss evs_of fc sched fk f in
  let one := RM.C16.FileFetch.locate_file p f locals ss (evs_of 0%nat) in
  pr = ([], f) \/ pr = (RM.C16.FileFetch.q_log one, RM.C16.FileFetch.q_fs one).
Proof. intros. apply RM.C16.InProcess.process_file_is_one_lookup. Qed.
Print Assumptions c16_process_file_is_one_lookup.

(* non-vacuity: C12's example configuration (three tasks, file keys (0,KBin) / (0,KDbg) / (1,KBin), two servers) under its schedule: the
   closure of (0, KBin) has run once; the process' effect on the servers and the cache is the one download: request log [3; 5], entry *)
Example c16_nonvacuous_process_file :
  let fc := C12.FileModel.Build_fconfig
              [[(0%nat, C12.FileModel.KBin); (0%nat, C12.FileModel.KDbg)]; [(0%nat, C12.FileModel.KDbg); (1%nat, C12.FileModel.KBin)]; [(0%nat, C12.FileModel.KBin)]]
              (fun _ => false)
              (fun fk => match fk with (1%nat, C12.FileModel.KBin) => false | _ => true end)
              [fun fk => (1%nat, match fk with (0%nat, C12.FileModel.KDbg) => true | _ => false end);
               fun fk => (2%nat, match fk with (0%nat, C12.FileModel.KBin) => true | _ => false end)] in
  let sched := [0; 1; 2; 2; 1; 0; 0; 1; 2; 0; 1; 2; 0]%nat in
  let ss := [mkserver 3 [] ex_senv; mkserver 5 [] ex_senv] in
  let evs := [EHead 404; EHead 200; EChunk [1; 2; 3]; EChunk [4; 5]; EEof] in
  let pr := RM.C16.InProcess.process_file 7 [] ss (fun _ => evs) fc sched (0%nat, C12.FileModel.KBin) ex_sfs in
  C12.Model.supplier_calls (C12.Model.run (C12.FileModel.to_config fc) sched) (C12.FileModel.enc (0%nat, C12.FileModel.KBin)) = 1%nat /\
  fst pr = [3; 5] /\ cache (snd pr) 7 = Some (File [1; 2; 3; 4; 5]) /\ tmp (snd pr) = [].
Proof. vm_compute. repeat split; reflexivity. Qed.

(* non-vacuity: two tasks look the same module (key 0) up at the same time, the supplier future suspends twice; under the schedule
   [0;1;0;1;0;1;1] the supplier has been called once, and the process' effect is that of the one lookup: the request went to
   server 5 and the entry is there *)
Example c16_nonvacuous_process :
  let c := C12.Model.Build_config [[0%nat]; [0%nat]] (fun _ => 2%nat) (fun _ => C12.Model.OOk) (fun _ => 0%nat) in
  let sched := [0; 1; 0; 1; 0; 1; 1]%nat in
  let srv := mkserver 5 [104] ex_senv in
  let evs := [EHead 200; EChunk ex_sbody; EEof] in
  let pr := RM.C16.InProcess.process table parse_drv (fun _ => false) 7 [] [srv] (fun _ => evs) c sched 0%nat ex_sfs in
  C12.Model.supplier_calls (C12.Model.run c sched) 0%nat = 1%nat /\
  fst pr = [5] /\ cache (snd pr) 7 = Some (File (cached_form ex_sbody [104])) /\ tmp (snd pr) = [].
Proof. vm_compute. repeat split; reflexivity. Qed.

(* The OTHER download path of http.rs — fetch_lookup / HttpSymbolSupplier::locate_file (native binaries, extra debug info): same
   create_cache_file, same tmp directory, same cache tree; no parse, no note, caching not optional, persist_noclobber (C16/FileFetch.v).  All four statements: every cache path p, every initial
   file system, every set of local hits, every server list with arbitrary outcomes of the file-system calls, EVERY event list (EDrop
   anywhere).
   A regular file appears or changes anywhere in the cache only at p, only where NOTHING was before, only after a non-error head and the
   clean end of the whole body; it is EXACTLY the bytes of that body, and the lookup answered with the download. *)
Module FF := RM.C16.FileFetch.
Module FP := RM.C16.FileFetchProofs.
Theorem c16_file_entry_only_from_whole_body : forall p f locals ss evs q c,
  cache (FF.q_fs (FF.locate_file p f locals ss evs)) q = Some (File c) -> cache f q <> Some (File c) ->
  q = p /\ cache f p = None /\
  exists pre code chunks post,
    evs = pre ++ EHead code :: map EChunk chunks ++ EEof :: post /\ code < 400 /\ c = concat chunks /\
    exists i, FF.q_l (FF.locate_file p f locals ss evs) = FF.QDone (FF.QFetched i).
Proof. exact FP.file_entry_only_whole_body. Qed.
Print Assumptions c16_file_entry_only_from_whole_body.

(* tmp is as before after every finished lookup (found locally, downloaded, failed at any point of any server, dropped anywhere);
   while pending it holds at most the one in-flight file, whose content is exactly what has been received *)
Theorem c16_file_no_stray_tmp : forall p f locals ss evs,
  let s := FF.locate_file p f locals ss evs in
  (FP.q_finished s -> tmp (FF.q_fs s) = tmp f) /\
  (tmp (FF.q_fs s) = tmp f \/ exists n got, tmp (FF.q_fs s) = (n, got) :: tmp f /\ n = fresh (tmp f)).
Proof. exact FP.file_no_stray_tmp. Qed.
Print Assumptions c16_file_no_stray_tmp.

(* every lookup that does not end in a download leaves the WHOLE cache as it was *)
Theorem c16_file_failed_leaves_cache : forall p f locals ss evs,
  ~ FP.q_downloaded (FF.locate_file p f locals ss evs) -> cache_eq (FF.q_fs (FF.locate_file p f locals ss evs)) f.
Proof. exact FP.file_failed_leaves_cache. Qed.
Print Assumptions c16_file_failed_leaves_cache.

(* whatever is at the path before the lookup (another process's file, a directory) is still there afterwards: never removed, never replaced *)
Theorem c16_file_existing_never_replaced : forall p f locals ss evs x,
  cache f p = Some x -> cache (FF.q_fs (FF.locate_file p f locals ss evs)) p = Some x.
Proof. exact FP.file_existing_never_replaced. Qed.
Print Assumptions c16_file_existing_never_replaced.

(* the statement list of `fn fetch_lookup` as translate/c16_fsops.py extracts it (send + error_for_status `?`; create_cache_file `?`;
   `while let Some(chunk) = res.chunk().await..? { temp.write_all(..)?; }`; `temp.persist_noclobber(..)?`; Ok) is the list the transitions
   of FileFetch.qstep were written for (RM.C16.FileFetchSrc.qstep_shape) *)
Theorem c16_file_steps_are_source : RM.Gen.C16Ops.lookup_steps = RM.C16.FileFetchSrc.qstep_shape.
Proof. exact RM.C16.FileFetchSrc.lookup_steps_as_modelled. Qed.
Print Assumptions c16_file_steps_are_source.

(* fetch_lookup under OWNERSHIP rules (C16/FileRaii.v: an interpreter for ANY list of its steps — a frame of owned locals, ONE drop site
   applied when the frame is left by Ok / `?` / the future dropped at an await, `let mut temp = ..` drops the old value,
   `temp.persist_noclobber(..)` takes the handle by value).  For EVERY program (any order, any repetition of the steps), every server
   list, every event list with EDrop anywhere, every outcome of every fs call: a frame that has been left owns nothing in tmp; a
   running one at most its one file. *)
Theorem c16_file_raii_every_program : forall p (prog : list RM.Gen.C16Ops.lstep) f0 ss evs,
  RM.C16.FileRaiiProofs.JInv f0 (RM.C16.FileRaii.jrun p prog (RM.C16.FileRaii.jstart prog f0 ss) evs).
Proof. exact RM.C16.FileRaiiProofs.file_raii_any_program. Qed.
Print Assumptions c16_file_raii_every_program.

(* ... and the machine of FileFetch.v (which the c16_file_ theorems are about and which is compared with the real locate_file) IS that
   interpreter on the step list translated from `fn fetch_lookup`, state by state: its exit edges and their drops are not hand-placed *)
Theorem c16_file_model_is_ownership_semantics : forall p f0 ss evs,
  RM.C16.FileRaiiProofs.qembed (FF.qrun p (FF.qnet_start f0 ss) evs)
  = RM.C16.FileRaii.jrun p RM.Gen.C16Ops.lookup_steps (RM.C16.FileRaii.jstart RM.Gen.C16Ops.lookup_steps f0 ss) evs.
Proof. exact RM.C16.FileRaiiProofs.file_model_is_program. Qed.
Print Assumptions c16_file_model_is_ownership_semantics.

(* a concrete run of the source's program under the interpreter (s: 404, then a download in two chunks; d: dropped after the
   first chunk), and of [twice], a program that creates the temp file twice and has no persist step: it answers QFetched with
   nothing in the cache — not a correct fetch_lookup — and still leaves no temp file *)
Example c16_nonvacuous_file_ownership :
  let ss := [mkserver 3 [] ex_senv; mkserver 5 [] ex_senv] in
  let evs := [EHead 404; EHead 200; EChunk [1; 2; 3]; EChunk [4; 5]; EEof] in
  let s := RM.C16.FileRaii.jrun 7 RM.Gen.C16Ops.lookup_steps (RM.C16.FileRaii.jstart RM.Gen.C16Ops.lookup_steps ex_sfs ss) evs in
  let d := RM.C16.FileRaii.jrun 7 RM.Gen.C16Ops.lookup_steps (RM.C16.FileRaii.jstart RM.Gen.C16Ops.lookup_steps ex_sfs ss) (firstn 3 evs ++ [EDrop]) in
  let twice := [RM.Gen.C16Ops.LSend; RM.Gen.C16Ops.LCreateQ; RM.Gen.C16Ops.LCreateQ; RM.Gen.C16Ops.LWriteLoopQ; RM.Gen.C16Ops.LReturnOk] in
  let w := RM.C16.FileRaii.jrun 7 twice (RM.C16.FileRaii.jstart twice ex_sfs ss) evs in
  RM.C16.FileRaii.j_l s = RM.C16.FileRaii.JDone (FF.QFetched 5) /\ cache (RM.C16.FileRaii.j_fs s) 7 = Some (File [1; 2; 3; 4; 5]) /\ tmp (RM.C16.FileRaii.j_fs s) = [] /\
  RM.C16.FileRaii.j_l d = RM.C16.FileRaii.JDropped /\ tmp (RM.C16.FileRaii.j_fs d) = [] /\
  RM.C16.FileRaii.j_l w = RM.C16.FileRaii.JDone (FF.QFetched 5) /\ cache (RM.C16.FileRaii.j_fs w) 7 = None /\ tmp (RM.C16.FileRaii.j_fs w) = [].
Proof. vm_compute. repeat split; reflexivity. Qed.

(* non-vacuity: server 3 answers 404, server 5 sends the body in two chunks: entry = exactly the bytes, tmp empty; dropped after the
   first chunk (the temp file then holds it): nothing left; a directory at the path: persist_noclobber fails, NotFound, the directory stays *)
Example c16_nonvacuous_file :
  let ss := [mkserver 3 [] ex_senv; mkserver 5 [] ex_senv] in
  let evs := [EHead 404; EHead 200; EChunk [1; 2; 3]; EChunk [4; 5]; EEof] in
  let s := FF.locate_file 7 ex_sfs [false] ss evs in
  let mid := FF.locate_file 7 ex_sfs [false] ss (firstn 3 evs) in
  let drp := FF.locate_file 7 ex_sfs [false] ss (firstn 3 evs ++ [EDrop]) in
  let fd := mkfs (fun q => if q =? 7 then Some Dir else None) (fun _ => true) [] in
  let sd := FF.locate_file 7 fd [] ss evs in
  FF.q_l s = FF.QDone (FF.QFetched 5) /\ cache (FF.q_fs s) 7 = Some (File [1; 2; 3; 4; 5]) /\ tmp (FF.q_fs s) = [] /\ FF.q_log s = [3; 5] /\
  tmp (FF.q_fs mid) = [(0, [1; 2; 3])] /\ cache (FF.q_fs mid) 7 = None /\
  FF.q_l drp = FF.QDropped /\ tmp (FF.q_fs drp) = [] /\ cache (FF.q_fs drp) 7 = None /\
  FF.q_l sd = FF.QDone FF.QNotFound /\ cache (FF.q_fs sd) 7 = Some Dir /\ tmp (FF.q_fs sd) = [].
Proof. vm_compute. repeat split; reflexivity. Qed.

(* The class of seeded/C16-7 stated on the model (C16/StaleFlag.v: the loop with a fast path `if consumed == 0 { continue; }`
   in front of the bookkeeping after parse_more, so that fully_consumed keeps the previous iteration's value).
   `MODULE a b c d\n` + `FILE 1 x` without a final newline, delivered as [the first line] [the rest]: that loop returns Ok
   after handing the callback — the cache writer — 15 of the 23 bytes, so a truncated file would be committed; the loop of the
   source (drive_stream) answers error 4, "unexpected EOF".  c16_stream_entry_only_from_whole_body is what excludes this
   for the loop the translators extract from the source, for every input and chunking. *)
Theorem c16_stale_flag_refuted :
  let SF := RM.C16.StaleFlag.stale_body in
  let script := RM.C16.StaleFlag.stale_script in
  C10.Stream.delivered script = Z.of_nat (length SF) /\ C10.Stream.fails script = false /\
  (exists q x, RM.C16.StaleFlag.iter_stale rle cllen C09.Grammar.pst recog_pst bump_pst lineno_pst 20
                 (C10.Stream.init_stream rle cllen C09.Grammar.pst init_pst (fst (RM.C16.StreamInst.split_c SF)) (snd (RM.C16.StreamInst.split_c SF)) script)
               = C10.Stream.SDone (C09.Model.ROk q) x /\ C09.Model.cbsum (C10.Stream.core x) = 15) /\
  (exists x, C10.Stream.drive_stream rle cllen C09.Grammar.pst init_pst recog_pst bump_pst lineno_pst
               (fst (RM.C16.StreamInst.split_c SF)) (snd (RM.C16.StreamInst.split_c SF)) script = Ret (C09.Model.RErr 4 1, x)).
Proof. exact RM.C16.StaleFlag.stale_flag_refuted. Qed.
Print Assumptions c16_stale_flag_refuted.
