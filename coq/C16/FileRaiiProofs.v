(* C16/FileRaiiProofs.v — (1) for EVERY program over the steps of fetch_lookup: a frame that has been left owns nothing in tmp;
   (2) the machine of C16/FileFetch.v IS the interpreter of C16/FileRaii.v on the step list translated from the source. *)
From RM Require Import C16.Model C16.Proofs C16.FileFetch Gen.C16Ops C16.FileRaii.
Open Scope Z_scope.

Section FileRaiiProofs.
  Variable p : path.
  Notation jsilent := (jsilent p).
  Notation jstep := (jstep p).
  Notation jrun := (jrun p).

  (* the predicate Proofs.tmp_inv under the name the statements of this path use; the lemmas of tmp_inv apply to it *)
  Definition tmp_owned (f0 f : fs) (tf : option Z) : Prop :=
    match tf with
    | None => tmp f = tmp f0
    | Some n => n = fresh (tmp f0) /\ exists c, tmp f = (n, c) :: tmp f0
    end.

  Definition JInv (f0 : fs) (s : jst) : Prop :=
    match j_l s with
    | JRun _ _ _ fr => tmp_owned f0 (j_fs s) (qf_temp fr)
    | JDone _ | JDropped => tmp (j_fs s) = tmp f0
    end.

  Section AnyProgram.
    Variable prog : list lstep.

    Lemma jnext_inv : forall f0 f log ss, tmp f = tmp f0 -> JInv f0 (jnext prog f log ss).
    Proof. intros f0 f log [|s r] H; unfold JInv; cbn; exact H. Qed.

    Lemma jexit_inv : forall f0 f log rest fr, tmp_owned f0 f (qf_temp fr) -> JInv f0 (jexit_err prog f log rest fr).
    Proof. intros. unfold jexit_err. apply jnext_inv. apply tmp_inv_drop. assumption. Qed.

    Lemma jsilent_inv : forall f0 n f log rest cur pc fr,
      tmp_owned f0 f (qf_temp fr) -> JInv f0 (jsilent prog n f log rest cur pc fr).
    Proof.
      intros f0. induction n as [|k IH]; intros f log rest cur pc fr H; cbn [FileRaii.jsilent]; [exact H|].
      destruct pc as [|[| | | |] pc']; try exact H.
      - apply jexit_inv; exact H.
      - (* LCreateQ *)
        pose proof (create_tmp_inv p (s_env cur) f0 (drop_temp f (qf_temp fr)) (tmp_inv_drop f0 f _ H)) as Hc.
        destruct (create_cache_file p (s_env cur) (drop_temp f (qf_temp fr))) as [f1 [n0|]]; cbn [fst snd] in Hc.
        + apply IH. cbn [qf_temp]. exact Hc.
        + apply jexit_inv. cbn [qf_temp]. exact Hc.
      - (* LPersistNoclobberQ *)
        destruct (qf_temp fr) as [n0|] eqn:E; [|apply jexit_inv; rewrite E; exact H].
        assert (Hrm : forall g, tmp g = tmp f -> tmp (rm_tmp g n0) = tmp f0).
        { intros g Hg. cbn [rm_tmp tmp]. rewrite Hg. exact (tmp_inv_drop f0 f (Some n0) H). }
        destruct (cache f p).
        + apply jexit_inv. cbn [qf_temp tmp_owned]. apply Hrm. reflexivity.
        + destruct (persist_ok (s_env cur)).
          * apply IH. cbn [qf_temp tmp_owned]. apply Hrm. reflexivity.
          * apply jexit_inv. cbn [qf_temp tmp_owned]. apply Hrm. reflexivity.
      - (* LReturnOk *)
        unfold JInv; cbn [j_l j_fs]. apply tmp_inv_drop. exact H.
    Qed.

    Lemma jstep_inv : forall f0 s ev, JInv f0 s -> JInv f0 (jstep prog s ev).
    Proof.
      intros f0 s ev H. unfold FileRaii.jstep. unfold JInv in H.
      destruct (j_l s) as [rest cur pc fr|r|] eqn:El; [|unfold JInv; rewrite El; exact H|unfold JInv; rewrite El; exact H].
      assert (Hdrop : JInv f0 (mkj (qleave (j_fs s) fr) (j_log s) JDropped)).
      { unfold JInv; cbn [j_l j_fs]. apply tmp_inv_drop. exact H. }
      assert (Herr : JInv f0 (jexit_err prog (j_fs s) (j_log s) rest fr)) by (apply jexit_inv; exact H).
      (* only a program suspended at an await reacts to an event; every other case leaves the frame *)
      destruct pc as [|[| | | |] pc']; try (destruct ev; first [exact Hdrop|exact Herr]).
      - (* LSend *)
        destruct ev as [code| | | | |]; try exact Herr; [|exact Hdrop].
        destruct (400 <=? code); [exact Herr|]. apply jsilent_inv. exact H.
      - (* LWriteLoopQ *)
        destruct (qf_res fr); [|destruct ev; first [exact Hdrop|exact Herr]].
        destruct (qf_temp fr) as [n0|] eqn:E; [|destruct ev; first [exact Hdrop|exact Herr]].
        destruct ev as [code| |bs| | |]; try exact Hdrop; try exact Herr.
        + destruct (wr_ok (s_env cur) (Z.of_nat (length (qf_got fr ++ bs)))); [|exact Herr].
          unfold JInv; cbn [j_l j_fs qf_temp tmp_owned].
          split; [exact (proj1 H)|]. exists (qf_got fr ++ bs). apply tmp_inv_write. exact H.
        + apply jsilent_inv. rewrite E. exact H.
    Qed.

    (* EVERY program, every server list, every event list (EDrop anywhere), every outcome of every fs call *)
    Lemma file_raii_any_program : forall f0 ss evs, JInv f0 (jrun prog (jstart prog f0 ss) evs).
    Proof. intros. apply (fold_inv _ _ _ (JInv f0)); [apply jstep_inv|]. apply jnext_inv. reflexivity. Qed.
  End AnyProgram.

  Definition qbody_pc : list lstep := [LWriteLoopQ; LPersistNoclobberQ; LReturnOk].

  Definition qembed (s : qst) : jst :=
    mkj (q_fs s) (q_log s)
      match q_l s with
      | QRun rest cur QSend => JRun rest cur lookup_steps qframe0
      | QRun rest cur (QBody n got) => JRun rest cur qbody_pc (mkqf true (Some n) got)
      | QDone r => JDone r
      | QDropped => JDropped
      end.

  Lemma qembed_exit : forall f log rest fr,
    jexit_err lookup_steps f log rest fr = qembed (qnext (drop_temp f (qf_temp fr)) log rest).
  Proof. intros f log [|s r] fr; reflexivity. Qed.

  Lemma qembed_step : forall s ev, jstep lookup_steps (qembed s) ev = qembed (qstep p s ev).
  Proof.
    intros [f log l] ev. unfold qembed, FileRaii.jstep, FileFetch.qstep. cbn [q_l q_fs q_log j_l j_fs j_log].
    destruct l as [rest cur ph|r|]; [|reflexivity|reflexivity].
    destruct ph as [|n got].
    - change lookup_steps with [LSend; LCreateQ; LWriteLoopQ; LPersistNoclobberQ; LReturnOk].
      destruct ev as [code| |bs| | |]; try apply qembed_exit; [|reflexivity].
      destruct (400 <=? code); [apply qembed_exit|].
      unfold FileRaii.jgo. cbn [length FileRaii.jsilent qframe0 qf_temp qf_res qf_got drop_temp].
      destruct (create_cache_file p (s_env cur) f) as [f1 [n0|]]; [reflexivity|apply qembed_exit].
    - unfold qbody_pc. cbn [qf_res qf_temp qf_got].
      destruct ev as [code| |bs| | |]; try apply (qembed_exit f log rest (mkqf true (Some n) got)); [| |reflexivity].
      + destruct (wr_ok (s_env cur) (Z.of_nat (length (got ++ bs)))); [reflexivity|].
        apply (qembed_exit f log rest (mkqf true (Some n) got)).
      + unfold FileRaii.jgo. cbn [length FileRaii.jsilent qf_temp qf_res qf_got].
        destruct (cache f p); [apply (qembed_exit (rm_tmp f n) log rest (mkqf true None got))|].
        destruct (persist_ok (s_env cur)); [reflexivity|apply (qembed_exit (rm_tmp f n) log rest (mkqf true None got))].
  Qed.

  Lemma file_model_is_program : forall f0 ss evs,
    qembed (qrun p (qnet_start f0 ss) evs) = jrun lookup_steps (jstart lookup_steps f0 ss) evs.
  Proof.
    intros. unfold FileRaii.jrun, FileFetch.qrun. rewrite <- (fold_sim _ _ _ _ _ qembed qembed_step).
    apply f_equal. symmetry. exact (qembed_exit f0 [] ss qframe0).
  Qed.

  (* the RAII statement about the machine of FileFetch.v, derived from (1) and (2) *)
  Lemma file_no_stray_tmp_from_ownership : forall f0 ss evs,
    let s := qrun p (qnet_start f0 ss) evs in
    match q_l s with
    | QRun _ _ (QBody n _) => n = fresh (tmp f0) /\ exists c, tmp (q_fs s) = (n, c) :: tmp f0
    | _ => tmp (q_fs s) = tmp f0
    end.
  Proof.
    intros f0 ss evs s.
    pose proof (file_raii_any_program lookup_steps f0 ss evs) as H. rewrite <- file_model_is_program in H. fold s in H.
    unfold JInv, qembed in H. cbn [j_l j_fs] in H.
    destruct (q_l s) as [rest cur [|n got]|r|]; exact H.
  Qed.
End FileRaiiProofs.
