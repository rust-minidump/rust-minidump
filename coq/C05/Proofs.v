(* C05/Proofs.v — the walker of C05/Model.v never traps and returns well-formed frames.
   Each technique (CFI, frame pointer, scan) gets a specification of the form [ores]: it does not trap and the
   registers it returns fit their slots; the only arithmetic needed is a handful of facts about the widths of an
   [arch_ok] description.  The cascade, get_caller_frame, the walk and walk_stack inherit the specification; the
   frame bound is a second induction, on the room left in the stack memory.  C03 and C04 build on this file. *)
From Coq Require Import Lia ZArith List Bool.
From RM Require Import Base.WordFacts C05.Model.
Import ListNotations.
Open Scope Z_scope.

Definition in_slot (a : arch) (x : Z) : Prop := 0 <= x < 2 ^ a_slot_bits a.
Definition regs_wf (a : arch) (r : regs) : Prop :=
  in_slot a (r_ip r) /\ in_slot a (r_sp r) /\ in_slot a (r_fp r) /\ in_slot a (r_lr r).
Definition frame_wf (a : arch) (f : frame) : Prop := regs_wf a (f_regs f).
Definition mem_wf (m : memory) : Prop :=
  0 <= m_base m /\ Forall (fun b => 0 <= b < 256) (m_bytes m).

(* what the constants of an [arch] must satisfy for the walker's guards to do their job;
   every instance of Model.v satisfies it (arch_ok_x86 ... below).  The caps 1000 and 100000 only say
   "small": with them a count of words times the pointer width stays below 2^31. *)
Definition arch_ok (a : arch) : Prop :=
  ((a_bits a = 32 /\ a_pw a = 4) \/ (a_bits a = 64 /\ a_pw a = 8)) /\
  a_bits a <= a_slot_bits a <= 64 /\
  (a_trunc a = true -> a_bits a = 32) /\
  (a_trunc a = false -> a_slot_bits a = a_bits a) /\
  (a_strip a = true -> a_slot_bits a = 64) /\
  2 <= a_fp_guard_words a <= 1000 /\
  0 <= a_scan_context a <= 100000 /\ 0 <= a_scan_default a <= 100000 /\
  0 <= a_scan_skip a /\
  0 < a_adj a <= a_cutoff a /\
  a_sp_stop_le a = true.

(* the clauses by name *)
Lemma arch_ok_widths : forall a, arch_ok a -> (a_bits a = 32 /\ a_pw a = 4) \/ (a_bits a = 64 /\ a_pw a = 8).
Proof. intros a H. apply H. Qed.
Lemma arch_ok_slot : forall a, arch_ok a -> a_bits a <= a_slot_bits a <= 64.
Proof. intros a H. apply H. Qed.
Lemma arch_ok_trunc : forall a, arch_ok a -> a_trunc a = true -> a_bits a = 32.
Proof. intros a H. apply H. Qed.
Lemma arch_ok_notrunc : forall a, arch_ok a -> a_trunc a = false -> a_slot_bits a = a_bits a.
Proof. intros a H. apply H. Qed.
Lemma arch_ok_guard : forall a, arch_ok a -> 2 <= a_fp_guard_words a <= 1000.
Proof. intros a H. apply H. Qed.
Lemma arch_ok_scan : forall a, arch_ok a ->
  0 <= a_scan_context a <= 100000 /\ 0 <= a_scan_default a <= 100000 /\ 0 <= a_scan_skip a.
Proof. intros a H. repeat split; apply H. Qed.
(* what the final checks of get_caller_frame rely on *)
Lemma arch_ok_adj : forall a, arch_ok a -> 0 < a_adj a <= a_cutoff a /\ a_sp_stop_le a = true.
Proof. intros a H. apply H. Qed.

Definition trust_walked (t : trust) : Prop := t = TCfi \/ t = TFramePointer \/ t = TScan.

(* shape of a frame produced by the walker (every frame but the first) *)
Definition later_frame_ok (a : arch) (f : frame) : Prop :=
  a_cutoff a <= f_resume f /\ f_instr f = f_resume f - a_adj a /\ f_resume f = r_ip (f_regs f) /\
  trust_walked (f_trust f).

(* a scan frame's return address is the word just below its sp, inside the stack memory *)
Definition scan_word_ok (a : arch) (mem : memory) (f : frame) : Prop :=
  f_trust f = TScan -> read mem (a_pw a) (r_sp (f_regs f) - a_pw a) = Some (f_resume f).

(* sp strictly increases; it may repeat only between the context frame and its caller, on leaf architectures *)
Definition sp_step (a : arch) (callee f : frame) : Prop :=
  r_sp (f_regs callee) < r_sp (f_regs f) \/
  (a_leaf a = true /\ f_trust callee = TContext /\ r_sp (f_regs callee) = r_sp (f_regs f)).
Fixpoint sp_chain (a : arch) (prev : frame) (l : list frame) : Prop :=
  match l with
  | [] => True
  | f :: t => sp_step a prev f /\ sp_chain a f t
  end.

Definition wellformed_walk (a : arch) (mem : memory) (r : regs) (v : validity) (fs : list frame) : Prop :=
  exists rest, fs = from_context r v TContext :: rest /\
    Forall (later_frame_ok a) rest /\ sp_chain a (from_context r v TContext) rest /\
    Forall (scan_word_ok a mem) rest.

(* the products index * step of a counted loop: the current one is below the bound of the whole loop *)
Lemma loop_index_bound : forall (n : nat) i step B,
  0 <= i -> 0 <= step -> (i + Z.of_nat (S n)) * step < B ->
  0 <= i * step < B /\ (i + 1 + Z.of_nat n) * step < B.
Proof.
  intros n i step B Hi Hs H. replace (i + 1 + Z.of_nat n) with (i + Z.of_nat (S n)) by lia.
  split; [|exact H]. split; [apply Z.mul_nonneg_nonneg; assumption|].
  apply Z.le_lt_trans with (2 := H), Z.mul_le_mono_nonneg_r; lia.
Qed.

Lemma le_value_range : forall l, Forall (fun b => 0 <= b < 256) l -> 0 <= le_value l < 256 ^ Z.of_nat (length l).
Proof.
  induction l as [|b t IH]; intros H; cbn [le_value length].
  - cbn. lia.
  - inversion H as [|? ? Hb Ht]; subst. specialize (IH Ht).
    rewrite Nat2Z.inj_succ, Z.pow_succ_r by lia. lia.
Qed.

Lemma Forall_firstn : forall {A} (P : A -> Prop) n l, Forall P l -> Forall P (firstn n l).
Proof.
  intros A P n. induction n as [|n IH]; intros l H; cbn; [constructor|].
  destruct l; [constructor|]. inversion H; subst. constructor; auto.
Qed.
Lemma Forall_skipn : forall {A} (P : A -> Prop) n l, Forall P l -> Forall P (skipn n l).
Proof.
  intros A P n. induction n as [|n IH]; intros l H; cbn; [assumption|].
  destruct l; [constructor|]. inversion H; subst. auto.
Qed.

Lemma read_is_some_iff : forall m n addr, (exists v, read m n addr = Some v) <->
  (m_base m <= addr /\ addr - m_base m + n <= mem_len m).
Proof.
  intros m n addr. unfold read, checked_sub.
  destruct (Z.leb_spec 0 (addr - m_base m)); [destruct (Z.leb_spec (addr - m_base m + n) (mem_len m))|].
  - split; [lia | eexists; reflexivity].
  - split; [intros [v Hv]; discriminate | lia].
  - split; [intros [v Hv]; discriminate | lia].
Qed.

Lemma read_some : forall m n addr v, read m n addr = Some v ->
  m_base m <= addr /\ addr - m_base m + n <= mem_len m.
Proof. intros m n addr v H. apply read_is_some_iff. exists v. exact H. Qed.

Lemma read_is_some_iff1 : forall m addr, (exists v, read m 1 addr = Some v) <->
  (m_base m <= addr /\ addr - m_base m + 1 <= mem_len m).
Proof. intros. apply read_is_some_iff. Qed.

Lemma read_range : forall m n addr v, mem_wf m -> 0 <= n -> read m n addr = Some v -> 0 <= v < 2 ^ (8 * n).
Proof.
  intros m n addr v [_ Hb] Hn H. unfold read in H.
  destruct (checked_sub addr (m_base m)) as [s|]; [|discriminate].
  destruct (s + n <=? mem_len m); [|discriminate]. inversion H; subst v; clear H.
  set (l := firstn (Z.to_nat n) (skipn (Z.to_nat s) (m_bytes m))).
  pose proof (le_value_range l (Forall_firstn _ _ _ (Forall_skipn _ _ _ Hb))) as R.
  assert (256 ^ Z.of_nat (length l) <= 256 ^ n).
  { apply Z.pow_le_mono_r; [lia|]. unfold l. rewrite firstn_length. lia. }
  replace (2 ^ (8 * n)) with (256 ^ n); [lia|].
  change 256 with (2 ^ 8). rewrite <- Z.pow_mul_r by lia. reflexivity.
Qed.

Lemma next_pow2_pos : forall x, 0 < next_pow2 x.
Proof. intros x. apply Z.pow_pos_nonneg; [lia | apply Z.log2_up_nonneg]. Qed.

Lemma next_pow2_ge : forall x, 1 <= x -> x <= next_pow2 x.
Proof.
  intros x Hx. unfold next_pow2. destruct (Z.eq_dec x 1) as [->|Hn]; [cbn; lia|].
  pose proof (Z.log2_up_spec x ltac:(lia)). lia.
Qed.

Lemma strip_below_max : forall mma x, 0 <= x < Z.max (2 ^ arm64_apple_bits - 1) mma -> ptr_auth_strip mma x = x.
Proof.
  intros mma x Hx. unfold ptr_auth_strip. set (mx := Z.max _ _) in *.
  assert (Hmx : 1 <= mx) by (pose proof (Z.le_max_l (2 ^ arm64_apple_bits - 1) mma); cbn in *; lia).
  pose proof (next_pow2_ge mx Hmx).
  destruct (next_pow2 mx <? two64); [|reflexivity]. apply Z.mod_small. lia.
Qed.

Lemma strip_bounds : forall mma x, 0 <= x -> 0 <= ptr_auth_strip mma x <= x.
Proof.
  intros mma x Hx. unfold ptr_auth_strip. set (mx := Z.max _ _). pose proof (next_pow2_pos mx).
  destruct (next_pow2 mx <? two64); [|lia].
  split; [apply Z.mod_pos_bound; lia | apply Z.mod_le; lia].
Qed.

Lemma strip_idempotent : forall mma x, 0 <= x -> ptr_auth_strip mma (ptr_auth_strip mma x) = ptr_auth_strip mma x.
Proof.
  intros mma x Hx. unfold ptr_auth_strip. set (mx := Z.max _ _). pose proof (next_pow2_pos mx).
  destruct (next_pow2 mx <? two64); [|reflexivity]. apply Z.mod_mod. lia.
Qed.

(* [o] does not trap, and what it returns, if anything, meets [P] *)
Definition ores {A} (o : outcome (option A)) (P : A -> Prop) : Prop :=
  match o with Ret None => True | Ret (Some x) => P x | _ => False end.

Lemma ores_mono : forall {A} (o : outcome (option A)) (P Q : A -> Prop),
  (forall x, P x -> Q x) -> ores o P -> ores o Q.
Proof. intros A [[x|]| |t|] P Q H; cbn; auto. Qed.

Lemma ores_bind : forall {A B} (o : outcome (option A)) (k : option A -> outcome (option B)) (P : A -> Prop) (Q : B -> Prop),
  ores o P -> ores (k None) Q -> (forall x, P x -> ores (k (Some x)) Q) -> ores (obind o k) Q.
Proof. intros A B [[x|]| |t|] k P Q; cbn; auto; contradiction. Qed.

(* rules for walking a technique statement by statement: an early `return None` needs nothing *)
Lemma ores_unless : forall {A} (c : bool) (o : outcome (option A)) P, ores o P -> ores (if c then Ret None else o) P.
Proof. intros A [|] o P H; [exact I | exact H]. Qed.

Lemma ores_checked_add : forall {A} w x y (k : Z -> outcome (option A)) P,
  (x + y < 2 ^ w -> ores (k (x + y)) P) ->
  ores (match checked_add w x y with Some r => k r | None => Ret None end) P.
Proof.
  intros A w x y k P H. unfold checked_add.
  destruct (Z.ltb_spec (x + y) (2 ^ w)) as [L|]; [exact (H L) | exact I].
Qed.

Lemma is_context_true : forall t, is_context t = true -> t = TContext.
Proof. destruct t; cbn; intros; try discriminate; reflexivity. Qed.

Lemma trust_walked_not_context : forall t, trust_walked t -> is_context t = false.
Proof. intros t [H|[H|H]]; subst; reflexivity. Qed.

Section WalkerProofs.
Variable fx : fixes.
Variable p : profile.
Variable a : arch.
Variable os : Z.
Variable mem : memory.
Variable module_at : Z -> option Z.
Variable max_module_addr : Z.
Variable cfi_walk : frame -> option frame -> list Z -> option (regs * list Z).
Variable instr_valid : Z -> bool.

Hypothesis Hfx : fx_checked_resolve fx = true.
Hypothesis Ha : arch_ok a.
Hypothesis Hmem : mem_wf mem.
(* contract of the CFI oracle: every register it wrote went through C::Register::try_from *)
Hypothesis Hcfi : forall callee gc fwd r v, cfi_walk callee gc fwd = Some (r, v) -> regs_wf a r.

(* what the techniques use of [arch_ok]: the widths *)
Lemma W_cases : (W a = 32 /\ PW a = 4) \/ (W a = 64 /\ PW a = 8).
Proof. exact (arch_ok_widths a Ha). Qed.

Lemma PW_cases : PW a = 4 \/ PW a = 8.
Proof. destruct W_cases as [[_ ->]|[_ ->]]; auto. Qed.

Lemma PW_W : 0 < PW a /\ W a = 8 * PW a.
Proof. destruct W_cases as [[-> ->]|[-> ->]]; lia. Qed.

Lemma pow_bounds : 2 ^ 31 < 2 ^ W a <= 2 ^ a_slot_bits a /\ 2 ^ a_slot_bits a <= 2 ^ 64.
Proof.
  pose proof (arch_ok_slot a Ha) as Hs. fold (W a) in Hs.
  assert (31 < W a) by (destruct W_cases as [[-> _]|[-> _]]; lia).
  repeat split; [apply Z.pow_lt_mono_r | apply Z.pow_le_mono_r | apply Z.pow_le_mono_r]; lia.
Qed.

Lemma in_slot_W : forall x, 0 <= x < 2 ^ W a -> in_slot a x.
Proof. intros x H. pose proof pow_bounds. unfold in_slot. lia. Qed.

Lemma read_pw_range : forall addr v, read mem (PW a) addr = Some v -> 0 <= v < 2 ^ W a.
Proof.
  intros addr v H. destruct PW_W as [Hp ->].
  exact (read_range mem (PW a) addr v Hmem ltac:(lia) H).
Qed.

Lemma ores_read : forall {A} addr (k : Z -> outcome (option A)) P,
  (forall v, read mem (PW a) addr = Some v -> 0 <= v < 2 ^ W a -> ores (k v) P) ->
  ores (match read mem (PW a) addr with Some v => k v | None => Ret None end) P.
Proof.
  intros A addr k P H.
  destruct (read mem (PW a) addr) eqn:R; [exact (H _ eq_refl (read_pw_range _ _ R)) | exact I].
Qed.

Lemma view_range : forall x, in_slot a x -> 0 <= view a x < 2 ^ W a.
Proof.
  intros x Hx. unfold view, W. destruct (a_trunc a) eqn:Et.
  - rewrite (arch_ok_trunc a Ha Et). apply Z.mod_pos_bound. reflexivity.
  - rewrite <- (arch_ok_notrunc a Ha Et). exact Hx.
Qed.

Lemma strip_range : forall x, in_slot a x -> in_slot a (strip a max_module_addr x).
Proof.
  intros x Hx. unfold strip. destruct (a_strip a); [|exact Hx].
  pose proof (strip_bounds max_module_addr x (proj1 Hx)). unfold in_slot in *. lia.
Qed.

(* below the frame-pointer guard there is room for the two words the techniques read *)
Lemma fp_limit_room : forall x, x < fp_limit a -> x + PW a * 2 < 2 ^ W a.
Proof.
  intros x H. pose proof (arch_ok_guard a Ha) as Hg. pose proof PW_W as [Hp _].
  unfold fp_limit, MAXW in H.
  assert (PW a * 2 <= PW a * a_fp_guard_words a) by (apply Z.mul_le_mono_nonneg_l; lia).
  lia.
Qed.

(* the register record every technique but CFI builds *)
Lemma regs_wf_mk : forall ip sp fp gp, in_slot a ip -> in_slot a sp -> in_slot a fp ->
  regs_wf a {| r_ip := ip; r_sp := sp; r_fp := fp; r_lr := 0; r_gp := gp |}.
Proof.
  intros ip sp fp gp H1 H2 H3. pose proof pow_bounds.
  exact (conj H1 (conj H2 (conj H3 (in_slot_W 0 ltac:(lia))))).
Qed.

Lemma fp_x86_spec : forall callee, frame_wf a callee ->
  ores (fp_x86 p a mem callee) (fun rv => regs_wf a (fst rv)).
Proof.
  intros callee (_ & _ & [Hfp _] & _). unfold fp_x86. apply ores_unless.
  destruct (Z.geb_spec (r_fp (f_regs callee)) (fp_limit a)) as [|G]; [exact I|].
  apply fp_limit_room in G. pose proof PW_W as [Hp _]. pose proof pow_bounds.
  rewrite chk_add_ok by lia. cbn [obind].
  apply ores_read. intros cip _ Q1. apply ores_read. intros cbp _ Q2.
  rewrite chk_add_ok by lia. cbn [obind ores fst].
  apply regs_wf_mk; apply in_slot_W; lia.
Qed.

(* with [fx_checked_resolve] amd64's resolve() forms every address with checked_add (/repo de31bed) *)
Lemma radd_eq : forall t x y, radd fx p a t x y = Ret (checked_add (W a) x y).
Proof. intros. unfold radd. rewrite Hfx. reflexivity. Qed.

Definition triple_ok (t : Z * Z * Z) : Prop :=
  let '(x, y, z) := t in in_slot a x /\ in_slot a y /\ in_slot a z.

Lemma resolve_spec : forall n idx step last_bp last_sp,
  0 <= idx -> 0 <= step -> (idx + Z.of_nat n) * step < 2 ^ 31 -> 0 <= last_bp ->
  ores (resolve fx p a mem n idx step last_bp last_sp) triple_ok.
Proof.
  induction n as [|n IH]; intros idx step last_bp last_sp Hidx Hstep Hb Hbp; [exact I|].
  destruct (loop_index_bound n idx step _ Hidx Hstep Hb) as [Hsmall Hb'].
  specialize (IH (idx + 1) step last_bp last_sp ltac:(lia) Hstep Hb' Hbp).
  pose proof pow_bounds. pose proof PW_W as [Hp _]. cbn [resolve].
  rewrite chk_mul_ok by lia. cbn [obind]. rewrite radd_eq. cbn [obind].
  apply ores_checked_add. intros E1.
  rewrite radd_eq. cbn [obind]. apply ores_checked_add. intros _.
  apply ores_read. intros cip _ Q1. apply ores_read. intros cbp _ Q2.
  rewrite radd_eq. cbn [obind]. apply ores_checked_add. intros E3.
  destruct (_ || _); [exact IH|].
  apply ores_read. intros _ _ _.
  destruct (negb (a_canon_fp a cip)); [exact IH|].
  destruct (negb (stack_seems_valid _ _ _ _)); [exact IH|].
  split; [|split]; apply in_slot_W; lia.
Qed.

Lemma fp_amd64_spec : forall callee, frame_wf a callee ->
  ores (fp_amd64 fx p a os mem callee) (fun rv => regs_wf a (fst rv)).
Proof.
  intros callee (_ & _ & [Hfp _] & _). unfold fp_amd64. apply ores_unless, ores_unless, ores_unless.
  apply ores_bind with (P := triple_ok); [|exact I|].
  - pose proof PW_cases.
    destruct (os =? OS_WINDOWS); apply resolve_spec; try lia;
      unfold amd64_win_scan_max, amd64_win_scan_step_words, amd64_other_scan_max, amd64_other_scan_step; lia.
  - intros [[cip cbp] csp] (H1 & H2 & H3). exact (regs_wf_mk cip csp cbp [] H1 H3 H2).
Qed.

Lemma fp_arm_spec : forall callee, frame_wf a callee ->
  ores (fp_arm p a os mem max_module_addr callee) (fun rv => regs_wf a (fst rv)).
Proof.
  intros callee (_ & Hsp & [Hfp _] & _). unfold fp_arm.
  apply ores_unless, ores_unless, ores_unless.
  destruct (Z.geb_spec (r_fp (f_regs callee)) (fp_limit a)) as [|G]; [exact I|].
  apply fp_limit_room in G. pose proof PW_W as [Hp _]. pose proof pow_bounds.
  assert (Hz : in_slot a 0) by (apply in_slot_W; lia).
  apply ores_bind with (P := triple_ok); [|exact I|].
  - destruct (_ =? 0); [exact (conj Hz (conj Hz Hsp))|].
    apply ores_read. intros cfp _ Q1. rewrite chk_add_ok by lia. cbn [obind].
    apply ores_read. intros cpc _ Q2. rewrite chk_add_ok by lia. cbn [obind ores].
    split; [|split]; apply in_slot_W; lia.
  - intros [[cfp cpc] csp] (H1 & H2 & H3). cbv beta iota zeta. apply ores_unless.
    apply regs_wf_mk; auto using strip_range.
Qed.

Lemma by_fp_spec : forall callee, frame_wf a callee ->
  ores (by_fp fx p a os mem max_module_addr callee) (fun rv => regs_wf a (fst rv)).
Proof.
  intros callee H. unfold by_fp.
  destruct (a_fp a); try exact I; [apply fp_x86_spec | apply fp_amd64_spec | apply fp_arm_spec | apply fp_arm_spec]; exact H.
Qed.

Definition opt_in_slot (o : option Z) : Prop := match o with Some b => in_slot a b | None => True end.

Lemma opt_in_slot_if : forall (c : bool) x, in_slot a x -> opt_in_slot (if c then Some x else None).
Proof. intros [|] x H; [exact H | exact I]. Qed.

(* a recovered frame pointer is a word read from the stack memory or the callee's own *)
Lemma recover_bp_spec : forall i addr_ip caller_sp last_bp,
  (0 < i -> PW a <= addr_ip) -> addr_ip < 2 ^ W a -> opt_in_slot last_bp ->
  ores (recover_bp p a mem i addr_ip caller_sp last_bp) opt_in_slot.
Proof.
  intros i addr_ip caller_sp last_bp Hge Hr Hlb. pose proof PW_W as [Hp _].
  unfold recover_bp. destruct (a_bp a); [| |exact I].
  - (* x86 *)
    destruct (Z.ltb_spec 0 i) as [Hi|]; [|exact I]. specialize (Hge Hi).
    rewrite chk_sub_ok by lia. cbn [obind].
    apply ores_read. intros bp _ R.
    assert (Helse : ores (match last_bp with
                          | Some lb => Ret (Some (if (lb >=? caller_sp) && readable a mem lb then Some lb else None))
                          | None => Ret (Some None) end) opt_in_slot).
    { destruct last_bp; [apply opt_in_slot_if, Hlb | exact I]. }
    destruct (Z.gtb_spec bp addr_ip); [|exact Helse].
    rewrite chk_sub_ok by lia. cbn [obind].
    destruct (_ <=? a_max_gap a); [|exact Helse].
    apply opt_in_slot_if, in_slot_W, R.
  - (* amd64 *)
    destruct last_bp as [lb|]; [|exact I].
    destruct (Z.ltb_spec 0 i) as [Hi|]; [|exact I]. specialize (Hge Hi).
    rewrite chk_sub_ok by lia. cbn [obind].
    apply ores_read. intros bp _ R.
    destruct ((lb =? _) && (bp >? addr_ip)) eqn:E; [|apply opt_in_slot_if, Hlb].
    apply andb_prop in E as [_ E]. apply Z.gtb_lt in E.
    rewrite chk_sub_ok by lia. cbn [obind].
    destruct (_ <=? a_max_gap a); [apply opt_in_slot_if, in_slot_W, R | apply opt_in_slot_if, Hlb].
Qed.

Definition scan_post (rv : regs * list Z) : Prop :=
  regs_wf a (fst rv) /\ read mem (PW a) (r_sp (fst rv) - PW a) = Some (r_ip (fst rv)).

Lemma scan_loop_spec : forall n i last_sp last_bp,
  0 <= i -> (i + Z.of_nat n) * PW a < 2 ^ 31 -> 0 <= last_sp -> opt_in_slot last_bp ->
  ores (scan_loop p a mem instr_valid n i last_sp last_bp) scan_post.
Proof.
  induction n as [|n IH]; intros i last_sp last_bp Hi Hb Hsp Hlb; [exact I|].
  pose proof PW_W as [Hp _]. pose proof pow_bounds.
  (* i * PW a is the only product; once it is bounded every side condition below is linear *)
  destruct (loop_index_bound n i (PW a) _ Hi ltac:(lia) Hb) as [Hsmall Hb'].
  assert (Hge : 0 < i -> PW a <= i * PW a) by nia.
  cbn [scan_loop]. rewrite chk_mul_ok by lia. cbn [obind].
  apply ores_checked_add. intros E1. apply ores_read. intros cip R1 Q1.
  destruct (instr_ok a instr_valid cip); [|apply IH; auto; lia].
  apply ores_checked_add. intros E2.
  apply ores_bind with (P := opt_in_slot); [apply recover_bp_spec; auto; lia | exact I |].
  intros obp Hobp. split; cbn [fst r_ip r_sp].
  - apply regs_wf_mk; [apply in_slot_W, Q1 | apply in_slot_W; lia |].
    destruct obp; [exact Hobp | apply in_slot_W; lia].
  - rewrite Z.add_simpl_r. exact R1.
Qed.

Lemma by_scan_spec : forall callee, frame_wf a callee ->
  ores (by_scan p a mem instr_valid callee) scan_post.
Proof.
  intros callee (_ & Hsp & Hfp & _). unfold by_scan. apply ores_unless.
  (* the scan windows of [arch_ok]: count * PW stays far below 2^31 *)
  apply view_range in Hsp. pose proof (arch_ok_scan a Ha) as (Hc & Hd & Hs). pose proof PW_cases.
  assert (Hlb : opt_in_slot (if reg_valid a (a_fp_name a) (f_valid callee) then Some (r_fp (f_regs callee)) else None))
    by apply opt_in_slot_if, Hfp.
  destruct (is_context _).
  - apply scan_loop_spec; auto; lia.
  - destruct (if a_scan_skip a =? 0 then _ else _) as [sp1|] eqn:E; [|exact I].
    apply scan_loop_spec; auto; try lia.
    destruct (a_scan_skip a =? 0); [inversion E; lia | apply checked_add_some in E; lia].
Qed.

Lemma by_cfi_spec : forall callee gc r v,
  by_cfi a module_at max_module_addr cfi_walk callee gc = Some (r, v) -> regs_wf a r.
Proof.
  intros callee gc r v H. unfold by_cfi in H.
  destruct (negb _); [discriminate|].
  destruct (module_at (f_instr callee)); [|discriminate].
  destruct (cfi_walk callee gc _) as [[r0 v0]|] eqn:E; [|discriminate].
  inversion H; subst; clear H. apply Hcfi in E. destruct E as (H1 & H2 & H3 & H4).
  split; [|split; [|split]]; cbn [cfi_post r_ip r_sp r_fp r_lr].
  - apply strip_range, H1.
  - exact H2.
  - destruct (reg_valid a (a_fp_name a) (VSome v)); [apply strip_range|]; exact H3.
  - destruct (reg_valid a (a_lr_name a) (VSome v)); [apply strip_range|]; exact H4.
Qed.

Definition cascade_post (f : frame) : Prop :=
  frame_wf a f /\ f_instr f = r_ip (f_regs f) /\ f_resume f = r_ip (f_regs f) /\
  trust_walked (f_trust f) /\ scan_word_ok a mem f.

Lemma from_context_post : forall r v t, regs_wf a r -> trust_walked t ->
  (t = TScan -> read mem (PW a) (r_sp r - PW a) = Some (r_ip r)) -> cascade_post (from_context r v t).
Proof. intros r v t Hr Ht Hs. exact (conj Hr (conj eq_refl (conj eq_refl (conj Ht Hs)))). Qed.

Lemma cascade_spec : forall callee gc, frame_wf a callee ->
  ores (cascade fx p a os mem module_at max_module_addr cfi_walk instr_valid callee gc) cascade_post.
Proof.
  intros callee gc Hc. unfold cascade.
  destruct (by_cfi a module_at max_module_addr cfi_walk callee gc) as [[r v]|] eqn:E.
  { apply by_cfi_spec in E. apply from_context_post; [exact E | left; reflexivity | discriminate]. }
  apply ores_bind with (P := fun rv => regs_wf a (fst rv)); [apply by_fp_spec, Hc | |].
  - apply ores_bind with (P := scan_post); [apply by_scan_spec, Hc | exact I |].
    intros [r v] [H1 H2]. apply from_context_post; [exact H1 | right; right; reflexivity | intros _; exact H2].
  - intros [r v] H. apply from_context_post; [exact H | right; left; reflexivity | discriminate].
Qed.

Definition gcf_post (callee f : frame) : Prop :=
  frame_wf a f /\ later_frame_ok a f /\ sp_step a callee f /\ scan_word_ok a mem f.

Notation gcf := (get_caller_frame fx p a os mem module_at max_module_addr cfi_walk instr_valid).
Notation walkf := (walk fx p a os mem module_at max_module_addr cfi_walk instr_valid).
Notation ws := (walk_stack fx p a os mem module_at max_module_addr cfi_walk instr_valid).

Lemma gcf_spec : forall callee gc, frame_wf a callee -> ores (gcf callee gc) (gcf_post callee).
Proof.
  intros callee gc Hc. unfold get_caller_frame.
  apply ores_bind with (P := cascade_post); [apply cascade_spec, Hc | exact I |].
  intros f (Hwf & Hi & Hr & Ht & Hs).
  destruct (Z.ltb_spec (r_ip (f_regs f)) (a_cutoff a)) as [|E1]; [exact I|].
  destruct (sp_progress a callee f) eqn:E2; [|exact I].
  pose proof (arch_ok_adj a Ha) as [Hadj Hle]. pose proof pow_bounds.
  rewrite chk_sub_ok by (destruct Hwf as [[? ?] _]; lia). cbn [negb obind ores].
  split; [exact Hwf|]. split; [|split; [|exact Hs]].
  { unfold later_frame_ok; cbn [set_instr f_instr f_resume f_regs f_trust]. rewrite Hr.
    exact (conj E1 (conj eq_refl (conj eq_refl Ht))). }
  (* sp_step: the progress check passed *)
  unfold sp_progress in E2. rewrite Hle in E2. unfold sp_step; cbn [set_instr f_regs].
  destruct (Z.leb_spec (r_sp (f_regs f)) (r_sp (f_regs callee))); [|left; lia].
  apply andb_prop in E2 as [E2 E4]. apply andb_prop in E2 as [E2 E5]. apply Z.eqb_eq in E4.
  right. auto using is_context_true.
Qed.

(* From a well-formed frame the walk never traps, and every frame it returns is well-formed.
   [walk_spec] and, for walk_stack, [stack_spec] are the statements to build on; walk_shape, stack_walked,
   stack_wellformed and stack_no_panic read them off for a walk that returned, in the shapes C03, C04 and
   Properties.v quote. *)
Definition walked_ok (f : frame) : Prop := frame_wf a f /\ later_frame_ok a f /\ scan_word_ok a mem f.

Lemma walk_spec : forall fuel callee gc, frame_wf a callee ->
  match walkf fuel callee gc with
  | Ret l => Forall walked_ok l /\ sp_chain a callee l
  | OutOfFuel => True
  | _ => False
  end.
Proof.
  induction fuel as [|k IH]; intros callee gc Hc; cbn [walk]; [exact I|].
  destruct (stop_here fx mem callee); [split; [constructor | exact I]|].
  pose proof (gcf_spec callee gc Hc) as HG.
  destruct (gcf callee gc) as [[f|]| |t|]; cbn [obind ores] in *; try contradiction;
    [|split; [constructor | exact I]].
  destruct HG as (Hwf & Hl & Hs & Hw). specialize (IH f (Some callee) Hwf).
  destruct (walkf k f (Some callee)) as [rest| |t|]; cbn [obind]; try exact IH.
  destruct IH as [I1 I2]. split; [constructor; [exact (conj Hwf (conj Hl Hw)) | exact I1] | exact (conj Hs I2)].
Qed.

Lemma walk_shape : forall fuel callee gc l, frame_wf a callee -> walkf fuel callee gc = Ret l ->
  Forall walked_ok l /\ sp_chain a callee l.
Proof. intros fuel callee gc l Hc H. pose proof (walk_spec fuel callee gc Hc) as S. rewrite H in S. exact S. Qed.

(* a returning walk_stack: the context frame, then the walk when the stack memory is usable *)
Lemma walk_stack_ret : forall fuel r v fs, ws fuel r v = Ret fs ->
  exists rest, fs = from_context r v TContext :: rest /\
    if mem_ok mem then walkf fuel (from_context r v TContext) None = Ret rest else rest = [].
Proof.
  intros fuel r v fs H. unfold walk_stack in H. destruct (mem_ok mem).
  - apply obind_ret in H as (rest & W & H). inversion H. exists rest. auto.
  - inversion H. exists []. auto.
Qed.

Lemma first_frame : forall fuel r v fs, ws fuel r v = Ret fs ->
  exists rest, fs = from_context r v TContext :: rest.
Proof. intros fuel r v fs H. destruct (walk_stack_ret _ _ _ _ H) as (rest & E & _). exists rest. exact E. Qed.

Lemma stack_spec : forall fuel r v, regs_wf a r ->
  match ws fuel r v with
  | Ret fs => exists rest, fs = from_context r v TContext :: rest /\
                Forall walked_ok rest /\ sp_chain a (from_context r v TContext) rest
  | OutOfFuel => True
  | _ => False
  end.
Proof.
  intros fuel r v Hr. unfold walk_stack.
  destruct (mem_ok mem); [|exists []; repeat split; constructor].
  pose proof (walk_spec fuel (from_context r v TContext) None Hr) as S.
  destruct (walkf fuel _ None) as [rest| |t|]; cbn [obind]; try exact S.
  exists rest. split; [reflexivity | exact S].
Qed.

Lemma stack_walked : forall fuel r v f0 rest, regs_wf a r -> ws fuel r v = Ret (f0 :: rest) ->
  f0 = from_context r v TContext /\ Forall walked_ok rest /\ sp_chain a f0 rest.
Proof.
  intros fuel r v f0 rest Hr H. pose proof (stack_spec fuel r v Hr) as S. rewrite H in S.
  destruct S as (rest' & E & S). inversion E; subst. split; [reflexivity | exact S].
Qed.

Lemma stack_wellformed : forall fuel r v fs, regs_wf a r -> ws fuel r v = Ret fs -> wellformed_walk a mem r v fs.
Proof.
  intros fuel r v fs Hr H. destruct (first_frame _ _ _ _ H) as [rest ->].
  destruct (stack_walked _ _ _ _ _ Hr H) as (_ & H1 & H2).
  exists rest. split; [reflexivity|]. split; [|split; [exact H2|]].
  - eapply Forall_impl; [|exact H1]. intros f (_ & Hl & _). exact Hl.
  - eapply Forall_impl; [|exact H1]. intros f (_ & _ & Hs). exact Hs.
Qed.

Lemma stack_no_panic : forall fuel r v, regs_wf a r ->
  (exists fs, ws fuel r v = Ret fs) \/ ws fuel r v = OutOfFuel.
Proof.
  intros fuel r v Hr. pose proof (stack_spec fuel r v Hr) as S.
  destruct (ws fuel r v); [left; eexists; reflexivity | contradiction.. | right; reflexivity].
Qed.

(* the frame bound (needs the repair of F-C03a) *)
Hypothesis Hguard : fx_sp_guard fx = true.

(* bytes of the stack memory from a frame's sp to the end *)
Definition room (f : frame) : Z :=
  if sp_in_stack mem f then m_base mem + mem_len mem - r_sp (f_regs f) else 0.

Lemma room_range : forall f, 0 <= room f <= mem_len mem /\ (sp_in_stack mem f = true -> 0 < room f).
Proof.
  intros f. unfold room, sp_in_stack.
  destruct (read mem 1 (r_sp (f_regs f))) eqn:E; [apply read_some in E; lia|].
  unfold mem_len. split; [lia | discriminate].
Qed.

(* the frames still to come: the context frame may have its sp anywhere, every later frame only inside the memory *)
Definition budget (f : frame) : Z := if is_context (f_trust f) then mem_len mem + 1 else room f.

Lemma walk_bound : forall fuel callee gc, frame_wf a callee -> (Z.to_nat (budget callee) < fuel)%nat ->
  exists l, walkf fuel callee gc = Ret l /\ Z.of_nat (length l) <= budget callee.
Proof.
  induction fuel as [|k IH]; intros callee gc Hc Hfuel; [lia|].
  pose proof (room_range callee) as [Hroom Hpos].
  assert (Hb : 0 <= budget callee) by (unfold budget; destruct (is_context _); lia).
  cbn [walk]. destruct (stop_here fx mem callee) eqn:Est; [exists []; split; [reflexivity | exact Hb]|].
  pose proof (gcf_spec callee gc Hc) as HG.
  destruct (gcf callee gc) as [[f|]| |t|]; cbn [obind ores] in *; try contradiction;
    [|exists []; split; [reflexivity | exact Hb]].
  destruct HG as (Hwf & (_ & _ & _ & Ht) & Hs & _). apply trust_walked_not_context in Ht.
  (* one frame further the budget has shrunk *)
  assert (Hlt : 0 <= budget f < budget callee).
  { pose proof (room_range f) as [Hrf _]. unfold budget. rewrite Ht.
    destruct (is_context (f_trust callee)) eqn:Ectx; [lia|].
    unfold stop_here in Est. rewrite Hguard, Ectx in Est. apply negb_false_iff in Est. specialize (Hpos Est).
    destruct Hs as [Hs|(_ & Hs & _)]; [|rewrite Hs in Ectx; discriminate].
    unfold room in *. rewrite Est in *. destruct (sp_in_stack mem f); lia. }
  destruct (IH f (Some callee) Hwf ltac:(lia)) as (rest & E & Hlen).
  rewrite E. exists (f :: rest). split; [reflexivity|]. cbn [length]. lia.
Qed.

End WalkerProofs.

(* a walked frame's addresses are u64, and its instruction lies below its return address *)
Lemma walked_u64 : forall a mem f, arch_ok a -> walked_ok a mem f -> 0 <= f_instr f < f_resume f /\ f_resume f < 2 ^ 64.
Proof.
  intros a mem f Ha ([[_ Hip] _] & (Hcut & Hi & Hres & _) & _).
  pose proof (arch_ok_adj a Ha) as [Hadj _]. pose proof (pow_bounds a Ha). lia.
Qed.

Lemma frame_bound : forall p a os mem module_at max_module_addr cfi_walk instr_valid fx,
  fx_checked_resolve fx = true -> arch_ok a -> mem_wf mem ->
  (forall callee gc fwd r v, cfi_walk callee gc fwd = Some (r, v) -> regs_wf a r) ->
  fx_sp_guard fx = true ->
  forall r v, regs_wf a r ->
    exists fs, walk_stack fx p a os mem module_at max_module_addr cfi_walk instr_valid (fuel_for mem) r v = Ret fs /\
               (length fs <= length (m_bytes mem) + 2)%nat.
Proof.
  intros p a os mem ma mm cw iv fx Hfx Ha Hm Hc Hg r v Hr. unfold walk_stack.
  destruct (mem_ok mem); [|exists [from_context r v TContext]; split; [reflexivity | cbn [length]; lia]].
  destruct (walk_bound fx p a os mem ma mm cw iv Hfx Ha Hm Hc Hg (fuel_for mem) (from_context r v TContext) None Hr)
    as (rest & E & Hlen); unfold budget, fuel_for, mem_len in *; cbn [from_context f_trust is_context] in *; [lia|].
  rewrite E. exists (from_context r v TContext :: rest). split; [reflexivity|]. cbn [length]. lia.
Qed.

Ltac arch_ok_tac := unfold arch_ok; cbn; repeat split; try lia; try discriminate; auto.
Lemma arch_ok_x86 : arch_ok x86. Proof. arch_ok_tac. Qed.
Lemma arch_ok_amd64 : arch_ok amd64. Proof. arch_ok_tac. Qed.
Lemma arch_ok_arm : arch_ok arm. Proof. arch_ok_tac. Qed.
Lemma arch_ok_arm64 : arch_ok arm64. Proof. arch_ok_tac. Qed.
Lemma arch_ok_mips32 : arch_ok mips32. Proof. arch_ok_tac. Qed.
Lemma arch_ok_mips64 : arch_ok mips64. Proof. arch_ok_tac. Qed.

Definition walker_facts (a : arch) : Prop :=
  forall p os mem module_at max_module_addr cfi_walk instr_valid,
    mem_wf mem ->
    (forall callee gc fwd r v, cfi_walk callee gc fwd = Some (r, v) -> regs_wf a r) ->
    forall r v, regs_wf a r ->
      (forall fuel fs, walk_stack current_code p a os mem module_at max_module_addr cfi_walk instr_valid fuel r v = Ret fs ->
                       wellformed_walk a mem r v fs) /\
      (forall fuel, (exists fs, walk_stack current_code p a os mem module_at max_module_addr cfi_walk instr_valid fuel r v = Ret fs) \/
                    walk_stack current_code p a os mem module_at max_module_addr cfi_walk instr_valid fuel r v = OutOfFuel) /\
      (exists fs, walk_stack current_code p a os mem module_at max_module_addr cfi_walk instr_valid (fuel_for mem) r v = Ret fs /\
                  (length fs <= length (m_bytes mem) + 2)%nat).

Lemma walker_facts_of_ok : forall a, arch_ok a -> walker_facts a.
Proof.
  intros a Ha p os mem ma mm cw iv Hm Hc r v Hr. split; [|split].
  - intros fuel fs H. exact (stack_wellformed current_code p a os mem ma mm cw iv eq_refl Ha Hm Hc fuel r v fs Hr H).
  - intros fuel. exact (stack_no_panic current_code p a os mem ma mm cw iv eq_refl Ha Hm Hc fuel r v Hr).
  - exact (frame_bound p a os mem ma mm cw iv current_code eq_refl Ha Hm Hc eq_refl r v Hr).
Qed.

