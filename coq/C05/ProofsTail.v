(* C05/ProofsTail.v — the generated guard expressions (Gen/UnwindTail.v) against the parametric walker of Model.v:
   each generated check sequence equals [gcf_tail] of its architecture description for ALL inputs, the generated
   stop guard equals the one of Model.v, hence the walker the driver runs ([walk_stack_gen]) is [walk_stack
   current_code] and inherits every walker theorem; plus what the generated sequences guarantee by themselves. *)
From Coq Require Import Lia ZArith List Bool.
From RM Require Import Base.WordFacts C05.Model C05.ModelTail C05.Proofs.
From RM Require C05.Driver.
Import ListNotations.
Open Scope Z_scope.

(* generated = parametric, for all profiles / trusts / values (no range hypothesis): unfold both sides down to the
   comparisons and the checked subtraction, then go through the cases of the three comparisons and the trust flag *)
Ltac pin_tac :=
  intros p c s ip sp; cbv -[Z.ltb Z.leb Z.eqb chk_sub];
  destruct (ip <? _); [reflexivity|];
  destruct (sp <=? s); destruct c; destruct (sp =? s); reflexivity.

Lemma tail_pinned_x86 : forall p c s ip sp, x86_gcf_tail p c s ip sp = gcf_tail x86 p c s ip sp.
Proof. pin_tac. Qed.
Lemma tail_pinned_amd64 : forall p c s ip sp, amd64_gcf_tail p c s ip sp = gcf_tail amd64 p c s ip sp.
Proof. pin_tac. Qed.
Lemma tail_pinned_arm : forall p c s ip sp, arm_gcf_tail p c s ip sp = gcf_tail arm p c s ip sp.
Proof. pin_tac. Qed.
Lemma tail_pinned_arm64 : forall p c s ip sp, arm64_gcf_tail p c s ip sp = gcf_tail arm64 p c s ip sp.
Proof. pin_tac. Qed.
Lemma tail_pinned_mips32 : forall p c s ip sp, mips_gcf_tail p c s ip sp = gcf_tail mips32 p c s ip sp.
Proof. pin_tac. Qed.
Lemma tail_pinned_mips64 : forall p c s ip sp, mips_gcf_tail p c s ip sp = gcf_tail mips64 p c s ip sp.
Proof. pin_tac. Qed.

Lemma stop_pinned : forall c r, lib_walk_stop c r = negb c && negb r.
Proof. intros [|] [|]; reflexivity. Qed.

Lemma generated_code_current : generated_code = current_code.
Proof. reflexivity. Qed.

(* the walker with a pluggable tail / stop guard is the walker of Model.v when both are the parametric ones *)
Section Eq.
Variable fx : fixes.
Variable p : profile.
Variable a : arch.
Variable os : Z.
Variable mem : memory.
Variable module_at : Z -> option Z.
Variable max_module_addr : Z.
Variable cfi_walk : frame -> option frame -> list Z -> option (regs * list Z).
Variable instr_valid : Z -> bool.
Variable tail : tail_fn.
Variable stop : bool -> bool -> bool.
Hypothesis Htail : forall p c s ip sp, tail p c s ip sp = gcf_tail a p c s ip sp.
Hypothesis Hstop : forall c r, stop c r = negb c && negb r.
Hypothesis Hfx : fx_sp_guard fx = true.

Lemma gcf_t_eq : forall callee gc,
  get_caller_frame_t fx p a os mem module_at max_module_addr cfi_walk instr_valid tail callee gc =
  get_caller_frame fx p a os mem module_at max_module_addr cfi_walk instr_valid callee gc.
Proof.
  intros callee gc. unfold get_caller_frame_t, get_caller_frame.
  destruct (cascade fx p a os mem module_at max_module_addr cfi_walk instr_valid callee gc) as [[f|]| |t|];
    cbn [obind]; try reflexivity.
  rewrite Htail. unfold gcf_tail, sp_progress.
  destruct (r_ip (f_regs f) <? a_cutoff a); [reflexivity|]. cbv zeta.
  destruct (negb _); [reflexivity|].
  destruct (chk_sub p 64 550 (r_ip (f_regs f)) (a_adj a)); reflexivity.
Qed.

Lemma walk_t_eq : forall fuel callee gc,
  walk_t fx p a os mem module_at max_module_addr cfi_walk instr_valid tail stop fuel callee gc =
  walk fx p a os mem module_at max_module_addr cfi_walk instr_valid fuel callee gc.
Proof.
  induction fuel as [|k IH]; intros callee gc; cbn [walk_t walk]; [reflexivity|].
  unfold stop_here_t, stop_here. rewrite Hstop, Hfx. cbn [andb].
  destruct (negb (is_context (f_trust callee)) && negb (sp_in_stack mem callee)); [reflexivity|].
  rewrite gcf_t_eq.
  destruct (get_caller_frame fx p a os mem module_at max_module_addr cfi_walk instr_valid callee gc) as [[f|]| |t|];
    cbn [obind]; try reflexivity.
  rewrite IH. reflexivity.
Qed.

Lemma walk_stack_t_eq : forall fuel r v,
  walk_stack_t fx p a os mem module_at max_module_addr cfi_walk instr_valid tail stop fuel r v =
  walk_stack fx p a os mem module_at max_module_addr cfi_walk instr_valid fuel r v.
Proof.
  intros fuel r v. unfold walk_stack_t, walk_stack. cbv zeta.
  destruct (mem_ok mem); [|reflexivity]. rewrite walk_t_eq. reflexivity.
Qed.
End Eq.

Lemma walk_stack_gen_eq : forall a tail,
  (forall p c s ip sp, tail p c s ip sp = gcf_tail a p c s ip sp) ->
  forall p os mem module_at max_module_addr cfi_walk instr_valid fuel r v,
    walk_stack_gen p a tail os mem module_at max_module_addr cfi_walk instr_valid fuel r v =
    walk_stack current_code p a os mem module_at max_module_addr cfi_walk instr_valid fuel r v.
Proof.
  intros a tail Ht p os mem ma mm cw iv fuel r v. unfold walk_stack_gen. rewrite generated_code_current.
  apply walk_stack_t_eq; [exact Ht | exact stop_pinned | reflexivity].
Qed.

Definition walker_facts_gen (a : arch) (tail : tail_fn) : Prop :=
  forall p os mem module_at max_module_addr cfi_walk instr_valid,
    mem_wf mem ->
    (forall callee gc fwd r v, cfi_walk callee gc fwd = Some (r, v) -> regs_wf a r) ->
    forall r v, regs_wf a r ->
      (forall fuel fs, walk_stack_gen p a tail os mem module_at max_module_addr cfi_walk instr_valid fuel r v = Ret fs ->
                       wellformed_walk a mem r v fs) /\
      (forall fuel, (exists fs, walk_stack_gen p a tail os mem module_at max_module_addr cfi_walk instr_valid fuel r v = Ret fs) \/
                    walk_stack_gen p a tail os mem module_at max_module_addr cfi_walk instr_valid fuel r v = OutOfFuel) /\
      (exists fs, walk_stack_gen p a tail os mem module_at max_module_addr cfi_walk instr_valid (fuel_for mem) r v = Ret fs /\
                  (length fs <= length (m_bytes mem) + 2)%nat).

Lemma walker_facts_gen_of : forall a tail,
  arch_ok a -> (forall p c s ip sp, tail p c s ip sp = gcf_tail a p c s ip sp) -> walker_facts_gen a tail.
Proof.
  intros a tail Ha Ht p os mem ma mm cw iv Hm Hc r v Hr. setoid_rewrite (walk_stack_gen_eq a tail Ht).
  exact (walker_facts_of_ok a Ha p os mem ma mm cw iv Hm Hc r v Hr).
Qed.

(* what a check sequence guarantees by itself: it never traps on a 64-bit instruction pointer, and when it lets
   the frame through, ip >= cut-off, instruction = ip - adjustment, and the stack pointer grew (or, on a leaf
   architecture, stayed equal with the callee being the context frame) *)
Lemma gcf_tail_sound : forall a, arch_ok a ->
  forall p c s ip sp, 0 <= ip < 2 ^ 64 ->
    (exists o, gcf_tail a p c s ip sp = Ret o) /\
    (forall i, gcf_tail a p c s ip sp = Ret (Some i) ->
       a_cutoff a <= ip /\ i = ip - a_adj a /\ (s < sp \/ (a_leaf a = true /\ c = true /\ s = sp))).
Proof.
  intros a Ha p c s ip sp Hip. pose proof (arch_ok_adj a Ha) as [Hadj Hle].
  unfold gcf_tail. rewrite Hle.
  destruct (Z.ltb_spec ip (a_cutoff a)); [split; [eexists; reflexivity | discriminate]|].
  set (ok := if sp <=? s then _ else true).
  assert (Hok : ok = true -> s < sp \/ (a_leaf a = true /\ c = true /\ s = sp)).
  { unfold ok. destruct (Z.leb_spec sp s); [|left; lia]. intros E.
    apply andb_prop in E as [E E4]. apply andb_prop in E as [E3 E5]. apply Z.eqb_eq in E4. right. auto. }
  destruct ok; cbn [negb]; [|split; [eexists; reflexivity | discriminate]].
  rewrite chk_sub_ok by lia. cbn [obind]. split; [eexists; reflexivity|].
  intros i Hi. inversion Hi. split; [lia|]. split; [reflexivity | exact (Hok eq_refl)].
Qed.

(* ... hence a generated sequence that equals [gcf_tail a]; on an architecture without the leaf exception the stack
   pointer grows strictly *)
Lemma tail_leaf : forall a tail, arch_ok a -> (forall p c s ip sp, tail p c s ip sp = gcf_tail a p c s ip sp) ->
  forall p c s ip sp, 0 <= ip < 2 ^ 64 ->
    (exists o, tail p c s ip sp = Ret o) /\
    (forall i, tail p c s ip sp = Ret (Some i) ->
       a_cutoff a <= ip /\ i = ip - a_adj a /\ (s < sp \/ (c = true /\ s = sp))).
Proof.
  intros a tail Ha He p c s ip sp Hip. rewrite He.
  destruct (gcf_tail_sound a Ha p c s ip sp Hip) as [H1 H2]. split; [exact H1|].
  intros i E. destruct (H2 i E) as (A & B & [C|(_ & C)]); auto.
Qed.

Lemma tail_strict : forall a tail, arch_ok a -> a_leaf a = false ->
  (forall p c s ip sp, tail p c s ip sp = gcf_tail a p c s ip sp) ->
  forall p c s ip sp, 0 <= ip < 2 ^ 64 ->
    (exists o, tail p c s ip sp = Ret o) /\
    (forall i, tail p c s ip sp = Ret (Some i) -> a_cutoff a <= ip /\ i = ip - a_adj a /\ s < sp).
Proof.
  intros a tail Ha Hl He p c s ip sp Hip. rewrite He.
  destruct (gcf_tail_sound a Ha p c s ip sp Hip) as [H1 H2]. split; [exact H1|].
  intros i E. destruct (H2 i E) as (A & B & [C|(C & _)]); [auto | rewrite Hl in C; discriminate C].
Qed.

(* the driver's architecture ids: what holds of the six descriptions, each with its generated pieces, holds of every id *)
Lemma archid_cases : forall (P : arch -> tail_fn -> (Z -> bool) -> Prop),
  P x86 x86_gcf_tail x86_instr_pre_ok -> P amd64 amd64_gcf_tail amd64_instr_pre_ok ->
  P arm arm_gcf_tail arm_instr_pre_ok -> P arm64 arm64_gcf_tail arm64_instr_pre_ok ->
  P mips32 mips_gcf_tail mips_instr_pre_ok -> P mips64 mips_gcf_tail mips_instr_pre_ok ->
  forall archid, P (Driver.arch_of archid) (tail_of archid) (pre_ok_of archid).
Proof.
  intros P H0 H1 H2 H3 H4 H5 id. unfold Driver.arch_of, tail_of, pre_ok_of.
  destruct (id =? 0); [exact H0|]. destruct (id =? 1); [exact H1|]. destruct (id =? 2); [exact H2|].
  destruct (Z.eqb_spec id 3) as [->|]; [exact H3|].
  destruct (id =? 4); [exact H4|]. destruct (id =? 5); [exact H5 | exact H3].
Qed.

Lemma generated_walk_is_model :
  forall archid p os mem module_at max_module_addr cfi_walk instr_valid fuel r v,
    walk_stack_gen p (Driver.arch_of archid) (tail_of archid) os mem module_at max_module_addr cfi_walk instr_valid fuel r v =
    walk_stack current_code p (Driver.arch_of archid) os mem module_at max_module_addr cfi_walk instr_valid fuel r v.
Proof.
  intros archid. apply walk_stack_gen_eq. revert archid.
  apply (archid_cases (fun a t _ => forall p c s ip sp, t p c s ip sp = gcf_tail a p c s ip sp)).
  - exact tail_pinned_x86.
  - exact tail_pinned_amd64.
  - exact tail_pinned_arm.
  - exact tail_pinned_arm64.
  - exact tail_pinned_mips32.
  - exact tail_pinned_mips64.
Qed.
