(* C05/Properties.v — the property theorems of C05 (and the frame bound of C03), each with its full statement, a short
   proof from the lemmas of the C05/Proofs*.v files (an instance, or a few lines) and its Print Assumptions; then the
   refutations for the code before its two repairs, and the non-vacuity examples.
   [walk_stack fx p a os mem module_at max_module_addr cfi_walk instr_valid fuel r v] is the model of
   minidump_unwind::walk_stack (C05/Model.v): fx = which repairs are in the code ([current_code] = the tree in /repo),
   p = build profile, a = architecture, os, mem = the thread's stack memory, then the three oracles
   (module lookup, symbol-file CFI/WIN walk, instruction_seems_valid_by_symbols), the loop fuel, and the
   context registers r with validity v.  All of these are universally quantified below; the
   assumptions of the generic theorems are: the architecture description meets [arch_ok] (proved for the six
   instances), the stack bytes are bytes ([mem_wf]), the context's registers fit their slots ([regs_wf]) and the
   CFI oracle only returns register values that fit (they went through C::Register::try_from in CfiStackWalker). *)
From Coq Require Import Lia ZArith List.
From RM Require Import Base.WordFacts C05.Model C05.ModelTail C05.Proofs C05.ProofsTail C05.Driver C05.ProofsModules C05.ProofsCfi C05.ProofsFunction C05.ProofsValid.
From RM Require C06.Model C08.Model C09.Grammar C11.Model C11.Proofs2.
Import ListNotations.
Open Scope Z_scope.

(* every instance of the parametric walker meets the side conditions of the generic theorems *)
Theorem c05_arch_ok_x86 : arch_ok x86. Proof. exact arch_ok_x86. Qed.
Print Assumptions c05_arch_ok_x86.
Theorem c05_arch_ok_amd64 : arch_ok amd64. Proof. exact arch_ok_amd64. Qed.
Print Assumptions c05_arch_ok_amd64.
Theorem c05_arch_ok_arm : arch_ok arm. Proof. exact arch_ok_arm. Qed.
Print Assumptions c05_arch_ok_arm.
Theorem c05_arch_ok_arm64 : arch_ok arm64. Proof. exact arch_ok_arm64. Qed.   (* arm64_old.rs = arm64.rs, checked by the translator *)
Print Assumptions c05_arch_ok_arm64.
Theorem c05_arch_ok_mips32 : arch_ok mips32. Proof. exact arch_ok_mips32. Qed.
Print Assumptions c05_arch_ok_mips32.
Theorem c05_arch_ok_mips64 : arch_ok mips64. Proof. exact arch_ok_mips64. Qed.
Print Assumptions c05_arch_ok_mips64.

(* the numbers of the property text, as read from the sources (Gen/UnwindConsts.v):
   nullish cut-off 4096 everywhere; call adjustment 1/1/2/4/8/8; sp may repeat (leaf) on ARM, ARM64, MIPS only *)
Theorem c05_constants :
  map a_cutoff [x86; amd64; arm; arm64; mips32; mips64] = [4096; 4096; 4096; 4096; 4096; 4096] /\
  map a_adj [x86; amd64; arm; arm64; mips32; mips64] = [1; 1; 2; 4; 8; 8] /\
  map a_leaf [x86; amd64; arm; arm64; mips32; mips64] = [false; false; true; true; true; true] /\
  map a_pw [x86; amd64; arm; arm64; mips32; mips64] = [4; 8; 4; 8; 4; 8].
Proof. repeat split; reflexivity. Qed.
Print Assumptions c05_constants.

(* frame 0 is the context: instruction = resume address = the context's ip, trust = context *)
Theorem c05_first_frame :
  forall p a os mem module_at max_module_addr cfi_walk instr_valid fx fuel r v fs,
    walk_stack fx p a os mem module_at max_module_addr cfi_walk instr_valid fuel r v = Ret fs ->
    exists rest, fs = {| f_instr := r_ip r; f_resume := r_ip r; f_trust := TContext; f_regs := r; f_valid := v |} :: rest.
Proof. intros p a os mem ma mm cw iv fx. exact (first_frame fx p a os mem ma mm cw iv). Qed.
Print Assumptions c05_first_frame.

(* every later frame: resume >= 4096 (a_cutoff), instruction = resume - adj, trust in {cfi, frame_pointer, scan};
   sp strictly increases (may repeat only between the first two frames, on leaf architectures);
   a scan frame's return address is the word just below its sp, inside the stack memory *)
Theorem c05_wellformed :
  forall p a os mem module_at max_module_addr cfi_walk instr_valid,
    arch_ok a -> mem_wf mem ->
    (forall callee gc fwd r v, cfi_walk callee gc fwd = Some (r, v) -> regs_wf a r) ->
    forall fuel r v fs, regs_wf a r ->
      walk_stack current_code p a os mem module_at max_module_addr cfi_walk instr_valid fuel r v = Ret fs ->
      exists rest, fs = from_context r v TContext :: rest /\
        Forall (later_frame_ok a) rest /\
        sp_chain a (from_context r v TContext) rest /\
        Forall (scan_word_ok a mem) rest.
Proof. intros p a os mem ma mm cw iv. exact (stack_wellformed current_code p a os mem ma mm cw iv eq_refl). Qed.
Print Assumptions c05_wellformed.

(* the three parts of c05_wellformed, each by itself: the shape of every later frame, *)
Theorem c05_frame_shape :
  forall p a os mem module_at max_module_addr cfi_walk instr_valid,
    arch_ok a -> mem_wf mem ->
    (forall callee gc fwd r v, cfi_walk callee gc fwd = Some (r, v) -> regs_wf a r) ->
    forall fuel r v f0 rest, regs_wf a r ->
      walk_stack current_code p a os mem module_at max_module_addr cfi_walk instr_valid fuel r v = Ret (f0 :: rest) ->
      Forall (fun f => a_cutoff a <= f_resume f /\ f_instr f = f_resume f - a_adj a /\ f_resume f = r_ip (f_regs f) /\
                       (f_trust f = TCfi \/ f_trust f = TFramePointer \/ f_trust f = TScan)) rest.
Proof.
  intros p a os mem ma mm cw iv Ha Hm Hc fuel r v f0 rest Hr H.
  destruct (stack_wellformed current_code p a os mem ma mm cw iv eq_refl Ha Hm Hc fuel r v _ Hr H) as [rest' [E [H1 _]]].
  inversion E; subst. exact H1.
Qed.
Print Assumptions c05_frame_shape.

(* ... the progress of the stack pointer, *)
Theorem c05_sp_monotone :
  forall p a os mem module_at max_module_addr cfi_walk instr_valid,
    arch_ok a -> mem_wf mem ->
    (forall callee gc fwd r v, cfi_walk callee gc fwd = Some (r, v) -> regs_wf a r) ->
    forall fuel r v f0 rest, regs_wf a r ->
      walk_stack current_code p a os mem module_at max_module_addr cfi_walk instr_valid fuel r v = Ret (f0 :: rest) ->
      sp_chain a f0 rest.
Proof.
  intros p a os mem ma mm cw iv Ha Hm Hc fuel r v f0 rest Hr H.
  destruct (stack_wellformed current_code p a os mem ma mm cw iv eq_refl Ha Hm Hc fuel r v _ Hr H) as [rest' [E [_ [H2 _]]]].
  inversion E; subst. exact H2.
Qed.
Print Assumptions c05_sp_monotone.

(* ... and where a scan frame's return address was read *)
Theorem c05_scan_word :
  forall p a os mem module_at max_module_addr cfi_walk instr_valid,
    arch_ok a -> mem_wf mem ->
    (forall callee gc fwd r v, cfi_walk callee gc fwd = Some (r, v) -> regs_wf a r) ->
    forall fuel r v f0 rest, regs_wf a r ->
      walk_stack current_code p a os mem module_at max_module_addr cfi_walk instr_valid fuel r v = Ret (f0 :: rest) ->
      Forall (fun f => f_trust f = TScan -> read mem (a_pw a) (r_sp (f_regs f) - a_pw a) = Some (f_resume f)) rest.
Proof.
  intros p a os mem ma mm cw iv Ha Hm Hc fuel r v f0 rest Hr H.
  destruct (stack_wellformed current_code p a os mem ma mm cw iv eq_refl Ha Hm Hc fuel r v _ Hr H) as [rest' [E [_ [_ H3]]]].
  inversion E; subst. exact H3.
Qed.
Print Assumptions c05_scan_word.

(* no overflow trap, unwrap or index panic of the modelled walker is reachable, in either build profile *)
Theorem c05_no_panic :
  forall p a os mem module_at max_module_addr cfi_walk instr_valid,
    arch_ok a -> mem_wf mem ->
    (forall callee gc fwd r v, cfi_walk callee gc fwd = Some (r, v) -> regs_wf a r) ->
    forall fuel r v, regs_wf a r ->
      (exists fs, walk_stack current_code p a os mem module_at max_module_addr cfi_walk instr_valid fuel r v = Ret fs) \/
      walk_stack current_code p a os mem module_at max_module_addr cfi_walk instr_valid fuel r v = OutOfFuel.
Proof. intros p a os mem ma mm cw iv. exact (stack_no_panic current_code p a os mem ma mm cw iv eq_refl). Qed.
Print Assumptions c05_no_panic.

(* C03: no thread is walked for more frames than its stack memory has bytes, plus two; fuel |stack| + 3 suffices *)
Theorem c03_frame_bound :
  forall p a os mem module_at max_module_addr cfi_walk instr_valid,
    arch_ok a -> mem_wf mem ->
    (forall callee gc fwd r v, cfi_walk callee gc fwd = Some (r, v) -> regs_wf a r) ->
    forall r v, regs_wf a r ->
      exists fs, walk_stack current_code p a os mem module_at max_module_addr cfi_walk instr_valid (fuel_for mem) r v = Ret fs /\
                 (length fs <= length (m_bytes mem) + 2)%nat.
Proof. intros p a os mem ma mm cw iv Ha Hm Hc. exact (frame_bound p a os mem ma mm cw iv current_code eq_refl Ha Hm Hc eq_refl). Qed.
Print Assumptions c03_frame_bound.

(* well-formedness, no panic and the frame bound in one statement, for each of the six instances *)
Theorem c05_wellformed_x86 : walker_facts x86. Proof. exact (walker_facts_of_ok x86 arch_ok_x86). Qed.
Print Assumptions c05_wellformed_x86.
Theorem c05_wellformed_amd64 : walker_facts amd64. Proof. exact (walker_facts_of_ok amd64 arch_ok_amd64). Qed.
Print Assumptions c05_wellformed_amd64.
Theorem c05_wellformed_arm : walker_facts arm. Proof. exact (walker_facts_of_ok arm arch_ok_arm). Qed.
Print Assumptions c05_wellformed_arm.
Theorem c05_wellformed_arm64 : walker_facts arm64. Proof. exact (walker_facts_of_ok arm64 arch_ok_arm64). Qed.
Print Assumptions c05_wellformed_arm64.
Theorem c05_wellformed_mips32 : walker_facts mips32. Proof. exact (walker_facts_of_ok mips32 arch_ok_mips32). Qed.
Print Assumptions c05_wellformed_mips32.
Theorem c05_wellformed_mips64 : walker_facts mips64. Proof. exact (walker_facts_of_ok mips64 arch_ok_mips64). Qed.
Print Assumptions c05_wellformed_mips64.

(* a frame's module, when present, covers its lookup address: the lookup the walker uses
   (MinidumpModuleList::from_modules + module_at_address = C08's range map, here [d_module_at]) only returns
   a module whose own [base, base + size) contains the address (from c08_lookup_sound) *)
Theorem c05_module_covers :
  forall (mods : list modspec) (f : frame) i,
    Forall (fun m => 0 <= fst (fst m) /\ 0 <= snd (fst m)) mods ->
    frame_module mods f = Some i ->
    exists b s y, nth_error mods (Z.to_nat i) = Some (b, s, y) /\ b <= f_instr f < b + s.
Proof. intros mods f i H E. exact (module_at_covers mods (f_instr f) i H E). Qed.
Print Assumptions c05_module_covers.

(* arm64 ptr_auth_strip (mask = next power of two of max(2^47 - 1, highest module end), minus one):
   it never changes an address below the highest module end (nor below 2^47 - 1), never produces a larger or
   negative value, and is idempotent.  [max_module_addr] is the end of the highest-ADDRESSED module (the
   driver takes it from C08's table, as by_addr().next_back() does). *)
Theorem c05_ptr_auth_strip_sound :
  forall max_module_addr x,
    (0 <= x < Z.max (2 ^ 47 - 1) max_module_addr -> ptr_auth_strip max_module_addr x = x) /\
    (0 <= x -> 0 <= ptr_auth_strip max_module_addr x <= x) /\
    (0 <= x -> ptr_auth_strip max_module_addr (ptr_auth_strip max_module_addr x) = ptr_auth_strip max_module_addr x).
Proof. intros mma x. exact (conj (strip_below_max mma x) (conj (strip_bounds mma x) (strip_idempotent mma x))). Qed.
Print Assumptions c05_ptr_auth_strip_sound.

(* The contract assumed of the CFI oracle, proved for the real thing as C06 models it: walk_with_stack_cfi over
   the real CfiStackWalker (any rule text, any deltas) keeps every register of the caller context within
   [0, B) for every bound B >= 2^(8 * register width), whenever the callee's registers and the stack words read
   are non-negative and the caller context starts within the bound. *)
Theorem c05_cfi_walker_in_range :
  forall (a6 : C06.Model.arch) B p E r addr s s',
    2 ^ (8 * C06.Model.a_width a6) <= B ->
    ((forall n v, C06.Model.e_callee E n = Some v -> 0 <= v) /\ (forall ad v, C06.Model.e_mem E ad = Some v -> 0 <= v)) ->
    (forall n, 0 <= C06.Model.r_ctx s n < B) ->
    C06.Model.walk_frame_cfi (C06.Model.real_ops a6) p E r addr s = Ret (Some s') ->
    forall n, 0 <= C06.Model.r_ctx s' n < B.
Proof. exact real_walk_in_range. Qed.
Print Assumptions c05_cfi_walker_in_range.

(* ... hence the oracle the correspondence driver runs for arbitrary rule text (C06's evaluator over the real
   CfiStackWalker, [cfi_text]) meets the contract of the theorems above for every callee whose registers are
   within their slots *)
Theorem c05_cfi_text_contract :
  forall a mem mods regnames lrname callee gc fwd r v,
    arch_ok a -> mem_wf mem -> frame_wf a callee ->
    (forall n, in_slot a (slot_value a regnames lrname (f_regs callee) n)) ->
    cfi_text a mem mods regnames lrname callee gc fwd = Some (r, v) ->
    regs_wf a r /\ Forall (in_slot a) (r_gp r).
Proof. exact cfi_text_contract. Qed.
Print Assumptions c05_cfi_text_contract.

(* The guard expressions as the Rust text has them (Gen/UnwindTail.v, re-emitted statement by statement
   and operator by operator on every run).  [<arch>_gcf_tail p callee_is_context callee_sp caller_ip caller_sp] is the end of
   <arch>::get_caller_frame from `let mut frame = frame?;` to `Some(frame)`; [lib_walk_stop] is the stop guard of walk_stack;
   [walk_stack_gen p a tail ..] is the walker made of Model.v's techniques and these generated pieces -- it is what the
   correspondence run executes against the real code. *)

(* by itself, for every profile, every callee trust and all values: a check sequence never traps on a 64-bit instruction
   pointer; when it lets the caller frame through, ip >= 4096, instruction = ip - call adjustment and the caller's stack
   pointer is above the callee's -- x86 / amd64: always *)
Theorem c05_tail_sound_x86 :
  forall p callee_is_context callee_sp caller_ip caller_sp, 0 <= caller_ip < 2 ^ 64 ->
    (exists o, x86_gcf_tail p callee_is_context callee_sp caller_ip caller_sp = Ret o) /\
    (forall i, x86_gcf_tail p callee_is_context callee_sp caller_ip caller_sp = Ret (Some i) ->
       4096 <= caller_ip /\ i = caller_ip - 1 /\ callee_sp < caller_sp).
Proof. exact (tail_strict x86 _ arch_ok_x86 eq_refl tail_pinned_x86). Qed.
Print Assumptions c05_tail_sound_x86.
Theorem c05_tail_sound_amd64 :
  forall p callee_is_context callee_sp caller_ip caller_sp, 0 <= caller_ip < 2 ^ 64 ->
    (exists o, amd64_gcf_tail p callee_is_context callee_sp caller_ip caller_sp = Ret o) /\
    (forall i, amd64_gcf_tail p callee_is_context callee_sp caller_ip caller_sp = Ret (Some i) ->
       4096 <= caller_ip /\ i = caller_ip - 1 /\ callee_sp < caller_sp).
Proof. exact (tail_strict amd64 _ arch_ok_amd64 eq_refl tail_pinned_amd64). Qed.
Print Assumptions c05_tail_sound_amd64.
(* ARM / ARM64 (both context layouts) / MIPS: the stack pointer may stay equal only when the callee is the context frame *)
Theorem c05_tail_sound_arm :
  forall p callee_is_context callee_sp caller_ip caller_sp, 0 <= caller_ip < 2 ^ 64 ->
    (exists o, arm_gcf_tail p callee_is_context callee_sp caller_ip caller_sp = Ret o) /\
    (forall i, arm_gcf_tail p callee_is_context callee_sp caller_ip caller_sp = Ret (Some i) ->
       4096 <= caller_ip /\ i = caller_ip - 2 /\
       (callee_sp < caller_sp \/ (callee_is_context = true /\ callee_sp = caller_sp))).
Proof. exact (tail_leaf arm _ arch_ok_arm tail_pinned_arm). Qed.
Print Assumptions c05_tail_sound_arm.
Theorem c05_tail_sound_arm64 :
  forall p callee_is_context callee_sp caller_ip caller_sp, 0 <= caller_ip < 2 ^ 64 ->
    (exists o, arm64_gcf_tail p callee_is_context callee_sp caller_ip caller_sp = Ret o) /\
    (forall i, arm64_gcf_tail p callee_is_context callee_sp caller_ip caller_sp = Ret (Some i) ->
       4096 <= caller_ip /\ i = caller_ip - 4 /\
       (callee_sp < caller_sp \/ (callee_is_context = true /\ callee_sp = caller_sp))).
Proof. exact (tail_leaf arm64 _ arch_ok_arm64 tail_pinned_arm64). Qed.
Print Assumptions c05_tail_sound_arm64.
Theorem c05_tail_sound_mips :
  forall p callee_is_context callee_sp caller_ip caller_sp, 0 <= caller_ip < 2 ^ 64 ->
    (exists o, mips_gcf_tail p callee_is_context callee_sp caller_ip caller_sp = Ret o) /\
    (forall i, mips_gcf_tail p callee_is_context callee_sp caller_ip caller_sp = Ret (Some i) ->
       4096 <= caller_ip /\ i = caller_ip - 8 /\
       (callee_sp < caller_sp \/ (callee_is_context = true /\ callee_sp = caller_sp))).
Proof. exact (tail_leaf mips64 _ arch_ok_mips64 tail_pinned_mips64). Qed.
Print Assumptions c05_tail_sound_mips.

(* the generated pieces are exactly the parametric ones of Model.v (no range hypotheses), so the walker the driver runs
   is walk_stack current_code of Model.v -- the object of every theorem above and of C04's recovery theorems *)
Theorem c05_tail_pinned :
  (forall p c s ip sp, x86_gcf_tail p c s ip sp = gcf_tail x86 p c s ip sp) /\
  (forall p c s ip sp, amd64_gcf_tail p c s ip sp = gcf_tail amd64 p c s ip sp) /\
  (forall p c s ip sp, arm_gcf_tail p c s ip sp = gcf_tail arm p c s ip sp) /\
  (forall p c s ip sp, arm64_gcf_tail p c s ip sp = gcf_tail arm64 p c s ip sp) /\
  (forall p c s ip sp, mips_gcf_tail p c s ip sp = gcf_tail mips32 p c s ip sp) /\
  (forall p c s ip sp, mips_gcf_tail p c s ip sp = gcf_tail mips64 p c s ip sp) /\
  (forall callee_is_context sp_readable, lib_walk_stop callee_is_context sp_readable = negb callee_is_context && negb sp_readable) /\
  generated_code = current_code.
Proof.
  exact (conj tail_pinned_x86 (conj tail_pinned_amd64 (conj tail_pinned_arm (conj tail_pinned_arm64
        (conj tail_pinned_mips32 (conj tail_pinned_mips64 (conj stop_pinned generated_code_current))))))).
Qed.
Print Assumptions c05_tail_pinned.

(* the context frame's instruction = resume address = the context's ip; a frame's module is looked up with, and
   fill_symbol symbolizes, the frame's `instruction` (not its return address) -- as the Rust text has it *)
Theorem c05_lib_pinned :
  (forall r v t, f_instr (from_context r v t) = lib_from_context_instruction (r_ip r) (r_sp r) /\
                 f_resume (from_context r v t) = lib_from_context_resume (r_ip r) (r_sp r)) /\
  (forall mods f, frame_module mods f = d_module_at mods (lib_module_lookup_address (f_instr f) (f_resume f))) /\
  (forall f, lib_symbol_lookup_address (f_instr f) (f_resume f) = f_instr f).
Proof. split; [intros; split; reflexivity|]. split; intros; reflexivity. Qed.
Print Assumptions c05_lib_pinned.

Theorem c05_generated_walk_is_model :
  forall archid p os mem module_at max_module_addr cfi_walk instr_valid fuel r v,
    walk_stack_gen p (arch_of archid) (tail_of archid) os mem module_at max_module_addr cfi_walk instr_valid fuel r v =
    walk_stack current_code p (arch_of archid) os mem module_at max_module_addr cfi_walk instr_valid fuel r v.
Proof. exact generated_walk_is_model. Qed.
Print Assumptions c05_generated_walk_is_model.

(* well-formedness + no panic + the frame bound, stated for the walker made of the generated pieces *)
Theorem c05_generated_x86 : walker_facts_gen x86 x86_gcf_tail.
Proof. exact (walker_facts_gen_of x86 x86_gcf_tail arch_ok_x86 tail_pinned_x86). Qed.
Print Assumptions c05_generated_x86.
Theorem c05_generated_amd64 : walker_facts_gen amd64 amd64_gcf_tail.
Proof. exact (walker_facts_gen_of amd64 amd64_gcf_tail arch_ok_amd64 tail_pinned_amd64). Qed.
Print Assumptions c05_generated_amd64.
Theorem c05_generated_arm : walker_facts_gen arm arm_gcf_tail.
Proof. exact (walker_facts_gen_of arm arm_gcf_tail arch_ok_arm tail_pinned_arm). Qed.
Print Assumptions c05_generated_arm.
Theorem c05_generated_arm64 : walker_facts_gen arm64 arm64_gcf_tail.   (* arm64_old.rs = arm64.rs, checked by the translator *)
Proof. exact (walker_facts_gen_of arm64 arm64_gcf_tail arch_ok_arm64 tail_pinned_arm64). Qed.
Print Assumptions c05_generated_arm64.
Theorem c05_generated_mips32 : walker_facts_gen mips32 mips_gcf_tail.
Proof. exact (walker_facts_gen_of mips32 mips_gcf_tail arch_ok_mips32 tail_pinned_mips32). Qed.
Print Assumptions c05_generated_mips32.
Theorem c05_generated_mips64 : walker_facts_gen mips64 mips_gcf_tail.
Proof. exact (walker_facts_gen_of mips64 mips_gcf_tail arch_ok_mips64 tail_pinned_mips64). Qed.
Print Assumptions c05_generated_mips64.

(* "A frame's module and function, when present, cover its address", end to end through C08 and C11.
   For EVERY frame f of a walk (any architecture description with arch_ok, any oracles): the module
   fill_source_line_info attaches is [frame_module mods f] (C08's range map over the module list); if it is module i =
   (b, s, _) then b <= instruction < b + s, and what SymbolFile::fill_symbol does for that module's symbol file
   [files i] at that instruction -- C11's model [symbolize], for any well-formed file, either build profile -- returns,
   and a function it sets (name, base) is a FUNC record of that very file with base = b + addr and
   base <= instruction < base + size, or a PUBLIC record of it with base = b + addr <= instruction. *)
Theorem c05_function_covers :
  forall p q a os mem module_at max_module_addr cfi_walk instr_valid (mods : list modspec) (files : Z -> C11.Model.raw_file),
    arch_ok a -> mem_wf mem ->
    (forall callee gc fwd r v, cfi_walk callee gc fwd = Some (r, v) -> regs_wf a r) ->
    Forall (fun m => 0 <= fst (fst m) /\ 0 <= snd (fst m)) mods ->
    (forall i, C11.Proofs2.wf_file (files i)) ->
    forall fuel r v fs, regs_wf a r ->
      walk_stack current_code p a os mem module_at max_module_addr cfi_walk instr_valid fuel r v = Ret fs ->
      Forall (fun f => forall i, frame_module mods f = Some i ->
                exists b s y, nth_error mods (Z.to_nat i) = Some (b, s, y) /\ b <= f_instr f < b + s /\
                  exists o, C11.Model.symbolize q (files i) b (f_instr f) = Ret o /\
                    forall name base ps, C11.Model.o_func o = Some (name, base, ps) ->
                      base <= f_instr f /\
                      ((exists fr, In fr (C11.Model.rf_funcs (files i)) /\ name = C11.Model.fr_name fr /\
                                   base = b + C11.Model.fr_addr fr /\ f_instr f < base + C11.Model.fr_size fr)
                       \/ (exists pb, In pb (C11.Model.rf_publics (files i)) /\ name = C11.Model.p_name pb /\
                                      base = b + C11.Model.p_addr pb))) fs.
Proof.
  intros p q a os mem ma mm cw iv mods files Ha Hm Hc Hmods Hfiles fuel r v fs Hr H.
  pose proof (walk_instr_range p a os mem ma mm cw iv Ha Hm Hc fuel r v fs Hr H) as Hf.
  eapply Forall_impl; [|exact Hf]. intros f [_ Hi] i Hmi.
  exact (function_covers q mods f i (files i) Hmods Hi (Hfiles i) Hmi).
Qed.
Print Assumptions c05_function_covers.

(* the two statements above that are false of the code before its repairs ([code_before_fixes]): F-C03a and F-C03f *)
Definition w_cfi_never_reads (callee : frame) (_ : option frame) (_ : list Z) : option (regs * list Z) :=
  let sp := r_sp (f_regs callee) in
  if (0 <=? sp) && (sp <? 4294967295)
  then Some ({| r_ip := 1073742080; r_sp := sp + 1; r_fp := 0; r_lr := 0; r_gp := [] |}, [x86_sp_name; x86_ip_name])
  else None.
Definition w_mem8 : memory := {| m_base := 4294967040; m_bytes := [0; 0; 0; 0; 0; 0; 0; 0] |}.
Definition w_regs8 : regs := {| r_ip := 1073742080; r_sp := 4294967040; r_fp := 0; r_lr := 0; r_gp := [] |}.

(* F-C03a: before 06bc067 the frame bound was false: `.cfa: $esp 1 + .ra: const` over an 8-byte stack *)
Theorem c03_frame_bound_refuted_before_fix :
  exists p os mem module_at max_module_addr cfi_walk instr_valid r v,
    mem_wf mem /\ regs_wf x86 r /\
    (forall callee gc fwd r' v', cfi_walk callee gc fwd = Some (r', v') -> regs_wf x86 r') /\
    walk_stack code_before_fixes p x86 os mem module_at max_module_addr cfi_walk instr_valid (fuel_for mem) r v = OutOfFuel.
Proof.
  exists Debug, OS_OTHER, w_mem8, (fun _ => Some 0), 0, w_cfi_never_reads, (fun _ => false), w_regs8, VAll.
  split; [split; [cbn; lia | repeat constructor; lia]|].
  split; [unfold regs_wf, in_slot; cbn; lia|].
  split.
  - intros callee gc fwd r' v' H. unfold w_cfi_never_reads in H.
    destruct ((0 <=? r_sp (f_regs callee)) && (r_sp (f_regs callee) <? 4294967295)) eqn:E; [|discriminate].
    apply andb_prop in E. destruct E as [E1 E2]. apply Z.leb_le in E1. apply Z.ltb_lt in E2.
    inversion H; subst. unfold regs_wf, in_slot; cbn. lia.
  - vm_compute. reflexivity.
Qed.
Print Assumptions c03_frame_bound_refuted_before_fix.

Definition w_mem_top : memory := {| m_base := 18446744073709551551; m_bytes := repeat 0 64 |}.
Definition w_regs_top : regs := {| r_ip := 4194304; r_sp := 18446744073709551551; r_fp := 18446744073709551583; r_lr := 0; r_gp := [] |}.

(* F-C03f: before de31bed c05_no_panic was false for amd64 on Windows (debug builds) *)
Theorem c05_no_panic_amd64_refuted_before_fix :
  exists os mem module_at max_module_addr cfi_walk instr_valid r v t,
    mem_wf mem /\ regs_wf amd64 r /\
    (forall callee gc fwd r' v', cfi_walk callee gc fwd = Some (r', v') -> regs_wf amd64 r') /\
    walk_stack code_before_fixes Debug amd64 os mem module_at max_module_addr cfi_walk instr_valid (fuel_for mem) r v = Panic t.
Proof.
  exists OS_WINDOWS, w_mem_top, (fun _ => None), 0, (fun _ _ _ => None), (fun _ => false), w_regs_top, VAll, 512.
  split; [split; [cbn; lia | repeat constructor; lia]|].
  split; [unfold regs_wf, in_slot; cbn; lia|].
  split; [intros; discriminate|].
  vm_compute. reflexivity.
Qed.
Print Assumptions c05_no_panic_amd64_refuted_before_fix.

(* non-vacuity: the hypotheses are satisfiable and the walker does walk *)
Definition nv_bytes : list Z :=
  (* amd64 frame-pointer chain: [saved rbp -> 0x80000020][ret 0x7400c0000100] pad pad [saved rbp -> 0x80000038][ret 0x7400c0000200] pad [0] *)
  [32;0;0;128;0;0;0;0;  0;1;0;192;0;116;0;0;  0;0;0;0;0;0;0;0;  0;0;0;0;0;0;0;0;
   56;0;0;128;0;0;0;0;  0;2;0;192;0;116;0;0;  0;0;0;0;0;0;0;0;  0;0;0;0;0;0;0;0].
Definition nv_mem : memory := {| m_base := 2147483648; m_bytes := nv_bytes |}.
Definition nv_regs : regs := {| r_ip := 127546570047568; r_sp := 2147483648; r_fp := 2147483648; r_lr := 0; r_gp := [] |}.

Example c05_nonvacuous_walk :
  mem_wf nv_mem /\ regs_wf amd64 nv_regs /\
  exists f0 f1 f2,
    walk_stack current_code Debug amd64 OS_OTHER nv_mem (fun _ => None) 0 (fun _ _ _ => None) (fun _ => false) (fuel_for nv_mem) nv_regs VAll
      = Ret [f0; f1; f2] /\
    f_trust f1 = TFramePointer /\ f_resume f1 = 127546570047744 /\ f_instr f2 = 127546570048000 - 1 /\ r_sp (f_regs f2) = 2147483696.
Proof.
  split; [split; [cbn; lia | repeat constructor; lia]|].
  split; [unfold regs_wf, in_slot; cbn; lia|].
  eexists; eexists; eexists. split; [vm_compute; reflexivity|]. cbn. repeat split; reflexivity.
Qed.

(* the CFI-oracle contract is satisfiable by an oracle that does produce frames (the witness of F-C03a; with the sp guard its walk stops after 9 frames) *)
Example c05_nonvacuous_cfi :
  (forall callee gc fwd r' v', w_cfi_never_reads callee gc fwd = Some (r', v') -> regs_wf x86 r') /\
  exists fs, walk_stack current_code Debug x86 OS_OTHER w_mem8 (fun _ => Some 0) 0 w_cfi_never_reads (fun _ => false) (fuel_for w_mem8) w_regs8 VAll = Ret fs /\
             length fs = 9%nat.
Proof.
  split.
  - intros callee gc fwd r' v' H. unfold w_cfi_never_reads in H.
    destruct ((0 <=? r_sp (f_regs callee)) && (r_sp (f_regs callee) <? 4294967295)) eqn:E; [|discriminate].
    apply andb_prop in E. destruct E as [E1 E2]. apply Z.leb_le in E1. apply Z.ltb_lt in E2.
    inversion H; subst. unfold regs_wf, in_slot; cbn. lia.
  - eexists. split; [vm_compute; reflexivity|]. reflexivity.
Qed.

(* the generated check sequences do let frames through and do stop: a grown sp passes, an equal sp passes only for the
   context frame's caller on a leaf architecture, a nullish ip stops *)
Example c05_nonvacuous_tail :
  amd64_gcf_tail Debug false 1000 5000 1008 = Ret (Some 4999) /\
  amd64_gcf_tail Debug true 1000 5000 1000 = Ret None /\
  arm64_gcf_tail Debug true 1000 8192 1000 = Ret (Some 8188) /\
  arm64_gcf_tail Release false 1000 8192 1000 = Ret None /\
  mips_gcf_tail Debug false 0 4095 8 = Ret None /\
  lib_walk_stop false false = true /\ lib_walk_stop true false = false /\ lib_walk_stop false true = false.
Proof. repeat split; reflexivity. Qed.

(* ... and the walker made of them walks the frame-pointer chain of c05_nonvacuous_walk *)
Example c05_nonvacuous_generated_walk :
  exists f0 f1 f2,
    walk_stack_gen Debug amd64 amd64_gcf_tail OS_OTHER nv_mem (fun _ => None) 0 (fun _ _ _ => None) (fun _ => false) (fuel_for nv_mem) nv_regs VAll
      = Ret [f0; f1; f2] /\
    f_trust f1 = TFramePointer /\ f_resume f1 = 127546570047744 /\ f_instr f2 = 127546570048000 - 1 /\ r_sp (f_regs f2) = 2147483696.
Proof. eexists; eexists; eexists. split; [vm_compute; reflexivity|]. cbn. repeat split; reflexivity. Qed.

(* c05_function_covers is not vacuous: a walked frame inside a module whose symbol file has FUNC 100 100 gets that function *)
Definition nv_file : C11.Model.raw_file :=
  C11.Model.mk_raw [] [] [] [C11.Model.mk_fraw 256 256 0 102 [] []] [] [].
Definition nv_fmods : list modspec := [(127546570047488, 65536, None)].
Definition nv_fframe : frame :=
  {| f_instr := 127546570047788; f_resume := 127546570047789; f_trust := TFramePointer; f_regs := regs0; f_valid := VAll |}.
Example c05_nonvacuous_function :
  C11.Proofs2.wf_file nv_file /\
  frame_module nv_fmods nv_fframe = Some 0 /\
  exists o, C11.Model.symbolize Debug nv_file 127546570047488 (f_instr nv_fframe) = Ret o /\
            C11.Model.o_func o = Some (102, 127546570047488 + 256, 0).
Proof.
  split.
  { unfold C11.Proofs2.wf_file, nv_file; cbn [C11.Model.rf_funcs C11.Model.rf_publics C11.Model.rf_win_fd C11.Model.rf_win_fpo].
    repeat split; try constructor; try constructor;
      unfold C11.Proofs2.wf_fraw, C11.Proofs2.u64, C11.Proofs2.u32; cbn; repeat split; try constructor; try lia; try reflexivity. }
  split; [vm_compute; reflexivity|].
  eexists. split; vm_compute; reflexivity.
Qed.


(* Every frame a walk marks `scan` passed the acceptance test of the scan loop: the architecture's own front test
   ([a_pre_ok], = <arch>::instruction_seems_valid up to the call of instruction_seems_valid_by_symbols) and the symbol-based
   test ([instr_valid]).  For every architecture description, every oracle, every repair setting, both profiles, any fuel:
   no hypothesis at all. *)
Theorem c05_scan_accepted :
  forall fx p a os mem module_at max_module_addr cfi_walk instr_valid fuel r v f0 rest,
    walk_stack fx p a os mem module_at max_module_addr cfi_walk instr_valid fuel r v = Ret (f0 :: rest) ->
    Forall (fun f => f_trust f = TScan -> a_pre_ok a (f_resume f) = true /\ instr_valid (f_resume f) = true) rest.
Proof. exact stack_scan_accepts. Qed.
Print Assumptions c05_scan_accepted.

(* The tests themselves, as the Rust text has them (Gen/UnwindTail.v): the front test of every architecture id of the
   driver is the generated `<arch>_instr_pre_ok`; amd64 / arm64 frame-pointer frames use the same generated is_non_canonical;
   the driver's symbol-based test IS the generated body of lib.rs instruction_seems_valid_by_symbols (over C08's module lookup
   and the case's symbol files) and reads: ra - 1 (saturating) is not 0, lies in a module, and that module has no symbol file
   or a function with a non-empty name covering ra - 1. *)
Theorem c05_instr_valid_pinned :
  (forall archid x, a_pre_ok (arch_of archid) x = pre_ok_of archid x) /\
  (forall x, a_canon_fp amd64 x = negb (amd64_is_non_canonical x)) /\
  (forall x, a_canon_fp arm64 x = negb (arm64_is_non_canonical x)) /\
  (forall mods x, d_instr_valid mods x = lib_isv_by_symbols (mod_of mods) d_fill x) /\
  (forall mods x, d_instr_valid mods x =
     (let i := sat_sub x 1 in
      if i =? 0 then false
      else match mod_of mods i with
           | None => false
           | Some (b, _, None) => true
           | Some (b, _, Some s) =>
               let addr := i - b in
               match s_table s with
               | Some t => match C08.Model.rm_get (C09.Grammar.t_funcs t) addr with
                           | Some fn => negb (rle_empty (C09.Grammar.sf_name fn))
                           | None => false
                           end
               | None => (0 <? s_func_size s) && (s_func_lo s <=? addr) && (addr <? s_func_lo s + s_func_size s)
               end
           end)).
Proof.
  exact (conj pre_ok_pinned (conj (proj1 canon_fp_pinned) (conj (proj2 canon_fp_pinned)
        (conj (fun mods x => eq_refl) d_instr_valid_spec)))).
Qed.
Print Assumptions c05_instr_valid_pinned.

(* the generated instruction_seems_valid_by_symbols, for ANY module lookup and ANY symbol provider behaviour: an accepted
   address is at least 2, the address before it is inside some module, and fill_symbol for that module either failed (no
   symbols) or set a function with a non-empty name; 0 and 1 are always rejected *)
Theorem c05_isv_by_symbols_sound :
  forall (M : Type) (module_at : Z -> option M) (fill : M -> Z -> option (option bool)) x,
    (lib_isv_by_symbols module_at fill x = true ->
       2 <= x /\ exists m, module_at (x - 1) = Some m /\ (fill m (x - 1) = None \/ fill m (x - 1) = Some (Some false))) /\
    (x <= 1 -> lib_isv_by_symbols module_at fill x = false).
Proof.
  intros M ma fill x. split; [exact (isv_by_symbols_true M ma fill x)|].
  intros H. unfold lib_isv_by_symbols, lib_isv_adjust, sat_sub. cbv zeta.
  replace (Z.max (x - 1) 0) with 0 by lia. reflexivity.
Qed.
Print Assumptions c05_isv_by_symbols_sound.

(* end to end for the walker the correspondence run executes (generated tail, stop guard, resolve flavour and
   instruction_seems_valid_by_symbols; modules through C08): every scan frame's return address ra passed the generated front
   test, ra >= 2, and ra - 1 is covered by a listed module [b, b + s) which has no symbol file or a FUNC record covering ra - 1 *)
Theorem c05_scan_in_module :
  forall archid mem mods regnames lrname p os fuel r v f0 rest,
    Forall (fun m => 0 <= fst (fst m) /\ 0 <= snd (fst m)) mods ->
    run_profile_gen (arch_of archid) mem mods regnames lrname (tail_of archid) p os fuel r v = Ret (f0 :: rest) ->
    Forall (fun f => f_trust f = TScan ->
              pre_ok_of archid (f_resume f) = true /\ 2 <= f_resume f /\
              exists b s y, mod_of mods (f_resume f - 1) = Some (b, s, y) /\ b <= f_resume f - 1 < b + s /\
                            (y = None \/ d_fill (b, s, y) (f_resume f - 1) = Some (Some false))) rest.
Proof.
  intros id mem mods regnames lrname p os fuel r v f0 rest Hm H. unfold run_profile_gen in H.
  rewrite generated_walk_is_model in H. apply stack_scan_accepts in H.
  eapply Forall_impl; [|exact H]. intros f Hf T. destruct (Hf T) as [H1 H2].
  rewrite <- pre_ok_pinned. exact (conj H1 (accepted_in_module mods _ Hm H2)).
Qed.
Print Assumptions c05_scan_in_module.

(* ... and with the symbol lookup inside: instruction_seems_valid_by_symbols (generated) over C08's module lookup and C11's
   model of SymbolFile::fill_symbol ([c11_fill]: files i = None is a module without symbol file; C11 keeps names abstract,
   [empty_name] tells which is the empty string).  For every walk (any architecture description with arch_ok, any CFI oracle
   meeting the contract, both profiles, any fuel): a frame marked `scan` has a return address ra such that ra - 1 lies in
   module i = [b, b + s), and either that module has no symbol file or fill_symbol (C11.Model.symbolize) set a function with
   a NON-EMPTY name which is a FUNC record of that file with b + addr <= ra - 1 < b + addr + size, or a PUBLIC record at or
   below ra - 1. *)
Theorem c05_scan_function_covers :
  forall p q empty_name a os mem max_module_addr cfi_walk (mods : list modspec) (files : Z -> option C11.Model.raw_file),
    arch_ok a -> mem_wf mem ->
    (forall callee gc fwd r v, cfi_walk callee gc fwd = Some (r, v) -> regs_wf a r) ->
    Forall (fun m => 0 <= fst (fst m) /\ 0 <= snd (fst m)) mods ->
    (forall i rf, files i = Some rf -> C11.Proofs2.wf_file rf) ->
    forall fuel r v f0 rest, regs_wf a r ->
      walk_stack current_code p a os mem (d_module_at mods) max_module_addr cfi_walk
                 (lib_isv_by_symbols (d_module_at mods) (c11_fill q empty_name mods files)) fuel r v = Ret (f0 :: rest) ->
      Forall (fun f => f_trust f = TScan ->
        exists i b s y, d_module_at mods (f_resume f - 1) = Some i /\ nth_error mods (Z.to_nat i) = Some (b, s, y) /\
          b <= f_resume f - 1 < b + s /\
          (files i = None \/
           exists rf o name base ps, files i = Some rf /\ C11.Model.symbolize q rf b (f_resume f - 1) = Ret o /\
             C11.Model.o_func o = Some (name, base, ps) /\ empty_name name = false /\ base <= f_resume f - 1 /\
             ((exists fr, In fr (C11.Model.rf_funcs rf) /\ name = C11.Model.fr_name fr /\ base = b + C11.Model.fr_addr fr /\
                          f_resume f - 1 < base + C11.Model.fr_size fr)
              \/ (exists pb, In pb (C11.Model.rf_publics rf) /\ name = C11.Model.p_name pb /\ base = b + C11.Model.p_addr pb)))) rest.
Proof.
  intros p q en a os mem mm cw mods files Ha Hm Hc Hw Hfiles fuel r v f0 rest Hr H.
  destruct (stack_walked current_code _ _ _ _ _ _ _ _ eq_refl Ha Hm Hc _ _ _ _ _ Hr H) as (_ & R & _).
  pose proof (stack_scan_accepts _ _ _ _ _ _ _ _ _ _ _ _ _ _ H) as S.
  rewrite Forall_forall in R, S. apply Forall_forall. intros f Hin T.
  apply (accepted_function q en mods files (f_resume f) Hw Hfiles); [|exact (proj2 (S f Hin T))].
  pose proof (walked_u64 a mem f Ha (R f Hin)). lia.
Qed.
Print Assumptions c05_scan_function_covers.

(* arm64.rs ptr_auth_strip statement by statement as the source has it (`(1 << 47) - 1`, by_addr().next_back(),
   saturating_add, u64::max, checked_next_power_of_two, `high_bit - 1`, `!0`, `ptr & mask`; Gen/UnwindTail.v): for every
   64-bit pointer and every module list it never traps in either profile, it equals the arithmetic form of Model.v
   (ptr mod 2^k, the object of c05_ptr_auth_strip_sound), and it never grows a pointer *)
Theorem c05_ptr_auth_strip_source :
  forall p module_end x, 0 <= x < 2 ^ 64 ->
    arm64_ptr_auth_strip_src p module_end x = Ret (ptr_auth_strip (arm64_max_module_addr module_end) x) /\
    0 <= ptr_auth_strip (arm64_max_module_addr module_end) x <= x.
Proof.
  intros p me x Hx. split; [exact (strip_src_is_model p me x Hx)|].
  apply (strip_bounds (arm64_max_module_addr me) x). lia.
Qed.
Print Assumptions c05_ptr_auth_strip_source.

(* the FrameTrust every technique stamps on its frames, read from the only StackFrame constructions of minidump-unwind, is
   the one the model's cascade uses; FrameTrust::CfiScan / PreWalked / None are constructed nowhere (the translator aborts
   on any other construction site), so c05_frame_shape's trust set is exhaustive for this code *)
Theorem c05_trusts_pinned :
  [x86_trust_cfi; x86_trust_fp; x86_trust_scan] = map trust_code [TCfi; TFramePointer; TScan] /\
  [amd64_trust_cfi; amd64_trust_fp; amd64_trust_scan] = map trust_code [TCfi; TFramePointer; TScan] /\
  [arm_trust_cfi; arm_trust_fp; arm_trust_scan] = map trust_code [TCfi; TFramePointer; TScan] /\
  [arm64_trust_cfi; arm64_trust_fp; arm64_trust_scan] = map trust_code [TCfi; TFramePointer; TScan] /\
  [mips_trust_cfi; mips_trust_scan32; mips_trust_scan64] = map trust_code [TCfi; TScan; TScan] /\
  lib_trust_context_frame = trust_code TContext /\
  arm64_strip_which_module_last = true.
Proof. repeat split; reflexivity. Qed.
Print Assumptions c05_trusts_pinned.

(* stack memory edge cases of the quantifier: an empty stack memory, or one whose end does not fit a u64
   (memory_range() is None), yields exactly the context frame -- any architecture, oracle, profile, fuel.
   (A memory that ends at 2^64 - 2, the highest walkable one, is covered by the general theorems; see
   c05_nonvacuous_stack_at_top.) *)
Theorem c05_stack_memory_edges :
  forall fx p a os mem module_at max_module_addr cfi_walk instr_valid fuel r v,
    (m_bytes mem = [] \/ 2 ^ 64 <= m_base mem + Z.of_nat (length (m_bytes mem))) ->
    walk_stack fx p a os mem module_at max_module_addr cfi_walk instr_valid fuel r v = Ret [from_context r v TContext].
Proof.
  intros fx p a os mem ma mm cw iv fuel r v H. unfold walk_stack.
  replace (mem_ok mem) with false; [reflexivity|].
  unfold mem_ok, mem_len. destruct H as [->|H]; [reflexivity|].
  destruct (Z.ltb_spec (m_base mem + Z.of_nat (length (m_bytes mem))) two64); [unfold two64 in *; lia|].
  symmetry. apply andb_false_r.
Qed.
Print Assumptions c05_stack_memory_edges.

(* ... and the test walk_stack applies to a stack memory is the one minidump.rs has: MinidumpMemoryBase::memory_range,
   re-emitted from its text (Gen/UnwindTail.v: `size == 0`, `base_address.checked_add(size)?`, `- 1` as chk_sub), returns
   without a trap in both profiles, and it is Some exactly when the model's [mem_ok] holds (then the range is
   [base, base + size - 1]) -- so c05_stack_memory_edges and the `mem_ok` branch of every walker theorem speak about
   the source's notion of a usable stack memory *)
Theorem c05_memory_range_source :
  forall p m, mem_wf m ->
    minidump_memory_range p (m_base m) (Z.of_nat (length (m_bytes m))) =
    Ret (if mem_ok m then Some (m_base m, m_base m + Z.of_nat (length (m_bytes m)) - 1) else None).
Proof.
  intros p m [Hb _]. unfold minidump_memory_range, mem_ok, mem_len, checked_add. change (2 ^ 64) with two64.
  destruct (Z.eqb_spec (Z.of_nat (length (m_bytes m))) 0); cbn [negb andb]; [reflexivity|].
  destruct (Z.ltb_spec (m_base m + Z.of_nat (length (m_bytes m))) two64); [|reflexivity].
  rewrite chk_sub_ok by (change (2 ^ 64) with two64; lia). reflexivity.
Qed.
Print Assumptions c05_memory_range_source.

(* a 16-byte amd64 stack whose last byte is at 2^64 - 2: the scan finds the return address in the last word, the caller's
   stack pointer is 2^64 - 1 (no overflow trap in either profile), and the walk stops there; moved up by one byte the
   memory is not walkable at all *)
Definition nv_top_mem : memory :=
  {| m_base := 18446744073709551599; m_bytes := [0;0;0;0;0;0;0;0; 0;1;0;192;0;116;0;0] |}.
Definition nv_top_regs : regs := {| r_ip := 127546570047568; r_sp := 18446744073709551599; r_fp := 0; r_lr := 0; r_gp := [] |}.
Example c05_nonvacuous_stack_at_top :
  mem_wf nv_top_mem /\ regs_wf amd64 nv_top_regs /\
  m_base nv_top_mem + Z.of_nat (length (m_bytes nv_top_mem)) = 2 ^ 64 - 1 /\
  (forall p, exists f0 f1,
     walk_stack current_code p amd64 OS_OTHER nv_top_mem (fun _ => None) 0 (fun _ _ _ => None) (fun _ => true) (fuel_for nv_top_mem) nv_top_regs VAll
       = Ret [f0; f1] /\
     f_trust f1 = TScan /\ f_resume f1 = 127546570047744 /\ r_sp (f_regs f1) = 2 ^ 64 - 1) /\
  walk_stack current_code Debug amd64 OS_OTHER {| m_base := 18446744073709551600; m_bytes := m_bytes nv_top_mem |}
      (fun _ => None) 0 (fun _ _ _ => None) (fun _ => true) 100 nv_top_regs VAll = Ret [from_context nv_top_regs VAll TContext].
Proof.
  split; [split; [cbn; lia | repeat constructor; lia]|].
  split; [unfold regs_wf, in_slot; cbn; lia|].
  split; [reflexivity|].
  split.
  - intros p. eexists; eexists. split; [destruct p; vm_compute; reflexivity|]. cbn. repeat split; reflexivity.
  - apply c05_stack_memory_edges. right. cbn. lia.
Qed.

(* the generated acceptance test accepts and rejects: with one module [0x10000, 0x20000) and no symbols, 0x10001..0x20000
   are accepted (ra - 1 inside the module), 0x10000 and 0x20001 are not *)
Example c05_nonvacuous_instr_valid :
  d_instr_valid [(65536, 65536, None)] 65537 = true /\ d_instr_valid [(65536, 65536, None)] 131072 = true /\
  d_instr_valid [(65536, 65536, None)] 65536 = false /\ d_instr_valid [(65536, 65536, None)] 131073 = false /\
  amd64_instr_pre_ok 127546570047744 = true /\ amd64_instr_pre_ok 140737488355328 = false /\ amd64_instr_pre_ok 0 = false /\
  arm64_instr_pre_ok 4095 = false /\ arm64_instr_pre_ok 4096 = true /\ mips_instr_pre_ok 4095 = false /\ x86_instr_pre_ok 1 = true.
Proof. repeat split; vm_compute; reflexivity. Qed.

(* ptr_auth_strip as generated: authentication bits above bit 47 go away, and a module above 2^47 widens the mask *)
Example c05_nonvacuous_strip :
  arm64_ptr_auth_strip_src Debug None (2 ^ 60 + 2 ^ 48 + 4198400) = Ret 4198400 /\
  arm64_ptr_auth_strip_src Release (Some (2 ^ 48, 1048576)) (2 ^ 60 + 2 ^ 48 + 4198400) = Ret (2 ^ 48 + 4198400) /\
  arm64_ptr_auth_strip_src Debug (Some (2 ^ 64 - 4096, 8192)) (2 ^ 64 - 1) = Ret (2 ^ 64 - 1).
Proof. repeat split; vm_compute; reflexivity. Qed.

(* c05_scan_function_covers is not vacuous: with the module and symbol file of c05_nonvacuous_function, the generated test over
   C11's fill_symbol accepts a return address whose predecessor is inside FUNC 100 100, rejects one just past that function,
   rejects everything when that function's name is the empty string, and accepts both when the module has no symbol file *)
Example c05_nonvacuous_scan_function :
  (forall i rf, (fun _ : Z => Some nv_file) i = Some rf -> C11.Proofs2.wf_file rf) /\
  lib_isv_by_symbols (d_module_at nv_fmods) (c11_fill Debug (fun _ => false) nv_fmods (fun _ => Some nv_file)) 127546570047789 = true /\
  lib_isv_by_symbols (d_module_at nv_fmods) (c11_fill Debug (fun _ => false) nv_fmods (fun _ => Some nv_file)) (127546570047488 + 513) = false /\
  lib_isv_by_symbols (d_module_at nv_fmods) (c11_fill Debug (fun n => n =? 102) nv_fmods (fun _ => Some nv_file)) 127546570047789 = false /\
  lib_isv_by_symbols (d_module_at nv_fmods) (c11_fill Debug (fun _ => false) nv_fmods (fun _ => None)) (127546570047488 + 513) = true.
Proof.
  split; [intros i rf H; inversion H; subst; exact (proj1 c05_nonvacuous_function)|].
  repeat split; vm_compute; reflexivity.
Qed.

(* 32-bit architectures: a stack memory that ends at 2^32 with a return address in its last word.  The caller's stack pointer
   would be 2^32: `addr_ip.checked_add(POINTER_WIDTH)` fails, the scan gives up, no trap in either profile, context frame only *)
Definition nv_top32_mem : memory := {| m_base := 4294967280; m_bytes := [0;0;0;0; 0;0;0;0; 0;0;0;0; 0;1;0;64] |}.
Definition nv_top32_regs : regs := {| r_ip := 1073742000; r_sp := 4294967280; r_fp := 0; r_lr := 0; r_gp := [] |}.
Example c05_nonvacuous_stack_at_top32 :
  mem_wf nv_top32_mem /\ regs_wf x86 nv_top32_regs /\ regs_wf mips32 nv_top32_regs /\
  m_base nv_top32_mem + Z.of_nat (length (m_bytes nv_top32_mem)) = 2 ^ 32 /\
  read nv_top32_mem 4 (2 ^ 32 - 4) = Some 1073742080 /\
  forall p,
    walk_stack current_code p x86 OS_OTHER nv_top32_mem (fun _ => None) 0 (fun _ _ _ => None) (fun _ => true) (fuel_for nv_top32_mem)
               nv_top32_regs (VSome [x86_ip_name; x86_sp_name]) = Ret [from_context nv_top32_regs (VSome [x86_ip_name; x86_sp_name]) TContext] /\
    walk_stack current_code p mips32 OS_OTHER nv_top32_mem (fun _ => None) 0 (fun _ _ _ => None) (fun _ => true) (fuel_for nv_top32_mem)
               nv_top32_regs (VSome [mips_ip_name; mips_sp_name]) = Ret [from_context nv_top32_regs (VSome [mips_ip_name; mips_sp_name]) TContext].
Proof.
  split; [split; [cbn; lia | repeat constructor; lia]|].
  split; [unfold regs_wf, in_slot; cbn; lia|].
  split; [unfold regs_wf, in_slot; cbn; lia|].
  split; [reflexivity|]. split; [vm_compute; reflexivity|].
  intros p; destruct p; split; vm_compute; reflexivity.
Qed.
