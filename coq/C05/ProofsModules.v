(* C05/ProofsModules.v — the module lookup the driver uses (C08's range map over the module list)
   meets the contract of the [module_at] oracle: a frame's module covers its instruction. *)
From Coq Require Import Lia ZArith List Bool.
From RM Require Import C08.Model C08.Proofs C08.IndexProofs C05.Model C05.Driver.
Import ListNotations.
Open Scope Z_scope.

Definition mods_wf (mods : list modspec) : Prop :=
  Forall (fun m => 0 <= fst (fst m) /\ 0 <= snd (fst m)) mods.

Lemma ranges_wf : forall mods, mods_wf mods ->
  wf_opt_ranges (map (fun m : modspec => mk_range (fst (fst m)) (snd (fst m))) mods).
Proof.
  intros mods H. apply Forall_map. eapply Forall_impl; [|exact H].
  intros m [Hb Hs]. destruct (mk_range (fst (fst m)) (snd (fst m))) eqn:E; [|exact I].
  exact (mk_range_wf _ _ _ Hb Hs E).
Qed.

Lemma module_at_covers : forall mods x i, mods_wf mods ->
  d_module_at mods x = Some i ->
  exists b s y, nth_error mods (Z.to_nat i) = Some (b, s, y) /\ b <= x < b + s.
Proof.
  intros mods x i Hwf H. unfold d_module_at, mod_table, build_indexed in H.
  pose proof (ranges_wf mods Hwf) as Hr. unfold modspec in *.
  rewrite (build_total Z.eqb _ (wf_enumerate _ 0 Hr)) in H.
  destruct (indexed_lookup_in_bounds _ x i Hr H) as (r & _ & Hn & Hc).
  rewrite nth_error_map in Hn.
  destruct (nth_error mods (Z.to_nat i)) as [[[b s] y]|]; [|discriminate].
  cbn [option_map fst snd] in Hn. inversion Hn as [Hm].
  exists b, s, y. split; [reflexivity | apply (mk_range_contains _ _ _ _ Hm Hc)].
Qed.
