(* C05/ProofsFunction.v — "a frame's module and function, when present, cover its address", end to end:
   every frame of a walk has an instruction below 2^64 (walker invariant), the module the walker attaches comes from
   C08's range map (module_at_covers), and the function fill_source_line_info attaches is what C11's model of
   SymbolFile::fill_symbol ([C11.Model.symbolize], the `base`/`name` of its [o_func]) returns for that module's symbol
   file at that instruction: a FUNC record of the file whose [addr, addr + size) contains the module-relative
   address, or a PUBLIC record at or below it (C11's func_sound). *)
From Coq Require Import Lia ZArith List Bool.
From RM Require Import C08.Model C08.Proofs C05.Model C05.ModelTail C05.Proofs C05.ProofsTail C05.Driver C05.ProofsModules.
From RM Require C11.Model C11.Proofs2 C11.Proofs5.
Import ListNotations.
Open Scope Z_scope.

(* the function (name, base) is a record of file [rf], loaded at [b], that covers address [x];
   [function_ok] below, whose text the property theorems spell out, is this at x := f_instr f, for every function set *)
Definition record_covers (b : Z) (rf : C11.Model.raw_file) (x name base : Z) : Prop :=
  base <= x /\
  ((exists fr, In fr (C11.Model.rf_funcs rf) /\ name = C11.Model.fr_name fr /\ base = b + C11.Model.fr_addr fr /\
               x < base + C11.Model.fr_size fr)
   \/ (exists pb, In pb (C11.Model.rf_publics rf) /\ name = C11.Model.p_name pb /\ base = b + C11.Model.p_addr pb)).

Lemma function_at_covers : forall p (mods : list modspec) x i rf,
  mods_wf mods -> x < 2 ^ 64 -> C11.Proofs2.wf_file rf ->
  d_module_at mods x = Some i ->
  exists b s y, nth_error mods (Z.to_nat i) = Some (b, s, y) /\ b <= x < b + s /\
    exists o, C11.Model.symbolize p rf b x = Ret o /\
      forall name base ps, C11.Model.o_func o = Some (name, base, ps) -> record_covers b rf x name base.
Proof.
  intros p mods x i rf Hw Hx Hrf Hm.
  destruct (module_at_covers mods x i Hw Hm) as (b & s & y & Hn & Hc).
  exists b, s, y. split; [exact Hn|]. split; [exact Hc|].
  assert (Hb : 0 <= b).
  { unfold mods_wf in Hw. rewrite Forall_forall in Hw. apply nth_error_In, Hw in Hn. cbn [fst snd] in Hn. lia. }
  destruct (C11.Proofs5.func_sound p rf b x Hrf Hb Hx) as (o & Es & _ & F).
  exists o. split; [exact Es|]. intros name base ps Ho.
  destruct (F name base ps Ho) as (_ & Hle & [(fr & Hin & Hcov & Hnm & Hbase & _)|(pb & Hin & _ & Hnm & Hbase & _)]);
    (split; [exact Hle|]).
  - left. exists fr. split; [exact Hin|]. split; [exact Hnm|]. split; [lia|].
    unfold C11.Model.func_covers in Hcov.
    destruct (mk_range (C11.Model.fr_addr fr) (C11.Model.fr_size fr)) as [r|] eqn:Er; [|discriminate].
    pose proof (mk_range_contains _ _ _ _ Er Hcov). lia.
  - right. exists pb. split; [exact Hin|]. split; [exact Hnm|]. lia.
Qed.

Definition function_ok (b : Z) (rf : C11.Model.raw_file) (f : frame) (o : C11.Model.sym_out) : Prop :=
  forall name base ps, C11.Model.o_func o = Some (name, base, ps) ->
    base <= f_instr f /\
    ((exists fr, In fr (C11.Model.rf_funcs rf) /\ name = C11.Model.fr_name fr /\ base = b + C11.Model.fr_addr fr /\
                 f_instr f < base + C11.Model.fr_size fr)
     \/ (exists pb, In pb (C11.Model.rf_publics rf) /\ name = C11.Model.p_name pb /\ base = b + C11.Model.p_addr pb)).

Lemma function_covers : forall p (mods : list modspec) f i rf,
  mods_wf mods -> f_instr f < 2 ^ 64 -> C11.Proofs2.wf_file rf ->
  frame_module mods f = Some i ->
  exists b s y, nth_error mods (Z.to_nat i) = Some (b, s, y) /\ b <= f_instr f < b + s /\
    exists o, C11.Model.symbolize p rf b (f_instr f) = Ret o /\ function_ok b rf f o.
Proof. intros p mods f. unfold function_ok. exact (function_at_covers p mods (f_instr f)). Qed.

Lemma walk_instr_range :
  forall p a os mem module_at max_module_addr cfi_walk instr_valid,
    arch_ok a -> mem_wf mem ->
    (forall callee gc fwd r v, cfi_walk callee gc fwd = Some (r, v) -> regs_wf a r) ->
    forall fuel r v fs, regs_wf a r ->
      walk_stack current_code p a os mem module_at max_module_addr cfi_walk instr_valid fuel r v = Ret fs ->
      Forall (fun f => 0 <= f_instr f < 2 ^ 64) fs.
Proof.
  intros p a os mem ma mm cw iv Ha Hm Hc fuel r v fs Hr H.
  destruct (first_frame _ _ _ _ _ _ _ _ _ _ _ _ _ H) as [rest ->].
  destruct (stack_walked current_code p a os mem ma mm cw iv eq_refl Ha Hm Hc _ _ _ _ _ Hr H) as (_ & W & _).
  constructor; [destruct Hr as [Hip _]; pose proof (pow_bounds a Ha); unfold in_slot in Hip; cbn [from_context f_instr]; lia|].
  eapply Forall_impl; [|exact W]. intros f Hw. pose proof (walked_u64 a mem f Ha Hw). lia.
Qed.
