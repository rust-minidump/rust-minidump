(* C05/ProofsValid.v — the tests a scan frame has passed, and arm64's ptr_auth_strip, as the Rust text has them.
   * every <arch>::instruction_seems_valid front test and lib.rs instruction_seems_valid_by_symbols are re-emitted from
     the Rust text (Gen/UnwindTail.v); here they are proved equal to the parametric pieces of Model.v / Driver.v, every
     frame a walk marks `scan` is proved to have passed them (no hypothesis: any repair setting, any oracle), and an
     accepted address is tied to the module list (C08) and to C11's model of fill_symbol;
   * arm64's ptr_auth_strip, statement by statement as generated (chk_sub on `(1 << 47) - 1` and `high_bit - 1`, `ptr & mask`
     as Z.land), is proved never to trap and to equal Model.v's arithmetic form (ptr mod 2^k). *)
From Coq Require Import Lia ZArith List Bool.
From RM Require Import Base.WordFacts C08.Model C05.Model C05.ModelTail C05.Proofs C05.ProofsTail C05.Driver C05.ProofsModules.
From RM Require Import C08.Proofs C05.ProofsFunction.
From RM Require C09.Grammar C11.Model C11.Proofs2 C11.Proofs5.
Import ListNotations.
Open Scope Z_scope.

Lemma pre_ok_pinned : forall archid x, a_pre_ok (arch_of archid) x = pre_ok_of archid x.
Proof.
  apply (archid_cases (fun a _ pre => forall x, a_pre_ok a x = pre x)); intros x.
  - unfold x86, x86_instr_pre_ok; cbn [a_pre_ok]. destruct (x =? 0); reflexivity.
  - unfold amd64, amd64_instr_pre_ok, amd64_is_non_canonical, amd64_non_canonical, amd64_noncanon_lo, amd64_noncanon_hi; cbn [a_pre_ok].
    destruct (_ || _); reflexivity.
  - reflexivity.
  - unfold arm64, arm64_instr_pre_ok, arm64_is_non_canonical, arm64_non_canonical, arm64_canon_lo, arm64_canon_hi; cbn [a_pre_ok].
    destruct (_ || _); reflexivity.
  - unfold mips32, mips_instr_pre_ok, mips_instr_min; cbn [a_pre_ok]. destruct (x <? 4096); reflexivity.
  - unfold mips64, mips_instr_pre_ok, mips_instr_min; cbn [a_pre_ok]. destruct (x <? 4096); reflexivity.
Qed.

(* the frame-pointer techniques of amd64 / arm64 use the same is_non_canonical *)
Lemma canon_fp_pinned : (forall x, a_canon_fp amd64 x = negb (amd64_is_non_canonical x)) /\
                        (forall x, a_canon_fp arm64 x = negb (arm64_is_non_canonical x)).
Proof. split; intros x; reflexivity. Qed.

(* what the generated body says, spelled out for the driver's modules and symbol files *)
Lemma d_instr_valid_spec : forall mods x,
  d_instr_valid mods x =
  (let i := sat_sub x 1 in
   if i =? 0 then false
   else match mod_of mods i with
        | None => false
        | Some (b, _, None) => true
        | Some (b, _, Some s) =>
            let addr := i - b in
            match s_table s with
            | Some t => match rm_get (C09.Grammar.t_funcs t) addr with
                        | Some fn => negb (rle_empty (C09.Grammar.sf_name fn))
                        | None => false
                        end
            | None => (0 <? s_func_size s) && (s_func_lo s <=? addr) && (addr <? s_func_lo s + s_func_size s)
            end
        end).
Proof.
  intros mods x. unfold d_instr_valid, lib_isv_by_symbols, lib_isv_adjust, d_fill. cbv zeta.
  destruct (sat_sub x 1 =? 0); [reflexivity|].
  destruct (mod_of mods (sat_sub x 1)) as [[[b sz] [s|]]|]; try reflexivity.
  destruct (s_table s) as [t|].
  - destruct (rm_get (C09.Grammar.t_funcs t) (sat_sub x 1 - b)); reflexivity.
  - destruct ((0 <? s_func_size s) && (s_func_lo s <=? sat_sub x 1 - b) && (sat_sub x 1 - b <? s_func_lo s + s_func_size s)); reflexivity.
Qed.

(* an accepted address: at least 2, the address before it lies in a module, and that module has no symbol file
   (fill_symbol fails) or a function with a non-empty name covers that address *)
Lemma isv_by_symbols_true : forall (M : Type) (module_at : Z -> option M) (fill : M -> Z -> option (option bool)) x,
  lib_isv_by_symbols module_at fill x = true ->
  2 <= x /\ exists m, module_at (x - 1) = Some m /\ (fill m (x - 1) = None \/ fill m (x - 1) = Some (Some false)).
Proof.
  intros M ma fill x H. unfold lib_isv_by_symbols, lib_isv_adjust, sat_sub in H. cbv zeta in H.
  destruct (Z.max (x - 1) 0 =? 0) eqn:E; [discriminate|].
  apply Z.eqb_neq in E. assert (E' : Z.max (x - 1) 0 = x - 1) by lia. rewrite E' in H.
  split; [lia|].
  destruct (ma (x - 1)) as [m|]; [|discriminate].
  exists m. split; [reflexivity|].
  destruct (fill m (x - 1)) as [[[|]|]|]; cbn in H; try discriminate; auto.
Qed.

Section ScanAccept.
Variable fx : fixes.
Variable p : profile.
Variable a : arch.
Variable os : Z.
Variable mem : memory.
Variable module_at : Z -> option Z.
Variable mma : Z.
Variable cfi_walk : frame -> option frame -> list Z -> option (regs * list Z).
Variable iv : Z -> bool.

Definition scan_accepted (f : frame) : Prop :=
  f_trust f = TScan -> a_pre_ok a (f_resume f) = true /\ iv (f_resume f) = true.

Lemma scan_loop_accepts : forall n i last_sp last_bp r v,
  scan_loop p a mem iv n i last_sp last_bp = Ret (Some (r, v)) -> instr_ok a iv (r_ip r) = true.
Proof.
  induction n as [|n IH]; intros i last_sp last_bp r v H; cbn [scan_loop] in H; [discriminate|].
  apply obind_ret in H as (off & _ & H).
  destruct (checked_add (W a) last_sp off) as [addr_ip|]; [|discriminate].
  destruct (read mem (PW a) addr_ip) as [cip|]; [|discriminate].
  destruct (instr_ok a iv cip) eqn:Eok; [|exact (IH _ _ _ _ _ H)].
  destruct (checked_add (W a) addr_ip (PW a)) as [csp|]; [|discriminate].
  apply obind_ret in H as ([obp|] & _ & H); inversion H; subst. exact Eok.
Qed.

Lemma by_scan_accepts : forall callee r v,
  by_scan p a mem iv callee = Ret (Some (r, v)) -> instr_ok a iv (r_ip r) = true.
Proof.
  intros callee r v H. unfold by_scan in H.
  destruct (negb _); [discriminate|].
  destruct (is_context (f_trust callee)); [exact (scan_loop_accepts _ _ _ _ _ _ H)|].
  destruct (if a_scan_skip a =? 0 then _ else _); [|discriminate].
  exact (scan_loop_accepts _ _ _ _ _ _ H).
Qed.

Lemma gcf_scan : forall callee gc f,
  get_caller_frame fx p a os mem module_at mma cfi_walk iv callee gc = Ret (Some f) ->
  f_trust f = TScan -> instr_ok a iv (f_resume f) = true.
Proof.
  intros callee gc f H T. unfold get_caller_frame in H.
  apply obind_ret in H as ([f'|] & E & H); [|discriminate].
  destruct (_ <? _); [discriminate|]. destruct (negb _); [discriminate|].
  apply obind_ret in H as (i & _ & H). inversion H; subst. cbn [set_instr f_trust f_resume] in *. clear H.
  (* only the last technique of the cascade stamps TScan *)
  unfold cascade in E.
  destruct (by_cfi a module_at mma cfi_walk callee gc) as [[r v]|]; [inversion E; subst; discriminate T|].
  apply obind_ret in E as ([[r v]|] & _ & E); [inversion E; subst; discriminate T|].
  apply obind_ret in E as ([[r v]|] & S & E); inversion E; subst. exact (by_scan_accepts _ _ _ S).
Qed.

Lemma walk_accepts : forall fuel callee gc l,
  walk fx p a os mem module_at mma cfi_walk iv fuel callee gc = Ret l -> Forall scan_accepted l.
Proof.
  induction fuel as [|fuel IH]; intros callee gc l H; cbn [walk] in H; [discriminate|].
  destruct (stop_here fx mem callee); [inversion H; constructor|].
  apply obind_ret in H as ([f|] & E & H); [|inversion H; constructor].
  apply obind_ret in H as (rest & E2 & H). inversion H; subst. constructor; [|exact (IH _ _ _ E2)].
  intro T. apply andb_prop. exact (gcf_scan _ _ _ E T).
Qed.

Lemma stack_scan_accepts : forall fuel r v f0 rest,
  walk_stack fx p a os mem module_at mma cfi_walk iv fuel r v = Ret (f0 :: rest) -> Forall scan_accepted rest.
Proof.
  intros fuel r v f0 rest H. destruct (walk_stack_ret _ _ _ _ _ _ _ _ _ _ _ _ _ H) as (rest' & E & W).
  inversion E; subst rest' f0. destruct (mem_ok mem); [exact (walk_accepts _ _ _ _ W) | subst rest; constructor].
Qed.
End ScanAccept.

(* the driver's instantiation: an address its acceptance test lets through is at least 2, the address before it lies
   inside a listed module that covers it, and that module has no symbols or a FUNC record covering that address *)
Lemma mod_of_covers : forall mods x b s y, mods_wf mods -> mod_of mods x = Some (b, s, y) -> b <= x < b + s.
Proof.
  intros mods x b s y Hm H. unfold mod_of in H.
  destruct (d_module_at mods x) as [i|] eqn:E; [|discriminate].
  destruct (module_at_covers mods x i Hm E) as (b' & s' & y' & N & C).
  rewrite N in H. inversion H; subst. exact C.
Qed.

Lemma accepted_in_module : forall mods x, mods_wf mods -> d_instr_valid mods x = true ->
  2 <= x /\ exists b s y, mod_of mods (x - 1) = Some (b, s, y) /\ b <= x - 1 < b + s /\
                          (y = None \/ d_fill (b, s, y) (x - 1) = Some (Some false)).
Proof.
  intros mods x Hm H. apply isv_by_symbols_true in H as (G & [[b s] y] & M & F).
  split; [exact G|]. exists b, s, y. split; [exact M|]. split; [exact (mod_of_covers _ _ _ _ _ Hm M)|].
  destruct F as [F|F]; [left | right; exact F].
  destruct y; [discriminate F | reflexivity].
Qed.

Lemma strip_src_is_model : forall p module_end x, 0 <= x < two64 ->
  arm64_ptr_auth_strip_src p module_end x = Ret (ptr_auth_strip (arm64_max_module_addr module_end) x).
Proof.
  intros p me x Hx.
  unfold arm64_ptr_auth_strip_src, arm64_ptr_auth_strip_gen, ptr_auth_strip, next_pow2, checked_next_power_of_two.
  assert (E : chk_sub p 64 610 (Z.shiftl 1 47) 1 = Ret 140737488355327) by (destruct p; reflexivity).
  rewrite E. cbn [obind]. cbv zeta.
  replace (2 ^ arm64_apple_bits - 1) with 140737488355327 by reflexivity.
  set (M := Z.max 140737488355327 (arm64_max_module_addr me)).
  pose proof (Z.log2_up_nonneg M) as Hk.
  set (k := Z.log2_up M) in *.
  assert (Hpos : 0 < 2 ^ k) by (apply Z.pow_pos_nonneg; lia).
  destruct (2 ^ k <? two64) eqn:Hlt.
  - apply Z.ltb_lt in Hlt.
    rewrite chk_sub_ok by (change (2 ^ 64) with two64; lia).
    cbn [obind]. f_equal.
    rewrite Z.sub_1_r, <- Z.ones_equiv. apply Z.land_ones. exact Hk.
  - cbn [obind]. f_equal.
    change 18446744073709551615 with (Z.ones 64).
    rewrite Z.land_ones by lia. apply Z.mod_small. change (2 ^ 64) with two64. lia.
Qed.

Lemma strip_src_no_panic : forall p module_end x, 0 <= x < two64 ->
  exists y, arm64_ptr_auth_strip_src p module_end x = Ret y /\ 0 <= y <= x.
Proof.
  intros p me x Hx. rewrite strip_src_is_model by exact Hx. eexists. split; [reflexivity|].
  apply (strip_bounds (arm64_max_module_addr me) x). lia.
Qed.

(* the driver's max_module_addr is the generated expression over by_addr().next_back() *)
Lemma d_max_module_addr_gen : forall mods, d_max_module_addr mods = arm64_max_module_addr (d_last_module mods).
Proof. reflexivity. Qed.

(* symbol_provider.fill_symbol(module i, frame at x) through C11's model of SymbolFile::fill_symbol: [files i] = None is a
   module the provider has no symbol file for (Err); otherwise Ok, with set_function(name, ..) called iff the model's o_func
   is set; C11 keeps names abstract, [empty_name] says which of them is the empty string (a FUNC line may have no name) *)
Definition c11_fill (q : profile) (empty_name : Z -> bool) (mods : list modspec) (files : Z -> option C11.Model.raw_file)
    (i : Z) (x : Z) : option (option bool) :=
  match nth_error mods (Z.to_nat i), files i with
  | Some (b, _, _), Some rf =>
      match C11.Model.symbolize q rf b x with
      | Ret o => Some (match C11.Model.o_func o with Some (name, _, _) => Some (empty_name name) | None => None end)
      | _ => None
      end
  | _, _ => None
  end.

(* address [x] lies in module i = [b, b + s), which has no symbol file or whose fill_symbol set a function with a
   non-empty name that is a record of that file covering [x] *)
Definition scan_function_at (q : profile) (empty_name : Z -> bool) (mods : list modspec) (files : Z -> option C11.Model.raw_file) (x : Z) : Prop :=
  exists i b s y, d_module_at mods x = Some i /\ nth_error mods (Z.to_nat i) = Some (b, s, y) /\
    b <= x < b + s /\
    (files i = None \/
     exists rf o name base ps, files i = Some rf /\ C11.Model.symbolize q rf b x = Ret o /\
       C11.Model.o_func o = Some (name, base, ps) /\ empty_name name = false /\ record_covers b rf x name base).

Lemma accepted_function : forall q empty_name mods files x,
  mods_wf mods -> (forall i rf, files i = Some rf -> C11.Proofs2.wf_file rf) -> x - 1 < 2 ^ 64 ->
  lib_isv_by_symbols (d_module_at mods) (c11_fill q empty_name mods files) x = true ->
  scan_function_at q empty_name mods files (x - 1).
Proof.
  intros q en mods files x Hw Hfiles Hx H.
  apply isv_by_symbols_true in H as (_ & i & Hm & F). exists i.
  destruct (files i) as [rf|] eqn:Ef.
  - destruct (function_at_covers q mods (x - 1) i rf Hw Hx (Hfiles i rf Ef) Hm) as (b & s & y & Hn & Hc & o & Es & G).
    exists b, s, y. split; [exact Hm|]. split; [exact Hn|]. split; [exact Hc|]. right.
    unfold c11_fill in F. rewrite Hn, Ef, Es in F.
    destruct (C11.Model.o_func o) as [[[name base] ps]|] eqn:Eo; [|destruct F; discriminate].
    exists rf, o, name, base, ps. split; [reflexivity|]. split; [exact Es|]. split; [exact Eo|].
    split; [|exact (G name base ps eq_refl)].
    (* the generated test accepted: fill_symbol's answer was "a function with a non-empty name" *)
    destruct F as [F|F]; [discriminate | inversion F; reflexivity].
  - destruct (module_at_covers mods (x - 1) i Hw Hm) as (b & s & y & Hn & Hc).
    exists b, s, y. auto.
Qed.
