(* C05/ProofsCfi.v — the contract the walker theorems assume of the CFI oracle ("every register value fits its
   slot") proved for C06's model of walk_with_stack_cfi over the real CfiStackWalker, which is what the
   correspondence driver instantiates the oracle with: first for C06's walk_frame_cfi alone ([real_walk_in_range]),
   then for the driver's text-rule oracle [cfi_text] of C05/Driver.v ([cfi_text_contract]). *)
From Coq Require Import Lia ZArith List Bool.
From RM Require Import Base.WordFacts C08.Model C05.Model C05.Proofs C05.Driver.
From RM Require C06.Model.
Import ListNotations.
Open Scope Z_scope.

Module C6 := C06.Model.

Definition env_ok (E : C6.env) : Prop :=
  (forall n v, C6.e_callee E n = Some v -> 0 <= v) /\ (forall ad v, C6.e_mem E ad = Some v -> 0 <= v).

Definition opt_nonneg (o : option Z) : Prop := forall v, o = Some v -> 0 <= v.

Lemma opt_nonneg_some : forall x, 0 <= x -> opt_nonneg (Some x).
Proof. intros x H v E. inversion E; subst. exact H. Qed.

Lemma opt_nonneg_none : opt_nonneg None.
Proof. intros v E. discriminate E. Qed.

Lemma Ret_inj : forall {A} (x y : A), Ret x = Ret y -> x = y.
Proof. intros A x y H. inversion H. reflexivity. Qed.

Lemma binop_nonneg : forall st f st', Forall (fun v => 0 <= v) st ->
  (forall l r v, 0 <= l -> 0 <= r -> f l r = Ret v -> 0 <= v) ->
  C6.binop st f = Ret st' -> Forall (fun v => 0 <= v) st'.
Proof.
  intros st f st' Hst Hf H. unfold C6.binop in H.
  destruct st as [|r [|l s]]; try discriminate.
  inversion Hst as [|? ? Hr Hs]; subst. inversion Hs as [|? ? Hl Hs']; subst.
  apply obind_ret in H as (v & E & H). apply Ret_inj in H. subst st'.
  constructor; [exact (Hf l r v Hl Hr E) | assumption].
Qed.

Lemma push_opt_nonneg : forall o st st', Forall (fun v => 0 <= v) st -> opt_nonneg o ->
  C6.push_opt o st = Ret st' -> Forall (fun v => 0 <= v) st'.
Proof.
  intros o st st' Hst Ho H. unfold C6.push_opt in H. destruct o; [|discriminate].
  apply Ret_inj in H. subst st'. constructor; [apply Ho; reflexivity | assumption].
Qed.

Lemma eval_step_nonneg : forall p E cfa t st st', env_ok E -> opt_nonneg cfa ->
  Forall (fun v => 0 <= v) st -> C6.eval_step p E cfa t st = Ret st' -> Forall (fun v => 0 <= v) st'.
Proof.
  intros p E cfa t st st' [He Hm] Hc Hst H. unfold C6.eval_step in H.
  (* + - * wrap to u64 *)
  assert (Hwrap : forall x v, Ret (wrap64 x) = Ret v -> 0 <= v).
  { intros x v E1. apply Ret_inj in E1. subst v. apply wrap64_range. }
  destruct (C6.beq t C6.T_plus); [exact (binop_nonneg st _ st' Hst (fun l r v _ _ => Hwrap (l + r) v) H)|].
  destruct (C6.beq t C6.T_minus); [exact (binop_nonneg st _ st' Hst (fun l r v _ _ => Hwrap (l - r) v) H)|].
  destruct (C6.beq t C6.T_star); [exact (binop_nonneg st _ st' Hst (fun l r v _ _ => Hwrap (l * r) v) H)|].
  destruct (C6.beq t C6.T_slash).
  { refine (binop_nonneg st _ st' Hst _ H). intros l r v Hl Hr E1. cbv beta in E1.
    destruct (Z.eqb_spec r 0); [discriminate E1|]. apply Ret_inj in E1. subst v. apply Z.div_pos; lia. }
  destruct (C6.beq t C6.T_pct).
  { refine (binop_nonneg st _ st' Hst _ H). intros l r v Hl Hr E1. cbv beta in E1.
    destruct (Z.eqb_spec r 0); [discriminate E1|]. apply Ret_inj in E1. subst v. apply Z.mod_pos_bound. lia. }
  destruct (C6.beq t C6.T_at).
  { refine (binop_nonneg st _ st' Hst _ H). intros l r v Hl Hr E1. cbv beta in E1.
    destruct (_ || _); [discriminate E1|].
    apply obind_ret in E1 as (m & _ & E1). apply Ret_inj in E1. subst v. apply Z.land_nonneg. left. exact Hl. }
  destruct (C6.beq t C6.T_caret).
  { destruct st as [|ptr s]; [discriminate H|]. inversion Hst as [|? ? _ Hs]; subst.
    exact (push_opt_nonneg _ s st' Hs (Hm ptr) H). }
  destruct (C6.beq t C6.T_cfa); [exact (push_opt_nonneg cfa st st' Hst Hc H)|].
  destruct (C6.beq t C6.T_undef); [discriminate H|].
  destruct (C6.after_dollar t) as [reg|]; [exact (push_opt_nonneg _ st st' Hst (He reg) H)|].
  destruct (C6.parse_int 64 t) as [v0|]; [|exact (push_opt_nonneg _ st st' Hst (He t) H)].
  apply Ret_inj in H. subst st'. constructor; [apply wrap64_range | exact Hst].
Qed.

Lemma eval_loop_nonneg : forall p E cfa toks st st', env_ok E -> opt_nonneg cfa ->
  Forall (fun v => 0 <= v) st -> C6.eval_loop p E cfa toks st = Ret st' -> Forall (fun v => 0 <= v) st'.
Proof.
  intros p E cfa toks. induction toks as [|t r IH]; intros st st' HE Hc Hst H; cbn [C6.eval_loop] in H.
  - apply Ret_inj in H. subst st'. exact Hst.
  - apply obind_ret in H as (st1 & E1 & H).
    exact (IH st1 st' HE Hc (eval_step_nonneg p E cfa t st st1 HE Hc Hst E1) H).
Qed.

Lemma eval_nonneg : forall p E e cfa v, env_ok E -> opt_nonneg cfa ->
  C6.eval_cfi_expr p E e cfa = Ret v -> 0 <= v.
Proof.
  intros p E e cfa v HE Hc H. unfold C6.eval_cfi_expr in H.
  apply obind_ret in H as (st & E1 & H).
  pose proof (eval_loop_nonneg _ _ _ _ _ _ HE Hc (Forall_nil _) E1) as Hst.
  destruct st as [|x [|y s]]; try discriminate. apply Ret_inj in H. subst v. inversion Hst; assumption.
Qed.

(* an invariant of the caller state preserved by every write with a non-negative value is preserved by the walk *)
Section WalkInv.
Context {S : Type} (ops : C6.wops S) (Inv : S -> Prop).
Hypothesis Hset : forall s n v s', 0 <= v -> Inv s -> C6.o_set ops s n v = Some s' -> Inv s'.
Hypothesis Hclear : forall s n, Inv s -> Inv (C6.o_clear ops s n).
Hypothesis Hcfa : forall s v s', 0 <= v -> Inv s -> C6.o_set_cfa ops s v = Some s' -> Inv s'.
Hypothesis Hra : forall s v s', 0 <= v -> Inv s -> C6.o_set_ra ops s v = Some s' -> Inv s'.

Lemma apply_rule_inv : forall p E cfa s re s', env_ok E -> 0 <= cfa -> Inv s ->
  C6.apply_rule ops p E cfa s re = Ret s' -> Inv s'.
Proof.
  intros p E cfa s re s' HE Hc Hi H. unfold C6.apply_rule in H.
  destruct (fst re) as [| |name]; try discriminate H.
  destruct (C6.eval_cfi_expr p E (snd re) (Some cfa)) as [v| | |] eqn:E2; try discriminate H.
  - pose proof (eval_nonneg p E (snd re) (Some cfa) v HE (opt_nonneg_some cfa Hc) E2) as Hv.
    destruct (C6.o_set ops s name v) as [s2|] eqn:E3; apply Ret_inj in H; subst s'.
    + exact (Hset s name v s2 Hv Hi E3).
    + apply Hclear, Hi.
  - apply Ret_inj in H. subst s'. apply Hclear, Hi.
Qed.

Lemma apply_rules_inv : forall p E cfa l s s', env_ok E -> 0 <= cfa -> Inv s ->
  C6.apply_rules ops p E cfa l s = Ret s' -> Inv s'.
Proof.
  intros p E cfa l. induction l as [|re r IH]; intros s s' HE Hc Hi H; cbn [C6.apply_rules] in H.
  - apply Ret_inj in H. subst s'. exact Hi.
  - apply obind_ret in H as (s1 & E1 & H).
    exact (IH s1 s' HE Hc (apply_rule_inv p E cfa s re s1 HE Hc Hi E1) H).
Qed.

Lemma walk_cfi_inv : forall ord p E texts s s', env_ok E -> Inv s ->
  C6.walk_cfi_ord ops ord p E texts s = Ret (Some s') -> Inv s'.
Proof.
  intros ord p E texts s s' HE Hi H. unfold C6.walk_cfi_ord, C6.try_ in H.
  destruct (C6.parse_all texts []) as [m| | |]; try discriminate H.
  destruct (C6.map_remove C6.RCfa m) as [[cfa_e|] m1]; [|discriminate H].
  destruct (C6.map_remove C6.RRa m1) as [[ra_e|] m2]; [|discriminate H].
  destruct (C6.eval_cfi_expr p E cfa_e None) as [cfa| | |] eqn:E1; try discriminate H.
  pose proof (eval_nonneg p E cfa_e None cfa HE opt_nonneg_none E1) as Hc.
  destruct (C6.eval_cfi_expr p E ra_e (Some cfa)) as [ra| | |] eqn:E2; try discriminate H.
  pose proof (eval_nonneg p E ra_e (Some cfa) ra HE (opt_nonneg_some cfa Hc) E2) as Hr.
  destruct (C6.o_set_cfa ops s cfa) as [s1|] eqn:E3; [|discriminate H].
  destruct (C6.o_set_ra ops s1 ra) as [s2|] eqn:E4; [|discriminate H].
  destruct (C6.apply_rules ops p E cfa (ord m2) s2) as [s3| | |] eqn:E5; try discriminate H.
  inversion H; subst s3.
  exact (apply_rules_inv p E cfa (ord m2) s2 s' HE Hc (Hra s1 ra s2 Hr (Hcfa s cfa s1 Hc Hi E3) E4) E5).
Qed.

End WalkInv.

(* the real CfiStackWalker: every register value of the caller context stays within [0, B) for any bound B
   that is at least the register width (B = 2^slot: 64-bit slots of a MIPS context unwound as 32-bit) *)
Definition ctx_below (B : Z) (s : C6.rstate) : Prop := forall n, 0 <= C6.r_ctx s n < B.

Lemma real_walk_in_range : forall a6 B p E r addr s s', 2 ^ (8 * C6.a_width a6) <= B ->
  env_ok E -> ctx_below B s ->
  C6.walk_frame_cfi (C6.real_ops a6) p E r addr s = Ret (Some s') -> ctx_below B s'.
Proof.
  intros a6 B p E r addr s s' HB HE Hi H.
  assert (Hrs : forall s n v s', 0 <= v -> ctx_below B s -> C6.real_set a6 s n v = Some s' -> ctx_below B s').
  { intros s0 n v s0' Hv Hs0 E0. unfold C6.real_set in E0. destruct (C6.memoize a6 n) as [c|]; [|discriminate].
    destruct (C6.fits (C6.a_width a6) v) eqn:Ef; [|discriminate]. inversion E0; subst.
    intros x. cbn [C6.r_ctx]. unfold C6.updz. destruct (C6.beq x c); [|apply Hs0].
    unfold C6.fits in Ef. apply Z.ltb_lt in Ef. lia. }
  unfold C6.walk_frame_cfi in H. destruct (C6.cfi_covers r addr); [|discriminate H].
  refine (walk_cfi_inv (C6.real_ops a6) (ctx_below B) Hrs _ _ _ _ p E _ s s' HE Hi H).
  - intros s0 n Hs0. cbn [C6.o_clear C6.real_ops]. destruct (C6.memoize a6 n); exact Hs0.
  - intros s0. exact (Hrs s0 (C6.a_sp a6)).
  - intros s0. exact (Hrs s0 (C6.a_ip a6)).
Qed.

(* the oracle the driver uses for arbitrary rule text meets the contract of the walker theorems,
   for every callee whose registers (all of them) are within their slots *)
Lemma cfi_text_contract : forall a mem mods regnames lrname callee gc fwd r v,
  arch_ok a -> mem_wf mem -> frame_wf a callee ->
  (forall n, in_slot a (slot_value a regnames lrname (f_regs callee) n)) ->
  cfi_text a mem mods regnames lrname callee gc fwd = Some (r, v) ->
  regs_wf a r /\ Forall (in_slot a) (r_gp r).
Proof.
  intros a mem mods regnames lrname callee gc fwd r v Ha Hm Hc Hall H. unfold cfi_text in H.
  destruct (mod_of mods (f_instr callee)) as [[[b sz] [s|]]|]; try discriminate H.
  destruct (s_text s) as [[init deltas]|]; [|discriminate H].
  destruct (f_instr callee <? b); [discriminate H|].
  match type of H with match ?W with _ => _ end = _ => destruct W as [[st|]| | |] eqn:EW; try discriminate H end.
  inversion H; subst r v; clear H.
  pose proof (pow_bounds a Ha) as [[_ HB] _]. rewrite (proj2 (PW_W a Ha)) in HB.
  match type of EW with C6.walk_frame_cfi _ _ ?E0 _ _ _ = _ => assert (HE : env_ok E0) end.
  { split.
    - intros n x Ex. cbn [C6.e_callee] in Ex.
      destruct (C6.memoize (arch6 a regnames) n); [|discriminate Ex].
      destruct (reg_valid a (name_of_bytes n) (f_valid callee)); [|discriminate Ex].
      inversion Ex. exact (proj1 (view_range a Ha _ (Hall _))).
    - intros ad x Ex. exact (proj1 (read_pw_range a mem Ha Hm ad x Ex)). }
  pose proof (fun H0 => real_walk_in_range (arch6 a regnames) (2 ^ a_slot_bits a) Debug _ _ _ _ st HB HE H0 EW) as Hin.
  specialize (Hin (fun n => Hall _)).
  split.
  - split; [apply Hin|]. split; [apply Hin|]. split; [apply Hin|].
    destruct lrname; [apply Hin | exact (proj2 (proj2 (proj2 Hc)))].
  - apply Forall_forall. intros x Hx. apply in_map_iff in Hx as (n & <- & _). apply Hin.
Qed.
