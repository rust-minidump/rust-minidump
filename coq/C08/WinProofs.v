(* C08/WinProofs.v — insert_win_stack_info and the table built from its vector: first over any record type with an
   address and a size that can be set (section GenWin), then for the STACK WIN table model (C08/WinModel.v). *)
From Coq Require Import Lia Sorting.Sorted Sorting.Permutation.
From RM Require Import C08.Model C08.Proofs C08.WinModel.
Open Scope Z_scope.

(* insert_win_stack_info over any record type with an address, a size and a way to set the size: the facts below are
   about [ginsert]; WinModel.insert_win is it at winrec, by conversion, and C09.Grammar.win_insert is its Release
   instance at win_info (C08/SymText.v).  [tag_sub], [tag_unwrap]: the panic sites. *)
Section GenWin.
Context {W : Type} (addr size : W -> Z) (set_size : W -> Z -> W) (eqb : W -> W -> bool).
Hypothesis addr_set : forall w s, addr (set_size w s) = addr w.
Hypothesis size_set : forall w s, size (set_size w s) = s.
Hypothesis set_set : forall w a b, set_size (set_size w a) b = set_size w b.
Hypothesis set_id : forall w, set_size w (size w) = w.
Hypothesis eqb_eq : forall a b, eqb a b = true <-> a = b.
Variables tag_sub tag_unwrap : Z.

Definition grange (w : W) : option range := mk_range (addr w) (size w).
Definition gwf (w : W) : Prop := 0 <= addr w /\ 0 <= size w < two32.

Definition ginsert (p : profile) (acc : list (range * W)) (w : W) : outcome (list (range * W)) :=
  match grange w with
  | None => Ret acc
  | Some mr =>
      match acc with
      | (lr, lw) :: rest =>
          if intersects lr mr then
            if addr w >? addr lw then
              do d <- chk_sub p 64 tag_sub (addr w) (addr lw);
              let lw' := set_size lw (wrap32 d) in
              match grange lw' with
              | Some lr' => Ret ((mr, w) :: (lr', lw') :: rest)
              | None => Panic tag_unwrap
              end
            else if negb (range_eqb lr mr) then Ret acc
            else Ret ((mr, w) :: acc)
          else Ret ((mr, w) :: acc)
      | [] => Ret [(mr, w)]
      end
  end.

Fixpoint ginsert_all (p : profile) (l : list W) (acc : list (range * W)) : outcome (list (range * W)) :=
  match l with
  | [] => Ret acc
  | w :: r => do acc' <- ginsert p acc w; ginsert_all p r acc'
  end.

(* An element of the vector is a record of the file, possibly shortened, filed under its own range. *)
Definition gderived (l : list W) (e : range * W) : Prop :=
  grange (snd e) = Some (fst e) /\ gwf (snd e) /\
  exists w0, In w0 l /\ grange w0 <> None /\
             snd e = set_size w0 (size (snd e)) /\ 0 < size (snd e) <= size w0.

Lemma gderived_new l w mr : In w l -> gwf w -> grange w = Some mr -> gderived l (mr, w).
Proof.
  intros Hin Hw Hr. split; [exact Hr|]. split; [exact Hw|]. exists w. cbn [snd]. split; [exact Hin|].
  split; [congruence|]. split; [symmetry; apply set_id|]. apply mk_range_shape in Hr. destruct Hw as [_ [W1 _]]. lia.
Qed.

Lemma gderived_wf l v : Forall (gderived l) v -> wf_ranges v.
Proof.
  intros H. unfold wf_ranges. eapply Forall_impl; [|exact H]. intros [r w] (Hr & [W1 [W2 _]] & _). cbn [fst snd] in *.
  exact (mk_range_wf _ _ _ W1 W2 Hr).
Qed.

(* one call: never panics (either build profile), keeps the invariant *)
Lemma ginsert_ok p l acc w : Forall (gderived l) acc -> In w l -> gwf w ->
  exists acc', ginsert p acc w = Ret acc' /\ Forall (gderived l) acc'.
Proof.
  intros Hacc Hin Hw. unfold ginsert.
  destruct (grange w) as [mr|] eqn:Em; [|eauto].
  pose proof (gderived_new l w mr Hin Hw Em) as Hnew.
  destruct acc as [|[lr lw] rest]; [eauto using Forall_cons|].
  destruct (intersects lr mr) eqn:Ei; [|eauto using Forall_cons].
  destruct (addr w >? addr lw) eqn:Eg; [|destruct (negb (range_eqb lr mr)); eauto using Forall_cons].
  (* the repair: shorten the previous record so that it ends where the new one starts *)
  inversion Hacc as [|? ? Hhd Htl]; subst. destruct Hhd as (Hl & [L1 L2] & w0 & Hw0 & Hrg0 & Hset & Hsz). cbn [fst snd] in *.
  assert (Hd : 0 < addr w - addr lw < size lw /\ addr w < two64 /\ addr lw + size lw < two64).
  { unfold grange in Hl, Em. apply mk_range_shape in Hl, Em. destruct Hl as (-> & _ & E1), Em as (-> & _ & E2).
    unfold intersects in Ei. cbn [fst snd] in Ei. destruct Hw as [W1 W2]. lia. }
  rewrite chk_sub64_ok by lia. cbn [obind]. unfold wrap32. rewrite Z.mod_small by (unfold two32 in *; lia).
  assert (El : grange (set_size lw (addr w - addr lw)) = Some (addr lw, addr lw + (addr w - addr lw) - 1)).
  { unfold grange. rewrite addr_set, size_set. apply mk_range_some; lia. }
  rewrite El. eexists. split; [reflexivity|]. constructor; [exact Hnew|]. constructor; [|exact Htl].
  split; [exact El|]. cbn [fst snd]. split; [unfold gwf; rewrite addr_set, size_set; lia|].
  exists w0. rewrite size_set. split; [exact Hw0|]. split; [exact Hrg0|]. split; [rewrite Hset at 1; apply set_set|lia].
Qed.

Lemma ginsert_all_ok p l ws : forall acc, Forall (gderived l) acc -> incl ws l -> Forall gwf ws ->
  exists acc', ginsert_all p ws acc = Ret acc' /\ Forall (gderived l) acc'.
Proof.
  induction ws as [|w t IH]; intros acc Hacc Hincl Hwf; cbn [ginsert_all]; [eauto|].
  inversion Hwf; subst. destruct (ginsert_ok p l acc w Hacc (Hincl w (or_introl eq_refl))) as [acc1 [E1 Hd1]]; [assumption|].
  rewrite E1. cbn [obind]. apply IH; [exact Hd1|intros a Ha; apply Hincl; right; exact Ha|assumption].
Qed.

(* the whole vector: no panic in either profile, and it is well-formed input for the builder *)
Lemma gtable_ok p recs : Forall gwf recs ->
  exists acc, ginsert_all p recs [] = Ret acc /\ Forall (gderived recs) acc /\ wf_ranges (rev acc).
Proof.
  intros Hwf. destruct (ginsert_all_ok p recs recs [] (Forall_nil _) (incl_refl _) Hwf) as [acc [E H]].
  exists acc. split; [exact E|]. split; [exact H|]. apply Forall_rev, (gderived_wf recs), H.
Qed.

(* a lookup returns a (possibly shortened) record of the file whose own range contains the address *)
Lemma gtable_sound p recs acc x w : Forall gwf recs -> ginsert_all p recs [] = Ret acc ->
  rm_get (into_rangemap_safe_p eqb (rev acc)) x = Some w ->
  exists w0, In w0 recs /\ grange w0 <> None /\ w = set_size w0 (size w) /\ 0 < size w <= size w0 /\
             addr w + size w < two64 /\ addr w <= x < addr w + size w.
Proof.
  intros Hwf Hc Hg. destruct (gtable_ok p recs Hwf) as (acc' & E & Hd & Hw). rewrite Hc in E. inversion E; subst acc'.
  destruct (lookup_sound_p eqb eqb_eq _ x w Hw Hg) as [r [Hin Hcx]]. apply in_rev in Hin. rewrite Forall_forall in Hd.
  destruct (Hd _ Hin) as (Hr & _ & w0 & Hw0 & Hrg & Hset & Hsz). cbn [fst snd] in *.
  destruct (mk_range_contains _ _ _ x Hr Hcx) as (_ & A & B). exists w0. auto 8.
Qed.

(* the call looks at and changes the last vector element only *)
Lemma ginsert_app p new rest w : new <> [] ->
  ginsert p (new ++ rest) w = do n' <- ginsert p new w; Ret (n' ++ rest).
Proof.
  destruct new as [|[lr lw] new']; [congruence|]. intros _. unfold ginsert. cbn [app].
  destruct (grange w) as [mr|]; [|reflexivity]. destruct (intersects lr mr); [|reflexivity].
  destruct (addr w >? addr lw); [|destruct (negb _); reflexivity].
  destruct (chk_sub p 64 tag_sub (addr w) (addr lw)); cbn [obind]; try reflexivity. destruct (grange _); reflexivity.
Qed.

Lemma ginsert_all_app p l1 : forall l2 acc,
  ginsert_all p (l1 ++ l2) acc = do a <- ginsert_all p l1 acc; ginsert_all p l2 a.
Proof.
  induction l1 as [|w t IH]; intros l2 acc; cbn [app ginsert_all obind]; [reflexivity|].
  destruct (ginsert p acc w); cbn [obind]; auto.
Qed.

Definition gapart (r : range) (l : list W) : Prop :=
  forall w r', In w l -> grange w = Some r' -> intersects r r' = false.

(* a derived element lies inside the range of the record it comes from *)
Lemma gderived_apart r l e : gapart r l -> gderived l e -> intersects r (fst e) = false /\ intersects (fst e) r = false.
Proof.
  intros Ha (Hr & _ & w0 & Hin & Hrg & Hset & Hsz).
  assert (Hadr : addr (snd e) = addr w0) by (rewrite Hset; apply addr_set).
  destruct (grange w0) as [r0|] eqn:Er0; [|congruence]. specialize (Ha w0 r0 Hin Er0).
  unfold grange in Hr, Er0. rewrite Hadr in Hr. apply mk_range_shape in Hr, Er0. destruct Hr as (Hr & _), Er0 as (-> & _).
  rewrite Hr. unfold intersects in *. cbn [fst snd] in *. lia.
Qed.

(* records read after an isolated one never touch it *)
Lemma ginsert_all_after p l r w0 acc1 : gapart r l -> forall ws, incl ws l -> Forall gwf ws ->
  forall new, Forall (gderived l) new ->
  exists new', ginsert_all p ws (new ++ (r, w0) :: acc1) = Ret (new' ++ (r, w0) :: acc1) /\ Forall (gderived l) new'.
Proof.
  intros Hap. induction ws as [|w t IH]; intros Hincl Hw new Hnew; cbn [ginsert_all]; [eauto|].
  inversion Hw as [|? ? Hw1 Hw2]; subst. assert (Hinw : In w l) by (apply Hincl; left; reflexivity).
  assert (Hstep : exists n', ginsert p (new ++ (r, w0) :: acc1) w = Ret (n' ++ (r, w0) :: acc1) /\ Forall (gderived l) n').
  { destruct new as [|h new'].
    - (* the isolated record is the last element: the new one does not meet it, it is pushed *)
      cbn [app]. unfold ginsert. destruct (grange w) as [mr|] eqn:Em; [|exists []; split; [reflexivity|constructor]].
      rewrite (Hap w mr Hinw Em). exists [(mr, w)]. split; [reflexivity|]. constructor; [|constructor].
      apply gderived_new; assumption.
    - rewrite ginsert_app by discriminate. destruct (ginsert_ok p l (h :: new') w Hnew Hinw Hw1) as [n' [E Hn]].
      rewrite E. cbn [obind]. eauto. }
  destruct Hstep as [n' [E Hn]]. rewrite E. cbn [obind]. apply IH; [intros a Ha; apply Hincl; right; exact Ha|assumption..].
Qed.

(* a record that intersects no other record is found, as written, at every address in it *)
Lemma gtable_isolated p l1 w0 l2 r acc x :
  Forall gwf (l1 ++ w0 :: l2) -> grange w0 = Some r -> gapart r l1 -> gapart r l2 ->
  ginsert_all p (l1 ++ w0 :: l2) [] = Ret acc -> contains r x = true ->
  rm_get (into_rangemap_safe_p eqb (rev acc)) x = Some w0.
Proof.
  intros Hwf Hr Ha1 Ha2 Hc Hx. apply Forall_app in Hwf. destruct Hwf as [Hwf1 Hwf2]. inversion Hwf2 as [|? ? Hw0 Hwf2']; subst.
  rewrite ginsert_all_app in Hc.
  destruct (ginsert_all_ok p l1 l1 [] (Forall_nil _) (incl_refl _) Hwf1) as [v1 [E1 Hd1]]. rewrite E1 in Hc. cbn [obind ginsert_all] in Hc.
  (* the isolated record is pushed as it is *)
  assert (Hins : ginsert p v1 w0 = Ret ((r, w0) :: v1)).
  { unfold ginsert. rewrite Hr. destruct v1 as [|[lr lw] rest]; [reflexivity|].
    inversion Hd1 as [|? ? Hd _]; subst. destruct (gderived_apart r l1 _ Ha1 Hd) as [_ Hi]. cbn [fst] in Hi. rewrite Hi. reflexivity. }
  rewrite Hins in Hc. cbn [obind] in Hc.
  destruct (ginsert_all_after p l2 r w0 v1 Ha2 l2 (incl_refl _) Hwf2' [] (Forall_nil _)) as [new' [E2 Hnew]]. cbn [app] in E2.
  rewrite E2 in Hc. inversion Hc; subst acc. rewrite rev_app_distr. cbn [rev]. rewrite <- app_assoc. cbn [app].
  assert (Hwfv : wf_ranges (rev v1 ++ (r, w0) :: rev new')).
  { unfold wf_ranges. apply Forall_app. split; [apply Forall_rev, (gderived_wf l1), Hd1|].
    constructor; [destruct Hw0 as [A [B _]]; exact (mk_range_wf _ _ _ A B Hr)|apply Forall_rev, (gderived_wf l2), Hnew]. }
  apply (isolated_complete_p eqb eqb_eq _ r w0 _ x Hwfv); [|exact Hx].
  intros r' v' Hin. apply in_app_or in Hin. destruct Hin as [Hin|Hin]; apply in_rev in Hin.
  - rewrite Forall_forall in Hd1. apply (gderived_apart r l1 _ Ha1 (Hd1 _ Hin)).
  - rewrite Forall_forall in Hnew. apply (gderived_apart r l2 _ Ha2 (Hnew _ Hin)).
Qed.
End GenWin.

(* what the line parser can produce: a u64 address and a u32 size *)
Definition wf_rec (w : winrec) : Prop := 0 <= wa w < two64 /\ 0 <= ws w < two32.
Definition wf_recs (l : list winrec) : Prop := Forall wf_rec l.

Lemma win_eqb_eq a b : win_eqb a b = true <-> a = b.
Proof.
  unfold win_eqb. destruct a as [a1 a2 a3], b as [b1 b2 b3]; cbn [wa ws wt]. split.
  - intros H. apply andb_prop in H. destruct H as [H H3]. apply andb_prop in H. destruct H as [H1 H2].
    apply Z.eqb_eq in H1, H2, H3. subst. reflexivity.
  - intros H. inversion H; subst. rewrite !Z.eqb_refl. reflexivity.
Qed.

Lemma mk_range_inv b s r : mk_range b s = Some r -> 0 < s \/ s < 0.
Proof.
  unfold mk_range. destruct (s =? 0) eqn:E0; [discriminate|]. apply Z.eqb_neq in E0. lia.
Qed.

(* WinModel is the development above at winrec: insert_win, insert_all are ginsert, ginsert_all by conversion *)
Lemma win_set_id w : set_size w (ws w) = w.
Proof. destruct w; reflexivity. Qed.
Lemma wf_recs_gwf l : wf_recs l -> Forall (gwf wa ws) l.
Proof. apply Forall_impl. intros w [[A _] B]. split; assumption. Qed.

Definition keyed (e : range * winrec) : Prop := win_range (snd e) = Some (fst e).

(* the whole table: no panic in either profile; the result is the parser-local builder applied to the vector *)
Lemma win_table_ok p l : wf_recs l ->
  exists acc, insert_all p l [] = Ret acc /\ Forall keyed acc /\ wf_ranges (rev acc) /\
              win_table p l = Ret (into_rangemap_safe_p win_eqb (rev acc)).
Proof.
  intros Hwf.
  destruct (gtable_ok wa ws set_size (fun _ _ => eq_refl) (fun _ _ => eq_refl) (fun _ _ _ => eq_refl) win_set_id
              PANIC_WIN_SUB PANIC_WIN_UNWRAP p l (wf_recs_gwf l Hwf)) as (acc & E & Hd & Hw).
  change (insert_all p l [] = Ret acc) in E. exists acc. split; [exact E|]. split; [|split; [exact Hw|]].
  - eapply Forall_impl; [|exact Hd]. intros e He. apply He.
  - unfold win_table. rewrite E. cbn [obind]. apply build_total_p, Hw.
Qed.

Lemma win_table_total p l : wf_recs l -> exists t, win_table p l = Ret t.
Proof. intros H. destruct (win_table_ok p l H) as (acc & _ & _ & _ & E). eauto. Qed.

(* the build profile does not matter *)
Lemma insert_win_profile p acc w acc' : insert_win Debug acc w = Ret acc' -> insert_win p acc w = Ret acc'.
Proof.
  destruct p; [auto|]. unfold insert_win, chk_sub, chk.
  destruct (win_range w); [|auto]. destruct acc as [|[lr lw] rest]; [auto|].
  destruct (intersects lr r); [|auto]. destruct (wa w >? wa lw); [|auto].
  destruct ((0 <=? wa w - wa lw) && (wa w - wa lw <? 2 ^ 64)); [auto|]. cbn [obind]. discriminate.
Qed.

Lemma insert_all_profile p l : forall acc acc',
  insert_all Debug l acc = Ret acc' -> insert_all p l acc = Ret acc'.
Proof.
  induction l as [|w t IH]; intros acc acc'; cbn [insert_all]; [auto|].
  destruct (insert_win Debug acc w) as [a| | |] eqn:E; cbn [obind]; try discriminate.
  intros H. rewrite (insert_win_profile p _ _ _ E). cbn [obind]. auto.
Qed.

(* every entry is filed under the range of the record it carries; the merge loop keeps that, because records that
   compare equal have equal ranges (so a "merge" of two of them is the identity) *)
Lemma merge_step_keyed acc rv : Forall keyed acc -> keyed rv -> Forall keyed (merge_step win_eqb acc rv).
Proof.
  intros Ha Hr. unfold merge_step. destruct acc as [|[lr lv] acc']; [repeat constructor; exact Hr|].
  destruct rv as [r v].
  destruct ((fst r <=? snd lr) && negb (win_eqb v lv)); [exact Ha|].
  destruct ((fst r <=? sat_add 64 (snd lr) 1) && win_eqb v lv) eqn:E; [|constructor; assumption].
  apply andb_prop in E. destruct E as [_ E]. apply win_eqb_eq in E. subst v.
  inversion Ha as [|? ? Hl Ht]; subst. unfold keyed in *. cbn [fst snd] in *.
  rewrite Hl in Hr. inversion Hr; subst r. constructor; [|exact Ht]. cbn [fst snd].
  rewrite Z.max_id. destruct lr; exact Hl.
Qed.

Lemma merge_sorted_keyed l : Forall keyed l -> Forall keyed (merge_sorted win_eqb l).
Proof.
  intros H. unfold merge_sorted. apply Forall_rev.
  assert (G : forall acc, Forall keyed acc -> Forall keyed (fold_left (merge_step win_eqb) l acc)).
  { induction l as [|e t IH]; intros acc Ha; cbn [fold_left]; [exact Ha|].
    inversion H; subst. apply IH; [assumption|]. apply merge_step_keyed; assumption. }
  apply G. constructor.
Qed.

Lemma win_sorted_disjoint p l t : wf_recs l -> win_table p l = Ret t ->
  StronglySorted (fun a b => snd (fst a) < fst (fst b)) t /\ wf_ranges t /\
  Forall (fun e => win_range (snd e) = Some (fst e)) t.
Proof.
  intros Hwf Ht. destruct (win_table_ok p l Hwf) as (acc & E & K & Hw & Et). rewrite Et in Ht. inversion Ht; subst t.
  destruct (sorted_disjoint_p win_eqb (rev acc) Hw) as [A B]. split; [exact A|]. split; [exact B|].
  apply merge_sorted_keyed. eapply Permutation_Forall; [apply sort_perm|]. apply Forall_rev, K.
Qed.

(* a lookup returns a (possibly shortened) record of the file whose own range contains the address *)
Lemma win_lookup_sound p l t x w : wf_recs l -> win_table p l = Ret t -> rm_get t x = Some w ->
  win_range w = Some (wa w, wa w + ws w - 1) /\ contains (wa w, wa w + ws w - 1) x = true /\
  exists w0, In w0 l /\ wa w0 = wa w /\ wt w0 = wt w /\ 0 < ws w <= ws w0 /\
             (exists r0, win_range w0 = Some r0 /\ contains r0 x = true).
Proof.
  intros Hwf Ht Hg. destruct (win_table_ok p l Hwf) as (acc & E & _ & Hw & Et). rewrite Et in Ht. inversion Ht; subst t.
  destruct (gtable_sound wa ws set_size win_eqb (fun _ _ => eq_refl) (fun _ _ => eq_refl) (fun _ _ _ => eq_refl) win_set_id
              win_eqb_eq PANIC_WIN_SUB PANIC_WIN_UNWRAP p l acc x w (wf_recs_gwf l Hwf) E Hg)
    as (w0 & Hin & Hrg & Hset & Hsz & Hlt & Hx).
  assert (Ha : wa w0 = wa w /\ wt w0 = wt w) by (rewrite Hset; split; reflexivity). destruct Ha as [Ha Htg].
  split; [apply mk_range_some; lia|]. split; [apply contains_span, Hx|].
  exists w0. do 4 (split; [assumption|]).
  unfold grange in Hrg. destruct (mk_range (wa w0) (ws w0)) as [r0|] eqn:Er0; [|congruence].
  exists r0. split; [exact Er0|]. apply mk_range_shape in Er0. destruct Er0 as (-> & _). unfold contains; cbn [fst snd]. lia.
Qed.

(* a record that intersects no other record of its type is found, unshortened, at every address in it *)
Definition apart (r : range) (l : list winrec) : Prop :=
  forall w' r', In w' l -> win_range w' = Some r' -> intersects r r' = false.

Lemma win_isolated_complete p la w lb r t x :
  wf_recs (la ++ w :: lb) -> win_range w = Some r -> apart r (la ++ lb) ->
  win_table p (la ++ w :: lb) = Ret t -> contains r x = true -> rm_get t x = Some w.
Proof.
  intros Hwf Hr Hap Ht Hc. destruct (win_table_ok p _ Hwf) as (acc & E & _ & _ & Et). rewrite Et in Ht. inversion Ht; subst t.
  apply (gtable_isolated wa ws set_size win_eqb (fun _ _ => eq_refl) (fun _ _ => eq_refl) (fun _ _ _ => eq_refl) win_set_id
           win_eqb_eq PANIC_WIN_SUB PANIC_WIN_UNWRAP p la w lb r acc x (wf_recs_gwf _ Hwf) Hr); [| |exact E|exact Hc];
    intros a b Hin; apply Hap, in_or_app; auto.
Qed.
