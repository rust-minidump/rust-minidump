(* C08/SymText.v — the range tables of a symbol file, from its TEXT.
   C09/Grammar.v models SymbolFile::parse byte for byte: the line recognisers ([recog_pst]: FUNC / line records /
   STACK CFI INIT / STACK WIN ...), and SymbolParser::finish ([finish]), which builds the tables with C08's builders
   ([build], [build_p]) and insert_win_stack_info ([win_insert]).  C09 proves that the parse of ANY byte string ends
   with Ok or Err and that finish never panics.  This file composes that with the C08 table theorems:
   for every byte string, every way the reader may chunk it — if the parse is Ok, then in the finished symbol table
     * the FUNC, STACK CFI INIT, STACK WIN frame-data and FPO tables and the line table of every function are sorted
       and non-overlapping;
     * a lookup in any of them returns a record that was written on a line of the text (for STACK WIN: possibly
       shortened by the overlap repair) and whose own address range — address <= x < address + size, no overflow —
       contains the queried address.
   No well-formedness hypothesis is left: the bounds of the numeric fields come from the digit limits of the
   recognisers (C09.ProofsFinish.pst_wf), the provenance of the records from an invariant of the line loop ([prov]). *)
From Coq Require Import Lia ZArith List Bool Sorting.Sorted.
From RM Require Import Base.Word C08.Model C08.Proofs C08.WinProofs C11.Model C09.Model C09.Grammar C09.Driver C09.Proofs
                       C09.ProofsBytes C09.ProofsFinish C09.ProofsFinal.
From RM Require C11.Proofs1.
Import ListNotations.
Open Scope Z_scope.

(* == on the table values is Leibniz equality *)
Lemma st_list_eqb_eq {A} (eqb : A -> A -> bool) :
  (forall a b, eqb a b = true <-> a = b) -> forall a b, C11.Model.list_eqb eqb a b = true <-> a = b.
Proof. exact (C11.Proofs1.list_eqb_eq eqb). Qed.
Lemma st_rle_eqb_eq a : forall b, rle_eqb a b = true <-> a = b.
Proof.
  induction a as [|[x c] a IH]; intros [|[y d] b]; cbn [rle_eqb]; try (split; congruence).
  rewrite !andb_true_iff, !Z.eqb_eq, IH. split; [intros [[-> ->] ->]; reflexivity|intros E; inversion E; auto].
Qed.
Lemma st_line_eqb_eq a b : line_eqb a b = true <-> a = b.
Proof. exact (C11.Proofs1.line_eqb_eq a b). Qed.
Lemma st_inl_eqb_eq a b : inl_eqb a b = true <-> a = b.
Proof. exact (C11.Proofs1.inl_eqb_eq a b). Qed.
Lemma st_rline_eqb_eq a b : rline_eqb a b = true <-> a = b.
Proof. exact (C11.Proofs1.rline_eqb_eq a b). Qed.
Lemma st_rule_eqb_eq a b : rule_eqb a b = true <-> a = b.
Proof. destruct a, b; unfold rule_eqb; cbn. rewrite andb_true_iff, Z.eqb_eq, st_rle_eqb_eq. intuition congruence. Qed.
Lemma st_scfi_eqb_eq a b : scfi_eqb a b = true <-> a = b.
Proof.
  destruct a, b; unfold scfi_eqb; cbn.
  rewrite !andb_true_iff, Z.eqb_eq, st_rule_eqb_eq, (st_list_eqb_eq _ st_rule_eqb_eq). intuition congruence.
Qed.
Lemma st_sfunc_eqb_eq a b : sfunc_eqb a b = true <-> a = b.
Proof.
  destruct a, b; unfold sfunc_eqb; cbn.
  rewrite !andb_true_iff, !Z.eqb_eq, st_rle_eqb_eq, (st_list_eqb_eq _ st_rline_eqb_eq), (st_list_eqb_eq _ st_inl_eqb_eq).
  split; [intros H; decompose [and] H; congruence|intros E; inversion E; tauto].
Qed.
Lemma st_thing_eqb_eq a b : thing_eqb a b = true <-> a = b.
Proof.
  destruct a as [x|x], b as [y|y]; cbn [thing_eqb]; rewrite ?st_rle_eqb_eq, ?Bool.eqb_true_iff; split; congruence.
Qed.
Lemma st_wi_eqb_eq a b : wi_eqb a b = true <-> a = b.
Proof.
  destruct a, b; unfold wi_eqb; cbn. rewrite !andb_true_iff, !Z.eqb_eq, st_thing_eqb_eq.
  split; [intros H; decompose [and] H; congruence|intros E; inversion E; tauto].
Qed.

Lemma st_mk_range_line_arith b s r x : mk_range_line b s = Some r -> contains r x = true ->
  b + s - 1 < two64 /\ b <= x <= b + s - 1.
Proof.
  unfold mk_range_line, checked_add, contains. destruct (b + (s - 1) <? 2 ^ 64) eqn:E1; [|discriminate].
  intros H; inversion H; subst; cbn [fst snd]. intros C.
  apply andb_prop in C. destruct C as [C1 C2]. apply Z.ltb_lt in E1. apply Z.leb_le in C1, C2. rewrite two64_val. lia.
Qed.

Definition sorted_table {V} (t : list (range * V)) : Prop :=
  StronglySorted (fun a b => snd (fst a) < fst (fst b)) t /\ wf_ranges t.

(* the parser-local builder on a well-formed vector: the unwrap is not reached, sorted, lookups sound *)
Lemma st_build_p {V} (eqb : V -> V -> bool) (l t : list (range * V)) :
  (forall a b, eqb a b = true <-> a = b) -> wf_ranges l -> build_p eqb l = Ret t ->
  sorted_table t /\ forall x v, rm_get t x = Some v -> exists r, In (r, v) l /\ contains r x = true.
Proof.
  intros He Hw Hb. rewrite (build_total_p eqb l Hw) in Hb. inversion Hb; subst t. split.
  - exact (sorted_disjoint_p eqb l Hw).
  - intros x v Hg. exact (lookup_sound_p eqb He l x v Hw Hg).
Qed.

Lemma st_finish_func fr r f : fr_wf fr -> finish_func fr = Ret (Some (r, f)) ->
  mk_range (Grammar.fr_addr fr) (Grammar.fr_size fr) = Some r /\
  sf_addr f = Grammar.fr_addr fr /\ sf_size f = Grammar.fr_size fr /\ sf_psize f = Grammar.fr_psize fr /\
  sf_name f = Grammar.fr_name fr /\
  sorted_table (sf_lines f) /\
  forall x l, rm_get (sf_lines f) x = Some l ->
    In l (Grammar.fr_lines fr) /\ 0 < l_size l /\ l_addr l + l_size l - 1 < two64 /\ l_addr l <= x <= l_addr l + l_size l - 1.
Proof.
  intros (A & B & C) H. unfold finish_func in H.
  assert (Hw : wf_entries (line_entries (rev (Grammar.fr_lines fr)))) by (apply line_entries_wf; apply Forall_rev; exact C).
  rewrite (build_total line_eqb _ Hw) in H. cbn [obind] in H.
  destruct (mk_range (Grammar.fr_addr fr) (Grammar.fr_size fr)) as [r0|] eqn:E; inversion H; subst r0 f; clear H.
  cbn [sf_addr sf_size sf_psize sf_name sf_lines]. repeat (split; [reflexivity|]). split.
  - exact (sorted_disjoint line_eqb _ Hw).
  - intros x l Hg. destruct (lookup_sound line_eqb st_line_eqb_eq _ x l Hw Hg) as [rl [Hin Hc]].
    unfold line_entries in Hin. apply in_map_iff in Hin. destruct Hin as [l0 [Hl0 Hf]]. inversion Hl0; subst l0.
    apply filter_In in Hf. destruct Hf as [Hin Hs]. apply in_rev in Hin. apply Z.ltb_lt in Hs.
    split; [exact Hin|]. split; [exact Hs|]. exact (st_mk_range_line_arith _ _ _ _ H0 Hc).
Qed.

Lemma st_finish_funcs l fl : finish_funcs l = Ret fl ->
  forall e, In e fl -> exists fr, In fr l /\ finish_func fr = Ret (Some e).
Proof.
  revert fl. induction l as [|fr t IH]; intros fl H e Hin; cbn [finish_funcs] in H.
  - inversion H; subst. destruct Hin.
  - destruct (finish_func fr) as [x| | |] eqn:E1; cbn [obind] in H; try discriminate.
    destruct (finish_funcs t) as [rest| | |] eqn:E2; cbn [obind] in H; try discriminate.
    inversion H; subst fl; clear H. destruct x as [e0|].
    + destruct Hin as [<-|Hin]; [exists fr; split; [left; reflexivity|exact E1]|].
      destruct (IH rest eq_refl e Hin) as [fr' [A B]]. exists fr'. split; [right; exact A|exact B].
    + destruct (IH rest eq_refl e Hin) as [fr' [A B]]. exists fr'. split; [right; exact A|exact B].
Qed.

Lemma st_keep_somes_in {A} (l : list (option A)) a : In a (keep_somes l) <-> In (Some a) l.
Proof.
  induction l as [|[x|] t IH]; cbn [keep_somes]; [tauto| |].
  - cbn [In]. rewrite IH. split; [intros [->|H]; auto|intros [H|H]; [inversion H; auto|auto]].
  - cbn [In]. rewrite IH. split; [auto|intros [H|H]; [discriminate|exact H]].
Qed.

(* STACK WIN: C09.Grammar.win_insert is the Release instance, at win_info, of the insert_win_stack_info of
   C08/WinProofs.v (a release build wraps the subtraction; `as u32` forgets the wrap) *)
Lemma st_set_size_id w : w = wi_set_size w (wi_size w).
Proof. destruct w; reflexivity. Qed.

Lemma wrap32_mod64 x : wrap32 (x mod 2 ^ 64) = wrap32 x.
Proof.
  unfold wrap32. change (2 ^ 64) with (two32 * two32). rewrite Z.rem_mul_r by (unfold two32; lia).
  rewrite (Z.mul_comm two32), Z_mod_plus_full. apply Z.mod_mod. unfold two32. lia.
Qed.

Lemma win_insert_gen acc w :
  win_insert acc w = ginsert wi_addr wi_size wi_set_size 0 PANIC_WIN_UNWRAP Release acc w.
Proof.
  unfold win_insert, ginsert, chk_sub, chk. change (grange wi_addr wi_size) with wi_range.
  destruct (wi_range w) as [mr|]; [|reflexivity]. destruct acc as [|[lr lw] rest]; [reflexivity|].
  destruct (intersects lr mr); [|reflexivity]. destruct (wi_addr w >? wi_addr lw); [|reflexivity].
  destruct ((0 <=? _) && _); cbn [obind]; rewrite ?wrap32_mod64; reflexivity.
Qed.

Lemma win_collect_gen ws : forall acc,
  win_collect acc ws = do a <- ginsert_all wi_addr wi_size wi_set_size 0 PANIC_WIN_UNWRAP Release ws acc; Ret (rev a).
Proof.
  induction ws as [|w t IH]; intros acc; cbn [win_collect ginsert_all obind]; [reflexivity|].
  rewrite win_insert_gen. destruct (ginsert _ _ _ _ _ _ acc w); cbn [obind]; auto.
Qed.

(* gtable_ok, gtable_sound, gtable_isolated of C08/WinProofs.v at win_info *)
Definition wi_gtable_ok :=
  gtable_ok wi_addr wi_size wi_set_size (fun _ _ => eq_refl) (fun _ _ => eq_refl) (fun _ _ _ => eq_refl)
            (fun w => eq_sym (st_set_size_id w)) 0 PANIC_WIN_UNWRAP Release.
Definition wi_gtable_sound :=
  gtable_sound wi_addr wi_size wi_set_size wi_eqb (fun _ _ => eq_refl) (fun _ _ => eq_refl) (fun _ _ _ => eq_refl)
               (fun w => eq_sym (st_set_size_id w)) st_wi_eqb_eq 0 PANIC_WIN_UNWRAP Release.
Definition wi_gtable_isolated :=
  gtable_isolated wi_addr wi_size wi_set_size wi_eqb (fun _ _ => eq_refl) (fun _ _ => eq_refl) (fun _ _ _ => eq_refl)
                  (fun w => eq_sym (st_set_size_id w)) st_wi_eqb_eq 0 PANIC_WIN_UNWRAP Release.

(* the vector and the table that SymbolParser::finish makes of the records of one type *)
Lemma win_table_gen recs v t : Forall wi_wf recs -> win_collect [] recs = Ret v -> build_p wi_eqb v = Ret t ->
  exists acc, ginsert_all wi_addr wi_size wi_set_size 0 PANIC_WIN_UNWRAP Release recs [] = Ret acc /\
              wf_ranges (rev acc) /\ t = into_rangemap_safe_p wi_eqb (rev acc).
Proof.
  intros Hwf Hc Hb. destruct (wi_gtable_ok recs Hwf) as (acc & E & _ & Hw). exists acc.
  rewrite win_collect_gen, E in Hc. inversion Hc; subst v. rewrite (build_total_p wi_eqb _ Hw) in Hb. inversion Hb. auto.
Qed.

(* one STACK WIN table *)
Definition win_lookup_ok (recs : list win_info) (t : list (range * win_info)) : Prop :=
  sorted_table t /\
  forall x w, rm_get t x = Some w ->
    exists w0, In w0 recs /\ w = wi_set_size w0 (wi_size w) /\ 0 < wi_size w <= wi_size w0 /\
               wi_addr w + wi_size w < two64 /\ wi_addr w <= x < wi_addr w + wi_size w.

Lemma st_win_table recs v t : Forall wi_wf recs -> win_collect [] (rev recs) = Ret v -> build_p wi_eqb v = Ret t ->
  win_lookup_ok recs t.
Proof.
  intros Hwf Hc Hb. apply Forall_rev in Hwf. destruct (win_table_gen _ v t Hwf Hc Hb) as (acc & E & Hw & ->).
  split; [exact (sorted_disjoint_p wi_eqb _ Hw)|].
  intros x w Hg. destruct (wi_gtable_sound _ acc x w Hwf E Hg) as (w0 & Hin & _ & R).
  exists w0. split; [apply in_rev; exact Hin|exact R].
Qed.

Definition func_lookup_ok (frs : list Grammar.func_raw) (t : list (range * sfunc)) : Prop :=
  sorted_table t /\
  (forall r f, In (r, f) t -> sorted_table (sf_lines f)) /\
  forall x f, rm_get t x = Some f ->
    exists fr, In fr frs /\
      sf_addr f = Grammar.fr_addr fr /\ sf_size f = Grammar.fr_size fr /\ sf_psize f = Grammar.fr_psize fr /\
      sf_name f = Grammar.fr_name fr /\
      sf_size f <> 0 /\ sf_addr f + sf_size f < two64 /\ sf_addr f <= x < sf_addr f + sf_size f /\
      sorted_table (sf_lines f) /\
      forall y l, rm_get (sf_lines f) y = Some l ->
        In l (Grammar.fr_lines fr) /\ 0 < l_size l /\ l_addr l + l_size l - 1 < two64 /\
        l_addr l <= y <= l_addr l + l_size l - 1.

Definition cfi_lookup_ok (cs : list cfi_raw) (t : list (range * scfi)) : Prop :=
  sorted_table t /\
  forall x c, rm_get t x = Some c ->
    exists c0, In c0 cs /\ sc_init c = ci_init c0 /\ sc_size c = ci_size c0 /\
      sc_size c <> 0 /\ cr_addr (sc_init c) + sc_size c < two64 /\
      cr_addr (sc_init c) <= x < cr_addr (sc_init c) + sc_size c.

(* the seven steps of SymbolParser::finish, taken apart once *)
Lemma finish_inv p0 t : finish p0 = Ret t ->
  let p := close_cur p0 in
  exists fl wfd wfpo,
    finish_funcs (rev (p_funcs p)) = Ret fl /\ build_p sfunc_eqb fl = Ret (t_funcs t) /\
    build_p scfi_eqb (keep_somes (map finish_cfi (rev (p_cfis p)))) = Ret (t_cfi t) /\
    win_collect [] (rev (p_win_fd p)) = Ret wfd /\ build_p wi_eqb wfd = Ret (t_win_fd t) /\
    win_collect [] (rev (p_win_fpo p)) = Ret wfpo /\ build_p wi_eqb wfpo = Ret (t_win_fpo t).
Proof.
  unfold finish. cbv zeta. intros H.
  destruct (finish_funcs _) as [fl| | |] eqn:E1; cbn [obind] in H; try discriminate.
  destruct (build_p sfunc_eqb fl) as [funcs| | |] eqn:E2; cbn [obind] in H; try discriminate.
  destruct (build_p scfi_eqb _) as [cfis| | |] eqn:E3; cbn [obind] in H; try discriminate.
  destruct (win_collect [] (rev (p_win_fd _))) as [wfd| | |] eqn:E4; cbn [obind] in H; try discriminate.
  destruct (build_p wi_eqb wfd) as [tfd| | |] eqn:E5; cbn [obind] in H; try discriminate.
  destruct (win_collect [] (rev (p_win_fpo _))) as [wfpo| | |] eqn:E6; cbn [obind] in H; try discriminate.
  destruct (build_p wi_eqb wfpo) as [tfpo| | |] eqn:E7; cbn [obind] in H; try discriminate.
  inversion H; subst t. exists fl, wfd, wfpo. cbn [t_funcs t_cfi t_win_fd t_win_fpo]. repeat split; assumption.
Qed.

Lemma st_finish p0 t : pst_wf p0 -> finish p0 = Ret t ->
  let p := close_cur p0 in
  func_lookup_ok (p_funcs p) (t_funcs t) /\ cfi_lookup_ok (p_cfis p) (t_cfi t) /\
  win_lookup_ok (p_win_fd p) (t_win_fd t) /\ win_lookup_ok (p_win_fpo p) (t_win_fpo t).
Proof.
  intros Hwf0 H. cbv zeta. destruct (finish_inv p0 t H) as (fl & wfd & wfpo & E1 & E2 & E3 & E4 & E5 & E6 & E7).
  destruct (close_cur_wf p0 Hwf0) as [Hwf _]. set (p := close_cur p0) in *.
  destruct Hwf as (_ & Hf & Hc & Hfd & Hfpo).
  revert E2 E3 E5 E7. generalize (t_funcs t), (t_cfi t), (t_win_fd t), (t_win_fpo t). intros funcs cfis tfd tfpo E2 E3 E5 E7.
  split; [|split; [|split; [exact (st_win_table _ _ _ Hfd E4 E5)|exact (st_win_table _ _ _ Hfpo E6 E7)]]].
  - (* FUNC *)
    assert (Hfl : forall e, In e fl -> exists fr, In fr (p_funcs p) /\ fr_wf fr /\ finish_func fr = Ret (Some e)).
    { intros e He. destruct (st_finish_funcs _ _ E1 e He) as [fr [A B]]. apply in_rev in A.
      exists fr. split; [exact A|]. split; [|exact B]. rewrite Forall_forall in Hf. exact (Hf fr A). }
    assert (Hwfl : wf_ranges fl).
    { unfold wf_ranges. rewrite Forall_forall. intros [r f] He. destruct (Hfl _ He) as [fr [_ [W B]]].
      destruct (st_finish_func fr r f W B) as [Hr _]. destruct W as (A1 & A2 & _). cbn [fst]. exact (mk_range_wf _ _ _ A1 A2 Hr). }
    destruct (st_build_p sfunc_eqb fl funcs st_sfunc_eqb_eq Hwfl E2) as [Hs Hl].
    assert (Hval : forall r f, In (r, f) funcs -> exists r', In (r', f) fl).
    { intros r f Hin. rewrite (build_total_p sfunc_eqb fl Hwfl) in E2. inversion E2; subst funcs.
      exact (table_value_in sfunc_eqb st_sfunc_eqb_eq fl r f Hwfl Hin). }
    split; [exact Hs|]. split.
    + intros r f Hin. destruct (Hval r f Hin) as [r' Hin']. destruct (Hfl _ Hin') as [fr [_ [W B]]].
      destruct (st_finish_func fr r' f W B) as (_ & _ & _ & _ & _ & S & _). exact S.
    + intros x f Hg. destruct (Hl x f Hg) as [r [Hin Hcx]]. destruct (Hfl _ Hin) as [fr [A [W B]]].
      destruct (st_finish_func fr r f W B) as (Hr & F1 & F2 & F3 & F4 & S & L).
      exists fr. split; [exact A|]. split; [exact F1|]. split; [exact F2|]. split; [exact F3|]. split; [exact F4|].
      rewrite F1, F2. destruct (mk_range_contains _ _ _ _ Hr Hcx) as (N & O & C).
      split; [exact N|]. split; [exact O|]. split; [exact C|]. split; [exact S|exact L].
  - (* STACK CFI INIT *)
    assert (Hcl : forall r c, In (r, c) (keep_somes (map finish_cfi (rev (p_cfis p)))) ->
                  exists c0, In c0 (p_cfis p) /\ mk_range (cr_addr (ci_init c0)) (ci_size c0) = Some r /\
                             sc_init c = ci_init c0 /\ sc_size c = ci_size c0).
    { intros r c Hin. apply st_keep_somes_in in Hin. apply in_map_iff in Hin. destruct Hin as [c0 [Hfc Hin]].
      apply in_rev in Hin. exists c0. split; [exact Hin|]. unfold finish_cfi in Hfc.
      destruct (mk_range (cr_addr (ci_init c0)) (ci_size c0)) as [r0|]; [|discriminate]. inversion Hfc; subst.
      cbn [sc_init sc_size]. auto. }
    assert (Hw : wf_ranges (keep_somes (map finish_cfi (rev (p_cfis p))))) by (apply finish_cfis_wf; apply Forall_rev; exact Hc).
    destruct (st_build_p scfi_eqb _ cfis st_scfi_eqb_eq Hw E3) as [Hs Hl]. split; [exact Hs|].
    intros x c Hg. destruct (Hl x c Hg) as [r [Hin Hcx]]. destruct (Hcl r c Hin) as [c0 [A [Hr [I1 I2]]]].
    exists c0. split; [exact A|]. split; [exact I1|]. split; [exact I2|]. rewrite I1, I2.
    exact (mk_range_contains _ _ _ _ Hr Hcx).
Qed.

(* provenance: every record the parser holds was
   recognised on a line of the text *)
Section Prov.
Variable ls : list rle.

Definition func_from (fr : Grammar.func_raw) : Prop :=
  (exists s f0, In s ls /\ line_top s = Some (IFunc f0) /\
     Grammar.fr_addr fr = Grammar.fr_addr f0 /\ Grammar.fr_size fr = Grammar.fr_size f0 /\
     Grammar.fr_psize fr = Grammar.fr_psize f0 /\ Grammar.fr_name fr = Grammar.fr_name f0) /\
  Forall (fun l => exists s, In s ls /\ sub_func s = Some (SLine l)) (Grammar.fr_lines fr).
Definition cfi_from (c : cfi_raw) : Prop :=
  exists s c0, In s ls /\ line_top s = Some (ICfiInit c0) /\ ci_init c = ci_init c0 /\ ci_size c = ci_size c0.
Definition fd_from (i : win_info) : Prop := exists s, In s ls /\ line_top s = Some (IWin (FrameData i)).
Definition fpo_from (i : win_info) : Prop := exists s, In s ls /\ line_top s = Some (IWin (Fpo i)).

Definition prov (p : pst) : Prop :=
  match p_cur p with CFunc f => func_from f | CCfi c => cfi_from c | CNone => True end /\
  Forall func_from (p_funcs p) /\ Forall cfi_from (p_cfis p) /\
  Forall fd_from (p_win_fd p) /\ Forall fpo_from (p_win_fpo p).

Lemma prov_init : prov init_pst.
Proof. unfold prov, init_pst; cbn. auto. Qed.

Lemma prov_bump p : prov p -> prov (bump_pst p).
Proof. unfold prov, bump_pst, set_lines_cur; cbn. auto. Qed.

Lemma prov_close p : prov p -> prov (close_cur p).
Proof.
  unfold prov, close_cur. intros (Hc & Hf & Hci & Hfd & Hfpo).
  destruct (p_cur p) as [|f|c] eqn:E; [rewrite E; auto| |]; cbn; auto.
Qed.

Lemma prov_top p s p' : In s ls -> prov p -> top p s = inl p' -> prov p'.
Proof.
  unfold prov, top. intros Hin (_ & Hf & Hci & Hfd & Hfpo) H.
  destruct (eol s); [inversion H; subst; cbn; auto|].
  destruct (line_top s) as [it|] eqn:E; [|discriminate].
  pose proof (line_top_wf s it E) as Hwf.
  (* only a FUNC, STACK WIN or STACK CFI INIT line adds a record, and it is the one read from [s] *)
  destruct it as [id f|u| |id nm|id nm|pb|f|[i|i|]|c]; cbn in Hwf; [destruct (p_lines p =? 0); [|discriminate]|..];
    inversion H; subst; cbn; try (repeat split; auto; fail).
  - (* FUNC: the open item is the record of [s], without lines yet *)
    split; [|auto]. split; [exists s, f; auto 10|]. destruct Hwf as [_ Hl]. rewrite Hl. constructor.
  - (* STACK WIN frame data *) repeat split; auto. constructor; auto. exists s; auto.
  - (* STACK WIN FPO *) repeat split; auto. constructor; auto. exists s; auto.
  - (* STACK CFI INIT *) split; [|auto]. exists s, c. auto.
Qed.

Lemma prov_recog p s p' : In s ls -> prov p -> recog_pst p s = inl p' -> prov p'.
Proof.
  intros Hin Hp H. unfold recog_pst in H. pose proof (prov_close p Hp) as Hcl.
  pose proof Hp as (Hc & Hf & Hci & Hfd & Hfpo).
  destruct (p_cur p) as [|f|c] eqn:Ec.
  - exact (prov_top p s p' Hin Hp H).
  - (* a sub-line of the open FUNC keeps its header; a line record joins its lines *)
    destruct Hc as [A B].
    destruct (sub_func s) as [[id nm|l|l]|] eqn:Es; [| | |eapply prov_top; eassumption];
      inversion H; subst; unfold prov; cbn; (split; [split; [exact A|]|auto]); try exact B.
    constructor; [exists s; auto|exact B].
  - destruct (sub_cfi s); [inversion H; subst; unfold prov; cbn; auto|eapply prov_top; eassumption].
Qed.

Lemma prov_replay : forall (ds : list (bool * rle)) p p',
  incl (map snd ds) ls -> prov p ->
  replay rle pst recog_pst bump_pst lineno_pst p ds = inl p' -> prov p'.
Proof.
  induction ds as [|[b l] t IH]; intros p p' Hi Hp H.
  - cbn in H. inversion H; subst. exact Hp.
  - cbn [replay] in H. cbn [map snd] in Hi. destruct b.
    + eapply IH; [|apply prov_bump; exact Hp|exact H]. intros a Ha. apply Hi. right. exact Ha.
    + destruct (recog_pst p l) as [p1|c] eqn:E; [|discriminate].
      eapply IH; [| |exact H]; [intros a Ha; apply Hi; right; exact Ha|].
      eapply prov_recog; [apply Hi; left; reflexivity|exact Hp|exact E].
Qed.
End Prov.

(* the parser state an Ok parse ends in *)
Lemma st_final_prov lines tail sch p s :
  drive_c lines tail sch = Ret (ROk p, s) -> pst_wf p /\ prov lines p.
Proof.
  intros H. destruct (final_pst_wf lines tail sch (ROk p) s H) as [W _].
  unfold drive_c in H.
  destruct (drive_shape rle cllen pst init_pst recog_pst bump_pst lineno_pst cllen_pos lines tail sch (ROk p) s H)
    as [ds [_ [Hl [Hr [Hp _]]]]]. subst p. split; [exact W|].
  eapply prov_replay; [|apply prov_init|exact Hr]. rewrite Hl. intros a Ha. apply in_or_app. left. exact Ha.
Qed.

(* a FUNC / STACK CFI INIT / STACK WIN line of the text, with the fields the recogniser read from it *)
Definition func_line (lines : list rle) (a sz psz : Z) (nm : rle) : Prop :=
  exists s f0, In s lines /\ line_top s = Some (IFunc f0) /\
    Grammar.fr_addr f0 = a /\ Grammar.fr_size f0 = sz /\ Grammar.fr_psize f0 = psz /\ Grammar.fr_name f0 = nm.
Definition line_line (lines : list rle) (l : line_rec) : Prop :=
  exists s, In s lines /\ sub_func s = Some (SLine l).
Definition cfi_line (lines : list rle) (init : cfi_rule) (sz : Z) : Prop :=
  exists s c0, In s lines /\ line_top s = Some (ICfiInit c0) /\ ci_init c0 = init /\ ci_size c0 = sz.
Definition win_line (fd : bool) (lines : list rle) (w0 : win_info) : Prop :=
  exists s, In s lines /\ line_top s = Some (IWin (if fd then FrameData w0 else Fpo w0)).

Definition win_table_sound (fd : bool) (lines : list rle) (t : list (range * win_info)) : Prop :=
  sorted_table t /\
  forall x w, rm_get t x = Some w ->
    exists w0, win_line fd lines w0 /\ w = wi_set_size w0 (wi_size w) /\ 0 < wi_size w <= wi_size w0 /\
               wi_addr w + wi_size w < two64 /\ wi_addr w <= x < wi_addr w + wi_size w.

Definition tables_sound (lines : list rle) (t : table) : Prop :=
  (* FUNC table and the line table of every function in it *)
  (sorted_table (t_funcs t) /\
   (forall r f, In (r, f) (t_funcs t) -> sorted_table (sf_lines f)) /\
   forall x f, rm_get (t_funcs t) x = Some f ->
     func_line lines (sf_addr f) (sf_size f) (sf_psize f) (sf_name f) /\
     sf_size f <> 0 /\ sf_addr f + sf_size f < two64 /\ sf_addr f <= x < sf_addr f + sf_size f /\
     forall y l, rm_get (sf_lines f) y = Some l ->
       line_line lines l /\ 0 < l_size l /\ l_addr l + l_size l - 1 < two64 /\ l_addr l <= y <= l_addr l + l_size l - 1) /\
  (* STACK CFI INIT table *)
  (sorted_table (t_cfi t) /\
   forall x c, rm_get (t_cfi t) x = Some c ->
     cfi_line lines (sc_init c) (sc_size c) /\
     sc_size c <> 0 /\ cr_addr (sc_init c) + sc_size c < two64 /\
     cr_addr (sc_init c) <= x < cr_addr (sc_init c) + sc_size c) /\
  (* STACK WIN tables *)
  win_table_sound true lines (t_win_fd t) /\ win_table_sound false lines (t_win_fpo t).

Lemma st_tables_sound lines p t : pst_wf p -> prov lines p -> finish p = Ret t -> tables_sound lines t.
Proof.
  intros W P H. pose proof (prov_close lines p P) as Pc.
  destruct (st_finish p t W H) as ((F1 & F2 & F3) & (C1 & C2) & (D1 & D2) & (O1 & O2)).
  destruct Pc as (_ & Pf & Pci & Pfd & Pfpo). rewrite Forall_forall in Pf, Pci, Pfd, Pfpo.
  split; [|split; [|split]].
  - split; [exact F1|]. split; [exact F2|]. intros x f Hg.
    destruct (F3 x f Hg) as (fr & Hin & A1 & A2 & A3 & A4 & N & O & C & _ & L).
    destruct (Pf fr Hin) as [(s & f0 & Hs & Ht & B1 & B2 & B3 & B4) Hl].
    split; [exists s, f0; repeat split; congruence|]. split; [exact N|]. split; [exact O|]. split; [exact C|].
    intros y l Hy. destruct (L y l Hy) as (Li & L1 & L2 & L3). split; [|auto].
    rewrite Forall_forall in Hl. exact (Hl l Li).
  - split; [exact C1|]. intros x c Hg. destruct (C2 x c Hg) as (c0 & Hin & I1 & I2 & N & O & C).
    destruct (Pci c0 Hin) as (s & c1 & Hs & Ht & B1 & B2). split; [exists s, c1; repeat split; congruence|auto].
  - split; [exact D1|]. intros x w Hg. destruct (D2 x w Hg) as (w0 & Hin & R). exists w0. split; [|exact R].
    destruct (Pfd w0 Hin) as (s & Hs & Ht). exists s. auto.
  - split; [exact O1|]. intros x w Hg. destruct (O2 x w Hg) as (w0 & Hin & R). exists w0. split; [|exact R].
    destruct (Pfpo w0 Hin) as (s & Hs & Ht). exists s. auto.
Qed.

(* for every (lines, rest) input and every reader schedule *)
Lemma text_tables_sound lines tail sch p s :
  drive_c lines tail sch = Ret (ROk p, s) ->
  exists t, table_of (ROk p) = Ret (Some t) /\ tables_sound lines t.
Proof.
  intros H. destruct (st_final_prov lines tail sch p s H) as [W P].
  destruct (finish_total p W) as [t Ht]. exists t. split; [cbn [table_of]; rewrite Ht; reflexivity|].
  exact (st_tables_sound lines p t W P Ht).
Qed.
