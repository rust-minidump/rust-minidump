(* C08/SymTextC.v — completeness of the FUNC and the STACK CFI INIT table of a symbol file, from its TEXT.
   If no complete line of the text is longer than 80 KiB (such a line would be dropped as corrupt) and the parse is Ok,
   then a FUNC (STACK CFI INIT) line whose address range intersects the range of no OTHER line of its kind is returned
   by `functions.get(x)` (`cfi_stack_info.get(x)`) for every address x in its range, with the fields written on it.
   Pieces: a FUNC / STACK CFI INIT / STACK WIN line is never taken for a sub-line of the open group and never for a
   blank line ([ranged_line_is_top]; not for a `STACK CFI` delta line either: after "STACK CFI " comes "INIT", which
   is no hex address); hence what the parser holds of each kind is, in file order, exactly the lines of that kind
   ([held_fold]); finish_item keeps header and range ([finish_funcs_hdrs], [finish_cfis_hdrs]); C08's isolated-entry
   theorem for the parser-local builder does the rest ([ranged_isolated]). *)
From Coq Require Import Lia ZArith List Bool Sorting.Sorted.
From RM Require Import Base.Word C08.Model C08.Proofs C11.Model C09.Model C09.Grammar C09.Driver C09.Proofs
                       C09.ProofsBytes C09.ProofsFinish C09.ProofsFinal C08.SymText.
Import ListNotations.
Open Scope Z_scope.

Definition hd_byte (s : rle) : option Z := match s with (b, _) :: _ => Some b | [] => None end.

Lemma uncons_hd s b s' : uncons s = Some (b, s') -> hd_byte s = Some b.
Proof.
  destruct s as [|[b0 c] t]; cbn [uncons hd_byte]; [discriminate|].
  destruct (c <=? 1); intros H; inversion H; reflexivity.
Qed.

Lemma hd_uncons s b : hd_byte s = Some b -> exists s', uncons s = Some (b, s').
Proof.
  destruct s as [|[b0 c] t]; cbn [hd_byte uncons]; [discriminate|]. intros H; inversion H; subst.
  destruct (c <=? 1); eexists; reflexivity.
Qed.

Lemma tag_cons x bs s s' : tag (x :: bs) s = Some s' ->
  exists s1, uncons s = Some (x, s1) /\ tag bs s1 = Some s'.
Proof.
  cbn [tag]. destruct (uncons s) as [[b s1]|] eqn:E; [|discriminate].
  destruct (b =? x) eqn:Eb; [|discriminate]. apply Z.eqb_eq in Eb. subst b. intros H. exists s1. auto.
Qed.

Lemma tag_hd s x bs s' : tag (x :: bs) s = Some s' -> hd_byte s = Some x.
Proof. intros H. apply tag_cons in H. destruct H as [s1 [U _]]. exact (uncons_hd _ _ _ U). Qed.

Lemma tag_hd_ne x y bs s : hd_byte s = Some y -> x <> y -> tag (x :: bs) s = None.
Proof.
  intros Hh Hne. destruct (tag (x :: bs) s) eqn:E; [|reflexivity]. apply tag_hd in E. congruence.
Qed.

Lemma tag_app a : forall b s, tag (a ++ b) s = match tag a s with Some s1 => tag b s1 | None => None end.
Proof.
  induction a as [|x a IH]; intros b s; cbn [app tag]; [reflexivity|].
  destruct (uncons s) as [[y s1]|]; [|reflexivity]. destruct (y =? x); [apply IH|reflexivity].
Qed.

(* a run of blanks followed by a byte that is not a blank: space1 stops in front of it *)
Lemma space1_then s sa b : uncons s = Some (32, sa) -> hd_byte sa = Some b -> is_sp b = false -> space1 s = Some sa.
Proof.
  destruct s as [|[b0 c] t]; cbn [uncons]; [discriminate|]. intros U Hh Hb.
  destruct (c <=? 1); inversion U; subst b0 sa.
  - cbn [space1]. unfold is_sp at 1. cbn. f_equal. destruct t as [|[b1 c1] t1]; [discriminate|].
    cbn [hd_byte] in Hh. inversion Hh; subst b1. cbn [skip_while]. rewrite Hb. reflexivity.
  - cbn [hd_byte] in Hh. inversion Hh; subst b. discriminate Hb.
Qed.

Lemma hex64sp_nonhex s b : hd_byte s = Some b -> hexval b = None -> hex64sp s = None.
Proof.
  intros Hh Hv. destruct (hd_uncons s b Hh) as [s' U]. unfold hex64sp, hex_str. cbn [digits]. rewrite U, Hv. reflexivity.
Qed.

Lemma eol_hd s b : hd_byte s = Some b -> is_cr b = false -> eol s = false.
Proof.
  destruct s as [|[b0 c] t]; cbn [hd_byte]; [discriminate|]. intros H Hb; inversion H; subst b0.
  unfold eol. cbn [skip_while]. rewrite Hb. reflexivity.
Qed.

(* a line that starts with 'S' is no sub-line of a FUNC: not INLINE..., and 'S' is no hex digit *)
Lemma sub_func_S s : hd_byte s = Some 83 -> sub_func s = None.
Proof.
  intros H0. unfold sub_func, T_INLINE_ORIGIN_SP, T_INLINE_SP. rewrite !(tag_hd_ne 73 83 _ s H0) by lia.
  unfold sub_line_data. rewrite (hex64sp_nonhex s 83 H0 eq_refl). reflexivity.
Qed.

(* which parser of the alternation produced the item *)
Definition kind_ok (s : rle) (it : item) : Prop :=
  match it with
  | IFunc _ => p_func s = POk it
  | ICfiInit _ => p_stack_cfi_init s = POk it
  | IWin _ => p_stack_win s = POk it
  | _ => True
  end.

Lemma alt_ok ps s it : alt ps s = Some it -> exists p, In p ps /\ p s = POk it.
Proof.
  induction ps as [|p t IH]; cbn [alt]; [discriminate|]. destruct (p s) eqn:E; try discriminate.
  - intros H. destruct (IH H) as [q [Hq Hs]]. exists q. split; [right; exact Hq|exact Hs].
  - intros H; inversion H; subst. exists p. split; [left; reflexivity|exact E].
Qed.

(* every parser of the alternation builds items of its own constructor only *)
Lemma line_top_kind s it : line_top s = Some it -> kind_ok s it.
Proof.
  intros H. apply alt_ok in H. destruct H as [p [Hin Hp]]. pose proof Hp as Hp'.
  repeat (destruct Hin as [<-|Hin]); [..|destruct Hin];
    unfold p_info_url, p_info, p_file, p_inline_origin, p_public, p_func, p_stack_win, p_stack_cfi_init, p_module,
           cutp, guard in Hp'; cbv zeta in Hp'; crack; first [exact I|exact Hp].
Qed.

Lemma func_line_is_top s f : line_top s = Some (IFunc f) ->
  eol s = false /\ sub_func s = None /\ sub_cfi s = None.
Proof.
  intros H. apply line_top_kind in H. cbn [kind_ok] in H. unfold p_func, hdr, T_FUNC in H.
  destruct (tag [70; 85; 78; 67] s) as [s'|] eqn:E; [|discriminate]. clear H.
  pose proof (tag_hd _ _ _ _ E) as H0. apply tag_cons in E. destruct E as [s1 [U E]]. apply tag_hd in E.
  split; [exact (eol_hd s 70 H0 eq_refl)|]. split.
  - unfold sub_func, T_INLINE_ORIGIN_SP, T_INLINE_SP. rewrite !(tag_hd_ne 73 70 _ s H0) by lia.
    (* the line is not a line record: "F" is one hex digit, "U" is neither a hex digit nor a blank *)
    destruct (hd_uncons s1 85 E) as [s2 U2].
    assert (Hx : hex_str 16 s = Some (15, s1)).
    { unfold hex_str. change 16%nat with (S (S 14)). cbn [digits]. rewrite U. change (hexval 70) with (Some 15).
      cbn iota beta. rewrite U2. change (hexval 85) with (@None Z). cbn iota beta. reflexivity. }
    unfold sub_line_data, hex64sp. rewrite Hx. unfold osp.
    destruct s1 as [|[b c] t]; [discriminate|]. cbn [hd_byte] in E. inversion E; subst b.
    cbn [space1]. change (is_sp 85) with false. cbn iota. reflexivity.
  - unfold sub_cfi, hdr, T_STACK_CFI. rewrite (tag_hd_ne 83 70 _ s H0) by lia. reflexivity.
Qed.

Lemma cfi_line_is_top s c : line_top s = Some (ICfiInit c) ->
  eol s = false /\ sub_func s = None /\ sub_cfi s = None.
Proof.
  intros H. apply line_top_kind in H. cbn [kind_ok] in H. unfold p_stack_cfi_init, hdr in H.
  destruct (tag T_STACK_CFI_INIT s) as [s'|] eqn:E; [|discriminate]. clear H.
  change T_STACK_CFI_INIT with (T_STACK_CFI ++ [32; 73; 78; 73; 84]) in E. rewrite tag_app in E.
  destruct (tag T_STACK_CFI s) as [s9|] eqn:E9; [|discriminate].
  pose proof (tag_hd _ _ _ _ E9) as H0.
  apply tag_cons in E. destruct E as [sa [Ua Ta]]. apply tag_hd in Ta.
  split; [exact (eol_hd s 83 H0 eq_refl)|]. split; [exact (sub_func_S s H0)|].
  unfold sub_cfi, hdr. rewrite E9. rewrite (space1_then s9 sa 73 Ua Ta eq_refl).
  rewrite (hex64sp_nonhex sa 73 Ta eq_refl). reflexivity.
Qed.

Lemma win_line_is_top s w : line_top s = Some (IWin w) ->
  eol s = false /\ sub_func s = None /\ sub_cfi s = None.
Proof.
  intros H. apply line_top_kind in H. cbn [kind_ok] in H. unfold p_stack_win, hdr in H.
  destruct (tag T_STACK_WIN s) as [s'|] eqn:Et; [|discriminate]. clear H.
  change T_STACK_WIN with ([83; 84; 65; 67; 75; 32] ++ [87; 73; 78]) in Et. rewrite tag_app in Et.
  destruct (tag [83; 84; 65; 67; 75; 32] s) as [s6|] eqn:E6; [|discriminate].
  pose proof (tag_hd _ _ _ _ E6) as H0. apply tag_hd in Et.
  split; [exact (eol_hd s 83 H0 eq_refl)|]. split; [exact (sub_func_S s H0)|].
  unfold sub_cfi, hdr. change T_STACK_CFI with ([83; 84; 65; 67; 75; 32] ++ [67; 70; 73]).
  rewrite tag_app, E6. rewrite (tag_hd_ne 67 87 _ s6 Et) by lia. reflexivity.
Qed.

(* what the parser holds = the lines, per kind *)
Definition fhdr : Type := (Z * Z * Z * rle)%type.
Definition hdr_raw (f : Grammar.func_raw) : fhdr :=
  (Grammar.fr_addr f, Grammar.fr_size f, Grammar.fr_psize f, Grammar.fr_name f).
Definition hdr_sf (f : sfunc) : fhdr := (sf_addr f, sf_size f, sf_psize f, sf_name f).
Definition hdr_range (h : fhdr) : option range := let '(a, sz, _, _) := h in mk_range a sz.

Definition chdr : Type := (cfi_rule * Z)%type.
Definition chdr_raw (c : cfi_raw) : chdr := (ci_init c, ci_size c).
Definition chdr_sc (c : scfi) : chdr := (sc_init c, sc_size c).
Definition chdr_range (h : chdr) : option range := mk_range (cr_addr (fst h)) (snd h).

(* latest first: the open item, then the finished ones *)
Definition allfuncs (p : pst) : list Grammar.func_raw :=
  (match p_cur p with CFunc f => [f] | _ => [] end) ++ p_funcs p.
Definition allcfis (p : pst) : list cfi_raw :=
  (match p_cur p with CCfi c => [c] | _ => [] end) ++ p_cfis p.

(* what the parser holds of each kind that gets a range table, latest first *)
Record held4 := mkH { h_func : list fhdr; h_cfi : list chdr; h_fd : list win_info; h_fpo : list win_info }.
Definition hnil : held4 := mkH [] [] [] [].
Definition happ (a b : held4) : held4 :=
  mkH (h_func a ++ h_func b) (h_cfi a ++ h_cfi b) (h_fd a ++ h_fd b) (h_fpo a ++ h_fpo b).
Definition held (p : pst) : held4 := mkH (map hdr_raw (allfuncs p)) (map chdr_raw (allcfis p)) (p_win_fd p) (p_win_fpo p).
(* what a line adds when the top-level parser sees it *)
Definition line_held (s : rle) : held4 :=
  match line_top s with
  | Some (IFunc f) => mkH [hdr_raw f] [] [] []
  | Some (ICfiInit c) => mkH [] [chdr_raw c] [] []
  | Some (IWin (FrameData i)) => mkH [] [] [i] []
  | Some (IWin (Fpo i)) => mkH [] [] [] [i]
  | _ => hnil
  end.
Fixpoint lines_held (ls : list rle) : held4 :=
  match ls with [] => hnil | s :: t => happ (lines_held t) (line_held s) end.

Lemma line_held_sub s : eol s = true \/ sub_func s <> None \/ sub_cfi s <> None -> line_held s = hnil.
Proof.
  intros H. unfold line_held. destruct (line_top s) as [[| | | | | |f|w|c]|] eqn:E; try reflexivity.
  - apply func_line_is_top in E. destruct E as (A & B & C). destruct H as [H|[H|H]]; congruence.
  - apply win_line_is_top in E. destruct E as (A & B & C). destruct H as [H|[H|H]]; congruence.
  - apply cfi_line_is_top in E. destruct E as (A & B & C). destruct H as [H|[H|H]]; congruence.
Qed.

Lemma held_close p : held (close_cur p) = held p /\ p_cur (close_cur p) = CNone.
Proof. unfold held, allfuncs, allcfis, close_cur. destruct (p_cur p) eqn:E; cbn; rewrite ?E; auto. Qed.

(* every arm of the top-level parser pushes what [line_held] says and nothing else *)
Lemma held_top p s p' : p_cur p = CNone -> top p s = inl p' -> held p' = happ (line_held s) (held p).
Proof.
  intros Hc H. unfold top in H. destruct (eol s) eqn:Ee.
  { rewrite line_held_sub by auto. inversion H; subst. unfold held, allfuncs, allcfis. cbn. rewrite Hc. reflexivity. }
  unfold held, line_held, allfuncs, allcfis.
  destruct (line_top s) as [[id f|u| |id nm|id nm|pb|f|[i|i|]|c]|]; [destruct (p_lines p =? 0)|..]; try discriminate;
    inversion H; subst; cbn; rewrite Hc; reflexivity.
Qed.

(* a sub-line changes the open item only behind its header; any other line closes it and goes to [top] *)
Lemma held_recog p s p' : recog_pst p s = inl p' -> held p' = happ (line_held s) (held p).
Proof.
  unfold recog_pst. destruct (held_close p) as [Hcl Hcn]. destruct (p_cur p) as [|f|c] eqn:Ec.
  - apply held_top. exact Ec.
  - destruct (sub_func s) as [[id nm|l|l]|] eqn:Es;
      [| | |intros H; rewrite (held_top _ s p' Hcn H), Hcl; reflexivity];
      intros H; inversion H; subst; (rewrite line_held_sub by (right; left; congruence));
      unfold held, allfuncs, allcfis; cbn; rewrite Ec; reflexivity.
  - destruct (sub_cfi s) as [r|] eqn:Es; [|intros H; rewrite (held_top _ s p' Hcn H), Hcl; reflexivity].
    intros H; inversion H; subst. rewrite line_held_sub by (right; right; congruence).
    unfold held, allfuncs, allcfis; cbn; rewrite Ec; reflexivity.
Qed.

Lemma held_fold : forall ls p p',
  fold_recog rle pst recog_pst lineno_pst p ls = inl p' -> held p' = happ (lines_held ls) (held p).
Proof.
  induction ls as [|s t IH]; intros p p' H; cbn [fold_recog lines_held] in *.
  - inversion H; subst. destruct (held p'). reflexivity.
  - destruct (recog_pst p s) as [p1|c] eqn:E; [|discriminate].
    rewrite (IH p1 p' H), (held_recog p s p1 E). unfold happ; cbn. rewrite !app_assoc. reflexivity.
Qed.

(* ... which is, kind by kind, the lines of that kind in file order *)
Lemma lines_held_rev ls :
  h_func (lines_held ls) = rev (flat_map (fun s => h_func (line_held s)) ls) /\
  h_cfi (lines_held ls) = rev (flat_map (fun s => h_cfi (line_held s)) ls) /\
  h_fd (lines_held ls) = rev (flat_map (fun s => h_fd (line_held s)) ls) /\
  h_fpo (lines_held ls) = rev (flat_map (fun s => h_fpo (line_held s)) ls).
Proof.
  induction ls as [|s t (A & B & C & D)]; cbn [lines_held flat_map happ h_func h_cfi h_fd h_fpo]; [auto|].
  rewrite A, B, C, D, !rev_app_distr.
  unfold line_held; destruct (line_top s) as [[| | | | | | |[| |]|]|]; repeat split; reflexivity.
Qed.

(* an Ok parse of short lines: the state is well-formed and holds the lines; finish succeeds *)
Lemma ok_parse_held lines tail sch p s :
  Forall (fun l => cllen l <= HALF_CAP) lines -> drive_c lines tail sch = Ret (ROk p, s) ->
  pst_wf p /\ held p = lines_held lines /\ exists t, finish p = Ret t /\ table_of (ROk p) = Ret (Some t).
Proof.
  intros Hshort H. destruct (st_final_prov lines tail sch p s H) as [W _]. split; [exact W|]. split.
  - pose proof (ok_is_fold rle cllen pst init_pst recog_pst bump_pst lineno_pst cllen_pos lines tail sch p s Hshort H) as Hf.
    apply held_fold in Hf. rewrite Hf. destruct (lines_held lines). unfold happ. cbn. rewrite !app_nil_r. reflexivity.
  - destruct (finish_total p W) as [t Ht]. exists t. split; [exact Ht|]. cbn [table_of]. rewrite Ht. reflexivity.
Qed.

(* [ent]: the vector handed to the builder; its entries carry, in order, the headers [hs] that have a range *)
Section Ranged.
Context {V H : Type} (eqb : V -> V -> bool) (hd : V -> H) (rng : H -> option range).
Hypothesis eqb_eq : forall a b, eqb a b = true <-> a = b.

Definition ranged (h : H) : list (range * H) := match rng h with Some r => [(r, h)] | None => [] end.

Lemma ranged_in r h hs : In (r, h) (flat_map ranged hs) -> In h hs /\ rng h = Some r.
Proof.
  intros Hin. apply in_flat_map in Hin. destruct Hin as [h' [Hh Hr]]. unfold ranged in Hr.
  destruct (rng h') eqn:E; [|destruct Hr]. destruct Hr as [Hr|[]]. inversion Hr; subst. auto.
Qed.

Lemma ranged_isolated (ent : list (range * V)) h1 h0 h2 r x :
  map (fun e => (fst e, hd (snd e))) ent = flat_map ranged (h1 ++ h0 :: h2) -> wf_ranges ent ->
  rng h0 = Some r -> (forall h' r', In h' (h1 ++ h2) -> rng h' = Some r' -> intersects r r' = false) ->
  contains r x = true ->
  exists v, rm_get (into_rangemap_safe_p eqb ent) x = Some v /\ hd v = h0.
Proof.
  intros Hmap Hwf Hr Hiso Hx. rewrite flat_map_app in Hmap. cbn [flat_map] in Hmap. unfold ranged at 2 in Hmap.
  rewrite Hr in Hmap. cbn [app] in Hmap.
  apply map_eq_app in Hmap. destruct Hmap as (l1 & l2' & -> & M1 & M2).
  apply map_eq_cons in M2. destruct M2 as ([r0 v] & l2 & -> & He & M2). cbn [fst snd] in He. inversion He; subst r0.
  exists v. split; [|reflexivity]. apply (isolated_complete_p eqb eqb_eq l1 r v l2 x Hwf); [|exact Hx].
  intros r' v' Hin. apply (in_map (fun e => (fst e, hd (snd e)))) in Hin. rewrite map_app, M1, M2, <- flat_map_app in Hin.
  apply ranged_in in Hin. destruct Hin. eauto.
Qed.
End Ranged.

Lemma finish_funcs_hdrs : forall l fl, finish_funcs l = Ret fl ->
  map (fun e => (fst e, hdr_sf (snd e))) fl = flat_map (ranged hdr_range) (map hdr_raw l).
Proof.
  induction l as [|fr t IH]; intros fl H; cbn [finish_funcs] in H.
  - inversion H; subst. reflexivity.
  - destruct (finish_func fr) as [x| | |] eqn:E1; cbn [obind] in H; try discriminate.
    destruct (finish_funcs t) as [rest| | |] eqn:E2; cbn [obind] in H; try discriminate.
    inversion H; subst fl; clear H. cbn [map flat_map]. rewrite <- (IH rest eq_refl).
    unfold finish_func in E1. destruct (build line_eqb _) as [lines| | |]; cbn [obind] in E1; try discriminate.
    inversion E1; subst x; clear E1. unfold ranged, hdr_range, hdr_raw.
    destruct (mk_range (Grammar.fr_addr fr) (Grammar.fr_size fr)); reflexivity.
Qed.

Lemma text_func_complete_arith lines tail sch p s :
  Forall (fun l => cllen l <= HALF_CAP) lines ->
  drive_c lines tail sch = Ret (ROk p, s) ->
  exists t, table_of (ROk p) = Ret (Some t) /\
    forall L1 s0 L2 f0 x,
      lines = L1 ++ s0 :: L2 -> line_top s0 = Some (IFunc f0) ->
      let a := Grammar.fr_addr f0 in let sz := Grammar.fr_size f0 in
      sz <> 0 -> a + sz < two64 -> a <= x < a + sz ->
      (forall s' f', In s' (L1 ++ L2) -> line_top s' = Some (IFunc f') ->
         Grammar.fr_size f' = 0 \/ two64 <= Grammar.fr_addr f' + Grammar.fr_size f' \/
         Grammar.fr_addr f' + Grammar.fr_size f' <= a \/ a + sz <= Grammar.fr_addr f') ->
      exists f, rm_get (t_funcs t) x = Some f /\
        sf_addr f = a /\ sf_size f = sz /\ sf_psize f = Grammar.fr_psize f0 /\ sf_name f = Grammar.fr_name f0.
Proof.
  intros Hshort H. destruct (ok_parse_held lines tail sch p s Hshort H) as (W & Hheld & t & Ht & Htab).
  exists t. split; [exact Htab|]. intros L1 s0 L2 f0 x -> Hs0 a sz Hnz Hlt Hx Hiso.
  (* the vector handed to the builder, and its headers *)
  destruct (finish_inv p t Ht) as (fl & _ & _ & E1 & E2 & _).
  destruct (close_cur_wf p W) as [(_ & Hf & _) _].
  replace (p_funcs (close_cur p)) with (allfuncs p) in E1, Hf by (unfold allfuncs, close_cur; destruct (p_cur p); reflexivity).
  destruct (finish_funcs_total _ (Forall_rev Hf)) as (fl' & E1' & Wfl). rewrite E1 in E1'. inversion E1'; subst fl'.
  rewrite (build_total_p sfunc_eqb fl Wfl) in E2. inversion E2 as [Htf].
  pose proof (finish_funcs_hdrs _ _ E1) as Hmap. rewrite map_rev in Hmap.
  change (map hdr_raw (allfuncs p)) with (h_func (held p)) in Hmap.
  rewrite Hheld, (proj1 (lines_held_rev _)), rev_involutive, flat_map_app in Hmap. cbn [flat_map] in Hmap.
  unfold line_held at 2 in Hmap. rewrite Hs0 in Hmap. cbn [h_func app] in Hmap.
  assert (Hpos : 0 < sz).
  { pose proof (line_top_wf s0 _ Hs0) as Hw. cbn in Hw. destruct Hw as [(_ & B & _) _]. unfold sz in *. lia. }
  destruct (ranged_isolated sfunc_eqb hdr_sf hdr_range st_sfunc_eqb_eq fl _ _ _ (a, a + sz - 1) x Hmap Wfl) as [f [Hg Hh]].
  - apply mk_range_some; assumption.
  - intros h' r' Hin Hr'. rewrite <- flat_map_app in Hin. apply in_flat_map in Hin. destruct Hin as [s' [Hs' Hin]].
    unfold line_held in Hin. destruct (line_top s') as [[| | | | | |f'|[| |]|]|] eqn:El; try (destruct Hin; fail).
    destruct Hin as [<-|[]]. exact (mk_range_apart _ _ _ _ r' Hr' (Hiso s' f' Hs' El)).
  - apply contains_span, Hx.
  - exists f. split; [exact Hg|]. inversion Hh. auto.
Qed.

Lemma finish_cfis_hdrs : forall l,
  map (fun e => (fst e, chdr_sc (snd e))) (keep_somes (map finish_cfi l)) = flat_map (ranged chdr_range) (map chdr_raw l).
Proof.
  induction l as [|c t IH]; cbn [map keep_somes flat_map]; [reflexivity|].
  unfold finish_cfi at 1. unfold ranged at 1. unfold chdr_range, chdr_raw. cbn [fst snd].
  destruct (mk_range (cr_addr (ci_init c)) (ci_size c)); cbn [keep_somes map app]; rewrite IH; reflexivity.
Qed.

Lemma text_cfi_complete_arith lines tail sch p s :
  Forall (fun l => cllen l <= HALF_CAP) lines ->
  drive_c lines tail sch = Ret (ROk p, s) ->
  exists t, table_of (ROk p) = Ret (Some t) /\
    forall L1 s0 L2 c0 x,
      lines = L1 ++ s0 :: L2 -> line_top s0 = Some (ICfiInit c0) ->
      let a := cr_addr (ci_init c0) in let sz := ci_size c0 in
      sz <> 0 -> a + sz < two64 -> a <= x < a + sz ->
      (forall s' c', In s' (L1 ++ L2) -> line_top s' = Some (ICfiInit c') ->
         ci_size c' = 0 \/ two64 <= cr_addr (ci_init c') + ci_size c' \/
         cr_addr (ci_init c') + ci_size c' <= a \/ a + sz <= cr_addr (ci_init c')) ->
      exists c, rm_get (t_cfi t) x = Some c /\ sc_init c = ci_init c0 /\ sc_size c = sz.
Proof.
  intros Hshort H. destruct (ok_parse_held lines tail sch p s Hshort H) as (W & Hheld & t & Ht & Htab).
  exists t. split; [exact Htab|]. intros L1 s0 L2 c0 x -> Hs0 a sz Hnz Hlt Hx Hiso.
  destruct (finish_inv p t Ht) as (_ & _ & _ & _ & _ & E3 & _).
  destruct (close_cur_wf p W) as [(_ & _ & Hc & _) _].
  replace (p_cfis (close_cur p)) with (allcfis p) in E3, Hc by (unfold allcfis, close_cur; destruct (p_cur p); reflexivity).
  set (cl := keep_somes (map finish_cfi (rev (allcfis p)))) in *.
  assert (Wcl : wf_ranges cl) by (apply finish_cfis_wf; apply Forall_rev; exact Hc).
  rewrite (build_total_p scfi_eqb cl Wcl) in E3. inversion E3 as [Htc].
  pose proof (finish_cfis_hdrs (rev (allcfis p))) as Hmap. fold cl in Hmap. rewrite map_rev in Hmap.
  change (map chdr_raw (allcfis p)) with (h_cfi (held p)) in Hmap.
  rewrite Hheld, (proj1 (proj2 (lines_held_rev _))), rev_involutive, flat_map_app in Hmap. cbn [flat_map] in Hmap.
  unfold line_held at 2 in Hmap. rewrite Hs0 in Hmap. cbn [h_cfi app] in Hmap.
  assert (Hpos : 0 < sz).
  { pose proof (line_top_wf s0 _ Hs0) as Hw. cbn in Hw. destruct Hw as [_ B]. unfold sz in *. lia. }
  destruct (ranged_isolated scfi_eqb chdr_sc chdr_range st_scfi_eqb_eq cl _ _ _ (a, a + sz - 1) x Hmap Wcl) as [c [Hg Hh]].
  - apply mk_range_some; assumption.
  - intros h' r' Hin Hr'. rewrite <- flat_map_app in Hin. apply in_flat_map in Hin. destruct Hin as [s' [Hs' Hin]].
    unfold line_held in Hin. destruct (line_top s') as [[| | | | | | |[| |]|c']|] eqn:El; try (destruct Hin; fail).
    destruct Hin as [<-|[]]. exact (mk_range_apart _ _ _ _ r' Hr' (Hiso s' c' Hs' El)).
  - apply contains_span, Hx.
  - exists c. split; [exact Hg|]. inversion Hh. auto.
Qed.
