(* C08/SymTextWin.v — completeness of the STACK WIN tables of a symbol file, from its TEXT: a STACK WIN line of one
   type (frame data / FPO) whose range meets the range of no other STACK WIN line of that type is found by
   `win_stack_*_info.get(x)` at every address of its range AS WRITTEN (the overlap repair of insert_win_stack_info
   leaves it alone: insert_win_stack_info only ever looks at and changes the last vector element, so the records read
   before the line, the line's record, and the records read after it stay three separate blocks of the vector —
   C08/WinProofs.v, gtable_isolated).  That the records the parser holds are the STACK WIN lines of the text, in file
   order, is C08/SymTextC.v. *)
From Coq Require Import Lia ZArith List Bool Sorting.Sorted.
From RM Require Import Base.Word C08.Model C08.Proofs C08.WinProofs C11.Model C09.Model C09.Grammar C09.Driver C09.Proofs
                       C09.ProofsBytes C09.ProofsFinish C09.ProofsFinal C08.SymText C08.SymTextC.
Import ListNotations.
Open Scope Z_scope.

(* one table: an isolated record of the list is returned as written *)
Lemma win_table_isolated l1 w0 l2 r v t x :
  Forall wi_wf (l1 ++ w0 :: l2) -> wi_range w0 = Some r ->
  gapart wi_addr wi_size r l1 -> gapart wi_addr wi_size r l2 ->
  win_collect [] (l1 ++ w0 :: l2) = Ret v -> build_p wi_eqb v = Ret t -> contains r x = true ->
  rm_get t x = Some w0.
Proof.
  intros Hwf Hr A1 A2 Hc Hb Hx. destruct (win_table_gen _ v t Hwf Hc Hb) as (acc & E & _ & ->).
  exact (wi_gtable_isolated l1 w0 l2 r acc x Hwf Hr A1 A2 E Hx).
Qed.

Definition win_item (fd : bool) (w : win_info) : item := IWin (if fd then FrameData w else Fpo w).
(* the records of one type that a line adds *)
Definition line_w (fd : bool) (s : rle) : list win_info := if fd then h_fd (line_held s) else h_fpo (line_held s).

(* [line_held s] has a record in its h_fd (h_fpo) field only when [s] is a STACK WIN line of that type *)
Lemma line_w_in fd s w : In w (line_w fd s) -> line_top s = Some (win_item fd w).
Proof.
  unfold line_w, line_held, win_item. intros H.
  destruct (line_top s) as [[| | | | | | |[i|i|]|]|], fd; cbn [h_fd h_fpo hnil In] in H; try contradiction;
    destruct H as [<-|[]]; reflexivity.
Qed.

Lemma line_w_item fd s w : line_top s = Some (win_item fd w) -> line_w fd s = [w].
Proof. unfold line_w, line_held, win_item. intros ->. destruct fd; reflexivity. Qed.

Lemma text_win_complete_both lines tail sch p s :
  Forall (fun l => cllen l <= HALF_CAP) lines ->
  drive_c lines tail sch = Ret (ROk p, s) ->
  exists t, table_of (ROk p) = Ret (Some t) /\
    forall fd L1 s0 L2 w0 x,
      lines = L1 ++ s0 :: L2 -> line_top s0 = Some (win_item fd w0) ->
      let a := wi_addr w0 in let sz := wi_size w0 in
      sz <> 0 -> a + sz < two64 -> a <= x < a + sz ->
      (forall s' w', In s' (L1 ++ L2) -> line_top s' = Some (win_item fd w') ->
         wi_size w' = 0 \/ two64 <= wi_addr w' + wi_size w' \/ wi_addr w' + wi_size w' <= a \/ a + sz <= wi_addr w') ->
      rm_get (if fd then t_win_fd t else t_win_fpo t) x = Some w0.
Proof.
  intros Hshort H. destruct (ok_parse_held lines tail sch p s Hshort H) as (W & Hheld & t & Ht & Htab).
  exists t. split; [exact Htab|]. intros fd L1 s0 L2 w0 x -> Hs0 a sz Hnz Hlt Hx Hiso.
  destruct (finish_inv p t Ht) as (_ & wfd & wfpo & _ & _ & _ & E4 & E5 & E6 & E7).
  destruct (close_cur_wf p W) as [(_ & _ & _ & Hfd & Hfpo) _].
  (* the records of this type, in file order *)
  set (recs := if fd then p_win_fd (close_cur p) else p_win_fpo (close_cur p)).
  assert (Hrecs : rev recs = flat_map (line_w fd) L1 ++ w0 :: flat_map (line_w fd) L2).
  { replace recs with (if fd then h_fd (held p) else h_fpo (held p))
      by (destruct (held_close p) as [<- _]; destruct fd; reflexivity).
    rewrite Hheld. destruct (lines_held_rev (L1 ++ s0 :: L2)) as (_ & _ & C & D).
    destruct fd; [rewrite C|rewrite D]; rewrite rev_involutive, flat_map_app; cbn [flat_map];
      [change (h_fd (line_held s0)) with (line_w true s0)|change (h_fpo (line_held s0)) with (line_w false s0)];
      rewrite (line_w_item _ _ _ Hs0); reflexivity. }
  assert (Hwfr : Forall wi_wf (rev recs)) by (apply Forall_rev; destruct fd; assumption).
  rewrite Hrecs in Hwfr. destruct (Forall_elt _ _ _ Hwfr) as [_ [Hpos _]]. fold sz in Hpos.
  assert (Hr : wi_range w0 = Some (a, a + sz - 1)) by (apply mk_range_some; lia).
  assert (Hap : forall L, incl L (L1 ++ L2) -> gapart wi_addr wi_size (a, a + sz - 1) (flat_map (line_w fd) L)).
  { intros L HL w r' Hin Hr'. apply in_flat_map in Hin. destruct Hin as [s' [Hs' Hw']]. apply line_w_in in Hw'.
    exact (mk_range_apart _ _ _ _ r' Hr' (Hiso s' w (HL s' Hs') Hw')). }
  pose proof (Hap L1 (incl_appl _ (incl_refl _))) as A1. pose proof (Hap L2 (incl_appr _ (incl_refl _))) as A2.
  pose proof (contains_span a sz x Hx) as Hc. unfold recs in Hrecs.
  destruct fd; [rewrite Hrecs in E4|rewrite Hrecs in E6]; eapply win_table_isolated; eassumption.
Qed.
