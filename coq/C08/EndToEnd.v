(* C08/EndToEnd.v — from the raw (base, size) fields of the entries to the answers of the lookups, through the
   GENERATED memory_range() and the GENERATED builder, with hypotheses on the input domain only (every field is a u64):
   no well-formedness assumption about ranges is left to the reader.  The pipelines the end-to-end theorems speak of
   (omap, g_indexed_table, g_unloaded_table, g_record_table, g_line_table) and the input predicates u64_ents, u64_recs
   are defined here, next to their lemmas; u64 is in C08/Tie.v. *)
From Coq Require Import Lia Sorting.Sorted.
From RM Require Import C08.Model C08.Proofs C08.IndexProofs C08.WinModel C08.WinProofs C08.Driver Gen.C08Tables C08.Tie.
Open Scope Z_scope.

Fixpoint omap {A B} (f : A -> outcome B) (l : list A) : outcome (list B) :=
  match l with
  | [] => Ret []
  | a :: t => do b <- f a; do r <- omap f t; Ret (b :: r)
  end.

(* an index-valued list as the code builds it: memory_range() of every entry in vector order, then the builder *)
Definition g_indexed_table (mr : Z -> Z -> outcome (option range)) (ents : list (Z * Z)) : outcome (list (range * Z)) :=
  do ranges <- omap (fun e => mr (fst e) (snd e)) ents; g_build_indexed ranges.

Definition u64_ents (ents : list (Z * Z)) : Prop := Forall (fun e => u64 (fst e) /\ u64 (snd e)) ents.

Lemma omap_pure {A B} (f : A -> outcome B) (g : A -> B) (P : A -> Prop) l :
  (forall a, P a -> f a = Ret (g a)) -> Forall P l -> omap f l = Ret (map g l).
Proof.
  intros Hf H. induction H as [|a t Ha Ht IH]; cbn [omap map]; [reflexivity|].
  rewrite (Hf a Ha). cbn [obind]. rewrite IH. reflexivity.
Qed.

Lemma nth_error_map_inv {A B} (f : A -> B) l n y : nth_error (map f l) n = Some y ->
  exists a, nth_error l n = Some a /\ f a = y.
Proof.
  rewrite nth_error_map. destruct (nth_error l n) as [a|]; [|discriminate]. intros H; inversion H. eauto.
Qed.

Lemma mk_range_wf64 b s r : u64 b -> u64 s -> mk_range b s = Some r -> wf_range r.
Proof. intros [Hb _] [Hs _]. apply mk_range_wf; assumption. Qed.
Lemma mk_range_maps_wf64 lo hi r : u64 lo -> u64 hi -> mk_range_maps lo hi = Some r -> wf_range r.
Proof. intros [Hb _] [_ Hs]. apply mk_range_maps_wf; assumption. Qed.

(* any index-valued list whose generated memory_range() is [mk] on u64 fields: the build succeeds, and a table entry /
   a lookup answer is an in-bounds index whose entry has that range / a range containing the address *)
Section Indexed.
Variables (mr : Z -> Z -> outcome (option range)) (mk : Z -> Z -> option range).
Hypothesis mr_ok : forall b s, u64 b -> u64 s -> mr b s = Ret (mk b s).
Hypothesis mk_wf : forall b s r, u64 b -> u64 s -> mk b s = Some r -> wf_range r.

Lemma wf_opt_map ents : u64_ents ents -> wf_opt_ranges (map (fun e => mk (fst e) (snd e)) ents).
Proof.
  intros H. unfold wf_opt_ranges. induction H as [|e t [Hb Hs] Ht IH]; cbn [map]; constructor; [|exact IH].
  destruct (mk (fst e) (snd e)) eqn:E; [|exact I]. exact (mk_wf _ _ _ Hb Hs E).
Qed.

Lemma g_indexed_table_ok ents : u64_ents ents ->
  let ranges := map (fun e => mk (fst e) (snd e)) ents in
  let t := into_rangemap_safe Z.eqb (enumerate_from 0 ranges) in
  wf_opt_ranges ranges /\ g_indexed_table mr ents = Ret t /\
  StronglySorted strictly_before t /\
  (forall r i, In (r, i) t -> 0 <= i /\ exists b s, nth_error ents (Z.to_nat i) = Some (b, s) /\ mk b s = Some r) /\
  (forall x i, rm_get t x = Some i ->
     0 <= i /\ exists b s r, nth_error ents (Z.to_nat i) = Some (b, s) /\ mk b s = Some r /\ contains r x = true).
Proof.
  intros H ranges t. pose proof (wf_opt_map ents H) as Hwf. fold ranges in Hwf.
  split; [exact Hwf|]. split; [|split; [|split]].
  - unfold g_indexed_table.
    rewrite (omap_pure _ (fun e => mk (fst e) (snd e)) (fun e => u64 (fst e) /\ u64 (snd e))); [|intros a [Ha Hb]; auto|exact H].
    apply g_build_indexed_total. exact Hwf.
  - apply (sorted_disjoint Z.eqb), wf_enumerate, Hwf.
  - intros r i Hin. apply indexed_table_exact in Hin. destruct Hin as [H0 Hn]. split; [exact H0|].
    apply nth_error_map_inv in Hn. destruct Hn as [[b s] Hn]. exists b, s. exact Hn.
  - intros x i Hg. apply (indexed_lookup_in_bounds ranges x i Hwf) in Hg. destruct Hg as (r & H0 & Hn & Hc).
    split; [exact H0|]. apply nth_error_map_inv in Hn. destruct Hn as [[b s] [Hn Hr]]. exists b, s, r. auto.
Qed.
End Indexed.

(* the size-based lists: modules, memory regions (32/64), memory info *)
Section SizeBased.
Variable mr : profile -> Z -> Z -> outcome (option range).
Hypothesis mr_ok : forall p b s, u64 b -> u64 s -> mr p b s = Ret (mk_range b s).

Lemma size_table_total p ents : u64_ents ents ->
  exists t, g_indexed_table (mr p) ents = Ret t /\
    StronglySorted strictly_before t /\
    (forall r i, In (r, i) t -> 0 <= i /\ exists b s, nth_error ents (Z.to_nat i) = Some (b, s) /\
                                   s <> 0 /\ b + s < two64 /\ r = (b, b + s - 1)) /\
    (forall x i, rm_get t x = Some i -> 0 <= i /\ exists b s, nth_error ents (Z.to_nat i) = Some (b, s) /\
                                   s <> 0 /\ b + s < two64 /\ b <= x < b + s) /\
    (forall e1 b s e2 x, ents = e1 ++ (b, s) :: e2 -> s <> 0 -> b + s < two64 -> b <= x < b + s ->
        (forall b' s', In (b', s') (e1 ++ e2) -> s' = 0 \/ two64 <= b' + s' \/ b' + s' <= b \/ b + s <= b') ->
        rm_get t x = Some (Z.of_nat (length e1))).
Proof.
  intros H. destruct (g_indexed_table_ok (mr p) mk_range (mr_ok p) mk_range_wf64 ents H) as (Hwf & Ht & Hs & Hin & Hg).
  eexists. split; [exact Ht|]. split; [exact Hs|]. split; [|split].
  - intros r i Hi. destruct (Hin r i Hi) as (H0 & b & s & Hn & Hr). split; [exact H0|]. exists b, s.
    apply mk_range_shape in Hr. tauto.
  - intros x i Hi. destruct (Hg x i Hi) as (H0 & b & s & r & Hn & Hr & Hc). split; [exact H0|]. exists b, s.
    split; [exact Hn|]. exact (mk_range_contains b s r x Hr Hc).
  - intros e1 b s e2 x -> Hs0 Hlt Hx Hiso. destruct (Forall_elt _ _ _ H) as [_ [Hs1 _]]. cbn [snd] in Hs1.
    revert Hwf. rewrite map_app. cbn [map fst snd]. rewrite (mk_range_some b s) by lia. intros Hwf.
    rewrite <- (map_length (fun e => mk_range (fst e) (snd e)) e1).
    apply indexed_isolated_complete; [exact Hwf| |apply contains_span, Hx].
    intros r' Hi. rewrite <- map_app in Hi. apply in_map_iff in Hi. destruct Hi as [[b' s'] [Hr' Hi]].
    exact (mk_range_apart b s b' s' r' Hr' (Hiso b' s' Hi)).
Qed.
End SizeBased.

Lemma size_based_mr_ok (mr : profile -> Z -> Z -> outcome (option range)) :
  In mr [g_mr_MinidumpModule; g_mr_MinidumpMemoryBase; g_mr_MinidumpMemoryInfo] ->
  forall p b s, u64 b -> u64 s -> mr p b s = Ret (mk_range b s).
Proof.
  intros [<-|[<-|[<-|[]]]];
    [exact g_mr_MinidumpModule_eq|exact g_mr_MinidumpMemoryBase_eq|exact g_mr_MinidumpMemoryInfo_eq].
Qed.

(* Linux maps: entries are (first address, last address) *)
Lemma maps_end_to_end ents : u64_ents ents ->
  exists t, g_indexed_table g_mr_MinidumpLinuxMapInfo ents = Ret t /\
    StronglySorted strictly_before t /\
    (forall r i, In (r, i) t -> 0 <= i /\ exists lo hi, nth_error ents (Z.to_nat i) = Some (lo, hi) /\ lo <= hi /\ r = (lo, hi)) /\
    (forall x i, rm_get t x = Some i -> 0 <= i /\ exists lo hi, nth_error ents (Z.to_nat i) = Some (lo, hi) /\ lo <= x <= hi).
Proof.
  intros H.
  destruct (g_indexed_table_ok g_mr_MinidumpLinuxMapInfo mk_range_maps (fun b s _ _ => g_mr_maps_eq b s) mk_range_maps_wf64 ents H)
    as (_ & Ht & Hs & Hin & Hg).
  eexists. split; [exact Ht|]. split; [exact Hs|]. split.
  - intros r i Hi. destruct (Hin r i Hi) as (H0 & lo & hi & Hn & Hr). split; [exact H0|]. exists lo, hi.
    apply mk_range_maps_shape in Hr. tauto.
  - intros x i Hi. destruct (Hg x i Hi) as (H0 & lo & hi & r & Hn & Hr & Hc). split; [exact H0|]. exists lo, hi.
    split; [exact Hn|]. apply mk_range_maps_shape in Hr. destruct Hr as [-> _]. unfold contains in Hc. cbn [fst snd] in Hc. lia.
Qed.

(* unloaded modules: sorted vector + filter(contains); the lookup returns exactly the covering entries *)
Definition g_unloaded_table (p : profile) (ents : list (Z * Z)) : outcome (list (range * Z)) :=
  do ranges <- omap (fun e => g_mr_MinidumpUnloadedModule p (fst e) (snd e)) ents; Ret (unloaded_build ranges).

Lemma g_unloaded_table_eq p ents : u64_ents ents ->
  g_unloaded_table p ents = Ret (unloaded_build (map (fun e => mk_range (fst e) (snd e)) ents)).
Proof.
  intros H. unfold g_unloaded_table.
  rewrite (omap_pure _ (fun e => mk_range (fst e) (snd e)) (fun e => u64 (fst e) /\ u64 (snd e)));
    [reflexivity|intros a [Ha Hb]; apply g_mr_MinidumpUnloadedModule_eq; assumption|exact H].
Qed.

Lemma unloaded_end_to_end p ents : u64_ents ents ->
  exists t, g_unloaded_table p ents = Ret t /\
    StronglySorted (fun a b => range_lt (fst b) (fst a) = false) t /\
    forall x i, In i (unloaded_at t x) <->
      0 <= i /\ exists b s, nth_error ents (Z.to_nat i) = Some (b, s) /\ s <> 0 /\ b + s < two64 /\ b <= x < b + s.
Proof.
  intros H. set (ranges := map (fun e => mk_range (fst e) (snd e)) ents). exists (unloaded_build ranges).
  split; [exact (g_unloaded_table_eq p ents H)|].
  split; [apply (unloaded_sorted ranges 0)|].
  intros x i. rewrite unloaded_iff. split.
  - intros [r [Hin Hc]]. apply enumerate_from_in in Hin. rewrite Z.sub_0_r in Hin. destruct Hin as [H0 Hn].
    split; [exact H0|]. apply nth_error_map_inv in Hn. destruct Hn as [[b s] [Hn Hr]]. cbn [fst snd] in Hr.
    exists b, s. split; [exact Hn|]. eapply mk_range_contains; eassumption.
  - intros [H0 [b [s [Hn [Hs [Hlt Hx]]]]]].
    exists (b, b + s - 1). split; [|apply contains_span, Hx].
    replace i with (0 + Z.of_nat (Z.to_nat i)) by lia. apply enumerate_from_nth.
    unfold ranges. erewrite map_nth_error; [|exact Hn]. cbn [fst snd].
    rewrite mk_range_some; [reflexivity| |exact Hlt].
    unfold u64_ents in H. rewrite Forall_forall in H. destruct (H _ (nth_error_In _ _ Hn)) as [_ [Hs0 _]]. cbn [snd] in Hs0. lia.
Qed.

(* symbol-file records (FUNC, STACK CFI INIT): a record goes to the vector only if memory_range() exists
   (finish_item), then the parser-local builder; the value is the whole record *)
Section Records.
Context {V : Type} (eqb : V -> V -> bool).
Hypothesis eqb_eq : forall a b, eqb a b = true <-> a = b.

Fixpoint keep_ranged (l : list (option range * V)) : list (range * V) :=
  match l with
  | [] => []
  | (Some r, v) :: t => (r, v) :: keep_ranged t
  | (None, _) :: t => keep_ranged t
  end.

Definition g_record_table (mr : Z -> Z -> outcome (option range)) (recs : list (Z * Z * V)) : outcome (list (range * V)) :=
  do l <- omap (fun e => let '(b, s, v) := e in do r <- mr b s; Ret (r, v)) recs;
  g_build_parser eqb (keep_ranged l).

Definition u64_recs (recs : list (Z * Z * V)) : Prop := Forall (fun e => u64 (fst (fst e)) /\ u64 (snd (fst e))) recs.

(* keep_ranged is Model.drop_none *)
Lemma keep_ranged_in l r v : In (r, v) (keep_ranged l) <-> In (Some r, v) l.
Proof. exact (drop_none_in l r v). Qed.

Lemma keep_ranged_app a b : keep_ranged (a ++ b) = keep_ranged a ++ keep_ranged b.
Proof. exact (drop_none_app a b). Qed.

(* the vector entry of a record: filed under its memory_range(), if it has one *)
Definition rec_entry (e : Z * Z * V) : option range * V := let '(b, s, v) := e in (mk_range b s, v).

Lemma rec_entry_in recs r v : In (r, v) (keep_ranged (map rec_entry recs)) ->
  exists b s, In (b, s, v) recs /\ mk_range b s = Some r.
Proof.
  intros Hin. apply keep_ranged_in, in_map_iff in Hin. destruct Hin as [[[b s] v'] [E Hin]].
  inversion E; subst. eauto.
Qed.

Lemma record_table_ok (mr : Z -> Z -> outcome (option range)) recs :
  (forall b s, u64 b -> u64 s -> mr b s = Ret (mk_range b s)) -> u64_recs recs ->
  exists t, g_record_table mr recs = Ret t /\
    StronglySorted strictly_before t /\
    (forall x v, rm_get t x = Some v ->
       exists b s, In (b, s, v) recs /\ s <> 0 /\ b + s < two64 /\ b <= x < b + s) /\
    (forall r1 b s v r2 x, recs = r1 ++ (b, s, v) :: r2 -> s <> 0 -> b + s < two64 -> b <= x < b + s ->
       (forall b' s' v', In (b', s', v') (r1 ++ r2) -> s' = 0 \/ two64 <= b' + s' \/ b' + s' <= b \/ b + s <= b') ->
       rm_get t x = Some v).
Proof.
  intros Hmr H. set (l := keep_ranged (map rec_entry recs)). unfold u64_recs in H.
  assert (Hl : omap (fun e => let '(b, s, v) := e in do r <- mr b s; Ret (r, v)) recs = Ret (map rec_entry recs)).
  { apply (omap_pure _ rec_entry (fun e => u64 (fst (fst e)) /\ u64 (snd (fst e)))); [|exact H].
    intros [[b s] v] [Hb Hs]. cbn [fst snd] in *. rewrite Hmr by assumption. reflexivity. }
  assert (Hwf : wf_ranges l).
  { apply Forall_forall. intros [r v] Hin. destruct (rec_entry_in _ _ _ Hin) as (b & s & Hi & Hr).
    rewrite Forall_forall in H. destruct (H _ Hi) as [Hb Hs]. exact (mk_range_wf64 b s r Hb Hs Hr). }
  exists (into_rangemap_safe_p eqb l).
  split; [unfold g_record_table; rewrite Hl; cbn [obind]; apply g_build_parser_total; exact Hwf|].
  split; [apply (sorted_disjoint_p eqb l Hwf)|]. split.
  - intros x v Hg. destruct (lookup_sound_p eqb eqb_eq l x v Hwf Hg) as [r [Hin Hc]].
    destruct (rec_entry_in _ _ _ Hin) as (b & s & Hi & Hr). exists b, s. split; [exact Hi|]. exact (mk_range_contains b s r x Hr Hc).
  - intros r1 b s v r2 x -> Hs Hlt Hx Hiso. destruct (Forall_elt _ _ _ H) as [_ [Hs0 _]]. cbn [fst snd] in Hs0.
    revert Hwf. unfold l. rewrite map_app, keep_ranged_app. cbn [map keep_ranged rec_entry]. rewrite (mk_range_some b s) by lia.
    intros Hwf. apply (isolated_complete_p eqb eqb_eq); [exact Hwf| |apply contains_span, Hx].
    intros r' v' Hin. rewrite <- keep_ranged_app, <- map_app in Hin. destruct (rec_entry_in _ _ _ Hin) as (b' & s' & Hi & Hr').
    exact (mk_range_apart b s b' s' r' Hr' (Hiso b' s' v' Hi)).
Qed.
End Records.

Lemma records_end_to_end (V : Type) (eqb : V -> V -> bool) (mr : profile -> Z -> Z -> outcome (option range)) :
  (forall a b, eqb a b = true <-> a = b) ->
  In mr [g_mr_Function; g_mr_StackInfoCfi] ->
  forall p (recs : list (Z * Z * V)), u64_recs recs ->
  exists t, g_record_table eqb (mr p) recs = Ret t /\
    StronglySorted (fun a b => snd (fst a) < fst (fst b)) t /\
    (forall x v, rm_get t x = Some v ->
       exists b s, In (b, s, v) recs /\ s <> 0 /\ b + s < two64 /\ b <= x < b + s) /\
    (forall r1 b s v r2 x, recs = r1 ++ (b, s, v) :: r2 -> s <> 0 -> b + s < two64 -> b <= x < b + s ->
       (forall b' s' v', In (b', s', v') (r1 ++ r2) -> s' = 0 \/ two64 <= b' + s' \/ b' + s' <= b \/ b + s <= b') ->
       rm_get t x = Some v).
Proof.
  intros Heq [<-|[<-|[]]] p recs H; apply (record_table_ok eqb Heq); try exact H; intros;
    [apply g_mr_Function_eq|apply g_mr_StackInfoCfi_eq]; assumption.
Qed.

(* line records of a FUNC: zero-size lines are filtered, the range is (address, address + (size - 1)) if that
   does not overflow, then the trait's builder; the value is the whole line record *)
Section Lines.
Context {V : Type} (eqb : V -> V -> bool).
Hypothesis eqb_eq : forall a b, eqb a b = true <-> a = b.

Definition g_line_table (p : profile) (lines : list (Z * Z * V)) : outcome (list (range * V)) :=
  do l <- omap (fun e => let '(b, s, v) := e in do r <- g_mr_line p b s; Ret (r, v))
               (filter (fun e => let '(b, s, v) := e in g_line_keep s) lines);
  g_build_traits eqb l.

Lemma mk_range_line_shape b s r : mk_range_line b s = Some r -> r = (b, b + (s - 1)) /\ b + (s - 1) < two64.
Proof.
  unfold mk_range_line, checked_add. rewrite <- two64_val. destruct (b + (s - 1) <? two64) eqn:E; [|discriminate].
  intros H; inversion H. split; [reflexivity|lia].
Qed.

Lemma line_table_ok p lines : u64_recs lines ->
  exists t, g_line_table p lines = Ret t /\
    StronglySorted strictly_before t /\
    (forall x v, rm_get t x = Some v ->
       exists b s, In (b, s, v) lines /\ 0 < s /\ b + (s - 1) < two64 /\ b <= x <= b + (s - 1)).
Proof.
  intros H.
  set (kept := filter (fun e : Z * Z * V => let '(b, s, v) := e in g_line_keep s) lines).
  set (pure := fun e : Z * Z * V => let '(b, s, v) := e in (mk_range_line b s, v)).
  (* what holds of a kept line whose range exists *)
  assert (Hkept : forall b s v r, In (b, s, v) kept -> mk_range_line b s = Some r ->
            In (b, s, v) lines /\ u64 b /\ u64 s /\ 0 < s /\ b + (s - 1) < two64 /\ r = (b, b + (s - 1))).
  { intros b s v r Hin Hr. apply filter_In in Hin. destruct Hin as [Hin Hk].
    rewrite g_line_keep_eq in Hk. apply mk_range_line_shape in Hr. destruct Hr as [-> Hlt].
    unfold u64_recs in H. rewrite Forall_forall in H. destruct (H _ Hin) as [Hb Hs]. cbn [fst snd] in *.
    do 3 (split; [assumption|]). split; [lia|]. split; [exact Hlt|reflexivity]. }
  assert (Hl : omap (fun e => let '(b, s, v) := e in do r <- g_mr_line p b s; Ret (r, v)) kept = Ret (map pure kept)).
  { apply (omap_pure _ pure (fun e => In e kept)); [|apply Forall_forall; auto]. intros [[b s] v] Hin.
    apply filter_In in Hin. destruct Hin as [Hin Hk]. unfold u64_recs in H. rewrite Forall_forall in H.
    destruct (H _ Hin) as [Hb Hs]. cbn [fst snd] in *. rewrite g_mr_line_eq by assumption. reflexivity. }
  assert (Hwf : wf_entries (map pure kept)).
  { unfold wf_entries. apply Forall_forall. intros [[r|] v] Hin; [|exact I]. cbn [fst].
    apply in_map_iff in Hin. destruct Hin as [[[b s] v'] [E Hin]]. cbn in E. inversion E as [[Hr Hv]]. subst v'.
    destruct (Hkept b s v r Hin Hr) as (_ & [Hb _] & _ & H0 & Hlt & ->). unfold wf_range. cbn [fst snd]. lia. }
  exists (into_rangemap_safe eqb (map pure kept)).
  split; [unfold g_line_table; fold kept; rewrite Hl; cbn [obind]; apply g_build_traits_total; exact Hwf|].
  split; [apply (sorted_disjoint eqb _ Hwf)|].
  intros x v Hg. destruct (lookup_sound eqb eqb_eq _ x v Hwf Hg) as [r [Hin Hc]].
  apply in_map_iff in Hin. destruct Hin as [[[b s] v'] [E Hin]]. cbn in E. inversion E as [[Hr Hv]]. subst v'.
  destruct (Hkept b s v r Hin Hr) as (Hl0 & _ & _ & H0 & Hlt & ->). exists b, s.
  unfold contains in Hc. cbn [fst snd] in Hc. repeat split; try assumption; lia.
Qed.
End Lines.

(* STACK WIN tables, through the generated insert_win_stack_info and parser-local builder *)
Lemma win_end_to_end p (l : list winrec) : wf_recs l ->
  exists t, g_win_table p l = Ret t /\
    StronglySorted strictly_before t /\
    (forall x w, rm_get t x = Some w ->
       exists w0, In w0 l /\ wa w0 = wa w /\ wt w0 = wt w /\ 0 < ws w <= ws w0 /\
                  wa w + ws w < two64 /\ wa w <= x < wa w + ws w) /\
    (forall la w lb x, l = la ++ w :: lb -> ws w <> 0 -> wa w + ws w < two64 -> wa w <= x < wa w + ws w ->
       (forall w', In w' (la ++ lb) ->
          ws w' = 0 \/ two64 <= wa w' + ws w' \/ wa w' + ws w' <= wa w \/ wa w + ws w <= wa w') ->
       rm_get t x = Some w).
Proof.
  intros Hwf. destruct (win_table_total p l Hwf) as [t Ht]. exists t.
  split; [rewrite g_win_table_eq; exact Ht|].
  destruct (win_sorted_disjoint p l t Hwf Ht) as [Hs _]. split; [exact Hs|]. split.
  - intros x w Hg. destruct (win_lookup_sound p l t x w Hwf Ht Hg) as (Hr & Hc & w0 & Hin & Ha & Htg & Hsz & _).
    exists w0. destruct (mk_range_contains _ _ _ x Hr Hc) as (_ & Hlt & Hx). tauto.
  - intros la w lb x -> Hs0 Hlt Hx Hiso. destruct (Forall_elt _ _ _ Hwf) as [_ [Hw0 _]].
    assert (Hr : win_range w = Some (wa w, wa w + ws w - 1)) by (apply mk_range_some; lia).
    apply (win_isolated_complete p la w lb _ t x Hwf Hr); [|exact Ht|apply contains_span, Hx].
    intros w' r' Hin Hr'. exact (mk_range_apart _ _ _ _ r' Hr' (Hiso w' Hin)).
Qed.
