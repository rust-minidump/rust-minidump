(* C08/IndexProofs.v — the index-valued tables (MinidumpModuleList, MinidumpMemoryList(64), MinidumpMemoryInfoList,
   MinidumpLinuxMaps: `(entry.memory_range(), index)` pairs): what a lookup / by_addr step indexes the stored vector
   with is in bounds, and the table range of an index is that entry's own range (indices are distinct, so the merge
   branch of the loop is never taken). *)
From Coq Require Import Lia Sorting.Sorted Sorting.Permutation.
From RM Require Import C08.Model C08.Proofs.
Open Scope Z_scope.

Lemma enumerate_from_in {A} (l : list A) : forall k a i,
  In (a, i) (enumerate_from k l) -> k <= i /\ nth_error l (Z.to_nat (i - k)) = Some a.
Proof.
  induction l as [|h t IH]; intros k a i H; cbn [enumerate_from In] in H; [contradiction|].
  destruct H as [H|H].
  - inversion H; subst. split; [lia|]. rewrite Z.sub_diag. reflexivity.
  - apply IH in H. destruct H as [H1 H2]. split; [lia|].
    replace (Z.to_nat (i - k)) with (S (Z.to_nat (i - (k + 1)))) by lia. exact H2.
Qed.

Lemma enumerate_from_nth {A} (l : list A) : forall k n a,
  nth_error l n = Some a -> In (a, k + Z.of_nat n) (enumerate_from k l).
Proof.
  induction l as [|h t IH]; intros k [|n] a H; cbn in H; try discriminate.
  - inversion H; subst. cbn [enumerate_from]. left. rewrite Z.add_0_r. reflexivity.
  - cbn [enumerate_from]. right. replace (k + Z.of_nat (S n)) with (k + 1 + Z.of_nat n) by lia. apply IH. exact H.
Qed.

Lemma enumerate_from_app {A} (a b : list A) : forall k,
  enumerate_from k (a ++ b) = enumerate_from k a ++ enumerate_from (k + Z.of_nat (length a)) b.
Proof.
  induction a as [|x t IH]; intros k; cbn [app enumerate_from length].
  - rewrite Z.add_0_r. reflexivity.
  - rewrite IH. do 3 f_equal. lia.
Qed.

Lemma enumerate_from_nodup {A} (l : list A) : forall k, NoDup (map snd (enumerate_from k l)).
Proof.
  induction l as [|h t IH]; intros k; cbn [enumerate_from map snd]; constructor; [|apply IH].
  intros Hin. apply in_map_iff in Hin. destruct Hin as [[a i] [E Hin]]. cbn [snd] in E. subst i.
  apply enumerate_from_in in Hin. lia.
Qed.

Section Distinct.
Context {V : Type} (eqb : V -> V -> bool).
Hypothesis eqb_eq : forall a b, eqb a b = true <-> a = b.

(* with pairwise distinct values an iteration of the loop either drops the new entry or pushes it unchanged *)
Lemma merge_step_nodup (acc : list (range * V)) rv t :
  NoDup (map snd acc ++ snd rv :: t) -> merge_step eqb acc rv = acc \/ merge_step eqb acc rv = rv :: acc.
Proof.
  intros H. unfold merge_step. destruct acc as [|[lr lv] acc']; [right; reflexivity|]. destruct rv as [r v].
  destruct ((fst r <=? snd lr) && negb (eqb v lv)); [left; reflexivity|].
  destruct ((fst r <=? sat_add 64 (snd lr) 1) && eqb v lv) eqn:E; [|right; reflexivity].
  exfalso. apply andb_prop in E. destruct E as [_ E]. apply eqb_eq in E. subst v.
  cbn [map snd app] in H. inversion H as [|? ? Hn _]; subst. apply Hn. apply in_or_app. right. left. reflexivity.
Qed.

Lemma fold_merge_incl (l : list (range * V)) : forall acc,
  NoDup (map snd acc ++ map snd l) -> incl (fold_left (merge_step eqb) l acc) (acc ++ l).
Proof.
  induction l as [|rv t IH]; intros acc H; cbn [fold_left].
  - rewrite app_nil_r. apply incl_refl.
  - cbn [map] in H. destruct (merge_step_nodup acc rv (map snd t) H) as [E|E]; rewrite E.
    + assert (H' : NoDup (map snd acc ++ map snd t)) by (eapply NoDup_remove_1; exact H).
      intros e He. apply (IH acc H') in He. apply in_app_or in He. apply in_or_app.
      destruct He as [He|He]; [left; exact He|right; right; exact He].
    + assert (H' : NoDup (map snd (rv :: acc) ++ map snd t)).
      { cbn [map app]. eapply Permutation_NoDup; [|exact H]. symmetry. apply Permutation_middle. }
      intros e He. apply (IH (rv :: acc) H') in He. cbn [app] in He. apply in_or_app.
      destruct He as [He|He]; [right; left; exact He|]. apply in_app_or in He.
      destruct He as [He|He]; [left; exact He|right; right; exact He].
Qed.

Lemma merge_sorted_incl (l : list (range * V)) : NoDup (map snd l) -> incl (merge_sorted eqb l) l.
Proof.
  intros H e He. unfold merge_sorted in He. apply in_rev in He.
  apply (fold_merge_incl l [] H) in He. exact He.
Qed.

Lemma drop_none_nodup (l : list (option range * V)) : NoDup (map snd l) -> NoDup (map snd (drop_none l)).
Proof.
  induction l as [|[[r|] v] t IH]; cbn [drop_none map snd]; intros H; [constructor| |];
    inversion H as [|? ? Hn Ht]; subst; [|apply IH; exact Ht].
  constructor; [|apply IH; exact Ht]. intros Hin. apply Hn.
  apply in_map_iff in Hin. destruct Hin as [[r' v'] [E Hin]]. cbn [snd] in E. subst v'.
  apply drop_none_in in Hin. apply in_map_iff. exists (Some r', v). split; [reflexivity|exact Hin].
Qed.

(* with distinct values every table entry is an input entry, unchanged *)
Lemma table_incl_distinct (l : list (option range * V)) r v :
  NoDup (map snd l) -> In (r, v) (into_rangemap_safe eqb l) -> In (Some r, v) l.
Proof.
  intros Hnd Hin. unfold into_rangemap_safe in Hin.
  assert (Hs : NoDup (map snd (sort_stable okey_lt l))).
  { eapply Permutation_NoDup; [|exact Hnd]. apply Permutation_map. apply sort_perm. }
  apply (merge_sorted_incl _ (drop_none_nodup _ Hs)) in Hin. apply drop_none_in in Hin.
  eapply Permutation_in; [symmetry; apply sort_perm|exact Hin].
Qed.
End Distinct.

Definition wf_opt_ranges (ranges : list (option range)) : Prop :=
  Forall (fun o => match o with Some r => wf_range r | None => True end) ranges.

Lemma wf_enumerate ranges : forall k, wf_opt_ranges ranges -> wf_entries (enumerate_from k ranges).
Proof.
  induction ranges as [|o t IH]; intros k H; cbn [enumerate_from]; [constructor|].
  inversion H; subst. constructor; [cbn [fst]; assumption|apply IH; assumption].
Qed.

Lemma zeqb_eq a b : Z.eqb a b = true <-> a = b.
Proof. apply Z.eqb_eq. Qed.

(* by_addr: the index of every table entry is in bounds and the table range is that entry's own range *)
Lemma indexed_table_exact ranges r i :
  In (r, i) (into_rangemap_safe Z.eqb (enumerate_from 0 ranges)) ->
  0 <= i /\ nth_error ranges (Z.to_nat i) = Some (Some r).
Proof.
  intros H. apply (table_incl_distinct Z.eqb zeqb_eq) in H; [|apply enumerate_from_nodup].
  apply enumerate_from_in in H. rewrite Z.sub_0_r in H. exact H.
Qed.

(* *_at_address: the index a lookup returns is in bounds and that entry's own range contains the address *)
Lemma indexed_lookup_in_bounds ranges x i : wf_opt_ranges ranges ->
  rm_get (into_rangemap_safe Z.eqb (enumerate_from 0 ranges)) x = Some i ->
  exists r, 0 <= i /\ nth_error ranges (Z.to_nat i) = Some (Some r) /\ contains r x = true.
Proof.
  intros Hwf Hg.
  destruct (lookup_sound Z.eqb zeqb_eq (enumerate_from 0 ranges) x i (wf_enumerate ranges 0 Hwf) Hg) as [r [Hin Hc]].
  apply enumerate_from_in in Hin. rewrite Z.sub_0_r in Hin. exists r. tauto.
Qed.

(* an entry that intersects no other entry is found under its own index *)
Lemma indexed_isolated_complete (r1 : list (option range)) r r2 x : wf_opt_ranges (r1 ++ Some r :: r2) ->
  (forall r', In (Some r') (r1 ++ r2) -> intersects r r' = false) -> contains r x = true ->
  rm_get (into_rangemap_safe Z.eqb (enumerate_from 0 (r1 ++ Some r :: r2))) x = Some (Z.of_nat (length r1)).
Proof.
  intros Hwf Hiso Hc.
  pose proof (wf_enumerate _ 0 Hwf) as Hwe. revert Hwe. rewrite enumerate_from_app. cbn [enumerate_from]. rewrite Z.add_0_l.
  intros Hwe. apply (isolated_complete Z.eqb zeqb_eq); [exact Hwe| |exact Hc].
  intros r' v' Hin. apply Hiso. apply in_app_or in Hin. apply in_or_app.
  destruct Hin as [Hin|Hin]; apply enumerate_from_in in Hin; destruct Hin as [_ Hin]; apply nth_error_In in Hin; auto.
Qed.
