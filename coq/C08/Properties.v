(* C08/Properties.v — the property theorems c08_*, each with its full statement, a short proof from the lemmas of the
   lemma files (an instance, or a few lines) and its [Print Assumptions]; and the non-vacuity examples.
   The lemma files, in order: Proofs, IndexProofs, WinProofs, Tie, EndToEnd, StreamRead, Unified, SymText, SymTextC,
   SymTextWin (see the head of C08/Proofs.v). *)
From Coq Require Import Sorting.Sorted Sorting.Permutation Strings.String Strings.Ascii.
From RM Require C09.Model C09.Grammar C09.Driver.
From RM Require Import C08.SymText C08.SymTextC C08.SymTextWin.
From RM Require Import C08.Model C08.Proofs C08.IndexProofs C08.WinModel C08.WinProofs C08.Driver Gen.C08Tables C08.Tie C08.EndToEnd C08.StreamRead C08.Unified.
Open Scope Z_scope.

(* Building never fails: the final RangeMap::try_from_iter(vec).unwrap() discards
   nothing (no Panic), for every finite list of entries over u64. *)
Theorem c08_build_total :
  forall (V : Type) (eqb : V -> V -> bool),
  forall l : list (option range * V), wf_entries l ->
    build eqb l = Ret (into_rangemap_safe eqb l).
Proof. exact (@build_total). Qed.
Print Assumptions c08_build_total.

Theorem c08_build_total_parser :
  forall (V : Type) (eqb : V -> V -> bool),
  forall l : list (range * V), wf_ranges l ->
    build_p eqb l = Ret (into_rangemap_safe_p eqb l).
Proof. exact (@build_total_p). Qed.
Print Assumptions c08_build_total_parser.

(* every memory_range() constructor yields None or a well-formed range *)
Theorem c08_mk_range_wf : forall base size r,
  0 <= base -> 0 <= size -> mk_range base size = Some r -> wf_range r.
Proof. exact mk_range_wf. Qed.
Print Assumptions c08_mk_range_wf.
Theorem c08_mk_range_maps_wf : forall lo hi r,
  0 <= lo -> hi < two64 -> mk_range_maps lo hi = Some r -> wf_range r.
Proof. exact mk_range_maps_wf. Qed.
Print Assumptions c08_mk_range_maps_wf.

(* iteration by address is sorted and non-overlapping *)
Theorem c08_sorted_disjoint :
  forall (V : Type) (eqb : V -> V -> bool),
  forall l : list (option range * V), wf_entries l ->
    StronglySorted (fun a b => snd (fst a) < fst (fst b)) (into_rangemap_safe eqb l) /\
    wf_ranges (into_rangemap_safe eqb l).
Proof. exact (@sorted_disjoint). Qed.
Print Assumptions c08_sorted_disjoint.

Theorem c08_sorted_disjoint_parser :
  forall (V : Type) (eqb : V -> V -> bool),
  forall l : list (range * V), wf_ranges l ->
    StronglySorted (fun a b => snd (fst a) < fst (fst b)) (into_rangemap_safe_p eqb l) /\
    wf_ranges (into_rangemap_safe_p eqb l).
Proof. exact (@sorted_disjoint_p). Qed.
Print Assumptions c08_sorted_disjoint_parser.

(* a lookup only returns a value whose own input range contains the address *)
Theorem c08_lookup_sound :
  forall (V : Type) (eqb : V -> V -> bool), (forall a b, eqb a b = true <-> a = b) ->
  forall (l : list (option range * V)) x v, wf_entries l ->
    rm_get (into_rangemap_safe eqb l) x = Some v ->
    exists r, In (Some r, v) l /\ contains r x = true.
Proof. exact (@lookup_sound). Qed.
Print Assumptions c08_lookup_sound.

Theorem c08_lookup_sound_parser :
  forall (V : Type) (eqb : V -> V -> bool), (forall a b, eqb a b = true <-> a = b) ->
  forall (l : list (range * V)) x v, wf_ranges l ->
    rm_get (into_rangemap_safe_p eqb l) x = Some v ->
    exists r, In (r, v) l /\ contains r x = true.
Proof. exact (@lookup_sound_p). Qed.
Print Assumptions c08_lookup_sound_parser.

(* an entry that intersects no other entry is returned for every address in it *)
Theorem c08_isolated_complete :
  forall (V : Type) (eqb : V -> V -> bool), (forall a b, eqb a b = true <-> a = b) ->
  forall (l1 : list (option range * V)) r v l2 x,
    wf_entries (l1 ++ (Some r, v) :: l2) ->
    (forall r' v', In (Some r', v') (l1 ++ l2) -> intersects r r' = false) ->
    contains r x = true ->
    rm_get (into_rangemap_safe eqb (l1 ++ (Some r, v) :: l2)) x = Some v.
Proof. exact (@isolated_complete). Qed.
Print Assumptions c08_isolated_complete.

Theorem c08_isolated_complete_parser :
  forall (V : Type) (eqb : V -> V -> bool), (forall a b, eqb a b = true <-> a = b) ->
  forall (l1 : list (range * V)) r v l2 x,
    wf_ranges (l1 ++ (r, v) :: l2) ->
    (forall r' v', In (r', v') (l1 ++ l2) -> intersects r r' = false) ->
    contains r x = true ->
    rm_get (into_rangemap_safe_p eqb (l1 ++ (r, v) :: l2)) x = Some v.
Proof. exact (@isolated_complete_p). Qed.
Print Assumptions c08_isolated_complete_parser.

(* the real binary search equals a linear scan on every table the builder makes *)
Theorem c08_bsearch_is_find :
  forall (V : Type) (eqb : V -> V -> bool),
  forall (l : list (option range * V)) x, wf_entries l ->
    rm_get (into_rangemap_safe eqb l) x = find_linear (into_rangemap_safe eqb l) x.
Proof. intros V eqb l x Hwf. destruct (sorted_disjoint eqb l Hwf). apply rm_get_is_find; assumption. Qed.
Print Assumptions c08_bsearch_is_find.

Theorem c08_bsearch_is_find_parser :
  forall (V : Type) (eqb : V -> V -> bool),
  forall (l : list (range * V)) x, wf_ranges l ->
    rm_get (into_rangemap_safe_p eqb l) x = find_linear (into_rangemap_safe_p eqb l) x.
Proof. intros V eqb l x Hwf. destruct (sorted_disjoint_p eqb l Hwf). apply rm_get_is_find; assumption. Qed.
Print Assumptions c08_bsearch_is_find_parser.

Theorem c08_bsearch_is_find_win : forall p (l : list winrec) t x, wf_recs l ->
  win_table p l = Ret t -> rm_get t x = find_linear t x.
Proof.
  intros p l t x Hwf Ht. destruct (win_sorted_disjoint p l t Hwf Ht) as [A [B _]]. apply rm_get_is_find; assumption.
Qed.
Print Assumptions c08_bsearch_is_find_win.

(* unloaded modules: modules_at_address returns exactly the entries covering the address *)
Theorem c08_unloaded_exact : forall (ranges : list (option range)) x i,
  In i (unloaded_at (unloaded_build ranges) x) <->
  exists r, In (Some r, i) (enumerate_from 0 ranges) /\ contains r x = true.
Proof. exact unloaded_iff. Qed.
Print Assumptions c08_unloaded_exact.

(* ... the same as a permutation of the filtered input, and the stored vector is in (start, end) order *)
Theorem c08_unloaded_sorted : forall (ranges : list (option range)) x,
  Permutation (unloaded_at (unloaded_build ranges) x)
              (map snd (filter (fun e => contains (fst e) x) (keep_some (enumerate_from 0 ranges)))) /\
  StronglySorted (fun a b => range_lt (fst b) (fst a) = false) (unloaded_build ranges).
Proof. exact unloaded_sorted. Qed.
Print Assumptions c08_unloaded_sorted.

(* index-valued tables (module list, memory lists, memory-info list, Linux maps): the table holds
   (entry.memory_range(), index) pairs and the lookups / by_addr index the stored vector with what they find. *)

(* by_addr: every table entry's index is in bounds of the vector and the table range is that entry's own range
   (each entry is yielded at most once, never with a merged or foreign range) *)
Theorem c08_indexed_table_exact : forall (ranges : list (option range)) r i,
  In (r, i) (into_rangemap_safe Z.eqb (enumerate_from 0 ranges)) ->
  0 <= i /\ nth_error ranges (Z.to_nat i) = Some (Some r).
Proof. exact indexed_table_exact. Qed.
Print Assumptions c08_indexed_table_exact.

(* *_at_address: `&self.modules[index]` cannot be out of bounds, and the entry it names contains the address *)
Theorem c08_indexed_lookup_in_bounds : forall (ranges : list (option range)) x i, wf_opt_ranges ranges ->
  rm_get (into_rangemap_safe Z.eqb (enumerate_from 0 ranges)) x = Some i ->
  exists r, 0 <= i /\ nth_error ranges (Z.to_nat i) = Some (Some r) /\ contains r x = true.
Proof. exact indexed_lookup_in_bounds. Qed.
Print Assumptions c08_indexed_lookup_in_bounds.

Theorem c08_indexed_isolated_complete : forall (r1 : list (option range)) r r2 x,
  wf_opt_ranges (r1 ++ Some r :: r2) ->
  (forall r', In (Some r') (r1 ++ r2) -> intersects r r' = false) -> contains r x = true ->
  rm_get (into_rangemap_safe Z.eqb (enumerate_from 0 (r1 ++ Some r :: r2))) x = Some (Z.of_nat (length r1)).
Proof. exact indexed_isolated_complete. Qed.
Print Assumptions c08_indexed_isolated_complete.

(* STACK WIN frame-data / FPO tables: insert_win_stack_info for every record in file order, then the
   parser-local builder.  Records are (u64 address, u32 size, everything else). *)

(* building never fails, in either build profile: not the address subtraction, not
   last_info.memory_range().unwrap() after the repair, not the final try_from_iter(..).unwrap() *)
Theorem c08_win_build_total : forall p (l : list winrec), wf_recs l ->
  exists t, win_table p l = Ret t.
Proof. exact win_table_total. Qed.
Print Assumptions c08_win_build_total.

Theorem c08_win_profile_independent : forall l : list winrec, wf_recs l ->
  win_table Debug l = win_table Release l.
Proof.
  intros l Hwf. destruct (win_table_ok Debug l Hwf) as [acc [E _]].
  unfold win_table. rewrite (insert_all_profile Release _ _ _ E), E. reflexivity.
Qed.
Print Assumptions c08_win_profile_independent.

(* iteration by address is sorted and non-overlapping, and every entry is filed under the range of the record
   it carries (the repair shortens the record and its range together) *)
Theorem c08_win_sorted_disjoint : forall p (l : list winrec) t, wf_recs l -> win_table p l = Ret t ->
  StronglySorted (fun a b => snd (fst a) < fst (fst b)) t /\ wf_ranges t /\
  Forall (fun e => win_range (snd e) = Some (fst e)) t.
Proof. exact win_sorted_disjoint. Qed.
Print Assumptions c08_win_sorted_disjoint.

(* a lookup returns a record whose own (possibly shortened) range contains the address; it is a record of the
   file with the same address and other fields, never longer than written, and the range of the record as
   written contains the address too *)
Theorem c08_win_lookup_sound : forall p (l : list winrec) t x w, wf_recs l ->
  win_table p l = Ret t -> rm_get t x = Some w ->
  win_range w = Some (wa w, wa w + ws w - 1) /\ contains (wa w, wa w + ws w - 1) x = true /\
  exists w0, In w0 l /\ wa w0 = wa w /\ wt w0 = wt w /\ 0 < ws w <= ws w0 /\
             (exists r0, win_range w0 = Some r0 /\ contains r0 x = true).
Proof. exact win_lookup_sound. Qed.
Print Assumptions c08_win_lookup_sound.

(* a record that intersects no other record of the list is returned, as written, for every address inside it *)
Theorem c08_win_isolated_complete : forall p (la : list winrec) w lb r t x,
  wf_recs (la ++ w :: lb) -> win_range w = Some r ->
  (forall w' r', In w' (la ++ lb) -> win_range w' = Some r' -> intersects r r' = false) ->
  win_table p (la ++ w :: lb) = Ret t -> contains r x = true -> rm_get t x = Some w.
Proof. exact win_isolated_complete. Qed.
Print Assumptions c08_win_isolated_complete.

(* the tie to the source: Gen/C08Tables.v is regenerated from the Rust code on every run
   (translate/c08_tables.py); these theorems are about the generated definitions. *)

(* all seven size-based memory_range() constructors: for every u64 base and size, in either build profile, neither
   the `- 1` nor Range::new's ordering assertion can fire, and the result is the model's mk_range *)
Theorem c08_gen_memory_ranges : forall p base size, u64 base -> u64 size ->
  g_mr_Function p base size = Ret (mk_range base size) /\
  g_mr_StackInfoCfi p base size = Ret (mk_range base size) /\
  g_mr_StackInfoWin p base size = Ret (mk_range base size) /\
  g_mr_MinidumpModule p base size = Ret (mk_range base size) /\
  g_mr_MinidumpUnloadedModule p base size = Ret (mk_range base size) /\
  g_mr_MinidumpMemoryBase p base size = Ret (mk_range base size) /\
  g_mr_MinidumpMemoryInfo p base size = Ret (mk_range base size).
Proof.
  intros p base size Hb Hs. repeat split;
  [apply g_mr_Function_eq|apply g_mr_StackInfoCfi_eq|apply g_mr_StackInfoWin_eq|apply g_mr_MinidumpModule_eq
  |apply g_mr_MinidumpUnloadedModule_eq|apply g_mr_MinidumpMemoryBase_eq|apply g_mr_MinidumpMemoryInfo_eq]; assumption.
Qed.
Print Assumptions c08_gen_memory_ranges.

Theorem c08_gen_memory_range_maps : forall lo hi,
  g_mr_MinidumpLinuxMapInfo lo hi = Ret (mk_range_maps lo hi).
Proof. exact g_mr_maps_eq. Qed.
Print Assumptions c08_gen_memory_range_maps.

(* line records: the filter keeps exactly the non-empty ones, and for those `size as u64 - 1` cannot trap *)
Theorem c08_gen_memory_range_line : forall p base size, u64 base -> u64 size ->
  g_line_keep size = (0 <? size) /\
  (g_line_keep size = true -> g_mr_line p base size = Ret (mk_range_line base size)).
Proof. intros p base size Hb Hs. split; [apply g_line_keep_eq|apply g_mr_line_eq; assumption]. Qed.
Print Assumptions c08_gen_memory_range_line.

(* both copies of into_rangemap_safe, as generated, never reach the unwrap and compute the model's table *)
Theorem c08_gen_build_total :
  forall (V : Type) (eqb : V -> V -> bool),
  (forall l : list (option range * V), wf_entries l ->
     g_build_traits eqb l = Ret (into_rangemap_safe eqb l)) /\
  (forall l : list (range * V), wf_ranges l ->
     g_build_parser eqb l = Ret (into_rangemap_safe_p eqb l)) /\
  (forall acc rv, g_merge_step_traits eqb acc rv = merge_step eqb acc rv) /\
  (forall acc rv, g_merge_step_parser eqb acc rv = merge_step eqb acc rv).
Proof.
  intros V eqb. split; [exact (g_build_traits_total eqb)|]. split; [exact (g_build_parser_total eqb)|]. split; reflexivity.
Qed.
Print Assumptions c08_gen_build_total.

(* the index-valued builders and the STACK WIN pipeline, as generated, are the model's *)
Theorem c08_gen_builders : 
  (forall ranges, g_build_indexed ranges = build_indexed ranges) /\
  (forall p acc w, g_insert_win p acc w = insert_win p acc w) /\
  (forall p l, g_win_table p l = win_table p l).
Proof. split; [exact g_build_indexed_eq|]. split; [reflexivity|exact g_win_table_eq]. Qed.
Print Assumptions c08_gen_builders.

Theorem c08_gen_indexed_total : forall ranges : list (option range), wf_opt_ranges ranges ->
  g_build_indexed ranges = Ret (into_rangemap_safe Z.eqb (enumerate_from 0 ranges)).
Proof. exact g_build_indexed_total. Qed.
Print Assumptions c08_gen_indexed_total.

(* the read-time filter of MinidumpModuleList::read, as generated: no trap, and it keeps exactly the raw modules
   that have a memory_range() *)
Theorem c08_gen_module_read_filter : forall p base size, u64 base -> u64 size ->
  g_module_read_drop p base size = Ret (negb (module_read_keep base size)) /\
  (module_read_keep base size = true <-> exists r, mk_range base size = Some r).
Proof. exact g_module_read_drop_eq. Qed.
Print Assumptions c08_gen_module_read_filter.

(* the range-map crate at the version of Cargo.lock, as generated from its source (Range::new's assertion,
   contains, intersects, range-vs-point ordering, one iteration of normalize) is what the model uses; try_from_iter's
   and get's structure are pinned literally by the translator *)
Theorem c08_gen_range_map :
  (forall s e, g_range_new s e = if s >? e then Panic PANIC_G_RANGE_NEW else Ret (s, e)) /\
  (forall r x, g_contains r x = contains r x) /\
  (forall a b, g_intersects a b = intersects a b) /\
  (forall r x, g_range_cmp_pt r x = range_cmp_pt r x) /\
  (forall (V : Type) (eqb : V -> V -> bool) st rv, g_norm_step eqb st rv = norm_step eqb st rv).
Proof.
  split; [reflexivity|]. split; [reflexivity|]. split; [|split; reflexivity].
  intros a b. unfold g_intersects, intersects. rewrite Z.geb_leb. reflexivity.
Qed.
Print Assumptions c08_gen_range_map.

(* hence: the generated STACK WIN pipeline never fails, for every list of records, in either profile *)
Theorem c08_gen_win_total : forall p (l : list winrec), wf_recs l -> exists t, g_win_table p l = Ret t.
Proof. intros p l H. rewrite g_win_table_eq. apply win_table_total, H. Qed.
Print Assumptions c08_gen_win_total.

(* end to end, in plain arithmetic: from the raw u64 (base, size) fields of ANY entry list, through the generated
   memory_range() and the generated builder (module list, memory lists, memory-info list), in either profile:
   the build succeeds; the table is sorted and non-overlapping; every table entry is (base, base+size-1) of the entry
   at its (in-bounds) index; the index a lookup returns is in bounds and base <= x < base + size holds for that entry
   without overflow (so `x - base` downstream cannot underflow); an entry that no other entry with a range intersects
   is found at every address in it. *)
Theorem c08_end_to_end_size_based : forall mr : profile -> Z -> Z -> outcome (option range),
  In mr [g_mr_MinidumpModule; g_mr_MinidumpMemoryBase; g_mr_MinidumpMemoryInfo] ->
  forall p ents, u64_ents ents ->
  exists t, g_indexed_table (mr p) ents = Ret t /\
    StronglySorted (fun a b => snd (fst a) < fst (fst b)) t /\
    (forall r i, In (r, i) t -> 0 <= i /\ exists b s, nth_error ents (Z.to_nat i) = Some (b, s) /\
                                   s <> 0 /\ b + s < two64 /\ r = (b, b + s - 1)) /\
    (forall x i, rm_get t x = Some i -> 0 <= i /\ exists b s, nth_error ents (Z.to_nat i) = Some (b, s) /\
                                   s <> 0 /\ b + s < two64 /\ b <= x < b + s) /\
    (forall e1 b s e2 x, ents = e1 ++ (b, s) :: e2 -> s <> 0 -> b + s < two64 -> b <= x < b + s ->
        (forall b' s', In (b', s') (e1 ++ e2) -> s' = 0 \/ two64 <= b' + s' \/ b' + s' <= b \/ b + s <= b') ->
        rm_get t x = Some (Z.of_nat (length e1))).
Proof. intros mr Hmr. apply size_table_total, size_based_mr_ok, Hmr. Qed.
Print Assumptions c08_end_to_end_size_based.

(* Linux maps: entries are (first, last) addresses *)
Theorem c08_end_to_end_maps : forall ents, u64_ents ents ->
  exists t, g_indexed_table g_mr_MinidumpLinuxMapInfo ents = Ret t /\
    StronglySorted (fun a b => snd (fst a) < fst (fst b)) t /\
    (forall r i, In (r, i) t -> 0 <= i /\ exists lo hi, nth_error ents (Z.to_nat i) = Some (lo, hi) /\ lo <= hi /\ r = (lo, hi)) /\
    (forall x i, rm_get t x = Some i -> 0 <= i /\ exists lo hi, nth_error ents (Z.to_nat i) = Some (lo, hi) /\ lo <= x <= hi).
Proof. exact maps_end_to_end. Qed.
Print Assumptions c08_end_to_end_maps.

(* unloaded modules: modules_at_address returns exactly the indices of the entries whose [base, base+size) contains
   the address (entries with size 0 or reaching past the address space have no range and are never returned) *)
Theorem c08_end_to_end_unloaded : forall p ents, u64_ents ents ->
  exists t, g_unloaded_table p ents = Ret t /\
    StronglySorted (fun a b => range_lt (fst b) (fst a) = false) t /\
    forall x i, In i (unloaded_at t x) <->
      0 <= i /\ exists b s, nth_error ents (Z.to_nat i) = Some (b, s) /\ s <> 0 /\ b + s < two64 /\ b <= x < b + s.
Proof. exact unloaded_end_to_end. Qed.
Print Assumptions c08_end_to_end_unloaded.

(* symbol-file FUNC and STACK CFI INIT records (value = the whole record, any type with a decidable equality): filed
   only if memory_range() exists, then the parser-local builder.  A lookup returns a record of the file with
   address <= x < address + size (no overflow); a record no other ranged record intersects is found everywhere in it. *)
Theorem c08_end_to_end_records :
  forall (V : Type) (eqb : V -> V -> bool) (mr : profile -> Z -> Z -> outcome (option range)),
  (forall a b, eqb a b = true <-> a = b) ->
  In mr [g_mr_Function; g_mr_StackInfoCfi] ->
  forall p (recs : list (Z * Z * V)), u64_recs recs ->
  exists t, g_record_table eqb (mr p) recs = Ret t /\
    StronglySorted (fun a b => snd (fst a) < fst (fst b)) t /\
    (forall x v, rm_get t x = Some v ->
       exists b s, In (b, s, v) recs /\ s <> 0 /\ b + s < two64 /\ b <= x < b + s) /\
    (forall r1 b s v r2 x, recs = r1 ++ (b, s, v) :: r2 -> s <> 0 -> b + s < two64 -> b <= x < b + s ->
       (forall b' s' v', In (b', s', v') (r1 ++ r2) -> s' = 0 \/ two64 <= b' + s' \/ b' + s' <= b \/ b + s <= b') ->
       rm_get t x = Some v).
Proof. exact records_end_to_end. Qed.
Print Assumptions c08_end_to_end_records.

(* line records of a FUNC (value = the whole line record): zero-size lines filtered, `size - 1` cannot trap, the
   trait's builder never fails; a lookup returns a line of the file with address <= x <= address + (size - 1), no overflow *)
Theorem c08_end_to_end_lines :
  forall (V : Type) (eqb : V -> V -> bool), (forall a b, eqb a b = true <-> a = b) ->
  forall p (lines : list (Z * Z * V)), u64_recs lines ->
  exists t, g_line_table eqb p lines = Ret t /\
    StronglySorted (fun a b => snd (fst a) < fst (fst b)) t /\
    (forall x v, rm_get t x = Some v ->
       exists b s, In (b, s, v) lines /\ 0 < s /\ b + (s - 1) < two64 /\ b <= x <= b + (s - 1)).
Proof. exact (@line_table_ok). Qed.
Print Assumptions c08_end_to_end_lines.

(* STACK WIN tables through the generated insert_win_stack_info + parser-local builder, in plain arithmetic, for any
   list of (u64 address, u32 size, rest) records and either profile: a lookup returns a record of the file, possibly
   shortened, with address <= x < address + size (no overflow); a record that no other ranged record of its type
   intersects is returned as written *)
Theorem c08_end_to_end_win : forall p (l : list winrec), wf_recs l ->
  exists t, g_win_table p l = Ret t /\
    StronglySorted (fun a b => snd (fst a) < fst (fst b)) t /\
    (forall x w, rm_get t x = Some w ->
       exists w0, In w0 l /\ wa w0 = wa w /\ wt w0 = wt w /\ 0 < ws w <= ws w0 /\
                  wa w + ws w < two64 /\ wa w <= x < wa w + ws w) /\
    (forall la w lb x, l = la ++ w :: lb -> ws w <> 0 -> wa w + ws w < two64 -> wa w <= x < wa w + ws w ->
       (forall w', In w' (la ++ lb) ->
          ws w' = 0 \/ two64 <= wa w' + ws w' \/ wa w' + ws w' <= wa w \/ wa w + ws w <= wa w') ->
       rm_get t x = Some w).
Proof. exact win_end_to_end. Qed.
Print Assumptions c08_end_to_end_win.

(* non-vacuity: the hypotheses are met by concrete, non-trivial inputs *)
Example c08_nonvacuous_wf :
  wf_entries [(mk_range 18446744073709551610 6, 1); (mk_range 0 0, 2); (mk_range 5 10, 3);
              (mk_range 7 2, 4); (mk_range 18446744073709551615 1, 5); (mk_range 18446744073709551615 2, 6)].
Proof. repeat constructor; cbn; try discriminate. Qed.

Example c08_nonvacuous_run :
  build Z.eqb [(mk_range 18446744073709551610 6, 1); (mk_range 0 0, 2); (mk_range 5 10, 3);
               (mk_range 7 2, 4); (mk_range 15 3, 3); (mk_range 18446744073709551615 2, 6);
               (mk_range 18446744073709551610 5, 9)]
  = Ret [((5, 17), 3); ((18446744073709551610, 18446744073709551614), 9)].
Proof. vm_compute. reflexivity. Qed.

Example c08_nonvacuous_isolated :
  let l1 := [(mk_range 0 4, 1)] in let l2 := [(mk_range 2 4, 2)] in
  (forall r' v', In (Some r', v') (l1 ++ l2) -> intersects (100, 199) r' = false) /\
  rm_get (into_rangemap_safe Z.eqb (l1 ++ (Some (100, 199), 7) :: l2)) 150 = Some 7.
Proof.
  split; [|vm_compute; reflexivity].
  intros r' v' [H|[H|[]]]; inversion H; reflexivity.
Qed.

(* the commented example of parser.rs (0+10, 1+9, 4+6 -> 0+1, 1+3, 4+6), a duplicate, a conflicting earlier start,
   a zero size and a record reaching past the address space *)
Example c08_nonvacuous_win :
  let l := [mkW 0 10 1; mkW 1 9 2; mkW 4 6 3; mkW 4 6 3; mkW 2 20 4; mkW 50 0 5;
            mkW 18446744073709551615 1 6; mkW 18446744073709551610 5 7] in
  wf_recs l /\
  win_table Debug l = Ret [((0, 0), mkW 0 1 1); ((1, 3), mkW 1 3 2); ((4, 9), mkW 4 6 3);
                           ((18446744073709551610, 18446744073709551614), mkW 18446744073709551610 5 7)] /\
  win_table Release l = win_table Debug l.
Proof.
  cbv zeta. split; [|split; vm_compute; reflexivity].
  repeat constructor; cbn; try discriminate.
Qed.

Example c08_nonvacuous_gen :
  g_mr_MinidumpModule Debug 18446744073709551610 5 = Ret (Some (18446744073709551610, 18446744073709551614)) /\
  g_mr_MinidumpModule Debug 18446744073709551610 6 = Ret None /\
  g_mr_line Release 18446744073709551610 6 = Ret (Some (18446744073709551610, 18446744073709551615)) /\
  g_build_indexed [mk_range 5 10; mk_range 0 0; mk_range 7 2; mk_range 20 1] = Ret [((5, 14), 0); ((20, 20), 3)] /\
  g_win_table Release [mkW 0 10 1; mkW 1 9 2; mkW 4 6 3] = Ret [((0, 0), mkW 0 1 1); ((1, 3), mkW 1 3 2); ((4, 9), mkW 4 6 3)].
Proof. repeat split; vm_compute; reflexivity. Qed.

Example c08_nonvacuous_indexed :
  let ranges := [mk_range 5 10; mk_range 0 0; mk_range 7 2; mk_range 20 1; mk_range 18446744073709551615 1] in
  wf_opt_ranges ranges /\
  into_rangemap_safe Z.eqb (enumerate_from 0 ranges) = [((5, 14), 0); ((20, 20), 3)] /\
  rm_get (into_rangemap_safe Z.eqb (enumerate_from 0 ranges)) 20 = Some 3.
Proof. cbv zeta. split; [repeat constructor; cbn; discriminate|split; vm_compute; reflexivity]. Qed.

Example c08_nonvacuous_end_to_end :
  let ents := [(5, 10); (0, 0); (7, 2); (20, 1); (18446744073709551615, 1); (18446744073709551600, 15)] in
  u64_ents ents /\
  g_indexed_table (g_mr_MinidumpModule Debug) ents = Ret [((5, 14), 0); ((20, 20), 3); ((18446744073709551600, 18446744073709551614), 5)].
Proof. cbv zeta. split; [repeat constructor; cbn; discriminate|vm_compute; reflexivity]. Qed.

(* MinidumpUnloadedModuleList::read from the raw (base_of_image, size_of_image) fields of the stream, through the guard
   GENERATED from its source (g_unloaded_read_bad), the generated memory_range() and from_modules: never a trap in either
   profile; the read returns Err exactly when some raw module has a zero size or reaches past the address space (and
   then names such a module); otherwise every module has a valid range, the table is sorted and modules_at_address
   returns exactly the indices of the modules with base <= x < base + size. *)
Theorem c08_end_to_end_unloaded_read : forall p ents, u64_ents ents ->
  (g_unloaded_read p ents = Ret None /\ exists b s, In (b, s) ents /\ (s = 0 \/ two64 <= b + s)) \/
  (exists t, g_unloaded_read p ents = Ret (Some t) /\
     (forall b s, In (b, s) ents -> s <> 0 /\ b + s < two64) /\
     StronglySorted (fun a b => range_lt (fst b) (fst a) = false) t /\
     forall x i, In i (unloaded_at t x) <->
       0 <= i /\ exists b s, nth_error ents (Z.to_nat i) = Some (b, s) /\ b <= x < b + s).
Proof. exact unloaded_read_end_to_end. Qed.
Print Assumptions c08_end_to_end_unloaded_read.

(* ... and it is the hand-written model that the correspondence run compares with the code (Driver.run_case kind 9) *)
Theorem c08_gen_unloaded_read : forall p ents, u64_ents ents ->
  g_unloaded_read p ents = Ret (unloaded_read ents) /\
  (forall b s, u64 b -> u64 s -> g_unloaded_read_bad p b s = Ret (negb (module_read_keep b s))).
Proof. intros p ents H. split; [exact (g_unloaded_read_eq p ents H)|exact (g_unloaded_read_bad_eq p)]. Qed.
Print Assumptions c08_gen_unloaded_read.

Example c08_nonvacuous_unloaded_read :
  let good := [(5, 10); (7, 2); (18446744073709551600, 15)] in
  u64_ents good /\ u64_ents ((0, 0) :: good) /\
  g_unloaded_read Debug good = Ret (Some [((5, 14), 0); ((7, 8), 1); ((18446744073709551600, 18446744073709551614), 2)]) /\
  g_unloaded_read Debug ((0, 0) :: good) = Ret None /\
  g_unloaded_read Release (good ++ [(18446744073709551615, 1)]) = Ret None.
Proof. cbv zeta. split; [|split]; [repeat constructor; cbn; discriminate..|repeat split; vm_compute; reflexivity]. Qed.

(* symbol-file tables from the TEXT.  C09/Grammar.v is the byte-level model of SymbolFile::parse (line recognisers
   + SymbolParser::finish, which calls C08's builders); C09 proves that the parse of any byte string ends with Ok or
   Err and that finish never panics.  Composed with the table theorems above (C08/SymText.v):
   for EVERY byte string and EVERY way the reader may chunk it, if the parse is Ok then the finished symbol table
   exists and (SymText.tables_sound)
     - the FUNC table, the line table of every function in it, the STACK CFI INIT table and the two STACK WIN tables
       are sorted and non-overlapping (sorted_table);
     - `functions.get(x) = Some f`: a line of the text is a FUNC record with f's address, size, parameter size and
       name (func_line), size <> 0, address + size < 2^64 and address <= x < address + size; and `f.lines.get(y) =
       Some l`: a line of the text is the line record l (line_line), 0 < l.size, no overflow,
       l.address <= y <= l.address + l.size - 1;
     - `cfi_stack_info.get(x) = Some c`: a line of the text is a STACK CFI INIT record with c's init rule and size
       (cfi_line), and init.address <= x < init.address + size without overflow;
     - `win_stack_{framedata,fpo}_info.get(x) = Some w`: a line of the text is a STACK WIN record w0 of that type with
       w = w0 except for a size shortened by the overlap repair (0 < w.size <= w0.size), and
       w.address <= x < w.address + w.size without overflow.
   No hypothesis about the text is left: every numeric bound comes from the digit limits of the recognisers. *)
Theorem c08_text_tables_sound :
  forall (bytes : list Z) (sch : list Z) p s,
    let lines := map C09.Grammar.to_rle (fst (C09.Grammar.split_bytes bytes [])) in
    C09.Driver.drive_c lines (Z.of_nat (length (snd (C09.Grammar.split_bytes bytes [])))) sch = Ret (C09.Model.ROk p, s) ->
    C09.Grammar.join_bytes (fst (C09.Grammar.split_bytes bytes [])) (snd (C09.Grammar.split_bytes bytes [])) = bytes /\
    exists t, C09.Driver.table_of (C09.Model.ROk p) = Ret (Some t) /\ tables_sound lines t.
Proof.
  cbv zeta. intros bytes sch p s H. split; [apply RM.C09.ProofsBytes.split_join_id|]. exact (text_tables_sound _ _ sch p s H).
Qed.
Print Assumptions c08_text_tables_sound.

(* the same for an input given as complete lines + an unterminated rest, and what SymbolParser::finish guarantees on
   every parser state the recognisers can build (pst_wf) whose records come from the lines (prov) *)
Theorem c08_text_finish_sound :
  (forall lines tail sch p s, C09.Driver.drive_c lines tail sch = Ret (C09.Model.ROk p, s) ->
     exists t, C09.Driver.table_of (C09.Model.ROk p) = Ret (Some t) /\ tables_sound lines t) /\
  (forall lines p t, C09.ProofsFinish.pst_wf p -> prov lines p -> C09.Grammar.finish p = Ret t -> tables_sound lines t) /\
  (forall lines, prov lines C09.Grammar.init_pst) /\
  (forall lines p s p', In s lines -> prov lines p -> C09.Grammar.recog_pst p s = inl p' -> prov lines p').
Proof.
  split; [exact text_tables_sound|]. split; [exact st_tables_sound|]. split; [exact prov_init|exact prov_recog].
Qed.
Print Assumptions c08_text_finish_sound.

(* ... and COMPLETENESS from the text (C08/SymTextC.v): if no complete line is longer than 80 KiB (such a line would be
   dropped as corrupt) and the parse is Ok, a FUNC line whose range [address, address + size) meets the range of no
   OTHER FUNC line of the text (lines without a range - size 0, or reaching past 2^64 - do not count) is found by
   `functions.get(x)` at every address x in it, and the function found carries the address, size, parameter size and
   name written on that line.  (A FUNC line is never taken for a sub-line of the open group nor for a blank line, so
   the FUNC items the parser holds are, in file order, exactly the FUNC lines of the text: held_fold.) *)
Theorem c08_text_func_complete :
  forall lines tail sch p s,
  Forall (fun l => C09.Grammar.cllen l <= C09.Model.HALF_CAP) lines ->
  C09.Driver.drive_c lines tail sch = Ret (C09.Model.ROk p, s) ->
  exists t, C09.Driver.table_of (C09.Model.ROk p) = Ret (Some t) /\
    forall L1 s0 L2 f0 x,
      lines = L1 ++ s0 :: L2 -> C09.Grammar.line_top s0 = Some (C09.Grammar.IFunc f0) ->
      let a := C09.Grammar.fr_addr f0 in let sz := C09.Grammar.fr_size f0 in
      sz <> 0 -> a + sz < two64 -> a <= x < a + sz ->
      (forall s' f', In s' (L1 ++ L2) -> C09.Grammar.line_top s' = Some (C09.Grammar.IFunc f') ->
         C09.Grammar.fr_size f' = 0 \/ two64 <= C09.Grammar.fr_addr f' + C09.Grammar.fr_size f' \/
         C09.Grammar.fr_addr f' + C09.Grammar.fr_size f' <= a \/ a + sz <= C09.Grammar.fr_addr f') ->
      exists f, rm_get (C09.Grammar.t_funcs t) x = Some f /\
        C09.Grammar.sf_addr f = a /\ C09.Grammar.sf_size f = sz /\
        C09.Grammar.sf_psize f = C09.Grammar.fr_psize f0 /\ C09.Grammar.sf_name f = C09.Grammar.fr_name f0.
Proof. exact text_func_complete_arith. Qed.
Print Assumptions c08_text_func_complete.

(* the same for `cfi_stack_info` (C08/SymTextC.v): a STACK CFI INIT line is never taken for a sub-line - in particular
   not for a `STACK CFI` delta line of the open group: after "STACK CFI " comes "INIT", which is no hex address - so an
   isolated STACK CFI INIT line is found at every address of its range, with its init rule and size *)
Theorem c08_text_cfi_complete :
  forall lines tail sch p s,
  Forall (fun l => C09.Grammar.cllen l <= C09.Model.HALF_CAP) lines ->
  C09.Driver.drive_c lines tail sch = Ret (C09.Model.ROk p, s) ->
  exists t, C09.Driver.table_of (C09.Model.ROk p) = Ret (Some t) /\
    forall L1 s0 L2 c0 x,
      lines = L1 ++ s0 :: L2 -> C09.Grammar.line_top s0 = Some (C09.Grammar.ICfiInit c0) ->
      let a := C09.Grammar.cr_addr (C09.Grammar.ci_init c0) in let sz := C09.Grammar.ci_size c0 in
      sz <> 0 -> a + sz < two64 -> a <= x < a + sz ->
      (forall s' c', In s' (L1 ++ L2) -> C09.Grammar.line_top s' = Some (C09.Grammar.ICfiInit c') ->
         C09.Grammar.ci_size c' = 0 \/
         two64 <= C09.Grammar.cr_addr (C09.Grammar.ci_init c') + C09.Grammar.ci_size c' \/
         C09.Grammar.cr_addr (C09.Grammar.ci_init c') + C09.Grammar.ci_size c' <= a \/
         a + sz <= C09.Grammar.cr_addr (C09.Grammar.ci_init c')) ->
      exists c, rm_get (C09.Grammar.t_cfi t) x = Some c /\
        C09.Grammar.sc_init c = C09.Grammar.ci_init c0 /\ C09.Grammar.sc_size c = sz.
Proof. exact text_cfi_complete_arith. Qed.
Print Assumptions c08_text_cfi_complete.

(* ... and for the two STACK WIN tables (C08/SymTextWin.v; fd = true: frame data, false: FPO; win_item fd w is the item
   of a STACK WIN line of that type): a STACK WIN line is always a top-level line, and a line whose range meets the
   range of no other STACK WIN line of its type is returned AS WRITTEN (the overlap repair leaves it alone: it only
   ever looks at and changes the last vector element) at every address of its range *)
Theorem c08_text_win_complete :
  forall lines tail sch p s,
  Forall (fun l => C09.Grammar.cllen l <= C09.Model.HALF_CAP) lines ->
  C09.Driver.drive_c lines tail sch = Ret (C09.Model.ROk p, s) ->
  exists t, C09.Driver.table_of (C09.Model.ROk p) = Ret (Some t) /\
    forall fd L1 s0 L2 w0 x,
      lines = L1 ++ s0 :: L2 -> C09.Grammar.line_top s0 = Some (win_item fd w0) ->
      let a := C09.Grammar.wi_addr w0 in let sz := C09.Grammar.wi_size w0 in
      sz <> 0 -> a + sz < two64 -> a <= x < a + sz ->
      (forall s' w', In s' (L1 ++ L2) -> C09.Grammar.line_top s' = Some (win_item fd w') ->
         C09.Grammar.wi_size w' = 0 \/ two64 <= C09.Grammar.wi_addr w' + C09.Grammar.wi_size w' \/
         C09.Grammar.wi_addr w' + C09.Grammar.wi_size w' <= a \/ a + sz <= C09.Grammar.wi_addr w') ->
      rm_get (if fd then C09.Grammar.t_win_fd t else C09.Grammar.t_win_fpo t) x = Some w0.
Proof. exact text_win_complete_both. Qed.
Print Assumptions c08_text_win_complete.

(* non-vacuity: a text with two overlapping FUNCs (the second is dropped), line records (one empty, one conflicting),
   a STACK CFI INIT record, two overlapping STACK WIN records (the first is shortened) and a FUNC reaching past the
   address space, read 3 and 5 bytes at a time and then whole: the parse is Ok and the lookups answer *)
Fixpoint bytes_of_string (s : string) : list Z :=
  match s with EmptyString => [] | String c r => Z.of_N (N_of_ascii c) :: bytes_of_string r end.
Definition nl : string := String (ascii_of_nat 10) EmptyString.
Definition ex_text : list Z := bytes_of_string
  ("MODULE windows x86 ABCD m" ++ nl ++ "FUNC 10 8 0 f" ++ nl ++ "10 4 7 1" ++ nl ++ "14 0 8 1" ++ nl ++ "12 9 9 1" ++ nl ++
   "FUNC 14 8 0 g" ++ nl ++ "STACK CFI INIT 10 8 .cfa: $esp 4 +" ++ nl ++
   "STACK WIN 4 0 a 0 0 0 0 0 0 1 $eip" ++ nl ++ "STACK WIN 4 1 9 0 0 0 0 0 0 1 $eip" ++ nl ++
   "FUNC ffffffffffffffff 2 0 h" ++ nl)%string.
Example c08_nonvacuous_text :
  match C09.Driver.drive_c (map C09.Grammar.to_rle (fst (C09.Grammar.split_bytes ex_text [])))
                           (Z.of_nat (length (snd (C09.Grammar.split_bytes ex_text [])))) [3; 5] with
  | Ret (C09.Model.ROk p, s) =>
      match C09.Driver.table_of (C09.Model.ROk p) with
      | Ret (Some t) =>
          (map (fun e => (fst e, map fst (C09.Grammar.sf_lines (snd e)))) (C09.Grammar.t_funcs t),
           map fst (C09.Grammar.t_cfi t),
           map (fun e => (fst e, C09.Grammar.wi_size (snd e))) (C09.Grammar.t_win_fd t),
           match rm_get (C09.Grammar.t_funcs t) 18 with
           | Some f => Some (C09.Grammar.sf_addr f, C09.Grammar.sf_size f,
                             option_map C11.Model.l_line (rm_get (C09.Grammar.sf_lines f) 19))
           | None => None end)
          = ([((16, 23), [(16, 19)])], [(16, 23)], [((0, 0), 1); ((1, 9), 9)], Some (16, 8, Some 7))
      | _ => False
      end
  | _ => False
  end.
Proof. vm_compute. reflexivity. Qed.

(* the forwarding views UnifiedMemoryList / UnifiedMemoryInfoList, GENERATED from their source (which method every
   arm calls, which wrapper it applies, the two halves of by_addr, which source `new` prefers): a lookup / iteration
   through a view is the lookup / by-address iteration of the wrapped list under the wrapper of the same variant *)
Theorem c08_gen_unified_views :
  (forall l, (forall x, g_uml_memory_at_address l x = option_map (uml_wrap l) (rm_get (fst (uml_lst l)) x)) /\
             g_uml_by_addr l = map (uml_wrap l) (map snd (fst (uml_lst l)))) /\
  (forall l, (forall x, g_umil_memory_info_at_address l x = option_map (umil_wrap l) (rm_get (fst (umil_lst l)) x)) /\
             g_umil_by_addr l = map (umil_wrap l) (map snd (fst (umil_lst l)))) /\
  (forall info maps, g_umil_new info maps =
     match info with Some i => Some (GUMIL_Info i) | None => option_map GUMIL_Maps maps end).
Proof. split; [exact g_uml_forward|]. split; [exact g_umil_forward|exact g_umil_new_spec]. Qed.
Print Assumptions c08_gen_unified_views.

(* end to end through UnifiedMemoryList (either variant), from the raw (base, size) fields: the region a lookup returns
   is of the list's own variant, its index is in bounds, base <= x < base + size without overflow; by_addr is the
   wrapped table in address order; an isolated region is found *)
Theorem c08_end_to_end_unified_memory : forall p ents (mk : g_lst -> g_uml),
  In mk [GUML_Memory; GUML_Memory64] -> u64_ents ents ->
  exists t, g_indexed_table (g_mr_MinidumpMemoryBase p) ents = Ret t /\
    let l := mk (t, Z.of_nat (length ents)) in
    (forall x u, g_uml_memory_at_address l x = Some u ->
       u = uml_wrap l (um_index u) /\ 0 <= um_index u < Z.of_nat (length ents) /\
       exists b s, nth_error ents (Z.to_nat (um_index u)) = Some (b, s) /\ s <> 0 /\ b + s < two64 /\ b <= x < b + s) /\
    g_uml_by_addr l = map (uml_wrap l) (map snd t) /\
    StronglySorted (fun a b => snd (fst a) < fst (fst b)) t /\
    (forall e1 b s e2 x, ents = e1 ++ (b, s) :: e2 -> s <> 0 -> b + s < two64 -> b <= x < b + s ->
        (forall b' s', In (b', s') (e1 ++ e2) -> s' = 0 \/ two64 <= b' + s' \/ b' + s' <= b \/ b + s <= b') ->
        g_uml_memory_at_address l x = Some (uml_wrap l (Z.of_nat (length e1)))).
Proof. exact unified_memory_end_to_end. Qed.
Print Assumptions c08_end_to_end_unified_memory.

(* ... and through UnifiedMemoryInfoList: over a memory-info list (size-based) and over Linux maps ((first, last) pairs) *)
Theorem c08_end_to_end_unified_info : forall p ents, u64_ents ents ->
  (exists t, g_indexed_table (g_mr_MinidumpMemoryInfo p) ents = Ret t /\
     let l := GUMIL_Info (t, Z.of_nat (length ents)) in
     (forall x u, g_umil_memory_info_at_address l x = Some u ->
        u = GUMI_Info (umi_index u) /\ 0 <= umi_index u < Z.of_nat (length ents) /\
        exists b s, nth_error ents (Z.to_nat (umi_index u)) = Some (b, s) /\ s <> 0 /\ b + s < two64 /\ b <= x < b + s) /\
     g_umil_by_addr l = map GUMI_Info (map snd t) /\ StronglySorted (fun a b => snd (fst a) < fst (fst b)) t) /\
  (exists t, g_indexed_table g_mr_MinidumpLinuxMapInfo ents = Ret t /\
     let l := GUMIL_Maps (t, Z.of_nat (length ents)) in
     (forall x u, g_umil_memory_info_at_address l x = Some u ->
        u = GUMI_Map (umi_index u) /\ 0 <= umi_index u < Z.of_nat (length ents) /\
        exists lo hi, nth_error ents (Z.to_nat (umi_index u)) = Some (lo, hi) /\ lo <= x <= hi) /\
     g_umil_by_addr l = map GUMI_Map (map snd t) /\ StronglySorted (fun a b => snd (fst a) < fst (fst b)) t).
Proof. exact unified_info_end_to_end. Qed.
Print Assumptions c08_end_to_end_unified_info.

Example c08_nonvacuous_unified :
  let ents := [(5, 10); (0, 0); (7, 2); (20, 1); (18446744073709551600, 15)] in
  u64_ents ents /\
  match g_indexed_table (g_mr_MinidumpMemoryBase Debug) ents with
  | Ret t => let l := GUML_Memory64 (t, 5) in
             (g_uml_memory_at_address l 20, g_uml_memory_at_address l 16, g_uml_by_addr l)
             = (Some (GUM_Memory64 3), None, [GUM_Memory64 0; GUM_Memory64 3; GUM_Memory64 4])
  | _ => False
  end /\
  g_umil_new (Some ([], 0)) (Some ([((1, 2), 0)], 1)) = Some (GUMIL_Info ([], 0)).
Proof. cbv zeta. split; [repeat constructor; cbn; discriminate|split; vm_compute; reflexivity]. Qed.

(* the *_at_address / by_addr of the index-valued lists, GENERATED from their bodies (`.map(|&index| &self.v[index])`
   -> g_lookup_index with the index as a panic site, `.and_then(|&index| self.v.get(index))` -> g_lookup_get,
   `.ranges_values().map(.. &self.v[index])` -> g_iter_index), on the table the generated builder makes from the raw
   entries: no index panic in any of them; the entry a lookup returns has base <= x < base + size without overflow;
   by_addr yields, for every table range in (sorted, non-overlapping) address order, the entry whose own range it is *)
Theorem c08_gen_lookups_total : forall mr : profile -> Z -> Z -> outcome (option range),
  In mr [g_mr_MinidumpModule; g_mr_MinidumpMemoryBase; g_mr_MinidumpMemoryInfo] ->
  forall p ents, u64_ents ents ->
  exists t, g_indexed_table (mr p) ents = Ret t /\
    StronglySorted (fun a b => snd (fst a) < fst (fst b)) t /\
    (forall x, exists o,
        g_MinidumpModuleList_module_at_address ents t x = Ret o /\
        g_MinidumpMemoryListBase_memory_at_address ents t x = Ret o /\
        g_MinidumpMemoryInfoList_memory_info_at_address ents t x = Ret o /\
        forall b s, o = Some (b, s) -> s <> 0 /\ b + s < two64 /\ b <= x < b + s) /\
    exists l,
        g_MinidumpModuleList_by_addr ents t = Ret l /\ g_MinidumpMemoryListBase_by_addr ents t = Ret l /\
        g_MinidumpMemoryInfoList_by_addr ents t = Ret l /\
        Forall2 (fun e a => fst e = (fst a, fst a + snd a - 1) /\ snd a <> 0 /\ fst a + snd a < two64) t l.
Proof. exact lists_lookup_end_to_end. Qed.
Print Assumptions c08_gen_lookups_total.

Theorem c08_gen_lookups_total_maps : forall ents, u64_ents ents ->
  exists t, g_indexed_table g_mr_MinidumpLinuxMapInfo ents = Ret t /\
    StronglySorted (fun a b => snd (fst a) < fst (fst b)) t /\
    (forall x, exists o, g_MinidumpLinuxMaps_memory_info_at_address ents t x = Ret o /\
        forall lo hi, o = Some (lo, hi) -> lo <= x <= hi) /\
    exists l, g_MinidumpLinuxMaps_by_addr ents t = Ret l /\ Forall2 (fun e a => fst e = a /\ fst a <= snd a) t l.
Proof. exact maps_lookup_end_to_end. Qed.
Print Assumptions c08_gen_lookups_total_maps.

Example c08_nonvacuous_lookups :
  let ents := [(5, 10); (0, 0); (7, 2); (20, 1); (18446744073709551600, 15)] in
  match g_indexed_table (g_mr_MinidumpModule Release) ents with
  | Ret t => (g_MinidumpModuleList_module_at_address ents t 14, g_MinidumpMemoryListBase_memory_at_address ents t 15,
              g_MinidumpModuleList_by_addr ents t, g_MinidumpModuleList_module_at_address [(5, 10)] t 20)
             = (Ret (Some (5, 10)), Ret None, Ret [(5, 10); (20, 1); (18446744073709551600, 15)], Panic PANIC_G_INDEX)
  | _ => False
  end.
Proof. vm_compute. reflexivity. Qed.

(* memory lists read from stream bytes.  MinidumpMemoryList::read: a raw descriptor (start_of_memory_range,
   data_size: u32, rva: u32) is kept iff the GENERATED MinidumpMemory::read accepts it — rva <> 0, data_size <> 0 and
   rva + data_size <= |file| (location_slice; no overflow) — the others are skipped and from_regions runs over the kept
   ones: the read never fails or traps, and the table is the size-based table of the kept regions (indices are
   positions in the kept vector).  MinidumpMemory64List::read: the regions lie back to back from the base rva; the
   read is Err exactly when the list is non-empty and the last region ends past the file; otherwise the table is the
   size-based table of all descriptors. *)
Theorem c08_gen_memory_readers :
  (forall len b s r, u32 s -> u32 r ->
     g_memory_read len b s r = if memory_read_keep len r s then Some (b, s) else None) /\
  (forall len r s, memory_read_keep len r s = true <-> r <> 0 /\ s <> 0 /\ r + s <= len) /\
  (forall len descs, u64_ents descs -> forall rva, 0 <= rva ->
     g_mem64_regions len rva descs = if mem64_ok len rva (map snd descs) then Some descs else None).
Proof. split; [exact g_memory_read_eq|]. split; [exact memory_read_keep_iff|exact g_mem64_regions_eq]. Qed.
Print Assumptions c08_gen_memory_readers.

Theorem c08_end_to_end_memory_list_read : forall p len descs, Forall desc_ok descs ->
  let kept := map (fun d => (fst (fst d), snd (fst d)))
                  (filter (fun d => memory_read_keep len (snd d) (snd (fst d))) descs) in
  g_memory_list_kept len descs = kept /\
  exists t, g_memory_list_read p len descs = Ret t /\
    StronglySorted (fun a b => snd (fst a) < fst (fst b)) t /\
    (forall x i, rm_get t x = Some i -> 0 <= i /\ exists b s, nth_error kept (Z.to_nat i) = Some (b, s) /\
                                   s <> 0 /\ b + s < two64 /\ b <= x < b + s) /\
    (forall e1 b s e2 x, kept = e1 ++ (b, s) :: e2 -> s <> 0 -> b + s < two64 -> b <= x < b + s ->
        (forall b' s', In (b', s') (e1 ++ e2) -> s' = 0 \/ two64 <= b' + s' \/ b' + s' <= b \/ b + s <= b') ->
        rm_get t x = Some (Z.of_nat (length e1))).
Proof.
  intros p len descs H. cbv zeta. destruct (g_memory_list_kept_eq len descs H) as [E U]. split; [exact E|].
  unfold g_memory_list_read. rewrite <- E.
  destruct (size_table_total g_mr_MinidumpMemoryBase g_mr_MinidumpMemoryBase_eq p _ U) as (t & Ht & Hs & _ & Hl & Hi). eauto.
Qed.
Print Assumptions c08_end_to_end_memory_list_read.

Theorem c08_end_to_end_memory64_read : forall p len rva descs, u64_ents descs -> 0 <= rva -> len < two64 ->
  (g_mem64_read p len rva descs = Ret None /\ descs <> [] /\ len < rva + fold_right Z.add 0 (map snd descs)) \/
  (exists t, g_mem64_read p len rva descs = Ret (Some t) /\
     (descs = [] \/ rva + fold_right Z.add 0 (map snd descs) <= len) /\
     StronglySorted (fun a b => snd (fst a) < fst (fst b)) t /\
     (forall x i, rm_get t x = Some i -> 0 <= i /\ exists b s, nth_error descs (Z.to_nat i) = Some (b, s) /\
                                    s <> 0 /\ b + s < two64 /\ b <= x < b + s) /\
     (forall e1 b s e2 x, descs = e1 ++ (b, s) :: e2 -> s <> 0 -> b + s < two64 -> b <= x < b + s ->
         (forall b' s', In (b', s') (e1 ++ e2) -> s' = 0 \/ two64 <= b' + s' \/ b' + s' <= b \/ b + s <= b') ->
         rm_get t x = Some (Z.of_nat (length e1)))).
Proof. exact memory64_read_end_to_end. Qed.
Print Assumptions c08_end_to_end_memory64_read.

Example c08_nonvacuous_memory_read :
  let descs := [(5, 10, 1); (100, 4, 0); (7, 2, 3); (20, 0, 4); (30, 70, 20); (18446744073709551600, 15, 6)] in
  Forall desc_ok descs /\
  g_memory_list_kept 80 descs = [(5, 10); (7, 2); (18446744073709551600, 15)] /\
  g_memory_list_read Debug 80 descs = Ret [((5, 14), 0); ((18446744073709551600, 18446744073709551614), 2)] /\
  g_mem64_read Release 80 16 [(5, 10); (7, 2); (40, 52)] = Ret (Some [((5, 14), 0); ((40, 91), 2)]) /\
  g_mem64_read Release 80 16 [(5, 10); (7, 2); (40, 53)] = Ret None.
Proof.
  cbv zeta. split; [|repeat split; vm_compute; reflexivity].
  repeat constructor; unfold u64, u32, two64, two32; cbn; try discriminate; reflexivity.
Qed.
