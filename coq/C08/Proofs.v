(* C08/Proofs.v — the range-table model (C08/Model.v) does what its users rely on.
   File order of C08/: Model -> Proofs -> IndexProofs; WinModel -> WinProofs -> Driver, Tie -> EndToEnd -> StreamRead,
   Unified; SymText -> SymTextC -> SymTextWin (these three also build on C09 and C11); Properties on all of them.
   This file: the well-formedness predicates of the property theorems (wf_range, wf_entries, wf_ranges) and
   [strictly_before]; mk_range in plain arithmetic; the stable sort; the trait's builder is the parser-local builder
   after drop_none ([safe_is_safe_p]); the merge loop keeps [acc_ok] (disjoint, increasing, nothing left to merge), so
   try_from_iter finds nothing to discard ([try_from_iter_id]); every accumulator range is [covered] by inputs of its
   value (soundness) and an isolated input stays spanned ([spans], completeness); the binary search finds the one
   element that contains the point ([bsearch_finds]); then the theorems about the builders, parser-local first. *)
From Coq Require Import Lia Sorting.Sorted Sorting.Permutation.
From RM Require Export Base.WordFacts.
From RM Require Import C08.Model.
Open Scope Z_scope.

Definition wf_range (r : range) : Prop := 0 <= fst r /\ fst r <= snd r /\ snd r < two64.
Definition wf_entries {V} (l : list (option range * V)) : Prop :=
  Forall (fun e => match fst e with Some r => wf_range r | None => True end) l.
Definition wf_ranges {V} (l : list (range * V)) : Prop := Forall (fun e => wf_range (fst e)) l.

(* what mk_range b s = Some r says, in plain arithmetic *)
Lemma mk_range_iff b s r : mk_range b s = Some r <-> r = (b, b + s - 1) /\ s <> 0 /\ b + s < two64.
Proof.
  unfold mk_range, checked_add. rewrite <- two64_val. cbv zeta.
  destruct (Z.eqb_spec s 0) as [E|E]; [|destruct (Z.ltb_spec (b + s) two64) as [L|L]];
    (split; [intros [= <-]|intros (-> & H1 & H2)]); try lia; auto.
Qed.

Lemma mk_range_shape b s r : mk_range b s = Some r -> r = (b, b + s - 1) /\ s <> 0 /\ b + s < two64.
Proof. apply mk_range_iff. Qed.

Lemma mk_range_some b s : 0 < s -> b + s < two64 -> mk_range b s = Some (b, b + s - 1).
Proof. intros Hs Hb. apply mk_range_iff. split; [reflexivity|lia]. Qed.

Lemma mk_range_wf base size r :
  0 <= base -> 0 <= size -> mk_range base size = Some r -> wf_range r.
Proof.
  intros Hb Hs H. apply mk_range_shape in H. destruct H as (-> & H0 & Hlt). unfold wf_range; cbn [fst snd]. lia.
Qed.

Lemma mk_range_contains b s r x : mk_range b s = Some r -> contains r x = true ->
  s <> 0 /\ b + s < two64 /\ b <= x < b + s.
Proof.
  intros Hr Hc. apply mk_range_shape in Hr. destruct Hr as (-> & Hn & Hlt).
  unfold contains in Hc. cbn [fst snd] in Hc. lia.
Qed.

Lemma contains_span b s x : b <= x < b + s -> contains (b, b + s - 1) x = true.
Proof. intros H. unfold contains; cbn [fst snd]. lia. Qed.

(* [b, b + s) meets no range that mk_range makes from a (b', s') lying to one side of it *)
Lemma mk_range_apart b s b' s' r' : mk_range b' s' = Some r' ->
  s' = 0 \/ two64 <= b' + s' \/ b' + s' <= b \/ b + s <= b' -> intersects (b, b + s - 1) r' = false.
Proof.
  intros Hr H. apply mk_range_shape in Hr. destruct Hr as (-> & Hn & Hlt).
  unfold intersects; cbn [fst snd]. lia.
Qed.

Lemma mk_range_maps_shape lo hi r : mk_range_maps lo hi = Some r -> r = (lo, hi) /\ lo <= hi.
Proof.
  unfold mk_range_maps. destruct (lo >? hi) eqn:E; [discriminate|]. intros H; inversion H. split; [reflexivity|lia].
Qed.

Lemma mk_range_maps_wf lo hi r :
  0 <= lo -> hi < two64 -> mk_range_maps lo hi = Some r -> wf_range r.
Proof.
  intros Hl Hh H. apply mk_range_maps_shape in H. destruct H as [-> H]. unfold wf_range; cbn [fst snd]. lia.
Qed.

Lemma sat_add_64 a : 0 <= a < two64 -> sat_add 64 a 1 = Z.min (a + 1) (two64 - 1).
Proof. reflexivity. Qed.

Section SortFacts.
  Context {K V : Type} (lt : K -> K -> bool).
  Hypothesis lt_asym : forall a b, lt a b = true -> lt b a = false.
  Hypothesis lt_negtrans : forall a b c, lt b a = false -> lt c b = false -> lt c a = false.

  Definition le_keys (a b : K * V) : Prop := lt (fst b) (fst a) = false.

  Lemma insert_perm x (l : list (K * V)) : Permutation (x :: l) (insert_stable lt x l).
  Proof.
    induction l as [|y t IH]; cbn [insert_stable]; [reflexivity|].
    destruct (lt (fst y) (fst x)); [|reflexivity].
    rewrite perm_swap. constructor. exact IH.
  Qed.

  Lemma sort_perm (l : list (K * V)) : Permutation l (sort_stable lt l).
  Proof.
    induction l as [|x t IH]; cbn [sort_stable fold_right]; [reflexivity|].
    etransitivity; [|apply insert_perm]. constructor. exact IH.
  Qed.

  Lemma insert_sorted x (l : list (K * V)) :
    StronglySorted le_keys l -> StronglySorted le_keys (insert_stable lt x l).
  Proof.
    induction l as [|y t IH]; cbn [insert_stable]; intros Hs.
    - constructor; constructor.
    - inversion Hs as [|? ? Ht Hall]; subst.
      destruct (lt (fst y) (fst x)) eqn:E.
      + constructor; [apply IH; exact Ht|].
        eapply Permutation_Forall; [apply insert_perm|].
        constructor; [|exact Hall]. unfold le_keys. apply lt_asym. exact E.
      + constructor; [exact Hs|]. constructor; [exact E|].
        rewrite Forall_forall in *. intros z Hz. unfold le_keys in *.
        eapply lt_negtrans; [exact E|]. apply Hall. exact Hz.
  Qed.

  Lemma sort_sorted (l : list (K * V)) : StronglySorted le_keys (sort_stable lt l).
  Proof.
    induction l as [|x t IH]; cbn [sort_stable fold_right]; [constructor|].
    apply insert_sorted. exact IH.
  Qed.

  (* a list that is already strictly increasing is left alone *)
  Lemma insert_front x (l : list (K * V)) :
    Forall (fun y => lt (fst y) (fst x) = false) l -> insert_stable lt x l = x :: l.
  Proof.
    destruct l as [|y t]; cbn [insert_stable]; [reflexivity|].
    intros H; inversion H; subst. rewrite H2. reflexivity.
  Qed.

  Lemma sort_id (l : list (K * V)) :
    StronglySorted le_keys l -> sort_stable lt l = l.
  Proof.
    induction l as [|x t IH]; cbn [sort_stable fold_right]; [reflexivity|].
    intros Hs; inversion Hs; subst. fold (sort_stable lt t). rewrite IH by assumption.
    apply insert_front. assumption.
  Qed.
End SortFacts.

Lemma range_lt_asym a b : range_lt a b = true -> range_lt b a = false.
Proof. unfold range_lt; destruct a, b; cbn [fst snd]; lia. Qed.
Lemma range_lt_negtrans a b c :
  range_lt b a = false -> range_lt c b = false -> range_lt c a = false.
Proof. unfold range_lt; destruct a, b, c; cbn [fst snd]; lia. Qed.
Section Build.
Context {V : Type} (eqb : V -> V -> bool).
Hypothesis eqb_eq : forall a b, eqb a b = true <-> a = b.

Lemma drop_none_in (l : list (option range * V)) r v :
  In (r, v) (drop_none l) <-> In (Some r, v) l.
Proof.
  induction l as [|[[r'|] v'] t IH]; cbn [drop_none In]; [tauto| |].
  - rewrite IH. split; (intros [H|H]; [left; inversion H; reflexivity|right; exact H]).
  - rewrite IH. split; [auto|]. intros [H|H]; [discriminate|exact H].
Qed.

Lemma drop_none_wf (l : list (option range * V)) : wf_entries l -> wf_ranges (drop_none l).
Proof.
  unfold wf_entries, wf_ranges. induction 1 as [|[[r|] v] t Hr Ht IH]; cbn [drop_none]; [constructor| |exact IH].
  constructor; assumption.
Qed.

Lemma drop_none_app (a b : list (option range * V)) : drop_none (a ++ b) = drop_none a ++ drop_none b.
Proof.
  induction a as [|[[r|] v] t IH]; cbn [drop_none app]; [reflexivity| |assumption].
  rewrite IH. reflexivity.
Qed.

(* None sorts before every Some and the sort is stable, so dropping the None entries commutes with sorting:
   the trait's builder is the parser-local builder on the entries that have a range. *)
Lemma drop_none_insert (x : option range * V) l :
  drop_none (insert_stable okey_lt x l) =
  match fst x with Some r => insert_stable range_lt (r, snd x) (drop_none l) | None => drop_none l end.
Proof.
  destruct x as [[r|] v]; cbn [fst snd].
  - induction l as [|[[ry|] vy] t IH]; cbn [insert_stable drop_none fst okey_lt]; [reflexivity| |exact IH].
    destruct (range_lt ry r); cbn [drop_none]; [rewrite IH|]; reflexivity.
  - destruct l as [|[[ry|] vy] t]; reflexivity.
Qed.

Lemma drop_none_sort (l : list (option range * V)) :
  drop_none (sort_stable okey_lt l) = sort_stable range_lt (drop_none l).
Proof.
  induction l as [|[[r|] v] t IH]; cbn [sort_stable fold_right]; [reflexivity| |];
    rewrite drop_none_insert; exact (f_equal _ IH) || exact IH.
Qed.

Lemma safe_is_safe_p l : into_rangemap_safe eqb l = into_rangemap_safe_p eqb (drop_none l).
Proof. unfold into_rangemap_safe, into_rangemap_safe_p. rewrite drop_none_sort. reflexivity. Qed.

Definition start_le (a b : range * V) : Prop := fst (fst a) <= fst (fst b).

Lemma range_sorted_start (l : list (range * V)) :
  StronglySorted (le_keys range_lt) l -> StronglySorted start_le l.
Proof.
  induction 1 as [|x t Ht IH Hall]; constructor; [assumption|].
  eapply Forall_impl; [|exact Hall]. unfold le_keys, start_le, range_lt. intros y; lia.
Qed.

Lemma sorted_app_inv {A} (R : A -> A -> Prop) l1 l2 :
  StronglySorted R (l1 ++ l2) -> StronglySorted R l1 /\ Forall (fun a => Forall (R a) l2) l1.
Proof.
  induction l1 as [|a t IH]; cbn [app]; intros H; [split; constructor|].
  inversion H as [|? ? Ht Ha]; subst. apply Forall_app in Ha. destruct (IH Ht). split; constructor; tauto.
Qed.

Lemma sorted_snoc {A} (R : A -> A -> Prop) l x :
  StronglySorted R l -> Forall (fun y => R y x) l -> StronglySorted R (l ++ [x]).
Proof.
  induction 1 as [|y t Ht IH Hy]; intros Hx; cbn [app]; [repeat constructor|].
  inversion Hx; subst. constructor; [auto|]. apply Forall_app. split; [assumption|]. repeat constructor. assumption.
Qed.

(* [acc] is reversed output.  Strictly disjoint and increasing, read backwards. *)
Definition gap (later earlier : range * V) : Prop := snd (fst earlier) < fst (fst later).
(* no two neighbours that normalize would still merge *)
Definition no_touch (later earlier : range * V) : Prop :=
  ~ (fst (fst later) <= sat_add 64 (snd (fst earlier)) 1 /\ eqb (snd later) (snd earlier) = true).

(* the invariant of the merge loop: every range well-formed, neighbours apart and not mergeable *)
Inductive acc_ok : list (range * V) -> Prop :=
| acc_nil : acc_ok []
| acc_one x : wf_range (fst x) -> acc_ok [x]
| acc_cons x y t : wf_range (fst x) -> gap x y -> no_touch x y -> acc_ok (y :: t) -> acc_ok (x :: y :: t).

Lemma acc_ok_tail x t : acc_ok (x :: t) -> acc_ok t.
Proof. inversion 1; subst; [constructor|assumption]. Qed.
Lemma acc_ok_head_wf x t : acc_ok (x :: t) -> wf_range (fst x).
Proof. inversion 1; subst; assumption. Qed.
Lemma acc_ok_suffix a b : acc_ok (a ++ b) -> acc_ok b.
Proof. induction a as [|x a IH]; cbn [app]; [auto|]. intros H. apply IH. eapply acc_ok_tail. exact H. Qed.

Lemma acc_ok_wf acc : acc_ok acc -> wf_ranges acc.
Proof.
  induction acc as [|x t IH]; intros H; constructor; [eapply acc_ok_head_wf|apply IH; eapply acc_ok_tail]; exact H.
Qed.

Definition head_start_le (acc : list (range * V)) (s : Z) : Prop :=
  match acc with [] => True | (lr, _) :: _ => fst lr <= s end.

(* the bound on the start of the last range (second conjunct, here and in fold_merge_ok) is what
   merge_sorted_complete needs: the isolated entry starts right of everything pushed before it *)
Lemma merge_step_ok acc rv :
  acc_ok acc -> wf_range (fst rv) -> head_start_le acc (fst (fst rv)) ->
  acc_ok (merge_step eqb acc rv) /\
  (forall s, fst (fst rv) <= s -> head_start_le (merge_step eqb acc rv) s).
Proof.
  intros Hok Hwf Hhd. destruct rv as [r v], acc as [|[lr lv] acc']; cbn [merge_step fst snd head_start_le] in *.
  - split; [constructor; assumption|auto].
  - pose proof (acc_ok_head_wf _ _ Hok) as Hlwf. unfold wf_range in *. cbn [fst] in Hlwf.
    destruct ((fst r <=? snd lr) && negb (eqb v lv)) eqn:E1; [split; [assumption|cbn; lia]|].
    destruct ((fst r <=? sat_add 64 (snd lr) 1) && eqb v lv) eqn:E2; (split; [|cbn; lia]).
    + (* the last range grows; what lies before it stays further left *)
      inversion Hok; subst; constructor; try assumption; unfold wf_range; cbn [fst snd]; lia.
    + constructor; try assumption.
      * unfold gap; cbn [fst snd]. unfold sat_add in E2. rewrite two64_val in *. destruct (eqb v lv); lia.
      * unfold no_touch; cbn [fst snd]. intros [Ha Hb]. rewrite Hb in E2. lia.
Qed.

(* what the fold needs to know of its input: well-formed, sorted by start, nothing starts left of the last range *)
Definition fold_pre (l acc : list (range * V)) : Prop :=
  acc_ok acc /\ wf_ranges l /\ StronglySorted start_le l /\ Forall (fun e => head_start_le acc (fst (fst e))) l.

Lemma fold_pre_nil l : wf_ranges l -> StronglySorted start_le l -> fold_pre l [].
Proof. intros Hwf Hs. repeat split; [constructor|assumption..|]. apply Forall_forall. intros; exact I. Qed.

Lemma fold_pre_step rv t acc : fold_pre (rv :: t) acc ->
  wf_range (fst rv) /\ head_start_le acc (fst (fst rv)) /\ fold_pre t (merge_step eqb acc rv).
Proof.
  intros (Hok & Hwf & Hs & Hhd). inversion Hwf; inversion Hs as [|? ? Hs1 Hs2]; inversion Hhd; subst.
  destruct (merge_step_ok acc rv) as [Hok' Hhd']; [assumption..|].
  do 2 (split; [assumption|]). split; [exact Hok'|]. do 2 (split; [assumption|]).
  eapply Forall_impl; [|exact Hs2]. intros e. apply Hhd'.
Qed.

Lemma fold_merge_ok l : forall acc, fold_pre l acc ->
  let acc' := fold_left (merge_step eqb) l acc in
  acc_ok acc' /\
  (forall s, Forall (fun e => fst (fst e) <= s) l -> head_start_le acc s -> head_start_le acc' s).
Proof.
  induction l as [|rv t IH]; intros acc H; cbn [fold_left]; [split; [apply H|auto]|].
  pose proof H as (Hok & _). destruct (fold_pre_step _ _ _ H) as (Hwf & Hhd & H').
  destruct (IH _ H') as [A B]. split; [exact A|]. intros s Hall _. inversion Hall; subst.
  apply B; [assumption|]. apply (merge_step_ok acc rv); assumption.
Qed.

(* output order *)
Definition strictly_before (a b : range * V) : Prop := snd (fst a) < fst (fst b).

Lemma acc_ok_forall_gap x t : acc_ok (x :: t) -> Forall (fun y => gap x y) t.
Proof.
  revert x. induction t as [|y t IH]; intros x H; [constructor|].
  inversion H as [| |? ? ? _ Hg _ Hyt]; subst. constructor; [assumption|].
  eapply Forall_impl; [|exact (IH y Hyt)]. intros z. apply acc_ok_head_wf in Hyt. unfold gap, wf_range in *. lia.
Qed.

Lemma acc_ok_rev_sorted acc : acc_ok acc -> StronglySorted strictly_before (rev acc).
Proof.
  induction acc as [|x t IH]; intros H; cbn [rev]; [constructor|].
  apply sorted_snoc; [apply IH; eapply acc_ok_tail; exact H|]. apply Forall_rev. exact (acc_ok_forall_gap _ _ H).
Qed.

Lemma merge_sorted_disjoint l :
  wf_ranges l -> StronglySorted start_le l ->
  StronglySorted strictly_before (merge_sorted eqb l) /\ wf_ranges (merge_sorted eqb l).
Proof.
  intros Hwf Hs. destruct (fold_merge_ok l [] (fold_pre_nil l Hwf Hs)) as [Hok _].
  split; [apply acc_ok_rev_sorted|apply Forall_rev, acc_ok_wf]; exact Hok.
Qed.

Lemma norm_step_push acc rv : acc_ok (rv :: acc) -> norm_step eqb (acc, []) rv = (rv :: acc, []).
Proof.
  destruct acc as [|[lr lv] acc'], rv as [r v]; cbn [norm_step]; [reflexivity|].
  inversion 1 as [| |? ? ? _ Hg Hn _]; subst. unfold gap, no_touch in *. cbn [fst snd] in *.
  destruct ((fst r <=? snd lr) && negb (eqb v lv)) eqn:E1; [lia|].
  destruct ((fst r <=? sat_add 64 (snd lr) 1) && eqb v lv) eqn:E2; [|reflexivity].
  exfalso. apply Hn. apply andb_prop in E2. split; [lia|apply E2].
Qed.

Lemma norm_id_gen l : forall acc,
  acc_ok (rev l ++ acc) -> fold_left (norm_step eqb) l (acc, []) = (rev l ++ acc, []).
Proof.
  induction l as [|rv t IH]; intros acc H; cbn [fold_left rev app] in *; [reflexivity|].
  rewrite <- app_assoc in *. rewrite norm_step_push by exact (acc_ok_suffix _ _ H). apply IH. exact H.
Qed.

Lemma normalize_id acc : acc_ok acc -> rm_normalize eqb (rev acc) = (rev acc, []).
Proof.
  intros H. unfold rm_normalize. rewrite (norm_id_gen (rev acc) []); rewrite rev_involutive, app_nil_r; [reflexivity|exact H].
Qed.

Lemma strictly_sorted_le l :
  wf_ranges l -> StronglySorted strictly_before l -> StronglySorted (le_keys range_lt) l.
Proof.
  intros Hwf Hs. induction Hs as [|x t Ht IH Hall]; constructor; inversion Hwf as [|? ? Hx Hw]; subst; [auto|].
  rewrite Forall_forall in *. intros y Hy. specialize (Hall _ Hy). specialize (Hw _ Hy).
  unfold strictly_before, le_keys, range_lt, wf_range in *. lia.
Qed.

Lemma try_from_iter_id l :
  wf_ranges l -> StronglySorted start_le l ->
  rm_try_from_iter eqb (merge_sorted eqb l) = Ret (merge_sorted eqb l).
Proof.
  intros Hwf Hs. destruct (merge_sorted_disjoint l Hwf Hs) as [Hsd Hw].
  destruct (fold_merge_ok l [] (fold_pre_nil l Hwf Hs)) as [Hok _].
  unfold rm_try_from_iter. rewrite sort_id by (apply strictly_sorted_le; assumption).
  unfold merge_sorted. rewrite normalize_id by exact Hok. reflexivity.
Qed.

(* every point of an accumulator range lies in an already processed input range with that value *)
Definition covered (inp : list (range * V)) (e : range * V) : Prop :=
  forall x, contains (fst e) x = true -> exists r, In (r, snd e) inp /\ contains r x = true.

Lemma covered_incl a b e : incl a b -> covered a e -> covered b e.
Proof. intros Hi Hc x Hx. destruct (Hc x Hx) as [r [Hin Hr]]. exists r. auto. Qed.

Lemma merge_step_covered inp acc rv :
  Forall (covered inp) acc -> head_start_le acc (fst (fst rv)) ->
  Forall (covered (rv :: inp)) (merge_step eqb acc rv).
Proof.
  intros Hc Hhd.
  assert (Hrv : covered (rv :: inp) rv).
  { intros x Hx. exists (fst rv). destruct rv. split; [left; reflexivity|exact Hx]. }
  assert (Hc' : Forall (covered (rv :: inp)) acc).
  { eapply Forall_impl; [|exact Hc]. intros e. apply covered_incl, incl_tl, incl_refl. }
  destruct acc as [|[lr lv] acc'], rv as [r v]; cbn [merge_step]; [repeat constructor; assumption|].
  destruct ((fst r <=? snd lr) && negb (eqb v lv)); [assumption|].
  destruct ((fst r <=? sat_add 64 (snd lr) 1) && eqb v lv) eqn:E2; [|constructor; assumption].
  (* the merged range: its points left of the old end are the old range's, the others the new range's *)
  inversion Hc' as [|? ? Hl Ht]; subst. constructor; [|assumption].
  apply andb_prop in E2. destruct E2 as [E2 Ev]. apply eqb_eq in Ev. subst lv.
  intros x Hx. unfold contains in Hx. cbn [fst snd] in Hx, Hhd.
  destruct (x <=? snd lr) eqn:Ex; [apply Hl|apply Hrv]; unfold contains; cbn [fst snd]; unfold sat_add in E2; lia.
Qed.

Lemma fold_merge_covered l : forall acc inp, fold_pre l acc ->
  Forall (covered inp) acc -> Forall (covered (rev l ++ inp)) (fold_left (merge_step eqb) l acc).
Proof.
  induction l as [|rv t IH]; intros acc inp H Hc; cbn [fold_left rev app]; [assumption|].
  destruct (fold_pre_step _ _ _ H) as (_ & Hhd & H'). rewrite <- app_assoc.
  apply IH; [exact H'|]. apply merge_step_covered; assumption.
Qed.

Lemma merge_sorted_covered l :
  wf_ranges l -> StronglySorted start_le l -> Forall (covered l) (merge_sorted eqb l).
Proof.
  intros Hwf Hs. apply Forall_rev.
  eapply Forall_impl; [|exact (fold_merge_covered l [] [] (fold_pre_nil l Hwf Hs) (Forall_nil _))].
  intros e. apply covered_incl. intros a Ha. rewrite app_nil_r in Ha. apply in_rev. exact Ha.
Qed.

(* rm_get only ever answers from an element that contains the point *)
Lemma rm_get_in (elts : list (range * V)) x v :
  rm_get elts x = Some v -> exists r, In (r, v) elts /\ contains r x = true.
Proof.
  unfold rm_get. destruct elts as [|e0 t]; [discriminate|].
  set (b := bsearch_loop _ _ _ _ _). destruct (nth_error (e0 :: t) b) as [[r v']|] eqn:En; [|discriminate].
  unfold range_cmp_pt. destruct (snd r <? x) eqn:E1; [discriminate|].
  destruct (fst r >? x) eqn:E2; [discriminate|]. intros H; inversion H; subst.
  exists r. split; [eapply nth_error_In; eassumption|]. unfold contains. lia.
Qed.

Definition nth_sorted (elts : list (range * V)) : Prop :=
  forall i j ei ej, (i < j)%nat -> nth_error elts i = Some ei -> nth_error elts j = Some ej ->
                    snd (fst ei) < fst (fst ej).

Lemma sorted_nth (elts : list (range * V)) : StronglySorted strictly_before elts -> nth_sorted elts.
Proof.
  induction 1 as [|x t Ht IH Hall]; intros i j ei ej Hij Hi Hj.
  - destruct i; discriminate.
  - destruct j as [|j]; [lia|]. cbn [nth_error] in Hj. destruct i as [|i]; cbn [nth_error] in Hi.
    + inversion Hi; subst. rewrite Forall_forall in Hall. apply Hall. eapply nth_error_In; eassumption.
    + eapply IH; [|eassumption|eassumption]. lia.
Qed.

Lemma div2_bounds n : (2 <= n -> 1 <= Nat.div2 n /\ Nat.div2 n <= n - Nat.div2 n)%nat.
Proof.
  intros H. pose proof (Nat.div2_odd n) as Ho. destruct (Nat.odd n); cbn [Nat.b2n] in Ho; lia.
Qed.

(* the window [base, base + size) always holds the index k of the element that contains x *)
Lemma bsearch_finds (elts : list (range * V)) x k ek :
  nth_sorted elts -> wf_ranges elts ->
  nth_error elts k = Some ek -> contains (fst ek) x = true ->
  forall fuel base size,
    (size <= fuel)%nat -> (1 <= size)%nat -> (base <= k < base + size)%nat ->
    (base + size <= length elts)%nat ->
    bsearch_loop fuel elts x base size = k.
Proof.
  intros Hs Hwf Hk Hc. unfold wf_ranges in Hwf. rewrite Forall_forall in Hwf.
  pose proof (Hwf _ (nth_error_In _ _ Hk)) as Hwk. unfold contains in Hc. unfold wf_range in Hwk.
  induction fuel as [|fuel IH]; intros base size Hf H1 Hb Hlen; [lia|].
  cbn [bsearch_loop]. destruct (Nat.leb size 1) eqn:El.
  - apply Nat.leb_le in El. lia.
  - apply Nat.leb_gt in El. destruct (div2_bounds size) as [Hh1 Hh2]; [lia|].
    set (half := Nat.div2 size) in *. set (mid := (base + half)%nat).
    destruct (nth_error elts mid) as [[r v]|] eqn:Em.
    2:{ apply nth_error_None in Em. lia. }
    pose proof (Hwf _ (nth_error_In _ _ Em)) as Hwr. unfold wf_range in Hwr. cbn [fst] in Hwr.
    (* how the element at mid lies to the one at k *)
    assert (Hord : ((k < mid)%nat -> snd (fst ek) < fst r) /\ ((mid < k)%nat -> snd r < fst (fst ek)) /\
                   (k = mid -> fst ek = r)).
    { split; [|split]; intros Hlt.
      - exact (Hs k mid ek (r, v) Hlt Hk Em).
      - exact (Hs mid k (r, v) ek Hlt Em Hk).
      - subst k. rewrite Em in Hk. inversion Hk. reflexivity. }
    destruct Hord as (O1 & O2 & O3).
    unfold range_cmp_pt. destruct (snd r <? x) eqn:E1; [|destruct (fst r >? x) eqn:E2]; apply IH; try lia.
    destruct (Nat.eq_dec k mid) as [E|E]; [rewrite (O3 E) in *|]; lia.
Qed.

Lemma rm_get_complete (elts : list (range * V)) x r v :
  StronglySorted strictly_before elts -> wf_ranges elts ->
  In (r, v) elts -> contains r x = true -> rm_get elts x = Some v.
Proof.
  intros Hs Hwf Hin Hc. apply In_nth_error in Hin. destruct Hin as [k Hk].
  unfold rm_get. destruct elts as [|e0 t] eqn:Ee; [destruct k; discriminate|]. rewrite <- Ee in *.
  assert (Hlen : (k < length elts)%nat) by (apply nth_error_Some; congruence).
  rewrite (bsearch_finds elts x k (r, v)); try assumption; try lia; [|apply sorted_nth; assumption].
  rewrite Hk. unfold range_cmp_pt. unfold contains in Hc. cbn [fst snd] in *.
  destruct (snd r <? x) eqn:E1; [lia|]. destruct (fst r >? x) eqn:E2; [lia|]. reflexivity.
Qed.

Lemma find_linear_spec (elts : list (range * V)) x :
  match find_linear elts x with
  | Some v => exists r, In (r, v) elts /\ contains r x = true
  | None => forall r v, In (r, v) elts -> contains r x = false
  end.
Proof.
  induction elts as [|[r' v'] t IH]; cbn [find_linear]; [intros ? ? []|].
  destruct (contains r' x) eqn:Ec; [exists r'; split; [left; reflexivity|exact Ec]|].
  destruct (find_linear t x) as [v|].
  - destruct IH as [r [Hin Hc]]. exists r. split; [right; exact Hin|exact Hc].
  - intros r v [H|H]; [inversion H; subst; exact Ec|eauto].
Qed.

Lemma rm_get_is_find (elts : list (range * V)) x :
  StronglySorted strictly_before elts -> wf_ranges elts ->
  rm_get elts x = find_linear elts x.
Proof.
  intros Hs Hwf. pose proof (find_linear_spec elts x) as Hf. destruct (find_linear elts x) as [v|].
  - destruct Hf as [r [Hin Hc]]. eapply rm_get_complete; eassumption.
  - destruct (rm_get elts x) as [v|] eqn:Eg; [|reflexivity].
    apply rm_get_in in Eg. destruct Eg as [r [Hin Hc]]. rewrite (Hf r v Hin) in Hc. discriminate.
Qed.

(* [r] is present in the accumulator: some element with an equal value spans it *)
Definition spans (r : range) (v : V) (e : range * V) : Prop :=
  fst (fst e) <= fst r /\ snd r <= snd (fst e) /\ snd e = v.

Lemma merge_step_keeps r v acc rv :
  Exists (spans r v) acc -> Exists (spans r v) (merge_step eqb acc rv).
Proof.
  intros He. destruct acc as [|[lr lv] acc']; [inversion He|]. cbn [merge_step]. destruct rv as [r' v'].
  destruct ((fst r' <=? snd lr) && negb (eqb v' lv)); [assumption|].
  destruct ((fst r' <=? sat_add 64 (snd lr) 1) && eqb v' lv); [|right; assumption].
  inversion He as [? ? Hh|? ? Ht]; subst; [left|right; assumption].
  unfold spans in *. cbn [fst snd] in *. destruct Hh as (A & B & C). repeat split; [lia|lia|assumption].
Qed.

Lemma fold_merge_keeps r v l : forall acc,
  Exists (spans r v) acc -> Exists (spans r v) (fold_left (merge_step eqb) l acc).
Proof.
  induction l as [|rv t IH]; intros acc He; cbn [fold_left]; [assumption|].
  apply IH. apply merge_step_keeps. assumption.
Qed.

(* an input range that meets no other input range is pushed as it is (or onto an equal-valued range that ends
   just before it), and stays spanned from then on *)
Lemma merge_sorted_complete l1 r v l2 :
  let l := l1 ++ (r, v) :: l2 in
  wf_ranges l -> StronglySorted start_le l ->
  (forall r' v', In (r', v') (l1 ++ l2) -> intersects r r' = false) ->
  Exists (spans r v) (merge_sorted eqb l).
Proof.
  intros l Hwf Hs Hiso. unfold merge_sorted. apply Exists_rev. subst l.
  rewrite fold_left_app. cbn [fold_left]. apply fold_merge_keeps.
  apply Forall_app in Hwf. destruct Hwf as [Hwf1 Hwfr]. apply Forall_inv in Hwfr. cbn [fst] in Hwfr.
  apply sorted_app_inv in Hs. destruct Hs as [Hs1 Hle].
  assert (Hpre : fold_pre l1 []) by (apply fold_pre_nil; assumption).
  destruct (fold_merge_ok l1 [] Hpre) as [_ Hhd].
  pose proof (fold_merge_covered l1 [] [] Hpre (Forall_nil _)) as Hcov. rewrite app_nil_r in Hcov.
  assert (Hle' : Forall (fun e => fst (fst e) <= fst r) l1).
  { eapply Forall_impl; [|exact Hle]. intros a Ha. apply Forall_inv in Ha. exact Ha. }
  specialize (Hhd (fst r) Hle' I). cbv zeta in Hhd.
  destruct (fold_left (merge_step eqb) l1 []) as [|[lr lv] acc']; cbn [merge_step].
  - left. unfold spans. cbn [fst snd]. repeat split; lia.
  - cbn [head_start_le] in Hhd.
    assert (Hgap : snd lr < fst r).
    { (* otherwise the start of r lies in the last range, hence in an earlier input range *)
      destruct (Z_lt_ge_dec (snd lr) (fst r)) as [Hlt|Hge]; [assumption|exfalso].
      apply Forall_inv in Hcov. destruct (Hcov (fst r)) as [r' [Hin Hc]]; [unfold contains; cbn [fst snd]; lia|].
      apply in_rev in Hin. specialize (Hiso r' lv (in_or_app _ _ _ (or_introl Hin))).
      unfold intersects, contains, wf_range in *. lia. }
    destruct ((fst r <=? snd lr) && negb (eqb v lv)) eqn:E1; [lia|].
    destruct ((fst r <=? sat_add 64 (snd lr) 1) && eqb v lv) eqn:E2; left; unfold spans; cbn [fst snd].
    + apply andb_prop in E2. destruct E2 as [_ Ev]. apply eqb_eq in Ev. repeat split; [| |symmetry; exact Ev]; lia.
    + repeat split; lia.
Qed.

Lemma sorted_input_ok_p (l : list (range * V)) :
  wf_ranges l ->
  wf_ranges (sort_stable range_lt l) /\ StronglySorted start_le (sort_stable range_lt l).
Proof.
  intros Hwf. split.
  - unfold wf_ranges in *. eapply Permutation_Forall; [apply sort_perm|assumption].
  - apply range_sorted_start. apply sort_sorted; [apply range_lt_asym|apply range_lt_negtrans].
Qed.

Lemma build_total_p l : wf_ranges l -> build_p eqb l = Ret (into_rangemap_safe_p eqb l).
Proof.
  intros Hwf. destruct (sorted_input_ok_p l Hwf) as [A B].
  unfold build_p, into_rangemap_safe_p. apply try_from_iter_id; assumption.
Qed.

Lemma build_total l : wf_entries l -> build eqb l = Ret (into_rangemap_safe eqb l).
Proof. intros Hwf. unfold build. rewrite safe_is_safe_p. apply build_total_p, drop_none_wf, Hwf. Qed.

Lemma sorted_disjoint_p l : wf_ranges l ->
  StronglySorted strictly_before (into_rangemap_safe_p eqb l) /\ wf_ranges (into_rangemap_safe_p eqb l).
Proof.
  intros Hwf. destruct (sorted_input_ok_p l Hwf) as [A B]. apply merge_sorted_disjoint; assumption.
Qed.

Lemma sorted_disjoint l : wf_entries l ->
  StronglySorted strictly_before (into_rangemap_safe eqb l) /\ wf_ranges (into_rangemap_safe eqb l).
Proof. intros Hwf. rewrite safe_is_safe_p. apply sorted_disjoint_p, drop_none_wf, Hwf. Qed.

Lemma lookup_sound_p l x v : wf_ranges l ->
  rm_get (into_rangemap_safe_p eqb l) x = Some v ->
  exists r, In (r, v) l /\ contains r x = true.
Proof.
  intros Hwf Hg. destruct (sorted_input_ok_p l Hwf) as [A B].
  apply rm_get_in in Hg. destruct Hg as [R [Hin Hc]].
  pose proof (merge_sorted_covered _ A B) as Hcov. rewrite Forall_forall in Hcov.
  destruct (Hcov _ Hin x Hc) as [r [Hr Hx]]. exists r. split; [|assumption].
  eapply Permutation_in; [symmetry; apply sort_perm|exact Hr].
Qed.

(* the loop changes ranges only: the value of a table entry is the value of some input entry *)
Lemma table_value_in l r v : wf_ranges l -> In (r, v) (into_rangemap_safe_p eqb l) -> exists r', In (r', v) l.
Proof.
  intros Hwf Hin. destruct (sorted_input_ok_p l Hwf) as [A B]. destruct (sorted_disjoint_p l Hwf) as [_ Hw].
  pose proof (merge_sorted_covered _ A B) as Hcov. unfold wf_ranges in Hw. rewrite Forall_forall in Hcov, Hw.
  pose proof (Hw _ Hin) as Hr. destruct (Hcov _ Hin (fst r)) as [r' [Hr' _]]; [unfold contains, wf_range in *; cbn [fst] in *; lia|].
  exists r'. eapply Permutation_in; [symmetry; apply sort_perm|exact Hr'].
Qed.

Lemma lookup_sound l x v : wf_entries l ->
  rm_get (into_rangemap_safe eqb l) x = Some v ->
  exists r, In (Some r, v) l /\ contains r x = true.
Proof.
  intros Hwf Hg. rewrite safe_is_safe_p in Hg.
  destruct (lookup_sound_p _ x v (drop_none_wf l Hwf) Hg) as [r [Hin Hc]].
  exists r. split; [apply drop_none_in; exact Hin|exact Hc].
Qed.

Lemma spans_get (t : list (range * V)) r v x :
  StronglySorted strictly_before t -> wf_ranges t ->
  Exists (spans r v) t -> contains r x = true -> rm_get t x = Some v.
Proof.
  intros Hs Hw He Hc. apply Exists_exists in He. destruct He as [[R v'] [Hin [H1 [H2 H3]]]].
  cbn [fst snd] in *. subst v'. eapply rm_get_complete; try eassumption.
  unfold contains in *. cbn [fst snd]. lia.
Qed.

Lemma isolated_complete_p l1 r v l2 x :
  let l := l1 ++ (r, v) :: l2 in
  wf_ranges l ->
  (forall r' v', In (r', v') (l1 ++ l2) -> intersects r r' = false) ->
  contains r x = true ->
  rm_get (into_rangemap_safe_p eqb l) x = Some v.
Proof.
  intros l Hwf Hiso Hc. destruct (sorted_input_ok_p l Hwf) as [A B].
  destruct (sorted_disjoint_p l Hwf) as [Hsd Hw].
  (* the sorted vector is a permutation of the input: split it around the isolated entry *)
  assert (Hin : In (r, v) (sort_stable range_lt l)).
  { eapply Permutation_in; [apply sort_perm|]. apply in_elt. }
  apply in_split in Hin. destruct Hin as [s1 [s2 Hs]].
  assert (Hperm : Permutation (l1 ++ l2) (s1 ++ s2)).
  { eapply Permutation_app_inv. rewrite <- Hs. apply sort_perm. }
  eapply spans_get; try eassumption.
  unfold into_rangemap_safe_p. revert A B. rewrite Hs.
  intros A B. apply merge_sorted_complete; try assumption.
  intros r' v' Hin'. apply (Hiso r' v'). eapply Permutation_in; [symmetry; exact Hperm|exact Hin'].
Qed.

Lemma isolated_complete l1 r v l2 x :
  let l := l1 ++ (Some r, v) :: l2 in
  wf_entries l ->
  (forall r' v', In (Some r', v') (l1 ++ l2) -> intersects r r' = false) ->
  contains r x = true ->
  rm_get (into_rangemap_safe eqb l) x = Some v.
Proof.
  intros l Hwf Hiso Hc. apply drop_none_wf in Hwf. subst l.
  rewrite safe_is_safe_p. rewrite drop_none_app in *. apply isolated_complete_p; [exact Hwf| |exact Hc].
  intros r' v' Hin. rewrite <- drop_none_app in Hin. apply (Hiso r' v'), drop_none_in, Hin.
Qed.
End Build.

Lemma filter_perm {A} (f : A -> bool) (a b : list A) :
  Permutation a b -> Permutation (filter f a) (filter f b).
Proof.
  induction 1 as [|x a b H IH|x y a|a b c H1 IH1 H2 IH2]; cbn [filter].
  - constructor.
  - destruct (f x); [constructor|]; assumption.
  - destruct (f x), (f y); try reflexivity. apply perm_swap.
  - etransitivity; eassumption.
Qed.

Lemma unloaded_sorted (ranges : list (option range)) x :
  Permutation (unloaded_at (unloaded_build ranges) x)
              (map snd (filter (fun e => contains (fst e) x) (keep_some (enumerate_from 0 ranges)))) /\
  StronglySorted (le_keys range_lt) (unloaded_build ranges).
Proof.
  split.
  - unfold unloaded_at, unloaded_build. apply Permutation_map. apply filter_perm.
    symmetry. apply sort_perm.
  - apply sort_sorted; [apply range_lt_asym|apply range_lt_negtrans].
Qed.

(* an unloaded entry is listed iff its own range contains the address *)
Lemma keep_some_in (l : list (option range * Z)) r i :
  In (r, i) (keep_some l) <-> In (Some r, i) l.
Proof. exact (drop_none_in l r i). Qed.

Lemma unloaded_iff (ranges : list (option range)) x i :
  In i (unloaded_at (unloaded_build ranges) x) <->
  exists r, In (Some r, i) (enumerate_from 0 ranges) /\ contains r x = true.
Proof.
  unfold unloaded_at, unloaded_build. rewrite in_map_iff. split.
  - intros [[r i'] [Hi Hin]]. cbn [snd] in Hi. subst i'. apply filter_In in Hin. destruct Hin as [Hin Hc].
    exists r. split; [|assumption]. apply keep_some_in.
    eapply Permutation_in; [symmetry; apply sort_perm|exact Hin].
  - intros [r [Hin Hc]]. exists (r, i). split; [reflexivity|]. apply filter_In. split; [|assumption].
    eapply Permutation_in; [apply sort_perm|]. apply keep_some_in. exact Hin.
Qed.
