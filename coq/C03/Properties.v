(* C03/Properties.v — the property theorems of C03, each with its full statement, a short proof from the lemmas of the
   lemma files (an instance, or a few lines) and its `Print Assumptions`, and the non-vacuity examples.  In order: the
   arithmetic / index sites outside the unwinder (the frame bound is C05's, STACK WIN / CFI sites are C06/C07's), argument
   recovery, the instruction fetch and inline levels, the thread loop of into_process_state, the frame budget against the
   file size, the three printers, and the ties to the source.  Which to cite: c03_process_total is the statement for the
   whole modelled pipeline; c03_no_panic_sites and c03_process_total_partial list the single sites it rests on.
   "_refuted" theorems are about the `_v0` models, i.e. the code before the fix commits recorded in
   known_findings.json, or about a variant kept to show that the model expresses a class of defect. *)
From Coq Require Import Lia.
From RM Require Import C08.Model C08.Proofs C03.Model C03.Proofs C03.ArgModel C03.ArgProofs C03.Compose.
From RM Require Import C03.FetchModel C03.FetchProofs.
From RM Require Import C03.ProcessModel C03.ProcessProofs.
From RM Require Import C03.BudgetModel C03.BudgetProofs.
From RM Require Import C03.RenderModel C03.RenderProofs C03.RenderCompose.
From RM Require Gen.C03Render C03.RenderTie.
From RM Require Gen.C03Sites C03.SitesTie.
From RM Require C11.Model C11.Proofs2 C11.Proofs5.
From RM Require C05.Model C05.Proofs.
Open Scope Z_scope.

(* LinuxProcLimits::from: no index panic for any stream contents *)
Theorem c03_limits_total : forall data : bytes, exists r, limits_from data = Ret r.
Proof.
  intros data. unfold limits_from.
  destruct (collect_map_total (fun l => limit_entry (fields l)) (limit_lines data)) as [r [Hr _]];
    [intros l _; apply limit_entry_ok|].
  rewrite Hr. eexists; reflexivity.
Qed.
Print Assumptions c03_limits_total.

Theorem c03_limits_skips_exactly_short_lines : forall m : list bytes,
  limit_entry m = Ret None <-> (length m < 3)%nat.
Proof.
  intros m. unfold limit_entry.
  destruct m as [|a [|b [|c [|d t]]]]; cbn; split; intros H; try reflexivity; try lia; try discriminate.
Qed.
Print Assumptions c03_limits_skips_exactly_short_lines.

(* F-C03b: before the fix a line with fewer than three fields indexed out of bounds: "H\nMax cpu time\n" *)
Theorem c03_limits_refuted : exists data, limits_from_v0 data = Panic PANIC_INDEX.
Proof. exists [72; 10; 77; 97; 120; 32; 99; 112; 117; 32; 116; 105; 109; 101; 10]. vm_compute. reflexivity. Qed.
Print Assumptions c03_limits_refuted.

(* check_for_guard_pages: no overflow trap for any memory map, both profiles *)
Theorem c03_guard_total : forall p rs addr, wf_minfo rs -> exists b, guard_site p rs addr = Ret b.
Proof.
  intros p rs addr Hwf. unfold guard_site.
  destruct (info_at rs addr) as [[[r|] [|]]|] eqn:E; try (eexists; reflexivity).
  apply info_at_in in E. apply Hwf in E. destruct E as [A [B C]].
  rewrite chk_sub64_ok by lia. cbn [obind].
  destruct (snd r - fst r <? GUARD_MEMORY_MAX_SIZE); eexists; reflexivity.
Qed.
Print Assumptions c03_guard_total.

(* F-C03c: before the fix a Linux maps entry ending at 2^64-1 trapped in `end + 1` ... *)
Theorem c03_guard_refuted : exists rs addr, wf_minfo rs /\ guard_site_v0 Debug rs addr = Panic PANIC_ARITH.
Proof.
  exists guard_witness, 18446744073709549568. split; [|vm_compute; reflexivity].
  intros r acc [H|[]]. inversion H; subst. unfold wf_range; cbn. unfold two64. lia.
Qed.
Print Assumptions c03_guard_refuted.

(* ... but never for MINIDUMP_MEMORY_INFO regions, whose ranges end at most at 2^64-2 *)
Theorem c03_guard_meminfo_was_safe : forall p rs addr,
  (forall r acc, In (Some r, acc) rs -> exists base size, 0 <= base /\ 0 <= size /\ mk_range base size = Some r) ->
  exists b, guard_site_v0 p rs addr = Ret b.
Proof.
  intros p rs addr H. apply guard_site_v0_total_below_top.
  intros r acc Hin. destruct (H r acc Hin) as [b [s [Hb [Hs Hr]]]]. exact (mk_range_below_top b s r Hb Hs Hr).
Qed.
Print Assumptions c03_guard_meminfo_was_safe.

(* the repair changes no answer that the old code produced without trapping *)
Theorem c03_guard_fix_conservative : forall l r b,
  (forall o acc, In (Some o, acc) l -> 0 <= snd o) -> 0 <= snd r ->
  adjacent_v0 Debug l r = Ret b -> adjacent l r = b.
Proof. intros l r b _ _. apply adjacent_agrees. Qed.
Print Assumptions c03_guard_fix_conservative.

(* op_analysis implicit stack access: total, in range; equal to the old code for rsp >= 8 *)
Theorem c03_implicit_access_total : forall c rsp a,
  0 <= rsp < two64 -> implicit_access c rsp = Some a -> 0 <= a < two64.
Proof.
  intros c rsp a H. destruct c; cbn [implicit_access]; intros E; inversion E; subst; [|assumption].
  unfold wrap64. apply Z.mod_pos_bound. reflexivity.
Qed.
Print Assumptions c03_implicit_access_total.

Theorem c03_implicit_access_conservative : forall p c rsp,
  8 <= rsp < two64 -> implicit_access_v0 p c rsp = Ret (implicit_access c rsp).
Proof.
  intros p c rsp H. destruct c; cbn [implicit_access_v0 implicit_access]; try reflexivity.
  rewrite chk_sub64_ok by lia. unfold wrap64. rewrite Z.mod_small by lia. reflexivity.
Qed.
Print Assumptions c03_implicit_access_conservative.

(* F-C03g: rsp < 8 at a CALL/PUSH *)
Theorem c03_implicit_access_refuted : exists c rsp, 0 <= rsp < two64 /\ implicit_access_v0 Debug c rsp = Panic PANIC_ARITH.
Proof. exists OpCallPush, 7. split; [unfold two64; lia|vm_compute; reflexivity]. Qed.
Print Assumptions c03_implicit_access_refuted.

(* module tables of print / print_json, given the readers' size filter *)
Theorem c03_module_table_arith : forall p base size,
  0 <= base -> 0 <= size -> module_read_ok base size = true ->
  json_end_addr p base size = Ret (base + size) /\ text_end_addr p base size = Ret (base + size - 1).
Proof. exact module_ends_ok. Qed.
Print Assumptions c03_module_table_arith.

(* frames: the three printers' subtractions cannot trap for a frame satisfying the
   unwinder / lookup invariants (module base, function base and source-line base are at or
   below the instruction: C08 for the module, C11 for the two symbol bases) *)
Theorem c03_render_total : forall p f, frame_ok f ->
  (exists a, text_frame_offset p f = Ret a) /\ (exists b, json_frame_offsets p f = Ret b).
Proof. exact render_frame_total. Qed.
Print Assumptions c03_render_total.

(* the module part of that invariant is discharged here from the C08 lookup-soundness theorem *)
Theorem c03_module_offset_from_c08 : forall p mods instr,
  wf_mods mods -> 0 <= instr < two64 -> exists o, module_offset p mods instr = Ret o.
Proof.
  intros p mods instr Hm Hi. unfold module_offset.
  destruct (rm_get (module_table mods) instr) as [i|] eqn:E; [|eexists; reflexivity].
  destruct (module_table_sound mods instr i Hm E) as [m [Hn Hb]]. rewrite Hn, chk_sub64_ok by lia.
  eexists; reflexivity.
Qed.
Print Assumptions c03_module_offset_from_c08.

Theorem c03_unloaded_offsets_from_c08 : forall p mods instr,
  wf_mods mods -> 0 <= instr < two64 -> exists l, unloaded_offsets p mods instr = Ret l.
Proof. exact unloaded_offsets_total. Qed.
Print Assumptions c03_unloaded_offsets_from_c08.

(* self.threads[requesting_thread] is in bounds *)
Theorem c03_requesting_thread_in_bounds : forall (A : Type) (threads : list A) ids dump_tid want,
  length threads = length ids -> exists r, index_requesting threads ids dump_tid want = Ret r.
Proof.
  intros A threads ids dump_tid want Hlen. unfold index_requesting.
  destruct (requesting_thread ids dump_tid want) as [i|] eqn:E; [|eexists; reflexivity].
  apply requesting_thread_bound in E. rewrite <- Hlen in E.
  destruct (idx_in_bounds threads i E) as [t [Et _]]. rewrite Et. eexists; reflexivity.
Qed.
Print Assumptions c03_requesting_thread_in_bounds.

(* all sites together: Panic is unreachable in every site model, all inputs, both profiles *)
Theorem c03_no_panic_sites :
  (forall data tag, limits_from data <> Panic tag) /\
  (forall p rs addr tag, wf_minfo rs -> guard_site p rs addr <> Panic tag) /\
  (forall p base size tag, 0 <= base -> 0 <= size -> module_read_ok base size = true ->
      json_end_addr p base size <> Panic tag /\ text_end_addr p base size <> Panic tag) /\
  (forall p f tag, frame_ok f -> text_frame_offset p f <> Panic tag /\ json_frame_offsets p f <> Panic tag) /\
  (forall p mods instr tag, wf_mods mods -> 0 <= instr < two64 ->
      module_offset p mods instr <> Panic tag /\ unloaded_offsets p mods instr <> Panic tag) /\
  (forall (A : Type) (threads : list A) ids d w tag, length threads = length ids ->
      index_requesting threads ids d w <> Panic tag).
Proof.
  repeat split; intros; apply ret_not_panic.
  - apply c03_limits_total.
  - apply c03_guard_total; assumption.
  - rewrite (proj1 (c03_module_table_arith p base size H H0 H1)). eexists; reflexivity.
  - rewrite (proj2 (c03_module_table_arith p base size H H0 H1)). eexists; reflexivity.
  - apply (c03_render_total p f H).
  - apply (c03_render_total p f H).
  - apply c03_module_offset_from_c08; assumption.
  - apply c03_unloaded_offsets_from_c08; assumption.
  - apply c03_requesting_thread_in_bounds; assumption.
Qed.
Print Assumptions c03_no_panic_sites.


(* arg_recovery (x86, recover_function_args): splitting a function name of arbitrary Unicode
   text never slices inside a character, and the counters / read head cannot overflow *)
Theorem c03_arg_list_total : forall p (name : str), blen name < 2 ^ 31 ->
  exists r, parse_x86_arg_list p name = Ret r.
Proof. exact parse_x86_arg_list_total. Qed.
Print Assumptions c03_arg_list_total.

Theorem c03_arg_reads_total : forall p nargs sp1 sp2 stack_base,
  (forall s, sp1 = Some s -> 0 <= s < two32) -> (sp1 = None -> sp2 = None) ->
  0 <= stack_base < two64 -> Z.of_nat nargs < 2 ^ 31 ->
  exists r, arg_reads p nargs sp1 sp2 stack_base = Ret r.
Proof.
  intros p nargs sp1 sp2 stack_base H1 H2 Hb Hn. unfold arg_reads. destruct sp1 as [s|].
  - specialize (H1 s eq_refl). apply pops_total; [lia|]. unfold two32, two64 in *. lia.
  - rewrite (H2 eq_refl). eexists. apply pops_idle. lia.
Qed.
Print Assumptions c03_arg_reads_total.

(* the model expresses char-boundary panics: slicing one byte into the text after the last `)`
   traps when a two-byte character follows the parenthesis *)
Theorem c03_arg_junk_slice_refuted : exists name, junk_tail name = Panic PANIC_BOUNDARY.
Proof. exists [102; 40; 41; 160; 99]. vm_compute. reflexivity. Qed.
Print Assumptions c03_arg_junk_slice_refuted.

(* c03_render_total with its hypotheses discharged: module from the C08 lookup, function and
   source-line bases from C11's c11_func_sound / c11_line_sound *)
Theorem c03_render_total_discharged : forall p q rf mods instr i m o,
  wf_mods mods -> 0 <= instr < two64 -> C11.Proofs2.wf_file rf ->
  rm_get (module_table mods) instr = Some i -> nth_error mods (Z.to_nat i) = Some m ->
  C11.Model.symbolize q rf (fst m) instr = Ret o ->
  (exists a, text_frame_offset p (frame_of instr (fst m) o) = Ret a) /\
  (exists b, json_frame_offsets p (frame_of instr (fst m) o) = Ret b).
Proof.
  intros p q rf mods instr i m o Hm Hi Hwf Hg Hn Hs. apply render_frame_total.
  destruct (module_table_sound mods instr i Hm Hg) as [m' [Hn' Hb]]. rewrite Hn in Hn'. inversion Hn'; subst m'.
  eapply frame_of_ok; eauto; lia.
Qed.
Print Assumptions c03_render_total_discharged.

(* top level (partial): the stages of processing a thread, each total.  Walking terminates
   within fuel |stack| + 3 with at most |stack| + 2 frames (C05); every site outside the walker
   returns without Panic (this file); every frame symbolised by C11 inside a module found by C08
   renders; argument recovery on any name cannot trap.  What is NOT composed here: the glue between
   the stages (async plumbing, the disassembler, serde_json) — search harness only. *)
Theorem c03_process_total_partial :
  (forall p a os mem module_at max_module_addr cfi_walk instr_valid,
     C05.Proofs.arch_ok a -> C05.Proofs.mem_wf mem ->
     (forall callee gc fwd r v, cfi_walk callee gc fwd = Some (r, v) -> C05.Proofs.regs_wf a r) ->
     forall r v, C05.Proofs.regs_wf a r ->
     exists fs, C05.Model.walk_stack C05.Model.current_code p a os mem module_at max_module_addr cfi_walk instr_valid
                  (C05.Model.fuel_for mem) r v = Ret fs /\
                (length fs <= length (C05.Model.m_bytes mem) + 2)%nat) /\
  (forall data tag, limits_from data <> Panic tag) /\
  (forall p rs addr tag, wf_minfo rs -> guard_site p rs addr <> Panic tag) /\
  (forall (A : Type) (threads : list A) ids d w tag, length threads = length ids ->
     index_requesting threads ids d w <> Panic tag) /\
  (forall p base size tag, 0 <= base -> 0 <= size -> module_read_ok base size = true ->
     json_end_addr p base size <> Panic tag /\ text_end_addr p base size <> Panic tag) /\
  (forall p mods instr tag, wf_mods mods -> 0 <= instr < two64 ->
     module_offset p mods instr <> Panic tag /\ unloaded_offsets p mods instr <> Panic tag) /\
  (forall p q rf mods instr i m o tag,
     wf_mods mods -> 0 <= instr < two64 -> C11.Proofs2.wf_file rf ->
     rm_get (module_table mods) instr = Some i -> nth_error mods (Z.to_nat i) = Some m ->
     C11.Model.symbolize q rf (fst m) instr = Ret o ->
     text_frame_offset p (frame_of instr (fst m) o) <> Panic tag /\
     json_frame_offsets p (frame_of instr (fst m) o) <> Panic tag) /\
  (forall p name tag, blen name < 2 ^ 31 -> parse_x86_arg_list p name <> Panic tag).
Proof.
  split; [intros p a os mem ma mm cw iv Ha Hm Hc r v Hr;
          exact (C05.Proofs.frame_bound p a os mem ma mm cw iv C05.Model.current_code eq_refl Ha Hm Hc eq_refl r v Hr)|].
  destruct c03_no_panic_sites as [S1 [S2 [S3 [_ [S5 S6]]]]].
  split; [exact S1|]. split; [exact S2|]. split; [exact S6|]. split; [exact S3|]. split; [exact S5|].
  split.
  - intros p q rf mods instr i m o tag H1 H2 H3 H4 H5 H6.
    split; apply ret_not_panic; apply (c03_render_total_discharged p q rf mods instr i m o H1 H2 H3 H4 H5 H6).
  - intros p name tag H. apply ret_not_panic, c03_arg_list_total, H.
Qed.
Print Assumptions c03_process_total_partial.

(* "H\nMax cpu time  unlimited  5  seconds\nx\nMax nice  0  0\n": one short line skipped *)
Example c03_nonvacuous_limits :
  limits_from [72;10; 77;97;120;32;99;112;117;32;116;105;109;101;32;32;117;110;108;105;109;105;116;101;100;32;32;53;32;32;115;10;
               120;10; 77;32;110;32;32;48;32;32;48;10]
  = Ret [([77;97;120;32;99;112;117;32;116;105;109;101], Unlimited, Limited 5, [115]);
         ([77;32;110], Limited 0, Limited 0, NA)].
Proof. vm_compute. reflexivity. Qed.

(* a 4 KiB no-access map below a readable one is a likely guard page; hypotheses satisfiable *)
Example c03_nonvacuous_guard :
  let rs := [(mk_range_maps 28672 32767, false); (mk_range_maps 32768 36863, true)] in
  wf_minfo rs /\ guard_site Debug rs 28677 = Ret true.
Proof.
  split; [|vm_compute; reflexivity].
  intros r acc [H|[H|[]]]; vm_compute in H; inversion H; subst; unfold wf_range, two64; cbn [fst snd]; lia.
Qed.

Example c03_nonvacuous_frame :
  let f := {| f_instr := 4198400; f_module := Some 4194304; f_fname := true; f_fbase := Some 4198000;
              f_srcfl := true; f_sbase := Some 4198396 |} in
  frame_ok f /\ text_frame_offset Debug f = Ret (Some 4) /\ json_frame_offsets Debug f = Ret (Some 4096, Some 400).
Proof.
  split; [|split; vm_compute; reflexivity].
  unfold frame_ok, below; cbn [f_instr f_module f_fbase f_sbase].
  split; [unfold two64; lia|]. repeat apply conj; intros b H; inversion H; subst; lia.
Qed.

Example c03_nonvacuous_requesting :
  index_requesting [10; 20; 30] [7; 8; 9] (Some 7) (Some 9) = Ret (Some 30).
Proof. vm_compute. reflexivity. Qed.

(* `Widget::paint(int, std::map<K, V>)\u{a0}const`: thiscall, two arguments, NBSP after the paren is harmless *)
Example c03_nonvacuous_args :
  parse_x86_arg_list Debug [87;58;58;112;40;105;110;116;44;32;109;60;75;44;32;86;62;41;160;99] =
  Ret (Some (WindowsThisCall, [[105;110;116]; [109;60;75;44;32;86;62]])).
Proof. vm_compute. reflexivity. Qed.

(* op_analysis::get_thread_instruction_bytes: for every list of memory regions the two stream readers can build
   (size = length of the byte slice) and every instruction pointer, in both profiles, the fetch answers "no memory
   there" or returns the bytes from the instruction pointer to the end of ONE region of the list: at least one byte,
   exactly base + size - ip of them, and neither the subtraction nor the slice can trap. *)
Theorem c03_instr_fetch_total : forall p rs ip, wf_regions rs -> 0 <= ip < two64 ->
  fetch_instruction_bytes p rs ip = Ret None \/
  exists m, In m rs /\ r_base m <= ip /\
    fetch_instruction_bytes p rs ip = Ret (Some (skipn (Z.to_nat (ip - r_base m)) (r_bytes m))) /\
    Z.of_nat (length (skipn (Z.to_nat (ip - r_base m)) (r_bytes m))) = r_base m + r_size m - ip /\
    1 <= r_base m + r_size m - ip.
Proof.
  intros p rs ip Hwf Hip. unfold fetch_instruction_bytes.
  destruct (memory_at rs ip) as [m|] eqn:E; [right|left; reflexivity].
  destruct (memory_at_sound _ _ _ Hwf E) as [Hin [Hlo [Hhi Htop]]]. destruct (Hwf m Hin) as [Hb [Hs Hlen]].
  exists m. split; [exact Hin|]. split; [exact Hlo|].
  rewrite chk_sub64_ok by lia. cbn [obind]. rewrite slice_from_ok by lia. cbn [obind].
  split; [reflexivity|]. split; [|lia].
  rewrite skipn_length, Nat2Z.inj_sub, Z2Nat.id by lia. lia.
Qed.
Print Assumptions c03_instr_fetch_total.

(* the lookup the fetch relies on: memory_at_address returns a region of the list that contains the address *)
Theorem c03_memory_at_sound : forall rs x m, wf_regions rs -> memory_at rs x = Some m ->
  In m rs /\ r_base m <= x /\ x <= r_base m + r_size m - 1 /\ r_base m + r_size m <= two64.
Proof. exact memory_at_sound. Qed.
Print Assumptions c03_memory_at_sound.

Example c03_nonvacuous_fetch : wf_regions stitch_witness /\
  fetch_instruction_bytes Debug stitch_witness 4194304 = Ret (Some [72; 139]).
Proof. split; [exact stitch_witness_wf|vm_compute; reflexivity]. Qed.

(* completing a cut-off instruction from the following region without looking at its length:
   the variant panics on a well-formed two-region layout, in both profiles — the model expresses that class *)
Theorem c03_instr_fetch_stitch_refuted : forall p, exists rs ip, wf_regions rs /\ 0 <= ip < two64 /\
  fetch_instruction_bytes_stitched p rs ip = Panic PANIC_INDEX.
Proof.
  intros p. exists stitch_witness, 4194304.
  split; [exact stitch_witness_wf|]. split; [unfold two64; lia|destruct p; vm_compute; reflexivity].
Qed.
Print Assumptions c03_instr_fetch_stitch_refuted.

(* fill_symbol's inline-level enumeration (`for depth in 1..`, stop at the first level without a covering record):
   whatever the INLINE records of the function are (any depths, gaps, duplicates), the loop performs at most
   |records| + 1 lookups (fuel S |records| suffices, no OutOfFuel), the u32 level counter cannot overflow, and the
   frame gets at most |records| inline levels — the work per frame is tied to the size of the symbol file.
   [look_sound] is what get_inlinee_at_depth guarantees (a record of the function, of the depth asked for; the binary
   search itself is C11's model); [look_linear] is an instance. *)
Theorem c03_inline_levels_bound : forall p recs look,
  look_sound recs look -> Z.of_nat (length recs) + 2 < two32 ->
  exists l, inline_loop p (S (length recs)) look 1 [] = Ret l /\ (length l <= length recs)%nat.
Proof.
  intros p recs look Hl Hsz. apply (inline_loop_bound p recs look Hl Hsz); cbn [length map]; [lia|constructor|intros r []|lia].
Qed.
Print Assumptions c03_inline_levels_bound.

Example c03_nonvacuous_inline_levels : look_sound depth_gap_witness (look_linear depth_gap_witness 4) /\
  inline_loop Debug (S (length depth_gap_witness)) (look_linear depth_gap_witness 4) 1 [] = Ret [].
Proof. split; [apply look_linear_sound|vm_compute; reflexivity]. Qed.

(* enumerating up to the largest recorded depth: no fuel below that depth suffices, whatever the
   lookup returns; with two records the |records| + 1 budget is exceeded *)
Theorem c03_inline_maxdepth_refuted :
  (forall look (fuel : nat) maxd acc, Z.of_nat fuel <= maxd -> inline_loop_maxdepth fuel look maxd 1 acc = OutOfFuel) /\
  inline_loop_maxdepth (S (length depth_gap_witness)) (look_linear depth_gap_witness 4)
                       (max_depth_of depth_gap_witness) 1 [] = OutOfFuel.
Proof.
  split; [|vm_compute; reflexivity].
  intros look fuel maxd acc H. apply maxdepth_needs_depth_many_steps. lia.
Qed.
Print Assumptions c03_inline_maxdepth_refuted.

(* PPC / PPC64 / SPARC / unknown-CPU dumps: get_caller_frame's dispatch has no walker for them, so the walk is the
   context frame alone (fuel 1), within the frame bound for any stack — whatever a per-architecture walker would do *)
Theorem c03_no_unwinder_single_frame : forall (F : Type) c (w : F -> option F) (cur : F) (stack_bytes : nat),
  has_unwinder c = false ->
  walk_any 1 (get_caller_dispatch c w) cur = Ret [cur] /\ (length [cur] <= stack_bytes + 2)%nat.
Proof. exact @no_unwinder_single_frame. Qed.
Print Assumptions c03_no_unwinder_single_frame.

(* the instruction fetch and the inline-level loop in the shape of c03_process_total_partial: neither Panic nor OutOfFuel *)
Theorem c03_round4_sites_total :
  (forall p rs ip tag, wf_regions rs -> 0 <= ip < two64 -> fetch_instruction_bytes p rs ip <> Panic tag) /\
  (forall p recs look, look_sound recs look -> Z.of_nat (length recs) + 2 < two32 ->
     (forall tag, inline_loop p (S (length recs)) look 1 [] <> Panic tag) /\
     inline_loop p (S (length recs)) look 1 [] <> OutOfFuel).
Proof.
  split.
  - intros p rs ip tag Hwf Hip. apply ret_not_panic.
    destruct (c03_instr_fetch_total p rs ip Hwf Hip) as [H|[m [_ [_ [H _]]]]]; rewrite H; eexists; reflexivity.
  - intros p recs look Hl Hsz. destruct (c03_inline_levels_bound p recs look Hl Hsz) as [l [H _]].
    rewrite H. split; [intros tag|]; discriminate.
Qed.
Print Assumptions c03_round4_sites_total.

(* tie to the source (translate/c03_sites.py -> Gen/C03Sites.v, regenerated on every run): the model's table of
   CPUs with an unwinder is the set of `=> <arch>::get_caller_frame` arms of the dispatch, the guard-page limit and the
   first inline level are the source's constants *)
Theorem c03_sites_match_source :
  (forall c, has_unwinder (C03.SitesTie.of_gen c) = C03.SitesTie.in_arms c) /\
  GUARD_MEMORY_MAX_SIZE = Gen.C03Sites.gen_guard_memory_max_size /\
  Gen.C03Sites.gen_inline_first_depth = 1.
Proof. split; [intros c; destruct c; reflexivity|split; reflexivity]. Qed.
Print Assumptions c03_sites_match_source.

(* jmp / call through memory (InstructionPointerUpdate): the u64 read out of the memory list is total by
   construction (checked_sub, pread); what is proved is that a value is only ever returned when all 8 bytes lie in ONE
   region of the list (and below 2^64), and that a read cut off by the end of its region fails whatever follows it *)
Theorem c03_read_u64_inside_one_region : forall rs addr v, wf_regions rs -> 0 <= addr < two64 ->
  read_u64_at rs addr = Some v ->
  exists m, In m rs /\ r_base m <= addr /\ addr + 8 <= r_base m + r_size m /\ addr + 8 <= two64 /\
            v = le_value (firstn 8 (skipn (Z.to_nat (addr - r_base m)) (r_bytes m))).
Proof.
  intros rs addr v Hwf Ha H. unfold read_u64_at in H.
  destruct (memory_at rs addr) as [m|] eqn:E; [|discriminate].
  destruct (memory_at_sound _ _ _ Hwf E) as [Hin [Hlo [Hhi Htop]]].
  rewrite (region_read_u64_spec m addr (Hwf m Hin) Hlo) in H.
  destruct (addr + 8 <=? r_base m + r_size m) eqn:E8; [|discriminate]. apply Z.leb_le in E8. inversion H.
  exists m. repeat split; try assumption; lia.
Qed.
Print Assumptions c03_read_u64_inside_one_region.

Theorem c03_read_u64_never_stitches : forall rs addr m, wf_regions rs -> 0 <= addr < two64 ->
  memory_at rs addr = Some m -> r_base m + r_size m < addr + 8 -> read_u64_at rs addr = None.
Proof.
  intros rs addr m Hwf Ha E Hcut. unfold read_u64_at. rewrite E.
  destruct (memory_at_sound _ _ _ Hwf E) as [Hin [Hlo _]].
  rewrite (region_read_u64_spec m addr (Hwf m Hin) Hlo).
  replace (addr + 8 <=? r_base m + r_size m) with false by (symmetry; apply Z.leb_gt; lia). reflexivity.
Qed.
Print Assumptions c03_read_u64_never_stitches.

Example c03_nonvacuous_read_u64 :
  let rs := [ {| r_base := 4096; r_size := 9; r_bytes := [1; 2; 3; 4; 5; 6; 7; 8; 9] |} ] in
  wf_regions rs /\ read_u64_at rs 4097 = Some 650777868590383874 /\ read_u64_at rs 4098 = None.
Proof.
  split; [intros r [H|[]]; subst r; unfold wf_region; cbn; lia|]. split; vm_compute; reflexivity.
Qed.

(* the top-level control flow of MinidumpInfo::into_process_state (C03/ProcessModel.v) composed with C05's walker:
   for EVERY thread list (any number of threads, duplicate ids, threads without context / without stack), every memory
   list the readers can build, every exception / breakpad-info combination and every CPU, in both profiles:
   the whole thread loop returns — no Panic, and no OutOfFuel with the per-thread fuel |chosen stack memory| + 3 that the
   model itself computes — and for every thread-list entry t the call stack o at the same index satisfies [thread_post]:
     same thread id; CallStackInfo as the first pass decided;
     #frames <= (bytes of the stack memory CHOSEN for the thread by the probe logic) + 2;
     no frames without a context, else the context frame of the SELECTED context first;
     every frame's instruction is a u64; one unloaded-module offset list per frame;
   and `requesting_thread`, when set, indexes into the result. *)
Theorem c03_process_threads_total : forall p cpu a os module_at max_module_addr cfi_walk instr_valid pi,
  C05.Proofs.arch_ok a -> input_ok a pi -> cfi_contract a cfi_walk ->
  exists outs,
    process_threads p cpu a os module_at max_module_addr cfi_walk instr_valid pi = Ret (outs, requesting_index pi) /\
    Forall2 (thread_post pi) (pi_threads pi) outs /\
    (forall i, requesting_index pi = Some i -> (i < length outs)%nat).
Proof. intros. apply process_threads_total; assumption. Qed.
Print Assumptions c03_process_threads_total.

(* C03 for the modelled pipeline, full strength: terminates, never panics, frame bound, always renders — for ALL threads.
   On top of c03_process_threads_total: `self.threads[requesting_thread]` of print / print_json cannot index out of bounds,
   and every frame of every thread passes the printers' address arithmetic (module offset, unloaded-module offsets,
   function and source-line offsets of whatever fill_symbol (C11) returned inside the module the C08 lookup found) without
   a trap, in either profile [pr] of the printing code.  Not inside this statement (search harness only): tokio's
   scheduling of the per-thread futures, the disassembler, serde_json, the text formatting itself. *)
Theorem c03_process_total : forall p cpu a os module_at max_module_addr cfi_walk instr_valid pi,
  C05.Proofs.arch_ok a -> input_ok a pi -> cfi_contract a cfi_walk ->
  exists outs,
    process_threads p cpu a os module_at max_module_addr cfi_walk instr_valid pi = Ret (outs, requesting_index pi) /\
    Forall2 (thread_post pi) (pi_threads pi) outs /\
    (exists r, requesting_stack p cpu a os module_at max_module_addr cfi_walk instr_valid pi = Ret r) /\
    forall o f, In o outs -> In f (o_frames o) ->
      forall pr q rf mods, wf_mods mods -> C11.Proofs2.wf_file rf ->
        (exists x, module_offset pr mods (C05.Model.f_instr f) = Ret x) /\
        (exists l, unloaded_offsets pr mods (C05.Model.f_instr f) = Ret l) /\
        forall i m so,
          rm_get (module_table mods) (C05.Model.f_instr f) = Some i -> nth_error mods (Z.to_nat i) = Some m ->
          C11.Model.symbolize q rf (fst m) (C05.Model.f_instr f) = Ret so ->
          (exists x, text_frame_offset pr (frame_of (C05.Model.f_instr f) (fst m) so) = Ret x) /\
          (exists y, json_frame_offsets pr (frame_of (C05.Model.f_instr f) (fst m) so) = Ret y).
Proof.
  intros p cpu a os module_at mma cfi_walk iv pi Ha Hin Hcfi.
  destruct (process_threads_total p cpu a os module_at mma cfi_walk iv Ha Hcfi pi Hin) as [outs [E [F _]]].
  exists outs. split; [exact E|]. split; [exact F|].
  split; [exact (requesting_stack_total p cpu a os module_at mma cfi_walk iv Ha Hcfi pi Hin)|].
  intros o f Ho Hf pr q rf mods Hm Hwf.
  destruct (Forall2_in_r _ _ _ _ F Ho) as [t [_ Hpost]]. pose proof (thread_post_instr_u64 pi t o Hpost) as Hi.
  rewrite Forall_forall in Hi. specialize (Hi f Hf). unfold instr_u64 in Hi.
  split; [exact (c03_module_offset_from_c08 pr mods _ Hm Hi)|].
  split; [exact (unloaded_offsets_total pr mods _ Hm Hi)|].
  intros i m so Hg Hn Hs. exact (c03_render_total_discharged pr q rf mods _ i m so Hm Hi Hwf Hg Hn Hs).
Qed.
Print Assumptions c03_process_total.

(* the stack memory a thread is walked on is never a third region: it is what MinidumpThread::stack_memory returns, or
   (only when a context was selected and the memory list has a region at its stack pointer) that region; and the thread's
   own memory is kept whenever it holds the 8 probe bytes at the stack pointer *)
Theorem c03_stack_memory_choice : forall mem t c,
  (choose_stack_memory mem t c = thread_stack_memory mem t \/
   exists r v, c = Some (r, v) /\ choose_stack_memory mem t c = memory_at mem (C05.Model.r_sp r) /\
               memory_at mem (C05.Model.r_sp r) <> None) /\
  (forall r v m, c = Some (r, v) -> thread_stack_memory mem t = Some m ->
     region_reads m STACK_PROBE_BYTES (C05.Model.r_sp r) = true -> choose_stack_memory mem t c = Some m).
Proof.
  intros mem t c. split; [exact (choose_stack_cases mem t c)|].
  intros r v m Hc E H. subst c. unfold choose_stack_memory. rewrite E, H. reflexivity.
Qed.
Print Assumptions c03_stack_memory_choice.

(* the first pass computes `requesting_thread` exactly as Model.requesting_thread over the thread ids alone *)
Theorem c03_requesting_index_agrees : forall pi,
  requesting_index pi =
  requesting_thread (map th_id (pi_threads pi)) (pi_dump_tid pi) (opt_or (pi_crash_tid pi) (pi_req_tid pi)).
Proof. exact requesting_index_is_requesting_thread. Qed.
Print Assumptions c03_requesting_index_agrees.

(* non-vacuity: an amd64 dump with three threads — the crashing one (exception context; its own stack descriptor is empty,
   start_of_memory_range points at a 16-byte region, the exception context's rsp into another, 32-byte region: that one is
   chosen and yields a frame-pointer frame), the dump-writer thread (skipped) and a thread without context *)
Definition nv_z8 (v : Z) : list Z := [v mod 256; (v / 256) mod 256; (v / 65536) mod 256; (v / 16777216) mod 256; 0; 0; 0; 0].
Definition nv_regA : region := {| r_base := 4096; r_size := 16; r_bytes := repeat 0 16 |}.
Definition nv_regB : region :=
  {| r_base := 8192; r_size := 32; r_bytes := repeat 0 8 ++ nv_z8 8216 ++ nv_z8 4199988 ++ repeat 0 8 |}.
Definition nv_ctx (ip sp fp : Z) : ctx :=
  ({| C05.Model.r_ip := ip; C05.Model.r_sp := sp; C05.Model.r_fp := fp; C05.Model.r_lr := 0; C05.Model.r_gp := [] |}, C05.Model.VAll).
Definition nv_input : proc_in :=
  {| pi_threads := [ {| th_id := 7; th_ctx := Some (nv_ctx 1 4096 0); th_stack := None; th_stack_start := 4096 |};
                     {| th_id := 9; th_ctx := Some (nv_ctx 2 4096 0); th_stack := Some nv_regA; th_stack_start := 4096 |};
                     {| th_id := 11; th_ctx := None; th_stack := None; th_stack_start := 0 |} ];
     pi_dump_tid := Some 9; pi_crash_tid := Some 7; pi_req_tid := Some 11;
     pi_exc_ctx := Some (nv_ctx 4198400 8192 8200); pi_memory := [nv_regA; nv_regB]; pi_unloaded := [(4194304, 65536)] |}.

Example c03_nonvacuous_process :
  C05.Proofs.arch_ok C05.Model.amd64 /\ input_ok C05.Model.amd64 nv_input /\
  cfi_contract C05.Model.amd64 (fun _ _ _ _ => None) /\
  match process_threads Debug CpuAmd64 C05.Model.amd64 0 (fun _ => None) 0 (fun _ _ _ _ => None) (fun _ => false) nv_input with
  | Ret ([o1; o2; o3], Some 0%nat) =>
      map C05.Model.f_instr (o_frames o1) = [4198400; 4199987] /\ o_unloaded o1 = [[4096]; [5683]] /\
      o_info o2 = InfoDumpThreadSkipped /\ o_frames o2 = [] /\ o_info o3 = InfoMissingContext /\ o_frames o3 = []
  | _ => False
  end /\
  choose_stack_memory (pi_memory nv_input) {| th_id := 7; th_ctx := Some (nv_ctx 1 4096 0); th_stack := None; th_stack_start := 4096 |}
    (pi_exc_ctx nv_input) = Some nv_regB.
Proof.
  split; [exact C05.Proofs.arch_ok_amd64|]. split; [|split; [|split]].
  2: intros mem callee gc fwd r v H; discriminate.
  2: vm_compute; repeat split; reflexivity.
  2: vm_compute; reflexivity.
  (* input_ok: the two regions, the three threads, the exception context, the unloaded-module list *)
  assert (HA : region_ok nv_regA) by (split; [unfold wf_region; cbn; lia|exact (zeros_are_bytes 16)]).
  assert (Hz : forall v, Forall (fun b => 0 <= b < 256) (nv_z8 v))
    by (intros v; unfold nv_z8; repeat constructor; try lia; apply Z.mod_pos_bound; lia).
  assert (HB : region_ok nv_regB).
  { split; [unfold wf_region; cbn; lia|]. cbn [r_bytes nv_regB]. repeat (apply Forall_app; split); auto using zeros_are_bytes. }
  assert (Hc : forall ip sp fp, 0 <= ip < two64 -> 0 <= sp < two64 -> 0 <= fp < two64 -> ctx_ok C05.Model.amd64 (Some (nv_ctx ip sp fp))).
  { intros ip sp fp H1 H2 H3 r v E. inversion E; subst. apply regs_wf_amd64; cbn; try assumption; unfold two64; lia. }
  split; [intros m [H|[H|[]]]; subst; assumption|].
  split; [|split; [apply Hc; unfold two64; lia|intros m [H|[]]; subst; cbn; lia]].
  intros t [H|[H|[H|[]]]]; subst t; cbn [th_ctx th_stack];
    (split; [|intros m E; try discriminate; inversion E; subst; assumption]);
    [apply Hc; unfold two64; lia|apply Hc; unfold two64; lia|intros r v E; discriminate].
Qed.

(* tie of the thread-loop model to processor.rs (translate/c03_sites.py, regenerated on every run): who counts as the
   requesting thread, which context it is walked from and which memory the walk falls back to are the `.or()` expressions of
   the source with their operand order, and the stack-pointer probe has the source's width.  (The translator also pins the
   ORDER of the steps of both passes — dump-writer test before the context selection; stack memory, probe, fall-back,
   walk_stack, unloaded-module offsets, argument recovery, inc_processed_threads — and aborts when it changes.) *)
Theorem c03_process_matches_source :
  (forall pi t, opt_is (pi_dump_tid pi) (th_id t) = false ->
     s0_req (initial_stack pi t) = opt_is (Gen.C03Sites.gen_wanted_id (pi_crash_tid pi) (pi_req_tid pi)) (th_id t)) /\
  (forall pi t, opt_is (pi_dump_tid pi) (th_id t) = false ->
     s0_ctx (initial_stack pi t) =
     if opt_is (Gen.C03Sites.gen_wanted_id (pi_crash_tid pi) (pi_req_tid pi)) (th_id t)
     then Gen.C03Sites.gen_selected_context (pi_exc_ctx pi) (th_ctx t) else th_ctx t) /\
  (forall mem t r v,
     choose_stack_memory mem t (Some (r, v)) =
     let sm := thread_stack_memory mem t in
     if match sm with Some m => region_reads m Gen.C03Sites.gen_stack_probe_bytes (C05.Model.r_sp r) | None => false end
     then sm else Gen.C03Sites.gen_stack_fallback (memory_at mem (C05.Model.r_sp r)) sm).
Proof.
  split; [intros pi t H; exact (proj1 (C03.SitesTie.first_pass_from_source pi t H))|].
  split; [intros pi t H; exact (proj2 (C03.SitesTie.first_pass_from_source pi t H))|exact C03.SitesTie.stack_choice_from_source].
Qed.
Print Assumptions c03_process_matches_source.

(* the size of the result against the size of the input: the call stacks of the whole ProcessState together hold at most
   |thread list| x (bytes of the largest memory region of the dump + 2) frames, for any stack contents, contexts and symbols
   (the CFI oracle is arbitrary within its contract).  This is the input-size term of C03's time / memory budget; the
   harness measures the cost per frame. *)
Theorem c03_total_frames_bound : forall p cpu a os module_at max_module_addr cfi_walk instr_valid pi,
  C05.Proofs.arch_ok a -> input_ok a pi -> cfi_contract a cfi_walk ->
  exists outs req,
    process_threads p cpu a os module_at max_module_addr cfi_walk instr_valid pi = Ret (outs, req) /\
    (total_frames outs <= length (pi_threads pi) * (max_region_bytes pi + 2))%nat.
Proof. intros. apply process_total_frames; assumption. Qed.
Print Assumptions c03_total_frames_bound.

(* print_json's "crashing_thread": self.threads[requesting_thread], output["threads"][requesting_thread] and frames[0]
   are in bounds for the state the thread loop produced *)
Theorem c03_crashing_thread_json_total : forall p cpu a os module_at max_module_addr cfi_walk instr_valid pi,
  C05.Proofs.arch_ok a -> input_ok a pi -> cfi_contract a cfi_walk ->
  exists r, render_crashing_thread p cpu a os module_at max_module_addr cfi_walk instr_valid pi = Ret r.
Proof.
  intros p cpu a os module_at mma cfi_walk iv pi Ha Hin Hcfi. unfold render_crashing_thread.
  destruct (process_threads_total p cpu a os module_at mma cfi_walk iv Ha Hcfi pi Hin) as [outs [E [_ Hb]]].
  rewrite E. cbn [obind fst snd]. apply json_crashing_thread_total. exact Hb.
Qed.
Print Assumptions c03_crashing_thread_json_total.

Example c03_nonvacuous_crashing_thread :
  match render_crashing_thread Debug CpuAmd64 C05.Model.amd64 0 (fun _ => None) 0 (fun _ _ _ _ => None) (fun _ => false) nv_input with
  | Ret (Some (0%nat, f)) => C05.Model.f_instr f = 4198400
  | _ => False
  end /\ max_region_bytes nv_input = 32%nat.
Proof. split; vm_compute; reflexivity. Qed.

(* BitFlipDetails::confidence (reached for every bit-flip candidate of check_for_bitflips): for ANY candidate address and
   ANY register file, in both profiles, counting the nearby registers cannot overflow, `min(count, len) - 1` cannot underflow
   and NEARBY_REGISTER[..] is indexed inside the table — i = min(count, 4) - 1 when count > 0, no access when count = 0 *)
Theorem c03_nearby_register_index_total : forall p address regs, Z.of_nat (length regs) < two32 ->
  exists n i, nearby_site p address regs = Ret (n, i) /\ 0 <= n <= Z.of_nat (length regs) /\
              (n = 0 -> i = None) /\ (0 < n -> i = Some (Z.min n NEARBY_REGISTER_LEN - 1)).
Proof.
  intros p address regs H. unfold nearby_site, nearby_count.
  destruct (nearby_count_from p address regs 0) as [n [E Hn]]; [lia|lia|]. rewrite E. cbn [obind].
  destruct (nearby_index_total p n) as [i [Ei [H0 H1]]]; [lia|]. rewrite Ei. cbn [obind].
  exists n, i. split; [reflexivity|]. split; [lia|]. split; assumption.
Qed.
Print Assumptions c03_nearby_register_index_total.

(* the same for the index expression as translate/c03_sites.py reads it out of process_state.rs on every run, with the
   source's table length: it is what the model computes, and it stays inside the table for every non-zero u32 count *)
Theorem c03_nearby_register_index_source :
  (forall p n, 0 < n ->
     nearby_index p n =
     (do i <- Gen.C03Sites.gen_nearby_index p n Gen.C03Sites.gen_nearby_table_len;
      if (0 <=? i) && (i <? Gen.C03Sites.gen_nearby_table_len) then Ret (Some i) else Panic PANIC_INDEX)) /\
  (forall p n, 0 < n < two32 ->
     exists i, Gen.C03Sites.gen_nearby_index p n Gen.C03Sites.gen_nearby_table_len = Ret i /\
               0 <= i < Gen.C03Sites.gen_nearby_table_len).
Proof. exact (conj C03.SitesTie.nearby_index_from_source C03.SitesTie.nearby_source_in_bounds). Qed.
Print Assumptions c03_nearby_register_index_source.

(* subtracting first and clamping to the table LENGTH: one past the end for every count >= 5, both profiles *)
Theorem c03_nearby_clamp_len_refuted : forall p n, 5 <= n < two32 -> nearby_index_clamp_len p n = Panic PANIC_INDEX.
Proof.
  intros p n H. unfold nearby_index_clamp_len, NEARBY_REGISTER_LEN.
  replace (0 <? n) with true by (symmetry; apply Z.ltb_lt; lia).
  rewrite chk_sub64_ok by (unfold two32, two64 in *; lia). cbn [obind].
  replace (Z.min (n - 1) 4) with 4 by lia. reflexivity.
Qed.
Print Assumptions c03_nearby_clamp_len_refuted.

Example c03_nonvacuous_nearby :
  nearby_site Debug 524288 [524288; 524289; 520192; 528384; 528385; 524000; 0; 524290] = Ret (6, Some 3) /\
  nearby_site Release 4096 [4096; 4097] = Ret (0, None).
Proof. split; vm_compute; reflexivity. Qed.

(* process_minidump_with_options as a whole (MinidumpInfo::new, then the thread loop): "returns a result or an error without
   panicking" — an error exactly when the thread list (first) or the system info cannot be read, else a state whose call stacks
   satisfy [thread_post] (frame bound per thread) with requesting_thread in bounds *)
Theorem c03_process_minidump_total : forall p cpu a os module_at max_module_addr cfi_walk instr_valid tl si pi,
  C05.Proofs.arch_ok a -> input_ok a pi -> cfi_contract a cfi_walk ->
  exists r, process_minidump p cpu a os module_at max_module_addr cfi_walk instr_valid tl si pi = Ret r /\
    match r with
    | ProcessErr e => (tl = false /\ e = MissingThreadList) \/ (tl = true /\ si = false /\ e = MissingSystemInfo)
    | ProcessOk outs req => tl = true /\ si = true /\ Forall2 (thread_post pi) (pi_threads pi) outs /\
                            (forall i, req = Some i -> (i < length outs)%nat)
    end.
Proof.
  intros p cpu a os module_at mma cfi_walk iv tl si pi Ha Hin Hcfi. unfold process_minidump, info_new.
  destruct tl; cbn [negb]; [|eexists; split; [reflexivity|left; split; reflexivity]].
  destruct si; cbn [negb]; [|eexists; split; [reflexivity|right; repeat split; reflexivity]].
  destruct (process_threads_total p cpu a os module_at mma cfi_walk iv Ha Hcfi pi Hin) as [outs [E [F Hb]]].
  rewrite E. cbn [obind fst snd]. eexists. split; [reflexivity|]. repeat split; assumption.
Qed.
Print Assumptions c03_process_minidump_total.

(* "every optional stream degraded to default on error": over the table of ALL stream reads of MinidumpInfo::new that
   translate/c03_sites.py extracts on every run (with the ProcessError a failure is turned into, or none), the first failing
   required read decides — which is the model's two tests — and the readability of no other stream can make processing fail *)
Theorem c03_info_new_required_streams :
  (forall ok, C03.SitesTie.first_failure ok Gen.C03Sites.gen_stream_handling =
              option_map C03.SitesTie.to_gen_error
                (info_new (ok Gen.C03Sites.GS_MinidumpThreadList) (ok Gen.C03Sites.GS_MinidumpSystemInfo))) /\
  (forall ok ok', ok Gen.C03Sites.GS_MinidumpThreadList = ok' Gen.C03Sites.GS_MinidumpThreadList ->
                  ok Gen.C03Sites.GS_MinidumpSystemInfo = ok' Gen.C03Sites.GS_MinidumpSystemInfo ->
                  C03.SitesTie.first_failure ok Gen.C03Sites.gen_stream_handling =
                  C03.SitesTie.first_failure ok' Gen.C03Sites.gen_stream_handling).
Proof. exact (conj C03.SitesTie.info_new_from_source C03.SitesTie.optional_streams_cannot_fail). Qed.
Print Assumptions c03_info_new_required_streams.

(* "within a time and memory budget tied to the input size", for the number of frames of the whole
   ProcessState against ONE number, the length of the file (C03/BudgetModel.v: thread-list entries and memory descriptors are
   references (rva, data_size) into the file, read by MinidumpMemory::read; the two list streams lie inside the file).
   (1) A budget exists and is QUADRATIC: for every file-backed input, every CPU, any stack contents, contexts and symbols,
       both profiles: frames <= |thread list| x (|file| + 2), and 48 x frames <= |file| x (|file| + 2). *)
Theorem c03_frames_budget_in_file_size : forall p cpu a os module_at max_module_addr cfi_walk instr_valid fi,
  C05.Proofs.arch_ok a -> file_ok a fi -> streams_in_file fi -> cfi_contract a cfi_walk ->
  exists outs req,
    process_threads p cpu a os module_at max_module_addr cfi_walk instr_valid (to_proc_in fi) = Ret (outs, req) /\
    (total_frames outs <= length (fi_threads fi) * (file_size fi + 2))%nat /\
    48 * Z.of_nat (total_frames outs) <= Z.of_nat (file_size fi) * (Z.of_nat (file_size fi) + 2).
Proof.
  intros p cpu a os module_at mma cfi_walk iv fi Ha Hok [Hs _] Hcfi.
  destruct (process_total_frames p cpu a os module_at mma cfi_walk iv Ha Hcfi (to_proc_in fi) (to_proc_in_ok a fi Hok))
    as [outs [req [E Hle]]].
  exists outs, req. split; [exact E|].
  pose proof (max_region_le_file fi) as Hmax.
  change (pi_threads (to_proc_in fi)) with (map (to_thread (fi_file fi)) (fi_threads fi)) in Hle. rewrite map_length in Hle.
  assert (H1 : (total_frames outs <= length (fi_threads fi) * (file_size fi + 2))%nat) by nia.
  split; [exact H1|]. unfold THREAD_ENTRY_BYTES in Hs. nia.
Qed.
Print Assumptions c03_frames_budget_in_file_size.

(* (2) informative: NO budget linear in the input size exists, i.e. the quadratic budget (1) is tight up to a constant.  For every
       factor c below 2^20 there is a dump shorter than 2^32 bytes, well-formed for every reader, whose processing (amd64, the walker
       with both repairs (C05.Model.current_code), one module whose symbols hold the one-byte CFI rule [share_cfi], which meets the CFI contract) yields more than
       c x |file| frames, in both profiles: m thread-list entries cite the same m stack bytes, which the file holds once — m x (m + 1)
       frames out of 2048 + 49 m bytes.  This is not a violation of C03 (the property asks for a budget tied to the input size, which
       (1) is); it says which budget a checker may demand.  (Replayed on the real code: corpus/C03, share=1 cases; design/C03.md.) *)
Theorem c03_linear_frame_budget_refuted : forall p (c : nat), Z.of_nat c < 1048576 ->
  exists fi outs req,
    file_ok C05.Model.amd64 fi /\ streams_in_file fi /\ cfi_contract C05.Model.amd64 share_cfi /\
    Z.of_nat (file_size fi) < 4294967296 /\
    process_threads p CpuAmd64 C05.Model.amd64 0 sh_modules 0 share_cfi sh_iv (to_proc_in fi) = Ret (outs, req) /\
    Z.of_nat c * Z.of_nat (file_size fi) < Z.of_nat (total_frames outs).
Proof. exact linear_frame_budget_refuted. Qed.
Print Assumptions c03_linear_frame_budget_refuted.

(* the family behind it, exactly: m threads x (m + 1) frames, 2048 + 49 m bytes *)
Theorem c03_shared_stack_frames : forall p m, (8 <= m)%nat -> Z.of_nat m < 4294967296 ->
  exists outs req,
    process_threads p CpuAmd64 C05.Model.amd64 0 sh_modules 0 share_cfi sh_iv (to_proc_in (share_input m)) = Ret (outs, req) /\
    total_frames outs = (m * (m + 1))%nat /\ file_size (share_input m) = (2048 + 49 * m)%nat.
Proof.
  intros p m H8 H32. pose proof (share_frames p m H8 H32) as [outs [E [Ht _]]].
  exists outs, None. split; [exact E|]. split; [exact Ht|exact (share_file_size m)].
Qed.
Print Assumptions c03_shared_stack_frames.

(* non-vacuity: the member m = 8 of the family is file-backed and well-formed, its eight threads are read from the same eight
   bytes at rva 2432, and the model walks each for 9 frames: 72 frames out of 2440 bytes (computed) *)
Example c03_nonvacuous_budget :
  file_ok C05.Model.amd64 (share_input 8) /\ streams_in_file (share_input 8) /\
  map th_stack (pi_threads (to_proc_in (share_input 8))) = repeat (Some (sh_region 8)) 8 /\
  match process_threads Debug CpuAmd64 C05.Model.amd64 0 sh_modules 0 share_cfi sh_iv (to_proc_in (share_input 8)) with
  | Ret (outs, None) => total_frames outs = 72%nat /\ length outs = 8%nat
  | _ => False
  end /\ file_size (share_input 8) = 2440%nat.
Proof.
  split; [exact (proj1 (share_file_ok 8))|]. split; [exact (proj1 (proj2 (share_file_ok 8)))|].
  split; [rewrite share_threads by lia; reflexivity|]. split; [|vm_compute; reflexivity].
  destruct (share_frames Debug 8) as [outs [E [Ht Hl]]]; [lia|reflexivity|]. rewrite E. split; [exact Ht|exact Hl].
Qed.

(* "the resulting state can always be written as full text, brief text and JSON".
   C03/RenderModel.v is the control flow of print / print_brief (print_internal), CallStack::print and print_json over a whole
   ProcessState: which blocks are written in which order, the loops over threads, frames, inline frames and modules, and every
   index / + / - site on the way.  For EVERY state whose frames satisfy [frame_ok] (the C08 / C11 lookup facts), whose
   requesting_thread indexes the thread list and whose module tables passed the readers' size filter, in both profiles: all three
   printers return (no index out of bounds, no overflow trap); the requesting thread's block is in the full and in the brief text;
   one line per module, one JSON entry per module / thread / unloaded module. *)
Theorem c03_renderers_total : forall p st, state_ok st ->
  exists full brief json, render_all p st = Ret (full, brief, json) /\
    (forall i, st_requesting st = Some i -> In (IThread i) full /\ In (IThread i) brief) /\
    (length (st_modules st) + length (st_unloaded st) <= length full)%nat /\
    (length (st_modules st) + length (st_threads st) + length (st_unloaded st) <= length json)%nat.
Proof. exact renderers_total. Qed.
Print Assumptions c03_renderers_total.

(* the pipeline composed: thread loop (with C05's walker), then per frame the C08 module lookup and C11's fill_symbol on that
   module's symbol file (ANY well-formed symbol file per module), then the three printers.  No hypothesis about the produced state
   is left except that no call stack prints 2^64 lines. *)
Theorem c03_pipeline_always_renders : forall p pr q cpu a os module_at max_module_addr cfi_walk instr_valid mods files pi,
  C05.Proofs.arch_ok a -> input_ok a pi -> cfi_contract a cfi_walk ->
  mods_ok mods -> mods_ok (pi_unloaded pi) -> (forall i, C11.Proofs2.wf_file (files i)) ->
  exists outs st,
    process_threads p cpu a os module_at max_module_addr cfi_walk instr_valid pi = Ret (outs, requesting_index pi) /\
    state_of q mods files outs (requesting_index pi) (pi_unloaded pi) = Ret st /\
    length (st_threads st) = length (pi_threads pi) /\
    (lines_ok st ->
     exists full brief json,
       pipeline_render p pr q cpu a os module_at max_module_addr cfi_walk instr_valid mods files pi = Ret (full, brief, json) /\
       (forall i, requesting_index pi = Some i -> In (IThread i) full /\ In (IThread i) brief)).
Proof. exact pipeline_always_renders. Qed.
Print Assumptions c03_pipeline_always_renders.

(* the model expresses the defect class: a requesting_thread one past the thread list (`Some(i + 1)` for `Some(i)`) makes
   every printer panic on the index *)
Theorem c03_render_requesting_out_of_bounds_refuted : forall p st,
  st_requesting st = Some (length (st_threads st)) ->
  print_internal p false st = Panic PANIC_INDEX /\ print_internal p true st = Panic PANIC_INDEX.
Proof.
  intros p st H. unfold print_internal. rewrite H. unfold idx.
  assert (E : nth_error (st_threads st) (length (st_threads st)) = None) by (apply nth_error_None; lia).
  rewrite E. split; reflexivity.
Qed.
Print Assumptions c03_render_requesting_out_of_bounds_refuted.

(* the sites of the three printers as translate/c03_render.py extracts them from the source on every run (every index, + / -,
   += / -= and the number of unwraps; an unknown expression or a panic macro makes the translator abort) are exactly the sites the
   model visits *)
Theorem c03_render_sites_match_source :
  Gen.C03Render.gen_print_internal_sites = C03.RenderTie.model_print_internal_sites /\
  Gen.C03Render.gen_call_stack_print_sites = C03.RenderTie.model_call_stack_print_sites /\
  Gen.C03Render.gen_print_json_sites = C03.RenderTie.model_print_json_sites /\
  Gen.C03Render.gen_printer_unwraps = C03.RenderTie.model_printer_unwraps.
Proof. repeat split; reflexivity. Qed.
Print Assumptions c03_render_sites_match_source.

(* non-vacuity: three call stacks — the requesting one (index 1) with a symbolicated frame carrying two inline frames, a frame with
   only a module and a raw frame with unloaded-module offsets; a skipped dump-writer thread; an empty stack — two modules (one
   ending at 2^64 - 1) and an unloaded module: the state is [state_ok] and the printers' output is computed *)
Definition nv_rframe (i : Z) (m f s : option Z) (inl : nat) (u : list (list Z)) : rframe :=
  {| rf_frame := {| f_instr := i; f_module := m; f_fname := match f with Some _ => true | None => false end; f_fbase := f;
                    f_srcfl := match s with Some _ => true | None => false end; f_sbase := s |};
     rf_inlines := inl; rf_unloaded := u |}.
Definition nv_state : rstate :=
  {| st_threads := [ {| rs_info := InfoDumpThreadSkipped; rs_frames := [] |};
                     {| rs_info := InfoOk; rs_frames := [nv_rframe 4198400 (Some 4194304) (Some 4198000) (Some 4198396) 2 [];
                                                         nv_rframe 4199987 (Some 4194304) None None 0 [];
                                                         nv_rframe 9000 None None None 0 [[808; 4904]]] |};
                     {| rs_info := InfoMissingContext; rs_frames := [] |} ];
     st_requesting := Some 1%nat;
     st_modules := [(4194304, 65536); (18446744073709486080, 65535)];
     st_unloaded := [(8192, 4096)] |}.
Example c03_nonvacuous_render :
  state_ok nv_state /\
  print_internal Debug true nv_state =
    Ret [ISection 1; ISection 2; ISection 3; ISection 4; IThread 1; IInline 0; IInline 1; IFrame 2 (Some 4) [];
         IFrame 3 (Some 5683) []; IFrame 4 None [[808; 4904]]] /\
  print_internal Debug false nv_state =
    Ret [ISection 1; ISection 2; ISection 3; ISection 4; IThread 1; IInline 0; IInline 1; IFrame 2 (Some 4) [];
         IFrame 3 (Some 5683) []; IFrame 4 None [[808; 4904]]; IThread 2; INoFrames;
         IModule 4194304 4259839; IModule 18446744073709486080 18446744073709551614; IUnloaded 8192 12287;
         ISection 5; ISection 6; ISection 7] /\
  print_json Release nv_state =
    Ret [ISection 10; ISection 11; IJsonModule 4194304 4259840; IJsonModule 18446744073709486080 18446744073709551615; ISection 12;
         IJsonThread []; IJsonThread [(0%nat, Some 4096, Some 400); (1%nat, Some 5683, None); (2%nat, None, None)]; IJsonThread [];
         IJsonUnloaded 8192 12288; IJsonCrashingThread 1].
Proof.
  split; [|split; [vm_compute; reflexivity|split; vm_compute; reflexivity]].
  unfold state_ok. cbn [st_threads st_requesting st_modules st_unloaded nv_state]. split; [|split; [|split; [|split]]].
  - intros s f [Hs|[Hs|[Hs|[]]]]; subst s; cbn [rs_frames In]; intros Hf; repeat (destruct Hf as [Hf|Hf]); try contradiction;
      subst f; unfold frame_ok, below, nv_rframe; cbn [rf_frame f_instr f_module f_fbase f_sbase];
      (split; [unfold two64; lia|]); (split; [|split]); intros b Hb; inversion Hb; subst; lia.
  - intros s [Hs|[Hs|[Hs|[]]]]; subst s; vm_compute; reflexivity.
  - intros i Hi. inversion Hi; subst. cbn. lia.
  - intros m [Hm|[Hm|[]]]; subst m; cbn [fst snd]; (split; [lia|split; [lia|vm_compute; reflexivity]]).
  - intros m [Hm|[]]; subst m; cbn [fst snd]; (split; [lia|split; [lia|vm_compute; reflexivity]]).
Qed.
