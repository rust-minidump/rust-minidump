(* C03/BudgetProofs.v — the frames of the whole ProcessState against the LENGTH OF THE FILE.
   (1) what the quadratic budget 48 x frames <= |file| x (|file| + 2) rests on: a file-backed input is an input of the
       thread loop, and no region a thread can be walked on is longer than the file;
   (2) no linear budget: for every c there is a dump whose processing yields more than c x |file| frames (thread-list
       entries citing the same stack bytes): the quadratic budget is tight up to a constant. *)
From Coq Require Import Lia ZArith List Bool.
From RM Require Import C08.Model C08.Proofs C03.Model C03.Proofs C03.FetchModel C03.FetchProofs C03.ProcessModel C03.ProcessProofs
  C03.BudgetModel.
From RM Require C05.Model C05.Proofs.
Import ListNotations.
Open Scope Z_scope.

(* what the readers establish about a file-backed input: bytes are bytes, start_of_memory_range is a u64 (>= 0 is all that is
   used), decoded contexts hold values of the slot width, the unloaded-module list is what its reader keeps *)
Definition file_ok (a : M5.arch) (fi : file_input) : Prop :=
  Forall (fun b => 0 <= b < 256) (fi_file fi) /\
  (forall d, In d (fi_memory fi) -> 0 <= d_start d) /\
  (forall t, In t (fi_threads fi) -> 0 <= d_start (rt_stack t) /\ ctx_ok a (rt_ctx t)) /\
  ctx_ok a (fi_exc_ctx fi) /\ wf_mods (fi_unloaded fi).

(* the two list streams lie inside the file *)
Definition streams_in_file (fi : file_input) : Prop :=
  THREAD_ENTRY_BYTES * Z.of_nat (length (fi_threads fi)) <= Z.of_nat (file_size fi) /\
  MEMORY_ENTRY_BYTES * Z.of_nat (length (fi_memory fi)) <= Z.of_nat (file_size fi).

Lemma read_desc_spec file d m :
  read_desc file d = Some m ->
  r_base m = d_start d /\ r_size m = d_size d /\ 0 < d_size d /\ 0 < d_rva d /\
  d_rva d + d_size d <= Z.of_nat (length file) /\
  r_bytes m = firstn (Z.to_nat (d_size d)) (skipn (Z.to_nat (d_rva d)) file).
Proof.
  unfold read_desc. destruct ((d_rva d =? 0) || (d_size d =? 0)); [discriminate|].
  destruct ((0 <? d_rva d) && (0 <? d_size d) && (d_rva d + d_size d <=? Z.of_nat (length file))) eqn:E; [|discriminate].
  apply andb_prop in E. destruct E as [E E3]. apply andb_prop in E. destruct E as [E1 E2].
  apply Z.ltb_lt in E1, E2. apply Z.leb_le in E3.
  intros H. inversion H; subst m; cbn. repeat split; try assumption; try lia.
Qed.

Lemma read_desc_some file d :
  0 < d_rva d -> 0 < d_size d -> d_rva d + d_size d <= Z.of_nat (length file) ->
  read_desc file d = Some {| r_base := d_start d; r_size := d_size d;
                             r_bytes := firstn (Z.to_nat (d_size d)) (skipn (Z.to_nat (d_rva d)) file) |}.
Proof.
  intros Hr Hs Hl. unfold read_desc.
  rewrite (proj2 (Z.eqb_neq (d_rva d) 0)), (proj2 (Z.eqb_neq (d_size d) 0)) by lia.
  rewrite (proj2 (Z.ltb_lt 0 _) Hr), (proj2 (Z.ltb_lt 0 _) Hs), (proj2 (Z.leb_le _ _) Hl). reflexivity.
Qed.

Lemma read_desc_len file d m : read_desc file d = Some m -> length (r_bytes m) = Z.to_nat (d_size d) /\ (length (r_bytes m) <= length file)%nat.
Proof.
  intros H. destruct (read_desc_spec _ _ _ H) as [_ [_ [Hs [Hr [Hle Hb]]]]]. rewrite Hb.
  rewrite firstn_length, skipn_length. split; lia.
Qed.

Lemma read_desc_ok file d m :
  Forall (fun b => 0 <= b < 256) file -> 0 <= d_start d -> read_desc file d = Some m -> region_ok m.
Proof.
  intros Hf Hs H. pose proof (read_desc_len _ _ _ H) as [Hl _].
  destruct (read_desc_spec _ _ _ H) as [Hb [Hsz [Hp [_ [_ Hbytes]]]]].
  split.
  - unfold wf_region. rewrite Hb, Hsz, Hl. lia.
  - rewrite Hbytes. apply P5.Forall_firstn, P5.Forall_skipn. exact Hf.
Qed.

Lemma in_keep_some {A} (l : list (option A)) x : In x (keep_some l) <-> In (Some x) l.
Proof.
  induction l as [|[y|] t IH]; cbn; [tauto| |].
  - rewrite IH. split; intros [H|H]; auto; [left; congruence|left; congruence].
  - rewrite IH. split; [auto|intros [H|H]; [discriminate|exact H]].
Qed.

Lemma to_proc_in_ok a fi : file_ok a fi -> input_ok a (to_proc_in fi).
Proof.
  intros [Hf [Hm [Ht [He Hu]]]]. unfold input_ok, to_proc_in; cbn [pi_memory pi_threads pi_exc_ctx pi_unloaded].
  split; [|split; [|split; assumption]].
  - intros m H. apply in_keep_some in H. apply in_map_iff in H. destruct H as [d [E Hd]].
    exact (read_desc_ok _ _ _ Hf (Hm d Hd) E).
  - intros t H. apply in_map_iff in H. destruct H as [rt [E Hrt]]. subst t. cbn [to_thread th_ctx th_stack]. split.
    + exact (proj2 (Ht rt Hrt)).
    + intros m Em. exact (read_desc_ok _ _ _ Hf (proj1 (Ht rt Hrt)) Em).
Qed.

(* no region a thread can be walked on is longer than the file *)
Lemma max_region_le_file fi : (max_region_bytes (to_proc_in fi) <= file_size fi)%nat.
Proof.
  unfold max_region_bytes. apply list_max_le, Forall_forall. intros x Hx. apply in_map_iff in Hx. destruct Hx as [m [E Hm]]. subst x.
  apply in_app_or in Hm. destruct Hm as [Hm|Hm].
  - cbn in Hm. apply in_keep_some in Hm. apply in_map_iff in Hm. destruct Hm as [d [Ed _]].
    exact (proj2 (read_desc_len _ _ _ Ed)).
  - unfold own_stacks in Hm. apply in_flat_map in Hm. destruct Hm as [t [Ht Hm]]. cbn in Ht.
    apply in_map_iff in Ht. destruct Ht as [rt [E _]]. subst t. cbn in Hm.
    destruct (read_desc (fi_file fi) (rt_stack rt)) as [s|] eqn:Ed; [|destruct Hm].
    destruct Hm as [Hm|[]]. subst s. exact (proj2 (read_desc_len _ _ _ Ed)).
Qed.

(* (2) no budget linear in the length of the file *)
(* the walker (C05's model, amd64, both repairs: M5.current_code) on [m] zero bytes at 65536 with the one-byte CFI rule of
   BudgetModel.share_cfi: one frame per stack byte *)
Definition sh_mem (m : nat) : M5.memory := {| M5.m_base := share_stack_start; M5.m_bytes := repeat 0 m |}.
Definition sh_valid : list Z := [RM.Gen.UnwindConsts.amd64_sp_name; RM.Gen.UnwindConsts.amd64_ip_name].
Definition sh_regs (sp : Z) : M5.regs := {| M5.r_ip := 8192; M5.r_sp := sp; M5.r_fp := 0; M5.r_lr := 0; M5.r_gp := [] |}.
Definition sh_frame (sp : Z) : M5.frame := M5.set_instr (M5.from_context (sh_regs sp) (M5.VSome sh_valid) M5.TCfi) 8191.
Definition sh_modules (_ : Z) : option Z := Some 0.
Definition sh_iv (_ : Z) : bool := false.

(* one CFI step from any frame whose stack pointer is valid: the caller is [sh_frame] one byte up *)
Lemma sh_step p m f sp gc :
  M5.reg_valid M5.amd64 (M5.a_sp_name M5.amd64) (M5.f_valid f) = true ->
  M5.r_sp (M5.f_regs f) = sp -> 0 <= sp -> sp + 1 < two64 ->
  M5.get_caller_frame M5.current_code p M5.amd64 0 (sh_mem m) sh_modules 0 (share_cfi (sh_mem m)) sh_iv f gc
  = Ret (Some (sh_frame (sp + 1))).
Proof.
  intros Hv Hsp H0 H1. unfold M5.get_caller_frame, M5.cascade, M5.by_cfi, M5.sp_progress. rewrite Hv.
  cbn [negb sh_modules share_cfi obind M5.cfi_post M5.from_context M5.f_regs M5.r_ip M5.r_sp].
  rewrite Hsp, (Z.mod_small _ two64) by lia.
  replace (sp + 1 <=? sp) with false by (symmetry; apply Z.leb_gt; lia). reflexivity.
Qed.

Lemma sh_in_stack m f : share_stack_start <= M5.r_sp (M5.f_regs f) < share_stack_start + Z.of_nat m ->
  M5.sp_in_stack (sh_mem m) f = true.
Proof.
  intros H. unfold M5.sp_in_stack.
  destruct (proj2 (P5.read_is_some_iff1 (sh_mem m) (M5.r_sp (M5.f_regs f)))) as [v Hv].
  - unfold M5.mem_len. cbn. rewrite repeat_length. lia.
  - rewrite Hv. reflexivity.
Qed.

Lemma sh_out_of_stack m f : M5.r_sp (M5.f_regs f) = share_stack_start + Z.of_nat m -> M5.sp_in_stack (sh_mem m) f = false.
Proof.
  intros H. unfold M5.sp_in_stack. destruct (M5.read (sh_mem m) 1 (M5.r_sp (M5.f_regs f))) as [v|] eqn:E; [|reflexivity].
  apply P5.read_some in E. unfold M5.mem_len in E. cbn in E. rewrite repeat_length in E. lia.
Qed.

(* from a frame [k] bytes below the end of the stack the walk yields [k] more frames; the frame may be the context
   frame as long as it is inside the stack (a context frame is never stopped by the stack-pointer guard) *)
Lemma sh_walk p m : forall k fuel f gc,
  M5.reg_valid M5.amd64 (M5.a_sp_name M5.amd64) (M5.f_valid f) = true ->
  M5.r_sp (M5.f_regs f) = share_stack_start + Z.of_nat m - Z.of_nat k ->
  (k = 0%nat -> M5.is_context (M5.f_trust f) = false) ->
  (k <= m)%nat -> (k < fuel)%nat -> Z.of_nat m < 4294967296 ->
  exists l, M5.walk M5.current_code p M5.amd64 0 (sh_mem m) sh_modules 0 (share_cfi (sh_mem m)) sh_iv fuel f gc = Ret l /\
            length l = k.
Proof.
  induction k as [|k IH]; intros fuel f gc Hv Hsp Hc Hk Hf Hm; (destruct fuel as [|fuel]; [lia|]); cbn [M5.walk]; unfold M5.stop_here.
  - rewrite sh_out_of_stack, (Hc eq_refl) by lia. eexists; split; reflexivity.
  - rewrite sh_in_stack, Bool.andb_false_r by (unfold share_stack_start in *; lia).
    rewrite (sh_step p m f _ _ Hv eq_refl) by (unfold share_stack_start, two64 in *; lia). cbn [obind].
    destruct (IH fuel (sh_frame (M5.r_sp (M5.f_regs f) + 1)) (Some f)) as [l [El Hl]];
      [reflexivity|cbn [sh_frame M5.set_instr M5.from_context M5.f_regs sh_regs M5.r_sp]; lia|reflexivity|lia|lia|lia|].
    rewrite El. cbn [obind]. eexists; split; [reflexivity|cbn; lia].
Qed.

Lemma sh_walk_stack p m : (1 <= m)%nat -> Z.of_nat m < 4294967296 ->
  exists fs, M5.walk_stack M5.current_code p M5.amd64 0 (sh_mem m) sh_modules 0 (share_cfi (sh_mem m)) sh_iv
               (M5.fuel_for (sh_mem m)) (sh_regs share_stack_start) M5.VAll = Ret fs /\
             length fs = S m.
Proof.
  intros H1 H2. unfold M5.walk_stack.
  assert (Hok : M5.mem_ok (sh_mem m) = true).
  { unfold M5.mem_ok, M5.mem_len. cbn [M5.m_bytes M5.m_base sh_mem]. rewrite repeat_length.
    rewrite (proj2 (Z.eqb_neq _ 0)) by lia. apply Z.ltb_lt. unfold share_stack_start, two64. lia. }
  rewrite Hok. unfold M5.fuel_for. cbn [M5.m_bytes sh_mem]. rewrite repeat_length.
  destruct (sh_walk p m m (m + 3) (M5.from_context (sh_regs share_stack_start) M5.VAll M5.TContext) None)
    as [l [El Hl]]; [reflexivity|cbn [M5.from_context M5.f_regs sh_regs M5.r_sp]; lia|intros ->; lia|lia|lia|lia|].
  rewrite El. cbn [obind]. eexists. split; [reflexivity|cbn; lia].
Qed.

(* the thread loop on [share_input m] *)
Lemma firstn_skipn_repeat {A} (x : A) a b n : (a + b <= n)%nat -> firstn b (skipn a (repeat x n)) = repeat x b.
Proof.
  intros H. rewrite (Forall_eq_repeat (x := x) (l := firstn b (skipn a (repeat x n)))).
  - rewrite firstn_length, skipn_length, repeat_length. f_equal. lia.
  - apply P5.Forall_firstn, P5.Forall_skipn, Forall_forall. intros y Hy. symmetry. exact (repeat_spec _ _ _ Hy).
Qed.

Lemma map_repeat' {A B} (f : A -> B) x : forall n, map f (repeat x n) = repeat (f x) n.
Proof. induction n as [|n IH]; [reflexivity|]. cbn [repeat map]. rewrite IH. reflexivity. Qed.

Definition sh_region (m : nat) : region := {| r_base := share_stack_start; r_size := Z.of_nat m; r_bytes := repeat 0 m |}.

Lemma share_file_size m : file_size (share_input m) = (2048 + 49 * m)%nat.
Proof. unfold file_size. cbn [share_input fi_file]. rewrite repeat_length. lia. Qed.

(* the file of [share_input m] as a run of zeros of known length: the unary literal in it is never unfolded *)
Lemma share_file m :
  fi_file (share_input m) = repeat 0 (file_size (share_input m)) /\
  Z.of_nat (file_size (share_input m)) = 2048 + 49 * Z.of_nat m.
Proof.
  split; [|rewrite share_file_size; lia].
  (* the file is [repeat 0 n] by definition, and [n] is its length *)
  exact (eq_sym (f_equal (repeat 0) (repeat_length 0 _))).
Qed.

Lemma share_read_desc m : (1 <= m)%nat -> read_desc (fi_file (share_input m)) (share_desc m) = Some (sh_region m).
Proof.
  intros H. destruct (share_file m) as [-> Hn].
  rewrite read_desc_some; cbn [share_desc d_rva d_size d_start]; rewrite ?repeat_length; try lia.
  rewrite firstn_skipn_repeat, Nat2Z.id by lia. reflexivity.
Qed.

Definition share_thread (m : nat) : thread_in :=
  {| th_id := 1; th_ctx := Some share_ctx; th_stack := Some (sh_region m); th_stack_start := share_stack_start |}.

Lemma share_memory m : (1 <= m)%nat -> pi_memory (to_proc_in (share_input m)) = [sh_region m].
Proof.
  intros H. change (pi_memory (to_proc_in (share_input m))) with (keep_some [read_desc (fi_file (share_input m)) (share_desc m)]).
  rewrite (share_read_desc m H). reflexivity.
Qed.

Lemma share_threads m : (1 <= m)%nat -> pi_threads (to_proc_in (share_input m)) = repeat (share_thread m) m.
Proof.
  intros H. unfold to_proc_in, to_thread. cbn [pi_threads].
  change (fi_threads (share_input m)) with (repeat {| rt_id := 1; rt_ctx := Some share_ctx; rt_stack := share_desc m |} m).
  rewrite map_repeat'. cbn [rt_id rt_ctx rt_stack]. rewrite (share_read_desc m H). reflexivity.
Qed.

(* 8 <= m: the thread is walked on its own m bytes only if the STACK_PROBE_BYTES = 8 bytes probed at its stack
   pointer lie inside them *)
Lemma share_process_thread p pi m :
  (8 <= m)%nat -> Z.of_nat m < 4294967296 ->
  pi_dump_tid pi = None -> pi_crash_tid pi = None -> pi_req_tid pi = None -> pi_memory pi = [sh_region m] ->
  exists o, process_thread p CpuAmd64 M5.amd64 0 sh_modules 0 share_cfi sh_iv pi (share_thread m) = Ret o /\
            length (o_frames o) = S m.
Proof.
  intros H8 H32 Hd Hc Hr Hm. unfold process_thread.
  assert (E0 : initial_stack pi (share_thread m) =
               {| s0_info := InfoOk; s0_ctx := Some share_ctx; s0_req := false |}).
  { unfold initial_stack. rewrite Hd, Hc, Hr. reflexivity. }
  rewrite E0. cbn [s0_ctx s0_info].
  assert (E1 : choose_stack_memory (pi_memory pi) (share_thread m) (Some share_ctx) = Some (sh_region m)).
  { unfold choose_stack_memory, thread_stack_memory, share_ctx. cbn [th_stack share_thread opt_or M5.r_sp].
    unfold region_reads, checked_sub, STACK_PROBE_BYTES. cbn [r_base r_bytes sh_region]. rewrite repeat_length.
    rewrite Z.sub_diag. cbn [Z.leb Z.compare]. rewrite (proj2 (Z.leb_le _ _)) by lia. reflexivity. }
  rewrite E1. unfold walk_thread, share_ctx.
  assert (E2 : walk_memory (Some (sh_region m)) = Some (sh_region m)).
  { unfold walk_memory, region_range_ok. cbn [r_size r_base sh_region].
    rewrite (proj2 (Z.eqb_neq _ 0)), (proj2 (Z.ltb_lt _ _)) by (unfold share_stack_start, two64; lia). reflexivity. }
  rewrite E2. change (has_unwinder CpuAmd64) with true. cbn iota.
  change (to_mem (sh_region m)) with (sh_mem m).
  destruct (sh_walk_stack p m) as [fs [Efs Hlen]]; [lia|lia|].
  change {| M5.r_ip := 8192; M5.r_sp := share_stack_start; M5.r_fp := 0; M5.r_lr := 0; M5.r_gp := [] |}
    with (sh_regs share_stack_start).
  rewrite Efs. cbn [obind].
  (* every frame has a module ([sh_modules]), so no unloaded-module offsets are computed *)
  destruct (collect_map_total (frame_unloaded p sh_modules (pi_unloaded pi)) fs) as [offs [Eo _]];
    [intros f _; eexists; reflexivity|].
  rewrite Eo. eexists. split; [reflexivity|exact Hlen].
Qed.

Lemma collect_repeat {A B} (f : A -> outcome B) x y : f x = Ret y -> forall n, collect (map f (repeat x n)) = Ret (repeat y n).
Proof. intros H. induction n as [|n IH]; [reflexivity|]. cbn [repeat map collect]. rewrite H. cbn [obind]. rewrite IH. reflexivity. Qed.

Lemma total_frames_repeat o : forall n, total_frames (repeat o n) = (n * length (o_frames o))%nat.
Proof. induction n as [|n IH]; [reflexivity|]. cbn [repeat total_frames fold_right]. fold (total_frames (repeat o n)). lia. Qed.

(* [m] threads x ([m] + 1) frames (out of a file of 2048 + 49 [m] bytes: [share_file]) *)
Lemma share_frames p m : (8 <= m)%nat -> Z.of_nat m < 4294967296 ->
  exists outs, process_threads p CpuAmd64 M5.amd64 0 sh_modules 0 share_cfi sh_iv (to_proc_in (share_input m)) = Ret (outs, None) /\
    total_frames outs = (m * (m + 1))%nat /\ length outs = m.
Proof.
  intros H8 H32. assert (H1 : (1 <= m)%nat) by lia.
  pose proof (share_process_thread p (to_proc_in (share_input m)) m H8 H32 eq_refl eq_refl eq_refl (share_memory m H1))
    as [o [Eo Ho]].
  exists (repeat o m). split; [|split].
  - unfold process_threads. rewrite (share_threads m H1), (collect_repeat _ _ _ Eo). cbn [obind].
    rewrite requesting_index_none; reflexivity.
  - rewrite total_frames_repeat, Ho. lia.
  - apply repeat_length.
Qed.

Lemma share_file_ok m : file_ok M5.amd64 (share_input m) /\ streams_in_file (share_input m) /\ cfi_contract M5.amd64 share_cfi.
Proof.
  destruct (share_file m) as [Hf Hn]. split; [|split].
  - unfold file_ok. rewrite Hf. cbn [fi_memory fi_threads fi_exc_ctx fi_unloaded share_input].
    split; [|split; [|split; [|split]]].
    + apply zeros_are_bytes.
    + intros d [Hd|[]]. subst d. cbn. unfold share_stack_start. lia.
    + intros t Ht. apply repeat_spec in Ht. subst t. cbn [rt_stack rt_ctx share_desc d_start]. split; [unfold share_stack_start; lia|].
      intros r v E. inversion E; subst. apply regs_wf_amd64; cbn; unfold share_stack_start, two64; lia.
    + intros r v E. discriminate.
    + intros b [].
  - unfold streams_in_file, THREAD_ENTRY_BYTES, MEMORY_ENTRY_BYTES. rewrite Hn.
    cbn [fi_threads fi_memory share_input length]. rewrite repeat_length. lia.
  - intros mem callee gc fwd r v E. unfold share_cfi in E. inversion E; subst.
    apply regs_wf_amd64; cbn [M5.r_ip M5.r_sp M5.r_fp M5.r_lr]; try (unfold two64; lia).
    apply Z.mod_pos_bound. reflexivity.
Qed.

(* for every factor c (up to 2^20 frames per input byte) there is a dump shorter than 2^32 bytes, well-formed for every reader,
   whose processing yields more than c x |file| frames: no budget linear in the input size holds for the number of frames *)
Lemma linear_frame_budget_refuted p (c : nat) : Z.of_nat c < 1048576 ->
  exists fi outs req,
    file_ok M5.amd64 fi /\ streams_in_file fi /\ cfi_contract M5.amd64 share_cfi /\ Z.of_nat (file_size fi) < 4294967296 /\
    process_threads p CpuAmd64 M5.amd64 0 sh_modules 0 share_cfi sh_iv (to_proc_in fi) = Ret (outs, req) /\
    Z.of_nat c * Z.of_nat (file_size fi) < Z.of_nat (total_frames outs).
Proof.
  intros Hc.
  (* with m = 49 c + 2056 threads, m (m + 1) frames exceed c x (2048 + 49 m) bytes *)
  assert (Hm : exists m, Z.of_nat m = 49 * Z.of_nat c + 2056) by (exists (Z.to_nat (49 * Z.of_nat c + 2056)); lia).
  destruct Hm as [m Hm].
  pose proof (share_frames p m ltac:(lia) ltac:(lia)) as [outs [E [Ht _]]].
  pose proof (share_file_ok m) as [H1 [H2 H3]]. pose proof (proj2 (share_file m)) as Hs.
  exists (share_input m), outs, None. rewrite Hs, Ht.
  repeat (split; [assumption|]). split; [lia|]. split; [exact E|nia].
Qed.
