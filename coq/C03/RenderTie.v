(* C03/RenderTie.v — the index / arithmetic sites that the model coq/C03/RenderModel.v visits in each of the three
   printers, as lists; c03_render_sites_match_source (Properties.v) compares them with the lists translate/c03_render.py
   reads out of the source on every run (Gen/C03Render.v).  Definitions only. *)
From Coq Require Import ZArith List.
From RM Require Import Gen.C03Render C03.RenderModel.
Import ListNotations.
Open Scope Z_scope.

(* print_internal: `idx (st_threads st) i`; print_module_table over the loaded, then the unloaded modules (text_end_addr) *)
Definition model_print_internal_sites : list gen_rsite := [GR_threads_index; GR_module_end_text; GR_module_end_text].
(* CallStack::print: print_registers' line-length test (no model: two String lengths, usize); print_inlines' and print_frames'
   `chk_add count 1`; the three arms of text_frame_offset *)
Definition model_call_stack_print_sites : list gen_rsite :=
  [GR_register_line_len; GR_frame_count_inc; GR_frame_count_inc; GR_addr_minus_src_base; GR_addr_minus_func_base; GR_addr_minus_module_base].
(* print_json: three `map["key"] = ..` on a freshly built json!({..}) object (insertions); json_module_table (loaded), the two
   subtractions of json_frame_offsets, json_module_table (unloaded); json_crashing: idx threads, idx jthreads, idx frames 0 *)
Definition model_print_json_sites : list gen_rsite :=
  [GR_json_object_insert; GR_json_object_insert; GR_json_object_insert; GR_module_end_json; GR_instr_minus_module_base;
   GR_instr_minus_func_base; GR_module_end_json; GR_threads_index; GR_json_threads_index; GR_json_frame0].
(* the seven .unwrap() of print_json's crashing-thread block read back what json!({..}) just built: "threads" is an array with one
   object per call stack, its "frames" an array with one object per frame (json_threads: a list of lists, by construction) *)
Definition model_printer_unwraps : list Z := [0; 0; 7].
