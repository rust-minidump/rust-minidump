(* C03/ArgProofs.v — parse_x86_arg_list and the argument reads cannot panic. *)
From Coq Require Import Lia.
From RM Require Import Base.WordFacts C03.Model C03.Proofs C03.ArgModel.
Open Scope Z_scope.

Lemma utf8_len_pos c : 1 <= utf8_len c <= 4.
Proof. unfold utf8_len. destruct (c <? 128); [lia|]. destruct (c <? 2048); [lia|]. destruct (c <? 65536); lia. Qed.

Lemma blen_nonneg s : 0 <= blen s.
Proof. induction s as [|c t IH]; cbn [blen]; [lia|]. pose proof (utf8_len_pos c). lia. Qed.

Lemma blen_app a b : blen (a ++ b) = blen a + blen b.
Proof. induction a as [|c t IH]; cbn [blen app]; [lia|]. rewrite IH. lia. Qed.

(* the two tests and the subtraction that [take_bytes] / [drop_bytes] perform on a whole first character *)
Lemma first_char_steps c n : 0 <= n ->
  (utf8_len c + n =? 0) = false /\ (utf8_len c + n <? utf8_len c) = false /\ utf8_len c + n - utf8_len c = n.
Proof. intros H. pose proof (utf8_len_pos c). repeat split; [apply Z.eqb_neq|apply Z.ltb_ge|]; lia. Qed.

Lemma take_bytes_prefix pre : forall post, take_bytes (pre ++ post) (blen pre) = Ret pre.
Proof.
  induction pre as [|c t IH]; intros post; cbn [blen app]; [destruct post; reflexivity|].
  destruct (first_char_steps c (blen t) (blen_nonneg t)) as [E1 [E2 E3]].
  cbn [take_bytes]. rewrite E1, E2, E3, IH. reflexivity.
Qed.

Lemma drop_bytes_prefix pre : forall post, drop_bytes (pre ++ post) (blen pre) = Ret post.
Proof.
  induction pre as [|c t IH]; intros post; cbn [blen app]; [destruct post; reflexivity|].
  destruct (first_char_steps c (blen t) (blen_nonneg t)) as [E1 [E2 E3]].
  cbn [drop_bytes]. rewrite E1, E2, E3. apply IH.
Qed.

(* slicing between two char boundaries yields the characters in between *)
Lemma slice_boundaries a b c : slice (a ++ b ++ c) (blen a) (blen a + blen b) = Ret b.
Proof.
  unfold slice. pose proof (blen_nonneg a). pose proof (blen_nonneg b).
  replace ((blen a <? 0) || (blen a + blen b <? blen a)) with false
    by (symmetry; apply orb_false_iff; split; apply Z.ltb_ge; lia).
  rewrite app_assoc. rewrite <- blen_app. rewrite take_bytes_prefix. cbn [obind].
  apply drop_bytes_prefix.
Qed.

(* what the loop hands to the final slice: a char boundary [arg_start] of [whole], counters not negative *)
Definition loop_post (whole : str) (r : option (list str * Z * Z * Z)) : Prop :=
  match r with
  | None => True
  | Some (_, arg_start, td, pd) => exists pre mid, whole = pre ++ mid /\ arg_start = blen pre /\ 0 <= td /\ 0 <= pd
  end.

(* loop invariant: whole = pre ++ mid ++ rest, arg_start = |pre|, idx = |pre ++ mid|.  The depth counters are i32 and
   never negative, so the model checks their `+= 1` against 2^31; each is at most the number of bytes read so far,
   whence the bound td + pd + |rest| < 2^31 *)
Lemma arg_loop_total p whole : forall rest pre mid td pd acc,
  whole = pre ++ mid ++ rest -> 0 <= td -> 0 <= pd -> td + pd + blen rest < 2 ^ 31 ->
  exists r, arg_loop p whole rest (blen pre + blen mid) (blen pre) td pd acc = Ret r /\ loop_post whole r.
Proof.
  induction rest as [|c t IH]; intros pre mid td pd acc Hw Htd Hpd Hb; cbn [arg_loop].
  - eexists. split; [reflexivity|]. exists pre, mid. rewrite app_nil_r in Hw. auto.
  - cbn [blen] in Hb. pose proof (utf8_len_pos c) as Hc. pose proof (blen_nonneg t) as Ht.
    (* every branch but the argument separator moves on to [t] with [c] appended to [mid] *)
    assert (Hadv : forall td' pd' acc', 0 <= td' -> 0 <= pd' -> td' + pd' + blen t < 2 ^ 31 ->
              exists r, arg_loop p whole t (blen pre + blen mid + utf8_len c) (blen pre) td' pd' acc' = Ret r /\ loop_post whole r).
    { intros td' pd' acc' H1 H2 H3.
      replace (blen pre + blen mid + utf8_len c) with (blen pre + blen (mid ++ [c])) by (rewrite blen_app; cbn [blen]; lia).
      apply IH; try assumption. rewrite Hw, <- !app_assoc. reflexivity. }
    destruct (c =? 60); [unfold chk_add; rewrite chk_ok by lia; apply Hadv; lia|].
    destruct (c =? 62).
    { destruct (0 <? td) eqn:Et; [apply Z.ltb_lt in Et; apply Hadv; lia|eexists; split; [reflexivity|exact I]]. }
    destruct (c =? 40); [unfold chk_add; rewrite chk_ok by lia; apply Hadv; lia|].
    destruct (c =? 41).
    { destruct (0 <? pd) eqn:Et; [apply Z.ltb_lt in Et; apply Hadv; lia|eexists; split; [reflexivity|exact I]]. }
    destruct (c =? 44) eqn:E44; [|apply Hadv; lia].
    destruct ((td =? 0) && (pd =? 0)); [|apply Hadv; lia].
    (* a separator at depth 0: the argument [mid] is sliced off, the next one starts behind the comma *)
    assert (Hsl : slice whole (blen pre) (blen pre + blen mid) = Ret mid) by (rewrite Hw; apply slice_boundaries).
    rewrite Hsl. cbn [obind].
    apply Z.eqb_eq in E44. subst c. change (utf8_len 44) with 1 in *.
    replace (blen pre + blen mid + 1) with (blen (pre ++ mid ++ [44]))
      by (rewrite !blen_app; cbn [blen]; change (utf8_len 44) with 1; lia).
    assert (G := IH (pre ++ mid ++ [44]) [] td pd (acc ++ [utrim mid])).
    cbn [blen app] in G. rewrite Z.add_0_r in G. apply G; auto; [|lia].
    rewrite Hw, <- !app_assoc. reflexivity.
Qed.

Lemma blen_rev s : blen (rev s) = blen s.
Proof. induction s as [|c t IH]; cbn [rev blen]; [reflexivity|]. rewrite blen_app. cbn [blen]. lia. Qed.

Lemma split_first_parts c : forall s pre a b, split_first c pre s = Some (a, b) -> blen a + blen b < blen pre + blen s.
Proof.
  induction s as [|x t IH]; intros pre a b H; cbn [split_first] in H; [discriminate|].
  cbn [blen]. pose proof (utf8_len_pos x).
  destruct (x =? c).
  - inversion H; subst. rewrite blen_rev. lia.
  - apply IH in H. cbn [blen] in H. lia.
Qed.

Theorem parse_x86_arg_list_total p name : blen name < 2 ^ 31 ->
  exists r, parse_x86_arg_list p name = Ret r.
Proof.
  intros Hn. unfold parse_x86_arg_list.
  destruct (split_first 40 [] name) as [[fname after]|] eqn:E1; [|eexists; reflexivity].
  destruct (split_last 41 after) as [[arg_list junk]|] eqn:E2; [|eexists; reflexivity].
  assert (Hal : blen arg_list < 2 ^ 31).
  { apply split_first_parts in E1. cbn [blen] in E1. pose proof (blen_nonneg fname). unfold split_last in E2.
    destruct (split_first 41 [] (rev after)) as [[a b]|] eqn:E3; [|discriminate].
    inversion E2; subst. apply split_first_parts in E3. cbn [blen] in E3. rewrite blen_rev in *.
    pose proof (blen_nonneg a). lia. }
  destruct (arg_loop_total p arg_list arg_list [] [] 0 0 []) as [r [Hr Hinv]]; [reflexivity|lia|lia|lia|].
  cbn [blen] in Hr. change (0 + 0) with 0 in Hr. rewrite Hr. cbn [obind].
  destruct r as [[[[acc arg_start] td] pd]|]; [|eexists; reflexivity].
  destruct Hinv as [pre' [mid' [Hw [Hs _]]]]. subst arg_start.
  assert (Hsl : slice arg_list (blen pre') (blen arg_list) = Ret mid').
  { pose proof (slice_boundaries pre' mid' []) as X. rewrite app_nil_r in X.
    rewrite <- blen_app in X. rewrite <- Hw in X. exact X. }
  rewrite Hsl. cbn [obind]. destruct ((td =? 0) && (pd =? 0)); eexists; reflexivity.
Qed.

Lemma pops_total p : forall n rh lim, 0 <= rh -> rh + 4 * Z.of_nat n < two64 -> exists r, pops p n rh lim = Ret r.
Proof.
  induction n as [|n IH]; intros rh lim H0 H1; cbn [pops]; [eexists; reflexivity|].
  destruct (rh <? lim).
  - rewrite chk_add64_ok by lia. cbn [obind]. apply IH; lia.
  - apply IH; lia.
Qed.

Lemma pops_idle p : forall n rh lim, lim <= rh -> pops p n rh lim = Ret rh.
Proof.
  induction n as [|n IH]; intros rh lim H; cbn [pops]; [reflexivity|].
  replace (rh <? lim) with false by (symmetry; apply Z.ltb_ge; lia). apply IH. exact H.
Qed.
