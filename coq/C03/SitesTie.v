(* C03/SitesTie.v — the hand-written site models against what translate/c03_sites.py reads out of the source on every
   run (coq/Gen/C03Sites.v): the vocabulary for comparing the set of CPU contexts that have an unwinder ([of_gen],
   [in_arms]; the comparison itself, the guard-page size limit and the first inline level are c03_sites_match_source),
   and the ties of the thread loop, the NEARBY_REGISTER index and MinidumpInfo::new.  (The translator additionally pins
   the shape of each modelled function and aborts when it changes; that part is a checked tie, not a theorem.) *)
From Coq Require Import ZArith List Bool.
From RM Require Import Gen.C03Sites C03.Model C03.FetchModel C03.ProcessModel.
From RM Require Import Base.WordFacts.
From RM Require C05.Model.
From Coq Require Import Lia.
Import ListNotations.
Open Scope Z_scope.

Definition of_gen (c : gen_cpu) : cpu_kind :=
  match c with
  | GCpuX86 => CpuX86 | GCpuAmd64 => CpuAmd64 | GCpuArm => CpuArm | GCpuArm64 => CpuArm64 | GCpuArm64Old => CpuArm64Old
  | GCpuMips => CpuMips | GCpuPpc => CpuPpc | GCpuPpc64 => CpuPpc64 | GCpuSparc => CpuSparc | GCpuUnknown => CpuUnknown
  end.
Definition gen_idx (c : gen_cpu) : Z :=
  match c with
  | GCpuX86 => 0 | GCpuAmd64 => 1 | GCpuArm => 2 | GCpuArm64 => 3 | GCpuArm64Old => 4
  | GCpuMips => 5 | GCpuPpc => 6 | GCpuPpc64 => 7 | GCpuSparc => 8 | GCpuUnknown => 9
  end.
Definition in_arms (c : gen_cpu) : bool := existsb (fun a => gen_idx a =? gen_idx c) gen_unwinder_arms.

(* into_process_state.  The model's context selection and stack-memory choice, rewritten over the
   expressions the translator reads out of processor.rs (operand order of the three `.or()`s, width of the probe) *)
Lemma first_pass_from_source pi t : opt_is (pi_dump_tid pi) (th_id t) = false ->
  s0_req (initial_stack pi t) = opt_is (gen_wanted_id (pi_crash_tid pi) (pi_req_tid pi)) (th_id t) /\
  s0_ctx (initial_stack pi t) =
  if opt_is (gen_wanted_id (pi_crash_tid pi) (pi_req_tid pi)) (th_id t)
  then gen_selected_context (pi_exc_ctx pi) (th_ctx t) else th_ctx t.
Proof.
  intros H. unfold initial_stack. rewrite H. unfold gen_wanted_id, gen_selected_context, gen_or.
  change (match pi_crash_tid pi with Some _ => pi_crash_tid pi | None => pi_req_tid pi end) with (opt_or (pi_crash_tid pi) (pi_req_tid pi)).
  destruct (opt_is (opt_or (pi_crash_tid pi) (pi_req_tid pi)) (th_id t)); split; reflexivity.
Qed.

Lemma stack_choice_from_source : forall mem t r v,
  choose_stack_memory mem t (Some (r, v)) =
  let sm := thread_stack_memory mem t in
  if match sm with Some m => region_reads m gen_stack_probe_bytes (C05.Model.r_sp r) | None => false end
  then sm else gen_stack_fallback (memory_at mem (C05.Model.r_sp r)) sm.
Proof. reflexivity. Qed.

(* BitFlipDetails::confidence.  The model's index is the source's expression (as the translator reads it),
   followed by the bounds check of the table access; and that expression, for the table length of the source, stays inside
   the table for every non-zero u32 count, in both profiles. *)
Lemma nearby_index_from_source : forall p n, 0 < n ->
  nearby_index p n =
  (do i <- gen_nearby_index p n gen_nearby_table_len;
   if (0 <=? i) && (i <? gen_nearby_table_len) then Ret (Some i) else Panic PANIC_INDEX).
Proof.
  intros p n H. unfold nearby_index. replace (0 <? n) with true by (symmetry; apply Z.ltb_lt; exact H). reflexivity.
Qed.
Lemma nearby_source_in_bounds : forall p n, 0 < n < two32 ->
  exists i, gen_nearby_index p n gen_nearby_table_len = Ret i /\ 0 <= i < gen_nearby_table_len.
Proof.
  intros p n H. unfold gen_nearby_index, gen_nearby_table_len.
  rewrite chk_sub_ok by (change (2 ^ 64) with 18446744073709551616; unfold two32 in H; lia).
  eexists. split; [reflexivity|lia].
Qed.

(* MinidumpInfo::new.  Run over the table of stream reads the translator extracts (source order): the first failed
   read that is turned into a ProcessError decides; the model's two tests are exactly that, whatever the other streams do. *)
Fixpoint first_failure (ok : gen_stream -> bool) (l : list (gen_stream * option gen_process_error)) : option gen_process_error :=
  match l with
  | [] => None
  | (s, Some e) :: t => if ok s then first_failure ok t else Some e
  | (_, None) :: t => first_failure ok t
  end.
Definition to_gen_error (e : process_error) : gen_process_error :=
  match e with MissingThreadList => GE_MissingThreadList | MissingSystemInfo => GE_MissingSystemInfo end.
Lemma info_new_from_source : forall ok,
  first_failure ok gen_stream_handling =
  option_map to_gen_error (info_new (ok GS_MinidumpThreadList) (ok GS_MinidumpSystemInfo)).
Proof. intros ok. cbn. unfold info_new. destruct (ok GS_MinidumpThreadList), (ok GS_MinidumpSystemInfo); reflexivity. Qed.
Lemma optional_streams_cannot_fail : forall ok ok',
  ok GS_MinidumpThreadList = ok' GS_MinidumpThreadList -> ok GS_MinidumpSystemInfo = ok' GS_MinidumpSystemInfo ->
  first_failure ok gen_stream_handling = first_failure ok' gen_stream_handling.
Proof. intros ok ok' H1 H2. rewrite !info_new_from_source, H1, H2. reflexivity. Qed.
