(* C03/RenderProofs.v — "the resulting state can always be written as full text, brief text and JSON":
   the printers' control flow (C03/RenderModel.v) returns for every state whose frames satisfy [frame_ok] (C08 / C11 lookup
   facts), whose requesting_thread is an index of the thread list and whose module tables passed the readers' filter. *)
From Coq Require Import Lia ZArith List Bool.
From RM Require Import C08.Model C08.Proofs C03.Model C03.Proofs C03.FetchModel C03.ProcessModel C03.ProcessProofs C03.RenderModel.
Import ListNotations.
Open Scope Z_scope.

(* lines written by CallStack::print for one stack: one per inline and one per real frame *)
Definition stack_lines (fs : list rframe) : nat := fold_right (fun f n => (rf_inlines f + 1 + n)%nat) 0%nat fs.

Definition mods_ok (mods : list (Z * Z)) : Prop :=
  forall m, In m mods -> 0 <= fst m /\ 0 <= snd m /\ module_read_ok (fst m) (snd m) = true.

Definition state_ok (st : rstate) : Prop :=
  (forall s f, In s (st_threads st) -> In f (rs_frames s) -> frame_ok (rf_frame f)) /\
  (* the frame numbers are usize values: a Vec cannot hold 2^64 elements *)
  (forall s, In s (st_threads st) -> Z.of_nat (stack_lines (rs_frames s)) < two64) /\
  (forall i, st_requesting st = Some i -> (i < length (st_threads st))%nat) /\
  mods_ok (st_modules st) /\ mods_ok (st_unloaded st).

Lemma print_inlines_total p : forall n c, 0 <= c -> c + Z.of_nat n < two64 ->
  exists l, print_inlines p n c = Ret (l, c + Z.of_nat n).
Proof.
  induction n as [|n IH]; intros c H0 H1; cbn [print_inlines].
  - exists []. rewrite Z.add_0_r. reflexivity.
  - rewrite chk_add64_ok by lia. cbn [obind].
    destruct (IH (c + 1)) as [l E]; [lia|lia|]. rewrite E. cbn [obind fst snd].
    eexists. f_equal. f_equal. lia.
Qed.

(* what CallStack::print needs of one stack: fewer than 2^64 lines, every frame within the lookup invariants *)
Definition stack_ok (s : rstack) : Prop :=
  Z.of_nat (stack_lines (rs_frames s)) < two64 /\ forall f, In f (rs_frames s) -> frame_ok (rf_frame f).

Lemma print_frames_total p : forall fs c, 0 <= c -> c + Z.of_nat (stack_lines fs) < two64 ->
  (forall f, In f fs -> frame_ok (rf_frame f)) -> exists l, print_frames p fs c = Ret l.
Proof.
  induction fs as [|f t IH]; intros c H0 H1 Hok; cbn [print_frames]; [eexists; reflexivity|].
  cbn [stack_lines fold_right] in H1. fold (stack_lines t) in H1.
  destruct (print_inlines_total p (rf_inlines f) c) as [li Ei]; [lia|lia|].
  rewrite Ei. cbn [obind fst snd]. rewrite chk_add64_ok by lia. cbn [obind].
  destruct (proj1 (render_frame_total p (rf_frame f) (Hok f (or_introl eq_refl)))) as [off Eo]. rewrite Eo. cbn [obind].
  destruct (IH (c + Z.of_nat (rf_inlines f) + 1)) as [lr Er]; [lia|lia|intros g Hg; apply Hok; right; exact Hg|].
  rewrite Er. eexists; reflexivity.
Qed.

Lemma call_stack_print_total p s : stack_ok s -> exists l, call_stack_print p s = Ret l.
Proof.
  intros [H1 Hok]. unfold call_stack_print.
  destruct (print_frames_total p (rs_frames s) 0) as [l E]; [lia|lia|exact Hok|]. rewrite E. eexists; reflexivity.
Qed.

Lemma print_other_threads_total p req : forall ts i, (forall s, In s ts -> stack_ok s) ->
  exists l, print_other_threads p req ts i = Ret l.
Proof.
  induction ts as [|s t IH]; intros i H; cbn [print_other_threads]; [eexists; reflexivity|].
  destruct (IH (S i)) as [rest Er]; [intros x Hx; apply H; right; exact Hx|]. rewrite Er. cbn [obind].
  destruct (eq_some req i); [eexists; reflexivity|]. destruct (is_skipped s); [eexists; reflexivity|].
  destruct (call_stack_print_total p s (H s (or_introl eq_refl))) as [body Eb]. rewrite Eb. eexists; reflexivity.
Qed.

Lemma module_tables_total p mk mods : mods_ok mods ->
  (exists l, print_module_table p mk mods = Ret l /\ length l = length mods) /\
  (exists l, json_module_table p mk mods = Ret l /\ length l = length mods).
Proof.
  intros H. split; apply collect_map_total; intros m Hm; destruct (H m Hm) as [H0 [H1 H2]];
    destruct (module_ends_ok p (fst m) (snd m) H0 H1 H2) as [Ej Et].
  - rewrite Et. cbn [obind]. eexists; reflexivity.
  - rewrite Ej. cbn [obind]. eexists; reflexivity.
Qed.

Lemma json_frames_total p : forall fs i, (forall f, In f fs -> frame_ok (rf_frame f)) ->
  exists l, json_frames p fs i = Ret l /\ length l = length fs.
Proof.
  induction fs as [|f t IH]; intros i H; cbn [json_frames]; [exists []; split; reflexivity|].
  destruct (proj2 (render_frame_total p (rf_frame f) (H f (or_introl eq_refl)))) as [o Eo]. rewrite Eo. cbn [obind].
  destruct (IH (S i)) as [r [Er Hr]]; [intros g Hg; apply H; right; exact Hg|]. rewrite Er. cbn [obind].
  eexists. split; [reflexivity|cbn; lia].
Qed.

Lemma json_threads_total p ts : (forall s f, In s ts -> In f (rs_frames s) -> frame_ok (rf_frame f)) ->
  exists l, json_threads p ts = Ret l /\ Forall2 (fun s jt => length jt = length (rs_frames s)) ts l.
Proof.
  intros H. unfold json_threads. apply collect_map_spec. intros s Hs.
  destruct (json_frames_total p (rs_frames s) 0 (fun f Hf => H s f Hs Hf)) as [l [E Hl]]. exists l. split; assumption.
Qed.

Lemma Forall2_nth {A B} (P : A -> B -> Prop) l r i x : Forall2 P l r -> nth_error l i = Some x ->
  exists y, nth_error r i = Some y /\ P x y.
Proof.
  intros F. revert i. induction F; intros i E; destruct i; cbn in *; try discriminate.
  - inversion E; subst. eexists; split; [reflexivity|assumption].
  - apply IHF. exact E.
Qed.

Lemma json_crashing_total st jt :
  (forall i, st_requesting st = Some i -> (i < length (st_threads st))%nat) ->
  Forall2 (fun s j => length j = length (rs_frames s)) (st_threads st) jt ->
  exists l, json_crashing st jt = Ret l.
Proof.
  intros Hreq F. unfold json_crashing. destruct (st_requesting st) as [i|]; [|eexists; reflexivity].
  destruct (idx_in_bounds (st_threads st) i (Hreq i eq_refl)) as [s [Es Hn]]. rewrite Es. cbn [obind].
  destruct (rs_frames s) as [|f0 t] eqn:Ef; [eexists; reflexivity|].
  destruct (Forall2_nth _ _ _ _ _ F Hn) as [j [Ej Hj]]. unfold idx at 1. rewrite Ej. cbn [obind].
  rewrite Ef in Hj. destruct j as [|j0 jr]; [discriminate|]. cbn. eexists; reflexivity.
Qed.

(* every one of the three printers returns: no index out of bounds, no overflow trap, in both profiles *)
Lemma renderers_total p st : state_ok st ->
  exists full brief json, render_all p st = Ret (full, brief, json) /\
    (forall i, st_requesting st = Some i -> In (IThread i) full /\ In (IThread i) brief) /\
    (length (st_modules st) + length (st_unloaded st) <= length full)%nat /\
    (length (st_modules st) + length (st_threads st) + length (st_unloaded st) <= length json)%nat.
Proof.
  intros [Hfr [Hlines [Hreq [Hm Hu]]]].
  assert (Hst : forall s, In s (st_threads st) -> stack_ok s)
    by (intros s Hs; split; [exact (Hlines s Hs)|intros f Hf; exact (Hfr s f Hs Hf)]).
  assert (Hreqpart : exists l, match st_requesting st with
                | None => Ret []
                | Some i => do s <- idx (st_threads st) i; do body <- call_stack_print p s; Ret (IThread i :: body)
                end = Ret l /\ forall i, st_requesting st = Some i -> In (IThread i) l).
  { destruct (st_requesting st) as [i|] eqn:Er; [|exists []; split; [reflexivity|intros i H; discriminate]].
    destruct (idx_in_bounds (st_threads st) i (Hreq i eq_refl)) as [s [Es Hn]]. rewrite Es. cbn [obind].
    destruct (call_stack_print_total p s (Hst s (nth_error_In _ _ Hn))) as [body Eb]. rewrite Eb. cbn [obind].
    eexists. split; [reflexivity|]. intros j Hj. inversion Hj; subst. left; reflexivity. }
  destruct Hreqpart as [reqpart [Ereq Hin]].
  destruct (print_other_threads_total p (st_requesting st) (st_threads st) 0 Hst) as [others Eo].
  destruct (module_tables_total p IModule (st_modules st) Hm) as [[tm [Etm Ltm]] _].
  destruct (module_tables_total p IUnloaded (st_unloaded st) Hu) as [[tu [Etu Ltu]] _].
  destruct (module_tables_total p IJsonModule (st_modules st) Hm) as [_ [jm [Ejm Ljm]]].
  destruct (module_tables_total p IJsonUnloaded (st_unloaded st) Hu) as [_ [ju [Eju Lju]]].
  destruct (json_threads_total p (st_threads st) Hfr) as [jt [Ejt Fjt]].
  destruct (json_crashing_total st jt Hreq Fjt) as [cr Ecr].
  unfold render_all, print_internal, print_json.
  rewrite Ereq, Eo, Etm, Etu, Ejm, Ejt, Eju. cbn [obind]. rewrite Ecr. cbn [obind].
  eexists; eexists; eexists. split; [reflexivity|]. split; [|split].
  - intros i Hi. split; apply in_or_app; right; [apply in_or_app; left|]; exact (Hin i Hi).
  - rewrite !app_length. lia.
  - rewrite !app_length, map_length. rewrite (Forall2_length' _ _ _ Fjt). cbn [length]. lia.
Qed.
