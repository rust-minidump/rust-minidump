(* C03/FetchProofs.v — lemmas about C03/FetchModel.v: the shape of the regions the readers build ([wf_region]) and
   that memory_at_address returns a region of the list containing the address; in-range slicing; the invariant of the
   inline-level enumeration (at most |INLINE records| + 1 lookups) and the lower bound for the variant that enumerates up
   to the largest depth; CPUs without an unwinder; the equation of a u64 read inside one region.  Witness layouts for the
   refutations. *)
From Coq Require Import Lia List.
From RM Require Import C08.Model C08.Proofs C03.Model C03.Proofs C03.FetchModel.
Import ListNotations.
Open Scope Z_scope.

(* what the two stream readers guarantee: size is the length of the byte slice (location_slice / all.get(start..end)) *)
Definition wf_region (r : region) : Prop :=
  0 <= r_base r /\ 0 <= r_size r /\ r_size r = Z.of_nat (length (r_bytes r)).
Definition wf_regions (rs : list region) : Prop := forall r, In r rs -> wf_region r.

(* memory_at_address only returns a region of the list whose own range contains the address *)
Lemma memory_at_sound rs x m : wf_regions rs -> memory_at rs x = Some m ->
  In m rs /\ r_base m <= x /\ x <= r_base m + r_size m - 1 /\ r_base m + r_size m <= two64.
Proof.
  intros Hwf H. unfold memory_at in H.
  destruct (rm_get (region_table rs) x) as [i|] eqn:E; [|discriminate].
  apply table_lookup_sound in E.
  - destruct E as [m' [r [Hn [Hr Hc]]]]. rewrite Hn in H. inversion H; subst m'.
    split; [exact (nth_error_In _ _ Hn)|]. destruct (mk_range_contains _ _ _ _ Hr Hc). lia.
  - intros m' r Hin Hr. destruct (Hwf m' Hin) as [Hb [Hs _]]. exact (mk_range_wf _ _ r Hb Hs Hr).
Qed.

Lemma slice_from_ok {A} (l : list A) off : 0 <= off <= Z.of_nat (length l) ->
  slice_from l off = Ret (skipn (Z.to_nat off) l).
Proof.
  intros H. unfold slice_from. rewrite (proj2 (Z.leb_le 0 off)), (proj2 (Z.leb_le off _)) by lia. reflexivity.
Qed.

(* on this two-region layout the stitching variant of the fetch panics: the class of defect is expressible in the model *)
Definition stitch_witness : list region :=
  [ {| r_base := 4194304; r_size := 2; r_bytes := [72; 139] |};
    {| r_base := 4194306; r_size := 3; r_bytes := [3; 144; 144] |} ].
Lemma stitch_witness_wf : wf_regions stitch_witness.
Proof.
  intros r [H|[H|[]]]; subst r; unfold wf_region; cbn; lia.
Qed.

(* what get_inlinee_at_depth guarantees about its result: a record of the function, of exactly the depth asked for *)
Definition look_sound (recs : list inlinee) (look : Z -> option inlinee) : Prop :=
  forall d r, look d = Some r -> In r recs /\ i_depth r = d.

Lemma look_linear_sound recs addr : look_sound recs (look_linear recs addr).
Proof.
  intros d r H. unfold look_linear in H. apply find_some in H. destruct H as [Hin Hc].
  split; [exact Hin|]. unfold covers in Hc.
  apply andb_prop in Hc. destruct Hc as [Hc _]. apply andb_prop in Hc. destruct Hc as [Hc _].
  apply Z.eqb_eq in Hc. exact Hc.
Qed.

(* invariant of the enumeration: [acc] holds one record of [recs] per level below [depth], so their depths differ pairwise
   and |acc| <= |recs|; a hit adds a record of the fresh depth [depth].  Hence at most |recs| hits, and the fuel
   |recs| + 1 - |acc| is not exhausted. *)
Lemma inline_loop_bound p recs look : look_sound recs look -> Z.of_nat (length recs) + 2 < two32 ->
  forall fuel depth acc,
    depth = Z.of_nat (length acc) + 1 ->
    NoDup (map i_depth acc) ->
    (forall r, In r acc -> In r recs /\ i_depth r < depth) ->
    (length recs < fuel + length acc)%nat ->
    exists l, inline_loop p fuel look depth acc = Ret l /\ (length l <= length recs)%nat.
Proof.
  intros Hl Hsz. induction fuel as [|f IH]; intros depth acc Hda Hnd Hacc Hfuel;
    (assert (Hle : (length acc <= length recs)%nat)
       by (apply NoDup_incl_length; [exact (NoDup_map_inv i_depth acc Hnd)|intros r Hr; apply Hacc; exact Hr])); [lia|].
  cbn [inline_loop]. unfold chk_add. rewrite chk_ok by (change (2 ^ 32) with two32; lia). cbn [obind].
  destruct (look depth) as [r|] eqn:E; [|exists (rev acc); rewrite rev_length; split; [reflexivity|exact Hle]].
  destruct (Hl _ _ E) as [Hin Hdep]. apply IH; cbn [length map]; [lia| | |lia].
  - (* depths still pairwise different: those in [acc] are below [depth] *)
    constructor; [|exact Hnd]. intros Hc. apply in_map_iff in Hc. destruct Hc as [r' [He Hr']].
    destruct (Hacc r' Hr') as [_ Hlt]. lia.
  - (* still records of [recs], now below [depth + 1] *)
    intros r' [Hr'|Hr']; [subst r'; split; [exact Hin|lia]|]. destruct (Hacc r' Hr') as [H1 H2]. split; [exact H1|lia].
Qed.

(* the enumeration up to the largest recorded depth is not bounded by the number of records: two records, 4 294 967 295 levels *)
Definition depth_gap_witness : list inlinee :=
  [ {| i_depth := 0; i_addr := 0; i_size := 16; i_origin := 0 |};
    {| i_depth := 4294967295; i_addr := 0; i_size := 16; i_origin := 1 |} ].
Lemma maxdepth_needs_depth_many_steps look : forall (fuel : nat) maxd depth acc,
  (Z.of_nat fuel <= maxd - depth + 1) -> inline_loop_maxdepth fuel look maxd depth acc = OutOfFuel.
Proof.
  induction fuel as [|f IH]; intros maxd depth acc H; [reflexivity|].
  cbn [inline_loop_maxdepth]. destruct (maxd <? depth) eqn:E; [apply Z.ltb_lt in E; lia|].
  destruct (look depth); apply IH; lia.
Qed.

Lemma no_unwinder_single_frame {F} c (w : F -> option F) (cur : F) (stack_bytes : nat) :
  has_unwinder c = false ->
  walk_any 1 (get_caller_dispatch c w) cur = Ret [cur] /\ (length [cur] <= stack_bytes + 2)%nat.
Proof.
  intros H. unfold get_caller_dispatch. rewrite H. cbn. split; [reflexivity|lia].
Qed.

(* for an address at or above the base of a region of the readers' shape, the read succeeds exactly when all 8 bytes
   lie below the region's end *)
Lemma region_read_u64_spec m addr : wf_region m -> r_base m <= addr ->
  region_read_u64 m addr =
  if addr + 8 <=? r_base m + r_size m
  then Some (le_value (firstn 8 (skipn (Z.to_nat (addr - r_base m)) (r_bytes m)))) else None.
Proof.
  intros [_ [_ Hlen]] Hlo. unfold region_read_u64, checked_sub.
  replace (0 <=? addr - r_base m) with true by (symmetry; apply Z.leb_le; lia).
  rewrite <- Hlen. replace (addr - r_base m + 8 <=? r_size m) with (addr + 8 <=? r_base m + r_size m); [reflexivity|].
  destruct (addr + 8 <=? r_base m + r_size m) eqn:E; symmetry;
    [apply Z.leb_le; apply Z.leb_le in E|apply Z.leb_gt; apply Z.leb_gt in E]; lia.
Qed.
