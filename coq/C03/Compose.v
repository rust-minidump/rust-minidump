(* C03/Compose.v — the frame the printers see for an instruction inside a module, after C11's fill_symbol: it satisfies
   [frame_ok] (function base and source-line base from C11's lookup theorems).  C05 / C11 are imported qualified
   (their models reuse names such as [frame]). *)
From Coq Require Import Lia.
From RM Require Import C08.Model C08.Proofs C03.Model C03.Proofs.
From RM Require Import C03.FetchModel C03.ProcessModel C03.ProcessProofs.
(* C11's and C05's lemmas are taken from their proof files (func_sound, line_sound; frame_bound), of which the
   c11_* / c03_frame_bound theorems of those directories are instances *)
From RM Require C11.Model C11.Proofs2 C11.Proofs5.
From RM Require C05.Model C05.Proofs.
Open Scope Z_scope.

(* the StackFrame fields the printers read, as fill_source_line_info leaves them for a frame at
   [instr] inside a module loaded at [mbase], after SymbolFile::fill_symbol returned [o] *)
Definition frame_of (instr mbase : Z) (o : C11.Model.sym_out) : frame :=
  {| f_instr := instr;
     f_module := Some mbase;
     f_fname := match C11.Model.o_func o with Some _ => true | None => false end;
     f_fbase := match C11.Model.o_func o with Some (_, b, _) => Some b | None => None end;
     f_srcfl := match C11.Model.o_src o with Some _ => true | None => false end;
     f_sbase := match C11.Model.o_src o with Some (_, _, b) => Some b | None => None end |}.

(* in a well-formed symbol file every record address is a u64, in particular not negative *)
Section RecordAddresses.
Import C11.Model C11.Proofs2.
Variable rf : raw_file.
Hypothesis Hwf : wf_file rf.

Lemma func_rec_ok fr : In fr (rf_funcs rf) -> wf_fraw fr.
Proof. destruct Hwf as [Wf _]. rewrite Forall_forall in Wf. apply Wf. Qed.

Lemma func_addr_nonneg fr : In fr (rf_funcs rf) -> 0 <= fr_addr fr.
Proof. intros H. destruct (func_rec_ok fr H) as [[A _] _]. exact A. Qed.

Lemma public_addr_nonneg pb : In pb (rf_publics rf) -> 0 <= p_addr pb.
Proof. destruct Hwf as [_ [Wp _]]. rewrite Forall_forall in Wp. intros H. exact (proj1 (Wp pb H)). Qed.

Lemma line_addr_nonneg fr l : In fr (rf_funcs rf) -> In l (fr_lines fr) -> 0 <= l_addr l.
Proof.
  intros Hf Hl. destruct (func_rec_ok fr Hf) as [_ [_ [Wl _]]]. rewrite Forall_forall in Wl. exact (proj1 (proj1 (Wl l Hl))).
Qed.

Lemma inline_addr_nonneg fr e : In fr (rf_funcs rf) -> In e (fr_inls fr) -> 0 <= i_addr e.
Proof.
  intros Hf He. destruct (func_rec_ok fr Hf) as [_ [_ [_ [Wi _]]]]. rewrite Forall_forall in Wi.
  exact (proj1 (proj1 (proj2 (Wi e He)))).
Qed.
End RecordAddresses.

(* the bases fill_symbol reports are [mbase] plus the address of a record of the file (C11: func_sound, line_sound),
   hence not negative; that they are at most [instr] is part of the same theorems *)
Lemma func_base_range p rf mbase instr o name base ps :
  C11.Proofs2.wf_file rf -> 0 <= mbase -> instr < two64 -> C11.Model.symbolize p rf mbase instr = Ret o ->
  C11.Model.o_func o = Some (name, base, ps) -> 0 <= base <= instr.
Proof.
  intros Hwf Hm Hi Hs E. destruct (C11.Proofs5.func_sound p rf mbase instr Hwf Hm Hi) as [o' [E' [_ F]]].
  rewrite Hs in E'. inversion E'; subst o'.
  destruct (F name base ps E) as (_ & Hle & [(fr & Hin & _ & _ & Hbase & _)|(pb & Hin & _ & _ & Hbase & _)]).
  - pose proof (func_addr_nonneg rf Hwf fr Hin). lia.
  - pose proof (public_addr_nonneg rf Hwf pb Hin). lia.
Qed.

Lemma line_base_range p rf mbase instr o file line base :
  C11.Proofs2.wf_file rf -> 0 <= mbase -> instr < two64 -> C11.Model.symbolize p rf mbase instr = Ret o ->
  C11.Model.o_src o = Some (file, line, base) -> 0 <= base <= instr.
Proof.
  intros Hwf Hm Hi Hs E. destruct (C11.Proofs5.line_sound p rf mbase instr Hwf Hm Hi) as [o' [E' L]].
  rewrite Hs in E'. inversion E'; subst o'.
  destruct (L file line base E)
    as (Hle & fr & Hin & _ & [(e0 & He & _ & _ & _ & Hbase)|(_ & l & Hl & _ & _ & _ & Hbase)]).
  - pose proof (inline_addr_nonneg rf Hwf fr e0 Hin He). lia.
  - pose proof (line_addr_nonneg rf Hwf fr l Hin Hl). lia.
Qed.

Lemma frame_of_ok p rf mbase instr o :
  C11.Proofs2.wf_file rf -> 0 <= mbase -> mbase <= instr -> instr < two64 ->
  C11.Model.symbolize p rf mbase instr = Ret o -> frame_ok (frame_of instr mbase o).
Proof.
  intros Hwf Hm Hmi Hi Hs. unfold frame_ok, frame_of, below; cbn [f_instr f_module f_fbase f_sbase].
  split; [lia|]. split; [intros b H; inversion H; subst; lia|]. split; intros b H.
  - destruct (C11.Model.o_func o) as [[[n b0] ps]|] eqn:E; [|discriminate]. inversion H; subst b0.
    exact (func_base_range p rf mbase instr o n b ps Hwf Hm Hi Hs E).
  - destruct (C11.Model.o_src o) as [[[f l] b0]|] eqn:E; [|discriminate]. inversion H; subst b0.
    exact (line_base_range p rf mbase instr o f l b Hwf Hm Hi Hs E).
Qed.
