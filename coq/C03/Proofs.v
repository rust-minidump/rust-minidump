(* C03/Proofs.v — lemmas about the site models. *)
From Coq Require Import Lia.
From RM Require Import Base.WordFacts C08.Model C08.Proofs C08.IndexProofs C03.Model.
Open Scope Z_scope.

Lemma chk_never_fuel p w t x : chk p w t x <> OutOfFuel /\ chk p w t x <> Fail.
Proof. unfold chk. destruct ((0 <=? x) && (x <? 2 ^ w)); [|destruct p]; split; discriminate. Qed.

Lemma ret_not_panic {A} (x : outcome A) : (exists r, x = Ret r) -> forall tag, x <> Panic tag.
Proof. intros [r ->] tag. discriminate. Qed.

Lemma collect_map_spec {A B} (f : A -> outcome B) (P : A -> B -> Prop) l :
  (forall x, In x l -> exists y, f x = Ret y /\ P x y) ->
  exists r, collect (map f l) = Ret r /\ Forall2 P l r.
Proof.
  induction l as [|x t IH]; intros H; cbn [map collect]; [eexists; split; [reflexivity|constructor]|].
  destruct (H x (or_introl eq_refl)) as [y [Hy Py]]. rewrite Hy. cbn [obind].
  destruct IH as [r [Hr Fr]]; [intros z Hz; apply H; right; exact Hz|].
  rewrite Hr. cbn [obind]. eexists; split; [reflexivity|constructor; assumption].
Qed.

Lemma Forall2_length' {A B} (P : A -> B -> Prop) l r : Forall2 P l r -> length r = length l.
Proof. induction 1; cbn; congruence. Qed.

Lemma Forall2_in_r {A B} (P : A -> B -> Prop) l r y : Forall2 P l r -> In y r -> exists x, In x l /\ P x y.
Proof.
  induction 1 as [|a b l r Hab HF IH]; intros Hy; [destruct Hy|].
  destruct Hy as [Hy|Hy]; [subst; exists a; split; [left; reflexivity|exact Hab]|].
  destruct (IH Hy) as [x [Hx Px]]. exists x. split; [right; exact Hx|exact Px].
Qed.

Lemma collect_map_total {A B} (f : A -> outcome B) l : (forall x, In x l -> exists y, f x = Ret y) ->
  exists r, collect (map f l) = Ret r /\ length r = length l.
Proof.
  intros H. destruct (collect_map_spec f (fun _ _ => True) l) as [r [E F]].
  - intros x Hx. destruct (H x Hx) as [y Ey]. exists y. split; [exact Ey|exact I].
  - exists r. split; [exact E|exact (Forall2_length' _ _ _ F)].
Qed.

Lemma idx_in_bounds {A} (l : list A) i : (i < length l)%nat -> exists x, idx l i = Ret x /\ nth_error l i = Some x.
Proof.
  intros H. unfold idx. destruct (nth_error l i) as [x|] eqn:E; [exists x; split; reflexivity|].
  apply nth_error_None in E. lia.
Qed.

(* LinuxProcLimits::from *)
Lemma limit_entry_ok (m : list bytes) : exists r, limit_entry m = Ret r.
Proof.
  unfold limit_entry.
  destruct m as [|a [|b [|c [|d t]]]]; cbn; eexists; reflexivity.
Qed.

(* a line of blanks has no field at all *)
Lemma limits_v0_panics_blank : limits_from_v0 [72; 10; 32; 32; 10] = Panic PANIC_INDEX.
Proof. vm_compute. reflexivity. Qed.

(* an entry of a table built from [map f l] names the element of [l] it came from *)
Lemma enumerate_map_entry {A} (f : A -> option range) l r i :
  In (Some r, i) (enumerate_from 0 (map f l)) -> exists m, nth_error l (Z.to_nat i) = Some m /\ f m = Some r.
Proof.
  intros H. apply enumerate_from_in in H. destruct H as [_ H]. rewrite Z.sub_0_r, nth_error_map in H.
  destruct (nth_error l (Z.to_nat i)) as [m|]; [|discriminate].
  exists m. split; [reflexivity|]. cbn in H. congruence.
Qed.

(* module_at_address / memory_at_address / memory_info_at_address: a hit is the index of an element whose own range
   contains the address (C08's lookup soundness, read back through [enumerate_from]) *)
Lemma table_lookup_sound {A} (f : A -> option range) l x i :
  (forall m r, In m l -> f m = Some r -> wf_range r) ->
  rm_get (into_rangemap_safe Z.eqb (enumerate_from 0 (map f l))) x = Some i ->
  exists m r, nth_error l (Z.to_nat i) = Some m /\ f m = Some r /\ contains r x = true.
Proof.
  intros Hwf H. apply (lookup_sound Z.eqb Z.eqb_eq) in H.
  - destruct H as [r [Hin Hc]]. apply enumerate_map_entry in Hin. destruct Hin as [m [Hn Hr]]. exists m, r. auto.
  - apply Forall_forall. intros [[r|] k] Hin; [|exact I]. apply enumerate_map_entry in Hin.
    destruct Hin as [m [Hn Hr]]. exact (Hwf m r (nth_error_In _ _ Hn) Hr).
Qed.

Definition wf_minfo (rs : list minfo) : Prop :=
  forall r acc, In (Some r, acc) rs -> wf_range r.

Lemma somes_in {A} (l : list (option A)) a : In a (somes l) -> In (Some a) l.
Proof.
  induction l as [|[x|] t IH]; cbn [somes]; intros H; [destruct H| |].
  - destruct H as [H|H]; [left; congruence|right; auto].
  - right; auto.
Qed.

Lemma by_addr_in rs x : In x (by_addr rs) -> In x rs.
Proof.
  unfold by_addr. intros H. apply somes_in in H. apply in_map_iff in H.
  destruct H as [e [He _]]. eapply nth_error_In. exact He.
Qed.

Lemma info_at_in rs x m : info_at rs x = Some m -> In m rs.
Proof.
  unfold info_at. destruct (rm_get (info_table rs) x); [|discriminate].
  intros H. eapply nth_error_In. exact H.
Qed.

(* before the fix: fine as long as no region ends at the last address (true for
   MINIDUMP_MEMORY_INFO regions: memory_range() is base.checked_add(size)? - 1 <= 2^64 - 2) *)
Definition below_top (l : list minfo) : Prop :=
  forall r acc, In (Some r, acc) l -> wf_range r /\ snd r < U64MAX.

Lemma adjacent_v0_total p l r :
  below_top l -> wf_range r -> snd r < U64MAX -> exists b, adjacent_v0 p l r = Ret b.
Proof.
  intros Hl [R1 [R2 R3]] Rt. unfold U64MAX in *.
  (* both non-empty cases (entry with and without a range) may fall through to the tail: its result first *)
  induction l as [|[[o|] acc] t IH]; cbn [adjacent_v0]; [eexists; reflexivity| |];
    (assert (IHt : exists b, adjacent_v0 p t r = Ret b) by (apply IH; intros r' a' H; apply (Hl r' a'); right; exact H));
    [|exact IHt].
  destruct (Hl o acc (or_introl eq_refl)) as [[O1 [O2 O3]] Ot]. unfold U64MAX in Ot.
  rewrite (chk_add64_ok p _ (snd o) 1) by (unfold two64; lia). cbn [obind].
  destruct ((snd o + 1 =? fst r) && acc); [eexists; reflexivity|].
  rewrite (chk_add64_ok p _ (snd r) 1) by (unfold two64; lia). cbn [obind].
  destruct (snd r + 1 =? fst o); [eexists; reflexivity|exact IHt].
Qed.

Lemma guard_site_v0_total_below_top p rs addr :
  below_top rs -> exists b, guard_site_v0 p rs addr = Ret b.
Proof.
  intros Hb. unfold guard_site_v0.
  destruct (info_at rs addr) as [[[r|] [|]]|] eqn:E; try (eexists; reflexivity).
  apply info_at_in in E. destruct (Hb _ _ E) as [[A [B C]] D].
  rewrite chk_sub64_ok by lia. cbn [obind].
  destruct (snd r - fst r <? GUARD_MEMORY_MAX_SIZE); [|eexists; reflexivity].
  apply adjacent_v0_total; [|repeat split; assumption|assumption].
  intros r' a' H. apply (Hb r' a'). apply by_addr_in. exact H.
Qed.

(* memory-info regions are below the top *)
Lemma mk_range_below_top base size r :
  0 <= base -> 0 <= size -> mk_range base size = Some r -> wf_range r /\ snd r < U64MAX.
Proof.
  intros Hb Hs H. split; [exact (mk_range_wf base size r Hb Hs H)|].
  apply mk_range_shape in H. destruct H as (-> & _ & H). cbn [snd]. unfold two64, U64MAX in *. lia.
Qed.

(* a Linux maps entry ending at 0xffffffffffffffff, no permissions, 4 KiB *)
Definition guard_witness : list minfo := [(mk_range_maps 18446744073709547520 18446744073709551615, false)].
Lemma guard_fixed_on_witness p : guard_site p guard_witness 18446744073709549568 = Ret false.
Proof. destruct p; vm_compute; reflexivity. Qed.

(* the fix does not change any answer the old code gave without trapping *)
Lemma succ_is_spec e s : succ_is e s = (e + 1 <? two64) && (e + 1 =? s).
Proof. unfold succ_is, checked_add. rewrite <- two64_val. destruct (e + 1 <? two64); reflexivity. Qed.

Lemma succ_is_chk e s x : chk_add Debug 64 PANIC_ARITH e 1 = Ret x -> succ_is e s = (x =? s).
Proof.
  intros H. apply chk_debug_ret in H. destruct H as [-> H]. rewrite succ_is_spec, <- two64_val in *.
  replace (e + 1 <? two64) with true by (symmetry; apply Z.ltb_lt; lia). reflexivity.
Qed.

(* whenever the old code returns in a debug build, the fixed code returns the same answer (no hypothesis on the ranges:
   a [chk_add] that returned did not overflow, which is all [checked_add] tests) *)
Lemma adjacent_agrees l r b : adjacent_v0 Debug l r = Ret b -> adjacent l r = b.
Proof.
  induction l as [|[[o|] acc] t IH]; cbn [adjacent_v0 adjacent]; intros H; [inversion H; reflexivity| |exact (IH H)].
  destruct (chk_add Debug 64 PANIC_ARITH (snd o) 1) as [e1| | |] eqn:E1; cbn [obind] in H; try discriminate.
  rewrite (succ_is_chk _ (fst r) _ E1). destruct ((e1 =? fst r) && acc); [inversion H; reflexivity|].
  destruct (chk_add Debug 64 PANIC_ARITH (snd r) 1) as [e2| | |] eqn:E2; cbn [obind] in H; try discriminate.
  rewrite (succ_is_chk _ (fst o) _ E2). destruct (e2 =? fst o); [inversion H; reflexivity|exact (IH H)].
Qed.

Lemma module_ends_ok p base size :
  0 <= base -> 0 <= size -> module_read_ok base size = true ->
  json_end_addr p base size = Ret (base + size) /\ text_end_addr p base size = Ret (base + size - 1).
Proof.
  intros Hb Hs H. unfold module_read_ok in H. apply andb_prop in H. destruct H as [H0 H1].
  apply Z.leb_le in H1. apply negb_true_iff in H0. apply Z.eqb_neq in H0. unfold U64MAX in H1.
  unfold json_end_addr, text_end_addr. rewrite chk_add64_ok by (unfold two64; lia).
  split; [reflexivity|]. cbn [obind]. apply chk_sub64_ok; unfold two64; lia.
Qed.

Definition below (o : option Z) (x : Z) : Prop := forall b, o = Some b -> 0 <= b <= x.
Definition frame_ok (f : frame) : Prop :=
  0 <= f_instr f < two64 /\ below (f_module f) (f_instr f) /\ below (f_fbase f) (f_instr f) /\
  below (f_sbase f) (f_instr f).

Lemma render_frame_total p f : frame_ok f ->
  (exists a, text_frame_offset p f = Ret a) /\ (exists b, json_frame_offsets p f = Ret b).
Proof.
  intros [Hi [Hm [Hf Hs]]]. unfold text_frame_offset, json_frame_offsets.
  assert (S : forall o b, below o (f_instr f) -> o = Some b ->
                chk_sub p 64 PANIC_ARITH (f_instr f) b = Ret (f_instr f - b))
    by (intros o b Ho E; apply chk_sub64_ok; specialize (Ho b E); lia).
  split.
  - destruct (f_module f) as [mb|]; [|eexists; reflexivity].
    destruct (f_fname f); destruct (f_fbase f) as [fb|];
      try (rewrite (S _ mb Hm eq_refl); cbn [obind]; eexists; reflexivity).
    destruct (f_srcfl f); destruct (f_sbase f) as [sb|];
      try (rewrite (S _ fb Hf eq_refl); cbn [obind]; eexists; reflexivity).
    rewrite (S _ sb Hs eq_refl); cbn [obind]; eexists; reflexivity.
  - destruct (f_module f) as [mb|]; destruct (f_fbase f) as [fb|];
      repeat (first [rewrite (S _ mb Hm eq_refl) | rewrite (S _ fb Hf eq_refl)]);
      cbn [obind]; eexists; reflexivity.
Qed.

(* the hypotheses of frame_ok are necessary: a function base above the instruction traps *)
Lemma render_needs_invariant :
  text_frame_offset Debug {| f_instr := 4096; f_module := Some 0; f_fname := true; f_fbase := Some 8192;
                             f_srcfl := false; f_sbase := None |} = Panic PANIC_ARITH.
Proof. vm_compute. reflexivity. Qed.

(* where the module / unloaded-module invariants come from: C08 *)
Definition wf_mods (mods : list (Z * Z)) : Prop := forall m, In m mods -> 0 <= fst m /\ 0 <= snd m.

(* an entry of a module list whose range contains [x] starts at or below [x] *)
Lemma mods_hit mods n m r x :
  wf_mods mods -> nth_error mods n = Some m -> mk_range (fst m) (snd m) = Some r -> contains r x = true ->
  0 <= fst m <= x.
Proof.
  intros Hm Hn Hr Hc. destruct (Hm m (nth_error_In _ _ Hn)) as [Hb _].
  pose proof (mk_range_contains _ _ _ _ Hr Hc). lia.
Qed.

Lemma module_table_sound mods x i : wf_mods mods -> rm_get (module_table mods) x = Some i ->
  exists m, nth_error mods (Z.to_nat i) = Some m /\ 0 <= fst m <= x.
Proof.
  intros Hm H. apply table_lookup_sound in H.
  - destruct H as [m [r [Hn [Hr Hc]]]]. exists m. split; [exact Hn|exact (mods_hit _ _ _ _ _ Hm Hn Hr Hc)].
  - intros m r Hin Hr. destruct (Hm m Hin) as [Hb Hs]. exact (mk_range_wf _ _ r Hb Hs Hr).
Qed.

Lemma unloaded_offsets_total p mods instr :
  wf_mods mods -> 0 <= instr < two64 -> exists l, unloaded_offsets p mods instr = Ret l.
Proof.
  intros Hm Hi. unfold unloaded_offsets.
  destruct (collect_map_total (fun i => match nth_error mods (Z.to_nat i) with
                                        | Some m => chk_sub p 64 PANIC_ARITH instr (fst m)
                                        | None => Panic PANIC_INDEX
                                        end)
              (unloaded_at (unloaded_build (map (fun m => mk_range (fst m) (snd m)) mods)) instr)) as [l [E _]];
    [|exists l; exact E].
  intros i Hin. apply unloaded_iff in Hin. destruct Hin as [r [Hin Hc]].
  apply enumerate_map_entry in Hin. destruct Hin as [m [Hn Hr]]. rewrite Hn.
  eexists. apply chk_sub64_ok. pose proof (mods_hit _ _ _ _ _ Hm Hn Hr Hc). lia.
Qed.

Lemma requesting_from_bound ids : forall i dump_tid want acc r,
  (forall a, acc = Some a -> (a < i)%nat) ->
  requesting_from ids i dump_tid want acc = Some r -> (r < i + length ids)%nat.
Proof.
  induction ids as [|id t IH]; intros i d w acc r Hacc H; cbn [requesting_from length] in *.
  - subst acc. specialize (Hacc r eq_refl). lia.
  - apply IH in H; [lia|].
    intros a Ha.
    destruct (match d with Some d0 => d0 =? id | None => false end).
    + specialize (Hacc a Ha). lia.
    + destruct (match w with Some w0 => w0 =? id | None => false end).
      * inversion Ha; subst. lia.
      * specialize (Hacc a Ha). lia.
Qed.

Lemma requesting_thread_bound ids dump_tid want i :
  requesting_thread ids dump_tid want = Some i -> (i < length ids)%nat.
Proof. intros H. apply requesting_from_bound in H; [exact H|intros a Ha; discriminate]. Qed.

Lemma requesting_from_no_want ids : forall i dump_tid acc, requesting_from ids i dump_tid None acc = acc.
Proof.
  induction ids as [|id t IH]; intros i d acc; cbn [requesting_from]; [reflexivity|].
  rewrite IH. destruct (match d with Some d0 => d0 =? id | None => false end); reflexivity.
Qed.
