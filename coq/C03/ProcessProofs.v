(* C03/ProcessProofs.v — the top-level control flow of into_process_state (C03/ProcessModel.v) is total for
   every thread list / memory list / option of contexts: no Panic, no OutOfFuel with the fuel the model computes from the
   stack memory it chose, every thread within the frame bound for THAT memory, every frame's instruction a u64 (so the
   printers' hypotheses hold), `threads[requesting_thread]` in bounds. *)
From Coq Require Import Lia ZArith List Bool.
From RM Require Import C08.Model C08.Proofs C03.Model C03.Proofs C03.FetchModel C03.FetchProofs C03.ProcessModel.
From RM Require C05.Model C05.Proofs C05.ProofsFunction.
Import ListNotations.
Open Scope Z_scope.

Module M5 := C05.Model.
Module P5 := C05.Proofs.

(* what both memory-list readers and MinidumpMemory::read establish: size = length of the byte slice; bytes are bytes *)
Definition region_ok (m : region) : Prop := wf_region m /\ Forall (fun b => 0 <= b < 256) (r_bytes m).
(* a decoded context holds register values of the context's slot width *)
Definition ctx_ok (a : M5.arch) (c : option ctx) : Prop := forall r v, c = Some (r, v) -> P5.regs_wf a r.
Definition input_ok (a : M5.arch) (pi : proc_in) : Prop :=
  (forall m, In m (pi_memory pi) -> region_ok m) /\
  (forall t, In t (pi_threads pi) -> ctx_ok a (th_ctx t) /\ (forall m, th_stack t = Some m -> region_ok m)) /\
  ctx_ok a (pi_exc_ctx pi) /\ wf_mods (pi_unloaded pi).
Definition cfi_contract (a : M5.arch)
  (cfi_walk : M5.memory -> M5.frame -> option M5.frame -> list Z -> option (M5.regs * list Z)) : Prop :=
  forall mem callee gc fwd r v, cfi_walk mem callee gc fwd = Some (r, v) -> P5.regs_wf a r.

Definition instr_u64 (f : M5.frame) : Prop := 0 <= M5.f_instr f < two64.

(* what into_process_state guarantees about the call stack of thread-list entry [t] *)
Definition thread_post (pi : proc_in) (t : thread_in) (o : thread_out) : Prop :=
  let s0 := initial_stack pi t in
  o_id o = th_id t /\ o_info o = s0_info s0 /\
  (length (o_frames o) <= stack_bytes (choose_stack_memory (pi_memory pi) t (s0_ctx s0)) + 2)%nat /\
  match s0_ctx s0 with
  | None => o_frames o = []
  | Some (r, v) => exists rest, o_frames o = M5.from_context r v M5.TContext :: rest
  end /\
  Forall instr_u64 (o_frames o) /\
  length (o_unloaded o) = length (o_frames o).

(* the named parts of [thread_post] that later proofs use *)
Lemma thread_post_frames_le pi t o : thread_post pi t o ->
  (length (o_frames o) <= stack_bytes (choose_stack_memory (pi_memory pi) t (s0_ctx (initial_stack pi t))) + 2)%nat.
Proof. intros [_ [_ [H _]]]. exact H. Qed.

Lemma thread_post_instr_u64 pi t o : thread_post pi t o -> Forall instr_u64 (o_frames o).
Proof. intros [_ [_ [_ [_ [H _]]]]]. exact H. Qed.

Lemma zeros_are_bytes n : Forall (fun b => 0 <= b < 256) (repeat 0 n).
Proof. apply Forall_forall. intros x Hx. apply repeat_spec in Hx. subst. lia. Qed.

Lemma regs_wf_amd64 r :
  0 <= M5.r_ip r < two64 -> 0 <= M5.r_sp r < two64 -> 0 <= M5.r_fp r < two64 -> 0 <= M5.r_lr r < two64 ->
  P5.regs_wf M5.amd64 r.
Proof. unfold P5.regs_wf, P5.in_slot. change (2 ^ M5.a_slot_bits M5.amd64) with two64. auto. Qed.

(* the slot of every supported architecture is at most 64 bits wide ([arch_ok]: a_bits <= a_slot_bits <= 64) *)
Lemma slot_le_64 a : P5.arch_ok a -> 2 ^ M5.a_slot_bits a <= two64.
Proof.
  intros [_ [[_ H] _]]. change two64 with (2 ^ 64). apply Z.pow_le_mono_r; lia.
Qed.

(* the memory the walk runs on is the one chosen, or none: never a third region *)
Lemma choose_stack_cases mem t c :
  choose_stack_memory mem t c = thread_stack_memory mem t \/
  exists r v, c = Some (r, v) /\ choose_stack_memory mem t c = memory_at mem (M5.r_sp r) /\
              memory_at mem (M5.r_sp r) <> None.
Proof.
  unfold choose_stack_memory. destruct c as [[r v]|]; [|left; reflexivity].
  destruct (match thread_stack_memory mem t with Some m0 => region_reads m0 STACK_PROBE_BYTES (M5.r_sp r) | None => false end);
    [left; reflexivity|].
  destruct (memory_at mem (M5.r_sp r)) as [s|] eqn:E; cbn [opt_or]; [|left; reflexivity].
  right. exists r, v. rewrite E. split; [reflexivity|]. split; [reflexivity|discriminate].
Qed.

Lemma chosen_stack_origin mem t c m :
  choose_stack_memory mem t c = Some m -> th_stack t = Some m \/ exists x, memory_at mem x = Some m.
Proof.
  intros H. destruct (choose_stack_cases mem t c) as [E|[r [v [_ [E _]]]]]; rewrite E in H; [|right; eauto].
  unfold thread_stack_memory in H. destruct (th_stack t); cbn [opt_or] in H; [left; exact H|right; eauto].
Qed.

(* the chosen stack memory is a region the readers built *)
Lemma chosen_stack_ok mem t c m :
  (forall r, In r mem -> region_ok r) -> (forall r, th_stack t = Some r -> region_ok r) ->
  choose_stack_memory mem t c = Some m -> region_ok m.
Proof.
  intros Hm Ht H. destruct (chosen_stack_origin _ _ _ _ H) as [E|[x E]]; [exact (Ht m E)|].
  apply Hm. exact (proj1 (memory_at_sound _ _ _ (fun r Hr => proj1 (Hm r Hr)) E)).
Qed.

Lemma selected_ctx_ok a pi t : ctx_ok a (pi_exc_ctx pi) -> ctx_ok a (th_ctx t) -> ctx_ok a (s0_ctx (initial_stack pi t)).
Proof.
  intros He Ht. unfold initial_stack.
  destruct (opt_is (pi_dump_tid pi) (th_id t)); cbn [s0_ctx]; [intros r v H; discriminate|].
  destruct (opt_is (opt_or (pi_crash_tid pi) (pi_req_tid pi)) (th_id t)); cbn [s0_ctx]; [|exact Ht].
  destruct (pi_exc_ctx pi) as [c|] eqn:E; cbn [opt_or]; [|exact Ht]. exact He.
Qed.

Lemma context_instr_u64 a r v : P5.arch_ok a -> P5.regs_wf a r -> instr_u64 (M5.from_context r v M5.TContext).
Proof.
  intros Ha [[A B] _]. pose proof (slot_le_64 a Ha). unfold instr_u64, M5.from_context; cbn [M5.f_instr]. lia.
Qed.

Lemma walk_stack_instr_u64 p a os mem module_at mma cfi_walk iv fuel r v fs :
  P5.arch_ok a -> P5.mem_wf mem ->
  (forall callee gc fwd r v, cfi_walk callee gc fwd = Some (r, v) -> P5.regs_wf a r) ->
  P5.regs_wf a r ->
  M5.walk_stack M5.current_code p a os mem module_at mma cfi_walk iv fuel r v = Ret fs ->
  Forall instr_u64 fs.
Proof.
  intros Ha Hm Hc Hr H.
  eapply Forall_impl; [|exact (C05.ProofsFunction.walk_instr_range p a os mem module_at mma cfi_walk iv Ha Hm Hc fuel r v fs Hr H)].
  intros f Hf. unfold instr_u64. rewrite two64_val. exact Hf.
Qed.

Lemma walk_memory_some sm m : walk_memory sm = Some m -> sm = Some m.
Proof. unfold walk_memory. destruct sm as [s|]; [|discriminate]. destruct (region_range_ok s); [congruence|discriminate]. Qed.

Lemma to_mem_wf m : region_ok m -> P5.mem_wf (to_mem m).
Proof. intros [[Hb _] Hy]. split; [exact Hb|exact Hy]. Qed.

(* the first pass sets `requesting_thread` exactly as Model.requesting_thread does over the ids alone *)
Lemma last_flag_is_requesting_from pi ts : forall i acc,
  last_flag (map (fun t => s0_req (initial_stack pi t)) ts) i acc =
  requesting_from (map th_id ts) i (pi_dump_tid pi) (opt_or (pi_crash_tid pi) (pi_req_tid pi)) acc.
Proof.
  induction ts as [|t ts IH]; intros i acc; cbn [map last_flag requesting_from]; [reflexivity|].
  rewrite IH. f_equal. unfold initial_stack, opt_is.
  destruct (pi_dump_tid pi) as [d|]; [destruct (d =? th_id t); cbn [s0_req]; [reflexivity|]|];
    (destruct (opt_or (pi_crash_tid pi) (pi_req_tid pi)) as [w|]; [destruct (w =? th_id t)|]; reflexivity).
Qed.

Lemma requesting_index_is_requesting_thread pi :
  requesting_index pi =
  requesting_thread (map th_id (pi_threads pi)) (pi_dump_tid pi) (opt_or (pi_crash_tid pi) (pi_req_tid pi)).
Proof. apply last_flag_is_requesting_from. Qed.

Lemma requesting_index_bound pi i : requesting_index pi = Some i -> (i < length (pi_threads pi))%nat.
Proof.
  rewrite requesting_index_is_requesting_thread. intros H. apply requesting_thread_bound in H.
  rewrite map_length in H. exact H.
Qed.

Lemma requesting_index_none pi : pi_crash_tid pi = None -> pi_req_tid pi = None -> requesting_index pi = None.
Proof.
  intros Hc Hr. rewrite requesting_index_is_requesting_thread, Hc, Hr. apply requesting_from_no_want.
Qed.

Lemma json_crashing_thread_total outs req :
  (forall i, req = Some i -> (i < length outs)%nat) -> exists r, json_crashing_thread outs req = Ret r.
Proof.
  intros Hb. unfold json_crashing_thread. destruct req as [i|]; [|eexists; reflexivity].
  destruct (idx_in_bounds outs i (Hb i eq_refl)) as [t [Et En]]. rewrite Et. cbn [obind].
  destruct (o_frames t) as [|f fs] eqn:Ef; [eexists; reflexivity|].
  unfold idx. rewrite nth_error_map, En. cbn [option_map obind]. rewrite Ef. cbn [nth_error obind]. eexists; reflexivity.
Qed.

Lemma list_max_in l x : In x l -> (x <= list_max l)%nat.
Proof.
  intros H. assert (Hle : (list_max l <= list_max l)%nat) by lia.
  apply list_max_le in Hle. rewrite Forall_forall in Hle. exact (Hle x H).
Qed.

Lemma chosen_stack_bytes_le pi t c :
  wf_regions (pi_memory pi) -> In t (pi_threads pi) ->
  (stack_bytes (choose_stack_memory (pi_memory pi) t c) <= max_region_bytes pi)%nat.
Proof.
  intros Hwf Hin. destruct (choose_stack_memory (pi_memory pi) t c) as [m|] eqn:E; cbn [stack_bytes]; [|lia].
  unfold max_region_bytes. apply list_max_in. apply in_map_iff. exists m. split; [reflexivity|].
  apply in_or_app. destruct (chosen_stack_origin _ _ _ _ E) as [H|[x H]].
  - right. unfold own_stacks. apply in_flat_map. exists t. split; [exact Hin|]. rewrite H. left; reflexivity.
  - left. exact (proj1 (memory_at_sound _ _ _ Hwf H)).
Qed.

Lemma total_frames_le (P : thread_in -> thread_out -> Prop) (B : nat) ts outs :
  Forall2 P ts outs -> (forall t o, In t ts -> P t o -> (length (o_frames o) <= B)%nat) ->
  (total_frames outs <= length ts * B)%nat.
Proof.
  induction 1 as [|t o ts outs Hto _ IH]; intros HB; cbn [total_frames fold_right length]; [lia|].
  fold (total_frames outs). pose proof (HB t o (or_introl eq_refl) Hto).
  assert (total_frames outs <= length ts * B)%nat by (apply IH; intros t' o' Ht'; apply HB; right; exact Ht'). lia.
Qed.

Section Threads.
Variables (p : profile) (cpu : cpu_kind) (a : M5.arch) (os : Z) (module_at : Z -> option Z) (mma : Z).
Variable cfi_walk : M5.memory -> M5.frame -> option M5.frame -> list Z -> option (M5.regs * list Z).
Variable iv : Z -> bool.
Hypotheses (Ha : P5.arch_ok a) (Hcfi : cfi_contract a cfi_walk).

Lemma walk_thread_spec c sm :
  ctx_ok a c -> (forall m, sm = Some m -> region_ok m) ->
  exists fs, walk_thread p cpu a os module_at mma cfi_walk iv c sm = Ret fs /\
    (length fs <= stack_bytes sm + 2)%nat /\
    match c with None => fs = [] | Some (r, v) => exists rest, fs = M5.from_context r v M5.TContext :: rest end /\
    Forall instr_u64 fs.
Proof.
  intros Hc Hsm. destruct c as [[r v]|]; cbn [walk_thread].
  2:{ exists []. split; [reflexivity|]. split; [cbn; lia|]. split; [reflexivity|constructor]. }
  assert (Hr : P5.regs_wf a r) by (apply (Hc r v); reflexivity).
  assert (Hone : (exists rest, [M5.from_context r v M5.TContext] = M5.from_context r v M5.TContext :: rest) /\
                 Forall instr_u64 [M5.from_context r v M5.TContext])
    by (split; [exists []; reflexivity|constructor; [exact (context_instr_u64 a r v Ha Hr)|constructor]]).
  destruct (walk_memory sm) as [m|] eqn:Ew.
  - apply walk_memory_some in Ew. subst sm. cbn [stack_bytes].
    pose proof (to_mem_wf m (Hsm m eq_refl)) as Hm.
    destruct (has_unwinder cpu) eqn:Eu.
    + destruct (P5.frame_bound p a os (to_mem m) module_at mma (cfi_walk (to_mem m)) iv M5.current_code eq_refl Ha Hm
                  (Hcfi (to_mem m)) eq_refl r v Hr) as [fs [E Hlen]].
      exists fs. split; [exact E|]. split; [exact Hlen|]. split.
      * pose proof E as E2. eapply P5.first_frame in E2. exact E2.
      * eapply walk_stack_instr_u64; eauto.
    + destruct (no_unwinder_single_frame cpu (fun _ : M5.frame => None) (M5.from_context r v M5.TContext)
                  (length (r_bytes m)) Eu) as [E Hlen].
      eexists. split; [exact E|]. split; [exact Hlen|exact Hone].
  - eexists. split; [reflexivity|]. split; [cbn; lia|exact Hone].
Qed.

Lemma frame_unloaded_total unl f :
  wf_mods unl -> instr_u64 f -> exists l, frame_unloaded p module_at unl f = Ret l.
Proof.
  intros Hu Hi. unfold frame_unloaded. destruct (module_at (M5.f_instr f)); [eexists; reflexivity|].
  apply unloaded_offsets_total; assumption.
Qed.

Lemma process_thread_spec pi t :
  input_ok a pi -> In t (pi_threads pi) ->
  exists o, process_thread p cpu a os module_at mma cfi_walk iv pi t = Ret o /\ thread_post pi t o.
Proof.
  intros [Hmem [Hth [Hexc Hunl]]] Hin. destruct (Hth t Hin) as [Htc Hts].
  unfold process_thread.
  destruct (walk_thread_spec (s0_ctx (initial_stack pi t))
              (choose_stack_memory (pi_memory pi) t (s0_ctx (initial_stack pi t)))
              (selected_ctx_ok a pi t Hexc Htc)
              (fun m E => chosen_stack_ok _ _ _ m Hmem Hts E)) as [fs [E [Hlen [Hshape Hinstr]]]].
  rewrite E. cbn [obind].
  destruct (collect_map_total (frame_unloaded p module_at (pi_unloaded pi)) fs) as [offs [Eo Lo]].
  { intros f Hf. rewrite Forall_forall in Hinstr. exact (frame_unloaded_total (pi_unloaded pi) f Hunl (Hinstr f Hf)). }
  rewrite Eo. cbn [obind]. eexists. split; [reflexivity|].
  unfold thread_post; cbn [o_id o_info o_frames o_unloaded].
  split; [reflexivity|]. split; [reflexivity|]. split; [exact Hlen|]. split; [exact Hshape|].
  split; [exact Hinstr|exact Lo].
Qed.

Lemma process_threads_total pi :
  input_ok a pi ->
  exists outs, process_threads p cpu a os module_at mma cfi_walk iv pi = Ret (outs, requesting_index pi) /\
    Forall2 (thread_post pi) (pi_threads pi) outs /\
    (forall i, requesting_index pi = Some i -> (i < length outs)%nat).
Proof.
  intros Hin. unfold process_threads.
  destruct (collect_map_spec (process_thread p cpu a os module_at mma cfi_walk iv pi) (thread_post pi) (pi_threads pi))
    as [outs [E F]].
  { intros t Ht. apply process_thread_spec; assumption. }
  rewrite E. cbn [obind]. exists outs. split; [reflexivity|]. split; [exact F|].
  intros i Hi. rewrite (Forall2_length' _ _ _ F). apply requesting_index_bound. exact Hi.
Qed.

Lemma requesting_stack_total pi :
  input_ok a pi ->
  exists r, requesting_stack p cpu a os module_at mma cfi_walk iv pi = Ret r.
Proof.
  intros Hin. unfold requesting_stack.
  destruct (process_threads_total pi Hin) as [outs [E [_ Hb]]].
  rewrite E. cbn [obind fst snd]. destruct (requesting_index pi) as [i|]; [|eexists; reflexivity].
  destruct (idx_in_bounds outs i (Hb i eq_refl)) as [o [Eo _]]. rewrite Eo. eexists; reflexivity.
Qed.

(* the number of frames of the whole ProcessState is at most |threads| x (largest region + 2): processing is bounded by a
   function of the input alone, whatever the stacks and symbols contain *)
Lemma process_total_frames pi :
  input_ok a pi ->
  exists outs req, process_threads p cpu a os module_at mma cfi_walk iv pi = Ret (outs, req) /\
    (total_frames outs <= length (pi_threads pi) * (max_region_bytes pi + 2))%nat.
Proof.
  intros Hin.
  destruct (process_threads_total pi Hin) as [outs [E [F _]]].
  exists outs, (requesting_index pi). split; [exact E|]. apply (total_frames_le _ _ _ _ F).
  intros t o Ht Hpost. pose proof (thread_post_frames_le pi t o Hpost) as Hlen. destruct Hin as [Hmem _].
  pose proof (chosen_stack_bytes_le pi t (s0_ctx (initial_stack pi t)) (fun r Hr => proj1 (Hmem r Hr)) Ht). lia.
Qed.
End Threads.

Lemma nearby_index_total p n : 0 <= n < two32 ->
  exists r, nearby_index p n = Ret r /\
    (n = 0 -> r = None) /\ (0 < n -> r = Some (Z.min n NEARBY_REGISTER_LEN - 1)).
Proof.
  intros Hn. unfold nearby_index, NEARBY_REGISTER_LEN. destruct (0 <? n) eqn:E.
  - apply Z.ltb_lt in E. rewrite chk_sub_ok by (change (2 ^ 64) with 18446744073709551616; lia). cbn [obind].
    rewrite (proj2 (Z.leb_le 0 _)), (proj2 (Z.ltb_lt _ 4)) by lia.
    eexists. split; [reflexivity|]. split; [lia|reflexivity].
  - apply Z.ltb_ge in E. eexists. split; [reflexivity|]. split; [reflexivity|lia].
Qed.

Lemma nearby_count_from p address regs : forall acc, 0 <= acc -> acc + Z.of_nat (length regs) < two32 ->
  exists n, fold_left (fun a r => do k <- a;
                                  if (LOW_ADDRESS_CUTOFF <? address) && (Z.abs (address - r) <=? NEARBY_REGISTER_DISTANCE)
                                  then chk_add p 32 PANIC_ARITH k 1 else Ret k) regs (Ret acc) = Ret n /\
            acc <= n <= acc + Z.of_nat (length regs).
Proof.
  induction regs as [|r t IH]; intros acc H0 H1; cbn [fold_left length] in *.
  - exists acc. split; [reflexivity|lia].
  - cbn [obind]. destruct ((LOW_ADDRESS_CUTOFF <? address) && (Z.abs (address - r) <=? NEARBY_REGISTER_DISTANCE)).
    + rewrite chk_add_ok by (change (2 ^ 32) with two32; lia).
      destruct (IH (acc + 1)) as [n [E Hn]]; [lia|lia|]. exists n. split; [exact E|lia].
    + destruct (IH acc) as [n [E Hn]]; [lia|lia|]. exists n. split; [exact E|lia].
Qed.
