(* C03/RenderCompose.v — the ProcessState the pipeline model produces is always rendered.
   [state_of] builds the printers' view of the state from the thread loop's output (C03/ProcessModel.process_threads, which
   runs C05's walker): per frame the module of the C08 lookup, the function / source-line bases and the inline frames
   SymbolFile::fill_symbol (C11's model) returns for that module's symbol file, or the unloaded-module offsets the thread loop
   recorded when there is no module.  [pipeline_render] = process_threads, then state_of, then the three printers. *)
From Coq Require Import Lia ZArith List Bool.
From RM Require Import C08.Model C08.Proofs C03.Model C03.Proofs C03.FetchModel C03.ProcessModel C03.ProcessProofs C03.Compose
  C03.RenderModel C03.RenderProofs.
From RM Require C11.Model C11.Proofs2 C11.Proofs5.
From RM Require C05.Model C05.Proofs.
Import ListNotations.
Open Scope Z_scope.

Section Build.
Variable q : profile.                         (* build profile of breakpad-symbols *)
Variable mods : list (Z * Z).                 (* the module list: (base_of_image, size_of_image) *)
Variable files : Z -> C11.Model.raw_file.     (* the symbol file served for module i *)

Definition raw_frame (instr : Z) : frame :=
  {| f_instr := instr; f_module := None; f_fname := false; f_fbase := None; f_srcfl := false; f_sbase := None |}.

(* fill_source_line_info: frame.module = modules.module_at_address(instruction); fill_symbol on that module *)
Definition rframe_of (f : M5.frame) (unl : list Z) : outcome rframe :=
  let instr := M5.f_instr f in
  match rm_get (module_table mods) instr with
  | None => Ret {| rf_frame := raw_frame instr; rf_inlines := 0; rf_unloaded := [unl] |}
  | Some i =>
      match nth_error mods (Z.to_nat i) with
      | None => Panic PANIC_INDEX
      | Some m => do o <- C11.Model.symbolize q (files i) (fst m) instr;
                  Ret {| rf_frame := frame_of instr (fst m) o; rf_inlines := length (C11.Model.o_inl o); rf_unloaded := [] |}
      end
  end.

Definition rstack_of (o : thread_out) : outcome rstack :=
  do fs <- collect (map (fun fu => rframe_of (fst fu) (snd fu)) (combine (o_frames o) (o_unloaded o)));
  Ret {| rs_info := o_info o; rs_frames := fs |}.

Definition state_of (outs : list thread_out) (req : option nat) (unloaded : list (Z * Z)) : outcome rstate :=
  do ts <- collect (map rstack_of outs);
  Ret {| st_threads := ts; st_requesting := req; st_modules := mods; st_unloaded := unloaded |}.
End Build.

(* process_minidump_with_options followed by print, print_brief and print_json, for the modelled pipeline *)
Definition pipeline_render (p pr q : profile) cpu a os module_at mma cfi_walk iv mods files (pi : proc_in)
  : outcome (list item * list item * list item) :=
  do r <- process_threads p cpu a os module_at mma cfi_walk iv pi;
  do st <- state_of q mods files (fst r) (snd r) (pi_unloaded pi);
  render_all pr st.

Definition lines_ok (st : rstate) : Prop := forall s, In s (st_threads st) -> Z.of_nat (stack_lines (rs_frames s)) < two64.

Lemma mods_ok_wf mods : mods_ok mods -> wf_mods mods.
Proof. intros H m Hm. destruct (H m Hm) as [A [B _]]. split; assumption. Qed.

Lemma rframe_of_total q mods files f unl :
  wf_mods mods -> (forall i, C11.Proofs2.wf_file (files i)) -> instr_u64 f ->
  exists r, rframe_of q mods files f unl = Ret r /\ frame_ok (rf_frame r).
Proof.
  intros Hm Hwf Hi. unfold instr_u64 in Hi. unfold rframe_of.
  destruct (rm_get (module_table mods) (M5.f_instr f)) as [i|] eqn:Hg.
  - destruct (module_table_sound mods _ i Hm Hg) as [m [Hn Hb]]. rewrite Hn.
    destruct (C11.Proofs5.func_sound q (files i) (fst m) (M5.f_instr f) (Hwf i) (proj1 Hb) (proj2 Hi)) as [o [Eo _]].
    rewrite Eo. cbn [obind]. eexists. split; [reflexivity|]. cbn [rf_frame].
    eapply frame_of_ok; eauto; lia.
  - eexists. split; [reflexivity|]. cbn [rf_frame]. unfold frame_ok, raw_frame, below; cbn [f_instr f_module f_fbase f_sbase].
    split; [exact Hi|]. split; [|split]; intros b0 H0; discriminate.
Qed.

Lemma rstack_of_total q mods files o :
  wf_mods mods -> (forall i, C11.Proofs2.wf_file (files i)) -> Forall instr_u64 (o_frames o) ->
  exists s, rstack_of q mods files o = Ret s /\ forall f, In f (rs_frames s) -> frame_ok (rf_frame f).
Proof.
  intros Hm Hwf Hi. unfold rstack_of.
  destruct (collect_map_spec (fun fu => rframe_of q mods files (fst fu) (snd fu)) (fun _ r => frame_ok (rf_frame r))
              (combine (o_frames o) (o_unloaded o))) as [fs [E F]].
  - intros [f u] Hfu. apply in_combine_l in Hfu. rewrite Forall_forall in Hi.
    exact (rframe_of_total q mods files f u Hm Hwf (Hi f Hfu)).
  - rewrite E. eexists. split; [reflexivity|]. cbn [rs_frames].
    intros f Hf. destruct (Forall2_in_r _ _ _ _ F Hf) as [x [_ Hx]]. exact Hx.
Qed.

(* for every input of the thread loop, every module list the readers can build and every well-formed symbol file per module:
   the pipeline produces a state (no Panic / OutOfFuel), and all three printers write it, in every combination of build
   profiles — provided only that no call stack prints 2^64 lines (a Vec cannot hold that many frames) *)
Lemma pipeline_always_renders p pr q cpu a os module_at mma cfi_walk iv mods files pi :
  C05.Proofs.arch_ok a -> input_ok a pi -> cfi_contract a cfi_walk ->
  mods_ok mods -> mods_ok (pi_unloaded pi) -> (forall i, C11.Proofs2.wf_file (files i)) ->
  exists outs st,
    process_threads p cpu a os module_at mma cfi_walk iv pi = Ret (outs, requesting_index pi) /\
    state_of q mods files outs (requesting_index pi) (pi_unloaded pi) = Ret st /\
    length (st_threads st) = length (pi_threads pi) /\
    (lines_ok st ->
     exists full brief json,
       pipeline_render p pr q cpu a os module_at mma cfi_walk iv mods files pi = Ret (full, brief, json) /\
       (forall i, requesting_index pi = Some i -> In (IThread i) full /\ In (IThread i) brief)).
Proof.
  intros Ha Hin Hcfi Hm Hu Hwf.
  destruct (process_threads_total p cpu a os module_at mma cfi_walk iv Ha Hcfi pi Hin) as [outs [E [F Hreq]]].
  destruct (collect_map_spec (rstack_of q mods files) (fun _ s => forall f, In f (rs_frames s) -> frame_ok (rf_frame f)) outs)
    as [ts [Et Ft]].
  { intros o Ho. destruct (Forall2_in_r _ _ _ _ F Ho) as [t [_ Hpost]]. pose proof (thread_post_instr_u64 pi t o Hpost) as Hi.
    exact (rstack_of_total q mods files o (mods_ok_wf _ Hm) Hwf Hi). }
  set (st := {| st_threads := ts; st_requesting := requesting_index pi; st_modules := mods; st_unloaded := pi_unloaded pi |}).
  assert (Est : state_of q mods files outs (requesting_index pi) (pi_unloaded pi) = Ret st).
  { unfold state_of. rewrite Et. reflexivity. }
  assert (Hlen : length ts = length (pi_threads pi)).
  { rewrite (Forall2_length' _ _ _ Ft). exact (Forall2_length' _ _ _ F). }
  exists outs, st. split; [exact E|]. split; [exact Est|]. split; [exact Hlen|].
  intros Hl.
  assert (Hok : state_ok st).
  { unfold state_ok; cbn [st_threads st_requesting st_modules st_unloaded st]. split; [|split; [exact Hl|split; [|split; assumption]]].
    - intros s f Hs Hf. destruct (Forall2_in_r _ _ _ _ Ft Hs) as [o [_ H2]]. exact (H2 f Hf).
    - intros i Hi. rewrite Hlen. exact (requesting_index_bound pi i Hi). }
  destruct (renderers_total pr st Hok) as [full [brief [json [Er [Hthr _]]]]].
  exists full, brief, json. split; [|exact Hthr].
  unfold pipeline_render. rewrite E. cbn [obind fst snd]. rewrite Est. cbn [obind]. exact Er.
Qed.
