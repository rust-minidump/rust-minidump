(* C04/Proofs.v — what all the chain theorems share: the stack as an array of words (section Words: read_at, read_zero,
   read_end), one step of the walk over any memory (walk_stops, walk_step), the scanner on one record (scan_finds,
   by_scan_finds), the six architectures ([archs]); then the two simplest chains, every frame described by CFI
   (cfi_recovers) and every frame found by scanning (scan_recovers), for any depth. *)
From Coq Require Import Lia ZArith List Bool.
From RM Require Import Base.ListFacts Base.WordFacts C05.Model C05.Proofs C04.Model.
Import ListNotations.
Open Scope Z_scope.

Lemma le_bytes_length : forall n w, length (le_bytes n w) = n.
Proof. induction n; intros; cbn; [reflexivity|]. rewrite IHn. reflexivity. Qed.

Lemma le_value_le_bytes : forall n w, 0 <= w < 256 ^ Z.of_nat n -> le_value (le_bytes n w) = w.
Proof.
  induction n as [|n IH]; intros w H.
  - cbn in *. lia.
  - cbn [le_bytes le_value]. rewrite Nat2Z.inj_succ, Z.pow_succ_r in H by lia.
    rewrite IH.
    + pose proof (Z.div_mod w 256). lia.
    + split; [apply Z.div_pos; lia | apply Z.div_lt_upper_bound; lia].
Qed.

Lemma words_bytes_length : forall n ws, length (flat_map (le_bytes n) ws) = (n * length ws)%nat.
Proof.
  induction ws as [|w t IH]; cbn [flat_map length]; [lia|].
  rewrite app_length, le_bytes_length, IH. lia.
Qed.

Lemma skipn_words : forall n pre rest,
  skipn (n * length pre) (flat_map (le_bytes n) (pre ++ rest)) = flat_map (le_bytes n) rest.
Proof.
  intros n pre rest. rewrite flat_map_app.
  rewrite skipn_app, words_bytes_length.
  rewrite skipn_all2 by (rewrite words_bytes_length; lia).
  replace (n * length pre - n * length pre)%nat with 0%nat by lia. reflexivity.
Qed.

Lemma le_bytes_bytes : forall n w, Forall (fun b => 0 <= b < 256) (le_bytes n w).
Proof.
  induction n as [|n IH]; intros w; cbn [le_bytes]; constructor; [apply Z.mod_pos_bound; lia | apply IH].
Qed.
Lemma arch_pw : forall a, arch_ok a -> (a_bits a = 32 /\ a_pw a = 4) \/ (a_bits a = 64 /\ a_pw a = 8).
Proof. intros a H. exact (proj1 H). Qed.

Section Words.
Variable a : arch.
Hypothesis Hpw : (a_bits a = 32 /\ a_pw a = 4) \/ (a_bits a = 64 /\ a_pw a = 8).

Lemma pw_pos : 0 < a_pw a.
Proof. destruct Hpw as [[_ ->]|[_ ->]]; lia. Qed.

Lemma bits_lo : 4294967296 <= 2 ^ a_bits a.
Proof. destruct Hpw as [[-> _]|[-> _]]; cbn; lia. Qed.

Lemma bits_hi : 2 ^ a_bits a <= 2 ^ 64.
Proof. destruct Hpw as [[-> _]|[-> _]]; cbn; lia. Qed.

Lemma mem_len_words : forall base ws, mem_len (mk_mem a base ws) = a_pw a * Z.of_nat (length ws).
Proof.
  intros. unfold mem_len, mk_mem, words_bytes; cbn [m_bytes]. rewrite words_bytes_length.
  pose proof pw_pos. rewrite Nat2Z.inj_mul, Z2Nat.id by lia. reflexivity.
Qed.

Lemma read_at : forall base pre w post,
  0 <= w < 2 ^ a_bits a ->
  read (mk_mem a base (pre ++ w :: post)) (a_pw a) (base + a_pw a * Z.of_nat (length pre)) = Some w.
Proof.
  intros base pre w post Hw. pose proof pw_pos as Hp.
  unfold read. cbn [m_base mk_mem]. unfold checked_sub.
  replace (base + a_pw a * Z.of_nat (length pre) - base) with (a_pw a * Z.of_nat (length pre)) by lia.
  destruct (0 <=? a_pw a * Z.of_nat (length pre)) eqn:E; [|apply Z.leb_gt in E; nia].
  rewrite mem_len_words, app_length. cbn [length].
  destruct (a_pw a * Z.of_nat (length pre) + a_pw a <=? a_pw a * Z.of_nat (length pre + S (length post))) eqn:E2;
    [|apply Z.leb_gt in E2; nia].
  f_equal. cbn [m_bytes mk_mem]. unfold words_bytes.
  replace (Z.to_nat (a_pw a * Z.of_nat (length pre))) with (Z.to_nat (a_pw a) * length pre)%nat by nia.
  rewrite skipn_words. cbn [flat_map].
  rewrite firstn_app, le_bytes_length. replace (Z.to_nat (a_pw a) - Z.to_nat (a_pw a))%nat with 0%nat by lia.
  rewrite firstn_all2 by (rewrite le_bytes_length; lia). cbn [firstn]. rewrite app_nil_r.
  apply le_value_le_bytes.
  destruct Hpw as [[Hb Hq]|[Hb Hq]]; rewrite Hb in Hw; rewrite Hq; cbn; cbn in Hw; lia.
Qed.

Lemma read_zero : forall base pre g post j, (j < g)%nat ->
  read (mk_mem a base (pre ++ repeat 0 g ++ post)) (a_pw a) (base + a_pw a * (Z.of_nat (length pre) + Z.of_nat j)) = Some 0.
Proof.
  intros base pre g post j Hj.
  replace g with (j + S (g - j - 1))%nat by lia. rewrite repeat_app. cbn [repeat].
  rewrite <- app_assoc, <- app_comm_cons, app_assoc.
  replace (Z.of_nat (length pre) + Z.of_nat j) with (Z.of_nat (length (pre ++ repeat 0 j)))
    by (rewrite app_length, repeat_length; lia).
  apply read_at. pose proof bits_lo. lia.
Qed.

Lemma read_end : forall base ws k, 0 <= k ->
  read (mk_mem a base ws) (a_pw a) (base + a_pw a * Z.of_nat (length ws) + k) = None.
Proof.
  intros base ws k Hk. pose proof pw_pos as Hp.
  unfold read. cbn [m_base mk_mem]. unfold checked_sub.
  destruct (0 <=? base + a_pw a * Z.of_nat (length ws) + k - base); [|reflexivity].
  rewrite mem_len_words.
  destruct (base + a_pw a * Z.of_nat (length ws) + k - base + a_pw a <=? a_pw a * Z.of_nat (length ws)) eqn:E; [|reflexivity].
  apply Z.leb_le in E. lia.
Qed.

(* walk_stack's memory_range check on a stack of [n] words *)
Lemma mem_ok_len : forall mem n, mem_len mem = a_pw a * n -> 0 < n -> m_base mem + a_pw a * n < 2 ^ a_bits a ->
  mem_ok mem = true.
Proof.
  intros mem n Hl Hn Htop. pose proof bits_hi as HW. pose proof (Z.mul_pos_pos _ _ pw_pos Hn).
  unfold mem_ok, two64. rewrite Hl. apply andb_true_intro.
  split; [apply negb_true_iff, Z.eqb_neq; lia | apply Z.ltb_lt; lia].
Qed.

Lemma mem_wf_words : forall base ws, 0 <= base -> mem_wf (mk_mem a base ws).
Proof.
  intros base ws Hb. split; [exact Hb|]. cbn [m_bytes mk_mem]. unfold words_bytes.
  induction ws as [|w t IH]; cbn [flat_map]; [constructor|].
  apply Forall_app. split; [apply le_bytes_bytes|exact IH].
Qed.
End Words.

Lemma view_id : forall a x, arch_ok a -> 0 <= x < 2 ^ a_bits a -> view a x = x.
Proof.
  intros a x Ha Hx. unfold view. destruct (a_trunc a) eqn:E; [|reflexivity].
  destruct Ha as [_ [_ [Ht _]]]. rewrite (Ht E) in Hx. apply Z.mod_small. exact Hx.
Qed.

Lemma total_words_app : forall l1 l2 e, total_words (l1 ++ l2) e = total_words l1 e + total_words l2 e.
Proof. induction l1 as [|f t IH]; intros; cbn [total_words app]; [lia|]. rewrite IH. lia. Qed.

(* a stack split at one record: the sizes add up, and every byte offset in it is non-negative *)
Lemma total_split : forall a done f t e, arch_ok a ->
  0 <= total_words done e -> 0 <= fs_gap f -> 0 <= total_words t e ->
  total_words (done ++ f :: t) e = total_words done e + (fs_gap f + 1 + e + total_words t e) /\
  0 <= a_pw a * total_words done e /\ 0 <= a_pw a * fs_gap f /\ 0 <= a_pw a * total_words t e.
Proof.
  intros a done f t e Ha Hd Hf Ht. pose proof (pw_pos a (arch_pw a Ha)).
  rewrite total_words_app. repeat split; try apply Z.mul_nonneg_nonneg; lia.
Qed.

Lemma total_words_snoc : forall l f e, total_words (l ++ [f]) e = total_words l e + fs_gap f + 1 + e.
Proof. intros. rewrite total_words_app. cbn [total_words]. lia. Qed.

Lemma In_memb : forall x l, In x l -> memb x l = true.
Proof. intros x l H. apply existsb_exists. exists x. split; [exact H|apply Z.eqb_refl]. Qed.

Lemma filter_memb_all : forall cs extra, filter (fun n => memb n (cs ++ extra)) cs = cs.
Proof. intros cs extra. apply filter_all. intros x Hx. apply In_memb, in_or_app. left. exact Hx. Qed.

Lemma memb_reg_valid : forall a n l, memb n l = true -> reg_valid a n (VSome l) = true.
Proof. intros a n l H. unfold reg_valid, alias_group. cbn [existsb]. rewrite H. reflexivity. Qed.

(* the predicate of callee_forwarded_regs (either body) accepts every name the validity set lists *)
Lemma fwd_pred_memb : forall a n l, memb n l = true ->
  (if a_fwd_alias a then reg_valid a n (VSome l) else memb n l) = true.
Proof. intros a n l H. destruct (a_fwd_alias a); [apply memb_reg_valid|]; exact H. Qed.

Lemma strip_small : forall a mma x, 0 <= x < 2 ^ 47 -> strip a mma x = x.
Proof.
  intros a mma x Hx. unfold strip. destruct (a_strip a); [|reflexivity].
  unfold ptr_auth_strip. set (mx := Z.max _ _). set (hb := next_pow2 mx).
  assert (H47 : 2 ^ 47 <= hb).
  { unfold hb, next_pow2. apply Z.pow_le_mono_r; [lia|].
    assert (E : Z.log2_up (2 ^ arm64_apple_bits - 1) = 47) by reflexivity.
    rewrite <- E. apply Z.log2_up_le_mono. unfold mx. apply Z.le_max_l. }
  destruct (hb <? two64); [|reflexivity]. apply Z.mod_small. lia.
Qed.

Lemma strip_id : forall a mma x, 0 <= x -> (a_strip a = true -> x < 2 ^ 47) -> strip a mma x = x.
Proof.
  intros a mma x H0 H. destruct (a_strip a) eqn:E.
  - apply strip_small. split; [exact H0|apply H; reflexivity].
  - unfold strip. rewrite E. reflexivity.
Qed.

Section WalkStep.
Variable p : profile.
Variable a : arch.
Variable os : Z.
Variable mem : memory.
Variable module_at : Z -> option Z.
Variable max_module_addr : Z.
Variable cfi_walk : frame -> option frame -> list Z -> option (regs * list Z).
Variable instr_valid : Z -> bool.
Hypothesis Ha : arch_ok a.
Notation walkf := (walk current_code p a os mem module_at max_module_addr cfi_walk instr_valid).

Lemma not_stopped : forall callee,
  is_context (f_trust callee) = true \/ m_base mem <= r_sp (f_regs callee) < m_base mem + mem_len mem ->
  stop_here current_code mem callee = false.
Proof.
  intros callee [H|H]; unfold stop_here; [rewrite H; reflexivity|].
  destruct (proj2 (read_is_some_iff1 mem (r_sp (f_regs callee)))) as [v Hv]; [lia|].
  unfold sp_in_stack. rewrite Hv. apply andb_false_r.
Qed.

(* a frame the walker produced whose sp is the end of the stack memory ends the walk *)
Lemma walk_stops : forall k callee gc, is_context (f_trust callee) <> true ->
  m_base mem + mem_len mem <= r_sp (f_regs callee) -> walkf (S k) callee gc = Ret [].
Proof.
  intros k callee gc Hc Hsp. cbn [walk]. unfold stop_here, sp_in_stack.
  destruct (is_context (f_trust callee)); [destruct (Hc eq_refl)|].
  destruct (read mem 1 (r_sp (f_regs callee))) eqn:R; [apply read_some in R; lia | reflexivity].
Qed.

(* a technique has answered [r], [v]: the final checks of get_caller_frame pass (return address not nullish, sp
   strictly larger), the lookup address is set, and the walk goes on from the new frame *)
Lemma walk_step : forall k callee gc r v t rest,
  is_context (f_trust callee) = true \/ m_base mem <= r_sp (f_regs callee) < m_base mem + mem_len mem ->
  cascade current_code p a os mem module_at max_module_addr cfi_walk instr_valid callee gc = Ret (Some (from_context r v t)) ->
  a_cutoff a <= r_ip r < 2 ^ 64 -> r_sp (f_regs callee) < r_sp r ->
  walkf k (set_instr (from_context r v t) (r_ip r - a_adj a)) (Some callee) = Ret rest ->
  walkf (S k) callee gc = Ret (set_instr (from_context r v t) (r_ip r - a_adj a) :: rest).
Proof.
  intros k callee gc r v t rest Hin Hc Hip Hsp Hrest.
  pose proof (arch_ok_adj a Ha) as [Hadj Hle].
  cbn [walk]. rewrite (not_stopped _ Hin). unfold get_caller_frame, sp_progress. rewrite Hc, Hle. cbn [obind].
  change (f_regs (from_context r v t)) with r.
  destruct (r_ip r <? a_cutoff a) eqn:E1; [apply Z.ltb_lt in E1; lia|].
  destruct (r_sp r <=? r_sp (f_regs callee)) eqn:E2; [apply Z.leb_le in E2; lia|]. cbn [negb].
  rewrite chk_sub_ok by lia. cbn [obind]. rewrite Hrest. reflexivity.
Qed.
End WalkStep.

(* the scanner on one record [zeros][return address] of any stack;
   the frame pointer handed to the scan is unknown or known to be 0 *)
Section ScanRecord.
Variable p : profile.
Variable a : arch.
Variable instr_valid : Z -> bool.
Variable base : Z.
Hypothesis Ha : arch_ok a.
Hypothesis Hjunk : instr_ok a instr_valid 0 = false.
Hypothesis Hbase : 0 < base.

Lemma scan_finds : forall pre g ra post last_bp,
  0 <= ra < 2 ^ a_bits a -> instr_ok a instr_valid ra = true ->
  base + a_pw a * (Z.of_nat (length pre) + Z.of_nat g + 1) < 2 ^ a_bits a ->
  last_bp = None \/ last_bp = Some 0 ->
  forall k j n, (j + k = g)%nat -> (k < n)%nat ->
  scan_loop p a (mk_mem a base (pre ++ repeat 0 g ++ ra :: post)) instr_valid n (Z.of_nat j)
            (base + a_pw a * Z.of_nat (length pre)) last_bp
  = Ret (Some (ctx_regs ra (base + a_pw a * (Z.of_nat (length pre) + Z.of_nat g + 1)) 0, [a_ip_name a; a_sp_name a])).
Proof.
  intros pre g ra post last_bp Hra Hok Hfit Hbp.
  pose proof (pw_pos a (arch_pw a Ha)) as Hp. pose proof (bits_lo a (arch_pw a Ha)) as HW.
  assert (Rra : read (mk_mem a base (pre ++ repeat 0 g ++ ra :: post)) (a_pw a)
                  (base + a_pw a * (Z.of_nat (length pre) + Z.of_nat g)) = Some ra).
  { rewrite app_assoc.
    replace (Z.of_nat (length pre) + Z.of_nat g) with (Z.of_nat (length (pre ++ repeat 0 g)))
      by (rewrite app_length, repeat_length; lia).
    apply read_at; [exact (arch_pw a Ha) | exact Hra]. }
  pose proof (read_zero a (arch_pw a Ha) base pre g (ra :: post)) as Rz.
  set (mem := mk_mem a base _) in *. set (L := Z.of_nat (length pre)) in *.
  assert (HL : 0 <= a_pw a * L) by (apply Z.mul_nonneg_nonneg; lia).
  assert (Hg1 : 0 < Z.of_nat g -> a_pw a <= a_pw a * Z.of_nat g) by (clear - Hp; nia).
  induction k as [|k IH]; intros j n Hjk Hn; (destruct n as [|n]; [lia|]); cbn [scan_loop]; unfold W, PW;
    assert (Hj : 0 <= a_pw a * Z.of_nat j <= a_pw a * Z.of_nat g) by (split; [apply Z.mul_nonneg_nonneg; lia | apply Z.mul_le_mono_nonneg_l; lia]);
    rewrite chk_mul_ok by lia; cbn [obind]; unfold checked_add;
    (destruct (base + a_pw a * L + Z.of_nat j * a_pw a <? 2 ^ a_bits a) eqn:E1; [|apply Z.ltb_ge in E1; lia]);
    replace (base + a_pw a * L + Z.of_nat j * a_pw a) with (base + a_pw a * (L + Z.of_nat j)) by lia.
  - (* j = g: the return address *)
    assert (j = g) by lia. subst j. rewrite Rra, Hok.
    destruct (base + a_pw a * (L + Z.of_nat g) + a_pw a <? 2 ^ a_bits a) eqn:E2; [|apply Z.ltb_ge in E2; lia].
    assert (ER : recover_bp p a mem (Z.of_nat g) (base + a_pw a * (L + Z.of_nat g))
                   (base + a_pw a * (L + Z.of_nat g) + a_pw a) last_bp = Ret (Some None)).
    { assert (Hge : (0 >=? base + a_pw a * (L + Z.of_nat g) + a_pw a) = false) by (rewrite Z.geb_leb; apply Z.leb_gt; lia).
      (* the word below the return address, if any, is a zero: no frame pointer is recovered from it *)
      assert (Rb : 0 < Z.of_nat g -> read mem (a_pw a) (base + a_pw a * (L + Z.of_nat g) - a_pw a) = Some 0).
      { intros E0. rewrite <- (Rz (g - 1)%nat) by lia. f_equal. rewrite Nat2Z.inj_sub by lia. lia. }
      unfold recover_bp, W, PW. destruct (a_bp a); [| |reflexivity].
      - destruct (0 <? Z.of_nat g) eqn:E0; [|reflexivity]. apply Z.ltb_lt in E0. specialize (Hg1 E0).
        rewrite chk_sub_ok by lia. cbn [obind]. rewrite (Rb E0).
        destruct (0 >? base + a_pw a * (L + Z.of_nat g)) eqn:E3; [rewrite Z.gtb_ltb in E3; apply Z.ltb_lt in E3; lia|].
        destruct Hbp as [-> | ->]; [reflexivity|]. rewrite Hge. reflexivity.
      - destruct Hbp as [-> | ->]; [reflexivity|].
        destruct (0 <? Z.of_nat g) eqn:E0; [|reflexivity]. apply Z.ltb_lt in E0. specialize (Hg1 E0).
        rewrite chk_sub_ok by lia. cbn [obind]. rewrite (Rb E0).
        destruct (0 =? base + a_pw a * (L + Z.of_nat g) - a_pw a) eqn:E3; [apply Z.eqb_eq in E3; lia|].
        cbn [andb]. rewrite Hge. reflexivity. }
    rewrite ER. cbn [obind app]. unfold ctx_regs. do 4 f_equal. lia.
  - (* a padding word *)
    unfold L. rewrite Rz by lia. rewrite Hjunk.
    replace (Z.of_nat j + 1) with (Z.of_nat (S j)) by lia. apply IH; lia.
Qed.

(* get_caller_by_scan on a callee whose sp is the record [skipped][zeros][return address]: the whole context window
   when the callee is the context frame, else the default window after the skipped words *)
Lemma by_scan_finds : forall callee pre skipped g ra post,
  r_sp (f_regs callee) = base + a_pw a * Z.of_nat (length pre) ->
  reg_valid a (a_sp_name a) (f_valid callee) = true ->
  (reg_valid a (a_fp_name a) (f_valid callee) = true -> r_fp (f_regs callee) = 0) ->
  a_scan_skip a = a_pw a * scan_skip_words a ->
  Z.of_nat (length skipped) = (if is_context (f_trust callee) then 0 else scan_skip_words a) ->
  Z.of_nat g < (if is_context (f_trust callee) then a_scan_context a else a_scan_default a) ->
  0 <= ra < 2 ^ a_bits a -> instr_ok a instr_valid ra = true ->
  base + a_pw a * (Z.of_nat (length (pre ++ skipped)) + Z.of_nat g + 1) < 2 ^ a_bits a ->
  by_scan p a (mk_mem a base (pre ++ skipped ++ repeat 0 g ++ ra :: post)) instr_valid callee
  = Ret (Some (ctx_regs ra (base + a_pw a * (Z.of_nat (length (pre ++ skipped)) + Z.of_nat g + 1)) 0, [a_ip_name a; a_sp_name a])).
Proof.
  intros callee pre skipped g ra post Hsp Hvsp Hfp0 Hskeq Hsk Hwin Hra Hok Hfit.
  pose proof (pw_pos a (arch_pw a Ha)) as Hp.
  assert (HL : 0 <= a_pw a * Z.of_nat (length pre)) by (apply Z.mul_nonneg_nonneg; lia).
  assert (HS : 0 <= a_pw a * Z.of_nat (length skipped)) by (apply Z.mul_nonneg_nonneg; lia).
  assert (HG : 0 <= a_pw a * Z.of_nat g) by (apply Z.mul_nonneg_nonneg; lia).
  rewrite app_assoc.
  assert (F : forall n bp, bp = None \/ bp = Some 0 -> (g < n)%nat ->
            scan_loop p a (mk_mem a base ((pre ++ skipped) ++ repeat 0 g ++ ra :: post)) instr_valid n 0
                      (base + a_pw a * Z.of_nat (length (pre ++ skipped))) bp =
            Ret (Some (ctx_regs ra (base + a_pw a * (Z.of_nat (length (pre ++ skipped)) + Z.of_nat g + 1)) 0, [a_ip_name a; a_sp_name a]))).
  { intros n bp Hbp Hn. exact (scan_finds (pre ++ skipped) g ra post bp Hra Hok Hfit Hbp g 0%nat n (Nat.add_0_l g) Hn). }
  rewrite app_length, Nat2Z.inj_add in *.
  unfold by_scan. rewrite Hvsp. cbn [negb]. rewrite Hsp, (view_id a _ Ha) by lia.
  set (bp := if reg_valid a (a_fp_name a) (f_valid callee) then _ else _).
  assert (Hbp : bp = None \/ bp = Some 0).
  { unfold bp. destruct (reg_valid a (a_fp_name a) (f_valid callee)); [right; rewrite Hfp0; reflexivity | left; reflexivity]. }
  destruct (is_context (f_trust callee)).
  - rewrite Hsk, Z.add_0_r in F |- *. apply F; [exact Hbp|lia].
  - destruct (a_scan_skip a =? 0) eqn:E0.
    + apply Z.eqb_eq in E0. assert (scan_skip_words a = 0) by nia.
      replace (Z.of_nat (length pre) + Z.of_nat (length skipped)) with (Z.of_nat (length pre)) in F |- * by lia. apply F; [exact Hbp|lia].
    + unfold W, checked_add. rewrite Hskeq, <- Hsk.
      destruct (base + a_pw a * Z.of_nat (length pre) + a_pw a * Z.of_nat (length skipped) <? 2 ^ a_bits a) eqn:E1;
        [|apply Z.ltb_ge in E1; lia].
      replace (base + a_pw a * Z.of_nat (length pre) + a_pw a * Z.of_nat (length skipped))
        with (base + a_pw a * (Z.of_nat (length pre) + Z.of_nat (length skipped))) by lia.
      apply F; [exact Hbp|lia].
Qed.
End ScanRecord.

Section CfiChain.
Variable p : profile.
Variable a : arch.
Variable os : Z.
Variable mem : memory.
Variable module_at : Z -> option Z.
Variable max_module_addr : Z.
Variable instr_valid : Z -> bool.
Variable base : Z.
Variable all : list frame_spec.
Variable ip0 : Z.

Hypothesis Ha : arch_ok a.
Hypothesis Hbase : m_base mem = base.
Hypothesis Hlen : mem_len mem = a_pw a * total_words all 0.
Hypothesis Hwf : cfi_wf_layout a base all = true.
(* every frame's lookup address lies in a module (whose symbol file the oracle stands for) *)
Hypothesis Hmod0 : module_at ip0 <> None.
Hypothesis Hmod : forall f, In f all -> module_at (fs_ra f - a_adj a) <> None.
(* arm64: return addresses below the pointer-authentication mask *)
Hypothesis Hra47 : forall f, In f all -> a_strip a = true -> fs_ra f < 2 ^ 47.
(* the CFI walker's sp name is (an alias of) the name the unwinder asks for *)
Hypothesis Hnames : forall l, reg_valid a (a_sp_name a) (VSome (l ++ [a_cfi_sp_name a; a_cfi_ip_name a])) = true.

(* any symbol-file oracle that answers like the correct one on frames of this shape (C06's evaluator on rule text
   describing the layout is such an oracle; [cfi_correct] itself trivially) *)
Variable cfi_walk : frame -> option frame -> list Z -> option (regs * list Z).
Hypothesis Hagree : forall callee gc fwd,
  r_fp (f_regs callee) = 0 -> r_lr (f_regs callee) = 0 -> r_gp (f_regs callee) = [] ->
  cfi_walk callee gc fwd = cfi_correct a base all callee gc fwd.
Notation walkf := (walk current_code p a os mem module_at max_module_addr cfi_walk instr_valid).
Definition cfi_vchain : list Z := a_callee_saved a ++ [a_cfi_sp_name a; a_cfi_ip_name a].
Definition cfi_ctx : regs := ctx_regs ip0 base 0.

Lemma cfi_gaps_cons : forall f t, cfi_gaps_ok a (f :: t) = true ->
  0 <= fs_gap f /\ a_cutoff a <= fs_ra f /\ fs_ra f < 2 ^ a_bits a /\ cfi_gaps_ok a t = true.
Proof. intros f t H. cbn [cfi_gaps_ok] in H. clear - H. rewrite !andb_true_iff, !Z.leb_le, Z.ltb_lt in H. tauto. Qed.

Lemma gaps_nonneg_total : forall l, cfi_gaps_ok a l = true -> 0 <= total_words l 0.
Proof.
  induction l as [|f t IH]; intros H; [cbn; lia|].
  apply cfi_gaps_cons in H. destruct H as [H1 [_ [_ H4]]]. specialize (IH H4). cbn [total_words]. lia.
Qed.

Lemma cfi_gaps_app : forall l1 l2, cfi_gaps_ok a (l1 ++ l2) = true -> cfi_gaps_ok a l1 = true /\ cfi_gaps_ok a l2 = true.
Proof.
  induction l1 as [|f t IH]; intros l2 H; cbn [app cfi_gaps_ok] in *; [split; [reflexivity|exact H]|].
  apply andb_prop in H. destruct H as [H1 H2]. destruct (IH l2 H2) as [I1 I2]. rewrite H1, I1. split; [reflexivity|exact I2].
Qed.

Lemma cfi_wf_parts : cfi_gaps_ok a all = true /\ 0 < base /\ base + a_pw a * total_words all 0 < 2 ^ a_bits a.
Proof. assert (H := Hwf). unfold cfi_wf_layout in H. clear - H. rewrite !andb_true_iff, !Z.ltb_lt in H. tauto. Qed.

Lemma lookup_skip : forall done fs o, cfi_gaps_ok a done = true ->
  cfi_lookup (a_pw a) base o (done ++ fs) (base + a_pw a * (o + total_words done 0))
  = cfi_lookup (a_pw a) base (o + total_words done 0) fs (base + a_pw a * (o + total_words done 0)).
Proof.
  pose proof (pw_pos a (arch_pw a Ha)) as Hp.
  induction done as [|f t IH]; intros fs o H; cbn [app total_words cfi_lookup].
  - rewrite Z.add_0_r. reflexivity.
  - apply cfi_gaps_cons in H. destruct H as [H [_ [_ H0]]].
    pose proof (gaps_nonneg_total t H0) as Ht.
    destruct (base + a_pw a * (o + (fs_gap f + 1 + 0 + total_words t 0)) =? base + a_pw a * o) eqn:E; [apply Z.eqb_eq in E; nia|].
    specialize (IH fs (o + fs_gap f + 1) H0).
    replace (o + (fs_gap f + 1 + 0 + total_words t 0)) with (o + fs_gap f + 1 + total_words t 0) by lia. exact IH.
Qed.

Lemma cfi_chain_walk : forall fs done callee gc fuel,
  all = done ++ fs ->
  r_sp (f_regs callee) = base + a_pw a * total_words done 0 ->
  r_fp (f_regs callee) = 0 -> r_lr (f_regs callee) = 0 -> r_gp (f_regs callee) = [] ->
  (f_valid callee = VAll \/ f_valid callee = VSome cfi_vchain) ->
  (is_context (f_trust callee) = true -> fs <> []) ->
  module_at (f_instr callee) <> None ->
  (length fs < fuel)%nat ->
  walkf fuel callee gc = Ret (cfi_chain a cfi_vchain cfi_ctx base (total_words done 0) fs).
Proof.
  pose proof (pw_pos a (arch_pw a Ha)) as Hp. pose proof (bits_hi a (arch_pw a Ha)) as HW.
  destruct cfi_wf_parts as [Hg [Hb0 Htop]].
  induction fs as [|f t IH]; intros done callee gc fuel Hall Hsp Hfp Hlr Hgp Hv Hctx Hm Hfuel;
    (destruct fuel as [|k]; [cbn in Hfuel; lia|]).
  - apply walk_stops; [intros E; exact (Hctx E eq_refl)|].
    rewrite app_nil_r in Hall. subst done. rewrite Hbase, Hlen, Hsp. lia.
  - rewrite Hall in Hg. destruct (cfi_gaps_app _ _ Hg) as [Hgd Hgf].
    apply cfi_gaps_cons in Hgf. destruct Hgf as [Hgf [H0 [H1 H]]].
    assert (Hin : In f all) by (rewrite Hall; apply in_or_app; right; left; reflexivity).
    destruct (total_split a done f t 0 Ha (gaps_nonneg_total _ Hgd) Hgf (gaps_nonneg_total _ H)) as [Htot [Pd [Pf Pt]]].
    rewrite <- Hall in Htot.
    pose proof (arch_ok_adj a Ha) as [Hadj _].
    set (r' := {| r_ip := fs_ra f; r_sp := base + a_pw a * (total_words done 0 + fs_gap f + 1); r_fp := 0; r_lr := 0; r_gp := [] |}).
    (* the oracle answers with the caller *)
    assert (Eo : cfi_walk callee gc (forwarded a (f_valid callee)) = Some (r', cfi_vchain)).
    { rewrite (Hagree callee gc _ Hfp Hlr Hgp). unfold cfi_correct. rewrite Hsp, Hall.
      pose proof (lookup_skip done (f :: t) 0 Hgd) as L. cbn [Z.add] in L. rewrite L. cbn [cfi_lookup].
      rewrite Z.eqb_refl, Hfp, Hlr, Hgp. do 2 f_equal.
      destruct Hv as [Hv|Hv]; rewrite Hv; cbn [forwarded]; [reflexivity|].
      unfold cfi_vchain. rewrite filter_all; [reflexivity|].
      intros x Hx. apply fwd_pred_memb, In_memb, in_or_app. left. exact Hx. }
    assert (Ecfi : by_cfi a module_at max_module_addr cfi_walk callee gc = Some (r', cfi_vchain)).
    { unfold by_cfi.
      replace (reg_valid a (a_sp_name a) (f_valid callee)) with true
        by (destruct Hv as [Hv|Hv]; rewrite Hv; [reflexivity | symmetry; apply Hnames]).
      cbn [negb]. destruct (module_at (f_instr callee)); [|contradiction]. rewrite Eo.
      unfold cfi_post, r'. cbn [r_ip r_sp r_fp r_lr r_gp].
      rewrite (strip_id a _ (fs_ra f) ltac:(lia) (Hra47 f Hin)), (strip_small a _ 0) by lia.
      destruct (reg_valid a (a_fp_name a) (VSome cfi_vchain)); destruct (reg_valid a (a_lr_name a) (VSome cfi_vchain)); reflexivity. }
    apply (walk_step p a os mem module_at max_module_addr cfi_walk instr_valid Ha k callee gc r' (VSome cfi_vchain) TCfi).
    + right. rewrite Hbase, Hlen, Hsp, Htot. lia.
    + unfold cascade. rewrite Ecfi. reflexivity.
    + cbn [r' r_ip]. lia.
    + cbn [r' r_sp]. rewrite Hsp. lia.
    + specialize (IH (done ++ [f])). rewrite total_words_snoc, Z.add_0_r in IH.
      apply IH; try reflexivity.
      * rewrite <- app_assoc. exact Hall.
      * right. reflexivity.
      * discriminate.
      * apply Hmod. exact Hin.
      * cbn [length] in Hfuel. lia.
Qed.

Lemma cfi_recovers : forall fuel, (length all < fuel)%nat ->
  walk_stack current_code p a os mem module_at max_module_addr cfi_walk instr_valid fuel cfi_ctx VAll
  = Ret (from_context cfi_ctx VAll TContext :: cfi_chain a cfi_vchain cfi_ctx base 0 all).
Proof.
  intros fuel Hfuel. unfold walk_stack.
  destruct cfi_wf_parts as [Hg [Hb0 Htop]].
  destruct all as [|f t] eqn:Eall.
  - unfold mem_ok. rewrite Hlen, Z.mul_0_r. reflexivity.
  - rewrite <- Eall in *.
    assert (Hpos : 0 < total_words all 0).
    { rewrite Eall in Hg |- *. apply cfi_gaps_cons in Hg. destruct Hg as [G0 [_ [_ G]]].
      pose proof (gaps_nonneg_total t G). cbn [total_words]. lia. }
    rewrite (mem_ok_len a (arch_pw a Ha) mem _ Hlen Hpos) by (rewrite Hbase; exact Htop).
    rewrite (cfi_chain_walk all [] (from_context cfi_ctx VAll TContext) None fuel); try reflexivity; auto.
    + cbn. rewrite Z.mul_0_r, Z.add_0_r. reflexivity.
    + intros _. rewrite Eall. discriminate.
Qed.
End CfiChain.

Section ScanChain.
Variable p : profile.
Variable a : arch.
Variable os : Z.
Variable module_at : Z -> option Z.
Variable max_module_addr : Z.
Variable cfi_walk : frame -> option frame -> list Z -> option (regs * list Z).
Variable instr_valid : Z -> bool.
Variable base : Z.
Variable all : list frame_spec.
Variable ip0 : Z.

Hypothesis Ha : arch_ok a.
Hypothesis Hskip : 0 <= scan_skip_words a /\ a_scan_skip a = a_pw a * scan_skip_words a.
(* no call frame information for any frame of this thread *)
Hypothesis Hnocfi : forall c g f, cfi_walk c g f = None.
Hypothesis Hwf : scan_wf_layout a instr_valid base all = true.
(* the names the scan puts into the validity set are the ones it asks for, and do not make fp valid *)
Hypothesis Hn_sp : reg_valid a (a_sp_name a) (plain_valid a) = true.
Hypothesis Hn_fp : reg_valid a (a_fp_name a) (plain_valid a) = false.

Notation mem := (mk_mem a base (scan_words all)).
Notation walkf := (walk current_code p a os mem module_at max_module_addr cfi_walk instr_valid).

Lemma scan_gaps_cons : forall lo win f t, scan_gaps_ok a instr_valid lo win (f :: t) = true ->
  (lo <= fs_gap f /\ fs_gap f - lo < win) /\ a_cutoff a <= fs_ra f < 2 ^ a_bits a /\ instr_ok a instr_valid (fs_ra f) = true /\
  scan_gaps_ok a instr_valid (scan_skip_words a) (a_scan_default a) t = true.
Proof.
  intros lo win f t H. cbn [scan_gaps_ok] in H. unfold instr_ok. clear - H.
  rewrite !andb_true_iff, !Z.leb_le, !Z.ltb_lt in *. tauto.
Qed.

Lemma scan_gaps_app : forall l1 l2 lo win, scan_gaps_ok a instr_valid lo win (l1 ++ l2) = true ->
  exists lo' win', scan_gaps_ok a instr_valid lo' win' l2 = true.
Proof.
  induction l1 as [|f t IH]; intros l2 lo win H.
  - exists lo, win. exact H.
  - cbn [app] in H. apply scan_gaps_cons in H. destruct H as [_ [_ [_ H]]]. exact (IH l2 _ _ H).
Qed.

Lemma scan_total_nonneg : forall lo win l, 0 <= lo -> scan_gaps_ok a instr_valid lo win l = true -> 0 <= total_words l 0.
Proof.
  intros lo win l; revert lo win. induction l as [|f t IH]; intros lo win Hlo H; [cbn; lia|].
  apply scan_gaps_cons in H. destruct H as [[H1 _] [_ [_ H4]]]. specialize (IH _ _ (proj1 Hskip) H4). cbn [total_words]. lia.
Qed.

Lemma scan_words_length : forall lo win l, 0 <= lo -> scan_gaps_ok a instr_valid lo win l = true ->
  Z.of_nat (length (scan_words l)) = total_words l 0.
Proof.
  intros lo win l; revert lo win. induction l as [|f t IH]; intros lo win Hlo H; [reflexivity|].
  apply scan_gaps_cons in H. destruct H as [[H1 _] [_ [_ H4]]]. specialize (IH _ _ (proj1 Hskip) H4).
  cbn [scan_words total_words]. rewrite app_length. cbn [length]. unfold zeros. rewrite repeat_length. lia.
Qed.

Lemma scan_words_app : forall l1 l2, scan_words (l1 ++ l2) = scan_words l1 ++ scan_words l2.
Proof. induction l1 as [|f t IH]; intros; cbn [scan_words app]; [reflexivity|]. rewrite IH, <- app_assoc. reflexivity. Qed.

Lemma by_cfi_none : forall callee gc, by_cfi a module_at max_module_addr cfi_walk callee gc = None.
Proof.
  intros. unfold by_cfi. destruct (negb (reg_valid a (a_sp_name a) (f_valid callee))); [reflexivity|].
  destruct (module_at (f_instr callee)); [|reflexivity]. rewrite Hnocfi. reflexivity.
Qed.

(* the frame pointer is not valid: the frame-pointer technique is not consulted *)
Lemma by_fp_none : forall callee, f_valid callee = plain_valid a ->
  by_fp current_code p a os mem max_module_addr callee = Ret None.
Proof.
  intros callee Hv. unfold by_fp, fp_x86, fp_amd64, fp_arm. rewrite Hv, Hn_fp.
  destruct (a_fp a); try reflexivity. destruct (negb (os =? OS_IOS)); reflexivity.
Qed.

Lemma scan_wf_parts : scan_gaps_ok a instr_valid 0 (a_scan_context a) all = true /\ instr_ok a instr_valid 0 = false /\
  0 < base /\ base + a_pw a * total_words all 0 < 2 ^ a_bits a.
Proof.
  assert (H := Hwf). unfold scan_wf_layout in H. unfold instr_ok. clear - H.
  rewrite !andb_true_iff, negb_true_iff, !Z.ltb_lt in H. tauto.
Qed.

Lemma scan_mem_len : mem_len mem = a_pw a * total_words all 0.
Proof.
  rewrite (mem_len_words a (arch_pw a Ha)), (scan_words_length _ _ _ (Z.le_refl 0) (proj1 scan_wf_parts)). reflexivity.
Qed.

Lemma scan_chain_walk : forall fs done callee gc fuel,
  all = done ++ fs ->
  Z.of_nat (length (scan_words done)) = total_words done 0 ->
  r_sp (f_regs callee) = base + a_pw a * total_words done 0 ->
  f_valid callee = plain_valid a ->
  scan_gaps_ok a instr_valid (if is_context (f_trust callee) then 0 else scan_skip_words a)
               (if is_context (f_trust callee) then a_scan_context a else a_scan_default a) fs = true ->
  (is_context (f_trust callee) = true -> fs <> []) ->
  (length fs < fuel)%nat ->
  walkf fuel callee gc = Ret (scan_chain a base (total_words done 0) fs).
Proof.
  pose proof (pw_pos a (arch_pw a Ha)) as Hp. pose proof (bits_hi a (arch_pw a Ha)) as HW.
  destruct scan_wf_parts as [Hgall [Hjunk [Hb0 Htop]]].
  pose proof scan_mem_len as Hml. destruct Hskip as [Hsk0 Hskeq].
  induction fs as [|f t IH]; intros done callee gc fuel Hall Hld Hsp Hv Hg Hctx Hfuel;
    (destruct fuel as [|k]; [cbn in Hfuel; lia|]).
  - apply walk_stops; [intros E; exact (Hctx E eq_refl)|].
    rewrite app_nil_r in Hall. subst done. rewrite Hml, Hsp. cbn [m_base mk_mem]. lia.
  - set (lo := if is_context (f_trust callee) then 0 else scan_skip_words a) in *.
    assert (Hlo0 : 0 <= lo) by (unfold lo; destruct (is_context (f_trust callee)); lia).
    apply scan_gaps_cons in Hg. destruct Hg as [[Hg0 Hgw] [[Hr1 Hr2] [Hok Hgt]]].
    destruct (total_split a done f t 0 Ha ltac:(lia) ltac:(lia) (scan_total_nonneg _ _ _ Hsk0 Hgt)) as [Htot [Pd [Pf Pt]]].
    rewrite <- Hall in Htot.
    pose proof (arch_ok_adj a Ha) as [Hadj _].
    set (sp' := base + a_pw a * (total_words done 0 + fs_gap f + 1)).
    (* the record, seen after skipping [lo] padding words *)
    assert (Hws : scan_words all = scan_words done ++ repeat 0 (Z.to_nat lo) ++ repeat 0 (Z.to_nat (fs_gap f - lo)) ++ fs_ra f :: scan_words t).
    { rewrite Hall, scan_words_app. cbn [scan_words]. unfold zeros.
      replace (Z.to_nat (fs_gap f)) with (Z.to_nat lo + Z.to_nat (fs_gap f - lo))%nat by lia.
      rewrite repeat_app, <- !app_assoc. reflexivity. }
    assert (Escan : by_scan p a mem instr_valid callee = Ret (Some (ctx_regs (fs_ra f) sp' 0, [a_ip_name a; a_sp_name a]))).
    { rewrite Hws, (by_scan_finds p a instr_valid base Ha Hjunk Hb0 callee);
        rewrite ?app_length, ?repeat_length, ?Hld, ?Hv, ?Z2Nat.id by lia;
        fold lo; try assumption; try lia.
      (* with the lengths rewritten, by_scan_finds' premises are hypotheses or linear; left: *)
      - (* its sp is the chain's *) unfold sp'. do 4 f_equal. lia.
      - (* the frame pointer is not valid *) rewrite Hn_fp. discriminate. }
    apply (walk_step p a os mem module_at max_module_addr cfi_walk instr_valid Ha k callee gc
                     (ctx_regs (fs_ra f) sp' 0) (plain_valid a) TScan).
    + right. rewrite Hml, Hsp, Htot. cbn [m_base mk_mem]. lia.
    + unfold cascade. rewrite by_cfi_none, (by_fp_none callee Hv). cbn [obind]. rewrite Escan. reflexivity.
    + cbn [ctx_regs r_ip]. lia.
    + cbn [ctx_regs r_sp]. rewrite Hsp. unfold sp'. lia.
    + specialize (IH (done ++ [f])). rewrite total_words_snoc, Z.add_0_r in IH.
      apply IH; try reflexivity.
      * rewrite <- app_assoc. exact Hall.
      * rewrite scan_words_app, app_length. cbn [scan_words]. rewrite app_length. cbn [length]. unfold zeros. rewrite repeat_length. lia.
      * exact Hgt.
      * discriminate.
      * cbn [length] in Hfuel. lia.
Qed.

Lemma scan_recovers : forall fuel, (length all < fuel)%nat ->
  walk_stack current_code p a os mem module_at max_module_addr cfi_walk instr_valid fuel (ctx_regs ip0 base 0) (plain_valid a)
  = Ret (from_context (ctx_regs ip0 base 0) (plain_valid a) TContext :: scan_chain a base 0 all).
Proof.
  intros fuel Hfuel. unfold walk_stack.
  destruct scan_wf_parts as [Hgall [Hjunk [Hb0 Htop]]]. pose proof scan_mem_len as Hml.
  destruct all as [|f t] eqn:Eall.
  - unfold mem_ok. rewrite Hml, Z.mul_0_r. reflexivity.
  - rewrite <- Eall in *.
    assert (Hpos : 0 < total_words all 0).
    { rewrite Eall in Hgall |- *. apply scan_gaps_cons in Hgall. destruct Hgall as [[G0 _] [_ [_ G]]].
      pose proof (scan_total_nonneg _ _ _ (proj1 Hskip) G). cbn [total_words]. lia. }
    rewrite (mem_ok_len a (arch_pw a Ha) mem _ Hml Hpos) by exact Htop.
    rewrite (scan_chain_walk all [] (from_context (ctx_regs ip0 base 0) (plain_valid a) TContext) None fuel); try reflexivity; auto.
    + cbn. rewrite Z.mul_0_r, Z.add_0_r. reflexivity.
    + intros _. rewrite Eall. discriminate.
Qed.
End ScanChain.

Lemma memb_last2 : forall x y l, memb x (l ++ [x; y]) = true.
Proof. intros. apply In_memb, in_or_app. right. left. reflexivity. Qed.

Lemma cfi_names_ok : forall a, In (a_cfi_sp_name a) (alias_group a (a_sp_name a)) ->
  forall l, reg_valid a (a_sp_name a) (VSome (l ++ [a_cfi_sp_name a; a_cfi_ip_name a])) = true.
Proof.
  intros a H l. unfold reg_valid. apply existsb_exists. exists (a_cfi_sp_name a). split; [exact H|apply memb_last2].
Qed.

(* what the scan theorem needs of an architecture *)
Definition scan_arch (a : arch) : Prop :=
  arch_ok a /\ (0 <= scan_skip_words a /\ a_scan_skip a = a_pw a * scan_skip_words a) /\
  reg_valid a (a_sp_name a) (plain_valid a) = true /\ reg_valid a (a_fp_name a) (plain_valid a) = false.
Definition cfi_arch (a : arch) : Prop :=
  arch_ok a /\ In (a_cfi_sp_name a) (alias_group a (a_sp_name a)).

Definition archs : list arch := [x86; amd64; arm; arm64; mips32; mips64].

Lemma archs_ok : forall a, In a archs -> arch_ok a.
Proof.
  intros a H. repeat (destruct H as [<-|H]; [auto using arch_ok_x86, arch_ok_amd64, arch_ok_arm, arch_ok_arm64, arch_ok_mips32, arch_ok_mips64|]).
  destruct H.
Qed.

Lemma scan_arch_in : forall a, In a archs -> scan_arch a.
Proof.
  intros a H. split; [exact (archs_ok a H)|].
  repeat (destruct H as [<-|H]; [repeat split; try reflexivity; discriminate|]). destruct H.
Qed.

Lemma cfi_arch_in : forall a, In a archs -> cfi_arch a.
Proof.
  intros a H. split; [exact (archs_ok a H)|].
  repeat (destruct H as [<-|H]; [cbn; auto|]). destruct H.
Qed.
