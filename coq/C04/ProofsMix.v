(* C04/ProofsMix.v — the walker recovers stacks whose frames pick their technique one by one (CFI-described,
   frame-pointer and scan-findable frames mixed), for every depth: induction on the list of frame specs with the callee's
   validity set, register file and frame-pointer state as the invariant; at the end, the same with STACK CFI rules
   evaluated ([cfi_rules]) in place of the abstract oracle. *)
From Coq Require Import Lia ZArith List Bool.
From RM Require Import C05.Model C05.Proofs C04.Model C04.Proofs C04.ProofsFp.
Import ListNotations.
Open Scope Z_scope.

Lemma all_zero_repeat : forall l, all_zero l = true -> l = repeat 0 (length l).
Proof.
  induction l as [|x t IH]; cbn [all_zero forallb length repeat]; intros H; [reflexivity|].
  apply andb_prop in H. destruct H as [H1 H2]. apply Z.eqb_eq in H1. subst x. f_equal. apply IH. exact H2.
Qed.

Lemma mix_words_app : forall l1 l2, mix_words (l1 ++ l2) = mix_words l1 ++ mix_words l2.
Proof. induction l1 as [|f t IH]; intros; cbn [mix_words app]; [reflexivity|]. rewrite IH, <- app_assoc. reflexivity. Qed.

Lemma mix_total_app : forall l1 l2, mix_total (l1 ++ l2) = mix_total l1 + mix_total l2.
Proof. induction l1 as [|f t IH]; intros; cbn [mix_total app]; [lia|]. rewrite IH. lia. Qed.

Lemma mix_total_snoc : forall l f, mix_total (l ++ [f]) = mix_total l + ms_len f + 1.
Proof. intros. rewrite mix_total_app. cbn [mix_total]. lia. Qed.

Lemma mix_total_nonneg : forall l, 0 <= mix_total l.
Proof. induction l as [|f t IH]; cbn [mix_total]; [lia|]. unfold ms_len. lia. Qed.

Lemma mix_words_length : forall l, Z.of_nat (length (mix_words l)) = mix_total l.
Proof.
  induction l as [|f t IH]; cbn [mix_words mix_total]; [reflexivity|].
  rewrite app_length. cbn [length]. unfold ms_len. lia.
Qed.

(* a stack split at one record: the sizes add up, and every byte offset in it is non-negative *)
Lemma mix_split : forall a done f t, arch_ok a ->
  mix_total (done ++ f :: t) = mix_total done + (ms_len f + 1 + mix_total t) /\
  0 <= a_pw a * mix_total done /\ 0 <= a_pw a * ms_len f /\ 0 <= a_pw a * mix_total t.
Proof.
  intros a done f t Ha. pose proof (pw_pos a (arch_pw a Ha)). pose proof (mix_total_nonneg done). pose proof (mix_total_nonneg t).
  rewrite mix_total_app. repeat split; try apply Z.mul_nonneg_nonneg; unfold ms_len; lia.
Qed.

Lemma prev_instr_snoc : forall a done instr f, prev_instr a instr (done ++ [f]) = ms_ra f - a_adj a.
Proof. induction done as [|x d IH]; intros; cbn [app prev_instr]; [reflexivity|apply IH]. Qed.

Lemma memb_app_l : forall x l1 l2, memb x l1 = true -> memb x (l1 ++ l2) = true.
Proof. intros x l1 l2 H. unfold memb in *. rewrite existsb_app, H. reflexivity. Qed.

Lemma memb_filter : forall x (g : Z -> bool) l, memb x l = true -> g x = true -> memb x (filter g l) = true.
Proof.
  intros x g l H Hg. apply existsb_exists in H. destruct H as [y [Hin Hy]]. apply Z.eqb_eq in Hy. subst y.
  apply In_memb, filter_In. auto.
Qed.

(* the frames a walk over [fs] reaches: the callee of the record after [done] has its sp at that record, lr = 0, sp valid
   under both spellings, and the lookup address of its position (the context's ip, then return address - adj): what an
   oracle may rely on; the lookup address is what the rule table of [rules_ok] is indexed by ([rules_ok_at]) *)
Definition reached (a : arch) (base ip0 : Z) (callee : frame) (done : list mspec) : Prop :=
  r_sp (f_regs callee) = base + a_pw a * mix_total done /\ r_lr (f_regs callee) = 0 /\
  reg_valid a (a_sp_name a) (f_valid callee) = true /\ reg_valid a (a_cfi_sp_name a) (f_valid callee) = true /\
  f_instr callee = prev_instr a ip0 done.

Section MixChain.
Variable p : profile.
Variable a : arch.
Variable os : Z.
Variable module_at : Z -> option Z.
Variable max_module_addr : Z.
Variable cfi_walk : frame -> option frame -> list Z -> option (regs * list Z).
Variable instr_valid : Z -> bool.
Variable base : Z.
Variable all : list mspec.
Variable ip0 : Z.
Variable fp0 : Z.
Variable gp0 : list Z.

Hypothesis Ha : arch_ok a.
Hypothesis Hskip : 0 <= scan_skip_words a /\ a_scan_skip a = a_pw a * scan_skip_words a.
Hypothesis Hcfisp : In (a_cfi_sp_name a) (alias_group a (a_sp_name a)).
Hypothesis Hn_sp : reg_valid a (a_sp_name a) (plain_valid a) = true.
Hypothesis Hn_csp : reg_valid a (a_cfi_sp_name a) (plain_valid a) = true.
(* the frame-pointer technique gives up on a frame pointer of 0: ARM follows frame pointers on iOS only (there a
   valid fp of 0 is the technique's own end-of-chain marker and ends the walk); ARM64 rejects the pc it reads *)
Hypothesis Hfp_arm : a_fp a = FpArm -> (os =? OS_IOS) = false.
Hypothesis Hfp_arm64 : a_fp a = FpArm64 -> a_canon_fp a 0 = false.
(* frame-pointer frames: the guard of two words, the frame pointer is callee-saved (CFI frames carry it), the validity
   set of a frame-pointer frame names sp (under both spellings) and fp *)
Hypothesis Hg2 : a_fp_guard_words a = 2.
Hypothesis Hfv_sp : reg_valid a (a_sp_name a) (VSome (fp_valid a)) = true.
Hypothesis Hfv_csp : reg_valid a (a_cfi_sp_name a) (VSome (fp_valid a)) = true.
Hypothesis Hfv_fp : memb (a_fp_name a) (fp_valid a) = true.
(* a CFI frame carries a valid frame pointer on: some CALLEE_SAVED_REGS entry is a spelling of the frame pointer and
   callee_forwarded_regs keeps it whenever the frame pointer is valid in the callee (under any spelling) *)
Hypothesis Hcarry : exists c, In c (a_callee_saved a) /\ In c (alias_group a (a_fp_name a)) /\
  forall l, reg_valid a (a_fp_name a) (VSome l) = true -> (if a_fwd_alias a then reg_valid a c (VSome l) else memb c l) = true.
Hypothesis Hwf : mix_wf_layout a instr_valid module_at base ip0 fp0 all = true.

Notation mem := (mk_mem a base (mix_words all)).
Notation walkf := (walk current_code p a os mem module_at max_module_addr cfi_walk instr_valid).
Notation Hpw := (arch_pw a Ha).

Lemma mix_wf_parts : mix_frames_ok a instr_valid module_at base true ip0 0 (Some fp0) all = true /\ instr_ok a instr_valid 0 = false /\
  a_pw a < base /\ base + a_pw a * mix_total all < 2 ^ a_bits a /\ 0 <= fp0 /\ (a_strip a = true -> fp0 < 2 ^ 47).
Proof.
  assert (H := Hwf). unfold mix_wf_layout in H. unfold instr_ok. clear - H.
  rewrite !andb_true_iff, orb_true_iff, !negb_true_iff, !Z.ltb_lt, Z.leb_le in H. intuition congruence.
Qed.

Lemma mix_mem_len : mem_len mem = a_pw a * mix_total all.
Proof. rewrite (mem_len_words a Hpw), mix_words_length. reflexivity. Qed.

(* a frame pointer of 0: nothing is readable at addresses below the stack *)
Lemma by_fp_zero : forall callee, r_fp (f_regs callee) = 0 ->
  by_fp current_code p a os mem max_module_addr callee = Ret None.
Proof.
  intros callee H0. destruct mix_wf_parts as [_ [_ [Hb _]]].
  pose proof (pw_pos a Hpw) as Hp. pose proof (bits_lo a Hpw) as HW.
  assert (Hpw8 : a_pw a <= 8) by (destruct Hpw as [[_ ->]|[_ ->]]; lia).
  apply (by_fp_gives_up p a os mem max_module_addr Ha callee 0 H0); try lia; [|auto].
  unfold read, checked_sub. cbn [m_base mk_mem].
  destruct (0 <=? 0 + a_pw a - base) eqn:E; [apply Z.leb_le in E; lia|reflexivity].
Qed.

(* validity sets the walk meets: the stack pointer is always valid, under both spellings *)
Lemma next_valid_sp : forall t v, reg_valid a (a_sp_name a) (mix_next_valid a t v) = true.
Proof. intros [| |] v; cbn [mix_next_valid]; [apply cfi_names_ok; exact Hcfisp | exact Hn_sp | exact Hfv_sp]. Qed.

Lemma next_valid_csp : forall t v, reg_valid a (a_cfi_sp_name a) (mix_next_valid a t v) = true.
Proof. intros [| |] v; cbn [mix_next_valid]; [apply memb_reg_valid, memb_last2 | exact Hn_csp | exact Hfv_csp]. Qed.

Lemma mix_lookup_skip : forall done fs o,
  mix_lookup (a_pw a) base o (done ++ fs) (base + a_pw a * (o + mix_total done))
  = mix_lookup (a_pw a) base (o + mix_total done) fs (base + a_pw a * (o + mix_total done)).
Proof.
  pose proof (pw_pos a Hpw) as Hp.
  induction done as [|f t IH]; intros fs o; cbn [app mix_total mix_lookup].
  - rewrite Z.add_0_r. reflexivity.
  - pose proof (mix_total_nonneg t) as Ht. assert (0 <= ms_len f) by (unfold ms_len; lia).
    destruct (base + a_pw a * (o + (ms_len f + 1 + mix_total t)) =? base + a_pw a * o) eqn:E; [apply Z.eqb_eq in E; nia|].
    specialize (IH fs (o + ms_len f + 1)).
    replace (o + (ms_len f + 1 + mix_total t)) with (o + ms_len f + 1 + mix_total t) by lia. exact IH.
Qed.

(* a CFI frame carries a valid frame pointer on: it is callee-saved *)
Lemma reg_valid_forwarded : forall v l2, reg_valid a (a_fp_name a) v = true ->
  reg_valid a (a_fp_name a) (VSome (forwarded a v ++ l2)) = true.
Proof.
  destruct Hcarry as [c [Hin [Hal Hl]]]. intros v l2 H.
  unfold reg_valid. apply existsb_exists. exists c. split; [exact Hal|].
  apply memb_app_l. destruct v as [|l]; cbn [forwarded]; [apply In_memb; exact Hin|].
  apply memb_filter; [apply In_memb; exact Hin | exact (Hl l H)].
Qed.

Lemma frames_ok_cons : forall ctx instr off st f t, mix_frames_ok a instr_valid module_at base ctx instr off st (f :: t) = true ->
  words_in_range a (ms_fill f) = true /\ a_cutoff a <= ms_ra f < 2 ^ a_bits a /\
  (match ms_tech f with
   | TkCfi => module_at instr <> None /\ (a_strip a = true -> ms_ra f < 2 ^ 47)
   | TkScan =>
       let lo := if ctx then 0 else scan_skip_words a in
       let win := if ctx then a_scan_context a else a_scan_default a in
       lo <= ms_len f /\ ms_len f - lo < win /\ all_zero (skipn (Z.to_nat lo) (ms_fill f)) = true /\
       instr_ok a instr_valid (ms_ra f) = true /\ st_val st = 0
   | TkFp =>
       let nf := last (ms_fill f) 0 in
       let csp := base + a_pw a * (off + ms_len f + 1) in
       fp_mixable a = true /\ 1 <= ms_len f /\ st = Some (base + a_pw a * (off + ms_len f - 1)) /\
       a_canon_fp a (ms_ra f) = true /\ (a_strip a = true -> ms_ra f < 2 ^ 47 /\ nf < 2 ^ 47) /\
       csp + 1 < 2 ^ a_bits a /\
       (a_fp a = FpAmd64 -> 1 <= mix_total t /\ csp <= nf /\ nf + a_pw a <= csp + a_pw a * mix_total t)
   end) /\
  mix_frames_ok a instr_valid module_at base false (ms_ra f - a_adj a) (off + ms_len f + 1)
                (mix_next_st (ms_tech f) (ms_fill f) st) t = true.
Proof.
  intros ctx instr off st f t H. cbn [mix_frames_ok] in H. cbv zeta in *. clear - H.
  rewrite !andb_true_iff, Z.leb_le, Z.ltb_lt in H. destruct H as [[[[H1 H2] H3] H4] H5].
  repeat split; try assumption. unfold instr_ok. destruct (ms_tech f).
  - rewrite andb_true_iff, orb_true_iff, negb_true_iff, Z.ltb_lt in H4.
    destruct (module_at instr); [intuition congruence | destruct H4; discriminate].
  - rewrite !andb_true_iff, Z.leb_le, Z.ltb_lt in H4. destruct H4 as [[[[[A B] C] D] E] G].
    rewrite D, E. repeat split; try assumption.
    destruct st as [v|]; [apply Z.eqb_eq; exact G | reflexivity].
  - rewrite !andb_true_iff, orb_true_iff, negb_true_iff, andb_true_iff, !Z.leb_le, !Z.ltb_lt in H4.
    destruct H4 as [[[[[[A B] C] D] E] G] I].
    assert (Hamd : a_fp a = FpAmd64 -> 1 <= mix_total t /\ base + a_pw a * (off + ms_len f + 1) <= last (ms_fill f) 0 /\
                   last (ms_fill f) 0 + a_pw a <= base + a_pw a * (off + ms_len f + 1) + a_pw a * mix_total t).
    { intros Ek. rewrite Ek in I. cbv iota in I. rewrite !andb_true_iff, !Z.leb_le in I. tauto. }
    destruct st as [v|]; [apply Z.eqb_eq in C; subst v | discriminate C]. intuition congruence.
Qed.

Lemma frames_ok_ra : forall fs ctx instr off st,
  mix_frames_ok a instr_valid module_at base ctx instr off st fs = true -> Forall (fun f => ms_ra f < 2 ^ a_bits a) fs.
Proof.
  induction fs as [|f t IH]; intros ctx instr off st H; [constructor|].
  apply frames_ok_cons in H. destruct H as [_ [[_ H3] [_ H5]]].
  constructor; [exact H3 | exact (IH _ _ _ _ H5)].
Qed.

Lemma frames_ok_app : forall l1 l2 ctx instr off st, mix_frames_ok a instr_valid module_at base ctx instr off st (l1 ++ l2) = true ->
  exists ctx' instr' off' st', mix_frames_ok a instr_valid module_at base ctx' instr' off' st' l2 = true.
Proof.
  induction l1 as [|f t IH]; intros l2 ctx instr off st H.
  - exists ctx, instr, off, st. exact H.
  - cbn [app] in H. apply frames_ok_cons in H. destruct H as [_ [_ [_ H]]]. exact (IH l2 _ _ _ _ H).
Qed.

(* the callee's frame pointer: its value is the state's (0 when not valid), a stack-like value where pointer
   authentication bits are stripped, and valid (under some spelling) when the state says valid *)
Definition fpinv (callee : frame) (st : option Z) : Prop :=
  r_fp (f_regs callee) = st_val st /\ 0 <= st_val st /\ (a_strip a = true -> st_val st < 2 ^ 47) /\
  (st <> None -> reg_valid a (a_fp_name a) (f_valid callee) = true).

(* the symbol-file oracle answers like the correct one on the frames this walk reaches *)
Hypothesis Hagree : forall done f t callee gc fwd, all = done ++ f :: t -> reached a base ip0 callee done ->
  cfi_walk callee gc fwd = mix_cfi_correct a base all callee gc fwd.

(* what the cascade answers on a reached frame: the technique of the next record, with the chain's register file
   and validity set *)
Lemma mix_cascade : forall done f t callee gc st,
  all = done ++ f :: t -> reached a base ip0 callee done -> fpinv callee st ->
  mix_frames_ok a instr_valid module_at base (is_context (f_trust callee)) (f_instr callee) (mix_total done) st (f :: t) = true ->
  cascade current_code p a os mem module_at max_module_addr cfi_walk instr_valid callee gc =
  Ret (Some (from_context {| r_ip := ms_ra f; r_sp := base + a_pw a * (mix_total done + ms_len f + 1);
                              r_fp := st_val (mix_next_st (ms_tech f) (ms_fill f) st); r_lr := 0;
                              r_gp := mix_next_gp (ms_tech f) (r_gp (f_regs callee)) |}
                           (mix_next_valid a (ms_tech f) (f_valid callee)) (mix_trust (ms_tech f)))).
Proof.
  intros done f t callee gc st Hall Hrs [Hfp [Hst0 [Hst47 Hstv]]] Hg. pose proof Hrs as [Hsp [Hlr [Hvsp [Hvcsp Hinstr]]]].
  pose proof (pw_pos a Hpw) as Hp. pose proof (bits_lo a Hpw) as HW.
  destruct mix_wf_parts as [_ [Hjunk [Hb0 [Htop _]]]]. pose proof mix_mem_len as Hml.
  pose proof (arch_ok_adj a Ha) as [Hadj _].
  apply frames_ok_cons in Hg. destruct Hg as [Hwr [[Hr1 Hr2] [Htech _]]].
  destruct (mix_split a done f t Ha) as [Htot [Pd [Pf Pt]]]. rewrite <- Hall in Htot.
  set (sp' := base + a_pw a * (mix_total done + ms_len f + 1)).
  (* what the symbol-file oracle says about this callee *)
  assert (Elook : mix_lookup (a_pw a) base 0 all (r_sp (f_regs callee)) = Some (ms_tech f, sp', ms_ra f)).
  { rewrite Hsp, Hall. pose proof (mix_lookup_skip done (f :: t) 0) as L. cbn [Z.add] in L. rewrite L.
    cbn [mix_lookup]. rewrite Z.eqb_refl. reflexivity. }
  assert (Ecfi : by_cfi a module_at max_module_addr cfi_walk callee gc =
                 match ms_tech f, module_at (f_instr callee) with
                 | TkCfi, Some _ => Some (cfi_post a max_module_addr {| r_ip := ms_ra f; r_sp := sp'; r_fp := r_fp (f_regs callee);
                                            r_lr := r_lr (f_regs callee); r_gp := r_gp (f_regs callee) |}
                                            (forwarded a (f_valid callee) ++ [a_cfi_sp_name a; a_cfi_ip_name a]),
                                          forwarded a (f_valid callee) ++ [a_cfi_sp_name a; a_cfi_ip_name a])
                 | _, _ => None
                 end).
  { unfold by_cfi. rewrite Hvsp. cbn [negb]. destruct (module_at (f_instr callee)); [|destruct (ms_tech f); reflexivity].
    rewrite (Hagree done f t callee gc _ Hall Hrs). unfold mix_cfi_correct. rewrite Elook. destruct (ms_tech f); reflexivity. }
  unfold cascade. rewrite Ecfi. clear Ecfi Elook. destruct (ms_tech f) eqn:Etech; cbv zeta in Htech;
    cbn [mix_next_st mix_next_gp mix_next_valid mix_trust st_val].
  - (* described by CFI *)
    destruct Htech as [Hmod H47]. destruct (module_at (f_instr callee)); [|contradiction].
    unfold cfi_post. cbn [r_ip r_sp r_fp r_lr r_gp].
    rewrite Hfp, Hlr, (strip_id a _ (ms_ra f)), (strip_small a _ 0), (strip_id a _ (st_val st)) by (assumption || lia).
    set (v' := forwarded a (f_valid callee) ++ [a_cfi_sp_name a; a_cfi_ip_name a]).
    destruct (reg_valid a (a_fp_name a) (VSome v')); destruct (reg_valid a (a_lr_name a) (VSome v')); reflexivity.
  - (* found by scanning: [skipped words][zeros][return address] *)
    destruct Htech as [Hlo [Hwin [Hz [Hok Hstz]]]].
    assert (Hfp0 : r_fp (f_regs callee) = 0) by (rewrite Hfp; exact Hstz).
    set (lo := if is_context (f_trust callee) then 0 else scan_skip_words a) in *.
    assert (Hlo0 : 0 <= lo) by (unfold lo; destruct (is_context (f_trust callee)); lia).
    set (g := (length (ms_fill f) - Z.to_nat lo)%nat).
    assert (Hg : Z.of_nat g = ms_len f - lo) by (unfold g, ms_len in *; lia).
    assert (Hfill : ms_fill f = firstn (Z.to_nat lo) (ms_fill f) ++ repeat 0 g).
    { rewrite <- (firstn_skipn (Z.to_nat lo) (ms_fill f)) at 1. f_equal.
      rewrite (all_zero_repeat _ Hz), skipn_length. reflexivity. }
    assert (Hsk : Z.of_nat (length (firstn (Z.to_nat lo) (ms_fill f))) = lo) by (rewrite firstn_length; unfold ms_len in Hlo; lia).
    assert (Hws : mix_words all = mix_words done ++ firstn (Z.to_nat lo) (ms_fill f) ++ repeat 0 g ++ ms_ra f :: mix_words t).
    { rewrite Hall, mix_words_app. cbn [mix_words]. rewrite Hfill at 1. rewrite <- !app_assoc. reflexivity. }
    assert (Escan : by_scan p a mem instr_valid callee = Ret (Some (ctx_regs (ms_ra f) sp' 0, [a_ip_name a; a_sp_name a]))).
    { rewrite Hws, (by_scan_finds p a instr_valid base Ha Hjunk ltac:(lia) callee);
        rewrite ?app_length, ?Nat2Z.inj_add, ?mix_words_length, ?Hsk, ?Hg; fold lo; try assumption; try lia.
      (* with the lengths rewritten, by_scan_finds' premises are hypotheses (sp, valid sp, Hfp0, Hskeq, Hok) or linear
         (|skipped| = lo, the window Hwin, the range of ra, the fit Htop); left: its sp is the chain's *)
      unfold sp'. do 4 f_equal. lia. }
    replace (match module_at (f_instr callee) with Some _ | _ => None end) with (@None (regs * list Z))
      by (destruct (module_at (f_instr callee)); reflexivity).
    rewrite (by_fp_zero callee Hfp0). cbn [obind]. rewrite Escan. reflexivity.
  - (* found through the frame pointer: the saved word is the last fill word *)
    destruct Htech as [Hmx [Hl1 [Est' [Hcan [H47 [Hcsp Hamd]]]]]]. fold sp' in Hcsp, Hamd.
    set (nf := last (ms_fill f) 0) in *.
    set (F := base + a_pw a * (mix_total done + ms_len f - 1)).
    assert (Pl : a_pw a <= a_pw a * ms_len f) by (clear - Hp Hl1; nia).
    assert (Hne : ms_fill f <> []) by (intros E; unfold ms_len in Hl1; rewrite E in Hl1; cbn in Hl1; lia).
    pose proof (app_removelast_last 0 Hne) as Hfill. fold nf in Hfill.
    assert (Hrl : Z.of_nat (length (removelast (ms_fill f))) = ms_len f - 1).
    { unfold ms_len. rewrite Hfill at 2. rewrite app_length. cbn [length]. lia. }
    assert (Hnfr : 0 <= nf < 2 ^ a_bits a).
    { unfold words_in_range in Hwr. rewrite Hfill, forallb_app in Hwr. cbn [forallb] in Hwr.
      rewrite !andb_true_iff, Z.leb_le, Z.ltb_lt in Hwr. tauto. }
    assert (EFsp : F + a_pw a * 2 = sp') by (unfold F, sp'; lia).
    assert (Efp : by_fp current_code p a os mem max_module_addr callee = Ret (Some (ctx_regs (ms_ra f) sp' nf, fp_valid a))).
    { unfold fp_mixable in Hmx. rewrite <- EFsp.
      apply (fp_step p a os mem max_module_addr Ha Hg2) with (S := base + a_pw a * mix_total done);
        try assumption; try (unfold F; lia); try (destruct (a_fp a); discriminate).
      (* left of fp_step's hypotheses, by name: *)
      - (* HF *) rewrite Hfp, Est'. reflexivity.
      - (* Vf *) apply Hstv. rewrite Est'. discriminate.
      - (* R1: the saved word *)
        unfold F. replace (mix_total done + ms_len f - 1) with (Z.of_nat (length (mix_words done ++ removelast (ms_fill f))))
          by (rewrite app_length, Nat2Z.inj_add, mix_words_length; lia).
        rewrite Hall, mix_words_app. cbn [mix_words]. rewrite Hfill at 1. rewrite <- !app_assoc, app_assoc. cbn [app].
        apply read_at; [exact Hpw|exact Hnfr].
      - (* R2: the return address *)
        replace (F + a_pw a) with (base + a_pw a * Z.of_nat (length (mix_words done ++ ms_fill f)))
          by (rewrite app_length, Nat2Z.inj_add, mix_words_length; unfold F, ms_len; lia).
        rewrite Hall, mix_words_app. cbn [mix_words]. rewrite app_assoc. apply read_at; [exact Hpw|lia].
      - (* R3, amd64: the caller's sp is readable *)
        intros E. destruct (Hamd E) as [A [B C]]. rewrite EFsp.
        apply read_is_some_iff; split; rewrite ?Hml, ?Htot; cbn [m_base mk_mem]; unfold sp' in *; lia.
      - (* R4, amd64: the saved frame pointer is readable *)
        intros E. destruct (Hamd E) as [A [B C]].
        apply read_is_some_iff; split; rewrite ?Hml, ?Htot; cbn [m_base mk_mem]; unfold sp' in *; lia.
      - (* Hnf, amd64 *) intros E. destruct (Hamd E) as [A [B C]]. lia.
      - (* Hnf47 *) intros E. apply H47. exact E.
      - (* Hra47 *) intros E. apply H47. exact E. }
    replace (match module_at (f_instr callee) with Some _ | _ => None end) with (@None (regs * list Z))
      by (destruct (module_at (f_instr callee)); reflexivity).
    rewrite Efp. reflexivity.
Qed.

(* the produced frame is reached again, and its frame pointer is the next state's *)
Lemma mix_next_inv : forall done f t callee st ctx instr,
  reached a base ip0 callee done -> fpinv callee st ->
  mix_frames_ok a instr_valid module_at base ctx instr (mix_total done) st (f :: t) = true ->
  let callee' := mix_frame a (ms_tech f) (f_valid callee) (r_gp (f_regs callee)) (mix_next_st (ms_tech f) (ms_fill f) st)
                           (base + a_pw a * (mix_total done + ms_len f + 1)) (ms_ra f) in
  reached a base ip0 callee' (done ++ [f]) /\ fpinv callee' (mix_next_st (ms_tech f) (ms_fill f) st).
Proof.
  intros done f t callee st ctx instr Hrs [Hfp [Hst0 [Hst47 Hstv]]] Hg. apply frames_ok_cons in Hg. destruct Hg as [Hwr [_ [Htech _]]].
  split.
  - unfold reached, mix_frame. cbn [f_regs f_valid f_instr r_sp r_lr]. rewrite mix_total_snoc, prev_instr_snoc.
    repeat split; [ apply next_valid_sp | apply next_valid_csp].
  - unfold fpinv, mix_frame. cbn [f_regs f_valid r_fp]. split; [reflexivity|].
    destruct (ms_tech f); cbv zeta in Htech; cbn [mix_next_st mix_next_valid st_val].
    + repeat split; try assumption. intros Hne. apply reg_valid_forwarded, Hstv, Hne.
    + repeat split; try lia. intros Hne. destruct (Hne eq_refl).
    + destruct Htech as [_ [Hl1 [_ [_ [H47 _]]]]].
      assert (Hne : ms_fill f <> []) by (intros E; unfold ms_len in Hl1; rewrite E in Hl1; cbn in Hl1; lia).
      unfold words_in_range in Hwr. rewrite (app_removelast_last 0 Hne), forallb_app in Hwr. cbn [forallb] in Hwr.
      rewrite !andb_true_iff, Z.leb_le in Hwr.
      repeat split; [tauto | intros E; apply H47, E | intros _; apply memb_reg_valid, Hfv_fp].
Qed.

Lemma mix_chain_walk : forall fs done callee gc fuel st,
  all = done ++ fs ->
  reached a base ip0 callee done ->
  fpinv callee st ->
  mix_frames_ok a instr_valid module_at base (is_context (f_trust callee)) (f_instr callee) (mix_total done) st fs = true ->
  (is_context (f_trust callee) = true -> fs <> []) ->
  (length fs < fuel)%nat ->
  walkf fuel callee gc = Ret (mix_chain a (f_valid callee) (r_gp (f_regs callee)) st base (mix_total done) fs).
Proof.
  pose proof (pw_pos a Hpw) as Hp. pose proof (bits_hi a Hpw) as HW64.
  destruct mix_wf_parts as [_ [_ [Hb0 [Htop _]]]]. pose proof mix_mem_len as Hml.
  pose proof (arch_ok_adj a Ha) as [Hadj _].
  induction fs as [|f t IH]; intros done callee gc fuel st Hall Hrs Hfi Hg Hctx Hfuel; pose proof Hrs as [Hsp _];
    (destruct fuel as [|k]; [cbn in Hfuel; lia|]).
  - apply walk_stops; [intros E; exact (Hctx E eq_refl)|].
    rewrite app_nil_r in Hall. subst done. rewrite Hml, Hsp. cbn [m_base mk_mem]. lia.
  - destruct (mix_next_inv done f t callee st _ _ Hrs Hfi Hg) as [Hrs' Hfi'].
    pose proof (mix_cascade done f t callee gc st Hall Hrs Hfi Hg) as Hcas.
    apply frames_ok_cons in Hg. destruct Hg as [_ [[Hr1 Hr2] [_ Hgt]]].
    destruct (mix_split a done f t Ha) as [Htot [Pd [Pf Pt]]]. rewrite <- Hall in Htot.
    cbn [mix_chain].
    apply (walk_step p a os mem module_at max_module_addr cfi_walk instr_valid Ha k callee gc _ _ _ _ 
             ltac:(right; rewrite Hml, Hsp, Htot; cbn [m_base mk_mem]; lia) Hcas); cbn [r_ip r_sp]; [lia | rewrite Hsp; lia |].
    specialize (IH (done ++ [f]) _ (Some callee) k _ ltac:(rewrite <- app_assoc; exact Hall) Hrs' Hfi').
    rewrite mix_total_snoc in IH.
    apply IH.
    + replace (is_context _) with false by (cbn; destruct (ms_tech f); reflexivity). exact Hgt.
    + cbn. destruct (ms_tech f); discriminate.
    + cbn [length] in Hfuel. lia.
Qed.

Lemma mix_recovers : forall fuel, (length all < fuel)%nat ->
  let '(r, v, m) := mix_layout a base ip0 fp0 gp0 all in
  walk_stack current_code p a os m module_at max_module_addr cfi_walk instr_valid fuel r v
  = Ret (from_context r v TContext :: mix_chain a v gp0 (Some fp0) base 0 all).
Proof.
  intros fuel Hfuel. cbn [mix_layout]. unfold walk_stack.
  destruct mix_wf_parts as [Hgall [_ [Hb0 [Htop [Hf0 Hf47]]]]]. pose proof mix_mem_len as Hml. pose proof (pw_pos a Hpw) as Hp.
  destruct all as [|f t] eqn:Eall.
  - unfold mem_ok. rewrite Hml, Z.mul_0_r. reflexivity.
  - rewrite <- Eall in *.
    assert (Hpos : 0 < mix_total all).
    { rewrite Eall. cbn [mix_total]. pose proof (mix_total_nonneg t). unfold ms_len. lia. }
    rewrite (mem_ok_len a Hpw mem _ Hml Hpos) by exact Htop.
    rewrite (mix_chain_walk all [] (from_context {| r_ip := ip0; r_sp := base; r_fp := fp0; r_lr := 0; r_gp := gp0 |} VAll TContext)
               None fuel (Some fp0)); try reflexivity.
    + unfold reached. cbn. repeat split. lia.
    + unfold fpinv. cbn. repeat split; auto.
    + exact Hgall.
    + intros _. rewrite Eall. discriminate.
    + exact Hfuel.
Qed.
End MixChain.

(* what the mixed theorem needs of an architecture and operating system *)
Definition mix_arch (a : arch) (os : Z) : Prop :=
  arch_ok a /\ (0 <= scan_skip_words a /\ a_scan_skip a = a_pw a * scan_skip_words a) /\
  In (a_cfi_sp_name a) (alias_group a (a_sp_name a)) /\
  reg_valid a (a_sp_name a) (plain_valid a) = true /\ reg_valid a (a_cfi_sp_name a) (plain_valid a) = true /\
  (a_fp a = FpArm -> (os =? OS_IOS) = false) /\ (a_fp a = FpArm64 -> a_canon_fp a 0 = false) /\
  a_fp_guard_words a = 2 /\
  reg_valid a (a_sp_name a) (VSome (fp_valid a)) = true /\ reg_valid a (a_cfi_sp_name a) (VSome (fp_valid a)) = true /\
  memb (a_fp_name a) (fp_valid a) = true /\
  (exists c, In c (a_callee_saved a) /\ In c (alias_group a (a_fp_name a)) /\
     forall l, reg_valid a (a_fp_name a) (VSome l) = true -> (if a_fwd_alias a then reg_valid a c (VSome l) else memb c l) = true).

(* "fp" (base 256), the spelling under which CALLEE_SAVED_REGS of arm, arm64 and mips lists the frame pointer
   (arm_callee_saved, arm64_callee_saved, mips_callee_saved of Gen/UnwindConsts.v); x86 and amd64 list a_fp_name itself *)
Definition N_fp : Z := 26224.

(* the last clause of [mix_arch] with witness [c]: c is an entry of the (concrete) callee-saved list and of the alias
   group of the frame pointer (both by computation), and for every validity set [l] in which some spelling of the frame
   pointer is valid the forwarding predicate accepts c: everything but the membership tests [memb _ l] is computed, and
   the finitely many outcomes of those tests are gone through *)
Ltac carry_tac c :=
  exists c; split; [cbn; tauto|]; split; [cbn; tauto|];
  let Hrv := fresh "Hrv" in intros l Hrv; revert Hrv; cbv -[memb];
  repeat match goal with |- context [memb ?x l] => destruct (memb x l) end; cbn; auto.

Lemma mix_arch_in : forall a os, In a archs -> (a_fp a = FpArm -> os <> OS_IOS) -> mix_arch a os.
Proof.
  intros a os H Hios. split; [exact (archs_ok a H)|].
  assert (Hios' : a_fp a = FpArm -> (os =? OS_IOS) = false) by (intros E; apply Z.eqb_neq, Hios, E).
  repeat destruct H as [<-|H]; [| | | | | |destruct H];
    (repeat split; try reflexivity; try discriminate; try exact Hios'; [cbn; auto|]).
  - carry_tac (a_fp_name x86).
  - carry_tac (a_fp_name amd64).
  - carry_tac N_fp.
  - carry_tac N_fp.
  - carry_tac N_fp.
  - carry_tac N_fp.
Qed.

Theorem mix_recovers_reached :
  forall p a os module_at max_module_addr instr_valid base fs ip0 fp0 gp0 fuel cfi_walk,
    mix_arch a os ->
    (forall done f t callee gc fwd, fs = done ++ f :: t -> reached a base ip0 callee done ->
                                    cfi_walk callee gc fwd = mix_cfi_correct a base fs callee gc fwd) ->
    mix_wf_layout a instr_valid module_at base ip0 fp0 fs = true ->
    (length fs < fuel)%nat ->
    let '(r, v, mem) := mix_layout a base ip0 fp0 gp0 fs in
    walk_stack current_code p a os mem module_at max_module_addr cfi_walk instr_valid fuel r v
    = Ret (from_context r v TContext :: mix_chain a v gp0 (Some fp0) base 0 fs).
Proof.
  intros p a os ma mm iv base fs ip0 fp0 gp0 fuel cw [Ha [Hs [Hc [Hn [Hn2 [H1 [H2 [H3 [H4 [H5 [H6 H7]]]]]]]]]]] Hag Hwf Hf.
  exact (mix_recovers p a os ma mm cw iv base fs ip0 fp0 gp0 Ha Hs Hc Hn Hn2 H1 H2 H3 H4 H5 H6 H7 Hwf Hag fuel Hf).
Qed.

(* STACK CFI rules evaluated ([cfi_rules]: `.cfa: sp N + .ra: .cfa pw - ^`) instead of the abstract correct oracle *)
Lemma rules_ok_at : forall a rule_at done instr f t,
  rules_ok a rule_at instr (done ++ f :: t) = true ->
  match ms_tech f with
  | TkCfi => rule_at (prev_instr a instr done) = Some (a_pw a * (ms_len f + 1))
  | _ => rule_at (prev_instr a instr done) = None
  end.
Proof.
  intros a rule_at. induction done as [|x d IH]; intros instr f t H; cbn [app rules_ok prev_instr] in *;
    apply andb_prop in H; destruct H as [H H'].
  - unfold opt_eqb in H. destruct (ms_tech f); destruct (rule_at instr); try discriminate; try reflexivity.
    apply Z.eqb_eq in H. subst. reflexivity.
  - exact (IH _ _ _ H').
Qed.

(* on a reached frame the evaluator computes what the correct oracle answers: the CFA is the caller's sp, the word below
   it the return address; nothing wraps *)
Lemma rules_agree : forall a iv module_at base ip0 fp0 fs rule_at,
  arch_ok a ->
  mix_wf_layout a iv module_at base ip0 fp0 fs = true ->
  rules_ok a rule_at ip0 fs = true ->
  forall done f t callee gc fwd, fs = done ++ f :: t -> reached a base ip0 callee done ->
    cfi_rules a (mk_mem a base (mix_words fs)) rule_at callee gc fwd = mix_cfi_correct a base fs callee gc fwd.
Proof.
  intros a iv module_at base ip0 fp0 fs rule_at Ha Hwf Hrules done f t callee gc fwd Hall [Hsp [Hlr [Hv [Hvc Hi]]]].
  pose proof (arch_pw a Ha) as Hpwc.
  pose proof (pw_pos a Hpwc) as Hp. pose proof (bits_lo a Hpwc) as HW. pose proof (bits_hi a Hpwc) as HW64.
  destruct (mix_wf_parts a module_at iv base fs ip0 fp0 Hwf) as [Hfr [_ [H3 [H4 _]]]].
  rewrite Hall in Hfr. destruct (frames_ok_app _ _ _ _ _ _ _ _ _ _ Hfr) as [ctx' [instr' [off' [st' Hfr']]]].
  apply frames_ok_cons in Hfr'. destruct Hfr' as [_ [[Hr1 Hr2] _]].
  pose proof (arch_ok_adj a Ha) as [Hadj _].
  destruct (mix_split a done f t Ha) as [Htot [Pd [Pf Pt]]]. rewrite <- Hall in Htot.
  assert (Elook : mix_lookup (a_pw a) base 0 fs (r_sp (f_regs callee)) =
                  Some (ms_tech f, base + a_pw a * (mix_total done + ms_len f + 1), ms_ra f)).
  { rewrite Hsp, Hall. pose proof (mix_lookup_skip a base Ha done (f :: t) 0) as L. cbn [Z.add] in L. rewrite L.
    cbn [mix_lookup]. rewrite Z.eqb_refl. reflexivity. }
  pose proof (rules_ok_at a rule_at done ip0 f t ltac:(rewrite <- Hall; exact Hrules)) as Hrule.
  unfold mix_cfi_correct, cfi_rules. rewrite Elook, Hi.
  destruct (ms_tech f); rewrite Hrule; [|reflexivity|reflexivity].
  rewrite Hvc, Hsp, (view_id a _ Ha) by lia. cbn [negb]. unfold wrap64, two64.
  change (2 ^ 64) with 18446744073709551616 in HW64.
  rewrite (Z.mod_small (_ + a_pw a * (ms_len f + 1))), Z.mod_small by lia.
  replace (base + a_pw a * mix_total done + a_pw a * (ms_len f + 1) - a_pw a)
    with (base + a_pw a * Z.of_nat (length (mix_words done ++ ms_fill f)))
    by (rewrite app_length, Nat2Z.inj_add, mix_words_length; unfold ms_len; lia).
  rewrite Hall, mix_words_app. cbn [mix_words]. rewrite app_assoc, (read_at a Hpwc) by lia. unfold fits_w.
  destruct (_ <? 2 ^ a_bits a) eqn:E1; [|apply Z.ltb_ge in E1; lia].
  destruct (ms_ra f <? 2 ^ a_bits a) eqn:E2; [|apply Z.ltb_ge in E2; lia].
  cbn [negb]. do 3 f_equal. lia.
Qed.
