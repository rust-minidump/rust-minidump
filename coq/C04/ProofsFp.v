(* C04/ProofsFp.v — the walker recovers frame-pointer chains of unbounded depth (x86, amd64, arm on iOS, arm64). *)
From Coq Require Import Lia ZArith List Bool.
From RM Require Import Base.WordFacts C05.Model C05.Proofs C04.Model C04.Proofs.
Import ListNotations.
Open Scope Z_scope.

Lemma fp_body_app : forall a base l1 l2 o,
  fp_body a base o (l1 ++ l2) = fp_body a base o l1 ++ fp_body a base (o + total_words l1 1) l2.
Proof.
  intros a base. induction l1 as [|f t IH]; intros l2 o; cbn [app fp_body total_words].
  - rewrite Z.add_0_r. reflexivity.
  - rewrite IH. f_equal. f_equal. rewrite <- app_assoc. f_equal. f_equal. f_equal. lia.
Qed.

(* one frame-pointer step in any stack memory: the record [nf; ra] at the callee's frame pointer F.
   Only amd64 looks at the words at the caller's sp and at the saved frame pointer (its own sanity checks). *)
Section FpStep.
Variable p : profile.
Variable a : arch.
Variable os : Z.
Variable mem : memory.
Variable max_module_addr : Z.
Hypothesis Ha : arch_ok a.
Hypothesis Hg2 : a_fp_guard_words a = 2.
Hypothesis Hfpk : a_fp a <> FpNone.
Hypothesis Hios : a_fp a = FpArm -> os = OS_IOS.
Variable callee : frame.
Variables F S nf ra : Z.
Hypothesis HF : r_fp (f_regs callee) = F.
Hypothesis HS : r_sp (f_regs callee) = S.
Hypothesis Vf : reg_valid a (a_fp_name a) (f_valid callee) = true.
Hypothesis Vs : reg_valid a (a_sp_name a) (f_valid callee) = true.
Hypothesis HFpos : 0 < F.
Hypothesis HSF : S <= F.
Hypothesis Htop : F + a_pw a * 2 + 1 < 2 ^ a_bits a.
Hypothesis R1 : read mem (a_pw a) F = Some nf.
Hypothesis R2 : read mem (a_pw a) (F + a_pw a) = Some ra.
Hypothesis R3 : a_fp a = FpAmd64 -> exists v, read mem (a_pw a) (F + a_pw a * 2) = Some v.
Hypothesis R4 : a_fp a = FpAmd64 -> exists v, read mem (a_pw a) nf = Some v.
Hypothesis Hnf : a_fp a = FpAmd64 -> F + a_pw a * 2 <= nf.
Hypothesis Hnf0 : 0 <= nf.
Hypothesis Hnf47 : a_strip a = true -> nf < 2 ^ 47.
Hypothesis Hra : 0 <= ra.
Hypothesis Hra47 : a_strip a = true -> ra < 2 ^ 47.
Hypothesis Hcanon : a_canon_fp a ra = true.

Lemma fp_step : by_fp current_code p a os mem max_module_addr callee
  = Ret (Some (ctx_regs ra (F + a_pw a * 2) nf, fp_valid a)).
Proof.
  pose proof (pw_pos a (arch_pw a Ha)) as Hp. pose proof (bits_hi a (arch_pw a Ha)) as HW.
  assert (G : (F >=? fp_limit a) = false).
  { rewrite Z.geb_leb. apply Z.leb_gt. unfold fp_limit, MAXW, W, PW. rewrite Hg2. lia. }
  assert (Earm : fp_arm p a os mem max_module_addr callee
                 = Ret (Some (ctx_regs ra (F + a_pw a * 2) nf, [a_ip_name a; a_fp_name a; a_sp_name a]))).
  { unfold fp_arm.
    replace (match a_fp a with FpArm => negb (os =? OS_IOS) | _ => false end) with false
      by (destruct (a_fp a) eqn:E; try reflexivity; rewrite (Hios eq_refl); reflexivity).
    rewrite Vf, Vs, HF, HS, G. cbn [negb].
    destruct (F =? 0) eqn:E0; [apply Z.eqb_eq in E0; lia|]. unfold PW, W. rewrite R1.
    rewrite chk_add_ok by lia. cbn [obind]. rewrite R2. rewrite chk_add_ok by lia. cbn [obind].
    rewrite (strip_id a max_module_addr nf), (strip_id a max_module_addr ra), Hcanon by assumption. reflexivity. }
  unfold by_fp, fp_valid. destruct (a_fp a) eqn:Ek; [| | exact Earm | exact Earm | contradiction].
  - unfold fp_x86. rewrite Vf, HF, G. cbn [negb]. unfold PW, W.
    rewrite chk_add_ok by lia. cbn [obind]. rewrite R2, R1.
    rewrite chk_add_ok by lia. reflexivity.
  - unfold fp_amd64. rewrite Vf, Vs, HF, HS, G. cbn [negb].
    (* the first step of the slack scan (offset 0) already resolves *)
    assert (RS : forall n step, resolve current_code p a mem (Datatypes.S n) 0 step F S = Ret (Some (ra, nf, F + a_pw a * 2))).
    { intros n step. cbn [resolve]. unfold radd. cbn [fx_checked_resolve current_code]. unfold W, PW.
      rewrite chk_mul_ok by (rewrite Z.mul_0_l; lia). cbn [obind].
      unfold checked_add. rewrite Z.mul_0_l, Z.add_0_r.
      destruct (F <? 2 ^ a_bits a) eqn:E1; [|apply Z.ltb_ge in E1; lia]. cbn [obind].
      destruct (F + a_pw a <? 2 ^ a_bits a) eqn:E2; [|apply Z.ltb_ge in E2; lia]. cbn [obind]. rewrite R2, R1.
      destruct (F + a_pw a * 2 <? 2 ^ a_bits a) eqn:E3; [|apply Z.ltb_ge in E3; lia]. cbn [obind].
      destruct (F + a_pw a * 2 <=? F) eqn:E4; [apply Z.leb_le in E4; lia|].
      pose proof (Hnf eq_refl) as Hnf'.
      destruct (nf <? F + a_pw a * 2) eqn:E5; [apply Z.ltb_lt in E5; lia|]. cbn [orb].
      destruct (R4 eq_refl) as [v4 ->]. rewrite Hcanon. cbn [negb].
      unfold stack_seems_valid, PW.
      destruct (F + a_pw a * 2 <=? S) eqn:E6; [apply Z.leb_le in E6; lia|].
      destruct (R3 eq_refl) as [v3 ->]. reflexivity. }
    (* the slack scan makes amd64_win_scan_max + 1 = 16 steps on Windows, amd64_other_scan_max + 1 = 1 elsewhere (Gen/UnwindConsts.v) *)
    change (Z.to_nat (amd64_win_scan_max + 1)) with (Datatypes.S 15).
    change (Z.to_nat (amd64_other_scan_max + 1)) with (Datatypes.S 0).
    destruct (os =? OS_WINDOWS); rewrite RS; reflexivity.
Qed.
End FpStep.

(* no return address is readable above the frame pointer F: the technique gives up.  F = 0 is the arm / arm64
   technique's own end marker: it answers (pc 0, fp 0, the callee's sp), which only the canonical-address check rejects *)
Section FpGivesUp.
Variable p : profile.
Variable a : arch.
Variable os : Z.
Variable mem : memory.
Variable max_module_addr : Z.
Hypothesis Ha : arch_ok a.

Lemma by_fp_gives_up : forall callee F, r_fp (f_regs callee) = F ->
  0 <= F -> F + a_pw a < 2 ^ a_bits a -> read mem (a_pw a) (F + a_pw a) = None ->
  (F = 0 -> (a_fp a = FpArm -> (os =? OS_IOS) = false) /\ (a_fp a = FpArm64 -> a_canon_fp a 0 = false)) ->
  by_fp current_code p a os mem max_module_addr callee = Ret None.
Proof.
  intros callee F HF HF0 HFt RN Hz.
  pose proof (pw_pos a (arch_pw a Ha)) as Hp. pose proof (bits_hi a (arch_pw a Ha)) as HW.
  assert (Earm : (F = 0 -> (match a_fp a with FpArm => negb (os =? OS_IOS) | _ => false end) = true \/ a_canon_fp a 0 = false) ->
                 fp_arm p a os mem max_module_addr callee = Ret None).
  { intros Hc. unfold fp_arm. rewrite HF.
    destruct (match a_fp a with FpArm => negb (os =? OS_IOS) | _ => false end); [reflexivity|].
    destruct (negb (reg_valid a (a_fp_name a) (f_valid callee))); [reflexivity|].
    destruct (negb (reg_valid a (a_sp_name a) (f_valid callee))); [reflexivity|].
    destruct (F >=? fp_limit a); [reflexivity|]. unfold PW, W.
    destruct (F =? 0) eqn:E0.
    - apply Z.eqb_eq in E0. destruct (Hc E0) as [Hc'|Hc']; [discriminate|].
      cbn [obind]. rewrite (strip_small a max_module_addr 0), Hc' by lia. reflexivity.
    - destruct (read mem (a_pw a) F); [|reflexivity]. rewrite chk_add_ok by lia. cbn [obind]. rewrite RN. reflexivity. }
  unfold by_fp. destruct (a_fp a) eqn:E; [| | | |reflexivity].
  - unfold fp_x86. rewrite HF. destruct (negb (reg_valid a (a_fp_name a) (f_valid callee))); [reflexivity|].
    destruct (F >=? fp_limit a); [reflexivity|]. unfold PW.
    rewrite chk_add_ok by lia. cbn [obind]. rewrite RN. reflexivity.
  - unfold fp_amd64. rewrite HF. destruct (negb (reg_valid a (a_fp_name a) (f_valid callee))); [reflexivity|].
    destruct (negb (reg_valid a (a_sp_name a) (f_valid callee))); [reflexivity|].
    destruct (F >=? fp_limit a); [reflexivity|].
    (* the first step of the slack scan (offset 0) already fails *)
    assert (RS : forall n step sp, resolve current_code p a mem (Datatypes.S n) 0 step F sp = Ret None).
    { intros n step sp. cbn [resolve]. unfold radd. cbn [fx_checked_resolve current_code]. unfold W, PW.
      rewrite chk_mul_ok by (rewrite Z.mul_0_l; lia). cbn [obind].
      unfold checked_add. rewrite Z.mul_0_l, Z.add_0_r.
      destruct (F <? 2 ^ a_bits a) eqn:E1; [|apply Z.ltb_ge in E1; lia]. cbn [obind].
      destruct (F + a_pw a <? 2 ^ a_bits a) eqn:E2; [|apply Z.ltb_ge in E2; lia]. cbn [obind]. rewrite RN. reflexivity. }
    (* the slack scan makes amd64_win_scan_max + 1 = 16 steps on Windows, amd64_other_scan_max + 1 = 1 elsewhere (Gen/UnwindConsts.v) *)
    change (Z.to_nat (amd64_win_scan_max + 1)) with (Datatypes.S 15).
    change (Z.to_nat (amd64_other_scan_max + 1)) with (Datatypes.S 0).
    destruct (os =? OS_WINDOWS); rewrite RS; reflexivity.
  - apply Earm. intros E0. left. rewrite (proj1 (Hz E0) eq_refl). reflexivity.
  - apply Earm. intros E0. right. exact (proj2 (Hz E0) eq_refl).
Qed.
End FpGivesUp.

Section FpChain.
Variable p : profile.
Variable a : arch.
Variable os : Z.
Variable module_at : Z -> option Z.
Variable max_module_addr : Z.
Variable cfi_walk : frame -> option frame -> list Z -> option (regs * list Z).
Variable instr_valid : Z -> bool.
Variable base : Z.
Variable all : list frame_spec.
Variable ip0 : Z.

Hypothesis Ha : arch_ok a.
Hypothesis Hnocfi : forall c g f, cfi_walk c g f = None.
Hypothesis Hwf : fp_wf_layout a instr_valid base all = true.
Hypothesis Hn_sp : reg_valid a (a_sp_name a) (VSome (fp_valid a)) = true.
Hypothesis Hn_fp : reg_valid a (a_fp_name a) (VSome (fp_valid a)) = true.
Hypothesis Hfpk : a_fp a <> FpNone.
Hypothesis Hios : a_fp a = FpArm -> os = OS_IOS.
Hypothesis Htrunc : a_trunc a = false.
Hypothesis Hskip : a_scan_skip a = 0.
Hypothesis Hg2 : a_fp_guard_words a = 2.

Notation mem := (mk_mem a base (fp_words a base all)).
Notation walkf := (walk current_code p a os mem module_at max_module_addr cfi_walk instr_valid).
Notation Hpw := (arch_pw a Ha).

Lemma fp_gaps_cons : forall f t, fp_gaps_ok a (f :: t) = true ->
  0 <= fs_gap f /\ a_cutoff a <= fs_ra f < 2 ^ a_bits a /\ a_canon_fp a (fs_ra f) = true /\
  (a_strip a = true -> fs_ra f < 2 ^ 47) /\ fp_gaps_ok a t = true.
Proof.
  intros f t H. cbn [fp_gaps_ok] in H. clear - H.
  rewrite !andb_true_iff, orb_true_iff, negb_true_iff, !Z.leb_le, !Z.ltb_lt in H. intuition congruence.
Qed.

Lemma fp_gaps_app : forall l1 l2, fp_gaps_ok a (l1 ++ l2) = true -> fp_gaps_ok a l1 = true /\ fp_gaps_ok a l2 = true.
Proof.
  induction l1 as [|f t IH]; intros l2 H; cbn [app fp_gaps_ok] in *; [split; [reflexivity|exact H]|].
  apply andb_prop in H. destruct H as [H1 H2]. destruct (IH l2 H2) as [I1 I2]. rewrite H1, I1. split; [reflexivity|exact I2].
Qed.

Lemma fp_total_nonneg : forall l, fp_gaps_ok a l = true -> 0 <= total_words l 1.
Proof.
  induction l as [|f t IH]; intros H; [cbn; lia|].
  apply fp_gaps_cons in H. destruct H as [H1 [_ [_ [_ H5]]]]. specialize (IH H5). cbn [total_words]. lia.
Qed.

Lemma fp_body_length : forall l o, fp_gaps_ok a l = true -> Z.of_nat (length (fp_body a base o l)) = total_words l 1.
Proof.
  induction l as [|f t IH]; intros o H; [reflexivity|].
  apply fp_gaps_cons in H. destruct H as [H1 [_ [_ [_ H5]]]]. specialize (IH (o + 2 + fs_gap f) H5).
  cbn [fp_body total_words length]. rewrite app_length. unfold zeros. rewrite repeat_length. lia.
Qed.

Lemma fp_wf_parts : fp_gaps_ok a all = true /\ instr_ok a instr_valid 0 = false /\ 0 < base /\
  base + a_pw a * (total_words all 1 + 8) < 2 ^ a_bits a /\
  (a_strip a = true -> base + a_pw a * (total_words all 1 + 8) < 2 ^ 47).
Proof.
  assert (H := Hwf). unfold fp_wf_layout in H. unfold instr_ok. clear - H.
  rewrite !andb_true_iff, orb_true_iff, !negb_true_iff, !Z.ltb_lt in H. intuition congruence.
Qed.

Lemma fp_mem_len : mem_len mem = a_pw a * (total_words all 1 + 1).
Proof.
  rewrite (mem_len_words a Hpw). unfold fp_words.
  rewrite app_length. cbn [length]. rewrite Nat2Z.inj_add, (fp_body_length _ 0 (proj1 fp_wf_parts)). reflexivity.
Qed.

Definition good_valid (v : validity) : Prop := v = VAll \/ v = VSome (fp_valid a).
Lemma good_valid_sp : forall v, good_valid v -> reg_valid a (a_sp_name a) v = true.
Proof. intros v [->| ->]; [reflexivity|exact Hn_sp]. Qed.
Lemma good_valid_fp : forall v, good_valid v -> reg_valid a (a_fp_name a) v = true.
Proof. intros v [->| ->]; [reflexivity|exact Hn_fp]. Qed.

(* a region of zero words at the end of the stack: the scan finds nothing in it *)
Section ZeroTail.
Variable pre : list Z.
Variable z : nat.
Hypothesis Hws : fp_words a base all = pre ++ repeat 0 z.
Hypothesis Hjunk : instr_ok a instr_valid 0 = false.

(* 100000: the cap of [arch_ok] on the scan windows, so that the byte offset j * pw cannot overflow *)
Lemma scan_zeros : forall n j lb, Z.of_nat j + Z.of_nat n <= 100000 ->
  scan_loop p a mem instr_valid n (Z.of_nat j) (base + a_pw a * Z.of_nat (length pre)) lb = Ret None.
Proof.
  pose proof (pw_pos a Hpw) as Hp.
  induction n as [|n IH]; intros j lb Hb; [reflexivity|]. cbn [scan_loop]. unfold W, PW.
  assert (Hsmall : 0 <= Z.of_nat j * a_pw a < 2 ^ a_bits a).
  { destruct Hpw as [[-> ->]|[-> ->]]; [change (2 ^ 32) with 4294967296 | change (2 ^ 64) with 18446744073709551616]; lia. }
  rewrite chk_mul_ok by exact Hsmall. cbn [obind].
  destruct (checked_add (a_bits a) (base + a_pw a * Z.of_nat (length pre)) (Z.of_nat j * a_pw a)) as [addr|] eqn:E; [|reflexivity].
  apply checked_add_some in E. destruct E as [-> _].
  replace (base + a_pw a * Z.of_nat (length pre) + Z.of_nat j * a_pw a)
    with (base + a_pw a * (Z.of_nat (length pre) + Z.of_nat j)) by lia.
  rewrite Hws. destruct (Nat.ltb j z) eqn:Ej.
  - apply Nat.ltb_lt in Ej. rewrite <- (app_nil_r (repeat 0 z)), (read_zero a Hpw) by exact Ej. rewrite Hjunk.
    rewrite app_nil_r, <- Hws. replace (Z.of_nat j + 1) with (Z.of_nat (Datatypes.S j)) by lia. apply IH. lia.
  - (* beyond the last word *)
    apply Nat.ltb_ge in Ej.
    pose proof (read_end a Hpw base (pre ++ repeat 0 z) (a_pw a * (Z.of_nat j - Z.of_nat z))) as R.
    rewrite app_length, repeat_length in R.
    replace (base + a_pw a * Z.of_nat (length pre + z) + a_pw a * (Z.of_nat j - Z.of_nat z))
      with (base + a_pw a * (Z.of_nat (length pre) + Z.of_nat j)) in R by lia.
    rewrite R by (apply Z.mul_nonneg_nonneg; lia). reflexivity.
Qed.
End ZeroTail.

(* the end of the chain: every technique gives up *)
Lemma scan_end : forall callee pre z,
  fp_words a base all = pre ++ repeat 0 z ->
  r_sp (f_regs callee) = base + a_pw a * Z.of_nat (length pre) ->
  good_valid (f_valid callee) ->
  by_scan p a mem instr_valid callee = Ret None.
Proof.
  intros callee pre z Hws Hsp Hv. destruct fp_wf_parts as [_ [Hjunk _]].
  pose proof (arch_ok_scan a Ha) as (Hc & Hd & _).
  unfold by_scan. rewrite (good_valid_sp _ Hv). cbn [negb]. unfold view. rewrite Htrunc, Hsp, Hskip. cbn [Z.eqb].
  destruct (is_context (f_trust callee)); apply (scan_zeros pre z Hws Hjunk _ 0%nat); rewrite Z2Nat.id by lia; cbn; lia.
Qed.

(* the frame pointer points at the trailing word: there is no return address above it *)
Lemma fp_end : forall callee body,
  fp_words a base all = body ++ [0] ->
  r_fp (f_regs callee) = base + a_pw a * Z.of_nat (length body) ->
  0 < base -> base + a_pw a * (Z.of_nat (length body) + 8) < 2 ^ a_bits a ->
  by_fp current_code p a os mem max_module_addr callee = Ret None.
Proof.
  intros callee body Hws HF Hb Htop. pose proof (pw_pos a Hpw) as Hp.
  pose proof (Z.mul_nonneg_nonneg (a_pw a) (Z.of_nat (length body))) as Pb.
  apply (by_fp_gives_up p a os mem max_module_addr Ha callee _ HF); try lia.
  pose proof (read_end a Hpw base (fp_words a base all) 0 ltac:(lia)) as R.
  rewrite Hws in R at 2. rewrite app_length in R. cbn [length] in R.
  rewrite <- R. f_equal. lia.
Qed.

(* the callee's frame pointer is at word [total_words done 1], the record of the next call; its sp at word [soff] at or
   below it, with zeros between *)
Lemma fp_chain_walk : forall fs done callee gc fuel soff pre,
  all = done ++ fs ->
  fp_words a base all = pre ++ repeat 0 (Z.to_nat (total_words done 1 - soff)) ++ fp_body a base (total_words done 1) fs ++ [0] ->
  Z.of_nat (length pre) = soff -> 0 <= soff <= total_words done 1 ->
  r_fp (f_regs callee) = base + a_pw a * total_words done 1 ->
  r_sp (f_regs callee) = base + a_pw a * soff ->
  good_valid (f_valid callee) ->
  (length fs < fuel)%nat ->
  walkf fuel callee gc = Ret (fp_chain a base (total_words done 1) fs).
Proof.
  pose proof (pw_pos a Hpw) as Hp. pose proof (bits_hi a Hpw) as HW.
  destruct fp_wf_parts as [Hgall [Hjunk [Hb0 [Htop Htop47]]]].
  pose proof fp_mem_len as Hml.
  induction fs as [|f t IH]; intros done callee gc fuel soff pre Hall Hws Hpre Hso HF HS Hv Hfuel;
    (destruct fuel as [|k]; [cbn in Hfuel; lia|]);
    set (off := total_words done 1) in *;
    assert (Po : 0 <= a_pw a * soff <= a_pw a * off) by (split; [apply Z.mul_nonneg_nonneg | apply Z.mul_le_mono_nonneg_l]; lia);
    set (pre1 := pre ++ repeat 0 (Z.to_nat (off - soff))) in *;
    assert (Hlen1 : Z.of_nat (length pre1) = off) by (unfold pre1; rewrite app_length, repeat_length; lia).
  - rewrite app_nil_r in Hall. subst done. cbn [fp_body app] in Hws.
    cbn [walk]. rewrite (not_stopped mem callee) by (right; rewrite Hml, HS; cbn [m_base mk_mem]; fold off; lia).
    unfold get_caller_frame, cascade. rewrite (by_cfi_none a module_at max_module_addr cfi_walk Hnocfi).
    rewrite (fp_end callee pre1), (scan_end callee pre (Datatypes.S (Z.to_nat (off - soff)))); try assumption.
    + reflexivity.
    + rewrite Hws, <- repeat_cons. reflexivity.
    + rewrite Hpre. exact HS.
    + rewrite Hws. unfold pre1. rewrite <- app_assoc. reflexivity.
    + rewrite Hlen1. exact HF.
    + rewrite Hlen1. exact Htop.
  - rewrite Hall in Hgall. destruct (fp_gaps_app _ _ Hgall) as [Hgd Hgf].
    apply fp_gaps_cons in Hgf. destruct Hgf as [Hg0 [[Hr1 Hr2] [Hcan [Hr47 Hgt]]]].
    destruct (total_split a done f t 1 Ha ltac:(fold off; lia) Hg0 (fp_total_nonneg _ Hgt)) as [Htot [_ [Pf Pt]]].
    rewrite <- Hall in Htot. fold off in Htot.
    pose proof (arch_ok_adj a Ha) as [Hadj _].
    set (F := base + a_pw a * off) in *.
    set (nf := base + a_pw a * (off + 2 + fs_gap f)).
    cbn [fp_body] in Hws. fold nf in Hws.
    assert (Hws1 : fp_words a base all = pre1 ++ nf :: (fs_ra f :: zeros (fs_gap f) ++ fp_body a base (off + 2 + fs_gap f) t ++ [0])).
    { rewrite Hws. unfold pre1. rewrite <- !app_assoc. cbn [app]. rewrite <- !app_assoc. reflexivity. }
    assert (R1 : read mem (a_pw a) F = Some nf).
    { unfold F. rewrite <- Hlen1, Hws1. apply read_at; [exact Hpw|]. unfold nf. lia. }
    assert (R2 : read mem (a_pw a) (F + a_pw a) = Some (fs_ra f)).
    { replace (F + a_pw a) with (base + a_pw a * Z.of_nat (length (pre1 ++ [nf])))
        by (rewrite app_length; cbn [length]; unfold F; lia).
      replace (fp_words a base all) with ((pre1 ++ [nf]) ++ fs_ra f :: zeros (fs_gap f) ++ fp_body a base (off + 2 + fs_gap f) t ++ [0])
        by (rewrite Hws1, <- app_assoc; reflexivity).
      apply read_at; [exact Hpw|]. lia. }
    assert (Efp : by_fp current_code p a os mem max_module_addr callee
                  = Ret (Some (ctx_regs (fs_ra f) (F + a_pw a * 2) nf, fp_valid a))).
    { apply (fp_step p a os mem max_module_addr Ha Hg2 Hfpk Hios callee F (base + a_pw a * soff) nf (fs_ra f));
        try assumption; try (unfold F, nf; rewrite ?Htot in *; lia).
      (* left of fp_step's hypotheses, by name (the reads R1, R2 and the bounds are hypotheses or linear): *)
      - (* Vf *) apply good_valid_fp. exact Hv.
      - (* Vs *) apply good_valid_sp. exact Hv.
      - (* R3: the caller's sp is readable *)
        intros _. apply read_is_some_iff; split; rewrite ?Hml, ?Htot; cbn [m_base mk_mem]; unfold F; lia.
      - (* R4: the saved frame pointer is readable *)
        intros _. apply read_is_some_iff; split; rewrite ?Hml, ?Htot; cbn [m_base mk_mem]; unfold nf; lia.
      - (* Hnf47 *) intros E. specialize (Htop47 E). unfold nf. rewrite Htot in Htop47. lia. }
    cbn [fp_chain]. fold off nf. replace (base + a_pw a * (off + 2)) with (F + a_pw a * 2) by (unfold F; lia).
    apply (walk_step p a os mem module_at max_module_addr cfi_walk instr_valid Ha k callee gc
                     (ctx_regs (fs_ra f) (F + a_pw a * 2) nf) (VSome (fp_valid a)) TFramePointer).
    + right. rewrite Hml, HS, Htot. cbn [m_base mk_mem]. lia.
    + unfold cascade. rewrite (by_cfi_none a module_at max_module_addr cfi_walk Hnocfi), Efp. reflexivity.
    + cbn [ctx_regs r_ip]. lia.
    + cbn [ctx_regs r_sp]. rewrite HS. unfold F. lia.
    + assert (Hoff' : total_words (done ++ [f]) 1 = off + 2 + fs_gap f).
      { rewrite total_words_snoc. fold off. lia. }
      specialize (IH (done ++ [f]) (fp_frame a (F + a_pw a * 2) (fs_ra f) nf) (Some callee) k (off + 2) (pre1 ++ [nf; fs_ra f])).
      rewrite Hoff' in IH. apply IH.
      * rewrite <- app_assoc. exact Hall.
      * rewrite Hws1. replace (off + 2 + fs_gap f - (off + 2)) with (fs_gap f) by lia. rewrite <- app_assoc. reflexivity.
      * rewrite app_length. cbn [length]. lia.
      * lia.
      * reflexivity.
      * cbn. unfold F. lia.
      * right. reflexivity.
      * cbn [length] in Hfuel. lia.
Qed.

Lemma fp_recovers : forall fuel, (length all < fuel)%nat ->
  walk_stack current_code p a os mem module_at max_module_addr cfi_walk instr_valid fuel (ctx_regs ip0 base base) VAll
  = Ret (from_context (ctx_regs ip0 base base) VAll TContext :: fp_chain a base 0 all).
Proof.
  intros fuel Hfuel. unfold walk_stack.
  destruct fp_wf_parts as [Hgall [_ [Hb0 [Htop _]]]]. pose proof (pw_pos a Hpw) as Hp. pose proof (fp_total_nonneg _ Hgall) as Ht0.
  rewrite (mem_ok_len a Hpw mem _ fp_mem_len) by (cbn [m_base mk_mem]; lia).
  rewrite (fp_chain_walk all [] (from_context (ctx_regs ip0 base base) VAll TContext) None fuel 0 []); try reflexivity; auto.
  - cbn. lia.
  - cbn. rewrite Z.mul_0_r, Z.add_0_r. reflexivity.
  - cbn. rewrite Z.mul_0_r, Z.add_0_r. reflexivity.
  - left. reflexivity.
Qed.
End FpChain.

Definition fp_arch (a : arch) (os : Z) : Prop :=
  arch_ok a /\
  reg_valid a (a_sp_name a) (VSome (fp_valid a)) = true /\ reg_valid a (a_fp_name a) (VSome (fp_valid a)) = true /\
  a_fp a <> FpNone /\ (a_fp a = FpArm -> os = OS_IOS) /\
  a_trunc a = false /\ a_scan_skip a = 0 /\ a_fp_guard_words a = 2.

Lemma fp_arch_in : forall a os, In a [x86; amd64; arm; arm64] -> (a_fp a = FpArm -> os = OS_IOS) -> fp_arch a os.
Proof.
  intros a os H Hios. split; [apply archs_ok; cbn in *; tauto|].
  repeat (destruct H as [<-|H]; [repeat split; try reflexivity; try discriminate; exact Hios|]). destruct H.
Qed.
