(* C04/Properties.v — the property theorems, each with its full statement, a short proof from the lemmas of
   C04/Proofs*.v (an instance, or a few lines) and its Print Assumptions; then the non-vacuity examples (depth-64
   layouts [nv_*] that satisfy the boolean preconditions and are recovered) and the refutation behind F-C04a.
   Stacks of UNBOUNDED depth (induction on the list of frame specs): one technique per walk (scan; frame-pointer
   chains; CFI through the abstract correct oracle), and the technique chosen PER FRAME among CFI,
   frame pointer and scanning ([c04_recovers_chain], preconditions = the boolean [mix_wf_layout]; frame-pointer frames
   in the mix on x86, amd64 and arm64).  STACK WIN and the evaluation of real rule text are covered by the
   correspondence run (design/C04.md). *)
From Coq Require Import Lia ZArith List.
From RM Require Import C05.Model C05.Proofs C05.Driver C05.ProofsModules C05.ProofsFunction C04.Model C04.Proofs C04.ProofsFp C04.ProofsMix C04.ProofsAttr.
From RM Require C11.Model C11.Proofs2.
Import ListNotations.
Open Scope Z_scope.

(* scan: for every architecture meeting [scan_arch] (x86, amd64, arm, arm64/arm64_old, mips32, mips64 below), every
   list of frame specs that satisfies the boolean precondition [scan_wf_layout], any module lookup, any
   instruction-validity oracle accepting the planted return addresses and rejecting the padding word,
   no CFI: the walker returns the context frame followed by exactly the laid-out chain
   (return address, instruction = ra - adj, sp just above the return-address slot, trust scan,
   validity {ip, sp}) and stops at the end of the stack. *)
Theorem c04_recovers_chain_partial_scan :
  forall p a os module_at max_module_addr cfi_walk instr_valid base fs ip0 fuel,
    scan_arch a ->
    (forall c g f, cfi_walk c g f = None) ->
    scan_wf_layout a instr_valid base fs = true ->
    (length fs < fuel)%nat ->
    let '(r, v, mem) := scan_layout a base ip0 fs in
    walk_stack current_code p a os mem module_at max_module_addr cfi_walk instr_valid fuel r v
    = Ret (from_context r v TContext :: scan_chain a base 0 fs).
Proof.
  intros p a os ma mm cw iv base fs ip0 fuel [Ha [Hs [H1 H2]]] Hn Hwf Hf.
  exact (scan_recovers p a os ma mm cw iv base fs ip0 Ha Hs Hn Hwf H1 H2 fuel Hf).
Qed.
Print Assumptions c04_recovers_chain_partial_scan.

(* all six architecture records meet [scan_arch] *)
Theorem c04_scan_archs : scan_arch x86 /\ scan_arch amd64 /\ scan_arch arm /\ scan_arch arm64 /\ scan_arch mips32 /\ scan_arch mips64.
Proof. repeat match goal with |- _ /\ _ => split end; apply scan_arch_in; cbn; tauto. Qed.
Print Assumptions c04_scan_archs.

(* CFI: with the abstract correct oracle [cfi_correct] (caller sp and return address of the frame whose
   sp it is asked about; everything else forwarded), every frame's lookup address inside a module:
   the walker prefers CFI for every frame, labels it cfi, forwards the callee-saved set, and stops at
   the end of the described stack. *)
Theorem c04_recovers_chain_partial_cfi :
  forall p a os mem module_at max_module_addr instr_valid base fs ip0 fuel,
    cfi_arch a ->
    m_base mem = base -> mem_len mem = a_pw a * total_words fs 0 ->
    cfi_wf_layout a base fs = true ->
    module_at ip0 <> None ->
    (forall f, In f fs -> module_at (fs_ra f - a_adj a) <> None) ->
    (forall f, In f fs -> a_strip a = true -> fs_ra f < 2 ^ 47) ->
    (length fs < fuel)%nat ->
    walk_stack current_code p a os mem module_at max_module_addr (cfi_correct a base fs) instr_valid fuel (ctx_regs ip0 base 0) VAll
    = Ret (from_context (ctx_regs ip0 base 0) VAll TContext ::
           cfi_chain a (a_callee_saved a ++ [a_cfi_sp_name a; a_cfi_ip_name a]) (ctx_regs ip0 base 0) base 0 fs).
Proof.
  intros p a os mem ma mm iv base fs ip0 fuel [Ha Hin] Hb Hl Hwf Hm0 Hm H47 Hf.
  exact (cfi_recovers p a os mem ma mm iv base fs ip0 Ha Hb Hl Hwf Hm0 Hm H47 (cfi_names_ok a Hin)
           (cfi_correct a base fs) (fun _ _ _ _ _ _ => eq_refl) fuel Hf).
Qed.
Print Assumptions c04_recovers_chain_partial_cfi.

(* ... and the same for ANY symbol-file oracle that agrees with the correct one on the frames of this stack: the hook
   through which a concrete evaluator (C06's model of walk_with_stack_cfi on rule text describing the layout) is
   plugged in; the correspondence run does exactly that with the real code for `.cfa: SP N + .ra: .cfa w - ^`. *)
Theorem c04_recovers_chain_partial_cfi_any :
  forall p a os mem module_at max_module_addr instr_valid base fs ip0 fuel cfi_walk,
    cfi_arch a ->
    m_base mem = base -> mem_len mem = a_pw a * total_words fs 0 ->
    cfi_wf_layout a base fs = true ->
    module_at ip0 <> None ->
    (forall f, In f fs -> module_at (fs_ra f - a_adj a) <> None) ->
    (forall f, In f fs -> a_strip a = true -> fs_ra f < 2 ^ 47) ->
    (forall callee gc fwd, r_fp (f_regs callee) = 0 -> r_lr (f_regs callee) = 0 -> r_gp (f_regs callee) = [] ->
                           cfi_walk callee gc fwd = cfi_correct a base fs callee gc fwd) ->
    (length fs < fuel)%nat ->
    walk_stack current_code p a os mem module_at max_module_addr cfi_walk instr_valid fuel (ctx_regs ip0 base 0) VAll
    = Ret (from_context (ctx_regs ip0 base 0) VAll TContext ::
           cfi_chain a (a_callee_saved a ++ [a_cfi_sp_name a; a_cfi_ip_name a]) (ctx_regs ip0 base 0) base 0 fs).
Proof.
  intros p a os mem ma mm iv base fs ip0 fuel cw [Ha Hin] Hb Hl Hwf Hm0 Hm H47 Hag Hf.
  exact (cfi_recovers p a os mem ma mm iv base fs ip0 Ha Hb Hl Hwf Hm0 Hm H47 (cfi_names_ok a Hin) cw Hag fuel Hf).
Qed.
Print Assumptions c04_recovers_chain_partial_cfi_any.

(* all six architecture records meet [cfi_arch] *)
Theorem c04_cfi_archs : cfi_arch x86 /\ cfi_arch amd64 /\ cfi_arch arm /\ cfi_arch arm64 /\ cfi_arch mips32 /\ cfi_arch mips64.
Proof. repeat match goal with |- _ /\ _ => split end; apply cfi_arch_in; cbn; tauto. Qed.
Print Assumptions c04_cfi_archs.

(* frame-pointer chains: [saved fp][return address][gap words of locals] per call, fp = sp = base in the context,
   no CFI: for x86, amd64 (Windows slack scan or not), arm on iOS and arm64 (= arm64_old) the walker follows the
   chain for EVERY depth: one frame per call with the right return address, instruction = ra - adj,
   sp = just above the return-address slot, the recovered frame pointer, trust frame_pointer, validity
   {ip, sp, fp}; at the end of the chain every technique gives up and the walk stops. *)
Theorem c04_recovers_chain_partial_fp :
  forall p a os module_at max_module_addr cfi_walk instr_valid base fs ip0 fuel,
    fp_arch a os ->
    (forall c g f, cfi_walk c g f = None) ->
    fp_wf_layout a instr_valid base fs = true ->
    (length fs < fuel)%nat ->
    let '(r, v, mem) := fp_layout a base ip0 fs in
    walk_stack current_code p a os mem module_at max_module_addr cfi_walk instr_valid fuel r v
    = Ret (from_context r v TContext :: fp_chain a base 0 fs).
Proof.
  intros p a os ma mm cw iv base fs ip0 fuel [Ha [H1 [H2 [H3 [H4 [H5 [H6 H7]]]]]]] Hn Hwf Hf.
  exact (fp_recovers p a os ma mm cw iv base fs ip0 Ha Hn Hwf H1 H2 H3 H4 H5 H6 H7 fuel Hf).
Qed.
Print Assumptions c04_recovers_chain_partial_fp.

(* [fp_arch] holds of the four architectures that follow frame pointers: x86, amd64, arm64 on every OS, arm on iOS *)
Theorem c04_fp_archs : (forall os, fp_arch x86 os) /\ (forall os, fp_arch amd64 os) /\ (forall os, fp_arch arm64 os) /\ fp_arch arm OS_IOS.
Proof. repeat match goal with |- _ /\ _ => split end; intros; apply fp_arch_in; cbn; tauto || discriminate. Qed.
Print Assumptions c04_fp_archs.

(* technique PER FRAME: every call is either described by CFI (abstract correct oracle [mix_cfi_correct], or any oracle
   agreeing with it on the frames of this walk; arbitrary words in the frame, look-alike return addresses included),
   laid out by the frame-pointer convention ([arbitrary words][saved frame pointer][return address], the callee's frame
   pointer valid and pointing at the saved word; x86, amd64 with its own sanity checks, arm64) or
   findable only by scanning ([skipped argument words: arbitrary][zeros][return address] inside the window of its
   callee: 160 words above the context frame, 40 above any other frame, MIPS per c04_constants; the callee's frame
   pointer not valid or 0).  The frame pointer travels along the stack: set by the context and by every frame-pointer
   frame (the saved word), carried through CFI frames as a callee-saved register, lost after a scan.  For every
   architecture x OS meeting [mix_arch] (all six; ARM except on iOS, where a valid frame pointer of 0 ends the walk by
   design), both profiles, any module lookup, any context register file: the walker returns the context frame followed
   by exactly one frame per generated call — return address, instruction = ra - adj, sp just above the return-address
   slot, trust cfi / frame_pointer / scan as generated, the recovered frame pointer, the validity set (callee-saved
   registers forwarded through CFI frames, {ip, sp, fp} after a frame-pointer frame, {ip, sp} after a scan), the
   general registers carried through CFI frames — and stops at the generated end of stack.
   The precondition is the boolean [mix_wf_layout]; depth is unbounded (induction on the list of specs). *)
Theorem c04_recovers_chain :
  forall p a os module_at max_module_addr instr_valid base fs ip0 fp0 gp0 fuel cfi_walk,
    mix_arch a os ->
    (forall callee gc fwd, r_lr (f_regs callee) = 0 ->
                           cfi_walk callee gc fwd = mix_cfi_correct a base fs callee gc fwd) ->
    mix_wf_layout a instr_valid module_at base ip0 fp0 fs = true ->
    (length fs < fuel)%nat ->
    let '(r, v, mem) := mix_layout a base ip0 fp0 gp0 fs in
    walk_stack current_code p a os mem module_at max_module_addr cfi_walk instr_valid fuel r v
    = Ret (from_context r v TContext :: mix_chain a v gp0 (Some fp0) base 0 fs).
Proof.
  intros p a os ma mm iv base fs ip0 fp0 gp0 fuel cw Hm Hag Hwf Hf.
  apply mix_recovers_reached; auto.
  intros done f t callee gc fwd _ [_ [Hlr _]]. apply Hag; assumption.
Qed.
Print Assumptions c04_recovers_chain.

(* ... with STACK CFI rules EVALUATED instead of the abstract oracle: [cfi_rules] is the evaluator of the rule family
   `.cfa: <sp> N + .ra: .cfa <pointer width> - ^` against the CFI walker (sp must be valid, u64 wrapping arithmetic, the
   return address read from the stack memory at .cfa - pw, cfa and ra must fit the register), the symbol files abstracted
   to [rule_at] : lookup address -> N.  Precondition on the rules ([rules_ok], boolean): the callee of every CFI frame is
   covered by a record whose N is that frame's size, the callee of every scan or frame-pointer frame by none.  Same conclusion. *)
Theorem c04_recovers_chain_rules :
  forall p a os module_at max_module_addr instr_valid base fs ip0 fp0 gp0 fuel rule_at,
    mix_arch a os ->
    mix_wf_layout a instr_valid module_at base ip0 fp0 fs = true ->
    rules_ok a rule_at ip0 fs = true ->
    (length fs < fuel)%nat ->
    let '(r, v, mem) := mix_layout a base ip0 fp0 gp0 fs in
    walk_stack current_code p a os mem module_at max_module_addr (cfi_rules a mem rule_at) instr_valid fuel r v
    = Ret (from_context r v TContext :: mix_chain a v gp0 (Some fp0) base 0 fs).
Proof.
  intros p a os ma mm iv base fs ip0 fp0 gp0 fuel rule_at Hm Hwf Hr Hf.
  pose proof (mix_recovers_reached p a os ma mm iv base fs ip0 fp0 gp0 fuel
                (cfi_rules a (mk_mem a base (mix_words fs)) rule_at) Hm) as T.
  cbn [mix_layout] in *. apply T; [|exact Hwf|exact Hf].
  exact (rules_agree a iv ma base ip0 fp0 fs rule_at (proj1 Hm) Hwf Hr).
Qed.
Print Assumptions c04_recovers_chain_rules.

(* ... and for any symbol-file oracle that agrees with the correct one on the frames the walk REACHES (sp at a record of the
   layout, lr = 0, sp valid, the lookup address of that position): the form a concrete evaluator can meet *)
Theorem c04_recovers_chain_reached :
  forall p a os module_at max_module_addr instr_valid base fs ip0 fp0 gp0 fuel cfi_walk,
    mix_arch a os ->
    (forall done f t callee gc fwd, fs = done ++ f :: t -> reached a base ip0 callee done ->
                                    cfi_walk callee gc fwd = mix_cfi_correct a base fs callee gc fwd) ->
    mix_wf_layout a instr_valid module_at base ip0 fp0 fs = true ->
    (length fs < fuel)%nat ->
    let '(r, v, mem) := mix_layout a base ip0 fp0 gp0 fs in
    walk_stack current_code p a os mem module_at max_module_addr cfi_walk instr_valid fuel r v
    = Ret (from_context r v TContext :: mix_chain a v gp0 (Some fp0) base 0 fs).
Proof. exact mix_recovers_reached. Qed.
Print Assumptions c04_recovers_chain_reached.

(* ... with module and function attribution per frame: the module lookup is C08's range map over the
   case's module list ([d_module_at mods], what fill_source_line_info uses), [files i] is any well-formed symbol file of
   module i.  The walk returns the context frame followed by a chain that is, call by call ([attributed]): lookup address
   ra - adj, return address ra, the technique label generated for the call, and IF a module is attached it is a module
   (b, size, _) of the list with b <= ra - adj < b + size, C11's model of SymbolFile::fill_symbol returns on that module's
   file at that address (either profile), and a function it names is a FUNC record of that file covering the address or a
   PUBLIC record at or below it (C05's function_covers / C11's func_sound, here over the RECOVERED chain). *)
Theorem c04_recovers_chain_attributed :
  forall p q a os max_module_addr instr_valid base fs ip0 fp0 gp0 fuel cfi_walk (mods : list modspec) (files : Z -> C11.Model.raw_file),
    mix_arch a os ->
    (forall callee gc fwd, r_lr (f_regs callee) = 0 ->
                           cfi_walk callee gc fwd = mix_cfi_correct a base fs callee gc fwd) ->
    mix_wf_layout a instr_valid (d_module_at mods) base ip0 fp0 fs = true ->
    mods_wf mods -> (forall i, C11.Proofs2.wf_file (files i)) ->
    (length fs < fuel)%nat ->
    let '(r, v, mem) := mix_layout a base ip0 fp0 gp0 fs in
    exists chain,
      walk_stack current_code p a os mem (d_module_at mods) max_module_addr cfi_walk instr_valid fuel r v
        = Ret (from_context r v TContext :: chain) /\
      Forall2 (fun (s : mspec) (f : frame) =>
                 f_instr f = ms_ra s - a_adj a /\ f_resume f = ms_ra s /\ f_trust f = mix_trust (ms_tech s) /\
                 forall i, frame_module mods f = Some i ->
                   exists b sz y, nth_error mods (Z.to_nat i) = Some (b, sz, y) /\ b <= ms_ra s - a_adj a < b + sz /\
                     exists o, C11.Model.symbolize q (files i) b (ms_ra s - a_adj a) = Ret o /\
                       forall name fbase ps, C11.Model.o_func o = Some (name, fbase, ps) ->
                         fbase <= f_instr f /\
                         ((exists fr, In fr (C11.Model.rf_funcs (files i)) /\ name = C11.Model.fr_name fr /\
                                      fbase = b + C11.Model.fr_addr fr /\ f_instr f < fbase + C11.Model.fr_size fr)
                          \/ (exists pb, In pb (C11.Model.rf_publics (files i)) /\ name = C11.Model.p_name pb /\
                                         fbase = b + C11.Model.p_addr pb)))
              fs chain.
Proof.
  intros p q a os mm iv base fs ip0 fp0 gp0 fuel cw mods files Hm Hag Hwf Hmods Hfiles Hf.
  pose proof (c04_recovers_chain p a os (d_module_at mods) mm iv base fs ip0 fp0 gp0 fuel cw Hm Hag Hwf Hf) as T.
  cbn [mix_layout] in *. eexists. split; [exact T|].
  apply mix_chain_attributed; [exact (proj1 Hm) | exact Hmods | exact Hfiles |].
  exact (frames_ok_ra _ _ _ _ _ _ _ _ _ (proj1 (mix_wf_parts a (d_module_at mods) iv base fs ip0 fp0 Hwf))).
Qed.
Print Assumptions c04_recovers_chain_attributed.

(* ... read column by column: frame i of the recovered chain has lookup address ra_i - adj (its module is the module
   lookup of that address, C08), return address ra_i and the technique label generated for call i; one frame per call *)
Theorem c04_chain_columns : forall a v gp st base off fs,
  map f_instr (mix_chain a v gp st base off fs) = map (fun f => ms_ra f - a_adj a) fs /\
  map f_resume (mix_chain a v gp st base off fs) = map ms_ra fs /\
  map f_trust (mix_chain a v gp st base off fs) = map (fun f => mix_trust (ms_tech f)) fs /\
  length (mix_chain a v gp st base off fs) = length fs.
Proof.
  intros a v gp st base off fs. revert v gp st off.
  induction fs as [|f t IH]; intros v gp st off; cbn [mix_chain map length]; [auto|].
  destruct (IH (mix_next_valid a (ms_tech f) v) (mix_next_gp (ms_tech f) gp) (mix_next_st (ms_tech f) (ms_fill f) st) (off + ms_len f + 1))
    as [I1 [I2 [I3 I4]]].
  rewrite I1, I2, I3, I4. auto.
Qed.
Print Assumptions c04_chain_columns.

Theorem c04_mix_archs :
  (forall os, mix_arch x86 os) /\ (forall os, mix_arch amd64 os) /\ (forall os, os <> OS_IOS -> mix_arch arm os) /\
  (forall os, mix_arch arm64 os) /\ (forall os, mix_arch mips32 os) /\ (forall os, mix_arch mips64 os).
Proof. repeat match goal with |- _ /\ _ => split end; intros; apply mix_arch_in; cbn; tauto || discriminate. Qed.
Print Assumptions c04_mix_archs.


(* the documented preconditions, as they stand in the sources: scan windows 160 words for the context
   frame and 40 afterwards (MIPS: 1024 bytes; the 32-bit ABI skips 4 argument words after the first
   frame), Windows x64 frame-pointer slack 15 steps of 2 words (240 bytes), iOS-only ARM frame pointers *)
Theorem c04_constants :
  map a_scan_context [x86; amd64; arm; arm64; mips32; mips64] = [160; 160; 160; 160; 256; 128] /\
  map a_scan_default [x86; amd64; arm; arm64; mips32; mips64] = [40; 40; 40; 40; 252; 128] /\
  map a_scan_skip [x86; amd64; arm; arm64; mips32; mips64] = [0; 0; 0; 0; 16; 0] /\
  amd64_win_scan_max * amd64_win_scan_step_words * amd64_pw = 240 /\
  (amd64_other_scan_max, amd64_other_scan_step) = (0, 0) /\
  x86_max_gap = 131072 /\ amd64_max_gap = 131072 /\
  map a_fp [x86; amd64; arm; arm64; mips32; mips64] = [FpX86; FpAmd64; FpArm; FpArm64; FpNone; FpNone].
Proof. repeat split; reflexivity. Qed.
Print Assumptions c04_constants.

(* the registers each unwinder forwards through a CFI frame are the callee-saved registers of the platform calling
   convention (as sets; register names are the base-256 value of their spelling):
   x86 ebp ebx edi esi; amd64 rbx rbp r12-r15; arm r4-r10 fp; arm64 x19-x28 fp; mips s0-s7 gp sp fp —
   and the names a CFI frame adds / a scanned frame carries *)
Definition same_set (l1 l2 : list Z) : bool := forallb (fun x => memb x l2) l1 && forallb (fun x => memb x l1) l2.
Theorem c04_callee_saved :
  same_set (a_callee_saved x86) [6644336; 6644344; 6644841; 6648681] = true /\
  same_set (a_callee_saved amd64) [7496312; 7496304; 7483698; 7483699; 7483700; 7483701] = true /\
  same_set (a_callee_saved arm) [29236; 29237; 29238; 29239; 29240; 29241; 7483696; 26224] = true /\
  same_set (a_callee_saved arm64) [7876921; 7877168; 7877169; 7877170; 7877171; 7877172; 7877173; 7877174; 7877175; 7877176; 26224] = true /\
  same_set (a_callee_saved mips32) [29488; 29489; 29490; 29491; 29492; 29493; 29494; 29495; 26480; 29552; 26224] = true /\
  a_callee_saved mips64 = a_callee_saved mips32 /\
  map (fun a => (a_cfi_sp_name a, a_cfi_ip_name a)) [x86; amd64; arm; arm64; mips32; mips64]
    = [(6648688, 6646128); (7500656, 7498096); (29552, 28771); (29552, 28771); (29552, 28771); (29552, 28771)] /\
  map plain_valid [x86; amd64; arm; arm64; mips32; mips64]
    = [VSome [6646128; 6648688]; VSome [7498096; 7500656]; VSome [7483701; 7483699]; VSome [28771; 29552]; VSome [28771; 29552]; VSome [28771; 29552]].
Proof. repeat split; reflexivity. Qed.
Print Assumptions c04_callee_saved.

(* ---- non-vacuity: depth-64 layouts satisfy the preconditions, and the walker does recover them *)
Definition nv_specs (n : nat) : list frame_spec :=
  map (fun i => {| fs_gap := Z.of_nat (i mod 7); fs_ra := 1073742080 + 16 * Z.of_nat i |}) (seq 0 n).
Definition nv_iv (x : Z) : bool := (1073741824 <=? x) && (x <? 1073807360).

Example c04_nonvacuous_scan_wf64 :
  scan_wf_layout x86 nv_iv 2147483648 (nv_specs 64) = true /\
  scan_wf_layout arm64 nv_iv 140724603453440 (nv_specs 64) = true /\
  length (nv_specs 64) = 64%nat.
Proof. repeat split; vm_compute; reflexivity. Qed.

Definition nv_specs4 (n : nat) : list frame_spec :=
  map (fun i => {| fs_gap := 4 + Z.of_nat (i mod 7); fs_ra := 1073742080 + 16 * Z.of_nat i |}) (seq 0 n).
Example c04_nonvacuous_scan_mips32_wf64 : scan_wf_layout mips32 nv_iv 2147483648 (nv_specs4 64) = true.
Proof. vm_compute. reflexivity. Qed.

Example c04_nonvacuous_fp_wf64 :
  fp_wf_layout x86 nv_iv 2147483648 (nv_specs 64) = true /\ fp_wf_layout amd64 nv_iv 140724603453440 (nv_specs 64) = true /\
  fp_wf_layout arm64 nv_iv 140724603453440 (nv_specs 64) = true.
Proof. repeat split; vm_compute; reflexivity. Qed.

Example c04_nonvacuous_fp_run :
  let '(r, v, mem) := fp_layout amd64 140724603453440 1073741904 (nv_specs 64) in
  exists fs, walk_stack current_code Debug amd64 OS_WINDOWS mem (fun _ => None) 0 (fun _ _ _ => None) nv_iv (fuel_for mem) r v = Ret fs /\
             length fs = 65%nat /\ map f_trust (firstn 2 (tl fs)) = [TFramePointer; TFramePointer].
Proof.
  pose proof (c04_recovers_chain_partial_fp Debug amd64 OS_WINDOWS (fun _ => None) 0 (fun _ _ _ => None) nv_iv
                140724603453440 (nv_specs 64) 1073741904) as T.
  cbn [fp_layout] in *. eexists. split.
  - apply T; [apply c04_fp_archs | reflexivity | apply c04_nonvacuous_fp_wf64 | apply Nat.ltb_lt; reflexivity].
  - split; reflexivity.
Qed.

Example c04_nonvacuous_cfi_wf64 :
  cfi_wf_layout amd64 140724603453440 (nv_specs 64) = true /\ cfi_wf_layout mips32 2147483648 (nv_specs 64) = true.
Proof. split; vm_compute; reflexivity. Qed.

Example c04_nonvacuous_scan_run :
  let '(r, v, mem) := scan_layout arm64 140724603453440 1073741904 (nv_specs 64) in
  exists fs, walk_stack current_code Debug arm64 OS_OTHER mem (fun _ => None) 0 (fun _ _ _ => None) nv_iv (fuel_for mem) r v = Ret fs /\
             length fs = 65%nat /\
             map f_resume (firstn 3 (tl fs)) = [1073742080; 1073742096; 1073742112].
Proof.
  pose proof (c04_recovers_chain_partial_scan Debug arm64 OS_OTHER (fun _ => None) 0 (fun _ _ _ => None) nv_iv
                140724603453440 (nv_specs 64) 1073741904) as T.
  cbn [scan_layout] in *. eexists. split.
  - apply T; [apply c04_scan_archs | reflexivity | apply c04_nonvacuous_scan_wf64 | apply Nat.ltb_lt; reflexivity].
  - split; reflexivity.
Qed.

(* technique per frame: 64 calls, CFI and scan alternating irregularly, CFI frames full of look-alike return addresses,
   mips32 frames with code-looking words in the skipped argument area *)
Definition nv_mix (skip : Z) (n : nat) : list mspec :=
  map (fun i => let ra := 1073742080 + 16 * Z.of_nat i in
                if (Nat.eqb (i mod 3) 0 || Nat.eqb (i mod 7) 2)%bool
                then {| ms_tech := TkCfi; ms_fill := repeat 1073742100 (i mod 5); ms_ra := ra |}
                else {| ms_tech := TkScan; ms_fill := repeat 1073742100 (Z.to_nat skip) ++ repeat 0 (i mod 4); ms_ra := ra |})
      (seq 0 n).
Definition nv_mods (x : Z) : option Z := if (1073741824 <=? x) && (x <? 1073807360) then Some 0 else None.

Example c04_nonvacuous_mix_wf64 :
  mix_wf_layout x86 nv_iv nv_mods 2147483648 1073741904 0 (nv_mix 0 64) = true /\
  mix_wf_layout arm64 nv_iv nv_mods 140724603453440 1073741904 0 (nv_mix 0 64) = true /\
  mix_wf_layout mips32 nv_iv nv_mods 2147483648 1073741904 0 (nv_mix 4 64) = true /\
  map ms_tech (firstn 6 (nv_mix 0 64)) = [TkCfi; TkScan; TkCfi; TkCfi; TkScan; TkScan].
Proof. repeat split; vm_compute; reflexivity. Qed.

Example c04_nonvacuous_mix_run :
  let '(r, v, mem) := mix_layout amd64 140724603453440 1073741904 0 [7; 8; 9] (nv_mix 0 64) in
  exists fs, walk_stack current_code Debug amd64 OS_WINDOWS mem nv_mods 0 (mix_cfi_correct amd64 140724603453440 (nv_mix 0 64)) nv_iv
               (fuel_for mem) r v = Ret fs /\
             length fs = 65%nat /\
             map f_trust (firstn 6 (tl fs)) = [TCfi; TScan; TCfi; TCfi; TScan; TScan] /\
             map f_resume (firstn 3 (tl fs)) = [1073742080; 1073742096; 1073742112].
Proof.
  pose proof (c04_recovers_chain Debug amd64 OS_WINDOWS nv_mods 0 nv_iv 140724603453440 (nv_mix 0 64) 1073741904 0 [7; 8; 9]) as T.
  cbn [mix_layout] in *. eexists. split.
  - apply T; [apply c04_mix_archs | reflexivity | vm_compute; reflexivity | apply Nat.ltb_lt; reflexivity].
  - repeat split; reflexivity.
Qed.

(* the rule table of [nv_mix 0 64] on amd64: the callee of call i is the context (i = 0) or call i-1's return address - 1 *)
Definition nv_rule_at (x : Z) : option Z :=
  let i := if x =? 1073741904 then 0%nat else Z.to_nat ((x + 1 - 1073742080) / 16 + 1) in
  if (Nat.eqb (i mod 3) 0 || Nat.eqb (i mod 7) 2)%bool then Some (8 * (Z.of_nat (i mod 5) + 1)) else None.
Example c04_nonvacuous_rules :
  rules_ok amd64 nv_rule_at 1073741904 (nv_mix 0 64) = true /\
  let '(r, v, mem) := mix_layout amd64 140724603453440 1073741904 0 [7; 8; 9] (nv_mix 0 64) in
  exists fs, walk_stack current_code Release amd64 OS_OTHER mem nv_mods 0 (cfi_rules amd64 mem nv_rule_at) nv_iv (fuel_for mem) r v = Ret fs /\
             length fs = 65%nat /\ map f_trust (firstn 6 (tl fs)) = [TCfi; TScan; TCfi; TCfi; TScan; TScan].
Proof.
  assert (R : rules_ok amd64 nv_rule_at 1073741904 (nv_mix 0 64) = true) by (vm_compute; reflexivity).
  split; [exact R|].
  pose proof (c04_recovers_chain_rules Release amd64 OS_OTHER nv_mods 0 nv_iv 140724603453440 (nv_mix 0 64) 1073741904 0 [7; 8; 9]) as T.
  cbn [mix_layout] in *. eexists. split.
  - apply T; [apply c04_mix_archs | vm_compute; reflexivity | exact R | apply Nat.ltb_lt; reflexivity].
  - split; reflexivity.
Qed.

(* frame-pointer frames in the mix.  [nv_mix3 a base n]: n calls; the first 41: described by CFI when i mod 4 = 0, found
   through the frame pointer otherwise; the others: CFI when i mod 3 = 0, found by scanning otherwise (a scan loses the
   frame pointer, no frame-pointer frame can follow) — the saved frame pointer of a frame-pointer frame is the address
   of the next one's saved word when CFI frames only lie between them, 0 when the next frame that needs it is a scan
   frame (the saved words are addresses of later records: [nv_need3]). *)
Definition nv_tech3 (i : nat) : tech :=
  if (i <=? 40)%nat then match (i mod 4)%nat with 0%nat => TkCfi | _ => TkFp end
  else match (i mod 3)%nat with 0%nat => TkCfi | _ => TkScan end.
Definition nv_len3 (i : nat) : Z :=
  match nv_tech3 i with TkFp => 1 + Z.of_nat (i mod 3) | TkCfi => Z.of_nat (i mod 5) | TkScan => Z.of_nat (i mod 4) end.
(* the frame pointer the callee of record i must hold: the slot of the first frame-pointer record at or after i reached
   through CFI records, 0 if a scan record (or the end) comes first *)
Fixpoint nv_need3 (a : arch) (base : Z) (i n : nat) (off : Z) : Z :=
  match n with
  | O => 0
  | S k => match nv_tech3 i with
           | TkFp => base + a_pw a * (off + nv_len3 i - 1)
           | TkScan => 0
           | TkCfi => nv_need3 a base (S i) k (off + nv_len3 i + 1)
           end
  end.
Fixpoint nv_mix3_from (a : arch) (base : Z) (i n : nat) (off : Z) : list mspec :=
  match n with
  | O => []
  | S k =>
      let ra := 1073742080 + 16 * Z.of_nat i in
      let fill := match nv_tech3 i with
                  | TkFp => repeat 1073742100 (Z.to_nat (nv_len3 i - 1)) ++ [nv_need3 a base (S i) k (off + nv_len3 i + 1)]
                  | TkCfi => repeat 1073742100 (Z.to_nat (nv_len3 i))
                  | TkScan => repeat 0 (Z.to_nat (nv_len3 i))
                  end in
      {| ms_tech := nv_tech3 i; ms_fill := fill; ms_ra := ra |} :: nv_mix3_from a base (S i) k (off + nv_len3 i + 1)
  end.
Definition nv_mix3 (a : arch) (base : Z) (n : nat) : list mspec := nv_mix3_from a base 0 n 0.
Definition nv_fp3 (a : arch) (base : Z) (n : nat) : Z := nv_need3 a base 0 n 0.

Example c04_nonvacuous_mix_fp_wf64 :
  mix_wf_layout x86 nv_iv nv_mods 2147483648 1073741904 (nv_fp3 x86 2147483648 64) (nv_mix3 x86 2147483648 64) = true /\
  map ms_tech (firstn 6 (skipn 36 (nv_mix3 x86 2147483648 64))) = [TkCfi; TkFp; TkFp; TkFp; TkCfi; TkScan] /\
  length (nv_mix3 x86 2147483648 64) = 64%nat.
Proof. repeat split; vm_compute; reflexivity. Qed.

Example c04_nonvacuous_mix_fp_run :
  let '(r, v, mem) := mix_layout x86 2147483648 1073741904 (nv_fp3 x86 2147483648 64) [7; 8; 9] (nv_mix3 x86 2147483648 64) in
  exists fs, walk_stack current_code Debug x86 OS_WINDOWS mem nv_mods 0 (mix_cfi_correct x86 2147483648 (nv_mix3 x86 2147483648 64)) nv_iv
               (fuel_for mem) r v = Ret fs /\
             length fs = 65%nat /\
             map f_trust (firstn 8 (skipn 36 (tl fs))) = [TCfi; TFramePointer; TFramePointer; TFramePointer; TCfi; TScan; TCfi; TScan].
Proof.
  pose proof (c04_recovers_chain Debug x86 OS_WINDOWS nv_mods 0 nv_iv 2147483648 (nv_mix3 x86 2147483648 64) 1073741904
                (nv_fp3 x86 2147483648 64) [7; 8; 9]) as T.
  cbn [mix_layout] in *. eexists. split.
  - apply T; [apply c04_mix_archs | reflexivity | apply c04_nonvacuous_mix_fp_wf64 | apply Nat.ltb_lt; reflexivity].
  - repeat split; reflexivity.
Qed.

(* amd64: its frame-pointer technique wants the saved frame pointer to be a readable stack address at or above the
   caller's sp, so no scan frame can follow a frame-pointer frame there: CFI and frame-pointer frames to the end, the
   last saved frame pointer pointing at the last word of the stack.  arm64: two frame-pointer frames, a CFI frame,
   a scan frame. *)
Definition nv_amd_fp (base : Z) : list mspec :=
  [ {| ms_tech := TkCfi; ms_fill := [1073742100]; ms_ra := 1073742080 |};                  (* words 0..1 *)
    {| ms_tech := TkFp; ms_fill := [5; base + 8 * 7]; ms_ra := 1073742096 |};              (* words 2..4, saved fp at word 3 *)
    {| ms_tech := TkCfi; ms_fill := [1073742100]; ms_ra := 1073742112 |};                  (* words 5..6 *)
    {| ms_tech := TkFp; ms_fill := [base + 8 * 11]; ms_ra := 1073742128 |};                (* words 7..8, saved fp at word 7 *)
    {| ms_tech := TkCfi; ms_fill := [7; 7]; ms_ra := 1073742144 |} ].                      (* words 9..11 *)
Definition nv_a64_fp (base : Z) : list mspec :=
  [ {| ms_tech := TkFp; ms_fill := [5; base + 8 * 3]; ms_ra := 1073742080 |};              (* words 0..2, saved fp at word 1 *)
    {| ms_tech := TkFp; ms_fill := [0]; ms_ra := 1073742096 |};                            (* words 3..4 *)
    {| ms_tech := TkCfi; ms_fill := [1073742100]; ms_ra := 1073742112 |};                  (* words 5..6 *)
    {| ms_tech := TkScan; ms_fill := [0; 0]; ms_ra := 1073742128 |} ].                     (* words 7..9 *)
Example c04_nonvacuous_mix_fp_amd64_arm64 :
  mix_wf_layout amd64 nv_iv nv_mods 140724603453440 1073741904 (140724603453440 + 8 * 3) (nv_amd_fp 140724603453440) = true /\
  mix_wf_layout arm64 nv_iv nv_mods 70368744177664 1073741904 (70368744177664 + 8 * 1) (nv_a64_fp 70368744177664) = true /\
  let '(r, v, mem) := mix_layout amd64 140724603453440 1073741904 (140724603453440 + 8 * 3) [] (nv_amd_fp 140724603453440) in
  exists fs, walk_stack current_code Debug amd64 OS_WINDOWS mem nv_mods 0 (mix_cfi_correct amd64 140724603453440 (nv_amd_fp 140724603453440)) nv_iv
               (fuel_for mem) r v = Ret fs /\
             map f_trust (tl fs) = [TCfi; TFramePointer; TCfi; TFramePointer; TCfi].
Proof. split; [vm_compute; reflexivity|]. split; [vm_compute; reflexivity|]. cbn [mix_layout]. eexists. split; [vm_compute; reflexivity|]. reflexivity. Qed.

(* F-C04a (design/C04.md): callee_forwarded_regs of arm / arm64 has to know the alias groups.  CALLEE_SAVED_REGS says "fp",
   the frame-pointer technique marks "x29" ("r11") valid; with a LITERAL lookup of the listed names in the callee's
   validity set a CFI frame behind a frame-pointer frame does not carry the frame pointer on, and a frame-pointer frame
   above it is found by scanning only.  [literal_fwd a] is [a] with the literal comparison.  On the stack
   frame pointer / CFI / frame pointer / CFI: under [literal_fwd arm64] the third call comes back with trust scan and the
   frame pointer 0; under [arm64] the same stack satisfies the precondition and is recovered as laid out. *)
Definition literal_fwd (a : arch) : arch := {|
  a_bits := a_bits a; a_slot_bits := a_slot_bits a; a_pw := a_pw a; a_trunc := a_trunc a;
  a_ip_name := a_ip_name a; a_sp_name := a_sp_name a; a_fp_name := a_fp_name a; a_lr_name := a_lr_name a;
  a_cfi_sp_name := a_cfi_sp_name a; a_cfi_ip_name := a_cfi_ip_name a;
  a_aliases := a_aliases a; a_callee_saved := a_callee_saved a; a_fwd_alias := false;
  a_fp := a_fp a; a_fp_guard_words := a_fp_guard_words a; a_bp := a_bp a; a_max_gap := a_max_gap a;
  a_scan_context := a_scan_context a; a_scan_default := a_scan_default a; a_scan_skip := a_scan_skip a;
  a_pre_ok := a_pre_ok a; a_canon_fp := a_canon_fp a; a_strip := a_strip a;
  a_cutoff := a_cutoff a; a_adj := a_adj a; a_leaf := a_leaf a; a_sp_stop_le := a_sp_stop_le a |}.
Definition nv_a64_mix (base : Z) : list mspec :=
  [ {| ms_tech := TkFp; ms_fill := [5; base + 8 * 5]; ms_ra := 1073742080 |};              (* words 0..2, saved fp at word 1 *)
    {| ms_tech := TkCfi; ms_fill := [7]; ms_ra := 1073742096 |};                           (* words 3..4 *)
    {| ms_tech := TkFp; ms_fill := [0]; ms_ra := 1073742112 |};                            (* words 5..6, saved fp at word 5 *)
    {| ms_tech := TkCfi; ms_fill := [7]; ms_ra := 1073742128 |} ].                         (* words 7..8 *)
Theorem c04_fp_behind_cfi_unfixed_refuted :
  let base := 70368744177664 in
  let '(r, v, mem) := mix_layout arm64 base 1073741904 (base + 8 * 1) [] (nv_a64_mix base) in
  mix_wf_layout arm64 nv_iv nv_mods base 1073741904 (base + 8 * 1) (nv_a64_mix base) = true /\
  map (fun f => mix_trust (ms_tech f)) (nv_a64_mix base) = [TFramePointer; TCfi; TFramePointer; TCfi] /\
  (exists fs, walk_stack current_code Debug (literal_fwd arm64) OS_OTHER mem nv_mods 0 (mix_cfi_correct arm64 base (nv_a64_mix base)) nv_iv
                (fuel_for mem) r v = Ret fs /\
              map f_trust (tl fs) = [TFramePointer; TCfi; TScan; TCfi] /\
              map (fun f => r_fp (f_regs f)) (tl fs) = [base + 8 * 5; base + 8 * 5; 0; 0]) /\
  (exists fs, walk_stack current_code Debug arm64 OS_OTHER mem nv_mods 0 (mix_cfi_correct arm64 base (nv_a64_mix base)) nv_iv
                (fuel_for mem) r v = Ret fs /\
              map f_trust (tl fs) = [TFramePointer; TCfi; TFramePointer; TCfi] /\
              map (fun f => r_fp (f_regs f)) (tl fs) = [base + 8 * 5; base + 8 * 5; 0; 0]).
Proof.
  cbv zeta. cbn [mix_layout].
  split; [vm_compute; reflexivity|]. split; [reflexivity|]. split.
  - eexists. split; [vm_compute; reflexivity|]. split; reflexivity.
  - eexists. split; [vm_compute; reflexivity|]. split; reflexivity.
Qed.
Print Assumptions c04_fp_behind_cfi_unfixed_refuted.

(* the comparison each unwinder's callee_forwarded_regs makes, through the translator (Gen/UnwindConsts.v is regenerated from
   the sources on every run: literal name lookup / register_is_valid), and the spellings involved: arm and arm64 list the
   frame pointer as "fp" while their frame-pointer technique marks "r11" / "x29" valid, so THEY need the alias-aware
   comparison; x86 / amd64 / mips list the very name the techniques use.  A literal lookup in arm.rs / arm64.rs flips the first
   table (and breaks c04_mix_archs for arm / arm64). *)
Theorem c04_fwd_alias_pinned :
  map a_fwd_alias [x86; amd64; arm; arm64; mips32; mips64] = [false; false; true; true; false; false] /\
  map (fun a => memb (a_fp_name a) (a_callee_saved a)) [x86; amd64; arm; arm64; mips32; mips64] = [true; true; false; false; true; true] /\
  map (fun a => memb (a_fp_name a) (fp_valid a)) [x86; amd64; arm; arm64] = [true; true; true; true] /\
  map a_fp_name [arm; arm64] = [7483697; 7877177] /\        (* "r11", "x29" *)
  memb 26224 (a_callee_saved arm) = true /\ memb 26224 (a_callee_saved arm64) = true /\   (* "fp" *)
  In 26224 (alias_group arm (a_fp_name arm)) /\ In 26224 (alias_group arm64 (a_fp_name arm64)).
Proof. repeat split; try reflexivity; cbn; tauto. Qed.
Print Assumptions c04_fwd_alias_pinned.

(* c04_recovers_chain_attributed is not vacuous: the module list [0x40000000, +0x10000) gives the module lookup of the
   64-call x86 stack above, the precondition holds with it, and the second call's lookup address (0x4000010f) gets the
   FUNC 100 100 record of the module's symbol file *)
Definition nv_amods : list modspec := [(1073741824, 65536, None)].
Definition nv_afile : C11.Model.raw_file := C11.Model.mk_raw [] [] [] [C11.Model.mk_fraw 256 256 0 102 [] []] [] [].
Example c04_nonvacuous_attributed :
  mix_wf_layout x86 nv_iv (d_module_at nv_amods) 2147483648 1073741904 (nv_fp3 x86 2147483648 64) (nv_mix3 x86 2147483648 64) = true /\
  mods_wf nv_amods /\ C11.Proofs2.wf_file nv_afile /\
  map ms_ra (firstn 2 (nv_mix3 x86 2147483648 64)) = [1073742080; 1073742096] /\
  d_module_at nv_amods (1073742096 - a_adj x86) = Some 0 /\
  exists o, C11.Model.symbolize Release nv_afile 1073741824 (1073742096 - a_adj x86) = Ret o /\
            C11.Model.o_func o = Some (102, 1073741824 + 256, 0).
Proof.
  split; [vm_compute; reflexivity|]. split.
  { repeat constructor; cbn; lia. }
  split.
  { unfold C11.Proofs2.wf_file, nv_afile; cbn [C11.Model.rf_funcs C11.Model.rf_publics C11.Model.rf_win_fd C11.Model.rf_win_fpo].
    repeat split; try constructor; try constructor;
      unfold C11.Proofs2.wf_fraw, C11.Proofs2.u64, C11.Proofs2.u32; cbn; repeat split; try constructor; try lia; try reflexivity. }
  split; [vm_compute; reflexivity|]. split; [vm_compute; reflexivity|].
  eexists. split; vm_compute; reflexivity.
Qed.
