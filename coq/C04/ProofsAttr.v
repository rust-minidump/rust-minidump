(* C04/ProofsAttr.v — module and function attribution of the recovered chain: frame i of [mix_chain] has lookup address
   ra_i - adj, return address ra_i and the technique label generated for call i, and the module / function
   fill_source_line_info attaches to it (C08's range map over the module list, C11's model of SymbolFile::fill_symbol)
   cover that lookup address: C05's [function_covers] applied to every frame of the chain. *)
From Coq Require Import Lia ZArith List Bool.
From RM Require Import C05.Model C05.Proofs C05.Driver C05.ProofsModules C05.ProofsFunction C04.Model C04.Proofs C04.ProofsMix.
From RM Require C11.Model C11.Proofs2.
Import ListNotations.
Open Scope Z_scope.

Definition attributed (q : profile) (a : arch) (mods : list modspec) (files : Z -> C11.Model.raw_file) (s : mspec) (f : frame) : Prop :=
  f_instr f = ms_ra s - a_adj a /\ f_resume f = ms_ra s /\ f_trust f = mix_trust (ms_tech s) /\
  forall i, frame_module mods f = Some i ->
    exists b sz y, nth_error mods (Z.to_nat i) = Some (b, sz, y) /\ b <= ms_ra s - a_adj a < b + sz /\
      exists o, C11.Model.symbolize q (files i) b (ms_ra s - a_adj a) = Ret o /\ function_ok b (files i) f o.

Lemma mix_chain_attributed : forall q a (mods : list modspec) (files : Z -> C11.Model.raw_file),
  arch_ok a -> mods_wf mods -> (forall i, C11.Proofs2.wf_file (files i)) ->
  forall fs v gp st base off,
    Forall (fun f => ms_ra f < 2 ^ a_bits a) fs ->
    Forall2 (attributed q a mods files) fs (mix_chain a v gp st base off fs).
Proof.
  intros q a mods files Ha Hm Hf.
  pose proof (bits_hi a (arch_pw a Ha)) as HW.
  pose proof (arch_ok_adj a Ha) as [Hadj _].
  induction fs as [|f t IH]; intros v gp st base off H; cbn [mix_chain]; [constructor|].
  inversion H as [|x l Hx Hl]; subst. constructor; [|apply IH; exact Hl].
  unfold attributed. cbn [mix_frame f_instr f_resume f_trust]. repeat split.
  intros i Hi.
  match goal with |- context [function_ok _ _ ?F _] => set (fr := F) in * end.
  assert (Hlt : f_instr fr < 2 ^ 64) by (unfold fr, mix_frame; cbn [f_instr]; lia).
  destruct (function_covers q mods fr i (files i) Hm Hlt (Hf i) Hi) as [b [s [y [Hn [Hc [o [Es Fo]]]]]]].
  exists b, s, y. split; [exact Hn|]. split; [exact Hc|]. exists o. split; [exact Es|exact Fo].
Qed.
