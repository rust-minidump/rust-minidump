(* C02/Properties.v — the property theorems, each with its full statement, a short proof from the lemmas of the Proofs files
   (an instance, or a few lines) and its [Print Assumptions]; and the non-vacuity examples. *)
From RM Require Import C08.Model.
From RM Require Import C02.Model C02.ModelR5 C02.ModelR6 C02.Documented C02.Proofs1 C02.Proofs2 C02.Proofs3 C02.Proofs4 C02.Proofs5 C02.Proofs6 C02.Proofs7 C02.Proofs8 C02.Proofs9 C02.Proofs10 C02.Proofs11 C02.Proofs12 C02.Proofs13.
Open Scope Z_scope.

(* The layouts regenerated from minidump-common/src/format.rs on this run are the documented ones:
   same fields, same order, same types; same stream-type numbers, signatures, platform ids. *)
Theorem c02_layouts_documented :
  N_MINIDUMP_HEADER = DN_MINIDUMP_HEADER /\
  N_MINIDUMP_LOCATION_DESCRIPTOR = DN_MINIDUMP_LOCATION_DESCRIPTOR /\
  N_MINIDUMP_MEMORY_DESCRIPTOR = DN_MINIDUMP_MEMORY_DESCRIPTOR /\
  N_MINIDUMP_MEMORY_DESCRIPTOR64 = DN_MINIDUMP_MEMORY_DESCRIPTOR64 /\
  N_MINIDUMP_DIRECTORY = DN_MINIDUMP_DIRECTORY /\
  N_MINIDUMP_THREAD_NAME = DN_MINIDUMP_THREAD_NAME /\
  N_VS_FIXEDFILEINFO = DN_VS_FIXEDFILEINFO /\
  N_MINIDUMP_MODULE = DN_MINIDUMP_MODULE /\
  N_MINIDUMP_UNLOADED_MODULE = DN_MINIDUMP_UNLOADED_MODULE /\
  N_CV_INFO_PDB20 = DN_CV_INFO_PDB20 /\
  N_GUID = DN_GUID /\
  N_CV_INFO_PDB70 = DN_CV_INFO_PDB70 /\
  N_CV_INFO_ELF = DN_CV_INFO_ELF /\
  N_IMAGE_DEBUG_MISC = DN_IMAGE_DEBUG_MISC /\
  N_MINIDUMP_THREAD = DN_MINIDUMP_THREAD /\
  N_MINIDUMP_EXCEPTION = DN_MINIDUMP_EXCEPTION /\
  N_MINIDUMP_EXCEPTION_STREAM = DN_MINIDUMP_EXCEPTION_STREAM /\
  N_XMM_SAVE_AREA32 = DN_XMM_SAVE_AREA32 /\
  N_SSE_REGISTERS = DN_SSE_REGISTERS /\
  N_CONTEXT_AMD64 = DN_CONTEXT_AMD64 /\
  N_FLOATING_SAVE_AREA_ARM = DN_FLOATING_SAVE_AREA_ARM /\
  N_CONTEXT_ARM = DN_CONTEXT_ARM /\
  N_CONTEXT_ARM64_OLD = DN_CONTEXT_ARM64_OLD /\
  N_CONTEXT_ARM64 = DN_CONTEXT_ARM64 /\
  N_FLOATING_SAVE_AREA_MIPS = DN_FLOATING_SAVE_AREA_MIPS /\
  N_CONTEXT_MIPS = DN_CONTEXT_MIPS /\
  N_FLOATING_SAVE_AREA_PPC = DN_FLOATING_SAVE_AREA_PPC /\
  N_VECTOR_SAVE_AREA_PPC = DN_VECTOR_SAVE_AREA_PPC /\
  N_CONTEXT_PPC = DN_CONTEXT_PPC /\
  N_CONTEXT_PPC64 = DN_CONTEXT_PPC64 /\
  N_FLOATING_SAVE_AREA_SPARC = DN_FLOATING_SAVE_AREA_SPARC /\
  N_CONTEXT_SPARC = DN_CONTEXT_SPARC /\
  N_FLOATING_SAVE_AREA_X86 = DN_FLOATING_SAVE_AREA_X86 /\
  N_CONTEXT_X86 = DN_CONTEXT_X86 /\
  N_CPU_INFORMATION = DN_CPU_INFORMATION /\
  N_X86CpuInfo = DN_X86CpuInfo /\
  N_ARMCpuInfo = DN_ARMCpuInfo /\
  N_OtherCpuInfo = DN_OtherCpuInfo /\
  N_MINIDUMP_SYSTEM_INFO = DN_MINIDUMP_SYSTEM_INFO /\
  N_SYSTEMTIME = DN_SYSTEMTIME /\
  N_TIME_ZONE_INFORMATION = DN_TIME_ZONE_INFORMATION /\
  N_XSTATE_FEATURE = DN_XSTATE_FEATURE /\
  N_XSTATE_CONFIG_FEATURE_MSC_INFO = DN_XSTATE_CONFIG_FEATURE_MSC_INFO /\
  N_MINIDUMP_MEMORY_INFO_LIST = DN_MINIDUMP_MEMORY_INFO_LIST /\
  N_MINIDUMP_MEMORY_INFO = DN_MINIDUMP_MEMORY_INFO /\
  N_MINIDUMP_BREAKPAD_INFO = DN_MINIDUMP_BREAKPAD_INFO /\
  N_MINIDUMP_ASSERTION_INFO = DN_MINIDUMP_ASSERTION_INFO /\
  N_LINK_MAP_32 = DN_LINK_MAP_32 /\
  N_DSO_DEBUG_32 = DN_DSO_DEBUG_32 /\
  N_LINK_MAP_64 = DN_LINK_MAP_64 /\
  N_DSO_DEBUG_64 = DN_DSO_DEBUG_64 /\
  N_MINIDUMP_SIMPLE_STRING_DICTIONARY_ENTRY = DN_MINIDUMP_SIMPLE_STRING_DICTIONARY_ENTRY /\
  N_MINIDUMP_SIMPLE_STRING_DICTIONARY = DN_MINIDUMP_SIMPLE_STRING_DICTIONARY /\
  N_MINIDUMP_RVA_LIST = DN_MINIDUMP_RVA_LIST /\
  N_MINIDUMP_ANNOTATION = DN_MINIDUMP_ANNOTATION /\
  N_MINIDUMP_MODULE_CRASHPAD_INFO = DN_MINIDUMP_MODULE_CRASHPAD_INFO /\
  N_MINIDUMP_MODULE_CRASHPAD_INFO_LINK = DN_MINIDUMP_MODULE_CRASHPAD_INFO_LINK /\
  N_MINIDUMP_MODULE_CRASHPAD_INFO_LIST = DN_MINIDUMP_MODULE_CRASHPAD_INFO_LIST /\
  N_MINIDUMP_CRASHPAD_INFO = DN_MINIDUMP_CRASHPAD_INFO /\
  N_MINIDUMP_MAC_CRASH_INFO = DN_MINIDUMP_MAC_CRASH_INFO /\
  N_MINIDUMP_MAC_BOOTARGS = DN_MINIDUMP_MAC_BOOTARGS /\
  N_MINIDUMP_HANDLE_OBJECT_INFORMATION = DN_MINIDUMP_HANDLE_OBJECT_INFORMATION /\
  N_MINIDUMP_HANDLE_DESCRIPTOR = DN_MINIDUMP_HANDLE_DESCRIPTOR /\
  N_MINIDUMP_HANDLE_DESCRIPTOR_2 = DN_MINIDUMP_HANDLE_DESCRIPTOR_2 /\
  N_MINIDUMP_HANDLE_DATA_STREAM = DN_MINIDUMP_HANDLE_DATA_STREAM /\
  N_MINIDUMP_THREAD_INFO = DN_MINIDUMP_THREAD_INFO /\
  N_MINIDUMP_MISC_INFO = DN_MINIDUMP_MISC_INFO /\
  N_MINIDUMP_MISC_INFO_2 = DN_MINIDUMP_MISC_INFO_2 /\
  N_MINIDUMP_MISC_INFO_3 = DN_MINIDUMP_MISC_INFO_3 /\
  N_MINIDUMP_MISC_INFO_4 = DN_MINIDUMP_MISC_INFO_4 /\
  N_MINIDUMP_MISC_INFO_5 = DN_MINIDUMP_MISC_INFO_5 /\
  N_MINIDUMP_MAC_CRASH_INFO_RECORD = DN_MINIDUMP_MAC_CRASH_INFO_RECORD /\
  N_MINIDUMP_MAC_CRASH_INFO_RECORD_4 = DN_MINIDUMP_MAC_CRASH_INFO_RECORD_4 /\
  N_MINIDUMP_MAC_CRASH_INFO_RECORD_5 = DN_MINIDUMP_MAC_CRASH_INFO_RECORD_5 /\
  ALL_LAYOUTS = D_ALL_LAYOUTS /\
  MINIDUMP_SIGNATURE = DOC_MINIDUMP_SIGNATURE /\
  MINIDUMP_VERSION = DOC_MINIDUMP_VERSION /\
  VS_FFI_SIGNATURE = DOC_VS_FFI_SIGNATURE /\
  VS_FFI_STRUCVERSION = DOC_VS_FFI_STRUCVERSION /\
  ST_UnusedStream = DOC_ST_UnusedStream /\
  ST_ThreadListStream = DOC_ST_ThreadListStream /\
  ST_ModuleListStream = DOC_ST_ModuleListStream /\
  ST_MemoryListStream = DOC_ST_MemoryListStream /\
  ST_ExceptionStream = DOC_ST_ExceptionStream /\
  ST_SystemInfoStream = DOC_ST_SystemInfoStream /\
  ST_Memory64ListStream = DOC_ST_Memory64ListStream /\
  ST_UnloadedModuleListStream = DOC_ST_UnloadedModuleListStream /\
  ST_MiscInfoStream = DOC_ST_MiscInfoStream /\
  ST_MemoryInfoListStream = DOC_ST_MemoryInfoListStream /\
  ST_ThreadNamesStream = DOC_ST_ThreadNamesStream /\
  ST_HandleDataStream = DOC_ST_HandleDataStream /\
  ST_ThreadInfoListStream = DOC_ST_ThreadInfoListStream /\
  ST_BreakpadInfoStream = DOC_ST_BreakpadInfoStream /\
  ST_AssertionInfoStream = DOC_ST_AssertionInfoStream /\
  ST_LinuxCpuInfo = DOC_ST_LinuxCpuInfo /\
  ST_LinuxProcStatus = DOC_ST_LinuxProcStatus /\
  ST_LinuxLsbRelease = DOC_ST_LinuxLsbRelease /\
  ST_LinuxCmdLine = DOC_ST_LinuxCmdLine /\
  ST_LinuxEnviron = DOC_ST_LinuxEnviron /\
  ST_LinuxAuxv = DOC_ST_LinuxAuxv /\
  ST_LinuxMaps = DOC_ST_LinuxMaps /\
  ST_LinuxDsoDebug = DOC_ST_LinuxDsoDebug /\
  ST_CrashpadInfoStream = DOC_ST_CrashpadInfoStream /\
  ST_MozMacosCrashInfoStream = DOC_ST_MozMacosCrashInfoStream /\
  ST_MozMacosBootargsStream = DOC_ST_MozMacosBootargsStream /\
  ST_MozLinuxLimits = DOC_ST_MozLinuxLimits /\
  ST_MozSoftErrors = DOC_ST_MozSoftErrors /\
  CF_CONTEXT_X86 = DOC_CF_CONTEXT_X86 /\
  CF_CONTEXT_AMD64 = DOC_CF_CONTEXT_AMD64 /\
  CF_CONTEXT_ARM = DOC_CF_CONTEXT_ARM /\
  CF_CONTEXT_ARM64 = DOC_CF_CONTEXT_ARM64 /\
  CF_CONTEXT_ARM64_OLD = DOC_CF_CONTEXT_ARM64_OLD /\
  CF_CONTEXT_MIPS = DOC_CF_CONTEXT_MIPS /\
  CF_CONTEXT_PPC = DOC_CF_CONTEXT_PPC /\
  CF_CONTEXT_PPC64 = DOC_CF_CONTEXT_PPC64 /\
  CF_CONTEXT_SPARC = DOC_CF_CONTEXT_SPARC /\
  CF_ALL_BITS = DOC_CF_ALL_BITS /\
  CONTEXT_CPU_MASK = DOC_CONTEXT_CPU_MASK /\
  PROCESSOR_ARCHITECTURE_INTEL = DOC_PROCESSOR_ARCHITECTURE_INTEL /\
  PROCESSOR_ARCHITECTURE_ARM = DOC_PROCESSOR_ARCHITECTURE_ARM /\
  PROCESSOR_ARCHITECTURE_AMD64 = DOC_PROCESSOR_ARCHITECTURE_AMD64 /\
  PROCESSOR_ARCHITECTURE_IA32_ON_WIN64 = DOC_PROCESSOR_ARCHITECTURE_IA32_ON_WIN64 /\
  PROCESSOR_ARCHITECTURE_ARM64 = DOC_PROCESSOR_ARCHITECTURE_ARM64 /\
  PROCESSOR_ARCHITECTURE_MIPS = DOC_PROCESSOR_ARCHITECTURE_MIPS /\
  PROCESSOR_ARCHITECTURE_PPC = DOC_PROCESSOR_ARCHITECTURE_PPC /\
  PROCESSOR_ARCHITECTURE_SPARC = DOC_PROCESSOR_ARCHITECTURE_SPARC /\
  PROCESSOR_ARCHITECTURE_PPC64 = DOC_PROCESSOR_ARCHITECTURE_PPC64 /\
  PROCESSOR_ARCHITECTURE_ARM64_OLD = DOC_PROCESSOR_ARCHITECTURE_ARM64_OLD /\
  PROCESSOR_ARCHITECTURE_MIPS64 = DOC_PROCESSOR_ARCHITECTURE_MIPS64 /\
  CV_SIG_Pdb20 = DOC_CV_SIG_Pdb20 /\
  CV_SIG_Pdb70 = DOC_CV_SIG_Pdb70 /\
  CV_SIG_Elf = DOC_CV_SIG_Elf /\
  PLATFORM_VER_PLATFORM_WIN32_WINDOWS = DOC_PLATFORM_VER_PLATFORM_WIN32_WINDOWS /\
  PLATFORM_VER_PLATFORM_WIN32_NT = DOC_PLATFORM_VER_PLATFORM_WIN32_NT /\
  PLATFORM_MacOs = DOC_PLATFORM_MacOs /\
  PLATFORM_Ios = DOC_PLATFORM_Ios /\
  PLATFORM_Linux = DOC_PLATFORM_Linux /\
  PLATFORM_Solaris = DOC_PLATFORM_Solaris /\
  PLATFORM_Android = DOC_PLATFORM_Android /\
  PLATFORM_Ps3 = DOC_PLATFORM_Ps3 /\
  PLATFORM_NaCl = DOC_PLATFORM_NaCl.
Proof. repeat split; reflexivity. Qed.
Print Assumptions c02_layouts_documented.

(* Generic layout codec: for EVERY layout (in particular each one above), every well-typed value tree,
   both byte orders, whatever follows in the buffer: decoding the encoding returns the value and the rest. *)
Theorem c02_struct_roundtrip : forall e L v rest,
  wt L v = true -> dec e L (enc e L v ++ rest) = Some (v, rest) /\ zlen (enc e L v) = lsize L.
Proof. intros e L v rest H. split; [apply dec_enc|apply enc_zlen]; exact H. Qed.
Print Assumptions c02_struct_roundtrip.

(* UTF-16 strings (code units in range, well-paired surrogates, byte length < 2^32), at any offset *)
Theorem c02_string_roundtrip : forall e u pre post,
  wf_string u = true -> read_string e (pre ++ enc_string e u ++ post) (zlen pre) = Some u.
Proof. exact read_string_enc. Qed.
Print Assumptions c02_string_roundtrip.

(* CodeView records: PDB70, PDB20, ELF build id, unknown blobs *)
Theorem c02_codeview_roundtrip : forall e c,
  wf_cv e c = true -> c <> CvNone -> dec_cv e (enc_cv e c) = Some c.
Proof. exact dec_cv_enc. Qed.
Print Assumptions c02_codeview_roundtrip.

(* List streams: u32 count, entries, out-of-line data; 0..n items; with and without the 4 padding
   bytes; for every item codec meeting the item specification [icodec_ok] ... *)
Theorem c02_list_roundtrip : forall (A : Type) (c : icodec A) e (wfA : A -> bool),
  icodec_ok c e wfA -> forall pad, sec_ok (enc_list c e pad) (dec_list c e) (forallb wfA).
Proof. exact (@list_roundtrip). Qed.
Print Assumptions c02_list_roundtrip.
(* ... which the six item kinds of the dump model do meet *)
Theorem c02_item_codecs_ok : forall e,
  icodec_ok thread_codec e wf_thread /\ icodec_ok (module_codec) e (wf_module e) /\ icodec_ok region_codec e wf_region /\
  icodec_ok tname_codec e wf_tname /\ icodec_ok unloaded_codec e wf_unloaded /\ icodec_ok meminfo_codec e wf_meminfo.
Proof.
  intro e. exact (conj (thread_ok e) (conj (module_ok e) (conj (region_ok e) (conj (tname_ok e) (conj (unloaded_ok e) (meminfo_ok e)))))).
Qed.
Print Assumptions c02_item_codecs_ok.
(* the list header accepts exactly 0 or 4 bytes beyond count*size *)
Theorem c02_list_header_strict : forall e esize bs n r, dec_list_hdr e esize bs = Some (n, r) ->
  zlen bs = 4 + n * esize \/ zlen bs = 8 + n * esize.
Proof. exact list_hdr_strict. Qed.
Print Assumptions c02_list_header_strict.

(* the remaining stream kinds, each at any offset of any file below 4 GiB *)
Theorem c02_stream_roundtrips : forall e,
  sec_ok (enc_mem64 e) (dec_mem64 e) (forallb wf_region64) /\
  sec_ok (enc_exception e) (dec_exception e) wf_exception /\
  sec_ok (enc_sysinfo e) (dec_sysinfo e) wf_sysinfo /\
  sec_ok (enc_misc e) (dec_misc e) wf_misc /\
  sec_ok (enc_exlist unloaded_codec e UNLOADED_HDR 4) (dec_exlist unloaded_codec e false) (forallb wf_unloaded) /\
  sec_ok (enc_exlist meminfo_codec e MEMINFO_HDR 8) (dec_exlist meminfo_codec e true) (forallb wf_meminfo) /\
  (forall L, sec_ok (enc_flat L e) (dec_flat L e) (wf_flat L)) /\
  (forall L, 1 <= lsize L < 4294967296 -> icodec_ok (flat_codec L) e (wf_flat L)) /\
  sec_ok (enc_raw e) (dec_raw e) (fun _ => true) /\
  sec_ok (enc_handles e) (dec_handles e) wf_handles.
Proof.
  intro e. split; [apply mem64_roundtrip|]. split; [apply exception_roundtrip|]. split; [apply sysinfo_roundtrip|].
  split; [apply misc_roundtrip|]. split; [|split; [|split; [|split; [|split]]]].
  - apply (exlist_roundtrip _ _ _ (unloaded_ok e) false).
  - apply (exlist_roundtrip _ _ _ (meminfo_ok e) true).
  - intro L. apply flat_roundtrip.
  - intros L H. apply flat_codec_ok. exact H.
  - apply raw_roundtrip.
  - apply handles_roundtrip.
Qed.
Print Assumptions c02_stream_roundtrips.

(* The whole dump, all twenty modelled streams at once (system info, threads with stacks and contexts,
   modules with CodeView records, MemoryList, Memory64List, exception, thread names, unloaded modules,
   memory info, misc info, Breakpad info, assertion info, thread info list, and - as byte-exact raw
   streams - Linux cpuinfo / proc status / lsb-release / environ / maps / limits; the handle data stream with
   descriptors of either size and optional type/object names), any subset present, any number of items, either byte order, arbitrary
   leading directory entries: reading the serialized model returns exactly the model. *)
Theorem c02_dump_roundtrip : forall e m,
  wf_model e m = true -> decode_dump (encode_dump e m) = Some (view_of e m).
Proof. exact dump_roundtrip. Qed.
Print Assumptions c02_dump_roundtrip.

(* the same model written little- or big-endian reads back the same (only the detected byte order differs) *)
Theorem c02_endian_independent : forall m, wf_model LE m = true -> wf_model BE m = true ->
  option_map (set_endian LE) (decode_dump (encode_dump LE m)) =
  option_map (set_endian LE) (decode_dump (encode_dump BE m)) /\
  option_map v_endian (decode_dump (encode_dump LE m)) = Some LE /\
  option_map v_endian (decode_dump (encode_dump BE m)) = Some BE.
Proof. intros m H1 H2. rewrite (dump_roundtrip LE m H1), (dump_roundtrip BE m H2). repeat split. Qed.
Print Assumptions c02_endian_independent.

(* the last of several directory entries of one type is the one served *)
Theorem c02_last_duplicate_wins : forall l1 ty loc l3, ~ In ty (map fst l3) ->
  dir_lookup (l1 ++ (ty, loc) :: l3) ty = Some loc.
Proof. exact last_entry_wins. Qed.
Print Assumptions c02_last_duplicate_wins.
Theorem c02_leading_duplicates_ignored : forall e m x,
  wf_model e (set_extra m x) = true -> wf_model e (set_extra m []) = true ->
  decode_dump (encode_dump e (set_extra m x)) = decode_dump (encode_dump e (set_extra m [])).
Proof. intros e m x H1 H2. rewrite (dump_roundtrip e _ H1), (dump_roundtrip e _ H2). reflexivity. Qed.
Print Assumptions c02_leading_duplicates_ignored.

(* memory: a region that intersects no other region is found for each of its addresses, and the
   byte read there is the region's byte (memory_at_address = the C08 range table) *)
Theorem c02_memory_bytes : forall rs1 r rs2 rg x,
  Forall (fun q => 0 <= mr_base q) (rs1 ++ r :: rs2) ->
  region_range r = Some rg ->
  (forall q rq, In q (rs1 ++ rs2) -> region_range q = Some rq -> intersects rg rq = false) ->
  contains rg x = true ->
  memory_at (rs1 ++ r :: rs2) x = Some r /\
  exists b, memory_byte (rs1 ++ r :: rs2) x = Some b /\ nth_error (mr_bytes r) (Z.to_nat (x - mr_base r)) = Some b.
Proof. exact memory_bytes. Qed.
Print Assumptions c02_memory_bytes.


(* every struct of format.rs the translator can parse (74; see the comment in Gen/Layouts.v
   for the 4 it cannot) round-trips through the generic codec in both byte orders *)
Theorem c02_all_layouts_roundtrip :
  Forall (fun p => forall e v rest, wt (snd p) v = true ->
                   dec e (snd p) (enc e (snd p) v ++ rest) = Some (v, rest) /\ zlen (enc e (snd p) v) = lsize (snd p)) ALL_LAYOUTS.
Proof. apply Forall_forall. intros p _ e v rest H. split; [apply dec_enc|apply enc_zlen]; exact H. Qed.
Print Assumptions c02_all_layouts_roundtrip.

(* CPU contexts: bytes -> registers.  For each architecture the reader supports, the layout regenerated from
   format.rs; a well-typed register file written in either byte order reads back exactly when its
   context_flags carry the architecture's constant (ContextFlagsCpu::from_flags), and is refused otherwise;
   a blob shorter than the struct is refused *)
Theorem c02_context_roundtrip : forall e arch L cf v rest,
  ctx_spec arch = Some (L, cf) -> wt L v = true ->
  read_context e arch (enc e L v ++ rest) = if flags_ok cf (ctx_flags arch v) then Some v else None.
Proof. intros e arch L cf v rest Hs Hw. unfold read_context. rewrite Hs, dec_enc by exact Hw. reflexivity. Qed.
Print Assumptions c02_context_roundtrip.
Theorem c02_context_layout_by_architecture :
  ctx_spec PROCESSOR_ARCHITECTURE_INTEL = Some (L_CONTEXT_X86, CF_CONTEXT_X86) /\
  ctx_spec PROCESSOR_ARCHITECTURE_IA32_ON_WIN64 = Some (L_CONTEXT_X86, CF_CONTEXT_X86) /\
  ctx_spec PROCESSOR_ARCHITECTURE_AMD64 = Some (L_CONTEXT_AMD64, CF_CONTEXT_AMD64) /\
  ctx_spec PROCESSOR_ARCHITECTURE_ARM = Some (L_CONTEXT_ARM, CF_CONTEXT_ARM) /\
  ctx_spec PROCESSOR_ARCHITECTURE_ARM64 = Some (L_CONTEXT_ARM64, CF_CONTEXT_ARM64) /\
  ctx_spec PROCESSOR_ARCHITECTURE_ARM64_OLD = Some (L_CONTEXT_ARM64_OLD, CF_CONTEXT_ARM64_OLD) /\
  ctx_spec PROCESSOR_ARCHITECTURE_MIPS = Some (L_CONTEXT_MIPS, CF_CONTEXT_MIPS) /\
  ctx_spec PROCESSOR_ARCHITECTURE_PPC = Some (L_CONTEXT_PPC, CF_CONTEXT_PPC) /\
  ctx_spec PROCESSOR_ARCHITECTURE_PPC64 = Some (L_CONTEXT_PPC64, CF_CONTEXT_PPC64) /\
  ctx_spec PROCESSOR_ARCHITECTURE_SPARC = Some (L_CONTEXT_SPARC, CF_CONTEXT_SPARC) /\
  ctx_spec PROCESSOR_ARCHITECTURE_MIPS64 = None.
Proof. repeat split. Qed.
Print Assumptions c02_context_layout_by_architecture.
Theorem c02_context_short : forall e arch L cf bytes,
  ctx_spec arch = Some (L, cf) -> zlen bytes < lsize L -> read_context e arch bytes = None.
Proof. intros e arch L cf bytes Hs Hl. unfold read_context. rewrite Hs, dec_short by exact Hl. reflexivity. Qed.
Print Assumptions c02_context_short.

(* identifiers: what the reader derives for the modules of a serialized model are the documented
   functions of the model's own CodeView record / VS_FIXEDFILEINFO / OS ... *)
Theorem c02_identifiers_derivation : forall e m mods, wf_model e m = true -> m_modules m = Some mods ->
  option_map view_module_ids (decode_dump (encode_dump e m)) =
  Some (Some (map (module_ids e (os_of_platform (option_map si_platform (m_sysinfo m)))) mods)).
Proof.
  intros e m mods Hwf Hm. rewrite (dump_roundtrip e m Hwf). cbn [option_map].
  unfold view_module_ids, view_of, view_os. cbn [v_modules v_endian v_sysinfo]. rewrite Hm. cbn [sres_of].
  destruct (m_sysinfo m); reflexivity.
Qed.
Print Assumptions c02_identifiers_derivation.
(* ... and these functions are: PDB70 -> GUID + age, none for the nil GUID whatever the age; PDB20 ->
   signature + age; ELF -> none for an empty or all-zero build id, in a big-endian dump the build id itself
   zero-padded / cut to 16 bytes; code identifiers are lower-case hexadecimal *)
Theorem c02_debug_id_spec :
  (forall e d1 d2 d3 d4 age f, read_debug_id e (CvPdb70 d1 d2 d3 d4 age f) =
     if all_zero (uuid_of_fields d1 d2 d3 d4) then DbgNone else DbgUuid (uuid_of_fields d1 d2 d3 d4) age) /\
  (forall e age f, read_debug_id e (CvPdb70 0 0 0 [0; 0; 0; 0; 0; 0; 0; 0] age f) = DbgNone) /\
  (forall e off s age f, read_debug_id e (CvPdb20 off s age f) = DbgPdb20 s age) /\
  (forall e bid, all_zero bid = true -> read_debug_id e (CvElf bid) = DbgNone) /\
  (forall bid, all_zero bid = false -> all_in 1 bid = true ->
     read_debug_id BE (CvElf bid) = DbgUuid (firstn 16 (bid ++ repeat 0 16)) 0) /\
  (forall bid g0 g1 g2 g3 g4 g5 g6 g7 tl, all_zero bid = false -> all_in 1 bid = true ->
     firstn 16 (bid ++ repeat 0 16) = g0 :: g1 :: g2 :: g3 :: g4 :: g5 :: g6 :: g7 :: tl ->
     read_debug_id LE (CvElf bid) = DbgUuid (g3 :: g2 :: g1 :: g0 :: g5 :: g4 :: g7 :: g6 :: tl) 0).
Proof.
  repeat split; try reflexivity; [|exact debug_id_elf_be|exact debug_id_elf_le].
  intros e bid H. cbn [read_debug_id]. rewrite H. reflexivity.
Qed.
Print Assumptions c02_debug_id_spec.
Theorem c02_code_id_lower_hex : forall os time size c id, 0 <= size ->
  code_identifier os time size c = Some id -> forallb lower_hex id = true.
Proof. exact code_id_lower_hex. Qed.
Print Assumptions c02_code_id_lower_hex.

(* ---- non-vacuity: a model with nine streams, duplicate directory entries, a null-stack thread,
   PDB70 / ELF CodeView records, a region at the top of the address space, is well-formed in both
   byte orders and is returned by the reader *)
Definition ex_model : model :=
  {| m_version := 42899 + 65536 * 7; m_checksum := 5; m_time := 1262805309; m_flags := 18446744073709551615;
     m_extra_dir := [(ST_ThreadListStream, (12, 100)); (ST_ModuleListStream, (0, 0)); (1197932545, (3, 4))];
     m_pad_lists := true;
     m_sysinfo := Some {| si_arch := 9; si_level := 6; si_revision := 258; si_nproc := 4; si_ptype := 1; si_major := 10;
                          si_minor := 0; si_build := 19045; si_platform := 2; si_suite := 256; si_reserved2 := 0;
                          si_cpu := repeat 7 24; si_csd := Some [83; 80; 55357; 56832] |};
     m_threads := Some [ {| th_id := 1; th_suspend := 0; th_pclass := 32; th_prio := 0; th_teb := 8796092891136;
                            th_stack_base := 4096; th_stack := Some [1; 2; 3; 4; 5; 6; 7; 8]; th_ctx := Some (repeat 0 16) |};
                         {| th_id := 4294967295; th_suspend := 1; th_pclass := 0; th_prio := 0; th_teb := 0;
                            th_stack_base := 18446744073709551600; th_stack := None; th_ctx := Some [] |} ];
     m_modules := Some [ {| md_base := 4194304; md_size := 65536; md_checksum := 1; md_time := 1262805309;
                            md_name := [97; 46; 101; 120; 101]; md_ver := [4277077181; 65536; 65538; 196612; 0; 0; 0; 0; 0; 0; 0; 0; 0];
                            md_cv := CvPdb70 2882400001 4660 22136 [1; 2; 3; 4; 5; 6; 7; 8] 2 [97; 46; 112; 100; 98; 0];
                            md_misc := (0, 0); md_res := [0; 0; 0; 0] |};
                         {| md_base := 18446744073709486080; md_size := 65535; md_checksum := 0; md_time := 0;
                            md_name := []; md_ver := repeat 0 13; md_cv := CvElf [222; 173; 190; 239; 1];
                            md_misc := (7, 9); md_res := [1; 2; 3; 4] |} ];
     m_memory := Some [ {| mr_base := 18446744073709551600; mr_bytes := repeat 170 16 |}; {| mr_base := 0; mr_bytes := [9] |} ];
     m_memory64 := None;
     m_exception := Some {| ex_thread_id := 1; ex_align := 0; ex_code := 3221225477; ex_flags := 0; ex_record := 0;
                            ex_address := 4198400; ex_nparams := 2; ex_align2 := 0; ex_info := 0 :: 4096 :: repeat 0 13;
                            ex_ctx := Some (repeat 1 16) |};
     m_tnames := Some [(1, [109; 97; 105; 110]); (1, [])];
     m_unloaded := Some [ {| um_base := 8192; um_size := 4096; um_checksum := 3; um_time := 4; um_name := [120] |} ];
     m_meminfo := Some [[4096; 4096; 4; 0; 8192; 4096; 4; 131072; 0]; [18446744073709547520; 0; 1; 0; 4096; 65536; 1; 0; 0]];
     m_misc := Some (1, [24; 1; 4242; 0; 0; 0]);
     m_breakpad := Some [3; 1; 4294967295];
     m_assertion := None;
     m_thread_info := Some [[1; 0; 0; 259; 132223104000000000; 0; 5; 7; 4198400; 15]];
     m_lx_cpuinfo := Some [112; 58; 48; 10]; m_lx_status := None; m_lx_lsb := Some []; m_lx_environ := None;
     m_lx_maps := Some [48; 45; 49; 32; 114; 10]; m_lx_limits := None;
     m_handles := Some (true, [ {| h_handle := 4; h_type := Some [70; 105; 108; 101]; h_object := None; h_attr := 0;
                                   h_access := 1179785; h_hcount := 2; h_pcount := 65535 |};
                                {| h_handle := 18446744073709551615; h_type := None; h_object := Some [19968]; h_attr := 1;
                                   h_access := 0; h_hcount := 0; h_pcount := 0 |} ]) |}.

Example c02_nonvacuous_model :
  wf_model LE ex_model = true /\ wf_model BE ex_model = true /\
  decode_dump (encode_dump BE ex_model) = Some (view_of BE ex_model) /\
  dir_lookup (m_extra_dir ex_model ++ [(ST_ThreadListStream, (1, 2))]) ST_ThreadListStream = Some (1, 2).
Proof. vm_compute. repeat split. Qed.

Example c02_nonvacuous_context :
  let v := vtuple [VInt (CF_CONTEXT_ARM + 2); varr (repeat 7 16); VInt 16; vtuple [VInt 1; varr (repeat 2 32); varr (repeat 3 8)]] in
  wt L_CONTEXT_ARM v = true /\ read_context BE PROCESSOR_ARCHITECTURE_ARM (enc BE L_CONTEXT_ARM v) = Some v /\
  read_context LE PROCESSOR_ARCHITECTURE_ARM (enc BE L_CONTEXT_ARM v) = None /\
  debug_id_string (read_debug_id LE (CvElf [1; 2; 3; 4; 5])) = Some [48;52;48;51;48;50;48;49;48;48;48;53;48;48;48;48;48;48;48;48;48;48;48;48;48;48;48;48;48;48;48;48;48].
Proof. vm_compute. repeat split. Qed.

Example c02_nonvacuous_memory :
  let rs := [ {| mr_base := 18446744073709551600; mr_bytes := repeat 170 15 |}; {| mr_base := 0; mr_bytes := [9; 8] |} ] in
  region_range (nth 0 rs {| mr_base := 0; mr_bytes := [] |}) = Some (18446744073709551600, 18446744073709551614) /\
  memory_byte rs 18446744073709551614 = Some 170 /\ memory_byte rs 1 = Some 8 /\ memory_byte rs 2 = None.
Proof. vm_compute. repeat split. Qed.


(* the set of stream-type numbers that have a name (what MINIDUMP_STREAM_TYPE::from_u32 accepts), regenerated from
   format.rs on this run, is the documented one *)
Theorem c02_stream_types_documented : ST_ALL_NAMED = D_ST_ALL_NAMED /\ ST_LastReservedStream = DOC_ST_LastReservedStream.
Proof. split; reflexivity. Qed.
Print Assumptions c02_stream_types_documented.

(* THE LAST ENTRY OF A TYPE IS SERVED, for EVERY stream-type number (named, named-but-unsupported, vendor, unknown):
   in any directory, for any file contents, the map Minidump::read builds holds for that type the index and the location
   of the last entry of the type, all_streams() lists exactly that entry, and get_raw_stream(type) is
   location_slice of that location (an error when it does not lie within the file) *)
Theorem c02_last_entry_served : forall all l1 ty loc l3, ~ In ty (map fst l3) ->
  dmap_get (served_dir (l1 ++ (ty, loc) :: l3)) ty = Some (zlen l1, loc) /\
  In (ty, (zlen l1, loc)) (served_dir (l1 ++ (ty, loc) :: l3)) /\
  raw_stream all (l1 ++ (ty, loc) :: l3) ty =
    match slice all (snd loc) (fst loc) with Some b => SOk b | None => SErr end.
Proof.
  intros all l1 ty loc l3 H.
  assert (E : dmap_get (served_dir (l1 ++ (ty, loc) :: l3)) ty = Some (zlen l1, loc)).
  { unfold served_dir. rewrite build_get, last_entry_split by exact H. reflexivity. }
  split; [exact E|]. split.
  - apply asc_get_in; [apply build_asc; constructor|exact E].
  - unfold raw_stream. rewrite E. destruct loc as [size rva]. reflexivity.
Qed.
Print Assumptions c02_last_entry_served.

(* all_streams(): one entry per type that occurs, in ascending order of the type, each the last of its type;
   a type that does not occur is StreamNotFound *)
Theorem c02_served_directory_is_a_map : forall all d,
  asc (served_dir d) /\
  (forall ty, In ty (map fst (served_dir d)) <-> In ty (map fst d)) /\
  (forall ty v, In (ty, v) (served_dir d) <-> last_entry 0 d ty = Some v) /\
  (forall ty, ~ In ty (map fst d) -> raw_stream all d ty = SMissing).
Proof. exact served_dir_map. Qed.
Print Assumptions c02_served_directory_is_a_map.

(* unknown_streams(): exactly the served entries whose type has no name *)
Theorem c02_unknown_streams : forall d ty v,
  In (ty, v) (unknown_streams d) <-> last_entry 0 d ty = Some v /\ is_named ty = false.
Proof.
  intros d ty v. unfold unknown_streams. rewrite filter_In. cbn [fst].
  destruct (served_dir_map [] d) as [_ [_ [H _]]]. rewrite H. rewrite Bool.negb_true_iff. reflexivity.
Qed.
Print Assumptions c02_unknown_streams.

(* the typed readers (get_stream) look the type up in the same map *)
Theorem c02_typed_and_raw_agree : forall d ty, option_map snd (dmap_get (served_dir d) ty) = dir_lookup d ty.
Proof.
  intros d ty. unfold served_dir. rewrite build_get. cbn [dmap_get]. rewrite <- (last_entry_lookup d 0 ty).
  destruct (last_entry 0 d ty); reflexivity.
Qed.
Print Assumptions c02_typed_and_raw_agree.

(* the directory of a serialized model — leading duplicates of any type included — reads back entry by entry *)
Theorem c02_directory_roundtrip : forall e m, wf_model e m = true ->
  read_directory (encode_dump e m) = Some (e, dir_of e m).
Proof.
  intros e m Hwf. rewrite (encode_eq e m). unfold read_directory.
  rewrite (detect_ok e m Hwf). cbn [obnd]. rewrite (header_ok e m Hwf). cbn [obnd].
  rewrite (version_ok e m Hwf), (dir_ok e m Hwf). reflexivity.
Qed.
Print Assumptions c02_directory_roundtrip.

(* non-vacuity: three entries of the vendor type 0x4d7a0b0b interleaved with two of CommentStreamA and one of 0xffffffff *)
Example c02_nonvacuous_directory :
  let d := [(1299843851, (3, 40)); (10, (1, 50)); (1299843851, (5, 60)); (10, (2, 70)); (1299843851, (7, 80)); (4294967295, (0, 0))] in
  served_dir d = [(10, (3, (2, 70))); (1299843851, (4, (7, 80))); (4294967295, (5, (0, 0)))] /\
  unknown_streams d = [(1299843851, (4, (7, 80))); (4294967295, (5, (0, 0)))] /\
  raw_stream (repeat 7 86 ++ [1; 2]) d 1299843851 = SOk [7; 7; 7; 7; 7; 7; 1] /\
  raw_stream (repeat 7 86) d 1299843851 = SErr /\ raw_stream [] d 11 = SMissing /\
  stream_vendor 1299843851 = 2 /\ stream_vendor 4294967295 = 3 /\ stream_vendor 10 = 0 /\ is_named 10 = true.
Proof. vm_compute. repeat split. Qed.


(* MozSoftErrors (a UTF-8 text), Mac boot args (struct + out-of-line UTF-16 string), and the Crashpad info stream: its
   simple annotations (dictionary of NUL-terminated UTF-8 strings), the module list, and per module the list annotations,
   simple annotations and annotation objects (string values, and raw type/value for every other annotation type).
   Each: serialized at any offset of any file below 4 GiB, in either byte order, whatever surrounds it, the stream's bytes
   are where the location descriptor says and the reader returns exactly the model (items in file order; keys may repeat) *)
Theorem c02_more_stream_roundtrips : forall e,
  sec_ok (enc_raw e) (dec_softerr e) valid_utf8 /\
  sec_ok (enc_bootargs e) (dec_bootargs e) wf_bootargs /\
  (forall bound, sec_ok (enc_counted dict_codec e) (counted_body dict_codec bound e) (forallb wf_kv)) /\
  (forall bound, sec_ok (enc_counted strlist_codec e) (counted_body strlist_codec bound e) (forallb wf_utf8)) /\
  (forall bound, sec_ok (enc_counted annot_codec e) (counted_body annot_codec bound e) (forallb wf_annot)) /\
  (forall bound, sec_ok (enc_cmodule_list e) (counted_body cmodule_codec bound e) (forallb wf_cmodule)) /\
  sec_ok (enc_crashpad e) (dec_crashpad e) wf_crashpad.
Proof.
  intro e.
  exact (conj (softerr_roundtrip e) (conj (bootargs_roundtrip e)
        (conj (counted_roundtrip _ _ _ (dict_ok e)) (conj (counted_roundtrip _ _ _ (strlist_ok e))
        (conj (counted_roundtrip _ _ _ (annot_ok e)) (conj (cmodule_list_roundtrip e) (crashpad_roundtrip e))))))).
Qed.
Print Assumptions c02_more_stream_roundtrips.

(* directory and stream together: in ANY file that holds a stream section at some offset, with ANY directory whose last
   entry of type ty points at it (whatever precedes it, duplicates of ty included), get_stream returns the model.
   With c02_more_stream_roundtrips this covers the streams above wherever a writer places them. *)
Theorem c02_stream_served : forall (A : Type) (enc : Z -> A -> section) (dec : endian -> list Z -> list Z -> option A)
    (wf : A -> bool) (a : A) e pre post l1 ty l3,
  sec_ok enc (dec e) wf -> wf a = true -> 0 < zlen pre -> zlen pre + zlen (snd (enc (zlen pre) a)) <= U32M ->
  ~ In ty (map fst l3) ->
  get_stream dec e (pre ++ snd (enc (zlen pre) a) ++ post)
             (l1 ++ (ty, (fst (enc (zlen pre) a), zlen pre)) :: l3) ty = SOk a.
Proof.
  intros A enc dec wf a e pre post l1 ty l3 Hok Hwf Hpre Hb Hnot.
  rewrite get_stream_last by exact Hnot.
  destruct (Hok a pre post Hwf Hpre Hb) as [_ [body [Hs Hd]]]. rewrite Hs, Hd. reflexivity.
Qed.
Print Assumptions c02_stream_served.

Definition ex_crashpad : mcrashpad :=
  {| cp_version := 1; cp_report := [305419896; 4660; 22136; 1; 2; 3; 4; 5; 6; 7; 8]; cp_client := [0; 0; 0; 0; 0; 0; 0; 0; 0; 0; 255];
     cp_simple := [([97], [98; 99]); ([97], []); ([195; 169], [226; 152; 131])];
     cp_modules := [ {| cm_index := 3; cm_version := 1; cm_list := [[120]; []];
                        cm_simple := [([107], [118])];
                        cm_objects := [ {| an_name := [110]; an_ty := 1; an_reserved := 0; an_value := inl [240; 157; 132; 158] |};
                                        {| an_name := [111]; an_ty := 32768; an_reserved := 7; an_value := inr 4294967295 |};
                                        {| an_name := []; an_ty := 0; an_reserved := 0; an_value := inr 0 |} ] |};
                     {| cm_index := 0; cm_version := 0; cm_list := []; cm_simple := []; cm_objects := [] |} ] |}.
Example c02_nonvacuous_crashpad :
  wf_crashpad ex_crashpad = true /\
  (let pre := repeat 9 40 in
   let s := enc_crashpad BE (zlen pre) ex_crashpad in
   get_stream dec_crashpad BE (pre ++ snd s ++ [1; 2; 3]) [(ST_CrashpadInfoStream, (5, 6)); (ST_CrashpadInfoStream, (fst s, 40))] ST_CrashpadInfoStream
     = SOk ex_crashpad) /\
  dec_softerr LE [] [226; 152] = None /\ valid_utf8 [237; 160; 128] = false /\ valid_utf8 [244; 143; 191; 191] = true /\
  wf_bootargs {| ba_type := 1299841026; ba_args := Some [45; 118; 55357; 56832] |} = true.
Proof. vm_compute. repeat split. Qed.


(* If the MINIDUMP_HANDLE_OBJECT_INFORMATION records of a chain are in the file and linked in chain order from the
   descriptor's object_info_rva (chain_at) — WHEREVER each record is stored: in chain order, last record first (every link
   pointing to a lower offset), scattered — the reader returns exactly the chain's (info_type, size_of_info) list.
   (The bound is the reader's own cap of len(file)/12 records.) *)
Theorem c02_handle_chain_any_placement : forall e all r infos, chain_at e all r infos ->
  Z.of_nat (length infos) <= zlen all / 12 -> read_chain e all r = infos.
Proof. exact handle_chain_any_placement. Qed.
Print Assumptions c02_handle_chain_any_placement.

Example c02_nonvacuous_chain :
  let infos := [(1, 8); (3, 0); (9, 4294967295)] in
  let pre := repeat 7 24 in
  chain_at BE (pre ++ enc_chain_bwd BE 24 infos) 48 infos /\            (* stored last record first: links 48 -> 36 -> 24 -> 0 *)
  read_chain BE (pre ++ enc_chain_bwd BE 24 infos) 48 = infos /\
  chain_at LE (pre ++ enc_chain_fwd LE 24 infos) 24 infos /\
  read_chain LE (pre ++ enc_chain_fwd LE 24 infos) 24 = infos /\
  read_chain LE (pre ++ enc_chain_fwd LE 24 [(1, 8); (10, 0)]) 24 = [(1, 8)].
Proof.
  cbv zeta. split; [|split; [|split; [|split]]]; try (vm_compute; reflexivity).
  - eapply chain_cons; [discriminate|reflexivity|reflexivity|].
    eapply chain_cons; [discriminate|reflexivity|reflexivity|].
    eapply chain_cons; [discriminate|reflexivity|reflexivity|]. apply chain_nil.
  - eapply chain_cons; [discriminate|reflexivity|reflexivity|].
    eapply chain_cons; [discriminate|reflexivity|reflexivity|].
    eapply chain_cons; [discriminate|reflexivity|reflexivity|]. apply chain_nil.
Qed.


(* coq/Gen/C02Reader.v is rewritten from minidump/src/minidump.rs on every run (translate/c02_reader.py): the STREAM_TYPE of
   every `impl MinidumpStream`, the UNIMPLEMENTED_STREAMS table, stream_vendor's limit / mask / arms, the padding arms of
   read_stream_list, the version table of MinidumpMacCrashInfo::read.

   Every u32 stream type is of exactly one kind: some typed reader serves it (and no two readers claim one type), or
   unimplemented_streams() lists it, or it has no name (unknown_streams()). *)
Theorem c02_stream_type_partition :
  NoDup (map snd RD_IMPLEMENTED) /\
  forall ty,
    (is_named ty = true <-> has_reader ty = true \/ is_unimplemented ty = true) /\
    (has_reader ty = true -> is_unimplemented ty = false).
Proof. exact stream_type_partition. Qed.
Print Assumptions c02_stream_type_partition.

(* unimplemented_streams(): exactly the served entries (the last of their type, with its index) whose type is in the table *)
Theorem c02_unimplemented_streams : forall d ty v,
  In (ty, v) (unimplemented_streams d) <-> last_entry 0 d ty = Some v /\ In ty RD_UNIMPLEMENTED.
Proof.
  intros d ty v. unfold unimplemented_streams. rewrite filter_In. cbn [fst].
  destruct (served_dir_map [] d) as [_ [_ [H _]]]. rewrite H, unimplemented_In. reflexivity.
Qed.
Print Assumptions c02_unimplemented_streams.

(* all_streams() = the entries a typed reader serves + unimplemented_streams() + unknown_streams(): nothing falls between *)
Theorem c02_served_classified : forall d p,
  In p (served_dir d) <->
  (In p (served_dir d) /\ has_reader (fst p) = true) \/ In p (unimplemented_streams d) \/ In p (unknown_streams d).
Proof.
  intros d p. unfold unimplemented_streams, unknown_streams. rewrite !filter_In. split; [|tauto].
  intro H. destruct stream_type_partition as [_ P]. destruct (P (fst p)) as [[P1 _] _].
  destruct (is_named (fst p)) eqn:E.
  - destruct (P1 eq_refl) as [R|U]; [left; tauto|right; left; tauto].
  - right. right. split; [exact H|reflexivity].
Qed.
Print Assumptions c02_served_classified.

(* the model's stream_vendor and its 0-or-4 list padding rule ARE the regenerated expressions *)
Theorem c02_reader_expressions_regenerated :
  (forall ty, stream_vendor ty = stream_vendor_rd ty) /\
  (forall e esize bs,
     dec_list_hdr e esize bs =
     obnd (take 4 bs) (fun hr =>
       let n := dec_uint e (fst hr) in
       if zlen bs <? 4 + n * esize then None
       else match list_pad_skip (zlen bs - (4 + n * esize)) with
            | Some k => Some (n, skipn (Z.to_nat k) (snd hr))
            | None => None
            end)).
Proof.
  split.
  - intro ty. cbv [stream_vendor stream_vendor_rd RD_VENDOR_LIMIT RD_VENDOR_MASK RD_VENDOR_ARMS RD_VENDOR_DEFAULT zassoc ST_LastReservedStream].
    destruct (ty <=? 65535); [reflexivity|].
    destruct (Z.land ty 4294901760 =? 1197932544); [reflexivity|].
    destruct (Z.land ty 4294901760 =? 1299841024); reflexivity.
  - intros e esize bs. unfold dec_list_hdr. destruct (take 4 bs) as [[h r]|]; [|reflexivity]. cbn [obnd fst snd].
    destruct (zlen bs <? 4 + dec_uint e h * esize); [reflexivity|].
    unfold list_pad_skip. cbn [RD_LIST_PAD_ARMS zassoc].
    destruct (zlen bs - (4 + dec_uint e h * esize) =? 0); [reflexivity|].
    destruct (zlen bs - (4 + dec_uint e h * esize) =? 4); reflexivity.
Qed.
Print Assumptions c02_reader_expressions_regenerated.

(* Minidump::read as the model's read_directory / served_dir follow it: the statements of the function, in order, as found in
   the source on this run (warn! calls aside, nothing else touches the map or returns), and the version test's mask *)
Theorem c02_read_steps_regenerated :
  RD_READ_STEPS = DOC_READ_STEPS /\
  (forall version, 0 <= version -> Z.land version RD_VERSION_MASK = version mod 65536).
Proof.
  split; [reflexivity|]. intros version H. change RD_VERSION_MASK with (Z.ones 16). rewrite Z.land_ones by easy. reflexivity.
Qed.
Print Assumptions c02_read_steps_regenerated.

(* the STREAM_TYPE constant of every `impl MinidumpStream` in minidump.rs is the stream type under which the model's
   decode_dump / get_stream looks that stream up (ST_* from format.rs) *)
Theorem c02_reader_stream_types : RD_IMPLEMENTED = DOC_READERS.
Proof. reflexivity. Qed.
Print Assumptions c02_reader_stream_types.

Example c02_nonvacuous_stream_types :
  let d := [(10, (1, 50)); (1197932550, (2, 60)); (4, (3, 70)); (10, (4, 80)); (1299843851, (5, 90)); (32773, (0, 0))] in
  unimplemented_streams d = [(10, (3, (4, 80))); (32773, (5, (0, 0))); (1197932550, (1, (2, 60)))] /\
  has_reader 4 = true /\ is_unimplemented 4 = false /\ has_reader 10 = false /\ is_named 1299843851 = false /\
  list_pad_skip 0 = Some 0 /\ list_pad_skip 4 = Some 4 /\ list_pad_skip 8 = None /\ list_pad_skip 2 = None /\
  stream_vendor_rd 1197932550 = 1.
Proof. vm_compute. repeat split. Qed.

(* The stream is a header (stream type, record count, record_start_size, 20 location descriptors) whose first
   record_count locations each point at a record ANYWHERE in the file: fixed u64 fields of the variant the record's version
   selects (regenerated table: >= 5, >= 4, >= 1), fields this reader does not know up to record_start_size, the variant's
   NUL-terminated UTF-8 strings, then whatever a newer writer appends.  If these locations slice to well-formed records of
   one version, the reader returns exactly these records, in header order, with all their integers and strings — in
   either byte order, whatever else the file holds, through any directory whose last entry of the type points at the
   header. *)
Theorem c02_maccrash_any_placement : forall e all v rest stype start alllocs recs l1 size rva l3,
  wt L_MINIDUMP_MAC_CRASH_INFO v = true -> zlen recs <= RD_MAC_RECORDS_MAX ->
  vflat v = stype :: zlen recs :: start :: unpairs alllocs ->
  records_at e all start (firstn (length recs) alllocs) recs ->
  (forall a b, In a recs -> In b recs -> rec_version a = rec_version b) ->
  dec_maccrash e all (enc e L_MINIDUMP_MAC_CRASH_INFO v ++ rest) = Some recs /\
  (slice all rva size = Some (enc e L_MINIDUMP_MAC_CRASH_INFO v ++ rest) ->
   ~ In ST_MozMacosCrashInfoStream (map fst l3) ->
   get_stream dec_maccrash e all (l1 ++ (ST_MozMacosCrashInfoStream, (size, rva)) :: l3) ST_MozMacosCrashInfoStream = SOk recs).
Proof.
  intros e all v rest stype start alllocs recs l1 size rva l3 H1 H0 H2 H3 H4. split.
  - exact (maccrash_any_placement e all v rest stype start alllocs recs H1 H0 H2 H3 H4).
  - intros Hs Hnot. rewrite get_stream_last, Hs by exact Hnot.
    rewrite (maccrash_any_placement e all v rest stype start alllocs recs H1 H0 H2 H3 H4). reflexivity.
Qed.
Print Assumptions c02_maccrash_any_placement.

(* the fixed records the table names are the layouts regenerated from format.rs (sequences of u64 fields) *)
Theorem c02_mac_record_layouts :
  map (fun x => fst (snd x)) RD_MAC_VERSIONS
  = [lsize L_MINIDUMP_MAC_CRASH_INFO_RECORD_5; lsize L_MINIDUMP_MAC_CRASH_INFO_RECORD_4; lsize L_MINIDUMP_MAC_CRASH_INFO_RECORD] /\
  forall e bs,
  dec_u64s e 2 bs = option_map (fun p => vflat (fst p)) (dec e L_MINIDUMP_MAC_CRASH_INFO_RECORD bs) /\
  dec_u64s e 4 bs = option_map (fun p => vflat (fst p)) (dec e L_MINIDUMP_MAC_CRASH_INFO_RECORD_4 bs) /\
  dec_u64s e 5 bs = option_map (fun p => vflat (fst p)) (dec e L_MINIDUMP_MAC_CRASH_INFO_RECORD_5 bs).
Proof. exact (conj eq_refl mac_record_layouts). Qed.
Print Assumptions c02_mac_record_layouts.

Definition ex_rec1 : mcrec := {| cr_ints := [1299841025; 5; 7; 1; 0]; cr_strings := [[47; 120]; [109]; []; [226; 152; 131]; []] |}.
Definition ex_rec2 : mcrec := {| cr_ints := [0; 5; 18446744073709551615; 0; 9]; cr_strings := [[]; []; []; []; [122]] |}.
Definition ex_gap : list Z := [1; 2; 3; 4; 5; 6; 7; 8].
Definition ex_machdr (count : Z) : value :=
  vtuple [VInt 1299841025; VInt count; VInt 48; vtuple (map (fun p => vloc (fst p) (snd p)) ([(61, 258); (54, 204)] ++ repeat (0, 0) 18))].
(* a big-endian file: 32 bytes, the header, then the SECOND record, then the first (with two trailing bytes) *)
Definition ex_macfile (count : Z) : list Z :=
  repeat 7 32 ++ enc BE L_MINIDUMP_MAC_CRASH_INFO (ex_machdr count) ++ rec_bytes BE ex_rec2 ex_gap [] ++ rec_bytes BE ex_rec1 ex_gap [9; 9].
Example c02_nonvacuous_maccrash :
  wt L_MINIDUMP_MAC_CRASH_INFO (ex_machdr 2) = true /\
  records_at BE (ex_macfile 2) 48 [(61, 258); (54, 204)] [ex_rec1; ex_rec2] /\
  get_stream dec_maccrash BE (ex_macfile 2) [(ST_MozMacosCrashInfoStream, (1, 2)); (ST_MozMacosCrashInfoStream, (172, 32))] ST_MozMacosCrashInfoStream
    = SOk [ex_rec1; ex_rec2] /\
  (* a record count beyond the 20 slots reads the 20 (here: 18 empty locations fail) *)
  get_stream dec_maccrash BE (ex_macfile 99) [(ST_MozMacosCrashInfoStream, (172, 32))] ST_MozMacosCrashInfoStream = SErr /\
  (* version 4 in a version-5 stream: refused; version 0: passed over; version 3: the base variant *)
  mac_variant 3 RD_MAC_VERSIONS = Some (1, (16, 0)) /\ mac_variant 0 RD_MAC_VERSIONS = None /\ mac_variant 77 RD_MAC_VERSIONS = Some (5, (40, 5)).
Proof.
  split; [vm_compute; reflexivity|]. split; [|vm_compute; repeat split].
  eapply (ra_cons BE (ex_macfile 2) 48 61 258 ex_rec1 ex_gap [9; 9]); [vm_compute; reflexivity|vm_compute; reflexivity|].
  eapply (ra_cons BE (ex_macfile 2) 48 54 204 ex_rec2 ex_gap []); [vm_compute; reflexivity|vm_compute; reflexivity|].
  apply ra_nil.
Qed.

(* The handle data stream AS A WHOLE with its object-information chains.  A stream of 40-byte descriptors
   (16-byte header, any number of well-typed descriptors, any reserved word) whose every object_info_rva starts a chain that is in
   the file (chain_at: wherever the records lie, whichever way the links point; rva 0 = no chain): the reader returns the chain of
   every descriptor, in descriptor order — and get_stream serves it through any directory whose last HandleDataStream entry
   slices to the stream.  (The descriptors themselves — handle, names, counts — are the v_handles field of c02_dump_roundtrip.) *)
Theorem c02_handle_stream_chains : forall e all reserved ds chains l1 size rva l3,
  Forall (fun v => wt L_MINIDUMP_HANDLE_DESCRIPTOR_2 v = true) ds -> zlen ds < 4294967296 -> 0 <= reserved < 4294967296 ->
  Forall2 (fun v c => chain_at e all (info_rva v) c /\ Z.of_nat (length c) <= zlen all / 12) ds chains ->
  dec_handle_chains e all (handle_stream2 e reserved ds) = Some chains /\
  (slice all rva size = Some (handle_stream2 e reserved ds) -> ~ In ST_HandleDataStream (map fst l3) ->
   get_stream dec_handle_chains e all (l1 ++ (ST_HandleDataStream, (size, rva)) :: l3) ST_HandleDataStream = SOk chains).
Proof.
  intros e all reserved ds chains l1 size rva l3 W N R C. split.
  - exact (handle_stream_chains e all reserved ds chains W N R C).
  - intros Hs Hnot. rewrite get_stream_last, Hs by exact Hnot.
    rewrite (handle_stream_chains e all reserved ds chains W N R C). reflexivity.
Qed.
Print Assumptions c02_handle_stream_chains.

(* a big-endian file: 32 bytes, the stream (two descriptors) at 32..128, then the LAST record of the first handle's chain at 128 and
   its first record at 140 (link 140 -> 128 -> 0); the second handle has no chain; a decoy directory entry comes first *)
Definition ex_desc (h rva : Z) : value := vtuple (map VInt [h; 0; 0; 1; 2; 3; 4; rva; 0]).
Definition ex_hds : list value := [ex_desc 5 140; ex_desc 6 0].
Definition ex_hfile : list Z :=
  repeat 7 32 ++ handle_stream2 BE 9 ex_hds ++ enc_info_record BE 0 (2, 8) ++ enc_info_record BE 128 (1, 16).
Example c02_nonvacuous_handle_stream :
  Forall (fun v => wt L_MINIDUMP_HANDLE_DESCRIPTOR_2 v = true) ex_hds /\
  Forall2 (fun v c => chain_at BE ex_hfile (info_rva v) c /\ Z.of_nat (length c) <= zlen ex_hfile / 12) ex_hds [[(1, 16); (2, 8)]; []] /\
  slice ex_hfile 32 96 = Some (handle_stream2 BE 9 ex_hds) /\
  get_stream dec_handle_chains BE ex_hfile [(ST_HandleDataStream, (5, 7)); (ST_HandleDataStream, (96, 32))] ST_HandleDataStream
    = SOk [[(1, 16); (2, 8)]; []].
Proof.
  split; [repeat constructor|]. split; [|split; vm_compute; reflexivity].
  constructor; [split; [|vm_compute; discriminate]|constructor; [split; [apply chain_nil|vm_compute; discriminate]|constructor]].
  eapply chain_cons; [discriminate|vm_compute; reflexivity|reflexivity|].
  eapply chain_cons; [discriminate|vm_compute; reflexivity|reflexivity|]. apply chain_nil.
Qed.

(* linux_list_iter (cpuinfo / status with ':', lsb-release / environ with '='): `key<sep>value` lines, each ended by LF,
   whose sides carry no LF, no leading / trailing white space and no opening quote, the key without the separator, read
   back as exactly these pairs, in order, any number of lines (the value may contain the separator, and be empty) *)
Theorem c02_kv_roundtrip : forall sep l, sep <> 10 -> forallb (wf_kv_line sep) l = true ->
  kv_pairs sep (kv_text sep l) = l.
Proof. exact kv_roundtrip. Qed.
Print Assumptions c02_kv_roundtrip.

Example c02_nonvacuous_kv :
  let l := [([109; 111; 100; 101; 108; 32; 110; 97; 109; 101], [65; 58; 66]); ([102; 108; 97; 103; 115], []); ([], [120])] in
  forallb (wf_kv_line 58) l = true /\ kv_pairs 58 (kv_text 58 l) = l /\
  (* outside the theorem's hypotheses: trimming, quotes, a line without separator *)
  kv_pairs 61 [32; 65; 32; 61; 32; 34; 98; 32; 34; 9; 10; 110; 111; 115; 101; 112; 10; 61] = [([65], [98; 32]); ([], [])].
Proof. vm_compute. repeat split. Qed.

(* MinidumpLinuxMaps::read = procfs-core's MemoryMaps::from_read (ModelR6.parse_maps: BufRead::lines, smaps extension lines,
   splitn(6, ' '), from_str_radix with sign and overflow, permission letters, MMapPath::from after str::trim, the panic sites).
   Any number of lines as the kernel writes them (show_map_vma: hexadecimal addresses / offset / device with any zero padding that
   holds the value, `rwxp` letters, decimal inode, any number of blanks, then nothing / a special name / [stack:<tid>] / [other] /
   /SYSV<key> with or without " (deleted)" / any path that is UTF-8, one line, not white space at either end and not of a
   bracketed or /SYSV form), each ended by LF, read back as exactly these mappings, in order, in debug and release builds *)
Theorem c02_maps_roundtrip : forall p l, forallb wf_entry l = true -> parse_maps p (maps_text l) = Ret (map snd l).
Proof. exact maps_roundtrip. Qed.
Print Assumptions c02_maps_roundtrip.

(* the tie of that model to the tree: the translator compares the bodies of MinidumpLinuxMaps::read / iter and of
   MinidumpLinuxMapInfo::memory_range / is_readable / is_writable / is_executable with their expected text (an edit aborts it), and
   regenerates the procfs-core version from Cargo.lock: the parser modelled is the one the tree is built with *)
Theorem c02_maps_reader_pinned : RD_PROCFS_CORE_VERSION = MODELLED_PROCFS_CORE.
Proof. reflexivity. Qed.
Print Assumptions c02_maps_reader_pinned.

(* the same through the whole file: the listing is the LinuxMaps stream of a well-formed 20-stream model, serialized in either byte
   order; Minidump::read followed by get_stream::<MinidumpLinuxMaps> *)
Theorem c02_maps_in_dump : forall p e m l, wf_model e m = true -> m_lx_maps m = Some (maps_text l) -> forallb wf_entry l = true ->
  option_map (linux_maps_of p) (decode_dump (encode_dump e m)) = Some (SOk (Ret (map snd l))).
Proof.
  intros p e m l W M F. rewrite dump_roundtrip by exact W. cbn [option_map]. unfold linux_maps_of, view_of. cbn [v_lx_maps].
  rewrite M. cbn [sres_of]. rewrite maps_roundtrip by exact F. reflexivity.
Qed.
Print Assumptions c02_maps_in_dump.

(* a four-line listing (a path with a blank and a two-byte character, a thread stack, a deleted SysV segment with a negative key, an
   anonymous mapping that ends at 2^64-1) meets the hypotheses; outside them: a name between no-break spaces is trimmed, a line that
   opens with an upper-case hex digit is taken for an smaps key, `kB` values of 2^54 and more trap in debug builds only, a short
   /SYSV name and a thread-stack name ending in a two-byte character are the two panics of MMapPath::from *)
Example c02_nonvacuous_maps :
  forallb wf_entry ex_maps = true /\ parse_maps Debug (maps_text ex_maps) = Ret (map snd ex_maps) /\ zlen (maps_text ex_maps) = 304 /\
  classify [194; 160; 91; 104; 101; 97; 112; 93; 227; 128; 128] = Ret PHeap /\
  parse_maps Release [65; 48; 45; 66; 48; 32; 114; 45; 45; 112; 32; 48; 32; 48; 58; 48; 32; 48; 32; 10] = Fail /\
  (let t := [49; 45; 50; 32; 114; 45; 45; 112; 32; 48; 32; 48; 58; 48; 32; 48; 32; 10; 80; 115; 115; 58; 32;
             49; 56; 48; 49; 52; 51; 57; 56; 53; 48; 57; 52; 56; 49; 57; 56; 52; 32; 107; 66; 10] in
   parse_maps Debug t = Panic 3 /\ ostatus_is_ret (parse_maps Release t) = true) /\
  classify [47; 83; 89; 83; 86; 49; 50] = Panic 2 /\ classify [91; 115; 116; 97; 99; 107; 58; 53; 195; 169] = Panic 1.
Proof. vm_compute. repeat split; reflexivity. Qed.

(* smaps listings: after every mapping any number of attribute lines the reader accepts (UTF-8, one line, opening with A-Z, and
   `VmFlags...` / `Key: n` / `Key: n kB` with n a u64 whose product with 1024 does not trap) — the mappings read back unchanged *)
Theorem c02_smaps_roundtrip : forall p l,
  forallb (fun x => wf_entry (fst x) && forallb (attr_ok p) (snd x)) l = true ->
  parse_maps p (smaps_text l) = Ret (map (fun x => snd (fst x)) l).
Proof. exact smaps_roundtrip. Qed.
Print Assumptions c02_smaps_roundtrip.

(* ALL inputs (any bytes): the debug and the release build of the reader return the same, except that the debug build may stop at
   the multiplication of an smaps line (tag 3); the reader ends in regions, an error or one of its three panic sites, never
   anything else *)
Theorem c02_maps_profiles : forall b,
  (parse_maps Debug b = parse_maps Release b \/ parse_maps Debug b = Panic 3) /\ tame (parse_maps Debug b) /\ tame (parse_maps Release b).
Proof. intro b. split; [unfold parse_maps; apply maps_loop_profiles|split; apply maps_tame]. Qed.
Print Assumptions c02_maps_profiles.

Example c02_nonvacuous_smaps :
  let rss := [82; 115; 115; 58; 32; 32; 52; 32; 107; 66] in                       (* "Rss:  4 kB" *)
  let vmf := [86; 109; 70; 108; 97; 103; 115; 58; 32; 114; 100; 32; 101; 120] in   (* "VmFlags: rd ex" *)
  let l := match ex_maps with a :: _ :: _ :: d :: _ => [(a, [rss; vmf]); (d, [])] | _ => [] end in
  forallb (fun x => wf_entry (fst x) && forallb (attr_ok Debug) (snd x)) l = true /\
  parse_maps Debug (smaps_text l) = Ret (map (fun x => snd (fst x)) l) /\ zlen (map (fun x => snd (fst x)) l) = 2.
Proof. vm_compute. repeat split; reflexivity. Qed.
