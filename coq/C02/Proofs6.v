(* C02/Proofs6.v — the identifier derivations (debug id, code id) *)
From Coq Require Import Lia.
From RM Require Import C02.Model C02.Proofs1 C02.Proofs2 C02.Proofs3 C02.Proofs4.
Open Scope Z_scope.

Lemma all_zero_spec : forall l, all_zero l = true <-> Forall (fun b => b = 0) l.
Proof.
  induction l as [|b l IH]; cbn [all_zero forallb]; [split; [constructor|reflexivity]|].
  fold (all_zero l). rewrite andb_true_iff, IH, Z.eqb_eq. split.
  - intros [H1 H2]. constructor; assumption.
  - intro H. inversion H; subst. split; [reflexivity|assumption].
Qed.

(* bytes <-> integer, the converse direction of ule_dec_enc *)
Lemma ule_enc_dec : forall l, all_in 1 l = true -> ule_enc (length l) (ule_dec l) = l.
Proof.
  induction l as [|b l IH]; intro H; [reflexivity|].
  cbn [all_in] in H. apply andb_prop in H. destruct H as [Hb Hl]. apply andb_prop in Hb. destruct Hb as [H0 H1].
  apply Z.leb_le in H0. apply Z.ltb_lt in H1. rewrite wbits1 in H1.
  cbn [length ule_enc ule_dec].
  replace ((b + 256 * ule_dec l) mod 256) with b.
  2:{ apply (Z.mod_unique _ _ (ule_dec l)); lia. }
  replace ((b + 256 * ule_dec l) / 256) with (ule_dec l).
  2:{ apply (Z.div_unique _ _ _ b); lia. }
  rewrite IH by exact Hl. reflexivity.
Qed.
Lemma all_in_app : forall w a c, all_in w a = true -> all_in w c = true -> all_in w (a ++ c) = true.
Proof.
  induction a as [|x a IHa]; intros c Ha Hc; [exact Hc|]. cbn [app all_in] in *. apply andb_prop in Ha. destruct Ha as [Hx Ha'].
  rewrite Hx. cbn [andb]. apply IHa; assumption.
Qed.
Lemma all_in_firstn : forall w n l, all_in w l = true -> all_in w (firstn n l) = true.
Proof.
  induction n as [|n IHn]; intros l Hl; [reflexivity|]. destruct l as [|x l]; [reflexivity|].
  cbn [firstn all_in] in *. apply andb_prop in Hl. destruct Hl as [Hx Hl]. rewrite Hx. cbn [andb]. apply IHn. exact Hl.
Qed.
(* the GUID a build id is padded or cut to *)
Lemma all_in_guid : forall bid, all_in 1 bid = true -> all_in 1 (firstn 16 (bid ++ repeat 0 16)) = true.
Proof. intros bid H. apply all_in_firstn, all_in_app; [exact H|reflexivity]. Qed.

Lemma be_enc_dec : forall l, all_in 1 l = true -> enc_uint BE (length l) (dec_uint BE l) = l.
Proof.
  intros l H. unfold enc_uint, dec_uint. rewrite <- (rev_length l).
  rewrite ule_enc_dec; [apply rev_involutive|].
  induction l as [|b l IH]; [reflexivity|].
  cbn [all_in] in H. apply andb_prop in H. destruct H as [Hb Hl]. cbn [rev].
  apply all_in_app; [apply IH; exact Hl|]. cbn [all_in]. rewrite Hb. reflexivity.
Qed.

(* ELF build id in a big-endian dump: the identifier is the build id itself, zero-padded or cut to 16 bytes *)
Lemma debug_id_elf_be : forall bid, all_zero bid = false -> all_in 1 bid = true ->
  read_debug_id BE (CvElf bid) = DbgUuid (firstn 16 (bid ++ repeat 0 16)) 0.
Proof.
  intros bid Hz Hin. cbn [read_debug_id]. rewrite Hz.
  set (g := firstn 16 (bid ++ repeat 0 16)).
  assert (Hlen : length g = 16%nat).
  { unfold g. rewrite firstn_length, app_length, repeat_length. lia. }
  assert (Hg : all_in 1 g = true) by (apply all_in_guid; exact Hin).
  do 16 (destruct g as [|? g]; [discriminate|]). destruct g; [|discriminate].
  cbn [all_in] in Hg. bdestr.
  unfold uuid_of_fields. cbn [firstn skipn].
  pose proof (be_enc_dec [z; z0; z1; z2] ltac:(cbn [all_in]; bsplit; assumption)) as E1.
  pose proof (be_enc_dec [z3; z4] ltac:(cbn [all_in]; bsplit; assumption)) as E2.
  pose proof (be_enc_dec [z5; z6] ltac:(cbn [all_in]; bsplit; assumption)) as E3.
  cbn [length] in E1, E2, E3. rewrite E1, E2, E3. reflexivity.
Qed.

(* ELF build id in a little-endian dump: the three leading GUID fields are byte-swapped (the historical
   Breakpad convention), the last eight bytes are kept *)
Lemma be_enc_le_dec : forall l, all_in 1 l = true -> enc_uint BE (length l) (dec_uint LE l) = rev l.
Proof. intros l H. unfold enc_uint, dec_uint. rewrite ule_enc_dec by exact H. reflexivity. Qed.

Lemma debug_id_elf_le : forall bid g0 g1 g2 g3 g4 g5 g6 g7 tl, all_zero bid = false -> all_in 1 bid = true ->
  firstn 16 (bid ++ repeat 0 16) = g0 :: g1 :: g2 :: g3 :: g4 :: g5 :: g6 :: g7 :: tl ->
  read_debug_id LE (CvElf bid) = DbgUuid (g3 :: g2 :: g1 :: g0 :: g5 :: g4 :: g7 :: g6 :: tl) 0.
Proof.
  intros bid g0 g1 g2 g3 g4 g5 g6 g7 tl Hz Hin Hg. cbn [read_debug_id]. rewrite Hz, Hg.
  assert (Hall : all_in 1 (g0 :: g1 :: g2 :: g3 :: g4 :: g5 :: g6 :: g7 :: tl) = true).
  { rewrite <- Hg. apply all_in_guid. exact Hin. }
  cbn [all_in] in Hall. bdestr.
  unfold uuid_of_fields. cbn [firstn skipn].
  pose proof (be_enc_le_dec [g0; g1; g2; g3] ltac:(cbn [all_in]; bsplit; try assumption; reflexivity)) as E1.
  pose proof (be_enc_le_dec [g4; g5] ltac:(cbn [all_in]; bsplit; try assumption; reflexivity)) as E2.
  pose proof (be_enc_le_dec [g6; g7] ltac:(cbn [all_in]; bsplit; try assumption; reflexivity)) as E3.
  cbn [length rev app] in E1, E2, E3. rewrite E1, E2, E3. reflexivity.
Qed.

(* code identifiers are lower-case hexadecimal *)
Definition lower_hex (c : Z) : bool := ((48 <=? c) && (c <=? 57)) || ((97 <=? c) && (c <=? 102)).
Lemma hexdigit_lower : forall d, 0 <= d < 16 -> lower_hex (hexdigit false d) = true.
Proof.
  intros d H. unfold hexdigit, lower_hex. destruct (d <? 10) eqn:E; [apply Z.ltb_lt in E|apply Z.ltb_ge in E].
  - apply orb_true_iff. left. apply andb_true_iff. split; apply Z.leb_le; lia.
  - apply orb_true_iff. right. apply andb_true_iff. split; apply Z.leb_le; lia.
Qed.
Lemma forallb_app' : forall (f : Z -> bool) a b, forallb f a = true -> forallb f b = true -> forallb f (a ++ b) = true.
Proof. intros. rewrite forallb_app. apply andb_true_iff. split; assumption. Qed.
Lemma hex_fixed_lower : forall n z, forallb lower_hex (hex_fixed false n z) = true.
Proof.
  induction n as [|n IH]; intro z; [reflexivity|]. cbn [hex_fixed]. apply forallb_app'; [apply IH|].
  cbn [forallb]. rewrite hexdigit_lower by (apply Z.mod_pos_bound; lia). reflexivity.
Qed.
Lemma hex_min_aux_lower : forall f z, 0 <= z -> forallb lower_hex (hex_min_aux f z) = true.
Proof.
  induction f as [|f IH]; intros z Hz; [reflexivity|]. cbn [hex_min_aux].
  destruct (z <? 16) eqn:E.
  - apply Z.ltb_lt in E. cbn [forallb]. rewrite hexdigit_lower by lia. reflexivity.
  - apply forallb_app'; [apply IH; apply Z.div_pos; lia|]. cbn [forallb].
    rewrite hexdigit_lower by (apply Z.mod_pos_bound; lia). reflexivity.
Qed.
Lemma hex_bytes_lower : forall l, forallb lower_hex (hex_bytes false l) = true.
Proof.
  induction l as [|b l IH]; [reflexivity|]. unfold hex_bytes in *. cbn [flat_map]. apply forallb_app'; [apply hex_fixed_lower|exact IH].
Qed.
Theorem code_id_lower_hex : forall os time size c id, 0 <= size ->
  code_identifier os time size c = Some id -> forallb lower_hex id = true.
Proof.
  intros os time size c id Hs H.
  assert (Hts : forallb lower_hex (time_size_id time size) = true).
  { unfold time_size_id. apply forallb_app'; [apply hex_fixed_lower|apply hex_min_aux_lower; exact Hs]. }
  destruct c as [|d1 d2 d3 d4 age f|off s age f|bid|raw]; cbn [code_identifier] in H.
  - destruct os; try discriminate; injection H as H; subst id; exact Hts.
  - assert (Hmac : forallb lower_hex (hex_fixed false 8 d1 ++ hex_fixed false 4 d2 ++ hex_fixed false 4 d3 ++ hex_bytes false d4) = true).
    { apply forallb_app'; [apply hex_fixed_lower|]. apply forallb_app'; [apply hex_fixed_lower|].
      apply forallb_app'; [apply hex_fixed_lower|apply hex_bytes_lower]. }
    destruct os; injection H as H; subst id; try exact Hts. exact Hmac.
  - injection H as H; subst id. exact Hts.
  - destruct (all_zero bid); [discriminate|]. injection H as H; subst id. apply hex_bytes_lower.
  - discriminate.
Qed.

(* the identifiers of every module read back from a serialized model are the documented functions
   (read_debug_id / code_identifier / debug_file / module_version above) of the model's own records *)
Definition module_ids (e : endian) (os : os_class) (m : mmodule) :=
  (debug_id_string (read_debug_id e (md_cv m)), code_identifier os (md_time m) (md_size m) (md_cv m),
   debug_file (md_name m) (md_cv m), module_version os (md_ver m)).
Definition view_os (v : dview) : os_class :=
  os_of_platform (match v_sysinfo v with SOk s => Some (si_platform s) | _ => None end).
Definition view_module_ids (v : dview) :=
  match v_modules v with SOk l => Some (map (module_ids (v_endian v) (view_os v)) l) | _ => None end.

