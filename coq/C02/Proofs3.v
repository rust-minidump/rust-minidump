(* C02/Proofs3.v — the concrete item codecs and single-struct streams *)
From Coq Require Import Lia.
From RM Require Import C02.Model C02.Proofs1 C02.Proofs2.
Open Scope Z_scope.

Ltac lsize_tac :=
  match goal with
  | |- 1 <= ?x < _ => let v := eval vm_compute in x in change x with v; lia
  end.
Ltac ubits := unfold u32b, u16b, u64b in *; rewrite ?wbits4, ?wbits8, ?wbits2 in *.
Ltac wtsolve := unfold vloc; wt_open; rewrite ?wt_seq, ?wt_lu, ?wt_nil; rewrite ?wbits4, ?wbits8, ?wbits2, ?wbits1;
  bsplit; try reflexivity; try assumption; try (apply Z.leb_le; unfold U32M in *; lia); try (apply Z.ltb_lt; unfold U32M in *; lia).
Ltac hyps := ubits; bdestr; b2z; rewrite ?zlen_app in *; change (zlen (@nil Z)) with 0 in *.

Definition wf_region (r : mregion) : bool := u64b (mr_base r) && (0 <? zlen (mr_bytes r)).

Lemma region_ok : forall e, icodec_ok region_codec e wf_region.
Proof.
  intro e. constructor.
  - cbn [ic_layout region_codec]. lsize_tac.
  - intros r off H. reflexivity.
  - intros [base bytes] off H Hoff Hb. unfold wf_region in H. cbn [mr_base mr_bytes ic_aux region_codec] in *.
    hyps.
    cbn [ic_layout ic_value region_codec mr_base mr_bytes]. unfold L_MINIDUMP_MEMORY_DESCRIPTOR, L_MINIDUMP_LOCATION_DESCRIPTOR.
    wtsolve.
  - intros [base bytes] pre post H Hpre Hb. unfold wf_region in H. cbn [mr_base mr_bytes ic_aux region_codec] in *.
    bdestr. b2z.
    cbn [ic_read ic_value region_codec vtuple vloc mr_base mr_bytes].
    replace (zlen pre =? 0) with false by (symmetry; apply Z.eqb_neq; lia).
    replace (zlen bytes =? 0) with false by (symmetry; apply Z.eqb_neq; lia).
    cbn [orb]. rewrite slice_mid. reflexivity.
Qed.

Definition wf_thread (t : mthread) : bool :=
  u32b (th_id t) && u32b (th_suspend t) && u32b (th_pclass t) && u32b (th_prio t) && u64b (th_teb t)
  && u64b (th_stack_base t)
  && match th_stack t with Some b => 0 <? zlen b | None => true end
  && match th_ctx t with Some _ => true | None => false end.

Lemma thread_ok : forall e, icodec_ok thread_codec e wf_thread.
Proof.
  intro e. constructor.
  - cbn [ic_layout thread_codec]. lsize_tac.
  - intros t off H. destruct t as [id su pc pr teb sb st cx]. cbn [ic_layout ic_value thread_codec th_stack th_ctx].
    destruct st, cx; reflexivity.
  - intros [id su pc pr teb sb st cx] off H Hoff Hb. unfold wf_thread in H.
    cbn [th_id th_suspend th_pclass th_prio th_teb th_stack_base th_stack th_ctx ic_aux thread_codec] in *.
    destruct cx as [cx|]; [|bdestr; discriminate].
    cbn [ic_layout ic_value thread_codec th_id th_suspend th_pclass th_prio th_teb th_stack_base th_stack th_ctx].
    unfold L_MINIDUMP_THREAD, L_MINIDUMP_MEMORY_DESCRIPTOR, L_MINIDUMP_LOCATION_DESCRIPTOR.
    pose proof (zlen_nonneg _ cx).
    destruct st as [st|]; cbn [obytes] in *; [pose proof (zlen_nonneg _ st)|]; hyps; wtsolve.
  - intros [id su pc pr teb sb st cx] pre post H Hpre Hb. unfold wf_thread in H.
    cbn [th_id th_suspend th_pclass th_prio th_teb th_stack_base th_stack th_ctx ic_aux thread_codec] in *.
    destruct cx as [cx|]; [|bdestr; discriminate].
    cbn [ic_read ic_value thread_codec vtuple vloc th_id th_suspend th_pclass th_prio th_teb th_stack_base th_stack th_ctx].
    destruct st as [st|]; cbn [obytes] in *.
    + bdestr. b2z.
      replace (zlen pre =? 0) with false by (symmetry; apply Z.eqb_neq; lia).
      replace (zlen st =? 0) with false by (symmetry; apply Z.eqb_neq; lia).
      cbn [orb].
      rewrite <- (app_assoc st). rewrite slice_mid.
      replace (pre ++ st ++ cx ++ post) with ((pre ++ st) ++ cx ++ post) by (rewrite <- app_assoc; reflexivity).
      rewrite (slice_mid' (pre ++ st) cx post) by (rewrite ?zlen_app; reflexivity).
      reflexivity.
    + cbn [zlen length Z.of_nat]. rewrite Z.eqb_refl. rewrite orb_true_r. cbn [app].
      rewrite (slice_mid' pre cx post) by lia. reflexivity.
Qed.

Definition wf_module (e : endian) (m : mmodule) : bool :=
  u64b (md_base m) && u32b (md_size m) && negb (bad_image (md_base m) (md_size m))
  && u32b (md_checksum m) && u32b (md_time m) && wf_string (md_name m)
  && wt L_VS_FIXEDFILEINFO (varr (md_ver m)) && wf_cv e (md_cv m)
  && u32b (fst (md_misc m)) && u32b (snd (md_misc m))
  && (length (md_res m) =? 4)%nat && all_in 4 (md_res m).

Lemma enc_cv_pos : forall e c, wf_cv e c = true -> c <> CvNone -> 0 < zlen (enc_cv e c).
Proof.
  intros e c H Hne. destruct c as [|d1 d2 d3 d4 age file|off s age file|bid|raw]; [congruence| | | |]; cbn [enc_cv].
  - rewrite zlen_app, (enc_zlen_endian e LE). pose proof (zlen_nonneg _ file).
    cbn [wf_cv] in H. bdestr.
    assert (Hd4 : length d4 = 8%nat) by (apply Nat.eqb_eq; assumption).
    rewrite enc_zlen_shape.
    + let v := eval vm_compute in (lsize L_CV_INFO_PDB70) in change (lsize L_CV_INFO_PDB70) with v. lia.
    + unfold L_CV_INFO_PDB70, L_GUID. cbn [vtuple]. rewrite !shape_seq.
      rewrite (wt_shape (LArr 8 (LU 1)) (varr d4)) by (apply wt_varr'; assumption). reflexivity.
  - rewrite zlen_app. pose proof (zlen_nonneg _ file).
    rewrite enc_zlen_shape by reflexivity.
    let v := eval vm_compute in (lsize L_CV_INFO_PDB20) in change (lsize L_CV_INFO_PDB20) with v. lia.
  - rewrite zlen_app. pose proof (zlen_nonneg _ bid).
    rewrite enc_zlen_shape by reflexivity.
    let v := eval vm_compute in (lsize L_CV_INFO_ELF) in change (lsize L_CV_INFO_ELF) with v. lia.
  - cbn [wf_cv] in H. destruct (take 4 raw) as [[h r]|] eqn:E; [|discriminate].
    apply take_some in E. destruct E as [E1 E2]. subst raw. rewrite zlen_app. unfold zlen. lia.
Qed.

Lemma module_ok : forall e, icodec_ok module_codec e (wf_module e).
Proof.
  intro e. constructor.
  - cbn [ic_layout module_codec]. lsize_tac.
  - intros [base size ck tm name ver cv misc res] off H. unfold wf_module in H.
    cbn [md_base md_size md_checksum md_time md_name md_ver md_cv md_misc md_res] in *. bdestr.
    cbn [ic_layout ic_value module_codec md_base md_size md_checksum md_time md_name md_ver md_cv md_misc md_res].
    match goal with H : (length res =? 4)%nat = true |- _ => apply Nat.eqb_eq in H end.
    destruct res as [|r0 [|r1 [|r2 [|r3 [|]]]]]; try discriminate.
    unfold L_MINIDUMP_MODULE. cbn [vtuple]. rewrite !shape_seq.
    rewrite (wt_shape L_VS_FIXEDFILEINFO (varr ver)) by assumption. reflexivity.
  - intros [base size ck tm name ver cv misc res] off H Hoff Hb. unfold wf_module in H.
    cbn [md_base md_size md_checksum md_time md_name md_ver md_cv md_misc md_res ic_aux module_codec] in *. bdestr.
    cbn [ic_layout ic_value module_codec md_base md_size md_checksum md_time md_name md_ver md_cv md_misc md_res].
    match goal with H : (length res =? 4)%nat = true |- _ => apply Nat.eqb_eq in H end.
    destruct res as [|r0 [|r1 [|r2 [|r3 [|]]]]]; try discriminate.
    rewrite zlen_app, zlen_enc_string in Hb. rewrite (enc_cv_zlen_endian LE e).
    pose proof (zlen_nonneg _ name). pose proof (zlen_nonneg _ (enc_cv e cv)).
    unfold L_MINIDUMP_MODULE, L_MINIDUMP_LOCATION_DESCRIPTOR, vloc. cbn [vtuple firstn skipn varr map]. 
    rewrite !wt_seq.
    match goal with H : wt L_VS_FIXEDFILEINFO _ = true |- _ => rewrite H end.
    cbn [all_in] in *. bdestr. ubits.
    cbn [wt]. wtsolve.
  - intros [base size ck tm name ver cv [ms mr] res] pre post H Hpre Hb. unfold wf_module in H.
    cbn [md_base md_size md_checksum md_time md_name md_ver md_cv md_misc md_res ic_aux module_codec fst snd] in *. bdestr.
    match goal with H : (length res =? 4)%nat = true |- _ => apply Nat.eqb_eq in H end.
    cbn [ic_read ic_value module_codec vtuple vloc md_base md_size md_checksum md_time md_name md_ver md_cv md_misc md_res fst snd].
    match goal with H : negb (bad_image _ _) = true |- _ => apply negb_true_iff in H; rewrite H end.
    rewrite <- app_assoc. rewrite read_string_enc by assumption. cbn [obnd].
    rewrite (enc_cv_zlen_endian LE e).
    assert (Hcv : (if zlen (enc_cv e cv) =? 0 then Some CvNone
                   else obnd (slice (pre ++ enc_string e name ++ enc_cv e cv ++ post) (zlen pre + (4 + 2 * zlen name)) (zlen (enc_cv e cv))) (dec_cv e))
                  = Some cv).
    { destruct (cvrec_none_dec cv) as [Hn|Hn].
      - subst cv. reflexivity.
      - pose proof (enc_cv_pos e cv ltac:(assumption) Hn).
        replace (zlen (enc_cv e cv) =? 0) with false by (symmetry; apply Z.eqb_neq; lia).
        replace (pre ++ enc_string e name ++ enc_cv e cv ++ post) with ((pre ++ enc_string e name) ++ enc_cv e cv ++ post)
          by (rewrite <- app_assoc; reflexivity).
        rewrite (slice_mid' (pre ++ enc_string e name) (enc_cv e cv) post) by (rewrite ?zlen_app, ?zlen_enc_string; lia).
        cbn [obnd]. apply dec_cv_enc; assumption. }
    rewrite Hcv. cbn [obnd]. rewrite !unvarr_varr. cbn [obnd].
    rewrite firstn_skipn. reflexivity.
Qed.

Definition wf_unloaded (m : munloaded) : bool :=
  u64b (um_base m) && u32b (um_size m) && negb (bad_image (um_base m) (um_size m))
  && u32b (um_checksum m) && u32b (um_time m) && wf_string (um_name m).

Lemma unloaded_ok : forall e, icodec_ok unloaded_codec e wf_unloaded.
Proof.
  intro e. constructor.
  - cbn [ic_layout unloaded_codec]. lsize_tac.
  - intros m off H. reflexivity.
  - intros [base size ck tm name] off H Hoff Hb. unfold wf_unloaded in H.
    cbn [um_base um_size um_checksum um_time um_name ic_aux unloaded_codec] in *.
    cbn [ic_layout ic_value unloaded_codec um_base um_size um_checksum um_time um_name].
    rewrite zlen_enc_string in Hb. pose proof (zlen_nonneg _ name).
    unfold L_MINIDUMP_UNLOADED_MODULE. hyps. wtsolve.
  - intros [base size ck tm name] pre post H Hpre Hb. unfold wf_unloaded in H.
    cbn [um_base um_size um_checksum um_time um_name ic_aux unloaded_codec] in *. bdestr.
    cbn [ic_read ic_value unloaded_codec vtuple um_base um_size um_checksum um_time um_name].
    match goal with H : negb (bad_image _ _) = true |- _ => apply negb_true_iff in H; rewrite H end.
    rewrite read_string_enc by assumption. reflexivity.
Qed.

Definition wf_tname (n : Z * list Z) : bool := u32b (fst n) && wf_string (snd n).

Lemma tname_ok : forall e, icodec_ok tname_codec e wf_tname.
Proof.
  intro e. constructor.
  - cbn [ic_layout tname_codec]. lsize_tac.
  - intros m off H. reflexivity.
  - intros [id name] off H Hoff Hb. unfold wf_tname in H. cbn [fst snd ic_aux tname_codec] in *.
    cbn [ic_layout ic_value tname_codec fst snd].
    rewrite zlen_enc_string in Hb. pose proof (zlen_nonneg _ name).
    unfold L_MINIDUMP_THREAD_NAME. hyps. wtsolve.
  - intros [id name] pre post H Hpre Hb. unfold wf_tname in H. cbn [fst snd ic_aux tname_codec] in *. bdestr.
    cbn [ic_read ic_value tname_codec vtuple fst snd].
    rewrite read_string_enc by assumption. reflexivity.
Qed.

Definition wf_meminfo (row : list Z) : bool := wt L_MINIDUMP_MEMORY_INFO (varr row).

Lemma meminfo_ok : forall e, icodec_ok meminfo_codec e wf_meminfo.
Proof.
  intro e. constructor.
  - cbn [ic_layout meminfo_codec]. lsize_tac.
  - intros row off H. apply wt_shape. exact H.
  - intros row off H _ _. exact H.
  - intros row pre post H _ _. cbn [ic_read ic_value meminfo_codec]. rewrite unvarr_varr. reflexivity.
Qed.

Definition wf_region64 (r : mregion) : bool := u64b (mr_base r).

Lemma zlen_flat_desc64 : forall e l, forallb wf_region64 l = true ->
  zlen (flat_map (enc_desc64 e) l) = zlen l * 16.
Proof.
  intros e. induction l as [|r l IH]; intro H; [reflexivity|].
  cbn [forallb] in H. apply andb_prop in H. destruct H as [Hr Hl].
  cbn [flat_map]. rewrite zlen_app, zlen_cons, IH by exact Hl.
  unfold enc_desc64. rewrite enc_zlen_shape by reflexivity.
  let v := eval vm_compute in (lsize L_MINIDUMP_MEMORY_DESCRIPTOR64) in change (lsize L_MINIDUMP_MEMORY_DESCRIPTOR64) with v. lia.
Qed.

Lemma dec_mem64_regions_enc : forall e l pre post off, off = zlen pre -> forallb wf_region64 l = true ->
  off + zlen (flat_map mr_bytes l) < wbits 8 ->
  dec_mem64_regions e (pre ++ flat_map mr_bytes l ++ post) (length l) off (flat_map (enc_desc64 e) l) = Some l.
Proof.
  intros e. induction l as [|[base bytes] l IH]; intros pre post off -> H Hb; [reflexivity|].
  cbn [forallb] in H. apply andb_prop in H. destruct H as [Hr Hl]. unfold wf_region64 in Hr. cbn [mr_base] in Hr.
  cbn [flat_map length dec_mem64_regions mr_bytes] in *. rewrite zlen_app in Hb.
  pose proof (zlen_nonneg _ bytes). pose proof (zlen_nonneg _ pre). pose proof (zlen_nonneg _ (flat_map mr_bytes l)).
  unfold enc_desc64 at 1. cbn [mr_base mr_bytes].
  rewrite dec_enc.
  2:{ unfold L_MINIDUMP_MEMORY_DESCRIPTOR64. hyps. wtsolve. }
  cbn [vtuple].
  unfold checked_add. change (2 ^ 64) with 18446744073709551616. rewrite wbits8 in Hb.
  replace (zlen pre + zlen bytes <? 18446744073709551616) with true by (symmetry; apply Z.ltb_lt; lia).
  cbn [obnd]. rewrite <- app_assoc. rewrite slice_mid. cbn [obnd].
  rewrite (app_assoc pre), (IH (pre ++ bytes) post) by (rewrite ?zlen_app, ?wbits8; try assumption; lia). reflexivity.
Qed.

Theorem mem64_roundtrip : forall e, sec_ok (enc_mem64 e) (dec_mem64 e) (forallb wf_region64).
Proof.
  intros e l pre post Hwf Hpre Hb. unfold enc_mem64 in *. cbn [fst snd] in *.
  change (lsize L_MINIDUMP_MEMORY_DESCRIPTOR64) with 16 in *.
  rewrite !zlen_app, !zlen_enc_uint, zlen_flat_desc64 in Hb by assumption.
  pose proof (zlen_nonneg _ l). pose proof (zlen_nonneg _ (flat_map mr_bytes l)). pose proof (zlen_nonneg _ pre).
  split.
  { rewrite !zlen_app, !zlen_enc_uint, zlen_flat_desc64 by assumption. lia. }
  set (h1 := enc_uint e 8 (zlen l)). set (h2 := enc_uint e 8 (zlen pre + (16 + zlen l * 16))).
  set (ds := flat_map (enc_desc64 e) l). set (data := flat_map mr_bytes l).
  exists (h1 ++ h2 ++ ds). split.
  - replace (pre ++ (h1 ++ h2 ++ ds ++ data) ++ post) with (pre ++ (h1 ++ h2 ++ ds) ++ (data ++ post))
      by (rewrite <- !app_assoc; reflexivity).
    apply slice_mid'; [reflexivity|]. unfold h1, h2, ds. rewrite !zlen_app, !zlen_enc_uint, zlen_flat_desc64 by assumption. lia.
  - unfold dec_mem64. unfold h1 at 1. rewrite take_app by apply length_enc_uint. cbn [obnd fst snd].
    unfold h2 at 1. rewrite take_app by apply length_enc_uint. cbn [obnd fst snd].
    unfold U32M in *.
    rewrite !dec_enc_uint by (rewrite wbits8; lia).
    change (lsize L_MINIDUMP_MEMORY_DESCRIPTOR64) with 16.
    unfold h1, h2, ds. rewrite !zlen_app, !zlen_enc_uint, zlen_flat_desc64 by assumption.
    replace (Z.of_nat 8 + (Z.of_nat 8 + zlen l * 16) =? 16 + zlen l * 16) with true by (symmetry; apply Z.eqb_eq; lia).
    cbn [negb]. rewrite zlen_to_nat.
    fold ds. fold h1. fold h2.
    replace (pre ++ (h1 ++ h2 ++ ds ++ data) ++ post) with ((pre ++ h1 ++ h2 ++ ds) ++ data ++ post)
      by (rewrite <- !app_assoc; reflexivity).
    assert (Hoff : zlen pre + (16 + zlen l * 16) = zlen (pre ++ h1 ++ h2 ++ ds)).
    { unfold h1, h2, ds. rewrite !zlen_app, !zlen_enc_uint, zlen_flat_desc64 by assumption. lia. }
    apply dec_mem64_regions_enc; [exact Hoff|assumption|]. rewrite wbits8. unfold data. lia.
Qed.

Definition wf_exception (x : mexception) : bool :=
  u32b (ex_thread_id x) && u32b (ex_align x) && u32b (ex_code x) && u32b (ex_flags x) && u64b (ex_record x)
  && u64b (ex_address x) && u32b (ex_nparams x) && u32b (ex_align2 x)
  && wt (LArr 15 (LU 8)) (varr (ex_info x))
  && match ex_ctx x with Some _ => true | None => false end.

Theorem exception_roundtrip : forall e, sec_ok (enc_exception e) (dec_exception e) wf_exception.
Proof.
  intros e [tid al code fl rec addr np al2 info cx] pre post H Hpre Hb. unfold wf_exception in H.
  cbn [ex_thread_id ex_align ex_code ex_flags ex_record ex_address ex_nparams ex_align2 ex_info ex_ctx] in H.
  destruct cx as [cx|]; [|bdestr; discriminate]. bdestr.
  unfold enc_exception in *.
  cbn [fst snd ex_thread_id ex_align ex_code ex_flags ex_record ex_address ex_nparams ex_align2 ex_info ex_ctx obytes] in *.
  pose proof (zlen_nonneg _ cx). pose proof (zlen_nonneg _ pre).
  edestruct (struct_blob _ _ _ _ pre post Hb) as (Hs & Hsl & Hdec & Hre & Hz).
  { unfold L_MINIDUMP_EXCEPTION_STREAM, L_MINIDUMP_EXCEPTION. cbn [vtuple]. rewrite !shape_seq.
    rewrite (wt_shape (LArr 15 (LU 8)) (varr info)) by assumption. reflexivity. }
  { change (lsize L_MINIDUMP_EXCEPTION_STREAM) with 168. intro Hb'.
    unfold L_MINIDUMP_EXCEPTION_STREAM, L_MINIDUMP_EXCEPTION, L_MINIDUMP_LOCATION_DESCRIPTOR. cbn [vtuple]. rewrite !wt_seq.
    match goal with H : wt (LArr 15 (LU 8)) _ = true |- _ => rewrite H end. hyps. wtsolve. }
  match type of Hdec with dec _ _ ?b = _ => set (bs := b) in * end.
  split; [exact Hs|]. eexists. split; [exact Hsl|].
  unfold dec_exception. rewrite Hdec. cbn [vtuple vloc]. rewrite unvarr_varr. cbn [obnd].
  rewrite Hre, (slice_mid' _ cx post) by (rewrite ?Hz; reflexivity). reflexivity.
Qed.

Definition wf_sysinfo (s : msysinfo) : bool :=
  u16b (si_arch s) && u16b (si_level s) && u16b (si_revision s)
  && ((0 <=? si_nproc s) && (si_nproc s <? 256)) && ((0 <=? si_ptype s) && (si_ptype s <? 256))
  && u32b (si_major s) && u32b (si_minor s) && u32b (si_build s) && u32b (si_platform s)
  && u16b (si_suite s) && u16b (si_reserved2 s)
  && wt (LArr 24 (LU 1)) (varr (si_cpu s))
  && match si_csd s with Some u => wf_string u | None => false end.

Theorem sysinfo_roundtrip : forall e, sec_ok (enc_sysinfo e) (dec_sysinfo e) wf_sysinfo.
Proof.
  intros e [ar lv rv np pt mj mn bn pf su r2 cpu csd] pre post H Hpre Hb. unfold wf_sysinfo in H.
  cbn [si_arch si_level si_revision si_nproc si_ptype si_major si_minor si_build si_platform si_suite si_reserved2 si_cpu si_csd] in H.
  destruct csd as [csd|]; [|bdestr; discriminate]. bdestr.
  unfold enc_sysinfo in *.
  cbn [fst snd si_arch si_level si_revision si_nproc si_ptype si_major si_minor si_build si_platform si_suite si_reserved2 si_cpu si_csd] in *.
  pose proof (zlen_nonneg _ csd). pose proof (zlen_nonneg _ pre).
  edestruct (struct_blob _ _ _ _ pre post Hb) as (Hs & Hsl & Hdec & Hre & Hz).
  { unfold L_MINIDUMP_SYSTEM_INFO, L_CPU_INFORMATION. cbn [vtuple]. rewrite !shape_seq.
    rewrite (wt_shape (LArr 24 (LU 1)) (varr cpu)) by assumption. reflexivity. }
  { change (lsize L_MINIDUMP_SYSTEM_INFO) with 56. rewrite zlen_enc_string. intro Hb'.
    unfold L_MINIDUMP_SYSTEM_INFO, L_CPU_INFORMATION. cbn [vtuple]. rewrite !wt_seq.
    match goal with H : wt (LArr 24 (LU 1)) _ = true |- _ => rewrite H end. hyps. wtsolve. }
  match type of Hdec with dec _ _ ?b = _ => set (bs := b) in * end.
  split; [exact Hs|]. eexists. split; [exact Hsl|].
  unfold dec_sysinfo. rewrite Hdec. cbn [vtuple]. rewrite unvarr_varr. cbn [obnd].
  rewrite Hre, <- Hz, read_string_enc by assumption. reflexivity.
Qed.

Lemma unflat_vflat : forall L l v r, unflat L l = Some (v, r) -> l = vflat v ++ r.
Proof.
  induction L as [w|w|t|n t IHt IHr| |t r IHt IHr] using layout_ind2; intros l v r0 H; cbn [unflat] in *.
  1,2: destruct l; inversion H; reflexivity.
  1,3: inversion H; reflexivity.
  all: destruct (unflat t l) as [[a l1]|] eqn:E1; [|discriminate];
       match type of H with match ?X with _ => _ end = _ => destruct X as [[b l2]|] eqn:E2; [|discriminate] end;
       inversion H; subst; apply IHt in E1; apply IHr in E2; subst; cbn [vflat]; rewrite <- app_assoc; reflexivity.
Qed.

Definition wf_misc (m : Z * list Z) : bool :=
  (1 <=? fst m) && (fst m <=? 5) &&
  match unflat (misc_layout (fst m)) (snd m) with
  | Some (v, []) => wt (misc_layout (fst m)) v
  | _ => false
  end.

Lemma misc_try_small : forall e bs j, zlen bs < lsize (misc_layout j) -> misc_try e bs j = None.
Proof. intros e bs j H. unfold misc_try. replace (lsize (misc_layout j) <=? zlen bs) with false by (symmetry; apply Z.leb_gt; lia). reflexivity. Qed.

Lemma misc_try_hit : forall e k v, wt (misc_layout k) v = true ->
  misc_try e (enc e (misc_layout k) v) k = Some (k, vflat v).
Proof.
  intros e k v H. unfold misc_try. rewrite enc_zlen by exact H. rewrite Z.leb_refl. rewrite dec_enc_nil by exact H. reflexivity.
Qed.

Theorem misc_roundtrip : forall e, sec_ok (enc_misc e) (dec_misc e) wf_misc.
Proof.
  intros e [k ints] pre post H Hpre Hb. unfold wf_misc in H. cbn [fst snd] in H.
  apply andb_prop in H. destruct H as [H Hu]. apply andb_prop in H. destruct H as [H1 H2]. b2z.
  unfold enc_misc in *. cbn [fst snd] in *.
  destruct (unflat (misc_layout k) ints) as [[v [|x r]]|] eqn:E; try discriminate.
  apply unflat_vflat in E. rewrite app_nil_r in E. subst ints.
  cbn [fst snd] in *.
  assert (Hlen : zlen (enc e (misc_layout k) v) = lsize (misc_layout k)) by (apply enc_zlen; exact Hu).
  split; [rewrite Hlen; pose proof (lsize_nonneg (misc_layout k)); lia|].
  exists (enc e (misc_layout k) v). split.
  - apply slice_mid'; [reflexivity|]. symmetry. exact Hlen.
  - unfold dec_misc.
    assert (Hk : k = 1 \/ k = 2 \/ k = 3 \/ k = 4 \/ k = 5) by lia.
    destruct Hk as [Hk|[Hk|[Hk|[Hk|Hk]]]]; subst k;
      (* dec_misc tries the revisions largest first: those above k are longer than the stream and must fail before k is hit *)
      rewrite ?(misc_try_small e _ 5) by (rewrite Hlen; vm_compute; reflexivity);
      rewrite ?(misc_try_small e _ 4) by (rewrite Hlen; vm_compute; reflexivity);
      rewrite ?(misc_try_small e _ 3) by (rewrite Hlen; vm_compute; reflexivity);
      rewrite ?(misc_try_small e _ 2) by (rewrite Hlen; vm_compute; reflexivity);
      rewrite misc_try_hit by exact Hu; reflexivity.
Qed.

Definition wf_flat (L : layout) (ints : list Z) : bool :=
  match unflat L ints with
  | Some (v, []) => wt L v
  | _ => false
  end.

Theorem flat_roundtrip : forall L e, sec_ok (enc_flat L e) (dec_flat L e) (wf_flat L).
Proof.
  intros L e ints pre post H Hpre Hb. unfold wf_flat in H. unfold enc_flat in *.
  destruct (unflat L ints) as [[v [|x r]]|] eqn:E; try discriminate.
  apply unflat_vflat in E. rewrite app_nil_r in E. subst ints. cbn [fst snd] in *.
  assert (Hlen : zlen (enc e L v) = lsize L) by (apply enc_zlen; exact H).
  split; [rewrite Hlen; pose proof (lsize_nonneg L); lia|].
  exists (enc e L v). split.
  - apply slice_mid'; [reflexivity|]. symmetry. exact Hlen.
  - unfold dec_flat. rewrite dec_enc_nil by exact H. reflexivity.
Qed.

Lemma flat_codec_ok : forall L e, 1 <= lsize L < 4294967296 -> icodec_ok (flat_codec L) e (wf_flat L).
Proof.
  intros L e Hs. constructor.
  - exact Hs.
  - intros ints off H. unfold wf_flat in H. cbn [ic_layout ic_value flat_codec].
    destruct (unflat L ints) as [[v [|x r]]|]; try discriminate. apply wt_shape. exact H.
  - intros ints off H _ _. unfold wf_flat in H. cbn [ic_layout ic_value flat_codec].
    destruct (unflat L ints) as [[v [|x r]]|]; try discriminate. exact H.
  - intros ints pre post H _ _. unfold wf_flat in H. cbn [ic_read ic_value flat_codec].
    destruct (unflat L ints) as [[v [|x r]]|] eqn:E; try discriminate.
    apply unflat_vflat in E. rewrite app_nil_r in E. subst ints. reflexivity.
Qed.

Theorem raw_roundtrip : forall e, sec_ok (enc_raw e) (dec_raw e) (fun _ => true).
Proof.
  intros e b pre post _ Hpre Hb. unfold enc_raw. cbn [fst snd]. pose proof (zlen_nonneg _ b).
  split; [lia|]. exists b. split; [apply slice_mid|reflexivity].
Qed.

Definition wf_ostring (o : option (list Z)) : bool := match o with Some u => wf_string u | None => true end.
Definition wf_handle (h : mhandle) : bool :=
  u64b (h_handle h) && wf_ostring (h_type h) && wf_ostring (h_object h)
  && u32b (h_attr h) && u32b (h_access h) && u32b (h_hcount h) && u32b (h_pcount h).

Lemma zlen_ostring : forall e o, zlen (ostring e o) = ostring_len o.
Proof. intros e [u|]; cbn [ostring ostring_len]; [apply zlen_enc_string|reflexivity]. Qed.

Lemma read_ostring_enc : forall e o pre post, wf_ostring o = true -> 0 < zlen pre ->
  read_ostring e (pre ++ ostring e o ++ post) (orva o (zlen pre)) = o.
Proof.
  intros e [u|] pre post H Hpre; cbn [ostring orva wf_ostring] in *; unfold read_ostring.
  - replace (zlen pre =? 0) with false by (symmetry; apply Z.eqb_neq; lia). apply read_string_enc. exact H.
  - reflexivity.
Qed.

Lemma handle_ok : forall v2 e, icodec_ok (handle_codec v2) e wf_handle.
Proof.
  intros v2 e. constructor.
  - destruct v2; cbn [ic_layout handle_codec]; lsize_tac.
  - intros h off H. destruct v2; reflexivity.
  - intros [hd ty ob at_ ac hc pc] off H Hoff Hb. unfold wf_handle in H.
    cbn [h_handle h_type h_object h_attr h_access h_hcount h_pcount ic_aux handle_codec] in *.
    rewrite zlen_app, !zlen_ostring in Hb.
    assert (Ht : 0 <= ostring_len ty) by (destruct ty; cbn [ostring_len]; [pose proof (zlen_nonneg _ l); lia|lia]).
    assert (Ho : 0 <= ostring_len ob) by (destruct ob; cbn [ostring_len]; [pose proof (zlen_nonneg _ l); lia|lia]).
    assert (Hr1 : 0 <= orva ty off <= off) by (destruct ty; cbn [orva]; lia).
    assert (Hr2 : 0 <= orva ob (off + ostring_len ty) <= off + ostring_len ty) by (destruct ob; cbn [orva]; lia).
    destruct v2; cbn [ic_layout ic_value handle_codec h_handle h_type h_object h_attr h_access h_hcount h_pcount app];
      unfold L_MINIDUMP_HANDLE_DESCRIPTOR_2, L_MINIDUMP_HANDLE_DESCRIPTOR; hyps; wtsolve.
  - intros [hd ty ob at_ ac hc pc] pre post H Hpre Hb. unfold wf_handle in H.
    cbn [h_handle h_type h_object h_attr h_access h_hcount h_pcount ic_aux handle_codec] in *. bdestr.
    assert (E1 : read_ostring e (pre ++ (ostring e ty ++ ostring e ob) ++ post) (orva ty (zlen pre)) = ty).
    { rewrite <- app_assoc. apply read_ostring_enc; assumption. }
    assert (E2 : read_ostring e (pre ++ (ostring e ty ++ ostring e ob) ++ post) (orva ob (zlen pre + ostring_len ty)) = ob).
    { replace (pre ++ (ostring e ty ++ ostring e ob) ++ post) with ((pre ++ ostring e ty) ++ ostring e ob ++ post)
        by (rewrite <- !app_assoc; reflexivity).
      replace (zlen pre + ostring_len ty) with (zlen (pre ++ ostring e ty)) by (rewrite zlen_app, zlen_ostring; reflexivity).
      apply read_ostring_enc; [assumption|]. rewrite zlen_app. pose proof (zlen_nonneg _ (ostring e ty)). lia. }
    destruct v2; cbn [ic_read ic_value handle_codec vtuple app h_handle h_type h_object h_attr h_access h_hcount h_pcount];
      rewrite E1, E2; reflexivity.
Qed.

Lemma handle_esize_vals : handle_esize false = 32 /\ handle_esize true = 40 /\ HANDLE_HDR = 16.
Proof. repeat split. Qed.

Lemma dec_handle_hdr_enc : forall e v2 n ents, 0 <= n < wbits 4 -> zlen ents = n * handle_esize v2 ->
  dec_handle_hdr e (enc_exlist_hdr e HANDLE_HDR 4 (handle_esize v2) n ++ ents) = Some (handle_esize v2, (n, ents)).
Proof.
  intros e v2 n ents Hn Hlen. destruct handle_esize_vals as [E0 [E1 EH]].
  unfold dec_handle_hdr, enc_exlist_hdr. rewrite EH.
  assert (Hes : 0 <= handle_esize v2 < wbits 4) by (destruct v2; rewrite ?E0, ?E1, wbits4; lia).
  assert (Hz : zlen (enc_uint e 4 16 ++ enc_uint e 4 (handle_esize v2) ++ enc_uint e 4 n) = 12) by (zl; lia).
  rewrite Hz. change (Z.to_nat (16 - 12)) with 4%nat. cbn [repeat].
  rewrite <- !app_assoc.
  rewrite take_app by apply length_enc_uint. cbn [obnd fst snd].
  rewrite take_app by apply length_enc_uint. cbn [obnd fst snd].
  rewrite take_app by apply length_enc_uint. cbn [obnd fst snd].
  rewrite !dec_enc_uint by (rewrite ?wbits4 in *; lia).
  replace ((handle_esize v2 =? handle_esize false) || (handle_esize v2 =? handle_esize true)) with true
    by (destruct v2; rewrite ?E0, ?E1; reflexivity).
  cbn [negb]. zl. cbn [app]. rewrite Hlen.
  match goal with |- context [?a <? ?b] => replace (a <? b) with false by (symmetry; apply Z.ltb_ge; lia) end.
  change (Z.to_nat 16) with 16%nat.
  match goal with |- context [skipn 16 ?x] =>
    replace x with ((enc_uint e 4 16 ++ enc_uint e 4 (handle_esize v2) ++ enc_uint e 4 n ++ [0; 0; 0; 0]) ++ ents)
      by (rewrite <- !app_assoc; reflexivity) end.
  rewrite skipn_app.
  assert (Hl : length (enc_uint e 4 16 ++ enc_uint e 4 (handle_esize v2) ++ enc_uint e 4 n ++ [0; 0; 0; 0]) = 16%nat)
    by (rewrite !app_length, !length_enc_uint; reflexivity).
  rewrite Hl, Nat.sub_diag. rewrite <- Hl at 1. rewrite skipn_all. reflexivity.
Qed.

Definition wf_handles (x : bool * list mhandle) : bool := forallb wf_handle (snd x).

Theorem handles_roundtrip : forall e, sec_ok (enc_handles e) (dec_handles e) wf_handles.
Proof.
  intros e [v2 l] pre post Hwf Hpre Hb. unfold wf_handles in Hwf. unfold enc_handles, enc_exlist in *. cbn [fst snd] in *.
  destruct (framed_items _ _ _ _ (handle_ok v2 e) _ l pre post Hwf Hpre Hb) as (Hn & Hlen & Hs & Hsl & Hd).
  split; [exact Hs|]. eexists. split; [exact Hsl|].
  unfold dec_handles. change (lsize (ic_layout (handle_codec v2))) with (handle_esize v2) in *.
  rewrite dec_handle_hdr_enc by assumption. cbn [obnd fst snd].
  (* the descriptor size read back tells the two codecs apart *)
  replace (handle_esize v2 =? handle_esize true) with v2 by (destruct v2; reflexivity).
  rewrite zlen_to_nat, Hd. reflexivity.
Qed.
