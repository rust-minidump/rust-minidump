(* C02/Proofs11.v — the Linux maps text: what the kernel writes (show_map_vma) reads back as exactly the mappings written *)
From Coq Require Import ZArith List Bool Lia.
From RM Require Import Base.Word C02.Model C02.ModelR5 C02.ModelR6 C02.Proofs1 C02.Proofs2 C02.Proofs4 C02.Proofs10.
Import ListNotations.
Open Scope Z_scope.

Definition dval (radix : Z) (ds : list Z) (acc : Z) : Z := fold_left (fun a d => a * radix + d) ds acc.
Definition dchar (c : Z) : bool := ((48 <=? c) && (c <=? 57)) || ((97 <=? c) && (c <=? 102)).
Definition rdx (radix : Z) : Prop := radix = 10 \/ radix = 16.

Lemma digit_val_char : forall radix d, rdx radix -> 0 <= d < radix -> digit_val radix (digit_char d) = Some d.
Proof.
  intros radix d R H. unfold digit_val, digit_char.
  destruct (Z.ltb_spec d 10).
  - replace ((48 <=? 48 + d) && (48 + d <=? 57)) with true by (symmetry; apply andb_true_iff; split; apply Z.leb_le; lia).
    f_equal. lia.
  - destruct R as [R|R]; [lia|]. subst radix.
    replace ((48 <=? 87 + d) && (87 + d <=? 57)) with false by (symmetry; apply andb_false_iff; right; apply Z.leb_gt; lia).
    cbn [Z.eqb Pos.eqb].
    replace ((97 <=? 87 + d) && (87 + d <=? 102)) with true by (symmetry; apply andb_true_iff; split; apply Z.leb_le; lia).
    f_equal. lia.
Qed.

Lemma dchar_char : forall d, 0 <= d < 16 -> dchar (digit_char d) = true.
Proof.
  intros d H. unfold dchar, digit_char. destruct (Z.ltb_spec d 10); apply orb_true_iff; [left|right];
    apply andb_true_iff; split; apply Z.leb_le; lia.
Qed.

Lemma dchar_range : forall d, dchar d = true -> 48 <= d <= 102.
Proof.
  intros d H. unfold dchar in H. apply orb_true_iff in H.
  destruct H as [H|H]; apply andb_true_iff in H as [H1 H2]; apply Z.leb_le in H1, H2; lia.
Qed.
Lemma dchar_ascii : forall d, dchar d = true -> ws1 d = false /\ d < 128.
Proof.
  intros d H. apply dchar_range in H. split; [|lia]. unfold ws1.
  apply orb_false_iff. split; [apply andb_false_iff; right; apply Z.leb_gt; lia|apply Z.eqb_neq; lia].
Qed.

Lemma dval_ge : forall radix ds acc, 1 <= radix -> Forall (fun d => 0 <= d < radix) ds -> 0 <= acc -> acc <= dval radix ds acc.
Proof.
  intros radix ds. induction ds as [|d ds IH]; intros acc R F A; cbn [dval fold_left]; [lia|].
  inversion F; subst. specialize (IH (acc * radix + d) R H2). unfold dval in IH. nia.
Qed.

Lemma parse_digits_num : forall radix lo hi ds acc, rdx radix -> Forall (fun d => 0 <= d < radix) ds -> lo <= 0 -> 0 <= acc ->
  dval radix ds acc <= hi -> parse_digits radix 1 lo hi acc (map digit_char ds) = Some (dval radix ds acc).
Proof.
  intros radix lo hi ds. induction ds as [|d ds IH]; intros acc R F L A H; cbn [map parse_digits dval fold_left]; [reflexivity|].
  inversion F; subst. rewrite digit_val_char by assumption. cbv zeta.
  assert (R1 : 1 <= radix) by (destruct R; lia).
  assert (A' : 0 <= acc * radix + 1 * d) by nia.
  pose proof (dval_ge radix ds (acc * radix + 1 * d) R1 H3 A') as G.
  cbn [dval fold_left] in H. replace (acc * radix + d) with (acc * radix + 1 * d) in H by lia. unfold dval in G.
  replace ((lo <=? acc * radix + 1 * d) && (acc * radix + 1 * d <=? hi)) with true
    by (symmetry; apply andb_true_iff; split; apply Z.leb_le; lia).
  rewrite IH by assumption. unfold dval. replace (acc * radix + 1 * d) with (acc * radix + d) by lia. reflexivity.
Qed.

Lemma dval_app : forall radix a b acc, dval radix (a ++ b) acc = dval radix b (dval radix a acc).
Proof. intros. unfold dval. apply fold_left_app. Qed.

Lemma to_digits_range : forall radix n x, 0 < radix -> Forall (fun d => 0 <= d < radix) (to_digits radix n x).
Proof.
  intros radix n. induction n as [|n IH]; intros x R; cbn [to_digits]; [constructor|].
  apply Forall_app. split; [apply IH; assumption|]. constructor; [|constructor]. apply Z.mod_pos_bound. assumption.
Qed.

Lemma to_digits_val : forall radix n x, 0 < radix -> dval radix (to_digits radix n x) 0 = x mod radix ^ Z.of_nat n.
Proof.
  intros radix n. induction n as [|n IH]; intros x R.
  - cbn. symmetry. apply Z.mod_1_r.
  - cbn [to_digits]. rewrite dval_app, IH by assumption. cbn [dval fold_left].
    rewrite Nat2Z.inj_succ, Z.pow_succ_r by lia.
    rewrite Z.rem_mul_r by (try lia; apply Z.pow_pos_nonneg; lia). lia.
Qed.

Lemma to_digits_length : forall radix n x, length (to_digits radix n x) = n.
Proof.
  intros radix n. induction n as [|n IH]; intros x; cbn [to_digits]; [reflexivity|].
  rewrite app_length, IH. cbn. lia.
Qed.

Lemma num_str_dchar : forall radix w x, rdx radix -> forallb dchar (num_str radix w x) = true.
Proof.
  intros radix w x R. unfold num_str. apply forallb_forall. intros c Hc. apply in_map_iff in Hc. destruct Hc as [d [E I]]. subst c.
  pose proof (to_digits_range radix w x ltac:(destruct R; lia)) as F. rewrite Forall_forall in F. specialize (F d I).
  apply dchar_char. destruct R; lia.
Qed.

Lemma from_str_radix_digits : forall signed radix lo hi c t, c <> 43 -> c <> 45 ->
  from_str_radix signed radix lo hi (c :: t) = parse_digits radix 1 lo hi 0 (c :: t).
Proof.
  intros signed radix lo hi c t H1 H2. unfold from_str_radix.
  apply Z.eqb_neq in H1. apply Z.eqb_neq in H2. rewrite H1, H2. destruct t; reflexivity.
Qed.

Lemma parse_num_str : forall signed radix lo hi w x, rdx radix -> fits radix w x = true -> lo <= 0 -> x <= hi ->
  from_str_radix signed radix lo hi (num_str radix w x) = Some x.
Proof.
  intros signed radix lo hi w x R F L H. unfold fits in F. rewrite !andb_true_iff in F. destruct F as [[Fw Flo] Fhi].
  apply Z.ltb_lt in Fw, Fhi. apply Z.leb_le in Flo.
  assert (R0 : 0 < radix) by (destruct R; lia).
  pose proof (to_digits_range radix w x R0) as FD. pose proof (to_digits_val radix w x R0) as V.
  pose proof (to_digits_length radix w x) as LN. rewrite Z.mod_small in V by lia.
  unfold num_str. destruct (to_digits radix w x) as [|d ds] eqn:E; [cbn in LN; lia|].
  cbn [map]. inversion FD; subst.
  rewrite from_str_radix_digits.
  - change (digit_char d :: map digit_char ds) with (map digit_char (d :: ds)).
    rewrite parse_digits_num; try assumption; try lia. reflexivity.
  - pose proof (dchar_char d ltac:(destruct R; lia)) as D. unfold dchar in D. intro Q. rewrite Q in D. discriminate.
  - pose proof (dchar_char d ltac:(destruct R; lia)) as D. unfold dchar in D. intro Q. rewrite Q in D. discriminate.
Qed.

Definition nosep (sep : Z) (l : list Z) : bool := forallb (fun c => negb (c =? sep)) l.
Definition ascii (l : list Z) : bool := forallb (fun c => (0 <=? c) && (c <? 128)) l.

Lemma span_sep_app : forall sep a r, nosep sep a = true -> span_sep sep (a ++ sep :: r) = (a, Some r).
Proof.
  intros sep a r. induction a as [|c a IH]; intro H; cbn [app span_sep].
  - rewrite Z.eqb_refl. reflexivity.
  - cbn [nosep forallb] in H. bdestr. apply negb_true_iff in H. rewrite H, IH by assumption. reflexivity.
Qed.
Lemma span_sep_none : forall sep a, nosep sep a = true -> span_sep sep a = (a, None).
Proof.
  intros sep a. induction a as [|c a IH]; intro H; cbn [span_sep]; [reflexivity|].
  cbn [nosep forallb] in H. bdestr. apply negb_true_iff in H. rewrite H, IH by assumption. reflexivity.
Qed.
Lemma nosep_app : forall sep a b, nosep sep (a ++ b) = nosep sep a && nosep sep b.
Proof. intros. unfold nosep. apply forallb_app. Qed.
Lemma dchar_nosep : forall sep l, dchar sep = false -> forallb dchar l = true -> nosep sep l = true.
Proof. intros sep l S. apply forallb_imp. intros c D. apply negb_true_iff, Z.eqb_neq. intros ->. congruence. Qed.

Lemma splitn6 : forall A P O D I rest, nosep 32 A = true -> nosep 32 P = true -> nosep 32 O = true -> nosep 32 D = true ->
  nosep 32 I = true -> splitn 6 32 (A ++ [32] ++ P ++ [32] ++ O ++ [32] ++ D ++ [32] ++ I ++ [32] ++ rest) = [A; P; O; D; I; rest].
Proof.
  intros. cbn [splitn app]. repeat (rewrite span_sep_app by assumption). reflexivity.
Qed.

Lemma perms_all : forallb (fun p => implb (negb (Z.testbit p 3 && Z.testbit p 4)) (parse_perms (perms_str p) =? p))
                          (map Z.of_nat (seq 0 32)) = true.
Proof. vm_compute. reflexivity. Qed.
Lemma perms_roundtrip : forall p, 0 <= p < 32 -> Z.testbit p 3 && Z.testbit p 4 = false -> parse_perms (perms_str p) = p.
Proof.
  intros p R H. pose proof perms_all as A. rewrite forallb_forall in A.
  specialize (A p). rewrite H in A. cbn [negb implb] in A. apply Z.eqb_eq. apply A.
  apply in_map_iff. exists (Z.to_nat p). split; [lia|]. apply in_seq. lia.
Qed.
Lemma perms_chars : forall p, nosep 32 (perms_str p) = true /\ no_eol (perms_str p) = true /\ ascii (perms_str p) = true.
Proof.
  intro p. unfold perms_str, nosep, no_eol, ascii. cbn [forallb].
  destruct (Z.testbit p 0), (Z.testbit p 1), (Z.testbit p 2), (Z.testbit p 3), (Z.testbit p 4); repeat split.
Qed.

Lemma utrim_left_pad : forall n s, utrim_left (repeat 32 n ++ s) = utrim_left s.
Proof. induction n as [|n IH]; intro s; [reflexivity|]. cbn [repeat app utrim_left]. apply IH. Qed.

(* the same argument at either end: [utrim_right] and [ends_ws] are [utrim_left] and [starts_ws] on the reversed string *)
Lemma utrim_ends_id : forall s, (starts_ws s = false -> utrim_left s = s) /\ (ends_ws s = false -> utrim_right s = s).
Proof.
  intros s. split; intro H; destruct s as [|a [|b [|c t]]]; cbn [starts_ws ends_ws utrim_left utrim_right] in *; try reflexivity.
  1,4: rewrite orb_false_r in H; rewrite H; reflexivity.
  1,3: apply orb_false_iff in H as [H1 H2]; rewrite orb_false_r in H2; rewrite H1, H2; reflexivity.
  all: apply orb_false_iff in H as [H1 H2]; apply orb_false_iff in H2 as [H2 H3]; rewrite H1, H2, H3; reflexivity.
Qed.
Lemma utrim_pad_id : forall n s, starts_ws s = false -> ends_ws (rev s) = false -> utrim (repeat 32 n ++ s) = s.
Proof.
  intros n s H1 H2. unfold utrim. rewrite utrim_left_pad, (proj1 (utrim_ends_id s)), (proj2 (utrim_ends_id _)), rev_involutive by assumption. reflexivity.
Qed.
Lemma utrim_pad_nil : forall n, utrim (repeat 32 n ++ []) = [].
Proof. intro n. unfold utrim. rewrite utrim_left_pad. reflexivity. Qed.

(* an ASCII byte that is not white space is a character of its own: nothing is trimmed past it *)
Lemma starts_ws_ascii : forall a t, ws1 a = false -> a < 128 -> starts_ws (a :: t) = false.
Proof.
  intros a t W A. assert (N : forall k, 128 <= k -> (a =? k) = false) by (intros; apply Z.eqb_neq; lia).
  cbn [starts_ws]. rewrite W. destruct t as [|b [|c t]]; try reflexivity; unfold ws2, ws3; rewrite !N by lia; reflexivity.
Qed.
Lemma ends_ws_ascii : forall a t, ws1 a = false -> a < 128 -> ends_ws (a :: t) = false.
Proof.
  intros a t W A. assert (N : forall k, 128 <= k -> (a =? k) = false) by (intros; apply Z.eqb_neq; lia).
  cbn [ends_ws]. rewrite W. destruct t as [|b [|c t]]; try reflexivity; unfold ws2, ws3;
    rewrite !N, ?(proj2 (Z.leb_gt 128 a) A) by lia; cbn [andb orb]; rewrite ?andb_false_r; reflexivity.
Qed.

Lemma list_eqb_eq : forall a b, list_eqb a b = true -> a = b.
Proof.
  induction a as [|x a IH]; intros [|y b] H; cbn [list_eqb] in H; try discriminate; [reflexivity|].
  apply andb_true_iff in H as [H1 H2]. apply Z.eqb_eq in H1. subst. f_equal. apply IH. assumption.
Qed.
Lemma last_byte_snoc : forall l a, last_byte (l ++ [a]) = a.
Proof. intros. unfold last_byte. apply last_last. Qed.
Lemma last_byte_rev : forall s a t, rev s = a :: t -> last_byte s = a.
Proof.
  intros s a t H. assert (E : s = rev t ++ [a]) by (rewrite <- (rev_involutive s), H; reflexivity).
  rewrite E. apply last_byte_snoc.
Qed.

Definition SPECIALS := [S_HEAP; S_STACK; S_VDSO; S_VVAR; S_VSYSCALL; S_ROLLUP].

(* the tail of classify once the special names are out of the way *)
Lemma classify_not_special : forall n x, utrim (repeat 32 n ++ x) = x -> list_eqb x [] = false -> existsb (list_eqb x) SPECIALS = false ->
  classify (repeat 32 n ++ x) =
  if is_prefix S_TSTACK x then
    if 128 <=? last_byte x then Panic 1
    else match span_sep 58 (inner x) with
         | (_, Some r) => match parse_u32 10 (fst (span_sep 58 r)) with Some tid => Ret (PTStack tid) | None => Fail end
         | (_, None) => Fail
         end
  else if (nth 0 x 0 =? 91) && (last_byte x =? 93) then Ret (POther (inner x))
  else if is_prefix S_SYSV x then
    if (length x <? 13)%nat || negb (char_boundary x 13) then Panic 2
    else match parse_u32 16 (firstn 8 (skipn 5 x)) with
         | Some v => Ret (PVsys (if v <? 2147483648 then v else v - 4294967296))
         | None => Fail
         end
  else Ret (PPath x).
Proof.
  intros n x U E S. unfold classify. rewrite U. cbv zeta. rewrite E.
  unfold SPECIALS in S. cbn [existsb] in S. repeat (apply orb_false_iff in S; destruct S as [?H S]).
  rewrite H, H0, H1, H2, H3, H4. reflexivity.
Qed.

Lemma classify_special : forall n x p, In (x, p) [(S_HEAP, PHeap); (S_STACK, PStack); (S_VDSO, PVdso); (S_VVAR, PVvar);
                                                  (S_VSYSCALL, PVsyscall); (S_ROLLUP, PRollup)] ->
  classify (repeat 32 n ++ x) = Ret p.
Proof.
  intros n x p I. unfold classify.
  assert (U : utrim (repeat 32 n ++ x) = x).
  { cbn [In] in I. repeat (destruct I as [I|I]; [inversion I; subst; apply utrim_pad_id; reflexivity|]). contradiction. }
  rewrite U. cbn [In] in I. repeat (destruct I as [I|I]; [inversion I; subst; reflexivity|]). contradiction.
Qed.

Lemma classify_anon : forall n, classify (repeat 32 n ++ []) = Ret PAnon.
Proof. intro n. unfold classify. rewrite utrim_pad_nil. reflexivity. Qed.

Lemma classify_path : forall n s, plain_name s = true -> list_eqb s [] = false -> (nth 0 s 0 =? 91) && (last_byte s =? 93) = false ->
  is_prefix S_TSTACK s = false -> is_prefix S_SYSV s = false -> classify (repeat 32 n ++ s) = Ret (PPath s).
Proof.
  intros n s P E B T V. unfold plain_name in P. rewrite !andb_true_iff, !negb_true_iff in P. destruct P as [[_ Ps] Pe].
  rewrite classify_not_special.
  - rewrite T, B, V. reflexivity.
  - apply utrim_pad_id; assumption.
  - assumption.
  - apply not_true_is_false. intro X. apply existsb_exists in X. destruct X as [y [I Q]]. apply list_eqb_eq in Q. subst y.
    unfold SPECIALS in I. cbn [In] in I.
    repeat (destruct I as [I|I]; [subst s; cbn in B; discriminate|]). contradiction.
Qed.

Lemma classify_other : forall n s, negb (is_prefix S_TSTACK ([91] ++ s ++ [93])) = true ->
  negb (existsb (list_eqb ([91] ++ s ++ [93])) SPECIALS) = true -> classify (repeat 32 n ++ [91] ++ s ++ [93]) = Ret (POther s).
Proof.
  intros n s T S. apply negb_true_iff in T, S.
  assert (L : last_byte ([91] ++ s ++ [93]) = 93) by (rewrite app_assoc; apply last_byte_snoc).
  rewrite classify_not_special.
  - rewrite T, L. cbn [app nth]. cbn. unfold inner. cbn [tl]. rewrite removelast_last. reflexivity.
  - apply utrim_pad_id.
    + apply starts_ws_ascii; [reflexivity|lia].
    + rewrite app_assoc, rev_app_distr. cbn [rev app]. apply ends_ws_ascii; [reflexivity|lia].
  - reflexivity.
  - assumption.
Qed.

Lemma num_str_last : forall radix w x, rdx radix -> (0 < w)%nat -> exists l d, num_str radix w x = l ++ [d] /\ dchar d = true.
Proof.
  intros radix w x R W. destruct w as [|w]; [lia|]. unfold num_str. cbn [to_digits]. rewrite map_app. cbn [map].
  eexists. eexists. split; [reflexivity|]. apply dchar_char. pose proof (Z.mod_pos_bound x radix). destruct R; lia.
Qed.
(* past the special names: [inner x] is `stack:<tid>`, cut at the colon by span_sep, the number read back by parse_num_str *)
Lemma classify_tstack : forall n w tid, fits 10 w tid = true -> tid <= U32MAX ->
  classify (repeat 32 n ++ S_TSTACK ++ num_str 10 w tid ++ [93]) = Ret (PTStack tid).
Proof.
  intros n w tid F M.
  assert (R : rdx 10) by (left; reflexivity).
  pose proof (num_str_dchar 10 w tid R) as D.
  set (x := S_TSTACK ++ num_str 10 w tid ++ [93]).
  assert (L : last_byte x = 93) by (unfold x; rewrite !app_assoc; apply last_byte_snoc).
  rewrite classify_not_special.
  - fold x.
    assert (PF : is_prefix S_TSTACK x = true) by reflexivity.
    assert (IN : inner x = [115; 116; 97; 99; 107] ++ 58 :: num_str 10 w tid).
    { unfold inner, x. cbn [S_TSTACK app tl].
      change (115 :: 116 :: 97 :: 99 :: 107 :: 58 :: num_str 10 w tid ++ [93]) with ([115; 116; 97; 99; 107; 58] ++ num_str 10 w tid ++ [93]).
      rewrite app_assoc, removelast_last. reflexivity. }
    rewrite PF, L, IN. change (128 <=? 93) with false. cbv iota.
    rewrite span_sep_app by reflexivity.
    rewrite span_sep_none by (apply dchar_nosep; [reflexivity|assumption]). cbn [fst].
    unfold parse_u32. rewrite parse_num_str; try assumption; try lia. reflexivity.
  - apply utrim_pad_id.
    + apply starts_ws_ascii; [reflexivity|lia].
    + unfold x. rewrite !app_assoc, rev_app_distr. cbn [rev app]. apply ends_ws_ascii; [reflexivity|lia].
  - reflexivity.
  - reflexivity.
Qed.

(* likewise: bytes 5..13 of `/SYSV<8 hex digits>` are the key as a u32, read back by parse_num_str and taken as an i32 *)
Lemma classify_vsys : forall n v (del : bool), -2147483648 <= v <= 2147483647 ->
  classify (repeat 32 n ++ S_SYSV ++ num_str 16 8 (v mod 4294967296) ++ (if del then S_DELETED else [])) = Ret (PVsys v).
Proof.
  intros n v del V.
  assert (R : rdx 16) by (right; reflexivity).
  set (y := v mod 4294967296).
  assert (Y : 0 <= y < 4294967296) by (apply Z.mod_pos_bound; lia).
  assert (F : fits 16 8 y = true).
  { unfold fits. apply andb_true_iff. split; [apply andb_true_iff; split|]; [reflexivity|apply Z.leb_le; lia|apply Z.ltb_lt].
    change (16 ^ Z.of_nat 8) with 4294967296. lia. }
  assert (P : from_str_radix false 16 0 U32MAX (num_str 16 8 y) = Some y) by (apply parse_num_str; try assumption; unfold U32MAX; lia).
  pose proof (num_str_dchar 16 8 y R) as D.
  assert (LN : length (num_str 16 8 y) = 8%nat) by (unfold num_str; rewrite map_length; apply to_digits_length).
  destruct (num_str 16 8 y) as [|d0 [|d1 [|d2 [|d3 [|d4 [|d5 [|d6 [|d7 [|d8 t]]]]]]]]]; cbn [length] in LN; try discriminate.
  assert (D7 : dchar d7 = true) by (apply (proj1 (forallb_forall _ _) D); cbn; tauto).
  set (x := S_SYSV ++ [d0; d1; d2; d3; d4; d5; d6; d7] ++ (if del then S_DELETED else [])).
  assert (VV : (if y <? 2147483648 then y else y - 4294967296) = v).
  { unfold y. destruct (Z.ltb_spec v 0).
    - rewrite <- (Z_mod_plus_full v 1 4294967296). rewrite Z.mod_small by lia.
      destruct (Z.ltb_spec (v + 1 * 4294967296) 2147483648); lia.
    - rewrite Z.mod_small by lia. destruct (Z.ltb_spec v 2147483648); lia. }
  rewrite classify_not_special.
  - unfold x. cbn [S_SYSV app is_prefix]. cbn -[parse_u32 Z.ltb Z.sub].
    destruct del; cbn -[parse_u32 Z.ltb Z.sub]; unfold parse_u32; rewrite P, VV; reflexivity.
  - apply utrim_pad_id.
    + apply starts_ws_ascii; [reflexivity|lia].
    + destruct del.
      * unfold x. cbn [S_SYSV S_DELETED app]. cbn [rev app]. apply ends_ws_ascii; [reflexivity|lia].
      * unfold x. cbn [S_SYSV app rev]. apply dchar_ascii in D7. destruct D7 as [W A]. apply ends_ws_ascii; assumption.
  - reflexivity.
  - reflexivity.
Qed.

Lemma valid_utf8_app : forall a b, valid_utf8 a = true -> valid_utf8 b = true -> valid_utf8 (a ++ b) = true.
Proof.
  fix IH 1. intros a b Ha Hb. destruct a as [|b0 t]; [exact Hb|].
  cbn [app]. cbn [valid_utf8] in Ha |- *.
  destruct ((0 <=? b0) && (b0 <? 128)); [apply IH; assumption|].
  destruct ((194 <=? b0) && (b0 <=? 223)).
  { destruct t as [|b1 t]; [discriminate|]. cbn [app]. apply andb_true_iff in Ha as [H1 H2]. rewrite H1. apply IH; assumption. }
  destruct (b0 =? 224).
  { destruct t as [|b1 [|b2 t]]; try discriminate. cbn [app]. apply andb_true_iff in Ha as [H1 H2]. rewrite H1. apply IH; assumption. }
  destruct ((225 <=? b0) && (b0 <=? 236) || (b0 =? 238) || (b0 =? 239)).
  { destruct t as [|b1 [|b2 t]]; try discriminate. cbn [app]. apply andb_true_iff in Ha as [H1 H2]. rewrite H1. apply IH; assumption. }
  destruct (b0 =? 237).
  { destruct t as [|b1 [|b2 t]]; try discriminate. cbn [app]. apply andb_true_iff in Ha as [H1 H2]. rewrite H1. apply IH; assumption. }
  destruct (b0 =? 240).
  { destruct t as [|b1 [|b2 [|b3 t]]]; try discriminate. cbn [app]. apply andb_true_iff in Ha as [H1 H2]. rewrite H1. apply IH; assumption. }
  destruct ((241 <=? b0) && (b0 <=? 243)).
  { destruct t as [|b1 [|b2 [|b3 t]]]; try discriminate. cbn [app]. apply andb_true_iff in Ha as [H1 H2]. rewrite H1. apply IH; assumption. }
  destruct (b0 =? 244).
  { destruct t as [|b1 [|b2 [|b3 t]]]; try discriminate. cbn [app]. apply andb_true_iff in Ha as [H1 H2]. rewrite H1. apply IH; assumption. }
  discriminate.
Qed.

Lemma ascii_valid : forall l, ascii l = true -> valid_utf8 l = true.
Proof.
  induction l as [|c l IH]; intro H; [reflexivity|]. cbn [ascii forallb] in H. apply andb_true_iff in H as [H1 H2].
  cbn [valid_utf8]. rewrite H1. apply IH. exact H2.
Qed.
Lemma ascii_app : forall a b, ascii (a ++ b) = ascii a && ascii b.
Proof. intros. apply forallb_app. Qed.
Lemma dchar_ascii_list : forall l, forallb dchar l = true -> ascii l = true.
Proof.
  intro l. apply forallb_imp. intros c D. apply dchar_range in D. apply andb_true_iff. split; [apply Z.leb_le|apply Z.ltb_lt]; lia.
Qed.
Lemma repeat_sp_ascii : forall n, ascii (repeat 32 n) = true.
Proof. induction n; [reflexivity|]. cbn [repeat ascii forallb]. exact IHn. Qed.

Definition noeol (l : list Z) : bool := no_eol l.
Lemma no_eol_app : forall a b, no_eol (a ++ b) = no_eol a && no_eol b.
Proof. intros. apply forallb_app. Qed.
Lemma dchar_no_eol : forall l, forallb dchar l = true -> no_eol l = true.
Proof.
  intro l. apply forallb_imp. intros c D. apply dchar_range in D.
  apply andb_true_iff. split; apply negb_true_iff, Z.eqb_neq; lia.
Qed.
Lemma repeat_sp_no_eol : forall n, no_eol (repeat 32 n) = true.
Proof. induction n; [reflexivity|]. cbn [repeat no_eol forallb]. exact IHn. Qed.

Lemma path_ok : forall f p, wf_path f p = true ->
  classify (repeat 32 (n_pad f) ++ path_str f p) = Ret p /\ valid_utf8 (path_str f p) = true /\ no_eol (path_str f p) = true.
Proof.
  intros f p W. destruct p; cbn [wf_path path_str] in *;
    try (split; [apply classify_special; cbn; tauto|split; reflexivity]).
  - (* path *) rewrite !andb_true_iff, !negb_true_iff in W. destruct W as [[[[Wp We] Wb] Wt] Wv].
    split; [apply classify_path; assumption|].
    unfold plain_name in Wp. rewrite !andb_true_iff in Wp. destruct Wp as [[[Wu Wn] _] _]. split; assumption.
  - (* thread stack *) apply andb_true_iff in W as [Wf Wm]. apply Z.leb_le in Wm. split; [apply classify_tstack; assumption|].
    pose proof (num_str_dchar 10 (w_tid f) tid (or_introl eq_refl)) as D.
    split.
    + apply ascii_valid. rewrite !ascii_app. rewrite (dchar_ascii_list _ D). reflexivity.
    + rewrite !no_eol_app. rewrite (dchar_no_eol _ D). reflexivity.
  - split; [apply classify_anon|split; reflexivity].
  - (* SysV *) apply andb_true_iff in W as [Wlo Whi]. apply Z.leb_le in Wlo, Whi. split; [apply classify_vsys; lia|].
    pose proof (num_str_dchar 16 8 (v mod 4294967296) (or_intror eq_refl)) as D.
    split.
    + apply ascii_valid. rewrite !ascii_app. rewrite (dchar_ascii_list _ D). destruct (deleted f); reflexivity.
    + rewrite !no_eol_app. rewrite (dchar_no_eol _ D). destruct (deleted f); reflexivity.
  - (* other *) rewrite !andb_true_iff in W. destruct W as [[[Wu Wn] Wt] Ws]. split; [apply classify_other; assumption|]. split.
    + apply valid_utf8_app; [reflexivity|]. apply valid_utf8_app; [exact Wu|reflexivity].
    + rewrite !no_eol_app, Wn. reflexivity.
Qed.

Definition entry_line (fm : mfmt * mmap) : list Z := fmt_entry (fst fm) (snd fm).

(* the two fields of the form x-y / x:y, both numbers of [w] hexadecimal digits *)
Lemma num_pair : forall signed lo hi sep w x y, sep = 45 \/ sep = 58 ->
  fits 16 w x = true -> fits 16 w y = true -> lo <= 0 -> x <= hi -> y <= hi ->
  let s := num_str 16 w x ++ [sep] ++ num_str 16 w y in
  split_into_num (from_str_radix signed 16 lo hi) sep s = Some (x, y) /\
  nosep 32 s = true /\ ascii s = true /\ no_eol s = true.
Proof.
  intros signed lo hi sep w x y S Fx Fy L Hx Hy s.
  assert (R : rdx 16) by (right; reflexivity).
  pose proof (num_str_dchar 16 w x R) as Dx. pose proof (num_str_dchar 16 w y R) as Dy.
  assert (Sd : dchar sep = false) by (destruct S; subst; reflexivity).
  unfold s. rewrite !nosep_app, !ascii_app, !no_eol_app, (dchar_nosep 32 _ eq_refl Dx), (dchar_nosep 32 _ eq_refl Dy),
    (dchar_ascii_list _ Dx), (dchar_ascii_list _ Dy), (dchar_no_eol _ Dx), (dchar_no_eol _ Dy).
  split; [|destruct S; subst; repeat split].
  unfold split_into_num. cbn [app]. rewrite span_sep_app, span_sep_none by (apply dchar_nosep; assumption).
  cbn [fst]. rewrite !parse_num_str by assumption. reflexivity.
Qed.

Lemma num_str_head : forall radix w x, rdx radix -> (0 < w)%nat ->
  match num_str radix w x with c :: _ => is_upper c | [] => false end = false.
Proof.
  intros radix w x R W. pose proof (num_str_dchar radix w x R) as D.
  assert (L : length (num_str radix w x) = w) by (unfold num_str; rewrite map_length; apply to_digits_length).
  destruct (num_str radix w x) as [|c r]; [reflexivity|]. cbn [forallb] in D. apply andb_true_iff in D as [D _].
  unfold dchar in D. unfold is_upper. apply andb_false_iff. apply orb_true_iff in D.
  destruct D as [D|D]; apply andb_true_iff in D as [Q1 Q2]; apply Z.leb_le in Q1, Q2; [left|right]; apply Z.leb_gt; lia.
Qed.

Lemma line_ok : forall fm, wf_entry fm = true ->
  from_line (entry_line fm) = Ret (snd fm) /\ valid_utf8 (entry_line fm) = true /\ no_eol (entry_line fm) = true
  /\ match entry_line fm with c :: _ => is_upper c | [] => false end = false.
Proof.
  intros [f m] W. unfold entry_line, fmt_entry. cbn [fst snd]. unfold wf_entry in W. cbn [fst snd] in W. bdestr. b2z. unfold U64MAX in *.
  destruct (path_ok f (mm_path m) ltac:(assumption)) as [PC [PV PE]].
  assert (R16 : rdx 16) by (right; reflexivity). assert (R10 : rdx 10) by (left; reflexivity).
  destruct (num_pair false 0 18446744073709551615 45 (w_addr f) (mm_lo m) (mm_hi m)) as (A1 & A2 & A3 & A4); try assumption; try tauto; try lia.
  destruct (num_pair true (-2147483648) 2147483647 58 (w_dev f) (mm_maj m) (mm_min m)) as (B1 & B2 & B3 & B4); try assumption; try tauto; try lia.
  set (addr := num_str 16 (w_addr f) (mm_lo m) ++ [45] ++ num_str 16 (w_addr f) (mm_hi m)) in *.
  set (dev := num_str 16 (w_dev f) (mm_maj m) ++ [58] ++ num_str 16 (w_dev f) (mm_min m)) in *.
  pose proof (num_str_dchar 16 (w_off f) (mm_off m) R16) as D3. pose proof (num_str_dchar 10 (w_ino f) (mm_inode m) R10) as D6.
  destruct (perms_chars (mm_perms m)) as [PS [PN PA]].
  split; [|split; [|split]].
  - unfold from_line. rewrite splitn6 by (assumption || (apply dchar_nosep; [reflexivity|assumption])).
    unfold parse_u64, parse_i32, U64MAX. rewrite A1, B1, !parse_num_str by (assumption || lia).
    rewrite PC. cbn [obind]. rewrite perms_roundtrip by (assumption || lia). destruct m; reflexivity.
  - (* every piece but the path is ASCII *)
    repeat first [ exact PV
                 | apply ascii_valid; first [assumption | apply dchar_ascii_list; assumption | apply repeat_sp_ascii | reflexivity]
                 | apply valid_utf8_app ].
  - rewrite !no_eol_app, A4, B4, PN, PE, repeat_sp_no_eol, (dchar_no_eol _ D3), (dchar_no_eol _ D6). reflexivity.
  - unfold addr. rewrite <- !app_assoc.
    pose proof (num_str_head 16 (w_addr f) (mm_lo m) R16) as U.
    destruct (num_str 16 (w_addr f) (mm_lo m)); [reflexivity|]. apply U.
    match goal with F : fits 16 (w_addr f) (mm_lo m) = true |- _ => unfold fits in F; bdestr; b2z; lia end.
Qed.

Lemma no_eol_lf : forall l, no_eol l = true -> forallb (fun c => negb (c =? 10)) l = true.
Proof.
  intros l H. apply forallb_forall. intros c I. unfold no_eol in H. rewrite forallb_forall in H. specialize (H c I).
  apply andb_true_iff in H. tauto.
Qed.
Lemma strip_cr_id : forall l, no_eol l = true -> strip_cr l = l.
Proof.
  intros l H. unfold strip_cr. destruct (rev l) as [|a r] eqn:E; [reflexivity|].
  assert (I : In a l) by (apply in_rev; rewrite E; left; reflexivity).
  unfold no_eol in H. rewrite forallb_forall in H. specialize (H a I). apply andb_true_iff in H as [_ H].
  apply negb_true_iff in H. apply Z.eqb_neq in H.
  destruct a as [|a|a]; try reflexivity. repeat (destruct a as [a|a|]; try reflexivity). contradiction.
Qed.

Lemma split_on_lines : forall ls, Forall (fun l => no_eol l = true) ls ->
  split_on 10 (flat_map (fun l => l ++ [10]) ls) = ls ++ [[]].
Proof.
  induction ls as [|l ls IH]; intro F; [reflexivity|]. inversion F; subst. cbn [flat_map].
  unfold split_on. rewrite <- app_assoc. cbn [app]. rewrite split_on_aux_line by (apply no_eol_lf; assumption).
  cbn [rev app]. fold (split_on 10 (flat_map (fun l0 => l0 ++ [10]) ls)). rewrite IH by assumption. reflexivity.
Qed.
Lemma lines_of_snoc : forall ls, lines_of (ls ++ [[]]) = map strip_cr ls.
Proof.
  induction ls as [|l ls IH]; [reflexivity|]. cbn [app lines_of map]. rewrite <- IH.
  destruct ls; reflexivity.
Qed.
Lemma buf_lines_text : forall ls, Forall (fun l => no_eol l = true) ls -> buf_lines (flat_map (fun l => l ++ [10]) ls) = ls.
Proof.
  intros ls F. unfold buf_lines. rewrite split_on_lines, lines_of_snoc by assumption.
  induction F; [reflexivity|]. cbn [map]. rewrite strip_cr_id, IHF by assumption. reflexivity.
Qed.

(* a listing in blocks: the line of a mapping, then lines the loop passes over while that mapping is the current one (none in a
   maps listing, the attribute lines in an smaps listing) *)
Definition block_ok (p : profile) (x : (mfmt * mmap) * list (list Z)) : Prop :=
  wf_entry (fst x) = true /\ Forall (fun ln => no_eol ln = true) (snd x) /\
  forall rest m acc, maps_loop p (snd x ++ rest) (Some m) acc = maps_loop p rest (Some m) acc.

Lemma blocks_loop_ok : forall p l cur acc, Forall (block_ok p) l ->
  maps_loop p (flat_map (fun x => entry_line (fst x) :: snd x) l) cur acc
  = Ret (rev acc ++ match cur with Some m => [m] | None => [] end ++ map (fun x => snd (fst x)) l).
Proof.
  intros p l. induction l as [|x l IH]; intros cur acc F.
  - cbn [flat_map maps_loop map]. destruct cur; cbn [rev app]; rewrite ?app_nil_r; reflexivity.
  - inversion F as [|? ? (W & _ & S) F']; subst. destruct (line_ok (fst x) W) as [FL [VU [NE UP]]].
    cbn [flat_map app maps_loop map]. rewrite VU, UP, FL. cbn [negb obind]. rewrite S, IH by exact F'.
    destruct cur; cbn [rev app]; rewrite <- ?app_assoc; reflexivity.
Qed.

Theorem blocks_roundtrip : forall p l, Forall (block_ok p) l ->
  parse_maps p (flat_map (fun ln => ln ++ [10]) (flat_map (fun x => entry_line (fst x) :: snd x) l))
  = Ret (map (fun x => snd (fst x)) l).
Proof.
  intros p l F. unfold parse_maps. rewrite buf_lines_text.
  - rewrite blocks_loop_ok by exact F. reflexivity.
  - apply Forall_forall. intros ln I. apply in_flat_map in I. destruct I as [x [Ix I]].
    destruct (proj1 (Forall_forall _ _) F x Ix) as (W & N & _). destruct I as [<-|I].
    + destruct (line_ok (fst x) W) as [_ [_ [NE _]]]. exact NE.
    + exact (proj1 (Forall_forall _ _) N ln I).
Qed.

Lemma maps_text_blocks : forall l,
  maps_text l = flat_map (fun ln => ln ++ [10]) (flat_map (fun x => entry_line (fst x) :: snd x) (map (fun fm => (fm, [])) l)).
Proof.
  unfold maps_text. induction l as [|fm l IH]; [reflexivity|]. cbn [map flat_map fst snd app]. rewrite IH. reflexivity.
Qed.

(* what the kernel writes for any list of mappings reads back as exactly these mappings, in both build profiles *)
Theorem maps_roundtrip : forall p l, forallb wf_entry l = true -> parse_maps p (maps_text l) = Ret (map snd l).
Proof.
  intros p l W. rewrite maps_text_blocks, blocks_roundtrip, map_map; [reflexivity|].
  apply Forall_forall. intros x I. apply in_map_iff in I. destruct I as [fm [<- I]].
  split; [exact (proj1 (forallb_forall _ _) W fm I)|split; [constructor|reflexivity]].
Qed.

(* the regions keep their order and their address pair: memory_range() is Some exactly for lo <= hi *)
Lemma maps_range : forall m, mm_range_ok m = true <-> mm_lo m <= mm_hi m.
Proof. intro m. unfold mm_range_ok. apply Z.leb_le. Qed.

(* non-vacuity: a four-line listing with a path containing blanks and non-ASCII characters, a thread stack, a deleted SysV segment
   with a negative key and an anonymous mapping at the top of the address space *)
Definition ex_fmt := {| w_addr := 16; w_off := 8; w_dev := 2; w_ino := 7; w_tid := 3; n_pad := 5; deleted := true |}.
Definition ex_maps : list (mfmt * mmap) :=
  [ (ex_fmt, {| mm_lo := 4194304; mm_hi := 4530176; mm_perms := 21; mm_off := 0; mm_maj := 8; mm_min := 2; mm_inode := 173521;
                mm_path := PPath [47; 117; 115; 114; 47; 195; 169; 32; 120] |});
    (ex_fmt, {| mm_lo := 140737488347136; mm_hi := 140737488351232; mm_perms := 19; mm_off := 0; mm_maj := 0; mm_min := 0; mm_inode := 0;
                mm_path := PTStack 42 |});
    (ex_fmt, {| mm_lo := 65536; mm_hi := 131072; mm_perms := 11; mm_off := 4096; mm_maj := 0; mm_min := 5; mm_inode := 32769;
                mm_path := PVsys (-2) |});
    ({| w_addr := 16; w_off := 8; w_dev := 2; w_ino := 1; w_tid := 1; n_pad := 0; deleted := false |},
     {| mm_lo := 18446744073709547520; mm_hi := 18446744073709551615; mm_perms := 16; mm_off := 0; mm_maj := 0; mm_min := 0; mm_inode := 0;
        mm_path := PAnon |}) ].
Example maps_nonvacuous : forallb wf_entry ex_maps = true /\ parse_maps Debug (maps_text ex_maps) = Ret (map snd ex_maps)
                          /\ zlen (maps_text ex_maps) = 304.
Proof. vm_compute. repeat split; reflexivity. Qed.
