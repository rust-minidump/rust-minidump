(* C02/Proofs8.v — MozSoftErrors, Mac boot args, Crashpad info (simple annotations, module list with list /
   simple / object annotations): serialize -> read = model, either byte order, at any offset of any file below 4 GiB *)
From Coq Require Import Lia.
From RM Require Import C02.Model C02.Proofs1 C02.Proofs2 C02.Proofs3.
Open Scope Z_scope.

Theorem softerr_roundtrip : forall e, sec_ok (enc_raw e) (dec_softerr e) valid_utf8.
Proof.
  intros e b pre post Hwf Hpre Hb. unfold enc_raw. cbn [fst snd]. pose proof (zlen_nonneg _ b).
  split; [lia|]. exists b. split; [apply slice_mid|]. unfold dec_softerr. rewrite Hwf. reflexivity.
Qed.

Definition wf_utf8 (s : list Z) : bool := valid_utf8 s && (zlen s <? wbits 4).

Lemma zlen_utf8z : forall e s, zlen (enc_utf8z e s) = 5 + zlen s.
Proof. intros. unfold enc_utf8z. rewrite !zlen_app, zlen_enc_uint, zlen_cons, zlen_nil. lia. Qed.

Lemma read_utf8z_enc : forall e s pre post, wf_utf8 s = true ->
  read_utf8z e (pre ++ enc_utf8z e s ++ post) (zlen pre) = Some s.
Proof.
  intros e s pre post H. unfold wf_utf8 in H. apply andb_prop in H. destruct H as [Hv Hl]. apply Z.ltb_lt in Hl.
  pose proof (zlen_nonneg _ s) as Hs.
  unfold read_utf8z, enc_utf8z. rewrite <- !app_assoc.
  rewrite (slice_mid' pre (enc_uint e 4 (zlen s)) _ (zlen pre) 4) by (rewrite ?zlen_enc_uint; reflexivity).
  cbn [obnd]. rewrite dec_enc_uint by lia.
  rewrite app_assoc.
  rewrite (slice_mid' (pre ++ enc_uint e 4 (zlen s)) s _) by (rewrite ?zlen_app, ?zlen_enc_uint; lia).
  cbn [obnd]. rewrite Hv.
  replace ((pre ++ enc_uint e 4 (zlen s)) ++ s ++ [0] ++ post) with (((pre ++ enc_uint e 4 (zlen s)) ++ s) ++ [0] ++ post)
    by (rewrite <- !app_assoc; reflexivity).
  rewrite (slice_mid' ((pre ++ enc_uint e 4 (zlen s)) ++ s) [0] post) by (rewrite ?zlen_app, ?zlen_enc_uint; reflexivity || lia).
  reflexivity.
Qed.

Lemma read_utf8u_enc : forall e s pre post, wf_utf8 s = true ->
  read_utf8u e (pre ++ (enc_uint e 4 (zlen s) ++ s) ++ post) (zlen pre) = Some s.
Proof.
  intros e s pre post H. unfold wf_utf8 in H. apply andb_prop in H. destruct H as [Hv Hl]. apply Z.ltb_lt in Hl.
  pose proof (zlen_nonneg _ s) as Hs.
  unfold read_utf8u. rewrite <- !app_assoc.
  rewrite (slice_mid' pre (enc_uint e 4 (zlen s)) _ (zlen pre) 4) by (rewrite ?zlen_enc_uint; reflexivity).
  cbn [obnd]. rewrite dec_enc_uint by lia.
  rewrite app_assoc.
  rewrite (slice_mid' (pre ++ enc_uint e 4 (zlen s)) s _) by (rewrite ?zlen_app, ?zlen_enc_uint; lia).
  cbn [obnd]. rewrite Hv. reflexivity.
Qed.

Definition wf_bootargs (x : mbootargs) : bool :=
  u32b (ba_type x) && match ba_args x with Some u => wf_string u | None => false end.

Theorem bootargs_roundtrip : forall e, sec_ok (enc_bootargs e) (dec_bootargs e) wf_bootargs.
Proof.
  intros e [ty args] pre post H Hpre Hb. unfold wf_bootargs in H. cbn [ba_type ba_args] in H.
  destruct args as [u|]; [|bdestr; discriminate]. bdestr.
  unfold enc_bootargs in *. cbn [fst snd ba_type ba_args ostring] in *.
  pose proof (zlen_nonneg _ u). pose proof (zlen_nonneg _ pre).
  edestruct (struct_blob _ _ _ _ pre post Hb) as (Hs & Hsl & Hdec & Hre & Hz); [reflexivity| |].
  { change (lsize L_MINIDUMP_MAC_BOOTARGS) with 12. rewrite zlen_enc_string. intro Hb'.
    unfold L_MINIDUMP_MAC_BOOTARGS. hyps. wtsolve. }
  match type of Hdec with dec _ _ ?b = _ => set (bs := b) in * end.
  split; [exact Hs|]. eexists. split; [exact Hsl|].
  unfold dec_bootargs. rewrite Hdec. cbn [vtuple].
  rewrite Hre, <- Hz, read_string_enc by assumption. reflexivity.
Qed.

Section Counted.
Context {A : Type} (c : icodec A) (e : endian) (wfA : A -> bool).

(* count, entries and out-of-line data, for any items serializer [ei] that frames correctly *)
Lemma counted_framed : forall ei, framed_spec c e wfA ei -> forall bound l pre post, forallb wfA l = true -> 0 < zlen pre ->
  let ssize := 4 + zlen l * lsize (ic_layout c) in
  let r := ei (zlen pre + ssize) l in
  let bytes := enc_uint e 4 (zlen l) ++ fst r ++ snd r in
  zlen pre + zlen bytes <= U32M ->
  0 <= ssize <= zlen bytes /\
  exists body, slice (pre ++ bytes ++ post) (zlen pre) ssize = Some body /\ counted_body c bound e (pre ++ bytes ++ post) body = Some l.
Proof.
  intros ei F bound l pre post Hwf Hpre ssize r bytes Hb.
  pose proof (F (enc_uint e 4 (zlen l)) l pre post Hwf Hpre) as H. cbv zeta in H. rewrite zlen_enc_uint in H. change (Z.of_nat 4) with 4 in H.
  destruct (H Hb) as (Hn & Hlen & Hs & Hsl & Hd). clear H. fold ssize r bytes in Hlen, Hs, Hsl, Hd.
  split; [exact Hs|]. eexists. split; [exact Hsl|]. unfold counted_body.
  pose proof (zlen_nonneg _ (fst r)). pose proof (zlen_nonneg _ (snd r)). pose proof (zlen_nonneg _ pre). pose proof (zlen_nonneg _ post).
  replace (zlen (enc_uint e 4 (zlen l) ++ fst r) =? 0) with false by (symmetry; apply Z.eqb_neq; rewrite zlen_app, zlen_enc_uint; lia).
  rewrite take_app by apply length_enc_uint. cbn [obnd fst snd]. rewrite dec_enc_uint by exact Hn.
  replace (bound && (zlen (pre ++ bytes ++ post) <? zlen l * lsize (ic_layout c))) with false.
  2:{ symmetry. apply andb_false_intro2. apply Z.ltb_ge. unfold bytes. rewrite !zlen_app, zlen_enc_uint, Hlen. lia. }
  rewrite zlen_to_nat. exact Hd.
Qed.

Theorem counted_roundtrip : icodec_ok c e wfA -> forall bound, sec_ok (enc_counted c e) (counted_body c bound e) (forallb wfA).
Proof. intros OK bound l pre post. apply (counted_framed _ (framed_items _ _ _ _ OK)). Qed.

Lemma counted_size : forall off l, fst (enc_counted c e off l) = 4 + zlen l * lsize (ic_layout c).
Proof. reflexivity. Qed.
End Counted.

Definition wf_kv (kv : list Z * list Z) : bool := wf_utf8 (fst kv) && wf_utf8 (snd kv).

Lemma dict_ok : forall e, icodec_ok dict_codec e wf_kv.
Proof.
  intro e. constructor.
  - cbn [ic_layout dict_codec]. lsize_tac.
  - intros kv off H. reflexivity.
  - intros [k v] off H Hoff Hb. unfold wf_kv in H. cbn [fst snd ic_aux ic_value ic_layout dict_codec] in *.
    rewrite zlen_app, !zlen_utf8z in Hb. pose proof (zlen_nonneg _ k). pose proof (zlen_nonneg _ v).
    unfold L_MINIDUMP_SIMPLE_STRING_DICTIONARY_ENTRY. hyps. wtsolve.
  - intros [k v] pre post H Hpre Hb. unfold wf_kv in H. cbn [fst snd ic_aux ic_value ic_read dict_codec vtuple] in *. bdestr.
    rewrite <- app_assoc. rewrite read_utf8z_enc by assumption.
    replace (pre ++ enc_utf8z e k ++ enc_utf8z e v ++ post) with ((pre ++ enc_utf8z e k) ++ enc_utf8z e v ++ post)
      by (rewrite <- !app_assoc; reflexivity).
    replace (zlen pre + 5 + zlen k) with (zlen (pre ++ enc_utf8z e k)) by (rewrite zlen_app, zlen_utf8z; lia).
    rewrite read_utf8z_enc by assumption. reflexivity.
Qed.

Lemma strlist_ok : forall e, icodec_ok strlist_codec e wf_utf8.
Proof.
  intro e. constructor.
  - cbn [ic_layout strlist_codec]. lsize_tac.
  - intros s off H. reflexivity.
  - intros s off H Hoff Hb. cbn [ic_aux ic_value ic_layout strlist_codec] in *.
    rewrite zlen_utf8z in Hb. pose proof (zlen_nonneg _ s).
    unfold L_MINIDUMP_RVA_LIST. hyps. wtsolve.
  - intros s pre post H Hpre Hb. cbn [ic_aux ic_value ic_read strlist_codec vtuple] in *.
    rewrite read_utf8z_enc by assumption. reflexivity.
Qed.

(* the value RVA of a non-string annotation is an arbitrary u32; type 1 carries a string *)
Definition wf_annot (a : mannot) : bool :=
  wf_utf8 (an_name a) && u16b (an_ty a) && u16b (an_reserved a)
  && match an_value a with
     | inl s => (an_ty a =? ANNOT_STRING) && wf_utf8 s
     | inr r => negb (an_ty a =? ANNOT_STRING) && u32b r
     end.

Lemma annot_ok : forall e, icodec_ok annot_codec e wf_annot.
Proof.
  intro e. constructor.
  - cbn [ic_layout annot_codec]. lsize_tac.
  - intros a off H. reflexivity.
  - intros [name ty rs val] off H Hoff Hb. unfold wf_annot in H. cbn [an_name an_ty an_reserved an_value ic_aux ic_value ic_layout annot_codec] in *.
    rewrite zlen_app, zlen_utf8z in Hb. pose proof (zlen_nonneg _ name).
    destruct val as [s|r].
    + rewrite zlen_app, zlen_enc_uint in Hb. pose proof (zlen_nonneg _ s).
      unfold L_MINIDUMP_ANNOTATION. hyps. wtsolve.
    + unfold L_MINIDUMP_ANNOTATION. hyps. wtsolve.
  - intros [name ty rs val] pre post H Hpre Hb. unfold wf_annot in H.
    cbn [an_name an_ty an_reserved an_value ic_aux ic_value ic_read annot_codec vtuple] in *. bdestr.
    rewrite <- app_assoc. rewrite read_utf8z_enc by assumption.
    destruct val as [s|r]; bdestr.
    + match goal with Hx : (ty =? ANNOT_STRING) = true |- _ => rewrite Hx end.
      replace (pre ++ enc_utf8z e name ++ (enc_uint e 4 (zlen s) ++ s) ++ post)
        with ((pre ++ enc_utf8z e name) ++ (enc_uint e 4 (zlen s) ++ s) ++ post) by (rewrite <- !app_assoc; reflexivity).
      replace (zlen pre + 5 + zlen name) with (zlen (pre ++ enc_utf8z e name)) by (rewrite zlen_app, zlen_utf8z; lia).
      rewrite read_utf8u_enc by assumption. reflexivity.
    + match goal with Hx : negb (ty =? ANNOT_STRING) = true |- _ => apply negb_true_iff in Hx; rewrite Hx end.
      reflexivity.
Qed.

Lemma dec_at_enc : forall L e v pre rest, wt L v = true ->
  dec_at L e (pre ++ enc e L v ++ rest) (zlen pre) = Some (vflat v).
Proof.
  intros L e v pre rest Hwt. unfold dec_at. pose proof (zlen_nonneg _ pre). pose proof (zlen_nonneg _ (enc e L v ++ rest)).
  replace ((0 <=? zlen pre) && (zlen pre <=? zlen (pre ++ enc e L v ++ rest))) with true.
  2:{ symmetry. apply andb_true_intro. split; apply Z.leb_le; [lia|rewrite zlen_app; lia]. }
  rewrite zlen_to_nat, skipn_pre, dec_enc by exact Hwt. reflexivity.
Qed.

Definition wf_cmodule (m : cmodule) : bool :=
  u32b (cm_index m) && u32b (cm_version m) && forallb wf_utf8 (cm_list m) && forallb wf_kv (cm_simple m)
  && forallb wf_annot (cm_objects m).

Lemma cmodule_read : forall e m pre post, wf_cmodule m = true -> 0 < zlen pre ->
  zlen pre + zlen (enc_cmodule_aux e (zlen pre) m) <= U32M ->
  ic_read cmodule_codec e (pre ++ enc_cmodule_aux e (zlen pre) m ++ post)
          (vtuple [VInt (cm_index m); vloc CMOD_SIZE (zlen pre)]) = Some (Some m).
Proof.
  intros e [idx ver l sm ob] pre post H Hpre Hb. unfold wf_cmodule in H.
  cbn [cm_index cm_version cm_list cm_simple cm_objects] in H. bdestr.
  unfold enc_cmodule_aux in *. cbn [cm_index cm_version cm_list cm_simple cm_objects] in *.
  change CMOD_SIZE with 28 in *.
  set (o1 := zlen pre + 28) in *.
  set (s1 := enc_counted strlist_codec e o1 l) in *.
  set (o2 := o1 + zlen (snd s1)) in *.
  set (s2 := enc_counted dict_codec e o2 sm) in *.
  set (o3 := o2 + zlen (snd s2)) in *.
  set (s3 := enc_counted annot_codec e o3 ob) in *.
  set (v := vtuple [VInt ver; vloc (fst s1) o1; vloc (fst s2) o2; vloc (fst s3) o3]) in *.
  set (S := enc e L_MINIDUMP_MODULE_CRASHPAD_INFO v) in *.
  assert (HS : zlen S = 28) by (apply enc_zlen_shape; reflexivity).
  rewrite !zlen_app, HS in Hb.
  pose proof (zlen_nonneg _ pre) as Hp. pose proof (zlen_nonneg _ (snd s1)) as Hn1.
  pose proof (zlen_nonneg _ (snd s2)) as Hn2. pose proof (zlen_nonneg _ (snd s3)) as Hn3.
  set (all := pre ++ (S ++ snd s1 ++ snd s2 ++ snd s3) ++ post) in *.
  destruct (sec_at _ _ _ _ l (counted_roundtrip _ _ _ (strlist_ok e) true) all (pre ++ S) (snd s2 ++ snd s3 ++ post) o1) as [Hz1 Hd1];
    try assumption.
  { rewrite zlen_app, HS. reflexivity. }
  { rewrite zlen_app. lia. }
  { unfold all. fold s1. rewrite <- !app_assoc. reflexivity. }
  { fold s1. lia. }
  destruct (sec_at _ _ _ _ sm (counted_roundtrip _ _ _ (dict_ok e) false) all (pre ++ S ++ snd s1) (snd s3 ++ post) o2) as [Hz2 Hd2];
    try assumption.
  { rewrite !zlen_app, HS. unfold o2, o1. lia. }
  { rewrite !zlen_app. lia. }
  { unfold all. fold s2. rewrite <- !app_assoc. reflexivity. }
  { fold s2. unfold o2, o1. lia. }
  destruct (sec_at _ _ _ _ ob (counted_roundtrip _ _ _ (annot_ok e) false) all (pre ++ S ++ snd s1 ++ snd s2) post o3) as [Hz3 Hd3];
    try assumption.
  { rewrite !zlen_app, HS. unfold o3, o2, o1. lia. }
  { rewrite !zlen_app. lia. }
  { unfold all. fold s3. rewrite <- !app_assoc. reflexivity. }
  { fold s3. unfold o3, o2, o1. lia. }
  fold s1 in Hz1, Hd1. fold s2 in Hz2, Hd2. fold s3 in Hz3, Hd3.
  assert (Hwt : wt L_MINIDUMP_MODULE_CRASHPAD_INFO v = true).
  { unfold v, L_MINIDUMP_MODULE_CRASHPAD_INFO, L_MINIDUMP_LOCATION_DESCRIPTOR. unfold o3, o2, o1 in *. hyps. wtsolve. }
  assert (Hda : dec_at L_MINIDUMP_MODULE_CRASHPAD_INFO e all (zlen pre) = Some (vflat v)).
  { replace all with (pre ++ enc e L_MINIDUMP_MODULE_CRASHPAD_INFO v ++ (snd s1 ++ snd s2 ++ snd s3 ++ post))
      by (unfold all, S; rewrite <- !app_assoc; reflexivity).
    apply dec_at_enc. exact Hwt. }
  cbn [ic_read cmodule_codec vtuple vloc]. rewrite Hda.
  unfold v. cbn [vtuple vloc vflat app]. unfold dec_counted.
  rewrite Hd1, Hd2, Hd3. reflexivity.
Qed.

Lemma cmodules_fst_len : forall e l off, zlen (fst (enc_cmodules e off l)) = zlen l * 12.
Proof.
  induction l as [|m l IH]; intro off; [reflexivity|].
  cbn [enc_cmodules fst snd]. rewrite zlen_app, zlen_cons, IH.
  rewrite enc_zlen_shape by reflexivity. change (lsize L_MINIDUMP_MODULE_CRASHPAD_INFO_LINK) with 12. lia.
Qed.

Lemma cmodules_dec : forall e l pre post off, off = zlen pre -> forallb wf_cmodule l = true -> 0 < zlen pre ->
  off + zlen (snd (enc_cmodules e off l)) <= U32M ->
  dec_items cmodule_codec e (pre ++ snd (enc_cmodules e off l) ++ post) (length l) (fst (enc_cmodules e off l)) = Some l.
Proof.
  induction l as [|m l IH]; intros pre post off -> Hwf Hpre Hb; [reflexivity|].
  cbn [forallb] in Hwf. apply andb_prop in Hwf. destruct Hwf as [Hm Hl].
  cbn [enc_cmodules fst snd length dec_items] in *. rewrite zlen_app in Hb.
  set (ax := enc_cmodule_aux e (zlen pre) m) in *.
  pose proof (zlen_nonneg _ ax) as Hax.
  pose proof (zlen_nonneg _ (snd (enc_cmodules e (zlen pre + zlen ax) l))) as Hrest.
  change (ic_layout cmodule_codec) with L_MINIDUMP_MODULE_CRASHPAD_INFO_LINK.
  rewrite dec_enc.
  2:{ pose proof Hm as Hm'. unfold wf_cmodule in Hm'. change CMOD_SIZE with 28.
      unfold L_MINIDUMP_MODULE_CRASHPAD_INFO_LINK, L_MINIDUMP_LOCATION_DESCRIPTOR. hyps. wtsolve. }
  rewrite <- (app_assoc ax).
  unfold ax at 1. rewrite cmodule_read by (try assumption; fold ax; lia).
  fold ax. rewrite (app_assoc pre), (IH (pre ++ ax) post) by (rewrite ?zlen_app; try assumption; lia). reflexivity.
Qed.

Theorem cmodule_list_roundtrip : forall e bound,
  sec_ok (enc_cmodule_list e) (counted_body cmodule_codec bound e) (forallb wf_cmodule).
Proof.
  intros e bound l pre post. apply (counted_framed cmodule_codec e wf_cmodule (enc_cmodules e)).
  apply framed; [discriminate|intros l0 off _; apply cmodules_fst_len|apply cmodules_dec].
Qed.

Definition byteb (b : Z) : bool := (0 <=? b) && (b <? 256).
Definition wf_guid (g : list Z) : bool :=
  match g with
  | [d1; d2; d3; b0; b1; b2; b3; b4; b5; b6; b7] =>
      u32b d1 && u16b d2 && u16b d3 && byteb b0 && byteb b1 && byteb b2 && byteb b3 && byteb b4 && byteb b5 && byteb b6 && byteb b7
  | _ => false
  end.
Definition wf_crashpad (x : mcrashpad) : bool :=
  u32b (cp_version x) && negb (cp_version x =? 0) && wf_guid (cp_report x) && wf_guid (cp_client x)
  && forallb wf_kv (cp_simple x) && forallb wf_cmodule (cp_modules x).

Lemma wf_guid_shape : forall g, wf_guid g = true ->
  exists d1 d2 d3 b0 b1 b2 b3 b4 b5 b6 b7, g = [d1; d2; d3; b0; b1; b2; b3; b4; b5; b6; b7].
Proof.
  intros g H. unfold wf_guid in H. do 11 (destruct g as [|? g]; [discriminate|]). destruct g; [|discriminate].
  repeat eexists.
Qed.

Definition guidv (d1 d2 d3 b0 b1 b2 b3 b4 b5 b6 b7 : Z) : value :=
  vtuple [VInt d1; VInt d2; VInt d3; vtuple [VInt b0; VInt b1; VInt b2; VInt b3; VInt b4; VInt b5; VInt b6; VInt b7]].

Theorem crashpad_roundtrip : forall e, sec_ok (enc_crashpad e) (dec_crashpad e) wf_crashpad.
Proof.
  intros e [ver rep cl sm ms] pre post H Hpre Hb. unfold wf_crashpad in H.
  cbn [cp_version cp_report cp_client cp_simple cp_modules] in H.
  apply andb_prop in H. destruct H as [H Hms]. apply andb_prop in H. destruct H as [H Hsm].
  apply andb_prop in H. destruct H as [H Hcl]. apply andb_prop in H. destruct H as [H Hrep].
  apply andb_prop in H. destruct H as [Hver Hnz].
  destruct (wf_guid_shape rep Hrep) as [r1 [r2 [r3 [p0 [p1 [p2 [p3 [p4 [p5 [p6 [p7 Er]]]]]]]]]]]. subst rep.
  destruct (wf_guid_shape cl Hcl) as [c1 [c2 [c3 [q0 [q1 [q2 [q3 [q4 [q5 [q6 [q7 Ec]]]]]]]]]]]. subst cl.
  unfold enc_crashpad in *. cbn [cp_version cp_report cp_client cp_simple cp_modules] in *.
  change CPAD_SIZE with 52 in *.
  set (o1 := zlen pre + 52) in *.
  set (s1 := enc_counted dict_codec e o1 sm) in *.
  set (o2 := o1 + zlen (snd s1)) in *.
  set (s2 := enc_cmodule_list e o2 ms) in *.
  set (v := vtuple [VInt ver; guidv r1 r2 r3 p0 p1 p2 p3 p4 p5 p6 p7; guidv c1 c2 c3 q0 q1 q2 q3 q4 q5 q6 q7;
                    vloc (fst s1) o1; vloc (fst s2) o2]).
  assert (Hun : unflat L_MINIDUMP_CRASHPAD_INFO
                  ([ver] ++ [r1; r2; r3; p0; p1; p2; p3; p4; p5; p6; p7] ++ [c1; c2; c3; q0; q1; q2; q3; q4; q5; q6; q7]
                   ++ [fst s1; o1; fst s2; o2]) = Some (v, [])) by reflexivity.
  rewrite Hun in *. cbn [fst snd] in *.
  set (S := enc e L_MINIDUMP_CRASHPAD_INFO v) in *.
  assert (HS : zlen S = 52) by (apply enc_zlen_shape; reflexivity).
  rewrite !zlen_app, HS in Hb.
  pose proof (zlen_nonneg _ pre) as Hp. pose proof (zlen_nonneg _ (snd s1)) as Hn1. pose proof (zlen_nonneg _ (snd s2)) as Hn2.
  set (all := pre ++ (S ++ snd s1 ++ snd s2) ++ post) in *.
  destruct (sec_at _ _ _ _ sm (counted_roundtrip _ _ _ (dict_ok e) false) all (pre ++ S) (snd s2 ++ post) o1) as [Hz1 Hd1]; try assumption.
  { rewrite zlen_app, HS. reflexivity. }
  { rewrite zlen_app. lia. }
  { unfold all. fold s1. rewrite <- !app_assoc. reflexivity. }
  { fold s1. lia. }
  destruct (sec_at _ _ _ _ ms (cmodule_list_roundtrip e true) all (pre ++ S ++ snd s1) post o2) as [Hz2 Hd2]; try assumption.
  { rewrite !zlen_app, HS. unfold o2, o1. lia. }
  { rewrite !zlen_app. lia. }
  { unfold all. fold s2. rewrite <- !app_assoc. reflexivity. }
  { fold s2. unfold o2, o1. lia. }
  fold s1 in Hz1, Hd1. fold s2 in Hz2, Hd2.
  assert (Hwt : wt L_MINIDUMP_CRASHPAD_INFO v = true).
  { unfold wf_guid, byteb in Hrep, Hcl.
    unfold v, guidv, L_MINIDUMP_CRASHPAD_INFO, L_GUID, L_MINIDUMP_LOCATION_DESCRIPTOR, vloc. cbn [vtuple wt].
    unfold o2, o1 in *. hyps. rewrite ?wbits4, ?wbits2, ?wbits1.
    bsplit; try reflexivity; try (apply Z.leb_le; unfold U32M in *; lia); try (apply Z.ltb_lt; unfold U32M in *; lia). }
  split; [rewrite !zlen_app, HS; lia|].
  exists S. split.
  - unfold all. rewrite <- app_assoc. apply slice_mid'; [reflexivity|]. symmetry. exact HS.
  - unfold dec_crashpad, dec_flat. unfold S. rewrite dec_enc_nil by exact Hwt.
    unfold v, guidv. cbn [vtuple vloc vflat app skipn firstn].
    apply negb_true_iff in Hnz. rewrite Hnz.
    fold all. unfold dec_counted. rewrite Hd1, Hd2. reflexivity.
Qed.

