(* C02/Proofs13.v — the LinuxMaps reader on ALL inputs: how its two build profiles relate, which outcomes it has; smaps listings *)
From Coq Require Import ZArith List Bool Lia.
From RM Require Import Base.Word C02.Model C02.ModelR5 C02.ModelR6 C02.Proofs1 C02.Proofs10 C02.Proofs11.
Import ListNotations.
Open Scope Z_scope.

(* the two build profiles of the maps reader: they agree on every input, except that a debug build may stop with the
   multiplication trap of an smaps line (tag 3) where the release build goes on *)
Lemma ext_line_profiles : forall line,
  ext_line Debug line = ext_line Release line \/ (ext_line Debug line = Panic 3 /\ ext_line Release line = Ret tt).
Proof.
  intro line. unfold ext_line. destruct (is_prefix _ line); [left; reflexivity|].
  destruct (words line) as [|k [|v rest]]; try (left; reflexivity).
  destruct (parse_u64 10 v) as [n|]; [|left; reflexivity].
  destruct rest; [left; reflexivity|].
  unfold chk_mul, chk. destruct ((0 <=? n * 1024) && (n * 1024 <? 2 ^ 64)); [left; reflexivity|].
  right. split; reflexivity.
Qed.

Lemma maps_loop_profiles : forall ls cur acc,
  maps_loop Debug ls cur acc = maps_loop Release ls cur acc \/ maps_loop Debug ls cur acc = Panic 3.
Proof.
  induction ls as [|line t IH]; intros cur acc; [left; reflexivity|].
  cbn [maps_loop]. destruct (negb (valid_utf8 line)); [left; reflexivity|].
  destruct (match line with c :: _ => is_upper c | [] => false end).
  - destruct cur as [m|]; [|left; reflexivity].
    destruct (ext_line_profiles line) as [E|[E1 E2]].
    + rewrite E. destruct (ext_line Release line) as [[]| | |]; cbn [obind]; try (left; reflexivity). apply IH.
    + rewrite E1, E2. cbn [obind]. right. reflexivity.
  - destruct (from_line line) as [m| | |]; cbn [obind]; try (left; reflexivity). apply IH.
Qed.

(* the reader never runs out of fuel (there is none: every function is structurally recursive), and a panic carries one of the
   three tags of its three sites *)
Definition tame {A} (o : outcome A) : Prop :=
  match o with Ret _ | Fail => True | Panic t => t = 1 \/ t = 2 \/ t = 3 | OutOfFuel => False end.

Lemma classify_tame : forall x, tame (classify x).
Proof.
  intro x. unfold classify. cbv zeta.
  (* every leaf of [classify] is Ret, Fail, Panic 1 or Panic 2: split on every test and look *)
  repeat match goal with |- context [if ?c then _ else _] => destruct c end; cbn; auto;
  repeat match goal with |- context [match ?c with _ => _ end] => destruct c end; cbn; auto.
Qed.
Lemma from_line_tame : forall line, tame (from_line line).
Proof.
  intro line. unfold from_line.
  (* [from_line] fails on a field that does not parse, and otherwise ends as [classify] does *)
  repeat match goal with |- context [match ?c with _ => _ end] => destruct c end; cbn; auto.
  match goal with |- context [classify ?x] => pose proof (classify_tame x) as T; destruct (classify x); cbn in *; auto end.
Qed.
Lemma ext_line_tame : forall p line, tame (ext_line p line).
Proof.
  intros p line. unfold ext_line. destruct (is_prefix _ line); cbn; auto.
  destruct (words line) as [|k [|v rest]]; cbn; auto.
  destruct (parse_u64 10 v) as [n|]; cbn; auto. destruct rest; cbn; auto.
  unfold chk_mul, chk. destruct ((0 <=? n * 1024) && (n * 1024 <? 2 ^ 64)); cbn; auto. destruct p; cbn; auto.
Qed.
Theorem maps_tame : forall p b, tame (parse_maps p b).
Proof.
  intros p b. unfold parse_maps. generalize (buf_lines b) (@None mmap) (@nil mmap).
  induction l as [|line t IH]; intros cur acc; [cbn; auto|].
  cbn [maps_loop]. destruct (negb (valid_utf8 line)); [cbn; auto|].
  destruct (match line with c :: _ => is_upper c | [] => false end).
  - destruct cur; [|cbn; auto]. pose proof (ext_line_tame p line) as T.
    destruct (ext_line p line); cbn [obind]; try exact T. apply IH.
  - pose proof (from_line_tame line) as T. destruct (from_line line); cbn [obind]; try exact T. apply IH.
Qed.

(* an attribute line the reader accepts: UTF-8, one line, opens with A-Z, and ext_line returns (VmFlags..., `Key: n`, `Key: n kB`) *)
Definition attr_ok (p : profile) (a : list Z) : bool :=
  valid_utf8 a && no_eol a && match a with c :: _ => is_upper c | [] => false end
  && match ext_line p a with Ret _ => true | _ => false end.
Definition smaps_lines (x : (mfmt * mmap) * list (list Z)) : list (list Z) := entry_line (fst x) :: snd x.
Definition smaps_text (l : list ((mfmt * mmap) * list (list Z))) : list Z :=
  flat_map (fun ln => ln ++ [10]) (flat_map smaps_lines l).

Lemma attrs_skipped : forall p attrs rest m acc, forallb (attr_ok p) attrs = true ->
  maps_loop p (attrs ++ rest) (Some m) acc = maps_loop p rest (Some m) acc.
Proof.
  intros p attrs rest m acc. induction attrs as [|a attrs IH]; intro H; [reflexivity|].
  cbn [forallb] in H. apply andb_true_iff in H as [A H]. unfold attr_ok in A.
  apply andb_true_iff in A as [A A4]. apply andb_true_iff in A as [A A3]. apply andb_true_iff in A as [A1 A2].
  cbn [app maps_loop]. rewrite A1, A3. cbn [negb]. destruct (ext_line p a) as [[]| | |]; try discriminate. cbn [obind]. apply IH. exact H.
Qed.

Theorem smaps_roundtrip : forall p l,
  forallb (fun x => wf_entry (fst x) && forallb (attr_ok p) (snd x)) l = true ->
  parse_maps p (smaps_text l) = Ret (map (fun x => snd (fst x)) l).
Proof.
  intros p l F. apply blocks_roundtrip. apply Forall_forall. intros x Ix.
  apply (proj1 (forallb_forall _ _) F), andb_true_iff in Ix. destruct Ix as [W A].
  split; [exact W|split; [|intros; apply attrs_skipped; exact A]].
  apply Forall_forall. intros ln I. apply (proj1 (forallb_forall _ _) A) in I. unfold attr_ok in I.
  rewrite !andb_true_iff in I. tauto.
Qed.
