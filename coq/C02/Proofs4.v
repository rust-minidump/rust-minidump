(* C02/Proofs4.v — the whole dump: header, directory, placement, every stream *)
From Coq Require Import Lia.
From RM Require Import C02.Model C02.Proofs1 C02.Proofs2 C02.Proofs3.
Open Scope Z_scope.

Definition is_some {A} (o : option A) : bool := match o with Some _ => true | None => false end.
Definition present (x : Z * option (Z -> section)) : bool := is_some (snd x).
Definition sbytes (p : Z * (Z * section)) : list Z := snd (snd (snd p)).
Definition dirent (p : Z * (Z * section)) : Z * (Z * Z) := (fst p, (fst (snd (snd p)), fst (snd p))).

Definition modelled_types : list Z :=
  [ST_SystemInfoStream; ST_ThreadListStream; ST_ModuleListStream; ST_MemoryListStream; ST_Memory64ListStream;
   ST_ExceptionStream; ST_ThreadNamesStream; ST_UnloadedModuleListStream; ST_MemoryInfoListStream; ST_MiscInfoStream;
   ST_BreakpadInfoStream; ST_AssertionInfoStream; ST_ThreadInfoListStream; ST_LinuxCpuInfo; ST_LinuxProcStatus;
   ST_LinuxLsbRelease; ST_LinuxEnviron; ST_LinuxMaps; ST_MozLinuxLimits; ST_HandleDataStream].
Definition zmem (x : Z) (l : list Z) : bool := existsb (Z.eqb x) l.
Definition present_types (e : endian) (m : model) : list Z := map fst (filter present (table e m)).
Definition u32_entry (d : Z * (Z * Z)) : bool := u32b (fst d) && u32b (fst (snd d)) && u32b (snd (snd d)).
Definition oall {A} (f : A -> bool) (o : option A) : bool := match o with Some a => f a | None => true end.

(* a model the serializer can write and the property speaks about *)
Definition wf_model (e : endian) (m : model) : bool :=
  u32b (m_version m) && (m_version m mod 65536 =? MINIDUMP_VERSION) && u32b (m_checksum m) && u32b (m_time m) && u64b (m_flags m)
  && forallb u32_entry (m_extra_dir m)
  && forallb (fun d => negb (zmem (fst d) modelled_types) || zmem (fst d) (present_types e m)) (m_extra_dir m)
  && oall wf_sysinfo (m_sysinfo m)
  && oall (forallb wf_thread) (m_threads m)
  && oall (forallb (wf_module e)) (m_modules m)
  && oall (forallb wf_region) (m_memory m)
  && oall (forallb wf_region64) (m_memory64 m)
  && oall wf_exception (m_exception m)
  && oall (forallb wf_tname) (m_tnames m)
  && oall (forallb wf_unloaded) (m_unloaded m)
  && oall (forallb wf_meminfo) (m_meminfo m)
  && oall wf_misc (m_misc m)
  && oall (wf_flat L_MINIDUMP_BREAKPAD_INFO) (m_breakpad m)
  && oall (wf_flat L_MINIDUMP_ASSERTION_INFO) (m_assertion m)
  && oall (forallb (wf_flat L_MINIDUMP_THREAD_INFO)) (m_thread_info m)
  && oall wf_handles (m_handles m)
  && (zlen (encode_dump e m) <=? U32M).

Lemma dir_lookup_none : forall d ty, ~ In ty (map fst d) -> dir_lookup d ty = None.
Proof.
  induction d as [|[t loc] d IH]; intros ty H; [reflexivity|].
  cbn [map fst In] in H. cbn [dir_lookup]. rewrite IH by tauto.
  replace (t =? ty) with false by (symmetry; apply Z.eqb_neq; tauto). reflexivity.
Qed.

Lemma dir_lookup_app : forall a b ty,
  dir_lookup (a ++ b) ty = match dir_lookup b ty with Some l => Some l | None => dir_lookup a ty end.
Proof.
  induction a as [|[t loc] a IH]; intros b ty.
  - cbn [app dir_lookup]. destruct (dir_lookup b ty); reflexivity.
  - cbn [app dir_lookup]. rewrite IH. destruct (dir_lookup b ty); reflexivity.
Qed.

Lemma dir_lookup_real : forall placed ty off s, NoDup (map fst placed) -> In (ty, (off, s)) placed ->
  dir_lookup (map dirent placed) ty = Some (fst s, off).
Proof.
  induction placed as [|[t0 [o0 s0]] r IH]; intros ty off s Hnd Hin; [destruct Hin|].
  cbn [map fst] in Hnd. inversion Hnd as [|x l Hnot Hnd']; subst.
  cbn [map dir_lookup dirent fst snd]. destruct Hin as [Heq|Hin].
  - inversion Heq; subst. rewrite dir_lookup_none.
    + rewrite Z.eqb_refl. reflexivity.
    + rewrite map_map. cbn [dirent fst]. exact Hnot.
  - rewrite (IH ty off s Hnd' Hin). reflexivity.
Qed.

Lemma zlen_dir_entry : forall e d, zlen (enc_dir_entry e d) = 12.
Proof. intros e d. unfold enc_dir_entry. rewrite enc_zlen_shape by reflexivity. reflexivity. Qed.

Lemma zlen_dir : forall e d, zlen (flat_map (enc_dir_entry e) d) = 12 * zlen d.
Proof.
  intros e. induction d as [|x d IH]; [reflexivity|].
  cbn [flat_map]. rewrite zlen_app, zlen_dir_entry, IH, zlen_cons. lia.
Qed.

Lemma dec_dir_enc : forall e d rest, forallb u32_entry d = true ->
  dec_dir e (length d) (flat_map (enc_dir_entry e) d ++ rest) = Some d.
Proof.
  intros e. induction d as [|[ty [size rva]] d IH]; intros rest H; [reflexivity|].
  cbn [forallb] in H. apply andb_prop in H. destruct H as [Hx Hrest]. unfold u32_entry in Hx. cbn [fst snd] in Hx.
  cbn [length flat_map dec_dir]. rewrite <- app_assoc. unfold enc_dir_entry at 1. cbn [fst snd].
  rewrite dec_enc.
  2:{ unfold L_MINIDUMP_DIRECTORY, L_MINIDUMP_LOCATION_DESCRIPTOR. hyps. wtsolve. }
  cbn [vtuple vloc]. rewrite IH by exact Hrest. reflexivity.
Qed.

Lemma place_types : forall t off, map fst (place t off) = map fst (filter present t).
Proof.
  induction t as [|[ty [b|]] t IH]; intro off.
  - reflexivity.
  - cbn [place filter present is_some snd map fst]. rewrite IH. reflexivity.
  - cbn [place filter present is_some snd map fst]. apply IH.
Qed.

Lemma place_length : forall t off, zlen (place t off) = count_present t.
Proof.
  intros t off. unfold count_present. unfold zlen.
  rewrite <- (map_length fst (place t off)), place_types, map_length.
  reflexivity.
Qed.

Lemma place_complete : forall t off0 ty b, In (ty, Some b) t -> exists off, In (ty, (off, b off)) (place t off0).
Proof.
  induction t as [|[ty0 [b0|]] t IH]; intros off0 ty b Hin; [destruct Hin| |].
  - cbn [place]. destruct Hin as [Heq|Hin].
    + inversion Heq; subst. exists off0. left. reflexivity.
    + destruct (IH (off0 + zlen (snd (b0 off0))) ty b Hin) as [off Hoff]. exists off. right. exact Hoff.
  - cbn [place]. destruct Hin as [Heq|Hin]; [discriminate|]. apply IH. exact Hin.
Qed.

(* a placed section comes from the table, and the bytes before it add up to its offset *)
Lemma place_split : forall t off0 ty off s, In (ty, (off, s)) (place t off0) ->
  exists b pre post, In (ty, Some b) t /\ s = b off /\
                     flat_map sbytes (place t off0) = pre ++ snd s ++ post /\ off = off0 + zlen pre.
Proof.
  induction t as [|[ty0 [b0|]] t IH]; intros off0 ty off s Hin; [destruct Hin| |]; cbn [place] in *.
  - cbn [flat_map]. destruct Hin as [Heq|Hin].
    + inversion Heq; subst. exists b0, [], (flat_map sbytes (place t (off + zlen (snd (b0 off))))).
      repeat split; [left; reflexivity|cbn; lia].
    + destruct (IH _ _ _ _ Hin) as (b & pre & post & Hb & Hs & H1 & H2).
      exists b, (snd (b0 off0) ++ pre), post. repeat split; [right; exact Hb|exact Hs| |rewrite zlen_app; lia].
      unfold sbytes at 1. cbn [snd]. rewrite H1, <- app_assoc. reflexivity.
  - destruct (IH _ _ _ _ Hin) as (b & pre & post & Hb & H). exists b, pre, post. split; [right; exact Hb|exact H].
Qed.

Lemma NoDup_map_filter : forall (t : list (Z * option (Z -> section))) p, NoDup (map fst t) -> NoDup (map fst (filter p t)).
Proof.
  induction t as [|x t IH]; intros p H; [constructor|].
  cbn [map] in H. inversion H as [|y l Hnot Hnd]; subst.
  cbn [filter]. destruct (p x); [|apply IH; exact Hnd].
  cbn [map]. constructor; [|apply IH; exact Hnd].
  intro Hin. apply Hnot. apply in_map_iff in Hin. destruct Hin as [z [Hz1 Hz2]].
  apply filter_In in Hz2. destruct Hz2 as [Hz2 _]. apply in_map_iff. exists z. split; assumption.
Qed.

(* with duplicate-free keys, a key bound to no section is not the key of a present entry *)
Lemma absent_not_present : forall (t : list (Z * option (Z -> section))) ty,
  NoDup (map fst t) -> In (ty, None) t -> ~ In ty (map fst (filter present t)).
Proof.
  induction t as [|[k [b|]] t IH]; intros ty Hnd Hin; [destruct Hin| |];
    cbn [map fst] in Hnd; inversion Hnd as [|y l Hnot Hnd']; subst; cbn [filter present is_some snd map fst].
  - destruct Hin as [Heq|Hin]; [discriminate|]. intros [<-|H]; [|exact (IH ty Hnd' Hin H)].
    apply Hnot. apply in_map_iff. exists (k, None). split; [reflexivity|exact Hin].
  - destruct Hin as [Heq|Hin]; [|exact (IH ty Hnd' Hin)]. inversion Heq; subst. intro H. apply Hnot.
    apply in_map_iff in H. destruct H as [z [Hz1 Hz2]]. apply filter_In in Hz2. apply in_map_iff. exists z. tauto.
Qed.

Lemma existsb_eqb_In : forall x l, existsb (Z.eqb x) l = true <-> In x l.
Proof.
  intros x l. rewrite existsb_exists. split.
  - intros [y [H1 H2]]. apply Z.eqb_eq in H2. subst. exact H1.
  - intro H. exists x. split; [exact H|apply Z.eqb_refl].
Qed.

(* the same fact on [zmem] itself: applied to [zmem ty (present_types e m)] it needs no conversion through the table (see
   present_types_eq) *)
Lemma zmem_In : forall x l, zmem x l = true <-> In x l.
Proof. exact existsb_eqb_In. Qed.

Fixpoint nodupb (l : list Z) : bool :=
  match l with [] => true | x :: t => negb (existsb (Z.eqb x) t) && nodupb t end.
Lemma nodupb_NoDup : forall l, nodupb l = true -> NoDup l.
Proof.
  induction l as [|x t IH]; intro H; [constructor|]. cbn [nodupb] in H. apply andb_prop in H. destruct H as [H1 H2].
  constructor; [|apply IH; exact H2]. intro Hin. apply existsb_eqb_In in Hin. rewrite Hin in H1. discriminate.
Qed.

Lemma table_types : forall e m, map fst (table e m) = modelled_types.
Proof. reflexivity. Qed.

Lemma modelled_nodup : NoDup modelled_types.
Proof. apply nodupb_NoDup. reflexivity. Qed.

Lemma modelled_u32 : forall ty, In ty modelled_types -> u32b ty = true.
Proof. apply forallb_forall. reflexivity. Qed.

(* stated with the unfolded side on the left: conversion then unfolds [present_types] first and meets equal terms; the other
   way round it evaluates [filter] over the table and compares the two branches of each of its twenty tests *)
Lemma present_types_eq : forall e m, map fst (filter present (table e m)) = present_types e m.
Proof. intros e m. exact (eq_refl (map fst (filter present (table e m)))). Qed.

Lemma thread_info_size : 1 <= lsize L_MINIDUMP_THREAD_INFO < 4294967296.
Proof. lsize_tac. Qed.

(* one row per stream of [table]: type, model field, serializer, the reader [decode_dump] applies, well-formedness *)
Inductive modelled (e : endian) (m : model) :
  forall A, Z -> option A -> (Z -> A -> section) -> (endian -> list Z -> list Z -> option A) -> (A -> bool) -> Prop :=
| M_sysinfo : modelled e m _ ST_SystemInfoStream (m_sysinfo m) (enc_sysinfo e) dec_sysinfo wf_sysinfo
| M_threads : modelled e m _ ST_ThreadListStream (m_threads m) (enc_list thread_codec e (m_pad_lists m))
                       (dec_list thread_codec) (forallb wf_thread)
| M_modules : modelled e m _ ST_ModuleListStream (m_modules m) (enc_list module_codec e (m_pad_lists m))
                       (dec_list module_codec) (forallb (wf_module e))
| M_memory : modelled e m _ ST_MemoryListStream (m_memory m) (enc_list region_codec e (m_pad_lists m))
                      (dec_list region_codec) (forallb wf_region)
| M_memory64 : modelled e m _ ST_Memory64ListStream (m_memory64 m) (enc_mem64 e) dec_mem64 (forallb wf_region64)
| M_exception : modelled e m _ ST_ExceptionStream (m_exception m) (enc_exception e) dec_exception wf_exception
| M_tnames : modelled e m _ ST_ThreadNamesStream (m_tnames m) (enc_list tname_codec e (m_pad_lists m))
                      (dec_list tname_codec) (forallb wf_tname)
| M_unloaded : modelled e m _ ST_UnloadedModuleListStream (m_unloaded m) (enc_exlist unloaded_codec e UNLOADED_HDR 4)
                        (fun e => dec_exlist unloaded_codec e false) (forallb wf_unloaded)
| M_meminfo : modelled e m _ ST_MemoryInfoListStream (m_meminfo m) (enc_exlist meminfo_codec e MEMINFO_HDR 8)
                       (fun e => dec_exlist meminfo_codec e true) (forallb wf_meminfo)
| M_misc : modelled e m _ ST_MiscInfoStream (m_misc m) (enc_misc e) dec_misc wf_misc
| M_breakpad : modelled e m _ ST_BreakpadInfoStream (m_breakpad m) (enc_flat L_MINIDUMP_BREAKPAD_INFO e)
                        (dec_flat L_MINIDUMP_BREAKPAD_INFO) (wf_flat L_MINIDUMP_BREAKPAD_INFO)
| M_assertion : modelled e m _ ST_AssertionInfoStream (m_assertion m) (enc_flat L_MINIDUMP_ASSERTION_INFO e)
                         (dec_flat L_MINIDUMP_ASSERTION_INFO) (wf_flat L_MINIDUMP_ASSERTION_INFO)
| M_thread_info : modelled e m _ ST_ThreadInfoListStream (m_thread_info m)
                           (enc_exlist (flat_codec L_MINIDUMP_THREAD_INFO) e THREADINFO_HDR 4)
                           (fun e => dec_exlist (flat_codec L_MINIDUMP_THREAD_INFO) e false) (forallb (wf_flat L_MINIDUMP_THREAD_INFO))
| M_lx_cpuinfo : modelled e m _ ST_LinuxCpuInfo (m_lx_cpuinfo m) (enc_raw e) dec_raw (fun _ => true)
| M_lx_status : modelled e m _ ST_LinuxProcStatus (m_lx_status m) (enc_raw e) dec_raw (fun _ => true)
| M_lx_lsb : modelled e m _ ST_LinuxLsbRelease (m_lx_lsb m) (enc_raw e) dec_raw (fun _ => true)
| M_lx_environ : modelled e m _ ST_LinuxEnviron (m_lx_environ m) (enc_raw e) dec_raw (fun _ => true)
| M_lx_maps : modelled e m _ ST_LinuxMaps (m_lx_maps m) (enc_raw e) dec_raw (fun _ => true)
| M_lx_limits : modelled e m _ ST_MozLinuxLimits (m_lx_limits m) (enc_raw e) dec_raw (fun _ => true)
| M_handles : modelled e m _ ST_HandleDataStream (m_handles m) (enc_handles e) dec_handles wf_handles.

Lemma modelled_sec : forall e m A ty o enc dec wf, modelled e m A ty o enc dec wf -> sec_ok enc (dec e) wf.
Proof.
  destruct 1.
  - apply sysinfo_roundtrip.
  - apply (list_roundtrip _ _ _ (thread_ok e)).
  - apply (list_roundtrip _ _ _ (module_ok e)).
  - apply (list_roundtrip _ _ _ (region_ok e)).
  - apply mem64_roundtrip.
  - apply exception_roundtrip.
  - apply (list_roundtrip _ _ _ (tname_ok e)).
  - apply (exlist_roundtrip _ _ _ (unloaded_ok e) false).
  - apply (exlist_roundtrip _ _ _ (meminfo_ok e) true).
  - apply misc_roundtrip.
  - apply flat_roundtrip.
  - apply flat_roundtrip.
  - apply (exlist_roundtrip _ _ _ (flat_codec_ok _ e thread_info_size) false).
  - apply raw_roundtrip.
  - apply raw_roundtrip.
  - apply raw_roundtrip.
  - apply raw_roundtrip.
  - apply raw_roundtrip.
  - apply raw_roundtrip.
  - apply handles_roundtrip.
Qed.

Lemma modelled_in : forall e m A ty o enc dec wf, modelled e m A ty o enc dec wf -> In (ob ty o enc) (table e m).
Proof. destruct 1; unfold table; cbn [In]; tauto. Qed.

Lemma table_modelled : forall e m x, In x (table e m) ->
  exists A ty o enc dec wf, x = @ob A ty o enc /\ modelled e m A ty o enc dec wf.
Proof.
  intros e m x H. unfold table in H. cbn [In] in H.
  repeat (destruct H as [<-|H]; [do 6 eexists; split; [reflexivity|constructor]|]). destruct H.
Qed.

Lemma modelled_wf : forall e m A ty o enc dec wf, wf_model e m = true -> modelled e m A ty o enc dec wf -> oall wf o = true.
Proof.
  intros e m A ty o enc dec wf Hwf M. unfold wf_model in Hwf. bdestr.
  destruct M; try assumption; match goal with |- oall _ ?o = true => destruct o; reflexivity end.
Qed.

Section Dump.
Variables (e : endian) (m : model).
Hypothesis Hwf : wf_model e m = true.

Let t := table e m.
Let ndir := zlen (m_extra_dir m) + count_present t.
Let off0 := HEADER_SIZE + ndir * DIR_ENTRY_SIZE.
Let placed := place t off0.
Let dir := m_extra_dir m ++ map dirent placed.
Let hv := vtuple [VInt MINIDUMP_SIGNATURE; VInt (m_version m); VInt ndir; VInt HEADER_SIZE;
                  VInt (m_checksum m); VInt (m_time m); VInt (m_flags m)].
Let hdr := enc e L_MINIDUMP_HEADER hv.
Let dirb := flat_map (enc_dir_entry e) dir.
Let secs := flat_map sbytes placed.

Lemma encode_eq : encode_dump e m = hdr ++ dirb ++ secs.
Proof. reflexivity. Qed.

Lemma zlen_hdr : zlen hdr = 32.
Proof. unfold hdr. rewrite enc_zlen_shape by reflexivity. reflexivity. Qed.

Lemma zlen_dir_ndir : zlen dir = ndir.
Proof.
  unfold dir, ndir. rewrite zlen_app. f_equal.
  rewrite <- (place_length t off0). unfold zlen. rewrite map_length. reflexivity.
Qed.

Lemma zlen_dirb : zlen dirb = 12 * ndir.
Proof. unfold dirb. rewrite zlen_dir, zlen_dir_ndir. reflexivity. Qed.

Lemma off0_eq : off0 = zlen (hdr ++ dirb).
Proof. rewrite zlen_app, zlen_hdr, zlen_dirb. unfold off0. change HEADER_SIZE with 32. change DIR_ENTRY_SIZE with 12. lia. Qed.

Ltac wfparts := pose proof Hwf as Hwf'; unfold wf_model in Hwf'; bdestr.

Lemma total_bound : zlen (hdr ++ dirb ++ secs) <= U32M.
Proof. wfparts. apply Z.leb_le. assumption. Qed.

Lemma version_ok : (m_version m mod 65536 =? MINIDUMP_VERSION) = true.
Proof. wfparts. assumption. Qed.

Lemma ndir_nonneg : 0 <= ndir.
Proof. rewrite <- zlen_dir_ndir. apply zlen_nonneg. Qed.

Lemma types_nodup : NoDup (map fst placed).
Proof.
  unfold placed. rewrite place_types. apply NoDup_map_filter. unfold t. rewrite table_types. apply modelled_nodup.
Qed.

(* every placed section comes from the table and sits in the file at its recorded offset *)
Lemma placed_split : forall ty off s, In (ty, (off, s)) placed ->
  exists b pre post, In (ty, Some b) t /\ s = b off /\ hdr ++ dirb ++ secs = pre ++ snd s ++ post /\ off = zlen pre /\
                     0 < zlen pre /\ zlen pre + zlen (snd s) <= U32M.
Proof.
  intros ty off s Hin. unfold placed in Hin.
  destruct (place_split _ _ _ _ _ Hin) as (b & pre & post & Hb1 & Hb2 & H1 & H2).
  fold placed in H1. fold secs in H1.
  exists b, ((hdr ++ dirb) ++ pre), post.
  pose proof total_bound as Hb. rewrite H1, !zlen_app in Hb.
  pose proof zlen_hdr. pose proof ndir_nonneg. pose proof zlen_dirb. pose proof off0_eq as Ho. rewrite zlen_app in Ho.
  pose proof (zlen_nonneg _ pre). pose proof (zlen_nonneg _ post). pose proof (zlen_nonneg _ (snd s)).
  rewrite !zlen_app. repeat split; try assumption; try lia. rewrite H1, <- !app_assoc. reflexivity.
Qed.

Lemma dir_u32 : forallb u32_entry dir = true.
Proof.
  unfold dir. rewrite forallb_app. apply andb_true_intro. split; [wfparts; assumption|].
  apply forallb_forall. intros d Hin'. apply in_map_iff in Hin'. destruct Hin' as [[ty [off s]] [<- Hd2]].
  destruct (placed_split ty off s Hd2) as (b & pre & post & Hin & -> & _ & -> & Hpre & Hb).
  destruct (table_modelled e m _ Hin) as (A & ty' & o & enc & dec & wf & E & M).
  pose proof (modelled_wf _ _ _ _ _ _ _ _ Hwf M) as W. unfold ob in E.
  destruct o as [a|]; inversion E; subst. cbn [oall] in W.
  destruct (modelled_sec _ _ _ _ _ _ _ _ M a pre [] W Hpre Hb) as [Hs _].
  assert (Hty : u32b ty' = true).
  { apply modelled_u32. rewrite <- (table_types e m). apply in_map_iff. exists (ty', Some (fun off => enc off a)). split; [reflexivity|exact Hin]. }
  unfold u32_entry, dirent. cbn [fst snd]. rewrite Hty. cbn [andb].
  pose proof (zlen_nonneg _ pre). unfold u32b. rewrite wbits4. unfold U32M in *. bsplit; try (apply Z.leb_le; lia); apply Z.ltb_lt; lia.
Qed.

Lemma header_wt : wt L_MINIDUMP_HEADER hv = true.
Proof.
  unfold hv, L_MINIDUMP_HEADER. wfparts.
  pose proof ndir_nonneg. pose proof total_bound as Hb. rewrite !zlen_app, zlen_hdr, zlen_dirb in Hb. pose proof (zlen_nonneg _ secs).
  hyps. change HEADER_SIZE with 32. unfold MINIDUMP_SIGNATURE. wtsolve.
Qed.

Lemma detect_ok : detect_endian (hdr ++ dirb ++ secs) = Some e.
Proof.
  unfold detect_endian.
  pose proof (zlen_nonneg _ (dirb ++ secs)). change HEADER_SIZE with 32.
  replace (zlen (hdr ++ dirb ++ secs) <? 32) with false by (symmetry; apply Z.ltb_ge; rewrite zlen_app, zlen_hdr; lia).
  assert (Hf : exists X, hdr ++ dirb ++ secs = enc_uint e 4 MINIDUMP_SIGNATURE ++ X).
  { unfold hdr, hv, L_MINIDUMP_HEADER. cbn [vtuple enc]. rewrite <- !app_assoc. eauto. }
  destruct Hf as [X ->]. destruct e; reflexivity.
Qed.

Lemma header_ok : dec_header e (hdr ++ dirb ++ secs) =
  Some [MINIDUMP_SIGNATURE; m_version m; ndir; HEADER_SIZE; m_checksum m; m_time m; m_flags m].
Proof. unfold dec_header, hdr. rewrite dec_enc by apply header_wt. reflexivity. Qed.

(* the directory follows the header; this is the seek to [stream_directory_rva] as [decode_dump] and [read_directory] write it *)
Lemma dir_ok : dec_dir e (Z.to_nat ndir) (if HEADER_SIZE <=? zlen (hdr ++ dirb ++ secs)
                                           then skipn (Z.to_nat HEADER_SIZE) (hdr ++ dirb ++ secs) else []) = Some dir.
Proof.
  assert (Hl : length hdr = 32%nat) by (pose proof zlen_hdr as Hz; unfold zlen in Hz; lia).
  pose proof (zlen_nonneg _ (dirb ++ secs)).
  replace (HEADER_SIZE <=? zlen (hdr ++ dirb ++ secs)) with true
    by (symmetry; apply Z.leb_le; rewrite zlen_app, zlen_hdr; change HEADER_SIZE with 32; lia).
  change (Z.to_nat HEADER_SIZE) with 32%nat. rewrite <- Hl, skipn_pre.
  rewrite <- zlen_dir_ndir, zlen_to_nat. apply dec_dir_enc. apply dir_u32.
Qed.

(* the type of a stream the model lacks occurs nowhere in the directory *)
Lemma absent_type : forall ty, In (ty, None) t -> ~ In ty (map fst dir).
Proof.
  intros ty Hin.
  assert (Hnp : ~ In ty (present_types e m)).
  { rewrite <- present_types_eq. apply absent_not_present; [rewrite table_types; apply modelled_nodup|exact Hin]. }
  unfold dir. rewrite map_app, in_app_iff. intros [H|H].
  - apply in_map_iff in H. destruct H as [d [<- Hd2]].
    assert (Hy : negb (zmem (fst d) modelled_types) || zmem (fst d) (present_types e m) = true).
    { wfparts. match goal with Hx : forallb (fun d => negb (zmem (fst d) modelled_types) || _) _ = true |- _ =>
        exact (proj1 (forallb_forall _ _) Hx d Hd2) end. }
    apply orb_prop in Hy. destruct Hy as [Hy|Hy].
    + apply negb_true_iff, not_true_iff_false in Hy. apply Hy, zmem_In. rewrite <- (table_types e m).
      apply in_map_iff. exists (fst d, None). split; [reflexivity|exact Hin].
    + apply zmem_In in Hy. exact (Hnp Hy).
  - rewrite map_map in H. cbn [dirent fst] in H. unfold placed, t in H. rewrite place_types, present_types_eq in H. exact (Hnp H).
Qed.

(* each stream is served from its own section when the model has it, whatever precedes it in the directory, and is missing
   when the model has none *)
Lemma stream_ok : forall A ty (o : option A) enc dec wf, modelled e m A ty o enc dec wf ->
  get_stream dec e (hdr ++ dirb ++ secs) dir ty = sres_of o.
Proof.
  intros A ty o enc dec wf M.
  pose proof (modelled_in _ _ _ _ _ _ _ _ M) as Hin. pose proof (modelled_wf _ _ _ _ _ _ _ _ Hwf M) as W.
  unfold get_stream. unfold ob in Hin. destruct o as [a|]; cbn [oall sres_of] in *.
  - destruct (place_complete t off0 ty _ Hin) as [off Hpl]. fold placed in Hpl.
    destruct (placed_split ty off _ Hpl) as (_ & pre & post & _ & _ & H1 & -> & H3 & H4).
    unfold dir. rewrite dir_lookup_app, (dir_lookup_real placed ty _ _ types_nodup Hpl), H1.
    destruct (modelled_sec _ _ _ _ _ _ _ _ M a pre post W H3 H4) as [_ [bs [Hs Hdec]]].
    rewrite Hs, Hdec. reflexivity.
  - rewrite dir_lookup_none by (apply absent_type; exact Hin). reflexivity.
Qed.
End Dump.

Theorem dump_roundtrip : forall e m, wf_model e m = true ->
  decode_dump (encode_dump e m) = Some (view_of e m).
Proof.
  intros e m Hwf. rewrite (encode_eq e m). unfold decode_dump.
  rewrite (detect_ok e m Hwf). cbn [obnd]. rewrite (header_ok e m Hwf). cbn [obnd].
  rewrite (version_ok e m Hwf), (dir_ok e m Hwf). cbn [negb obnd]. unfold view_of.
  (* one rewrite per row of [modelled], i.e. per stream field of the view *)
  do 20 (erewrite (stream_ok e m Hwf) by constructor). reflexivity.
Qed.
