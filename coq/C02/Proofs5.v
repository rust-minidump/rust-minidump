(* C02/Proofs5.v — memory lookups (through the C08 range-table theorems); what the byte-order and leading-duplicate
   properties are stated with (set_endian, set_extra); the last directory entry of a type wins; list-header strictness *)
From Coq Require Import Lia.
From RM Require Import C08.Model C08.Proofs C08.IndexProofs.
From RM Require Import C02.Model C02.Proofs1 C02.Proofs2 C02.Proofs3 C02.Proofs4.
Open Scope Z_scope.

Lemma region_ranges_wf : forall rs k, Forall (fun q => 0 <= mr_base q) rs ->
  wf_entries (enumerate_from k (map region_range rs)).
Proof.
  induction rs as [|q rs IH]; intros k H; [constructor|].
  inversion H as [|y l Hq Hrs]; subst. cbn [map enumerate_from]. constructor; [|apply IH; exact Hrs].
  cbn [fst]. destruct (region_range q) as [r|] eqn:E; [|exact I].
  unfold region_range in E. eapply mk_range_wf; [exact Hq|apply zlen_nonneg|exact E].
Qed.

Theorem memory_bytes : forall rs1 r rs2 rg x,
  Forall (fun q => 0 <= mr_base q) (rs1 ++ r :: rs2) ->
  region_range r = Some rg ->
  (forall q rq, In q (rs1 ++ rs2) -> region_range q = Some rq -> intersects rg rq = false) ->
  contains rg x = true ->
  memory_at (rs1 ++ r :: rs2) x = Some r /\
  exists b, memory_byte (rs1 ++ r :: rs2) x = Some b /\ nth_error (mr_bytes r) (Z.to_nat (x - mr_base r)) = Some b.
Proof.
  intros rs1 r rs2 rg x Hnn Hrg Hiso Hc.
  assert (Hat : memory_at (rs1 ++ r :: rs2) x = Some r).
  { unfold memory_at, build_indexed.
    rewrite (@build_total Z Z.eqb) by (apply region_ranges_wf; exact Hnn).
    rewrite map_app. cbn [map]. rewrite enumerate_from_app. cbn [enumerate_from]. rewrite Hrg.
    rewrite (@isolated_complete Z Z.eqb Z.eqb_eq).
    - rewrite map_length, Z.add_0_l, Nat2Z.id.
      rewrite nth_error_app2 by lia. rewrite Nat.sub_diag. reflexivity.
    - rewrite <- Hrg. change ((region_range r, 0 + Z.of_nat (length (map region_range rs1))) :: enumerate_from (0 + Z.of_nat (length (map region_range rs1)) + 1) (map region_range rs2))
        with (enumerate_from (0 + Z.of_nat (length (map region_range rs1))) (map region_range (r :: rs2))).
      rewrite <- enumerate_from_app, <- map_app. apply region_ranges_wf. exact Hnn.
    - intros r' v' Hin. apply in_app_or in Hin.
      assert (Hq : In (Some r') (map region_range (rs1 ++ rs2))).
      { rewrite map_app. apply in_or_app. destruct Hin as [Hin|Hin]; [left|right]; apply enumerate_from_in in Hin; eapply nth_error_In, Hin. }
      apply in_map_iff in Hq. destruct Hq as [q [Hq1 Hq2]]. eapply Hiso; eassumption.
    - exact Hc. }
  split; [exact Hat|].
  unfold memory_byte. rewrite Hat. cbn [obnd]. unfold region_byte.
  unfold region_range, mk_range, checked_add in Hrg.
  destruct (zlen (mr_bytes r) =? 0) eqn:E0; [discriminate|].
  destruct (mr_base r + zlen (mr_bytes r) <? 2 ^ 64) eqn:E1; [|discriminate].
  inversion Hrg; subst rg. unfold contains in Hc. cbn [fst snd] in Hc.
  apply andb_prop in Hc. destruct Hc as [H1 H2]. apply Z.leb_le in H1. apply Z.leb_le in H2.
  replace (x <? mr_base r) with false by (symmetry; apply Z.ltb_ge; lia).
  destruct (nth_error (mr_bytes r) (Z.to_nat (x - mr_base r))) as [b|] eqn:En.
  - exists b. split; reflexivity.
  - exfalso. apply nth_error_None in En. unfold zlen in *. lia.
Qed.

Definition set_endian (e : endian) (v : dview) : dview :=
  {| v_endian := e; v_version := v_version v; v_checksum := v_checksum v; v_time := v_time v; v_flags := v_flags v;
     v_sysinfo := v_sysinfo v; v_threads := v_threads v; v_modules := v_modules v; v_memory := v_memory v;
     v_memory64 := v_memory64 v; v_exception := v_exception v; v_tnames := v_tnames v; v_unloaded := v_unloaded v;
     v_meminfo := v_meminfo v; v_misc := v_misc v;
     v_breakpad := v_breakpad v; v_assertion := v_assertion v; v_thread_info := v_thread_info v;
     v_lx_cpuinfo := v_lx_cpuinfo v; v_lx_status := v_lx_status v; v_lx_lsb := v_lx_lsb v;
     v_lx_environ := v_lx_environ v; v_lx_maps := v_lx_maps v; v_lx_limits := v_lx_limits v; v_handles := v_handles v |}.

Theorem last_entry_wins : forall l1 ty loc l3, ~ In ty (map fst l3) ->
  dir_lookup (l1 ++ (ty, loc) :: l3) ty = Some loc.
Proof.
  intros l1 ty loc l3 H. rewrite dir_lookup_app. cbn [dir_lookup]. rewrite dir_lookup_none by exact H.
  rewrite Z.eqb_refl. reflexivity.
Qed.

Definition set_extra (m : model) (x : list (Z * (Z * Z))) : model :=
  {| m_version := m_version m; m_checksum := m_checksum m; m_time := m_time m; m_flags := m_flags m;
     m_extra_dir := x; m_pad_lists := m_pad_lists m; m_sysinfo := m_sysinfo m; m_threads := m_threads m;
     m_modules := m_modules m; m_memory := m_memory m; m_memory64 := m_memory64 m; m_exception := m_exception m;
     m_tnames := m_tnames m; m_unloaded := m_unloaded m; m_meminfo := m_meminfo m; m_misc := m_misc m;
     m_breakpad := m_breakpad m; m_assertion := m_assertion m; m_thread_info := m_thread_info m;
     m_lx_cpuinfo := m_lx_cpuinfo m; m_lx_status := m_lx_status m; m_lx_lsb := m_lx_lsb m;
     m_lx_environ := m_lx_environ m; m_lx_maps := m_lx_maps m; m_lx_limits := m_lx_limits m; m_handles := m_handles m |}.

(* get_stream through such a directory: the reader applied to the slice the last entry of the type names *)
Lemma get_stream_last : forall A (dec : endian -> list Z -> list Z -> option A) e all l1 ty size rva l3,
  ~ In ty (map fst l3) ->
  get_stream dec e all (l1 ++ (ty, (size, rva)) :: l3) ty =
  match slice all rva size with
  | Some b => match dec e all b with Some a => SOk a | None => SErr end
  | None => SErr
  end.
Proof. intros. unfold get_stream. rewrite last_entry_wins by assumption. reflexivity. Qed.

Theorem list_hdr_strict : forall e esize bs n r, dec_list_hdr e esize bs = Some (n, r) ->
  zlen bs = 4 + n * esize \/ zlen bs = 8 + n * esize.
Proof.
  intros e esize bs n r H. unfold dec_list_hdr in H.
  destruct (take 4 bs) as [[h t]|]; [|discriminate]. cbn [obnd fst snd] in H.
  destruct (zlen bs <? 4 + dec_uint e h * esize); [discriminate|].
  destruct (zlen bs - (4 + dec_uint e h * esize) =? 0) eqn:E0.
  - inversion H; subst. apply Z.eqb_eq in E0. left. lia.
  - destruct (zlen bs - (4 + dec_uint e h * esize) =? 4) eqn:E4; [|discriminate].
    inversion H; subst. apply Z.eqb_eq in E4. right. lia.
Qed.
