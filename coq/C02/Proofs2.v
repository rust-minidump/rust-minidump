(* C02/Proofs2.v — what it means for an item codec (icodec_ok) and for a stream section with its reader (sec_ok) to agree;
   a struct followed by its out-of-line data; framed lists for any items serializer; the plain and the extended list streams *)
From Coq Require Import Lia.
From RM Require Import C02.Model C02.Proofs1.
Open Scope Z_scope.

Definition U32M : Z := 4294967295.
Lemma wbits4 : wbits 4 = 4294967296. Proof. reflexivity. Qed.
Lemma wbits8 : wbits 8 = 18446744073709551616. Proof. reflexivity. Qed.
Lemma wbits2 : wbits 2 = 65536. Proof. reflexivity. Qed.
Lemma wbits1 : wbits 1 = 256. Proof. reflexivity. Qed.

Ltac zl := rewrite ?zlen_app, ?zlen_enc_uint, ?zlen_enc_string, ?zlen_cons, ?zlen_nil in *.
Ltac b2z :=
  repeat match goal with
         | H : (_ <=? _) = true |- _ => apply Z.leb_le in H
         | H : (_ <? _) = true |- _ => apply Z.ltb_lt in H
         | H : (_ =? _) = false |- _ => apply Z.eqb_neq in H
         | H : (_ >? _) = false |- _ => rewrite Z.gtb_ltb in H; apply Z.ltb_ge in H
         | H : negb _ = true |- _ => apply negb_true_iff in H
         | H : _ || _ = false |- _ => apply orb_false_elim in H; destruct H
         end.

Record icodec_ok {A} (c : icodec A) (e : endian) (wfA : A -> bool) : Prop := {
  ok_size : 1 <= lsize (ic_layout c) < 4294967296;
  ok_len : forall a off, wfA a = true -> shape (ic_layout c) (ic_value c a off) = true;
  ok_wt : forall a off, wfA a = true -> 0 <= off -> off + zlen (ic_aux c e a) <= U32M ->
          wt (ic_layout c) (ic_value c a off) = true;
  ok_read : forall a pre post, wfA a = true -> 0 < zlen pre -> zlen pre + zlen (ic_aux c e a) <= U32M ->
            ic_read c e (pre ++ ic_aux c e a ++ post) (ic_value c a (zlen pre)) = Some (Some a)
}.

Section Items.
Context {A : Type} (c : icodec A) (e : endian) (wfA : A -> bool) (OK : icodec_ok c e wfA).

Lemma enc_items_aux_len_nonneg : forall l off, 0 <= zlen (snd (enc_items c e off l)).
Proof. intros. apply zlen_nonneg. Qed.

Lemma enc_items_fst_len : forall l off, forallb wfA l = true ->
  zlen (fst (enc_items c e off l)) = zlen l * lsize (ic_layout c).
Proof.
  induction l as [|a l IH]; intros off Hwf; [reflexivity|].
  cbn [forallb] in Hwf. apply andb_prop in Hwf. destruct Hwf as [Ha Hl].
  cbn [enc_items fst snd] in *. rewrite zlen_app, zlen_cons.
  rewrite (enc_zlen_shape e _ _ (ok_len c e wfA OK a off Ha)). rewrite IH by assumption. lia.
Qed.

(* [off] is a variable so that the lemma applies whatever expression a serializer computes the offset with *)
Lemma dec_items_enc : forall l pre post off, off = zlen pre -> forallb wfA l = true -> 0 < zlen pre ->
  off + zlen (snd (enc_items c e off l)) <= U32M ->
  dec_items c e (pre ++ snd (enc_items c e off l) ++ post) (length l) (fst (enc_items c e off l)) = Some l.
Proof.
  induction l as [|a l IH]; intros pre post off -> Hwf Hpre Hb; [reflexivity|].
  cbn [forallb] in Hwf. apply andb_prop in Hwf. destruct Hwf as [Ha Hl].
  cbn [enc_items fst snd length dec_items] in *. rewrite zlen_app in Hb.
  pose proof (zlen_nonneg _ (ic_aux c e a)) as Hax.
  pose proof (zlen_nonneg _ (snd (enc_items c e (zlen pre + zlen (ic_aux c e a)) l))) as Hrest.
  rewrite dec_enc by (apply (ok_wt c e wfA OK); [assumption|lia|lia]).
  rewrite <- (app_assoc (ic_aux c e a)).
  rewrite (ok_read c e wfA OK) by (try assumption; lia).
  rewrite (app_assoc pre), (IH (pre ++ ic_aux c e a) post) by (rewrite ?zlen_app; try assumption; lia). reflexivity.
Qed.
End Items.

(* a stream section and its reader agree *)
Definition sec_ok {A} (enc : Z -> A -> section) (dec : list Z -> list Z -> option A) (wf : A -> bool) : Prop :=
  forall a pre post, wf a = true -> 0 < zlen pre -> zlen pre + zlen (snd (enc (zlen pre) a)) <= U32M ->
    0 <= fst (enc (zlen pre) a) <= zlen (snd (enc (zlen pre) a)) /\
    exists body, slice (pre ++ snd (enc (zlen pre) a) ++ post) (zlen pre) (fst (enc (zlen pre) a)) = Some body
              /\ dec (pre ++ snd (enc (zlen pre) a) ++ post) body = Some a.

Lemma lsize_nonneg : forall L, 0 <= lsize L.
Proof. induction L; cbn [lsize]; nia. Qed.

(* a fixed struct followed by its out-of-line data: where the struct is, that it reads back, and the file regrouped around the
   data.  The struct usually holds the offset of the data, so its integers are in range only once the bound is known in terms of
   [lsize L]; the shape gives the length first *)
Lemma struct_blob : forall e L v tail pre post,
  zlen pre + zlen (enc e L v ++ tail) <= U32M -> shape L v = true ->
  (zlen pre + lsize L + zlen tail <= U32M -> wt L v = true) ->
  0 <= lsize L <= zlen (enc e L v ++ tail) /\
  slice (pre ++ (enc e L v ++ tail) ++ post) (zlen pre) (lsize L) = Some (enc e L v) /\
  dec e L (enc e L v) = Some (v, []) /\
  pre ++ (enc e L v ++ tail) ++ post = (pre ++ enc e L v) ++ tail ++ post /\ zlen (pre ++ enc e L v) = zlen pre + lsize L.
Proof.
  intros e L v tail pre post Hb Hsh Hwt. pose proof (enc_zlen_shape e L v Hsh) as Hlen. rewrite !zlen_app, Hlen in *.
  pose proof (zlen_nonneg _ tail). pose proof (lsize_nonneg L).
  repeat split; try lia.
  - rewrite <- app_assoc. apply slice_mid'; [reflexivity|]. symmetry. exact Hlen.
  - apply dec_enc_nil, Hwt. lia.
  - rewrite <- !app_assoc. reflexivity.
Qed.

(* ... at a position given as an offset into a file given as a whole (the form in which nested structures meet it) *)
Lemma sec_at : forall A (enc : Z -> A -> section) dec wf a, sec_ok enc dec wf ->
  forall all pre post off, off = zlen pre -> wf a = true -> 0 < zlen pre ->
  all = pre ++ snd (enc off a) ++ post -> off + zlen (snd (enc off a)) <= U32M ->
  0 <= fst (enc off a) <= zlen (snd (enc off a)) /\ obnd (slice all off (fst (enc off a))) (dec all) = Some a.
Proof.
  intros A enc dec wf a Hok all pre post off -> Hwf Hpre -> Hb.
  destruct (Hok a pre post Hwf Hpre Hb) as [Hs [body [Hsl Hd]]]. rewrite Hsl. split; assumption.
Qed.

Lemma dec_list_hdr_enc : forall e pad n esize ents, 0 <= n < wbits 4 -> 0 <= esize -> zlen ents = n * esize ->
  dec_list_hdr e esize (enc_list_hdr e pad n ++ ents) = Some (n, ents).
Proof.
  intros e pad n esize ents Hn Hes Hlen. unfold dec_list_hdr, enc_list_hdr.
  rewrite <- app_assoc. rewrite take_app by apply length_enc_uint.
  cbn [obnd fst snd]. rewrite dec_enc_uint by exact Hn.
  destruct pad; zl; rewrite Hlen.
  - replace (Z.of_nat 4 + (1 + (1 + (1 + (1 + 0))) + n * esize) <? 4 + n * esize) with false by (symmetry; apply Z.ltb_ge; lia).
    replace (Z.of_nat 4 + (1 + (1 + (1 + (1 + 0))) + n * esize) - (4 + n * esize) =? 0) with false by (symmetry; apply Z.eqb_neq; lia).
    replace (Z.of_nat 4 + (1 + (1 + (1 + (1 + 0))) + n * esize) - (4 + n * esize) =? 4) with true by (symmetry; apply Z.eqb_eq; lia).
    reflexivity.
  - replace (Z.of_nat 4 + (0 + n * esize) <? 4 + n * esize) with false by (symmetry; apply Z.ltb_ge; lia).
    replace (Z.of_nat 4 + (0 + n * esize) - (4 + n * esize) =? 0) with true by (symmetry; apply Z.eqb_eq; lia).
    reflexivity.
Qed.

(* a header, the fixed-size entries, then their out-of-line data, at any offset of a file below 4 GiB: the stream proper is
   header and entries, and dec_items reads the entries back.  [ei] is the items serializer *)
Definition framed_spec {A} (c : icodec A) (e : endian) (wfA : A -> bool) (ei : Z -> list A -> list Z * list Z) : Prop :=
  forall hdr l pre post, forallb wfA l = true -> 0 < zlen pre ->
  let ssize := zlen hdr + zlen l * lsize (ic_layout c) in
  let r := ei (zlen pre + ssize) l in
  let all := pre ++ (hdr ++ fst r ++ snd r) ++ post in
  zlen pre + zlen (hdr ++ fst r ++ snd r) <= U32M ->
  0 <= zlen l < wbits 4 /\ zlen (fst r) = zlen l * lsize (ic_layout c) /\ 0 <= ssize <= zlen (hdr ++ fst r ++ snd r) /\
  slice all (zlen pre) ssize = Some (hdr ++ fst r) /\ dec_items c e all (length l) (fst r) = Some l.

(* it holds of every items serializer with these two properties: [enc_items] of a good codec (framed_items), and the Crashpad
   module list, which places its modules itself *)
Lemma framed : forall A (c : icodec A) e wfA ei, 1 <= lsize (ic_layout c) ->
  (forall l off, forallb wfA l = true -> zlen (fst (ei off l)) = zlen l * lsize (ic_layout c)) ->
  (forall l pre post off, off = zlen pre -> forallb wfA l = true -> 0 < zlen pre -> off + zlen (snd (ei off l)) <= U32M ->
     dec_items c e (pre ++ snd (ei off l) ++ post) (length l) (fst (ei off l)) = Some l) ->
  framed_spec c e wfA ei.
Proof.
  intros A c e wfA ei Hes ei_len ei_dec hdr l pre post Hwf Hpre ssize r all Hb.
  assert (Hflen : zlen (fst r) = zlen l * lsize (ic_layout c)) by (apply ei_len; exact Hwf).
  rewrite !zlen_app, Hflen in *.
  pose proof (zlen_nonneg _ l). pose proof (zlen_nonneg _ hdr). pose proof (zlen_nonneg _ (snd r)). pose proof (zlen_nonneg _ pre).
  assert (Hss : ssize = zlen hdr + zlen l * lsize (ic_layout c)) by reflexivity.
  rewrite wbits4. unfold U32M in *. repeat split; try nia.
  - unfold all. rewrite <- !app_assoc, (app_assoc hdr). apply slice_mid'; [reflexivity|]. rewrite zlen_app, Hflen. reflexivity.
  - unfold all. rewrite <- !app_assoc, (app_assoc hdr), (app_assoc pre). apply ei_dec; [|exact Hwf| |].
    + rewrite !zlen_app, Hflen. fold ssize. lia.
    + rewrite zlen_app. pose proof (zlen_nonneg _ (hdr ++ fst r)). lia.
    + fold r. unfold U32M. lia.
Qed.

Lemma framed_items : forall A (c : icodec A) e wfA, icodec_ok c e wfA -> framed_spec c e wfA (enc_items c e).
Proof.
  intros A c e wfA OK. apply framed; [apply (ok_size c e wfA OK)|apply (enc_items_fst_len c e wfA OK)|apply (dec_items_enc c e wfA OK)].
Qed.

Section Lists.
Context {A : Type} (c : icodec A) (e : endian) (wfA : A -> bool) (OK : icodec_ok c e wfA).

(* extended header: the count is a u64 when [wide], else a u32; the header the serializer writes ends with the count *)
Lemma dec_exlist_hdr_enc : forall (wide : bool) n esize ents, let cw := if wide then 8%nat else 4%nat in
  0 <= n < wbits 4 -> 0 <= esize < wbits 4 -> zlen ents = n * esize ->
  dec_exlist_hdr e wide esize (enc_exlist_hdr e (8 + Z.of_nat cw) cw esize n ++ ents) = Some (n, ents).
Proof.
  intros wide n esize ents cw Hn Hes Hlen. unfold dec_exlist_hdr, enc_exlist_hdr.
  assert (Hz : zlen (enc_uint e 4 (8 + Z.of_nat cw) ++ enc_uint e 4 esize ++ enc_uint e cw n) = 8 + Z.of_nat cw) by (zl; lia).
  assert (Hcw : (if wide && (16 <=? 8 + Z.of_nat cw) then 8%nat else 4%nat) = cw) by (destruct wide; reflexivity).
  assert (Hh : 0 <= 8 + Z.of_nat cw < wbits 4) by (destruct wide; rewrite wbits4; subst cw; lia).
  assert (Hnb : 0 <= n < wbits cw) by (rewrite wbits4 in Hn; destruct wide; subst cw; rewrite ?wbits8, ?wbits4; lia).
  rewrite Hz, Z.sub_diag. cbn [Z.to_nat repeat]. rewrite app_nil_r, <- !app_assoc.
  rewrite take_app by apply length_enc_uint. cbn [obnd fst snd].
  rewrite take_app by apply length_enc_uint. cbn [obnd fst snd].
  rewrite !dec_enc_uint by assumption. rewrite Hcw.
  rewrite take_app by apply length_enc_uint. cbn [obnd fst snd].
  rewrite dec_enc_uint by exact Hnb. rewrite Z.eqb_refl, Z.ltb_irrefl. cbn [negb]. zl. rewrite Hlen.
  replace (Z.of_nat 4 + (Z.of_nat 4 + (Z.of_nat cw + n * esize)) <? n * esize + (8 + Z.of_nat cw)) with false
    by (symmetry; apply Z.ltb_ge; lia).
  replace (8 + Z.of_nat cw - 8 - Z.of_nat cw) with 0 by lia. reflexivity.
Qed.

Theorem list_roundtrip : forall pad, sec_ok (enc_list c e pad) (dec_list c e) (forallb wfA).
Proof.
  intros pad l pre post Hwf Hpre Hb. unfold enc_list in *. cbn [fst snd] in *.
  destruct (framed_items _ _ _ _ OK _ l pre post Hwf Hpre Hb) as (Hn & Hlen & Hs & Hsl & Hd).
  split; [exact Hs|]. eexists. split; [exact Hsl|].
  unfold dec_list. rewrite dec_list_hdr_enc by (try assumption; apply lsize_nonneg).
  cbn [obnd fst snd]. rewrite zlen_to_nat. exact Hd.
Qed.

Theorem exlist_roundtrip : forall wide : bool, let cw := if wide then 8%nat else 4%nat in
  sec_ok (enc_exlist c e (8 + Z.of_nat cw) cw) (dec_exlist c e wide) (forallb wfA).
Proof.
  intros wide cw l pre post Hwf Hpre Hb. unfold enc_exlist in *. cbn [fst snd] in *.
  destruct (framed_items _ _ _ _ OK _ l pre post Hwf Hpre Hb) as (Hn & Hlen & Hs & Hsl & Hd).
  split; [exact Hs|]. eexists. split; [exact Hsl|].
  unfold dec_exlist. rewrite dec_exlist_hdr_enc by (try assumption; pose proof (ok_size c e wfA OK); rewrite wbits4; lia).
  cbn [obnd fst snd]. rewrite zlen_to_nat. exact Hd.
Qed.

End Lists.
