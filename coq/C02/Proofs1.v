(* C02/Proofs1.v — integers, the generic struct codec, slices, strings, CodeView records *)
From Coq Require Import Lia.
From RM Require Import C02.Model.
Open Scope Z_scope.

Lemma zlen_app : forall A (a b : list A), zlen (a ++ b) = zlen a + zlen b.
Proof. intros A a b. unfold zlen. rewrite app_length. lia. Qed.
Lemma zlen_nonneg : forall A (a : list A), 0 <= zlen a.
Proof. intros A a. unfold zlen. lia. Qed.
Lemma zlen_nil : forall A, zlen (@nil A) = 0.
Proof. reflexivity. Qed.
Lemma zlen_cons : forall A (x : A) l, zlen (x :: l) = 1 + zlen l.
Proof. intros A x l. unfold zlen. cbn [length]. lia. Qed.
Lemma zlen_to_nat : forall A (a : list A), Z.to_nat (zlen a) = length a.
Proof. intros A a. unfold zlen. lia. Qed.

Lemma wbits_pos : forall w, 0 < wbits w.
Proof. intro w. unfold wbits. apply Z.pow_pos_nonneg; lia. Qed.
Lemma wbits_S : forall w, wbits (S w) = 256 * wbits w.
Proof. intro w. unfold wbits. rewrite Nat2Z.inj_succ, Z.pow_succ_r by lia. reflexivity. Qed.

Lemma length_ule_enc : forall w z, length (ule_enc w z) = w.
Proof. induction w as [|w IH]; intro z; cbn [ule_enc length]; [reflexivity|]. rewrite IH. reflexivity. Qed.

Lemma ule_dec_enc : forall w z, 0 <= z < wbits w -> ule_dec (ule_enc w z) = z.
Proof.
  induction w as [|w IH]; intros z Hz.
  - unfold wbits in Hz. cbn in Hz. cbn. lia.
  - cbn [ule_enc ule_dec]. rewrite wbits_S in Hz.
    rewrite IH.
    + pose proof (Z.div_mod z 256). lia.
    + split; [apply Z.div_pos; lia|]. apply Z.div_lt_upper_bound; lia.
Qed.

Lemma length_enc_uint : forall e w z, length (enc_uint e w z) = w.
Proof. intros [|] w z; unfold enc_uint; [|rewrite rev_length]; apply length_ule_enc. Qed.
Lemma zlen_enc_uint : forall e w z, zlen (enc_uint e w z) = Z.of_nat w.
Proof. intros. unfold zlen. rewrite length_enc_uint. reflexivity. Qed.

Lemma dec_enc_uint : forall e w z, 0 <= z < wbits w -> dec_uint e (enc_uint e w z) = z.
Proof.
  intros [|] w z Hz; unfold dec_uint, enc_uint; [|rewrite rev_involutive]; apply ule_dec_enc; exact Hz.
Qed.

Lemma take_app : forall n a r, length a = n -> take n (a ++ r) = Some (a, r).
Proof.
  intros n a r Hn. unfold take. rewrite app_length.
  replace (n <=? length a + length r)%nat with true by (symmetry; apply Nat.leb_le; lia).
  subst n. rewrite firstn_app, Nat.sub_diag, firstn_all, skipn_app, Nat.sub_diag, skipn_all.
  cbn. rewrite app_nil_r. reflexivity.
Qed.

Lemma take_some : forall n l h r, take n l = Some (h, r) -> l = h ++ r /\ length h = n.
Proof.
  intros n l h r H. unfold take in H.
  destruct (n <=? length l)%nat eqn:E; [|discriminate]. apply Nat.leb_le in E.
  inversion H; subst. split; [symmetry; apply firstn_skipn|]. apply firstn_length_le. exact E.
Qed.

Lemma forallb_imp : forall A (p q : A -> bool) l, (forall x, p x = true -> q x = true) -> forallb p l = true -> forallb q l = true.
Proof. intros A p q l H Hp. rewrite forallb_forall in *. auto. Qed.

Lemma skipn_pre : forall (pre x : list Z), skipn (length pre) (pre ++ x) = x.
Proof. induction pre as [|a p IH]; intro x; [reflexivity|]. cbn [length app skipn]. apply IH. Qed.

(* induction over layouts in which an array is its first element followed by the shorter array: the codec's functions treat
   [LArr (S n) t] exactly as they treat [LSeq t (LArr n t)], so a proof has the same step for both *)
Lemma layout_ind2 : forall P : layout -> Prop,
  (forall w, P (LU w)) -> (forall w, P (LI w)) -> (forall t, P (LArr 0 t)) ->
  (forall n t, P t -> P (LArr n t) -> P (LArr (S n) t)) -> P LNil -> (forall t r, P t -> P r -> P (LSeq t r)) ->
  forall L, P L.
Proof. intros P HU HI H0 HS HN HQ. induction L as [w|w|n t IHt| |t IHt r IHr]; auto. induction n; auto. Qed.

Lemma dec_enc : forall e L v rest, wt L v = true -> dec e L (enc e L v ++ rest) = Some (v, rest).
Proof.
  intros e L. induction L as [w|w|t|n t IHt IHr| |t r IHt IHr] using layout_ind2; intros v rest Hwt;
    destruct v as [z| |a b]; cbn [wt enc dec] in *; try discriminate; try reflexivity.
  1,2: apply andb_prop in Hwt; destruct Hwt as [H1 H2]; apply Z.leb_le in H1; apply Z.ltb_lt in H2;
       rewrite take_app by apply length_enc_uint.
  - rewrite dec_enc_uint by lia. reflexivity.
  - (* two's complement: a negative z is stored as z + 256^w *)
    pose proof (wbits_pos w) as Hp.
    rewrite dec_enc_uint by (apply Z.mod_pos_bound; lia).
    destruct (Z_lt_le_dec z 0) as [Hneg|Hpos].
    + assert (Hm : z mod wbits w = z + wbits w).
      { replace z with ((z + wbits w) + (-1) * wbits w) at 1 by lia.
        rewrite Z.mod_add by lia. apply Z.mod_small. lia. }
      rewrite Hm. replace (2 * (z + wbits w) <? wbits w) with false by (symmetry; apply Z.ltb_ge; lia).
      replace (z + wbits w - wbits w) with z by lia. reflexivity.
    + rewrite Z.mod_small by lia.
      replace (2 * z <? wbits w) with true by (symmetry; apply Z.ltb_lt; lia). reflexivity.
  - apply andb_prop in Hwt. destruct Hwt as [H1 H2]. rewrite <- app_assoc, IHt, IHr by assumption. reflexivity.
  - apply andb_prop in Hwt. destruct Hwt as [H1 H2]. rewrite <- app_assoc, IHt, IHr by assumption. reflexivity.
Qed.

Lemma dec_enc_nil : forall e L v, wt L v = true -> dec e L (enc e L v) = Some (v, []).
Proof. intros e L v H. rewrite <- (app_nil_r (enc e L v)). apply dec_enc. exact H. Qed.

(* what a successful read consumes; so a buffer shorter than the struct is refused *)
Lemma dec_size : forall e L bs v r, dec e L bs = Some (v, r) -> zlen bs = lsize L + zlen r.
Proof.
  intros e L. induction L as [w|w|t|n t IHt IHr| |t r IHt IHr] using layout_ind2; intros bs v r0 E; cbn [dec lsize] in *.
  1,2: destruct (take w bs) as [[h r']|] eqn:Et; [|discriminate]; inversion E; subst;
       apply take_some in Et; destruct Et as [-> E2]; rewrite zlen_app; unfold zlen; lia.
  1,3: inversion E; subst; lia.
  all: destruct (dec e t bs) as [[x b1]|] eqn:E1; [|discriminate];
       match type of E with match ?X with _ => _ end = _ => destruct X as [[y b2]|] eqn:E2; [|discriminate] end;
       inversion E; subst; apply IHt in E1; apply IHr in E2; lia.
Qed.

Lemma dec_short : forall e L bs, zlen bs < lsize L -> dec e L bs = None.
Proof.
  intros e L bs H. destruct (dec e L bs) as [[v r]|] eqn:E; [|reflexivity].
  apply dec_size in E. pose proof (zlen_nonneg _ r). lia.
Qed.

(* shape: the value tree has the form of the layout (integer ranges not checked); this alone fixes
   the encoded length *)
Fixpoint shape (L : layout) (v : value) {struct L} : bool :=
  match L with
  | LU _ | LI _ => match v with VInt _ => true | _ => false end
  | LNil => match v with VNil => true | _ => false end
  | LSeq t r => match v with VSeq a b => shape t a && shape r b | _ => false end
  | LArr n t =>
      (fix arr (n : nat) (v : value) {struct n} : bool :=
         match n, v with
         | O, VNil => true
         | S n', VSeq a b => shape t a && arr n' b
         | _, _ => false
         end) n v
  end.

Lemma wt_shape : forall L v, wt L v = true -> shape L v = true.
Proof.
  induction L as [w|w|t|n t IHt IHr| |t r IHt IHr] using layout_ind2; intros v H;
    destruct v as [z| |a b]; cbn [wt shape] in *; try discriminate; try reflexivity.
  all: apply andb_prop in H; destruct H as [H1 H2]; rewrite (IHt a H1), (IHr b H2); reflexivity.
Qed.

Lemma enc_zlen_shape : forall e L v, shape L v = true -> zlen (enc e L v) = lsize L.
Proof.
  intros e L. induction L as [w|w|t|n t IHt IHr| |t r IHt IHr] using layout_ind2; intros v H;
    destruct v as [z| |a b]; cbn [shape enc lsize] in *; try discriminate; try reflexivity.
  1,2: apply zlen_enc_uint.
  all: apply andb_prop in H; destruct H as [H1 H2]; rewrite zlen_app, IHt, IHr by assumption; lia.
Qed.
Lemma shape_seq : forall t r a b, shape (LSeq t r) (VSeq a b) = shape t a && shape r b.
Proof. reflexivity. Qed.

Lemma enc_zlen : forall e L v, wt L v = true -> zlen (enc e L v) = lsize L.
Proof. intros e L v H. apply enc_zlen_shape, wt_shape, H. Qed.

(* the encoded length does not depend on the byte order (even for ill-typed values) *)
Lemma enc_zlen_endian : forall e1 e2 L v, zlen (enc e1 L v) = zlen (enc e2 L v).
Proof.
  intros e1 e2 L. induction L as [w|w|t|n t IHt IHr| |t r IHt IHr] using layout_ind2; intros v;
    destruct v as [z| |a b]; cbn [enc] in *; try reflexivity.
  1,2: rewrite !zlen_enc_uint; reflexivity.
  all: rewrite !zlen_app, (IHt a), (IHr b); reflexivity.
Qed.

Lemma unvarr_varr : forall l, unvarr (varr l) = Some l.
Proof. unfold varr. induction l as [|z l IH]; cbn; [reflexivity|]. fold (varr l) in *. rewrite IH. reflexivity. Qed.

(* varr l is a well-typed array of unsigned w-byte integers *)
Fixpoint all_in (w : nat) (l : list Z) : bool :=
  match l with [] => true | z :: t => (0 <=? z) && (z <? wbits w) && all_in w t end.
Lemma wt_varr : forall w l, all_in w l = true -> wt (LArr (length l) (LU w)) (varr l) = true.
Proof.
  intros w. induction l as [|z l IH]; intro H; [reflexivity|].
  cbn [all_in] in H. apply andb_prop in H. destruct H as [H1 H2].
  cbn [length varr map vtuple]. cbn [wt]. cbn [wt] in IH. unfold varr in IH.
  rewrite H1. cbn [andb]. apply IH. exact H2.
Qed.

Lemma wt_varr' : forall n w l, length l = n -> all_in w l = true -> wt (LArr n (LU w)) (varr l) = true.
Proof. intros n w l H. subst n. apply wt_varr. Qed.
Lemma wt_seq : forall t r a b, wt (LSeq t r) (VSeq a b) = wt t a && wt r b.
Proof. reflexivity. Qed.
Lemma wt_lu : forall w z, wt (LU w) (VInt z) = (0 <=? z) && (z <? wbits w).
Proof. reflexivity. Qed.
Lemma wt_li : forall w z, wt (LI w) (VInt z) = (- wbits w <=? 2 * z) && (2 * z <? wbits w).
Proof. reflexivity. Qed.
Lemma wt_nil : wt LNil VNil = true.
Proof. reflexivity. Qed.
Ltac bsplit := repeat (apply andb_true_intro; split).
Ltac bdestr := repeat match goal with H : _ && _ = true |- _ => apply andb_prop in H; destruct H end.
Ltac wt_open := cbn [vtuple]; rewrite ?wt_seq, ?wt_lu, ?wt_nil.

Lemma slice_mid : forall pre x post, slice (pre ++ x ++ post) (zlen pre) (zlen x) = Some x.
Proof.
  intros pre x post. unfold slice.
  pose proof (zlen_nonneg _ pre). pose proof (zlen_nonneg _ x). pose proof (zlen_nonneg _ post).
  rewrite !zlen_app.
  replace ((0 <=? zlen pre) && (0 <=? zlen x) && (zlen pre + zlen x <=? zlen pre + (zlen x + zlen post))) with true.
  2:{ symmetry. rewrite !andb_true_iff. repeat split; apply Z.leb_le; lia. }
  rewrite !zlen_to_nat. rewrite skipn_app, Nat.sub_diag, skipn_all. cbn [app skipn].
  rewrite firstn_app, Nat.sub_diag, firstn_all. cbn. rewrite app_nil_r. reflexivity.
Qed.

Lemma slice_mid' : forall pre x post off n, off = zlen pre -> n = zlen x ->
  slice (pre ++ x ++ post) off n = Some x.
Proof. intros; subst; apply slice_mid. Qed.

Lemma enc_uint_2 : forall e z, exists a b, enc_uint e 2 z = [a; b].
Proof. intros [|] z; cbn; eauto. Qed.

Lemma dec_units_enc : forall e u, all_in 2 u = true -> dec_units e (enc_units e u) = u.
Proof.
  intros e. induction u as [|z u IH]; intro H; [reflexivity|].
  cbn [all_in] in H. apply andb_prop in H. destruct H as [H1 H2]. apply andb_prop in H1. destruct H1 as [H0 H1].
  apply Z.leb_le in H0. apply Z.ltb_lt in H1.
  unfold enc_units in *. cbn [flat_map].
  destruct (enc_uint_2 e z) as [a [b Hab]]. rewrite Hab. cbn [app dec_units].
  rewrite <- Hab. rewrite dec_enc_uint by lia. rewrite IH by exact H2. reflexivity.
Qed.

Lemma zlen_enc_units : forall e u, zlen (enc_units e u) = 2 * zlen u.
Proof.
  intros e. induction u as [|z u IH]; [reflexivity|].
  unfold enc_units in *. cbn [flat_map]. rewrite zlen_app, zlen_enc_uint, IH, zlen_cons. lia.
Qed.
Lemma zlen_enc_string : forall e u, zlen (enc_string e u) = 4 + 2 * zlen u.
Proof. intros. unfold enc_string. rewrite zlen_app, zlen_enc_uint, zlen_enc_units. lia. Qed.

(* a string the serializer can write and the reader accepts *)
Definition wf_string (u : list Z) : bool :=
  all_in 2 u && valid_utf16 u && (2 * zlen u <? wbits 4).

Lemma read_string_enc : forall e u pre post, wf_string u = true ->
  read_string e (pre ++ enc_string e u ++ post) (zlen pre) = Some u.
Proof.
  intros e u pre post H. unfold wf_string in H.
  apply andb_prop in H. destruct H as [H Hlen]. apply andb_prop in H. destruct H as [Hin Hval].
  apply Z.ltb_lt in Hlen. pose proof (zlen_nonneg _ u) as Hu.
  unfold read_string, enc_string.
  rewrite <- app_assoc.
  rewrite (slice_mid' pre (enc_uint e 4 (2 * zlen u)) _ (zlen pre) 4) by (rewrite ?zlen_enc_uint; reflexivity).
  cbn [obnd]. rewrite dec_enc_uint by lia.
  replace ((2 * zlen u) mod 2 =? 0) with true.
  2:{ symmetry. apply Z.eqb_eq. rewrite Z.mul_comm. apply Z.mod_mul. lia. }
  rewrite !zlen_app, zlen_enc_uint, zlen_enc_units.
  pose proof (zlen_nonneg _ post).
  replace (zlen pre + (Z.of_nat 4 + (2 * zlen u + zlen post)) <? zlen pre + 4 + 2 * zlen u) with false
    by (symmetry; apply Z.ltb_ge; lia).
  cbn [negb orb].
  rewrite app_assoc.
  rewrite (slice_mid' (pre ++ enc_uint e 4 (2 * zlen u)) (enc_units e u) post).
  2:{ rewrite zlen_app, zlen_enc_uint. lia. }
  2:{ rewrite zlen_enc_units. reflexivity. }
  cbn [obnd]. rewrite dec_units_enc by exact Hin. rewrite Hval. reflexivity.
Qed.

Definition u32b (z : Z) : bool := (0 <=? z) && (z <? wbits 4).
Definition u16b (z : Z) : bool := (0 <=? z) && (z <? wbits 2).
Definition u64b (z : Z) : bool := (0 <=? z) && (z <? wbits 8).

Definition wf_cv (e : endian) (c : cvrec) : bool :=
  match c with
  | CvNone => true
  | CvPdb70 d1 d2 d3 d4 age _ => u32b d1 && u16b d2 && u16b d3 && (length d4 =? 8)%nat && all_in 1 d4 && u32b age
  | CvPdb20 off s age _ => u32b off && u32b s && u32b age
  | CvElf _ => true
  | CvUnknown raw =>
      match take 4 raw with
      | Some (h, _) => let s := dec_uint e h in
                       negb (s =? CV_SIG_Pdb70) && negb (s =? CV_SIG_Pdb20) && negb (s =? CV_SIG_Elf)
      | None => false
      end
  end.

(* a record that opens with its u32 signature: what read_codeview's first read returns.  The record is given by an equation
   so that a layout and a value known by name meet it by conversion *)
Lemma take_sig : forall B e L sig v file bs (f : list Z * list Z -> option B),
  bs = enc e (LSeq (LU 4) L) (VSeq (VInt sig) v) ++ file ->
  obnd (take 4 bs) f = f (enc_uint e 4 sig, enc e L v ++ file).
Proof. intros B e L sig v file bs f ->. cbn [enc]. rewrite <- app_assoc, take_app by apply length_enc_uint. reflexivity. Qed.

Lemma dec_cv_enc : forall e c, wf_cv e c = true -> c <> CvNone -> dec_cv e (enc_cv e c) = Some c.
Proof.
  intros e c Hwf Hne. destruct c as [|d1 d2 d3 d4 age file|off s age file|bid|raw]; [congruence| | | |].
  - cbn [wf_cv] in Hwf. repeat (apply andb_prop in Hwf; destruct Hwf as [Hwf ?]).
    assert (Hd4 : length d4 = 8%nat) by (apply Nat.eqb_eq; assumption).
    assert (Hwt : wt L_CV_INFO_PDB70 (vtuple [VInt CV_SIG_Pdb70; vtuple [VInt d1; VInt d2; VInt d3; varr d4]; VInt age]) = true).
    { unfold L_CV_INFO_PDB70, L_GUID. wt_open. unfold u32b, u16b in *.
      rewrite (wt_varr' 8 1 d4) by assumption.
      bdestr. bsplit; try assumption; reflexivity. }
    unfold dec_cv, enc_cv.
    erewrite take_sig by reflexivity.
    cbn [obnd fst]. rewrite dec_enc_uint by (unfold wbits; cbn; unfold CV_SIG_Pdb70; lia).
    rewrite Z.eqb_refl. rewrite dec_enc by exact Hwt.
    cbn [vtuple]. rewrite unvarr_varr. reflexivity.
  - cbn [wf_cv] in Hwf. repeat (apply andb_prop in Hwf; destruct Hwf as [Hwf ?]).
    assert (Hwt : wt L_CV_INFO_PDB20 (vtuple [VInt CV_SIG_Pdb20; VInt off; VInt s; VInt age]) = true).
    { unfold L_CV_INFO_PDB20. wt_open. unfold u32b in *. bdestr. bsplit; try assumption; reflexivity. }
    unfold dec_cv, enc_cv.
    erewrite take_sig by reflexivity.
    cbn [obnd fst]. rewrite dec_enc_uint by (unfold wbits; cbn; unfold CV_SIG_Pdb20; lia).
    replace (CV_SIG_Pdb20 =? CV_SIG_Pdb70) with false by reflexivity. rewrite Z.eqb_refl.
    rewrite dec_enc by exact Hwt. reflexivity.
  - assert (Hwt : wt L_CV_INFO_ELF (vtuple [VInt CV_SIG_Elf]) = true) by reflexivity.
    unfold dec_cv, enc_cv.
    erewrite take_sig by reflexivity.
    cbn [obnd fst]. rewrite dec_enc_uint by (unfold wbits; cbn; unfold CV_SIG_Elf; lia).
    replace (CV_SIG_Elf =? CV_SIG_Pdb70) with false by reflexivity.
    replace (CV_SIG_Elf =? CV_SIG_Pdb20) with false by reflexivity. rewrite Z.eqb_refl.
    rewrite dec_enc by exact Hwt. reflexivity.
  - cbn [wf_cv] in Hwf. unfold dec_cv, enc_cv.
    destruct (take 4 raw) as [[h r]|]; [|discriminate]. cbn [obnd fst].
    cbn zeta in Hwf.
    destruct (dec_uint e h =? CV_SIG_Pdb70); [cbn in Hwf; discriminate|].
    destruct (dec_uint e h =? CV_SIG_Pdb20); [cbn in Hwf; discriminate|].
    destruct (dec_uint e h =? CV_SIG_Elf); [cbn in Hwf; discriminate|]. reflexivity.
Qed.

Lemma enc_cv_zlen_endian : forall e1 e2 c, zlen (enc_cv e1 c) = zlen (enc_cv e2 c).
Proof.
  intros e1 e2 [|d1 d2 d3 d4 age file|off s age file|bid|raw]; cbn [enc_cv]; try reflexivity;
    rewrite !zlen_app; f_equal; apply enc_zlen_endian.
Qed.

Lemma cvrec_none_dec : forall c : cvrec, {c = CvNone} + {c <> CvNone}.
Proof. intros [| | | |]; [left; reflexivity|right; discriminate..]. Qed.
