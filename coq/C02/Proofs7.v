(* C02/Proofs7.v — the directory as a whole: the map Minidump::read builds, get_raw_stream for every u32 type,
   all_streams; the directory a serialized model is written with (dir_of) *)
From Coq Require Import Lia.
From RM Require Import C02.Model C02.Documented C02.Proofs1 C02.Proofs2 C02.Proofs3 C02.Proofs4.
Open Scope Z_scope.

Lemma dmap_get_insert : forall l k v k',
  dmap_get (dmap_insert k v l) k' = if k =? k' then Some v else dmap_get l k'.
Proof.
  induction l as [|[k0 v0] t IH]; intros k v k'.
  - cbn [dmap_insert dmap_get]. destruct (k =? k'); reflexivity.
  - cbn [dmap_insert]. destruct (k <? k0) eqn:E1.
    + cbn [dmap_get]. destruct (k =? k'); reflexivity.
    + destruct (k =? k0) eqn:E2.
      * apply Z.eqb_eq in E2. subst k0. cbn [dmap_get]. destruct (k =? k'); reflexivity.
      * cbn [dmap_get]. rewrite IH. destruct (k0 =? k') eqn:E3; [|reflexivity].
        apply Z.eqb_eq in E3. subst k'. rewrite E2. reflexivity.
Qed.

Lemma dmap_keys_insert : forall l k v x,
  In x (map fst (dmap_insert k v l)) <-> x = k \/ In x (map fst l).
Proof.
  induction l as [|[k0 v0] t IH]; intros k v x.
  - cbn. intuition.
  - cbn [dmap_insert]. destruct (k <? k0) eqn:E1; [cbn; intuition|].
    destruct (k =? k0) eqn:E2.
    + apply Z.eqb_eq in E2. subst k0. cbn. intuition.
    + cbn [map fst In]. rewrite IH. intuition.
Qed.

(* ascending, hence duplicate-free, keys *)
Inductive asc : dmap -> Prop :=
| asc_nil : asc []
| asc_cons : forall k v l, asc l -> (forall k', In k' (map fst l) -> k < k') -> asc ((k, v) :: l).

Lemma asc_insert : forall l k v, asc l -> asc (dmap_insert k v l).
Proof.
  induction l as [|[k0 v0] t IH]; intros k v H.
  - cbn. constructor; [constructor|intros k' []].
  - inversion H as [|a b c Ht Hlt]; subst. cbn [dmap_insert].
    destruct (k <? k0) eqn:E1.
    + apply Z.ltb_lt in E1. constructor; [exact H|]. intros k' Hin. cbn [map fst In] in Hin.
      destruct Hin as [<-|Hin]; [exact E1|]. specialize (Hlt k' Hin). lia.
    + apply Z.ltb_ge in E1. destruct (k =? k0) eqn:E2.
      * apply Z.eqb_eq in E2. subst k0. constructor; assumption.
      * apply Z.eqb_neq in E2. constructor; [apply IH; exact Ht|].
        intros k' Hin. apply dmap_keys_insert in Hin. destruct Hin as [->|Hin]; [lia|apply Hlt; exact Hin].
Qed.

Lemma asc_get_in : forall l k v, asc l -> (In (k, v) l <-> dmap_get l k = Some v).
Proof.
  induction l as [|[k0 v0] t IH]; intros k v H.
  - cbn. split; [intros []|discriminate].
  - inversion H as [|a b c Ht Hlt]; subst. cbn [dmap_get In]. destruct (k0 =? k) eqn:E.
    + apply Z.eqb_eq in E. subst k0. split.
      * intros [Heq|Hin]; [inversion Heq; reflexivity|].
        assert (Hk : In k (map fst t)) by (apply in_map_iff; exists (k, v); split; [reflexivity|exact Hin]).
        specialize (Hlt k Hk). lia.
      * intro Heq. inversion Heq. left. reflexivity.
    + apply Z.eqb_neq in E. rewrite <- (IH k v Ht). split.
      * intros [Heq|Hin]; [inversion Heq; congruence|exact Hin].
      * intro Hin. right. exact Hin.
Qed.

Lemma build_get : forall d i acc ty,
  dmap_get (dmap_build i d acc) ty = match last_entry i d ty with Some x => Some x | None => dmap_get acc ty end.
Proof.
  induction d as [|[t loc] r IH]; intros i acc ty; [reflexivity|].
  cbn [dmap_build last_entry]. rewrite IH. destruct (last_entry (i + 1) r ty); [reflexivity|].
  rewrite dmap_get_insert. destruct (t =? ty); reflexivity.
Qed.

Lemma build_asc : forall d i acc, asc acc -> asc (dmap_build i d acc).
Proof.
  induction d as [|[t loc] r IH]; intros i acc H; [exact H|]. cbn [dmap_build]. apply IH. apply asc_insert. exact H.
Qed.

Lemma build_keys : forall d i acc x,
  In x (map fst (dmap_build i d acc)) <-> In x (map fst d) \/ In x (map fst acc).
Proof.
  induction d as [|[t loc] r IH]; intros i acc x.
  - cbn. intuition.
  - cbn [dmap_build map fst In]. rewrite IH, dmap_keys_insert. intuition.
Qed.

Lemma last_entry_none : forall d i ty, ~ In ty (map fst d) -> last_entry i d ty = None.
Proof.
  induction d as [|[t loc] r IH]; intros i ty H; [reflexivity|].
  cbn [map fst In] in H. cbn [last_entry]. rewrite IH by tauto.
  replace (t =? ty) with false by (symmetry; apply Z.eqb_neq; tauto). reflexivity.
Qed.

Lemma last_entry_split : forall l1 i ty loc l3, ~ In ty (map fst l3) ->
  last_entry i (l1 ++ (ty, loc) :: l3) ty = Some (i + zlen l1, loc).
Proof.
  induction l1 as [|[t l] r IH]; intros i ty loc l3 H.
  - cbn [app last_entry]. rewrite last_entry_none by exact H. rewrite Z.eqb_refl. unfold zlen. cbn. f_equal. f_equal. lia.
  - cbn [app last_entry]. rewrite IH by exact H. rewrite zlen_cons. f_equal. f_equal. lia.
Qed.

(* the typed readers (get_stream, via dir_lookup) and get_raw_stream are served from the same entry *)
Lemma last_entry_lookup : forall d i ty, option_map snd (last_entry i d ty) = dir_lookup d ty.
Proof.
  induction d as [|[t loc] r IH]; intros i ty; [reflexivity|].
  cbn [last_entry dir_lookup]. rewrite <- (IH (i + 1) ty). destruct (last_entry (i + 1) r ty); cbn [option_map]; [reflexivity|].
  destruct (t =? ty); reflexivity.
Qed.

(* the served directory is a map over exactly the types that occur; a type that does not occur is not found *)
Theorem served_dir_map : forall all d,
  asc (served_dir d) /\
  (forall ty, In ty (map fst (served_dir d)) <-> In ty (map fst d)) /\
  (forall ty v, In (ty, v) (served_dir d) <-> last_entry 0 d ty = Some v) /\
  (forall ty, ~ In ty (map fst d) -> raw_stream all d ty = SMissing).
Proof.
  intros all d. assert (Ha : asc (served_dir d)) by (apply build_asc; constructor).
  split; [exact Ha|]. split; [|split].
  - intro ty. unfold served_dir. rewrite build_keys. cbn. intuition.
  - intros ty v. rewrite (asc_get_in _ ty v Ha). unfold served_dir. rewrite build_get. cbn [dmap_get].
    destruct (last_entry 0 d ty); reflexivity.
  - intros ty H. unfold raw_stream, served_dir. rewrite build_get, last_entry_none by exact H. reflexivity.
Qed.

(* the directory a serialized model is written with, duplicates and all *)
Definition dir_of (e : endian) (m : model) : list (Z * (Z * Z)) :=
  m_extra_dir m ++
  map dirent (place (table e m) (HEADER_SIZE + (zlen (m_extra_dir m) + count_present (table e m)) * DIR_ENTRY_SIZE)).

