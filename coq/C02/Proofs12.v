(* C02/Proofs12.v — the handle data stream with its object-information chains, as a whole: every descriptor's chain, wherever
   the records lie *)
From Coq Require Import ZArith List Bool Lia.
From RM Require Import Base.Word C02.Layout C02.Model C02.Proofs1 C02.Proofs5 C02.Proofs9.
From RM Require Import Gen.Layouts.
Import ListNotations.
Open Scope Z_scope.

(* a handle data stream of 40-byte descriptors as a writer lays it out: the 16-byte header, then the descriptors *)
Definition handle_stream2 (e : endian) (reserved : Z) (ds : list value) : list Z :=
  enc_uint e 4 16 ++ enc_uint e 4 40 ++ enc_uint e 4 (zlen ds) ++ enc_uint e 4 reserved
  ++ flat_map (enc e L_MINIDUMP_HANDLE_DESCRIPTOR_2) ds.
Definition info_rva (v : value) : Z := nth 7 (vflat v) 0.

Lemma flat_len : forall e ds, Forall (fun v => wt L_MINIDUMP_HANDLE_DESCRIPTOR_2 v = true) ds ->
  zlen (flat_map (enc e L_MINIDUMP_HANDLE_DESCRIPTOR_2) ds) = 40 * zlen ds.
Proof.
  intros e ds F. induction F as [|v ds W F IH]; [reflexivity|]. cbn [flat_map]. rewrite zlen_app, IH, zlen_cons.
  rewrite (enc_zlen e _ _ W). change (lsize L_MINIDUMP_HANDLE_DESCRIPTOR_2) with 40. lia.
Qed.

Lemma info_rvas_ok : forall e ds rest, Forall (fun v => wt L_MINIDUMP_HANDLE_DESCRIPTOR_2 v = true) ds ->
  handle_info_rvas e true (length ds) (flat_map (enc e L_MINIDUMP_HANDLE_DESCRIPTOR_2) ds ++ rest) = map info_rva ds.
Proof.
  intros e ds rest F. induction F as [|v ds W F IH]; [reflexivity|].
  cbn [length handle_info_rvas flat_map map]. rewrite <- app_assoc, dec_enc by exact W. rewrite IH. reflexivity.
Qed.

Theorem handle_stream_chains : forall e all reserved ds chains,
  Forall (fun v => wt L_MINIDUMP_HANDLE_DESCRIPTOR_2 v = true) ds -> zlen ds < 4294967296 -> 0 <= reserved < 4294967296 ->
  Forall2 (fun v c => chain_at e all (info_rva v) c /\ Z.of_nat (length c) <= zlen all / 12) ds chains ->
  dec_handle_chains e all (handle_stream2 e reserved ds) = Some chains.
Proof.
  intros e all reserved ds chains W N R C. unfold dec_handle_chains, dec_handle_hdr, handle_stream2.
  pose proof (zlen_nonneg _ ds) as NN.
  rewrite take_app by apply length_enc_uint. cbn [obnd snd fst].
  rewrite take_app by apply length_enc_uint. cbn [obnd snd fst].
  rewrite take_app by apply length_enc_uint. cbn [obnd snd fst].
  rewrite !dec_enc_uint by (unfold wbits; cbn; lia).
  change (handle_esize false) with 32. change (handle_esize true) with 40. cbn [Z.eqb Pos.eqb orb negb].
  rewrite !zlen_app, !zlen_enc_uint, flat_len by exact W.
  replace (Z.of_nat 4 + (Z.of_nat 4 + (Z.of_nat 4 + (Z.of_nat 4 + 40 * zlen ds))) <? zlen ds * 40 + 16) with false
    by (symmetry; apply Z.ltb_ge; lia).
  cbn [obnd fst snd]. f_equal.
  change (Z.to_nat 16) with 16%nat.
  assert (SK : skipn 16 (enc_uint e 4 16 ++ enc_uint e 4 40 ++ enc_uint e 4 (zlen ds) ++ enc_uint e 4 reserved
                         ++ flat_map (enc e L_MINIDUMP_HANDLE_DESCRIPTOR_2) ds) = flat_map (enc e L_MINIDUMP_HANDLE_DESCRIPTOR_2) ds).
  { rewrite !app_assoc. set (h := ((enc_uint e 4 16 ++ enc_uint e 4 40) ++ enc_uint e 4 (zlen ds)) ++ enc_uint e 4 reserved).
    assert (HL : length h = 16%nat) by (unfold h; rewrite !app_length, !length_enc_uint; reflexivity).
    rewrite skipn_app, <- HL, skipn_all, Nat.sub_diag. reflexivity. }
  rewrite SK. unfold zlen at 1. rewrite Nat2Z.id.
  rewrite <- (app_nil_r (flat_map _ ds)), info_rvas_ok by exact W.
  clear - C. induction C as [|v c ds chains [H1 H2] C IH]; [reflexivity|]. cbn [map]. rewrite IH. f_equal.
  apply handle_chain_any_placement; assumption.
Qed.

