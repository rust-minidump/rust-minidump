(* C20/ClapSinks.v — from the argument vector (C20/Clap.v, the regenerated grammar) to the arguments of the symbol suppliers
   (C20/Sinks.v part 2): a Vec field of struct Cli collects its occurrences in command-line order, as a theorem about the
   parser model (Sinks.v part 2 starts from an abstract argv that takes this for granted); and, by the same reading of a
   command line item by item (fills, values_from), to the flag record main() runs on (flag_given, option_given,
   interpret_flags).  C20/ClapSymbols.v goes on to the cache / tmp / timeout arguments of the HTTP supplier. *)
From Coq Require Import Ascii List ZArith Bool Lia.
Import ListNotations.
From RM Require Import C20.Model C20.ClapSpec C20.Clap C20.Proofs C20.ClapProofs C20.Sinks C20.SinksProofs.
Local Open Scope str_scope.
Definition item_target (spec : list arg_spec) (acc : list (str * str)) (it : item) : option (arg_spec * str) :=
  match it with
  | IFlag n => match find_long spec n with Some a => Some (a, "") | None => None end
  | IOptEq n v | IOptSp n v => match find_long spec n with Some a => Some (a, v) | None => None end
  | IWord w => match next_positional spec acc with Some a => Some (a, w) | None => None end
  end.
Lemma item_effect_shape : forall spec acc it acc', item_effect spec acc it = Some acc' ->
  exists a v, item_target spec acc it = Some (a, v) /\ acc' = (acc ++ [(a_field a, v)])%list.
Proof.
  intros spec acc it acc' H. destruct it as [n|n v|n v|w]; cbn [item_effect item_target] in *.
  - destruct (plain_name n); [|discriminate]. destruct (find_long spec n) as [a|]; [|discriminate].
    destruct (a_kind a); try discriminate. exists a, "". split; [reflexivity|]. apply (push_some _ _ _ _ H).
  - destruct (plain_name n); [|discriminate]. destruct (find_long spec n) as [a|]; [|discriminate].
    destruct (a_kind a); try discriminate; exists a, v; (split; [reflexivity|]); apply (push_some _ _ _ _ H).
  - destruct (plain_name n && negb (looks_like_option v)); [|discriminate]. destruct (find_long spec n) as [a|]; [|discriminate].
    destruct (a_kind a); try discriminate; exists a, v; (split; [reflexivity|]); apply (push_some _ _ _ _ H).
  - destruct (looks_like_option w); [discriminate|]. destruct (next_positional spec acc) as [a|]; [|discriminate].
    exists a, w. split; [reflexivity|]. apply (push_some _ _ _ _ H).
Qed.

(* the values given to one option, and the positional words, in the order of the command line *)
Definition opt_values (name : str) (items : list item) : list str :=
  flat_map (fun it => match it with
                      | IOptEq n v | IOptSp n v => if str_eqb n name then [v] else []
                      | IFlag n => if str_eqb n name then [""] else []
                      | IWord _ => [] end) items.
Definition words (items : list item) : list str :=
  flat_map (fun it => match it with IWord v => [v] | _ => [] end) items.

Lemma has_field_app : forall acc f v g, has_field (acc ++ [(f, v)]) g = has_field acc g || str_eqb f g.
Proof. intros. unfold has_field. rewrite existsb_app. cbn. rewrite orb_false_r. reflexivity. Qed.

(* in the regenerated table: field [fld] of struct Cli is filled by the long option [name] and by nothing else (no other long
   option, no positional word); a closed check *)
Definition fills (fld name : str) : bool :=
  forallb (fun a => str_eqb (a_long a) "" || Bool.eqb (str_eqb (a_field a) fld) (str_eqb (a_long a) name)) CLI &&
  negb (str_eqb "minidump" fld) && negb (str_eqb "symbols_path_legacy" fld).
Lemma cli_next_positional : forall acc a, next_positional CLI acc = Some a ->
  a_field a = (if has_field acc "minidump" then "symbols_path_legacy" else "minidump").
Proof.
  intros acc a H. unfold next_positional, CLI, RM.Gen.C20Cli.CLI_ARGS in H. cbn in H.
  destruct (has_field acc "minidump"); cbn in H; inversion H; reflexivity.
Qed.

Lemma values_from : forall fld name, fills fld name = true -> forall items acc out, items_effect CLI acc items = Some out ->
  values_of out fld = (values_of acc fld ++ opt_values name items)%list.
Proof.
  intros fld name Hf. apply andb_true_iff in Hf. destruct Hf as [Hf Hl]. apply andb_true_iff in Hf. destruct Hf as [Hf Hm].
  apply negb_true_iff in Hl. apply negb_true_iff in Hm.
  assert (Hn : forall n a, find_long CLI n = Some a -> str_eqb (a_field a) fld = str_eqb n name).
  { intros n a Ef. destruct (find_long_all CLI _ Hf n a Ef) as [<- E]. exact (eqb_prop _ _ E). }
  clear Hf. induction items as [|it r IH]; intros acc out H; cbn [items_effect] in H.
  - inversion H; subst. cbn. rewrite app_nil_r. reflexivity.
  - destruct (item_effect CLI acc it) as [acc'|] eqn:E; [|discriminate].
    destruct (item_effect_shape _ _ _ _ E) as [a [v [Ht Hacc']]]. subst acc'.
    rewrite (IH _ _ H). rewrite values_of_app. clear IH H E.
    destruct it as [n|n v'|n v'|w]; cbn [item_target] in Ht.
    1-3: destruct (find_long CLI n) as [a0|] eqn:Ef; [|discriminate]; inversion Ht; subst a0 v;
         rewrite (Hn n a Ef); unfold opt_values; cbn [flat_map]; fold (opt_values name r); rewrite <- app_assoc; reflexivity.
    destruct (next_positional CLI acc) as [a0|] eqn:En; [|discriminate]. inversion Ht; subst a0 v.
    rewrite (cli_next_positional _ _ En). unfold opt_values. cbn [flat_map app]. fold (opt_values name r).
    destruct (has_field acc "minidump"); rewrite ?Hm, ?Hl, app_nil_r; reflexivity.
Qed.

(* the positional words: the first fills the required positional, the others the repeatable one; no option fills either *)
Lemma cli_positional_unnamed : forall n a, find_long CLI n = Some a ->
  str_eqb (a_field a) "minidump" = false /\ str_eqb (a_field a) "symbols_path_legacy" = false.
Proof.
  intros n a Hf.
  destruct (find_long_all CLI (fun a => negb (str_eqb (a_field a) "minidump") && negb (str_eqb (a_field a) "symbols_path_legacy"))
              eq_refl n a Hf) as [_ H].
  apply andb_true_iff in H. destruct H as [H1 H2]. split; apply negb_true_iff; assumption.
Qed.
Lemma words_from : forall items acc out, items_effect CLI acc items = Some out ->
  values_of out "symbols_path_legacy" =
    (values_of acc "symbols_path_legacy" ++ (if has_field acc "minidump" then words items else tl (words items)))%list /\
  values_of out "minidump" =
    (values_of acc "minidump" ++ (if has_field acc "minidump" then [] else firstn 1 (words items)))%list.
Proof.
  induction items as [|it r IH]; intros acc out H; cbn [items_effect] in H.
  - inversion H; subst. cbn. destruct (has_field out "minidump"); cbn; rewrite !app_nil_r; auto.
  - destruct (item_effect CLI acc it) as [acc'|] eqn:E; [|discriminate].
    destruct (item_effect_shape _ _ _ _ E) as [a [v [Ht Hacc']]]. subst acc'.
    destruct (IH _ _ H) as [I1 I2]. rewrite I1, I2, !values_of_app, has_field_app. clear IH I1 I2 H E.
    destruct it as [n|n v'|n v'|w]; cbn [item_target] in Ht.
    1-3: destruct (find_long CLI n) as [a0|] eqn:Ef; [|discriminate]; inversion Ht; subst a0 v;
         destruct (cli_positional_unnamed n a Ef) as [F1 F2]; rewrite F1, F2, orb_false_r, !app_nil_r; auto.
    destruct (next_positional CLI acc) as [a0|] eqn:En; [|discriminate]. inversion Ht; subst a0 v.
    rewrite (cli_next_positional _ _ En). unfold words. cbn [flat_map app]. fold (words r).
    destruct (has_field acc "minidump"); cbn; rewrite ?app_nil_r, <- ?app_assoc; cbn; auto.
Qed.

(* a Vec field collects its occurrences in command-line order: what reaches main() as cli.symbols_path / cli.symbols_url /
   cli.minidump / cli.symbols_path_legacy, read off the command line item by item *)
Lemma symbol_arguments_in_order : forall items out, items_effect CLI [] items = Some out ->
  values_of out "symbols_path" = opt_values "symbols-path" items /\
  values_of out "symbols_url" = opt_values "symbols-url" items /\
  values_of out "minidump" = firstn 1 (words items) /\
  values_of out "symbols_path_legacy" = tl (words items).
Proof.
  intros items out H. destruct (words_from items [] out H) as [H3 H4].
  split; [exact (values_from "symbols_path" "symbols-path" eq_refl items [] out H)|].
  split; [exact (values_from "symbols_url" "symbols-url" eq_refl items [] out H)|]. split; assumption.
Qed.

(* ... and on to the symbol supplier (C20/Sinks.v part 2): from the ARGUMENT VECTOR to the arguments of
   http_symbol_supplier / simple_symbol_supplier *)
(* [pid] names every text that stands for a path or a URL: both are abstract identifiers (Z) in Sinks.v *)
Definition sym_cli_of (pid : str -> path) (out : list (str * str)) : sym_cli :=
  {| sc_symbols_path := map pid (values_of out "symbols_path");
     sc_symbols_path_legacy := map pid (values_of out "symbols_path_legacy");
     sc_symbols_url := map pid (values_of out "symbols_url");
     sc_symbols_cache := match values_of out "symbols_cache" with v :: _ => Some (pid v) | [] => None end;
     sc_symbols_tmp := match values_of out "symbols_tmp" with v :: _ => Some (pid v) | [] => None end;
     sc_timeout := match value_of DEFAULTS out "symbols_download_timeout_secs" with
                   | Some s => match parse_unsigned s with Some n => n | None => 0%Z end
                   | None => 0%Z
                   end |}.

Definition given (name : str) (items : list item) : bool :=
  match opt_values name items with [] => false | _ => true end.
Definition first_value (name : str) (items : list item) : option str := hd_error (opt_values name items).

(* a field filled by one option, read off the command line item by item: a flag, a single value *)
Lemma flag_given : forall fld name, fills fld name = true -> forall items out, items_effect CLI [] items = Some out ->
  has_field out fld = given name items.
Proof. intros fld name Hf items out H. rewrite has_field_values, (values_from fld name Hf items [] out H). reflexivity. Qed.
Lemma option_given : forall fld name, fills fld name = true -> forall (pid : str -> path) items out, items_effect CLI [] items = Some out ->
  match values_of out fld with v :: _ => Some (pid v) | [] => None end = option_map pid (first_value name items).
Proof.
  intros fld name Hf pid items out H. rewrite (values_from fld name Hf items [] out H). cbn [values_of filter map app].
  unfold first_value. destruct (opt_values name items); reflexivity.
Qed.

(* the flag record main() runs on is flags_of the parsed values *)
Lemma interpret_flags : forall pid out f, interpret pid DEFAULTS ARMS (PParsed out) = CliFlags f ->
  exists ft level, f = flags_of pid DEFAULTS out ft level.
Proof.
  intros pid out f Hi. unfold interpret in Hi.
  destruct (value_of DEFAULTS out "verbose") as [vs|]; [|discriminate]. destruct (level_from_str vs) as [level|]; [|discriminate].
  destruct (value_of DEFAULTS out "features") as [fs|]; [|discriminate]. destruct (features_match ARMS fs) as [ft|]; [|discriminate].
  inversion Hi. eauto.
Qed.
