(* C20/Findings.v — the two known findings of C20 as EXACT classes: an executable classifier over (flags, environment)
   for each, and the proof that it is true exactly for the runs that violate the clause of the property.
     F-C20b  a failing run whose diagnostic is visible nowhere  <->  known_b f e
     F-C20d  a failing run that leaves report bytes on the primary output  <->  known_d f e
   Both for every flag record and every environment (no bound, no "accepted" hypothesis beyond what is stated). *)
From Coq Require Import Lia.
From RM Require Import C20.Model C20.Proofs C20.Sinks.
From RM Require Export C20.Known.
Open Scope Z_scope.

Definition is_diag_on (c : channel) (ev : event) : bool :=
  match ev, c with Diag Stderr, Stderr | Diag Logger, Logger => true | _, _ => false end.
Definition dirty_ev (e : env) (w : writer) (ev : event) : bool :=
  match ev with
  | Written w' _ => writer_eqb w w'
  | WriteFailed w' r => writer_eqb w w' && e_partial e w' r
  | _ => false
  end.

Lemma writer_eqb_eq : forall a b, writer_eqb a b = true <-> a = b.
Proof.
  destruct a as [|p], b as [|q]; cbn; split; intro H; try reflexivity; try discriminate.
  - apply Z.eqb_eq in H. subst. reflexivity.
  - inversion H. apply Z.eqb_refl.
Qed.

Lemma in_diag : forall c tr, In (Diag c) tr <-> existsb (is_diag_on c) tr = true.
Proof.
  intros c tr. rewrite existsb_exists. split.
  - intro H. exists (Diag c). split; [exact H|destruct c; reflexivity].
  - intros [ev [H1 H2]]. destruct ev as [| | |[]|], c; try discriminate; exact H1.
Qed.
Lemma dirty_bool : forall e w tr, sink_dirty e w tr <-> existsb (dirty_ev e w) tr = true.
Proof.
  intros e w tr. unfold sink_dirty. rewrite existsb_exists. split.
  - intros [r [H|[H Hp]]].
    + exists (Written w r). split; [exact H|]. cbn. apply writer_eqb_eq. reflexivity.
    + exists (WriteFailed w r). split; [exact H|]. cbn. rewrite Hp. rewrite (proj2 (writer_eqb_eq w w) eq_refl). reflexivity.
  - intros [ev [H1 H2]]. destruct ev as [|w' r|w' r| |]; try discriminate; cbn in H2.
    + apply writer_eqb_eq in H2. subst w'. exists r. left. exact H1.
    + apply andb_true_iff in H2. destruct H2 as [A B]. apply writer_eqb_eq in A. subst w'. exists r. right. split; assumption.
Qed.
Lemma visible_bool : forall f tr,
  diag_visible f tr <-> existsb (is_diag_on Stderr) tr || (existsb (is_diag_on Logger) tr && negb (f_verbose_off f)) = true.
Proof.
  intros f tr. unfold diag_visible. rewrite !in_diag, orb_true_iff, andb_true_iff, negb_true_iff. tauto.
Qed.

Definition failed (k : list event * Z) : bool := negb (snd k =? 0).
(* a failing (trace, status) whose diagnostic is visible nowhere / that has bytes on the primary output *)
Definition silent (f : flags) (k : list event * Z) : bool :=
  failed k && negb (existsb (is_diag_on Stderr) (fst k) || (existsb (is_diag_on Logger) (fst k) && negb (f_verbose_off f))).
Definition dirty (e : env) (w : writer) (k : list event * Z) : bool := failed k && existsb (dirty_ev e w) (fst k).

(* file creations change neither: when they all succeed what follows decides, when one fails the run ends with
   `Error: ..` on standard error or (broken pipe) with status 0, and nothing has been written *)
Lemma silent_do_creates : forall f e ps k, silent f (do_creates e ps k) = creates_ok e ps && silent f k.
Proof.
  induction ps as [|p ps IH]; intro k; cbn [do_creates creates_ok forallb]; [reflexivity|].
  destruct (e_create e p); cbn [io_ok andb]; [|reflexivity..]. rewrite <- IH. destruct (do_creates e ps k). reflexivity.
Qed.
Lemma dirty_do_creates : forall e w ps k, dirty e w (do_creates e ps k) = creates_ok e ps && dirty e w k.
Proof.
  induction ps as [|p ps IH]; intro k; cbn [do_creates creates_ok forallb]; [reflexivity|].
  destruct (e_create e p); cbn [io_ok andb]; [|reflexivity..]. rewrite <- IH. destruct (do_creates e ps k). reflexivity.
Qed.
(* a failing printer call says so on standard error *)
Lemma silent_do_writes : forall f e ws, silent f (do_writes e ws) = false.
Proof.
  induction ws as [|[w r] ws IH]; [reflexivity|]. cbn [do_writes].
  destruct (e_write e w r); [|reflexivity..]. rewrite <- IH. destruct (do_writes e ws). reflexivity.
Qed.

Lemma silent_failure_bool : forall f e, silent f (run f e) = known_b f e.
Proof.
  intros f e. unfold known_b, ends_by_logger. rewrite run_shape.
  destruct (decide f) as [[]| |p]; rewrite ?silent_do_creates, ?silent_do_writes.
  - apply eq_sym, andb_false_r.
  - unfold silent. cbn. destruct (f_verbose_off f), (creates_ok e _); reflexivity.
  - unfold silent. cbn. destruct (f_verbose_off f), (creates_ok e _); reflexivity.
  - rewrite !andb_false_r. reflexivity.
  - unfold exec. destruct (e_read e); cbn [negb]; [rewrite silent_do_creates; destruct (p_process p), (e_process e); cbn [andb negb]|];
      rewrite ?silent_do_writes; unfold silent; cbn;
      destruct (f_verbose_off f), (creates_ok e (opt_list (f_log_file f))), (creates_ok e (p_creates p)); reflexivity.
Qed.

(* the printer calls of a plan: the one report of the primary output, then the --cyborg file's JSON if there is one *)
Lemma dirty_plan_writes : forall e w r (sec : option (path * renderer)),
  dirty e w (do_writes e ((w, r) :: match sec with Some (c, rj) => [(File c, rj)] | None => [] end)) =
  match e_write e w r with
  | IoErr => e_partial e w r
  | IoBrokenPipe => false
  | IoOk => match sec with Some (c, rj) => io_err (e_write e (File c) rj) | None => false end
  end.
Proof.
  intros e w r sec. unfold dirty. cbn [do_writes]. destruct (e_write e w r).
  - (* the primary report is complete: dirty iff the cyborg call then fails with an io error (status 1) *)
    destruct sec as [[c rj]|]; [|reflexivity].
    cbn [do_writes]. destruct (e_write e (File c) rj); cbn; rewrite ?(proj2 (writer_eqb_eq _ _) eq_refl); reflexivity.
  - (* the primary report fails with an io error: dirty iff it had streamed a prefix *)
    cbn. rewrite (proj2 (writer_eqb_eq _ _) eq_refl), orb_false_r. reflexivity.
  - (* broken pipe: status 0 *)
    reflexivity.
Qed.

Lemma dirty_failure_bool : forall f e, f_help_md f = false -> dirty e (writer_of f) (run f e) = known_d f e.
Proof.
  intros f e Hh. unfold known_d. rewrite run_shape.
  destruct (decide f) as [[]| |p] eqn:Hd; rewrite ?dirty_do_creates; try (unfold dirty; cbn; rewrite ?andb_false_r; reflexivity).
  - destruct (total f) as [[rj Hr]|[[_ Hm]|[p [Hp _]]]]; congruence.
  - (* a plan: every creation, the read and the processing must succeed for a printer to be called at all *)
    destruct (single_primary f p Hd) as [r [Hr _]]. destruct (plan_writer f p Hd) as [Hw _].
    unfold exec, steps. rewrite Hr, Hw. cbn [map app].
    destruct (e_read e); cbn [negb andb]; [rewrite dirty_do_creates|unfold dirty; cbn; rewrite !andb_false_r; reflexivity].
    destruct (p_process p), (e_process e); cbn [andb negb orb]; rewrite ?dirty_plan_writes, ?andb_true_r;
      unfold dirty; destruct (creates_ok e (opt_list (f_log_file f))), (creates_ok e (p_creates p)); reflexivity.
Qed.

Lemma failed_iff : forall k, failed k = true <-> snd k <> 0.
Proof. intro k. unfold failed. rewrite negb_true_iff, Z.eqb_neq. tauto. Qed.
