(* C20/Properties.v — the property theorems of C20: each with its full statement, a short proof from the lemmas of the
   lemma files (an instance, or a few lines) and its Print Assumptions; and the non-vacuity examples.
   partial: the decision logic and effect order of main(), clap's parser over the regenerated grammar, the file sinks
   and the --dump program are modelled and proved; the printers' bytes, process exit and colouring are exercised by
   the correspondence run against the built binary. *)
From Coq Require Import Lia.
From RM Require Import C20.Model C20.Proofs C20.Sinks C20.SinksProofs.
From RM Require Gen.C20DumpSeq C20.DumpSeq Gen.C20Wiring C20.Wiring Gen.C20Cli.
From RM Require Import C20.ClapSpec C20.Clap C20.ClapProofs C20.ClapSinks C20.ClapSymbols C20.Findings.
From RM Require Import C20.DumpSpec C20.DumpModel C20.DumpProofs C20.DumpRun.
From RM Require Gen.C20DumpProg.
Open Scope Z_scope.

(* Every flag record is rejected, is the hidden --help-markdown, or has a plan: whatever its tests
   answer, [decide] ends in one of the three. *)
Theorem c20_total : forall f,
  (exists r, decide f = Rejected r) \/ (decide f = HelpMarkdown /\ f_help_md f = true) \/
  (exists p, decide f = Plan p /\ f_help_md f = false).
Proof. exact total. Qed.
Print Assumptions c20_total.

(* The documented table.  accepted = at most one of --json/--human/--cyborg/--dump and no
   --help-markdown.  Writer: --output-file if given, else standard output.
     --dump                -> raw dump (brief with --brief), no processing
     --json                -> JSON (pretty with --pretty)
     --cyborg c            -> human report (brief with --brief) on the primary output, JSON
                              (pretty with --pretty) in c; c is created before the output file
     --human or none       -> human report (brief with --brief)                                *)
Theorem c20_plan_table : forall f, accepted f ->
  (f_dump f = true -> f_pretty f = false ->
     exists p, decide f = Plan p /\ p_writer p = writer_of f /\
               p_primary p = [if f_brief f then DumpBrief else Dump] /\
               p_secondary p = None /\ p_process p = false /\
               p_creates p = opt_list (f_output_file f)) /\
  (f_json f = true -> f_brief f = false ->
     exists p, decide f = Plan p /\ p_writer p = writer_of f /\
               p_primary p = [Json (f_pretty f)] /\
               p_secondary p = None /\ p_process p = true /\
               p_creates p = opt_list (f_output_file f)) /\
  (forall c, f_cyborg f = Some c ->
     exists p, decide f = Plan p /\ p_writer p = writer_of f /\
               p_primary p = [if f_brief f then HumanBrief else Human] /\
               p_secondary p = Some (c, Json (f_pretty f)) /\ p_process p = true /\
               p_creates p = c :: opt_list (f_output_file f)) /\
  (f_json f = false -> f_dump f = false -> f_cyborg f = None -> f_pretty f = false ->
     exists p, decide f = Plan p /\ p_writer p = writer_of f /\
               p_primary p = [if f_brief f then HumanBrief else Human] /\
               p_secondary p = None /\ p_process p = true /\
               p_creates p = opt_list (f_output_file f)).
Proof. exact plan_table. Qed.
Print Assumptions c20_plan_table.

(* whatever the flags: a plan prints exactly one report on the primary output, on the writer
   chosen by --output-file, and a second one only into the --cyborg file, as JSON *)
Theorem c20_single_primary : forall f p, decide f = Plan p ->
  (exists r, p_primary p = [r] /\ r <> HelpDoc) /\
  p_writer p = writer_of f /\
  p_creates p = opt_list (f_cyborg f) ++ opt_list (f_output_file f) /\
  (forall c r, p_secondary p = Some (c, r) -> f_cyborg f = Some c /\ r = Json (f_pretty f)) /\
  (f_cyborg f <> None -> p_secondary p <> None).
Proof. intros f p H. split; [exact (single_primary f p H)|exact (plan_writer f p H)]. Qed.
Print Assumptions c20_single_primary.

(* the rejected combinations, exactly *)
Theorem c20_rejections : forall f,
  (decide f = Rejected UsageConflict <-> 1 < group_count f) /\
  (decide f = Rejected PrettyWithoutJson <->
     group_count f <= 1 /\ f_help_md f = false /\ f_pretty f = true /\ f_json f = false /\ f_cyborg f = None) /\
  (decide f = Rejected BriefWithoutHuman <->
     group_count f <= 1 /\ f_help_md f = false /\ f_brief f = true /\ f_json f = true).
Proof. exact rejections. Qed.
Print Assumptions c20_rejections.

(* ... and a rejected run ends with status 1 or 2, a diagnostic, no report written anywhere and
   no file created except the log file, whatever the environment does *)
Theorem c20_rejected_no_report : forall f e r, decide f = Rejected r -> creates_not_pipe e ->
  (snd (run f e) = 1 \/ snd (run f e) = 2) /\
  existsb is_diag (fst (run f e)) = true /\
  existsb is_render (fst (run f e)) = false /\
  (forall p, In (Create p) (fst (run f e)) -> f_log_file f = Some p).
Proof.
  intros f e r Hr Hnp.
  destruct (rejected_run f e r Hr Hnp) as [E|[E|[E|[lp [Hl E]]]]]; rewrite E; cbn; repeat split; auto.
  1-3: intros p [H|[]]; discriminate H.
  intros p [H|[H|[]]]; [inversion H; subst; exact Hl|discriminate H].
Qed.
Print Assumptions c20_rejected_no_report.

(* exit status: 0, 1 or 2 and nothing else; 2 exactly for clap's group conflict *)
Theorem c20_exit_status : forall f e,
  (snd (run f e) = 0 \/ snd (run f e) = 1 \/ snd (run f e) = 2) /\
  (snd (run f e) = 2 <-> 1 < group_count f).
Proof.
  intros f e. assert (H : code_ok (run f e) \/ (snd (run f e) = 2 /\ 1 < group_count f)).
  { apply run_ind; auto; try (left; right; reflexivity).
    - intro ws. left. apply do_writes_code.
    - intros r _. left. apply io_exit_code. }
  split; [unfold code_ok in H; tauto|]. split.
  - destruct H as [[H|H]|[_ H]]; [rewrite H; discriminate..|intros _; exact H].
  - intro G. apply (rejections f) in G. rewrite run_shape, G. reflexivity.
Qed.
Print Assumptions c20_exit_status.

(* the hidden --help-markdown included: 0, 1 or 2 for EVERY flag record and EVERY environment.  print_help_markdown's write
   error is propagated with `?` like a report's; an `.expect(..)` there would be a panic, status 101, on
   `minidump-stackwalk --help-markdown x | head -c 10` (finding F-C20e) *)
Theorem c20_exit_status_help : forall f e,
  snd (run f e) = 0 \/ snd (run f e) = 1 \/ snd (run f e) = 2.
Proof. intros f e. exact (proj1 (c20_exit_status f e)). Qed.
Print Assumptions c20_exit_status_help.

(* without io failures: status 0 iff a plan exists, the dump reads and (unless --dump) processes;
   the effects are then: create log file, create cyborg file, create output file, write every
   planned report in order — nothing else *)
Theorem c20_success_iff : forall f e, clean e -> f_help_md f = false ->
  (snd (run f e) = 0 <->
   exists p, decide f = Plan p /\ e_read e = true /\ (p_process p = true -> e_process e = true)) /\
  (forall p, decide f = Plan p -> e_read e = true -> (p_process p = true -> e_process e = true) ->
     run f e = (map Create (opt_list (f_log_file f)) ++ map Create (p_creates p) ++
                map (fun wr => Written (fst wr) (snd wr)) (steps p), 0)).
Proof.
  intros f e Hc Hh. split; [|intros p; exact (run_plan_ok f e p Hc)]. split.
  - intro H0. destruct (zero_run f e Hh H0) as [[p [A [B [C _]]]]|[[q Hq]|[w [r Hw]]]]; [exists p; auto| |].
    + rewrite (proj1 Hc) in Hq. discriminate Hq.
    + rewrite (proj2 Hc) in Hw. discriminate Hw.
  - intros [p [Hp [Hr Hpr]]]. rewrite (run_plan_ok f e p Hc Hp Hr Hpr). reflexivity.
Qed.
Print Assumptions c20_success_iff.

(* read error / processing error / rejection: status 1 (2), a diagnostic, nothing rendered *)
Theorem c20_failure_no_report : forall f e, clean e -> f_help_md f = false -> snd (run f e) <> 0 ->
  (snd (run f e) = 1 \/ snd (run f e) = 2) /\
  existsb is_diag (fst (run f e)) = true /\
  existsb is_render (fst (run f e)) = false.
Proof.
  intros f e [_ Hw] Hh Hne. split; [destruct (c20_exit_status f e) as [[H|H] _]; [contradiction|exact H]|].
  split; [exact (failure_has_diag f e Hne)|]. apply (no_failed_call_no_report f e Hne).
  intros w r H. destruct (io_error_status f e w r H) as [[E _]|[E _]]; rewrite Hw in E; discriminate E.
Qed.
Print Assumptions c20_failure_no_report.

(* any environment: a non-zero status always comes with a diagnostic *)
Theorem c20_failure_has_diag : forall f e,
  snd (run f e) <> 0 -> existsb is_diag (fst (run f e)) = true.
Proof. exact failure_has_diag. Qed.
Print Assumptions c20_failure_has_diag.

(* ... and the diagnostic is visible: "Error: .." on standard error, or a logger message on standard
   error / in the --log-file (opened before) — unless the logger is silenced.  Known finding F-C20b:
   with --verbose=off a failing run prints nothing (hypothesis [f_verbose_off f = false]; witness below) *)
Theorem c20_failure_diag_visible : forall f e, f_verbose_off f = false -> f_help_md f = false ->
  snd (run f e) <> 0 ->
  diag_visible f (fst (run f e)) /\
  (forall lp, f_log_file f = Some lp -> In (Diag Logger) (fst (run f e)) -> In (Create lp) (fst (run f e))).
Proof.
  intros f e Hv _ Hne. split; [|intros lp; exact (logger_diag_after_log_open f e lp)].
  pose proof (failure_has_diag f e Hne) as H.
  apply existsb_exists in H. destruct H as [ev [Hin Hd]]. destruct ev; try discriminate Hd.
  destruct c; [right; split; assumption|left; assumption].
Qed.
Print Assumptions c20_failure_diag_visible.

Theorem c20_silent_failure_known_witness : exists f e,
  f_verbose_off f = true /\ f_help_md f = false /\ snd (run f e) = 1 /\ ~ diag_visible f (fst (run f e)).
Proof.
  exists {| f_human := false; f_json := false; f_cyborg := None; f_dump := false; f_help_md := false;
            f_pretty := false; f_brief := false; f_features := StableBasic; f_recover := false;
            f_output_file := None; f_log_file := None; f_verbose_off := true |}.
  exists {| e_create := fun _ => IoOk; e_read := false; e_process := true; e_write := fun _ _ => IoOk; e_partial := fun _ _ => false |}.
  repeat split. intros [H|[_ H]]; [destruct H as [H|[]]; discriminate H|discriminate H].
Qed.
Print Assumptions c20_silent_failure_known_witness.

(* a failed write is a broken pipe (status 0, silently) or an io error (status 1, "Error: .." on stderr) *)
Theorem c20_io_error_status : forall f e w r,
  In (WriteFailed w r) (fst (run f e)) ->
  (e_write e w r = IoBrokenPipe /\ snd (run f e) = 0) \/
  (e_write e w r = IoErr /\ snd (run f e) = 1 /\ In (Diag Stderr) (fst (run f e))).
Proof. exact io_error_status. Qed.
Print Assumptions c20_io_error_status.

(* io faults, sink by sink.  Any environment: a failing run in which no printer call failed
   (read / processing error, rejection, any File::create failure: missing directory, directory,
   read-only file) renders nothing on any sink. *)
Theorem c20_failure_no_partial_report_partial : forall f e, f_help_md f = false -> snd (run f e) <> 0 ->
  (forall w r, ~ In (WriteFailed w r) (fst (run f e))) ->
  existsb is_render (fst (run f e)) = false.
Proof. intros f e _. exact (no_failed_call_no_report f e). Qed.
Print Assumptions c20_failure_no_partial_report_partial.

(* bytes on the primary output of a failing run arise only from a mid-report io error: an io
   error (not a broken pipe) on a printer call that had itself already streamed a prefix, or that
   came after a complete report on the primary output (the --cyborg file failing after the human
   report).  Known finding F-C20d: the text of the property ("status 1 ... and nothing on the
   primary output") does not hold for these runs; [midreport_io_error] describes them, Known.known_d is their exact class. *)
Theorem c20_dirty_primary_only_midreport : forall f e, f_help_md f = false -> snd (run f e) <> 0 ->
  sink_dirty e (writer_of f) (fst (run f e)) -> midreport_io_error f e.
Proof. intros f e _. exact (dirty_primary_only_midreport f e). Qed.
Print Assumptions c20_dirty_primary_only_midreport.

(* the unconditional form is false, with both witnesses: cyborg file fails after the complete human report on
   standard output; a single JSON report fails after a prefix reached the output file *)
Theorem c20_failure_no_partial_report_refuted :
  (exists f e, accepted f /\ snd (run f e) = 1 /\ (forall w r, e_partial e w r = false) /\
               In (Written (writer_of f) Human) (fst (run f e))) /\
  (exists f e, accepted f /\ snd (run f e) = 1 /\ f_cyborg f = None /\
               sink_dirty e (writer_of f) (fst (run f e))).
Proof. exact midreport_witnesses. Qed.
Print Assumptions c20_failure_no_partial_report_refuted.

(* any environment: status 0 means every planned report was written, or a broken pipe ended the run *)
Theorem c20_zero_means_done_or_pipe : forall f e, f_help_md f = false -> snd (run f e) = 0 ->
  (exists p, decide f = Plan p /\ e_read e = true /\
             fst (run f e) = map Create (opt_list (f_log_file f)) ++ map Create (p_creates p) ++
                             map (fun wr => Written (fst wr) (snd wr)) (steps p)) \/
  pipe_broke e.
Proof.
  intros f e Hh H0. destruct (zero_run f e Hh H0) as [[p [A [B [_ C]]]]|P]; [left; exists p; auto|right; exact P].
Qed.
Print Assumptions c20_zero_means_done_or_pipe.

(* feature selection: the preset named by --features, overloaded by the explicit flag;
   "unstable-all enables: --recover-function-args" (README).  The override is `|=`
   (options.recover_function_args |= cli.recover_function_args, pinned in Wiring.pinned_option_overrides); with `=` the
   preset would be overwritten (finding F-C20a: --features unstable-all without --recover-function-args). *)
Theorem c20_features_table : forall f p, decide f = Plan p ->
  p_opts p = documented_opts f /\
  po_base (p_opts p) = f_features f /\
  (po_recover (p_opts p) = true <-> f_features f = UnstableAll \/ f_recover f = true).
Proof.
  intros f p H. rewrite (decide_plan f p H). cbn [plan_of p_opts]. split; [reflexivity|].
  unfold documented_opts. cbn [po_base po_recover]. split; [reflexivity|].
  destruct (f_features f), (f_recover f); cbn; split; intros; auto; try discriminate;
    match goal with HH : _ \/ _ |- _ => destruct HH; discriminate end.
Qed.
Print Assumptions c20_features_table.

(* --dump: the sequence of stream lookups and printer calls of print_minidump_dump, regenerated from
   main.rs on every run, is the pinned one (44 steps, incl. the lazy choice of the unified memory list) — and, checked by the translator, the one the
   harness replays in-process *)
Theorem c20_dump_sequence_pinned : RM.Gen.C20DumpSeq.DUMP_SEQ = RM.C20.DumpSeq.pinned_dump_seq.
Proof. reflexivity. Qed.
Print Assumptions c20_dump_sequence_pinned.

(* the sinks over a file system that has a state BEFORE the run (Sinks.v part 1):
   fs_after m rd s0 tr = the files after the trace tr, started on the files s0, every sink opened with the
   switches m; file_create = File::create = create + truncate, which is how main.rs opens all three sinks
   (c20_every_sink_truncates, from the regenerated Gen/C20Wiring.v). *)

(* an output file receives what standard output would, WHATEVER the path held before the run (absent, empty,
   shorter, longer, an older report): status 0 and no broken pipe => the file is exactly the primary report *)
Theorem c20_output_file_is_report_whatever_before : forall f e pl p rd (s0 : fsys),
  f_help_md f = false -> decide f = Plan pl ->
  f_output_file f = Some p -> f_cyborg f <> Some p -> f_log_file f <> Some p ->
  snd (run f e) = 0 -> ~ pipe_broke e ->
  fs_after file_create rd s0 (fst (run f e)) p = Some (concat (map (r_bytes rd) (p_primary pl))).
Proof.
  intros f e pl p rd s0 Hh Hd Ho Hc _ H0 Hp.
  rewrite (file_after_success f e pl p rd s0 Hh H0 Hp Hd).
  - rewrite (reports_output_file f pl p Hd Ho Hc). reflexivity.
  - apply in_or_app. right. rewrite (proj1 (proj2 (plan_writer f pl Hd))), Ho. apply in_or_app. right. left. reflexivity.
Qed.
Print Assumptions c20_output_file_is_report_whatever_before.

(* likewise the --cyborg file: exactly the JSON rendering, whatever it held *)
Theorem c20_cyborg_file_is_json_whatever_before : forall f e pl c rd (s0 : fsys),
  f_help_md f = false -> decide f = Plan pl ->
  f_cyborg f = Some c -> f_output_file f <> Some c -> f_log_file f <> Some c ->
  snd (run f e) = 0 -> ~ pipe_broke e ->
  fs_after file_create rd s0 (fst (run f e)) c = Some (r_bytes rd (Json (f_pretty f))).
Proof.
  intros f e pl c rd s0 Hh Hd Hc Ho _ H0 Hp.
  rewrite (file_after_success f e pl c rd s0 Hh H0 Hp Hd).
  - rewrite (reports_cyborg_file f pl c Hd Hc Ho). cbn [map concat]. rewrite app_nil_r. reflexivity.
  - apply in_or_app. right. rewrite (proj1 (proj2 (plan_writer f pl Hd))), Hc. left. reflexivity.
Qed.
Print Assumptions c20_cyborg_file_is_json_whatever_before.

(* any trace, any two file systems: a path the run opens ends up the same in both *)
Theorem c20_sink_content_independent_of_prestate : forall rd p tr (s0 s0' : fsys),
  In (Create p) tr -> fs_after file_create rd s0 tr p = fs_after file_create rd s0' tr p.
Proof. intros. rewrite !fs_after_loc. f_equal. apply prestate_irrelevant_loc. assumption. Qed.
Print Assumptions c20_sink_content_independent_of_prestate.

(* and a path the run does not open keeps what it held (failing runs before the File::create calls, other files) *)
Theorem c20_unopened_path_untouched : forall m rd p tr (s0 : fsys),
  ~ In (Create p) tr -> fs_after m rd s0 tr p = s0 p.
Proof. exact untouched. Qed.
Print Assumptions c20_unopened_path_untouched.

(* the truncation is what the two theorems above rest on: the same trace over a longer file, opened with
   create but without truncate, leaves the report followed by the old tail *)
Theorem c20_truncate_needed :
  let rd := {| r_bytes := fun _ => [7; 7]; r_prefix := fun _ _ => [] |} in
  let s0 : fsys := fun _ => Some [1; 2; 3; 4; 5] in
  let tr := [Create 1; Written (File 1) Human] in
  fs_after file_create rd s0 tr 1 = Some [7; 7] /\
  fs_after no_truncate rd s0 tr 1 = Some [7; 7; 3; 4; 5].
Proof. split; reflexivity. Qed.
Print Assumptions c20_truncate_needed.

(* the shapes of main_result the model takes as given, regenerated from the source on every run *)
Theorem c20_wiring_pinned :
  RM.Gen.C20Wiring.SINK_OPENS = RM.C20.Wiring.pinned_sink_opens /\
  RM.Gen.C20Wiring.SYM_MERGE = RM.C20.Wiring.pinned_sym_merge /\
  RM.Gen.C20Wiring.HTTP_ARGS = RM.C20.Wiring.pinned_http_args /\
  RM.Gen.C20Wiring.SIMPLE_ARGS = RM.C20.Wiring.pinned_simple_args /\
  RM.Gen.C20Wiring.CACHE_DEFAULT = RM.C20.Wiring.pinned_cache_default /\
  RM.Gen.C20Wiring.TMP_DEFAULT = RM.C20.Wiring.pinned_tmp_default /\
  RM.Gen.C20Wiring.FEATURE_ARMS = RM.C20.Wiring.pinned_feature_arms /\
  RM.Gen.C20Wiring.OPTION_OVERRIDES = RM.C20.Wiring.pinned_option_overrides /\
  RM.Gen.C20Wiring.PROCESS_ARGS = RM.C20.Wiring.pinned_process_args.
Proof. repeat split; reflexivity. Qed.
Print Assumptions c20_wiring_pinned.

(* the order of the steps of main_result and the argument of every std::process::exit, regenerated from the source *)
Theorem c20_main_steps_pinned :
  RM.Gen.C20Wiring.MAIN_STEPS = RM.C20.Wiring.pinned_main_steps /\
  RM.Gen.C20Wiring.EXIT_CALLS = RM.C20.Wiring.pinned_exit_calls.
Proof. split; reflexivity. Qed.
Print Assumptions c20_main_steps_pinned.

Theorem c20_every_sink_truncates : forall s m,
  In (s, m) RM.C20.Wiring.code_sink_modes -> m = Some file_create.
Proof.
  intros s m H. unfold RM.C20.Wiring.code_sink_modes in H. rewrite (proj1 c20_wiring_pinned) in H. cbn in H.
  repeat (destruct H as [H|H]; [inversion H; reflexivity|]). destruct H.
Qed.
Print Assumptions c20_every_sink_truncates.

(* from the command line to the symbol supplier (Sinks.v part 2) *)

(* the supplier receives every --symbols-path value in command-line order followed by every positional path in
   command-line order, and the --symbols-url values in command-line order: nothing dropped, added or reordered *)
Theorem c20_symbol_paths_in_given_order : forall argv cache tmp t,
  supplier_paths (supplier_of (parse_sym argv cache tmp t)) = flag_paths argv ++ positional_paths argv /\
  supplier_urls (supplier_of (parse_sym argv cache tmp t)) = url_args argv.
Proof. exact paths_in_given_order. Qed.
Print Assumptions c20_symbol_paths_in_given_order.

(* two paths given in the same style are searched in the order given *)
Theorem c20_same_style_order_preserved : forall pre mid post a b cache tmp t,
  let argv1 := pre ++ ASymbolsPath a :: mid ++ ASymbolsPath b :: post in
  let argv2 := pre ++ APositional a :: mid ++ APositional b :: post in
  (exists l1 l2 l3, supplier_paths (supplier_of (parse_sym argv1 cache tmp t)) = l1 ++ a :: l2 ++ b :: l3) /\
  (exists l1 l2 l3, supplier_paths (supplier_of (parse_sym argv2 cache tmp t)) = l1 ++ a :: l2 ++ b :: l3).
Proof.
  intros. split.
  - exists (flag_paths pre), (flag_paths mid), (flag_paths post ++ positional_paths argv1).
    rewrite (proj1 (paths_in_given_order _ _ _ _)). unfold argv1.
    rewrite flag_paths_app. cbn [flag_paths]. rewrite flag_paths_app. cbn [flag_paths].
    rewrite <- !app_assoc. cbn [app]. rewrite <- !app_assoc. reflexivity.
  - exists (flag_paths argv2 ++ positional_paths pre), (positional_paths mid), (positional_paths post).
    rewrite (proj1 (paths_in_given_order _ _ _ _)). unfold argv2 at 2.
    rewrite positional_paths_app. cbn [positional_paths]. rewrite positional_paths_app. cbn [positional_paths].
    rewrite <- !app_assoc. reflexivity.
Qed.
Print Assumptions c20_same_style_order_preserved.

(* the symbols of a module come from the FIRST path, in that order, that has them *)
Theorem c20_first_given_path_wins : forall has argv p,
  store_used has argv = Some p <->
  exists before after, flag_paths argv ++ positional_paths argv = before ++ p :: after /\
  has p = true /\ forall q, In q before -> has q = false.
Proof.
  intros has argv p. unfold store_used, locate. rewrite (proj1 (paths_in_given_order _ _ _ _)).
  generalize (flag_paths argv ++ positional_paths argv). intros l. split.
  - induction l as [|x l IH]; [discriminate|]. cbn [find]. destruct (has x) eqn:E.
    + intros H. inversion H; subst. exists [], l. repeat split; [exact E|intros q []].
    + intros H. destruct (IH H) as [b [a [E1 [E2 E3]]]]. exists (x :: b), a. rewrite E1. repeat split; [exact E2|].
      intros q [<-|Hq]; [exact E|apply E3; exact Hq].
  - intros [b [a [-> [Hp Hb]]]]. induction b as [|x b IH]; cbn [app find].
    + rewrite Hp. reflexivity.
    + rewrite (Hb x (or_introl eq_refl)). apply IH. intros q Hq. apply Hb. right. exact Hq.
Qed.
Print Assumptions c20_first_given_path_wins.

(* which supplier is built, and where --symbols-cache / --symbols-tmp / their defaults and the timeout go *)
Theorem c20_supplier_kind : forall c,
  (sc_symbols_url c <> [] -> exists cache tmp,
      supplier_of c = HttpSupplier (merged_paths c) (sc_symbols_url c) cache tmp (sc_timeout c) /\
  cache = match sc_symbols_cache c with Some p => GivenDir p | None => TempDirCache end /\
  tmp = match sc_symbols_tmp c with Some p => GivenDir p | None => TempDir end) /\
  (sc_symbols_url c = [] -> merged_paths c <> [] -> supplier_of c = SimpleSupplier (merged_paths c)) /\
  (sc_symbols_url c = [] -> merged_paths c = [] -> supplier_of c = NoSupplier).
Proof.
  intros c. unfold supplier_of. repeat split.
  - intros H. destruct (sc_symbols_url c); [congruence|]. cbn [nonempty]. eexists _, _. repeat split.
  - intros -> H. cbn [nonempty]. destruct (merged_paths c); [congruence|reflexivity].
  - intros -> ->. reflexivity.
Qed.
Print Assumptions c20_supplier_kind.

(* from the argument vector to main()'s flag record (clap's parser over the grammar table that
   translate/c20_cli.py regenerates from `struct Cli`: CLI, GROUP, DEFAULTS, ARMS = Gen/C20Cli.v) ---- *)

(* `--features`: every value the regenerated value parser lets through has an arm in the regenerated
   `match &*cli.features { .. , _ => unimplemented!() }`: the default arm is unreachable.  With ignore_case = true on
   the option (or a possible value without an arm) this statement no longer type-checks against Gen/C20Cli.v. *)
Theorem c20_features_value_never_unimplemented : forall s,
  vp_accepts (vp_of_field "features"%str) s = true -> features_match ARMS s <> None.
Proof. exact features_value_has_arm. Qed.
Print Assumptions c20_features_value_never_unimplemented.

(* `--verbose`: `LevelFilter::from_str(&v).unwrap()` inside the value parser never fails - whatever the ignore_case setting of
   the option, because from_str itself ignores the ASCII case; a possible value that is not a level name breaks this *)
Theorem c20_verbose_value_never_unwraps : forall s,
  vp_accepts (vp_of_field "verbose"%str) s = true -> level_from_str s <> None.
Proof. exact verbose_value_has_level. Qed.
Print Assumptions c20_verbose_value_never_unwraps.

(* the class of seeded C20-8, as a theorem: a case-insensitive enumerated parser in front of a case-sensitive match *)
Theorem c20_ignore_case_reaches_default_arm :
  exists s, vp_accepts (VPossible ["stable-basic"; "stable-all"; "unstable-all"]%str true) s = true /\
            features_match [("stable-basic", "stable_basic"); ("stable-all", "stable_all"); ("unstable-all", "unstable_all")]%str s = None.
Proof. exists "Stable-All"%str. split; reflexivity. Qed.
Print Assumptions c20_ignore_case_reaches_default_arm.

(* what an accepted command line guarantees, for ANY grammar table: every value in the parsed record went through the
   value parser of an option of that name, at most one member of the group is present, the required positional is *)
Theorem c20_parsed_values_validated : forall spec group argv out, parse spec group argv = PParsed out ->
  Forall (valid_entry spec) out /\ (group_members_present group out <= 1)%nat /\ required_present spec out = true.
Proof. exact parse_valid. Qed.
Print Assumptions c20_parsed_values_validated.

(* a flag or a single-valued option given twice (in any spelling, anywhere on the command line) never reaches main():
   in the record of an accepted command line each of them occurs at most once *)
Theorem c20_single_options_at_most_once : forall argv out, parse CLI GROUP argv = PParsed out ->
  forall a, In a CLI -> single (a_kind a) = true -> (length (values_of out (a_field a)) <= 1)%nat.
Proof. intros argv out H. exact (parse_once CLI cli_fields_unique GROUP argv out H). Qed.
Print Assumptions c20_single_options_at_most_once.

(* `--name=value` and `--name value` are the same command line, for every valued option of the regenerated table, at every
   place of the argument vector (the value must not look like an option: `-x`, `--x`; a lone `-` is a value) *)
Theorem c20_eq_form_same_as_space_form : forall name v rest acc a,
  find_long CLI name = Some a -> a_kind a <> KFlag -> looks_like_option v = false ->
  scan CLI (long_eq_form name v :: rest) false acc = scan CLI (long_form name :: v :: rest) false acc.
Proof. intros name v rest acc a Hf Hk. exact (eq_form_same_as_space_form CLI name v rest acc a Hf Hk (cli_long_plain name a Hf)). Qed.
Print Assumptions c20_eq_form_same_as_space_form.

(* the usage text's reading of a command line (`minidump-stackwalk --help`: --flag, --name <VALUE>; clap accepts --name=VALUE
   alike) IS what the parser computes.  A command line read item by item (--flag, --name=value,
   --name value, a positional word), each item given the meaning the usage text gives it (item_effect: the option exists, takes (no)
   value, was not given before if it may be given once, the value passes its value parser and, in the space form, does not look like
   an option; a word goes to the next free positional), in ANY order and mix of forms: the tokenizer turns the rendered vector into
   exactly the record of those effects *)
Theorem c20_manual_reading_is_parsed : forall items out, items_effect CLI [] items = Some out ->
  (group_members_present GROUP out <= 1)%nat -> required_present CLI out = true ->
  parse CLI GROUP (render items) = PParsed out.
Proof. exact (manual_reading_is_parsed CLI GROUP). Qed.
Print Assumptions c20_manual_reading_is_parsed.

(* help / version take effect where they stand: behind any readable prefix, whatever follows and whatever is still missing;
   an unknown option in front of them wins *)
Theorem c20_help_where_it_stands : forall items out post, items_effect CLI [] items = Some out ->
  parse CLI GROUP (render items ++ "--help"%str :: post) = PHelp /\
  parse CLI GROUP (render items ++ "-h"%str :: post) = PHelp /\
  parse CLI GROUP (render items ++ "--version"%str :: post) = PVersion /\
  parse CLI GROUP (render items ++ "-V"%str :: post) = PVersion.
Proof. exact (help_where_it_stands CLI GROUP). Qed.
Print Assumptions c20_help_where_it_stands.

Theorem c20_unknown_option_rejected : forall items out name post, items_effect CLI [] items = Some out ->
  plain_name name = true -> name <> ""%str -> find_long CLI name = None ->
  parse CLI GROUP (render items ++ long_form name :: post) = PUsage.
Proof. exact (unknown_option_rejected CLI GROUP). Qed.
Print Assumptions c20_unknown_option_rejected.

(* behind `--` every token is a positional word, whatever it looks like (`-- --json` names a minidump called --json) *)
Theorem c20_after_dashdash_positional : forall items acc ws out,
  items_effect CLI [] items = Some acc -> words_effect CLI acc ws = Some out ->
  (group_members_present GROUP out <= 1)%nat -> required_present CLI out = true ->
  parse CLI GROUP (render items ++ "--"%str :: ws) = PParsed out.
Proof. exact (after_dashdash_positional CLI GROUP). Qed.
Print Assumptions c20_after_dashdash_positional.

(* a Vec field of struct Cli collects its occurrences in command-line order, and so they reach the symbol supplier: read off
   the command line item by item, the paths the supplier receives are the --symbols-path values (either form) in the order given,
   then the positional words behind the first (the minidump); the URLs are the --symbols-url values in the order given.  This
   closes the gap between the argument vector and c20_symbol_paths_in_given_order (which starts from an abstract argv). *)
Theorem c20_symbol_arguments_in_order : forall items out, items_effect CLI [] items = Some out ->
  values_of out "symbols_path"%str = opt_values "symbols-path"%str items /\
  values_of out "symbols_url"%str = opt_values "symbols-url"%str items /\
  values_of out "minidump"%str = firstn 1 (words items) /\
  values_of out "symbols_path_legacy"%str = tl (words items).
Proof. exact symbol_arguments_in_order. Qed.
Print Assumptions c20_symbol_arguments_in_order.

Theorem c20_argv_symbol_sources : forall pid items out, items_effect CLI [] items = Some out ->
  supplier_paths (supplier_of (sym_cli_of pid out)) =
    map pid (opt_values "symbols-path"%str items) ++ map pid (tl (words items)) /\
  supplier_urls (supplier_of (sym_cli_of pid out)) = map pid (opt_values "symbols-url"%str items).
Proof.
  intros pid items out H. destruct (symbol_arguments_in_order items out H) as [H1 [H2 [_ H4]]].
  rewrite supplier_paths_of, supplier_urls_of. unfold merged_paths. cbn [sym_cli_of sc_symbols_path sc_symbols_path_legacy sc_symbols_url].
  rewrite H1, H2, H4. split; reflexivity.
Qed.
Print Assumptions c20_argv_symbol_sources.

(* end to end, from the command line to main(): a command line read item by item (any order, any mix of forms, options in front
   of or behind the minidump) and accepted by the parser runs main() on exactly the flag record that reading gives - each
   flag is set iff it is given, --cyborg / --output-file / --log-file carry the value given.  With c20_plan_table, c20_rejections,
   c20_success_iff .. (all stated over flag records) this carries the documented table over to argument vectors. *)
Theorem c20_argv_to_flags : forall pid items out e, items_effect CLI [] items = Some out ->
  parse CLI GROUP (render items) = PParsed out ->
  exists f, stackwalk pid (render items) e = lift (run f e) /\
    f_human f = given "human"%str items /\ f_json f = given "json"%str items /\ f_dump f = given "dump"%str items /\
    f_help_md f = given "help-markdown"%str items /\ f_pretty f = given "pretty"%str items /\ f_brief f = given "brief"%str items /\
    f_recover f = given "recover-function-args"%str items /\
    f_cyborg f = option_map pid (first_value "cyborg"%str items) /\
    f_output_file f = option_map pid (first_value "output-file"%str items) /\
    f_log_file f = option_map pid (first_value "log-file"%str items).
Proof.
  intros pid items out e H Hp.
  destruct (stackwalk_cases pid (render items) e) as [[Hu _]|[[[Hh|Hv] _]|[acc [f [Ha [Hi Hs]]]]]]; try congruence.
  rewrite Hp in Ha. inversion Ha; subst acc. exists f. split; [exact Hs|].
  destruct (interpret_flags pid out f Hi) as [ft [level ->]]. unfold flags_of.
  cbn [f_human f_json f_dump f_help_md f_pretty f_brief f_recover f_cyborg f_output_file f_log_file].
  repeat split; first [eapply flag_given | eapply option_given]; first [reflexivity | exact H].
Qed.
Print Assumptions c20_argv_to_flags.

(* rejections, where they stand (behind any readable prefix, whatever follows - a later --help included): a flag or single-valued
   option the prefix already holds, in either form and with any value; a value the option's value parser refuses, in either form *)
Theorem c20_repeated_option_rejected : forall items out name a post,
  items_effect CLI [] items = Some out -> plain_name name = true -> find_long CLI name = Some a ->
  single (a_kind a) = true -> has_field out (a_field a) = true ->
  parse CLI GROUP (render items ++ long_form name :: post) = PUsage /\
  (forall v, parse CLI GROUP (render items ++ long_eq_form name v :: post) = PUsage).
Proof. exact (repeated_option_rejected CLI GROUP). Qed.
Print Assumptions c20_repeated_option_rejected.

Theorem c20_invalid_value_rejected : forall items out name a v post,
  items_effect CLI [] items = Some out -> plain_name name = true -> find_long CLI name = Some a ->
  a_kind a <> KFlag -> vp_accepts (a_vp a) v = false ->
  parse CLI GROUP (render items ++ long_eq_form name v :: post) = PUsage /\
  parse CLI GROUP (render items ++ long_form name :: v :: post) = PUsage.
Proof. exact (invalid_value_rejected CLI GROUP). Qed.
Print Assumptions c20_invalid_value_rejected.

(* the code as it is: --features takes exactly its three documented spellings; EVERY other value (another case, cut short, a
   blank, a quote ..) is a usage error wherever it stands - so by c20_argv_outcomes no sink is opened and no report byte written *)
Theorem c20_features_near_miss_rejected : forall items out v post, items_effect CLI [] items = Some out ->
  ~ In v ["stable-basic"; "stable-all"; "unstable-all"]%str ->
  parse CLI GROUP (render items ++ long_eq_form "features"%str v :: post) = PUsage /\
  parse CLI GROUP (render items ++ "--features"%str :: v :: post) = PUsage.
Proof.
  intros items out v post H Hn.
  refine (invalid_value_rejected CLI GROUP items out "features"%str _ v post H eq_refl eq_refl _ _); [discriminate|].
  cbn [a_vp]. destruct (vp_accepts _ v) eqn:E; [|reflexivity]. apply possible_exact_in in E. tauto.
Qed.
Print Assumptions c20_features_near_miss_rejected.

(* every argument vector, every environment: the process ends through clap (usage error: status 2, one message on
   standard error, NOTHING else happens - no sink is opened, no report byte; help / version: status 0, text on standard
   output, no sink opened - not even the --log-file) or reaches main()'s logic with a flag record *)
Theorem c20_argv_outcomes : forall pid argv e,
  (parse CLI GROUP argv = PUsage /\ stackwalk pid argv e = ([ClapMessage false], 2)) \/
  ((parse CLI GROUP argv = PHelp \/ parse CLI GROUP argv = PVersion) /\ stackwalk pid argv e = ([ClapMessage true], 0)) \/
  (exists acc f, parse CLI GROUP argv = PParsed acc /\ interpret pid DEFAULTS ARMS (PParsed acc) = CliFlags f /\
                 stackwalk pid argv e = lift (run f e)).
Proof. exact stackwalk_cases. Qed.
Print Assumptions c20_argv_outcomes.

(* never by panic, at full strength: for EVERY argument vector and EVERY environment no panic site is reached (unwrap in the
   --verbose parser, unimplemented!() behind --features; print_help_markdown propagates its error with `?`, F-C20e) and the exit status is 0, 1 or 2 *)
Theorem c20_argv_never_panics : forall pid argv e,
  existsb is_cli_panic (fst (stackwalk pid argv e)) = false /\
  (snd (stackwalk pid argv e) = 0 \/ snd (stackwalk pid argv e) = 1 \/ snd (stackwalk pid argv e) = 2).
Proof.
  intros pid argv e.
  destruct (stackwalk_cases pid argv e) as [[_ H]|[[_ H]|[acc [f [_ [_ H]]]]]]; rewrite H; cbn [fst snd].
  - split; [reflexivity|]. right; right; reflexivity.
  - split; [reflexivity|]. left; reflexivity.
  - unfold lift. cbn [fst snd]. split.
    + induction (fst (run f e)) as [|ev tr IH]; [reflexivity|]. cbn. exact IH.
    + exact (proj1 (c20_exit_status f e)).
Qed.
Print Assumptions c20_argv_never_panics.

(* every sink is opened before the first report byte, in every mode and every environment: in the trace of main() no
   File::create comes after a printer call (seeded C20-7 moved one behind the human report) *)
Theorem c20_sinks_opened_before_first_report_byte : forall f e l1 p l2,
  fst (run f e) = l1 ++ Create p :: l2 -> forall ev, In ev l1 -> is_render ev = false.
Proof.
  intros f e. apply run_ind.
  - intros _ l1 p l2 E. destruct (no_create_split [Diag Stderr] eq_refl _ _ _ E).
  - intros l1 p l2 E. destruct (no_create_split [Diag Logger] eq_refl _ _ _ E).
  - intros ws l1 p l2 E. destruct (no_create_split _ (do_writes_no_create e ws) _ _ _ E).
  - intros r _ l1 p l2 E. destruct (no_create_split _ (io_exit_no_create r) _ _ _ E).
  - intros q k IH l1 p l2 E ev Hin. destruct l1 as [|x l1]; [destruct Hin|]. inversion E; subst x.
    destruct Hin as [<-|Hin]; [reflexivity|]. exact (IH _ _ _ H1 ev Hin).
Qed.
Print Assumptions c20_sinks_opened_before_first_report_byte.

(* hence: a --log-file / --cyborg / --output-file path that cannot be created (missing parent, a directory, no
   permission, a symlink loop) means no report byte on ANY sink, and not a panic *)
Theorem c20_uncreatable_sink_no_report : forall f e pl p, decide f = Plan pl ->
  In p (opt_list (f_log_file f) ++ p_creates pl) -> e_create e p <> IoOk ->
  existsb is_render (fst (run f e)) = false /\ snd (run f e) <> 101.
Proof.
  intros f e pl p Hd Hin Hne. split.
  - unfold run. rewrite Hd. apply in_app_or in Hin. destruct Hin as [Hin|Hin].
    + eapply do_creates_uncreatable; eauto.
    + apply do_creates_keeps_clean. unfold exec. destruct (negb (e_read e)); [reflexivity|].
      eapply do_creates_uncreatable; eauto.
  - destruct (c20_exit_status f e) as [[H|[H|H]] _]; rewrite H; discriminate.
Qed.
Print Assumptions c20_uncreatable_sink_no_report.

(* the diagnostics: a run prints at most one; the logger's fatal message (what a --log-file receives at the default level) has
   exactly three causes - main's own rejection of --pretty / --brief, a dump that does not read, a dump that does not process *)
Theorem c20_at_most_one_diagnostic : forall f e, (count_diag (fst (run f e)) <= 1)%nat.
Proof.
  intros f e. apply run_ind; try (intros; cbn; auto; fail).
  - apply do_writes_one_diag.
  - intros r _. apply io_exit_one_diag.
Qed.
Print Assumptions c20_at_most_one_diagnostic.

Theorem c20_logger_diagnostic_cause : forall f e, In (Diag Logger) (fst (run f e)) ->
  (exists r, decide f = Rejected r /\ r <> UsageConflict) \/
  (exists p, decide f = Plan p /\ (e_read e = false \/ (e_read e = true /\ p_process p = true /\ e_process e = false))).
Proof.
  intros f e H. unfold run in H. destruct (decide f) as [r| |p] eqn:Ed.
  - destruct r; [cbn in H; destruct H as [H|[]]; discriminate| |]; left; eexists; split; try reflexivity; discriminate.
  - apply logger_diag_do_creates in H. exfalso. eapply logger_diag_do_writes; eauto.
  - right. exists p. split; [reflexivity|]. apply logger_diag_do_creates in H. unfold exec in H.
    destruct (e_read e); cbn in H; [|left; reflexivity]. right. split; [reflexivity|].
    apply logger_diag_do_creates in H.
    destruct (p_process p); destruct (e_process e); cbn in H; auto;
      exfalso; eapply logger_diag_do_writes; eauto.
Qed.
Print Assumptions c20_logger_diagnostic_cause.

(* non-vacuity *)
Example c20_nonvacuous_prestate :
  let f := {| f_human := false; f_json := true; f_cyborg := None; f_dump := false; f_help_md := false;
              f_pretty := false; f_brief := false; f_features := StableBasic; f_recover := false;
              f_output_file := Some 1; f_log_file := None; f_verbose_off := false |} in
  let e := {| e_create := fun _ => IoOk; e_read := true; e_process := true; e_write := fun _ _ => IoOk; e_partial := fun _ _ => false |} in
  let rd := {| r_bytes := fun r => match r with Json false => [10; 11] | _ => [0] end; r_prefix := fun _ _ => [] |} in
  let s0 : fsys := fun p => if p =? 1 then Some [90; 91; 92; 93; 94; 95] else None in
  snd (run f e) = 0 /\
  fs_after file_create rd s0 (fst (run f e)) 1 = Some [10; 11] /\
  fs_after no_truncate rd s0 (fst (run f e)) 1 = Some [10; 11; 92; 93; 94; 95].
Proof. repeat split. Qed.

Example c20_nonvacuous_symbol_order :
  let argv := [AOther; APositional 3; ASymbolsPath 2; APositional 1; ASymbolsUrl 9; ASymbolsPath 3] in
  supplier_paths (supplier_of (parse_sym argv None None 1000)) = [2; 3; 3; 1] /\
  supplier_urls (supplier_of (parse_sym argv None None 1000)) = [9] /\
  store_used (fun p => negb (p =? 2)) argv = Some 3 /\
  store_used (fun _ => true) [APositional 3; APositional 1] = Some 3.
Proof. repeat split. Qed.

Example c20_nonvacuous_cyborg :
  let f := {| f_human := false; f_json := false; f_cyborg := Some 2; f_dump := false; f_help_md := false;
              f_pretty := true; f_brief := true; f_features := StableBasic; f_recover := false;
              f_output_file := Some 1; f_log_file := None; f_verbose_off := false |} in
  let e := {| e_create := fun _ => IoOk; e_read := true; e_process := true; e_write := fun _ _ => IoOk; e_partial := fun _ _ => false |} in
  accepted f /\ clean e /\
  run f e = ([Create 2; Create 1; Written (File 1) HumanBrief; Written (File 2) (Json true)], 0).
Proof. split; [split; [vm_compute; discriminate|reflexivity]|]. split; [split; reflexivity|reflexivity]. Qed.

Example c20_nonvacuous_unstable_all :
  exists p, decide {| f_human := false; f_json := false; f_cyborg := None; f_dump := false; f_help_md := false;
                      f_pretty := false; f_brief := false; f_features := UnstableAll; f_recover := false;
                      f_output_file := None; f_log_file := None; f_verbose_off := false |} = Plan p /\
            po_recover (p_opts p) = true.
Proof. eexists. split; reflexivity. Qed.

Example c20_nonvacuous_failures :
  let f := {| f_human := false; f_json := true; f_cyborg := None; f_dump := false; f_help_md := false;
              f_pretty := false; f_brief := false; f_features := StableAll; f_recover := false;
              f_output_file := Some 1; f_log_file := None; f_verbose_off := false |} in
  let e r p w := {| e_create := fun _ => IoOk; e_read := r; e_process := p; e_write := fun _ _ => w; e_partial := fun _ _ => false |} in
  run f (e false true IoOk) = ([Diag Logger], 1) /\
  run f (e true false IoOk) = ([Create 1; Diag Logger], 1) /\
  run f (e true true IoErr) = ([Create 1; WriteFailed (File 1) (Json false); Diag Stderr], 1) /\
  run f (e true true IoBrokenPipe) = ([Create 1; WriteFailed (File 1) (Json false)], 0).
Proof. repeat split. Qed.

Example c20_nonvacuous_argv :
  let pid := fun s => if str_eqb s "o.txt"%str then 1 else if str_eqb s "c.json"%str then 2 else 3 in
  let e := {| e_create := fun _ => IoOk; e_read := true; e_process := true; e_write := fun _ _ => IoOk; e_partial := fun _ _ => false |} in
  let ebad := {| e_create := fun p => if p =? 2 then IoErr else IoOk; e_read := true; e_process := true; e_write := fun _ _ => IoOk; e_partial := fun _ _ => false |} in
  stackwalk pid ["--cyborg"; "c.json"; "--features=unstable-all"; "--brief"; "a.dmp"; "--output-file"; "o.txt"; "syms"]%str e =
    ([MainEv (Create 2); MainEv (Create 1); MainEv (Written (File 1) HumanBrief); MainEv (Written (File 2) (Json false))], 0) /\
  stackwalk pid ["--cyborg"; "c.json"; "a.dmp"]%str ebad = ([MainEv (Diag Stderr)], 1) /\
  stackwalk pid ["--features"; "Stable-All"; "a.dmp"]%str e = ([ClapMessage false], 2) /\
  stackwalk pid ["--features=stable-all "; "a.dmp"]%str e = ([ClapMessage false], 2) /\
  stackwalk pid ["--json"; "--json"; "a.dmp"]%str e = ([ClapMessage false], 2) /\
  stackwalk pid ["--verbose"; "trace"; "--verbose=trace"; "a.dmp"]%str e = ([ClapMessage false], 2) /\
  stackwalk pid ["--json"; "--human"; "a.dmp"]%str e = ([ClapMessage false], 2) /\
  stackwalk pid ["--log-file"; "l.txt"; "--json"; "--human"; "--help"; "--bogus"]%str e = ([ClapMessage true], 0) /\
  stackwalk pid ["--bogus"; "--help"]%str e = ([ClapMessage false], 2) /\
  stackwalk pid ["--output-file"; "--json"; "a.dmp"]%str e = ([ClapMessage false], 2) /\
  stackwalk pid ["--"; "--json"]%str e = ([MainEv (Written Stdout Human)], 0) /\
  stackwalk pid ["--pretty"; "a.dmp"]%str e = ([MainEv (Diag Logger)], 1).
Proof. repeat split. Qed.

Example c20_nonvacuous_manual_reading :
  let items := [IOptSp "cyborg" "c.json"; IOptEq "features" "unstable-all"; IFlag "brief"; IWord "a.dmp";
                IOptSp "output-file" "o.txt"; IWord "syms"; IOptEq "symbols-path" "more"; IOptSp "symbols-path" "-"]%str in
  let out := [("cyborg", "c.json"); ("features", "unstable-all"); ("brief", ""); ("minidump", "a.dmp"); ("output_file", "o.txt");
              ("symbols_path_legacy", "syms"); ("symbols_path", "more"); ("symbols_path", "-")]%str in
  items_effect CLI [] items = Some out /\
  render items = ["--cyborg"; "c.json"; "--features=unstable-all"; "--brief"; "a.dmp"; "--output-file"; "o.txt"; "syms";
                  "--symbols-path=more"; "--symbols-path"; "-"]%str /\
  parse CLI GROUP (render items) = PParsed out /\
  parse CLI GROUP (render items ++ ["--help"; "--bogus"]%str) = PHelp /\
  supplier_paths (supplier_of (sym_cli_of (fun s => if str_eqb s "more"%str then 5 else if str_eqb s "-"%str then 6 else 7) out)) = [5; 6; 7] /\
  items_effect CLI [] [IFlag "json"; IFlag "json"; IWord "a.dmp"]%str = None /\
  items_effect CLI [] [IOptEq "features" "Stable-All"; IWord "a.dmp"]%str = None /\
  find_long CLI "feature"%str = None.
Proof. repeat split. Qed.

(* the two known findings as EXACT classes (C20/Findings.v): an executable classifier over (flags, environment) that is true
   exactly for the runs that violate the clause - every flag record, every environment.
   F-C20b: a failing run whose diagnostic is visible nowhere  <->  --verbose=off and the run ends in one of main.rs's three
   `error!(..); exit(1)` tails (a rejected --pretty / --brief combination, a read error, a processing error; the log file, if
   any, could be created).  No other failing run is silent: usage errors and io errors go straight to standard error. *)
Theorem c20_silent_failure_exactly_known_b : forall f e,
  (snd (run f e) <> 0 /\ ~ diag_visible f (fst (run f e))) <-> known_b f e = true.
Proof.
  intros f e. rewrite <- silent_failure_bool. unfold silent. rewrite andb_true_iff, negb_true_iff, failed_iff, visible_bool.
  split; intros [A B]; (split; [exact A|]).
  - destruct (_ || _); [exfalso; apply B; reflexivity|reflexivity].
  - rewrite B. discriminate.
Qed.
Print Assumptions c20_silent_failure_exactly_known_b.

Theorem c20_known_b_reading : forall f e, known_b f e = true ->
  f_verbose_off f = true /\
  ((exists r, decide f = Rejected r /\ r <> UsageConflict) \/
   (exists p, decide f = Plan p /\
      (e_read e = false \/ (e_read e = true /\ p_process p = true /\ e_process e = false /\ creates_ok e (p_creates p) = true)))) /\
  creates_ok e (opt_list (f_log_file f)) = true.
Proof.
  intros f e H. unfold known_b in H. apply andb_true_iff in H. destruct H as [Hv H]. split; [exact Hv|].
  unfold ends_by_logger in H. destruct (decide f) as [[| |]| |p] eqn:Hd; try discriminate.
  - split; [left; exists PrettyWithoutJson; split; [reflexivity|discriminate]|exact H].
  - split; [left; exists BriefWithoutHuman; split; [reflexivity|discriminate]|exact H].
  - apply andb_true_iff in H. destruct H as [Hl H]. split; [|exact Hl]. right. exists p. split; [reflexivity|].
    destruct (e_read e); cbn in H; [|left; reflexivity]. right.
    apply andb_true_iff in H. destruct H as [H Hp]. apply andb_true_iff in H. destruct H as [Hc Hpp].
    apply negb_true_iff in Hp. repeat split; assumption.
Qed.
Print Assumptions c20_known_b_reading.

(* F-C20d: a failing run that leaves report bytes on the primary output  <->  every sink was created, the dump was read (and
   processed), and the FIRST failing printer call is an io error (not a broken pipe) that is either (B) the primary report's own
   call after it had streamed a prefix, or (A) the --cyborg file's JSON after the primary report was written completely *)
Theorem c20_dirty_failure_exactly_known_d : forall f e, f_help_md f = false ->
  (snd (run f e) <> 0 /\ sink_dirty e (writer_of f) (fst (run f e))) <-> known_d f e = true.
Proof.
  intros f e Hh. rewrite <- (dirty_failure_bool f e Hh). unfold dirty. rewrite andb_true_iff, failed_iff, dirty_bool. tauto.
Qed.
Print Assumptions c20_dirty_failure_exactly_known_d.

Theorem c20_known_d_reading : forall f e, known_d f e = true ->
  exists p r, decide f = Plan p /\ p_primary p = [r] /\ e_read e = true /\
    ((e_write e (p_writer p) r = IoErr /\ e_partial e (p_writer p) r = true) \/
     (e_write e (p_writer p) r = IoOk /\ exists c rj, p_secondary p = Some (c, rj) /\ e_write e (File c) rj = IoErr)).
Proof.
  intros f e H. unfold known_d in H. destruct (decide f) as [| |p]; try discriminate.
  destruct (p_primary p) as [|r [|]] eqn:Hr; try (rewrite !andb_false_r in H; discriminate).
  exists p, r. split; [reflexivity|]. split; [exact Hr|].
  apply andb_true_iff in H. destruct H as [H Hm]. apply andb_true_iff in H. destruct H as [H _].
  apply andb_true_iff in H. destruct H as [H _]. apply andb_true_iff in H. destruct H as [_ Hrd].
  split; [exact Hrd|].
  destruct (e_write e (p_writer p) r) eqn:Ew.
  - right. split; [reflexivity|]. destruct (p_secondary p) as [[c rj]|]; [|discriminate]. exists c, rj. split; [reflexivity|].
    destruct (e_write e (File c) rj); try discriminate. reflexivity.
  - left. split; [reflexivity|exact Hm].
  - discriminate.
Qed.
Print Assumptions c20_known_d_reading.

(* ... and such a run does say so: status 1 with `Error: ..` on standard error *)
Theorem c20_known_d_status : forall f e, f_help_md f = false -> known_d f e = true ->
  snd (run f e) = 1 /\ In (Diag Stderr) (fst (run f e)).
Proof.
  intros f e Hh H. apply (c20_dirty_failure_exactly_known_d f e Hh) in H. destruct H as [Hne Hd].
  destruct (dirty_primary_only_midreport f e Hne Hd) as [w [r [Hin [He _]]]].
  destruct (io_error_status f e w r Hin) as [[A _]|[_ [B C]]]; [congruence|]. split; assumption.
Qed.
Print Assumptions c20_known_d_status.

(* from the argument vector to the HTTP symbol supplier: --symbols-cache / --symbols-tmp / --symbols-download-timeout-secs read
   off the command line are what http_symbol_supplier receives, with the documented defaults (temp_dir/rust-minidump-cache,
   temp_dir, 1000 s) when not given; the HTTP supplier iff a --symbols-url is given *)
Theorem c20_argv_http_arguments : forall pid items out, items_effect CLI [] items = Some out ->
  sc_symbols_cache (sym_cli_of pid out) = option_map pid (first_value "symbols-cache"%str items) /\
  sc_symbols_tmp (sym_cli_of pid out) = option_map pid (first_value "symbols-tmp"%str items) /\
  sc_timeout (sym_cli_of pid out) =
    match first_value "symbols-download-timeout-secs"%str items with Some s => secs_of s | None => 1000%Z end.
Proof. exact argv_http_arguments. Qed.
Print Assumptions c20_argv_http_arguments.

Theorem c20_argv_supplier : forall pid items out, items_effect CLI [] items = Some out ->
  let paths := (map pid (opt_values "symbols-path"%str items) ++ map pid (tl (words items)))%list in
  let urls := map pid (opt_values "symbols-url"%str items) in
  supplier_of (sym_cli_of pid out) =
    match urls with
    | _ :: _ =>
        HttpSupplier paths urls
          (match first_value "symbols-cache"%str items with Some d => GivenDir (pid d) | None => TempDirCache end)
          (match first_value "symbols-tmp"%str items with Some d => GivenDir (pid d) | None => TempDir end)
          (match first_value "symbols-download-timeout-secs"%str items with Some s => secs_of s | None => 1000%Z end)
    | [] => match paths with _ :: _ => SimpleSupplier paths | [] => NoSupplier end
    end.
Proof. exact argv_supplier. Qed.
Print Assumptions c20_argv_supplier.

(* ... and from the TOKEN VECTOR itself: Cli::parse() on the rendered command line yields the record that supplier is built from *)
Theorem c20_tokens_to_supplier : forall pid items out, items_effect CLI [] items = Some out ->
  (group_members_present GROUP out <= 1)%nat -> required_present CLI out = true ->
  exists acc, parse CLI GROUP (render items) = PParsed acc /\
    supplier_of (sym_cli_of pid acc) =
      match map pid (opt_values "symbols-url"%str items) with
      | _ :: _ =>
          HttpSupplier (map pid (opt_values "symbols-path"%str items) ++ map pid (tl (words items)))%list
            (map pid (opt_values "symbols-url"%str items))
            (match first_value "symbols-cache"%str items with Some d => GivenDir (pid d) | None => TempDirCache end)
            (match first_value "symbols-tmp"%str items with Some d => GivenDir (pid d) | None => TempDir end)
            (match first_value "symbols-download-timeout-secs"%str items with Some s => secs_of s | None => 1000%Z end)
      | [] => match (map pid (opt_values "symbols-path"%str items) ++ map pid (tl (words items)))%list with
              | _ :: _ => SimpleSupplier (map pid (opt_values "symbols-path"%str items) ++ map pid (tl (words items)))%list
              | [] => NoSupplier end
      end.
Proof.
  intros pid items out H Hg Hr. exists out. split; [exact (manual_reading_is_parsed CLI GROUP items out H Hg Hr)|].
  exact (argv_supplier pid items out H).
Qed.
Print Assumptions c20_tokens_to_supplier.

(* the --dump mode (print_minidump_dump, main.rs) as a program regenerated from the source (Gen/C20DumpProg.v) and
   interpreted by C20/DumpModel.v; a minidump is seen through what get_stream::<T>() / get_raw_stream answer per stream kind.
   The printers that run, in order, for EVERY such view: *)
Theorem c20_dump_sections_table : forall view,
  sections RM.Gen.C20DumpProg.DUMP_PROG view = documented_sections view.
Proof. exact sections_table. Qed.
Print Assumptions c20_dump_sections_table.

(* every stream kind of the 16 typed and 8 raw ones is printed exactly once when it can be read and not at all otherwise
   (also the two memory lists, whatever combination of them exists: the take() / or_else logic loses and duplicates nothing) *)
Theorem c20_dump_each_stream_once : forall view,
  (forall t, In t typed_kinds ->
     count_sec (SecStream t) (sections RM.Gen.C20DumpProg.DUMP_PROG view) = if present view t then 1%nat else 0%nat) /\
  (forall n, In n raw_kinds ->
     count_sec (SecRaw n) (sections RM.Gen.C20DumpProg.DUMP_PROG view) = if present view n then 1%nat else 0%nat).
Proof.
  intro view. split; intros t Hin; [apply (stream_once view (SecStream t))|apply (stream_once view (SecRaw t))];
    try reflexivity; revert t Hin; apply forallb_forall; vm_compute; reflexivity.
Qed.
Print Assumptions c20_dump_each_stream_once.

(* ... and nothing else is printed *)
Theorem c20_dump_only_documented_sections : forall view s,
  In s (sections RM.Gen.C20DumpProg.DUMP_PROG view) -> section_ok view s.
Proof. exact only_documented_sections. Qed.
Print Assumptions c20_dump_only_documented_sections.

(* `if let Some(memory64_list) = memory64_list { .. }` (statement 12 of the regenerated program) is dead code *)
Theorem c20_dump_memory64_branch_dead :
  nth_error RM.Gen.C20DumpProg.DUMP_PROG 12 = Some (SPrintVar "memory64_list"%str) /\
  forall view, sections PROG_without_memory64_branch view = sections RM.Gen.C20DumpProg.DUMP_PROG view.
Proof.
  split; [reflexivity|]. intro view. refine (dead_print view (firstn 12 PROG) "memory64_list"%str (skipn 13 PROG) _).
  unfold vars_after, PROG, RM.Gen.C20DumpProg.DUMP_PROG. cbn [firstn fold_left dstep_sem fst].
  case (present view "MinidumpMemory64List"%str); reflexivity.
Qed.
Print Assumptions c20_dump_memory64_branch_dead.

(* io errors in the middle of the dump, any number of sections, any failing call: what reached the sink is whole sections in
   order and then the beginning of the one whose printer failed - a prefix of the complete dump (F-C20d, class B, for --dump);
   with no failing call it is the complete dump *)
Theorem c20_dump_io_error_leaves_prefix : forall rd wr cut secs,
  (exists tail, dump_text rd secs = fst (write_all rd wr cut 0 secs) ++ tail) /\
  ((forall j, wr j = IoOk) -> write_all rd wr cut 0 secs = (dump_text rd secs, IoOk)) /\
  (snd (write_all rd wr cut 0 secs) <> IoOk ->
     exists done s rest, secs = done ++ s :: rest /\
       fst (write_all rd wr cut 0 secs) = dump_text rd done ++ firstn (cut (length done)) (rd s) /\
       snd (write_all rd wr cut 0 secs) = wr (length done) /\ forall j, (j < length done)%nat -> wr j = IoOk).
Proof.
  intros rd wr cut secs. split; [exact (write_all_is_prefix_of_dump rd wr cut secs)|].
  destruct (write_all_cases rd wr cut secs 0) as [E|[dn [s [rest [H1 [H2 [H3 [H4 H5]]]]]]]].
  - rewrite E. split; [reflexivity|]. intro Hne. destruct (Hne eq_refl).
  - split; [intro H; destruct (H4 (H _))|]. intros _. exists dn, s, rest. repeat split; assumption.
Qed.
Print Assumptions c20_dump_io_error_leaves_prefix.

(* the three models put together for `minidump-stackwalk --dump [--brief] --output-file out <dump>` (any --features / --verbose, any
   minidump view, any text per printer, any io behaviour of the sink, ANY file system found): the output file holds exactly what the
   printer calls of the regenerated program wrote before the first failing one - the complete dump when none fails - and the status
   is 1 exactly for an io error that is not a broken pipe *)
Theorem c20_dump_run_end_to_end : forall (brief : bool) out feat rec voff view rdr wr cut e (s0 : fsys),
  e_read e = true -> e_create e out = IoOk ->
  let secs := sections RM.Gen.C20DumpProg.DUMP_PROG view in
  let r := if brief then DumpBrief else Dump in
  let res := write_all rdr wr cut 0 secs in
  e_write e (File out) r = snd res ->
  let rd := {| r_bytes := fun _ => dump_text rdr secs; r_prefix := fun _ _ => fst res |} in
  let f := dump_flags brief (Some out) feat rec voff in
  fs_after file_create rd s0 (fst (run f e)) out = Some (fst res) /\
  snd (run f e) = (match snd res with IoErr => 1 | _ => 0 end) /\
  (exists tail, dump_text rdr secs = fst res ++ tail) /\
  (snd res = IoOk -> fst res = dump_text rdr secs).
Proof. exact dump_run_end_to_end. Qed.
Print Assumptions c20_dump_run_end_to_end.

Example c20_nonvacuous_findings :
  let fb := {| f_human := false; f_json := false; f_cyborg := None; f_dump := false; f_help_md := false;
               f_pretty := true; f_brief := false; f_features := StableBasic; f_recover := false;
               f_output_file := None; f_log_file := Some 3; f_verbose_off := true |} in
  let e0 := {| e_create := fun _ => IoOk; e_read := true; e_process := true; e_write := fun _ _ => IoOk; e_partial := fun _ _ => false |} in
  let fd := {| f_human := false; f_json := false; f_cyborg := Some 2; f_dump := false; f_help_md := false;
               f_pretty := false; f_brief := true; f_features := StableBasic; f_recover := false;
               f_output_file := Some 1; f_log_file := None; f_verbose_off := false |} in
  let ed := {| e_create := fun _ => IoOk; e_read := true; e_process := true;
               e_write := fun w _ => match w with File 2 => IoErr | _ => IoOk end; e_partial := fun _ _ => false |} in
  let ep := {| e_create := fun _ => IoOk; e_read := true; e_process := true;
               e_write := fun w _ => match w with File 2 => IoBrokenPipe | _ => IoOk end; e_partial := fun _ _ => false |} in
  known_b fb e0 = true /\ run fb e0 = ([Create 3; Diag Logger], 1) /\ known_d fb e0 = false /\
  known_d fd ed = true /\ run fd ed = ([Create 2; Create 1; Written (File 1) HumanBrief; WriteFailed (File 2) (Json false); Diag Stderr], 1) /\
  known_d fd ep = false /\ snd (run fd ep) = 0 /\ known_b fd ed = false.
Proof. repeat split. Qed.

Example c20_nonvacuous_dump :
  let view : dump_view := fun t =>
    if existsb (str_eqb t) ["MinidumpSystemInfo"; "MinidumpThreadList"; "MinidumpModuleList"; "MinidumpMemoryList";
                            "MinidumpMemory64List"; "MinidumpException"; "LinuxMaps"]%str then SPresent
    else if str_eqb t "MinidumpCrashpadInfo"%str then SBroken else SMissing in
  let rd : section -> bytes := fun s => match s with SecHeader => [1; 2] | SecStream _ => [3; 4; 5] | SecLit _ => [6] | SecRaw _ => [7; 8] end in
  sections RM.Gen.C20DumpProg.DUMP_PROG view =
    [SecHeader; SecStream "MinidumpThreadList"; SecStream "MinidumpModuleList"; SecStream "MinidumpMemory64List";
     SecStream "MinidumpMemoryList"; SecStream "MinidumpException"; SecStream "MinidumpSystemInfo";
     SecLit "MinidumpCrashpadInfo cannot print invalid data"; SecRaw "LinuxMaps"]%str /\
  write_all rd (fun k => if Nat.eqb k 2 then IoErr else IoOk) (fun _ => 1%nat) 0 (sections RM.Gen.C20DumpProg.DUMP_PROG view) =
    ([1; 2; 3; 4; 5; 3], IoErr) /\
  length RM.Gen.C20DumpProg.DUMP_PROG = 31%nat.
Proof. repeat split. Qed.

Example c20_nonvacuous_http_arguments :
  let items := [IOptSp "symbols-url" "http://a/"; IWord "a.dmp"; IOptEq "symbols-cache" "c"; IWord "syms";
                IOptSp "symbols-download-timeout-secs" "007"; IOptEq "symbols-url" "http://b/"]%str in
  let pid := fun s => if str_eqb s "c"%str then 5 else if str_eqb s "syms"%str then 6 else if str_eqb s "http://a/"%str then 7 else 8 in
  exists out, items_effect CLI [] items = Some out /\
    supplier_of (sym_cli_of pid out) = HttpSupplier [6] [7; 8] (GivenDir 5) TempDir 7.
Proof. eexists. split; [reflexivity|reflexivity]. Qed.
