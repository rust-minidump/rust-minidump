(* C20/SinksProofs.v — lemmas about the sink state machine (Sinks.v part 1) and the argv -> supplier map (part 2).
   Part 1 looks at ONE path at a time: [loc s p] is what the file system holds at p (content, cursor of the open handle);
   every event acts on it by [step_loc] without looking at any other path (loc_step), so the content of p after a
   trace is a fold of [step_loc] over the trace (fs_after_loc), and the theorems are inductions over that fold. *)
From Coq Require Import Lia.
From RM Require Import C20.Model C20.Proofs C20.Sinks.
Open Scope Z_scope.

Definition lstate := (option bytes * option nat)%type.
Definition loc (s : fstate) (p : path) : lstate := (fs_files s p, fs_cur s p).

Definition open_loc (m : open_mode) (l : lstate) : lstate :=
  match fst l with
  | None => if om_create m then (Some [], Some 0%nat) else l
  | Some old => (Some (if om_truncate m then [] else old), Some 0%nat)
  end.
Definition write_loc (m : open_mode) (l : lstate) (data : bytes) : lstate :=
  match snd l, fst l with
  | Some pos, Some old =>
      let pos' := if om_append m then length old else pos in
      (Some (write_at old pos' data), Some (pos' + length data)%nat)
  | _, _ => l
  end.
Definition step_loc (m : open_mode) (rd : rendering) (p : path) (l : lstate) (ev : event) : lstate :=
  match ev with
  | Create q => if q =? p then open_loc m l else l
  | Written (File q) r => if q =? p then write_loc m l (r_bytes rd r) else l
  | WriteFailed (File q) r => if q =? p then write_loc m l (r_prefix rd (File q) r) else l
  | _ => l
  end.

Lemma upd_eq : forall A (f : path -> A) p a, upd f p a p = a.
Proof. intros. unfold upd. rewrite Z.eqb_refl. reflexivity. Qed.
Lemma upd_neq : forall A (f : path -> A) p q a, p <> q -> upd f q a p = f p.
Proof. intros. unfold upd. destruct (Z.eqb_spec p q); [contradiction|reflexivity]. Qed.

Lemma loc_open : forall m s q p,
  loc (match open_file m s q with Some s' => s' | None => s end) p =
  if q =? p then open_loc m (loc s p) else loc s p.
Proof.
  intros m s q p. unfold open_file, open_loc, loc.
  destruct (Z.eqb_spec q p) as [->|N].
  - cbn [fst snd]. destruct (fs_files s p) eqn:E.
    + cbn [fs_files fs_cur]. rewrite !upd_eq. reflexivity.
    + destruct (om_create m); cbn [fs_files fs_cur]; [rewrite !upd_eq; reflexivity|rewrite E; reflexivity].
  - assert (N' : p <> q) by congruence.
    destruct (fs_files s q); [|destruct (om_create m)]; cbn [fs_files fs_cur]; rewrite ?upd_neq by exact N'; reflexivity.
Qed.

Lemma loc_write : forall m s q p data,
  loc (write_file m s q data) p = if q =? p then write_loc m (loc s p) data else loc s p.
Proof.
  intros m s q p data. unfold write_file, write_loc, loc.
  destruct (Z.eqb_spec q p) as [->|N].
  - cbn [fst snd]. destruct (fs_cur s p) eqn:Ec, (fs_files s p) eqn:Ef; cbn [fs_files fs_cur]; rewrite ?upd_eq, ?Ec, ?Ef; reflexivity.
  - assert (N' : p <> q) by congruence.
    destruct (fs_cur s q) eqn:Ec, (fs_files s q) eqn:Ef; cbn [fs_files fs_cur]; rewrite ?upd_neq by exact N'; reflexivity.
Qed.

Lemma loc_step : forall m rd s ev p, loc (step_event m rd s ev) p = step_loc m rd p (loc s p) ev.
Proof.
  intros m rd s ev p. destruct ev as [q|w r|w r|c|]; cbn [step_event step_loc]; try reflexivity.
  - apply loc_open.
  - destruct w; [reflexivity|apply loc_write].
  - destruct w; [reflexivity|apply loc_write].
Qed.

Lemma loc_replay : forall m rd tr s p,
  loc (replay m rd s tr) p = fold_left (step_loc m rd p) tr (loc s p).
Proof.
  intros m rd tr. unfold replay. induction tr as [|ev tr IH]; intros s p; [reflexivity|].
  cbn [fold_left]. rewrite IH, loc_step. reflexivity.
Qed.

Lemma fs_after_loc : forall m rd s0 tr p,
  fs_after m rd s0 tr p = fst (fold_left (step_loc m rd p) tr (s0 p, None)).
Proof. intros. unfold fs_after. change (fs_files ?s p) with (fst (loc s p)). rewrite loc_replay. reflexivity. Qed.

Definition fresh : lstate := (Some [], Some 0%nat).

Lemma open_create_fresh : forall l, open_loc file_create l = fresh.
Proof. intros [[old|] c]; reflexivity. Qed.

Lemma prestate_irrelevant_loc : forall rd p tr l l',
  In (Create p) tr ->
  fold_left (step_loc file_create rd p) tr l = fold_left (step_loc file_create rd p) tr l'.
Proof.
  intros rd p tr. induction tr as [|ev tr IH]; intros l l' Hin; [destruct Hin|].
  cbn [fold_left]. destruct Hin as [->|Hin].
  - cbn [step_loc]. rewrite Z.eqb_refl, !open_create_fresh. reflexivity.
  - apply IH. exact Hin.
Qed.

(* a path the run never opens keeps its content *)
Lemma untouched_loc : forall m rd p tr l,
  ~ In (Create p) tr -> snd l = None -> fold_left (step_loc m rd p) tr l = l.
Proof.
  intros m rd p tr. induction tr as [|ev tr IH]; intros l Hn Hc; [reflexivity|].
  cbn [fold_left].
  assert (E : step_loc m rd p l ev = l).
  { destruct ev as [q|[|q] r|[|q] r|c|]; cbn [step_loc]; try reflexivity.
    - destruct (Z.eqb_spec q p) as [->|]; [exfalso; apply Hn; left; reflexivity|reflexivity].
    - destruct (q =? p); [|reflexivity]. unfold write_loc. rewrite Hc. reflexivity.
    - destruct (q =? p); [|reflexivity]. unfold write_loc. rewrite Hc. reflexivity. }
  rewrite E. apply IH; [|exact Hc]. intros H. apply Hn. right. exact H.
Qed.

Lemma untouched : forall m rd p tr s0, ~ In (Create p) tr -> fs_after m rd s0 tr p = s0 p.
Proof. intros. rewrite fs_after_loc, untouched_loc; [reflexivity|assumption|reflexivity]. Qed.

Lemma fold_creates : forall rd p ps l,
  fold_left (step_loc file_create rd p) (map Create ps) l =
  if existsb (fun q => q =? p) ps then fresh else l.
Proof.
  intros rd p ps. induction ps as [|q ps IH]; intros l; [reflexivity|].
  cbn [map fold_left existsb step_loc]. rewrite IH.
  destruct (q =? p); cbn [orb]; [rewrite open_create_fresh|]; destruct (existsb (fun q0 => q0 =? p) ps); reflexivity.
Qed.

Lemma write_at_end : forall c data, write_at c (length c) data = c ++ data.
Proof.
  intros. unfold write_at. rewrite firstn_all, skipn_all2 by lia. rewrite app_nil_r. reflexivity.
Qed.

Lemma fold_writes : forall rd p ws c,
  fold_left (step_loc file_create rd p) (map (fun wr => Written (fst wr) (snd wr)) ws) (Some c, Some (length c)) =
  (Some (c ++ concat (map (r_bytes rd) (sink_reports (File p) ws))),
   Some (length (c ++ concat (map (r_bytes rd) (sink_reports (File p) ws))))).
Proof.
  intros rd p ws. unfold sink_reports. induction ws as [|[w r] ws IH]; intros c.
  - cbn. rewrite app_nil_r. reflexivity.
  - cbn [map fold_left fst snd step_loc filter]. destruct w as [|q].
    + cbn [writer_eqb]. apply IH.
    + cbn [writer_eqb]. destruct (q =? p).
      * unfold write_loc. cbn [fst snd om_append file_create]. rewrite write_at_end.
        replace (length c + length (r_bytes rd r))%nat with (length (c ++ r_bytes rd r)) by (rewrite app_length; reflexivity).
        rewrite IH. cbn [map concat snd]. rewrite !app_assoc. reflexivity.
      * apply IH.
Qed.

Lemma in_existsb_path : forall p ps, In p ps -> existsb (fun q => q =? p) ps = true.
Proof. intros. apply existsb_exists. exists p. split; [assumption|apply Z.eqb_refl]. Qed.

(* status 0 without a broken pipe: every file the run opened holds exactly the reports sent to it, whatever it held before *)
Lemma file_after_success : forall f e pl p rd s0,
  f_help_md f = false -> snd (run f e) = 0 -> ~ pipe_broke e -> decide f = Plan pl ->
  In p (opt_list (f_log_file f) ++ p_creates pl) ->
  fs_after file_create rd s0 (fst (run f e)) p =
  Some (concat (map (r_bytes rd) (sink_reports (File p) (steps pl)))).
Proof.
  intros f e pl p rd s0 Hh H0 Hnp Hd Hin.
  destruct (zero_run f e Hh H0) as [[p' [Hd' [_ [_ Htr]]]]|Hp]; [|contradiction].
  rewrite Hd in Hd'. inversion Hd'; subst p'. rewrite Htr, fs_after_loc.
  rewrite app_assoc, <- map_app, fold_left_app, fold_creates, (in_existsb_path _ _ Hin).
  change fresh with (Some (@nil Z), Some (length (@nil Z))). rewrite fold_writes. reflexivity.
Qed.

(* what a plan sends to the output file and to the cyborg file *)
Lemma reports_output_file : forall f pl p, decide f = Plan pl -> f_output_file f = Some p -> f_cyborg f <> Some p ->
  sink_reports (File p) (steps pl) = p_primary pl.
Proof.
  intros f pl p Hd Ho Hc. rewrite (decide_plan f pl Hd). unfold steps, sink_reports, plan_of, writer_of.
  cbn [p_writer p_primary p_secondary map app]. rewrite Ho.
  destruct (f_cyborg f) as [c|]; cbn [filter fst snd writer_eqb map app]; rewrite Z.eqb_refl; [|reflexivity].
  destruct (Z.eqb_spec c p) as [->|]; [congruence|reflexivity].
Qed.

Lemma reports_cyborg_file : forall f pl c, decide f = Plan pl -> f_cyborg f = Some c -> f_output_file f <> Some c ->
  sink_reports (File c) (steps pl) = [Json (f_pretty f)].
Proof.
  intros f pl c Hd Hc Ho. rewrite (decide_plan f pl Hd). unfold steps, sink_reports, plan_of, writer_of.
  cbn [p_writer p_primary p_secondary map app]. rewrite Hc.
  destruct (f_output_file f) as [q|]; cbn [filter fst snd writer_eqb map app]; rewrite Z.eqb_refl; [|reflexivity].
  destruct (Z.eqb_spec q c) as [->|]; [congruence|reflexivity].
Qed.

Lemma flag_paths_app : forall a b, flag_paths (a ++ b) = flag_paths a ++ flag_paths b.
Proof. induction a as [|[p|p|u|] a IH]; intros b; cbn; rewrite ?IH; reflexivity. Qed.
Lemma positional_paths_app : forall a b, positional_paths (a ++ b) = positional_paths a ++ positional_paths b.
Proof. induction a as [|[p|p|u|] a IH]; intros b; cbn; rewrite ?IH; reflexivity. Qed.
Lemma url_args_app : forall a b, url_args (a ++ b) = url_args a ++ url_args b.
Proof. induction a as [|[p|p|u|] a IH]; intros b; cbn; rewrite ?IH; reflexivity. Qed.

Lemma supplier_paths_of : forall c, supplier_paths (supplier_of c) = merged_paths c.
Proof.
  intros c. unfold supplier_of. destruct (nonempty (sc_symbols_url c)); [reflexivity|].
  destruct (merged_paths c); reflexivity.
Qed.
Lemma supplier_urls_of : forall c, supplier_urls (supplier_of c) = sc_symbols_url c.
Proof.
  intros c. unfold supplier_of. destruct (sc_symbols_url c) eqn:E; cbn [nonempty]; [|reflexivity].
  destruct (nonempty (merged_paths c)); reflexivity.
Qed.

(* the paths reach the supplier in the order given: all --symbols-path values in command-line order, then all
   positional ones in command-line order; nothing dropped, duplicated or reordered *)
Lemma paths_in_given_order : forall argv cache tmp t,
  supplier_paths (supplier_of (parse_sym argv cache tmp t)) = flag_paths argv ++ positional_paths argv /\
  supplier_urls (supplier_of (parse_sym argv cache tmp t)) = url_args argv.
Proof. intros. rewrite supplier_paths_of, supplier_urls_of. split; reflexivity. Qed.

Definition only_flags (argv : list argv_item) : Prop := positional_paths argv = [].
Definition only_positionals (argv : list argv_item) : Prop := flag_paths argv = [].

