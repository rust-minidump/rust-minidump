(* C20/ClapSymbols.v — from the argument vector to the HTTP symbol supplier: --symbols-cache, --symbols-tmp and
   --symbols-download-timeout-secs, read off the command line item by item, are what http_symbol_supplier receives
   (with the documented defaults when an option is not given). *)
From Coq Require Import Ascii List ZArith Bool Lia.
Import ListNotations.
From RM Require Import C20.Model C20.ClapSpec C20.Clap C20.Proofs C20.ClapProofs C20.Sinks C20.SinksProofs C20.ClapSinks.
Local Open Scope str_scope.

(* the number a --symbols-download-timeout-secs value denotes (the u64 value parser has accepted it) *)
Definition secs_of (s : str) : Z := match parse_unsigned s with Some n => n | None => 0%Z end.

Lemma argv_http_arguments : forall pid items out, items_effect CLI [] items = Some out ->
  sc_symbols_cache (sym_cli_of pid out) = option_map pid (first_value "symbols-cache" items) /\
  sc_symbols_tmp (sym_cli_of pid out) = option_map pid (first_value "symbols-tmp" items) /\
  sc_timeout (sym_cli_of pid out) =
    match first_value "symbols-download-timeout-secs" items with Some s => secs_of s | None => 1000%Z end.
Proof.
  intros pid items out H. split; [eapply option_given; [reflexivity|exact H]|].
  split; [eapply option_given; [reflexivity|exact H]|].
  unfold sym_cli_of, first_value, value_of. cbn [sc_timeout].
  rewrite (values_from "symbols_download_timeout_secs" "symbols-download-timeout-secs" eq_refl items [] out H).
  cbn [values_of filter map app]. destruct (opt_values "symbols-download-timeout-secs" items); reflexivity.
Qed.

(* the supplier main() builds, from the command line: the HTTP supplier iff a --symbols-url is given, with the paths
   (--symbols-path values, then positionals) and URLs in command-line order, the cache and tmp directories given or their
   documented defaults, and the timeout given or 1000 seconds *)
Lemma argv_supplier : forall pid items out, items_effect CLI [] items = Some out ->
  let paths := (map pid (opt_values "symbols-path" items) ++ map pid (tl (words items)))%list in
  let urls := map pid (opt_values "symbols-url" items) in
  supplier_of (sym_cli_of pid out) =
    match urls with
    | _ :: _ =>
        HttpSupplier paths urls
          (match first_value "symbols-cache" items with Some d => GivenDir (pid d) | None => TempDirCache end)
          (match first_value "symbols-tmp" items with Some d => GivenDir (pid d) | None => TempDir end)
          (match first_value "symbols-download-timeout-secs" items with Some s => secs_of s | None => 1000%Z end)
    | [] => match paths with _ :: _ => SimpleSupplier paths | [] => NoSupplier end
    end.
Proof.
  intros pid items out H paths urls.
  destruct (argv_http_arguments pid items out H) as [Hc [Ht Hs]].
  destruct (symbol_arguments_in_order items out H) as [H1 [H2 [_ H4]]].
  unfold supplier_of, merged_paths. rewrite Hc, Ht, Hs.
  cbn [sym_cli_of sc_symbols_path sc_symbols_path_legacy sc_symbols_url]. rewrite H1, H2, H4.
  fold urls. fold paths. destruct urls as [|u us]; cbn [nonempty].
  - destruct paths; reflexivity.
  - destruct (first_value "symbols-cache" items), (first_value "symbols-tmp" items); reflexivity.
Qed.

