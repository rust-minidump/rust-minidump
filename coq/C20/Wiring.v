(* C20/Wiring.v — the shapes of main_result that Sinks.v is written against, pinned to what
   translate/c20_wiring.py regenerates from minidump-stackwalk/src/main.rs on every run (Gen/C20Wiring.v).
   The translator aborts on anything it does not recognise (an OpenOptions, a statement that touches
   symbols_paths between its construction and the supplier constructors, a new options.* override). *)
From Coq Require Import String List.
Import ListNotations.
From RM Require Gen.C20Wiring.
From RM Require Import C20.Sinks.
Local Open Scope string_scope.

(* the constructor of each file sink, in the order the code opens them *)
Definition pinned_sink_opens : list (string * string) :=
  [("log_file", "File::create"); ("cyborg", "File::create"); ("output_file", "File::create")].
(* let mut symbols_paths = <first>; symbols_paths.extend(<second>); *)
Definition pinned_sym_merge : list string := ["cli.symbols_path"; "cli.symbols_path_legacy"].
Definition pinned_http_args : list string := ["symbols_paths"; "cli.symbols_url"; "symbols_cache"; "symbols_tmp"; "timeout"].
Definition pinned_simple_args : list string := ["symbols_paths"].
Definition pinned_feature_arms : list (string * string) :=
  [("stable-basic", "stable_basic"); ("stable-all", "stable_all"); ("unstable-all", "unstable_all")].
Definition pinned_option_overrides : list (string * string * string) :=
  [("evil_json", "=", "cli.evil_json.as_deref()");
   ("recover_function_args", "|=", "cli.recover_function_args");
   ("stat_reporter", "=", "processor_stats.as_ref()")].

Definition pinned_cache_default : string := "temp_dir.join(rust-minidump-cache)".
Definition pinned_tmp_default : string := "temp_dir".
Definition pinned_process_args : string := "&dump,&provider,options".

(* std::fs::File::create = OpenOptions::new().write(true).create(true).truncate(true) (std documentation) *)
Definition mode_of_constructor (c : string) : option open_mode :=
  if String.eqb c "File::create" then Some file_create else None.
(* the open mode of every sink, from the constructors regenerated from main.rs *)
Definition code_sink_modes : list (string * option open_mode) :=
  map (fun sc => (fst sc, mode_of_constructor (snd sc))) RM.Gen.C20Wiring.SINK_OPENS.

(* the same, without strings, for the extracted driver *)
Definition code_truncates : bool := forallb (fun b => b) RM.Gen.C20Wiring.SINK_TRUNCATES.
Lemma sink_truncates_consistent :
  RM.Gen.C20Wiring.SINK_TRUNCATES = map (fun sc => String.eqb (snd sc) "File::create") RM.Gen.C20Wiring.SINK_OPENS.
Proof. reflexivity. Qed.

(* the landmarks of main_result in source order: this is the order of effects C20/Model.v's [run] / [exec] and C20/Clap.v's
   [run_outcome] are written in (clap first; the log file; --help-markdown before the validity tests; the tests before the
   --features match; read_path before the sinks are opened; the cyborg file before the output file; --dump before processing;
   the human report before the JSON one), and every std::process::exit of main.rs has the argument 1 *)
Definition pinned_main_steps : list string :=
  ["parse"; "log_create"; "panic_hook"; "help_markdown"; "mode_munging"; "cyborg_desugar"; "pretty_check"; "brief_check";
   "features_match"; "overrides"; "read_path"; "cyborg_create"; "output_create"; "dump_dispatch"; "process"; "print_human";
   "print_json"; "process_error"; "read_error"].
Definition pinned_exit_calls : list string := ["1"; "1"; "1"; "1"; "1"; "1"].
