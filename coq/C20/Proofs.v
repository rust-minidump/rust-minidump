(* C20/Proofs.v — lemmas about the decision function and the effect order of main(). *)
From Coq Require Import Lia.
From RM Require Import C20.Model.
Open Scope Z_scope.

Definition writer_of (f : flags) : writer :=
  match f_output_file f with Some p => File p | None => Stdout end.

(* the options the documentation promises: the preset named by --features, plus the explicit flag *)
Definition documented_opts (f : flags) : proc_opts :=
  {| po_base := f_features f; po_recover := preset_recover (f_features f) || f_recover f |}.

Definition is_render (ev : event) : bool :=
  match ev with Written _ _ | WriteFailed _ _ => true | _ => false end.
Definition is_diag (ev : event) : bool :=
  match ev with Diag _ => true | _ => false end.
Definition is_panic (ev : event) : bool :=
  match ev with PanicEv => true | _ => false end.

(* no operation of the environment fails *)
Definition clean (e : env) : Prop :=
  (forall p, e_create e p = IoOk) /\ (forall w r, e_write e w r = IoOk).
(* File::create never reports a broken pipe (only writes to a pipe do) *)
Definition creates_not_pipe (e : env) : Prop := forall p, e_create e p <> IoBrokenPipe.
(* some executed operation reported a broken pipe *)
Definition pipe_broke (e : env) : Prop :=
  (exists p, e_create e p = IoBrokenPipe) \/ (exists w r, e_write e w r = IoBrokenPipe).

Definition accepted (f : flags) : Prop := group_count f <= 1 /\ f_help_md f = false.

(* [decide] inspects six booleans of the flag record and whether --cyborg is given; its tables below are proved by
   enumeration of these 128 combinations.  [flagcases f] makes the split and evaluates [decide], [group_count], [accepted]
   and the projections in goal and hypotheses (the cbv list is what these unfold to: arithmetic of Z on small numerals and
   the boolean connectives), so that each case is closed by reflexivity, discriminate or a contradiction in the hypotheses.
   The cases that matter are the ones the statements name: two members of the group; --pretty without JSON; --brief with
   --json; else a plan. *)
Ltac flagcases f :=
  destruct f as [xh xj xc xd xhm xp xb xft xrc xo xlg xvo];
  destruct xh, xj, xc as [xcy|], xd, xhm, xp, xb;
  cbv [accepted group_count decide f_human f_json f_cyborg f_dump f_help_md f_pretty f_brief f_features
       f_recover f_output_file f_log_file f_verbose_off b2z is_some Z.add Z.ltb Z.leb Z.compare
       Pos.add Pos.succ Pos.compare Pos.compare_cont negb andb orb opt_list app writer_of] in *.

Lemma plan_table : forall f, accepted f ->
  (f_dump f = true -> f_pretty f = false ->
     exists p, decide f = Plan p /\ p_writer p = writer_of f /\
               p_primary p = [if f_brief f then DumpBrief else Dump] /\
               p_secondary p = None /\ p_process p = false /\
               p_creates p = opt_list (f_output_file f)) /\
  (f_json f = true -> f_brief f = false ->
     exists p, decide f = Plan p /\ p_writer p = writer_of f /\
               p_primary p = [Json (f_pretty f)] /\
               p_secondary p = None /\ p_process p = true /\
               p_creates p = opt_list (f_output_file f)) /\
  (forall c, f_cyborg f = Some c ->
     exists p, decide f = Plan p /\ p_writer p = writer_of f /\
               p_primary p = [if f_brief f then HumanBrief else Human] /\
               p_secondary p = Some (c, Json (f_pretty f)) /\ p_process p = true /\
               p_creates p = c :: opt_list (f_output_file f)) /\
  (f_json f = false -> f_dump f = false -> f_cyborg f = None -> f_pretty f = false ->
     exists p, decide f = Plan p /\ p_writer p = writer_of f /\
               p_primary p = [if f_brief f then HumanBrief else Human] /\
               p_secondary p = None /\ p_process p = true /\
               p_creates p = opt_list (f_output_file f)).
Proof.
  intros f [Hg Hh].
  flagcases f; try discriminate Hh; try (exfalso; apply Hg; reflexivity);
    (split; [|split; [|split]]); intros; try discriminate;
    try (match goal with H : Some _ = Some _ |- _ => inversion H; subst end);
    eexists; (split; [reflexivity|]); cbn; repeat split; reflexivity.
Qed.

(* the plan, when there is one, as a function of the flags *)
Definition plan_of (f : flags) : plan :=
  {| p_writer := writer_of f;
     p_primary := [if f_dump f then (if f_brief f then DumpBrief else Dump)
                   else if f_json f then Json (f_pretty f) else if f_brief f then HumanBrief else Human];
     p_secondary := match f_cyborg f with Some c => Some (c, Json (f_pretty f)) | None => None end;
     p_creates := opt_list (f_cyborg f) ++ opt_list (f_output_file f);
     p_process := negb (f_dump f);
     p_opts := documented_opts f |}.
Lemma decide_plan : forall f p, decide f = Plan p -> p = plan_of f.
Proof.
  intros f p H. unfold plan_of, documented_opts.
  flagcases f; try discriminate H; inversion H; reflexivity.
Qed.

Lemma single_primary : forall f p, decide f = Plan p ->
  exists r, p_primary p = [r] /\ r <> HelpDoc.
Proof.
  intros f p H. rewrite (decide_plan f p H). eexists. split; [reflexivity|].
  cbn. destruct (f_dump f), (f_json f), (f_brief f); discriminate.
Qed.

Lemma plan_writer : forall f p, decide f = Plan p ->
  p_writer p = writer_of f /\
  p_creates p = opt_list (f_cyborg f) ++ opt_list (f_output_file f) /\
  (forall c r, p_secondary p = Some (c, r) -> f_cyborg f = Some c /\ r = Json (f_pretty f)) /\
  (f_cyborg f <> None -> p_secondary p <> None).
Proof.
  intros f p H. rewrite (decide_plan f p H). cbn. split; [reflexivity|]. split; [reflexivity|].
  destruct (f_cyborg f); split; intros; try congruence. inversion H0. split; reflexivity.
Qed.

Lemma rejections : forall f,
  (decide f = Rejected UsageConflict <-> 1 < group_count f) /\
  (decide f = Rejected PrettyWithoutJson <->
     group_count f <= 1 /\ f_help_md f = false /\ f_pretty f = true /\ f_json f = false /\ f_cyborg f = None) /\
  (decide f = Rejected BriefWithoutHuman <->
     group_count f <= 1 /\ f_help_md f = false /\ f_brief f = true /\ f_json f = true).
Proof.
  intros f.
  flagcases f; (split; [|split]); split; intros H; try discriminate H; try reflexivity;
    try (repeat match goal with HH : _ /\ _ |- _ => destruct HH end; try discriminate; exfalso; lia);
    try (repeat split; try reflexivity; intro HH; discriminate HH).
Qed.

Lemma total : forall f,
  (exists r, decide f = Rejected r) \/ (decide f = HelpMarkdown /\ f_help_md f = true) \/
  (exists p, decide f = Plan p /\ f_help_md f = false).
Proof.
  intros f. unfold decide.
  destruct (1 <? group_count f); [left; eexists; reflexivity|].
  destruct (f_help_md f); [right; left; split; reflexivity|]. cbv zeta.
  destruct (f_pretty f && _); [left; eexists; reflexivity|].
  destruct (f_brief f && _); [left; eexists; reflexivity|].
  right; right. destruct (f_dump f); eexists; split; reflexivity.
Qed.

Lemma io_exit_code : forall r, snd (io_exit r) = 0 \/ snd (io_exit r) = 1.
Proof. destruct r; cbn; auto. Qed.

Section Effects.
  Variable e : env.

  Lemma do_creates_ok : forall ps k, (forall p, In p ps -> e_create e p = IoOk) ->
    do_creates e ps k = (map Create ps ++ fst k, snd k).
  Proof.
    induction ps as [|p ps IH]; intros k H; cbn.
    - destruct k; reflexivity.
    - rewrite (H p (or_introl eq_refl)). rewrite IH by (intros q Hq; apply H; right; exact Hq). reflexivity.
  Qed.
  Lemma do_writes_ok : forall ws, (forall w r, In (w, r) ws -> e_write e w r = IoOk) ->
    do_writes e ws = (map (fun wr => Written (fst wr) (snd wr)) ws, 0).
  Proof.
    induction ws as [|[w r] ws IH]; intros H; cbn; [reflexivity|].
    rewrite (H w r (or_introl eq_refl)). rewrite IH by (intros; apply H; right; assumption). reflexivity.
  Qed.

  (* status 0: everything succeeded, or a broken pipe ended the run silently *)
  Lemma do_creates_zero : forall ps k, snd (do_creates e ps k) = 0 ->
    pipe_broke e \/ do_creates e ps k = (map Create ps ++ fst k, snd k).
  Proof.
    induction ps as [|p ps IH]; intros k H0; cbn in *; [right; destruct k; reflexivity|].
    destruct (e_create e p) eqn:E; [|discriminate H0|left; left; exists p; exact E].
    specialize (IH k). destruct (do_creates e ps k) as [tr c]. destruct (IH H0) as [B|E']; [left; exact B|right].
    inversion E'. reflexivity.
  Qed.
  Lemma do_writes_zero : forall ws, snd (do_writes e ws) = 0 ->
    pipe_broke e \/ do_writes e ws = (map (fun wr => Written (fst wr) (snd wr)) ws, 0).
  Proof.
    induction ws as [|[w r] ws IH]; intros H0; cbn in *; [right; reflexivity|].
    destruct (e_write e w r) eqn:E; [|discriminate H0|left; right; exists w, r; exact E].
    destruct (do_writes e ws) as [tr c]. destruct (IH H0) as [B|E']; [left; exact B|right].
    inversion E'. reflexivity.
  Qed.
  (* any other status: a printer call failed with an io error *)
  Lemma do_writes_failed_or_zero : forall ws,
    snd (do_writes e ws) = 0 \/ exists w r, In (WriteFailed w r) (fst (do_writes e ws)) /\ e_write e w r = IoErr.
  Proof.
    induction ws as [|[w r] ws IH]; cbn; [left; reflexivity|].
    destruct (e_write e w r) eqn:E; [|right; exists w, r; split; [left; reflexivity|exact E]|left; reflexivity].
    destruct (do_writes e ws) as [tr c]. destruct IH as [H0|[w' [r' [A B]]]]; [left; exact H0|right].
    exists w', r'. split; [right; exact A|exact B].
  Qed.
End Effects.

Lemma run_shape : forall f e,
  run f e = match decide f with
            | Rejected UsageConflict => ([Diag Stderr], 2)
            | Rejected _ => do_creates e (opt_list (f_log_file f)) ([Diag Logger], 1)
            | HelpMarkdown => do_creates e (opt_list (f_log_file f)) (do_writes e [(Stdout, HelpDoc)])
            | Plan p => do_creates e (opt_list (f_log_file f)) (exec p e)
            end.
Proof. intros f e. unfold run. destruct (decide f) as [[]| |]; reflexivity. Qed.

(* A run is clap's usage error, or file creations followed by one of: the creation failure that ended them, the logger's
   fatal message, printer calls.  A property of (trace, status) that holds of these holds of every run. *)
Lemma run_ind : forall f e (P : list event * Z -> Prop),
  (1 < group_count f -> P ([Diag Stderr], 2)) -> P ([Diag Logger], 1) -> (forall ws, P (do_writes e ws)) ->
  (forall r, r <> IoOk -> P (io_exit r)) -> (forall p k, P k -> P (Create p :: fst k, snd k)) ->
  P (run f e).
Proof.
  intros f e P Hu Hl Hw Hx Hc.
  assert (C : forall ps k, P k -> P (do_creates e ps k)).
  { induction ps as [|p ps IH]; intros k Hk; cbn [do_creates]; [exact Hk|].
    destruct (e_create e p); [|apply Hx; discriminate..].
    specialize (IH k Hk). destruct (do_creates e ps k) as [tr c]. exact (Hc p _ IH). }
  rewrite run_shape. destruct (decide f) as [[]| |p] eqn:Hd; try (apply C; first [exact Hl|apply Hw]).
  - apply Hu, (rejections f), Hd.
  - apply C. unfold exec. destruct (e_read e); [|exact Hl]. apply C. destruct (_ && _); [exact Hl|apply Hw].
Qed.

Definition code_ok (k : list event * Z) : Prop := snd k = 0 \/ snd k = 1.
Lemma do_writes_code : forall e ws, code_ok (do_writes e ws).
Proof.
  intros e ws. induction ws as [|[w r] ws IH]; cbn; [left; reflexivity|].
  destruct (e_write e w r); cbn; try (unfold code_ok; cbn; auto; fail).
  destruct (do_writes e ws) as [tr c]. exact IH.
Qed.

(* a planned run in an environment without io failures: the file creations, then every planned report *)
Lemma run_plan_ok : forall f e p, clean e -> decide f = Plan p -> e_read e = true ->
  (p_process p = true -> e_process e = true) ->
  run f e = (map Create (opt_list (f_log_file f)) ++ map Create (p_creates p) ++
             map (fun wr => Written (fst wr) (snd wr)) (steps p), 0).
Proof.
  intros f e p [Hc Hw] Hp Hr Hpr. rewrite run_shape, Hp, do_creates_ok by (intros; apply Hc).
  unfold exec. rewrite Hr. cbn [negb]. rewrite do_creates_ok by (intros; apply Hc).
  destruct (p_process p); [rewrite Hpr by reflexivity|]; cbn [andb negb]; rewrite do_writes_ok by (intros; apply Hw); reflexivity.
Qed.

(* a rejected run, whole: clap's usage error; or the log file, if one is given, is created and the logger reports the
   rejection - unless the creation fails, which ends the run with `Error: ..` *)
Lemma rejected_run : forall f e r, decide f = Rejected r -> creates_not_pipe e ->
  run f e = ([Diag Stderr], 2) \/ run f e = ([Diag Logger], 1) \/ run f e = ([Diag Stderr], 1) \/
  exists lp, f_log_file f = Some lp /\ run f e = ([Create lp; Diag Logger], 1).
Proof.
  intros f e r Hr Hnp. rewrite run_shape, Hr. destruct r; [left; reflexivity| |];
    (destruct (f_log_file f) as [lp|]; cbn; [|right; left; reflexivity]; pose proof (Hnp lp) as N;
     destruct (e_create e lp);
     [right; right; right; exists lp; split; reflexivity|right; right; left; reflexivity|contradiction]).
Qed.

(* every non-zero status comes with a diagnostic event *)
Definition diag_if_failed (k : list event * Z) : Prop := snd k <> 0 -> existsb is_diag (fst k) = true.

Lemma do_writes_diag : forall e ws, diag_if_failed (do_writes e ws).
Proof.
  intros e ws. induction ws as [|[w r] ws IH]; cbn; [unfold diag_if_failed; cbn; congruence|].
  destruct (e_write e w r); cbn; try (unfold diag_if_failed; cbn; congruence).
  destruct (do_writes e ws) as [tr c]. exact IH.
Qed.
Lemma failure_has_diag : forall f e, diag_if_failed (run f e).
Proof.
  intros f e. apply run_ind.
  - intros _ _. reflexivity.
  - intros _. reflexivity.
  - apply do_writes_diag.
  - intros [] _; unfold diag_if_failed; cbn; congruence.
  - intros p k H. exact H.
Qed.

(* an io error other than a broken pipe ends the run with status 1 and "Error: .." on stderr *)
Definition err_means_1 (k : list event * Z) : Prop :=
  forall w r, In (WriteFailed w r) (fst k) -> snd k = 0 \/ (snd k = 1 /\ In (Diag Stderr) (fst k)).

Lemma write_error_status : forall e ws w r,
  In (WriteFailed w r) (fst (do_writes e ws)) ->
  (e_write e w r = IoBrokenPipe /\ snd (do_writes e ws) = 0) \/
  (e_write e w r = IoErr /\ snd (do_writes e ws) = 1 /\ In (Diag Stderr) (fst (do_writes e ws))).
Proof.
  intros e ws w r. induction ws as [|[w' r'] ws IH]; cbn; [intros []|].
  destruct (e_write e w' r') eqn:E; cbn.
  - destruct (do_writes e ws) as [tr c]. cbn in *. intros [H|H]; [discriminate H|].
    destruct (IH H) as [[A B]|[A [B C]]]; [left|right]; auto.
  - intros [H|[H|[]]]; [|discriminate H]. inversion H; subst. right. repeat split; auto.
  - intros [H|[]]. inversion H; subst. left. auto.
Qed.

Lemma io_error_status : forall f e w r,
  In (WriteFailed w r) (fst (run f e)) ->
  (e_write e w r = IoBrokenPipe /\ snd (run f e) = 0) \/
  (e_write e w r = IoErr /\ snd (run f e) = 1 /\ In (Diag Stderr) (fst (run f e))).
Proof.
  intros f e w r. pattern (run f e). apply run_ind.
  - intros _ [H|[]]. discriminate H.
  - intros [H|[]]. discriminate H.
  - intro ws. exact (write_error_status e ws w r).
  - intros [] Hr H; [destruct Hr; reflexivity|destruct H as [H|[]]; discriminate H|destruct H].
  - intros p k IH [H|H]; [discriminate H|]. cbn [fst snd].
    destruct (IH H) as [A|[A [B C]]]; [left; exact A|right; repeat split; [exact A|exact B|right; exact C]].
Qed.

(* status 0 means: a plan, a dump that reads and processes, every planned report written - or a broken pipe cut the run short *)
Lemma zero_run : forall f e, f_help_md f = false -> snd (run f e) = 0 ->
  (exists p, decide f = Plan p /\ e_read e = true /\ (p_process p = true -> e_process e = true) /\
             fst (run f e) = map Create (opt_list (f_log_file f)) ++ map Create (p_creates p) ++
                             map (fun wr => Written (fst wr) (snd wr)) (steps p)) \/
  pipe_broke e.
Proof.
  intros f e Hh H0. rewrite run_shape in *.
  destruct (total f) as [[rj Hr]|[[Hm Hm']|[p [Hp _]]]]; [| congruence |]; rewrite ?Hr, ?Hp in *.
  - destruct rj; [discriminate H0| |];
      (destruct (do_creates_zero e _ _ H0) as [B|E]; [right; exact B|rewrite E in H0; discriminate H0]).
  - destruct (do_creates_zero e _ _ H0) as [B|E]; [right; exact B|]. rewrite E in *. cbn [fst snd] in *.
    unfold exec in *. destruct (e_read e); cbn [negb] in *; [|discriminate H0].
    destruct (do_creates_zero e _ _ H0) as [B|E2]; [right; exact B|]. rewrite E2 in *. cbn [fst snd] in *.
    destruct (p_process p && negb (e_process e)) eqn:X; [discriminate H0|].
    destruct (do_writes_zero e _ H0) as [B|E3]; [right; exact B|]. rewrite E3. left. exists p.
    repeat split. intro Hpp. rewrite Hpp in X. destruct (e_process e); [reflexivity|discriminate X].
Qed.

(* where the diagnostic lands: "Error: .." always on standard error; error!(..) wherever the logger
   writes (standard error, or the --log-file), unless --verbose=off silences the logger *)
Definition diag_visible (f : flags) (tr : list event) : Prop :=
  In (Diag Stderr) tr \/ (In (Diag Logger) tr /\ f_verbose_off f = false).

(* the logger's diagnostics are written after the log file was opened successfully: what a run with a log file leaves
   either ends with the creation failure of that file (nothing but `Error: ..`) or starts with its creation *)
Lemma do_creates_head : forall e p ps k ev, In ev (fst (do_creates e (p :: ps) k)) ->
  ev = Diag Stderr \/ In (Create p) (fst (do_creates e (p :: ps) k)).
Proof.
  intros e p ps k ev. cbn [do_creates]. destruct (e_create e p); cbn [io_exit fst].
  - destruct (do_creates e ps k) as [tr c]. intros _. right. left. reflexivity.
  - intros [H|[]]. left. symmetry. exact H.
  - intros [].
Qed.
Lemma logger_diag_after_log_open : forall f e lp, f_log_file f = Some lp ->
  In (Diag Logger) (fst (run f e)) -> In (Create lp) (fst (run f e)).
Proof.
  intros f e lp Hl Hin. rewrite run_shape in *. rewrite Hl in *. cbn [opt_list] in *.
  destruct (decide f) as [[]| |p];
    try (destruct (do_creates_head _ _ _ _ _ Hin) as [H|H]; [discriminate H|exact H]).
  destruct Hin as [H|[]]. discriminate H.
Qed.

(* bytes are present on sink [w] after the run: a complete report, or the prefix a failing printer call left *)
Definition sink_dirty (e : env) (w : writer) (tr : list event) : Prop :=
  exists r, In (Written w r) tr \/ (In (WriteFailed w r) tr /\ e_partial e w r = true).

(* an io error (not a broken pipe) hit a printer call after report bytes had been streamed: either that
   very call had already written a prefix, or an earlier report was complete on the primary output *)
Definition midreport_io_error (f : flags) (e : env) : Prop :=
  exists w r, In (WriteFailed w r) (fst (run f e)) /\ e_write e w r = IoErr /\
              (e_partial e w r = true \/ exists r0, In (Written (writer_of f) r0) (fst (run f e))).

(* a failing run in which no printer call failed renders nothing anywhere — whatever else the
   environment does (creation failures, read errors, processing errors) *)
Lemma no_failed_call_no_report : forall f e, snd (run f e) <> 0 ->
  (forall w r, ~ In (WriteFailed w r) (fst (run f e))) ->
  existsb is_render (fst (run f e)) = false.
Proof.
  intros f e. pattern (run f e). apply run_ind; try (intros; reflexivity).
  - intros ws Hne Hnf. destruct (do_writes_failed_or_zero e ws) as [H0|[w [r [Hf _]]]]; [contradiction|destruct (Hnf w r Hf)].
  - intros [] _ _ _; reflexivity.
  - intros p k IH Hne Hnf. apply IH; [exact Hne|]. intros w r H. apply (Hnf w r). right. exact H.
Qed.

(* bytes on the primary output of a failing run: only through a mid-report io error *)
Lemma dirty_primary_only_midreport : forall f e, snd (run f e) <> 0 ->
  sink_dirty e (writer_of f) (fst (run f e)) -> midreport_io_error f e.
Proof.
  intros f e. unfold midreport_io_error. generalize (writer_of f) as W. intro W. pattern (run f e). apply run_ind.
  - intros _ _ [r [H|[H _]]]; destruct H as [H|[]]; discriminate H.
  - intros _ [r [H|[H _]]]; destruct H as [H|[]]; discriminate H.
  - intros ws Hne [r [Hw|[Hf Hp]]].
    + destruct (do_writes_failed_or_zero e ws) as [H0|[w' [r' [Hf' He']]]]; [contradiction|].
      exists w', r'. split; [exact Hf'|]. split; [exact He'|]. right. exists r. exact Hw.
    + exists W, r. split; [exact Hf|]. split; [|left; exact Hp].
      destruct (write_error_status e ws W r Hf) as [[_ H0]|[He _]]; [contradiction|exact He].
  - intros [] _ _ [r [H|[H _]]]; cbn in H; try (destruct H as [H|[]]; discriminate H); destruct H.
  - intros p k IH Hne [r Hd].
    assert (Hd' : sink_dirty e W (fst k)).
    { exists r. destruct Hd as [[H|H]|[[H|H] Hp]]; try discriminate H; [left|right; split]; assumption. }
    destruct (IH Hne Hd') as [w' [r' [A [B C]]]]. exists w', r'. split; [right; exact A|]. split; [exact B|].
    destruct C as [C|[r0 C]]; [left; exact C|right; exists r0; right; exact C].
Qed.

(* two runs with status 1 and report bytes on the primary output: the cyborg file fails after the complete human report on
   standard output; a single JSON report fails after a prefix reached the output file *)
Lemma midreport_witnesses :
  (exists f e, accepted f /\ snd (run f e) = 1 /\ (forall w r, e_partial e w r = false) /\
               In (Written (writer_of f) Human) (fst (run f e))) /\
  (exists f e, accepted f /\ snd (run f e) = 1 /\ f_cyborg f = None /\
               sink_dirty e (writer_of f) (fst (run f e))).
Proof.
  split.
  - exists {| f_human := false; f_json := false; f_cyborg := Some 2; f_dump := false; f_help_md := false;
              f_pretty := false; f_brief := false; f_features := StableBasic; f_recover := false;
              f_output_file := None; f_log_file := None; f_verbose_off := false |}.
    exists {| e_create := fun _ => IoOk; e_read := true; e_process := true;
              e_write := fun w _ => match w with Stdout => IoOk | File _ => IoErr end;
              e_partial := fun _ _ => false |}.
    split; [split; [vm_compute; discriminate|reflexivity]|]. split; [reflexivity|]. split; [reflexivity|].
    vm_compute. right. left. reflexivity.
  - exists {| f_human := false; f_json := true; f_cyborg := None; f_dump := false; f_help_md := false;
              f_pretty := false; f_brief := false; f_features := StableBasic; f_recover := false;
              f_output_file := Some 1; f_log_file := None; f_verbose_off := false |}.
    exists {| e_create := fun _ => IoOk; e_read := true; e_process := true;
              e_write := fun _ _ => IoErr; e_partial := fun _ _ => true |}.
    split; [split; [vm_compute; discriminate|reflexivity]|]. split; [reflexivity|]. split; [reflexivity|].
    exists (Json false). right. split; [vm_compute; right; left; reflexivity|reflexivity].
Qed.
