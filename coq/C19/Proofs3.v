(* C19/Proofs3.v — the function bodies compiled from the source (Gen.C19Src, executed by C19/Source.v)
   (1) satisfy the property clauses for ANY body inside the translator's grammar that passes two checkable side
       conditions (try_gen_sound / try_gen_none_when_accessible), and
   (2) are, for the source as it is, equal to the hand-written model of Model.v / Pipeline.v (…_src_refines). *)
From Flocq Require Import IEEE754.Bits.
From RM Require Import C19.Source C19.Proofs C19.Proofs2.
From Coq Require Import Lia.
Open Scope Z_scope.

(* (1) any try_bit_flips body in the grammar *)
Section Gen.
  Context {R F : Type}.
  Variable early : list tguard.
  Variable items : list (list tguard).
  Variable lookup : Z -> option R.
  Variable allowed : R -> bool.
  Variable mk : Z -> Z -> F.

  Definition mapped_allowed (x : Z) : Prop := exists mi, lookup x = Some mi /\ allowed mi = true.

  Lemma guard_mapped x : guard_holds lookup allowed TgMapped x = true <-> mapped_allowed x.
  Proof.
    unfold mapped_allowed. cbn. destruct (lookup x) as [mi|].
    - split; [eauto|intros [m [[= <-] H]]; exact H].
    - split; [discriminate|intros [m [[=] _]]].
  Qed.

  Lemma guard_ok_holds : forall g x,
    (match g with TgEq k => k =? 0 | TgMapped => true end) = true ->
    guard_holds lookup allowed g x = true -> x = 0 \/ mapped_allowed x.
  Proof. intros [k|] x Hok Hh; [left; cbn in Hh; lia|right; apply guard_mapped, Hh]. Qed.

  Lemma in_item_out a pa chain f :
    In f (item_out lookup allowed mk a pa chain) <->
    f = mk a pa /\ exists g, In g chain /\ guard_holds lookup allowed g pa = true.
  Proof. unfold item_out. rewrite <- existsb_exists. destruct (existsb _ chain); cbn; intuition congruence. Qed.

  Lemma in_try_loop n : forall i a f,
    In f (try_loop items lookup allowed mk n i a) <->
    exists j, i <= j < i + Z.of_nat n /\ f = mk a (Z.lxor a (2 ^ j)) /\
              exists chain g, In chain items /\ In g chain /\ guard_holds lookup allowed g (Z.lxor a (2 ^ j)) = true.
  Proof.
    induction n as [|n IH]; intros i a f; cbn [try_loop].
    - split; [intros []|intros [j [Hj _]]; lia].
    - rewrite in_app_iff, in_flat_map, IH. split.
      + intros [[chain [Hc Hf]]|[j [Hj H]]]; [|exists j; split; [lia|exact H]].
        apply in_item_out in Hf. destruct Hf as [Hf [g Hg]]. exists i. split; [lia|]. split; [exact Hf|]. exists chain, g. tauto.
      + intros [j [Hj [Hf [chain [g [Hc Hg]]]]]]. destruct (Z.eq_dec j i) as [->|Hne].
        * left. exists chain. split; [exact Hc|]. apply in_item_out. split; [exact Hf|]. exists g. exact Hg.
        * right. exists j. split; [lia|]. split; [exact Hf|]. exists chain, g. tauto.
  Qed.

  (* every reported candidate is the examined value with ONE bit of lo..hi flipped, and is 0 or mapped with the access allowed *)
  Theorem try_gen_sound : items_ok items = true -> forall a lo hi f,
    In f (try_gen early items lookup allowed mk a lo hi) ->
    exists j, lo <= j < hi /\ f = mk a (Z.lxor a (2 ^ j)) /\
              (Z.lxor a (2 ^ j) = 0 \/ mapped_allowed (Z.lxor a (2 ^ j))).
  Proof.
    intros Hok a lo hi f H. unfold try_gen in H.
    destruct (existsb (fun g => guard_holds lookup allowed g a) early); [contradiction|].
    apply in_try_loop in H. destruct H as [j [Hj [Hf [chain [g [Hc [Hg Hh]]]]]]].
    exists j. split; [lia|]. split; [exact Hf|].
    unfold items_ok in Hok. rewrite forallb_forall in Hok. specialize (Hok chain Hc).
    rewrite forallb_forall in Hok. specialize (Hok g Hg).
    eapply guard_ok_holds; eauto.
  Qed.

  (* nothing is reported for an examined value that is itself mapped with the access allowed *)
  Theorem try_gen_none_when_accessible : early_ok early = true -> forall a lo hi,
    mapped_allowed a -> try_gen early items lookup allowed mk a lo hi = [].
  Proof.
    intros Hok a lo hi Ha. unfold try_gen.
    replace (existsb (fun g => guard_holds lookup allowed g a) early) with true; [reflexivity|].
    symmetry. unfold early_ok in Hok. apply existsb_exists in Hok. destruct Hok as [g [Hg Hm]].
    apply existsb_exists. exists g. split; [exact Hg|]. destruct g; [discriminate|]. apply guard_mapped, Ha.
  Qed.

  (* completeness: if some item carries the lookup + permission guard and some item the `== 0` guard, and every early exit
     is the lookup + permission test, then every qualifying neighbour of an inaccessible examined value IS reported *)
  Theorem try_gen_complete : items_complete items = true -> early_only_mapped early = true ->
    forall a lo hi j, lo <= j < hi -> ~ mapped_allowed a ->
    (Z.lxor a (2 ^ j) = 0 \/ mapped_allowed (Z.lxor a (2 ^ j))) ->
    In (mk a (Z.lxor a (2 ^ j))) (try_gen early items lookup allowed mk a lo hi).
  Proof.
    intros Hic Heo a lo hi j Hj Hna Hq. unfold try_gen.
    replace (existsb (fun g => guard_holds lookup allowed g a) early) with false.
    2:{ symmetry. apply not_true_is_false. intro E. apply existsb_exists in E. destruct E as [g [Hg Hh]].
        unfold early_only_mapped in Heo. rewrite forallb_forall in Heo. specialize (Heo g Hg).
        destruct g; [discriminate|]. apply Hna, guard_mapped, Hh. }
    apply in_try_loop. exists j. split; [lia|]. split; [reflexivity|].
    unfold items_complete in Hic. apply andb_true_iff in Hic. destruct Hic as [Hm Hz].
    destruct Hq as [Hq|Hq]; [apply existsb_exists in Hz; destruct Hz as [chain [Hc Hk]]|apply existsb_exists in Hm; destruct Hm as [chain [Hc Hk]]];
      apply existsb_exists in Hk; destruct Hk as [g [Hg Hk]]; exists chain, g; (split; [exact Hc|]); (split; [exact Hg|]).
    - destruct g as [k|]; [|discriminate]. cbn. lia.
    - destruct g; [discriminate|]. apply guard_mapped, Hq.
  Qed.
End Gen.

(* (2) the source as it is = the hand-written model *)
Lemma is_repeated_src_refines : forall rs a, is_repeated_src rs a = is_repeated rs a.
Proof.
  intros rs a. unfold is_repeated_src, is_repeated, G_REPEAT, REPEAT_MUL_2, REPEAT_MUL_4, REPEAT_MUL_8.
  cbn [find fst snd].
  rewrite (Z.eqb_sym 2 rs), (Z.eqb_sym 4 rs), (Z.eqb_sym 8 rs).
  destruct (rs =? 2); [reflexivity|]. destruct (rs =? 4); [reflexivity|]. destruct (rs =? 8); reflexivity.
Qed.

Lemma is_poison_byte_src_refines : forall b, is_poison_byte_src b = is_poison_byte b.
Proof. reflexivity. Qed.

Lemma existsb_pointwise {A} (f g : A -> bool) : (forall a, f a = g a) -> forall l, existsb f l = existsb g l.
Proof. intros H l. induction l as [|x l IH]; simpl; [reflexivity|]. rewrite H, IH. reflexivity. Qed.

Lemma fold_regs : forall (fn : Z -> bool) (fp : Z -> bool) (fb : Z -> bool) regs n p,
  fold_left (fun (st : Z * bool) addr =>
               (if fn addr then fst st + 1 else fst st,
                if negb (snd st) && fp addr then (if fb (Z.land addr 255) then true else snd st) else snd st))
            regs (n, p)
  = (n + Z.of_nat (length (filter fn regs)), p || existsb (fun a => fp a && fb (Z.land a 255)) regs).
Proof.
  induction regs as [|r regs IH]; intros n p; simpl.
  - rewrite Z.add_0_r, orb_false_r. reflexivity.
  - rewrite IH. f_equal.
    + destruct (fn r); simpl length; lia.
    + destruct p, (fp r), (fb (Z.land r 255)); simpl; reflexivity.
Qed.

Lemma heuristics_src_refines : forall new orig nc ctx, heuristics_src new orig nc ctx = heuristics new orig nc ctx.
Proof.
  intros new orig nc [[rs regs]|]; unfold heuristics_src, heuristics, g_h_is_null, g_h_was_low, g_h_nc, g_h_calc,
    g_h_nearby, g_h_poison_try; [|reflexivity].
  rewrite (fold_regs (fun addr => (new >? LOW_ADDRESS_CUTOFF) && (Z.abs (new - addr) <=? NEARBY_REGISTER_DISTANCE))
                     (is_repeated_src rs) is_poison_byte_src).
  cbn [fst snd]. f_equal.
  - destruct (new >? LOW_ADDRESS_CUTOFF); cbn [andb]; [reflexivity|]. induction regs; auto.
  - apply existsb_pointwise. intro a. rewrite is_repeated_src_refines. reflexivity.
Qed.

(* `self.details.nearby_registers += 1` (u32) cannot overflow whatever the compiled tests are: at most one increment per register *)
Lemma fold_count_bound : forall (fn : Z -> bool) (fp : bool -> Z -> bool) regs n p,
  let st := fold_left (fun (st : Z * bool) addr => (if fn addr then fst st + 1 else fst st, fp (snd st) addr)) regs (n, p) in
  n <= fst st <= n + Z.of_nat (length regs).
Proof.
  induction regs as [|r regs IH]; intros n p; cbn [fold_left length]; [cbn [fst]; lia|].
  cbn [fst snd]. specialize (IH (if fn r then n + 1 else n) (fp p r)). cbv zeta in IH.
  destruct (fn r); rewrite Nat2Z.inj_succ; lia.
Qed.

Lemma mk_flip_src_refines : forall reg br ctx a pa, mk_flip_src reg br ctx a pa = mk_flip a pa reg (br_of br) ctx.
Proof.
  intros. unfold mk_flip_src, mk_flip. rewrite heuristics_src_refines.
  change TRY_ORIG_IS_ADDRESS with true. cbn iota. destruct br; reflexivity.
Qed.

Lemma try_loop_refines : forall n i a reg br ctx rs op,
  try_loop TRY_ITEMS (lookup_region rs) (possibly_allowed op) (mk_flip_src reg br ctx) n i a
  = flips_loop n i a reg (br_of br) ctx rs op.
Proof.
  induction n as [|n IH]; intros; [reflexivity|].
  cbn [try_loop flips_loop]. rewrite IH. unfold TRY_ITEMS. cbn [flat_map]. unfold item_out. cbn [existsb guard_holds].
  rewrite !orb_false_r, app_nil_r, <- app_assoc, !mk_flip_src_refines. f_equal. f_equal.
  destruct (lookup_region rs (Z.lxor a (2 ^ i))) as [mi|]; [|reflexivity]. reflexivity.
Qed.

Theorem try_src_refines : forall a reg br ctx rs op,
  try_bit_flips_src a reg br ctx rs op = try_bit_flips a reg (br_of br) ctx rs op.
Proof.
  intros. unfold try_bit_flips_src, try_bit_flips, try_gen, TRY_EARLY. cbn [existsb guard_holds].
  rewrite orb_false_r.
  destruct (br_bounds (br_of br)) as [lo hi]. cbn [fst snd].
  destruct (lookup_region rs a) as [mi|].
  - destruct (possibly_allowed op mi); [reflexivity|apply try_loop_refines].
  - apply try_loop_refines.
Qed.

Lemma g_check_ext : forall (F : Type) (t1 t2 : Z -> option Z -> gbr -> list F),
  (forall a r b, t1 a r b = t2 a r b) -> forall c address adj hc iregs,
  g_check t1 c address adj hc iregs = g_check t2 c address adj hc iregs.
Proof.
  intros F t1 t2 H c address adj hc iregs. unfold g_check.
  destruct (g_gate c address); [reflexivity|].
  destruct (g_select c address adj) as [[a br]|]; [|reflexivity].
  rewrite H. f_equal. destruct hc; [|reflexivity].
  induction iregs as [|rv l IH]; simpl; [reflexivity|]. rewrite H, IH. reflexivity.
Qed.

Theorem check_src2_refines : forall c address adj op ctx iregs rs,
  check_src2 c address adj op ctx iregs rs = check_src c address adj op ctx iregs rs.
Proof. intros. unfold check_src2, check_src. apply g_check_ext. intros. apply try_src_refines. Qed.

(* the compiled crash reason keeps the macOS exception type; the model's has only the one the GPF test asks for *)
Definition reason_class (g : greason) : reason :=
  match g with
  | GRWindowsAccessViolation k => RWinAccessViolation k
  | GRMacBadAccessX86 ty => if ty =? MAC_EXC_I386_GPFLT then RMacBadAccessX86Gpflt else ROther
  | GRLinuxGeneral s c => RLinuxGeneral s c
  | GROther => ROther
  end.

Lemma reason_of_class : forall c o code flags nparams info0,
  reason_of c o code flags nparams info0 = reason_class (greason_of c o code flags nparams info0).
Proof.
  intros. unfold greason_of, reason_of, g_win_av_guard. rewrite Z.geb_leb.
  destruct (g_reason_family o =? 0).
  { destruct ((code =? WIN_EXCEPTION_ACCESS_VIOLATION) && (1 <=? nparams) && existsb (Z.eqb info0) WIN_ACCESS_TYPES); reflexivity. }
  destruct (g_reason_family o =? 1).
  { destruct ((code =? MAC_EXC_BAD_ACCESS) && negb (existsb (Z.eqb flags) MAC_BAD_ACCESS_KERN_TYPES) && (gcpu_eqb c GX86 || gcpu_eqb c GX86_64));
      cbn [andb]; [|reflexivity].
    (* GPFLT is one of the x86 types *)
    destruct (flags =? MAC_EXC_I386_GPFLT) eqn:E; [apply Z.eqb_eq in E; subst flags; reflexivity|].
    destruct (existsb (Z.eqb flags) MAC_BAD_ACCESS_X86_TYPES); cbn [reason_class]; [rewrite E|]; reflexivity. }
  destruct (g_reason_family o =? 2); [|reflexivity].
  destruct ((code =? LINUX_SIGSEGV) && negb (existsb (Z.eqb flags) LINUX_SIGSEGV_KINDS)); [reflexivity|].
  destruct ((code =? LINUX_SIGBUS) && negb (existsb (Z.eqb flags) LINUX_SIGBUS_KINDS)); reflexivity.
Qed.

Lemma memop_class : forall g, memop_of_greason g = memop_of_reason (reason_class g).
Proof. intros [k|ty|s c|]; try reflexivity. cbn. destruct (ty =? MAC_EXC_I386_GPFLT); reflexivity. Qed.

Lemma gpf_class : forall o g a, g_gpf o g a = is_gpf (os_class o) (reason_class g) a.
Proof.
  intros o g a.
  destruct o, g as [ty|ty|sig code|]; try reflexivity; unfold g_gpf;
    cbn [gosx_eqb gosx_tag Z.eqb Pos.eqb andb greason_matches opt_matches reason_class is_gpf os_class];
    try (destruct (ty =? MAC_EXC_I386_GPFLT); reflexivity).
  - change WIN_ACCESS_READ with 0. change (two64 - 1) with 18446744073709551615.
    destruct (ty =? 0), (a =? 18446744073709551615); reflexivity.
  - change MAC_EXC_I386_GPFLT with 13. destruct (ty =? 13), (a =? 0); reflexivity.
  - change LINUX_SIGSEGV with 11. change LINUX_SIGBUS with 7. change LINUX_SI_KERNEL with 128.
    destruct (sig =? 11), (sig =? 7), (code =? 128), (a =? 0); reflexivity.
Qed.

Lemma memop_src_refines : forall c o code flags nparams info0,
  memop_of_greason (greason_of c o code flags nparams info0) = memop_of_reason (reason_of c o code flags nparams info0).
Proof. intros. rewrite reason_of_class. apply memop_class. Qed.

Lemma gpf_src_refines : forall c o code flags nparams info0 a,
  g_gpf o (greason_of c o code flags nparams info0) a
  = is_gpf (os_class o) (reason_of c o code flags nparams info0) a.
Proof. intros. rewrite reason_of_class. apply gpf_class. Qed.

Lemma crash_address_src_refines : forall c o code nparams info0 info1 excaddr,
  g_crash_address c o code nparams (fun k => if k =? 0 then info0 else if k =? 1 then info1 else 0) excaddr
  = crash_address c o code nparams info1 excaddr.
Proof.
  intros. unfold g_crash_address, crash_address.
  change WIN_EXCEPTION_ACCESS_VIOLATION with 3221225477. change WIN_EXCEPTION_IN_PAGE_ERROR with 3221225478.
  rewrite Z.geb_leb.
  destruct o; cbn [gosx_eqb gosx_tag Z.eqb andb orb]; reflexivity.
Qed.

Lemma detect_null_src_refines : forall addrs, detect_null_src addrs = detect_null addrs.
Proof. intros [l|]; reflexivity. Qed.

Lemma non_canonical_src_refines : forall c os r address addrs gpf,
  gpf = is_gpf os r address ->
  non_canonical_src c gpf addrs = non_canonical c os r address addrs.
Proof.
  intros c os r address addrs gpf ->. unfold non_canonical_src, non_canonical, g_nc_gates. cbn [existsb].
  destruct (negb (gcpu_eqb c GX86_64)); [reflexivity|]. cbn [orb].
  destruct (negb (is_gpf os r address)); [reflexivity|]. cbn [orb].
  destruct addrs as [l|]; reflexivity.
Qed.

Theorem adjusted_src_refines : forall c o code flags nparams info0 address oa,
  adjusted_src c o (greason_of c o code flags nparams info0) address oa
  = adjusted_of c (os_class o) (reason_of c o code flags nparams info0) address oa.
Proof.
  intros. unfold adjusted_src, adjusted_of. destruct oa as [oa|]; [|reflexivity].
  unfold G_ADJ_ORDER. cbn [fold_right Z.eqb].
  rewrite detect_null_src_refines.
  rewrite (non_canonical_src_refines c (os_class o) (reason_of c o code flags nparams info0) address);
    [|apply gpf_src_refines].
  destruct (detect_null (oa_addresses oa)); [reflexivity|]. cbn [option_map].
  destruct (non_canonical c (os_class o) (reason_of c o code flags nparams info0) address (oa_addresses oa)); reflexivity.
Qed.

Lemma operand_address_src_refines : forall pc m, operand_address_src pc m = operand_address pc m.
Proof.
  intros pc m. unfold operand_address_src, operand_address, g_op_base_null, g_op_index_null, G_OP_INIT, G_OP_DEFAULT_SCALE, G_OP_DEFAULT_DISP.
  destruct (mo_base m) as [b|]; [destruct (get_register pc b) as [v|]|]; cbn [option_map]; try reflexivity;
    (destruct (mo_index m) as [i|]; [destruct (get_register pc i) as [w|]|]); cbn [option_map]; rewrite ?orb_false_r; reflexivity.
Qed.

Lemma implicit_access_src_refines : forall k pc,
  (forall v, get_register pc RSP_ID = Some v -> 0 <= v < two64) ->
  implicit_access_src k pc = implicit_access k pc.
Proof.
  intros k pc H. unfold implicit_access_src, implicit_access, plain_info, g_implicit_null, G_IMPLICIT_PUSHCALL_OFF, G_IMPLICIT_POPRET_OFF.
  destruct k; [reflexivity| |]; destruct (get_register pc RSP_ID) as [v|]; try reflexivity.
  rewrite Z.add_0_r. unfold wrap64. rewrite Z.mod_small by (apply H; reflexivity). reflexivity.
Qed.

Lemma ip_of_src_refines : forall k pc, ip_of_src k pc = ip_of k pc.
Proof. intros [| |id|v] pc; reflexivity. Qed.

Lemma instr_regs_src_refines : forall ops, instr_regs_src ops = instr_regs ops.
Proof. reflexivity. Qed.

Lemma analyze_dinstr_src_refines : forall di pc,
  (forall v, get_register pc RSP_ID = Some v -> 0 <= v < two64) ->
  analyze_dinstr_src di pc = analyze_dinstr di pc.
Proof.
  intros di pc H. unfold analyze_dinstr_src, analyze_dinstr, explicit_accesses.
  rewrite ip_of_src_refines, implicit_access_src_refines, instr_regs_src_refines by exact H.
  rewrite (map_ext _ _ (operand_address_src_refines pc)). reflexivity.
Qed.

Lemma region_of_info_src_refines : forall base size prot, region_of_info_src base size prot = region_of_info base size prot.
Proof.
  intros. unfold region_of_info_src, region_of_info, prot_src, prot_r, prot_w, prot_x.
  rewrite <- !Z.land_assoc.
  change (Z.land G_PROT_KNOWN G_PROT_R_MASK) with 102. change (Z.land G_PROT_KNOWN G_PROT_W_MASK) with 204.
  change (Z.land G_PROT_KNOWN G_PROT_X_MASK) with 240. reflexivity.
Qed.

Lemma regions_of_info_src_refines : forall l, regions_of_info_src l = regions_of_info l.
Proof. intros l. apply map_ext. intros [[a b] p]. apply region_of_info_src_refines. Qed.

Section Dump.
  Variable analysis : pcontext -> option op_analysis.

  Lemma src_address_refines : forall arch pid e, src_address arch pid e = dump_address arch pid e.
  Proof. intros. unfold src_address, dump_address, dump_cpu, dump_os, info_of. apply crash_address_src_refines. Qed.

  Theorem dump_adj_src_refines : forall arch pid e pc, dump_adj_src analysis arch pid e pc = dump_adj analysis arch pid e pc.
  Proof.
    intros. unfold dump_adj_src, dump_adj, pipeline_adj, src_reason, dump_reason, dump_cpu, dump_os.
    rewrite src_address_refines. apply adjusted_src_refines.
  Qed.

  Theorem dump_pipeline_src_refines : forall arch pid e pc rs,
    dump_pipeline_src analysis arch pid e pc rs = dump_pipeline analysis arch pid e pc rs.
  Proof.
    intros. unfold dump_pipeline_src, dump_pipeline, pipeline. rewrite check_src2_refines.
    fold (dump_adj analysis arch pid e pc). rewrite dump_adj_src_refines, src_address_refines.
    unfold src_reason, dump_reason, dump_cpu, dump_os. rewrite memop_src_refines. reflexivity.
  Qed.
End Dump.

(* the body as it is in the source passes the side conditions of (1) *)
Lemma try_side_conditions : items_ok TRY_ITEMS = true /\ early_ok TRY_EARLY = true /\
                            items_complete TRY_ITEMS = true /\ early_only_mapped TRY_EARLY = true.
Proof. repeat split; reflexivity. Qed.
