(* C19/Properties.v — the property theorems, each with its full statement, a short proof from the lemmas of
   Proofs.v / Proofs2.v / Proofs3.v (an instance, or a few lines) and its Print Assumptions, and the non-vacuity examples.
   First the hand-written model (Model.v, Pipeline.v): try_bit_flips, check_for_bitflips, the pipeline from the exception
   record, the raw records of the dump, and the property clause by clause (c19_the_property, c19_the_property_maps).
   Then the function bodies compiled from the Rust source (Source.v over Gen.C19Src): any body in the translator's
   grammar, compiled = model for every function on the path, and the property again for the compiled path
   (c19_the_property_src, c19_the_property_maps_src). *)
From Flocq Require Import IEEE754.Bits.
From Coq Require Import Lia Sorting.Sorted.
From RM Require Import C08.Proofs C19.Model C19.Proofs C19.Pipeline C19.Proofs2 C19.Source C19.Proofs3.
Open Scope Z_scope.

(* Every reported flip differs from the examined value in exactly one bit inside the
   platform's bit range, is null or lies in a mapped region permitting the access, and
   carries the source register it was derived from. *)
Theorem c19_one_bit_in_range : forall a reg br ctx rs op f,
  In f (try_bit_flips a reg br ctx rs op) ->
  exists j, br_lo br <= j < br_hi br /\ 0 <= br_lo br /\ br_hi br <= 64 /\
            f_addr f = Z.lxor a (2 ^ j) /\
            (forall k, 0 <= k -> Z.testbit (f_addr f) k = xorb (Z.testbit a k) (j =? k)).
Proof.
  intros a reg br ctx rs op f H. destruct (try_bit_flips_ok _ _ _ _ _ _ _ H) as [[j [Hj Hf]] _].
  pose proof (br_bounds_in_64 br). exists j. rewrite Hf. repeat split; try lia. intros k Hk. apply lxor_pow2_bit; lia.
Qed.
Print Assumptions c19_one_bit_in_range.

Theorem c19_flip_is_u64 : forall a reg br ctx rs op f,
  0 <= a < two64 -> In f (try_bit_flips a reg br ctx rs op) -> 0 <= f_addr f < two64.
Proof.
  intros a reg br ctx rs op f Ha H. destruct (try_bit_flips_ok _ _ _ _ _ _ _ H) as [[j [Hj Hf]] _].
  pose proof (br_bounds_in_64 br). rewrite Hf. apply lxor_pow2_u64; [exact Ha|lia].
Qed.
Print Assumptions c19_flip_is_u64.

Theorem c19_null_or_mapped_allowed : forall a reg br ctx rs op f,
  wf_regions rs -> In f (try_bit_flips a reg br ctx rs op) ->
  f_addr f = 0 \/
  exists mi r, In mi rs /\ rg_range mi = Some r /\ contains r (f_addr f) = true /\ possibly_allowed op mi = true.
Proof.
  intros a reg br ctx rs op f Hwf H. apply in_try_bit_flips in H. destruct H as [_ [j [_ [Hq ->]]]].
  exact (qualifies_mapped _ _ _ Hwf Hq).
Qed.
Print Assumptions c19_null_or_mapped_allowed.

Theorem c19_none_when_accessible : forall a reg br ctx rs op mi,
  lookup_region rs a = Some mi -> possibly_allowed op mi = true ->
  try_bit_flips a reg br ctx rs op = [].
Proof. exact none_when_accessible. Qed.
Print Assumptions c19_none_when_accessible.

(* whole check: which value each flip was derived from, its bit range by platform *)
Theorem c19_check_examined : forall c address adj op ctx iregs rs f,
  In f (check_for_bitflips c address adj op ctx iregs rs) ->
  exists a, examined c address adj ctx iregs f a /\
            flip_ok a (f_reg f) rs op (br_lo (expected_br c adj)) (br_hi (expected_br c adj)) f.
Proof.
  intros c address adj op ctx iregs rs f H. apply in_check in H. destruct H as [a [He H]].
  exists a. split; [exact He|exact (try_bit_flips_ok _ _ _ _ _ _ _ H)].
Qed.
Print Assumptions c19_check_examined.

(* none for 32-bit dumps, ARM64 dumps, or a recognised null pointer plus offset *)
Theorem c19_none_32bit_arm64_nulloffset : forall c address adj op ctx iregs rs,
  c = Cpu32 \/ c = CpuArm64 \/ adj = AdjNullOffset ->
  check_for_bitflips c address adj op ctx iregs rs = [].
Proof. exact gating_none. Qed.
Print Assumptions c19_none_32bit_arm64_nulloffset.

(* none when the examined address and registers are themselves accessible *)
Theorem c19_check_none_when_accessible : forall c address op ctx iregs rs mi,
  (forall rid v, In (rid, v) iregs -> exists m, lookup_region rs v = Some m /\ possibly_allowed op m = true) ->
  lookup_region rs address = Some mi -> possibly_allowed op mi = true ->
  check_for_bitflips c address AdjNone op ctx iregs rs = [].
Proof. exact gating_accessible. Qed.
Print Assumptions c19_check_none_when_accessible.

(* 0 <= confidence <= 1 in binary32, for every details value (any register count) *)
Theorem c19_confidence_01 : forall d : details,
  le_b32 (f32 0) (confidence d) = true /\ le_b32 (confidence d) (f32 F32_ONE_bits) = true.
Proof. exact confidence_01. Qed.
Print Assumptions c19_confidence_01.

(* NEARBY_REGISTER[nearby]: guard and index expression are REGENERATED from confidence() on every run
   (Gen.C19Check.NEARBY_GUARD / NEARBY_INDEX); for every count that passes the guard the index is inside
   the table: no usize underflow, no index panic *)
Theorem c19_confidence_index_ok : forall n, NEARBY_GUARD n = true ->
  0 <= NEARBY_INDEX (Z.of_nat (length NEARBY_REGISTER_c)) n < Z.of_nat (length NEARBY_REGISTER_c) /\
  nth_index NEARBY_REGISTER_c (NEARBY_INDEX (Z.of_nat (length NEARBY_REGISTER_c)) n) <> None.
Proof.
  unfold NEARBY_GUARD, NEARBY_INDEX, nth_index. rewrite nearby_len. intros n Hn.
  split; [lia|]. destruct (Z.min n 4 - 1 <? 0) eqn:E; [lia|].
  apply nth_error_Some. change (length NEARBY_REGISTER_c) with 4%nat. lia.
Qed.
Print Assumptions c19_confidence_index_ok.

(* the platform bit ranges (amd64 canonical addresses are 48 bits wide); the constants are
   regenerated from processor.rs on every run, so an edited range breaks this obligation *)
Theorem c19_platform_ranges :
  BR_ALL = (0, 64) /\ BR_CANONICAL = (0, 48) /\ BR_NONCANONICAL = (48, 64).
Proof. repeat split; reflexivity. Qed.
Print Assumptions c19_platform_ranges.

(* check_for_bitflips as REGENERATED from processor.rs (gates, adjusted-address arms, address pass then
   register pass; Gen.C19Check.g_check) is the hand-written model on the 4 behaviour classes; an edited
   gate / arm / bit range changes Gen/C19Check.v and breaks this obligation *)
Theorem c19_check_src_refines : forall c address adj op ctx iregs rs,
  check_src c address adj op ctx iregs rs =
  check_for_bitflips (cpu_class c) address (adj_class adj) op ctx iregs rs.
Proof. exact check_src_refines. Qed.
Print Assumptions c19_check_src_refines.

(* platform gating, every Cpu variant and every crash address: nothing unless the pointer width is 64
   bits, nothing for Arm64 — whatever the adjusted address, context, instruction registers and map *)
Theorem c19_none_platform : forall c address adj op ctx iregs rs,
  pointer_width c <> WBits64 \/ c = GArm64 ->
  check_src c address adj op ctx iregs rs = [].
Proof. exact none_platform. Qed.
Print Assumptions c19_none_platform.

(* ... on MINIDUMP_SYSTEM_INFO.processor_architecture (Cpu::from_processor_architecture and the numeric
   values are regenerated): only AMD64 (9), PPC64 (0x8002) and MIPS64 (0x8004) can ever yield a flip;
   ARM64 (12), ARM64_OLD (0x8003), every 32-bit and every unknown value never do — for every os, reason,
   crash address, context, instruction analysis and map *)
Theorem c19_none_platform_arch : forall analysis arch os r address pc rs,
  ~ (arch = 9 \/ arch = 32770 \/ arch = 32772) ->
  pipeline analysis (cpu_of_arch arch) os r address pc rs = [].
Proof. exact none_platform_arch. Qed.
Print Assumptions c19_none_platform_arch.

Theorem c19_arch_arm64 : forall arch, cpu_of_arch arch = GArm64 <-> (arch = 12 \/ arch = 32771).
Proof. intros arch. arch_cases. Qed.
Print Assumptions c19_arch_arm64.

(* the instruction analysis is an ARBITRARY function of the exception context (decoder and operand
   evaluation unconstrained).  Whenever one of the addresses it reports (memory accesses, plus the
   instruction-pointer update when the accesses are known) is flagged "likely null pointer dereference",
   NOTHING is reported: neither by the address pass nor by the register pass *)
Theorem c19_none_nulloffset_both_passes : forall analysis c os r address x rs oa,
  analysis x = Some oa -> has_null_flag oa ->
  pipeline analysis c os r address (Some x) rs = [].
Proof. exact pipeline_none_null. Qed.
Print Assumptions c19_none_nulloffset_both_passes.

(* what get_exception_details' adjusted address can be: null+offset exactly for a flagged address (first
   one wins); non-canonical only on amd64, only for a general-protection fault, only an address the
   instruction accesses inside 0x0000_8000_0000_0000..=0xffff_7fff_ffff_ffff, and only if nothing is flagged *)
Theorem c19_adjusted_sound : forall c os r address oa,
  match adjusted_of c os r address oa with
  | GAdjNullPointerWithOffset off =>
      exists o l ai, oa = Some o /\ oa_addresses o = Some l /\ In ai l /\ ai_null ai = true /\ ai_addr ai = off
  | GAdjNonCanonical v =>
      c = GX86_64 /\ is_gpf os r address = true /\
      exists o l ai, oa = Some o /\ oa_addresses o = Some l /\ In ai l /\ ai_addr ai = v /\
                     in_non_canonical v = true /\ (forall ai', In ai' l -> ai_null ai' = false)
  | GAdjNone => oa = None \/ exists o, oa = Some o /\ ~ has_null_flag o
  end.
Proof. exact adjusted_sound. Qed.
Print Assumptions c19_adjusted_sound.

Theorem c19_non_canonical_range : NON_CANONICAL_LO = 2 ^ 47 /\ NON_CANONICAL_HI = two64 - 2 ^ 47 - 1.
Proof. split; reflexivity. Qed.
Print Assumptions c19_non_canonical_range.

(* the whole path, exception record + arbitrary instruction analysis -> flips: every flip comes from a
   64-bit non-ARM64 dump without null+offset recognition, derives from the crash address (or the recovered
   non-canonical address) or from a register the analysis named and the context can read, differs from it
   in one bit of the platform's range and is null or in a region (as the lookup sees it) permitting the access *)
Theorem c19_pipeline_examined : forall analysis c os r address pc rs f,
  In f (pipeline analysis c os r address pc rs) ->
  pointer_width c = WBits64 /\ c <> GArm64 /\
  (forall off, pipeline_adj analysis c os r address pc <> GAdjNullPointerWithOffset off) /\
  exists a, examined_by analysis c os r address pc f a /\
            flip_ok a (f_reg f) rs (memop_of_reason r)
                    (br_lo (pipeline_br analysis c os r address pc)) (br_hi (pipeline_br analysis c os r address pc)) f.
Proof.
  intros analysis c os r address pc rs f H. apply in_pipeline in H. destruct H as (Hw & Hg & Hn & a & He & H).
  split; [exact Hw|]. split; [exact Hg|]. split; [exact Hn|].
  exists a. split; [exact He|exact (try_bit_flips_ok _ _ _ _ _ _ _ H)].
Qed.
Print Assumptions c19_pipeline_examined.

Theorem c19_pipeline_bit_range : forall analysis c os r address pc,
  pointer_width c = WBits64 -> c <> GArm64 ->
  (exists v, pipeline_adj analysis c os r address pc = GAdjNonCanonical v /\ c = GX86_64 /\
             pipeline_br analysis c os r address pc = Amd64NonCanonical) \/
  ((forall v, pipeline_adj analysis c os r address pc <> GAdjNonCanonical v) /\
   pipeline_br analysis c os r address pc = if gcpu_eqb c GX86_64 then Amd64Canonical else AllBits).
Proof.
  intros analysis c os r address pc Hw Hna. rewrite (pipeline_br_eq analysis c os r address pc Hw Hna).
  destruct (pipeline_adj analysis c os r address pc) as [|v|off] eqn:E;
    [right; split; [discriminate|reflexivity]| |right; split; [discriminate|reflexivity]].
  left. exists v. split; [reflexivity|]. split; [exact (proj1 (adjusted_nc _ _ _ _ _ _ E))|reflexivity].
Qed.
Print Assumptions c19_pipeline_bit_range.

Theorem c19_pipeline_none_when_accessible : forall analysis c os r address pc rs mi,
  pipeline_adj analysis c os r address pc = GAdjNone ->
  lookup_region rs address = Some mi -> possibly_allowed (memop_of_reason r) mi = true ->
  (forall id v, In (id, v) (pipeline_iregs analysis pc) ->
                exists m, lookup_region rs v = Some m /\ possibly_allowed (memop_of_reason r) m = true) ->
  pipeline analysis c os r address pc rs = [].
Proof.
  intros analysis c os r address pc rs mi Hadj Hl Ha Hregs. unfold pipeline. rewrite Hadj, check_src_refines.
  eapply gating_accessible; eassumption.
Qed.
Print Assumptions c19_pipeline_none_when_accessible.

(* operand evaluation (MemoryAddressInfo::try_from_operand): the address is a u64 and the null flag is set
   exactly when the operand has a base register that reads 0 *)
Theorem c19_operand_null_iff_base_zero : forall pc m ai,
  operand_address pc m = Some ai ->
  0 <= ai_addr ai < two64 /\
  (ai_null ai = true <-> exists b, mo_base m = Some b /\ get_register pc b = Some 0).
Proof. exact operand_address_spec. Qed.
Print Assumptions c19_operand_null_iff_base_zero.

(* a decoded non-LEA instruction with a memory operand whose base register reads 0 (every operand register
   readable): recognised as null pointer plus offset — nothing is reported by either pass *)
Theorem c19_null_base_no_flips : forall di pc c os r address rs m b,
  di_lea di = false -> di_memsize di = true ->
  (forall m', In m' (di_ops di) -> operand_address pc m' <> None) ->
  In m (di_ops di) -> mo_base m = Some b -> get_register pc b = Some 0 ->
  pipeline (analyze_dinstr di) c os r address (Some pc) rs = [].
Proof.
  intros di pc c os r address rs m b Hlea Hms Hall Hin Hb Hg.
  destruct (explicit_accesses_some di pc Hlea Hall) as [l [Hl Hin']].
  destruct (operand_address pc m) as [ai|] eqn:Eo; [|destruct (Hall m Hin Eo)].
  eapply pipeline_none_null; [reflexivity|].
  apply (has_null_flag_access _ (l ++ implicit_access (di_implicit di) pc) ai).
  - cbn [oa_accesses]. rewrite Hms, Hl. reflexivity.
  - apply in_or_app. left. exact (Hin' m ai Hin Eo).
  - apply (operand_address_spec pc m ai Eo). eauto.
Qed.
Print Assumptions c19_null_base_no_flips.

(* a call / jmp through a register that reads 0: recognised as a null pointer, nothing reported *)
Theorem c19_null_target_no_flips : forall di pc c os r address rs id,
  di_ip di = IpkReg id -> get_register pc id = Some 0 ->
  (di_memsize di = true -> explicit_accesses di pc <> None) ->
  pipeline (analyze_dinstr di) c os r address (Some pc) rs = [].
Proof.
  intros di pc c os r address rs id Hip Hg Hex. destruct (analyze_accesses di pc Hex) as (oa & l & Ha & Hl & Hi).
  eapply pipeline_none_null; [exact Ha|]. apply (has_null_flag_ip oa l (plain_info 0) Hl); [|reflexivity].
  rewrite Hi, Hip. cbn [ip_of]. rewrite Hg. reflexivity.
Qed.
Print Assumptions c19_null_target_no_flips.

(* get_registers (the register pass iterates over it): strictly increasing in the order of the register NAMES — the
   rank table is regenerated from CONTEXT_AMD64::REGISTERS — hence duplicate-free, and it holds exactly the base / index
   registers of the instruction's memory operands *)
Theorem c19_instr_regs_spec : forall ops,
  StronglySorted rank_lt (instr_regs ops) /\
  (forall id, In id (instr_regs ops) -> exists m, In m ops /\ (mo_base m = Some id \/ mo_index m = Some id)) /\
  (forall m id, In m ops -> (mo_base m = Some id \/ mo_index m = Some id) -> 0 <= id <= 16 ->
                (forall m' id', In m' ops -> (mo_base m' = Some id' \/ mo_index m' = Some id') -> 0 <= id' <= 16) ->
                In id (instr_regs ops)).
Proof.
  intros ops. split; [apply instr_regs_sorted|]. split; [apply instr_regs_sound|]. intros m id. apply instr_regs_complete.
Qed.
Print Assumptions c19_instr_regs_spec.

(* MemoryOperation::from_crash_reason / is_possibly_allowed_for (regenerated tables) are the model's *)
Theorem c19_memop_tables : forall rg,
  g_allowed_undetermined = true /\
  possibly_allowed (mk_memop 0) rg = g_allowed_undetermined /\
  (forall o, 1 <= o <= 3 ->
     possibly_allowed (mk_memop o) rg = nth (Z.to_nat (g_allowed_perm o)) [rg_r rg; rg_w rg; rg_x rg] false) /\
  mk_memop (g_memop_of_access 0) = MRead /\ mk_memop (g_memop_of_access 1) = MWrite /\
  mk_memop (g_memop_of_access 8) = MExec /\
  (forall k, k <> 0 -> k <> 1 -> k <> 8 -> mk_memop (g_memop_of_access k) = Undetermined).
Proof.
  intros rg. repeat split.
  - intros o Ho. assert (H : o = 1 \/ o = 2 \/ o = 3) by lia. destruct H as [->|[->| ->]]; reflexivity.
  - intros k H0 H1 H8. unfold g_memop_of_access.
    destruct (Z.eqb_spec k 0), (Z.eqb_spec k 1), (Z.eqb_spec k 8); try contradiction. reflexivity.
Qed.
Print Assumptions c19_memop_tables.

(* THE PROPERTY END TO END, in plain arithmetic on the stream records, for an arbitrary instruction analysis:
   every flip reported for a dump with a MemoryInfoList (base, size, protection records, any u64 values, any
   overlaps) is [examined value] xor 2^j with j in the platform's range, is a u64, and is 0 or lies inside
   [base, base+size) of a record whose protection permits the crashing kind of access *)
Theorem c19_pipeline_flip_info : forall analysis c os r address pc l f,
  u64_recs l -> 0 <= address < two64 ->
  (forall x id v, pc = Some x -> get_register x id = Some v -> 0 <= v < two64) ->
  (forall x oa ai, analysis x = Some oa -> (exists a, oa_addresses oa = Some a /\ In ai a) -> 0 <= ai_addr ai < two64) ->
  In f (pipeline analysis c os r address pc (regions_of_info l)) ->
  exists a j, examined_by analysis c os r address pc f a /\
              br_lo (pipeline_br analysis c os r address pc) <= j < br_hi (pipeline_br analysis c os r address pc) /\
              f_addr f = Z.lxor a (2 ^ j) /\ 0 <= f_addr f < two64 /\
              (f_addr f = 0 \/
               exists base size prot, In (base, size, prot) l /\ size <> 0 /\ base + size < two64 /\
                                      base <= f_addr f < base + size /\ info_allows (memop_of_reason r) prot = true).
Proof.
  intros analysis c os r address pc l f Hl Ha Hr Hc Hin.
  destruct (pipeline_flip analysis _ _ _ _ _ _ _ Hin) as (a & j & He & _ & Hj & Hx & Hq). exists a, j.
  split; [exact He|]. split; [exact Hj|]. split; [exact Hx|].
  split; [exact (pipeline_flip_u64 analysis _ _ _ _ _ _ _ Ha Hr Hc Hin)|exact (qualifies_info _ _ _ Hl Hq)].
Qed.
Print Assumptions c19_pipeline_flip_info.

(* ... and with Linux maps (start, end, rwx) lines *)
Theorem c19_pipeline_flip_maps : forall analysis c os r address pc l f,
  u64_recs l ->
  In f (pipeline analysis c os r address pc (regions_of_maps l)) ->
  exists a j, examined_by analysis c os r address pc f a /\
              br_lo (pipeline_br analysis c os r address pc) <= j < br_hi (pipeline_br analysis c os r address pc) /\
              f_addr f = Z.lxor a (2 ^ j) /\
              (f_addr f = 0 \/
               exists lo hi p, In (lo, hi, p) l /\ lo <= f_addr f <= hi /\ maps_allows (memop_of_reason r) p = true).
Proof.
  intros analysis c os r address pc l f Hl Hin.
  destruct (pipeline_flip analysis _ _ _ _ _ _ _ Hin) as (a & j & He & _ & Hj & Hx & Hq). exists a, j.
  split; [exact He|]. split; [exact Hj|]. split; [exact Hx|exact (qualifies_maps _ _ _ Hl Hq)].
Qed.
Print Assumptions c19_pipeline_flip_maps.

(* the detail flags attached to a reported flip say what they claim: is_null iff the candidate is 0, was_low only for a
   null candidate of a low original, was_non_canonical iff the bit range is 48..64, the nearby-register count is
   between 0 and the number of valid registers and positive only above the low-address cutoff *)
Theorem c19_details_consistent : forall a reg br ctx rs op f,
  In f (try_bit_flips a reg br ctx rs op) ->
  d_null (f_det f) = (f_addr f =? 0) /\
  (d_low (f_det f) = true -> f_addr f = 0 /\ a <= LOW_ADDRESS_CUTOFF) /\
  d_nc (f_det f) = (match br with Amd64NonCanonical => true | _ => false end) /\
  0 <= d_nearby (f_det f) <= ctx_count ctx /\
  (0 < d_nearby (f_det f) -> LOW_ADDRESS_CUTOFF < f_addr f) /\
  (ctx = None -> d_nearby (f_det f) = 0 /\ d_poison (f_det f) = false).
Proof.
  intros a reg br ctx rs op f H. apply in_try_bit_flips in H. destruct H as [_ [j [_ [_ ->]]]].
  apply heuristics_spec.
Qed.
Print Assumptions c19_details_consistent.

(* "none when the examined address is itself accessible", on the map itself: the examined value lies in the range of
   a region that intersects no other region and permits the operation (any position in the list, any other
   regions, overlapping among themselves or not) — the lookup finds that region (C08 completeness) and nothing
   is reported.  (With overlapping regions the lookup table drops entries, see design/C19.md.) *)
Theorem c19_none_when_accessible_isolated : forall rs1 mi rs2 r a reg br ctx op,
  wf_regions (rs1 ++ mi :: rs2) -> rg_range mi = Some r -> contains r a = true ->
  (forall mi' r', In mi' (rs1 ++ rs2) -> rg_range mi' = Some r' -> intersects r r' = false) ->
  possibly_allowed op mi = true ->
  try_bit_flips a reg br ctx (rs1 ++ mi :: rs2) op = [].
Proof.
  intros rs1 mi rs2 r a reg br ctx op Hwf Hr Hc Hiso Hp.
  eapply none_when_accessible; [|exact Hp]. eapply lookup_isolated; eassumption.
Qed.
Print Assumptions c19_none_when_accessible_isolated.

(* completeness (the converse of c19_one_bit_in_range / c19_null_or_mapped_allowed): when the examined value is not
   itself accessible, EVERY single-bit neighbour inside the bit range that is null or that the lookup places in a region
   permitting the access is reported, with the source register it was asked for *)
Theorem c19_flips_complete : forall a reg br ctx rs op j,
  (forall mi, lookup_region rs a = Some mi -> possibly_allowed op mi = false) ->
  br_lo br <= j < br_hi br ->
  (Z.lxor a (2 ^ j) = 0 \/
   exists mi, lookup_region rs (Z.lxor a (2 ^ j)) = Some mi /\ possibly_allowed op mi = true) ->
  exists f, In f (try_bit_flips a reg br ctx rs op) /\ f_addr f = Z.lxor a (2 ^ j) /\ f_reg f = reg.
Proof.
  intros a reg br ctx rs op j Hna Hj Hq. exists (mk_flip a (Z.lxor a (2 ^ j)) reg br ctx).
  split; [|split; reflexivity]. apply in_try_bit_flips. split; [exact Hna|]. exists j. auto.
Qed.
Print Assumptions c19_flips_complete.

(* completeness of the whole path (with c19_pipeline_examined this characterises the report exactly, as a set): on a live
   platform without null+offset recognition, for the crash address (or the recovered non-canonical address) and for every
   register the analysis names and the context can read — if that value is not itself accessible, every single-bit
   neighbour inside the platform's range that is null or in a region permitting the access is reported *)
Theorem c19_pipeline_complete : forall analysis c os r address pc rs a reg j,
  pointer_width c = WBits64 -> c <> GArm64 ->
  (forall off, pipeline_adj analysis c os r address pc <> GAdjNullPointerWithOffset off) ->
  ((reg = None /\ a = match pipeline_adj analysis c os r address pc with GAdjNonCanonical v => v | _ => address end) \/
   (exists id x oa, reg = Some id /\ pc = Some x /\ analysis x = Some oa /\ In id (oa_regs oa) /\ get_register x id = Some a)) ->
  inaccessible rs (memop_of_reason r) a ->
  br_lo (pipeline_br analysis c os r address pc) <= j < br_hi (pipeline_br analysis c os r address pc) ->
  qualifies rs (memop_of_reason r) (Z.lxor a (2 ^ j)) ->
  exists f, In f (pipeline analysis c os r address pc rs) /\ f_addr f = Z.lxor a (2 ^ j) /\ f_reg f = reg.
Proof.
  intros analysis c os r address pc rs a reg j Hw Hg Hn Hex Hna Hj Hq.
  exists (mk_flip a (Z.lxor a (2 ^ j)) reg (pipeline_br analysis c os r address pc) (option_map to_context pc)).
  split; [|split; reflexivity]. apply in_pipeline. split; [exact Hw|]. split; [exact Hg|]. split; [exact Hn|].
  exists a. split; [exact Hex|]. apply in_try_bit_flips. split; [exact Hna|]. exists j. auto.
Qed.
Print Assumptions c19_pipeline_complete.

(* From the raw records of the dump: processor_architecture, platform_id, the exception record.  The Os / PlatformId / Cpu
   tables, the per-OS dispatch of CrashReason::from_exception and the error enums are regenerated (Gen.C19Check);
   get_crash_address and represents_general_protection_fault are also compiled (Gen.C19Src: g_crash_address, g_gpf) and
   tied to crash_address / is_gpf by c19_crash_address_src_refines / c19_gpf_src_refines below *)
Theorem c19_dump_none_platform : forall analysis arch platform_id e pc rs,
  ~ (arch = 9 \/ arch = 32770 \/ arch = 32772) ->
  dump_pipeline analysis arch platform_id e pc rs = [].
Proof. intros analysis arch platform_id e pc rs. apply none_platform_arch. Qed.
Print Assumptions c19_dump_none_platform.

(* bits 48..64 (a recovered non-canonical address) are examined only for an AMD64 dump whose exception record has one
   of the three general-protection-fault shapes: Windows EXCEPTION_ACCESS_VIOLATION/read at 0xffff_ffff_ffff_ffff, macOS
   EXC_BAD_ACCESS/EXC_I386_GPFLT at 0, Linux SIGSEGV|SIGBUS/SI_KERNEL at 0 — for every instruction analysis *)
Theorem c19_dump_noncanonical_shape : forall analysis arch platform_id e pc v,
  dump_adj analysis arch platform_id e pc = GAdjNonCanonical v ->
  arch = 9 /\ in_non_canonical v = true /\
  let o := dump_os platform_id in
  let address := dump_address arch platform_id e in
  (o = GOsWindows /\ er_code e = WIN_EXCEPTION_ACCESS_VIOLATION /\ 1 <= er_nparams e /\ er_info0 e = WIN_ACCESS_READ /\ address = two64 - 1) \/
  (o = GOsMacOs /\ er_code e = MAC_EXC_BAD_ACCESS /\ er_flags e = MAC_EXC_I386_GPFLT /\ address = 0) \/
  (o = GOsLinux /\ (er_code e = LINUX_SIGSEGV \/ er_code e = LINUX_SIGBUS) /\ er_flags e = LINUX_SI_KERNEL /\ address = 0).
Proof.
  intros analysis arch platform_id e pc v H. destruct (adjusted_nc _ _ _ _ _ _ H) as (Hc & Hg & Hr & _).
  split; [apply arch_amd64; exact Hc|]. split; [exact Hr|].
  apply is_gpf_shape in Hg. cbv zeta. clear - Hg. tauto.
Qed.
Print Assumptions c19_dump_noncanonical_shape.

(* ... in particular only for platform ids 2/3 (Windows), 0x8101 (macOS), 0x8201 (Linux): never Android, iOS, Solaris, ... *)
Theorem c19_dump_noncanonical_os : forall analysis arch platform_id e pc v,
  dump_adj analysis arch platform_id e pc = GAdjNonCanonical v ->
  platform_id = 2 \/ platform_id = 3 \/ platform_id = 33025 \/ platform_id = 33281.
Proof.
  intros analysis arch platform_id e pc v H. apply c19_dump_noncanonical_shape in H. destruct H as [_ [_ H]].
  apply os_of_platform_id_gpf. cbv zeta in H. unfold dump_os in H. tauto.
Qed.
Print Assumptions c19_dump_noncanonical_os.

(* no arithmetic trap in calculate_heuristics' is_repeated: `(addr & 0xff) * 0x0101..01` (a plain u64 multiplication, which
   panics on overflow in a debug build) never overflows, for the multipliers regenerated from the source — so the model's
   unbounded product is the code's in both profiles *)
Theorem c19_is_repeated_no_overflow : forall a,
  0 <= Z.land a 255 * REPEAT_MUL_2 < two64 /\ 0 <= Z.land a 255 * REPEAT_MUL_4 < two64 /\
  0 <= Z.land a 255 * REPEAT_MUL_8 < two64.
Proof.
  intros a. pose proof (land_255_range a) as H. rewrite two64_val.
  unfold REPEAT_MUL_2, REPEAT_MUL_4, REPEAT_MUL_8. lia.
Qed.
Print Assumptions c19_is_repeated_no_overflow.

(* closed form of try_bit_flips — order and multiplicity included: nothing when the examined value is accessible; otherwise,
   for the bits lo, lo+1, .., hi-1 of the range in this order, the null candidate (if the neighbour is 0) followed by the
   mapped candidate (if the lookup places the neighbour in a region permitting the access) *)
Theorem c19_try_bit_flips_exact : forall a reg br ctx rs op,
  try_bit_flips a reg br ctx rs op =
  if (match lookup_region rs a with Some mi => possibly_allowed op mi | None => false end) then []
  else flat_map (flips_at a reg br ctx rs op) (zrange (br_lo br) (Z.to_nat (br_hi br - br_lo br))).
Proof. exact try_bit_flips_exact. Qed.
Print Assumptions c19_try_bit_flips_exact.

(* From the raw records of a dump with a MemoryInfoList (processor_architecture, platform_id, exception record, records
   (base, size, protection) with any u64 values and any overlaps) and for an ARBITRARY instruction analysis:
   - each reported flip differs in exactly one bit, inside the platform's range, from an examined value (the crash address,
     the recovered non-canonical address, or a register the analysis named and the context can read) that is NOT itself
     accessible; it is a u64, and it is 0 or lies inside a record whose protection permits the crashing kind of access;
     its confidence lies between 0 and 1 (binary32);
   - nothing is reported when the access was recognised as a null pointer plus offset;
   - nothing is reported for 32-bit, ARM64 / ARM64_OLD and unknown architectures.
   ("not accessible" is what the region lookup says; c19_record_accessible below: a value inside a record that intersects no
   other record and permits the access is accessible — with overlapping records the lookup table drops entries, design/C19.md) *)
Theorem c19_the_property : forall analysis arch platform_id e pc l,
  u64_recs l ->
  0 <= er_address e < two64 -> 0 <= er_info1 e < two64 ->
  (forall x id v, pc = Some x -> get_register x id = Some v -> 0 <= v < two64) ->
  (forall x oa ai, analysis x = Some oa -> (exists a, oa_addresses oa = Some a /\ In ai a) -> 0 <= ai_addr ai < two64) ->
  let c := dump_cpu arch in
  let os := os_class (dump_os platform_id) in
  let r := dump_reason arch platform_id e in
  let address := dump_address arch platform_id e in
  let flips := dump_pipeline analysis arch platform_id e pc (regions_of_info l) in
  (forall f, In f flips ->
     exists a j, examined_by analysis c os r address pc f a /\
                 inaccessible (regions_of_info l) (memop_of_reason r) a /\
                 br_lo (pipeline_br analysis c os r address pc) <= j < br_hi (pipeline_br analysis c os r address pc) /\
                 f_addr f = Z.lxor a (2 ^ j) /\ 0 <= f_addr f < two64 /\
                 (f_addr f = 0 \/
                  exists base size prot, In (base, size, prot) l /\ size <> 0 /\ base + size < two64 /\
                                         base <= f_addr f < base + size /\ info_allows (memop_of_reason r) prot = true) /\
                 le_b32 (f32 0) (confidence (f_det f)) = true /\ le_b32 (confidence (f_det f)) (f32 F32_ONE_bits) = true) /\
  (forall x oa, pc = Some x -> analysis x = Some oa -> has_null_flag oa -> flips = []) /\
  (~ (arch = 9 \/ arch = 32770 \/ arch = 32772) -> flips = []).
Proof.
  intros analysis arch platform_id e pc l Hl Hea Hei Hregs Hacc c os r address flips. split; [|apply dump_none].
  intros f Hin. destruct (pipeline_flip analysis _ _ _ _ _ _ _ Hin) as (a & j & He & Hna & Hj & Hx & Hq). exists a, j.
  split; [exact He|]. split; [exact Hna|]. split; [exact Hj|]. split; [exact Hx|].
  split; [exact (pipeline_flip_u64 analysis _ _ _ _ _ _ _ (crash_address_u64 _ _ _ _ _ _ Hei Hea) Hregs Hacc Hin)|].
  split; [exact (qualifies_info _ _ _ Hl Hq)|apply confidence_01].
Qed.
Print Assumptions c19_the_property.

(* ... and for a dump with Linux maps lines (start, end, rwx bits) *)
Theorem c19_the_property_maps : forall analysis arch platform_id e pc l,
  u64_recs l ->
  let c := dump_cpu arch in
  let os := os_class (dump_os platform_id) in
  let r := dump_reason arch platform_id e in
  let address := dump_address arch platform_id e in
  let flips := dump_pipeline analysis arch platform_id e pc (regions_of_maps l) in
  (forall f, In f flips ->
     exists a j, examined_by analysis c os r address pc f a /\
                 inaccessible (regions_of_maps l) (memop_of_reason r) a /\
                 br_lo (pipeline_br analysis c os r address pc) <= j < br_hi (pipeline_br analysis c os r address pc) /\
                 f_addr f = Z.lxor a (2 ^ j) /\
                 (f_addr f = 0 \/
                  exists lo hi p, In (lo, hi, p) l /\ lo <= f_addr f <= hi /\ maps_allows (memop_of_reason r) p = true) /\
                 le_b32 (f32 0) (confidence (f_det f)) = true /\ le_b32 (confidence (f_det f)) (f32 F32_ONE_bits) = true) /\
  (forall x oa, pc = Some x -> analysis x = Some oa -> has_null_flag oa -> flips = []) /\
  (~ (arch = 9 \/ arch = 32770 \/ arch = 32772) -> flips = []).
Proof.
  intros analysis arch platform_id e pc l Hl c os r address flips. split; [|apply dump_none].
  intros f Hin. destruct (pipeline_flip analysis _ _ _ _ _ _ _ Hin) as (a & j & He & Hna & Hj & Hx & Hq). exists a, j.
  split; [exact He|]. split; [exact Hna|]. split; [exact Hj|]. split; [exact Hx|].
  split; [exact (qualifies_maps _ _ _ Hl Hq)|apply confidence_01].
Qed.
Print Assumptions c19_the_property_maps.

Theorem c19_record_accessible : forall op l1 base size prot l2 a,
  u64_recs (l1 ++ (base, size, prot) :: l2) ->
  size <> 0 -> base + size < two64 -> base <= a < base + size ->
  info_allows op prot = true ->
  (forall b s p, In (b, s, p) (l1 ++ l2) -> s <> 0 -> b + s < two64 -> b + s <= base \/ base + size <= b) ->
  ~ inaccessible (regions_of_info (l1 ++ (base, size, prot) :: l2)) op a.
Proof.
  intros op l1 base size prot l2 a Hl Hs Hb Ha Hp Hiso Hna.
  specialize (Hna _ (lookup_isolated_record _ _ _ _ _ _ Hl Hs Hb Ha Hiso)). destruct op; cbn in Hna, Hp; congruence.
Qed.
Print Assumptions c19_record_accessible.

Example c19_nonvacuous_flip :
  let rs := [region_of_info 524288 8 0] in
  wf_regions rs /\
  map f_addr (check_for_bitflips CpuAmd64 525312 AdjNone Undetermined None [] rs) = [524288].
Proof.
  split; [|vm_compute; reflexivity].
  unfold wf_regions. constructor; [|constructor]. vm_compute. intuition discriminate.
Qed.

Example c19_nonvacuous_conf :
  confidence_bits {| d_nc := false; d_null := false; d_low := false; d_nearby := 0; d_poison := false |} = 1048576000.
Proof. vm_compute. reflexivity. Qed.

(* a null dereference through rbx (= 0) with a mapped power-of-two address: recognised, nothing
   reported; the same instruction with rbx = 0x80400 (one bit from the mapped 0x80000): the register pass
   reports the flip with source register rbx (id 3) *)
Definition nv_di := {| di_lea := false; di_memsize := true;
                       di_ops := [{| mo_base := Some 3; mo_index := None; mo_scale := None; mo_disp := Some 8 |}];
                       di_implicit := ImpNone; di_ip := IpkNoUpdate |}.
Definition nv_pc (rbx : Z) := {| pc_size := 8; pc_regs := [(0, 5); (3, rbx); (16, 4096)] |}.
Example c19_nonvacuous_null_base :
  let rs := [region_of_info 524288 16 4] in
  has_null_flag (match analyze_dinstr nv_di (nv_pc 0) with Some oa => oa | None => {| oa_accesses := None; oa_ip := None; oa_regs := [] |} end) /\
  pipeline (analyze_dinstr nv_di) GX86_64 OsLinux ROther 8 (Some (nv_pc 0)) rs = [] /\
  map (fun f => (f_addr f, f_reg f)) (pipeline (analyze_dinstr nv_di) GX86_64 OsLinux ROther 525320 (Some (nv_pc 525312)) rs)
    = [(524296, None); (524288, Some 3)].
Proof.
  split; [|split; vm_compute; reflexivity].
  exists [{| ai_addr := 8; ai_null := true |}], {| ai_addr := 8; ai_null := true |}.
  split; [vm_compute; reflexivity|]. split; [left; reflexivity|reflexivity].
Qed.

(* a general-protection fault on Windows/amd64 whose instruction accesses a non-canonical address one bit
   (bit 48) away from a mapped one: the recovered address is examined in bits 48..64 *)
Example c19_nonvacuous_noncanonical :
  let rs := [region_of_info 140737488351232 4096 4] in     (* 0x7ffffffff000 *)
  let pc := nv_pc (140737488351232 + 281474976710656 - 8) in
  pipeline_adj (analyze_dinstr nv_di) GX86_64 OsWindows (RWinAccessViolation 0) (two64 - 1) (Some pc)
    = GAdjNonCanonical (140737488351232 + 281474976710656) /\
  map (fun f => (f_addr f, f_reg f, d_nc (f_det f)))
      (pipeline (analyze_dinstr nv_di) GX86_64 OsWindows (RWinAccessViolation 0) (two64 - 1) (Some pc) rs)
    = [(140737488351232, None, true)].
Proof. split; vm_compute; reflexivity. Qed.

(* the raw-record path: an AMD64 / Linux dump with SIGSEGV / SI_KERNEL at address 0 whose instruction accesses a
   non-canonical address: adjusted, bit 48 flipped back *)
Example c19_nonvacuous_dump :
  let rs := [region_of_info 140737488351232 4096 4] in
  let pc := nv_pc (140737488351232 + 281474976710656 - 8) in
  let e := {| er_code := 11; er_flags := 128; er_nparams := 0; er_info0 := 0; er_info1 := 0; er_address := 0 |} in
  dump_adj (analyze_dinstr nv_di) 9 33281 e (Some pc) = GAdjNonCanonical (140737488351232 + 281474976710656) /\
  map f_addr (dump_pipeline (analyze_dinstr nv_di) 9 33281 e (Some pc) rs) = [140737488351232] /\
  dump_adj (analyze_dinstr nv_di) 9 33283 e (Some pc) = GAdjNone.      (* the same record from Android: no adjustment *)
Proof. repeat split; vm_compute; reflexivity. Qed.

(* From here on: the function bodies COMPILED from the Rust source (translate/c19_src.py -> Gen.C19Src, executed by
   C19/Source.v, which is what the correspondence run executes) *)

(* (1) For ANY try_bit_flips body inside the translator's grammar (early exits; loop items that push under
   `possible_address == k` / `lookup + permission` guards, as if / else-if chains) whose `== k` guards all have k = 0:
   every candidate is the examined value with one bit of lo..hi flipped, and is 0 or mapped with the access allowed *)
Theorem c19_try_grammar_sound : forall (R F : Type) early items (lookup : Z -> option R) allowed (mk : Z -> Z -> F),
  items_ok items = true -> forall a lo hi f,
  In f (try_gen early items lookup allowed mk a lo hi) ->
  exists j, lo <= j < hi /\ f = mk a (Z.lxor a (2 ^ j)) /\
            (Z.lxor a (2 ^ j) = 0 \/ exists mi, lookup (Z.lxor a (2 ^ j)) = Some mi /\ allowed mi = true).
Proof. exact (@try_gen_sound). Qed.
Print Assumptions c19_try_grammar_sound.

(* ... and if one of the early exits is the lookup + permission test on the examined value itself, nothing is reported
   for an accessible examined value *)
Theorem c19_try_grammar_none_when_accessible : forall (R F : Type) early items (lookup : Z -> option R) allowed (mk : Z -> Z -> F),
  early_ok early = true -> forall a lo hi,
  (exists mi, lookup a = Some mi /\ allowed mi = true) -> try_gen early items lookup allowed mk a lo hi = [].
Proof. exact (@try_gen_none_when_accessible). Qed.
Print Assumptions c19_try_grammar_none_when_accessible.

(* ... and if some item carries the lookup + permission guard, some item the `== 0` guard, and every early exit is the
   lookup + permission test on the examined value: every qualifying neighbour of an inaccessible examined value IS reported
   (with c19_try_grammar_sound: the reported SET is characterised exactly for any such body) *)
Theorem c19_try_grammar_complete : forall (R F : Type) early items (lookup : Z -> option R) allowed (mk : Z -> Z -> F),
  items_complete items = true -> early_only_mapped early = true ->
  forall a lo hi j, lo <= j < hi -> ~ (exists mi, lookup a = Some mi /\ allowed mi = true) ->
  (Z.lxor a (2 ^ j) = 0 \/ exists mi, lookup (Z.lxor a (2 ^ j)) = Some mi /\ allowed mi = true) ->
  In (mk a (Z.lxor a (2 ^ j))) (try_gen early items lookup allowed mk a lo hi).
Proof. exact (@try_gen_complete). Qed.
Print Assumptions c19_try_grammar_complete.

(* the body as it is in the source passes all four side conditions (re-checked on the regenerated lists on every run) *)
Theorem c19_try_src_side_conditions : items_ok TRY_ITEMS = true /\ early_ok TRY_EARLY = true /\
                                      items_complete TRY_ITEMS = true /\ early_only_mapped TRY_EARLY = true.
Proof. exact try_side_conditions. Qed.
Print Assumptions c19_try_src_side_conditions.

(* hence, on the compiled try_bit_flips (no hand-written model involved): *)
Theorem c19_try_src_sound : forall a reg br ctx rs op f,
  In f (try_bit_flips_src a reg br ctx rs op) ->
  exists j, fst (br_bounds (br_of br)) <= j < snd (br_bounds (br_of br)) /\
            f_addr f = Z.lxor a (2 ^ j) /\ f_reg f = reg /\
            (f_addr f = 0 \/ exists mi, lookup_region rs (f_addr f) = Some mi /\ possibly_allowed op mi = true).
Proof.
  intros a reg br ctx rs op f H.
  apply (try_gen_sound TRY_EARLY TRY_ITEMS) in H; [|apply try_side_conditions].
  destruct H as [j [Hj [-> Hm]]]. exists j. auto.
Qed.
Print Assumptions c19_try_src_sound.

Theorem c19_try_src_none_when_accessible : forall a reg br ctx rs op mi,
  lookup_region rs a = Some mi -> possibly_allowed op mi = true -> try_bit_flips_src a reg br ctx rs op = [].
Proof.
  intros a reg br ctx rs op mi Hl Hp. apply try_gen_none_when_accessible; [apply try_side_conditions|].
  exists mi. auto.
Qed.
Print Assumptions c19_try_src_none_when_accessible.

Theorem c19_try_src_complete : forall a reg br ctx rs op j,
  fst (br_bounds (br_of br)) <= j < snd (br_bounds (br_of br)) ->
  ~ (exists mi, lookup_region rs a = Some mi /\ possibly_allowed op mi = true) ->
  (Z.lxor a (2 ^ j) = 0 \/ exists mi, lookup_region rs (Z.lxor a (2 ^ j)) = Some mi /\ possibly_allowed op mi = true) ->
  exists f, In f (try_bit_flips_src a reg br ctx rs op) /\ f_addr f = Z.lxor a (2 ^ j) /\ f_reg f = reg.
Proof.
  intros a reg br ctx rs op j Hj Hna Hq.
  exists (mk_flip_src reg br ctx a (Z.lxor a (2 ^ j))). split; [|split; reflexivity].
  apply (try_gen_complete TRY_EARLY TRY_ITEMS); auto; apply try_side_conditions.
Qed.
Print Assumptions c19_try_src_complete.

(* (2) generated = model: for the source as it is, the compiled bodies ARE the hand-written model all theorems above
   are about (an edit of the Rust functions changes the left-hand sides; an edit that changes behaviour breaks these) *)
Theorem c19_try_src_refines : forall a reg br ctx rs op,
  try_bit_flips_src a reg br ctx rs op = try_bit_flips a reg (br_of br) ctx rs op.
Proof. exact try_src_refines. Qed.
Print Assumptions c19_try_src_refines.

Theorem c19_heuristics_src_refines : forall new orig nc ctx, heuristics_src new orig nc ctx = heuristics new orig nc ctx.
Proof. exact heuristics_src_refines. Qed.
Print Assumptions c19_heuristics_src_refines.

(* panic site `self.details.nearby_registers += 1` (u32): whatever the compiled tests of calculate_heuristics are, the count is
   between 0 and the number of valid registers — no overflow *)
Theorem c19_heuristics_src_nearby_bound : forall new orig nc ctx,
  0 <= d_nearby (heuristics_src new orig nc ctx) <= match ctx with Some (_, regs) => Z.of_nat (length regs) | None => 0 end.
Proof.
  intros new orig nc [[rs regs]|]; unfold heuristics_src; cbn [d_nearby]; [|lia].
  apply (fold_count_bound _ (fun p addr => if g_h_poison_try _ new orig nc _ _ _ p addr
                                          then (if is_poison_byte_src (Z.land addr 255) then true else p) else p)).
Qed.
Print Assumptions c19_heuristics_src_nearby_bound.

Theorem c19_check_src2_refines : forall c address adj op ctx iregs rs,
  check_src2 c address adj op ctx iregs rs = check_src c address adj op ctx iregs rs.
Proof. exact check_src2_refines. Qed.
Print Assumptions c19_check_src2_refines.

(* represents_general_protection_fault (match arms, first match wins) over the crash reason of the raw record *)
Theorem c19_gpf_src_refines : forall c o code flags nparams info0 a,
  g_gpf o (greason_of c o code flags nparams info0) a = is_gpf (os_class o) (reason_of c o code flags nparams info0) a.
Proof. exact gpf_src_refines. Qed.
Print Assumptions c19_gpf_src_refines.

(* MinidumpException::get_crash_address *)
Theorem c19_crash_address_src_refines : forall c o code nparams info0 info1 excaddr,
  g_crash_address c o code nparams (fun k => if k =? 0 then info0 else if k =? 1 then info1 else 0) excaddr
  = crash_address c o code nparams info1 excaddr.
Proof. exact crash_address_src_refines. Qed.
Print Assumptions c19_crash_address_src_refines.

(* try_detect_null_pointer_in_disguise, try_get_non_canonical_crash_address and the order of the two recoveries *)
Theorem c19_adjusted_src_refines : forall c o code flags nparams info0 address oa,
  adjusted_src c o (greason_of c o code flags nparams info0) address oa
  = adjusted_of c (os_class o) (reason_of c o code flags nparams info0) address oa.
Proof. exact adjusted_src_refines. Qed.
Print Assumptions c19_adjusted_src_refines.

(* op_analysis.rs: operand evaluation (MemoryAddressInfo::try_from_operand: initial value, null-flag tests, default scale /
   displacement, all arithmetic wrapping), the implicit stack access of {CALL, PUSH} / {POP, RETF, RETURN} (offset from rsp,
   null flag) and the null flag of an ip-update target, compiled from the source; the decoder stays an input (dinstr) *)
Theorem c19_analyze_dinstr_src_refines : forall di pc,
  (forall v, get_register pc RSP_ID = Some v -> 0 <= v < two64) ->
  analyze_dinstr_src di pc = analyze_dinstr di pc.
Proof. exact analyze_dinstr_src_refines. Qed.
Print Assumptions c19_analyze_dinstr_src_refines.

(* MinidumpMemoryInfo::is_readable / is_writable / is_executable: the flag sets are compiled to masks over the numeric
   MemoryProtection bits of minidump-common (protection = from_bits_truncate(raw.protection)) *)
Theorem c19_regions_of_info_src_refines : forall l, regions_of_info_src l = regions_of_info l.
Proof. exact regions_of_info_src_refines. Qed.
Print Assumptions c19_regions_of_info_src_refines.

(* MinidumpLinuxMapInfo::is_readable / is_writable / is_executable: which rwx bit each predicate asks for, compiled *)
Theorem c19_regions_of_maps_src_refines : forall l, regions_of_maps_src l = regions_of_maps l.
Proof. reflexivity. Qed.
Print Assumptions c19_regions_of_maps_src_refines.

(* the whole path from the raw records, for an arbitrary instruction analysis: c19_the_property and every other
   theorem about dump_pipeline / dump_adj is a theorem about what the correspondence run executes *)
Theorem c19_dump_pipeline_src_refines : forall analysis arch pid e pc rs,
  dump_pipeline_src analysis arch pid e pc rs = dump_pipeline analysis arch pid e pc rs.
Proof. exact dump_pipeline_src_refines. Qed.
Print Assumptions c19_dump_pipeline_src_refines.

Theorem c19_dump_adj_src_refines : forall analysis arch pid e pc,
  dump_adj_src analysis arch pid e pc = dump_adj analysis arch pid e pc.
Proof. exact dump_adj_src_refines. Qed.
Print Assumptions c19_dump_adj_src_refines.

(* THE PROPERTY for the flips computed by the COMPILED path — the function the correspondence run executes and compares
   with process_minidump.  The statement is c19_the_property's with dump_pipeline_src / regions_of_info_src in the place of
   dump_pipeline / regions_of_info in the definition of [flips], and nothing else changed *)
Theorem c19_the_property_src : forall analysis arch platform_id e pc l,
  u64_recs l ->
  0 <= er_address e < two64 -> 0 <= er_info1 e < two64 ->
  (forall x id v, pc = Some x -> get_register x id = Some v -> 0 <= v < two64) ->
  (forall x oa ai, analysis x = Some oa -> (exists a, oa_addresses oa = Some a /\ In ai a) -> 0 <= ai_addr ai < two64) ->
  let c := dump_cpu arch in
  let os := os_class (dump_os platform_id) in
  let r := dump_reason arch platform_id e in
  let address := dump_address arch platform_id e in
  let flips := dump_pipeline_src analysis arch platform_id e pc (regions_of_info_src l) in
  (forall f, In f flips ->
     exists a j, examined_by analysis c os r address pc f a /\
                 inaccessible (regions_of_info l) (memop_of_reason r) a /\
                 br_lo (pipeline_br analysis c os r address pc) <= j < br_hi (pipeline_br analysis c os r address pc) /\
                 f_addr f = Z.lxor a (2 ^ j) /\ 0 <= f_addr f < two64 /\
                 (f_addr f = 0 \/
                  exists base size prot, In (base, size, prot) l /\ size <> 0 /\ base + size < two64 /\
                                         base <= f_addr f < base + size /\ info_allows (memop_of_reason r) prot = true) /\
                 le_b32 (f32 0) (confidence (f_det f)) = true /\ le_b32 (confidence (f_det f)) (f32 F32_ONE_bits) = true) /\
  (forall x oa, pc = Some x -> analysis x = Some oa -> has_null_flag oa -> flips = []) /\
  (~ (arch = 9 \/ arch = 32770 \/ arch = 32772) -> flips = []).
Proof.
  intros analysis arch platform_id e pc l H1 H2 H3 H4 H5. cbv zeta.
  rewrite c19_regions_of_info_src_refines, c19_dump_pipeline_src_refines.
  exact (c19_the_property analysis arch platform_id e pc l H1 H2 H3 H4 H5).
Qed.
Print Assumptions c19_the_property_src.

(* ... and c19_the_property_maps' with dump_pipeline_src / regions_of_maps_src *)
Theorem c19_the_property_maps_src : forall analysis arch platform_id e pc l,
  u64_recs l ->
  let c := dump_cpu arch in
  let os := os_class (dump_os platform_id) in
  let r := dump_reason arch platform_id e in
  let address := dump_address arch platform_id e in
  let flips := dump_pipeline_src analysis arch platform_id e pc (regions_of_maps_src l) in
  (forall f, In f flips ->
     exists a j, examined_by analysis c os r address pc f a /\
                 inaccessible (regions_of_maps l) (memop_of_reason r) a /\
                 br_lo (pipeline_br analysis c os r address pc) <= j < br_hi (pipeline_br analysis c os r address pc) /\
                 f_addr f = Z.lxor a (2 ^ j) /\
                 (f_addr f = 0 \/
                  exists lo hi p, In (lo, hi, p) l /\ lo <= f_addr f <= hi /\ maps_allows (memop_of_reason r) p = true) /\
                 le_b32 (f32 0) (confidence (f_det f)) = true /\ le_b32 (confidence (f_det f)) (f32 F32_ONE_bits) = true) /\
  (forall x oa, pc = Some x -> analysis x = Some oa -> has_null_flag oa -> flips = []) /\
  (~ (arch = 9 \/ arch = 32770 \/ arch = 32772) -> flips = []).
Proof.
  intros analysis arch platform_id e pc l H1. cbv zeta.
  rewrite c19_regions_of_maps_src_refines, c19_dump_pipeline_src_refines.
  exact (c19_the_property_maps analysis arch platform_id e pc l H1).
Qed.
Print Assumptions c19_the_property_maps_src.

Example c19_nonvacuous_src :
  let rs := [region_of_info 140737488351232 4096 4] in
  let pc := nv_pc (140737488351232 + 281474976710656 - 8) in
  let e := {| er_code := 11; er_flags := 128; er_nparams := 0; er_info0 := 0; er_info1 := 0; er_address := 0 |} in
  dump_adj_src (analyze_dinstr nv_di) 9 33281 e (Some pc) = GAdjNonCanonical (140737488351232 + 281474976710656) /\
  map f_addr (dump_pipeline_src (analyze_dinstr nv_di) 9 33281 e (Some pc) rs) = [140737488351232] /\
  map f_addr (try_bit_flips_src 4112 None GBrAmd64Canononical None [region_of_info 8192 8192 4] MRead) = [12304].
Proof. repeat split; vm_compute; reflexivity. Qed.
