(* C19/Proofs2.v — the reported flips as a set: of try_bit_flips (from its closed form), of check_for_bitflips,
   and of the whole path from the exception record for an arbitrary instruction analysis (in_try_bit_flips,
   in_check, in_pipeline; the statements about single flips are read off these).  Further: the source-derived
   check (Gen.C19Check.g_check) refines the hand-written model; platform gating for every Cpu /
   processor_architecture; the adjusted-address computation; operand evaluation; get_registers; the stream records. *)
From Coq Require Import Lia Sorting.Sorted.
From RM Require Import Base.ListFacts C08.Proofs C19.Model C19.Proofs C19.Pipeline.
Open Scope Z_scope.

(* what flip_ok's second clause says of f_addr, and Proofs3's [x = 0 \/ mapped_allowed x] over an abstract lookup *)
Definition qualifies (rs : list region) (op : memop) (x : Z) : Prop :=
  x = 0 \/ exists mi, lookup_region rs x = Some mi /\ possibly_allowed op mi = true.
Definition inaccessible (rs : list region) (op : memop) (a : Z) : Prop :=
  forall mi, lookup_region rs a = Some mi -> possibly_allowed op mi = false.

(* closed form of try_bit_flips: order and multiplicity *)
Definition flips_at (a : Z) (reg : option Z) (br : bitrange) (ctx : option context) (rs : list region) (op : memop) (i : Z) : list flip :=
  let pa := Z.lxor a (2 ^ i) in
  (if pa =? 0 then [mk_flip a pa reg br ctx] else []) ++
  match lookup_region rs pa with
  | Some mi => if possibly_allowed op mi then [mk_flip a pa reg br ctx] else []
  | None => []
  end.
Fixpoint zrange (lo : Z) (n : nat) : list Z := match n with O => [] | S n' => lo :: zrange (lo + 1) n' end.

Lemma zrange_spec lo n : forall j, In j (zrange lo n) <-> lo <= j < lo + Z.of_nat n.
Proof.
  revert lo. induction n as [|n IH]; intros lo j; cbn [zrange In]; [lia|].
  rewrite IH. lia.
Qed.

Lemma flips_loop_exact n : forall i a reg br ctx rs op,
  flips_loop n i a reg br ctx rs op = flat_map (flips_at a reg br ctx rs op) (zrange i n).
Proof.
  induction n as [|n IH]; intros i a reg br ctx rs op; [reflexivity|].
  cbn [flips_loop zrange flat_map]. unfold flips_at at 1. rewrite IH. rewrite <- app_assoc. reflexivity.
Qed.

Lemma try_bit_flips_exact a reg br ctx rs op :
  try_bit_flips a reg br ctx rs op =
  if (match lookup_region rs a with Some mi => possibly_allowed op mi | None => false end) then []
  else flat_map (flips_at a reg br ctx rs op) (zrange (br_lo br) (Z.to_nat (br_hi br - br_lo br))).
Proof.
  unfold try_bit_flips, br_lo, br_hi. destruct (br_bounds br) as [lo hi]. cbn [fst snd].
  rewrite flips_loop_exact. reflexivity.
Qed.

Lemma in_flips_at a reg br ctx rs op i f :
  In f (flips_at a reg br ctx rs op i) <->
  qualifies rs op (Z.lxor a (2 ^ i)) /\ f = mk_flip a (Z.lxor a (2 ^ i)) reg br ctx.
Proof.
  unfold flips_at, qualifies. cbv zeta. rewrite in_app_iff. split.
  - intros [H|H].
    + destruct (Z.eqb_spec (Z.lxor a (2 ^ i)) 0); [|destruct H]. destruct H as [<-|[]]. auto.
    + destruct (lookup_region rs (Z.lxor a (2 ^ i))) as [mi|]; [|destruct H].
      destruct (possibly_allowed op mi) eqn:Ep; [|destruct H]. destruct H as [<-|[]]. eauto.
  - intros [[H|[mi [Hl Hp]]] ->].
    + left. rewrite H. left. reflexivity.
    + right. rewrite Hl, Hp. left. reflexivity.
Qed.

Lemma early_exit_false rs op a :
  (match lookup_region rs a with Some mi => possibly_allowed op mi | None => false end) = false <-> inaccessible rs op a.
Proof.
  unfold inaccessible. destruct (lookup_region rs a) as [mi|].
  - split; [intros H m [= <-]; exact H|intros H; apply H; reflexivity].
  - split; [intros _ m [=]|reflexivity].
Qed.

(* the reported set: nothing for an accessible value; otherwise one flip for every qualifying single-bit neighbour *)
Theorem in_try_bit_flips a reg br ctx rs op f :
  In f (try_bit_flips a reg br ctx rs op) <->
  inaccessible rs op a /\
  exists j, br_lo br <= j < br_hi br /\ qualifies rs op (Z.lxor a (2 ^ j)) /\ f = mk_flip a (Z.lxor a (2 ^ j)) reg br ctx.
Proof.
  rewrite try_bit_flips_exact.
  destruct (match lookup_region rs a with Some mi => possibly_allowed op mi | None => false end) eqn:E.
  - split; [intros []|intros [Hna _]]. apply early_exit_false in Hna. congruence.
  - apply early_exit_false in E. rewrite in_flat_map. split.
    + intros [j [Hj Hf]]. apply zrange_spec in Hj. apply in_flips_at in Hf. split; [exact E|]. exists j. split; [lia|exact Hf].
    + intros [_ [j [Hj Hf]]]. exists j. split; [apply zrange_spec; lia|apply in_flips_at; exact Hf].
Qed.

Lemma try_bit_flips_ok a reg br ctx rs op f :
  In f (try_bit_flips a reg br ctx rs op) -> flip_ok a reg rs op (br_lo br) (br_hi br) f.
Proof.
  intros H. apply in_try_bit_flips in H. destruct H as [_ [j [Hj [Hq ->]]]].
  split; [exists j; auto|]. split; [exact Hq|reflexivity].
Qed.

Lemma none_when_accessible a reg br ctx rs op mi :
  lookup_region rs a = Some mi -> possibly_allowed op mi = true ->
  try_bit_flips a reg br ctx rs op = [].
Proof. intros Hl Ha. unfold try_bit_flips. rewrite Hl, Ha. reflexivity. Qed.

Lemma qualifies_mapped rs op x : wf_regions rs -> qualifies rs op x ->
  x = 0 \/
  exists mi r, In mi rs /\ rg_range mi = Some r /\ contains r x = true /\ possibly_allowed op mi = true.
Proof.
  intros Hwf [H0|[mi [Hl Ha]]]; [left; exact H0|right].
  destruct (lookup_region_sound rs _ mi Hwf Hl) as [Hin [r [Hr Hc]]]. exists mi, r. auto.
Qed.

Definition ctx_count (ctx : option context) : Z :=
  match ctx with Some (_, regs) => Z.of_nat (length regs) | None => 0 end.

Lemma heuristics_spec new orig nc ctx :
  let d := heuristics new orig nc ctx in
  d_null d = (new =? 0) /\
  (d_low d = true -> new = 0 /\ orig <= LOW_ADDRESS_CUTOFF) /\
  d_nc d = nc /\
  0 <= d_nearby d <= ctx_count ctx /\
  (0 < d_nearby d -> LOW_ADDRESS_CUTOFF < new) /\
  (ctx = None -> d_nearby d = 0 /\ d_poison d = false).
Proof.
  unfold heuristics. destruct ctx as [[sz regs]|]; cbn [d_null d_low d_nc d_nearby d_poison ctx_count];
    (split; [reflexivity|]); (split; [lia|]); (split; [reflexivity|]).
  - pose proof (filter_length_le (fun a => abs_diff new a <=? NEARBY_REGISTER_DISTANCE) regs).
    destruct (new >? LOW_ADDRESS_CUTOFF) eqn:E; (split; [lia|]); (split; [lia|discriminate]).
  - split; [lia|]. split; [lia|]. intros _. split; reflexivity.
Qed.

(* the byte `addr & 0xff` that is_repeated multiplies *)
Lemma land_255_range a : 0 <= Z.land a 255 <= 255.
Proof.
  change 255 with (Z.ones 8) at 1 2. rewrite Z.land_ones by lia.
  pose proof (Z.mod_pos_bound a (2 ^ 8) eq_refl). change (2 ^ 8) with 256 in *. lia.
Qed.

Lemma in_passes a0 br op ctx iregs rs f :
  In f (try_bit_flips a0 None br ctx rs op ++
        match ctx with
        | None => []
        | Some _ => flat_map (fun rv => try_bit_flips (snd rv) (Some (fst rv)) br ctx rs op) iregs
        end) <->
  exists a, ((f_reg f = None /\ a = a0) \/ (exists rid, f_reg f = Some rid /\ In (rid, a) iregs /\ ctx <> None)) /\
            In f (try_bit_flips a (f_reg f) br ctx rs op).
Proof.
  rewrite in_app_iff. split.
  - intros [H|H].
    + exists a0. destruct (try_bit_flips_ok _ _ _ _ _ _ _ H) as [_ [_ ->]]. auto.
    + destruct ctx as [cx|]; [|destruct H]. apply in_flat_map in H. destruct H as [[rid v] [Hi H]].
      exists v. destruct (try_bit_flips_ok _ _ _ _ _ _ _ H) as [_ [_ ->]].
      split; [right; exists rid; repeat split; [exact Hi|discriminate]|exact H].
  - intros [a [[[Hr ->]|[rid [Hr [Hi Hc]]]] H]]; rewrite Hr in H; [left; exact H|right].
    destruct ctx; [|contradiction]. apply in_flat_map. exists (rid, a). auto.
Qed.

Theorem in_check c address adj op ctx iregs rs f :
  In f (check_for_bitflips c address adj op ctx iregs rs) <->
  exists a, examined c address adj ctx iregs f a /\
            In f (try_bit_flips a (f_reg f) (expected_br c adj) ctx rs op).
Proof.
  (* only CpuAmd64 / CpuOther64 with an adjustment other than AdjNullOffset reach the two passes; every other
     combination reports [] and contradicts [examined] *)
  unfold check_for_bitflips, examined. split.
  - intros H. destruct c; try destruct H; destruct adj as [|v|]; try destruct H;
      apply in_passes in H; destruct H as [a [H1 H2]]; exists a; repeat split; auto; discriminate.
  - intros [a [[Hc [Hn H1]] H2]].
    destruct Hc as [-> | ->]; destruct adj as [|v|]; try congruence; apply in_passes; exists a; auto.
Qed.

Lemma gating_none c address adj op ctx iregs rs :
  c = Cpu32 \/ c = CpuArm64 \/ adj = AdjNullOffset ->
  check_for_bitflips c address adj op ctx iregs rs = [].
Proof. intros [ -> | [ -> | -> ] ]; [reflexivity|reflexivity|]. destruct c; reflexivity. Qed.

Lemma gating_accessible c address op ctx iregs rs mi :
  (forall rid v, In (rid, v) iregs -> exists m, lookup_region rs v = Some m /\ possibly_allowed op m = true) ->
  lookup_region rs address = Some mi -> possibly_allowed op mi = true ->
  check_for_bitflips c address AdjNone op ctx iregs rs = [].
Proof.
  intros Hregs Hl Ha.
  destruct (check_for_bitflips c address AdjNone op ctx iregs rs) as [|f t] eqn:E; [reflexivity|exfalso].
  (* a reported flip would derive from an examined value that is not accessible *)
  assert (H : In f (check_for_bitflips c address AdjNone op ctx iregs rs)) by (rewrite E; left; reflexivity).
  apply in_check in H. destruct H as [a [[_ [_ Hs]] H]]. apply in_try_bit_flips in H. destruct H as [Hna _].
  destruct Hs as [[_ ->]|[rid [_ [Hi _]]]].
  - rewrite (Hna _ Hl) in Ha. discriminate.
  - destruct (Hregs _ _ Hi) as [m [Hm Hp]]. rewrite (Hna _ Hm) in Hp. discriminate.
Qed.

Lemma check_src_refines c address adj op ctx iregs rs :
  check_src c address adj op ctx iregs rs =
  check_for_bitflips (cpu_class c) address (adj_class adj) op ctx iregs rs.
Proof.
  unfold check_src, g_check, g_gate, g_gates, g_select, check_for_bitflips, cpu_class, has_ctx.
  destruct c; cbn; destruct adj; cbn; destruct ctx; reflexivity.
Qed.

Lemma cpu_class_32 c : pointer_width c <> WBits64 -> cpu_class c = Cpu32.
Proof. destruct c; cbn; intros H; try reflexivity; exfalso; apply H; reflexivity. Qed.

Lemma cpu_class_live c :
  cpu_class c = CpuAmd64 \/ cpu_class c = CpuOther64 <-> pointer_width c = WBits64 /\ c <> GArm64.
Proof. destruct c; cbn; intuition congruence. Qed.

Lemma cpu_class_dead c : cpu_class c = Cpu32 \/ cpu_class c = CpuArm64 -> pointer_width c <> WBits64 \/ c = GArm64.
Proof. destruct c; cbn; intros [H|H]; try discriminate; try (left; discriminate); right; reflexivity. Qed.

Lemma none_platform c address adj op ctx iregs rs :
  pointer_width c <> WBits64 \/ c = GArm64 ->
  check_src c address adj op ctx iregs rs = [].
Proof.
  intros H. rewrite check_src_refines. apply gating_none.
  destruct H as [H| ->]; [left; apply cpu_class_32; exact H|right; left; reflexivity].
Qed.

(* processor_architecture values.  Every test [arch =? k] of cpu_of_arch is decided in turn; with arch = k both sides of
   the iff are closed (an equation between constructors, and equations between numerals): each direction is then absurd
   ([discriminate], [exfalso; lia]) or plain ([reflexivity], [lia]) *)
Ltac arch_cases :=
  unfold cpu_of_arch;
  repeat (match goal with |- context [?a =? ?k] => destruct (Z.eqb_spec a k) as [->|?] end;
          [cbn; split; intros ?; first [discriminate | reflexivity | lia | (exfalso; lia)] | ]);
  cbn; split; intros ?; first [discriminate | reflexivity | lia | (exfalso; lia)].

Lemma arch_width64 arch :
  pointer_width (cpu_of_arch arch) = WBits64 <->
  (arch = 9 \/ arch = 32770 \/ arch = 12 \/ arch = 32771 \/ arch = 32772).
Proof. arch_cases. Qed.

Lemma arch_amd64 arch : cpu_of_arch arch = GX86_64 <-> arch = 9.
Proof. arch_cases. Qed.

Lemma find_some_in {A} (p : A -> bool) l x : find p l = Some x -> In x l /\ p x = true.
Proof. apply find_some. Qed.

Definition has_null_flag (oa : op_analysis) : Prop :=
  exists l ai, oa_addresses oa = Some l /\ In ai l /\ ai_null ai = true.

Lemma detect_null_flag oa :
  has_null_flag oa <-> exists off, detect_null (oa_addresses oa) = Some off.
Proof.
  unfold has_null_flag, detect_null. destruct (oa_addresses oa) as [l|].
  - destruct (find ai_null l) as [y|] eqn:E; cbn [option_map].
    + apply find_some in E. split; [eauto|intros _; exists l, y; tauto].
    + split; [intros [l' [ai [[= <-] [Hin Hn]]]]|intros [off [=]]].
      rewrite (find_none _ _ E ai Hin) in Hn. discriminate.
  - split; [intros [l [ai [[=] _]]]|intros [off [=]]].
Qed.

Lemma adjusted_sound c os r address oa :
  match adjusted_of c os r address oa with
  | GAdjNullPointerWithOffset off =>
      exists o l ai, oa = Some o /\ oa_addresses o = Some l /\ In ai l /\ ai_null ai = true /\ ai_addr ai = off
  | GAdjNonCanonical v =>
      c = GX86_64 /\ is_gpf os r address = true /\
      exists o l ai, oa = Some o /\ oa_addresses o = Some l /\ In ai l /\ ai_addr ai = v /\
                     in_non_canonical v = true /\ (forall ai', In ai' l -> ai_null ai' = false)
  | GAdjNone => oa = None \/ exists o, oa = Some o /\ ~ has_null_flag o
  end.
Proof.
  unfold adjusted_of. destruct oa as [o|]; [|left; reflexivity].
  pose proof (detect_null_flag o) as Hflag. unfold detect_null, non_canonical in *.
  destruct (oa_addresses o) as [l|] eqn:El.
  - destruct (find ai_null l) as [ai|] eqn:Ef; cbn [option_map] in *.
    { apply find_some in Ef. exists o, l, ai. tauto. }
    assert (Hno : ~ has_null_flag o) by (intros H; apply Hflag in H; destruct H as [off [=]]).
    destruct (gcpu_eqb c GX86_64) eqn:Ec, (is_gpf os r address); cbn [negb]; eauto.
    destruct (find (fun ai => in_non_canonical (ai_addr ai)) l) as [ai|] eqn:Ef2; cbn [option_map]; eauto.
    apply find_some in Ef2. split; [destruct c; (discriminate Ec || reflexivity)|]. split; [reflexivity|].
    exists o, l, ai. pose proof (find_none _ _ Ef). tauto.
  - assert (Hno : ~ has_null_flag o) by (intros H; apply Hflag in H; destruct H as [off [=]]).
    destruct (negb (gcpu_eqb c GX86_64)), (negb (is_gpf os r address)); eauto.
Qed.

(* what a non-canonical adjustment says, by name *)
Lemma adjusted_nc c os r address oa v :
  adjusted_of c os r address oa = GAdjNonCanonical v ->
  c = GX86_64 /\ is_gpf os r address = true /\ in_non_canonical v = true /\
  exists o l ai, oa = Some o /\ oa_addresses o = Some l /\ In ai l /\ ai_addr ai = v.
Proof.
  intros H. pose proof (adjusted_sound c os r address oa) as S. rewrite H in S.
  destruct S as (Hc & Hg & o & l & ai & Ho & Hl & Hi & Hv & Hr & _). eauto 10.
Qed.

Definition u64_recs (l : list (Z * Z * Z)) : Prop :=
  Forall (fun e => 0 <= fst (fst e) < two64 /\ 0 <= snd (fst e) < two64) l.

Lemma wf_regions_info l : u64_recs l -> wf_regions (regions_of_info l).
Proof.
  intros H. apply Forall_map. eapply Forall_impl; [|exact H]. intros [[a b] p] [Ha Hb]. cbn in *.
  destruct (mk_range a b) as [r|] eqn:E; [|exact I]. eapply mk_range_wf; [| |exact E]; lia.
Qed.

Lemma wf_regions_maps l : u64_recs l -> wf_regions (regions_of_maps l).
Proof.
  intros H. apply Forall_map. eapply Forall_impl; [|exact H]. intros [[a b] p] [Ha Hb]. cbn in *.
  destruct (mk_range_maps a b) as [r|] eqn:E; [|exact I]. eapply mk_range_maps_wf; [| |exact E]; lia.
Qed.

(* the permission an operation asks of a MINIDUMP_MEMORY_INFO protection word / of a maps line *)
Definition info_allows (op : memop) (prot : Z) : bool :=
  match op with Undetermined => true | MRead => prot_r prot | MWrite => prot_w prot | MExec => prot_x prot end.
Definition maps_allows (op : memop) (p : Z) : bool :=
  match op with Undetermined => true | MRead => Z.testbit p 2 | MWrite => Z.testbit p 1 | MExec => Z.testbit p 0 end.

Lemma qualifies_info l op x : u64_recs l -> qualifies (regions_of_info l) op x ->
  x = 0 \/ exists base size prot, In (base, size, prot) l /\ size <> 0 /\ base + size < two64 /\
                                  base <= x < base + size /\ info_allows op prot = true.
Proof.
  intros Hl Hq. destruct (qualifies_mapped _ _ _ (wf_regions_info l Hl) Hq) as [H0|[mi [r [Hin [Hr [Hc Hp]]]]]]; [left; exact H0|right].
  apply in_map_iff in Hin. destruct Hin as [[[a b] p] [<- Hin]]. exists a, b, p. split; [exact Hin|].
  apply mk_range_shape in Hr. destruct Hr as (-> & Hs & Hb). unfold contains in Hc. cbn [fst snd] in Hc.
  repeat split; try lia. destruct op; exact Hp.
Qed.

Lemma qualifies_maps l op x : u64_recs l -> qualifies (regions_of_maps l) op x ->
  x = 0 \/ exists lo hi p, In (lo, hi, p) l /\ lo <= x <= hi /\ maps_allows op p = true.
Proof.
  intros Hl Hq. destruct (qualifies_mapped _ _ _ (wf_regions_maps l Hl) Hq) as [H0|[mi [r [Hin [Hr [Hc Hp]]]]]]; [left; exact H0|right].
  apply in_map_iff in Hin. destruct Hin as [[[a b] p] [<- Hin]]. exists a, b, p. split; [exact Hin|].
  cbn [region_of_map rg_range] in Hr. unfold mk_range_maps in Hr. destruct (a >? b); [discriminate|]. injection Hr as <-.
  unfold contains in Hc. cbn [fst snd] in Hc. split; [lia|]. destruct op; exact Hp.
Qed.

(* a value inside a MemoryInfoList record that intersects no other record: the lookup finds that record's region *)
Lemma lookup_isolated_record l1 base size prot l2 a :
  u64_recs (l1 ++ (base, size, prot) :: l2) ->
  size <> 0 -> base + size < two64 -> base <= a < base + size ->
  (forall b s p, In (b, s, p) (l1 ++ l2) -> s <> 0 -> b + s < two64 -> b + s <= base \/ base + size <= b) ->
  lookup_region (regions_of_info (l1 ++ (base, size, prot) :: l2)) a = Some (region_of_info base size prot).
Proof.
  intros Hl Hs Hb Ha Hiso. apply wf_regions_info in Hl. unfold regions_of_info in *. rewrite map_app in *. cbn [map] in *.
  apply (lookup_isolated _ _ _ (base, base + size - 1) a Hl).
  - apply mk_range_iff. auto.
  - unfold contains. cbn [fst snd]. lia.
  - intros mi' r' Hin Hr. rewrite <- map_app in Hin. apply in_map_iff in Hin. destruct Hin as [[[b s] p] [<- Hin]].
    apply mk_range_shape in Hr. destruct Hr as (-> & Hs' & Hb'). specialize (Hiso b s p Hin Hs' Hb').
    unfold intersects. cbn [fst snd]. lia.
Qed.

Lemma in_iregs_of pc regs id v :
  In (id, v) (iregs_of pc regs) <-> In id regs /\ get_register pc id = Some v.
Proof.
  unfold iregs_of. rewrite in_flat_map. split.
  - intros [x [Hx Hin]]. destruct (get_register pc x) as [w|] eqn:E; [|destruct Hin].
    destruct Hin as [[= <- <-]|[]]. auto.
  - intros [Hin Hg]. exists id. rewrite Hg. split; [exact Hin|left; reflexivity].
Qed.

Section PipelineProofs.
  Variable analysis : pcontext -> option op_analysis.

  Lemma in_pipeline_iregs pc id v :
    In (id, v) (pipeline_iregs analysis pc) <->
    exists x oa, pc = Some x /\ analysis x = Some oa /\ In id (oa_regs oa) /\ get_register x id = Some v.
  Proof.
    unfold pipeline_iregs, the_analysis. destruct pc as [x|]; [destruct (analysis x) as [oa|] eqn:E|].
    - rewrite in_iregs_of. split; [intros H; exists x, oa; auto|].
      intros [x' [oa' [[= <-] [Ha H]]]]. rewrite E in Ha. injection Ha as <-. exact H.
    - split; [intros []|intros [x' [oa' [[= <-] [Ha _]]]]; congruence].
    - split; [intros []|intros [x' [oa' [[=] _]]]].
  Qed.

  (* BOTH passes are gated on "null pointer plus offset", whatever the instruction analysis returned *)
  Lemma pipeline_none_null c os r address x rs oa :
    analysis x = Some oa -> has_null_flag oa ->
    pipeline analysis c os r address (Some x) rs = [].
  Proof.
    intros Ha Hn. apply detect_null_flag in Hn. destruct Hn as [off Hn].
    unfold pipeline, pipeline_adj, the_analysis, adjusted_of. rewrite Ha, Hn.
    rewrite check_src_refines. apply gating_none. right; right; reflexivity.
  Qed.

  (* without an exception context there is no analysis, no adjustment and no register pass *)
  Lemma pipeline_no_context c os r address rs :
    pipeline analysis c os r address None rs =
    check_src c address GAdjNone (memop_of_reason r) None [] rs.
  Proof. reflexivity. Qed.

  Definition examined_by (c : gcpu) (os : gos) (r : reason) (address : Z) (pc : option pcontext) (f : flip) (a : Z) : Prop :=
    (f_reg f = None /\
     a = match pipeline_adj analysis c os r address pc with GAdjNonCanonical v => v | _ => address end) \/
    (exists id x oa, f_reg f = Some id /\ pc = Some x /\ analysis x = Some oa /\ In id (oa_regs oa) /\
                     get_register x id = Some a).

  Definition pipeline_br (c : gcpu) (os : gos) (r : reason) (address : Z) (pc : option pcontext) : bitrange :=
    expected_br (cpu_class c) (adj_class (pipeline_adj analysis c os r address pc)).

  (* [examined] on the inputs the pipeline hands to the check, in the pipeline's own terms *)
  Lemma examined_pipeline c os r address pc f a :
    examined (cpu_class c) address (adj_class (pipeline_adj analysis c os r address pc)) (option_map to_context pc)
             (pipeline_iregs analysis pc) f a <->
    pointer_width c = WBits64 /\ c <> GArm64 /\
    (forall off, pipeline_adj analysis c os r address pc <> GAdjNullPointerWithOffset off) /\
    examined_by c os r address pc f a.
  Proof.
    unfold examined, examined_by. set (adj := pipeline_adj analysis c os r address pc).
    pose proof (cpu_class_live c) as Hc.
    assert (Hn : adj_class adj <> AdjNullOffset <-> forall off, adj <> GAdjNullPointerWithOffset off).
    { destruct adj; cbn; split; try discriminate; intros H; [destruct H; reflexivity|destruct (H off); reflexivity]. }
    assert (Hr : (exists rid, f_reg f = Some rid /\ In (rid, a) (pipeline_iregs analysis pc) /\ option_map to_context pc <> None) <->
                 exists id x oa, f_reg f = Some id /\ pc = Some x /\ analysis x = Some oa /\ In id (oa_regs oa) /\
                                 get_register x id = Some a).
    { split.
      - intros [rid [Hf [Hi _]]]. apply in_pipeline_iregs in Hi. destruct Hi as [x [oa Hi]]. exists rid, x, oa. exact (conj Hf Hi).
      - intros [id [x [oa [Hf [-> Hi]]]]]. exists id. split; [exact Hf|].
        split; [apply in_pipeline_iregs; exists x, oa; split; [reflexivity|exact Hi]|discriminate]. }
    replace (match adj_class adj with AdjNonCanonical v => v | _ => address end)
      with (match adj with GAdjNonCanonical v => v | _ => address end) by (destruct adj; reflexivity).
    rewrite Hc, Hn, Hr. apply and_assoc.
  Qed.

  Theorem in_pipeline c os r address pc rs f :
    In f (pipeline analysis c os r address pc rs) <->
    pointer_width c = WBits64 /\ c <> GArm64 /\
    (forall off, pipeline_adj analysis c os r address pc <> GAdjNullPointerWithOffset off) /\
    exists a, examined_by c os r address pc f a /\
              In f (try_bit_flips a (f_reg f) (pipeline_br c os r address pc) (option_map to_context pc) rs (memop_of_reason r)).
  Proof.
    unfold pipeline. rewrite check_src_refines, in_check. fold (pipeline_br c os r address pc). split.
    - intros [a [He H]]. apply examined_pipeline in He. destruct He as (Hw & Hg & Hn & He). eauto 6.
    - intros (Hw & Hg & Hn & a & He & H). exists a. split; [apply examined_pipeline; auto|exact H].
  Qed.

  (* 48..64 exactly when a non-canonical address was recovered, 0..48 on amd64 otherwise, 0..64 on the other 64-bit CPUs *)
  Lemma pipeline_br_eq c os r address pc :
    pointer_width c = WBits64 -> c <> GArm64 ->
    pipeline_br c os r address pc =
    match pipeline_adj analysis c os r address pc with
    | GAdjNonCanonical _ => Amd64NonCanonical
    | _ => if gcpu_eqb c GX86_64 then Amd64Canonical else AllBits
    end.
  Proof.
    intros Hw Hna. unfold pipeline_br.
    destruct (pipeline_adj analysis c os r address pc); cbn; try reflexivity;
      destruct c; try discriminate Hw; try reflexivity; destruct Hna; reflexivity.
  Qed.

  (* every reported flip, on the map as the lookup sees it *)
  Lemma pipeline_flip c os r address pc rs f :
    In f (pipeline analysis c os r address pc rs) ->
    exists a j, examined_by c os r address pc f a /\ inaccessible rs (memop_of_reason r) a /\
                br_lo (pipeline_br c os r address pc) <= j < br_hi (pipeline_br c os r address pc) /\
                f_addr f = Z.lxor a (2 ^ j) /\ qualifies rs (memop_of_reason r) (f_addr f).
  Proof.
    intros H. apply in_pipeline in H. destruct H as (_ & _ & _ & a & He & H).
    apply in_try_bit_flips in H. destruct H as [Hna [j [Hj [Hq Hf]]]].
    exists a, j. split; [exact He|]. split; [exact Hna|]. split; [exact Hj|].
    rewrite Hf. split; [reflexivity|exact Hq].
  Qed.

  (* flipping one of the low 64 bits of a u64 gives a u64; the examined values are u64 when the inputs are *)
  Lemma pipeline_flip_u64 c os r address pc rs f :
    0 <= address < two64 ->
    (forall x id v, pc = Some x -> get_register x id = Some v -> 0 <= v < two64) ->
    (forall x oa ai, analysis x = Some oa -> (exists a, oa_addresses oa = Some a /\ In ai a) -> 0 <= ai_addr ai < two64) ->
    In f (pipeline analysis c os r address pc rs) -> 0 <= f_addr f < two64.
  Proof.
    intros Haddr Hregs Hacc Hin. destruct (pipeline_flip _ _ _ _ _ _ _ Hin) as (a & j & He & _ & Hj & -> & _).
    pose proof (br_bounds_in_64 (pipeline_br c os r address pc)). apply lxor_pow2_u64; [|lia].
    destruct He as [[_ ->]|[id [x [oa [_ [Hpc [_ [_ Hg]]]]]]]]; [|eapply Hregs; eassumption].
    unfold pipeline_adj. destruct (adjusted_of c os r address (the_analysis analysis pc)) as [|v|off] eqn:E; try exact Haddr.
    destruct (adjusted_nc _ _ _ _ _ _ E) as (_ & _ & _ & o & la & ai & Ho & Hla & Hi & <-).
    destruct pc as [x|]; [|discriminate Ho]. eapply Hacc; [exact Ho|eauto].
  Qed.

  Lemma none_platform_arch arch os r address pc rs :
    ~ (arch = 9 \/ arch = 32770 \/ arch = 32772) ->
    pipeline analysis (cpu_of_arch arch) os r address pc rs = [].
  Proof.
    intros H. apply none_platform.
    destruct (Z.eq_dec arch 12) as [->|H12]; [right; reflexivity|].
    destruct (Z.eq_dec arch 32771) as [->|H3]; [right; reflexivity|].
    left. intros Hw. apply arch_width64 in Hw. lia.
  Qed.
  (* the two clauses of the property that say when nothing is reported *)
  Lemma dump_none arch platform_id e pc rs :
    (forall x oa, pc = Some x -> analysis x = Some oa -> has_null_flag oa ->
                  dump_pipeline analysis arch platform_id e pc rs = []) /\
    (~ (arch = 9 \/ arch = 32770 \/ arch = 32772) -> dump_pipeline analysis arch platform_id e pc rs = []).
  Proof.
    split; [|apply none_platform_arch].
    intros x oa -> Han Hn. exact (pipeline_none_null _ _ _ _ _ _ _ Han Hn).
  Qed.
End PipelineProofs.

Lemma operand_address_spec pc m ai :
  operand_address pc m = Some ai ->
  0 <= ai_addr ai < two64 /\
  (ai_null ai = true <-> exists b, mo_base m = Some b /\ get_register pc b = Some 0).
Proof.
  unfold operand_address. intros H.
  (* the flag is fixed by the base stage; the index and displacement stages only move the address *)
  destruct (match mo_base m with Some _ => _ | None => _ end) as [[a0 nul]|] eqn:Est; [|discriminate].
  destruct (match mo_index m with Some _ => _ | None => _ end) as [a1|]; [|discriminate].
  injection H as <-. cbn [ai_addr ai_null]. split; [apply wrap64_range|].
  destruct (mo_base m) as [b|]; [destruct (get_register pc b) as [v|] eqn:Eg; [|discriminate]|]; injection Est as <- <-.
  - rewrite Z.eqb_eq. split; [intros ->; eauto|intros [b' [[= <-] Hg]]; congruence].
  - split; [discriminate|intros [b' [[=] _]]].
Qed.

Lemma sequence_in {A} (l : list (option A)) l' x :
  sequence l = Some l' -> In (Some x) l -> In x l'.
Proof.
  revert l'. induction l as [|o t IH]; intros l' Hs Hin; [destruct Hin|].
  destruct o as [y|]; cbn [sequence] in Hs; [|discriminate].
  destruct (sequence t) as [t'|]; cbn [option_map] in Hs; [|discriminate]. inversion Hs; subst l'.
  destruct Hin as [Heq|Hin]; [inversion Heq; left; reflexivity|right; apply IH; [reflexivity|exact Hin]].
Qed.

Lemma sequence_some {A} (l : list (option A)) :
  (forall o, In o l -> o <> None) -> exists l', sequence l = Some l'.
Proof.
  induction l as [|o t IH]; intros H; [exists []; reflexivity|].
  destruct o as [y|]; [|exfalso; apply (H None); [left; reflexivity|reflexivity]].
  destruct IH as [t' Ht]; [intros o Ho; apply H; right; exact Ho|].
  exists (y :: t'). cbn [sequence]. rewrite Ht. reflexivity.
Qed.

Lemma has_null_flag_access oa l ai :
  oa_accesses oa = Some l -> In ai l -> ai_null ai = true -> has_null_flag oa.
Proof.
  intros Hl Hin Hn. unfold has_null_flag, oa_addresses. rewrite Hl. eexists; exists ai. split; [reflexivity|].
  split; [|exact Hn]. destruct (oa_ip oa) as [[u|]|]; try exact Hin. apply in_or_app. left. exact Hin.
Qed.

Lemma has_null_flag_ip oa l ai :
  oa_accesses oa = Some l -> oa_ip oa = Some (IpUpdate ai) -> ai_null ai = true -> has_null_flag oa.
Proof.
  intros Hl Hi Hn. unfold has_null_flag, oa_addresses. rewrite Hl, Hi. exists (l ++ [ai]), ai.
  split; [reflexivity|]. split; [apply in_or_app; right; left; reflexivity|exact Hn].
Qed.

(* the explicit accesses of a non-LEA instruction whose operand registers are all readable: one per operand *)
Lemma explicit_accesses_some di pc :
  di_lea di = false -> (forall m, In m (di_ops di) -> operand_address pc m <> None) ->
  exists l, explicit_accesses di pc = Some l /\
            forall m ai, In m (di_ops di) -> operand_address pc m = Some ai -> In ai l.
Proof.
  intros Hlea Hall. unfold explicit_accesses. rewrite Hlea.
  destruct (sequence_some (map (operand_address pc) (di_ops di))) as [l Hl].
  { intros o Ho. apply in_map_iff in Ho. destruct Ho as [m [<- Hm]]. apply Hall, Hm. }
  exists l. split; [exact Hl|]. intros m ai Hm Ho. eapply sequence_in; [exact Hl|]. rewrite <- Ho. apply in_map, Hm.
Qed.

(* the memory accesses of an instruction are determined unless an operand register is unreadable *)
Lemma analyze_accesses di pc :
  (di_memsize di = true -> explicit_accesses di pc <> None) ->
  exists oa l, analyze_dinstr di pc = Some oa /\ oa_accesses oa = Some l /\ oa_ip oa = ip_of (di_ip di) pc.
Proof.
  intros Hex. unfold analyze_dinstr. destruct (di_memsize di); cbn [negb].
  - destruct (explicit_accesses di pc) as [l|]; [|destruct (Hex eq_refl eq_refl)].
    eexists; eexists. split; [reflexivity|]. split; reflexivity.
  - eexists; eexists. split; [reflexivity|]. split; reflexivity.
Qed.

Definition rank_lt (a b : Z) : Prop := name_rank a < name_rank b.

Lemma insert_reg_in id x l : In x (insert_reg id l) -> x = id \/ In x l.
Proof.
  induction l as [|h t IH]; cbn [insert_reg]; intros H.
  - destruct H as [H|[]]; left; symmetry; exact H.
  - destruct (name_rank id <? name_rank h).
    + destruct H as [H|H]; [left; symmetry; exact H|right; exact H].
    + destruct (name_rank id =? name_rank h); [right; exact H|].
      destruct H as [H|H]; [right; left; exact H|]. apply IH in H. destruct H as [H|H]; [left; exact H|right; right; exact H].
Qed.

Lemma insert_reg_keeps id l x : In x l -> In x (insert_reg id l).
Proof.
  induction l as [|h t IH]; cbn [insert_reg]; intros H; [destruct H|].
  destruct (name_rank id <? name_rank h); [right; exact H|].
  destruct (name_rank id =? name_rank h); [exact H|].
  destruct H as [H|H]; [left; exact H|right; apply IH; exact H].
Qed.

Lemma insert_reg_has id l : exists id', In id' (insert_reg id l) /\ name_rank id' = name_rank id.
Proof.
  induction l as [|h t [id' [Hin Hr]]]; cbn [insert_reg]; [exists id; split; [left; reflexivity|reflexivity]|].
  destruct (name_rank id <? name_rank h); [exists id; split; [left; reflexivity|reflexivity]|].
  destruct (name_rank id =? name_rank h) eqn:E; [exists h; split; [left; reflexivity|lia]|].
  exists id'. split; [right; exact Hin|exact Hr].
Qed.

Lemma insert_reg_sorted id l : StronglySorted rank_lt l -> StronglySorted rank_lt (insert_reg id l).
Proof.
  induction l as [|h t IH]; cbn [insert_reg]; intros Hs; [constructor; constructor|].
  inversion Hs as [|? ? Hst Hf]; subst.
  destruct (name_rank id <? name_rank h) eqn:E1.
  - constructor; [exact Hs|]. constructor; [unfold rank_lt; lia|].
    eapply Forall_impl; [|exact Hf]. unfold rank_lt. intros x Hx. lia.
  - destruct (name_rank id =? name_rank h) eqn:E2; [exact Hs|].
    constructor; [apply IH; exact Hst|]. rewrite Forall_forall in *. intros x Hx.
    apply insert_reg_in in Hx. destruct Hx as [->|Hx]; [unfold rank_lt; lia|exact (Hf x Hx)].
Qed.

(* get_registers inserts the operand registers one after the other; read from the last one inserted,
   this is a fold_right, and facts about it go by induction on the list *)
Lemma instr_regs_rev ops : instr_regs ops = fold_right insert_reg [] (rev (flat_map operand_regs ops)).
Proof. symmetry. apply fold_left_rev_right. Qed.

Lemma inserted_sorted l : StronglySorted rank_lt (fold_right insert_reg [] l).
Proof. induction l as [|i t IH]; cbn [fold_right]; [constructor|apply insert_reg_sorted, IH]. Qed.

Lemma inserted_in l x : In x (fold_right insert_reg [] l) -> In x l.
Proof.
  induction l as [|i t IH]; cbn [fold_right]; [tauto|]. intros H.
  apply insert_reg_in in H. destruct H as [->|H]; [left; reflexivity|right; exact (IH H)].
Qed.

Lemma inserted_has l id : In id l ->
  exists id', In id' (fold_right insert_reg [] l) /\ name_rank id' = name_rank id.
Proof.
  induction l as [|i t IH]; cbn [fold_right]; [intros []|intros [->|H]]; [apply insert_reg_has|].
  destruct (IH H) as [id' [Hin Hr]]. exists id'. split; [apply insert_reg_keeps, Hin|exact Hr].
Qed.

Lemma instr_regs_sorted ops : StronglySorted rank_lt (instr_regs ops).
Proof. rewrite instr_regs_rev. apply inserted_sorted. Qed.

Lemma instr_regs_has ops id : In id (flat_map operand_regs ops) ->
  exists id', In id' (instr_regs ops) /\ name_rank id' = name_rank id.
Proof. rewrite instr_regs_rev, in_rev. apply inserted_has. Qed.

(* every register examined by the register pass is the base or index register of a memory operand *)
Lemma instr_regs_sound ops id :
  In id (instr_regs ops) -> exists m, In m ops /\ (mo_base m = Some id \/ mo_index m = Some id).
Proof.
  rewrite instr_regs_rev. intros H. apply inserted_in in H. rewrite <- in_rev in H.
  apply in_flat_map in H. destruct H as [m [Hm Hin]]. exists m. split; [exact Hm|].
  unfold operand_regs in Hin. apply in_app_or in Hin.
  destruct Hin as [Hin|Hin]; [destruct (mo_base m) as [b|]|destruct (mo_index m) as [i|]]; try destruct Hin as [Hin|[]]; try destruct Hin;
    subst; [left|right]; reflexivity.
Qed.

(* the name ranks of the 17 registers are pairwise different: the rank table has no duplicates *)
Lemma name_rank_inj a b : 0 <= a <= 16 -> 0 <= b <= 16 -> name_rank a = name_rank b -> a = b.
Proof.
  assert (Hnd : NoDup AMD64_NAME_RANK) by (unfold AMD64_NAME_RANK; repeat (constructor; [cbn; lia|]); constructor).
  intros Ha Hb. unfold name_rank. destruct (a <? 0) eqn:E1; [lia|]. destruct (b <? 0) eqn:E2; [lia|]. intros H.
  apply (proj1 (NoDup_nth _ 99) Hnd) in H; change (length AMD64_NAME_RANK) with 17%nat; lia.
Qed.

(* every base / index register is in the set, when the operand registers are among the 17 of the amd64 context *)
Lemma instr_regs_complete ops m id :
  In m ops -> (mo_base m = Some id \/ mo_index m = Some id) -> 0 <= id <= 16 ->
  (forall m' id', In m' ops -> (mo_base m' = Some id' \/ mo_index m' = Some id') -> 0 <= id' <= 16) ->
  In id (instr_regs ops).
Proof.
  intros Hm Hid Hr Hall.
  assert (Hin : In id (flat_map operand_regs ops)).
  { apply in_flat_map. exists m. split; [exact Hm|]. unfold operand_regs.
    destruct Hid as [-> | ->]; apply in_or_app; [left|right]; left; reflexivity. }
  destruct (instr_regs_has _ id Hin) as [id' [Hin' Hrk]].
  (* the member of equal rank is [id] itself: it is one of the 17 registers too *)
  assert (Hr' : 0 <= id' <= 16).
  { destruct (instr_regs_sound ops id' Hin') as [m' [Hm' Hid']]. eapply Hall; eassumption. }
  rewrite <- (name_rank_inj id' id Hr' Hr Hrk). exact Hin'.
Qed.

Lemma crash_address_u64 c o code nparams info1 excaddr :
  0 <= info1 < two64 -> 0 <= excaddr < two64 -> 0 <= crash_address c o code nparams info1 excaddr < two64.
Proof.
  intros H1 H2.
  assert (Hm : forall x, 0 <= x mod 4294967296 < two64).
  { intros x. rewrite two64_val. pose proof (Z.mod_pos_bound x 4294967296 eq_refl). lia. }
  unfold crash_address. destruct (pointer_width c); cbv zeta; try apply Hm;
    destruct o; try assumption; destruct (_ && _); assumption.
Qed.

Lemma is_gpf_other r a : is_gpf OsOther r a = false.
Proof. destruct r; reflexivity. Qed.

Lemma is_gpf_shape c o code flags nparams info0 address :
  is_gpf (os_class o) (reason_of c o code flags nparams info0) address = true ->
  (o = GOsWindows /\ code = WIN_EXCEPTION_ACCESS_VIOLATION /\ 1 <= nparams /\ info0 = WIN_ACCESS_READ /\ address = two64 - 1) \/
  (o = GOsMacOs /\ code = MAC_EXC_BAD_ACCESS /\ flags = MAC_EXC_I386_GPFLT /\ address = 0 /\ (c = GX86 \/ c = GX86_64)) \/
  (o = GOsLinux /\ (code = LINUX_SIGSEGV \/ code = LINUX_SIGBUS) /\ flags = LINUX_SI_KERNEL /\ address = 0).
Proof.
  destruct o; unfold reason_of; cbn [os_class g_reason_family Z.eqb Pos.eqb]; cbv iota;
    try (rewrite is_gpf_other; discriminate).
  - (* Windows *)
    destruct ((code =? WIN_EXCEPTION_ACCESS_VIOLATION) && (1 <=? nparams) && existsb (Z.eqb info0) WIN_ACCESS_TYPES) eqn:E;
      [|intros H; discriminate H].
    cbn [is_gpf]. intros H. left. repeat split; lia.
  - (* macOS *)
    destruct ((code =? MAC_EXC_BAD_ACCESS) && negb (existsb (Z.eqb flags) MAC_BAD_ACCESS_KERN_TYPES) &&
              (gcpu_eqb c GX86 || gcpu_eqb c GX86_64) && (flags =? MAC_EXC_I386_GPFLT)) eqn:E; [|intros H; discriminate H].
    cbn [is_gpf]. intros H. right. left.
    assert (E3 : gcpu_eqb c GX86 || gcpu_eqb c GX86_64 = true).
    { apply andb_prop in E. destruct E as [E _]. apply andb_prop in E. apply E. }
    repeat split; try lia. destruct c; cbn in E3; try discriminate; auto.
  - (* Linux *)
    destruct ((code =? LINUX_SIGSEGV) && negb (existsb (Z.eqb flags) LINUX_SIGSEGV_KINDS)) eqn:E1.
    + cbn [is_gpf]. intros H. right. right. repeat split; lia.
    + destruct ((code =? LINUX_SIGBUS) && negb (existsb (Z.eqb flags) LINUX_SIGBUS_KINDS)) eqn:E2; [|intros H; discriminate H].
      cbn [is_gpf]. intros H. right. right. repeat split; lia.
Qed.

(* the platform ids of the three Os values the GPF test knows; every test [id =? k] is decided in turn *)
Lemma os_of_platform_id_gpf id :
  os_of_platform_id id = GOsWindows \/ os_of_platform_id id = GOsMacOs \/ os_of_platform_id id = GOsLinux ->
  id = 2 \/ id = 3 \/ id = 33025 \/ id = 33281.
Proof.
  unfold os_of_platform_id.
  repeat (match goal with |- context [id =? ?k] => destruct (Z.eqb_spec id k) end;
          [first [lia | intros [H|[H|H]]; discriminate H]|]).
  intros [H|[H|H]]; discriminate H.
Qed.
