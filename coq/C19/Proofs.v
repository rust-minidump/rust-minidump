(* C19/Proofs.v — the region lookup, xor with a power of two, the predicates the theorems about the search
   are stated with (flip_ok, examined, the expected bit range), and the confidence value. *)
From Coq Require Import Lia.
From Flocq Require Import IEEE754.BinarySingleNaN IEEE754.Binary IEEE754.Bits Core.
From RM Require Import C08.Proofs C08.IndexProofs C19.Model.
Open Scope Z_scope.

Definition wf_regions (rs : list region) : Prop :=
  Forall (fun rg => match rg_range rg with Some r => wf_range r | None => True end) rs.

Lemma enumerate_wf (rs : list region) i :
  wf_regions rs -> wf_entries (enumerate_from i (map rg_range rs)).
Proof. intros H. apply wf_enumerate, Forall_map, H. Qed.

Lemma lookup_region_sound rs x mi :
  wf_regions rs -> lookup_region rs x = Some mi ->
  In mi rs /\ exists r, rg_range mi = Some r /\ contains r x = true.
Proof.
  intros Hwf. unfold lookup_region, region_table.
  destruct (rm_get _ x) as [i|] eqn:Eg; [|discriminate]. intros Hn.
  apply (lookup_sound Z.eqb Z.eqb_eq) in Eg; [|apply enumerate_wf; assumption].
  destruct Eg as [r [Hin Hc]]. apply enumerate_from_in in Hin. destruct Hin as [_ Hnth].
  rewrite Z.sub_0_r, nth_error_map, Hn in Hnth. injection Hnth as Hr.
  split; [eapply nth_error_In; eassumption|]. exists r. auto.
Qed.

(* a value in a region that intersects no other region: the lookup finds exactly that region (C08 completeness) *)
Lemma lookup_isolated rs1 mi rs2 r a :
  wf_regions (rs1 ++ mi :: rs2) -> rg_range mi = Some r -> contains r a = true ->
  (forall mi' r', In mi' (rs1 ++ rs2) -> rg_range mi' = Some r' -> intersects r r' = false) ->
  lookup_region (rs1 ++ mi :: rs2) a = Some mi.
Proof.
  intros Hwf Hr Hc Hiso. apply (enumerate_wf _ 0) in Hwf. unfold lookup_region, region_table.
  rewrite map_app, enumerate_from_app in *. cbn [map enumerate_from] in *. rewrite Hr in *.
  rewrite (isolated_complete Z.eqb Z.eqb_eq _ r _ _ a Hwf); [|clear Hwf|exact Hc].
  - rewrite map_length, Z.add_0_l, Nat2Z.id, nth_error_app2, Nat.sub_diag by lia. reflexivity.
  - intros r' v' Hin.
    assert (Hm : In (Some r') (map rg_range (rs1 ++ rs2))).
    { rewrite map_app. apply in_or_app. apply in_app_or in Hin.
      destruct Hin as [Hin|Hin]; [left|right]; apply enumerate_from_in in Hin; eapply nth_error_In, Hin. }
    apply in_map_iff in Hm. destruct Hm as [mi' [Hr' Hmi']]. eapply Hiso; eassumption.
Qed.

Lemma lxor_pow2_bit a j k : 0 <= j ->
  Z.testbit (Z.lxor a (2 ^ j)) k = xorb (Z.testbit a k) (j =? k).
Proof. intros Hj. rewrite Z.lxor_spec, Z.pow2_bits_eqb by assumption. reflexivity. Qed.

Lemma lxor_pow2_u64 a j : 0 <= a < two64 -> 0 <= j < 64 -> 0 <= Z.lxor a (2 ^ j) < two64.
Proof.
  rewrite two64_val. intros Ha Hj. assert (Hp : 0 < 2 ^ j) by (apply Z.pow_pos_nonneg; lia).
  assert (H0 : 0 <= Z.lxor a (2 ^ j)) by (apply Z.lxor_nonneg; lia). split; [exact H0|].
  destruct (Z.eq_dec (Z.lxor a (2 ^ j)) 0) as [->|Hne]; [lia|]. apply Z.log2_lt_pow2; [lia|].
  (* the highest set bit of the xor is not above the higher of the two highest set bits *)
  pose proof (Z.log2_lxor a (2 ^ j) ltac:(lia) ltac:(lia)) as Hl. rewrite Z.log2_pow2 in Hl by lia.
  assert (Z.log2 a < 64) by (destruct (Z.eq_dec a 0) as [->|]; [reflexivity|apply Z.log2_lt_pow2; lia]).
  lia.
Qed.

Definition flip_ok (a : Z) (reg : option Z) (rs : list region) (op : memop) (lo hi : Z) (f : flip) : Prop :=
  (exists j, lo <= j < hi /\ f_addr f = Z.lxor a (2 ^ j)) /\
  (f_addr f = 0 \/ exists mi, lookup_region rs (f_addr f) = Some mi /\ possibly_allowed op mi = true) /\
  f_reg f = reg.

Definition br_lo b := fst (br_bounds b).
Definition br_hi b := snd (br_bounds b).

Lemma br_bounds_in_64 br : 0 <= br_lo br /\ br_lo br <= br_hi br /\ br_hi br <= 64.
Proof. destruct br; cbn; lia. Qed.

(* the bit range chosen by the `match &info.adjusted_address` arms of check_for_bitflips (Gen.C19Check.g_select is the
   regenerated form) *)
Definition expected_br (c : cpu) (adj : adjusted) : bitrange :=
  match adj with
  | AdjNonCanonical _ => Amd64NonCanonical
  | _ => match c with CpuAmd64 => Amd64Canonical | _ => AllBits end
  end.

(* which value a reported flip was derived from *)
Definition examined (c : cpu) (address : Z) (adj : adjusted) (ctx : option context)
           (iregs : list (Z * Z)) (f : flip) (a : Z) : Prop :=
  (c = CpuAmd64 \/ c = CpuOther64) /\ adj <> AdjNullOffset /\
  ((f_reg f = None /\ a = match adj with AdjNonCanonical v => v | _ => address end) \/
   (exists rid, f_reg f = Some rid /\ In (rid, a) iregs /\ ctx <> None)).

Definition le_b32 (x y : binary32) : bool :=
  match b32_compare x y with Some Lt | Some Eq => true | _ => false end.
(* the argument is bound once, so the sweep below evaluates each confidence once *)
Definition in_01 (c : binary32) : bool := le_b32 (f32 0) c && le_b32 c (f32 F32_ONE_bits).

(* confidence() looks at the register count only through NEARBY_REGISTER[min(count, 4) - 1] under count > 0 *)
Definition clamp (d : details) : details :=
  {| d_nc := d_nc d; d_null := d_null d; d_low := d_low d;
     d_nearby := Z.max 0 (Z.min (d_nearby d) 4); d_poison := d_poison d |}.

Lemma nearby_len : Z.of_nat (length NEARBY_REGISTER_c) = 4.
Proof. reflexivity. Qed.

Lemma flag_clamp d f : flag_of (clamp d) f = flag_of d f.
Proof. destruct f; reflexivity. Qed.

Lemma eval_step_clamp d s : eval_step (clamp d) s = eval_step d s.
Proof.
  destruct s; cbn [eval_step]; rewrite ?flag_clamp; try reflexivity.
  cbn [clamp d_nearby]. rewrite nearby_len. unfold NEARBY_GUARD, NEARBY_INDEX.
  replace (Z.max 0 (Z.min (d_nearby d) 4) >? 0) with (d_nearby d >? 0) by lia.
  destruct (d_nearby d >? 0) eqn:E; [|reflexivity].
  replace (Z.min (Z.max 0 (Z.min (d_nearby d) 4)) 4) with (Z.min (d_nearby d) 4) by lia. reflexivity.
Qed.

Lemma confidence_clamp d : confidence d = confidence (clamp d).
Proof.
  unfold confidence. rewrite (flat_map_ext _ _ (eval_step_clamp d)).
  generalize (combine (flat_map (eval_step d) CONF_STEPS)) as r. generalize CONF_POST as l.
  induction l as [|x t IH]; intros r; cbn [fold_left]; [reflexivity|]. rewrite flag_clamp. apply IH.
Qed.

Definition bools := [true; false].
Definition all_classes : list details :=
  flat_map (fun nc => flat_map (fun nu => flat_map (fun lo => flat_map (fun nb => map (fun po =>
    {| d_nc := nc; d_null := nu; d_low := lo; d_nearby := nb; d_poison := po |}) bools)
    [0; 1; 2; 3; 4]) bools) bools) bools.

Lemma all_classes_ok : forallb (fun d => in_01 (confidence d)) all_classes = true.
Proof. vm_compute. reflexivity. Qed.

Lemma bools_all b : In b bools.
Proof. destruct b; cbn; auto. Qed.

Lemma all_classes_in d : 0 <= d_nearby d <= 4 -> In d all_classes.
Proof.
  destruct d as [nc nu lo nb po]. cbn [d_nearby]. intros Hn. unfold all_classes.
  apply in_flat_map. exists nc. split; [apply bools_all|].
  apply in_flat_map. exists nu. split; [apply bools_all|].
  apply in_flat_map. exists lo. split; [apply bools_all|].
  apply in_flat_map. exists nb. split; [cbn; lia|].
  apply in_map_iff. exists po. split; [reflexivity|apply bools_all].
Qed.

Lemma clamp_in d : In (clamp d) all_classes.
Proof. apply all_classes_in. cbn [clamp d_nearby]. lia. Qed.

Lemma confidence_01 : forall d : details,
  le_b32 (f32 0) (confidence d) = true /\ le_b32 (confidence d) (f32 F32_ONE_bits) = true.
Proof.
  intros d. apply andb_prop. rewrite confidence_clamp.
  pose proof all_classes_ok as H. rewrite forallb_forall in H. apply (H (clamp d)), clamp_in.
Qed.
