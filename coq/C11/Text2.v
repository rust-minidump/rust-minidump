(* C11/Text2.v — after Text.  The rest of the text -> table composition: sorting under a key map, the FILE /
   INLINE_ORIGIN maps, the PUBLIC order, STACK WIN records under a tag map; the records and the table of a parser state
   as C11 values ([raw_of_pst], [symtab_of_table]); what the encodings must satisfy ([enc_ok]) and the assembled
   statements [table_rel], [from_enc_ok]. *)
From Coq Require Import Lia Sorting.Sorted Sorting.Permutation.
From RM Require C09.Model.
From RM Require Import C08.Model C08.Proofs C09.Grammar C11.Model C11.Proofs1 C11.Proofs2 C11.Proofs9 C11.Proofs3 C11.Text.
Open Scope Z_scope.

Section SortKey.
Context {A B : Type} (lt : A -> A -> bool) (lt' : B -> B -> bool) (f : A -> B).
(* sort_by sorts pairs (element, tt): [map_key] maps the element through [f] *)
Definition map_key (e : A * unit) : B * unit := (f (fst e), snd e).

Lemma insert_key_map x l :
  (forall y, In y l -> lt' (f (fst y)) (f (fst x)) = lt (fst y) (fst x)) ->
  insert_stable lt' (map_key x) (map map_key l) = map map_key (insert_stable lt x l).
Proof.
  induction l as [|y t IH]; intros H; cbn [insert_stable map]; [reflexivity|].
  cbn [map_key fst]. rewrite (H y (or_introl eq_refl)).
  destruct (lt (fst y) (fst x)); cbn [map]; [|reflexivity].
  f_equal. apply IH. intros z Hz. apply H. right. exact Hz.
Qed.

Lemma sort_key_map l :
  (forall a b, In a l -> In b l -> lt' (f (fst a)) (f (fst b)) = lt (fst a) (fst b)) ->
  sort_stable lt' (map map_key l) = map map_key (sort_stable lt l).
Proof.
  unfold sort_stable. induction l as [|x t IH]; intros H; cbn [map fold_right]; [reflexivity|].
  rewrite IH by (intros a b Ha Hb; apply H; right; assumption).
  apply insert_key_map. intros y Hy. apply H; [right|left; reflexivity].
  eapply Permutation_in; [symmetry; apply (sort_perm lt)|exact Hy].
Qed.

Lemma sort_by_map l :
  (forall a b, In a l -> In b l -> lt' (f a) (f b) = lt a b) ->
  sort_by lt' (map f l) = map f (sort_by lt l).
Proof.
  intros H. unfold sort_by. rewrite map_map.
  rewrite (map_ext (fun x => (f x, tt)) (fun x => map_key (x, tt))) by reflexivity.
  rewrite <- (map_map (fun e => (e, tt)) map_key). rewrite sort_key_map.
  - rewrite !map_map. reflexivity.
  - intros a b Ha Hb. apply in_map_iff in Ha, Hb. destruct Ha as (a0 & <- & Ha), Hb as (b0 & <- & Hb).
    cbn [fst]. apply H; assumption.
Qed.
End SortKey.

Lemma assoc_last_app k a : forall b,
  assoc_last k (a ++ b) = match assoc_last k b with Some v => Some v | None => assoc_last k a end.
Proof.
  induction a as [|[k' v] t IH]; intros b; cbn [app assoc_last]; [destruct (assoc_last k b); reflexivity|].
  rewrite IH. destruct (assoc_last k b); [reflexivity|]. reflexivity.
Qed.

Fixpoint assoc_first (k : Z) (l : list (Z * rle)) : option rle :=
  match l with [] => None | (k', v) :: t => if k' =? k then Some v else assoc_first k t end.

(* generic last-wins lookup on string-valued logs *)
Fixpoint alast (k : Z) (l : list (Z * rle)) : option rle :=
  match l with
  | [] => None
  | (k', v) :: t => match alast k t with Some v' => Some v' | None => if k' =? k then Some v else None end
  end.
Lemma assoc_last_nm (g : rle -> Z) k l :
  assoc_last k (map (fun kv : Z * rle => (fst kv, g (snd kv))) l) = option_map g (alast k l).
Proof.
  induction l as [|[k' v] t IH]; cbn [map assoc_last alast fst snd]; [reflexivity|].
  rewrite IH. destruct (alast k t); cbn [option_map]; [reflexivity|]. destruct (k' =? k); reflexivity.
Qed.
Lemma alast_app k a : forall b,
  alast k (a ++ b) = match alast k b with Some v => Some v | None => alast k a end.
Proof.
  induction a as [|[k' v] t IH]; intros b; cbn [app alast]; [destruct (alast k b); reflexivity|].
  rewrite IH. destruct (alast k b); reflexivity.
Qed.
Lemma alast_rev k l : alast k (rev l) = assoc_first k l.
Proof.
  induction l as [|[k' v] t IH]; cbn [rev assoc_first]; [reflexivity|].
  rewrite alast_app. cbn [alast]. destruct (k' =? k); [reflexivity|exact IH].
Qed.

Definition keys_sorted (m : list (Z * rle)) : Prop := StronglySorted (fun a b => fst a < fst b) m.
Lemma alast_none k m : (forall e, In e m -> fst e <> k) -> alast k m = None.
Proof.
  induction m as [|[k' v] t IH]; intros H; cbn [alast]; [reflexivity|].
  rewrite IH by (intros e He; apply H; right; exact He).
  destruct (k' =? k) eqn:E; [|reflexivity]. apply Z.eqb_eq in E. exfalso. apply (H (k', v)); [left; reflexivity|exact E].
Qed.

Lemma map_insert_spec k v m : keys_sorted m ->
  keys_sorted (map_insert k v m) /\
  (forall e, In e (map_insert k v m) -> e = (k, v) \/ In e m) /\
  forall k', alast k' (map_insert k v m) = if k =? k' then Some v else alast k' m.
Proof.
  induction m as [|[k0 v0] t IH]; intros Hs; cbn [map_insert].
  - split; [repeat constructor|]. split; [intros e [<-|[]]; auto|]. intros k'. cbn [alast]. reflexivity.
  - inversion Hs as [|? ? Ht Hall]; subst. rewrite Forall_forall in Hall.
    destruct (k <? k0) eqn:E1; [|destruct (k =? k0) eqn:E2].
    + apply Z.ltb_lt in E1. split; [|split].
      * constructor; [exact Hs|]. constructor; [exact E1|]. rewrite Forall_forall. intros e He.
        specialize (Hall e He). cbn [fst] in *. lia.
      * intros e [<-|He]; auto.
      * intros k'. cbn [alast]. destruct (alast k' t) eqn:Ea; [|].
        -- destruct (k =? k') eqn:Ek; [|reflexivity]. apply Z.eqb_eq in Ek. subst k'.
           rewrite alast_none in Ea; [discriminate|]. intros e He. specialize (Hall e He). cbn [fst] in *. lia.
        -- destruct (k0 =? k') eqn:E0; destruct (k =? k') eqn:Ek; try reflexivity.
           apply Z.eqb_eq in E0, Ek. lia.
    + apply Z.eqb_eq in E2. subst k0. split; [|split].
      * constructor; [exact Ht|]. rewrite Forall_forall. exact Hall.
      * intros e [<-|He]; [auto|right; right; exact He].
      * intros k'. cbn [alast]. destruct (alast k' t) eqn:Ea.
        -- destruct (k =? k') eqn:Ek; [|reflexivity]. apply Z.eqb_eq in Ek. subst k'.
           rewrite alast_none in Ea; [discriminate|]. intros e He. specialize (Hall e He). cbn [fst] in *. lia.
        -- destruct (k =? k'); reflexivity.
    + apply Z.ltb_ge in E1. apply Z.eqb_neq in E2. destruct (IH Ht) as (I1 & I2 & I3). split; [|split].
      * constructor; [exact I1|]. rewrite Forall_forall. intros e He. apply I2 in He.
        destruct He as [->|He]; [cbn [fst]; lia|exact (Hall e He)].
      * intros e [<-|He]; [right; left; reflexivity|]. apply I2 in He. destruct He; auto. right. right. assumption.
      * intros k'. cbn [alast]. rewrite I3. destruct (k =? k') eqn:Ek; [reflexivity|]. reflexivity.
Qed.

Lemma map_of_log_spec log : keys_sorted (map_of_log log) /\ forall k, alast k (map_of_log log) = assoc_first k log.
Proof.
  unfold map_of_log. induction log as [|[k v] t IH]; cbn [fold_right assoc_first fst snd].
  - split; [constructor|reflexivity].
  - destruct IH as [I1 I2]. destruct (map_insert_spec k v _ I1) as (J1 & _ & J3).
    split; [exact J1|]. intros k'. rewrite J3, I2. reflexivity.
Qed.

(* an entry of a FILE / INLINE_ORIGIN map with its name through [g] *)
Definition nmv (g : rle -> Z) (kv : Z * rle) : Z * Z := (fst kv, g (snd kv)).
Lemma maps_agree g (log : list (Z * rle)) k :
  assoc_last k (map (nmv g) (map_of_log log)) = assoc_last k (map (nmv g) (rev log)).
Proof.
  unfold nmv. rewrite !assoc_last_nm, alast_rev. rewrite (proj2 (map_of_log_spec log)). reflexivity.
Qed.

Lemma pub_lt_agree (nm : rle -> Z) (a b : pub_sym) :
  rle_compare (pb_name a) (pb_name b) = (nm (pb_name a) ?= nm (pb_name b)) ->
  Model.pub_lt (mk_pub (pb_addr a) (nm (pb_name a)) (pb_psize a))
               (mk_pub (pb_addr b) (nm (pb_name b)) (pb_psize b)) = Grammar.pub_lt a b.
Proof.
  intros Hc. unfold Model.pub_lt, pub_key, Grammar.pub_lt. cbn [p_addr p_name p_psize lex_lt]. rewrite Hc.
  destruct (Z.compare_spec (pb_addr a) (pb_addr b)) as [E|L|G]; cbn [cmp_lt].
  - rewrite E, Z.ltb_irrefl, Z.eqb_refl. cbn [orb andb].
    destruct (Z.compare_spec (nm (pb_name a)) (nm (pb_name b))) as [E2|L2|G2]; cbn [cmp_lt].
    + rewrite E2, Z.ltb_irrefl, Z.eqb_refl. cbn [orb andb]. rewrite andb_false_r, orb_false_r. reflexivity.
    + rewrite (proj2 (Z.ltb_lt _ _) L2). reflexivity.
    + rewrite (proj2 (Z.ltb_ge _ _)) by lia. rewrite (proj2 (Z.eqb_neq _ _)) by lia. reflexivity.
  - rewrite (proj2 (Z.ltb_lt _ _) L). reflexivity.
  - rewrite (proj2 (Z.ltb_ge _ _)) by lia. rewrite (proj2 (Z.eqb_neq _ _)) by lia. reflexivity.
Qed.

Section Win.
Variable tg : win_info -> Z.
Hypothesis tg_size : forall w sz, tg (wi_set_size w sz) = tg w.

(* a STACK WIN record of C09 as a C11 record ([tg] for the fields that only take part in ==), and a table entry *)
Definition Gw (w : win_info) : win_rec := mk_win (wi_addr w) (wi_size w) (wi_params w) (tg w).
Definition GW : range * win_info -> range * win_rec := GM Gw.

(* [a] is a record of [ws], possibly with its size repaired *)
Definition in_scope (ws : list win_info) (a : win_info) : Prop :=
  exists w0, In w0 ws /\ (a = w0 \/ exists sz, a = wi_set_size w0 sz).

Lemma win_insert_map ws acc w acc' :
  Forall (fun e => in_scope ws (snd e)) acc -> In w ws ->
  Grammar.win_insert acc w = Ret acc' ->
  Model.win_insert (map GW acc) (Gw w) = Ret (map GW acc') /\ Forall (fun e => in_scope ws (snd e)) acc'.
Proof.
  intros Hacc Hw. unfold Grammar.win_insert, Model.win_insert.
  change (win_range (Gw w)) with (wi_range w).
  assert (Hnew : in_scope ws w) by (exists w; auto).
  destruct (wi_range w) as [mr|]; [|intros H; inversion H; subst; auto].
  destruct acc as [|[lr lw] acc0]; [intros H; inversion H; subst; split; [reflexivity|repeat constructor; exact Hnew]|].
  cbn [map GW GM fst snd]. inversion Hacc as [|? ? Hl Hrest]; subst. cbn [snd] in Hl.
  destruct (intersects lr mr); [|intros H; inversion H; subst; split; [reflexivity|constructor; assumption]].
  change (w_addr (Gw w)) with (wi_addr w). change (w_addr (Gw lw)) with (wi_addr lw).
  destruct (wi_addr w >? wi_addr lw).
  - unfold win_range, wi_range, Gw. cbn [w_addr w_size w_psize w_tag wi_addr wi_size wi_set_size].
    destruct (mk_range (wi_addr lw) (wrap32 (wi_addr w - wi_addr lw))) as [lr'|]; [|discriminate].
    intros H; inversion H; subst. split.
    + cbn [map]. unfold GW, GM, Gw. cbn [snd]. rewrite tg_size. reflexivity.
    + constructor; [exact Hnew|]. constructor; [|exact Hrest]. cbn [snd].
      destruct Hl as (w0 & H0 & [->|[sz ->]]); exists w0; split; try assumption; right; eexists; reflexivity.
  - destruct (negb (range_eqb lr mr)); intros H; inversion H; subst; split; try reflexivity; try assumption.
    constructor; assumption.
Qed.

Lemma win_collect_map ws : forall l acc wl,
  incl l ws -> Forall (fun e => in_scope ws (snd e)) acc ->
  Grammar.win_collect acc l = Ret wl ->
  Model.win_collect (map GW acc) (map Gw l) = Ret (map GW wl) /\ Forall (fun e => in_scope ws (snd e)) wl.
Proof.
  induction l as [|w t IH]; intros acc wl Hincl Hacc; cbn [Grammar.win_collect Model.win_collect map].
  - intros H; inversion H; subst. rewrite map_rev. split; [reflexivity|apply Forall_rev; exact Hacc].
  - intros H. apply obind_ret in H. destruct H as (acc' & E & H).
    destruct (win_insert_map ws acc w acc' Hacc (Hincl w (or_introl eq_refl)) E) as [E' Hacc'].
    rewrite E'. cbn [obind]. apply IH; [intros a Ha; apply Hincl; right; exact Ha|exact Hacc'|exact H].
Qed.
End Win.

Section Assemble.
Variables (nm : rle -> Z) (tg : win_info -> Z).

(* a PUBLIC record of C09 as a C11 record *)
Definition Gp (p : pub_sym) : pub_rec := mk_pub (pb_addr p) (nm (pb_name p)) (pb_psize p).

(* the records the parser state holds after the last line, in file order, names through [nm],
   the STACK WIN fields other than address / size / parameter size through [tg] *)
Definition raw_of_pst (q : pst) : raw_file :=
  let p := close_cur q in
  mk_raw (map (nmv nm) (rev (p_files p))) (map (nmv nm) (rev (p_origins p)))
         (map Gp (rev (p_publics p))) (map (raw_of_func nm) (rev (p_funcs p)))
         (map (Gw tg) (rev (p_win_fd p))) (map (Gw tg) (rev (p_win_fpo p))).

(* the SymbolFile that SymbolParser::finish returns, as a C11 table *)
Definition symtab_of_table (t : table) : symtab :=
  mk_symtab (map (nmv nm) (t_files t)) (map (nmv nm) (t_origins t)) (map Gp (t_publics t))
            (map (GF nm) (t_funcs t)) (map (GW tg) (t_win_fd t)) (map (GW tg) (t_win_fpo t)).

Record enc_ok (q : pst) : Prop := mk_enc_ok {
  eo_wf : wf_file (raw_of_pst q);
  eo_names : names_injective nm q;
  eo_pub : forall a b, In a (p_publics (close_cur q)) -> In b (p_publics (close_cur q)) ->
             rle_compare (pb_name a) (pb_name b) = (nm (pb_name a) ?= nm (pb_name b));
  eo_tgsize : forall w sz, tg (wi_set_size w sz) = tg w;
  eo_tg_fd : forall a b, in_scope (rev (p_win_fd (close_cur q))) a -> in_scope (rev (p_win_fd (close_cur q))) b ->
               win_eqb (Gw tg a) (Gw tg b) = wi_eqb a b;
  eo_tg_fpo : forall a b, in_scope (rev (p_win_fpo (close_cur q))) a -> in_scope (rev (p_win_fpo (close_cur q))) b ->
                win_eqb (Gw tg a) (Gw tg b) = wi_eqb a b
}.

Lemma win_table_rel ws wfd tfd :
  (forall w sz, tg (wi_set_size w sz) = tg w) ->
  (forall a b, in_scope ws a -> in_scope ws b -> win_eqb (Gw tg a) (Gw tg b) = wi_eqb a b) ->
  Forall wf_win (map (Gw tg) ws) ->
  Grammar.win_collect [] ws = Ret wfd -> build_p wi_eqb wfd = Ret tfd ->
  exists wl, Model.win_collect [] (map (Gw tg) ws) = Ret wl /\ Forall (win_prov (map (Gw tg) ws)) wl /\
             map (GW tg) tfd = into_rangemap_safe_p win_eqb wl.
Proof.
  intros Hsz Hag Hwf Ec Eb.
  destruct (win_collect_map tg Hsz ws ws [] wfd (incl_refl _) (Forall_nil _) Ec) as [Em Hsc].
  cbn [map] in Em.
  destruct (win_collect_ok (map (Gw tg) ws) (map (Gw tg) ws) [] (incl_refl _) Hwf (Forall_nil _)) as (wl & E & Hp).
  rewrite Em in E. inversion E; subst wl. exists (map (GW tg) wfd). split; [exact Em|]. split; [exact Hp|].
  assert (Hwr : wf_ranges wfd).
  { pose proof (win_prov_wf _ _ Hp) as H. unfold wf_ranges in *. rewrite Forall_map in H. exact H. }
  rewrite (build_total_p wi_eqb) in Eb by exact Hwr. inversion Eb; subst tfd.
  symmetry. unfold GW. apply (irs_map wi_eqb win_eqb (Gw tg) (in_scope ws)); [exact Hag|exact Hsc].
Qed.

Lemma table_rel q t : enc_ok q -> finish q = Ret t -> st_rel true (raw_of_pst q) (symtab_of_table t).
Proof.
  intros He Hfin.
  destruct (finish_inv q t Hfin) as (fl & wfd & wfpo & _ & _ & Ewfd & Etfd & Ewfpo & Etfpo & Ef & Eo & Ep).
  destruct (eo_wf q He) as (Hwf1 & Hwf2 & Hwf3 & Hwf4).
  unfold raw_of_pst in *. cbn [rf_funcs rf_publics rf_win_fd rf_win_fpo] in *.
  constructor; unfold symtab_of_table;
    cbn [st_files st_origins st_publics st_funcs st_win_fd st_win_fpo rf_files rf_origins rf_publics rf_funcs rf_win_fd rf_win_fpo].
  - intros k. rewrite Ef. apply maps_agree.
  - intros k. rewrite Eo. apply maps_agree.
  - rewrite Ep. symmetry. apply sort_by_map. intros a b Ha Hb. apply pub_lt_agree.
    apply (eo_pub q He); rewrite in_rev; assumption.
  - apply (funcs_from_text nm q _ Hwf1 (eo_names q He) Hfin).
  - apply (win_table_rel _ wfd _ (eo_tgsize q He) (eo_tg_fd q He) Hwf3 Ewfd Etfd).
  - apply (win_table_rel _ wfpo _ (eo_tgsize q He) (eo_tg_fpo q He) Hwf4 Ewfpo Etfpo).
Qed.

(* fill_symbol on the table parsed from the text = [symbolize] on the records of the text *)
Lemma from_enc_ok q t : enc_ok q -> finish q = Ret t ->
  st_rel true (raw_of_pst q) (symtab_of_table t) /\
  forall p mbase instr, 0 <= mbase -> instr < two64 ->
    fill_symbol p (symtab_of_table t) mbase instr = symbolize p (raw_of_pst q) mbase instr.
Proof.
  intros He Hfin. pose proof (table_rel q t He Hfin) as R. split; [exact R|].
  intros p mbase instr. exact (table_interface p _ _ mbase instr (eo_wf q He) R).
Qed.
End Assemble.
