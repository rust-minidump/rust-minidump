(* C11/SrcTie.v — the functions translate/c11_compile.py COMPILES from the Rust source on every run (Gen/C11Src.v:
   src_get_inlinee_at_depth, src_get_outermost_sourceloc, src_get_innermost_sourceloc, src_find_nearest_public,
   src_fill_symbol with its generated loop) are the hand-written model of C11/Model.v, for all arguments. *)
From Coq Require Import Lia.
From RM Require Import Base.WordFacts C08.Model C08.Proofs C11.Model C11.Prims Gen.C11Src C11.Proofs2.
From RM Require C11.Driver.
Open Scope Z_scope.

(* ---- memory_range: the `- 1` cannot trap and Range::new's assertion cannot fire, for the parser's integer types *)
Lemma src_memory_range_gen p base size :
  0 <= base -> 0 <= size ->
  (if size =? 0 then Ret None
   else match checked_add 64 base size with
        | Some x2 => do x3 <- chk_sub p 64 PANIC_SUB x2 1; do x4 <- range_new base x3; Ret (Some x4)
        | None => Ret None
        end) = Ret (mk_range base size).
Proof.
  intros Hb Hs. unfold mk_range. destruct (size =? 0) eqn:E0; [reflexivity|]. apply Z.eqb_neq in E0.
  unfold checked_add. cbv zeta. destruct (base + size <? 2 ^ 64) eqn:E1; [|reflexivity]. apply Z.ltb_lt in E1.
  unfold chk_sub, chk. replace ((0 <=? base + size - 1) && (base + size - 1 <? 2 ^ 64)) with true
    by (symmetry; apply andb_true_iff; split; [apply Z.leb_le|apply Z.ltb_lt]; lia).
  cbn [obind]. unfold range_new. replace (base + size - 1 <? base) with false by (symmetry; apply Z.ltb_ge; lia).
  reflexivity.
Qed.
Lemma src_func_memory_range_eq p f :
  0 <= fn_addr f -> 0 <= fn_size f -> src_func_memory_range p f = Ret (mk_range (fn_addr f) (fn_size f)).
Proof. intros Ha Hs. unfold src_func_memory_range. exact (src_memory_range_gen p _ _ Ha Hs). Qed.
Lemma src_win_memory_range_eq p w :
  0 <= w_addr w -> 0 <= w_size w -> src_win_memory_range p w = Ret (win_range w).
Proof. intros Ha Hs. unfold src_win_memory_range, win_range. exact (src_memory_range_gen p _ _ Ha Hs). Qed.

Definition giad_tuple (e : inl_rec) : Z * Z * Z * Z := (i_cfile e, i_cline e, i_addr e, i_origin e).

Lemma src_get_inlinee_at_depth_eq p f depth addr :
  src_get_inlinee_at_depth p f depth addr =
  do r <- get_inlinee_at_depth (fn_inls f) depth addr; Ret (option_map giad_tuple r).
Proof.
  unfold src_get_inlinee_at_depth, get_inlinee_at_depth, giad_candidate. cbn [fst snd].
  destruct (bsearch_by _ (fn_inls f)) as [i|[|i]]; cbn [obind]; try reflexivity.
  2: unfold usize_sub; cbn [Nat.ltb Nat.leb obind]; rewrite Nat.sub_succ, Nat.sub_0_r.
  (* a hit at [i] and an insertion point [S i] both read element [i] and test it alike *)
  all: unfold vec_index; destruct (nth_error (fn_inls f) i) as [e|]; cbn [obind]; [|reflexivity];
    unfold giad_check; destruct (negb (i_depth e =? depth)); [reflexivity|];
    destruct (checked_add 64 (i_addr e) (i_size e)) as [z|]; [|reflexivity]; destruct (addr <? z); reflexivity.
Qed.

Definition outer_tuple (x : Z * Z * Z * option inl_rec) : Z * Z * Z * option Z :=
  let '(fid, line, a, org) := x in (fid, line, a, option_map i_origin org).

Lemma src_get_outermost_sourceloc_eq p f addr :
  src_get_outermost_sourceloc p f addr =
  do r <- get_outermost_sourceloc f addr; Ret (option_map outer_tuple r).
Proof.
  unfold src_get_outermost_sourceloc, get_outermost_sourceloc. rewrite src_get_inlinee_at_depth_eq.
  destruct (get_inlinee_at_depth (fn_inls f) 0 addr) as [[e|]| | |]; cbn [obind option_map]; try reflexivity.
  destruct (rm_get (fn_lines f) addr); reflexivity.
Qed.

Lemma src_get_innermost_sourceloc_eq p f addr :
  src_get_innermost_sourceloc p f addr =
  Ret (option_map (fun l => (l_file l, l_line l, l_addr l)) (rm_get (fn_lines f) addr)).
Proof. unfold src_get_innermost_sourceloc. destruct (rm_get (fn_lines f) addr); reflexivity. Qed.

Lemma src_find_nearest_public_eq p st addr :
  src_find_nearest_public p st addr = Ret (find_nearest_public (st_publics st) addr).
Proof. reflexivity. Qed.

(* ---- the depth loop: the compiled loop emits a frame per step, the model collects the chain and emits afterwards *)
Fixpoint emit_calls (st : symtab) (org : Z) (chain : list inl_rec) : list iframe :=
  match chain with
  | [] => []
  | e :: t =>
      (match assoc_last org (st_origins st) with
       | Some nm => [(nm, assoc_last (i_cfile e) (st_files st), Some (i_cline e))]
       | None => []
       end) ++ emit_calls st (i_origin e) t
  end.
Fixpoint last_org (org : Z) (chain : list inl_rec) : Z :=
  match chain with [] => org | e :: t => last_org (i_origin e) t end.

Lemma emit_frames_split st chain : forall org inner,
  emit_frames st org chain inner = emit_calls st org chain ++ emit_frames st (last_org org chain) [] inner.
Proof.
  induction chain as [|e t IH]; intros org inner; [reflexivity|].
  cbn [emit_frames emit_calls last_org]. rewrite IH, app_assoc. reflexivity.
Qed.

Definition add_frames (o : sym_out) (l : list iframe) : sym_out := mk_out (o_func o) (o_src o) (o_inl o ++ l).

Lemma src_fill_symbol_loop_eq p st addr f fuel : forall depth frame org,
  src_fill_symbol_loop p fuel st addr f depth frame org =
  do chain <- inline_loop p fuel (fn_inls f) addr depth;
  Ret (add_frames frame (emit_calls st org chain), last_org org chain).
Proof.
  induction fuel as [|fuel IH]; intros depth frame org; [reflexivity|].
  cbn [src_fill_symbol_loop inline_loop]. rewrite src_get_inlinee_at_depth_eq.
  destruct (get_inlinee_at_depth (fn_inls f) depth addr) as [[e|]| | |]; cbn [obind option_map]; try reflexivity.
  - unfold giad_tuple.
    destruct (assoc_last org (st_origins st)) as [nm|] eqn:Eo;
      (destruct (chk_add p 32 PANIC_DEPTH depth 1) as [d'| | |]; cbn [obind]; try reflexivity;
       rewrite IH; destruct (inline_loop p fuel (fn_inls f) addr d') as [chain| | |]; cbn [obind]; try reflexivity;
       cbn [emit_calls last_org]; rewrite Eo; unfold add_frames, fr_add_inline_frame; cbn [o_func o_src o_inl app];
       rewrite <- ?app_assoc; reflexivity).
  - unfold add_frames. cbn [emit_calls last_org]. rewrite app_nil_r. destruct frame; reflexivity.
Qed.

Lemma inline_loop_mono p n : forall m inls addr depth,
  inline_loop p n inls addr depth <> OutOfFuel -> (n <= m)%nat ->
  inline_loop p m inls addr depth = inline_loop p n inls addr depth.
Proof.
  induction n as [|n IH]; intros m inls addr depth H Hle; [exfalso; apply H; reflexivity|].
  destruct m as [|m]; [lia|]. cbn [inline_loop] in *.
  destruct (get_inlinee_at_depth inls depth addr) as [[e|]| | |]; cbn [obind] in *; try reflexivity.
  destruct (chk_add p 32 PANIC_DEPTH depth 1) as [d'| | |]; cbn [obind] in *; try reflexivity.
  rewrite (IH m inls addr d'); [reflexivity| |lia].
  intros E. apply H. rewrite E. reflexivity.
Qed.

Lemma bs_loop_ext {A} (f g : A -> ordering) (Hfg : forall e, f e = g e) l fuel : forall base size,
  bs_loop f fuel l base size = bs_loop g fuel l base size.
Proof.
  induction fuel as [|fuel IH]; intros; [reflexivity|]. cbn [bs_loop].
  destruct (Nat.leb size 1); [reflexivity|].
  destruct (nth_error l (base + Nat.div2 size)); [rewrite Hfg|]; apply IH.
Qed.
Lemma bsearch_by_ext {A} (f g : A -> ordering) (Hfg : forall e, f e = g e) l : bsearch_by f l = bsearch_by g l.
Proof.
  unfold bsearch_by. destruct l as [|a l]; [reflexivity|].
  rewrite (bs_loop_ext f g Hfg). destruct (nth_error _ _); [rewrite Hfg|]; reflexivity.
Qed.

Lemma src_prev_func_eq funcs addr :
  opt_and_then (fun i : nat => nth_error funcs i)
    (opt_and_then (fun i : nat => usize_checked_sub i 1%nat)
       (bres_err (bsearch_by (fun e => cmp_z ((fun '((r, _) : range * func) => fst r) e) addr) funcs))) =
  prev_func funcs addr.
Proof.
  unfold prev_func.
  rewrite (bsearch_by_ext _ (fun e : range * func => cmp_z (fst (fst e)) addr)) by (intros [r v]; reflexivity).
  destruct (bsearch_by _ funcs) as [i|[|i]]; cbn; try reflexivity.
  rewrite Nat.sub_0_r. reflexivity.
Qed.

(* the whole function.  [fuel] only has to cover the depth loop of the function found (the model runs it with
   fuel = its number of INLINE ranges, which c11_total shows to suffice); results and panics alike *)
Lemma src_fill_symbol_eq p fuel st mbase instr :
  0 <= mbase -> instr < two64 ->
  (forall f, rm_get (st_funcs st) (instr - mbase) = Some f -> (length (fn_inls f) <= fuel)%nat) ->
  fill_symbol p st mbase instr <> OutOfFuel ->
  src_fill_symbol p fuel st mbase instr = fill_symbol p st mbase instr.
Proof.
  intros Hmb Hin Hfuel. unfold src_fill_symbol, fill_symbol.
  destruct (instr <? mbase) eqn:Eg; [reflexivity|].
  apply Z.ltb_ge in Eg. rewrite chk_sub64_ok by lia. cbn [obind]. cbv zeta.
  destruct (rm_get (st_funcs st) (instr - mbase)) as [f|] eqn:Ef.
  - specialize (Hfuel f eq_refl).
    destruct (chk_add p 64 PANIC_ADD (fn_addr f) mbase) as [fb| | |]; cbn [obind]; try reflexivity.
    rewrite src_get_outermost_sourceloc_eq.
    destruct (get_outermost_sourceloc f (instr - mbase)) as [[[[[fid line] a0] org]|]| | |]; cbn [obind option_map outer_tuple]; try reflexivity.
    unfold param_size.
    destruct org as [e0|]; cbn [option_map];
      [|destruct (assoc_last fid (st_files st)); [destruct (chk_add p 64 PANIC_ADD a0 mbase)|]; reflexivity].
    destruct (assoc_last fid (st_files st)) as [fname|];
      [destruct (chk_add p 64 PANIC_ADD a0 mbase) as [sb| | |]; cbn [obind]; try reflexivity|cbn [obind]].
    (* two goals, with and without a source file; in both the frame has no inline frames yet.  The compiled loop is
       the model's loop with a frame added per step ... *)
    all: intros H; rewrite src_fill_symbol_loop_eq.
    (* ... its fuel may exceed the model's, which returned ([H]) ... *)
    all: rewrite (inline_loop_mono p _ fuel) by (try exact Hfuel; intros E; apply H; rewrite E; reflexivity).
    all: destruct (inline_loop p (length (fn_inls f)) (fn_inls f) (instr - mbase) 1) as [chain| | |]; cbn [obind];
      try reflexivity.
    (* ... and the frame still pending after the loop is the last one [emit_frames] emits *)
    all: rewrite src_get_innermost_sourceloc_eq; cbn [obind]; rewrite emit_frames_split; unfold add_frames;
      cbn [fr_set_source_file fr_set_function empty_out o_inl o_func o_src app].
    all: destruct (rm_get (fn_lines f) (instr - mbase)) as [l|]; cbn [option_map emit_frames];
      destruct (assoc_last (last_org (i_origin e0) chain) (st_origins st)); cbn; rewrite ?app_nil_r; try reflexivity;
      destruct (l_line l =? 0); reflexivity.
  - rewrite src_find_nearest_public_eq. cbn [obind].
    destruct (find_nearest_public (st_publics st) (instr - mbase)) as [pb|]; [|reflexivity].
    rewrite src_prev_func_eq.
    destruct (prev_func (st_funcs st) (instr - mbase)) as [[r f]|]; cbn [snd].
    + destruct (p_addr pb <=? fn_addr f); [reflexivity|].
      destruct (chk_add p 64 PANIC_ADD (p_addr pb) mbase); reflexivity.
    + destruct (chk_add p 64 PANIC_ADD (p_addr pb) mbase); reflexivity.
Qed.

(* ---- parser.rs: the Line::Function arm of finish_item = finish_func, for the parser's integer types: after the
   `size > 0` filter the closure's `l.size as u64 - 1` cannot trap and its Range::new cannot fail *)
Lemma vec_mapM_ret {A B} (f : A -> outcome B) (g : A -> B) l :
  (forall a, In a l -> f a = Ret (g a)) -> vec_mapM f l = Ret (map g l).
Proof.
  induction l as [|a t IH]; intros H; [reflexivity|]. cbn [vec_mapM map].
  rewrite (H a (or_introl eq_refl)). cbn [obind]. rewrite IH by (intros b Hb; apply H; right; exact Hb). reflexivity.
Qed.

Lemma src_finish_function_eq p acc cur lines inls :
  u64 (fn_addr cur) -> u32 (fn_size cur) -> Forall wf_line lines ->
  src_finish_function p acc cur lines inls =
  do r <- finish_func (mk_fraw (fn_addr cur) (fn_size cur) (fn_psize cur) (fn_name cur) lines inls);
  Ret (acc ++ match r with Some e => [e] | None => [] end).
Proof.
  intros Ha Hs Hl. unfold src_finish_function, finish_func, finish_func_gen. cbn [fr_lines fr_inls fr_addr fr_size fr_psize fr_name].
  rewrite (vec_mapM_ret _ (fun l => (mk_range_line (l_addr l) (l_size l), l))).
  2:{ intros l Hin. apply filter_In in Hin. destruct Hin as [Hin Hgt]. apply Z.gtb_lt in Hgt.
      rewrite Forall_forall in Hl. destruct (Hl l Hin) as [[Ha0 Ha1] [Hs0 Hs1]].
      unfold chk_sub, chk. replace ((0 <=? l_size l - 1) && (l_size l - 1 <? 2 ^ 64)) with true.
      2:{ symmetry. apply andb_true_iff. unfold two32 in Hs1. split; [apply Z.leb_le|apply Z.ltb_lt]; lia. }
      cbn [obind]. unfold mk_range_line. destruct (checked_add 64 (l_addr l) (l_size l - 1)) as [e|] eqn:E; cbn [opt_mapM obind]; [|reflexivity].
      unfold checked_add in E. cbv zeta in E. destruct (l_addr l + (l_size l - 1) <? 2 ^ 64); [|discriminate]. inversion E; subst e.
      unfold range_new. replace (l_addr l + (l_size l - 1) <? l_addr l) with false by (symmetry; apply Z.ltb_ge; lia).
      reflexivity. }
  cbn [obind]. unfold line_entries.
  rewrite (filter_ext (fun v_l : line_rec => l_size v_l >? 0) (fun l => 0 <? l_size l)) by (intros; apply Z.gtb_ltb).
  destruct (build line_eqb _) as [tbl| | |]; cbn [obind]; try reflexivity.
  unfold u64 in Ha. unfold u32 in Hs.
  rewrite src_func_memory_range_eq by (cbn; lia). cbn [obind fn_addr fn_size func_set_inlinees func_set_lines].
  unfold keep_inls.
  rewrite (filter_ext (fun v_i : inl_rec => i_size v_i >? 0) (fun e => 0 <? i_size e)) by (intros; apply Z.gtb_ltb).
  destruct (mk_range (fn_addr cur) (fn_size cur)); cbn [obind]; rewrite ?app_nil_r; reflexivity.
Qed.

Definition fuel_covers (st : symtab) (fuel : nat) : Prop :=
  forall r f, In (r, f) (st_funcs st) -> (length (fn_inls f) <= fuel)%nat.

(* the fuel the correspondence driver runs the compiled loop with (Prims.src_fuel) *)
Lemma src_fuel_covers st : fuel_covers st (src_fuel st).
Proof.
  unfold fuel_covers, src_fuel. induction (st_funcs st) as [|[r0 f0] t IH]; intros r f Hin; [destruct Hin|].
  cbn [fold_right snd]. destruct Hin as [E|Hin]; [inversion E; subst; lia|]. specialize (IH r f Hin). lia.
Qed.

(* ---- parser.rs insert_win_stack_info = win_insert (the model keeps the vector reversed: head = last_mut()) *)
Lemma src_insert_win_stack_info_eq p v w :
  u64 (w_addr w) -> 0 <= w_size w -> Forall (fun e : range * win_rec => 0 <= w_addr (snd e)) v ->
  src_insert_win_stack_info p v w = do acc <- win_insert (rev v) w; Ret (rev acc).
Proof.
  intros [Ha0 Ha1] Hs Hv. unfold src_insert_win_stack_info, win_insert, vec_last_split.
  rewrite src_win_memory_range_eq by assumption. cbn [obind].
  destruct (win_range w) as [mr|]; [|cbn [obind]; rewrite rev_involutive; reflexivity].
  destruct (rev v) as [|[lr lw] t] eqn:Erev.
  - cbn [obind rev app]. rewrite <- (rev_involutive v), Erev. reflexivity.
  - assert (Hlw : 0 <= w_addr lw).
    { rewrite Forall_forall in Hv. apply (Hv (lr, lw)). apply in_rev. rewrite Erev. left. reflexivity. }
    assert (Ev : v = rev t ++ [(lr, lw)]) by (rewrite <- (rev_involutive v), Erev; reflexivity).
    destruct (intersects lr mr).
    + destruct (w_addr w >? w_addr lw) eqn:Eg.
      * apply Z.gtb_lt in Eg. rewrite chk_sub64_ok by lia. cbn [obind].
        rewrite src_win_memory_range_eq; [|cbn; lia|cbn; apply Z.mod_pos_bound; reflexivity].
        cbn [obind]. unfold win_set_size.
        destruct (win_range (mk_win (w_addr lw) (wrap32 (w_addr w - w_addr lw)) (w_psize lw) (w_tag lw))) as [lr'|];
          cbn [opt_unwrap obind rev]; reflexivity.
      * destruct (negb (range_eqb lr mr)); cbn [obind rev]; reflexivity.
    + cbn [obind rev]. rewrite <- Ev. reflexivity.
Qed.

(* ---- the Symbolizer level: fill_source_line_info (with Symbolizer::fill_symbol inside) on a fresh frame = frame_of *)
Lemma src_fill_source_line_info_eq p fuel tbl mods instr :
  instr < two64 ->
  (forall idx b sz st, rm_get tbl instr = Some idx -> nth_error mods (Z.to_nat idx) = Some (b, sz, Some st) ->
     0 <= b /\ fuel_covers st fuel /\ fill_symbol p st b instr <> OutOfFuel) ->
  src_fill_source_line_info p fuel (mk_sframe instr None empty_out) (tbl, mods) =
  do r <- frame_of p tbl mods instr;
  Ret (match r with
       | None => mk_sframe instr None empty_out
       | Some (idx, o) => mk_sframe instr (Some idx) o
       end).
Proof.
  intros Hin H. unfold src_fill_source_line_info, frame_of, module_at. cbn [fst snd sf_instr]. unfold module in *.
  destruct (rm_get tbl instr) as [idx|] eqn:Eq; cbn [obind]; [|reflexivity].
  destruct (nth_error mods (Z.to_nat idx)) as [[[b sz] [st|]]|] eqn:En; cbn [obind]; try reflexivity.
  destruct (H idx b sz st eq_refl En) as (Hb & Hf & Hnf).
  rewrite ?En. cbn [obind].
  cbv beta iota zeta delta [src_symbolizer_fill_symbol get_symbols mod_base sf_set_module fst snd sf_instr option_map].
  rewrite src_fill_symbol_eq; try assumption.
  2:{ intros f Hf0. destruct (rm_get_in _ _ _ Hf0) as (r & Hr & _). exact (Hf r f Hr). }
  destruct (fill_symbol p st b instr) as [o| | |]; cbn [obind]; try reflexivity.
  unfold sf_reverse_inlines, sf_apply, frame_inlines. cbn [sf_instr sf_module sf_out o_func o_src o_inl empty_out app snd].
  destruct o as [[f|] [sc|] inl]; reflexivity.
Qed.

(* the pieces of the table built with the compiled finish_item arm and insert_win_stack_info (Driver.table_of_src) *)
Lemma src_finish_funcs_eq p l : forall acc, Forall wf_fraw l ->
  RM.C11.Driver.src_finish_funcs p acc l = do r <- finish_funcs_gen true l; Ret (acc ++ r).
Proof.
  induction l as [|fr t IH]; intros acc Hwf; [cbn; rewrite app_nil_r; reflexivity|].
  inversion Hwf as [|? ? Hfr Ht]; subst. destruct Hfr as (Ha & Hs & Hl & _).
  cbn [RM.C11.Driver.src_finish_funcs finish_funcs_gen].
  rewrite src_finish_function_eq by (cbn; assumption). cbn [fn_addr fn_size fn_psize fn_name].
  replace (mk_fraw (fr_addr fr) (fr_size fr) (fr_psize fr) (fr_name fr) (fr_lines fr) (fr_inls fr)) with fr by (destruct fr; reflexivity).
  fold finish_func. unfold finish_func.
  destruct (finish_func_gen true fr) as [x| | |]; cbn [obind]; try reflexivity.
  rewrite IH by exact Ht.
  destruct (finish_funcs_gen true t) as [rest| | |]; cbn [obind]; try reflexivity.
  destruct x; rewrite <- ?app_assoc, ?app_nil_r; reflexivity.
Qed.
Definition addr_nonneg (e : range * win_rec) : Prop := 0 <= w_addr (snd e).
Lemma win_insert_addr acc w acc' :
  Forall addr_nonneg acc -> 0 <= w_addr w -> win_insert acc w = Ret acc' -> Forall addr_nonneg acc'.
Proof.
  intros Hacc Hw. unfold win_insert. destruct (win_range w) as [mr|]; [|intros H; inversion H; subst; exact Hacc].
  destruct acc as [|[lr lw] t]; [intros H; inversion H; subst; constructor; [exact Hw|constructor]|].
  inversion Hacc as [|? ? Hlw Ht]; subst. unfold addr_nonneg in Hlw. cbn [snd] in Hlw.
  destruct (intersects lr mr).
  - destruct (w_addr w >? w_addr lw).
    + destruct (win_range _) as [lr'|]; [|discriminate]. intros H; inversion H; subst.
      constructor; [exact Hw|]. constructor; [exact Hlw|exact Ht].
    + destruct (negb (range_eqb lr mr)); intros H; inversion H; subst; [exact Hacc|constructor; [exact Hw|exact Hacc]].
  - intros H; inversion H; subst. constructor; [exact Hw|exact Hacc].
Qed.
Lemma src_win_collect_eq p ws : forall v, Forall wf_win ws -> Forall addr_nonneg v ->
  RM.C11.Driver.src_win_collect p v ws = win_collect (rev v) ws.
Proof.
  induction ws as [|w t IH]; intros v Hws Hv; [cbn; rewrite rev_involutive; reflexivity|].
  inversion Hws as [|? ? Hw Ht]; subst. destruct Hw as [Ha [Hs0 _]].
  cbn [RM.C11.Driver.src_win_collect win_collect].
  rewrite src_insert_win_stack_info_eq by (try assumption; exact Hv).
  destruct (win_insert (rev v) w) as [acc'| | |] eqn:E; cbn [obind]; try reflexivity.
  rewrite IH; [rewrite rev_involutive; reflexivity|exact Ht|].
  apply Forall_rev. apply (win_insert_addr (rev v) w acc'); [apply Forall_rev; exact Hv|destruct Ha; assumption|exact E].
Qed.
