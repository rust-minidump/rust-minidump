(* C11/Proofs2.v — second (after Proofs1).  What the integer types guarantee ([wf_file], with the boolean test
   [wf_fileb] for concrete files); the parser builds its tables without panicking ([finish_funcs_ret], [win_collect_ok],
   [build_ok]) and what it means that a table was built from the records of a file ([st_rel]); provenance of table
   entries ([lines_lookup], [func_lookup], [win_lookup]); the pure function that fill_symbol computes ([fill_pure];
   the equation is Proofs9.fill_ret). *)
From Coq Require Import Lia Sorting.Sorted Sorting.Permutation.
From RM Require Import Base.ListFacts C08.Model C08.Proofs C11.Model C11.Proofs1.
Open Scope Z_scope.

(* what the integer types of the parser guarantee *)
Definition u64 (x : Z) : Prop := 0 <= x < two64.
Definition u32 (x : Z) : Prop := 0 <= x < two32.
Definition wf_line (l : line_rec) : Prop := u64 (l_addr l) /\ u32 (l_size l).
Definition wf_inl (e : inl_rec) : Prop := u32 (i_depth e) /\ u64 (i_addr e) /\ u32 (i_size e).
Definition wf_fraw (fr : func_raw) : Prop :=
  u64 (fr_addr fr) /\ u32 (fr_size fr) /\ Forall wf_line (fr_lines fr) /\ Forall wf_inl (fr_inls fr) /\
  Z.of_nat (length (fr_inls fr)) < two32 - 1.
Definition wf_pub (p : pub_rec) : Prop := u64 (p_addr p).
Definition wf_win (w : win_rec) : Prop := u64 (w_addr w) /\ u32 (w_size w).
Definition wf_file (rf : raw_file) : Prop :=
  Forall wf_fraw (rf_funcs rf) /\ Forall wf_pub (rf_publics rf) /\
  Forall wf_win (rf_win_fd rf) /\ Forall wf_win (rf_win_fpo rf).

Lemma two32_val : two32 = 2 ^ 32. Proof. reflexivity. Qed.

(* the same as a computation, for concrete files *)
Definition u64b (x : Z) : bool := (0 <=? x) && (x <? two64).
Definition u32b (x : Z) : bool := (0 <=? x) && (x <? two32).
Definition wf_winb (w : win_rec) : bool := u64b (w_addr w) && u32b (w_size w).
Definition wf_frawb (fr : func_raw) : bool :=
  u64b (fr_addr fr) && u32b (fr_size fr) &&
  forallb (fun l => u64b (l_addr l) && u32b (l_size l)) (fr_lines fr) &&
  forallb (fun e => u32b (i_depth e) && u64b (i_addr e) && u32b (i_size e)) (fr_inls fr) &&
  (Z.of_nat (length (fr_inls fr)) <? two32 - 1).
Definition wf_fileb (rf : raw_file) : bool :=
  forallb wf_frawb (rf_funcs rf) && forallb (fun p => u64b (p_addr p)) (rf_publics rf) &&
  forallb wf_winb (rf_win_fd rf) && forallb wf_winb (rf_win_fpo rf).

Lemma u64b_ok x : u64b x = true -> u64 x.
Proof. unfold u64b, u64. intros H. apply andb_prop in H. destruct H as [A B]. apply Z.leb_le in A. apply Z.ltb_lt in B. auto. Qed.
Lemma u32b_ok x : u32b x = true -> u32 x.
Proof. unfold u32b, u32. intros H. apply andb_prop in H. destruct H as [A B]. apply Z.leb_le in A. apply Z.ltb_lt in B. auto. Qed.
Lemma forallb_Forall {A} (f : A -> bool) (P : A -> Prop) l :
  (forall x, f x = true -> P x) -> forallb f l = true -> Forall P l.
Proof. intros H Hl. apply Forall_forall. intros x Hx. apply H. exact (proj1 (forallb_forall f l) Hl x Hx). Qed.

Lemma wf_frawb_ok fr : wf_frawb fr = true -> wf_fraw fr.
Proof.
  unfold wf_frawb, wf_fraw. rewrite !andb_true_iff, Z.ltb_lt. intros ((((A & B) & C) & D) & E).
  split; [exact (u64b_ok _ A)|]. split; [exact (u32b_ok _ B)|]. split; [|split; [|exact E]].
  - revert C. apply forallb_Forall. intros l Hl. apply andb_prop in Hl. split; [apply u64b_ok|apply u32b_ok]; tauto.
  - revert D. apply forallb_Forall. intros e He. apply andb_prop in He. destruct He as [He Hs].
    apply andb_prop in He. split; [apply u32b_ok|split; [apply u64b_ok|apply u32b_ok]]; tauto.
Qed.
Lemma wf_winb_ok w : wf_winb w = true -> wf_win w.
Proof. unfold wf_winb. intros H. apply andb_prop in H. split; [apply u64b_ok|apply u32b_ok]; tauto. Qed.
Lemma wf_fileb_ok rf : wf_fileb rf = true -> wf_file rf.
Proof.
  unfold wf_fileb, wf_file. rewrite !andb_true_iff. intros (((A & B) & C) & D).
  split; [exact (forallb_Forall _ _ _ wf_frawb_ok A)|]. split; [exact (forallb_Forall _ _ _ (fun p => u64b_ok _) B)|].
  split; [exact (forallb_Forall _ _ _ wf_winb_ok C)|exact (forallb_Forall _ _ _ wf_winb_ok D)].
Qed.

Definition lines_tbl (ls : list line_rec) : list (range * line_rec) :=
  into_rangemap_safe line_eqb (line_entries ls).

Lemma line_entries_wf ls : Forall wf_line ls -> wf_entries (line_entries ls).
Proof.
  intros H. unfold wf_entries. rewrite Forall_forall. intros [o l] Hin.
  unfold line_entries in Hin. apply in_map_iff in Hin. destruct Hin as [l0 [Heq Hin]].
  inversion Heq; subst. apply filter_In in Hin. destruct Hin as [Hin Hs]. cbn [fst].
  unfold mk_range_line, checked_add. destruct (l_addr l + (l_size l - 1) <? 2 ^ 64) eqn:E; [|exact I].
  rewrite Forall_forall in H. specialize (H _ Hin). unfold wf_line, u64, u32, wf_range in *.
  cbn [fst snd]. rewrite two64_val. lia.
Qed.

Lemma lines_lookup ls x l : Forall wf_line ls -> rm_get (lines_tbl ls) x = Some l ->
  In l ls /\ line_covers l x = true /\ 0 <= l_addr l <= x.
Proof.
  intros Hwf Hg. apply (lookup_sound line_eqb line_eqb_eq) in Hg; [|apply line_entries_wf; assumption].
  destruct Hg as [r [Hin Hc]]. unfold line_entries in Hin. apply in_map_iff in Hin.
  destruct Hin as [l0 [Heq Hin]]. inversion Heq; subst l0. apply filter_In in Hin. destruct Hin as [Hin Hs].
  split; [assumption|]. unfold line_covers. rewrite Hs, H0. cbn [andb]. split; [assumption|].
  rewrite Forall_forall in Hwf. specialize (Hwf _ Hin). unfold wf_line, u64 in Hwf.
  unfold mk_range_line in H0. destruct (checked_add 64 (l_addr l) (l_size l - 1)); [|discriminate].
  inversion H0; subst r. unfold contains in Hc. cbn [fst snd] in Hc. lia.
Qed.

(* the pure values of finish_func_gen / finish_funcs_gen on well-formed blocks: the Function built from a FUNC block,
   its table entry (none when the range is empty or not representable), the entries of a list of blocks *)
Definition fin_func (fixed : bool) (fr : func_raw) : func :=
  mk_func (fr_addr fr) (fr_size fr) (fr_psize fr) (fr_name fr) (lines_tbl (fr_lines fr))
          (sort_by inl_lt (keep_inls fixed (fr_inls fr))).
Definition fin_pure (fixed : bool) (fr : func_raw) : option (range * func) :=
  match mk_range (fr_addr fr) (fr_size fr) with Some r => Some (r, fin_func fixed fr) | None => None end.
Fixpoint fin_list (fixed : bool) (l : list func_raw) : list (range * func) :=
  match l with
  | [] => []
  | fr :: t => match fin_pure fixed fr with Some e => e :: fin_list fixed t | None => fin_list fixed t end
  end.

Lemma finish_func_ret fixed fr : wf_fraw fr -> finish_func_gen fixed fr = Ret (fin_pure fixed fr).
Proof.
  intros (_ & _ & Hl & _). unfold finish_func_gen.
  rewrite (build_total line_eqb) by (apply line_entries_wf; assumption). cbn [obind].
  unfold fin_pure, fin_func, lines_tbl. destruct (mk_range (fr_addr fr) (fr_size fr)); reflexivity.
Qed.

Lemma finish_funcs_ret fixed l : Forall wf_fraw l -> finish_funcs_gen fixed l = Ret (fin_list fixed l).
Proof.
  induction 1 as [|fr t Hfr Ht IH]; cbn [finish_funcs_gen fin_list]; [reflexivity|].
  rewrite finish_func_ret by assumption. cbn [obind]. rewrite IH. cbn [obind].
  destruct (fin_pure fixed fr); reflexivity.
Qed.

Lemma fin_list_in fixed l e : In e (fin_list fixed l) <-> exists fr, In fr l /\ fin_pure fixed fr = Some e.
Proof.
  induction l as [|fr t IH]; cbn [fin_list In].
  - split; [tauto|intros [fr [[] _]]].
  - destruct (fin_pure fixed fr) as [e0|] eqn:E; cbn [In]; rewrite IH; split.
    + intros [->|[fr' [H1 H2]]]; [exists fr; auto|exists fr'; auto].
    + intros [fr' [[->|H1] H2]]; [left; congruence|right; exists fr'; auto].
    + intros [fr' [H1 H2]]; exists fr'; auto.
    + intros [fr' [[->|H1] H2]]; [congruence|exists fr'; auto].
Qed.

Lemma fin_list_app fixed a b : fin_list fixed (a ++ b) = fin_list fixed a ++ fin_list fixed b.
Proof.
  induction a as [|fr t IH]; cbn [fin_list app]; [reflexivity|].
  destruct (fin_pure fixed fr); [cbn [app]; f_equal|]; exact IH.
Qed.

Lemma fin_list_wf fixed l : Forall wf_fraw l -> wf_ranges (fin_list fixed l).
Proof.
  intros H. unfold wf_ranges. rewrite Forall_forall. intros [r f] Hin.
  apply fin_list_in in Hin. destruct Hin as [fr [Hin Hp]]. unfold fin_pure in Hp.
  destruct (mk_range (fr_addr fr) (fr_size fr)) as [r0|] eqn:E; [|discriminate]. inversion Hp; subst.
  rewrite Forall_forall in H. destruct (H _ Hin) as ((A & _) & (B & _) & _). cbn [fst].
  eapply mk_range_wf; [| |exact E]; lia.
Qed.

Lemma keep_inls_in fixed l e : In e (keep_inls fixed l) -> In e l.
Proof. unfold keep_inls. destruct fixed; [|auto]. intros H. apply filter_In in H. tauto. Qed.
Lemma keep_inls_length fixed l : (length (keep_inls fixed l) <= length l)%nat.
Proof. unfold keep_inls. destruct fixed; [apply filter_length_le|lia]. Qed.

(* a FUNC found by the table lookup is a FUNC record of the file that covers the address *)
Lemma func_lookup fixed fl x f : Forall wf_fraw fl ->
  rm_get (into_rangemap_safe_p func_eqb (fin_list fixed fl)) x = Some f ->
  exists fr, In fr fl /\ func_covers fr x = true /\ f = fin_func fixed fr /\ 0 <= fr_addr fr <= x.
Proof.
  intros Hwf Hg. apply (lookup_sound_p func_eqb func_eqb_eq) in Hg; [|apply fin_list_wf; assumption].
  destruct Hg as [r [Hin Hc]]. apply fin_list_in in Hin. destruct Hin as [fr [Hin Hp]].
  exists fr. split; [assumption|]. unfold fin_pure in Hp. unfold func_covers.
  destruct (mk_range (fr_addr fr) (fr_size fr)) as [r0|] eqn:E; [|discriminate]. inversion Hp; subst.
  split; [assumption|]. split; [reflexivity|].
  rewrite Forall_forall in Hwf. destruct (Hwf _ Hin) as ((A & _) & _).
  apply mk_range_shape in E. destruct E as (-> & _ & _). unfold contains in Hc. cbn [fst snd] in Hc. lia.
Qed.

(* provenance of an entry of the vector insert_win_stack_info builds: its range is its own memory range, it starts
   where a record [w0] of the file starts, ends no later (the overlap repair only shortens) and has w0's parameter size *)
Definition win_prov (ws : list win_rec) (e : range * win_rec) : Prop :=
  win_range (snd e) = Some (fst e) /\ wf_win (snd e) /\
  exists w0 r0, In w0 ws /\ win_range w0 = Some r0 /\ fst r0 = fst (fst e) /\ snd (fst e) <= snd r0 /\
                w_psize (snd e) = w_psize w0.

Lemma win_insert_ok ws acc w : Forall (win_prov ws) acc -> wf_win w -> In w ws ->
  exists acc', win_insert acc w = Ret acc' /\ Forall (win_prov ws) acc'.
Proof.
  intros Hacc Hw Hin. unfold win_insert. destruct (win_range w) as [mr|] eqn:Er; [|exists acc; auto].
  assert (Hnew : win_prov ws (mr, w)).
  { split; [exact Er|]. split; [exact Hw|]. exists w, mr. cbn [fst snd]. repeat split; auto; lia. }
  destruct acc as [|[lr lw] acc']; [exists [(mr, w)]; split; [reflexivity|constructor; [exact Hnew|constructor]]|].
  destruct (intersects lr mr) eqn:Ei; [|eexists; split; [reflexivity|constructor; assumption]].
  destruct (w_addr w >? w_addr lw) eqn:Eg.
  - inversion Hacc as [|? ? Hl Hrest]; subst.
    destruct Hl as (Hlr & Hlwf & w0 & r0 & Hw0 & Hr0 & Hs0 & He0 & Hp0). cbn [fst snd] in *.
    pose proof Hlr as Hlr'. unfold win_range in Hlr'. apply mk_range_shape in Hlr'. destruct Hlr' as (-> & Hsz & Hb).
    pose proof Er as Er'. unfold win_range in Er'. apply mk_range_shape in Er'. destruct Er' as (-> & Hsz2 & Hb2).
    unfold intersects in Ei. cbn [fst snd] in Ei.
    destruct Hlwf as [[A1 A2] [B1 B2]]. destruct Hw as [[C1 C2] [D1 D2]].
    set (d := w_addr w - w_addr lw).
    assert (Hd : 0 < d < w_size lw) by (unfold d; lia).
    assert (Hwrap : wrap32 d = d) by (unfold wrap32; apply Z.mod_small; lia).
    unfold win_range at 1. cbn [w_addr w_size]. rewrite Hwrap. unfold mk_range, checked_add.
    destruct (d =? 0) eqn:E0; [lia|]. destruct (w_addr lw + d <? 2 ^ 64) eqn:E1; [|rewrite two64_val in *; lia].
    eexists. split; [reflexivity|]. constructor; [exact Hnew|]. constructor; [|exact Hrest].
    split; [|split].
    + cbn [fst snd]. unfold win_range. cbn [w_addr w_size]. unfold mk_range, checked_add. rewrite E0, E1. reflexivity.
    + cbn [snd]. unfold wf_win, u64, u32. cbn [w_addr w_size]. lia.
    + exists w0, r0. cbn [fst snd w_psize] in *. unfold d in *. repeat split; try assumption; lia.
  - destruct (negb (range_eqb lr mr)); [exists ((lr, lw) :: acc'); auto|].
    eexists. split; [reflexivity|constructor; assumption].
Qed.

Lemma win_collect_ok wsall : forall ws acc, incl ws wsall -> Forall wf_win ws -> Forall (win_prov wsall) acc ->
  exists wl, win_collect acc ws = Ret wl /\ Forall (win_prov wsall) wl.
Proof.
  induction ws as [|w t IH]; intros acc Hincl Hwf Hacc; cbn [win_collect].
  - exists (rev acc). split; [reflexivity|apply Forall_rev; assumption].
  - inversion Hwf; subst.
    destruct (win_insert_ok wsall acc w Hacc) as [acc' [E Hacc']]; [assumption|apply Hincl; left; reflexivity|].
    rewrite E. cbn [obind]. apply IH; try assumption. intros a Ha. apply Hincl. right. exact Ha.
Qed.

Lemma win_prov_wf ws wl : Forall (win_prov ws) wl -> wf_ranges wl.
Proof.
  intros H. unfold wf_ranges. eapply Forall_impl; [|exact H]. intros [r w] (Hr & [[A _] [B _]] & _).
  cbn [fst snd] in *. unfold win_range in Hr. eapply mk_range_wf; [| |exact Hr]; lia.
Qed.

Lemma win_lookup ws wl x w : Forall (win_prov ws) wl ->
  rm_get (into_rangemap_safe_p win_eqb wl) x = Some w ->
  exists w0, In w0 ws /\ win_covers w0 x = true /\ w_psize w = w_psize w0.
Proof.
  intros Hp Hg. apply (lookup_sound_p win_eqb win_eqb_eq) in Hg; [|eapply win_prov_wf; eassumption].
  destruct Hg as [r [Hin Hc]]. rewrite Forall_forall in Hp. apply Hp in Hin.
  destruct Hin as (_ & _ & w0 & r0 & Hw0 & Hr0 & Hs & He & Hps). cbn [fst snd] in *.
  exists w0. split; [assumption|]. split; [|assumption]. unfold win_covers. rewrite Hr0.
  unfold contains in *. lia.
Qed.

(* [st] is a table built from the records [rf]: what build_symtab_gen returns satisfies it ([build_ok]), and so does
   the table of C09's parser model seen through any fitting encodings (Text2.table_rel) *)
Record st_rel (fixed : bool) (rf : raw_file) (st : symtab) : Prop := mk_st_rel {
  (* the two HashMaps: same lookups (the representation of the map is free) *)
  sr_files : forall k, assoc_last k (st_files st) = assoc_last k (rf_files rf);
  sr_origins : forall k, assoc_last k (st_origins st) = assoc_last k (rf_origins rf);
  sr_pubs : st_publics st = sort_by pub_lt (rf_publics rf);
  sr_funcs : st_funcs st = into_rangemap_safe_p func_eqb (fin_list fixed (rf_funcs rf));
  sr_fd : exists wl, win_collect [] (rf_win_fd rf) = Ret wl /\ Forall (win_prov (rf_win_fd rf)) wl /\
                     st_win_fd st = into_rangemap_safe_p win_eqb wl;
  sr_fpo : exists wl, win_collect [] (rf_win_fpo rf) = Ret wl /\ Forall (win_prov (rf_win_fpo rf)) wl /\
                      st_win_fpo st = into_rangemap_safe_p win_eqb wl
}.

Lemma build_ok fixed rf : wf_file rf -> exists st, build_symtab_gen fixed rf = Ret st /\ st_rel fixed rf st.
Proof.
  intros (Hf & Hp & Hfd & Hfpo). unfold build_symtab_gen.
  rewrite finish_funcs_ret by assumption. cbn [obind].
  rewrite (build_total_p func_eqb) by (apply fin_list_wf; assumption). cbn [obind].
  destruct (win_collect_ok (rf_win_fd rf) (rf_win_fd rf) []) as [wl1 [E1 P1]];
    [apply incl_refl|assumption|constructor|].
  rewrite E1. cbn [obind]. rewrite (build_total_p win_eqb) by (eapply win_prov_wf; eassumption). cbn [obind].
  destruct (win_collect_ok (rf_win_fpo rf) (rf_win_fpo rf) []) as [wl2 [E2 P2]];
    [apply incl_refl|assumption|constructor|].
  rewrite E2. cbn [obind]. rewrite (build_total_p win_eqb) by (eapply win_prov_wf; eassumption). cbn [obind].
  eexists. split; [reflexivity|]. constructor; cbn; try reflexivity; eauto.
Qed.

Definition src_of (st : symtab) (mbase fid line a : Z) : option (Z * Z * Z) :=
  match assoc_last fid (st_files st) with
  | Some fname => Some (fname, line, a + mbase)
  | None => None
  end.

Definition public_cut (st : symtab) (pb : pub_rec) (addr : Z) : bool :=
  match prev_func (st_funcs st) addr with
  | Some (_, f) => p_addr pb <=? fn_addr f
  | None => false
  end.

Definition inl_chain (f : func) (addr : Z) : list inl_rec :=
  match giad_pure (fn_inls f) 0 addr with
  | Some e0 => e0 :: chain_from (length (fn_inls f)) (fn_inls f) addr 1
  | None => []
  end.

Definition fill_func (st : symtab) (mbase addr : Z) (f : func) : sym_out :=
  let fo := Some (fn_name f, fn_addr f + mbase, param_size st f addr) in
  match inl_chain f addr with
  | e0 :: chain =>
      mk_out fo (src_of st mbase (i_cfile e0) (i_cline e0) (i_addr e0))
             (emit_frames st (i_origin e0) chain (rm_get (fn_lines f) addr))
  | [] =>
      match rm_get (fn_lines f) addr with
      | Some l => mk_out fo (src_of st mbase (l_file l) (l_line l) (l_addr l)) []
      | None => mk_out fo None []
      end
  end.

Lemma fill_func_ofunc st mbase addr f :
  o_func (fill_func st mbase addr f) = Some (fn_name f, fn_addr f + mbase, param_size st f addr).
Proof.
  unfold fill_func. destruct (inl_chain f addr); [|reflexivity].
  destruct (rm_get (fn_lines f) addr); reflexivity.
Qed.

Definition fill_public (st : symtab) (mbase addr : Z) : sym_out :=
  match find_nearest_public (st_publics st) addr with
  | None => empty_out
  | Some pb => if public_cut st pb addr then empty_out
               else mk_out (Some (p_name pb, p_addr pb + mbase, p_psize pb)) None []
  end.

Definition fill_pure (st : symtab) (mbase instr : Z) : sym_out :=
  if instr <? mbase then empty_out
  else match rm_get (st_funcs st) (instr - mbase) with
       | Some f => fill_func st mbase (instr - mbase) f
       | None => fill_public st mbase (instr - mbase)
       end.

Lemma fin_inls_wf fixed fr : wf_fraw fr ->
  Forall wf_inl (fn_inls (fin_func fixed fr)) /\
  Z.of_nat (length (fn_inls (fin_func fixed fr))) < two32 - 1.
Proof.
  intros (_ & _ & _ & Hi & Hn). cbn [fin_func fn_inls]. split.
  - rewrite Forall_forall in *. intros e He. apply sort_by_in in He. apply keep_inls_in in He. auto.
  - rewrite sort_by_length. pose proof (keep_inls_length fixed (fr_inls fr)). lia.
Qed.

(* the chain found after depth 0 is shorter than the number of inlinees *)
Lemma chain_short inls addr e0 : giad_pure inls 0 addr = Some e0 ->
  (length (chain_from (length inls) inls addr 1) < length inls)%nat.
Proof.
  intros H0. apply giad_sound in H0. destruct H0 as (Hin & Hd & _).
  destruct (chain_from_depths (length inls) inls addr 1) as [Hf Hn].
  assert (Hnd : NoDup (e0 :: chain_from (length inls) inls addr 1)).
  { constructor; [|exact Hn]. intros Hc. rewrite Forall_forall in Hf. apply Hf in Hc. lia. }
  assert (Hincl : incl (e0 :: chain_from (length inls) inls addr 1) inls).
  { intros a [<-|Ha]; [assumption|]. rewrite Forall_forall in Hf. apply Hf in Ha. tauto. }
  pose proof (NoDup_incl_length Hnd Hincl) as Hl. cbn [length] in Hl. lia.
Qed.
