(* C11/Proofs6.v — eighth (after Proofs10).  For files whose records do not overlap, the lookups equal linear scans
   ([equals_linear_scan]); for all files, the table lookup finds a FUNC record that meets no other ([fin_list_isolated]). *)
From Coq Require Import Lia Sorting.Sorted Sorting.Permutation.
From RM Require Import C08.Model C08.Proofs C11.Model C11.Proofs1 C11.Proofs2 C11.Proofs9 C11.Proofs3 C11.Proofs4 C11.Proofs10.
Open Scope Z_scope.

Fixpoint pairwise {A} (R : A -> A -> Prop) (l : list A) : Prop :=
  match l with [] => True | x :: t => Forall (R x) t /\ pairwise R t end.

(* the addresses a record of size s at a occupies: [a, a+s); nothing when s = 0 *)
Definition occ_disjoint (a1 s1 a2 s2 : Z) : Prop := s1 = 0 \/ s2 = 0 \/ a1 + s1 <= a2 \/ a2 + s2 <= a1.
Definition func_dj (a b : func_raw) : Prop := occ_disjoint (fr_addr a) (fr_size a) (fr_addr b) (fr_size b).
Definition line_dj (a b : line_rec) : Prop := occ_disjoint (l_addr a) (l_size a) (l_addr b) (l_size b).
Definition inl_dj (a b : inl_rec) : Prop :=
  i_depth a <> i_depth b \/ occ_disjoint (i_addr a) (i_size a) (i_addr b) (i_size b).
Definition win_dj (a b : win_rec) : Prop := occ_disjoint (w_addr a) (w_size a) (w_addr b) (w_size b).
Definition non_overlapping (rf : raw_file) : Prop :=
  pairwise func_dj (rf_funcs rf) /\
  Forall (fun fr => pairwise line_dj (fr_lines fr) /\ pairwise inl_dj (fr_inls fr)) (rf_funcs rf) /\
  pairwise win_dj (rf_win_fd rf) /\ pairwise win_dj (rf_win_fpo rf).

Lemma occ_sym a1 s1 a2 s2 : occ_disjoint a1 s1 a2 s2 -> occ_disjoint a2 s2 a1 s1.
Proof. unfold occ_disjoint. tauto. Qed.

Lemma pairwise_split {A} (R : A -> A -> Prop) a x b :
  (forall u v, R u v -> R v u) -> pairwise R (a ++ x :: b) -> forall y, In y (a ++ b) -> R x y.
Proof.
  intros Hsym. induction a as [|h t IH]; cbn [app pairwise].
  - intros [H _] y Hy. rewrite Forall_forall in H. auto.
  - intros [H1 H2] y [<-|Hy].
    + apply Hsym. rewrite Forall_forall in H1. apply H1. apply in_or_app. right. left. reflexivity.
    + apply IH; assumption.
Qed.

Lemma pairwise_in {A} (R : A -> A -> Prop) l :
  (forall u v, R u v -> R v u) -> pairwise R l -> forall a b, In a l -> In b l -> a = b \/ R a b.
Proof.
  intros Hsym. induction l as [|h t IH]; cbn [pairwise]; [intros _ a b []|].
  intros [H1 H2] a b [<-|Ha] [<-|Hb]; rewrite Forall_forall in H1; auto.
Qed.

(* ---- reference lookups: plain linear scans over the records of the file *)
Definition ref_func (rf : raw_file) (x : Z) : option func_raw := find (fun fr => func_covers fr x) (rf_funcs rf).
Definition ref_line (fr : func_raw) (x : Z) : option line_rec := find (fun l => line_covers l x) (fr_lines fr).
Definition ref_inl (fr : func_raw) (d x : Z) : option inl_rec := find (inl_covers d x) (fr_inls fr).
Fixpoint ref_chain (fuel : nat) (fr : func_raw) (x d : Z) : list inl_rec :=
  match fuel with
  | O => []
  | S f => match ref_inl fr d x with None => [] | Some e => e :: ref_chain f fr x (d + 1) end
  end.
Definition ref_inl_chain (fr : func_raw) (x : Z) : list inl_rec := ref_chain (S (length (fr_inls fr))) fr x 0.

Lemma fin_list_cons_some fixed fr b r : mk_range (fr_addr fr) (fr_size fr) = Some r ->
  fin_list fixed (fr :: b) = (r, fin_func fixed fr) :: fin_list fixed b.
Proof. intros E. cbn [fin_list]. unfold fin_pure. rewrite E. reflexivity. Qed.

(* a FUNC block that covers the address and whose range meets that of no other block is the one found *)
Lemma fin_list_isolated fixed l1 fr l2 r x :
  Forall wf_fraw (l1 ++ fr :: l2) -> mk_range (fr_addr fr) (fr_size fr) = Some r -> contains r x = true ->
  (forall fr' r', In fr' (l1 ++ l2) -> mk_range (fr_addr fr') (fr_size fr') = Some r' -> intersects r r' = false) ->
  rm_get (into_rangemap_safe_p func_eqb (fin_list fixed (l1 ++ fr :: l2))) x = Some (fin_func fixed fr).
Proof.
  intros Hwf Er Hc Hiso. apply (fin_list_wf fixed) in Hwf. revert Hwf.
  rewrite fin_list_app, (fin_list_cons_some fixed fr l2 r Er). intros Hwf.
  apply (isolated_complete_p func_eqb func_eqb_eq); [exact Hwf| |exact Hc].
  intros r' v' Hin'. rewrite <- fin_list_app in Hin'. apply fin_list_in in Hin'.
  destruct Hin' as (fr' & Hfr' & Hp). unfold fin_pure in Hp.
  destruct (mk_range (fr_addr fr') (fr_size fr')) as [r1|] eqn:Er'; [|discriminate]. inversion Hp; subst.
  exact (Hiso fr' r' Hfr' Er').
Qed.

Lemma func_dj_isolated fr fr' r r' : func_dj fr fr' ->
  mk_range (fr_addr fr) (fr_size fr) = Some r -> mk_range (fr_addr fr') (fr_size fr') = Some r' ->
  intersects r r' = false.
Proof.
  intros Hd Er Er'. apply mk_range_shape in Er, Er'. destruct Er as (-> & S1 & _), Er' as (-> & S2 & _).
  unfold func_dj, occ_disjoint in Hd. unfold intersects. cbn [fst snd].
  apply andb_false_iff. destruct Hd as [Hd|[Hd|[Hd|Hd]]]; try contradiction; [right|left]; lia.
Qed.

Lemma funcs_linear rf x : Forall wf_fraw (rf_funcs rf) -> pairwise func_dj (rf_funcs rf) ->
  rm_get (into_rangemap_safe_p func_eqb (fin_list true (rf_funcs rf))) x =
  option_map (fin_func true) (ref_func rf x).
Proof.
  intros Hwf Hdj. unfold ref_func. destruct (find (fun fr => func_covers fr x) (rf_funcs rf)) as [fr|] eqn:Ef.
  - apply find_some in Ef. destruct Ef as [Hin Hc]. cbn [option_map].
    apply in_split in Hin. destruct Hin as (a & b & Hab). rewrite Hab in *.
    unfold func_covers in Hc. destruct (mk_range (fr_addr fr) (fr_size fr)) as [r|] eqn:Er; [|discriminate].
    apply (fin_list_isolated true a fr b r); [exact Hwf|exact Er|exact Hc|]. intros fr' r' Hfr'.
    apply (func_dj_isolated fr fr'); [|exact Er].
    exact (pairwise_split func_dj a fr b (fun u v H => occ_sym _ _ _ _ H) Hdj fr' Hfr').
  - cbn [option_map]. destruct (rm_get _ x) as [f|] eqn:Eg; [|reflexivity]. exfalso.
    apply func_lookup in Eg; [|assumption]. destruct Eg as (fr & Hin & Hc & _).
    eapply find_none in Ef; [|exact Hin]. cbn in Ef. congruence.
Qed.

(* ---- STACK WIN tables: with disjoint records insert_win_stack_info repairs nothing *)
Fixpoint win_list (ws : list win_rec) : list (range * win_rec) :=
  match ws with
  | [] => []
  | w :: t => match win_range w with Some r => (r, w) :: win_list t | None => win_list t end
  end.

Lemma win_dj_intersects w w' r r' : win_range w = Some r -> win_range w' = Some r' -> win_dj w w' ->
  intersects r r' = false.
Proof.
  unfold win_range. intros E E' Hd. apply mk_range_shape in E, E'.
  destruct E as (-> & S1 & _), E' as (-> & S2 & _). unfold win_dj, occ_disjoint in Hd.
  unfold intersects. cbn [fst snd]. apply andb_false_iff.
  destruct Hd as [Hd|[Hd|[Hd|Hd]]]; try contradiction; [right|left]; lia.
Qed.

Lemma win_insert_disjoint acc w mr : win_range w = Some mr ->
  (forall lr lw, In (lr, lw) acc -> intersects lr mr = false) -> win_insert acc w = Ret ((mr, w) :: acc).
Proof.
  intros Er Hacc. unfold win_insert. rewrite Er. destruct acc as [|[lr lw] acc']; [reflexivity|].
  rewrite (Hacc lr lw (or_introl eq_refl)). reflexivity.
Qed.

Lemma win_collect_disjoint ws : forall acc,
  (forall lr lw w mr, In (lr, lw) acc -> In w ws -> win_range w = Some mr -> intersects lr mr = false) ->
  pairwise win_dj ws -> win_collect acc ws = Ret (rev acc ++ win_list ws).
Proof.
  induction ws as [|w t IH]; intros acc Hacc Hdj; cbn [win_collect win_list].
  - rewrite app_nil_r. reflexivity.
  - destruct Hdj as [Hd1 Hd2]. destruct (win_range w) as [mr|] eqn:Er.
    + rewrite (win_insert_disjoint acc w mr Er) by (intros lr lw Hin; exact (Hacc lr lw w mr Hin (or_introl eq_refl) Er)).
      cbn [obind]. rewrite IH; [cbn [rev]; rewrite <- app_assoc; reflexivity| |exact Hd2].
      intros lr lw w' mr' [Hin|Hin] Hw' Er'.
      * inversion Hin; subst. rewrite Forall_forall in Hd1. eapply win_dj_intersects; eauto.
      * eapply Hacc; [exact Hin|right; exact Hw'|exact Er'].
    + unfold win_insert. rewrite Er. cbn [obind]. apply IH; [|exact Hd2]. intros lr lw w' mr' Hin Hw' Er'.
      eapply Hacc; [exact Hin|right; exact Hw'|exact Er'].
Qed.

Lemma win_list_in ws r w : In (r, w) (win_list ws) <-> In w ws /\ win_range w = Some r.
Proof.
  induction ws as [|w0 t IH]; cbn [win_list In]; [tauto|].
  destruct (win_range w0) as [r0|] eqn:E; cbn [In]; rewrite IH; split.
  - intros [H|[H1 H2]]; [inversion H; subst; auto|auto].
  - intros [[->|H1] H2]; [left; congruence|right; auto].
  - intros [H1 H2]; auto.
  - intros [[->|H1] H2]; [congruence|auto].
Qed.
Lemma win_list_app a b : win_list (a ++ b) = win_list a ++ win_list b.
Proof.
  induction a as [|w t IH]; cbn [win_list app]; [reflexivity|].
  destruct (win_range w); [cbn [app]; f_equal|]; exact IH.
Qed.
Lemma win_list_wf ws : Forall wf_win ws -> wf_ranges (win_list ws).
Proof.
  intros H. unfold wf_ranges. rewrite Forall_forall. intros [r w] Hin. apply win_list_in in Hin.
  destruct Hin as [Hin Hr]. rewrite Forall_forall in H. destruct (H _ Hin) as [[A _] [B _]]. cbn [fst].
  unfold win_range in Hr. eapply mk_range_wf; [| |exact Hr]; lia.
Qed.

Lemma win_linear ws x : Forall wf_win ws -> pairwise win_dj ws ->
  rm_get (into_rangemap_safe_p win_eqb (win_list ws)) x = find (fun w => win_covers w x) ws.
Proof.
  intros Hwf Hdj. destruct (find (fun w => win_covers w x) ws) as [w|] eqn:Ef.
  - apply find_some in Ef. destruct Ef as [Hin Hc].
    apply in_split in Hin. destruct Hin as (a & b & Hab). subst ws.
    unfold win_covers in Hc. destruct (win_range w) as [r|] eqn:Er; [|discriminate].
    assert (He : win_list (w :: b) = (r, w) :: win_list b) by (cbn [win_list]; rewrite Er; reflexivity).
    rewrite win_list_app, He. apply (isolated_complete_p win_eqb win_eqb_eq); [| |assumption].
    + pose proof (win_list_wf _ Hwf) as H. rewrite win_list_app, He in H. exact H.
    + intros r' w' Hin'. rewrite <- win_list_app in Hin'. apply win_list_in in Hin'. destruct Hin' as [Hw' Er'].
      pose proof (pairwise_split win_dj a w b (fun u v H => occ_sym _ _ _ _ H) Hdj w' Hw') as Hd.
      eapply win_dj_intersects; eauto.
  - destruct (rm_get _ x) as [w|] eqn:Eg; [|reflexivity]. exfalso.
    apply (lookup_sound_p win_eqb win_eqb_eq) in Eg; [|apply win_list_wf; assumption].
    destruct Eg as [r [Hin Hc]]. apply win_list_in in Hin. destruct Hin as [Hin Hr].
    eapply find_none in Ef; [|exact Hin]. unfold win_covers in Ef. rewrite Hr in Ef. congruence.
Qed.

Definition ref_psize (rf : raw_file) (fr : func_raw) (x : Z) : Z :=
  match find (fun w => win_covers w x) (rf_win_fd rf) with
  | Some w => w_psize w
  | None => match find (fun w => win_covers w x) (rf_win_fpo rf) with
            | Some w => w_psize w
            | None => fr_psize fr
            end
  end.

Lemma psize_linear rf st fr x : wf_file rf -> st_rel true rf st ->
  pairwise win_dj (rf_win_fd rf) -> pairwise win_dj (rf_win_fpo rf) ->
  param_size st (fin_func true fr) x = ref_psize rf fr x.
Proof.
  intros (_ & _ & Hw1 & Hw2) Hrel Hd1 Hd2. unfold param_size, ref_psize.
  destruct (sr_fd _ _ _ Hrel) as (wl1 & C1 & _ & E1). destruct (sr_fpo _ _ _ Hrel) as (wl2 & C2 & _ & E2).
  rewrite win_collect_disjoint in C1, C2; try assumption; try (intros ? ? ? ? []).
  cbn [rev app] in C1, C2. inversion C1; inversion C2; subst wl1 wl2.
  rewrite E1, E2, !win_linear by assumption. reflexivity.
Qed.

Lemma line_entries_app a b : line_entries (a ++ b) = line_entries a ++ line_entries b.
Proof. unfold line_entries. rewrite filter_app, map_app. reflexivity. Qed.

Lemma lines_linear ls x : Forall wf_line ls -> pairwise line_dj ls ->
  rm_get (lines_tbl ls) x = find (fun l => line_covers l x) ls.
Proof.
  intros Hwf Hdj. destruct (find (fun l => line_covers l x) ls) as [l|] eqn:Ef.
  - apply find_some in Ef. destruct Ef as [Hin Hc].
    apply in_split in Hin. destruct Hin as (a & b & Hab). subst ls.
    unfold line_covers in Hc. apply andb_true_iff in Hc. destruct Hc as [Hs Hc].
    destruct (mk_range_line (l_addr l) (l_size l)) as [r|] eqn:Er; [|discriminate].
    unfold lines_tbl. rewrite line_entries_app.
    assert (He : line_entries (l :: b) = (Some r, l) :: line_entries b).
    { unfold line_entries. cbn [filter]. rewrite Hs. cbn [map]. rewrite Er. reflexivity. }
    rewrite He. apply (isolated_complete line_eqb line_eqb_eq); [| |assumption].
    + pose proof (line_entries_wf _ Hwf) as H. rewrite line_entries_app, He in H. exact H.
    + intros r' v' Hin'. rewrite <- line_entries_app in Hin'. unfold line_entries in Hin'.
      apply in_map_iff in Hin'. destruct Hin' as (l' & Heq & Hl'). inversion Heq; subst v'.
      apply filter_In in Hl'. destruct Hl' as [Hl' Hs'].
      pose proof (pairwise_split line_dj a l b (fun u v H => occ_sym _ _ _ _ H) Hdj l' Hl') as Hd.
      unfold mk_range_line, checked_add in Er, H0.
      destruct (l_addr l + (l_size l - 1) <? 2 ^ 64); [|discriminate].
      destruct (l_addr l' + (l_size l' - 1) <? 2 ^ 64); [|discriminate].
      inversion Er; inversion H0; subst. unfold line_dj, occ_disjoint in Hd. unfold intersects. cbn [fst snd].
      apply andb_false_iff. destruct Hd as [Hd|[Hd|[Hd|Hd]]]; [lia|lia|right; lia|left; lia].
  - destruct (rm_get (lines_tbl ls) x) as [l|] eqn:Eg; [|reflexivity]. exfalso.
    apply lines_lookup in Eg; [|assumption]. destruct Eg as (Hin & Hc & _).
    eapply find_none in Ef; [|exact Hin]. cbn in Ef. congruence.
Qed.

(* on non-empty records that are disjoint within each depth, a record covering (d, x) is the greatest at or below
   that key: one above it in the order would start inside it *)
Lemma giad_complete inls d x e :
  sorted inl_lt inls -> Forall (fun a => 0 < i_size a) inls ->
  (forall a b, In a inls -> In b inls -> a = b \/ inl_dj a b) ->
  In e inls -> inl_covers d x e = true -> giad_pure inls d x = Some e.
Proof.
  intros Hs Hnz Hdj Hin Hc. unfold inl_covers in Hc.
  apply andb_true_iff in Hc. destruct Hc as [Hc C4]. apply andb_true_iff in Hc. destruct Hc as [Hc C3].
  apply andb_true_iff in Hc. destruct Hc as [C1 C2].
  apply Z.eqb_eq in C1. apply Z.leb_le in C2. apply Z.ltb_lt in C3, C4.
  unfold giad_pure. rewrite (nearest_unique inls d x _ (Some e) (bs_cand_nearest inls d x Hs)).
  - cbn [giad_check]. rewrite (proj2 (Z.eqb_eq _ _) C1). cbn [negb]. unfold checked_add.
    rewrite <- two64_val. rewrite (proj2 (Z.ltb_lt _ _) C4), (proj2 (Z.ltb_lt _ _) C3). reflexivity.
  - cbn [nearest]. split; [exact Hin|]. split; [unfold key_le; lia|]. intros a Ha Hk.
    rewrite Forall_forall in Hnz. pose proof (Hnz a Ha). pose proof (Hnz e Hin).
    destruct (Hdj e a Hin Ha) as [<-|Hd]; [apply inl_lt_irrefl|].
    apply inl_lt_key_conv. unfold key_le in Hk. unfold inl_dj, occ_disjoint in Hd. lia.
Qed.

Lemma inl_dj_sym u v : inl_dj u v -> inl_dj v u.
Proof. unfold inl_dj. intros [H|H]; [left; congruence|right; apply occ_sym; exact H]. Qed.

Lemma inls_linear fr d x : pairwise inl_dj (fr_inls fr) ->
  giad_pure (fn_inls (fin_func true fr)) d x = ref_inl fr d x.
Proof.
  intros Hdj. unfold ref_inl. cbn [fin_func fn_inls keep_inls].
  destruct (find (inl_covers d x) (fr_inls fr)) as [e|] eqn:Ef.
  - apply find_some in Ef. destruct Ef as [Hin Hc]. apply giad_complete.
    + apply fin_inls_sorted.
    + rewrite Forall_forall. intros a Ha. apply sort_by_in in Ha. apply filter_In in Ha. lia.
    + intros a b Ha Hb. apply sort_by_in in Ha, Hb. apply filter_In in Ha, Hb.
      apply (pairwise_in inl_dj (fr_inls fr) inl_dj_sym Hdj); tauto.
    + apply sort_by_in. apply filter_In. split; [assumption|].
      unfold inl_covers in Hc. apply andb_true_iff in Hc. destruct Hc as [Hc _].
      apply andb_true_iff in Hc. destruct Hc as [Hc C3]. apply andb_true_iff in Hc. destruct Hc as [_ C2]. lia.
    + assumption.
  - destruct (giad_pure _ d x) as [e|] eqn:Eg; [|reflexivity]. exfalso.
    apply giad_covers in Eg. destruct Eg as (Hin & Hc).
    apply sort_by_in in Hin. apply filter_In in Hin. destruct Hin as [Hin _].
    eapply find_none in Ef; [|exact Hin]. congruence.
Qed.

Lemma chain_linear fr x : pairwise inl_dj (fr_inls fr) -> forall fuel d,
  chain_from fuel (fn_inls (fin_func true fr)) x d = ref_chain fuel fr x d.
Proof.
  intros Hdj. induction fuel as [|f IH]; intros d; cbn [chain_from ref_chain]; [reflexivity|].
  rewrite inls_linear by assumption. destruct (ref_inl fr d x); [rewrite IH|]; reflexivity.
Qed.

Lemma inl_chain_linear fr x : pairwise inl_dj (fr_inls fr) ->
  inl_chain (fin_func true fr) x = ref_inl_chain fr x.
Proof.
  intros Hdj. unfold inl_chain, ref_inl_chain. cbn [ref_chain].
  rewrite inls_linear by assumption. destruct (ref_inl fr 0 x) as [e0|] eqn:E0; [|reflexivity].
  f_equal. rewrite <- chain_linear by assumption. cbn [Z.add]. symmetry.
  apply chain_from_ge.
  - apply (chain_short _ _ e0). rewrite inls_linear by assumption. exact E0.
  - cbn [fin_func fn_inls]. rewrite sort_by_length. apply keep_inls_length.
Qed.

(* ---- the reference result of the FUNC branch, from the records alone *)
Definition st0 (rf : raw_file) : symtab := mk_symtab (rf_files rf) (rf_origins rf) [] [] [] [].

Definition ref_fill_func (rf : raw_file) (ps mbase addr : Z) (fr : func_raw) : sym_out :=
  let fo := Some (fr_name fr, fr_addr fr + mbase, ps) in
  match ref_inl_chain fr addr with
  | e0 :: chain =>
      mk_out fo (src_of (st0 rf) mbase (i_cfile e0) (i_cline e0) (i_addr e0))
             (frames_spec (st0 rf) (e0 :: chain) (ref_line fr addr))
  | [] =>
      match ref_line fr addr with
      | Some l => mk_out fo (src_of (st0 rf) mbase (l_file l) (l_line l) (l_addr l)) []
      | None => mk_out fo None []
      end
  end.

Lemma fill_func_linear rf st mbase addr fr :
  wf_fraw fr -> st_rel true rf st ->
  pairwise line_dj (fr_lines fr) -> pairwise inl_dj (fr_inls fr) ->
  fill_func st mbase addr (fin_func true fr) =
  ref_fill_func rf (param_size st (fin_func true fr) addr) mbase addr fr.
Proof.
  intros Hwf Hrel Hl Hi. unfold fill_func, ref_fill_func.
  rewrite inl_chain_linear by assumption.
  assert (Hline : rm_get (fn_lines (fin_func true fr)) addr = ref_line fr addr).
  { cbn [fin_func fn_lines]. destruct Hwf as (_ & _ & Hlw & _). apply lines_linear; assumption. }
  rewrite Hline. cbn [fin_func fn_name fn_addr].
  assert (Hsrc : forall a b c, src_of st mbase a b c = src_of (st0 rf) mbase a b c).
  { intros a b c. unfold src_of. cbn [st0 st_files]. rewrite (sr_files _ _ _ Hrel). reflexivity. }
  destruct (ref_inl_chain fr addr) as [|e0 chain].
  - destruct (ref_line fr addr); [rewrite Hsrc|]; reflexivity.
  - rewrite Hsrc, <- emit_is_spec. f_equal. apply emit_frames_ext; cbn [st0 st_files st_origins];
      [intros k; apply (sr_files _ _ _ Hrel)|intros k; apply (sr_origins _ _ _ Hrel)].
Qed.

(* a PUBLIC is cut off exactly by a non-empty representable FUNC record between it and addr *)
Lemma cut_linear rf st pb addr :
  wf_file rf -> st_rel true rf st -> pairwise func_dj (rf_funcs rf) ->
  cut_by_func st pb addr <->
  exists fr, In fr (rf_funcs rf) /\ mk_range (fr_addr fr) (fr_size fr) <> None /\
             p_addr pb <= fr_addr fr <= addr.
Proof.
  intros Hwf Hrel Hdj. split.
  - intros (r & f & Hin & Hs & Hle). rewrite (sr_funcs _ _ _ Hrel) in Hin. apply table_entry in Hin.
    destruct Hin as (fr & Hfr & -> & _ & Hv). exists fr. cbn [fin_func fn_addr] in Hle. auto.
  - intros (fr & Hfr & Hv & Hle). destruct Hwf as (Hwff & _).
    destruct (mk_range (fr_addr fr) (fr_size fr)) as [r0|] eqn:Er; [|congruence].
    assert (Hc : func_covers fr (fr_addr fr) = true).
    { unfold func_covers. rewrite Er. apply mk_range_shape in Er. destruct Er as (-> & S1 & _).
      rewrite Forall_forall in Hwff. destruct (Hwff _ Hfr) as (_ & [S2 _] & _).
      unfold contains. cbn [fst snd]. lia. }
    pose proof (funcs_linear rf (fr_addr fr) Hwff Hdj) as Hg. unfold ref_func in Hg.
    destruct (find (fun fr0 => func_covers fr0 (fr_addr fr)) (rf_funcs rf)) as [fr'|] eqn:Ef;
      [|eapply find_none in Ef; [|exact Hfr]; cbn in Ef; congruence].
    cbn [option_map] in Hg. rewrite <- (sr_funcs _ _ _ Hrel) in Hg.
    pose proof Hg as Hg'. apply rm_get_in in Hg'. destruct Hg' as (r & Hin & Hcr).
    pose proof Hin as Hin'. rewrite (sr_funcs _ _ _ Hrel) in Hin'. apply table_entry in Hin'.
    destruct Hin' as (fr2 & _ & E2 & Hs & _).
    (* fr' covers fr_addr fr and so does fr: by disjointness they have the same address *)
    apply find_some in Ef. destruct Ef as [Hfr' Hc'].
    assert (Ha : fr_addr fr' = fr_addr fr).
    { destruct (pairwise_in func_dj (rf_funcs rf) (fun u v H => occ_sym _ _ _ _ H) Hdj fr' fr Hfr' Hfr) as [->|Hd]; [reflexivity|].
      exfalso. unfold func_covers in Hc', Hc. rewrite Er in Hc.
      destruct (mk_range (fr_addr fr') (fr_size fr')) as [r1|] eqn:Er'; [|discriminate].
      apply mk_range_shape in Er, Er'. destruct Er as (-> & S1 & _), Er' as (-> & S2 & _).
      unfold contains in Hc, Hc'. cbn [fst snd] in Hc, Hc'. unfold func_dj, occ_disjoint in Hd. lia. }
    exists r, (fin_func true fr'). split; [assumption|]. split; [assumption|].
    cbn [fin_func fn_addr]. lia.
Qed.

Lemma equals_linear_scan p rf mbase instr :
  wf_file rf -> non_overlapping rf -> 0 <= mbase -> mbase <= instr < two64 ->
  exists o, symbolize p rf mbase instr = Ret o /\
    match ref_func rf (instr - mbase) with
    | Some fr => o = ref_fill_func rf (ref_psize rf fr (instr - mbase)) mbase (instr - mbase) fr
    | None =>
        ((forall q, In q (rf_publics rf) -> instr - mbase < p_addr q) /\ o = empty_out) \/
        (exists pb, In pb (rf_publics rf) /\ p_addr pb <= instr - mbase /\
           (forall q, In q (rf_publics rf) -> p_addr q <= instr - mbase -> pub_lt pb q = false) /\
           let cut := exists fr, In fr (rf_funcs rf) /\ mk_range (fr_addr fr) (fr_size fr) <> None /\
                                 p_addr pb <= fr_addr fr <= instr - mbase in
           ((cut /\ o = empty_out) \/
            (~ cut /\ o = mk_out (Some (p_name pb, p_addr pb + mbase, p_psize pb)) None [])))
    end.
Proof.
  intros Hwf (Hdf & Hdr & Hdw1 & Hdw2) Hmb [Hge Hin].
  destruct (symbolize_cases true p rf mbase instr Hwf Hmb Hin) as (st & o & Hrel & _ & Hs & Hc).
  exists o. split; [exact Hs|]. pose proof Hwf as (Hwff & _).
  pose proof (funcs_linear rf (instr - mbase) Hwff Hdf) as Hlin. rewrite <- (sr_funcs _ _ _ Hrel) in Hlin.
  destruct Hc as [[Hlt _]|[(_ & fr & Hfr & _ & _ & Hg & ->)|(_ & Hg & ->)]]; [lia| |].
  - rewrite Hg in Hlin. destruct (ref_func rf (instr - mbase)) as [fr'|] eqn:Er; [|discriminate].
    cbn [option_map] in Hlin. unfold ref_func in Er. apply find_some in Er. destruct Er as [Hfr' _].
    rewrite Forall_forall in Hdr, Hwff. destruct (Hdr _ Hfr') as [Hl Hi].
    assert (Heq : fin_func true fr = fin_func true fr') by (injection Hlin; intros; congruence).
    rewrite Heq. rewrite <- (psize_linear rf st fr' (instr - mbase) Hwf Hrel Hdw1 Hdw2).
    apply fill_func_linear; auto.
  - rewrite Hg in Hlin. destruct (ref_func rf (instr - mbase)); [discriminate|].
    destruct (fill_public_spec true rf st mbase (instr - mbase) Hwf Hrel Hg) as [H|(pb & A & B & C & D)]; [left; exact H|].
    right. exists pb. split; [assumption|]. split; [assumption|]. split; [assumption|].
    cbv zeta. rewrite <- (cut_linear rf st pb (instr - mbase) Hwf Hrel Hdf). exact D.
Qed.
