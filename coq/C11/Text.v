(* C11/Text.v — from symbol text to the tables of C11 (first of Text, Text2, Text3, Enc; needs Proofs1, Proofs2).
   C09/Grammar.v models the parser byte by byte: [recog_pst] (one line of parse_more),
   [finish] (SymbolParser::finish) producing a [table] whose names are strings ([rle]).
   C11's model works on records whose names are integers.  This file relates the two:
   mapping names through any [nm : rle -> Z] that is injective on the FUNC names of the file,
   the FUNC table of [finish q] — ranges, Function values with their line tables and sorted
   inlinees — is exactly the FUNC table C11's [build_symtab] builds from the collected records. *)
From Coq Require Import Lia Sorting.Sorted Sorting.Permutation.
From RM Require C09.Model.
From RM Require Import C08.Model C08.Proofs C09.Grammar C11.Model C11.Proofs1 C11.Proofs2.
Open Scope Z_scope.

(* ------------------------------------------------------------------ builders commute with a
   value map that preserves == on the values in scope *)
Section MapCommute.
Context {V W : Type} (eqv : V -> V -> bool) (eqw : W -> W -> bool) (g : V -> W) (P : V -> Prop).
Hypothesis agree : forall a b, P a -> P b -> eqw (g a) (g b) = eqv a b.

(* [GM] maps the value of a table entry through [g]; [values_in l]: every value of [l] is in scope *)
Definition GM (e : range * V) : range * W := (fst e, g (snd e)).
Definition values_in (l : list (range * V)) : Prop := Forall (fun e => P (snd e)) l.

Lemma insert_map x l :
  insert_stable range_lt (GM x) (map GM l) = map GM (insert_stable range_lt x l).
Proof.
  induction l as [|a t IH]; cbn [insert_stable map]; [reflexivity|].
  cbn [GM fst]. destruct (range_lt (fst a) (fst x)); cbn [map]; [rewrite <- IH|]; reflexivity.
Qed.

Lemma sort_map l : sort_stable range_lt (map GM l) = map GM (sort_stable range_lt l).
Proof.
  unfold sort_stable. induction l as [|a t IH]; cbn [map fold_right]; [reflexivity|].
  rewrite IH. apply insert_map.
Qed.

Lemma merge_step_map acc rv : values_in acc -> P (snd rv) ->
  merge_step eqw (map GM acc) (GM rv) = map GM (merge_step eqv acc rv) /\ values_in (merge_step eqv acc rv).
Proof.
  intros Hacc Hrv. destruct acc as [|[lr lv] acc']; cbn [map merge_step].
  - split; [reflexivity|constructor; [exact Hrv|constructor]].
  - destruct rv as [r v]. cbn [GM fst snd] in *. inversion Hacc as [|? ? Hl Hrest]; subst. cbn [snd] in Hl.
    rewrite (agree v lv Hrv Hl).
    destruct ((fst r <=? snd lr) && negb (eqv v lv)); [split; [reflexivity|exact Hacc]|].
    destruct ((fst r <=? sat_add 64 (snd lr) 1) && eqv v lv).
    + split; [reflexivity|constructor; assumption].
    + split; [reflexivity|constructor; [exact Hrv|exact Hacc]].
Qed.

Lemma fold_merge_map l : forall acc, values_in acc -> values_in l ->
  fold_left (merge_step eqw) (map GM l) (map GM acc) = map GM (fold_left (merge_step eqv) l acc).
Proof.
  induction l as [|rv t IH]; intros acc Hacc Hl; cbn [map fold_left]; [reflexivity|].
  inversion Hl; subst. destruct (merge_step_map acc rv Hacc) as [E Hin]; [assumption|].
  rewrite E. apply IH; assumption.
Qed.

Lemma irs_map l : values_in l ->
  into_rangemap_safe_p eqw (map GM l) = map GM (into_rangemap_safe_p eqv l).
Proof.
  intros Hl. unfold into_rangemap_safe_p, merge_sorted. rewrite sort_map.
  change (@nil (range * W)) with (map GM []).
  rewrite fold_merge_map; [rewrite map_rev; reflexivity|constructor|].
  unfold values_in in *. eapply Permutation_Forall; [apply sort_perm|exact Hl].
Qed.
End MapCommute.

(* SymbolParser::finish, when it returns, step by step *)
Lemma finish_inv q t : finish q = Ret t ->
  exists fl wfd wfpo,
    finish_funcs (rev (p_funcs (close_cur q))) = Ret fl /\ build_p sfunc_eqb fl = Ret (t_funcs t) /\
    Grammar.win_collect [] (rev (p_win_fd (close_cur q))) = Ret wfd /\ build_p wi_eqb wfd = Ret (t_win_fd t) /\
    Grammar.win_collect [] (rev (p_win_fpo (close_cur q))) = Ret wfpo /\ build_p wi_eqb wfpo = Ret (t_win_fpo t) /\
    t_files t = map_of_log (p_files (close_cur q)) /\ t_origins t = map_of_log (p_origins (close_cur q)) /\
    t_publics t = sort_by Grammar.pub_lt (rev (p_publics (close_cur q))).
Proof.
  unfold finish. intros H.
  apply obind_ret in H. destruct H as (fl & Efl & H). apply obind_ret in H. destruct H as (funcs & Efuncs & H).
  apply obind_ret in H. destruct H as (cfis & _ & H). apply obind_ret in H. destruct H as (wfd & Ewfd & H).
  apply obind_ret in H. destruct H as (tfd & Etfd & H). apply obind_ret in H. destruct H as (wfpo & Ewfpo & H).
  apply obind_ret in H. destruct H as (tfpo & Etfpo & H). inversion H; subst t. cbn.
  exists fl, wfd, wfpo. auto 10.
Qed.

Section Names.
Variable nm : rle -> Z.

(* C09 keeps the sub-records of an open FUNC latest first *)
Definition raw_of_func (fr : Grammar.func_raw) : Model.func_raw :=
  mk_fraw (Grammar.fr_addr fr) (Grammar.fr_size fr) (Grammar.fr_psize fr) (nm (Grammar.fr_name fr))
          (rev (Grammar.fr_lines fr)) (rev (Grammar.fr_inls fr)).
Definition func_of_sfunc (f : sfunc) : func :=
  mk_func (sf_addr f) (sf_size f) (sf_psize f) (nm (sf_name f)) (sf_lines f) (sf_inls f).
(* a FUNC table entry of C09's table as an entry of C11's *)
Definition GF : range * sfunc -> range * func := GM func_of_sfunc.

(* the FUNC blocks handed to finish_item, in file order, by the state after the last line *)
Definition funcs_of_pst (q : pst) : list Grammar.func_raw := rev (p_funcs (close_cur q)).

Lemma finish_func_agree fr : Forall wf_line (rev (Grammar.fr_lines fr)) ->
  Grammar.finish_func fr = Ret (match fin_pure true (raw_of_func fr) with
                                | Some (r, f) => Some (r, mk_sf (Grammar.fr_addr fr) (Grammar.fr_size fr)
                                                           (Grammar.fr_psize fr) (Grammar.fr_name fr)
                                                           (fn_lines f) (fn_inls f))
                                | None => None
                                end).
Proof.
  intros Hwf. unfold Grammar.finish_func.
  rewrite (build_total line_eqb) by (apply line_entries_wf; exact Hwf). cbn [obind].
  unfold fin_pure, raw_of_func. cbn [Model.fr_addr Model.fr_size].
  destruct (mk_range (Grammar.fr_addr fr) (Grammar.fr_size fr)); reflexivity.
Qed.

Lemma finish_funcs_agree l : Forall (fun fr => Forall wf_line (rev (Grammar.fr_lines fr))) l ->
  exists fl, Grammar.finish_funcs l = Ret fl /\ map GF fl = fin_list true (map raw_of_func l) /\
             Forall (fun e => exists fr, In fr l /\ sf_name (snd e) = Grammar.fr_name fr) fl.
Proof.
  induction 1 as [|fr t Hfr Ht IH]; cbn [Grammar.finish_funcs map fin_list].
  - exists []. repeat split; constructor.
  - destruct IH as (fl & E & M & N). rewrite (finish_func_agree fr Hfr), E. cbn [obind].
    assert (N' : Forall (fun e => exists fr0, In fr0 (fr :: t) /\ sf_name (snd e) = Grammar.fr_name fr0) fl).
    { eapply Forall_impl; [|exact N]. intros e (fr0 & A & B). exists fr0. split; [right; exact A|exact B]. }
    destruct (fin_pure true (raw_of_func fr)) as [[r f]|] eqn:Ep.
    + eexists. split; [reflexivity|]. split.
      * cbn [map]. f_equal; [|exact M]. unfold GF, GM, func_of_sfunc. cbn.
        unfold fin_pure in Ep. destruct (mk_range _ _); [|discriminate]. inversion Ep; subst. reflexivity.
      * constructor; [|exact N']. exists fr. split; [left; reflexivity|reflexivity].
    + exists fl. auto.
Qed.

(* == on finished Functions, under the name map *)
Lemma rle_eqb_eq a : forall b, rle_eqb a b = true <-> a = b.
Proof.
  induction a as [|[x c] a IH]; intros [|[y d] b]; cbn [rle_eqb]; try (split; congruence).
  rewrite !andb_true_iff, !Z.eqb_eq, IH. split; [intros [[-> ->] ->]; reflexivity|intros E; inversion E; auto].
Qed.

Lemma func_eqb_agree (names : list rle) :
  (forall a b, In a names -> In b names -> nm a = nm b -> a = b) ->
  forall a b, In (sf_name a) names -> In (sf_name b) names ->
    func_eqb (func_of_sfunc a) (func_of_sfunc b) = sfunc_eqb a b.
Proof.
  intros Hinj a b Ha Hb. unfold func_eqb, sfunc_eqb, func_of_sfunc.
  cbn [fn_addr fn_size fn_psize fn_name fn_lines fn_inls].
  assert (E : (nm (sf_name a) =? nm (sf_name b)) = rle_eqb (sf_name a) (sf_name b)).
  { destruct (rle_eqb (sf_name a) (sf_name b)) eqn:Er.
    - apply rle_eqb_eq in Er. rewrite Er. apply Z.eqb_refl.
    - apply Z.eqb_neq. intros Hn. apply Hinj in Hn; [|assumption|assumption].
      apply rle_eqb_eq in Hn. congruence. }
  rewrite E. reflexivity.
Qed.

Definition wf_text_funcs (q : pst) : Prop := Forall wf_fraw (map raw_of_func (funcs_of_pst q)).
Definition names_injective (q : pst) : Prop :=
  forall a b, In a (map Grammar.fr_name (funcs_of_pst q)) -> In b (map Grammar.fr_name (funcs_of_pst q)) ->
              nm a = nm b -> a = b.

Lemma funcs_from_text q t :
  wf_text_funcs q -> names_injective q -> finish q = Ret t ->
  map GF (t_funcs t) =
  into_rangemap_safe_p func_eqb (fin_list true (map raw_of_func (funcs_of_pst q))).
Proof.
  intros Hwf Hinj Hfin. destruct (finish_inv q t Hfin) as (fl & _ & _ & Efl & Efuncs & _).
  fold (funcs_of_pst q) in Efl.
  destruct (finish_funcs_agree (funcs_of_pst q)) as (fl' & E' & M & N).
  { unfold wf_text_funcs in Hwf. rewrite Forall_map in Hwf. eapply Forall_impl; [|exact Hwf].
    intros fr (_ & _ & Hl & _). exact Hl. }
  rewrite Efl in E'. inversion E'; subst fl'.
  assert (Hwr : wf_ranges fl).
  { pose proof (fin_list_wf true _ Hwf) as H. rewrite <- M in H. unfold wf_ranges in *.
    rewrite Forall_map in H. exact H. }
  rewrite (build_total_p sfunc_eqb) in Efuncs by exact Hwr. injection Efuncs as <-.
  rewrite <- M. symmetry. unfold GF.
  apply (irs_map sfunc_eqb func_eqb func_of_sfunc
           (fun sf => In (sf_name sf) (map Grammar.fr_name (funcs_of_pst q)))).
  - intros a b Ha Hb. apply (func_eqb_agree _ Hinj); assumption.
  - unfold values_in. eapply Forall_impl; [|exact N]. intros e (fr & A & B). rewrite B. apply in_map. exact A.
Qed.
End Names.

Section GetMap.
Context {V W : Type} (g : V -> W).
Lemma bsearch_map fuel : forall (l : list (range * V)) x base size,
  bsearch_loop fuel (map (GM g) l) x base size = bsearch_loop fuel l x base size.
Proof.
  induction fuel as [|f IH]; intros l x base size; cbn [bsearch_loop]; [reflexivity|].
  destruct (Nat.leb size 1); [reflexivity|]. rewrite nth_error_map.
  destruct (nth_error l (base + Nat.div2 size)) as [[r v]|]; cbn [option_map GM fst snd]; rewrite IH; reflexivity.
Qed.
Lemma rm_get_map (l : list (range * V)) x : rm_get (map (GM g) l) x = option_map g (rm_get l x).
Proof.
  unfold rm_get. destruct l as [|e0 t]; [reflexivity|]. rewrite map_length. cbn [map].
  change (GM g e0 :: map (GM g) t) with (map (GM g) (e0 :: t)). rewrite bsearch_map, nth_error_map.
  destruct (nth_error (e0 :: t) _) as [[r v]|]; cbn [option_map GM fst snd]; [|reflexivity].
  destruct (range_cmp_pt r x); reflexivity.
Qed.
End GetMap.
