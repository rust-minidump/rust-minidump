(* C11/Proofs1.v — first of the lemma files.  Reading order of the lemma files (it is the build order, not the numbering): Proofs1, 2, 9, 3, 4, 5, 10, 6, 7; then
   Text, Text2, Text3, Enc; apart from these Tie, SrcTie, Proofs11.
   Holds: the record equality tests reflect equality; the derived orders (lex_lt, inl_lt, pub_lt); sort_by and
   [sorted]; the binary search ([bsearch_spec], its candidate [bs_cand], [bs_cand_greatest] on sorted lists);
   get_inlinee_at_depth returns the pure [giad_pure], and is sound on any vector; the pure depth chain [chain_from]. *)
From Coq Require Import Lia Sorting.Sorted Sorting.Permutation.
From RM Require Import C08.Model C08.Proofs C11.Model.
Open Scope Z_scope.

Lemma list_eqb_eq {A} (eqb : A -> A -> bool) :
  (forall a b, eqb a b = true <-> a = b) -> forall a b, list_eqb eqb a b = true <-> a = b.
Proof.
  intros H a. induction a as [|x a IH]; intros [|y b]; cbn [list_eqb]; try (split; congruence).
  rewrite andb_true_iff, H, IH. split; [intros [-> ->]; reflexivity|intros E; inversion E; auto].
Qed.
(* one field of a record equality [(x1 =? y1) && ... = true <-> mk x1 .. = mk y1 ..]: either the two values are
   equal, and the field drops out, or both sides are false *)
Ltac eqb_field :=
  match goal with
  | |- context [?x =? ?y] =>
      destruct (Z.eqb_spec x y) as [->|?];
      [|split; [discriminate|let E := fresh in intros E; injection E; intros; contradiction]]
  end.

Lemma line_eqb_eq a b : line_eqb a b = true <-> a = b.
Proof. destruct a as [a1 a2 a3 a4], b as [b1 b2 b3 b4]; unfold line_eqb; cbn [l_addr l_size l_file l_line]. repeat eqb_field. now split. Qed.
Lemma inl_eqb_eq a b : inl_eqb a b = true <-> a = b.
Proof.
  destruct a as [a1 a2 a3 a4 a5 a6], b as [b1 b2 b3 b4 b5 b6]; unfold inl_eqb; cbn [i_depth i_addr i_size i_cfile i_cline i_origin]. repeat eqb_field. now split.
Qed.
Lemma win_eqb_eq a b : win_eqb a b = true <-> a = b.
Proof. destruct a as [a1 a2 a3 a4], b as [b1 b2 b3 b4]; unfold win_eqb; cbn [w_addr w_size w_psize w_tag]. repeat eqb_field. now split. Qed.
Lemma range_eqb_eq (a b : range) : range_eqb a b = true <-> a = b.
Proof. destruct a as [a1 a2], b as [b1 b2]; unfold range_eqb; cbn [fst snd]. repeat eqb_field. now split. Qed.
Lemma rline_eqb_eq a b : rline_eqb a b = true <-> a = b.
Proof.
  destruct a as [r l], b as [r' l']; unfold rline_eqb; cbn [fst snd].
  rewrite andb_true_iff, range_eqb_eq, line_eqb_eq.
  split; [intros [-> ->]; reflexivity|intros E; inversion E; auto].
Qed.
Lemma func_eqb_eq a b : func_eqb a b = true <-> a = b.
Proof.
  destruct a as [a1 a2 a3 a4 la ia], b as [b1 b2 b3 b4 lb ib]; unfold func_eqb;
    cbn [fn_addr fn_size fn_psize fn_name fn_lines fn_inls].
  repeat eqb_field. cbn [andb].
  rewrite andb_true_iff, (list_eqb_eq _ rline_eqb_eq), (list_eqb_eq _ inl_eqb_eq).
  split; [intros [-> ->]; reflexivity|intros E; inversion E; auto].
Qed.

Lemma lex_lt_asym a : forall b, lex_lt a b = true -> lex_lt b a = false.
Proof.
  induction a as [|x a IH]; intros [|y b]; cbn [lex_lt]; try congruence.
  intros H. apply orb_true_iff in H. apply orb_false_iff.
  destruct H as [H|H].
  - split; [lia|]. apply andb_false_iff. left. lia.
  - apply andb_true_iff in H. destruct H as [H1 H2]. split; [lia|].
    apply andb_false_iff. right. apply IH. exact H2.
Qed.
Lemma lex_lt_negtrans a : forall b c, length a = length b -> length b = length c ->
  lex_lt b a = false -> lex_lt c b = false -> lex_lt c a = false.
Proof.
  induction a as [|x a IH]; intros [|y b] [|z c]; cbn [lex_lt length]; try congruence; try lia.
  intros L1 L2 H1 H2. apply orb_false_iff in H1, H2. destruct H1 as [A1 B1], H2 as [A2 B2].
  apply orb_false_iff. split; [lia|].
  apply andb_false_iff. destruct (z =? x) eqn:E; [right|left; reflexivity].
  apply andb_false_iff in B1, B2.
  assert (y = x) by lia. subst y.
  destruct B1 as [B1|B1]; [lia|]. destruct B2 as [B2|B2]; [lia|].
  eapply IH; [| |exact B1|exact B2]; lia.
Qed.
Lemma lex_lt_irrefl a : lex_lt a a = false.
Proof. destruct (lex_lt a a) eqn:E; [|reflexivity]. rewrite (lex_lt_asym _ _ E) in E. discriminate. Qed.
Lemma lex_lt_total a : forall b, length a = length b -> lex_lt a b = false -> lex_lt b a = false -> a = b.
Proof.
  induction a as [|x a IH]; intros [|y b]; cbn [lex_lt length]; try lia; [reflexivity|].
  intros L H1 H2. apply orb_false_iff in H1, H2. destruct H1 as [A1 B1], H2 as [A2 B2].
  apply Z.ltb_ge in A1, A2. assert (x = y) by lia. subst y.
  rewrite Z.eqb_refl in B1, B2. cbn [andb] in B1, B2. f_equal. apply IH; [lia|assumption|assumption].
Qed.

Lemma inl_lt_asym a b : inl_lt a b = true -> inl_lt b a = false.
Proof. apply lex_lt_asym. Qed.
Lemma inl_lt_negtrans a b c : inl_lt b a = false -> inl_lt c b = false -> inl_lt c a = false.
Proof. apply lex_lt_negtrans; reflexivity. Qed.
Lemma inl_lt_irrefl a : inl_lt a a = false.
Proof. apply lex_lt_irrefl. Qed.
(* the derived order of Inlinee is total: the key holds every field *)
Lemma inl_lt_total a b : inl_lt a b = false -> inl_lt b a = false -> a = b.
Proof.
  intros H1 H2. pose proof (lex_lt_total (inl_key a) (inl_key b) eq_refl H1 H2) as E.
  destruct a, b. injection E as -> -> -> -> -> ->. reflexivity.
Qed.
(* what the order says about the search key (depth, address) *)
Lemma inl_lt_key a b : inl_lt b a = false ->
  i_depth a < i_depth b \/ (i_depth a = i_depth b /\ i_addr a <= i_addr b).
Proof.
  unfold inl_lt, inl_key. cbn [lex_lt]. intros H.
  apply orb_false_iff in H. destruct H as [H1 H2]. apply Z.ltb_ge in H1.
  destruct (Z.eq_dec (i_depth b) (i_depth a)) as [E|E]; [|lia].
  right. split; [lia|]. rewrite E, Z.eqb_refl in H2. cbn [andb] in H2.
  apply orb_false_iff in H2. destruct H2 as [H2 _]. apply Z.ltb_ge in H2. exact H2.
Qed.
Lemma inl_lt_key_conv a b :
  i_depth a < i_depth b \/ (i_depth a = i_depth b /\ i_addr a < i_addr b) -> inl_lt b a = false.
Proof.
  unfold inl_lt, inl_key. cbn [lex_lt]. intros H.
  destruct (Z.ltb_spec (i_depth b) (i_depth a)); [lia|].
  destruct (Z.eqb_spec (i_depth b) (i_depth a)); [|reflexivity].
  destruct (Z.ltb_spec (i_addr b) (i_addr a)); [lia|].
  destruct (Z.eqb_spec (i_addr b) (i_addr a)); [lia|reflexivity].
Qed.
Lemma pub_lt_asym a b : pub_lt a b = true -> pub_lt b a = false.
Proof. apply lex_lt_asym. Qed.
Lemma pub_lt_negtrans a b c : pub_lt b a = false -> pub_lt c b = false -> pub_lt c a = false.
Proof. apply lex_lt_negtrans; reflexivity. Qed.

Lemma sort_by_perm {A} (lt : A -> A -> bool) l : Permutation l (sort_by lt l).
Proof.
  unfold sort_by. rewrite <- (map_id l) at 1.
  rewrite <- (map_ext (fun x => fst ((fun e : A => (e, tt)) x)) (fun x => x)) by reflexivity.
  rewrite <- map_map. apply Permutation_map. apply sort_perm.
Qed.
Lemma sort_by_in {A} (lt : A -> A -> bool) l x : In x (sort_by lt l) <-> In x l.
Proof.
  split; intros H; [eapply Permutation_in; [symmetry; apply sort_by_perm|exact H]
                   |eapply Permutation_in; [apply sort_by_perm|exact H]].
Qed.
Lemma sort_by_length {A} (lt : A -> A -> bool) l : length (sort_by lt l) = length l.
Proof. symmetry. apply Permutation_length. apply sort_by_perm. Qed.

(* sorted for a strict order given as a boolean [lt]: no element is below an earlier one *)
Definition sorted {A} (lt : A -> A -> bool) : list A -> Prop := StronglySorted (fun a b => lt b a = false).

Lemma ss_map {A B} (g : A -> B) (R : B -> B -> Prop) l :
  StronglySorted (fun a b => R (g a) (g b)) l -> StronglySorted R (map g l).
Proof.
  induction 1 as [|x t Ht IH Hall]; cbn [map]; constructor; [assumption|].
  rewrite Forall_forall in *. intros y Hy. apply in_map_iff in Hy. destruct Hy as [z [<- Hz]]. auto.
Qed.

Lemma sort_by_sorted {A} (lt : A -> A -> bool) l :
  (forall a b, lt a b = true -> lt b a = false) ->
  (forall a b c, lt b a = false -> lt c b = false -> lt c a = false) ->
  sorted lt (sort_by lt l).
Proof.
  intros Has Hnt. unfold sort_by. apply ss_map.
  exact (sort_sorted (V := unit) lt Has Hnt (map (fun e => (e, tt)) l)).
Qed.

Lemma ss_nth {A} (R : A -> A -> Prop) l : StronglySorted R l ->
  forall i j a b, (i < j)%nat -> nth_error l i = Some a -> nth_error l j = Some b -> R a b.
Proof.
  induction 1 as [|x t Ht IH Hall]; intros i j a b Hij Hi Hj.
  - destruct i; discriminate.
  - destruct j as [|j]; [lia|]. cbn [nth_error] in Hj. destruct i as [|i]; cbn [nth_error] in Hi.
    + inversion Hi; subst. rewrite Forall_forall in Hall. apply Hall. eapply nth_error_In; eassumption.
    + eapply IH; [|eassumption|eassumption]. lia.
Qed.

Lemma ss_app_left {A} (R : A -> A -> Prop) l1 x l2 :
  StronglySorted R (l1 ++ x :: l2) -> Forall (fun q => R q x) l1.
Proof.
  induction l1 as [|a t IH]; cbn [app]; intros H; [constructor|].
  inversion H as [|? ? Ht Hall]; subst. constructor; [|auto].
  rewrite Forall_forall in Hall. apply Hall. apply in_or_app. right. left. reflexivity.
Qed.

Section BS.
Context {A : Type} (cmp : A -> ordering).

Definition cmp_at (l : list A) (i : nat) : ordering :=
  match nth_error l i with Some e => cmp e | None => OGreater end.

Lemma bs_loop_inv l : forall fuel base size,
  (base = 0%nat \/ cmp_at l base <> OGreater) ->
  (bs_loop cmp fuel l base size = 0%nat \/ cmp_at l (bs_loop cmp fuel l base size) <> OGreater).
Proof.
  induction fuel as [|fuel IH]; intros base size H; cbn [bs_loop]; [exact H|].
  destruct (Nat.leb size 1); [exact H|].
  apply IH. fold (cmp_at l (base + Nat.div2 size)).
  destruct (cmp_at l (base + Nat.div2 size)) eqn:E; [right; congruence|right; congruence|exact H].
Qed.

(* ---- on a list on which cmp is monotone (Less/Equal … then Greater …) *)
Definition mono (l : list A) : Prop :=
  forall i j a b, (i < j)%nat -> nth_error l i = Some a -> nth_error l j = Some b ->
                  cmp a = OGreater -> cmp b = OGreater.

Lemma div2_halves n : (2 <= n -> 1 <= Nat.div2 n /\ Nat.div2 n <= n - Nat.div2 n)%nat.
Proof.
  intros H. pose proof (Nat.div2_odd n) as Ho. destruct (Nat.odd n); cbn [Nat.b2n] in Ho; lia.
Qed.

(* the loop keeps: everything at or beyond base + size is Greater *)
Lemma bs_loop_part l : mono l -> forall fuel base size,
  (size <= fuel)%nat -> (1 <= size)%nat ->
  (forall j e, nth_error l j = Some e -> (base + size <= j)%nat -> cmp e = OGreater) ->
  forall j e, nth_error l j = Some e -> (bs_loop cmp fuel l base size < j)%nat -> cmp e = OGreater.
Proof.
  intros Hm. induction fuel as [|fuel IH]; intros base size Hf H1 Hinv; [lia|].
  cbn [bs_loop]. destruct (Nat.leb size 1) eqn:El.
  - apply Nat.leb_le in El. intros j e Hj Hlt. apply (Hinv j e Hj). lia.
  - apply Nat.leb_gt in El. destruct (div2_halves size) as [Hh1 Hh2]; [lia|].
    set (half := Nat.div2 size) in *. set (mid := (base + half)%nat).
    apply IH; [lia|lia|].
    destruct (nth_error l mid) as [em|] eqn:Em.
    + destruct (cmp em) eqn:Ec.
      * intros j e Hj Hge. apply (Hinv j e Hj). lia.
      * intros j e Hj Hge. apply (Hinv j e Hj). lia.
      * intros j e Hj Hge. destruct (Nat.eq_dec j mid) as [->|Hne].
        -- rewrite Em in Hj. inversion Hj; subst. exact Ec.
        -- eapply (Hm mid j); [|exact Em|exact Hj|exact Ec]. lia.
    + intros j e Hj Hge. apply nth_error_None in Em.
      assert (j < length l)%nat by (apply nth_error_Some; congruence). lia.
Qed.

Definition rest_greater (l : list A) (i : nat) : Prop :=
  forall j e, nth_error l j = Some e -> (i < j)%nat -> cmp e = OGreater.

Lemma bsearch_spec l :
  match bsearch_by cmp l with
  | BOk i => exists e, nth_error l i = Some e /\ cmp e = OEqual /\ (mono l -> rest_greater l i)
  | BErr O => mono l -> forall e, In e l -> cmp e = OGreater
  | BErr (S i) => exists e, nth_error l i = Some e /\ cmp e = OLess /\ (mono l -> rest_greater l i)
  end.
Proof.
  unfold bsearch_by. destruct l as [|a0 l']; [intros _ e []|].
  set (l := a0 :: l'). set (b := bs_loop cmp (length l) l 0 (length l)).
  assert (Hpart : mono l -> rest_greater l b).
  { intros Hm. unfold rest_greater. apply (bs_loop_part l Hm (length l) 0%nat (length l)); [lia|cbn; lia|].
    intros j e Hj Hge. assert (j < length l)%nat by (apply nth_error_Some; congruence). lia. }
  pose proof (bs_loop_inv l (length l) 0%nat (length l) (or_introl eq_refl)) as Hinv. fold b in Hinv.
  unfold cmp_at in Hinv.
  destruct (nth_error l b) as [eb|] eqn:En.
  - destruct (cmp eb) eqn:Ec.
    + exists eb. auto.
    + exists eb. auto.
    + destruct b as [|i]; [|destruct Hinv as [Hinv|Hinv]; [discriminate|congruence]].
      intros Hm e Hin. apply In_nth_error in Hin. destruct Hin as [[|j] Hj].
      * rewrite En in Hj. inversion Hj; subst. exact Ec.
      * apply (Hpart Hm (S j) e Hj). lia.
  - destruct b as [|i]; [|destruct Hinv as [Hinv|Hinv]; [discriminate|congruence]]. cbn in En. discriminate.
Qed.

(* the candidate element: the last one that is not Greater *)
Definition bs_cand (l : list A) : option A :=
  match bsearch_by cmp l with
  | BOk i => nth_error l i
  | BErr O => None
  | BErr (S i) => nth_error l i
  end.

Lemma bs_cand_last l :
  match bs_cand l with
  | Some c => exists i, nth_error l i = Some c /\ cmp c <> OGreater /\ (mono l -> rest_greater l i)
  | None => mono l -> forall e, In e l -> cmp e = OGreater
  end.
Proof.
  unfold bs_cand. pose proof (bsearch_spec l) as H. destruct (bsearch_by cmp l) as [i|[|i]]; [|exact H|];
    destruct H as (e & H1 & H2 & H3); rewrite H1; exists i; (split; [exact H1|split; [congruence|exact H3]]).
Qed.

Lemma bs_cand_sound l e : bs_cand l = Some e -> In e l /\ cmp e <> OGreater.
Proof.
  intros E. pose proof (bs_cand_last l) as H. rewrite E in H. destruct H as (i & Hi & Hng & _).
  split; [eapply nth_error_In; exact Hi|exact Hng].
Qed.

(* on a list sorted for [R] along which Greater persists: every element that is not Greater is the candidate or
   stands before it *)
Lemma bs_cand_greatest (R : A -> A -> Prop) l :
  StronglySorted R l ->
  (forall a b, In a l -> R a b -> cmp a = OGreater -> cmp b = OGreater) ->
  match bs_cand l with
  | Some c => In c l /\ cmp c <> OGreater /\ forall e, In e l -> cmp e <> OGreater -> e = c \/ R e c
  | None => forall e, In e l -> cmp e = OGreater
  end.
Proof.
  intros Hs HR.
  assert (Hm : mono l).
  { intros i j a b Hij Hi Hj. apply (HR a b); [eapply nth_error_In; eassumption|].
    exact (ss_nth R l Hs i j a b Hij Hi Hj). }
  pose proof (bs_cand_last l) as H. destruct (bs_cand l) as [c|]; [|exact (H Hm)].
  destruct H as (i & Hi & Hng & Hlast). specialize (Hlast Hm). split; [eapply nth_error_In; eassumption|]. split; [exact Hng|].
  intros e He Hne. apply In_nth_error in He. destruct He as [j Hj].
  destruct (Nat.lt_trichotomy j i) as [Hlt|[->|Hgt]].
  - right. exact (ss_nth R l Hs j i e c Hlt Hj Hi).
  - left. congruence.
  - exfalso. apply Hne. exact (Hlast j e Hj Hgt).
Qed.
End BS.

Definition giad_cmp (depth addr : Z) (e : inl_rec) : ordering :=
  cmp_pair (i_depth e) (i_addr e) depth addr.

Definition giad_pure (inls : list inl_rec) (depth addr : Z) : option inl_rec :=
  giad_check depth addr (bs_cand (giad_cmp depth addr) inls).

Lemma giad_ret inls depth addr :
  get_inlinee_at_depth inls depth addr = Ret (giad_pure inls depth addr).
Proof.
  unfold get_inlinee_at_depth, giad_pure, giad_candidate, bs_cand.
  fold (giad_cmp depth addr).
  pose proof (bsearch_spec (giad_cmp depth addr) inls) as H.
  destruct (bsearch_by (giad_cmp depth addr) inls) as [i|[|i]].
  - destruct H as [e [H1 _]]. rewrite H1. reflexivity.
  - reflexivity.
  - destruct H as [e [H1 _]]. rewrite H1. reflexivity.
Qed.

Lemma cmp_pair_not_greater a1 a2 b1 b2 :
  cmp_pair a1 a2 b1 b2 <> OGreater -> a1 < b1 \/ (a1 = b1 /\ a2 <= b2).
Proof.
  unfold cmp_pair, cmp_z. destruct (a1 <? b1) eqn:E1; [lia|].
  destruct (b1 <? a1) eqn:E2; [congruence|].
  destruct (a2 <? b2) eqn:E3; [lia|]. destruct (b2 <? a2) eqn:E4; [congruence|]. lia.
Qed.
Lemma cmp_pair_greater a1 a2 b1 b2 :
  cmp_pair a1 a2 b1 b2 = OGreater -> b1 < a1 \/ (a1 = b1 /\ b2 < a2).
Proof.
  unfold cmp_pair, cmp_z. destruct (a1 <? b1) eqn:E1; [discriminate|].
  destruct (b1 <? a1) eqn:E2; [lia|].
  destruct (a2 <? b2) eqn:E3; [discriminate|]. destruct (b2 <? a2) eqn:E4; [lia|discriminate].
Qed.

(* soundness, for every list of inlinees whatever its order *)
Lemma giad_sound inls depth addr e :
  giad_pure inls depth addr = Some e ->
  In e inls /\ i_depth e = depth /\ i_addr e <= addr /\ addr < i_addr e + i_size e /\
  i_addr e + i_size e < two64.
Proof.
  unfold giad_pure. destruct (bs_cand (giad_cmp depth addr) inls) as [c|] eqn:Ec; [|discriminate].
  apply bs_cand_sound in Ec. destruct Ec as [Hin Hng]. cbn [giad_check].
  destruct (i_depth c =? depth) eqn:Ed; cbn [negb]; [|discriminate].
  unfold checked_add. destruct (i_addr c + i_size c <? 2 ^ 64) eqn:Eo; [|discriminate].
  destruct (addr <? i_addr c + i_size c) eqn:Ea; [|discriminate].
  intros H; inversion H; subst e. apply cmp_pair_not_greater in Hng.
  rewrite two64_val. repeat split; try lia; assumption.
Qed.

Fixpoint chain_from (fuel : nat) (inls : list inl_rec) (addr depth : Z) : list inl_rec :=
  match fuel with
  | O => []
  | S f => match giad_pure inls depth addr with
           | None => []
           | Some e => e :: chain_from f inls addr (depth + 1)
           end
  end.

Lemma chain_from_spec fuel : forall inls addr depth k e,
  nth_error (chain_from fuel inls addr depth) k = Some e ->
  giad_pure inls (depth + Z.of_nat k) addr = Some e.
Proof.
  induction fuel as [|f IH]; intros inls addr depth k e; cbn [chain_from]; [destruct k; discriminate|].
  destruct (giad_pure inls depth addr) as [e0|] eqn:E0; [|destruct k; discriminate].
  destruct k as [|k]; cbn [nth_error].
  - intros H; inversion H; subst. rewrite Z.add_0_r. exact E0.
  - intros H. apply IH in H. rewrite <- H. f_equal. lia.
Qed.

Lemma chain_from_depths fuel inls addr depth :
  Forall (fun e => In e inls /\ depth <= i_depth e) (chain_from fuel inls addr depth) /\
  NoDup (chain_from fuel inls addr depth).
Proof.
  revert depth. induction fuel as [|f IH]; intros depth; cbn [chain_from]; [split; constructor|].
  destruct (giad_pure inls depth addr) as [e0|] eqn:E0; [|split; constructor].
  apply giad_sound in E0. destruct E0 as (Hin & Hd & _).
  destruct (IH (depth + 1)) as [Hf Hn]. split.
  - constructor; [split; [assumption|lia]|].
    eapply Forall_impl; [|exact Hf]. intros a [Ha1 Ha2]. split; [assumption|lia].
  - constructor; [|exact Hn]. intros Hc. rewrite Forall_forall in Hf. apply Hf in Hc. lia.
Qed.

(* stops by itself (not by running out of fuel) when fuel exceeds the length *)
Lemma chain_from_stops fuel : forall inls addr depth,
  (length (chain_from fuel inls addr depth) < fuel)%nat ->
  giad_pure inls (depth + Z.of_nat (length (chain_from fuel inls addr depth))) addr = None.
Proof.
  induction fuel as [|f IH]; intros inls addr depth; cbn [chain_from]; [lia|].
  destruct (giad_pure inls depth addr) as [e0|] eqn:E0.
  - cbn [length]. intros H. rewrite <- (IH inls addr (depth + 1)) by lia. f_equal. lia.
  - cbn [length]. intros _. rewrite Z.add_0_r. exact E0.
Qed.

Lemma chain_from_more fuel : forall inls addr depth,
  (length (chain_from fuel inls addr depth) < fuel)%nat ->
  chain_from (S fuel) inls addr depth = chain_from fuel inls addr depth.
Proof.
  induction fuel as [|f IH]; intros inls addr depth; [cbn; lia|].
  intros H. change (chain_from (S (S f)) inls addr depth) with
    (match giad_pure inls depth addr with None => [] | Some e => e :: chain_from (S f) inls addr (depth + 1) end).
  cbn [chain_from] in H |- *.
  destruct (giad_pure inls depth addr) as [e0|]; [|reflexivity].
  cbn [length] in H. f_equal. apply IH. lia.
Qed.

Lemma chain_from_ge inls x d n : (length (chain_from n inls x d) < n)%nat ->
  forall m, (n <= m)%nat -> chain_from m inls x d = chain_from n inls x d.
Proof.
  intros Hl m Hm. induction Hm as [|m Hm IH]; [reflexivity|].
  rewrite chain_from_more; [exact IH|]. rewrite IH. lia.
Qed.
