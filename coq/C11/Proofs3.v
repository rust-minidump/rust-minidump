(* C11/Proofs3.v — fourth (after Proofs9).  What fill_symbol reports: function, source line, inline chain
   ([fill_func_spec]); the three cases of a symbolication ([symbolize_cases]), from which the end-to-end theorems start;
   any two tables related to the same records give the same symbolication ([table_interface]). *)
From Coq Require Import Lia Sorting.Sorted Sorting.Permutation.
From RM Require Import C08.Model C08.Proofs C11.Model C11.Proofs1 C11.Proofs2 C11.Proofs9.
Open Scope Z_scope.

Lemma giad_covers inls depth addr e : giad_pure inls depth addr = Some e ->
  In e inls /\ inl_covers depth addr e = true.
Proof.
  intros H. apply giad_sound in H. destruct H as (A & B & C & D & E).
  split; [assumption|]. unfold inl_covers. repeat (apply andb_true_iff; split); lia.
Qed.

Lemma fin_inls_in fixed fr e : In e (fn_inls (fin_func fixed fr)) -> In e (fr_inls fr).
Proof. cbn [fin_func fn_inls]. intros H. apply sort_by_in in H. eapply keep_inls_in; eassumption. Qed.

Lemma inl_chain_spec f addr :
  let chain := inl_chain f addr in
  (forall k e, nth_error chain k = Some e ->
               In e (fn_inls f) /\ inl_covers (Z.of_nat k) addr e = true) /\
  giad_pure (fn_inls f) (Z.of_nat (length chain)) addr = None /\
  (length chain <= length (fn_inls f))%nat.
Proof.
  unfold inl_chain. destruct (giad_pure (fn_inls f) 0 addr) as [e0|] eqn:E0.
  - pose proof (chain_short _ _ _ E0) as Hs.
    split; [|split].
    + intros [|k] e; cbn [nth_error].
      * intros H; inversion H; subst. apply giad_covers in E0. tauto.
      * intros H. apply chain_from_spec in H. apply giad_covers in H.
        replace (1 + Z.of_nat k) with (Z.of_nat (S k)) in H by lia. tauto.
    + cbn [length]. pose proof (chain_from_stops _ _ _ 1 Hs) as Hn.
      replace (Z.of_nat (S (length (chain_from (length (fn_inls f)) (fn_inls f) addr 1))))
        with (1 + Z.of_nat (length (chain_from (length (fn_inls f)) (fn_inls f) addr 1))) by lia.
      exact Hn.
    + cbn [length]. lia.
  - split; [intros [|k] e; discriminate|]. split; [exact E0|cbn; lia].
Qed.

(* ---- the frames, stated on the whole chain: frame k is named by inlinee k and located
   at the call site recorded by inlinee k+1 (the innermost line for the last one) *)
Definition inner_loc (st : symtab) (inner : option line_rec) : option Z * option Z :=
  match inner with
  | Some l => (assoc_last (l_file l) (st_files st), if l_line l =? 0 then None else Some (l_line l))
  | None => (None, None)
  end.
Fixpoint frames_spec (st : symtab) (chain : list inl_rec) (inner : option line_rec) : list iframe :=
  match chain with
  | [] => []
  | e :: t =>
      let loc := match t with
                 | e' :: _ => (assoc_last (i_cfile e') (st_files st), Some (i_cline e'))
                 | [] => inner_loc st inner
                 end in
      (match assoc_last (i_origin e) (st_origins st) with
       | Some nm => [(nm, fst loc, snd loc)]
       | None => []
       end) ++ frames_spec st t inner
  end.

Lemma emit_is_spec st e0 chain inner :
  emit_frames st (i_origin e0) chain inner = frames_spec st (e0 :: chain) inner.
Proof.
  revert e0. induction chain as [|e t IH]; intros e0.
  - cbn [emit_frames frames_spec inner_loc]. rewrite app_nil_r.
    destruct (assoc_last (i_origin e0) (st_origins st)); [|reflexivity].
    destruct inner; reflexivity.
  - cbn [emit_frames]. rewrite IH. reflexivity.
Qed.

Lemma fill_func_spec fixed rf st mbase addr fr :
  wf_file rf -> st_rel fixed rf st -> In fr (rf_funcs rf) -> 0 <= mbase -> 0 <= fr_addr fr <= addr ->
  let f := fin_func fixed fr in
  let o := fill_func st mbase addr f in
  (* function *)
  (exists ps, o_func o = Some (fr_name fr, fr_addr fr + mbase, ps) /\
     (ps = fr_psize fr \/
      exists w, In w (rf_win_fd rf ++ rf_win_fpo rf) /\ win_covers w addr = true /\ ps = w_psize w)) /\
  (* source line *)
  (forall file line base, o_src o = Some (file, line, base) ->
     base <= addr + mbase /\
     ((exists e0, In e0 (fr_inls fr) /\ inl_covers 0 addr e0 = true /\
                  assoc_last (i_cfile e0) (rf_files rf) = Some file /\ line = i_cline e0 /\
                  base = i_addr e0 + mbase) \/
      (giad_pure (fn_inls f) 0 addr = None /\
       exists l, In l (fr_lines fr) /\ line_covers l addr = true /\
                 assoc_last (l_file l) (rf_files rf) = Some file /\ line = l_line l /\
                 base = l_addr l + mbase))) /\
  (* inline frames *)
  o_inl o = frames_spec st (inl_chain f addr) (rm_get (fn_lines f) addr).
Proof.
  intros Hwf Hrel Hfr Hmb Ha f o. subst o. unfold fill_func.
  destruct Hwf as (Hwff & _). rewrite Forall_forall in Hwff. specialize (Hwff _ Hfr).
  split; [|split].
  - exists (param_size st f addr).
    split; [destruct (inl_chain f addr); [destruct (rm_get (fn_lines f) addr)|]; reflexivity|].
    unfold param_size. destruct (sr_fd _ _ _ Hrel) as [wl1 [_ [P1 E1]]]. destruct (sr_fpo _ _ _ Hrel) as [wl2 [_ [P2 E2]]].
    destruct (rm_get (st_win_fd st) addr) as [w|] eqn:G1.
    + rewrite E1 in G1. eapply win_lookup in G1; [|eassumption]. destruct G1 as (w0 & A & B & C).
      right. exists w0. split; [apply in_or_app; left; assumption|]. split; [assumption|assumption].
    + destruct (rm_get (st_win_fpo st) addr) as [w|] eqn:G2; [|left; reflexivity].
      rewrite E2 in G2. eapply win_lookup in G2; [|eassumption]. destruct G2 as (w0 & A & B & C).
      right. exists w0. split; [apply in_or_app; right; assumption|]. split; [assumption|assumption].
  - intros file line base. unfold inl_chain.
    destruct (giad_pure (fn_inls f) 0 addr) as [e0|] eqn:E0.
    + cbn [o_src]. unfold src_of. rewrite (sr_files _ _ _ Hrel).
      destruct (assoc_last (i_cfile e0) (rf_files rf)) as [fname|] eqn:Efn; [|discriminate].
      intros H; inversion H; subst. pose proof (giad_sound _ _ _ _ E0) as (_ & _ & Hle & _).
      apply giad_covers in E0. destruct E0 as (Hin & Hc).
      split; [lia|]. left. exists e0. split; [apply (fin_inls_in fixed); exact Hin|]. auto.
    + destruct (rm_get (fn_lines f) addr) as [l|] eqn:El; cbn [o_src]; [|discriminate].
      unfold src_of. rewrite (sr_files _ _ _ Hrel).
      destruct (assoc_last (l_file l) (rf_files rf)) as [fname|] eqn:Efn; [|discriminate].
      intros H; inversion H; subst. subst f. cbn [fin_func fn_lines] in El.
      destruct Hwff as (_ & _ & Hlw & _). apply lines_lookup in El; [|assumption].
      destruct El as (Hin & Hc & Hla). split; [lia|]. right. split; [reflexivity|].
      exists l. auto.
  - unfold inl_chain. destruct (giad_pure (fn_inls f) 0 addr) as [e0|] eqn:E0.
    + cbn [o_inl]. apply emit_is_spec.
    + destruct (rm_get (fn_lines f) addr); reflexivity.
Qed.

Lemma symbolize_cases fixed p rf mbase instr :
  wf_file rf -> 0 <= mbase -> instr < two64 ->
  exists st o, st_rel fixed rf st /\ build_symtab_gen fixed rf = Ret st /\
    symbolize_gen fixed p rf mbase instr = Ret o /\
    ((instr < mbase /\ o = empty_out) \/
     (mbase <= instr /\ exists fr, In fr (rf_funcs rf) /\ func_covers fr (instr - mbase) = true /\
        0 <= fr_addr fr <= instr - mbase /\
        rm_get (st_funcs st) (instr - mbase) = Some (fin_func fixed fr) /\
        o = fill_func st mbase (instr - mbase) (fin_func fixed fr)) \/
     (mbase <= instr /\ rm_get (st_funcs st) (instr - mbase) = None /\
        o = fill_public st mbase (instr - mbase))).
Proof.
  intros Hwf Hmb Hin. destruct (symbolize_ret fixed p rf mbase instr Hwf Hmb Hin) as (st & Hrel & Hb & Hs).
  exists st, (fill_pure st mbase instr). split; [assumption|]. split; [assumption|]. split; [assumption|].
  unfold fill_pure. destruct (instr <? mbase) eqn:Elt.
  - left. apply Z.ltb_lt in Elt. auto.
  - apply Z.ltb_ge in Elt. right.
    destruct (rm_get (st_funcs st) (instr - mbase)) as [f|] eqn:Ef.
    + left. split; [assumption|]. pose proof Ef as Ef'. rewrite (sr_funcs _ _ _ Hrel) in Ef'.
      destruct Hwf as (Hwff & _). apply func_lookup in Ef'; [|assumption].
      destruct Ef' as (fr & A & B & -> & C). exists fr. auto.
    + right. auto.
Qed.

Lemma fill_public_shape st mbase addr :
  o_src (fill_public st mbase addr) = None /\ o_inl (fill_public st mbase addr) = [].
Proof.
  unfold fill_public. destruct (find_nearest_public (st_publics st) addr) as [pb|]; [|split; reflexivity].
  destruct (public_cut st pb addr); split; reflexivity.
Qed.

Section Ext.
Variables st st' : symtab.
Hypothesis Hfu : st_funcs st = st_funcs st'.
Hypothesis Hpu : st_publics st = st_publics st'.
Hypothesis Hfd : st_win_fd st = st_win_fd st'.
Hypothesis Hfp : st_win_fpo st = st_win_fpo st'.
Hypothesis Hfi : forall k, assoc_last k (st_files st) = assoc_last k (st_files st').
Hypothesis Hor : forall k, assoc_last k (st_origins st) = assoc_last k (st_origins st').

Lemma emit_frames_ext chain : forall org inner,
  emit_frames st org chain inner = emit_frames st' org chain inner.
Proof.
  induction chain as [|e t IH]; intros org inner; cbn [emit_frames].
  - rewrite Hor. destruct (assoc_last org (st_origins st')); [|reflexivity].
    destruct inner; [rewrite Hfi|]; reflexivity.
  - rewrite Hor, Hfi, IH. reflexivity.
Qed.

Lemma fill_pure_ext mbase instr : fill_pure st mbase instr = fill_pure st' mbase instr.
Proof.
  unfold fill_pure. destruct (instr <? mbase); [reflexivity|]. rewrite Hfu.
  destruct (rm_get (st_funcs st') (instr - mbase)) as [f|].
  - unfold fill_func, param_size, src_of. rewrite Hfd, Hfp.
    destruct (inl_chain f (instr - mbase)) as [|e0 chain].
    + destruct (rm_get (fn_lines f) (instr - mbase)); [rewrite Hfi|]; reflexivity.
    + rewrite Hfi, emit_frames_ext. reflexivity.
  - unfold fill_public, public_cut. rewrite Hpu, Hfu. reflexivity.
Qed.
End Ext.

Lemma st_rel_same rf st st' mbase instr :
  st_rel true rf st -> st_rel true rf st' -> fill_pure st mbase instr = fill_pure st' mbase instr.
Proof.
  intros R R'. apply fill_pure_ext.
  - rewrite (sr_funcs _ _ _ R), (sr_funcs _ _ _ R'). reflexivity.
  - rewrite (sr_pubs _ _ _ R), (sr_pubs _ _ _ R'). reflexivity.
  - destruct (sr_fd _ _ _ R) as (wl & C & _ & E), (sr_fd _ _ _ R') as (wl' & C' & _ & E').
    rewrite C in C'. inversion C'; subst. congruence.
  - destruct (sr_fpo _ _ _ R) as (wl & C & _ & E), (sr_fpo _ _ _ R') as (wl' & C' & _ & E').
    rewrite C in C'. inversion C'; subst. congruence.
  - intros k. rewrite (sr_files _ _ _ R), (sr_files _ _ _ R'). reflexivity.
  - intros k. rewrite (sr_origins _ _ _ R), (sr_origins _ _ _ R'). reflexivity.
Qed.

(* fill_symbol on ANY table related to the records of a file is [symbolize] on those records:
   every theorem about [symbolize] is a theorem about that table *)
Lemma table_interface p rf st mbase instr :
  wf_file rf -> st_rel true rf st -> 0 <= mbase -> instr < two64 ->
  fill_symbol p st mbase instr = symbolize p rf mbase instr.
Proof.
  intros Hwf R Hmb Hi. rewrite (fill_ret true p rf st mbase instr Hwf R Hmb Hi).
  destruct (symbolize_ret true p rf mbase instr Hwf Hmb Hi) as (st0 & R0 & _ & E).
  unfold symbolize. rewrite E. f_equal. apply (st_rel_same rf); assumption.
Qed.
