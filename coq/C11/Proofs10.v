(* C11/Proofs10.v — seventh (after Proofs5, before Proofs6, which uses it).  get_inlinee_at_depth characterised exactly, for EVERY FUNC block
   (overlapping ranges, duplicate (depth, address) keys, any order of the INLINE records):
   the candidate the binary search inspects is the greatest record, in the derived order of
   `Inlinee` (depth, address, size, call_file, call_line, origin_id), among the kept records whose
   (depth, address) is <= (depth, addr) — a description that mentions neither the algorithm nor
   the order of the records in the file.  Consequences: with duplicate keys the record with the
   greatest (size, call_file, call_line, origin) answers; Function values, and hence every
   symbolication, do not depend on the order of the INLINE records inside a FUNC block. *)
From Coq Require Import Lia Sorting.Sorted Sorting.Permutation.
From RM Require Import C08.Model C08.Proofs C11.Model C11.Proofs1 C11.Proofs2 C11.Proofs3.
Open Scope Z_scope.

Definition key_le (e : inl_rec) (d x : Z) : Prop := i_depth e < d \/ (i_depth e = d /\ i_addr e <= x).

(* [c] is the greatest record of [inls] at or below the key (d, x), if there is one *)
Definition nearest (inls : list inl_rec) (d x : Z) (c : option inl_rec) : Prop :=
  match c with
  | Some c => In c inls /\ key_le c d x /\ forall e, In e inls -> key_le e d x -> inl_lt c e = false
  | None => forall e, In e inls -> ~ key_le e d x
  end.

Lemma nearest_unique inls d x c c' : nearest inls d x c -> nearest inls d x c' -> c = c'.
Proof.
  destruct c as [c|], c' as [c'|]; cbn [nearest].
  - intros (A & B & C) (A' & B' & C'). f_equal. apply inl_lt_total; [apply C|apply C']; assumption.
  - intros (A & B & _) H. exfalso. exact (H c A B).
  - intros H (A & B & _). exfalso. exact (H c' A B).
  - reflexivity.
Qed.

Lemma nearest_ext l l' d x c : (forall e, In e l <-> In e l') -> nearest l d x c -> nearest l' d x c.
Proof.
  intros E. destruct c as [c|]; cbn [nearest].
  - intros (A & B & C). split; [apply E; exact A|]. split; [exact B|]. intros e He. apply C. apply E. exact He.
  - intros H e He. apply H. apply E. exact He.
Qed.

Lemma giad_cmp_key e d x : giad_cmp d x e <> OGreater <-> key_le e d x.
Proof.
  unfold giad_cmp, key_le. split.
  - apply cmp_pair_not_greater.
  - intros H Hg. apply cmp_pair_greater in Hg. lia.
Qed.

(* along the derived order, once a record is above the key so is every later one *)
Lemma giad_cmp_mono d x a b : inl_lt b a = false -> giad_cmp d x a = OGreater -> giad_cmp d x b = OGreater.
Proof.
  intros Hs Hg. apply inl_lt_key in Hs. unfold giad_cmp in Hg. apply cmp_pair_greater in Hg.
  destruct (giad_cmp d x b) eqn:Eb; [| |reflexivity]; exfalso;
    (assert (Hn : key_le b d x) by (apply giad_cmp_key; congruence)); unfold key_le in Hn; lia.
Qed.

(* the binary search of get_inlinee_at_depth on a sorted vector inspects exactly that record *)
Lemma bs_cand_nearest inls d x : sorted inl_lt inls -> nearest inls d x (bs_cand (giad_cmp d x) inls).
Proof.
  intros Hs.
  pose proof (bs_cand_greatest (giad_cmp d x) _ inls Hs (fun a b _ => giad_cmp_mono d x a b)) as H.
  destruct (bs_cand (giad_cmp d x) inls) as [c|]; cbn [nearest].
  - destruct H as (Hin & Hng & Hmax). split; [exact Hin|]. split; [apply giad_cmp_key; exact Hng|].
    intros e He Hk. apply giad_cmp_key in Hk. destruct (Hmax e He Hk) as [->|Hr]; [apply inl_lt_irrefl|exact Hr].
  - intros e He Hk. apply giad_cmp_key in Hk. exact (Hk (H e He)).
Qed.

(* finish_item keeps the INLINE ranges of non-zero size *)
Definition kept (fr : func_raw) : list inl_rec := filter (fun e => 0 <? i_size e) (fr_inls fr).

Lemma fin_inls_sorted fr : sorted inl_lt (fn_inls (fin_func true fr)).
Proof. cbn [fin_func fn_inls]. apply sort_by_sorted; [exact inl_lt_asym|exact inl_lt_negtrans]. Qed.

Lemma fin_inls_kept fr e : In e (fn_inls (fin_func true fr)) <-> In e (kept fr).
Proof. cbn [fin_func fn_inls keep_inls]. unfold kept. apply sort_by_in. Qed.

Lemma inlinee_lookup_exact fr d x c : nearest (kept fr) d x c ->
  get_inlinee_at_depth (fn_inls (fin_func true fr)) d x = Ret (giad_check d x c).
Proof.
  intros H. rewrite giad_ret. unfold giad_pure. f_equal. f_equal.
  apply (nearest_unique (fn_inls (fin_func true fr)) d x); [apply bs_cand_nearest, fin_inls_sorted|].
  eapply nearest_ext; [|exact H]. intros e. symmetry. apply fin_inls_kept.
Qed.

(* such a record always exists (or none is at or below the key): the statement is never vacuous *)
Lemma nearest_exists fr d x : exists c, nearest (kept fr) d x c.
Proof.
  exists (bs_cand (giad_cmp d x) (fn_inls (fin_func true fr))).
  eapply nearest_ext; [apply fin_inls_kept|]. apply bs_cand_nearest. apply fin_inls_sorted.
Qed.

Lemma sorted_perm_eq {A} (lt : A -> A -> bool) :
  (forall a b, lt a b = false -> lt b a = false -> a = b) ->
  forall l1 l2, sorted lt l1 -> sorted lt l2 -> Permutation l1 l2 -> l1 = l2.
Proof.
  intros Htot. induction l1 as [|x t1 IH]; intros l2 H1 H2 P.
  - apply Permutation_nil in P. subst. reflexivity.
  - destruct l2 as [|y t2]; [apply Permutation_sym, Permutation_nil in P; discriminate|].
    inversion H1 as [|? ? S1 L1]; inversion H2 as [|? ? S2 L2]; subst. rewrite Forall_forall in L1, L2.
    assert (E : x = y).
    { assert (Hx : In x (y :: t2)) by (eapply Permutation_in; [exact P|left; reflexivity]).
      assert (Hy : In y (x :: t1)) by (eapply Permutation_in; [apply Permutation_sym; exact P|left; reflexivity]).
      destruct Hx as [Hx|Hx]; [congruence|]. destruct Hy as [Hy|Hy]; [congruence|].
      apply Htot; [apply L2; exact Hx|apply L1; exact Hy]. }
    subst y. f_equal. apply IH; [exact S1|exact S2|]. eapply Permutation_cons_inv. exact P.
Qed.

Lemma filter_perm {A} (f : A -> bool) l l' : Permutation l l' -> Permutation (filter f l) (filter f l').
Proof.
  induction 1 as [|x l l' P IH|x y l|l l' l'' P1 IH1 P2 IH2]; cbn [filter].
  - constructor.
  - destruct (f x); [constructor|]; exact IH.
  - destruct (f x), (f y); try reflexivity. apply perm_swap.
  - etransitivity; eassumption.
Qed.

Lemma sort_inls_perm l l' : Permutation l l' ->
  sort_by inl_lt (keep_inls true l) = sort_by inl_lt (keep_inls true l').
Proof.
  intros P. apply (sorted_perm_eq inl_lt inl_lt_total).
  - apply sort_by_sorted; [exact inl_lt_asym|exact inl_lt_negtrans].
  - apply sort_by_sorted; [exact inl_lt_asym|exact inl_lt_negtrans].
  - etransitivity; [apply Permutation_sym, sort_by_perm|]. etransitivity; [|apply sort_by_perm].
    cbn [keep_inls]. apply filter_perm. exact P.
Qed.

(* two FUNC blocks that differ only in the order of their INLINE ranges *)
Definition same_up_to_inline_order (a b : func_raw) : Prop :=
  fr_addr a = fr_addr b /\ fr_size a = fr_size b /\ fr_psize a = fr_psize b /\ fr_name a = fr_name b /\
  fr_lines a = fr_lines b /\ Permutation (fr_inls a) (fr_inls b).

Lemma finish_func_perm a b : same_up_to_inline_order a b -> finish_func a = finish_func b.
Proof.
  intros (A & B & C & D & E & P). unfold finish_func, finish_func_gen.
  rewrite A, B, C, D, E, (sort_inls_perm _ _ P). reflexivity.
Qed.

Lemma finish_funcs_perm l l' : Forall2 same_up_to_inline_order l l' ->
  finish_funcs_gen true l = finish_funcs_gen true l'.
Proof.
  induction 1 as [|a b l l' Hab Hl IH]; cbn [finish_funcs_gen]; [reflexivity|].
  fold (finish_func a). fold (finish_func b). rewrite (finish_func_perm a b Hab), IH. reflexivity.
Qed.

(* element k of the chain fill_symbol walks (k <= its length; k = length is the lookup that ends the loop)
   is the lookup at depth k *)
Lemma inl_chain_nth f x k : (k <= length (inl_chain f x))%nat ->
  nth_error (inl_chain f x) k = giad_pure (fn_inls f) (Z.of_nat k) x.
Proof.
  unfold inl_chain. destruct (giad_pure (fn_inls f) 0 x) as [e0|] eqn:E0.
  - cbn [length]. intros Hk. destruct k as [|k]; [cbn [nth_error]; rewrite <- E0; reflexivity|].
    cbn [nth_error]. set (cf := chain_from (length (fn_inls f)) (fn_inls f) x 1) in *.
    replace (Z.of_nat (S k)) with (1 + Z.of_nat k) by lia.
    destruct (nth_error cf k) as [e|] eqn:En.
    + symmetry. exact (chain_from_spec _ _ _ _ _ _ En).
    + apply nth_error_None in En. assert (k = length cf) by lia. subst k.
      symmetry. apply chain_from_stops. apply (chain_short _ _ _ E0).
  - cbn [length]. intros Hk. assert (k = 0%nat) by lia. subst k. cbn [nth_error]. rewrite <- E0. reflexivity.
Qed.

(* … and that lookup is the declarative one: for the Function finished from ANY FUNC block [fr], at every
   depth k up to and including the one that ends the loop, the chain holds the greatest kept record at or
   below (k, x) when it has depth k and covers x, and ends there otherwise *)
Lemma inl_chain_exact fr x k c :
  (k <= length (inl_chain (fin_func true fr) x))%nat -> nearest (kept fr) (Z.of_nat k) x c ->
  nth_error (inl_chain (fin_func true fr) x) k = giad_check (Z.of_nat k) x c.
Proof.
  intros Hk Hc. rewrite (inl_chain_nth _ _ _ Hk).
  pose proof (inlinee_lookup_exact fr (Z.of_nat k) x c Hc) as E. rewrite giad_ret in E. inversion E. reflexivity.
Qed.
