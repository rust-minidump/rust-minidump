(* C11/Proofs11.v — independent of the other lemma files.  The Symbolizer session (C11/Session.v): C12's cache
   theorems instantiated at the sequential client ([session_finishes], [session_cache], [session_result_key]).  Their
   composition with the module lookup and fill_symbol is c11_symbolizer_cached_frame in Properties.v. *)
From Coq Require Import Lia.
From RM Require Import C08.Model C11.Model C11.Session.
From RM Require C12.Model C12.Proofs C12.Progress.
Open Scope Z_scope.

Lemma concat_repeat_single {A} (a : A) n : concat (repeat [a] n) = repeat a n.
Proof. induction n as [|n IH]; [reflexivity|]. cbn. rewrite IH. reflexivity. Qed.

Lemma cost_nosusp c l : (forall k, RM.C12.Model.susp c k = 0%nat) -> RM.C12.Model.cost c l = length l.
Proof. intros H. induction l as [|k t IH]; [reflexivity|]. cbn [RM.C12.Model.cost length]. rewrite H, IH. reflexivity. Qed.

Lemma session_work mods keys : RM.C12.Model.work (session_cfg mods keys) = length keys.
Proof.
  unfold RM.C12.Model.work, RM.C12.Model.ntasks. cbn [RM.C12.Model.tasks session_cfg length RM.C12.Model.sum_upto nth].
  rewrite cost_nosusp by reflexivity. reflexivity.
Qed.

(* polling the one task [length keys] times finishes the session (one poll already does; C12's bound is used as is) *)
Lemma session_finishes mods keys :
  RM.C12.Model.all_done (session_cfg mods keys) (session_end mods keys) = true.
Proof.
  unfold session_end, session_sched. rewrite <- (concat_repeat_single 0%nat).
  apply RM.C12.Progress.finish_in_rounds.
  - apply Forall_forall. intros r Hr. apply repeat_spec in Hr. subst r.
    intros t Ht. unfold RM.C12.Model.ntasks in Ht. cbn in Ht. left. lia.
  - rewrite session_work, repeat_length. lia.
Qed.

Lemma session_distinct mods keys :
  RM.C12.Model.distinct_keys (session_cfg mods keys) = length (nodup Nat.eq_dec keys).
Proof. unfold RM.C12.Model.distinct_keys. cbn [RM.C12.Model.tasks session_cfg concat]. rewrite app_nil_r. reflexivity. Qed.

(* C12 at the session: in ANY schedule that finishes (session_sched does) the client got one result per lookup, in
   order, each the supplier's single answer for that module; requested = processed = distinct modules; every module
   asked for was fetched exactly once *)
Lemma session_cache mods keys sched :
  let c := session_cfg mods keys in
  RM.C12.Model.all_done c (RM.C12.Model.run c sched) = true ->
  map fst (RM.C12.Model.results (RM.C12.Model.sh (RM.C12.Model.run c sched)) 0%nat) = keys /\
  (forall i k o, RM.C12.Model.task_result (RM.C12.Model.run c sched) 0%nat i = Some (k, o) ->
     nth_error keys i = Some k /\ o = RM.C12.Model.outc c k) /\
  RM.C12.Model.requested (RM.C12.Model.run c sched) = length (nodup Nat.eq_dec keys) /\
  RM.C12.Model.processed (RM.C12.Model.run c sched) = length (nodup Nat.eq_dec keys) /\
  (forall k, In k keys -> RM.C12.Model.supplier_calls (RM.C12.Model.run c sched) k = 1%nat).
Proof.
  intros c Hd. split; [exact (RM.C12.Proofs.results_complete c sched 0%nat Hd)|]. split.
  - intros i k o H. destruct (RM.C12.Proofs.same_outcome c sched 0%nat i k o H) as [Ho Hk]. split; [exact Hk|exact Ho].
  - destruct (RM.C12.Proofs.counters_quiescent c sched Hd) as [Hr Hp].
    unfold c in Hr, Hp. rewrite session_distinct in Hr, Hp. split; [exact Hr|]. split; [exact Hp|].
    intros k Hk. apply RM.C12.Proofs.exactly_once_quiescent; [exact Hd|]. cbn. rewrite app_nil_r. exact Hk.
Qed.

(* a lookup of the session that has finished is one of the frames' lookups, in order (C12: position i of the task) *)
Lemma session_result_key mods keys sched i k o :
  RM.C12.Model.task_result (RM.C12.Model.run (session_cfg mods keys) sched) 0%nat i = Some (k, o) -> nth_error keys i = Some k.
Proof. intros H. exact (proj2 (RM.C12.Proofs.same_outcome _ sched 0%nat i k o H)). Qed.
