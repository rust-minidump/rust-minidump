(* C11/Properties.v — the property theorems of C11: each with its full statement, a short proof from the lemmas of
   the lemma files (an instance, or a few lines) and its [Print Assumptions]; then the non-vacuity examples.
   Vocabulary (C11/Model.v): [raw_file] = the records of a symbol file per kind in file
   order; [symbolize p rf mbase instr] = parse (SymbolParser::finish …) then
   SymbolFile::fill_symbol for a module loaded at [mbase]; the result holds the arguments
   of set_function / set_source_file / add_inline_frame; [frame_inlines] = StackFrame.inlines
   after fill_source_line_info.  [wf_file] states only what the parser's integer types
   guarantee (u64 addresses, u32 sizes/depths) plus "fewer than 2^32-1 INLINE ranges per FUNC". *)
From Coq Require Import Lia Sorting.Permutation.
From RM Require Import C08.Model C08.Proofs C11.Model C11.Proofs1 C11.Proofs2 C11.Proofs3 C11.Proofs4 C11.Proofs5 C11.Proofs6 C11.Proofs7.
From RM Require C09.Model C09.Grammar C09.Driver C11.Text C11.Text2 C11.Text3 C11.Driver C11.Enc.
From RM Require Import C11.Proofs9 C11.Proofs10.
From RM Require Gen.C11Sym C11.Tie.
From RM Require C11.Prims Gen.C11Src C11.SrcTie.
From RM Require C12.Model C11.Session C11.Proofs11.
Open Scope Z_scope.

(* Parsing and symbolication never panic (overflow in `address + module.base_address()`,
   slice indexing, the unwraps of the range-map builders, the u32 depth counter) and the
   depth loop ends within fuel = number of inlinees — in debug and release builds. *)
Theorem c11_total : forall p rf mbase instr,
  wf_file rf -> 0 <= mbase -> instr < two64 ->
  exists o, symbolize p rf mbase instr = Ret o.
Proof. exact total. Qed.
Print Assumptions c11_total.

(* The reported function is a FUNC record of the file whose range contains the address
   (parameter size: the FUNC's or that of a STACK WIN record covering the address), or a
   PUBLIC at or below the address; function_base <= instruction; nothing below the module. *)
Theorem c11_func_sound : forall p rf mbase instr,
  wf_file rf -> 0 <= mbase -> instr < two64 ->
  exists o, symbolize p rf mbase instr = Ret o /\
    (instr < mbase -> o = empty_out) /\
    forall name base ps, o_func o = Some (name, base, ps) ->
      mbase <= instr /\ base <= instr /\
      ((exists fr, In fr (rf_funcs rf) /\ func_covers fr (instr - mbase) = true /\
          name = fr_name fr /\ base = fr_addr fr + mbase /\
          (ps = fr_psize fr \/
           exists w, In w (rf_win_fd rf ++ rf_win_fpo rf) /\ win_covers w (instr - mbase) = true /\ ps = w_psize w))
       \/ (exists pb, In pb (rf_publics rf) /\ p_addr pb <= instr - mbase /\ name = p_name pb /\
             base = p_addr pb + mbase /\ ps = p_psize pb /\ o_src o = None /\ o_inl o = [])).
Proof. exact func_sound. Qed.
Print Assumptions c11_func_sound.

(* PUBLIC fallback, exactly as the code decides it.  When the FUNC table has no range
   containing the address: the candidate is the greatest PUBLIC (by address, then name,
   then parameter size) whose address is <= addr; it is suppressed iff some entry of the
   FUNC table starts at or after the PUBLIC and at or before addr ([cut_by_func]); every
   table entry is a FUNC record of the file with a non-empty representable range, filed
   under its own address.  Differences from the property text: (1) "FUNC" means an entry
   of the range table — FUNC records that are empty, end past 2^64-1 or were dropped
   because they overlap an earlier-sorted different FUNC do not cut a PUBLIC off;
   (2) a FUNC at the same address as the PUBLIC cuts it off.  For non-overlapping files
   (c11_equals_linear_scan) every valid FUNC record is in the table. *)
Theorem c11_public_rule : forall p rf mbase instr,
  wf_file rf -> 0 <= mbase -> mbase <= instr < two64 ->
  exists st o, build_symtab rf = Ret st /\ symbolize p rf mbase instr = Ret o /\
    (forall r f, In (r, f) (st_funcs st) ->
       exists fr, In fr (rf_funcs rf) /\ f = fin_func true fr /\ fn_addr f = fst r /\
                  mk_range (fr_addr fr) (fr_size fr) <> None) /\
    (rm_get (st_funcs st) (instr - mbase) = None ->
       ((forall q, In q (rf_publics rf) -> instr - mbase < p_addr q) /\ o = empty_out) \/
       (exists pb, In pb (rf_publics rf) /\ p_addr pb <= instr - mbase /\
          (forall q, In q (rf_publics rf) -> p_addr q <= instr - mbase -> pub_lt pb q = false) /\
          ((cut_by_func st pb (instr - mbase) /\ o = empty_out) \/
           (~ cut_by_func st pb (instr - mbase) /\
            o = mk_out (Some (p_name pb, p_addr pb + mbase, p_psize pb)) None [])))).
Proof.
  intros p rf mbase instr Hwf Hmb [Hge Hin].
  destruct (symbolize_cases true p rf mbase instr Hwf Hmb Hin) as (st & o & Hrel & Hb & Hs & Hc).
  exists st, o. split; [exact Hb|]. split; [exact Hs|]. split.
  - intros r f Hrf. rewrite (sr_funcs _ _ _ Hrel) in Hrf. apply table_entry in Hrf. exact Hrf.
  - intros Hg. destruct Hc as [[Hlt _]|[(_ & fr & _ & _ & _ & Hg' & _)|(_ & _ & ->)]]; [lia|congruence|].
    apply (fill_public_spec true rf st mbase (instr - mbase) Hwf Hrel Hg).
Qed.
Print Assumptions c11_public_rule.

(* source_line_base <= instruction; the line is that of a depth-0 INLINE record of the
   function covering the address (its call site), or — when the lookup finds none — of
   a line record covering it. *)
Theorem c11_line_sound : forall p rf mbase instr,
  wf_file rf -> 0 <= mbase -> instr < two64 ->
  exists o, symbolize p rf mbase instr = Ret o /\
    forall file line base, o_src o = Some (file, line, base) ->
      base <= instr /\
      exists fr, In fr (rf_funcs rf) /\ func_covers fr (instr - mbase) = true /\
        ((exists e0, In e0 (fr_inls fr) /\ inl_covers 0 (instr - mbase) e0 = true /\
                     assoc_last (i_cfile e0) (rf_files rf) = Some file /\ line = i_cline e0 /\
                     base = i_addr e0 + mbase) \/
         (giad_pure (fn_inls (fin_func true fr)) 0 (instr - mbase) = None /\
          exists l, In l (fr_lines fr) /\ line_covers l (instr - mbase) = true /\
                    assoc_last (l_file l) (rf_files rf) = Some file /\ line = l_line l /\
                    base = l_addr l + mbase)).
Proof. exact line_sound. Qed.
Print Assumptions c11_line_sound.

(* The inline frames come from a chain of INLINE records of the function: the k-th has
   depth k and covers the address; the chain ends at the first depth at which the lookup
   finds nothing; it is no longer than the number of INLINE ranges (so the loop stays
   within its fuel); frame k is named by inlinee k and located at the call site recorded
   by inlinee k+1, the last one at the innermost covering line record ([frames_spec]);
   the stack frame lists them reversed, innermost first. *)
Theorem c11_inline_chain : forall p rf mbase instr,
  wf_file rf -> 0 <= mbase -> instr < two64 ->
  exists st o, build_symtab rf = Ret st /\ symbolize p rf mbase instr = Ret o /\
    frame_inlines o = rev (o_inl o) /\
    (o_inl o <> [] ->
     exists fr chain, In fr (rf_funcs rf) /\ func_covers fr (instr - mbase) = true /\
       (forall k e, nth_error chain k = Some e ->
          In e (fr_inls fr) /\ inl_covers (Z.of_nat k) (instr - mbase) e = true) /\
       giad_pure (fn_inls (fin_func true fr)) (Z.of_nat (length chain)) (instr - mbase) = None /\
       (length chain <= length (fr_inls fr))%nat /\
       (forall l, rm_get (fn_lines (fin_func true fr)) (instr - mbase) = Some l ->
          In l (fr_lines fr) /\ line_covers l (instr - mbase) = true) /\
       o_inl o = frames_spec st chain (rm_get (fn_lines (fin_func true fr)) (instr - mbase))).
Proof. exact inline_chain. Qed.
Print Assumptions c11_inline_chain.

(* [frames_spec] spelled out when every origin has a name: one frame per inlinee, frame k =
   (name of inlinee k, call site of inlinee k+1 | innermost line for the last). *)
Theorem c11_inline_frames_named : forall st chain inner,
  (forall e, In e chain -> assoc_last (i_origin e) (st_origins st) <> None) ->
  length (frames_spec st chain inner) = length chain /\
  forall k e, nth_error chain k = Some e ->
    exists nm, assoc_last (i_origin e) (st_origins st) = Some nm /\
      nth_error (frames_spec st chain inner) k =
      Some (match nth_error chain (S k) with
            | Some e' => (nm, assoc_last (i_cfile e') (st_files st), Some (i_cline e'))
            | None => (nm, fst (inner_loc st inner), snd (inner_loc st inner))
            end).
Proof.
  intros st chain inner. induction chain as [|e t IH]; intros Hn; [split; [reflexivity|intros [|k] e; discriminate]|].
  destruct IH as [IH1 IH2]; [intros a Ha; apply Hn; right; exact Ha|].
  cbn [frames_spec]. destruct (assoc_last (i_origin e) (st_origins st)) as [nm|] eqn:En;
    [|exfalso; apply (Hn e); [left; reflexivity|exact En]].
  cbn [app length]. split; [f_equal; exact IH1|].
  intros [|k] a; cbn [nth_error].
  - intros H; inversion H; subst a. exists nm. split; [exact En|]. destruct t; reflexivity.
  - intros H. apply IH2 in H. exact H.
Qed.
Print Assumptions c11_inline_frames_named.

(* get_inlinee_at_depth is sound for every inlinee vector, sorted or not. *)
Theorem c11_inlinee_lookup_sound : forall inls depth addr,
  exists r, get_inlinee_at_depth inls depth addr = Ret r /\
    forall e, r = Some e ->
      In e inls /\ i_depth e = depth /\ i_addr e <= addr /\ addr < i_addr e + i_size e /\
      i_addr e + i_size e < two64.
Proof.
  exact (fun inls depth addr => ex_intro _ (giad_pure inls depth addr)
           (conj (giad_ret inls depth addr) (giad_sound inls depth addr))).
Qed.
Print Assumptions c11_inlinee_lookup_sound.

(* For files whose records do not overlap ([non_overlapping]: FUNC ranges pairwise, line ranges
   of a FUNC pairwise, INLINE ranges of one depth of a FUNC pairwise; [a, a+size) with empty
   records occupying nothing) the result equals plain linear scans [find] over the records:
   the FUNC ([ref_func]), its covering line record ([ref_line]), the covering INLINE record at
   depth 0,1,2,… ([ref_chain]), assembled by [ref_fill_func]; without a covering FUNC the
   greatest PUBLIC at or below the address, cut off exactly when a non-empty representable
   FUNC record starts between it and the address.  The parameter size is [ref_psize]: that
   of the STACK WIN frame-data record covering the address, else of the fpo record, else the
   FUNC's ([non_overlapping] includes the records of each STACK WIN table: with disjoint
   records insert_win_stack_info repairs nothing, [win_collect_disjoint]). *)
Theorem c11_equals_linear_scan : forall p rf mbase instr,
  wf_file rf -> non_overlapping rf -> 0 <= mbase -> mbase <= instr < two64 ->
  exists o, symbolize p rf mbase instr = Ret o /\
    match ref_func rf (instr - mbase) with
    | Some fr => o = ref_fill_func rf (ref_psize rf fr (instr - mbase)) mbase (instr - mbase) fr
    | None =>
        ((forall q, In q (rf_publics rf) -> instr - mbase < p_addr q) /\ o = empty_out) \/
        (exists pb, In pb (rf_publics rf) /\ p_addr pb <= instr - mbase /\
           (forall q, In q (rf_publics rf) -> p_addr q <= instr - mbase -> pub_lt pb q = false) /\
           let cut := exists fr, In fr (rf_funcs rf) /\ mk_range (fr_addr fr) (fr_size fr) <> None /\
                                 p_addr pb <= fr_addr fr <= instr - mbase in
           ((cut /\ o = empty_out) \/
            (~ cut /\ o = mk_out (Some (p_name pb, p_addr pb + mbase, p_psize pb)) None [])))
    end.
Proof. exact equals_linear_scan. Qed.
Print Assumptions c11_equals_linear_scan.

(* the three lookups separately: binary searches = linear scans on non-overlapping records *)
Theorem c11_lookups_linear :
  (forall rf x, Forall wf_fraw (rf_funcs rf) -> pairwise func_dj (rf_funcs rf) ->
     rm_get (into_rangemap_safe_p func_eqb (fin_list true (rf_funcs rf))) x =
     option_map (fin_func true) (ref_func rf x)) /\
  (forall ls x, Forall wf_line ls -> pairwise line_dj ls ->
     rm_get (lines_tbl ls) x = find (fun l => line_covers l x) ls) /\
  (forall fr d x, pairwise inl_dj (fr_inls fr) ->
     get_inlinee_at_depth (fn_inls (fin_func true fr)) d x = Ret (ref_inl fr d x)) /\
  (forall ws x, Forall wf_win ws -> pairwise win_dj ws ->
     exists wl, win_collect [] ws = Ret wl /\
       rm_get (into_rangemap_safe_p win_eqb wl) x = find (fun w => win_covers w x) ws).
Proof.
  exact (conj funcs_linear (conj lines_linear (conj
           (fun fr d x H => eq_trans (giad_ret _ d x) (f_equal Ret (inls_linear fr d x H)))
           (fun ws x Hw Hd => ex_intro _ (win_list ws)
              (conj (win_collect_disjoint ws [] (fun _ _ _ _ (F : False) => match F with end) Hd)
                    (win_linear ws x Hw Hd)))))).
Qed.
Print Assumptions c11_lookups_linear.

(* From text (C09's byte-level parser model: [recog_pst] per line, [finish]).  For the lines of
   any symbol text the recogniser accepts and any name map injective on the text's FUNC names:
   the FUNC table of SymbolParser::finish — ranges, Functions, their line tables and sorted
   inlinee vectors — is, name for name, the FUNC table of C11's [build_symtab] over the FUNC
   blocks collected from the text, so the FUNC lookup of fill_symbol on the parsed text returns a
   FUNC block of the text covering the address, finished as in C11 (to which c11_line_sound,
   c11_inline_chain, c11_lookups_linear apply).  _partial: this theorem speaks of the FUNC table
   alone and takes [wf_text_funcs] (the integer ranges hex_str::<u64>, hex_str::<u32> and decimal_u32
   guarantee) as a hypothesis; c11_from_text covers the PUBLIC list, the STACK WIN tables and the FILE /
   INLINE_ORIGIN maps, and c11_parser_records_in_range / c11_from_bytes derive the ranges from the recogniser. *)
Theorem c11_from_text_partial : forall nm (lines : list Grammar.rle) q t,
  RM.C09.Model.fold_recog Grammar.rle Grammar.pst Grammar.recog_pst Grammar.lineno_pst Grammar.init_pst lines = inl q ->
  Grammar.finish q = Ret t -> Text.wf_text_funcs nm q -> Text.names_injective nm q ->
  map (Text.GF nm) (Grammar.t_funcs t) =
    into_rangemap_safe_p func_eqb (fin_list true (map (Text.raw_of_func nm) (Text.funcs_of_pst q))) /\
  forall x sf, rm_get (Grammar.t_funcs t) x = Some sf ->
    exists fr, In fr (Text.funcs_of_pst q) /\ func_covers (Text.raw_of_func nm fr) x = true /\
               Text.func_of_sfunc nm sf = fin_func true (Text.raw_of_func nm fr) /\
               0 <= Grammar.fr_addr fr <= x.
Proof.
  intros nm lines q t _ Hfin Hwf Hinj. pose proof (Text.funcs_from_text nm q t Hwf Hinj Hfin) as E. split; [exact E|].
  intros x sf Hg.
  assert (Hg' : rm_get (map (Text.GF nm) (Grammar.t_funcs t)) x = Some (Text.func_of_sfunc nm sf)).
  { unfold Text.GF. rewrite Text.rm_get_map, Hg. reflexivity. }
  rewrite E in Hg'. apply func_lookup in Hg'; [|exact Hwf].
  destruct Hg' as (fr' & Hin & Hc & Hf & Ha). apply in_map_iff in Hin. destruct Hin as (fr & <- & Hin).
  exists fr. auto.
Qed.
Print Assumptions c11_from_text_partial.

(* Symbolizer level (walk_stack -> fill_source_line_info -> Symbolizer::fill_symbol): for a module
   list (C08's [build_indexed] table over the modules' memory_range()) with per-module symbol
   tables, the frame is SymbolFile::fill_symbol of the module found by C08's lookup, at that
   module's base, with the inlines reversed; the module found contains the instruction (C08's
   lookup soundness), hence base <= instruction; the index is always valid; a module without
   symbols is attached with nothing filled in. *)
Theorem c11_module_lookup_compose : forall p (mods : list module) instr,
  Forall wf_module mods ->
  exists tbl, mod_table mods = Ret tbl /\
    match rm_get tbl instr with
    | None => frame_of p tbl mods instr = Ret None
    | Some idx =>
        exists b sz ost r, 0 <= idx /\ nth_error mods (Z.to_nat idx) = Some (b, sz, ost) /\
          mk_range b sz = Some r /\ contains r instr = true /\ b <= instr /\
          frame_of p tbl mods instr =
            match ost with
            | Some st => do o <- fill_symbol p st b instr;
                         Ret (Some (idx, mk_out (o_func o) (o_src o) (rev (o_inl o))))
            | None => Ret (Some (idx, empty_out))
            end
    end.
Proof. exact module_lookup_compose. Qed.
Print Assumptions c11_module_lookup_compose.

(* ... and when every module's table was parsed from a (well-formed) file it never panics:
   the frame is the pure result [fill_pure] (the function all other theorems describe). *)
Theorem c11_module_frame_total : forall p (mods : list module) instr,
  Forall wf_module mods -> Forall module_parsed mods -> instr < two64 ->
  exists tbl, mod_table mods = Ret tbl /\
    frame_of p tbl mods instr =
      Ret (match rm_get tbl instr with
           | None => None
           | Some idx =>
               match nth_error mods (Z.to_nat idx) with
               | Some (b, _, Some st) =>
                   let o := fill_pure st b instr in Some (idx, mk_out (o_func o) (o_src o) (rev (o_inl o)))
               | _ => Some (idx, empty_out)
               end
           end).
Proof. exact module_frame_total. Qed.
Print Assumptions c11_module_frame_total.

(* From text, whole table.  For the lines of any symbol text the recogniser of C09/Grammar.v accepts,
   [t] = SymbolParser::finish of the parser state, a name map [nm] and a tag map [tg] satisfying
   [enc_ok] (nm injective on the FUNC names and order-preserving on the PUBLIC names of the text; tg
   a function of the STACK WIN fields other than address/size/parameter size that separates the
   records of the text; the integer fields in the range their recognisers guarantee): the table
   [symtab_of_table t] (FILE / INLINE_ORIGIN maps, sorted PUBLIC list, FUNC table, both STACK WIN
   tables of [finish]) is related by [st_rel] to the records collected from the text, and
   fill_symbol on it IS [symbolize] on those records — so every theorem above is a theorem about
   the text.  ([c11_table_interface] is the general form: any table related to the records.) *)
Theorem c11_from_text : forall nm tg (lines : list Grammar.rle) q t,
  RM.C09.Model.fold_recog Grammar.rle Grammar.pst Grammar.recog_pst Grammar.lineno_pst Grammar.init_pst lines = inl q ->
  Grammar.finish q = Ret t -> Text2.enc_ok nm tg q ->
  st_rel true (Text2.raw_of_pst nm tg q) (Text2.symtab_of_table nm tg t) /\
  forall p mbase instr, 0 <= mbase -> instr < two64 ->
    fill_symbol p (Text2.symtab_of_table nm tg t) mbase instr = symbolize p (Text2.raw_of_pst nm tg q) mbase instr.
Proof. intros nm tg lines q t _ Hfin He. exact (Text2.from_enc_ok nm tg q t He Hfin). Qed.
Print Assumptions c11_from_text.

(* The integer ranges [wf_file] asks for are what C09's number recognisers deliver (hex_str::<u64>
   = 16 hex digits, hex_str::<u32> = 8, decimal_u32).  (That every record the parser state
   collects was built from these recognisers is c11_parser_records_in_range below.) *)
Theorem c11_number_recognisers_in_range :
  (forall s v s', Grammar.hex_str 16%nat s = Some (v, s') -> 0 <= v < two64) /\
  (forall s v s', Grammar.hex_str 8%nat s = Some (v, s') -> 0 <= v < two32) /\
  (forall s v s', Grammar.decimal_u32 s = Some (v, s') -> 0 <= v < two32).
Proof. exact (conj Text3.hex64_range (conj Text3.hex32_range Text3.decimal_u32_range)). Qed.
Print Assumptions c11_number_recognisers_in_range.

(* Any table related by [st_rel] to the records of a well-formed file — the one build_symtab returns, or the one
   C09's parser model builds from the text — symbolicates as [symbolize] on those records. *)
Theorem c11_table_interface : forall p rf st mbase instr,
  wf_file rf -> st_rel true rf st -> 0 <= mbase -> instr < two64 ->
  fill_symbol p st mbase instr = symbolize p rf mbase instr.
Proof. exact table_interface. Qed.
Print Assumptions c11_table_interface.

(* Tie to the source.  translate/c11_symbolize.py re-reads SymbolFile::fill_symbol, find_nearest_public,
   Function::{memory_range, get_outermost_sourceloc, get_innermost_sourceloc, get_inlinee_at_depth},
   finish_item, insert_win_stack_info, StackInfoWin::memory_range, the merge step of the parser-local
   into_rangemap_safe (C08's [merge_step]), the field order of Inlinee / PublicSymbol, Symbolizer::fill_symbol /
   get_symbol_at_address and fill_source_line_info on every run; the statement structure must match its templates (else it aborts) and
   the comparison operators, operands, constants, STACK WIN table order, lookup keys, start depth and stopping
   arm of the depth loop, .rev() / .reverse() are translated into the functions of Gen/C11Sym.v.  Those are the
   model all theorems of this file speak about. *)
Theorem c11_source_tie :
  (forall p st mbase instr, C11Sym.g_fill_symbol p st mbase instr = fill_symbol p st mbase instr) /\
  (forall inls depth addr, C11Sym.g_get_inlinee_at_depth inls depth addr = get_inlinee_at_depth inls depth addr) /\
  (forall f addr, C11Sym.g_get_outermost_sourceloc f addr = get_outermost_sourceloc f addr) /\
  (forall p fuel inls addr depth, C11Sym.g_inline_loop p fuel inls addr depth = inline_loop p fuel inls addr depth) /\
  C11Sym.g_depth_start = 1 /\
  (forall pubs addr, C11Sym.g_find_nearest_public pubs addr = find_nearest_public pubs addr) /\
  (forall funcs addr, C11Sym.g_prev_func funcs addr = prev_func funcs addr) /\
  (forall st f addr, C11Sym.g_param_size st f addr = param_size st f addr) /\
  (forall base size, C11Sym.g_func_range base size = mk_range base size) /\
  (forall ls, C11Sym.g_line_entries ls = line_entries ls) /\
  (forall l, filter C11Sym.g_inl_keep l = keep_inls true l) /\
  (forall e, C11Sym.g_inl_key e = inl_key e) /\ (forall q, C11Sym.g_pub_key q = pub_key q) /\
  (forall acc w, C11Sym.g_win_insert acc w = win_insert acc w) /\
  (forall V (eqb : V -> V -> bool) acc rv, C11Sym.g_merge_step eqb acc rv = merge_step eqb acc rv) /\
  (forall a, C11Sym.g_gsaa_instr a = a) /\ C11Sym.g_gsaa_base = 0 /\ (forall i, C11Sym.g_module_key i = i) /\
  (forall o, C11Sym.g_frame_inlines (o_inl o) = frame_inlines o).
Proof.
  split; [exact Tie.g_fill_symbol_eq|]. split; [exact Tie.g_get_inlinee_at_depth_eq|].
  split; [exact Tie.g_get_outermost_sourceloc_eq|]. split; [exact Tie.g_inline_loop_eq|].
  split; [exact Tie.g_depth_start_eq|]. split; [exact Tie.g_find_nearest_public_eq|].
  split; [exact Tie.g_prev_func_eq|]. split; [exact Tie.g_param_size_eq|]. split; [exact Tie.g_func_range_eq|].
  split; [exact Tie.g_line_entries_eq|]. split; [exact Tie.g_keep_inls_eq|]. split; [exact Tie.g_inl_key_eq|].
  split; [exact Tie.g_pub_key_eq|]. split; [exact Tie.g_win_insert_eq|]. split; [exact @Tie.g_merge_step_eq|].
  exact Tie.g_front_ends_eq.
Qed.
Print Assumptions c11_source_tie.

(* Cost of the inline-depth enumeration.  [fill_symbol_n] is fill_symbol with a counter of
   get_inlinee_at_depth calls (dropping the counter gives fill_symbol back: 4th conjunct) and [extra] more
   fuel than the model gives the loop.  For every file, address, module base and both profiles the count is
   the same for every [extra] (the loop stops by itself: `None => break`), it is 0 when no FUNC of the table
   covers the address and otherwise 1 + the length of the inline chain found, at most the number of INLINE
   ranges of the reported FUNC + 1.  (Each lookup is one binary search.)  A loop bound read from the file
   (`1..=max_depth`) cannot satisfy this; c11_symbolize.py pins `for depth in 1..` / `None => break`. *)
Theorem c11_inline_lookups_bounded : forall p rf mbase instr,
  wf_file rf -> 0 <= mbase -> instr < two64 ->
  exists st o n, build_symtab rf = Ret st /\ symbolize p rf mbase instr = Ret o /\
    (forall extra, fill_symbol_n p extra st mbase instr = Ret (o, n)) /\
    (forall extra, fill_symbol p st mbase instr = do x <- fill_symbol_n p extra st mbase instr; Ret (fst x)) /\
    ((instr < mbase \/ rm_get (st_funcs st) (instr - mbase) = None) -> n = 0%nat) /\
    (forall f, mbase <= instr -> rm_get (st_funcs st) (instr - mbase) = Some f ->
       n = S (length (inl_chain f (instr - mbase))) /\
       exists fr, In fr (rf_funcs rf) /\ func_covers fr (instr - mbase) = true /\ f = fin_func true fr /\
                  (n <= length (fr_inls fr) + 1)%nat).
Proof. exact inline_lookups_bounded. Qed.
Print Assumptions c11_inline_lookups_bounded.

(* Completeness for ALL files (overlapping or not): a FUNC record that covers the address and whose range
   intersects the range of no other FUNC record of the file is the function reported — the overlap
   resolution of the table builder cannot lose it and no PUBLIC can win over it. *)
Theorem c11_isolated_func_found : forall p rf mbase instr l1 fr l2,
  wf_file rf -> 0 <= mbase -> mbase <= instr < two64 ->
  rf_funcs rf = l1 ++ fr :: l2 -> func_covers fr (instr - mbase) = true -> func_isolated fr (l1 ++ l2) ->
  exists st o, build_symtab rf = Ret st /\ symbolize p rf mbase instr = Ret o /\
    rm_get (st_funcs st) (instr - mbase) = Some (fin_func true fr) /\
    o = fill_func st mbase (instr - mbase) (fin_func true fr) /\
    o_func o = Some (fr_name fr, fr_addr fr + mbase, param_size st (fin_func true fr) (instr - mbase)).
Proof.
  intros p rf mbase instr l1 fr l2 Hwf Hmb [Hge Hin] Hsplit Hcov Hiso.
  destruct (symbolize_ret true p rf mbase instr Hwf Hmb Hin) as (st & Hrel & Hb & Hs).
  assert (Hg : rm_get (st_funcs st) (instr - mbase) = Some (fin_func true fr)).
  { rewrite (sr_funcs _ _ _ Hrel), Hsplit. destruct Hwf as (Hwff & _). rewrite Hsplit in Hwff.
    unfold func_covers in Hcov. destruct (mk_range (fr_addr fr) (fr_size fr)) as [r|] eqn:Er; [|discriminate].
    apply (fin_list_isolated true l1 fr l2 r); [exact Hwff|exact Er|exact Hcov|].
    intros fr' r' Hfr' Er'. exact (Hiso fr' r r' Hfr' Er Er'). }
  exists st, (fill_pure st mbase instr). split; [exact Hb|]. split; [exact Hs|]. split; [exact Hg|].
  unfold fill_pure. replace (instr <? mbase) with false by (symmetry; apply Z.ltb_ge; lia). rewrite Hg.
  split; [reflexivity|]. rewrite fill_func_ofunc. reflexivity.
Qed.
Print Assumptions c11_isolated_func_found.

(* Module list, completeness: a module (any base < 2^64, any size, also one ending at 2^64-1) that contains
   the instruction and intersects no other module of the list (modules whose range is empty or not
   representable occupy nothing) is the module the frame is attributed to, and the frame is
   SymbolFile::fill_symbol at that module's base with the inlines reversed.  With c11_module_lookup_compose
   (soundness for every list, overlapping or not) this is the multi-module layer. *)
Theorem c11_module_isolated_found : forall p (m1 : list module) b sz ost (m2 : list module) instr r,
  Forall wf_module (m1 ++ (b, sz, ost) :: m2) ->
  mk_range b sz = Some r -> contains r instr = true ->
  (forall m r', In m (m1 ++ m2) -> mk_range (fst (fst m)) (snd (fst m)) = Some r' -> intersects r r' = false) ->
  exists tbl, mod_table (m1 ++ (b, sz, ost) :: m2) = Ret tbl /\
    rm_get tbl instr = Some (Z.of_nat (length m1)) /\ b <= instr /\
    frame_of p tbl (m1 ++ (b, sz, ost) :: m2) instr =
      match ost with
      | Some st => do o <- fill_symbol p st b instr;
                   Ret (Some (Z.of_nat (length m1), mk_out (o_func o) (o_src o) (rev (o_inl o))))
      | None => Ret (Some (Z.of_nat (length m1), empty_out))
      end.
Proof. exact isolated_module_found. Qed.
Print Assumptions c11_module_isolated_found.

(* The records SymbolParser holds are in range, whatever the text.  After ANY sequence of lines —
   each either recognised by parse_more's line logic ([recog_pst]) or dropped by the over-long-line
   recovery ([bump_pst]) — every FUNC block (open or finished) has a u64 address, a u32 size, line
   records and INLINE ranges with u64 addresses / u32 sizes / u32 depths, and at most as many INLINE
   ranges as the text had bytes so far (each range costs its INLINE line at least two bytes); PUBLIC
   addresses are u64; STACK WIN records have u64 addresses and u32 sizes.  This is the invariant that
   discharges [eo_wf] (the hypothesis left in c11_from_text). *)
Theorem c11_parser_records_in_range : forall (ds : list (bool * Grammar.rle)) q,
  RM.C09.Model.replay Grammar.rle Grammar.pst Grammar.recog_pst Grammar.bump_pst Grammar.lineno_pst
                      Grammar.init_pst ds = inl q ->
  Text3.pst_rng (RM.C09.Model.size Grammar.rle Grammar.cllen (map snd ds)) q.
Proof. exact Text3.replay_rng0. Qed.
Print Assumptions c11_parser_records_in_range.

(* Every byte string that parses.  [bytes] is any byte string shorter than 2^32-1 bytes, split at
   '\n' as SymbolFile::parse sees it; [drive_c … sch] is C09's model of the whole parse loop (circular
   buffer, any read schedule [sch], over-long lines dropped); if it ends Ok with parser state [q] then
   SymbolParser::finish returns a table [t] (no panic), the records of the text are [wf_file], and
   fill_symbol on the parsed table IS [symbolize] on the records of the text — so every theorem of
   this file is a theorem about the bytes.  [enc_names_ok] asks only that the two encodings fit (names as
   integers injectively / monotonically on the names of the text, a tag for the STACK WIN fields that only take
   part in ==): any such pair will do, and c11_encodings_exist / c11_from_bytes_closed below show one always exists. *)
Theorem c11_from_bytes : forall nm tg (bytes : list Z) (sch : list Z) q s,
  RM.C09.Driver.drive_c (map Grammar.to_rle (fst (Grammar.split_bytes bytes [])))
                        (Z.of_nat (length (snd (Grammar.split_bytes bytes [])))) sch
    = Ret (RM.C09.Model.ROk q, s) ->
  Z.of_nat (length bytes) < two32 - 1 -> Text3.enc_names_ok nm tg q ->
  exists t, Grammar.finish q = Ret t /\
    wf_file (Text2.raw_of_pst nm tg q) /\
    st_rel true (Text2.raw_of_pst nm tg q) (Text2.symtab_of_table nm tg t) /\
    forall p mbase instr, 0 <= mbase -> instr < two64 ->
      fill_symbol p (Text2.symtab_of_table nm tg t) mbase instr = symbolize p (Text2.raw_of_pst nm tg q) mbase instr.
Proof. exact Text3.from_bytes. Qed.
Print Assumptions c11_from_bytes.

(* … and the encodings exist: no hypothesis besides the length of the text.  For every parser state reachable by
   recognised / dropped lines, [Enc.nm_of q] (the rank of a name among the FUNC and PUBLIC names of the text, in
   String order) and [Enc.tg_of q] (the position of a STACK WIN record's payload among the payloads of the text) meet
   [enc_names_ok].  Ingredients: [rle_compare] on run-length-encoded strings with positive counts is the lexicographic
   order of the decoded byte strings (a strict total order), decoding is injective on normal forms, and every name
   the parser stores is a normal form (it comes out of rle_norm: invariant [pst_nn] of recog_pst / bump_pst). *)
Theorem c11_encodings_exist : forall (ds : list (bool * Grammar.rle)) q,
  RM.C09.Model.replay Grammar.rle Grammar.pst Grammar.recog_pst Grammar.bump_pst Grammar.lineno_pst
                      Grammar.init_pst ds = inl q ->
  Text3.enc_names_ok (Enc.nm_of q) (Enc.tg_of q) q.
Proof. intros ds q H. exact (Enc.encodings_ok q (Enc.replay_nn ds q H)). Qed.
Print Assumptions c11_encodings_exist.

(* c11_from_bytes, closed: EVERY byte string shorter than 2^32-1 bytes that the parse loop accepts (any read
   schedule).  With the encodings of c11_encodings_exist: finish returns a table, the records of the text are
   [wf_file], and fill_symbol on the parsed table is [symbolize] on the records of the text, at every address,
   module base and profile — so c11_total, c11_func_sound, c11_public_rule, c11_line_sound, c11_inline_chain(_exact),
   c11_equals_linear_scan … hold of the text with no side condition on it. *)
Theorem c11_from_bytes_closed : forall (bytes : list Z) (sch : list Z) q s,
  RM.C09.Driver.drive_c (map Grammar.to_rle (fst (Grammar.split_bytes bytes [])))
                        (Z.of_nat (length (snd (Grammar.split_bytes bytes [])))) sch
    = Ret (RM.C09.Model.ROk q, s) ->
  Z.of_nat (length bytes) < two32 - 1 ->
  let nm := Enc.nm_of q in let tg := Enc.tg_of q in
  Text3.enc_names_ok nm tg q /\
  exists t, Grammar.finish q = Ret t /\
    wf_file (Text2.raw_of_pst nm tg q) /\
    st_rel true (Text2.raw_of_pst nm tg q) (Text2.symtab_of_table nm tg t) /\
    forall p mbase instr, 0 <= mbase -> instr < two64 ->
      fill_symbol p (Text2.symtab_of_table nm tg t) mbase instr = symbolize p (Text2.raw_of_pst nm tg q) mbase instr.
Proof.
  intros bytes sch q s H Hlen nm tg. pose proof (Enc.encodings_ok q (Enc.final_pst_nn _ _ _ q s H)) as He.
  split; [exact He|]. exact (Text3.from_bytes nm tg bytes sch q s H Hlen He).
Qed.
Print Assumptions c11_from_bytes_closed.

(* The same for run-length-encoded lines (a 1 MiB line of one byte is one pair), any tail. *)
Theorem c11_from_parse : forall nm tg (lines : list Grammar.rle) (tail : Z) (sch : list Z) q s,
  RM.C09.Driver.drive_c lines tail sch = Ret (RM.C09.Model.ROk q, s) ->
  RM.C09.Model.size Grammar.rle Grammar.cllen lines < two32 - 1 -> Text3.enc_names_ok nm tg q ->
  exists t, Grammar.finish q = Ret t /\
    wf_file (Text2.raw_of_pst nm tg q) /\
    st_rel true (Text2.raw_of_pst nm tg q) (Text2.symtab_of_table nm tg t) /\
    forall p mbase instr, 0 <= mbase -> instr < two64 ->
      fill_symbol p (Text2.symtab_of_table nm tg t) mbase instr = symbolize p (Text2.raw_of_pst nm tg q) mbase instr.
Proof. exact Text3.from_parse. Qed.
Print Assumptions c11_from_parse.

(* What the text front-end of the correspondence driver computes ([Driver.table_of_text], extracted and run on the
   same .sym text the real parser reads): for ANY list of decisions (line recognised / line dropped as over-long)
   that C09's recogniser accepts, total length < 2^32-1, it returns a table, and symbolication on it IS [symbolize]
   on the records of the text.  The OCaml glue checks exactly this equality on every generated file (answers from the
   text = answers from the records), with nm = the number inside the rendered name and tg = the prologue size. *)
Theorem c11_text_driver_correct : forall nm tg (ds : list (bool * Grammar.rle)) q,
  RM.C09.Model.replay Grammar.rle Grammar.pst Grammar.recog_pst Grammar.bump_pst Grammar.lineno_pst
                      Grammar.init_pst ds = inl q ->
  RM.C09.Model.size Grammar.rle Grammar.cllen (map snd ds) < two32 - 1 -> Text3.enc_names_ok nm tg q ->
  exists st, RM.C11.Driver.table_of_text nm tg ds = Ret (Some st) /\
    wf_file (Text2.raw_of_pst nm tg q) /\ st_rel true (Text2.raw_of_pst nm tg q) st /\
    forall p mbase instr, 0 <= mbase -> instr < two64 ->
      fill_symbol p st mbase instr = symbolize p (Text2.raw_of_pst nm tg q) mbase instr.
Proof.
  intros nm tg ds q Hr Hsz He. destruct (Text3.from_replay nm tg ds q Hr Hsz He) as (t & Ht & Hwf & Hrel & Heq).
  exists (Text2.symtab_of_table nm tg t). split; [|split; [exact Hwf|split; [exact Hrel|exact Heq]]].
  unfold RM.C11.Driver.table_of_text. rewrite Hr, Ht. reflexivity.
Qed.
Print Assumptions c11_text_driver_correct.

(* The first clause of the property, stated of the bytes: fill_symbol on the table parsed from the
   bytes never panics, reports nothing below the module, and a reported function is a FUNC block of
   the text whose range contains the address (parameter size: its own or that of a STACK WIN record of
   the text covering the address), or a PUBLIC of the text at or below the address; base <= instruction. *)
Theorem c11_bytes_func_sound : forall nm tg (bytes : list Z) (sch : list Z) q s,
  RM.C09.Driver.drive_c (map Grammar.to_rle (fst (Grammar.split_bytes bytes [])))
                        (Z.of_nat (length (snd (Grammar.split_bytes bytes [])))) sch
    = Ret (RM.C09.Model.ROk q, s) ->
  Z.of_nat (length bytes) < two32 - 1 -> Text3.enc_names_ok nm tg q ->
  exists t, Grammar.finish q = Ret t /\
  forall p mbase instr, 0 <= mbase -> instr < two64 ->
  exists o, fill_symbol p (Text2.symtab_of_table nm tg t) mbase instr = Ret o /\
    (instr < mbase -> o = empty_out) /\
    forall name base psz, o_func o = Some (name, base, psz) ->
      mbase <= instr /\ base <= instr /\
      ((exists fr, In fr (Text.funcs_of_pst q) /\ func_covers (Text.raw_of_func nm fr) (instr - mbase) = true /\
          name = nm (Grammar.fr_name fr) /\ base = Grammar.fr_addr fr + mbase /\
          (psz = Grammar.fr_psize fr \/
           exists w, In w (rev (Grammar.p_win_fd (Grammar.close_cur q)) ++ rev (Grammar.p_win_fpo (Grammar.close_cur q))) /\
                     win_covers (Text2.Gw tg w) (instr - mbase) = true /\ psz = Grammar.wi_params w))
       \/ (exists pb, In pb (Grammar.p_publics (Grammar.close_cur q)) /\ Grammar.pb_addr pb <= instr - mbase /\
             name = nm (Grammar.pb_name pb) /\ base = Grammar.pb_addr pb + mbase /\ psz = Grammar.pb_psize pb /\
             o_src o = None /\ o_inl o = [])).
Proof.
  intros nm tg bytes sch q s H Hlen He. destruct (Text3.from_bytes nm tg bytes sch q s H Hlen He) as (t & Ht & Hwf & _ & Heq).
  exists t. split; [exact Ht|]. intros p mbase instr Hmb Hi.
  destruct (func_sound p (Text2.raw_of_pst nm tg q) mbase instr Hwf Hmb Hi) as (o & Eo & Hlow & Hf).
  exists o. rewrite (Heq p mbase instr Hmb Hi). split; [exact Eo|]. split; [exact Hlow|].
  intros name base psz Hfn. destruct (Hf name base psz Hfn) as (A & B & C). split; [exact A|]. split; [exact B|].
  destruct C as [(fr & Hin & Hc & Hn & Hb & Hps)|(pb & Hin & Ha & Hn & Hb & Hps & Hs & Hi0)].
  - left. unfold Text2.raw_of_pst in Hin. cbn [rf_funcs] in Hin. apply in_map_iff in Hin.
    destruct Hin as (fr0 & <- & Hin). exists fr0. split; [exact Hin|]. split; [exact Hc|].
    split; [exact Hn|]. split; [exact Hb|].
    destruct Hps as [Hps|(w & Hw & Hwc & Hwp)]; [left; exact Hps|right].
    unfold Text2.raw_of_pst in Hw. cbn [rf_win_fd rf_win_fpo] in Hw. rewrite <- map_app in Hw.
    apply in_map_iff in Hw. destruct Hw as (w0 & <- & Hw). exists w0. auto.
  - right. unfold Text2.raw_of_pst in Hin. cbn [rf_publics] in Hin. apply in_map_iff in Hin.
    destruct Hin as (pb0 & <- & Hin). apply in_rev in Hin. exists pb0. cbn in *. auto 10.
Qed.
Print Assumptions c11_bytes_func_sound.

(* The last clause of the property, stated of the bytes: when the records of the text do not overlap,
   fill_symbol on the table parsed from the bytes equals the linear scans over the records of the text
   (c11_equals_linear_scan composed with c11_from_bytes). *)
Theorem c11_bytes_equals_linear_scan : forall nm tg (bytes : list Z) (sch : list Z) q s,
  RM.C09.Driver.drive_c (map Grammar.to_rle (fst (Grammar.split_bytes bytes [])))
                        (Z.of_nat (length (snd (Grammar.split_bytes bytes [])))) sch
    = Ret (RM.C09.Model.ROk q, s) ->
  Z.of_nat (length bytes) < two32 - 1 -> Text3.enc_names_ok nm tg q ->
  let rf := Text2.raw_of_pst nm tg q in
  non_overlapping rf ->
  exists t, Grammar.finish q = Ret t /\
  forall p mbase instr, 0 <= mbase -> mbase <= instr < two64 ->
  exists o, fill_symbol p (Text2.symtab_of_table nm tg t) mbase instr = Ret o /\
    match ref_func rf (instr - mbase) with
    | Some fr => o = ref_fill_func rf (ref_psize rf fr (instr - mbase)) mbase (instr - mbase) fr
    | None =>
        ((forall pq, In pq (rf_publics rf) -> instr - mbase < p_addr pq) /\ o = empty_out) \/
        (exists pb, In pb (rf_publics rf) /\ p_addr pb <= instr - mbase /\
           (forall pq, In pq (rf_publics rf) -> p_addr pq <= instr - mbase -> pub_lt pb pq = false) /\
           let cut := exists fr, In fr (rf_funcs rf) /\ mk_range (fr_addr fr) (fr_size fr) <> None /\
                                 p_addr pb <= fr_addr fr <= instr - mbase in
           ((cut /\ o = empty_out) \/
            (~ cut /\ o = mk_out (Some (p_name pb, p_addr pb + mbase, p_psize pb)) None [])))
    end.
Proof.
  intros nm tg bytes sch q s H Hlen He rf Hno.
  destruct (Text3.from_bytes nm tg bytes sch q s H Hlen He) as (t & Ht & Hwf & _ & Heq).
  exists t. split; [exact Ht|]. intros p mbase instr Hmb Hi.
  destruct (equals_linear_scan p rf mbase instr Hwf Hno Hmb Hi) as (o & Eo & Hspec).
  exists o. split; [|exact Hspec]. rewrite (Heq p mbase instr Hmb (proj2 Hi)). exact Eo.
Qed.
Print Assumptions c11_bytes_equals_linear_scan.

(* Symbolizer level from bytes: a module whose SymbolFile was parsed from such a byte string meets
   [module_parsed], the hypothesis of c11_module_frame_total — so walk_stack -> fill_source_line_info ->
   Symbolizer::fill_symbol over a module list whose symbol files were all parsed from bytes never
   panics and yields the pure result for the module C08's lookup finds, inlines reversed. *)
Theorem c11_symbolizer_from_bytes : forall nm tg (bytes : list Z) (sch : list Z) q s,
  RM.C09.Driver.drive_c (map Grammar.to_rle (fst (Grammar.split_bytes bytes [])))
                        (Z.of_nat (length (snd (Grammar.split_bytes bytes [])))) sch
    = Ret (RM.C09.Model.ROk q, s) ->
  Z.of_nat (length bytes) < two32 - 1 -> Text3.enc_names_ok nm tg q ->
  exists t, Grammar.finish q = Ret t /\ forall b sz, module_parsed (b, sz, Some (Text2.symtab_of_table nm tg t)).
Proof.
  intros nm tg bytes sch q s H Hlen He.
  destruct (Text3.from_bytes nm tg bytes sch q s H Hlen He) as (t & Ht & Hwf & Hrel & _).
  exists t. split; [exact Ht|]. intros b sz. exists (Text2.raw_of_pst nm tg q). split; assumption.
Qed.
Print Assumptions c11_symbolizer_from_bytes.

(* Front-end G, Symbolizer::get_symbol_at_address(debug_file, debug_id, address) ([Driver.symbol_at]: the module of a
   (&str, DebugId) pair has base 0; only the name is returned): on any table parsed from the records it never panics
   and the name is that of a FUNC record covering the address or of a PUBLIC at or below it. *)
Theorem c11_symbol_at_sound : forall p rf st address,
  wf_file rf -> st_rel true rf st -> 0 <= address < two64 ->
  exists r, RM.C11.Driver.symbol_at p st address = Ret r /\
    forall n, r = Some n ->
      (exists fr, In fr (rf_funcs rf) /\ func_covers fr address = true /\ n = fr_name fr) \/
      (exists pb, In pb (rf_publics rf) /\ p_addr pb <= address /\ n = p_name pb).
Proof.
  intros p rf st address Hwf Hrel [Ha0 Ha]. unfold RM.C11.Driver.symbol_at.
  rewrite (table_interface p rf st 0 address Hwf Hrel (Z.le_refl 0) Ha).
  destruct (func_sound p rf 0 address Hwf (Z.le_refl 0) Ha) as (o & Eo & _ & Hf).
  rewrite Eo. cbn [obind]. eexists. split; [reflexivity|]. intros n Hn.
  destruct (o_func o) as [[[name base] ps]|] eqn:Ef; [|discriminate]. inversion Hn; subst n.
  destruct (Hf name base ps eq_refl) as (_ & _ & [(fr & Hin & Hc & Hname & _)|(pb & Hin & Hle & Hname & _)]);
    rewrite Z.sub_0_r in *.
  - left. exists fr. auto.
  - right. exists pb. auto.
Qed.
Print Assumptions c11_symbol_at_sound.

(* get_inlinee_at_depth, exactly, for EVERY FUNC block — overlapping INLINE ranges, duplicate
   (depth, address) keys, records in any order.  [kept fr] = the INLINE ranges of the block with
   non-zero size (finish_item's retain); [nearest l d x c]: c is the greatest record of l, in the
   derived order of Inlinee (depth, address, size, call_file, call_line, origin_id), among those whose
   (depth, address) is <= (d, x) — or None when there is none.  Such a c always exists, is unique, and
   the lookup on the finished Function answers [giad_check d x c]: c if it has depth d and
   x < c.address + c.size (representable), else None.  Neither the binary search nor the order of
   the records in the file appears in the statement.  With duplicate keys the answer is still unique. *)
Theorem c11_inlinee_lookup_exact : forall fr d x,
  (exists c, nearest (kept fr) d x c) /\
  (forall c c', nearest (kept fr) d x c -> nearest (kept fr) d x c' -> c = c') /\
  forall c, nearest (kept fr) d x c ->
    get_inlinee_at_depth (fn_inls (fin_func true fr)) d x = Ret (giad_check d x c).
Proof. intros fr d x. split; [apply nearest_exists|]. split; [apply nearest_unique|apply inlinee_lookup_exact]. Qed.
Print Assumptions c11_inlinee_lookup_exact.

(* The inline frames, with the chain given declaratively, for ALL files (overlapping INLINE ranges and
   duplicate keys included).  When fill_symbol emits inline frames they are [frames_spec] of a chain whose
   element k, for every k up to and including the lookup that ends the depth loop (k = length chain, where
   the answer is None), is [giad_check k addr] of THE greatest kept record of the FUNC block at or below
   (k, addr) in Inlinee's derived order: the record itself when it has depth k and covers addr, else the
   chain ends.  Where c11_inline_chain says "what the lookup finds", this speaks of the records of the file alone. *)
Theorem c11_inline_chain_exact : forall p rf mbase instr,
  wf_file rf -> 0 <= mbase -> instr < two64 ->
  exists st o, build_symtab rf = Ret st /\ symbolize p rf mbase instr = Ret o /\
    (o_inl o <> [] ->
     exists fr chain, In fr (rf_funcs rf) /\ func_covers fr (instr - mbase) = true /\
       (forall k c, (k <= length chain)%nat -> nearest (kept fr) (Z.of_nat k) (instr - mbase) c ->
                    nth_error chain k = giad_check (Z.of_nat k) (instr - mbase) c) /\
       o_inl o = frames_spec st chain (rm_get (fn_lines (fin_func true fr)) (instr - mbase))).
Proof.
  intros p rf mbase instr Hwf Hmb Hin.
  destruct (symbolize_cases true p rf mbase instr Hwf Hmb Hin) as (st & o & Hrel & Hb & Hs & Hc).
  exists st, o. split; [exact Hb|]. split; [exact Hs|]. intros Hne.
  destruct Hc as [[Hlt ->]|[(Hge & fr & Hfr & Hcov & Ha & _ & ->)|(Hge & Hg & ->)]].
  - exfalso. apply Hne. reflexivity.
  - destruct (fill_func_spec true rf st mbase (instr - mbase) fr Hwf Hrel Hfr Hmb Ha) as (_ & _ & Hinl).
    exists fr, (inl_chain (fin_func true fr) (instr - mbase)).
    split; [assumption|]. split; [assumption|]. split; [|exact Hinl].
    intros k c Hk Hc. apply inl_chain_exact; assumption.
  - exfalso. apply Hne. apply (proj2 (fill_public_shape st mbase (instr - mbase))).
Qed.
Print Assumptions c11_inline_chain_exact.

(* Duplicate (depth, address) keys: among the non-empty INLINE ranges of the block with the same depth
   and address as the answer, the answer has the greatest (size, call_file, call_line, origin_id). *)
Theorem c11_inlinee_duplicates : forall fr d x e e',
  get_inlinee_at_depth (fn_inls (fin_func true fr)) d x = Ret (Some e) ->
  In e' (fr_inls fr) -> 0 < i_size e' -> i_depth e' = i_depth e -> i_addr e' = i_addr e ->
  lex_lt [i_size e; i_cfile e; i_cline e; i_origin e] [i_size e'; i_cfile e'; i_cline e'; i_origin e'] = false.
Proof.
  intros fr d x e e' Hg Hin Hsz Hd Ha. destruct (nearest_exists fr d x) as [c Hc].
  rewrite (inlinee_lookup_exact fr d x c Hc) in Hg. inversion Hg as [Hchk]. clear Hg.
  destruct c as [c|]; [|discriminate]. cbn [giad_check] in Hchk.
  assert (c = e).
  { destruct (negb (i_depth c =? d)); [discriminate|]. destruct (checked_add 64 (i_addr c) (i_size c)); [|discriminate].
    destruct (x <? z); [|discriminate]. inversion Hchk. reflexivity. }
  subst c. destruct Hc as (_ & Hk & Hmax).
  assert (Hk' : key_le e' d x) by (unfold key_le in *; lia).
  assert (Hin' : In e' (kept fr)).
  { unfold kept. apply filter_In. split; [exact Hin|]. apply Z.ltb_lt. exact Hsz. }
  specialize (Hmax e' Hin' Hk'). unfold inl_lt, inl_key in Hmax. cbn [lex_lt] in Hmax |- *.
  rewrite Hd, Ha, !Z.ltb_irrefl, !Z.eqb_refl in Hmax. cbn [orb andb] in Hmax. exact Hmax.
Qed.
Print Assumptions c11_inlinee_duplicates.

(* The order of the INLINE records inside a FUNC block (and of the ranges inside one INLINE record) is
   irrelevant: two files that differ only by permuting the INLINE ranges of their FUNC blocks parse to
   the same Function values (the derived order is total, so the sorted vector is unique) and give the
   same symbolication — parse outcome included — at every address, module base and profile. *)
Theorem c11_inline_order_irrelevant : forall p rf rf' mbase instr,
  rf_files rf = rf_files rf' -> rf_origins rf = rf_origins rf' -> rf_publics rf = rf_publics rf' ->
  rf_win_fd rf = rf_win_fd rf' -> rf_win_fpo rf = rf_win_fpo rf' ->
  Forall2 same_up_to_inline_order (rf_funcs rf) (rf_funcs rf') ->
  symbolize p rf mbase instr = symbolize p rf' mbase instr.
Proof.
  intros p rf rf' mbase instr A B C D E F. unfold symbolize, symbolize_gen, build_symtab_gen.
  rewrite A, B, C, D, E, (finish_funcs_perm _ _ F). reflexivity.
Qed.
Print Assumptions c11_inline_order_irrelevant.

(* ---- F-C11a: before the fix, an INLINE range of size zero hid the enclosing range *)
Definition f11a_witness : raw_file :=
  mk_raw [(1, 1)] [(1, 11); (2, 12)] []
         [mk_fraw 2 8 4 5 [] [mk_inl 0 2 6 1 20 1; mk_inl 0 4 0 1 21 2]] [] [].
Theorem c11_zero_size_inline_unfixed_refuted :
  wf_file f11a_witness /\
  inl_covers 0 4 (mk_inl 0 2 6 1 20 1) = true /\
  symbolize_gen false Debug f11a_witness 0 4 = Ret (mk_out (Some (5, 2, 4)) None []) /\
  symbolize Debug f11a_witness 0 4 = Ret (mk_out (Some (5, 2, 4)) (Some (1, 20, 2)) [(11, None, None)]).
Proof.
  split; [apply wf_fileb_ok; vm_compute; reflexivity|].
  split; [|split]; vm_compute; reflexivity.
Qed.
Print Assumptions c11_zero_size_inline_unfixed_refuted.

Definition nv_file : raw_file :=
  mk_raw [(1, 7); (2, 8)] [(1, 21); (2, 22); (3, 23)]
         [mk_pub 8 3 0; mk_pub 100 9 4; mk_pub 100 8 0]
         [mk_fraw 16 32 4 5
            [mk_line 16 16 1 10; mk_line 32 16 2 11; mk_line 40 0 1 99]
            [mk_inl 1 20 4 2 71 2; mk_inl 0 16 16 1 70 1; mk_inl 2 21 2 1 72 3; mk_inl 0 40 0 1 73 1];
          mk_fraw 60 0 0 6 [] []]
         [mk_win 16 32 12 0; mk_win 24 24 16 1] [mk_win 20 4 20 0].
Example c11_nonvacuous_wf : wf_file nv_file.
Proof. apply wf_fileb_ok. vm_compute. reflexivity. Qed.
Definition nv_file2 : raw_file :=
  mk_raw [(1, 7)] [(1, 21); (2, 22)] [mk_pub 8 3 0; mk_pub 90 9 4]
         [mk_fraw 16 32 4 5 [mk_line 16 16 1 10; mk_line 32 16 1 11; mk_line 40 0 1 99]
            [mk_inl 1 20 4 1 71 2; mk_inl 0 16 16 1 70 1; mk_inl 0 40 0 1 73 1; mk_inl 0 36 4 1 74 2];
          mk_fraw 60 0 0 6 [] []; mk_fraw 64 8 0 7 [] []] [mk_win 16 8 12 0; mk_win 40 0 1 0] [mk_win 20 8 20 0; mk_win 28 4 24 1].
Example c11_nonvacuous_nonoverlap :
  wf_file nv_file2 /\ non_overlapping nv_file2 /\
  ref_func nv_file2 21 = Some (mk_fraw 16 32 4 5 [mk_line 16 16 1 10; mk_line 32 16 1 11; mk_line 40 0 1 99]
            [mk_inl 1 20 4 1 71 2; mk_inl 0 16 16 1 70 1; mk_inl 0 40 0 1 73 1; mk_inl 0 36 4 1 74 2]) /\
  symbolize Debug nv_file2 4096 (4096 + 21) =
    Ret (mk_out (Some (5, 4112, 12)) (Some (7, 70, 4112)) [(21, Some 7, Some 71); (22, Some 7, Some 10)]) /\
  symbolize Debug nv_file2 4096 (4096 + 25) = Ret (mk_out (Some (5, 4112, 20)) (Some (7, 70, 4112)) [(21, Some 7, Some 10)]) /\
  symbolize Debug nv_file2 4096 (4096 + 95) = Ret (mk_out (Some (9, 4186, 4)) None []) /\
  symbolize Debug nv_file2 4096 (4096 + 80) = Ret empty_out.
Proof.
  split; [apply wf_fileb_ok; vm_compute; reflexivity|].
  split; [|repeat split; vm_compute; reflexivity].
  unfold non_overlapping, nv_file2, func_dj, line_dj, inl_dj, win_dj, occ_disjoint; cbn.
  repeat (first [apply Forall_nil | apply Forall_cons | split]); cbn; try lia; try (right; lia).
Qed.
Example c11_nonvacuous_run :
  symbolize Debug nv_file 18446744073709550000 (18446744073709550000 + 21) =
    Ret (mk_out (Some (5, 18446744073709550016, 12)) (Some (7, 70, 18446744073709550016))
                [(21, Some 8, Some 71); (22, Some 7, Some 72); (23, Some 7, Some 10)]) /\
  frame_inlines (mk_out None None [(21, Some 8, Some 71); (22, Some 7, Some 72); (23, Some 7, Some 10)]) =
    [(23, Some 7, Some 10); (22, Some 7, Some 72); (21, Some 8, Some 71)] /\
  symbolize Release nv_file 4096 (4096 + 104) = Ret (mk_out (Some (9, 4196, 4)) None []) /\
  symbolize Debug nv_file 4096 (4096 + 50) = Ret empty_out.
Proof. repeat split; vm_compute; reflexivity. Qed.

(* text: "FUNC 10 8 0 f" / "10 4 7 1" / "INLINE 0 3 1 2 10 4" / "FUNC m 20 8 0 g"; names by first byte *)
Definition nv_text : list Grammar.rle :=
  map (map (fun b => (b, 1)))
      [[70;85;78;67;32;49;48;32;56;32;48;32;102];
       [49;48;32;52;32;55;32;49];
       [73;78;76;73;78;69;32;48;32;51;32;49;32;50;32;49;48;32;52];
       [70;85;78;67;32;109;32;50;48;32;56;32;48;32;103]].
Definition nv_nm (s : Grammar.rle) : Z := match s with (b, _) :: _ => b | [] => 0 end.
Example c11_nonvacuous_from_text :
  exists q t,
    RM.C09.Model.fold_recog Grammar.rle Grammar.pst Grammar.recog_pst Grammar.lineno_pst Grammar.init_pst nv_text = inl q /\
    Grammar.finish q = Ret t /\ Text.wf_text_funcs nv_nm q /\ Text.names_injective nv_nm q /\
    map fst (Grammar.t_funcs t) = [(16, 23); (32, 39)] /\
    option_map (fun sf => (Grammar.sf_lines sf, Grammar.sf_inls sf)) (rm_get (Grammar.t_funcs t) 17) =
      Some ([((16, 19), mk_line 16 4 1 7)], [mk_inl 0 16 4 1 3 2]).
Proof.
  eexists. eexists. split; [vm_compute; reflexivity|]. split; [vm_compute; reflexivity|].
  split; [|split; [|split; vm_compute; reflexivity]].
  - apply (forallb_Forall _ _ _ wf_frawb_ok). vm_compute. reflexivity.
  - unfold Text.names_injective. cbn. intros a b [<-|[<-|[]]] [<-|[<-|[]]]; cbn; intros H; try reflexivity; discriminate.
Qed.

(* text: FILE 1 x / PUBLIC 8 0 a / FUNC 10 8 0 f / 10 4 7 1 / INLINE_ORIGIN 2 o / INLINE 0 3 1 2 10 4 / PUBLIC m 30 0 b *)
Definition nv_text2 : list Grammar.rle :=
  map (map (fun b => (b, 1)))
      [[70;73;76;69;32;49;32;120];
       [80;85;66;76;73;67;32;56;32;48;32;97];
       [70;85;78;67;32;49;48;32;56;32;48;32;102];
       [49;48;32;52;32;55;32;49];
       [73;78;76;73;78;69;95;79;82;73;71;73;78;32;50;32;111];
       [73;78;76;73;78;69;32;48;32;51;32;49;32;50;32;49;48;32;52];
       [80;85;66;76;73;67;32;109;32;51;48;32;48;32;98]].
Definition nv_tg (w : Grammar.win_info) : Z := Grammar.wi_prolog w.
Example c11_nonvacuous_from_text_whole :
  exists q t,
    RM.C09.Model.fold_recog Grammar.rle Grammar.pst Grammar.recog_pst Grammar.lineno_pst Grammar.init_pst nv_text2 = inl q /\
    Grammar.finish q = Ret t /\ Text2.enc_ok nv_nm nv_tg q /\
    fill_symbol Debug (Text2.symtab_of_table nv_nm nv_tg t) 4096 (4096 + 17) =
      Ret (mk_out (Some (102, 4112, 0)) (Some (120, 3, 4112)) [(111, Some 120, Some 7)]) /\
    fill_symbol Debug (Text2.symtab_of_table nv_nm nv_tg t) 4096 (4096 + 50) =
      Ret (mk_out (Some (98, 4144, 0)) None []).
Proof.
  eexists. eexists. split; [vm_compute; reflexivity|]. split; [vm_compute; reflexivity|].
  split; [|split; vm_compute; reflexivity].
  constructor.
  - apply wf_fileb_ok. vm_compute. reflexivity.
  - unfold Text.names_injective. cbn. intros a b [<-|[]] [<-|[]] _. reflexivity.
  - cbn. intros a b [<-|[<-|[]]] [<-|[<-|[]]]; vm_compute; reflexivity.
  - intros w sz. reflexivity.
  - cbn. intros a b (w0 & [] & _).
  - cbn. intros a b (w0 & [] & _).
Qed.

(* the bytes of nv_text2 (lines joined by '\n') through the whole parse loop with reads of 3 and 5
   bytes: Ok, shorter than 2^32-1, the encodings fit — the hypotheses of c11_from_bytes are met *)
Definition nv_bytes : list Z :=
  Grammar.join_bytes
      [[70;73;76;69;32;49;32;120];
       [80;85;66;76;73;67;32;56;32;48;32;97];
       [70;85;78;67;32;49;48;32;56;32;48;32;102];
       [49;48;32;52;32;55;32;49];
       [73;78;76;73;78;69;95;79;82;73;71;73;78;32;50;32;111];
       [73;78;76;73;78;69;32;48;32;51;32;49;32;50;32;49;48;32;52;32;49;54;32;50];
       [80;85;66;76;73;67;32;109;32;51;48;32;48;32;98]] [].
Example c11_nonvacuous_from_bytes :
  exists q s,
    RM.C09.Driver.drive_c (map Grammar.to_rle (fst (Grammar.split_bytes nv_bytes [])))
                          (Z.of_nat (length (snd (Grammar.split_bytes nv_bytes [])))) [3; 5]
      = Ret (RM.C09.Model.ROk q, s) /\
    Z.of_nat (length nv_bytes) < two32 - 1 /\ Text3.enc_names_ok nv_nm nv_tg q /\
    Text3.pst_rng 104 q /\
    map (fun f => length (Grammar.fr_inls f)) (Text.funcs_of_pst q) = [2%nat] /\
    non_overlapping (Text2.raw_of_pst nv_nm nv_tg q) /\
    map (Enc.nm_of q) (Enc.names_of q) = [2; 1; 0].
Proof.
  eexists. eexists. split; [vm_compute; reflexivity|]. split; [vm_compute; reflexivity|].
  split; [|split; [|split; [vm_compute; reflexivity|split; [|vm_compute; reflexivity]]]].
  - constructor.
    + unfold Text.names_injective. cbn. intros a b [<-|[]] [<-|[]] _. reflexivity.
    + cbn. intros a b [<-|[<-|[]]] [<-|[<-|[]]]; vm_compute; reflexivity.
    + intros w sz. reflexivity.
    + cbn. intros a b (w0 & [] & _).
    + cbn. intros a b (w0 & [] & _).
  - apply (Text3.pst_rng_mono (0 + RM.C09.Model.size Grammar.rle Grammar.cllen
                                     (map Grammar.to_rle (fst (Grammar.split_bytes nv_bytes []))))).
    + vm_compute. discriminate.
    + apply (Text3.fold_recog_rng _ 0 Grammar.init_pst); [lia|exact Text3.init_pst_rng|vm_compute; reflexivity].
  - unfold non_overlapping, func_dj, line_dj, inl_dj, win_dj, occ_disjoint; cbn.
    repeat (first [apply Forall_nil | apply Forall_cons | split]); cbn; try lia; try (right; lia).
Qed.

(* a FUNC block with three INLINE ranges sharing (depth 0, address 16) — sizes 4, 8, 8, call lines
   30, 10, 20 — plus an empty one: the greatest in the derived order, (0, 16, 8, 1, 20, 2), is [nearest] at
   address 17 and is what the lookup returns; at 30 it is still nearest but does not cover: None *)
Definition nv_dup : func_raw :=
  mk_fraw 16 16 0 5 [] [mk_inl 0 16 8 1 20 2; mk_inl 0 16 4 1 30 2; mk_inl 0 16 0 1 99 2; mk_inl 0 16 8 1 10 2].
Example c11_nonvacuous_duplicates :
  nearest (kept nv_dup) 0 17 (Some (mk_inl 0 16 8 1 20 2)) /\
  get_inlinee_at_depth (fn_inls (fin_func true nv_dup)) 0 17 = Ret (Some (mk_inl 0 16 8 1 20 2)) /\
  nearest (kept nv_dup) 0 30 (Some (mk_inl 0 16 8 1 20 2)) /\
  get_inlinee_at_depth (fn_inls (fin_func true nv_dup)) 0 30 = Ret None /\
  same_up_to_inline_order nv_dup (mk_fraw 16 16 0 5 [] (rev (fr_inls nv_dup))).
Proof.
  assert (N : forall x, 16 <= x -> nearest (kept nv_dup) 0 x (Some (mk_inl 0 16 8 1 20 2))).
  { intros x Hx. cbn. split; [auto|]. split; [unfold key_le; cbn; lia|].
    intros e [<-|[<-|[<-|[]]]] _; vm_compute; reflexivity. }
  split; [apply N; lia|]. split; [vm_compute; reflexivity|]. split; [apply N; lia|]. split; [vm_compute; reflexivity|].
  unfold same_up_to_inline_order. cbn. repeat split. apply (Permutation_rev (fr_inls nv_dup)).
Qed.

(* decisions with a dropped line: "FUNC 10 8 0 f" recognised, a 200000-byte line dropped by the recovery,
   "10 4 7 1" recognised as a line record of the FUNC block that is still open; the hypotheses of
   c11_parser_records_in_range / c11_encodings_exist / c11_text_driver_correct are met and the text driver answers *)
Definition nv_ds : list (bool * Grammar.rle) :=
  [(false, map (fun b => (b, 1)) [70;85;78;67;32;49;48;32;56;32;48;32;102]);
   (true, [(97, 200000)]);
   (false, map (fun b => (b, 1)) [49;48;32;52;32;55;32;49])].
Example c11_nonvacuous_replay :
  exists q st,
    RM.C09.Model.replay Grammar.rle Grammar.pst Grammar.recog_pst Grammar.bump_pst Grammar.lineno_pst
                        Grammar.init_pst nv_ds = inl q /\
    RM.C09.Model.size Grammar.rle Grammar.cllen (map snd nv_ds) = 200024 /\
    Grammar.p_lines q = 3 /\
    RM.C11.Driver.table_of_text (Enc.nm_of q) (Enc.tg_of q) nv_ds = Ret (Some st) /\
    fill_symbol Release st 4096 (4096 + 17) = Ret (mk_out (Some (0, 4112, 0)) None []).
Proof.
  eexists. eexists. split; [vm_compute; reflexivity|]. split; [vm_compute; reflexivity|].
  split; [vm_compute; reflexivity|]. split; [vm_compute; reflexivity|vm_compute; reflexivity].
Qed.

(* three lookups (depths 0, 1 and the failing depth 2) at address 21 of nv_file2, with any extra fuel;
   the first FUNC of nv_file2 is isolated; a module ending at 2^64-1 between two others is found *)
Example c11_nonvacuous_lookups :
  (do st <- build_symtab nv_file2; fill_symbol_n Debug 7 st 4096 (4096 + 21)) =
    Ret (mk_out (Some (5, 4112, 12)) (Some (7, 70, 4112)) [(21, Some 7, Some 71); (22, Some 7, Some 10)], 3%nat) /\
  (do st <- build_symtab nv_file2; fill_symbol_n Debug 0 st 4096 (4096 + 45)) = Ret (mk_out (Some (5, 4112, 4)) (Some (7, 11, 4128)) [], 1%nat) /\
  (do st <- build_symtab nv_file2; fill_symbol_n Debug 0 st 4096 (4096 + 95)) = Ret (mk_out (Some (9, 4186, 4)) None [], 0%nat).
Proof. repeat split; vm_compute; reflexivity. Qed.
Example c11_nonvacuous_isolated :
  exists fr l2, rf_funcs nv_file2 = [] ++ fr :: l2 /\ func_covers fr 21 = true /\ func_isolated fr ([] ++ l2).
Proof.
  eexists. eexists. split; [reflexivity|]. split; [vm_compute; reflexivity|].
  intros fr' r r' Hin Hr Hr'. cbn in Hin. destruct Hin as [<-|[<-|[]]]; vm_compute in Hr, Hr'; try discriminate.
  inversion Hr; inversion Hr'; subst. reflexivity.
Qed.
Example c11_nonvacuous_module_top :
  let mods : list module := [(0, 4096, None); (18446744073709551515, 100, None); (18446744073709551000, 100, None)] in
  Forall wf_module mods /\
  (exists tbl, mod_table mods = Ret tbl /\ rm_get tbl 18446744073709551614 = Some 1 /\
     frame_of Debug tbl mods 18446744073709551614 = Ret (Some (1, empty_out)) /\
     rm_get tbl 18446744073709551615 = None).
Proof.
  split.
  - unfold wf_module, u64, two64. repeat (first [apply Forall_nil | apply Forall_cons | split]); cbn; lia.
  - eexists. split; [vm_compute; reflexivity|]. repeat split; vm_compute; reflexivity.
Qed.

(* The lookup functions are COMPILED from the Rust source (translate/c11_compile.py ->
   Gen/C11Src.v, vocabulary C11/Prims.v) — not a template with holes: the bodies of Function::get_inlinee_at_depth,
   get_outermost_sourceloc, get_innermost_sourceloc, SymbolFile::find_nearest_public and SymbolFile::fill_symbol
   (with its `for depth in 1..` loop as a generated Fixpoint over fuel, the FrameSymbolizer callbacks as updates
   of a sym_out, `return` / `?` / `break` as early exits, u64 `+` / `-` as chk_add / chk_sub, `v[i]` and
   `index - 1` as panic sites) are parsed and translated statement by statement. *)

(* every compiled function equals the hand-written model for ALL arguments (results and panics alike); for
   fill_symbol: whenever the fuel covers the INLINE ranges of the function found and the model does not run out of
   its own fuel.  The compiled `instr - mbase` (a u64 subtraction the model writes as plain `-`) cannot trap; neither can
   the `- 1` of the two memory_range functions, nor the `start <= end` assertion of Range::new (for non-negative fields).
   First conjunct: minidump-unwind's fill_source_line_info with Symbolizer::fill_symbol inside (module lookup, the module
   attached before and whether or not symbols are found, the cached symbol file's fill_symbol at the module's base, the
   reversal), run on a fresh StackFrame = [frame_of], the function of c11_module_lookup_compose / c11_symbolizer_cached_frame.
   Second conjunct: insert_win_stack_info (the overlap repair of STACK WIN records, with its `last_mut()` borrow, the `as u32`
   truncation and the `unwrap`) = the model's win_insert on the reversed vector: the guarded u64 subtraction cannot trap.
   Third conjunct: the Line::Function arm of SymbolParser::finish_item (parser side), compiled with its closures: pushing
   onto self.functions what [finish_func] returns; after the `size > 0` filter the closure's `l.size as u64 - 1` cannot trap. *)
Theorem c11_compiled_source_tie :
  (forall p fuel tbl mods instr, instr < two64 ->
     (forall idx b sz st, rm_get tbl instr = Some idx -> nth_error mods (Z.to_nat idx) = Some (b, sz, Some st) ->
        0 <= b /\ SrcTie.fuel_covers st fuel /\ fill_symbol p st b instr <> OutOfFuel) ->
     C11Src.src_fill_source_line_info p fuel (Prims.mk_sframe instr None empty_out) (tbl, mods) =
     do r <- frame_of p tbl mods instr;
     Ret (match r with
          | None => Prims.mk_sframe instr None empty_out
          | Some (idx, o) => Prims.mk_sframe instr (Some idx) o
          end)) /\
  (forall p v w, u64 (w_addr w) -> 0 <= w_size w -> Forall (fun e : range * win_rec => 0 <= w_addr (snd e)) v ->
     C11Src.src_insert_win_stack_info p v w = do acc <- win_insert (rev v) w; Ret (rev acc)) /\
  (forall p acc cur lines inls, u64 (fn_addr cur) -> u32 (fn_size cur) -> Forall wf_line lines ->
     C11Src.src_finish_function p acc cur lines inls =
     do r <- finish_func (mk_fraw (fn_addr cur) (fn_size cur) (fn_psize cur) (fn_name cur) lines inls);
     Ret (acc ++ match r with Some e => [e] | None => [] end)) /\
  (forall p f, 0 <= fn_addr f -> 0 <= fn_size f ->
     C11Src.src_func_memory_range p f = Ret (mk_range (fn_addr f) (fn_size f))) /\
  (forall p w, 0 <= w_addr w -> 0 <= w_size w -> C11Src.src_win_memory_range p w = Ret (win_range w)) /\
  (forall p f depth addr, C11Src.src_get_inlinee_at_depth p f depth addr =
     do r <- get_inlinee_at_depth (fn_inls f) depth addr; Ret (option_map SrcTie.giad_tuple r)) /\
  (forall p f addr, C11Src.src_get_outermost_sourceloc p f addr =
     do r <- get_outermost_sourceloc f addr; Ret (option_map SrcTie.outer_tuple r)) /\
  (forall p f addr, C11Src.src_get_innermost_sourceloc p f addr =
     Ret (option_map (fun l => (l_file l, l_line l, l_addr l)) (rm_get (fn_lines f) addr))) /\
  (forall p st addr, C11Src.src_find_nearest_public p st addr = Ret (find_nearest_public (st_publics st) addr)) /\
  (forall p st addr f fuel depth frame org, C11Src.src_fill_symbol_loop p fuel st addr f depth frame org =
     do chain <- inline_loop p fuel (fn_inls f) addr depth;
     Ret (SrcTie.add_frames frame (SrcTie.emit_calls st org chain), SrcTie.last_org org chain)) /\
  (forall p fuel st mbase instr, 0 <= mbase -> instr < two64 ->
     (forall f, rm_get (st_funcs st) (instr - mbase) = Some f -> (length (fn_inls f) <= fuel)%nat) ->
     fill_symbol p st mbase instr <> OutOfFuel ->
     C11Src.src_fill_symbol p fuel st mbase instr = fill_symbol p st mbase instr).
Proof.
  split; [exact SrcTie.src_fill_source_line_info_eq|].
  split; [exact SrcTie.src_insert_win_stack_info_eq|]. split; [exact SrcTie.src_finish_function_eq|].
  split; [exact SrcTie.src_func_memory_range_eq|]. split; [exact SrcTie.src_win_memory_range_eq|].
  split; [exact SrcTie.src_get_inlinee_at_depth_eq|]. split; [exact SrcTie.src_get_outermost_sourceloc_eq|].
  split; [exact SrcTie.src_get_innermost_sourceloc_eq|]. split; [exact SrcTie.src_find_nearest_public_eq|].
  split; [exact SrcTie.src_fill_symbol_loop_eq|]. exact SrcTie.src_fill_symbol_eq.
Qed.
Print Assumptions c11_compiled_source_tie.

(* hence, for every well-formed file: the function compiled from the source of SymbolFile::fill_symbol, run on the
   parsed table with any fuel that covers the table's FUNCs, IS [symbolize] (so c11_func_sound, c11_public_rule,
   c11_line_sound, c11_inline_chain, c11_equals_linear_scan ... are theorems about the compiled source), and it
   returns: no overflow trap, no index panic, the loop ends.  Prims.src_fuel st is such a fuel. *)
Theorem c11_compiled_fill_symbol : forall p fuel rf st mbase instr,
  wf_file rf -> 0 <= mbase -> instr < two64 ->
  build_symtab rf = Ret st -> SrcTie.fuel_covers st fuel ->
  C11Src.src_fill_symbol p fuel st mbase instr = symbolize p rf mbase instr /\
  exists o, C11Src.src_fill_symbol p fuel st mbase instr = Ret o.
Proof.
  intros p fuel rf st mbase instr Hwf Hmb Hin Hst Hfuel. destruct (total p rf mbase instr Hwf Hmb Hin) as [o Ho].
  assert (Hfs : fill_symbol p st mbase instr = Ret o).
  { unfold symbolize, symbolize_gen in Ho. fold build_symtab in Ho. rewrite Hst in Ho. exact Ho. }
  assert (E : C11Src.src_fill_symbol p fuel st mbase instr = fill_symbol p st mbase instr).
  { apply SrcTie.src_fill_symbol_eq; try assumption.
    - intros f Hf. destruct (rm_get_in _ _ _ Hf) as (r & Hr & _). exact (Hfuel r f Hr).
    - rewrite Hfs. discriminate. }
  split; [|exists o; rewrite E; exact Hfs].
  rewrite E, Hfs. symmetry. exact Ho.
Qed.
Print Assumptions c11_compiled_fill_symbol.

(* the parse side: building the table with the compiled finish_item arm (Driver.table_of_src, the table the
   correspondence run prints) is build_symtab, for every well-formed file and both profiles: no trap in the compiled
   closure's `size - 1`, no failing Range::new *)
Theorem c11_compiled_build_symtab : forall p rf, wf_file rf -> Driver.table_of_src p rf = build_symtab rf.
Proof.
  intros p rf (Hf & _ & Hfd & Hfpo). unfold Driver.table_of_src, build_symtab, build_symtab_gen.
  rewrite SrcTie.src_finish_funcs_eq by exact Hf. cbn [app].
  rewrite !SrcTie.src_win_collect_eq by (try assumption; constructor). cbn [rev].
  destruct (finish_funcs_gen true (rf_funcs rf)); reflexivity.
Qed.
Print Assumptions c11_compiled_build_symtab.

(* the Symbolizer level, compiled: for every module list whose symbol tables were parsed from well-formed files and every
   fuel covering them, the compiled fill_source_line_info (module lookup, Symbolizer::fill_symbol, SymbolFile::fill_symbol,
   reversal) on a fresh StackFrame returns — no panic at any of its sites — and the frame is the pure result that
   c11_module_frame_total gives for [frame_of]: the module found attached, fill_pure at that module's base, inlines reversed *)
Theorem c11_compiled_frame_total : forall p fuel (mods : list module) instr,
  Forall wf_module mods -> Forall module_parsed mods -> instr < two64 ->
  (forall b sz st, In (b, sz, Some st) mods -> SrcTie.fuel_covers st fuel) ->
  exists tbl, mod_table mods = Ret tbl /\
    C11Src.src_fill_source_line_info p fuel (Prims.mk_sframe instr None empty_out) (tbl, mods) =
      Ret (match rm_get tbl instr with
           | None => Prims.mk_sframe instr None empty_out
           | Some idx =>
               match nth_error mods (Z.to_nat idx) with
               | Some (b, _, Some st) =>
                   let o := fill_pure st b instr in
                   Prims.mk_sframe instr (Some idx) (mk_out (o_func o) (o_src o) (rev (o_inl o)))
               | _ => Prims.mk_sframe instr (Some idx) empty_out
               end
           end).
Proof.
  intros p fuel mods instr Hwf Hp Hi Hfuel. destruct (module_frame_total p mods instr Hwf Hp Hi) as (tbl & Et & Hf).
  exists tbl. split; [exact Et|].
  rewrite SrcTie.src_fill_source_line_info_eq; [rewrite Hf; cbn [obind]| exact Hi |].
  - destruct (rm_get tbl instr) as [idx|]; [|reflexivity].
    destruct (nth_error mods (Z.to_nat idx)) as [[[b sz] [st|]]|]; reflexivity.
  - intros idx b sz st _ En. pose proof (nth_error_In _ _ En) as Hin.
    rewrite Forall_forall in Hwf, Hp. destruct (Hwf _ Hin) as [[Hb _] _]. destruct (Hp _ Hin) as (rf & Hrf & Hrel).
    cbn [fst snd] in *. split; [exact Hb|]. split; [exact (Hfuel b sz st Hin)|].
    rewrite (fill_ret true p rf st b instr Hrf Hrel Hb Hi). discriminate.
Qed.
Print Assumptions c11_compiled_frame_total.

Theorem c11_compiled_driver_fuel : forall st, SrcTie.fuel_covers st (Prims.src_fuel st).
Proof. exact SrcTie.src_fuel_covers. Qed.
Print Assumptions c11_compiled_driver_fuel.

(* the compiled function on nv_file2: two inline frames at 21 (lookups at depth 1 and 2: fuel 2 is needed and
   fuel 1 is not enough — the fuel hypothesis is not idle), a line without inlines at 45, the PUBLIC fallback at 95 *)
Example c11_nonvacuous_compiled :
  exists st, build_symtab nv_file2 = Ret st /\ SrcTie.fuel_covers st 3 /\ Prims.src_fuel st = 3%nat /\
    C11Src.src_fill_symbol Debug 3 st 4096 (4096 + 21) =
      Ret (mk_out (Some (5, 4112, 12)) (Some (7, 70, 4112)) [(21, Some 7, Some 71); (22, Some 7, Some 10)]) /\
    C11Src.src_fill_symbol Debug 2 st 4096 (4096 + 21) = C11Src.src_fill_symbol Debug 3 st 4096 (4096 + 21) /\
    C11Src.src_fill_symbol Debug 1 st 4096 (4096 + 21) = OutOfFuel /\
    C11Src.src_fill_symbol Release 3 st 4096 (4096 + 45) = Ret (mk_out (Some (5, 4112, 4)) (Some (7, 11, 4128)) []) /\
    C11Src.src_fill_symbol Release 3 st 4096 (4096 + 95) = Ret (mk_out (Some (9, 4186, 4)) None []) /\
    C11Src.src_fill_symbol Release 3 st 4096 4095 = Ret empty_out.
Proof.
  eexists. split; [vm_compute; reflexivity|]. split; [exact (SrcTie.src_fuel_covers _)|].
  repeat split; vm_compute; reflexivity.
Qed.

(* The Symbolizer level composed with C12's model of the symbol cache (C11/Session.v).
   A session = one Symbolizer, a module list whose modules the supplier knows (SymOk st), does not know
   (SymMissing -> Err(NotFound)) or has an unparseable file for (SymCorrupt -> Err(ParseError)), and a sequential
   client issuing one lookup per frame (C12's configuration with one task, key = position in the module list). *)

(* C12's theorems at the session.  The schedule [session_sched] finishes it; in ANY schedule that finishes, the client
   holds one result per lookup, in order, each the supplier's single answer for that module (so a module without symbols
   or with a corrupt file never yields a table, and a module with symbols always yields its own); pending_stats:
   requested = processed = number of distinct modules looked up; every module looked up was fetched exactly once. *)
Theorem c11_symbolizer_session : forall (mods : list Session.smodule) (keys : list nat),
  let c := Session.session_cfg mods keys in
  C12.Model.all_done c (Session.session_end mods keys) = true /\
  forall sched, C12.Model.all_done c (C12.Model.run c sched) = true ->
    map fst (C12.Model.results (C12.Model.sh (C12.Model.run c sched)) 0%nat) = keys /\
    (forall i k o, C12.Model.task_result (C12.Model.run c sched) 0%nat i = Some (k, o) ->
       nth_error keys i = Some k /\ o = C12.Model.outc c k) /\
    C12.Model.requested (C12.Model.run c sched) = length (nodup Nat.eq_dec keys) /\
    C12.Model.processed (C12.Model.run c sched) = length (nodup Nat.eq_dec keys) /\
    (forall k, In k keys -> C12.Model.supplier_calls (C12.Model.run c sched) k = 1%nat).
Proof. intros mods keys c. split; [exact (Proofs11.session_finishes mods keys)|exact (Proofs11.session_cache mods keys)]. Qed.
Print Assumptions c11_symbolizer_session.

(* composition with C11's module-level model: in EVERY schedule (finished or not), if the cache has answered the lookup
   of the module that C08's table finds for instruction q, then Symbolizer::fill_symbol with that answer (Ok: the
   module's SymbolFile::fill_symbol at the module's own base; Err: frame untouched) followed by the reversal of the
   inlines is [frame_of] — the function c11_module_lookup_compose / c11_module_isolated_found / c11_module_frame_total
   speak about.  The result depends on the module's file alone, not on which lookup fetched it or on the interleaving. *)
Theorem c11_symbolizer_cached_frame : forall p (mods : list Session.smodule) tbl keys q idx m sched i o,
  rm_get tbl q = Some idx -> nth_error mods (Z.to_nat idx) = Some m ->
  C12.Model.task_result (C12.Model.run (Session.session_cfg mods keys) sched) 0%nat i = Some (Z.to_nat idx, o) ->
  frame_of p tbl (map Session.to_module mods) q = do r <- Session.fill_cached p m o q; Ret (Some (idx, r)).
Proof.
  intros p mods tbl keys q idx m sched i o Hq Hm Hr. destruct (RM.C12.Proofs.same_outcome _ sched 0%nat i _ o Hr) as [Ho _].
  cbn [RM.C12.Model.outc Session.session_cfg] in Ho. rewrite Hm in Ho. subst o.
  unfold frame_of. rewrite Hq, nth_error_map, Hm. cbn [option_map Session.to_module].
  destruct m as [[b sz] s]. cbn [fst snd]. unfold Session.fill_cached. cbn [fst snd].
  destruct s as [st| |]; cbn [Session.sup_table Session.sup_outcome]; try reflexivity.
  destruct (fill_symbol p st b q); reflexivity.
Qed.
Print Assumptions c11_symbolizer_cached_frame.

(* three modules: symbols / unknown to the supplier / corrupt file; six frames, the first module looked up three times *)
Example c11_nonvacuous_session :
  exists st tbl,
    build_symtab nv_file2 = Ret st /\
    let mods : list Session.smodule :=
      [(4096, 200, Session.SymOk st); (8192, 100, Session.SymMissing); (12288, 100, Session.SymCorrupt)] in
    mod_table (map Session.to_module mods) = Ret tbl /\
    Session.session_keys tbl [4117; 8200; 4141; 12290; 5000; 4191] = [0; 1; 0; 2; 0]%nat /\
    Session.session_stats mods [0; 1; 0; 2; 0]%nat =
      (3%nat, 3%nat, [Some (true, false); Some (false, false); Some (true, true)]) /\
    C12.Model.results (C12.Model.sh (Session.session_end mods [0; 1; 0; 2; 0]%nat)) 0%nat =
      [(0, C12.Model.OOk); (1, C12.Model.ONotFound); (0, C12.Model.OOk); (2, C12.Model.OParse); (0, C12.Model.OOk)]%nat /\
    frame_of Debug tbl (map Session.to_module mods) 4117 =
      Ret (Some (0, mk_out (Some (5, 4112, 12)) (Some (7, 70, 4112)) [(22, Some 7, Some 10); (21, Some 7, Some 71)])) /\
    frame_of Debug tbl (map Session.to_module mods) 12290 = Ret (Some (2, empty_out)).
Proof.
  eexists. eexists. split; [vm_compute; reflexivity|]. cbv zeta. split; [vm_compute; reflexivity|].
  repeat split; vm_compute; reflexivity.
Qed.

(* the compiled fill_source_line_info on the modules of c11_nonvacuous_session: a frame in the module with symbols (inlines
   reversed, module 0 attached), one in the module whose symbol file is corrupt (module 2 attached, nothing else), one in
   no module (frame untouched) *)
Example c11_nonvacuous_compiled_frames :
  exists st tbl,
    build_symtab nv_file2 = Ret st /\
    let mods : list module := [(4096, 200, Some st); (8192, 100, None); (12288, 100, None)] in
    mod_table mods = Ret tbl /\
    C11Src.src_fill_source_line_info Debug 3 (Prims.mk_sframe 4117 None empty_out) (tbl, mods) =
      Ret (Prims.mk_sframe 4117 (Some 0)
             (mk_out (Some (5, 4112, 12)) (Some (7, 70, 4112)) [(22, Some 7, Some 10); (21, Some 7, Some 71)])) /\
    C11Src.src_fill_source_line_info Debug 3 (Prims.mk_sframe 12290 None empty_out) (tbl, mods) =
      Ret (Prims.mk_sframe 12290 (Some 2) empty_out) /\
    C11Src.src_fill_source_line_info Debug 3 (Prims.mk_sframe 5000 None empty_out) (tbl, mods) =
      Ret (Prims.mk_sframe 5000 None empty_out).
Proof.
  eexists. eexists. split; [vm_compute; reflexivity|]. cbv zeta. split; [vm_compute; reflexivity|].
  repeat split; vm_compute; reflexivity.
Qed.

(* the second symbol file of the correspondence run (module flag 3) *)
Example c11_nonvacuous_alt_table : wf_file Driver.alt_file /\ build_symtab Driver.alt_file = Ret Driver.alt_table.
Proof. split; [apply wf_fileb_ok|]; vm_compute; reflexivity. Qed.
