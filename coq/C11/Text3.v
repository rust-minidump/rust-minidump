(* C11/Text3.v — after Text2.  The hypothesis [eo_wf] of c11_from_text is discharged from the parser.
   Every record SymbolParser holds after any sequence of lines (recognised by [recog_pst] or
   dropped by the over-long-line recovery, [bump_pst]) has its integer fields in the ranges
   [wf_file] asks for — they all come out of hex_str::<u64>/<u32> / decimal_u32 — and a FUNC
   block holds at most as many INLINE ranges as the text had bytes so far (every range costs at
   least two bytes of its INLINE line).  So for every BYTE STRING shorter than 2^32-1 bytes that
   SymbolFile::parse accepts (C09's [drive_c], any read schedule, including dropped lines), the
   parsed table symbolicates exactly as [symbolize] on the records of the text, and those
   records are [wf_file]: all theorems of C11 hold of the text. *)
From Coq Require Import Lia ZArith List Bool.
From RM Require C09.Model.
From RM Require Import Base.Word C08.Model C08.Proofs C09.Grammar C09.Driver C09.Proofs C09.ProofsBytes
                       C09.ProofsFinish C09.ProofsFinal.
From RM Require Import C11.Model C11.Proofs1 C11.Proofs2 C11.Proofs3 C11.Text C11.Text2.
Import ListNotations.
Open Scope Z_scope.

Lemma uncons_len s b s' : uncons s = Some (b, s') -> rle_len s' = rle_len s - 1.
Proof.
  destruct s as [|[b0 c] t]; cbn [uncons]; [discriminate|].
  destruct (Z.leb_spec c 1) as [L|L]; intros H; inversion H; subst; cbn [rle_len]; lia.
Qed.

Lemma digits_len val base : forall n s acc k v k' s',
  digits val base n s acc k = (v, k', s') -> k <= k' /\ rle_len s' = rle_len s - (k' - k).
Proof.
  induction n as [|n IH]; intros s acc k v k' s'; cbn [digits].
  - intros H; inversion H; subst. lia.
  - destruct (uncons s) as [[b s1]|] eqn:Eu; [|intros H; inversion H; subst; lia].
    destruct (val b) as [d|]; [|intros H; inversion H; subst; lia].
    intros H. apply IH in H. apply uncons_len in Eu. lia.
Qed.

Lemma hex_str_len n s v s' : hex_str n s = Some (v, s') -> rle_len s' <= rle_len s - 1.
Proof.
  unfold hex_str. destruct (digits hexval 16 n s 0 0) as [[v0 k0] s0] eqn:E.
  destruct (k0 =? 0) eqn:Ek; [discriminate|]. intros H; inversion H; subst.
  apply digits_len in E. apply Z.eqb_neq in Ek. lia.
Qed.

Lemma decimal_u32_len s v s' : decimal_u32 s = Some (v, s') -> rle_len s' <= rle_len s - 1.
Proof.
  unfold decimal_u32. destruct (digits decval 10 10%nat s 0 0) as [[v0 k0] s0] eqn:E.
  destruct (k0 =? 0) eqn:Ek; [discriminate|]. destruct (U32MAX <? v0); [discriminate|].
  intros H; inversion H; subst. apply digits_len in E. apply Z.eqb_neq in Ek. lia.
Qed.

Lemma skip_while_len p s : rle_len (skip_while p s) <= rle_len s.
Proof.
  induction s as [|[b c] t IH]; cbn [skip_while]; [lia|].
  destruct (p b); cbn [rle_len] in *; lia.
Qed.

Lemma space1_len s s' : space1 s = Some s' -> rle_len s' <= rle_len s.
Proof.
  unfold space1. destruct s as [|[b c] t]; [discriminate|]. destruct (is_sp b); [|discriminate].
  intros H. injection H as <-. apply (skip_while_len is_sp ((b, c) :: t)).
Qed.

Lemma osp_inv {A} (o : option (A * rle)) v s' :
  osp o = Some (v, s') -> exists s1, o = Some (v, s1) /\ rle_len s' <= rle_len s1.
Proof.
  unfold osp. destruct o as [[v0 s1]|]; [|discriminate]. destruct (space1 s1) as [s2|] eqn:E; [|discriminate].
  intros H; inversion H; subst. exists s1. split; [reflexivity|]. apply space1_len. exact E.
Qed.

Lemma tag_len bs : forall s s', tag bs s = Some s' -> rle_len s' <= rle_len s.
Proof.
  induction bs as [|x bs IH]; intros s s'; cbn [tag].
  - intros H; inversion H; lia.
  - destruct (uncons s) as [[b s1]|] eqn:E; [|discriminate]. destruct (b =? x); [|discriminate].
    intros H. apply IH in H. apply uncons_len in E. lia.
Qed.

Lemma hdr_len t s s' : hdr t s = Some s' -> rle_len s' <= rle_len s.
Proof.
  unfold hdr. destruct (tag t s) as [s1|] eqn:E; [|discriminate]. intros H.
  apply space1_len in H. apply tag_len in E. lia.
Qed.

(* the number recognisers stay in range: hex_str::<u64> (16 digits), hex_str::<u32> (8 digits), decimal_u32 *)
Lemma digits_bound (val : Z -> option Z) (base : Z) :
  (forall b d, val b = Some d -> 0 <= d < base) -> 1 < base ->
  forall n s acc k v k' s', 0 <= acc -> digits val base n s acc k = (v, k', s') ->
    0 <= v < (acc + 1) * base ^ Z.of_nat n.
Proof.
  intros Hval Hb. induction n as [|n IH]; intros s acc k v k' s' Hacc; cbn [digits].
  - intros H; inversion H; subst. cbn. lia.
  - assert (Hp : 1 <= base ^ Z.of_nat n) by (pose proof (Z.pow_pos_nonneg base (Z.of_nat n)); lia).
    replace (Z.of_nat (S n)) with (Z.of_nat n + 1) by lia. rewrite Z.pow_add_r, Z.pow_1_r by lia.
    destruct (uncons s) as [[b s1]|]; [|intros H; inversion H; subst; nia].
    destruct (val b) as [d|] eqn:Ed; [|intros H; inversion H; subst; nia].
    intros H. apply Hval in Ed. apply IH in H; [|nia]. nia.
Qed.

Lemma hexval_range b d : hexval b = Some d -> 0 <= d < 16.
Proof.
  unfold hexval. destruct ((48 <=? b) && (b <=? 57)) eqn:E1; [intros H; inversion H; lia|].
  destruct ((97 <=? b) && (b <=? 102)) eqn:E2; [intros H; inversion H; lia|].
  destruct ((65 <=? b) && (b <=? 70)) eqn:E3; [intros H; inversion H; lia|discriminate].
Qed.

Lemma hex_str_range n s v s' : hex_str n s = Some (v, s') -> 0 <= v < 16 ^ Z.of_nat n.
Proof.
  unfold hex_str. destruct (digits hexval 16 n s 0 0) as [[v0 k0] s0] eqn:E.
  destruct (k0 =? 0); [discriminate|]. intros H; inversion H; subst.
  apply (digits_bound hexval 16 hexval_range) in E; lia.
Qed.

Lemma hex64_range s v s' : hex_str 16%nat s = Some (v, s') -> 0 <= v < two64.
Proof. intros H. apply hex_str_range in H. exact H. Qed.
Lemma hex32_range s v s' : hex_str 8%nat s = Some (v, s') -> 0 <= v < two32.
Proof. intros H. apply hex_str_range in H. exact H. Qed.
Lemma decimal_u32_range s v s' : decimal_u32 s = Some (v, s') -> 0 <= v < two32.
Proof.
  unfold decimal_u32. destruct (digits decval 10 10%nat s 0 0) as [[v0 k0] s0] eqn:E.
  destruct (k0 =? 0); [discriminate|]. destruct (U32MAX <? v0) eqn:Eu; [discriminate|].
  intros H; inversion H; subst. apply Z.ltb_ge in Eu. unfold U32MAX, two32 in *.
  apply (digits_bound decval 10) in E; [lia| |lia|lia].
  intros b d. unfold decval. destruct ((48 <=? b) && (b <=? 57)) eqn:E1; [intros H0; inversion H0; lia|discriminate].
Qed.

Lemma hex64sp_ok s v s' : hex64sp s = Some (v, s') -> u64 v /\ rle_len s' <= rle_len s - 1.
Proof.
  unfold hex64sp. intros H. apply osp_inv in H. destruct H as (s1 & H & L).
  pose proof (hex64_range _ _ _ H). apply hex_str_len in H. unfold u64. lia.
Qed.
Lemma hex32sp_ok s v s' : hex32sp s = Some (v, s') -> u32 v /\ rle_len s' <= rle_len s - 1.
Proof.
  unfold hex32sp. intros H. apply osp_inv in H. destruct H as (s1 & H & L).
  pose proof (hex32_range _ _ _ H). apply hex_str_len in H. unfold u32. lia.
Qed.
Lemma decsp_ok s v s' : decsp s = Some (v, s') -> u32 v /\ rle_len s' <= rle_len s - 1.
Proof.
  unfold decsp. intros H. apply osp_inv in H. destruct H as (s1 & H & L).
  pose proof (decimal_u32_range _ _ _ H). apply decimal_u32_len in H. unfold u32. lia.
Qed.

Lemma addr_range_ok s a sz s' :
  addr_range s = Some (a, sz, s') -> u64 a /\ u32 sz /\ rle_len s' <= rle_len s - 2.
Proof.
  unfold addr_range. destruct (hex64sp s) as [[a0 s1]|] eqn:E1; [|discriminate].
  destruct (hex_str 8 s1) as [[sz0 s2]|] eqn:E2; [|discriminate].
  intros H; inversion H; subst. apply hex64sp_ok in E1. pose proof (hex32_range _ _ _ E2).
  apply hex_str_len in E2. unfold u64, u32 in *. lia.
Qed.

Definition rng_pair (r : Z * Z) : Prop := u64 (fst r) /\ u32 (snd r).

Lemma more_ranges_ok : forall fuel s acc racc s',
  more_ranges fuel s acc = (racc, s') -> Forall rng_pair acc ->
  Forall rng_pair racc /\ Z.of_nat (length racc) + rle_len s' <= Z.of_nat (length acc) + rle_len s.
Proof.
  induction fuel as [|f IH]; intros s acc racc s'; cbn [more_ranges].
  - intros H Ha; inversion H; subst. split; [exact Ha|lia].
  - destruct (space1 s) as [s1|] eqn:E1; [|intros H Ha; inversion H; subst; split; [exact Ha|lia]].
    destruct (addr_range s1) as [[[a sz] s2]|] eqn:E2; [|intros H Ha; inversion H; subst; split; [exact Ha|lia]].
    intros H Ha. apply addr_range_ok in E2. destruct E2 as (A & B & C). apply space1_len in E1.
    apply IH in H; [|constructor; [split; assumption|exact Ha]].
    destruct H as [H1 H2]. split; [exact H1|]. cbn [length] in H2. lia.
Qed.

(* an INLINE line: every Inlinee is in range, and there are at most as many as the line has bytes *)
Lemma sub_inline_ok s l : sub_inline s = Some l -> Forall wf_inl l /\ Z.of_nat (length l) <= rle_len s.
Proof.
  unfold sub_inline, guard. intros H.
  destruct (hdr T_INLINE s) as [s0|] eqn:E0; [|discriminate].
  destruct (decsp s0) as [[depth s1]|] eqn:E1; [|discriminate].
  destruct (decsp s1) as [[cline s2]|] eqn:E2; [|discriminate].
  destruct (decsp s2) as [[cfile s3]|] eqn:E3; [|discriminate].
  destruct (decsp s3) as [[origin s4]|] eqn:E4; [|discriminate].
  destruct (addr_range s4) as [[[a sz] s5]|] eqn:E5; [|discriminate].
  destruct (more_ranges (S (length s5)) s5 [(a, sz)]) as [racc s6] eqn:E6.
  destruct (eol s6); [|discriminate]. inversion H; subst l. clear H.
  apply hdr_len in E0. apply decsp_ok in E1, E2, E3, E4. apply addr_range_ok in E5.
  destruct E5 as (A & B & C).
  apply more_ranges_ok in E6; [|constructor; [split; assumption|constructor]].
  destruct E6 as [R L]. cbn [length] in L. pose proof (rle_len_nonneg s6).
  split.
  - rewrite Forall_map. apply Forall_rev. eapply Forall_impl; [|exact R].
    intros r [Ra Rs]. unfold wf_inl. cbn [i_depth i_addr i_size]. tauto.
  - rewrite map_length, rev_length. lia.
Qed.

Lemma sub_line_data_ok s l : sub_line_data s = Some l -> wf_line l.
Proof.
  unfold sub_line_data, guard. intros H.
  destruct (hex64sp s) as [[a s1]|] eqn:E1; [|discriminate].
  destruct (hex32sp s1) as [[sz s2]|] eqn:E2; [|discriminate].
  destruct (decsp s2) as [[ln s3]|] eqn:E3; [|discriminate].
  destruct (decimal_u32 s3) as [[fl s4]|] eqn:E4; [|discriminate].
  destruct (eol s4); [|discriminate]. inversion H; subst l.
  apply hex64sp_ok in E1. apply hex32sp_ok in E2. unfold wf_line. cbn [l_addr l_size]. tauto.
Qed.

(* what every alternative of [alt] guarantees of its item, the chosen one does *)
Lemma alt_inv (Q : item -> Prop) s : forall ps it,
  Forall (fun p : rle -> pres item => forall i, p s = POk i -> Q i) ps -> alt ps s = Some it -> Q it.
Proof.
  induction ps as [|p t IH]; intros it Hall; cbn [alt]; [discriminate|]. inversion Hall as [|? ? Hp Ht]; subst.
  destruct (p s) as [| |i]; [apply IH; exact Ht|discriminate|]. intros H; inversion H; subst. exact (Hp it eq_refl).
Qed.

(* A property of the records SymbolParser holds — [F n] of every FUNC block, open or finished, where [n] = bytes of
   text seen so far; [P] of every PUBLIC; [W] of every STACK WIN record — is kept by every line, recognised or
   dropped, once the item parsers establish it and a line record / an INLINE line added to the open block keeps it. *)
Section Inv.
Variables (F : Z -> Grammar.func_raw -> Prop) (P : pub_sym -> Prop) (W : win_info -> Prop).

Definition pst_inv (n : Z) (p : pst) : Prop :=
  match p_cur p with CFunc f => F n f | _ => True end /\
  Forall (F n) (p_funcs p) /\ Forall P (p_publics p) /\ Forall W (p_win_fd p) /\ Forall W (p_win_fpo p).
Definition item_inv (it : item) : Prop :=
  match it with
  | IFunc f => F 0 f
  | IPublic pb => P pb
  | IWin (FrameData i) => W i
  | IWin (Fpo i) => W i
  | _ => True
  end.

Hypothesis F_mono : forall n m f, n <= m -> F n f -> F m f.
Hypothesis item_ok : forall s it, line_top s = Some it -> item_inv it.
Hypothesis line_ok : forall n s l f, sub_func s = Some (SLine l) -> F n f ->
  F (n + cllen s) (mk_fr (Grammar.fr_addr f) (Grammar.fr_size f) (Grammar.fr_psize f) (Grammar.fr_name f)
                         (l :: Grammar.fr_lines f) (Grammar.fr_inls f)).
Hypothesis inline_ok : forall n s l f, sub_func s = Some (SInline l) -> F n f ->
  F (n + cllen s) (mk_fr (Grammar.fr_addr f) (Grammar.fr_size f) (Grammar.fr_psize f) (Grammar.fr_name f)
                         (Grammar.fr_lines f) (rev_append l (Grammar.fr_inls f))).

Lemma pst_inv_mono n m p : n <= m -> pst_inv n p -> pst_inv m p.
Proof.
  unfold pst_inv. intros L (A & B & C & D & E). repeat split; try assumption.
  - destruct (p_cur p); try exact I. eapply F_mono; eauto.
  - eapply Forall_impl; [|exact B]. intros f. apply F_mono. exact L.
Qed.

Lemma close_cur_inv n p : pst_inv n p -> pst_inv n (close_cur p) /\ p_cur (close_cur p) = CNone.
Proof.
  unfold pst_inv, close_cur. intros (Hc & Hf & Hp & Hfd & Hfpo).
  destruct (p_cur p) eqn:E; cbn; rewrite ?E; repeat split; auto.
Qed.

Lemma top_inv n p s p' : 0 <= n -> pst_inv n p -> top p s = inl p' -> pst_inv n p'.
Proof.
  unfold pst_inv, top. intros Hn (Hc & Hf & Hp & Hfd & Hfpo) H.
  destruct (eol s); [inversion H; subst; cbn; auto|].
  destruct (line_top s) as [it|] eqn:E; [|discriminate]. apply item_ok in E.
  destruct it as [id f|u| |id nm|id nm|pb|f|[i|i|]|c]; cbn in E;
    try (destruct (p_lines p =? 0); [|discriminate]); inversion H; subst; cbn; auto 10.
  split; [exact (F_mono 0 n f Hn E)|auto].
Qed.

Lemma recog_pst_inv n p s p' : 0 <= n -> pst_inv n p -> recog_pst p s = inl p' -> pst_inv (n + cllen s) p'.
Proof.
  intros Hn Hwf H. pose proof (cllen_pos s) as Hl.
  assert (Htop : forall q, pst_inv n q -> top q s = inl p' -> pst_inv (n + cllen s) p').
  { intros q Hq Ht. apply (pst_inv_mono n); [lia|]. exact (top_inv n q s p' Hn Hq Ht). }
  unfold recog_pst in H. destruct (p_cur p) as [|f|c] eqn:Ec.
  - exact (Htop p Hwf H).
  - destruct (pst_inv_mono n (n + cllen s) p) as (_ & Hf & Hp & Hfd & Hfpo); [lia|exact Hwf|].
    pose proof (proj1 Hwf) as Hc. rewrite Ec in Hc.
    destruct (sub_func s) as [[id nm|l|l]|] eqn:Es; [| | |exact (Htop _ (proj1 (close_cur_inv n p Hwf)) H)].
    + inversion H; subst. unfold pst_inv; cbn. split; [apply (F_mono n); [lia|exact Hc]|auto].
    + inversion H; subst. unfold pst_inv; cbn. split; [exact (inline_ok n s l f Es Hc)|auto].
    + inversion H; subst. unfold pst_inv; cbn. split; [exact (line_ok n s l f Es Hc)|auto].
  - destruct (sub_cfi s) as [r|]; [|exact (Htop _ (proj1 (close_cur_inv n p Hwf)) H)].
    inversion H; subst. apply (pst_inv_mono n); [lia|].
    destruct Hwf as (Hc & Hf & Hp & Hfd & Hfpo). unfold pst_inv; cbn. auto.
Qed.

Lemma bump_pst_inv n p : pst_inv n p -> pst_inv n (bump_pst p).
Proof. unfold pst_inv, bump_pst, set_lines_cur; cbn; auto. Qed.

Lemma init_pst_inv : pst_inv 0 init_pst.
Proof. unfold pst_inv, init_pst; cbn; auto. Qed.

(* any sequence of recognised and dropped lines *)
Lemma replay_inv : forall (ds : list (bool * rle)) n p p',
  0 <= n -> pst_inv n p -> RM.C09.Model.replay rle pst recog_pst bump_pst lineno_pst p ds = inl p' ->
  pst_inv (n + RM.C09.Model.size rle cllen (map snd ds)) p'.
Proof.
  induction ds as [|[b l] t IH]; intros n p p' Hn Hwf H.
  - cbn in H. inversion H; subst. cbn. rewrite Z.add_0_r. exact Hwf.
  - cbn [RM.C09.Model.replay] in H. cbn [map snd RM.C09.Model.size]. pose proof (cllen_pos l).
    rewrite Z.add_assoc. destruct b.
    + apply (IH (n + cllen l)) in H; [exact H|lia|]. apply (pst_inv_mono n); [lia|]. apply bump_pst_inv. exact Hwf.
    + destruct (recog_pst p l) as [p1|c] eqn:E; [|discriminate].
      apply (IH (n + cllen l)) in H; [exact H|lia|]. eapply recog_pst_inv; eauto.
Qed.

Lemma fold_recog_inv (lines : list rle) n p p' :
  0 <= n -> pst_inv n p -> RM.C09.Model.fold_recog rle pst recog_pst lineno_pst p lines = inl p' ->
  pst_inv (n + RM.C09.Model.size rle cllen lines) p'.
Proof.
  intros Hn Hwf H. rewrite <- (replay_fed _ _ _ bump_pst) in H. apply (replay_inv _ n p p' Hn Hwf) in H.
  rewrite map_map, map_id in H. exact H.
Qed.
End Inv.

Definition fr_rng (n : Z) (f : Grammar.func_raw) : Prop :=
  u64 (Grammar.fr_addr f) /\ u32 (Grammar.fr_size f) /\ Forall wf_line (Grammar.fr_lines f) /\
  Forall wf_inl (Grammar.fr_inls f) /\ Z.of_nat (length (Grammar.fr_inls f)) <= n.
Definition wi_rng (w : win_info) : Prop := u64 (wi_addr w) /\ u32 (wi_size w).
Definition pb_rng (pb : pub_sym) : Prop := u64 (pb_addr pb).
(* [n] = bytes of text seen so far *)
Definition pst_rng (n : Z) (p : pst) : Prop :=
  match p_cur p with CFunc f => fr_rng n f | _ => True end /\
  Forall (fr_rng n) (p_funcs p) /\ Forall pb_rng (p_publics p) /\
  Forall wi_rng (p_win_fd p) /\ Forall wi_rng (p_win_fpo p).

Lemma fr_rng_mono n m f : n <= m -> fr_rng n f -> fr_rng m f.
Proof.
  unfold fr_rng. intros L (A & B & C & D & E).
  split; [exact A|]. split; [exact B|]. split; [exact C|]. split; [exact D|lia].
Qed.

Definition item_rng : item -> Prop := item_inv fr_rng pb_rng wi_rng.

(* [brk] opens the parser combinators of a record parser that has returned; [crack] then reads off the item and
   the ranges of its numbers *)
Ltac brk :=
  repeat match goal with
         | H : context [match ?e with _ => _ end] |- _ => destruct e eqn:?; try discriminate
         end.
Ltac crack :=
  brk;
  repeat match goal with
         | H : POk _ = POk _ |- _ => inversion H; clear H
         | H : Some _ = Some _ |- _ => inversion H; clear H
         end;
  subst;
  repeat match goal with
         | H : hex64sp _ = Some (_, _) |- _ => apply hex64sp_ok in H
         | H : hex32sp _ = Some (_, _) |- _ => apply hex32sp_ok in H
         end.

Lemma p_func_rng s it : p_func s = POk it -> item_rng it.
Proof.
  unfold p_func, cutp. cbv zeta. intros H. crack.
  cbn. unfold fr_rng. cbn.
  split; [tauto|]. split; [tauto|]. split; [apply Forall_nil|]. split; [apply Forall_nil|lia].
Qed.
Lemma p_public_rng s it : p_public s = POk it -> item_rng it.
Proof. unfold p_public, cutp. cbv zeta. intros H. crack. cbn. unfold pb_rng. cbn. tauto. Qed.
Lemma p_win_rng s it : p_stack_win s = POk it -> item_rng it.
Proof.
  unfold p_stack_win, cutp. intros H. crack.
  unfold win_of_fields. cbv zeta.
  repeat match goal with |- context [if ?c then _ else _] => destruct c end; cbn; auto;
    unfold wi_rng; cbn; tauto.
Qed.
Lemma line_top_rng s it : line_top s = Some it -> item_rng it.
Proof.
  apply alt_inv. repeat constructor; intros i H;
    try (exact (p_public_rng s i H) || exact (p_func_rng s i H) || exact (p_win_rng s i H)).
  (* the other record parsers return items that hold no FUNC, PUBLIC or STACK WIN record *)
  all: unfold p_info_url, p_info, p_file, p_inline_origin, p_stack_cfi_init, p_module, cutp, guard in H; crack; exact I.
Qed.

Lemma sub_func_inv s x : sub_func s = Some x ->
  match x with
  | SLine l => sub_line_data s = Some l
  | SInline l => sub_inline s = Some l
  | SOrigin _ _ => True
  end.
Proof.
  unfold sub_func. destruct (tag T_INLINE_ORIGIN_SP s).
  - destruct (p_inline_origin s) as [| |[]]; try discriminate. intros H; inversion H. exact I.
  - destruct (tag T_INLINE_SP s); [destruct (sub_inline s)|destruct (sub_line_data s)]; try discriminate;
      intros H; inversion H; reflexivity.
Qed.

Lemma line_rng n s l f : sub_func s = Some (SLine l) -> fr_rng n f ->
  fr_rng (n + cllen s) (mk_fr (Grammar.fr_addr f) (Grammar.fr_size f) (Grammar.fr_psize f) (Grammar.fr_name f)
                              (l :: Grammar.fr_lines f) (Grammar.fr_inls f)).
Proof.
  intros Es (A & B & C & D & E). apply sub_func_inv, sub_line_data_ok in Es. pose proof (cllen_pos s).
  unfold fr_rng; cbn. split; [exact A|]. split; [exact B|]. split; [constructor; assumption|]. split; [exact D|lia].
Qed.
Lemma inline_rng n s l f : sub_func s = Some (SInline l) -> fr_rng n f ->
  fr_rng (n + cllen s) (mk_fr (Grammar.fr_addr f) (Grammar.fr_size f) (Grammar.fr_psize f) (Grammar.fr_name f)
                              (Grammar.fr_lines f) (rev_append l (Grammar.fr_inls f))).
Proof.
  intros Es (A & B & C & D & E). apply sub_func_inv, sub_inline_ok in Es. destruct Es as [Ei El].
  unfold fr_rng; cbn. split; [exact A|]. split; [exact B|]. split; [exact C|]. split.
  - rewrite rev_append_rev. apply Forall_app. split; [apply Forall_rev; exact Ei|exact D].
  - rewrite rev_append_rev, app_length, rev_length. unfold cllen. lia.
Qed.

Lemma pst_rng_mono n m p : n <= m -> pst_rng n p -> pst_rng m p.
Proof. exact (pst_inv_mono fr_rng pb_rng wi_rng fr_rng_mono n m p). Qed.
Lemma close_cur_rng n p : pst_rng n p -> pst_rng n (close_cur p) /\ p_cur (close_cur p) = CNone.
Proof. exact (close_cur_inv fr_rng pb_rng wi_rng n p). Qed.
Lemma init_pst_rng : pst_rng 0 init_pst.
Proof. exact (init_pst_inv fr_rng pb_rng wi_rng). Qed.
Lemma replay_rng (ds : list (bool * rle)) n p p' :
  0 <= n -> pst_rng n p -> RM.C09.Model.replay rle pst recog_pst bump_pst lineno_pst p ds = inl p' ->
  pst_rng (n + RM.C09.Model.size rle cllen (map snd ds)) p'.
Proof. exact (replay_inv fr_rng pb_rng wi_rng fr_rng_mono line_top_rng line_rng inline_rng ds n p p'). Qed.
Lemma fold_recog_rng (lines : list rle) n p p' :
  0 <= n -> pst_rng n p -> RM.C09.Model.fold_recog rle pst recog_pst lineno_pst p lines = inl p' ->
  pst_rng (n + RM.C09.Model.size rle cllen lines) p'.
Proof. exact (fold_recog_inv fr_rng pb_rng wi_rng fr_rng_mono line_top_rng line_rng inline_rng lines n p p'). Qed.

Section Enc.
Variables (nm : rle -> Z) (tg : win_info -> Z).

Lemma wf_of_rng n q : pst_rng n q -> n < two32 - 1 -> wf_file (raw_of_pst nm tg q).
Proof.
  intros R Hn. destruct (close_cur_rng n q R) as [(_ & Hf & Hp & Hfd & Hfpo) _].
  unfold wf_file, raw_of_pst. cbn [rf_funcs rf_publics rf_win_fd rf_win_fpo].
  repeat split; rewrite Forall_map; apply Forall_rev.
  - eapply Forall_impl; [|exact Hf]. intros f (A & B & C & D & E).
    unfold wf_fraw, raw_of_func. cbn [Model.fr_addr Model.fr_size Model.fr_lines Model.fr_inls].
    repeat split; try apply A; try apply B; try (apply Forall_rev; assumption).
    rewrite rev_length. lia.
  - eapply Forall_impl; [|exact Hp]. intros pb H. exact H.
  - eapply Forall_impl; [|exact Hfd]. intros w H. exact H.
  - eapply Forall_impl; [|exact Hfpo]. intros w H. exact H.
Qed.

(* the hypotheses on the two encodings alone (what is left of [enc_ok] without [eo_wf]):
   [nm] renders names as integers injectively on the FUNC names and monotonically on the PUBLIC
   names of the text, [tg] stands for the STACK WIN fields that only take part in `==` *)
Record enc_names_ok (q : pst) : Prop := mk_enc_names_ok {
  en_names : names_injective nm q;
  en_pub : forall a b, In a (p_publics (close_cur q)) -> In b (p_publics (close_cur q)) ->
             rle_compare (pb_name a) (pb_name b) = (nm (pb_name a) ?= nm (pb_name b));
  en_tgsize : forall w sz, tg (wi_set_size w sz) = tg w;
  en_tg_fd : forall a b, in_scope (rev (p_win_fd (close_cur q))) a -> in_scope (rev (p_win_fd (close_cur q))) b ->
               win_eqb (Gw tg a) (Gw tg b) = wi_eqb a b;
  en_tg_fpo : forall a b, in_scope (rev (p_win_fpo (close_cur q))) a -> in_scope (rev (p_win_fpo (close_cur q))) b ->
                win_eqb (Gw tg a) (Gw tg b) = wi_eqb a b
}.

Lemma enc_ok_of_rng n q : pst_rng n q -> n < two32 - 1 -> enc_names_ok q -> enc_ok nm tg q.
Proof.
  intros R Hn [A B C D E]. constructor; try assumption. eapply wf_of_rng; eauto.
Qed.

(* a parser state whose records are in range after fewer than 2^32-1 bytes, encodings that fit: what [finish]
   returns symbolicates as [symbolize] on the records *)
(* the text [q] and the table [t] parsed from it agree: the records are well-formed, [t] is built from them, and
   fill_symbol on [t] is [symbolize] on the records *)
Definition text_table_ok (q : pst) (t : table) : Prop :=
  wf_file (raw_of_pst nm tg q) /\ st_rel true (raw_of_pst nm tg q) (symtab_of_table nm tg t) /\
  forall p mbase instr, 0 <= mbase -> instr < two64 ->
    fill_symbol p (symtab_of_table nm tg t) mbase instr = symbolize p (raw_of_pst nm tg q) mbase instr.

Lemma from_rng n q t :
  pst_rng n q -> n < two32 - 1 -> enc_names_ok q -> finish q = Ret t ->
  text_table_ok q t.
Proof.
  intros R Hn He Ht. pose proof (enc_ok_of_rng n q R Hn He) as Hok.
  split; [exact (eo_wf nm tg q Hok)|]. exact (from_enc_ok nm tg q t Hok Ht).
Qed.

(* the lines of any accepted text shorter than 2^32-1 bytes *)
Lemma from_text_lines (lines : list rle) q t :
  RM.C09.Model.fold_recog rle pst recog_pst lineno_pst init_pst lines = inl q ->
  finish q = Ret t -> RM.C09.Model.size rle cllen lines < two32 - 1 -> enc_names_ok q ->
  wf_file (raw_of_pst nm tg q) /\ st_rel true (raw_of_pst nm tg q) (symtab_of_table nm tg t) /\
  forall p mbase instr, 0 <= mbase -> instr < two64 ->
    fill_symbol p (symtab_of_table nm tg t) mbase instr = symbolize p (raw_of_pst nm tg q) mbase instr.
Proof.
  intros Hf Hfin Hsz He.
  exact (from_rng _ q t (fold_recog_rng lines 0 init_pst q (Z.le_refl 0) init_pst_rng Hf) Hsz He Hfin).
Qed.

(* any list of decisions (line recognised / line dropped) *)
Lemma replay_rng0 (ds : list (bool * rle)) q :
  RM.C09.Model.replay rle pst recog_pst bump_pst lineno_pst init_pst ds = inl q ->
  pst_rng (RM.C09.Model.size rle cllen (map snd ds)) q.
Proof. exact (replay_rng ds 0 init_pst q (Z.le_refl 0) init_pst_rng). Qed.

Lemma from_replay (ds : list (bool * rle)) q :
  RM.C09.Model.replay rle pst recog_pst bump_pst lineno_pst init_pst ds = inl q ->
  RM.C09.Model.size rle cllen (map snd ds) < two32 - 1 -> enc_names_ok q ->
  exists t, finish q = Ret t /\
    text_table_ok q t.
Proof.
  intros Hr Hsz He. destruct (replay_wf ds init_pst q init_pst_wf Hr) as [W _].
  destruct (finish_total q W) as [t Ht]. exists t. split; [exact Ht|].
  exact (from_rng _ q t (replay_rng0 ds q Hr) Hsz He Ht).
Qed.

(* the whole parse: SymbolFile::parse over any reader schedule, with the over-long-line recovery, ends in a state
   that some list of decisions over the same lines reaches *)
Lemma from_parse (lines : list rle) (tail : Z) (sch : list Z) q s :
  drive_c lines tail sch = Ret (RM.C09.Model.ROk q, s) ->
  RM.C09.Model.size rle cllen lines < two32 - 1 -> enc_names_ok q ->
  exists t, finish q = Ret t /\
    text_table_ok q t.
Proof.
  intros H Hsz He. unfold drive_c in H.
  destruct (drive_shape rle cllen pst init_pst recog_pst bump_pst lineno_pst cllen_pos lines tail sch (RM.C09.Model.ROk q) s H)
    as [ds [_ [Hl [Hr [Hp Hrest]]]]]. subst q.
  rewrite Hrest, app_nil_r in Hl. rewrite Hl in Hsz. exact (from_replay ds _ Hr Hsz He).
Qed.
End Enc.

Lemma size_to_rle (ls : list (list Z)) :
  RM.C09.Model.size rle cllen (map to_rle ls) = Z.of_nat (length (flat_map (fun l => l ++ [10]) ls)).
Proof.
  induction ls as [|l t IH]; cbn [map RM.C09.Model.size flat_map]; [reflexivity|].
  rewrite IH, !app_length. cbn [length]. unfold cllen.
  assert (E : rle_len (to_rle l) = Z.of_nat (length l)).
  { unfold to_rle. induction l as [|b l' IHl]; cbn [map rle_len length]; [reflexivity|]. rewrite IHl. lia. }
  rewrite E. lia.
Qed.

Lemma lines_size_le_bytes (bytes : list Z) :
  RM.C09.Model.size rle cllen (map to_rle (fst (split_bytes bytes []))) <= Z.of_nat (length bytes).
Proof.
  rewrite size_to_rle. pose proof (split_join_id bytes) as E. unfold join_bytes in E.
  rewrite <- E at 2. rewrite app_length. lia.
Qed.

Lemma from_bytes nm tg (bytes : list Z) (sch : list Z) q s :
  drive_c (map to_rle (fst (split_bytes bytes []))) (Z.of_nat (length (snd (split_bytes bytes [])))) sch
    = Ret (RM.C09.Model.ROk q, s) ->
  Z.of_nat (length bytes) < two32 - 1 -> enc_names_ok nm tg q ->
  exists t, finish q = Ret t /\
    wf_file (raw_of_pst nm tg q) /\ st_rel true (raw_of_pst nm tg q) (symtab_of_table nm tg t) /\
    forall p mbase instr, 0 <= mbase -> instr < two64 ->
      fill_symbol p (symtab_of_table nm tg t) mbase instr = symbolize p (raw_of_pst nm tg q) mbase instr.
Proof.
  intros H Hlen He. eapply from_parse; [exact H| |exact He].
  pose proof (lines_size_le_bytes bytes). lia.
Qed.
