(* C11/Proofs5.v — sixth (after Proofs4).  Four end-to-end statements (parse, then symbolicate) that other files or
   directories use as lemmas: [total], [func_sound], [line_sound] (C03 composes with them) and [inline_chain]. *)
From Coq Require Import Lia Sorting.Sorted Sorting.Permutation.
From RM Require Import C08.Model C08.Proofs C11.Model C11.Proofs1 C11.Proofs2 C11.Proofs3 C11.Proofs4.
Open Scope Z_scope.

Lemma total p rf mbase instr :
  wf_file rf -> 0 <= mbase -> instr < two64 ->
  exists o, symbolize p rf mbase instr = Ret o.
Proof.
  intros Hwf Hmb Hin. destruct (symbolize_cases true p rf mbase instr Hwf Hmb Hin) as (st & o & _ & _ & Hs & _).
  exists o. exact Hs.
Qed.

Lemma func_sound p rf mbase instr :
  wf_file rf -> 0 <= mbase -> instr < two64 ->
  exists o, symbolize p rf mbase instr = Ret o /\
    (instr < mbase -> o = empty_out) /\
    forall name base ps, o_func o = Some (name, base, ps) ->
      mbase <= instr /\ base <= instr /\
      ((exists fr, In fr (rf_funcs rf) /\ func_covers fr (instr - mbase) = true /\
          name = fr_name fr /\ base = fr_addr fr + mbase /\
          (ps = fr_psize fr \/
           exists w, In w (rf_win_fd rf ++ rf_win_fpo rf) /\ win_covers w (instr - mbase) = true /\ ps = w_psize w))
       \/ (exists pb, In pb (rf_publics rf) /\ p_addr pb <= instr - mbase /\ name = p_name pb /\
             base = p_addr pb + mbase /\ ps = p_psize pb /\ o_src o = None /\ o_inl o = [])).
Proof.
  intros Hwf Hmb Hin. destruct (symbolize_cases true p rf mbase instr Hwf Hmb Hin) as (st & o & Hrel & _ & Hs & Hc).
  exists o. split; [exact Hs|]. destruct Hc as [[Hlt ->]|[(Hge & fr & Hfr & Hcov & Ha & _ & ->)|(Hge & Hg & ->)]].
  - split; [auto|]. intros name base ps H. discriminate.
  - split; [lia|]. intros name base ps H.
    destruct (fill_func_spec true rf st mbase (instr - mbase) fr Hwf Hrel Hfr Hmb Ha) as ((ps' & Ef & Hps) & _ & _).
    rewrite Ef in H. inversion H; subst. split; [assumption|]. split; [lia|]. left. exists fr. auto.
  - split; [lia|]. intros name base ps H.
    destruct (fill_public_spec true rf st mbase (instr - mbase) Hwf Hrel Hg) as [[_ E]|(pb & Hpb & Hle & _ & [[_ E]|[_ E]])];
      rewrite E in H; try discriminate.
    cbn [o_func] in H. inversion H; subst. split; [assumption|]. split; [lia|]. right. exists pb.
    rewrite E. cbn [o_src o_inl]. auto 10.
Qed.

Lemma line_sound p rf mbase instr :
  wf_file rf -> 0 <= mbase -> instr < two64 ->
  exists o, symbolize p rf mbase instr = Ret o /\
    forall file line base, o_src o = Some (file, line, base) ->
      base <= instr /\
      exists fr, In fr (rf_funcs rf) /\ func_covers fr (instr - mbase) = true /\
        ((exists e0, In e0 (fr_inls fr) /\ inl_covers 0 (instr - mbase) e0 = true /\
                     assoc_last (i_cfile e0) (rf_files rf) = Some file /\ line = i_cline e0 /\
                     base = i_addr e0 + mbase) \/
         (giad_pure (fn_inls (fin_func true fr)) 0 (instr - mbase) = None /\
          exists l, In l (fr_lines fr) /\ line_covers l (instr - mbase) = true /\
                    assoc_last (l_file l) (rf_files rf) = Some file /\ line = l_line l /\
                    base = l_addr l + mbase)).
Proof.
  intros Hwf Hmb Hin. destruct (symbolize_cases true p rf mbase instr Hwf Hmb Hin) as (st & o & Hrel & _ & Hs & Hc).
  exists o. split; [exact Hs|]. intros file line base H.
  destruct Hc as [[Hlt ->]|[(Hge & fr & Hfr & Hcov & Ha & _ & ->)|(Hge & Hg & ->)]].
  - discriminate.
  - destruct (fill_func_spec true rf st mbase (instr - mbase) fr Hwf Hrel Hfr Hmb Ha) as (_ & Hsrc & _).
    destruct (Hsrc _ _ _ H) as [Hb Hd]. split; [lia|]. exists fr. auto.
  - rewrite (proj1 (fill_public_shape st mbase (instr - mbase))) in H. discriminate.
Qed.

Lemma inline_chain p rf mbase instr :
  wf_file rf -> 0 <= mbase -> instr < two64 ->
  exists st o, build_symtab rf = Ret st /\ symbolize p rf mbase instr = Ret o /\
    frame_inlines o = rev (o_inl o) /\
    (o_inl o <> [] ->
     exists fr chain, In fr (rf_funcs rf) /\ func_covers fr (instr - mbase) = true /\
       (forall k e, nth_error chain k = Some e ->
          In e (fr_inls fr) /\ inl_covers (Z.of_nat k) (instr - mbase) e = true) /\
       giad_pure (fn_inls (fin_func true fr)) (Z.of_nat (length chain)) (instr - mbase) = None /\
       (length chain <= length (fr_inls fr))%nat /\
       (forall l, rm_get (fn_lines (fin_func true fr)) (instr - mbase) = Some l ->
          In l (fr_lines fr) /\ line_covers l (instr - mbase) = true) /\
       o_inl o = frames_spec st chain (rm_get (fn_lines (fin_func true fr)) (instr - mbase))).
Proof.
  intros Hwf Hmb Hin. destruct (symbolize_cases true p rf mbase instr Hwf Hmb Hin) as (st & o & Hrel & Hb & Hs & Hc).
  exists st, o. split; [exact Hb|]. split; [exact Hs|]. split; [reflexivity|]. intros Hne.
  destruct Hc as [[Hlt ->]|[(Hge & fr & Hfr & Hcov & Ha & _ & ->)|(Hge & Hg & ->)]].
  - exfalso. apply Hne. reflexivity.
  - destruct (fill_func_spec true rf st mbase (instr - mbase) fr Hwf Hrel Hfr Hmb Ha) as (_ & _ & Hinl).
    exists fr, (inl_chain (fin_func true fr) (instr - mbase)).
    destruct (inl_chain_spec (fin_func true fr) (instr - mbase)) as (C1 & C2 & C3).
    split; [assumption|]. split; [assumption|]. split.
    { intros k e Hk. destruct (C1 k e Hk) as [A B]. split; [eapply fin_inls_in; eassumption|assumption]. }
    split; [assumption|]. split.
    { cbn [fin_func fn_inls] in C3. rewrite sort_by_length in C3.
      pose proof (keep_inls_length true (fr_inls fr)). lia. }
    split; [|exact Hinl].
    intros l Hl. cbn [fin_func fn_lines] in Hl. destruct Hwf as (Hwff & _).
    rewrite Forall_forall in Hwff. destruct (Hwff _ Hfr) as (_ & _ & Hlw & _).
    apply lines_lookup in Hl; [tauto|assumption].
  - exfalso. apply Hne. apply (proj2 (fill_public_shape st mbase (instr - mbase))).
Qed.
