(* C11/Tie.v — the functions translate/c11_symbolize.py regenerates from the Rust source on every run
   (Gen/C11Sym.v, the g_ functions) are the hand-written model (C11/Model.v).  Each lemma is an obligation that an edit
   of a comparison operator, an operand, a constant, the table order, the lookup keys or the loop bounds in
   fill_symbol / find_nearest_public / get_inlinee_at_depth / get_outermost_sourceloc / memory_range /
   finish_item / fill_source_line_info breaks.  c11_source_tie (Properties.v) collects them; four equations
   ([g_giad_check_eq], [g_giad_tuple_eq], [g_get_innermost_line_eq], [g_win_range_eq]) concern generated helpers that
   the collected functions call and are not conjuncts of it. *)
From Coq Require Import Lia.
From RM Require Import C08.Model C11.Model Gen.C11Sym.
Open Scope Z_scope.

Lemma g_inl_key_eq e : g_inl_key e = inl_key e.
Proof. reflexivity. Qed.
Lemma g_pub_key_eq q : g_pub_key q = pub_key q.
Proof. reflexivity. Qed.
Lemma g_func_range_eq base size : g_func_range base size = mk_range base size.
Proof. reflexivity. Qed.

Lemma g_giad_candidate_eq inls depth addr : g_giad_candidate inls depth addr = giad_candidate inls depth addr.
Proof.
  unfold g_giad_candidate, giad_candidate.
  destruct (bsearch_by _ inls) as [i|[|i]]; try reflexivity.
  cbn [Nat.eqb]. rewrite Nat.sub_succ, Nat.sub_0_r. reflexivity.
Qed.
Lemma g_giad_check_eq depth addr c : g_giad_check depth addr c = giad_check depth addr c.
Proof. reflexivity. Qed.
Lemma g_giad_tuple_eq e : g_giad_tuple e = (i_cfile e, i_cline e, i_addr e, i_origin e).
Proof. reflexivity. Qed.
Lemma g_get_inlinee_at_depth_eq inls depth addr :
  g_get_inlinee_at_depth inls depth addr = get_inlinee_at_depth inls depth addr.
Proof. unfold g_get_inlinee_at_depth, get_inlinee_at_depth. rewrite g_giad_candidate_eq. reflexivity. Qed.

Lemma g_get_outermost_sourceloc_eq f addr : g_get_outermost_sourceloc f addr = get_outermost_sourceloc f addr.
Proof.
  unfold g_get_outermost_sourceloc, get_outermost_sourceloc. rewrite g_get_inlinee_at_depth_eq.
  destruct (get_inlinee_at_depth (fn_inls f) 0 addr) as [[e|]| | |]; reflexivity.
Qed.
Lemma g_get_innermost_line_eq f addr : g_get_innermost_line f addr = rm_get (fn_lines f) addr.
Proof. reflexivity. Qed.

Lemma g_depth_start_eq : g_depth_start = 1.
Proof. reflexivity. Qed.
Lemma g_inline_loop_eq p fuel : forall inls addr depth,
  g_inline_loop p fuel inls addr depth = inline_loop p fuel inls addr depth.
Proof.
  induction fuel as [|fuel IH]; intros; [reflexivity|].
  cbn [g_inline_loop inline_loop]. rewrite g_get_inlinee_at_depth_eq.
  destruct (get_inlinee_at_depth inls depth addr) as [[e|]| | |]; cbn [obind]; try reflexivity.
  destruct (chk_add p 32 PANIC_DEPTH depth 1); cbn [obind]; try reflexivity.
  rewrite IH. reflexivity.
Qed.

Lemma g_inner_line_eq line : g_inner_line line = if line =? 0 then None else Some line.
Proof. unfold g_inner_line. destruct (line =? 0); reflexivity. Qed.
Lemma g_emit_frames_eq st chain : forall org inner, g_emit_frames st org chain inner = emit_frames st org chain inner.
Proof.
  induction chain as [|e t IH]; intros org inner.
  - cbn [g_emit_frames emit_frames]. destruct (assoc_last org (st_origins st)); [|reflexivity].
    destruct inner as [l|]; [|reflexivity]. cbn. rewrite g_inner_line_eq. reflexivity.
  - cbn [g_emit_frames emit_frames]. cbn. rewrite IH. reflexivity.
Qed.

Lemma g_find_nearest_public_eq pubs addr : g_find_nearest_public pubs addr = find_nearest_public pubs addr.
Proof. reflexivity. Qed.
Lemma g_prev_func_eq funcs addr : g_prev_func funcs addr = prev_func funcs addr.
Proof.
  unfold g_prev_func, prev_func. destruct (bsearch_by _ funcs) as [i|[|i]]; try reflexivity.
  cbn [Nat.ltb Nat.leb]. rewrite Nat.sub_succ, Nat.sub_0_r. reflexivity.
Qed.
Lemma g_param_size_eq st f addr : g_param_size st f addr = param_size st f addr.
Proof. reflexivity. Qed.

Lemma g_fill_symbol_eq p st mbase instr : g_fill_symbol p st mbase instr = fill_symbol p st mbase instr.
Proof.
  unfold g_fill_symbol, fill_symbol. destruct (instr <? mbase); [reflexivity|]. cbv zeta.
  destruct (rm_get (st_funcs st) (instr - mbase)) as [f|].
  - destruct (chk_add p 64 PANIC_ADD (fn_addr f) mbase); cbn [obind]; try reflexivity.
    rewrite g_get_outermost_sourceloc_eq, g_param_size_eq.
    destruct (get_outermost_sourceloc f (instr - mbase)) as [[[[[fid line] a0] [e0|]]|]| | |]; cbn [obind]; try reflexivity.
    destruct (match assoc_last fid (st_files st) with Some _ => _ | None => _ end); cbn [obind]; try reflexivity.
    rewrite g_inline_loop_eq, g_depth_start_eq.
    destruct (inline_loop p _ _ _ 1); cbn [obind]; try reflexivity.
    rewrite g_emit_frames_eq. reflexivity.
  - rewrite g_find_nearest_public_eq, g_prev_func_eq.
    destruct (find_nearest_public (st_publics st) (instr - mbase)) as [pb|]; [|reflexivity].
    destruct (prev_func (st_funcs st) (instr - mbase)) as [[r f]|]; reflexivity.
Qed.

Lemma g_line_entries_eq ls : g_line_entries ls = line_entries ls.
Proof.
  unfold g_line_entries, line_entries.
  assert (E : forall l, g_line_keep l = (0 <? l_size l)) by (intros; apply Z.gtb_ltb).
  rewrite (filter_ext _ _ E). reflexivity.
Qed.
Lemma g_keep_inls_eq l : filter g_inl_keep l = keep_inls true l.
Proof. unfold keep_inls. apply filter_ext. intros e. apply Z.gtb_ltb. Qed.

Lemma g_win_range_eq w : g_win_range w = win_range w.
Proof. reflexivity. Qed.
Lemma g_win_insert_eq acc w : g_win_insert acc w = win_insert acc w.
Proof. reflexivity. Qed.
Lemma g_merge_step_eq {V} (eqb : V -> V -> bool) acc rv : g_merge_step eqb acc rv = merge_step eqb acc rv.
Proof. reflexivity. Qed.

Lemma g_front_ends_eq :
  (forall a, g_gsaa_instr a = a) /\ g_gsaa_base = 0 /\ (forall i, g_module_key i = i) /\
  (forall o, g_frame_inlines (o_inl o) = frame_inlines o).
Proof. repeat split. Qed.
