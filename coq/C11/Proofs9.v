(* C11/Proofs9.v — third (after Proofs2, before Proofs3).  fill_symbol never panics and equals the pure [fill_pure]
   ([fill_ret], [symbolize_ret]), shown once for an instrumented copy:
   [fill_symbol_n] is fill_symbol with a counter of get_inlinee_at_depth calls and [extra] more fuel for the depth loop
   (dropping the counter gives fill_symbol back).  The count is 0 without a covering FUNC and otherwise 1 + the
   length of the inline chain found <= number of INLINE ranges of that FUNC + 1, whatever the extra fuel. *)
From Coq Require Import Lia Sorting.Sorted Sorting.Permutation.
From RM Require Import C08.Model C08.Proofs C11.Model C11.Proofs1 C11.Proofs2.
Open Scope Z_scope.

Fixpoint inline_loop_n (p : profile) (fuel : nat) (inls : list inl_rec) (addr depth : Z)
  : outcome (list inl_rec * nat) :=
  match fuel with
  | O => OutOfFuel
  | S fuel' =>
      do r <- get_inlinee_at_depth inls depth addr;
      match r with
      | None => Ret ([], 1%nat)
      | Some e =>
          do depth' <- chk_add p 32 PANIC_DEPTH depth 1;
          do rest <- inline_loop_n p fuel' inls addr depth';
          Ret (e :: fst rest, S (snd rest))
      end
  end.

(* fill_symbol with a counter of get_inlinee_at_depth calls; [extra] = fuel beyond the model's *)
Definition fill_symbol_n (p : profile) (extra : nat) (st : symtab) (mbase instr : Z) : outcome (sym_out * nat) :=
  if instr <? mbase then Ret (empty_out, 0%nat)
  else
    let addr := instr - mbase in
    match rm_get (st_funcs st) addr with
    | Some f =>
        do fbase <- chk_add p 64 PANIC_ADD (fn_addr f) mbase;
        let fo := Some (fn_name f, fbase, param_size st f addr) in
        do outer <- get_outermost_sourceloc f addr;      (* one call, depth 0 *)
        match outer with
        | None => Ret (mk_out fo None [], 1%nat)
        | Some (fid, line, a, org) =>
            do src <- match assoc_last fid (st_files st) with
                      | Some fname => do b <- chk_add p 64 PANIC_ADD a mbase; Ret (Some (fname, line, b))
                      | None => Ret None
                      end;
            match org with
            | None => Ret (mk_out fo src [], 1%nat)
            | Some e0 =>
                do cn <- inline_loop_n p (extra + length (fn_inls f)) (fn_inls f) addr 1;
                Ret (mk_out fo src (emit_frames st (i_origin e0) (fst cn) (rm_get (fn_lines f) addr)), S (snd cn))
            end
        end
    | None =>
        match find_nearest_public (st_publics st) addr with
        | None => Ret (empty_out, 0%nat)
        | Some pb =>
            let cut := match prev_func (st_funcs st) addr with
                       | Some (_, f) => p_addr pb <=? fn_addr f
                       | None => false
                       end in
            if cut then Ret (empty_out, 0%nat)
            else do b <- chk_add p 64 PANIC_ADD (p_addr pb) mbase;
                 Ret (mk_out (Some (p_name pb, b, p_psize pb)) None [], 0%nat)
        end
    end.

(* the instrumentation is faithful: dropping the counter gives the model's loop / fill_symbol *)
Lemma inline_loop_n_fst p fuel : forall inls addr depth,
  inline_loop p fuel inls addr depth = do x <- inline_loop_n p fuel inls addr depth; Ret (fst x).
Proof.
  induction fuel as [|f IH]; intros; [reflexivity|]. cbn [inline_loop inline_loop_n].
  destruct (get_inlinee_at_depth inls depth addr) as [[e|]| | |]; cbn [obind]; try reflexivity.
  destruct (chk_add p 32 PANIC_DEPTH depth 1) as [d'| | |]; cbn [obind]; try reflexivity.
  rewrite IH. destruct (inline_loop_n p f inls addr d'); reflexivity.
Qed.

Lemma fill_symbol_n_fst p st mbase instr :
  fill_symbol p st mbase instr = do x <- fill_symbol_n p 0 st mbase instr; Ret (fst x).
Proof.
  unfold fill_symbol, fill_symbol_n. destruct (instr <? mbase); [reflexivity|]. cbv zeta.
  destruct (rm_get (st_funcs st) (instr - mbase)) as [f|].
  - destruct (chk_add p 64 PANIC_ADD (fn_addr f) mbase); cbn [obind]; try reflexivity.
    destruct (get_outermost_sourceloc f (instr - mbase)) as [[[[[fid line] a0] [e0|]]|]| | |]; cbn [obind]; try reflexivity.
    + destruct (match assoc_last fid (st_files st) with Some _ => _ | None => _ end); cbn [obind]; try reflexivity.
      cbn [Nat.add]. rewrite inline_loop_n_fst.
      destruct (inline_loop_n p _ _ _ 1); reflexivity.
    + destruct (match assoc_last fid (st_files st) with Some _ => _ | None => _ end); reflexivity.
  - destruct (find_nearest_public (st_publics st) (instr - mbase)) as [pb|]; [|reflexivity].
    destruct (match prev_func (st_funcs st) (instr - mbase) with Some _ => _ | None => _ end); [reflexivity|].
    destruct (chk_add p 64 PANIC_ADD (p_addr pb) mbase); reflexivity.
Qed.

(* the loop makes exactly (chain length + 1) lookups, for every fuel that lets it stop by itself *)
Lemma inline_loop_n_ret p fuel : forall inls addr depth,
  0 <= depth -> depth + Z.of_nat (length (chain_from fuel inls addr depth)) < two32 ->
  (length (chain_from fuel inls addr depth) < fuel)%nat ->
  inline_loop_n p fuel inls addr depth =
    Ret (chain_from fuel inls addr depth, S (length (chain_from fuel inls addr depth))).
Proof.
  induction fuel as [|f IH]; intros inls addr depth Hd Hb Hl; [cbn in Hl; lia|].
  cbn [inline_loop_n chain_from] in *. rewrite giad_ret. cbn [obind].
  destruct (giad_pure inls depth addr) as [e0|]; [|reflexivity].
  cbn [length] in Hl, Hb.
  unfold chk_add, chk. replace (2 ^ 32) with two32 by reflexivity.
  destruct ((0 <=? depth + 1) && (depth + 1 <? two32)) eqn:E.
  - cbn [obind]. rewrite IH; [reflexivity|lia|lia|lia].
  - apply andb_false_iff in E. lia.
Qed.

(* the count, as a pure function of the table *)
Definition lookups_pure (st : symtab) (mbase instr : Z) : nat :=
  if instr <? mbase then 0%nat
  else match rm_get (st_funcs st) (instr - mbase) with
       | Some f => S (length (inl_chain f (instr - mbase)))
       | None => 0%nat
       end.

Lemma inl_chain_le f addr : (length (inl_chain f addr) <= length (fn_inls f))%nat.
Proof.
  unfold inl_chain. destruct (giad_pure (fn_inls f) 0 addr) as [e0|] eqn:E0; [|cbn; lia].
  pose proof (chain_short _ _ _ E0). cbn [length]. lia.
Qed.

Lemma fill_n_ret fixed p extra rf st mbase instr :
  wf_file rf -> st_rel fixed rf st -> 0 <= mbase -> instr < two64 ->
  fill_symbol_n p extra st mbase instr = Ret (fill_pure st mbase instr, lookups_pure st mbase instr).
Proof.
  intros Hwf Hrel Hmb Hin. unfold fill_symbol_n, fill_pure, lookups_pure, fill_func, fill_public.
  destruct (instr <? mbase) eqn:Elt; [reflexivity|]. apply Z.ltb_ge in Elt.
  set (addr := instr - mbase). destruct Hwf as (Hwff & Hwfp & _).
  destruct (rm_get (st_funcs st) addr) as [f|] eqn:Ef.
  - rewrite (sr_funcs _ _ _ Hrel) in Ef. apply func_lookup in Ef; [|assumption].
    destruct Ef as (fr & Hfr & Hcov & -> & Ha). rewrite Forall_forall in Hwff. specialize (Hwff _ Hfr).
    destruct (fin_inls_wf fixed fr Hwff) as [Hiw Hil].
    rewrite chk_add64_ok by (cbn [fin_func fn_addr]; unfold addr in *; lia). cbn [obind].
    unfold get_outermost_sourceloc, inl_chain. rewrite giad_ret. cbn [obind].
    destruct (giad_pure (fn_inls (fin_func fixed fr)) 0 addr) as [e0|] eqn:E0.
    + cbn [obind]. pose proof (giad_sound _ _ _ _ E0) as (He0in & _ & He0a & _).
      rewrite Forall_forall in Hiw. destruct (Hiw _ He0in) as (_ & [A1 A2] & _).
      pose proof (chain_short _ _ _ E0) as Hshort.
      set (inls := fn_inls (fin_func fixed fr)) in *.
      assert (Hge : chain_from (extra + length inls) inls addr 1 = chain_from (length inls) inls addr 1)
        by (apply chain_from_ge; [exact Hshort|lia]).
      unfold src_of. rewrite inline_loop_n_ret; [|lia| |].
      * rewrite Hge. cbn [fst snd length].
        destruct (assoc_last (i_cfile e0) (st_files st)); cbn [obind];
          [rewrite chk_add64_ok by (unfold addr in *; lia); cbn [obind]|]; reflexivity.
      * rewrite Hge. unfold two32 in *. lia.
      * rewrite Hge. lia.
    + destruct (rm_get (fn_lines (fin_func fixed fr)) addr) as [l|] eqn:El; cbn [obind]; [|reflexivity].
      cbn [fin_func fn_lines] in El. destruct Hwff as (_ & _ & Hlw & _).
      apply lines_lookup in El; [|assumption]. destruct El as (_ & _ & Hla).
      unfold src_of. destruct (assoc_last (l_file l) (st_files st)); cbn [obind];
        [rewrite chk_add64_ok by (unfold addr in *; lia); cbn [obind]|]; reflexivity.
  - destruct (find_nearest_public (st_publics st) addr) as [pb|] eqn:Epb; [|reflexivity].
    fold (public_cut st pb addr). destruct (public_cut st pb addr); [reflexivity|].
    unfold find_nearest_public in Epb. apply find_some in Epb. destruct Epb as [Hpin Hle]. rewrite <- in_rev in Hpin.
    rewrite (sr_pubs _ _ _ Hrel) in Hpin. apply sort_by_in in Hpin.
    rewrite Forall_forall in Hwfp. specialize (Hwfp _ Hpin). unfold wf_pub, u64 in Hwfp.
    rewrite chk_add64_ok by (unfold addr in *; lia). reflexivity.
Qed.

Lemma fill_ret fixed p rf st mbase instr :
  wf_file rf -> st_rel fixed rf st -> 0 <= mbase -> instr < two64 ->
  fill_symbol p st mbase instr = Ret (fill_pure st mbase instr).
Proof.
  intros Hwf Hrel Hmb Hin. rewrite fill_symbol_n_fst, (fill_n_ret fixed p 0 rf st mbase instr Hwf Hrel Hmb Hin).
  reflexivity.
Qed.

Lemma symbolize_ret fixed p rf mbase instr :
  wf_file rf -> 0 <= mbase -> instr < two64 ->
  exists st, st_rel fixed rf st /\ build_symtab_gen fixed rf = Ret st /\
             symbolize_gen fixed p rf mbase instr = Ret (fill_pure st mbase instr).
Proof.
  intros Hwf Hmb Hin. destruct (build_ok fixed rf Hwf) as [st [Hb Hrel]].
  exists st. split; [assumption|]. split; [assumption|]. unfold symbolize_gen. rewrite Hb. cbn [obind].
  eapply fill_ret; eassumption.
Qed.

Lemma inline_lookups_bounded p rf mbase instr :
  wf_file rf -> 0 <= mbase -> instr < two64 ->
  exists st o n, build_symtab rf = Ret st /\ symbolize p rf mbase instr = Ret o /\
    (forall extra, fill_symbol_n p extra st mbase instr = Ret (o, n)) /\
    (forall extra, fill_symbol p st mbase instr = do x <- fill_symbol_n p extra st mbase instr; Ret (fst x)) /\
    ((instr < mbase \/ rm_get (st_funcs st) (instr - mbase) = None) -> n = 0%nat) /\
    (forall f, mbase <= instr -> rm_get (st_funcs st) (instr - mbase) = Some f ->
       n = S (length (inl_chain f (instr - mbase))) /\
       exists fr, In fr (rf_funcs rf) /\ func_covers fr (instr - mbase) = true /\ f = fin_func true fr /\
                  (n <= length (fr_inls fr) + 1)%nat).
Proof.
  intros Hwf Hmb Hin. destruct (symbolize_ret true p rf mbase instr Hwf Hmb Hin) as (st & Hrel & Hb & Hs).
  exists st, (fill_pure st mbase instr), (lookups_pure st mbase instr).
  split; [exact Hb|]. split; [exact Hs|].
  split; [intros extra; eapply fill_n_ret; eassumption|].
  split.
  { intros extra. rewrite (fill_n_ret true p extra rf st mbase instr Hwf Hrel Hmb Hin). cbn [obind fst].
    eapply fill_ret; eassumption. }
  split.
  - unfold lookups_pure. intros [H|H].
    + apply Z.ltb_lt in H. rewrite H. reflexivity.
    + destruct (instr <? mbase); [reflexivity|]. rewrite H. reflexivity.
  - intros f Hge Hf. unfold lookups_pure. replace (instr <? mbase) with false by (symmetry; apply Z.ltb_ge; lia).
    rewrite Hf. split; [reflexivity|].
    rewrite (sr_funcs _ _ _ Hrel) in Hf. destruct Hwf as (Hwff & _).
    apply func_lookup in Hf; [|assumption]. destruct Hf as (fr & Hfr & Hcov & -> & _).
    exists fr. split; [assumption|]. split; [assumption|]. split; [reflexivity|].
    pose proof (inl_chain_le (fin_func true fr) (instr - mbase)) as H1.
    cbn [fin_func fn_inls] in H1. rewrite sort_by_length in H1.
    pose proof (keep_inls_length true (fr_inls fr)). lia.
Qed.

(* hypothesis of c11_isolated_func_found: the range of [fr] meets that of no block of [others] *)
Definition func_isolated (fr : func_raw) (others : list func_raw) : Prop :=
  forall fr' r r', In fr' others -> mk_range (fr_addr fr) (fr_size fr) = Some r ->
    mk_range (fr_addr fr') (fr_size fr') = Some r' -> intersects r r' = false.
