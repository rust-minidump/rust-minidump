(* C11/Proofs4.v — fifth (after Proofs3).  The PUBLIC fallback: nearest PUBLIC, previous-FUNC check ([fill_public_spec]). *)
From Coq Require Import Lia Sorting.Sorted Sorting.Permutation.
From RM Require Import C08.Model C08.Proofs C11.Model C11.Proofs1 C11.Proofs2 C11.Proofs3.
Open Scope Z_scope.

(* ---- the start of every table range is the start of an input range with that value *)
Section Starts.
Context {V : Type} (eqb : V -> V -> bool).
Definition start_from (inp : list (range * V)) (e : range * V) : Prop :=
  exists r0, In (r0, snd e) inp /\ fst (fst e) = fst r0.

Lemma merge_step_starts inp acc rv :
  Forall (start_from inp) acc -> In rv inp -> Forall (start_from inp) (merge_step eqb acc rv).
Proof.
  intros Hacc Hin. assert (Hrv : start_from inp rv) by (exists (fst rv); destruct rv; cbn; auto).
  destruct acc as [|[lr lv] acc']; cbn [merge_step]; [constructor; [exact Hrv|constructor]|].
  destruct rv as [r v].
  destruct ((fst r <=? snd lr) && negb (eqb v lv)); [assumption|].
  destruct ((fst r <=? sat_add 64 (snd lr) 1) && eqb v lv); [|constructor; assumption].
  inversion Hacc as [|? ? H1 H2]; subst. constructor; [|assumption].
  destruct H1 as [r0 [A B]]. exists r0. cbn [fst snd] in *. auto.
Qed.

Lemma fold_merge_starts inp l : forall acc,
  Forall (start_from inp) acc -> incl l inp -> Forall (start_from inp) (fold_left (merge_step eqb) l acc).
Proof.
  induction l as [|rv t IH]; intros acc Hacc Hincl; cbn [fold_left]; [assumption|].
  apply IH; [apply merge_step_starts; [assumption|apply Hincl; left; reflexivity]|].
  intros a Ha. apply Hincl. right. exact Ha.
Qed.

Lemma merge_sorted_starts l : Forall (start_from l) (merge_sorted eqb l).
Proof. unfold merge_sorted. apply Forall_rev. apply fold_merge_starts; [constructor|apply incl_refl]. Qed.
End Starts.

(* every entry of the FUNC table is a FUNC record of the file, keyed by its own address *)
Lemma table_entry fixed fl r f :
  In (r, f) (into_rangemap_safe_p func_eqb (fin_list fixed fl)) ->
  exists fr, In fr fl /\ f = fin_func fixed fr /\ fn_addr f = fst r /\
             mk_range (fr_addr fr) (fr_size fr) <> None.
Proof.
  intros Hin. unfold into_rangemap_safe_p in Hin.
  pose proof (merge_sorted_starts func_eqb (sort_stable range_lt (fin_list fixed fl))) as Hs.
  rewrite Forall_forall in Hs. destruct (Hs _ Hin) as [r0 [A B]]. cbn [fst snd] in *.
  eapply Permutation_in in A; [|symmetry; apply sort_perm].
  apply fin_list_in in A. destruct A as [fr [Hfr Hp]]. exists fr. split; [assumption|].
  unfold fin_pure in Hp. destruct (mk_range (fr_addr fr) (fr_size fr)) as [r1|] eqn:E; [|discriminate].
  inversion Hp; subst. split; [reflexivity|]. split; [|discriminate].
  apply mk_range_shape in E. destruct E as (-> & _ & _). cbn [fin_func fn_addr fst]. rewrite B. reflexivity.
Qed.

Lemma find_app {A} (f : A -> bool) u v :
  find f (u ++ v) = match find f u with Some x => Some x | None => find f v end.
Proof. induction u as [|a t IH]; cbn [find app]; [reflexivity|]. destruct (f a); [reflexivity|exact IH]. Qed.

Lemma find_rev_last {A} (f : A -> bool) l x : find f (rev l) = Some x ->
  exists l1 l2, l = l1 ++ x :: l2 /\ f x = true /\ Forall (fun y => f y = false) l2.
Proof.
  induction l as [|a t IH]; cbn [rev]; [discriminate|]. rewrite find_app.
  destruct (find f (rev t)) as [y|] eqn:E.
  - intros H; inversion H; subst y. destruct (IH eq_refl) as (l1 & l2 & A1 & A2 & A3).
    exists (a :: l1), l2. subst t. auto.
  - cbn [find]. destruct (f a) eqn:Ea; [|discriminate]. intros H; inversion H; subst x.
    exists [], t. split; [reflexivity|]. split; [assumption|]. rewrite Forall_forall. intros y Hy.
    eapply find_none in E; [exact E|]. rewrite <- in_rev. exact Hy.
Qed.

Lemma nearest_public_spec pubs addr :
  match find_nearest_public (sort_by pub_lt pubs) addr with
  | Some pb => In pb pubs /\ p_addr pb <= addr /\
               forall q, In q pubs -> p_addr q <= addr -> pub_lt pb q = false
  | None => forall q, In q pubs -> addr < p_addr q
  end.
Proof.
  unfold find_nearest_public.
  destruct (find (fun p => p_addr p <=? addr) (rev (sort_by pub_lt pubs))) as [pb|] eqn:E.
  - apply find_rev_last in E. destruct E as (l1 & l2 & Hl & Hf & Hall).
    assert (Hin : In pb pubs).
    { apply (sort_by_in pub_lt). rewrite Hl. apply in_or_app. right. left. reflexivity. }
    split; [assumption|]. split; [lia|]. intros q Hq Hqa.
    apply (sort_by_in pub_lt) in Hq. rewrite Hl in Hq. apply in_app_or in Hq.
    pose proof (sort_by_sorted pub_lt pubs pub_lt_asym pub_lt_negtrans) as Hs. unfold sorted in Hs. rewrite Hl in Hs.
    destruct Hq as [Hq|[Hq|Hq]].
    + apply ss_app_left in Hs. rewrite Forall_forall in Hs. exact (Hs _ Hq).
    + subst q. apply lex_lt_irrefl.
    + rewrite Forall_forall in Hall. apply Hall in Hq. lia.
  - intros q Hq. apply (sort_by_in pub_lt) in Hq. rewrite in_rev in Hq.
    eapply find_none in E; [|exact Hq]. cbn in E. lia.
Qed.

(* ---- prev_func on a sorted table in which no range contains the address *)
Definition pf_cmp (addr : Z) (e : range * func) : ordering := cmp_z (fst (fst e)) addr.

Lemma cmp_z_greater a b : cmp_z a b = OGreater <-> b < a.
Proof.
  unfold cmp_z. destruct (a <? b) eqn:E1.
  - apply Z.ltb_lt in E1. split; [discriminate|lia].
  - apply Z.ltb_ge in E1. destruct (b <? a) eqn:E2.
    + apply Z.ltb_lt in E2. split; [intros _; exact E2|reflexivity].
    + apply Z.ltb_ge in E2. split; [discriminate|lia].
Qed.
Lemma cmp_z_equal a b : cmp_z a b = OEqual -> a = b.
Proof. unfold cmp_z. destruct (a <? b) eqn:E1; [discriminate|]. destruct (b <? a) eqn:E2; [discriminate|]. lia. Qed.

Lemma prev_func_spec (T : list (range * func)) addr :
  StronglySorted (fun a b => snd (fst a) < fst (fst b)) T -> wf_ranges T -> rm_get T addr = None ->
  match prev_func T addr with
  | Some c => In c T /\ fst (fst c) <= addr /\
              forall e, In e T -> fst (fst e) <= addr -> fst (fst e) <= fst (fst c)
  | None => forall e, In e T -> addr < fst (fst e)
  end.
Proof.
  intros Hs Hwf Hg.
  assert (Hwf' : forall e, In e T -> fst (fst e) <= snd (fst e)).
  { intros e He. unfold wf_ranges in Hwf. rewrite Forall_forall in Hwf. apply Hwf in He. unfold wf_range in He. lia. }
  assert (Heq : prev_func T addr = bs_cand (pf_cmp addr) T).
  { unfold prev_func, bs_cand. fold (pf_cmp addr).
    pose proof (bsearch_spec (pf_cmp addr) T) as H. destruct (bsearch_by (pf_cmp addr) T) as [i|[|i]]; try reflexivity.
    destruct H as [[r f] [H1 [H2 _]]]. exfalso. unfold pf_cmp in H2. apply cmp_z_equal in H2. cbn [fst] in H2.
    apply nth_error_In in H1. rewrite (rm_get_complete T addr r f) in Hg; [discriminate|assumption|assumption|assumption|].
    unfold contains. specialize (Hwf' _ H1). cbn [fst snd] in *. lia. }
  rewrite Heq.
  assert (Hm : forall a b, In a T -> snd (fst a) < fst (fst b) ->
                 pf_cmp addr a = OGreater -> pf_cmp addr b = OGreater).
  { intros a b Ha Hab Hc. unfold pf_cmp in *. apply cmp_z_greater in Hc. apply cmp_z_greater.
    specialize (Hwf' a Ha). destruct a as [[? ?] ?], b as [[? ?] ?]; cbn [fst snd] in *. lia. }
  pose proof (bs_cand_greatest (pf_cmp addr) _ T Hs Hm) as H.
  destruct (bs_cand (pf_cmp addr) T) as [c|].
  - destruct H as (Hin & Hng & Hmax).
    assert (Hc : fst (fst c) <= addr).
    { destruct (Z_le_gt_dec (fst (fst c)) addr); [assumption|]. exfalso. apply Hng. apply cmp_z_greater. lia. }
    split; [exact Hin|]. split; [exact Hc|]. intros e He Hea.
    destruct (Hmax e He) as [->|Hord]; [unfold pf_cmp; rewrite cmp_z_greater; lia|lia|].
    specialize (Hwf' e He). destruct e as [[? ?] ?], c as [[? ?] ?]; cbn [fst snd] in *. lia.
  - intros e He. apply cmp_z_greater. exact (H e He).
Qed.

Definition cut_by_func (st : symtab) (pb : pub_rec) (addr : Z) : Prop :=
  exists r f, In (r, f) (st_funcs st) /\ fn_addr f = fst r /\ p_addr pb <= fn_addr f <= addr.

Lemma fill_public_spec fixed rf st mbase addr :
  wf_file rf -> st_rel fixed rf st -> rm_get (st_funcs st) addr = None ->
  let o := fill_public st mbase addr in
  ((forall q, In q (rf_publics rf) -> addr < p_addr q) /\ o = empty_out) \/
  (exists pb, In pb (rf_publics rf) /\ p_addr pb <= addr /\
      (forall q, In q (rf_publics rf) -> p_addr q <= addr -> pub_lt pb q = false) /\
      ((cut_by_func st pb addr /\ o = empty_out) \/
       (~ cut_by_func st pb addr /\
        o = mk_out (Some (p_name pb, p_addr pb + mbase, p_psize pb)) None []))).
Proof.
  intros Hwf Hrel Hg o. subst o. unfold fill_public. rewrite (sr_pubs _ _ _ Hrel).
  pose proof (nearest_public_spec (rf_publics rf) addr) as Hn.
  destruct (find_nearest_public (sort_by pub_lt (rf_publics rf)) addr) as [pb|]; [|left; auto].
  destruct Hn as (Hin & Hle & Hmax). right. exists pb. split; [assumption|]. split; [assumption|].
  split; [assumption|].
  destruct Hwf as (Hwff & _).
  destruct (sorted_disjoint_p func_eqb (fin_list fixed (rf_funcs rf)) (fin_list_wf fixed _ Hwff)) as [Hs Hw].
  rewrite <- (sr_funcs _ _ _ Hrel) in Hs, Hw.
  pose proof (prev_func_spec (st_funcs st) addr Hs Hw Hg) as Hp.
  assert (Hent : forall r f, In (r, f) (st_funcs st) -> fn_addr f = fst r).
  { intros r f Hrf. rewrite (sr_funcs _ _ _ Hrel) in Hrf. apply table_entry in Hrf.
    destruct Hrf as (fr & _ & _ & E & _). exact E. }
  unfold public_cut. destruct (prev_func (st_funcs st) addr) as [[r f]|].
  - destruct Hp as (Hc1 & Hc2 & Hc3). cbn [fst snd] in *. pose proof (Hent _ _ Hc1) as Ef.
    destruct (p_addr pb <=? fn_addr f) eqn:Ecut.
    + left. split; [|reflexivity]. exists r, f. split; [assumption|]. split; [assumption|]. lia.
    + right. split; [|reflexivity]. intros (r' & f' & A & B & C).
      specialize (Hc3 (r', f') A). cbn [fst] in Hc3. lia.
  - right. split; [|reflexivity]. intros (r' & f' & A & B & C).
    specialize (Hp (r', f') A). cbn [fst] in Hp. lia.
Qed.
