(* C11/Proofs7.v — ninth (needs Proofs2 and Proofs9 only).  Symbolizer level: module lookup (C08) composed with
   fill_symbol ([module_lookup_compose], [module_frame_total]); a module that meets no other is found. *)
From Coq Require Import Lia Sorting.Sorted Sorting.Permutation.
From RM Require Import C08.Model C08.Proofs C08.IndexProofs C11.Model C11.Proofs1 C11.Proofs2 C11.Proofs9.
Open Scope Z_scope.

Definition wf_module (m : module) : Prop := u64 (fst (fst m)) /\ 0 <= snd (fst m).

Lemma mod_ranges_wf (mods : list module) : Forall wf_module mods ->
  wf_entries (enumerate_from 0 (map (fun m : module => mk_range (fst (fst m)) (snd (fst m))) mods)).
Proof.
  intros H. unfold wf_entries. rewrite Forall_forall. intros [o i] Hin. apply enumerate_from_in in Hin.
  destruct Hin as [_ Hn]. cbn [fst]. destruct o as [r|]; [|exact I].
  apply nth_error_In in Hn. apply in_map_iff in Hn. destruct Hn as (m & E & Hm).
  rewrite Forall_forall in H. destruct (H _ Hm) as [[A _] B]. eapply mk_range_wf; [| |exact E]; lia.
Qed.

Lemma module_lookup_compose p (mods : list module) instr :
  Forall wf_module mods ->
  exists tbl, mod_table mods = Ret tbl /\
    match rm_get tbl instr with
    | None => frame_of p tbl mods instr = Ret None
    | Some idx =>
        exists b sz ost r, 0 <= idx /\ nth_error mods (Z.to_nat idx) = Some (b, sz, ost) /\
          mk_range b sz = Some r /\ contains r instr = true /\ b <= instr /\
          frame_of p tbl mods instr =
            match ost with
            | Some st => do o <- fill_symbol p st b instr;
                         Ret (Some (idx, mk_out (o_func o) (o_src o) (rev (o_inl o))))
            | None => Ret (Some (idx, empty_out))
            end
    end.
Proof.
  intros Hwf. pose proof (mod_ranges_wf mods Hwf) as Hw.
  unfold mod_table, build_indexed. rewrite (build_total Z.eqb) by exact Hw.
  eexists. split; [reflexivity|]. unfold frame_of.
  destruct (rm_get _ instr) as [idx|] eqn:Eg; [|reflexivity].
  apply (lookup_sound Z.eqb Z.eqb_eq) in Eg; [|exact Hw]. destruct Eg as (r & Hin & Hc).
  apply enumerate_from_in in Hin. destruct Hin as [Hi Hn]. rewrite Z.sub_0_r in Hn.
  rewrite nth_error_map in Hn. destruct (nth_error mods (Z.to_nat idx)) as [[[b sz] ost]|] eqn:En; [|discriminate].
  cbn [option_map fst snd] in Hn. inversion Hn as [Hr].
  exists b, sz, ost, r. split; [exact Hi|]. split; [reflexivity|]. split; [exact Hr|]. split; [exact Hc|].
  split.
  - apply mk_range_shape in Hr. destruct Hr as (-> & _ & _). unfold contains in Hc. cbn [fst snd] in Hc. lia.
  - destruct ost; reflexivity.
Qed.

Definition module_parsed (m : module) : Prop :=
  match snd m with Some st => exists rf, wf_file rf /\ st_rel true rf st | None => True end.

(* with every module's table parsed from a file: no panic, and the frame is the pure result
   for the module found, at that module's base, inlines reversed *)
Lemma module_frame_total p (mods : list module) instr :
  Forall wf_module mods -> Forall module_parsed mods -> instr < two64 ->
  exists tbl, mod_table mods = Ret tbl /\
    frame_of p tbl mods instr =
      Ret (match rm_get tbl instr with
           | None => None
           | Some idx =>
               match nth_error mods (Z.to_nat idx) with
               | Some (b, _, Some st) =>
                   let o := fill_pure st b instr in Some (idx, mk_out (o_func o) (o_src o) (rev (o_inl o)))
               | _ => Some (idx, empty_out)
               end
           end).
Proof.
  intros Hwf Hp Hi. destruct (module_lookup_compose p mods instr Hwf) as (tbl & Et & H).
  exists tbl. split; [exact Et|]. destruct (rm_get tbl instr) as [idx|]; [|exact H].
  destruct H as (b & sz & ost & r & _ & En & _ & _ & _ & Ef). rewrite Ef, En.
  destruct ost as [st|]; [|reflexivity].
  pose proof (nth_error_In _ _ En) as Hin. rewrite Forall_forall in Hwf, Hp.
  destruct (Hwf _ Hin) as [[Hb _] _]. destruct (Hp _ Hin) as (rf & Hrf & Hrel). cbn [fst snd] in *.
  rewrite (fill_ret true p rf st b instr Hrf Hrel Hb Hi). reflexivity.
Qed.

(* ---- a module that contains the instruction and intersects no other module is the one the frame is attributed to *)
Lemma isolated_module_found p (m1 : list module) b sz ost (m2 : list module) instr r :
  Forall wf_module (m1 ++ (b, sz, ost) :: m2) ->
  mk_range b sz = Some r -> contains r instr = true ->
  (forall m r', In m (m1 ++ m2) -> mk_range (fst (fst m)) (snd (fst m)) = Some r' -> intersects r r' = false) ->
  exists tbl, mod_table (m1 ++ (b, sz, ost) :: m2) = Ret tbl /\
    rm_get tbl instr = Some (Z.of_nat (length m1)) /\ b <= instr /\
    frame_of p tbl (m1 ++ (b, sz, ost) :: m2) instr =
      match ost with
      | Some st => do o <- fill_symbol p st b instr;
                   Ret (Some (Z.of_nat (length m1), mk_out (o_func o) (o_src o) (rev (o_inl o))))
      | None => Ret (Some (Z.of_nat (length m1), empty_out))
      end.
Proof.
  intros Hwf Hr Hc Hiso. pose proof (mod_ranges_wf _ Hwf) as Hw.
  unfold mod_table, build_indexed. rewrite (build_total Z.eqb) by exact Hw.
  eexists. split; [reflexivity|].
  assert (Hg : rm_get (into_rangemap_safe Z.eqb
             (enumerate_from 0 (map (fun m : module => mk_range (fst (fst m)) (snd (fst m))) (m1 ++ (b, sz, ost) :: m2)))) instr
           = Some (Z.of_nat (length m1))).
  { revert Hw. rewrite map_app. cbn [map fst snd]. rewrite Hr. rewrite enumerate_from_app. cbn [enumerate_from].
    rewrite map_length, Z.add_0_l. intros Hw.
    apply (isolated_complete Z.eqb Z.eqb_eq); [exact Hw| |exact Hc].
    intros r' v' Hin'. apply in_app_or in Hin'.
    assert (Hm : exists m, In m (m1 ++ m2) /\ mk_range (fst (fst m)) (snd (fst m)) = Some r').
    { destruct Hin' as [Hin'|Hin']; apply enumerate_from_in in Hin'; destruct Hin' as [_ Hn];
        apply nth_error_In in Hn; apply in_map_iff in Hn; destruct Hn as (m & E & Hm);
        exists m; (split; [apply in_or_app; auto|exact E]). }
    destruct Hm as (m & Hm & E). eapply Hiso; eassumption. }
  split; [exact Hg|]. split.
  { apply mk_range_shape in Hr. destruct Hr as (-> & _ & _). unfold contains in Hc. cbn [fst snd] in Hc. lia. }
  unfold frame_of. rewrite Hg. rewrite Nat2Z.id. rewrite nth_error_app2 by lia. rewrite Nat.sub_diag. cbn [nth_error].
  destruct ost; reflexivity.
Qed.
