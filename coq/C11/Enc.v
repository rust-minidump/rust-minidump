(* C11/Enc.v — after Text3.  Encodings [nm] / [tg] satisfying [enc_names_ok] exist for every parser state the
   recogniser can reach, so c11_from_bytes needs no hypothesis besides the length of the text.
   - String order: [rle_compare] on run-length-encoded strings with positive counts IS the lexicographic
     order of the decoded byte strings ([rle_cmp_decode]), hence a strict total order; on normal forms
     (adjacent runs of different bytes) decoding is injective.  Every name the parser stores is a normal
     form (it comes out of [rle_norm]).  [nm] = rank of the name among the names of the text.
   - [tg] = position of the record's payload (every STACK WIN field but address / size / parameter size)
     among the payloads of the text's STACK WIN records. *)
From Coq Require Import Lia ZArith List Bool.
From RM Require C09.Model.
From RM Require Import Base.Word C08.Model C08.Proofs C09.Grammar C09.Driver C09.Proofs C09.ProofsBytes
                       C09.ProofsFinish C09.ProofsFinal.
From RM Require Import C11.Model C11.Proofs1 C11.Proofs2 C11.Text C11.Text2 C11.Text3.
Import ListNotations.
Open Scope Z_scope.

Definition decode (s : rle) : list Z :=
  flat_map (fun r : Z * Z => repeat (fst r) (Z.to_nat (Z.max 1 (snd r)))) s.

Fixpoint lcmp (a b : list Z) : comparison :=
  match a, b with
  | [], [] => Eq
  | [], _ :: _ => Lt
  | _ :: _, [] => Gt
  | x :: a', y :: b' => if x <? y then Lt else if y <? x then Gt else lcmp a' b'
  end.

Lemma lcmp_eq a : forall b, lcmp a b = Eq -> a = b.
Proof.
  induction a as [|x a IH]; intros [|y b]; cbn [lcmp]; try discriminate; [reflexivity|].
  destruct (x <? y) eqn:E1; [discriminate|]. destruct (y <? x) eqn:E2; [discriminate|].
  intros H. apply Z.ltb_ge in E1, E2. f_equal; [lia|apply IH; exact H].
Qed.
Lemma lcmp_refl a : lcmp a a = Eq.
Proof. induction a as [|x a IH]; cbn [lcmp]; [reflexivity|]. rewrite Z.ltb_irrefl. exact IH. Qed.
Lemma lcmp_antisym a : forall b, lcmp b a = CompOpp (lcmp a b).
Proof.
  induction a as [|x a IH]; intros [|y b]; cbn [lcmp CompOpp]; try reflexivity.
  destruct (x <? y) eqn:E1, (y <? x) eqn:E2; cbn [CompOpp]; try reflexivity; [|apply IH].
  apply Z.ltb_lt in E1, E2. lia.
Qed.
Lemma lcmp_trans_lt a : forall b c, lcmp a b = Lt -> lcmp b c = Lt -> lcmp a c = Lt.
Proof.
  induction a as [|x a IH]; intros [|y b] [|z c]; cbn [lcmp]; try discriminate; try reflexivity.
  destruct (x <? y) eqn:E1; [|destruct (y <? x) eqn:E2; [discriminate|]];
    (destruct (y <? z) eqn:E3; [|destruct (z <? y) eqn:E4; [discriminate|]]); intros H1 H2;
    rewrite ?Z.ltb_lt, ?Z.ltb_ge in *.
  - rewrite (proj2 (Z.ltb_lt x z)) by lia. reflexivity.
  - rewrite (proj2 (Z.ltb_lt x z)) by lia. reflexivity.
  - rewrite (proj2 (Z.ltb_lt x z)) by lia. reflexivity.
  - assert (x = y) by lia. assert (y = z) by lia. subst. rewrite Z.ltb_irrefl. eapply IH; eassumption.
Qed.

Lemma lcmp_repeat (x : Z) n A B : lcmp (repeat x n ++ A) (repeat x n ++ B) = lcmp A B.
Proof. induction n as [|n IH]; cbn [repeat app lcmp]; [reflexivity|]. rewrite Z.ltb_irrefl. exact IH. Qed.

Definition pos (s : rle) : Prop := Forall (fun r : Z * Z => 1 <= snd r) s.

Lemma decode_cons x c t : 1 <= c -> decode ((x, c) :: t) = repeat x (Z.to_nat c) ++ decode t.
Proof. intros H. unfold decode. cbn [flat_map fst snd]. rewrite Z.max_r by lia. reflexivity. Qed.

Lemma repeat_split (x : Z) c d : 1 <= c -> c < d ->
  repeat x (Z.to_nat d) = repeat x (Z.to_nat c) ++ repeat x (Z.to_nat (d - c)).
Proof.
  intros H1 H2. rewrite <- repeat_app. f_equal. lia.
Qed.

Lemma repeat_hd (x : Z) c : 1 <= c -> repeat x (Z.to_nat c) = x :: repeat x (Z.to_nat (c - 1)).
Proof. intros H. replace (Z.to_nat c) with (S (Z.to_nat (c - 1))) by lia. reflexivity. Qed.

(* rle_cmp computes the lexicographic order of the decoded strings *)
Lemma rle_cmp_decode : forall fuel a b, pos a -> pos b -> (length a + length b < fuel)%nat ->
  rle_cmp fuel a b = lcmp (decode a) (decode b).
Proof.
  induction fuel as [|f IH]; intros a b Ha Hb Hf; [lia|]. cbn [rle_cmp].
  destruct a as [|[x c] a'], b as [|[y d] b'].
  - reflexivity.
  - inversion Hb as [|? ? Hd Hb']; subst. cbn [snd] in Hd. rewrite decode_cons, repeat_hd by lia. reflexivity.
  - inversion Ha as [|? ? Hc Ha']; subst. cbn [snd] in Hc. rewrite decode_cons, repeat_hd by lia. reflexivity.
  - inversion Ha as [|? ? Hc Ha']; inversion Hb as [|? ? Hd Hb']; subst. cbn [snd] in Hc, Hd. cbn [length] in Hf.
    destruct (x <? y) eqn:E1.
    { rewrite !decode_cons by lia. rewrite (repeat_hd x c), (repeat_hd y d) by lia. cbn [app lcmp]. rewrite E1. reflexivity. }
    destruct (y <? x) eqn:E2.
    { rewrite !decode_cons by lia. rewrite (repeat_hd x c), (repeat_hd y d) by lia. cbn [app lcmp]. rewrite E1, E2. reflexivity. }
    apply Z.ltb_ge in E1, E2. assert (x = y) by lia. subst y.
    destruct (c =? d) eqn:E3.
    { apply Z.eqb_eq in E3. subst d. rewrite !decode_cons by lia. rewrite lcmp_repeat.
      apply IH; [assumption|assumption|lia]. }
    apply Z.eqb_neq in E3. destruct (c <? d) eqn:E4.
    + apply Z.ltb_lt in E4. rewrite IH; [|assumption|constructor; [cbn [snd]; lia|assumption]|cbn [length]; lia].
      rewrite (decode_cons x c), (decode_cons x d), (decode_cons x (d - c)) by lia.
      rewrite (repeat_split x c d) by lia. rewrite <- app_assoc, lcmp_repeat. reflexivity.
    + apply Z.ltb_ge in E4. rewrite IH; [|constructor; [cbn [snd]; lia|assumption]|assumption|cbn [length]; lia].
      rewrite (decode_cons x c), (decode_cons x d), (decode_cons x (c - d)) by lia.
      rewrite (repeat_split x d c) by lia. rewrite <- app_assoc, lcmp_repeat. reflexivity.
Qed.

Lemma rle_compare_decode a b : pos a -> pos b -> rle_compare a b = lcmp (decode a) (decode b).
Proof. intros Ha Hb. unfold rle_compare. apply rle_cmp_decode; [assumption|assumption|lia]. Qed.

Fixpoint normal (s : rle) : Prop :=
  match s with
  | [] => True
  | (b, c) :: t => 1 <= c /\ match t with (b', _) :: _ => b <> b' | [] => True end /\ normal t
  end.

Lemma normal_pos s : normal s -> pos s.
Proof.
  induction s as [|[b c] t IH]; intros H; [constructor|]. destruct H as (H1 & _ & H3).
  constructor; [exact H1|apply IH; exact H3].
Qed.

Lemma repeat_app_inj (x : Z) : forall n m (A B : list Z),
  hd_error A <> Some x -> hd_error B <> Some x -> repeat x n ++ A = repeat x m ++ B -> n = m /\ A = B.
Proof.
  induction n as [|n IH]; intros [|m] A B HA HB; cbn [repeat app].
  - auto.
  - intros ->. exfalso. apply HA. reflexivity.
  - intros <-. exfalso. apply HB. reflexivity.
  - intros H. inversion H as [H']. destruct (IH m A B HA HB H') as [-> ->]. auto.
Qed.

Lemma decode_hd b c t : normal ((b, c) :: t) -> hd_error (decode t) <> Some b.
Proof.
  intros (_ & H2 & H3). destruct t as [|[b' c'] t']; [cbn; discriminate|].
  destruct H3 as (H4 & _). rewrite decode_cons, repeat_hd by lia. cbn [app hd_error]. congruence.
Qed.

Lemma decode_inj a : forall b, normal a -> normal b -> decode a = decode b -> a = b.
Proof.
  induction a as [|[x c] a' IH]; intros [|[y d] b'] Ha Hb; try reflexivity.
  - destruct Hb as (Hd & _). rewrite decode_cons, repeat_hd by lia. discriminate.
  - destruct Ha as (Hc & _). rewrite decode_cons, repeat_hd by lia. discriminate.
  - pose proof Ha as (Hc & _ & Ha'). pose proof Hb as (Hd & _ & Hb').
    rewrite !decode_cons by lia. intros H.
    assert (x = y). { rewrite (repeat_hd x c), (repeat_hd y d) in H by lia. inversion H. reflexivity. }
    subst y. apply repeat_app_inj in H; [|eapply decode_hd; exact Ha|eapply decode_hd; exact Hb].
    destruct H as [Hn Ht]. f_equal; [f_equal; lia|apply IH; assumption].
Qed.

(* rle_norm produces normal forms *)
Lemma rev_append_normal : forall acc tl, normal acc -> normal tl ->
  match acc, tl with (b, _) :: _, (b', _) :: _ => b <> b' | _, _ => True end ->
  normal (rev_append acc tl).
Proof.
  induction acc as [|[b c] acc IH]; intros tl Ha Ht Hj; cbn [rev_append]; [exact Ht|].
  destruct Ha as (Hc & Hadj & Ha'). apply IH; [exact Ha'| |].
  - cbn [normal]. split; [exact Hc|]. split; [|exact Ht]. destruct tl as [|[b' c'] tl']; [exact I|exact Hj].
  - destruct acc as [|[b0 c0] acc0]; [exact I|]. intros E. apply Hadj. symmetry. exact E.
Qed.

Lemma rle_norm_acc_normal : forall s acc, normal acc -> normal (rle_norm_acc s acc).
Proof.
  induction s as [|[b c] t IH]; intros acc Ha; cbn [rle_norm_acc].
  - apply rev_append_normal; [exact Ha|exact I|destruct acc as [|[? ?] ?]; exact I].
  - destruct acc as [|[b0 c0] acc'].
    + apply IH. cbn [normal]. split; [lia|]. split; exact I.
    + destruct (b0 =? b) eqn:E.
      * apply IH. destruct Ha as (H1 & H2 & H3). cbn [normal]. split; [lia|]. split; assumption.
      * apply IH. apply Z.eqb_neq in E. cbn [normal]. split; [lia|]. split; [congruence|exact Ha].
Qed.

Lemma rle_norm_normal s : normal (rle_norm s).
Proof. unfold rle_norm. apply rle_norm_acc_normal. exact I. Qed.

Lemma name_eol_normal s n : name_eol s = Some n -> normal n.
Proof.
  unfold name_eol. destruct (span_not is_cr s) as [name r]. destruct (utf8_ok name && eol r); [|discriminate].
  intros H; inversion H; subst. apply rle_norm_normal.
Qed.

Definition fr_nn (_ : Z) (f : Grammar.func_raw) : Prop := normal (Grammar.fr_name f).
Definition pb_nn (pb : pub_sym) : Prop := normal (pb_name pb).
Definition pst_nn : pst -> Prop := pst_inv fr_nn pb_nn (fun _ => True) 0.
Definition item_nn : item -> Prop := item_inv fr_nn pb_nn (fun _ => True).

Lemma p_func_nn s it : p_func s = POk it -> item_nn it.
Proof. unfold p_func, cutp. cbv zeta. intros H. crack. cbn. eapply name_eol_normal; eassumption. Qed.
Lemma p_public_nn s it : p_public s = POk it -> item_nn it.
Proof. unfold p_public, cutp. cbv zeta. intros H. crack. cbn. eapply name_eol_normal; eassumption. Qed.
Lemma line_top_nn s it : line_top s = Some it -> item_nn it.
Proof.
  apply alt_inv. repeat constructor; intros i H; try (exact (p_public_nn s i H) || exact (p_func_nn s i H)).
  (* the other record parsers return items that hold no name *)
  all: unfold p_info_url, p_info, p_file, p_inline_origin, p_stack_win, p_stack_cfi_init, p_module, cutp, guard in H;
    crack; try exact I.
  unfold win_of_fields. cbv zeta. repeat match goal with |- context [if ?c then _ else _] => destruct c end; exact I.
Qed.

Lemma close_cur_nn p : pst_nn p -> pst_nn (close_cur p) /\ p_cur (close_cur p) = CNone.
Proof. exact (close_cur_inv fr_nn pb_nn _ 0 p). Qed.

(* sub-records of an open FUNC block leave its name alone, and the byte count plays no part *)
Lemma replay_nn (ds : list (bool * rle)) q :
  RM.C09.Model.replay rle pst recog_pst bump_pst lineno_pst init_pst ds = inl q -> pst_nn q.
Proof.
  exact (replay_inv fr_nn pb_nn (fun _ => True) (fun _ _ _ _ N => N) line_top_nn (fun _ _ _ _ _ N => N)
           (fun _ _ _ _ _ N => N) ds 0 init_pst q (Z.le_refl 0) (init_pst_inv _ _ _)).
Qed.

Section Rank.
Variable S : list rle.
Definition ltb (a b : rle) : bool := match lcmp (decode a) (decode b) with Lt => true | _ => false end.
Definition nm_rank (s : rle) : Z := Z.of_nat (length (filter (fun n => ltb n s) S)).

Lemma filter_length_le {A} (f g : A -> bool) l :
  (forall x, In x l -> f x = true -> g x = true) -> (length (filter f l) <= length (filter g l))%nat.
Proof.
  induction l as [|x t IH]; intros H; cbn [filter]; [lia|].
  assert (IH' := IH (fun y Hy => H y (or_intror Hy))).
  destruct (f x) eqn:Ef.
  - rewrite (H x (or_introl eq_refl) Ef). cbn [length]. lia.
  - destruct (g x); cbn [length]; lia.
Qed.
Lemma filter_length_lt {A} (f g : A -> bool) l a :
  (forall x, In x l -> f x = true -> g x = true) -> In a l -> f a = false -> g a = true ->
  (length (filter f l) < length (filter g l))%nat.
Proof.
  induction l as [|x t IH]; intros H Ha Hfa Hga; [destruct Ha|]. cbn [filter].
  destruct Ha as [->|Ha].
  - rewrite Hfa, Hga. cbn [length]. pose proof (filter_length_le f g t (fun y Hy => H y (or_intror Hy))). lia.
  - specialize (IH (fun y Hy => H y (or_intror Hy)) Ha Hfa Hga).
    destruct (f x) eqn:Ef.
    + rewrite (H x (or_introl eq_refl) Ef). cbn [length]. lia.
    + destruct (g x); cbn [length]; lia.
Qed.

Lemma nm_rank_lt a b : In a S -> lcmp (decode a) (decode b) = Lt -> nm_rank a < nm_rank b.
Proof.
  intros Ha Hlt. unfold nm_rank. apply inj_lt. apply (filter_length_lt _ _ S a).
  - intros x _ Hx. unfold ltb in *. destruct (lcmp (decode x) (decode a)) eqn:E; try discriminate.
    rewrite (lcmp_trans_lt _ _ _ E Hlt). reflexivity.
  - exact Ha.
  - unfold ltb. rewrite lcmp_refl. reflexivity.
  - unfold ltb. rewrite Hlt. reflexivity.
Qed.

Lemma nm_rank_eq a b : decode a = decode b -> nm_rank a = nm_rank b.
Proof. intros E. unfold nm_rank, ltb. rewrite E. reflexivity. Qed.

(* on normal forms of S: order-preserving and injective *)
Lemma nm_rank_compare a b : In a S -> In b S -> normal a -> normal b ->
  rle_compare a b = (nm_rank a ?= nm_rank b).
Proof.
  intros Ha Hb Na Nb. rewrite (rle_compare_decode a b (normal_pos a Na) (normal_pos b Nb)).
  destruct (lcmp (decode a) (decode b)) eqn:E.
  - apply lcmp_eq in E. rewrite (nm_rank_eq a b E). symmetry. apply Z.compare_refl.
  - symmetry. apply Z.compare_lt_iff. apply nm_rank_lt; assumption.
  - symmetry. apply Z.compare_gt_iff. apply nm_rank_lt; [assumption|].
    rewrite lcmp_antisym, E. reflexivity.
Qed.

Lemma nm_rank_inj a b : In a S -> In b S -> normal a -> normal b -> nm_rank a = nm_rank b -> a = b.
Proof.
  intros Ha Hb Na Nb E. apply decode_inj; [assumption|assumption|].
  destruct (lcmp (decode a) (decode b)) eqn:Ec.
  - apply lcmp_eq. exact Ec.
  - pose proof (nm_rank_lt a b Ha Ec). lia.
  - assert (Ec' : lcmp (decode b) (decode a) = Lt) by (rewrite lcmp_antisym, Ec; reflexivity).
    pose proof (nm_rank_lt b a Hb Ec'). lia.
Qed.
End Rank.

Definition payload (w : win_info) : Z * Z * Z * Z * Z * win_thing :=
  (wi_prolog w, wi_epilog w, wi_saved w, wi_locals w, wi_maxstack w, wi_thing w).
Definition payload_eqb (a b : win_info) : bool :=
  (wi_prolog a =? wi_prolog b) && (wi_epilog a =? wi_epilog b) && (wi_saved a =? wi_saved b) &&
  (wi_locals a =? wi_locals b) && (wi_maxstack a =? wi_maxstack b) && thing_eqb (wi_thing a) (wi_thing b).

Lemma thing_eqb_eq a b : thing_eqb a b = true <-> a = b.
Proof.
  destruct a as [x|x], b as [y|y]; cbn [thing_eqb]; try (split; congruence).
  - rewrite rle_eqb_eq. split; congruence.
  - rewrite Bool.eqb_true_iff. split; congruence.
Qed.

Lemma payload_eqb_eq a b : payload_eqb a b = true <-> payload a = payload b.
Proof.
  unfold payload_eqb, payload. repeat eqb_field. cbn [andb]. rewrite thing_eqb_eq.
  split; [intros ->; reflexivity|intros E; injection E; auto].
Qed.

Fixpoint idx (w : win_info) (l : list win_info) : Z :=
  match l with [] => 0 | x :: t => if payload_eqb x w then 0 else 1 + idx w t end.

Lemma idx_nonneg w l : 0 <= idx w l.
Proof. induction l as [|x t IH]; cbn [idx]; [lia|]. destruct (payload_eqb x w); lia. Qed.

Lemma idx_payload a b l : payload a = payload b -> idx a l = idx b l.
Proof.
  intros E. induction l as [|x t IH]; cbn [idx]; [reflexivity|].
  assert (payload_eqb x a = payload_eqb x b).
  { destruct (payload_eqb x a) eqn:Ea, (payload_eqb x b) eqn:Eb; try reflexivity.
    - apply payload_eqb_eq in Ea. rewrite E in Ea. apply payload_eqb_eq in Ea. congruence.
    - apply payload_eqb_eq in Eb. rewrite <- E in Eb. apply payload_eqb_eq in Eb. congruence. }
  rewrite H, IH. reflexivity.
Qed.

Lemma idx_inj a b l : (exists x, In x l /\ payload x = payload a) -> idx a l = idx b l -> payload a = payload b.
Proof.
  induction l as [|x t IH]; intros (x0 & Hin & Hx0); [destruct Hin|]. cbn [idx].
  destruct (payload_eqb x a) eqn:Ea, (payload_eqb x b) eqn:Eb.
  - intros _. apply payload_eqb_eq in Ea, Eb. congruence.
  - pose proof (idx_nonneg b t). lia.
  - pose proof (idx_nonneg a t). lia.
  - intros H. apply IH; [|lia]. destruct Hin as [->|Hin].
    + exfalso. apply payload_eqb_eq in Hx0. congruence.
    + exists x0. auto.
Qed.

Section Tg.
Variable L : list win_info.
Definition tg_idx (w : win_info) : Z := idx w L.

Lemma tg_idx_size w sz : tg_idx (wi_set_size w sz) = tg_idx w.
Proof. apply idx_payload. reflexivity. Qed.

Lemma tg_idx_agree ws a b : incl ws L -> in_scope ws a -> in_scope ws b ->
  win_eqb (Gw tg_idx a) (Gw tg_idx b) = wi_eqb a b.
Proof.
  intros Hincl (wa & Hwa & Ea) (wb & Hwb & Eb).
  assert (Pa : payload a = payload wa) by (destruct Ea as [->|[sz ->]]; reflexivity).
  assert (E : (tg_idx a =? tg_idx b) = payload_eqb a b).
  { destruct (payload_eqb a b) eqn:Ep.
    - apply payload_eqb_eq in Ep. apply Z.eqb_eq. apply idx_payload. exact Ep.
    - apply Z.eqb_neq. intros Hi. apply idx_inj in Hi.
      + apply payload_eqb_eq in Hi. congruence.
      + exists wa. split; [apply Hincl; exact Hwa|symmetry; exact Pa]. }
  unfold win_eqb, wi_eqb, Gw. cbn [w_addr w_size w_psize w_tag]. rewrite E. unfold payload_eqb.
  (* the two conjunctions differ only in where the parameter size stands *)
  destruct (wi_params a =? wi_params b); rewrite ?andb_true_r, ?andb_false_r, <- ?andb_assoc; reflexivity.
Qed.
End Tg.

Definition names_of (q : pst) : list rle :=
  map Grammar.fr_name (funcs_of_pst q) ++ map pb_name (p_publics (close_cur q)).
Definition wins_of (q : pst) : list win_info := rev (p_win_fd (close_cur q)) ++ rev (p_win_fpo (close_cur q)).
Definition nm_of (q : pst) : rle -> Z := nm_rank (names_of q).
Definition tg_of (q : pst) : win_info -> Z := tg_idx (wins_of q).

Lemma encodings_ok q : pst_nn q -> enc_names_ok (nm_of q) (tg_of q) q.
Proof.
  intros Hnn. destruct (close_cur_nn q Hnn) as [(_ & Hf & Hp & _) _].
  assert (Nf : forall a, In a (map Grammar.fr_name (funcs_of_pst q)) -> normal a).
  { intros a Ha. apply in_map_iff in Ha. destruct Ha as (f & <- & Hin). unfold funcs_of_pst in Hin.
    apply in_rev in Hin. rewrite Forall_forall in Hf. exact (Hf f Hin). }
  assert (Np : forall pb, In pb (p_publics (close_cur q)) -> normal (pb_name pb)).
  { rewrite Forall_forall in Hp. exact Hp. }
  constructor.
  - intros a b Ha Hb E. unfold nm_of in E.
    apply (nm_rank_inj (names_of q)); try assumption; try (apply Nf; assumption);
      unfold names_of; apply in_or_app; left; assumption.
  - intros a b Ha Hb. unfold nm_of. apply nm_rank_compare; try (apply Np; assumption);
      unfold names_of; apply in_or_app; right; apply in_map; assumption.
  - intros w sz. apply tg_idx_size.
  - intros a b Ha Hb. unfold tg_of. apply (tg_idx_agree _ (rev (p_win_fd (close_cur q)))); try assumption.
    unfold wins_of. intros x Hx. apply in_or_app. left. exact Hx.
  - intros a b Ha Hb. unfold tg_of. apply (tg_idx_agree _ (rev (p_win_fpo (close_cur q)))); try assumption.
    unfold wins_of. intros x Hx. apply in_or_app. right. exact Hx.
Qed.

Lemma final_pst_nn lines tail sch q s :
  drive_c lines tail sch = Ret (RM.C09.Model.ROk q, s) -> pst_nn q.
Proof.
  intros H. unfold drive_c in H.
  destruct (drive_shape rle cllen pst init_pst recog_pst bump_pst lineno_pst cllen_pos lines tail sch
              (RM.C09.Model.ROk q) s H) as [ds [_ [_ [Hr [Hp _]]]]]. subst q.
  exact (replay_nn ds _ Hr).
Qed.
