(* Base/WordFacts.v — what the operations of Base/Word.v return. *)
From Coq Require Import Lia.
From RM Require Import Base.Word.
Local Open Scope Z_scope.

Lemma two64_val : two64 = 2 ^ 64. Proof. reflexivity. Qed.

(* a result that fits neither traps (debug) nor wraps (release) *)
Lemma chk_ok p w t x : 0 <= x < 2 ^ w -> chk p w t x = Ret x.
Proof.
  intros H. unfold chk.
  destruct (Z.leb_spec 0 x); [|lia]. destruct (Z.ltb_spec x (2 ^ w)); [reflexivity|lia].
Qed.
Lemma chk_add_ok p w t x y : 0 <= x + y < 2 ^ w -> chk_add p w t x y = Ret (x + y).
Proof. apply chk_ok. Qed.
Lemma chk_sub_ok p w t x y : 0 <= x - y < 2 ^ w -> chk_sub p w t x y = Ret (x - y).
Proof. apply chk_ok. Qed.
Lemma chk_mul_ok p w t x y : 0 <= x * y < 2 ^ w -> chk_mul p w t x y = Ret (x * y).
Proof. apply chk_ok. Qed.

(* the same at u64, with the bound as the model writes it *)
Lemma chk_add64_ok p t x y : 0 <= x + y < two64 -> chk_add p 64 t x y = Ret (x + y).
Proof. exact (chk_add_ok p 64 t x y). Qed.
Lemma chk_sub64_ok p t x y : 0 <= x - y < two64 -> chk_sub p 64 t x y = Ret (x - y).
Proof. exact (chk_sub_ok p 64 t x y). Qed.

(* a debug build returns only what was in range *)
Lemma chk_debug_ret w t x y : chk Debug w t x = Ret y -> y = x /\ 0 <= x < 2 ^ w.
Proof.
  unfold chk. destruct (Z.leb_spec 0 x); destruct (Z.ltb_spec x (2 ^ w)); cbn [andb]; intros E;
    inversion E; subst; lia.
Qed.

Lemma checked_add_some w x y r : checked_add w x y = Some r -> r = x + y /\ x + y < 2 ^ w.
Proof. unfold checked_add. destruct (Z.ltb_spec (x + y) (2 ^ w)); intros E; inversion E. lia. Qed.
Lemma checked_sub_some x y r : checked_sub x y = Some r -> r = x - y /\ 0 <= x - y.
Proof. unfold checked_sub. destruct (Z.leb_spec 0 (x - y)); intros E; inversion E. lia. Qed.

Lemma wrap64_range x : 0 <= wrap64 x < two64.
Proof. apply Z.mod_pos_bound. reflexivity. Qed.

Lemma obind_ret {A B} (x : outcome A) (f : A -> outcome B) b :
  obind x f = Ret b -> exists a, x = Ret a /\ f a = Ret b.
Proof. destruct x; cbn [obind]; try discriminate. eauto. Qed.
