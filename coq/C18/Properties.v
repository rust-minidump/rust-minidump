(* C18/Properties.v — the property theorems of C18, each with its full statement, a short proof from the lemmas of
   Proofs.v / ReadProofs.v / Format.v (an instance of a lemma over [ctx_facts], or a few lines) and its
   [Print Assumptions]; the lists the theorems compare the generated tables with, written out here and not taken from
   the source ([documented_aliases], [documented_sp_ip], [documented_registers], [arch_variants]); the mutated tables
   the checker rejects ([x86_masked_get], [x86_loose_validity], [amd64_nocase], [arm_thumb_masked], [x86_iter],
   [sparc_before_fix]: a generated table with one or two fields changed); and the non-vacuity examples.
   Domain: [c] ranges over the nine tables that translate/context_tables.py regenerates from
   context.rs / format.rs on every run ([all_contexts]); register names range over the
   finite sets the tables mention ([accepted c] = every pattern of set_register) or, where
   stated, over ALL byte strings.  Register files [rf], values [v] and validity sets [s]
   are unrestricted (unbounded). *)
From RM Require Import C18.Check C18.Proofs C18.ReadProofs Gen.ContextTables.
From RM Require C18.Driver.
Open Scope Z_scope.

(* membership in a concrete list, by walking it (no normalisation of the whole list of tables) *)
Ltac in_list := repeat (first [left; reflexivity | right]).

(* the generated tables pass the finite checker (the one computational obligation) *)
Theorem c18_tables_checked : forall c, In c all_contexts -> diagnose c = [].
Proof. exact tables_diagnosis_empty. Qed.
Print Assumptions c18_tables_checked.

(* after set_register n v: get_register_always n = v, the checked get_register n = Some v,
   no other location changes, every alias of n reads v, every other name reads what it read *)
Theorem c18_set_get : forall c, In c all_contexts -> forall n, In n (accepted c) -> forall rf v,
  exists l, find_arm n (ct_set c) = Some l /\ loc_ok l = true /\
    set_reg c rf n v = Ret (Some (upd rf l v)) /\
    get_always c (upd rf l v) n = Ret v /\
    get_register c (upd rf l v) n VAll = Ret (Some v) /\
    (forall f i, name_eqb f (l_field l) && (i =? l_idx l) = false -> upd rf l v f i = rf f i) /\
    (forall m, In m (accepted c) -> memoize c m = memoize c n -> get_always c (upd rf l v) m = Ret v) /\
    (forall m, In m (accepted c) -> memoize c m <> memoize c n ->
               get_always c (upd rf l v) m = get_always c rf m).
Proof.
  intros c Hc n Hn rf v. pose proof (all_facts c Hc) as F.
  destruct (tables_arms c F n (in_or_app _ _ _ (or_intror Hn))) as (e & l & sv & _ & S & _ & _ & _ & _ & _ & O).
  pose proof (fun m Hm => read_after_write c F n l S m Hm rf v) as R.
  exists l. repeat apply conj; try assumption.
  - rewrite (set_reg_eq c F), S. reflexivity.
  - rewrite (R n Hn), opt_str_eqb_refl. reflexivity.
  - rewrite (get_register_gated c F), (is_valid_all c F), (f_acc_memo c F n Hn), (R n Hn), opt_str_eqb_refl. reflexivity.
  - intros f i E. unfold upd. rewrite E. reflexivity.
  - intros m Hm E. rewrite (R m Hm), E, opt_str_eqb_refl. reflexivity.
  - intros m Hm E. rewrite (R m Hm). destruct (opt_str_eqb (memoize c n) (memoize c m)) eqn:Q; [|reflexivity].
    apply opt_str_eqb_spec in Q. destruct (E (eq_sym Q)).
Qed.
Print Assumptions c18_set_get.

(* an alias and its canonical name denote the same location and read the same value in every
   register file; ALL strings n *)
Theorem c18_aliases_same_location : forall c, In c all_contexts -> forall n m, memoize c n = Some m ->
  In n (accepted c) /\ In m (accepted c) /\
  loc_eqb (loc_of c n) (loc_of c m) = true /\
  (forall rf, get_always c rf n = Ret (rf_get rf (loc_of c n)) /\ get_always c rf m = Ret (rf_get rf (loc_of c n))) /\
  memoize c m = Some m /\ In m (ct_registers c).
Proof.
  intros c Hc n m H. pose proof (all_facts c Hc) as F. destruct (canonical_fixpoint c F n m H) as [Hm Hr].
  pose proof (memoizable_accepted c F n m H) as An. pose proof (memoizable_accepted c F m m Hm) as Am.
  assert (E : loc_eqb (loc_of c n) (loc_of c m) = true) by (apply (alias_loc c F n m An Am); rewrite H, Hm; reflexivity).
  repeat apply conj; try assumption.
  intro rf. rewrite !(get_always_cases c F), (proj2 (mem_In _ _) An), (proj2 (mem_In _ _) Am), (rf_get_eq rf _ _ E).
  split; reflexivity.
Qed.
Print Assumptions c18_aliases_same_location.

(* ... and among the accepted names: same location exactly when same canonical name *)
Theorem c18_alias_iff_location : forall c, In c all_contexts -> forall n m,
  In n (accepted c) -> In m (accepted c) ->
  (loc_eqb (loc_of c n) (loc_of c m) = true <-> memoize c n = memoize c m).
Proof. intros c Hc. exact (alias_loc c (all_facts c Hc)). Qed.
Print Assumptions c18_alias_iff_location.

(* ALL strings n: a name memoize_register rejects reads as None through the checked
   accessor (validity All, or any set of known names) and is refused by set_register —
   never a panic; a name it accepts never reaches the unreachable!() arm *)
Theorem c18_unknown_absent_no_panic : forall c, In c all_contexts -> forall n,
  (memoize c n = None ->
     (forall rf, get_register c rf n VAll = Ret None) /\
     (forall rf v, set_reg c rf n v = Ret None) /\
     (forall rf s, (forall a, In a s -> memoize c a <> None) -> get_register c rf n (VSome s) = Ret None)) /\
  (forall m, memoize c n = Some m -> forall rf,
     get_always c rf n = Ret (rf_get rf (loc_of c n)) /\
     get_register c rf n VAll = Ret (Some (rf_get rf (loc_of c n)))).
Proof.
  intros c Hc n. pose proof (all_facts c Hc) as F. split.
  - exact (unknown_absent c F n).
  - intros m H rf.
    rewrite (get_register_cases c F), (get_always_cases c F), (is_valid_all c F), (accepted_known c F), H. split; reflexivity.
Qed.
Print Assumptions c18_unknown_absent_no_panic.

(* ALL strings n: only the exact spellings in the tables are known.  A string that is not one of
   set_register's patterns is absent everywhere (memoize_register, the checked read under All,
   set_register, register_is_valid) ... *)
Theorem c18_exact_names_only : forall c, In c all_contexts -> forall n, ~ In n (accepted c) ->
  memoize c n = None /\ is_valid c n VAll = false /\
  (forall rf, get_register c rf n VAll = Ret None) /\ (forall rf v, set_reg c rf n v = Ret None).
Proof.
  intros c Hc n Hn. pose proof (all_facts c Hc) as F. pose proof (not_accepted_unknown c F n Hn) as M.
  destruct (unknown_absent c F n M) as [A [B _]].
  split; [exact M|]. split; [rewrite (is_valid_all c F), M; reflexivity|]. split; assumption.
Qed.
Print Assumptions c18_exact_names_only.

(* ... in particular names are case-sensitive: a string that differs from a known name or alias
   only in ASCII case ("RIP", "Eip", "SP", "X0", "G_R14") is unknown - absent, refused, never a panic.
   (default_memoize_register's comparison is regenerated from the source as [ct_memo_cmp];
   get_register_always / set_register match string literals.) *)
Theorem c18_case_sensitive : forall c, In c all_contexts -> forall n m,
  In m (accepted c) -> n <> m -> map lower n = map lower m ->
  memoize c n = None /\ is_valid c n VAll = false /\
  (forall rf, get_register c rf n VAll = Ret None) /\ (forall rf v, set_reg c rf n v = Ret None).
Proof.
  intros c Hc n m Hm Hne Hl. apply (c18_exact_names_only c Hc). intro Hn. apply Hne.
  (* accepted names have no upper-case letter: lower-casing leaves both as they are *)
  pose proof (f_lower c (all_facts c Hc)) as L. rewrite <- (no_upper_lower n (L n Hn)), <- (no_upper_lower m (L m Hm)). exact Hl.
Qed.
Print Assumptions c18_case_sensitive.

(* the DOCUMENTED aliases and special registers, written out here (not taken from the source): ARM r11 / r13 / r14 / r15 = fp / sp / lr / pc,
   ARM64 (both layouts) x29 / x30 = fp / lr, SPARC gN / oN / lN / iN = g_rN / g_r(8+N) / g_r(16+N) / g_r(24+N); the stack / instruction pointer
   register of each type.  memoize_register maps each alias to exactly that register, both spellings denote one location, and the
   sp / ip register names are the documented ones *)
Definition documented_aliases : list (name * name * name) :=   (* variant, alias, register *)
  [([65; 114; 109], [114; 49; 49], [102; 112]);
   ([65; 114; 109], [114; 49; 51], [115; 112]);
   ([65; 114; 109], [114; 49; 52], [108; 114]);
   ([65; 114; 109], [114; 49; 53], [112; 99]);
   ([65; 114; 109; 54; 52], [120; 50; 57], [102; 112]);
   ([65; 114; 109; 54; 52], [120; 51; 48], [108; 114]);
   ([79; 108; 100; 65; 114; 109; 54; 52], [120; 50; 57], [102; 112]);
   ([79; 108; 100; 65; 114; 109; 54; 52], [120; 51; 48], [108; 114]);
   ([83; 112; 97; 114; 99], [103; 48], [103; 95; 114; 48]);
   ([83; 112; 97; 114; 99], [111; 48], [103; 95; 114; 56]);
   ([83; 112; 97; 114; 99], [108; 48], [103; 95; 114; 49; 54]);
   ([83; 112; 97; 114; 99], [105; 48], [103; 95; 114; 50; 52]);
   ([83; 112; 97; 114; 99], [103; 49], [103; 95; 114; 49]);
   ([83; 112; 97; 114; 99], [111; 49], [103; 95; 114; 57]);
   ([83; 112; 97; 114; 99], [108; 49], [103; 95; 114; 49; 55]);
   ([83; 112; 97; 114; 99], [105; 49], [103; 95; 114; 50; 53]);
   ([83; 112; 97; 114; 99], [103; 50], [103; 95; 114; 50]);
   ([83; 112; 97; 114; 99], [111; 50], [103; 95; 114; 49; 48]);
   ([83; 112; 97; 114; 99], [108; 50], [103; 95; 114; 49; 56]);
   ([83; 112; 97; 114; 99], [105; 50], [103; 95; 114; 50; 54]);
   ([83; 112; 97; 114; 99], [103; 51], [103; 95; 114; 51]);
   ([83; 112; 97; 114; 99], [111; 51], [103; 95; 114; 49; 49]);
   ([83; 112; 97; 114; 99], [108; 51], [103; 95; 114; 49; 57]);
   ([83; 112; 97; 114; 99], [105; 51], [103; 95; 114; 50; 55]);
   ([83; 112; 97; 114; 99], [103; 52], [103; 95; 114; 52]);
   ([83; 112; 97; 114; 99], [111; 52], [103; 95; 114; 49; 50]);
   ([83; 112; 97; 114; 99], [108; 52], [103; 95; 114; 50; 48]);
   ([83; 112; 97; 114; 99], [105; 52], [103; 95; 114; 50; 56]);
   ([83; 112; 97; 114; 99], [103; 53], [103; 95; 114; 53]);
   ([83; 112; 97; 114; 99], [111; 53], [103; 95; 114; 49; 51]);
   ([83; 112; 97; 114; 99], [108; 53], [103; 95; 114; 50; 49]);
   ([83; 112; 97; 114; 99], [105; 53], [103; 95; 114; 50; 57]);
   ([83; 112; 97; 114; 99], [103; 54], [103; 95; 114; 54]);
   ([83; 112; 97; 114; 99], [111; 54], [103; 95; 114; 49; 52]);
   ([83; 112; 97; 114; 99], [108; 54], [103; 95; 114; 50; 50]);
   ([83; 112; 97; 114; 99], [105; 54], [103; 95; 114; 51; 48]);
   ([83; 112; 97; 114; 99], [103; 55], [103; 95; 114; 55]);
   ([83; 112; 97; 114; 99], [111; 55], [103; 95; 114; 49; 53]);
   ([83; 112; 97; 114; 99], [108; 55], [103; 95; 114; 50; 51]);
   ([83; 112; 97; 114; 99], [105; 55], [103; 95; 114; 51; 49])].
Definition documented_sp_ip : list (name * name * name) :=     (* variant, stack pointer register, instruction pointer register *)
  [([88; 56; 54], [101; 115; 112], [101; 105; 112]);
   ([65; 109; 100; 54; 52], [114; 115; 112], [114; 105; 112]);
   ([65; 114; 109], [115; 112], [112; 99]);
   ([65; 114; 109; 54; 52], [115; 112], [112; 99]);
   ([79; 108; 100; 65; 114; 109; 54; 52], [115; 112], [112; 99]);
   ([80; 112; 99], [114; 49], [115; 114; 114; 48]);
   ([80; 112; 99; 54; 52], [114; 49], [115; 114; 114; 48]);
   ([83; 112; 97; 114; 99], [103; 95; 114; 49; 52], [112; 99]);
   ([77; 105; 112; 115], [115; 112], [112; 99])].
Theorem c18_documented_aliases :
  (forall v a r, In (v, a, r) documented_aliases ->
     exists c, In c all_contexts /\ ct_variant c = v /\ memoize c a = Some r /\ memoize c r = Some r /\
               loc_eqb (loc_of c a) (loc_of c r) = true) /\
  (forall v s i, In (v, s, i) documented_sp_ip ->
     exists c, In c all_contexts /\ ct_variant c = v /\ ct_sp_name c = s /\ ct_ip_name c = i) /\
  (* and there are no other aliases: every memoize_register arm of every table is in the list *)
  (forall c, In c all_contexts -> forall a r, find_arm a (ct_memo c) = Some r -> In (ct_variant c, a, r) documented_aliases).
Proof.
  split; [|split].
  - assert (H : forallb (fun e => existsb (fun c =>
                  name_eqb (ct_variant c) (fst (fst e)) && opt_str_eqb (memoize c (snd (fst e))) (Some (snd e)) &&
                  opt_str_eqb (memoize c (snd e)) (Some (snd e)) && loc_eqb (loc_of c (snd (fst e))) (loc_of c (snd e)))
                all_contexts) documented_aliases = true) by (vm_compute; reflexivity).
    intros v a r Hin. destruct (forallb_existsb _ _ _ _ _ H _ Hin) as [c [Hc X]]. cbn [fst snd] in X.
    rewrite !andb_true_iff, name_eqb_eq, !opt_str_eqb_spec in X. destruct X as [[[V M1] M2] L].
    exists c. repeat apply conj; assumption.
  - assert (H : forallb (fun e => existsb (fun c =>
                  name_eqb (ct_variant c) (fst (fst e)) && name_eqb (ct_sp_name c) (snd (fst e)) && name_eqb (ct_ip_name c) (snd e))
                all_contexts) documented_sp_ip = true) by (vm_compute; reflexivity).
    intros v s i Hin. destruct (forallb_existsb _ _ _ _ _ H _ Hin) as [c [Hc X]]. cbn [fst snd] in X.
    rewrite !andb_true_iff, !name_eqb_eq in X. destruct X as [[V S] I].
    exists c. repeat apply conj; assumption.
  - assert (H : forallb (fun c => forallb (fun a =>
                  match find_arm a (ct_memo c) with
                  | Some r => existsb (fun e => name_eqb (fst (fst e)) (ct_variant c) && name_eqb (snd (fst e)) a && name_eqb (snd e) r)
                                      documented_aliases
                  | None => true
                  end) (names_of (ct_memo c))) all_contexts = true) by (vm_compute; reflexivity).
    intros c Hc a r Hf. rewrite forallb_forall in H. specialize (H c Hc). rewrite forallb_forall in H.
    specialize (H a (find_arm_In _ _ _ _ Hf)). rewrite Hf in H.
    apply existsb_exists in H. destruct H as [[[v a'] r'] [Hin X]]. cbn [fst snd] in X.
    rewrite !andb_true_iff, !name_eqb_eq in X. destruct X as [[V A] R]. subst. exact Hin.
Qed.
Print Assumptions c18_documented_aliases.

(* the DOCUMENTED general-purpose registers of every type, written out here (not taken from the source): REGISTERS is exactly
   this list, in this order - so registers() / valid_registers() (c18_enumerations) list exactly these, and together with
   c18_documented_aliases the names set_register accepts are exactly these and the documented aliases *)
Definition documented_registers : list (name * list name) :=
  [([65; 109; 100; 54; 52], [[114; 97; 120]; [114; 100; 120]; [114; 99; 120]; [114; 98; 120]; [114; 115; 105]; [114; 100; 105]; [114; 98; 112]; [114; 115; 112]; [114; 56]; [114; 57]; [114; 49; 48]; [114; 49; 49]; [114; 49; 50]; [114; 49; 51]; [114; 49; 52]; [114; 49; 53]; [114; 105; 112]]);
   ([65; 114; 109], [[114; 48]; [114; 49]; [114; 50]; [114; 51]; [114; 52]; [114; 53]; [114; 54]; [114; 55]; [114; 56]; [114; 57]; [114; 49; 48]; [114; 49; 50]; [102; 112]; [115; 112]; [108; 114]; [112; 99]]);
   ([65; 114; 109; 54; 52], [[120; 48]; [120; 49]; [120; 50]; [120; 51]; [120; 52]; [120; 53]; [120; 54]; [120; 55]; [120; 56]; [120; 57]; [120; 49; 48]; [120; 49; 49]; [120; 49; 50]; [120; 49; 51]; [120; 49; 52]; [120; 49; 53]; [120; 49; 54]; [120; 49; 55]; [120; 49; 56]; [120; 49; 57]; [120; 50; 48]; [120; 50; 49]; [120; 50; 50]; [120; 50; 51]; [120; 50; 52]; [120; 50; 53]; [120; 50; 54]; [120; 50; 55]; [120; 50; 56]; [102; 112]; [108; 114]; [115; 112]; [112; 99]]);
   ([79; 108; 100; 65; 114; 109; 54; 52], [[120; 48]; [120; 49]; [120; 50]; [120; 51]; [120; 52]; [120; 53]; [120; 54]; [120; 55]; [120; 56]; [120; 57]; [120; 49; 48]; [120; 49; 49]; [120; 49; 50]; [120; 49; 51]; [120; 49; 52]; [120; 49; 53]; [120; 49; 54]; [120; 49; 55]; [120; 49; 56]; [120; 49; 57]; [120; 50; 48]; [120; 50; 49]; [120; 50; 50]; [120; 50; 51]; [120; 50; 52]; [120; 50; 53]; [120; 50; 54]; [120; 50; 55]; [120; 50; 56]; [102; 112]; [108; 114]; [115; 112]; [112; 99]]);
   ([77; 105; 112; 115], [[103; 112]; [115; 112]; [102; 112]; [114; 97]; [112; 99]; [115; 48]; [115; 49]; [115; 50]; [115; 51]; [115; 52]; [115; 53]; [115; 54]; [115; 55]]);
   ([80; 112; 99], [[115; 114; 114; 48]; [115; 114; 114; 49]; [114; 48]; [114; 49]; [114; 50]; [114; 51]; [114; 52]; [114; 53]; [114; 54]; [114; 55]; [114; 56]; [114; 57]; [114; 49; 48]; [114; 49; 49]; [114; 49; 50]; [114; 49; 51]; [114; 49; 52]; [114; 49; 53]; [114; 49; 54]; [114; 49; 55]; [114; 49; 56]; [114; 49; 57]; [114; 50; 48]; [114; 50; 49]; [114; 50; 50]; [114; 50; 51]; [114; 50; 52]; [114; 50; 53]; [114; 50; 54]; [114; 50; 55]; [114; 50; 56]; [114; 50; 57]; [114; 51; 48]; [114; 51; 49]; [99; 114]; [120; 101; 114]; [108; 114]; [99; 116; 114]; [109; 113]; [118; 114; 115; 97; 118; 101]]);
   ([80; 112; 99; 54; 52], [[115; 114; 114; 48]; [115; 114; 114; 49]; [114; 48]; [114; 49]; [114; 50]; [114; 51]; [114; 52]; [114; 53]; [114; 54]; [114; 55]; [114; 56]; [114; 57]; [114; 49; 48]; [114; 49; 49]; [114; 49; 50]; [114; 49; 51]; [114; 49; 52]; [114; 49; 53]; [114; 49; 54]; [114; 49; 55]; [114; 49; 56]; [114; 49; 57]; [114; 50; 48]; [114; 50; 49]; [114; 50; 50]; [114; 50; 51]; [114; 50; 52]; [114; 50; 53]; [114; 50; 54]; [114; 50; 55]; [114; 50; 56]; [114; 50; 57]; [114; 51; 48]; [114; 51; 49]; [99; 114]; [120; 101; 114]; [108; 114]; [99; 116; 114]; [118; 114; 115; 97; 118; 101]]);
   ([83; 112; 97; 114; 99], [[103; 95; 114; 48]; [103; 95; 114; 49]; [103; 95; 114; 50]; [103; 95; 114; 51]; [103; 95; 114; 52]; [103; 95; 114; 53]; [103; 95; 114; 54]; [103; 95; 114; 55]; [103; 95; 114; 56]; [103; 95; 114; 57]; [103; 95; 114; 49; 48]; [103; 95; 114; 49; 49]; [103; 95; 114; 49; 50]; [103; 95; 114; 49; 51]; [103; 95; 114; 49; 52]; [103; 95; 114; 49; 53]; [103; 95; 114; 49; 54]; [103; 95; 114; 49; 55]; [103; 95; 114; 49; 56]; [103; 95; 114; 49; 57]; [103; 95; 114; 50; 48]; [103; 95; 114; 50; 49]; [103; 95; 114; 50; 50]; [103; 95; 114; 50; 51]; [103; 95; 114; 50; 52]; [103; 95; 114; 50; 53]; [103; 95; 114; 50; 54]; [103; 95; 114; 50; 55]; [103; 95; 114; 50; 56]; [103; 95; 114; 50; 57]; [103; 95; 114; 51; 48]; [103; 95; 114; 51; 49]; [99; 99; 114]; [112; 99]; [110; 112; 99]; [121]; [97; 115; 105]; [102; 112; 114; 115]]);
   ([88; 56; 54], [[101; 105; 112]; [101; 115; 112]; [101; 98; 112]; [101; 98; 120]; [101; 115; 105]; [101; 100; 105]; [101; 97; 120]; [101; 99; 120]; [101; 100; 120]; [101; 102; 108; 97; 103; 115]])].
Theorem c18_documented_registers :
  (forall v l, In (v, l) documented_registers -> exists c, In c all_contexts /\ ct_variant c = v /\ ct_registers c = l) /\
  (forall c, In c all_contexts -> exists l, In (ct_variant c, l) documented_registers /\ ct_registers c = l) /\
  (forall c, In c all_contexts -> forall n, In n (accepted c) <-> (In n (ct_registers c) \/ exists r, find_arm n (ct_memo c) = Some r)).
Proof.
  split; [|split].
  - assert (H : forallb (fun e => existsb (fun c => name_eqb (ct_variant c) (fst e) && strs_eqb (ct_registers c) (snd e)) all_contexts)
                        documented_registers = true) by (vm_compute; reflexivity).
    intros v l Hin. destruct (forallb_existsb _ _ _ _ _ H _ Hin) as [c [Hc X]]. cbn [fst snd] in X.
    apply andb_true_iff in X. destruct X as [V R].
    exists c. split; [exact Hc|]. split; [apply name_eqb_eq; exact V | apply strs_eqb_eq; exact R].
  - assert (H : forallb (fun c => existsb (fun e => name_eqb (fst e) (ct_variant c) && strs_eqb (snd e) (ct_registers c)) documented_registers)
                        all_contexts = true) by (vm_compute; reflexivity).
    intros c Hc. destruct (forallb_existsb _ _ _ _ _ H _ Hc) as [[v l] [Hin X]]. cbn [fst snd] in X.
    apply andb_true_iff in X. destruct X as [V R]. apply name_eqb_eq in V. apply strs_eqb_eq in R. subst.
    exists (ct_registers c). split; [exact Hin | reflexivity].
  - (* the names set_register accepts are those memoize_register knows: an alias arm, or a REGISTERS entry *)
    intros c Hc n. pose proof (all_facts c Hc) as F.
    rewrite <- mem_In, (accepted_known c F), (memoize_cases c F), <- (mem_In n (ct_registers c)).
    destruct (find_arm n (ct_memo c)) as [r|]; [split; [right; exists r; reflexivity | reflexivity]|].
    destruct (mem n (ct_registers c)); cbn [is_some];
      (split; [left; reflexivity | reflexivity]) || (split; [discriminate | intros [H|[r H]]; discriminate]).
Qed.
Print Assumptions c18_documented_registers.

(* sequences of writes, of ANY length, through ANY strings (unknown names are refused and change nothing): the sequence
   never panics, and afterwards every accepted name reads the value written last through any spelling of its register -
   or what it read before, if no such write occurred; the dedicated accessors likewise *)
Theorem c18_write_sequence : forall c, In c all_contexts -> forall ops rf,
  exists rf', apply_writes c rf ops = Ret rf' /\
    (forall m, In m (accepted c) ->
       get_always c rf' m = match last_write c m ops None with Some v => Ret v | None => get_always c rf m end) /\
    md_stack_pointer c rf' =
      match last_write c (ct_sp_name c) ops None with Some v => Ret v | None => md_stack_pointer c rf end /\
    md_instruction_pointer c rf' =
      match last_write c (ct_ip_name c) ops None with Some v => Ret v | None => md_instruction_pointer c rf end.
Proof.
  intros c Hc ops rf. pose proof (all_facts c Hc) as F.
  destruct (write_sequence c F ops rf) as [rf' [A G]]. exists rf'. split; [exact A|]. split; [exact G|].
  destruct (special_agrees c F _ _ (f_sp c F)) as [Is Ps]. destruct (special_agrees c F _ _ (f_ip c F)) as [Ii Pi].
  unfold md_stack_pointer, md_instruction_pointer.
  rewrite (proj2 (Ps rf')), (proj2 (Ps rf)), (proj2 (Pi rf')), (proj2 (Pi rf)). split; [exact (G _ Is) | exact (G _ Ii)].
Qed.
Print Assumptions c18_write_sequence.
(* ARM: r13 := 1; foo := 2 (refused); sp := 3; r12 := 4; r13 := 5  -  sp and get_stack_pointer read 5, r12 reads 4, r11 (fp) its old value *)
Example c18_nonvacuous_sequence :
  let rf0 : regfile := fun _ _ => 8 in
  let ops := [([114; 49; 51], 1); ([102; 111; 111], 2); ([115; 112], 3); ([114; 49; 50], 4); ([114; 49; 51], 5)] in
  exists rf', apply_writes ctx_arm rf0 ops = Ret rf' /\
    get_always ctx_arm rf' [115; 112] = Ret 5 /\ md_stack_pointer ctx_arm rf' = Ret 5 /\
    get_always ctx_arm rf' [114; 49; 50] = Ret 4 /\ get_always ctx_arm rf' [102; 112] = Ret 8 /\
    last_write ctx_arm [115; 112] ops None = Some 5 /\ last_write ctx_arm [102; 112] ops None = None.
Proof. cbv zeta. eexists. repeat apply conj; vm_compute; reflexivity. Qed.

(* what the checker does with a by-name read that is not the plain location: X86 with
   `"esp" => self.esp & !3` in get_register_always.  set_register("esp", 7) is accepted but the
   read-back is 4; [diagnose] reports the table. *)
Definition n_esp : name := [101; 115; 112].
Definition l_x86_esp : loc := mkloc n_esp (-1) 32 (-1).
Definition x86_masked_get : ctx_table :=
  {| ct_name := ct_name ctx_x86; ct_variant := ct_variant ctx_x86; ct_width := ct_width ctx_x86;
     ct_registers := ct_registers ctx_x86;
     ct_get := ([n_esp], AAnd (ALoc l_x86_esp) (ANot (ALit 3) 32)) :: ct_get ctx_x86;
     ct_set := ct_set ctx_x86; ct_set_val := ct_set_val ctx_x86;
     ct_memo := ct_memo ctx_x86; ct_memo_tbl := ct_memo_tbl ctx_x86; ct_memo_cmp := ct_memo_cmp ctx_x86; ct_groups := ct_groups ctx_x86;
     ct_valid_all := ct_valid_all ctx_x86; ct_valid_default := ct_valid_default ctx_x86; ct_get_cond := ct_get_cond ctx_x86; ct_get_val := ct_get_val ctx_x86; ct_md_get_val := ct_md_get_val ctx_x86;
     ct_fmt_prefix := ct_fmt_prefix ctx_x86; ct_fmt_zero := ct_fmt_zero ctx_x86; ct_fmt_mul := ct_fmt_mul ctx_x86;
     ct_sp_name := ct_sp_name ctx_x86; ct_ip_name := ct_ip_name ctx_x86;
     ct_sp_acc := ct_sp_acc ctx_x86; ct_ip_acc := ct_ip_acc ctx_x86;
     ct_md_get := ct_md_get ctx_x86; ct_md_valid := ct_md_valid ctx_x86; ct_md_filter := ct_md_filter ctx_x86;
     ct_iter_all := ct_iter_all ctx_x86; ct_iter_some := ct_iter_some ctx_x86; ct_regs_direct := ct_regs_direct ctx_x86; ct_next_slice := ct_next_slice ctx_x86; ct_next_set := ct_next_set ctx_x86;
     ct_next_val := ct_next_val ctx_x86; ct_md_regs_val := ct_md_regs_val ctx_x86; ct_md_size := ct_md_size ctx_x86; ct_md_fmt := ct_md_fmt ctx_x86;
     ct_fields := ct_fields ctx_x86; ct_gpr := ct_gpr ctx_x86 |}.
Theorem c18_masked_read_rejected :
  let rf0 : regfile := fun _ _ => 0 in
  set_reg x86_masked_get rf0 n_esp 7 = Ret (Some (upd rf0 l_x86_esp 7)) /\
  get_always x86_masked_get (upd rf0 l_x86_esp 7) n_esp = Ret 4 /\
  get_always ctx_x86 (upd rf0 l_x86_esp 7) n_esp = Ret 7 /\
  diagnose x86_masked_get <> [].
Proof.
  cbv zeta. repeat apply conj; [vm_compute; reflexivity ..|].
  intro H. discriminate (f_tables _ (facts_of_diagnose _ H) n_esp (or_introl eq_refl)).
Qed.
Print Assumptions c18_masked_read_rejected.

(* what the checker does with a looser validity test: the trait default of register_is_valid reading
   `which.contains(reg) || true`.  The empty validity set then makes every register of X86 valid;
   [diagnose] reports the table. *)
Definition x86_loose_validity : ctx_table :=
  {| ct_name := ct_name ctx_x86; ct_variant := ct_variant ctx_x86; ct_width := ct_width ctx_x86;
     ct_registers := ct_registers ctx_x86; ct_get := ct_get ctx_x86;
     ct_set := ct_set ctx_x86; ct_set_val := ct_set_val ctx_x86;
     ct_memo := ct_memo ctx_x86; ct_memo_tbl := ct_memo_tbl ctx_x86; ct_memo_cmp := ct_memo_cmp ctx_x86; ct_groups := ct_groups ctx_x86;
     ct_valid_all := ct_valid_all ctx_x86; ct_valid_default := BOr (BVar v_contains) (BLit true);
     ct_get_cond := ct_get_cond ctx_x86; ct_get_val := ct_get_val ctx_x86; ct_md_get_val := ct_md_get_val ctx_x86;
     ct_fmt_prefix := ct_fmt_prefix ctx_x86; ct_fmt_zero := ct_fmt_zero ctx_x86; ct_fmt_mul := ct_fmt_mul ctx_x86;
     ct_sp_name := ct_sp_name ctx_x86; ct_ip_name := ct_ip_name ctx_x86;
     ct_sp_acc := ct_sp_acc ctx_x86; ct_ip_acc := ct_ip_acc ctx_x86;
     ct_md_get := ct_md_get ctx_x86; ct_md_valid := ct_md_valid ctx_x86; ct_md_filter := ct_md_filter ctx_x86;
     ct_iter_all := ct_iter_all ctx_x86; ct_iter_some := ct_iter_some ctx_x86; ct_regs_direct := ct_regs_direct ctx_x86; ct_next_slice := ct_next_slice ctx_x86; ct_next_set := ct_next_set ctx_x86;
     ct_next_val := ct_next_val ctx_x86; ct_md_regs_val := ct_md_regs_val ctx_x86; ct_md_size := ct_md_size ctx_x86; ct_md_fmt := ct_md_fmt ctx_x86;
     ct_fields := ct_fields ctx_x86; ct_gpr := ct_gpr ctx_x86 |}.
Theorem c18_loose_validity_rejected :
  is_valid x86_loose_validity n_esp (VSome []) = true /\ is_valid ctx_x86 n_esp (VSome []) = false /\
  get_register x86_loose_validity (fun _ _ => 9) n_esp (VSome []) = Ret (Some 9) /\
  get_register ctx_x86 (fun _ _ => 9) n_esp (VSome []) = Ret None /\
  diagnose x86_loose_validity <> [].
Proof.
  repeat apply conj; [vm_compute; reflexivity ..|].
  intro H. discriminate (f_valid_default _ (facts_of_diagnose _ H)).
Qed.
Print Assumptions c18_loose_validity_rejected.

(* what the checker does with a case-insensitive default_memoize_register: "RIP" becomes known to
   memoize_register (as rip) while get_register_always does not know it, so the checked read
   reaches unreachable!(); [diagnose] reports the table *)
Definition n_RIP : name := [82; 73; 80].
Definition n_rip : name := [114; 105; 112].
Definition amd64_nocase : ctx_table :=
  {| ct_name := ct_name ctx_amd64; ct_variant := ct_variant ctx_amd64; ct_width := ct_width ctx_amd64;
     ct_registers := ct_registers ctx_amd64; ct_get := ct_get ctx_amd64; ct_set := ct_set ctx_amd64; ct_set_val := ct_set_val ctx_amd64;
     ct_memo := ct_memo ctx_amd64; ct_memo_tbl := ct_memo_tbl ctx_amd64; ct_memo_cmp := 1; ct_groups := ct_groups ctx_amd64;
     ct_valid_all := ct_valid_all ctx_amd64; ct_valid_default := ct_valid_default ctx_amd64; ct_get_cond := ct_get_cond ctx_amd64; ct_get_val := ct_get_val ctx_amd64; ct_md_get_val := ct_md_get_val ctx_amd64;
     ct_fmt_prefix := ct_fmt_prefix ctx_amd64; ct_fmt_zero := ct_fmt_zero ctx_amd64; ct_fmt_mul := ct_fmt_mul ctx_amd64;
     ct_sp_name := ct_sp_name ctx_amd64; ct_ip_name := ct_ip_name ctx_amd64;
     ct_sp_acc := ct_sp_acc ctx_amd64; ct_ip_acc := ct_ip_acc ctx_amd64;
     ct_md_get := ct_md_get ctx_amd64; ct_md_valid := ct_md_valid ctx_amd64; ct_md_filter := ct_md_filter ctx_amd64;
     ct_iter_all := ct_iter_all ctx_amd64; ct_iter_some := ct_iter_some ctx_amd64; ct_regs_direct := ct_regs_direct ctx_amd64; ct_next_slice := ct_next_slice ctx_amd64; ct_next_set := ct_next_set ctx_amd64;
     ct_next_val := ct_next_val ctx_amd64; ct_md_regs_val := ct_md_regs_val ctx_amd64; ct_md_size := ct_md_size ctx_amd64; ct_md_fmt := ct_md_fmt ctx_amd64;
     ct_fields := ct_fields ctx_amd64; ct_gpr := ct_gpr ctx_amd64 |}.
Theorem c18_case_insensitive_memoize_rejected :
  memoize amd64_nocase n_RIP = Some n_rip /\
  get_register amd64_nocase (fun _ _ => 0) n_RIP VAll = Panic 1 /\
  set_reg amd64_nocase (fun _ _ => 0) n_RIP 1 = Ret None /\
  memoize ctx_amd64 n_RIP = None /\ In n_rip (accepted ctx_amd64) /\ map lower n_RIP = map lower n_rip /\
  diagnose amd64_nocase <> [].
Proof.
  repeat apply conj; try (vm_compute; reflexivity); [apply mem_In; reflexivity|].
  intro H. discriminate (f_cmp _ (facts_of_diagnose _ H)).
Qed.
Print Assumptions c18_case_insensitive_memoize_rejected.

(* the stack / instruction pointer names read the location of the dedicated accessors; the
   accessors' bodies ([ct_sp_acc], [ct_ip_acc]) are regenerated from the source as expressions
   and evaluated by [aeval] *)
Theorem c18_sp_ip_agree : forall c, In c all_contexts -> forall rf,
  (get_always c rf (ct_sp_name c) = Ret (rf_get rf (ct_sp_loc c)) /\
   md_stack_pointer c rf = Ret (rf_get rf (ct_sp_loc c)) /\ memoize c (ct_sp_name c) <> None) /\
  (get_always c rf (ct_ip_name c) = Ret (rf_get rf (ct_ip_loc c)) /\
   md_instruction_pointer c rf = Ret (rf_get rf (ct_ip_loc c)) /\ memoize c (ct_ip_name c) <> None).
Proof.
  intros c Hc rf. pose proof (all_facts c Hc) as F.
  destruct (special_agrees c F _ _ (f_sp c F)) as [Is Ps]. destruct (special_agrees c F _ _ (f_ip c F)) as [Ii Pi].
  unfold md_stack_pointer, md_instruction_pointer, ct_sp_loc, ct_ip_loc.
  rewrite (proj2 (Ps rf)), (proj2 (Pi rf)), (proj1 (Ps rf)), (proj1 (Pi rf)).
  repeat apply conj; try reflexivity; apply (accepted_memo c F); assumption.
Qed.
Print Assumptions c18_sp_ip_agree.

(* ... for ALL register files, i.e. whatever cpsr / eflags / context_flags / any other field
   holds and whatever the register's value is: the dedicated accessor returns exactly what
   the unchecked read of the sp / ip register name returns (no mask, no mode-dependent
   adjustment); and it follows writes by name: after set_register(n, v) it returns v when n is
   a spelling of the sp / ip register (same canonical name), and what it returned before
   for every other accepted name *)
Theorem c18_accessors_follow_names : forall c, In c all_contexts -> forall rf,
  md_stack_pointer c rf = get_always c rf (ct_sp_name c) /\
  md_instruction_pointer c rf = get_always c rf (ct_ip_name c) /\
  (forall n l v, In n (accepted c) -> find_arm n (ct_set c) = Some l ->
     md_stack_pointer c (upd rf l v) =
       (if opt_str_eqb (memoize c n) (memoize c (ct_sp_name c)) then Ret v else md_stack_pointer c rf) /\
     md_instruction_pointer c (upd rf l v) =
       (if opt_str_eqb (memoize c n) (memoize c (ct_ip_name c)) then Ret v else md_instruction_pointer c rf)).
Proof.
  intros c Hc rf. pose proof (all_facts c Hc) as F.
  split; [exact (proj2 (proj2 (special_agrees c F _ _ (f_sp c F)) rf))|].
  split; [exact (proj2 (proj2 (special_agrees c F _ _ (f_ip c F)) rf))|].
  intros n l v _ Hl. split.
  - exact (special_follows c F _ _ (f_sp c F) n l Hl rf v).
  - exact (special_follows c F _ _ (f_ip c F) n l Hl rf v).
Qed.
Print Assumptions c18_accessors_follow_names.

(* what the checker does with an accessor that is NOT a plain read: the ARM table with
   get_instruction_pointer clearing bit 0 of pc when the Thumb bit (0x20) of cpsr is set.
   The evaluated accessor and the by-name read differ on a register file with cpsr = 0x20
   and an odd pc, agree when the Thumb bit is clear, and [diagnose] reports the table. *)
Definition n_pc : name := [112; 99].
Definition l_arm_pc : loc := mkloc [105; 114; 101; 103; 115] 15 32 16.
Definition l_arm_cpsr : loc := mkloc [99; 112; 115; 114] (-1) 32 (-1).
Definition arm_thumb_masked : ctx_table :=
  {| ct_name := ct_name ctx_arm; ct_variant := ct_variant ctx_arm; ct_width := ct_width ctx_arm;
     ct_registers := ct_registers ctx_arm; ct_get := ct_get ctx_arm; ct_set := ct_set ctx_arm; ct_set_val := ct_set_val ctx_arm;
     ct_memo := ct_memo ctx_arm; ct_memo_tbl := ct_memo_tbl ctx_arm; ct_memo_cmp := ct_memo_cmp ctx_arm; ct_groups := ct_groups ctx_arm;
     ct_valid_all := ct_valid_all ctx_arm; ct_valid_default := ct_valid_default ctx_arm; ct_get_cond := ct_get_cond ctx_arm; ct_get_val := ct_get_val ctx_arm; ct_md_get_val := ct_md_get_val ctx_arm;
     ct_fmt_prefix := ct_fmt_prefix ctx_arm; ct_fmt_zero := ct_fmt_zero ctx_arm; ct_fmt_mul := ct_fmt_mul ctx_arm;
     ct_sp_name := ct_sp_name ctx_arm; ct_ip_name := ct_ip_name ctx_arm;
     ct_sp_acc := ct_sp_acc ctx_arm;
     ct_ip_acc := ALet n_pc (ACast (ALoc l_arm_pc) 32 64)
                    (AIf (BNe (AAnd (ALoc l_arm_cpsr) (ALit 32)) (ALit 0))
                         (AAnd (AVar n_pc) (ANot (ALit 1) 64)) (AVar n_pc));
     ct_md_get := ct_md_get ctx_arm; ct_md_valid := ct_md_valid ctx_arm; ct_md_filter := ct_md_filter ctx_arm;
     ct_iter_all := ct_iter_all ctx_arm; ct_iter_some := ct_iter_some ctx_arm; ct_regs_direct := ct_regs_direct ctx_arm; ct_next_slice := ct_next_slice ctx_arm; ct_next_set := ct_next_set ctx_arm;
     ct_next_val := ct_next_val ctx_arm; ct_md_regs_val := ct_md_regs_val ctx_arm; ct_md_size := ct_md_size ctx_arm; ct_md_fmt := ct_md_fmt ctx_arm;
     ct_fields := ct_fields ctx_arm; ct_gpr := ct_gpr ctx_arm |}.
Theorem c18_masked_accessor_rejected :
  let c := arm_thumb_masked in
  let rf_thumb : regfile := upd (upd (fun _ _ => 0) l_arm_cpsr 32) l_arm_pc 32769 in
  let rf_arm : regfile := upd (upd (fun _ _ => 0) l_arm_cpsr 0) l_arm_pc 32769 in
  get_always c rf_thumb (ct_ip_name c) = Ret 32769 /\ md_instruction_pointer c rf_thumb = Ret 32768 /\
  md_instruction_pointer c rf_arm = Ret 32769 /\
  md_instruction_pointer ctx_arm rf_thumb = Ret 32769 /\
  diagnose c <> [].
Proof.
  cbv zeta. repeat apply conj; [vm_compute; reflexivity ..|].
  intro H. discriminate (f_ip _ (facts_of_diagnose _ H)).
Qed.
Print Assumptions c18_masked_accessor_rejected.

(* validity by any alias is honoured for every alias: n is valid under Some(s) exactly when
   s holds a name with n's canonical name; get_register then yields the register's value *)
Theorem c18_validity_aliases : forall c, In c all_contexts -> forall n, In n (accepted c) -> forall s,
  (is_valid c n (VSome s) = true <-> exists a, In a s /\ memoize c a = memoize c n) /\
  (forall rf v, get_register c rf n v =
                if is_valid c n v then Ret (Some (rf_get rf (loc_of c n))) else Ret None).
Proof.
  intros c Hc n Hn s. pose proof (all_facts c Hc) as F. split.
  - exact (validity_aliases c F n Hn s).
  - intros rf v. rewrite (get_register_cases c F), (proj2 (mem_In _ _) Hn). reflexivity.
Qed.
Print Assumptions c18_validity_aliases.

(* registers() / valid_registers() list exactly REGISTERS / its valid subset, in REGISTERS
   order, each with the value of its location; CpuContext::valid_registers(Some(s)) lists the
   members of s (for sets of known names); REGISTERS has no duplicates and is canonical *)
Theorem c18_enumerations : forall c, In c all_contexts -> forall rf,
  ct_gpr c = ct_registers c /\
  md_registers c rf = Ret (listing c rf (ct_registers c)) /\
  cpu_valid_registers c rf VAll = Ret (listing c rf (ct_registers c)) /\
  md_valid_registers c rf VAll = Ret (listing c rf (ct_registers c)) /\
  (forall s, md_valid_registers c rf (VSome s) =
             Ret (listing c rf (filter (fun n => is_valid c n (VSome s)) (ct_registers c)))) /\
  (forall s, (forall a, In a s -> memoize c a <> None) ->
             cpu_valid_registers c rf (VSome s) = Ret (listing c rf s)) /\
  (forall r, In r (ct_registers c) -> count r (ct_registers c) = 1 /\ memoize c r = Some r).
Proof. intros c Hc. exact (enumerations c (all_facts c Hc)). Qed.
Print Assumptions c18_enumerations.

(* MinidumpContext dispatch, all nine variants (the arms of get_register_always, get_register and
   valid_registers are regenerated from the source as expressions over the forwarded CpuContext
   call): the type-erased methods return exactly what the variant's own CpuContext methods
   return - same value (widened, no mask, no truncation), same validity test, same panics *)
Theorem c18_md_dispatch : forall c, In c all_contexts -> forall rf n v,
  md_get_always c rf n = get_always c rf n /\
  md_get_register c rf n v = get_register c rf n v /\
  md_is_valid (ct_md_valid c) c rf n v = Ret (is_valid c n v) /\
  md_is_valid (ct_md_filter c) c rf n v = Ret (is_valid c n v).
Proof.
  intros c Hc rf n v. pose proof (all_facts c Hc) as F.
  split; [exact (md_get_always_eq c F rf n)|]. split; [exact (md_get_register_eq c F rf n v)|].
  split; [exact (md_is_valid_eq c _ (f_md_valid c F) rf n v) | exact (md_is_valid_eq c _ (f_md_filter c F) rf n v)].
Qed.
Print Assumptions c18_md_dispatch.

(* end to end at the MinidumpContext level: a write by any accepted name or alias is read back by
   the type-erased get_register_always, by get_register under every validity that covers the name,
   rendered by format_register, and returned by the dedicated accessor when the name is a spelling
   of the sp / ip register - all register files, all values *)
Theorem c18_md_roundtrip : forall c, In c all_contexts -> forall n, In n (accepted c) ->
  forall rf v l, find_arm n (ct_set c) = Some l ->
  set_reg c rf n v = Ret (Some (upd rf l v)) /\
  md_get_always c (upd rf l v) n = Ret v /\
  (forall s, md_get_register c (upd rf l v) n s = if is_valid c n s then Ret (Some v) else Ret None) /\
  format_register c (upd rf l v) n = Ret (format_value c v) /\
  (memoize c n = memoize c (ct_sp_name c) -> md_stack_pointer c (upd rf l v) = Ret v) /\
  (memoize c n = memoize c (ct_ip_name c) -> md_instruction_pointer c (upd rf l v) = Ret v).
Proof.
  intros c Hc n Hn rf v l Hl. pose proof (all_facts c Hc) as F.
  assert (G : get_always c (upd rf l v) n = Ret v)
    by (rewrite (read_after_write c F n l Hl n Hn), opt_str_eqb_refl; reflexivity).
  repeat apply conj.
  - rewrite (set_reg_eq c F), Hl. reflexivity.
  - rewrite (md_get_always_eq c F). exact G.
  - intro s. rewrite (md_get_register_eq c F), (get_register_gated c F), G. reflexivity.
  - unfold format_register. rewrite G. reflexivity.
  - intro E. unfold md_stack_pointer. rewrite (special_follows c F _ _ (f_sp c F) n l Hl), E, opt_str_eqb_refl. reflexivity.
  - intro E. unfold md_instruction_pointer. rewrite (special_follows c F _ _ (f_ip c F) n l Hl), E, opt_str_eqb_refl. reflexivity.
Qed.
Print Assumptions c18_md_roundtrip.

(* registers() / valid_registers() as ITERATORS.  The names each arm of valid_registers iterates ([ct_iter_all],
   [ct_iter_some]) and the step of CpuRegisters::next (how many names an arm consumes, the value it pairs with the name)
   are regenerated from the source; for the nine tables: the initial state is REGISTERS (Slice) under All and the set's
   members (Set) under Some; draining the iterator reads every name of the initial state in order and never runs out of
   fuel; on a state of known names each step yields the head with its location's value; an exhausted iterator keeps
   answering None; registers() = valid_registers(All) lists REGISTERS *)
Theorem c18_register_iterator : forall c, In c all_contexts -> forall rf,
  (forall v, cpu_iter_init c v = match v with VAll => (KSlice, ct_registers c) | VSome s => (KSet, s) end) /\
  (forall v, cpu_valid_registers c rf v = mapM (named c rf) (snd (cpu_iter_init c v))) /\
  (forall k r t, memoize c r <> None ->
     cpu_iter_next c rf (k, r :: t) = Ret (Some (r, rf_get rf (loc_of c r)), (k, t))) /\
  (forall k, cpu_iter_next c rf (k, []) = Ret (None, (k, []))) /\
  cpu_iter_collect (S (length (ct_registers c))) c rf (cpu_iter_init c VAll) =
    Ret (listing c rf (ct_registers c)) /\
  cpu_registers c rf = Ret (listing c rf (ct_registers c)).
Proof.
  intros c Hc rf. pose proof (all_facts c Hc) as F.
  split; [exact (cpu_iter_init_eq c F)|].
  split; [intro v; rewrite (cpu_valid_registers_mapM c F rf v), (cpu_iter_init_eq c F); destruct v; reflexivity|].
  split; [exact (cpu_iter_step c F rf)|]. split; [exact (cpu_iter_next_nil c rf)|].
  destruct (enumerations c F rf) as [_ [_ [E _]]]. split.
  - unfold cpu_valid_registers in E. rewrite (cpu_iter_init_eq c F) in *. exact E.
  - rewrite (cpu_registers_eq c F rf), <- (cpu_valid_registers_mapM c F rf VAll). exact E.
Qed.
Print Assumptions c18_register_iterator.

(* generated = hand model: the parts of the trait's default bodies and of the MinidumpContext dispatch that are regenerated
   from the source as data / expressions (the table default_memoize_register searches, the value MinidumpContext::registers
   pairs with a name, the register_size arms) denote, for the nine tables, what the property needs:
   memoize_register = the alias arm, else the name itself iff it is in REGISTERS (ALL strings);
   MinidumpContext::registers pairs every name with exactly what the variant's get_register_always returns (same panics);
   MinidumpContext::format_register (forwarding arm, or a rendering of its own) = the variant's format_register;
   register_size = size_of::<Register>() = 4 or 8 = ct_width / 8 *)
Theorem c18_generated_bodies : forall c, In c all_contexts ->
  (forall n, memoize c n = match find_arm n (ct_memo c) with
                           | Some m => Some m
                           | None => if mem n (ct_registers c) then Some n else None
                           end) /\
  (forall rf n, md_named c rf n = named c rf n) /\
  (forall rf n, md_format_register c rf n = format_register c rf n) /\
  md_register_size c = Ret (ct_width c / 8) /\ (ct_width c / 8 = 4 \/ ct_width c / 8 = 8).
Proof.
  intros c Hc. pose proof (all_facts c Hc) as F.
  split; [exact (memoize_cases c F)|].
  split; [exact (md_named_eq c F)|]. split; [exact (md_format_register_eq c F)|]. split; [exact (md_register_size_eq c F)|].
  destruct (f_width c F) as [W|W]; rewrite W; [left | right]; reflexivity.
Qed.
Print Assumptions c18_generated_bodies.

(* what the checker does with an enumeration that ignores the validity set (valid_registers' Some arm builds
   `CpuRegistersInner::Slice(Self::REGISTERS.iter())`) and with an iterator that skips (`iter.nth(1)` in the Slice arm
   of CpuRegisters::next): the X86 table with these two generated fields changed lists all ten registers under
   Some({eip}) / every second register under All; [diagnose] reports the table *)
Definition n_eip : name := [101; 105; 112].
Definition x86_iter (some : names_src) (skip : Z) : ctx_table :=
  {| ct_name := ct_name ctx_x86; ct_variant := ct_variant ctx_x86; ct_width := ct_width ctx_x86;
     ct_registers := ct_registers ctx_x86; ct_get := ct_get ctx_x86;
     ct_set := ct_set ctx_x86; ct_set_val := ct_set_val ctx_x86;
     ct_memo := ct_memo ctx_x86; ct_memo_tbl := ct_memo_tbl ctx_x86; ct_memo_cmp := ct_memo_cmp ctx_x86; ct_groups := ct_groups ctx_x86;
     ct_valid_all := ct_valid_all ctx_x86; ct_valid_default := ct_valid_default ctx_x86; ct_get_cond := ct_get_cond ctx_x86; ct_get_val := ct_get_val ctx_x86; ct_md_get_val := ct_md_get_val ctx_x86;
     ct_fmt_prefix := ct_fmt_prefix ctx_x86; ct_fmt_zero := ct_fmt_zero ctx_x86; ct_fmt_mul := ct_fmt_mul ctx_x86;
     ct_sp_name := ct_sp_name ctx_x86; ct_ip_name := ct_ip_name ctx_x86;
     ct_sp_acc := ct_sp_acc ctx_x86; ct_ip_acc := ct_ip_acc ctx_x86;
     ct_md_get := ct_md_get ctx_x86; ct_md_valid := ct_md_valid ctx_x86; ct_md_filter := ct_md_filter ctx_x86;
     ct_iter_all := ct_iter_all ctx_x86; ct_iter_some := some; ct_regs_direct := ct_regs_direct ctx_x86; ct_next_slice := skip; ct_next_set := ct_next_set ctx_x86;
     ct_next_val := ct_next_val ctx_x86; ct_md_regs_val := ct_md_regs_val ctx_x86; ct_md_size := ct_md_size ctx_x86; ct_md_fmt := ct_md_fmt ctx_x86;
     ct_fields := ct_fields ctx_x86; ct_gpr := ct_gpr ctx_x86 |}.
Theorem c18_loose_enumeration_rejected :
  let rf : regfile := fun _ _ => 3 in
  cpu_valid_registers ctx_x86 rf (VSome [n_eip]) = Ret [(n_eip, 3)] /\
  option_map (@length _) (match cpu_valid_registers (x86_iter (NList (ct_registers ctx_x86)) 0) rf (VSome [n_eip]) with Ret l => Some l | _ => None end) = Some 10%nat /\
  diagnose (x86_iter (NList (ct_registers ctx_x86)) 0) <> [] /\
  option_map (@length _) (match cpu_registers ctx_x86 rf with Ret l => Some l | _ => None end) = Some 10%nat /\
  option_map (@length _) (match cpu_registers (x86_iter NSet 1) rf with Ret l => Some l | _ => None end) = Some 5%nat /\
  diagnose (x86_iter NSet 1) <> [].
Proof.
  cbv zeta. repeat apply conj; try (vm_compute; reflexivity); intro H.
  - discriminate (f_iter_some _ (facts_of_diagnose _ H)).
  - discriminate (proj1 (f_next _ (facts_of_diagnose _ H))).
Qed.
Print Assumptions c18_loose_enumeration_rejected.

(* format_register (the model renders in Gallina, compared byte for byte with the code's String):
   "0x" followed by lower-case hexadecimal digits that denote exactly the value the unchecked read
   returns - at least 2*size_of::<Register>() digits, exactly that many when the value fits the
   Register type; like get_register_always it is an UNCHECKED accessor: on a string that is not an
   accepted name it reaches unreachable!() (the checked path is get_register, see
   c18_unknown_absent_no_panic) *)
Theorem c18_format_register : forall c, In c all_contexts -> forall rf n,
  (In n (accepted c) ->
     exists s, format_register c rf n = Ret (48 :: 120 :: s) /\
       (0 <= rf_get rf (loc_of c n) ->
          hex_val s = rf_get rf (loc_of c n) /\ (Z.to_nat (register_size c * 2) <= length s)%nat /\
          (rf_get rf (loc_of c n) < 2 ^ ct_width c -> length s = Z.to_nat (register_size c * 2)))) /\
  (~ In n (accepted c) -> format_register c rf n = Panic 1).
Proof.
  intros c Hc rf n. pose proof (all_facts c Hc) as F. unfold format_register. rewrite (get_always_cases c F). split; intro Hn.
  - rewrite (proj2 (mem_In _ _) Hn). cbn [obind]. unfold format_value.
    destruct (f_fmt c F) as [P1 [P2 P3]]. rewrite P1, P2, P3. cbn [hex_padded app].
    eexists. split; [reflexivity|]. intro Hv.
    destruct (Format.hex_val_min (Z.to_nat (register_size c * 2)) _ Hv) as [A [B C]].
    split; [exact A|]. split; [exact B|]. intro Hlt. unfold register_size in *.
    destruct (f_width c F) as [W|W]; rewrite W in *; (apply C; [apply Nat.leb_le; reflexivity | exact Hlt]).
  - rewrite (proj2 (mem_false _ _) Hn). reflexivity.
Qed.
Print Assumptions c18_format_register.
Example c18_nonvacuous_format :
  format_register ctx_x86 (fun _ _ => 48879) [101; 105; 112] = Ret [48; 120; 48; 48; 48; 48; 98; 101; 101; 102] /\
  hex_val [48; 48; 48; 48; 98; 101; 101; 102] = 48879 /\
  format_register ctx_amd64 (fun _ _ => 18446744073709551615) n_rip =
    Ret [48; 120; 102; 102; 102; 102; 102; 102; 102; 102; 102; 102; 102; 102; 102; 102; 102; 102].
Proof. repeat apply conj; vm_compute; reflexivity. Qed.

(* "every supported CPU context type": MinidumpContext::read's choice of the context type.  The arms of its architecture
   match are regenerated from the source ([read_arms]: architecture numbers from format.rs' ProcessorArchitecture, the
   CONTEXT_* type read, the variant it is wrapped in, the ContextFlagsCpu constant tested, the struct's serialised size
   computed from format.rs; [read_cpu_mask], [read_cpu_all_bits]: from_flags = from_bits_truncate(flags & CONTEXT_CPU_MASK)).
   For ALL architecture numbers, buffer lengths and context_flags values:
   - soundness: a context is produced only as the variant of one of the nine register tables, wrapping the type that
     table describes, from a buffer that holds the whole struct (every integer field of the table lies inside it), and
     only when the CPU part of its flags is the constant named like the type;
   - completeness: each of the nine tables is chosen, for some architecture number, on every buffer that holds the struct
     and carries the type's CPU constant (flag bits outside the CPU mask do not matter);
   - one flags value validates at most one arm; an architecture number no arm lists is UnknownCpuContext. *)
Theorem c18_read_dispatch :
  (forall arch len flags_of v,
     read_dispatch read_arms read_cpu_mask read_cpu_all_bits arch len flags_of = RVariant v ->
     exists c a, In c all_contexts /\ In a read_arms /\ ct_variant c = v /\ ra_variant a = v /\ ra_type a = ct_name c /\
                 ra_flag_name a = ct_name c /\ In arch (ra_archs a) /\ ra_size a <= len /\
                 cpu_from_flags read_cpu_mask read_cpu_all_bits (flags_of a) = ra_flag a /\
                 forallb (field_inside (ra_size a)) (ct_fields c) = true) /\
  (forall c, In c all_contexts ->
     exists a arch, In a read_arms /\ In arch (ra_archs a) /\ ra_type a = ct_name c /\ ra_variant a = ct_variant c /\
       forall len flags_of, ra_size a <= len -> cpu_from_flags read_cpu_mask read_cpu_all_bits (flags_of a) = ra_flag a ->
         read_dispatch read_arms read_cpu_mask read_cpu_all_bits arch len flags_of = RVariant (ct_variant c)) /\
  (forall a b f, In a read_arms -> In b read_arms ->
     cpu_from_flags read_cpu_mask read_cpu_all_bits f = ra_flag a ->
     cpu_from_flags read_cpu_mask read_cpu_all_bits f = ra_flag b -> a = b) /\
  (forall arch len flags_of, (forall a, In a read_arms -> ~ In arch (ra_archs a)) ->
     read_dispatch read_arms read_cpu_mask read_cpu_all_bits arch len flags_of = RUnknownCpu).
Proof.
  pose proof read_tables_ok as OK.
  split; [exact (read_sound _ _ _ _ OK)|]. split; [exact (read_complete _ _ _ _ OK)|].
  split; [exact (read_flags_exclusive _ _ _ _ OK) | exact (read_unknown read_arms read_cpu_mask read_cpu_all_bits)].
Qed.
Print Assumptions c18_read_dispatch.
(* ... and WHICH architecture selects which type: the PROCESSOR_ARCHITECTURE_* numbers of WinNT.h and Breakpad's extensions
   (written out here, not taken from the source) select exactly these variants, and every other number - ALL other
   integers - has no arm (UnknownCpuContext) *)
Definition arch_variants : list (Z * name) :=
  [(0, [88; 56; 54]); (10, [88; 56; 54]);                       (* INTEL, IA32_ON_WIN64 -> X86 *)
   (9, [65; 109; 100; 54; 52]);                                  (* AMD64 -> Amd64 *)
   (3, [80; 112; 99]); (32770, [80; 112; 99; 54; 52]);           (* PPC -> Ppc, PPC64 (0x8002) -> Ppc64 *)
   (32769, [83; 112; 97; 114; 99]);                              (* SPARC (0x8001) -> Sparc *)
   (5, [65; 114; 109]); (12, [65; 114; 109; 54; 52]);            (* ARM -> Arm, ARM64 -> Arm64 *)
   (32771, [79; 108; 100; 65; 114; 109; 54; 52]);                (* ARM64_OLD (0x8003) -> OldArm64 *)
   (1, [77; 105; 112; 115])].                                    (* MIPS -> Mips *)
Theorem c18_read_architectures :
  (forall arch v, In (arch, v) arch_variants ->
     exists a, find_read_arm read_arms arch = Some a /\ ra_variant a = v) /\
  (forall arch, ~ In arch (map fst arch_variants) -> find_read_arm read_arms arch = None).
Proof.
  split.
  - assert (H : forallb (fun p => match find_read_arm read_arms (fst p) with
                                  | Some a => name_eqb (ra_variant a) (snd p) | None => false end) arch_variants = true)
      by (vm_compute; reflexivity).
    intros arch v Hin. rewrite forallb_forall in H. specialize (H _ Hin). cbn [fst snd] in H.
    destruct (find_read_arm read_arms arch) as [a|]; [|discriminate]. exists a. split; [reflexivity|].
    apply name_eqb_eq. exact H.
  - intros arch Hn. destruct (find_read_arm read_arms arch) as [a|] eqn:E; [|reflexivity]. exfalso. apply Hn.
    destruct (find_read_arm_In _ _ _ E) as [Ha Hi].
    assert (H : forallb (fun a => forallb (fun x => existsb (Z.eqb x) (map fst arch_variants)) (ra_archs a)) read_arms = true)
      by (vm_compute; reflexivity).
    rewrite forallb_forall in H. specialize (H a Ha). rewrite forallb_forall in H. specialize (H arch Hi).
    apply existsb_exists in H. destruct H as [y [Hy Ey]]. apply Z.eqb_eq in Ey. subst y. exact Hy.
Qed.
Print Assumptions c18_read_architectures.
(* x86: architecture 0 (INTEL) and 10 (IA32_ON_WIN64) with CONTEXT_X86 | CONTROL | XSTATE bit in a 716-byte buffer -> X86;
   one byte short, or AMD64's constant -> ReadFailure; architecture 0x8004 (MIPS64, known to from_u16 but without an arm)
   and 77 -> UnknownCpuContext *)
Example c18_nonvacuous_read :
  let rd := read_dispatch read_arms read_cpu_mask read_cpu_all_bits in
  rd 0 716 (fun _ => 65601) = RVariant [88; 56; 54] /\ rd 10 8192 (fun _ => 65536) = RVariant [88; 56; 54] /\
  rd 0 715 (fun _ => 65601) = RReadFailure /\ rd 0 716 (fun _ => 1048576) = RReadFailure /\
  rd 9 1232 (fun _ => 1048576 + 2 ^ 32) = RVariant [65; 109; 100; 54; 52] /\
  rd 32772 8192 (fun _ => 524288) = RUnknownCpu /\ rd 77 8192 (fun _ => 65536) = RUnknownCpu.
Proof. cbv zeta. repeat apply conj; vm_compute; reflexivity. Qed.

(* ... and WHAT the context read holds (scroll's derive(Pread): declared order, packed; byte offsets regenerated from
   format.rs): for every accepted name n, ALL byte strings and both byte orders, get_register_always(n) on the deserialised
   context is the little- / big-endian number in the size_of::<Register>() bytes at the offset of n's location; it fits the
   Register type (so the model's unbounded values never leave u32 / u64 on contexts that were read); and names with different
   canonical names read disjoint byte ranges *)
Theorem c18_read_registers : forall c, In c all_contexts -> forall n, In n (accepted c) -> forall big bytes,
  exists off, loc_offset c (loc_of c n) = Some off /\ 0 <= off /\
    get_always c (decode_base c big bytes) n = Ret (decode big bytes off (Z.to_nat (ct_width c / 8))) /\
    ((forall k, 0 <= bytes k < 256) -> 0 <= decode big bytes off (Z.to_nat (ct_width c / 8)) < 2 ^ ct_width c) /\
    (forall m, In m (accepted c) -> memoize c m <> memoize c n ->
       exists off', loc_offset c (loc_of c m) = Some off' /\ (off + ct_width c / 8 <= off' \/ off' + ct_width c / 8 <= off)).
Proof. intros c Hc. exact (read_registers c (all_facts c Hc)). Qed.
Print Assumptions c18_read_registers.
(* X86: eip is the u32 at byte 184, esp at 196; bytes 1,2,3,4 at 184.. read as 0x04030201 little-endian, 0x01020304 big-endian;
   the correspondence driver's pattern base is this decoding of the harness's byte pattern, on every accepted name of every table *)
Example c18_nonvacuous_read_registers :
  let bytes : Z -> Z := fun k => if (184 <=? k) && (k <? 188) then k - 183 else 0 in
  loc_offset ctx_x86 (loc_of ctx_x86 n_eip) = Some 184 /\ loc_offset ctx_x86 (loc_of ctx_x86 n_esp) = Some 196 /\
  get_always ctx_x86 (decode_base ctx_x86 false bytes) n_eip = Ret 67305985 /\
  get_always ctx_x86 (decode_base ctx_x86 true bytes) n_eip = Ret 16909060 /\
  forallb (fun c => forallb (fun n => let l := loc_of c n in
                       RM.C18.Driver.pattern_base c (l_field l) (l_idx l) =?
                       decode_base c false RM.C18.Driver.pattern_byte (l_field l) (l_idx l)) (accepted c)) all_contexts = true.
Proof. cbv zeta. repeat apply conj; vm_compute; reflexivity. Qed.

(* F-C18a: the SPARC table as it was before the fix (same get/set arms, no memoize_register
   and no register_is_valid arms): "o6" is accepted by set_register and read back by
   get_register_always, but the checked accessor reports it absent, and validity of g_r14
   (the same location) is not honoured for o6. *)
Definition sparc_before_fix : ctx_table :=
  {| ct_name := ct_name ctx_sparc; ct_variant := ct_variant ctx_sparc; ct_width := ct_width ctx_sparc;
     ct_registers := ct_registers ctx_sparc; ct_get := ct_get ctx_sparc; ct_set := ct_set ctx_sparc; ct_set_val := ct_set_val ctx_sparc;
     ct_memo := []; ct_memo_tbl := ct_memo_tbl ctx_sparc; ct_memo_cmp := 0; ct_groups := [];
     ct_valid_all := ct_valid_all ctx_sparc; ct_valid_default := ct_valid_default ctx_sparc; ct_get_cond := ct_get_cond ctx_sparc; ct_get_val := ct_get_val ctx_sparc; ct_md_get_val := ct_md_get_val ctx_sparc;
     ct_fmt_prefix := ct_fmt_prefix ctx_sparc; ct_fmt_zero := ct_fmt_zero ctx_sparc; ct_fmt_mul := ct_fmt_mul ctx_sparc;
     ct_sp_name := ct_sp_name ctx_sparc; ct_ip_name := ct_ip_name ctx_sparc;
     ct_sp_acc := ct_sp_acc ctx_sparc; ct_ip_acc := ct_ip_acc ctx_sparc; ct_iter_all := ct_iter_all ctx_sparc; ct_iter_some := ct_iter_some ctx_sparc; ct_regs_direct := ct_regs_direct ctx_sparc; ct_next_slice := ct_next_slice ctx_sparc; ct_next_set := ct_next_set ctx_sparc;
     ct_next_val := ct_next_val ctx_sparc; ct_md_regs_val := ct_md_regs_val ctx_sparc; ct_md_size := ct_md_size ctx_sparc; ct_md_fmt := ct_md_fmt ctx_sparc;
     ct_fields := ct_fields ctx_sparc;
     ct_md_get := ct_md_get ctx_sparc; ct_md_valid := ct_md_valid ctx_sparc; ct_md_filter := ct_md_filter ctx_sparc;
     ct_gpr := ct_gpr ctx_sparc |}.
Definition n_o6 : name := [111; 54].
Definition n_g_r14 : name := [103; 95; 114; 49; 52].
Theorem c18_sparc_before_fix_refuted :
  let c := sparc_before_fix in let rf0 : regfile := fun _ _ => 0 in
  exists l, set_reg c rf0 n_o6 77 = Ret (Some (upd rf0 l 77)) /\
            get_always c (upd rf0 l 77) n_o6 = Ret 77 /\
            get_register c (upd rf0 l 77) n_o6 VAll = Ret None /\
            loc_eqb (loc_of c n_o6) (loc_of c n_g_r14) = true /\
            is_valid c n_g_r14 (VSome [n_g_r14]) = true /\
            is_valid c n_o6 (VSome [n_g_r14]) = false /\
            diagnose c <> [].
Proof.
  cbv zeta. exists (mkloc [103; 95; 114] 14 64 32).
  repeat apply conj; [vm_compute; reflexivity ..|].
  (* the obligation that fails: o6 is accepted by set_register, and memoize_register rejects it *)
  intro H. apply facts_of_diagnose in H.
  assert (X : is_some (memoize sparc_before_fix n_o6) = true) by (apply (f_acc_memo _ H), mem_In; reflexivity).
  discriminate X.
Qed.
Print Assumptions c18_sparc_before_fix_refuted.

(* the correspondence driver's closed form of the harness's byte pattern (word j = 0x5A000000 + j, little
   endian) against the byte-level definition, on aligned offsets incl. the ends of the 8 KiB pattern *)
Example c18_pattern_closed_form :
  forallb (fun off => (RM.C18.Driver.pattern_value 32 off =? RM.C18.Driver.le_value 4 off) &&
                      (RM.C18.Driver.pattern_value 64 off =? RM.C18.Driver.le_value 8 off))
          [0; 4; 8; 140; 184; 1020; 1024; 4092; 8180] = true.
Proof. vm_compute. reflexivity. Qed.
Print Assumptions c18_pattern_closed_form.

Example c18_nonvacuous_tables :
  length all_contexts = 9%nat /\
  forallb (fun c => (10 <=? Z.of_nat (length (accepted c))) && (10 <=? Z.of_nat (length (ct_registers c)))) all_contexts = true.
Proof. split; vm_compute; reflexivity. Qed.
(* ARM: "r13" is an alias of "sp"; writing r13 is read back through sp and the dedicated accessor *)
Definition n_r13 : name := [114; 49; 51].
Definition n_sp : name := [115; 112].
Example c18_nonvacuous_arm :
  let rf0 : regfile := fun _ _ => 5 in
  In ctx_arm all_contexts /\ In n_r13 (accepted ctx_arm) /\ memoize ctx_arm n_r13 = Some n_sp /\
  exists rf1, set_reg ctx_arm rf0 n_r13 9 = Ret (Some rf1) /\
              get_always ctx_arm rf1 n_sp = Ret 9 /\ md_stack_pointer ctx_arm rf1 = Ret 9 /\
              get_register ctx_arm rf1 n_sp (VSome [n_r13]) = Ret (Some 9) /\
              get_register ctx_arm rf1 n_sp (VSome []) = Ret None /\
              get_always ctx_arm rf1 [114; 49; 50] = Ret 5.
Proof.
  cbv zeta. split; [in_list|]. split; [apply mem_In; reflexivity|]. split; [vm_compute; reflexivity|].
  eexists. repeat apply conj; vm_compute; reflexivity.
Qed.
(* c18_exact_names_only / c18_case_sensitive: "RIP" vs "rip" on AMD64 *)
Example c18_nonvacuous_case :
  In ctx_amd64 all_contexts /\ In n_rip (accepted ctx_amd64) /\ n_RIP <> n_rip /\
  map lower n_RIP = map lower n_rip /\ ~ In n_RIP (accepted ctx_amd64) /\
  memoize ctx_amd64 n_RIP = None /\ get_register ctx_amd64 (fun _ _ => 7) n_RIP VAll = Ret None /\
  get_register ctx_amd64 (fun _ _ => 7) n_rip VAll = Ret (Some 7).
Proof.
  split; [in_list|]. split; [apply mem_In; reflexivity|]. split; [discriminate|].
  split; [reflexivity|]. split; [apply mem_false; reflexivity|].
  repeat apply conj; vm_compute; reflexivity.
Qed.
(* c18_accessors_follow_names / c18_md_roundtrip: ARM, a write through the alias r15 reaches
   get_instruction_pointer, the type-erased reads and format_register; a write through r12 does not *)
Definition n_r15 : name := [114; 49; 53].
Example c18_nonvacuous_accessors :
  let rf0 : regfile := fun _ _ => 5 in let rf1 := upd rf0 l_arm_pc 32769 in
  In n_r15 (accepted ctx_arm) /\ find_arm n_r15 (ct_set ctx_arm) = Some l_arm_pc /\
  memoize ctx_arm n_r15 = memoize ctx_arm (ct_ip_name ctx_arm) /\
  md_instruction_pointer ctx_arm rf1 = Ret 32769 /\ md_stack_pointer ctx_arm rf1 = Ret 5 /\
  md_get_always ctx_arm rf1 n_pc = Ret 32769 /\ md_get_register ctx_arm rf1 n_pc (VSome [n_r15]) = Ret (Some 32769) /\
  md_get_register ctx_arm rf1 n_pc (VSome [n_sp]) = Ret None /\
  format_register ctx_arm rf1 n_r15 = Ret [48; 120; 48; 48; 48; 48; 56; 48; 48; 49] /\
  cpu_iter_next ctx_arm rf1 (KSet, [n_pc; n_sp]) = Ret (Some (n_pc, 32769), (KSet, [n_sp])).
Proof. cbv zeta. split; [apply mem_In; reflexivity|]. repeat apply conj; vm_compute; reflexivity. Qed.
(* an unknown name: absent, refused, and get_register_always would panic *)
Example c18_nonvacuous_unknown :
  memoize ctx_amd64 [102; 111; 111] = None /\ get_always ctx_amd64 (fun _ _ => 0) [102; 111; 111] = Panic 1 /\
  get_register ctx_amd64 (fun _ _ => 0) [102; 111; 111] VAll = Ret None.
Proof. repeat apply conj; vm_compute; reflexivity. Qed.

(* F-C18b, exactly.  For the nine tables, ALL register files, ALL strings n and ALL validity sets s (any strings):
   - under validity All the checked read never panics;
   - get_register(n, Some(s)) reaches unreachable!() (Panic 1) exactly when n is a member of s that is not one of the
     exact spellings set_register / get_register_always know; in every other case it returns (a value or None);
     MinidumpContext::get_register behaves identically;
   - CpuContext::valid_registers(Some(s)), drained, reaches unreachable!() exactly when s has a member that is not an
     accepted spelling; otherwise it lists the members with their values;
   - MinidumpContext::valid_registers never panics, whatever s holds (it walks REGISTERS and filters).
   So the known-finding class is exactly: a validity set with a member the context does not know, observed through
   get_register on THAT member or through the CpuContext set enumeration - nothing else. *)
Theorem c18_unreachable_exactly : forall c, In c all_contexts -> forall rf n,
  (exists o, get_register c rf n VAll = Ret o) /\
  (forall s,
     (get_register c rf n (VSome s) = Panic 1 <-> In n s /\ ~ In n (accepted c)) /\
     (~ (In n s /\ ~ In n (accepted c)) -> exists o, get_register c rf n (VSome s) = Ret o) /\
     md_get_register c rf n (VSome s) = get_register c rf n (VSome s) /\
     (cpu_valid_registers c rf (VSome s) = Panic 1 <-> exists a, In a s /\ ~ In a (accepted c)) /\
     ((forall a, In a s -> In a (accepted c)) -> cpu_valid_registers c rf (VSome s) = Ret (listing c rf s)) /\
     (exists l, md_valid_registers c rf (VSome s) = Ret l)).
Proof. intros c Hc. exact (unreachable_exactly c (all_facts c Hc)). Qed.
Print Assumptions c18_unreachable_exactly.
(* both sides of the characterisation occur: a known name under a set holding an unknown one reads normally *)
Example c18_nonvacuous_unreachable :
  let foo : name := [102; 111; 111] in let rf : regfile := fun _ _ => 6 in
  In foo [foo; n_eip] /\ ~ In foo (accepted ctx_x86) /\
  get_register ctx_x86 rf foo (VSome [foo; n_eip]) = Panic 1 /\
  get_register ctx_x86 rf n_eip (VSome [foo; n_eip]) = Ret (Some 6) /\
  get_register ctx_x86 rf n_esp (VSome [foo; n_eip]) = Ret None /\
  get_register ctx_x86 rf [98; 97; 114] (VSome [foo; n_eip]) = Ret None /\
  cpu_valid_registers ctx_x86 rf (VSome [foo; n_eip]) = Panic 1 /\
  md_valid_registers ctx_x86 rf (VSome [foo; n_eip]) = Ret [(n_eip, 6)].
Proof.
  cbv zeta. split; [left; reflexivity|]. split; [apply mem_false; reflexivity|].
  repeat apply conj; vm_compute; reflexivity.
Qed.

(* F-C18b (known finding): the class excluded by the hypothesis "s holds only known names" in
   c18_unknown_absent_no_panic / c18_enumerations.  [known_unknown_member c s] is that class; the
   witness shows the checked accessor and the set enumeration reach the unreachable!() arm. *)
Definition known_unknown_member (c : ctx_table) (s : list name) : bool :=
  existsb (fun a => negb (is_some (memoize c a))) s.
Lemma c18_known_class_complement : forall c s,
  known_unknown_member c s = false -> forall a, In a s -> memoize c a <> None.
Proof.
  intros c s H a Ha E. unfold known_unknown_member in H.
  assert (X : existsb (fun a => negb (is_some (memoize c a))) s = true).
  { apply existsb_exists. exists a. split; [exact Ha | rewrite E; reflexivity]. }
  rewrite X in H. discriminate.
Qed.
Print Assumptions c18_known_class_complement.
Theorem c18_unknown_member_known_witness :
  let foo : name := [102; 111; 111] in let rf : regfile := fun _ _ => 0 in
  In ctx_x86 all_contexts /\ known_unknown_member ctx_x86 [foo] = true /\ memoize ctx_x86 foo = None /\
  get_register ctx_x86 rf foo (VSome [foo]) = Panic 1 /\
  cpu_valid_registers ctx_x86 rf (VSome [foo]) = Panic 1.
Proof. cbv zeta. split; [in_list|]. repeat apply conj; vm_compute; reflexivity. Qed.
Print Assumptions c18_unknown_member_known_witness.
