(* C18/Format.v — format_register: the rendering denotes the value (hex_val inverts it), for
   every non-negative value and every minimum width.  [hex_step] names the step of hex_val's fold. *)
From Coq Require Import Lia.
From RM Require Import C18.Model.
Open Scope Z_scope.

Lemma hex_fixed_length : forall d v acc, length (hex_fixed d v acc) = (d + length acc)%nat.
Proof.
  induction d as [|d IH]; intros v acc; [reflexivity|].
  cbn [hex_fixed]. rewrite IH. cbn [length]. lia.
Qed.

Lemma hex_digit_val_digit : forall d, 0 <= d < 16 -> hex_digit_val (hex_digit d) = d.
Proof.
  intros d H. unfold hex_digit, hex_digit_val.
  destruct (d <? 10) eqn:E.
  - apply Z.ltb_lt in E. assert (X : 48 + d <? 58 = true) by (apply Z.ltb_lt; lia). rewrite X. lia.
  - apply Z.ltb_ge in E. assert (X : 87 + d <? 58 = false) by (apply Z.ltb_ge; lia). rewrite X. lia.
Qed.

Definition hex_step (a b : Z) : Z := a * 16 + hex_digit_val b.

Lemma hex_fixed_fold : forall d v acc a, 0 <= v ->
  fold_left hex_step (hex_fixed d v acc) a = fold_left hex_step acc (a * 16 ^ Z.of_nat d + v mod 16 ^ Z.of_nat d).
Proof.
  induction d as [|d IH]; intros v acc a Hv.
  - cbn [hex_fixed]. change (16 ^ Z.of_nat 0) with 1. rewrite Z.mod_1_r. f_equal. lia.
  - cbn [hex_fixed]. rewrite IH by (apply Z.div_pos; lia).
    cbn [fold_left]. f_equal. unfold hex_step.
    rewrite hex_digit_val_digit by (apply Z.mod_pos_bound; lia).
    rewrite Nat2Z.inj_succ, Z.pow_succ_r by lia.
    rewrite (Z.rem_mul_r v 16 (16 ^ Z.of_nat d)) by lia. lia.
Qed.

Lemma hex_val_fixed : forall d v, 0 <= v -> hex_val (hex_fixed d v []) = v mod 16 ^ Z.of_nat d.
Proof.
  intros d v Hv. unfold hex_val. change (fun a b => a * 16 + hex_digit_val b) with hex_step.
  rewrite hex_fixed_fold by exact Hv. cbn [fold_left]. lia.
Qed.

Lemma ndigits_bound : forall v, 0 <= v -> v < 16 ^ Z.of_nat (ndigits v).
Proof.
  intros v Hv. unfold ndigits. destruct (v <=? 0) eqn:E.
  - apply Z.leb_le in E. assert (v = 0) by lia. subst. reflexivity.
  - apply Z.leb_gt in E. pose proof (Z.log2_nonneg v) as L.
    rewrite Z2Nat.id by (pose proof (Z.div_pos (Z.log2 v) 4 L); lia).
    change 16 with (2 ^ 4). rewrite <- Z.pow_mul_r by (try lia; pose proof (Z.div_pos (Z.log2 v) 4 L); lia).
    destruct (Z.log2_spec v E) as [_ U].
    eapply Z.lt_le_trans; [exact U|]. apply Z.pow_le_mono_r; [lia|].
    pose proof (Z.mul_succ_div_gt (Z.log2 v) 4). lia.
Qed.

Lemma hex_val_min : forall d v, 0 <= v ->
  hex_val (hex_min d v) = v /\ (d <= length (hex_min d v))%nat /\
  ((1 <= d)%nat -> v < 16 ^ Z.of_nat d -> length (hex_min d v) = d).
Proof.
  intros d v Hv. unfold hex_min. split; [|split].
  - rewrite hex_val_fixed by exact Hv. apply Z.mod_small. split; [exact Hv|].
    eapply Z.lt_le_trans; [exact (ndigits_bound v Hv)|].
    apply Z.pow_le_mono_r; [lia|]. lia.
  - rewrite hex_fixed_length. cbn [length]. lia.
  - intros H1 Hd. rewrite hex_fixed_length. cbn [length].
    assert (ndigits v <= d)%nat; [|lia].
    unfold ndigits. destruct (v <=? 0) eqn:E.
    + exact H1.
    + apply Z.leb_gt in E. pose proof (Z.log2_nonneg v) as L.
      destruct (Z.log2_spec v E) as [Lo _].
      assert (X : Z.log2 v < 4 * Z.of_nat d).
      { apply (Z.pow_lt_mono_r_iff 2); [lia | lia|]. rewrite Z.pow_mul_r by lia. change (2 ^ 4) with 16. lia. }
      assert (Y : Z.log2 v / 4 < Z.of_nat d) by (apply Z.div_lt_upper_bound; lia).
      pose proof (Z.div_pos (Z.log2 v) 4 L). lia.
Qed.
