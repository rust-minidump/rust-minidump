(* C18/Proofs.v — from "the checker finds nothing wrong with the generated tables"
   (a computation over the finite name sets) to statements about ALL register files and
   ALL values. *)
From Coq Require Import Lia.
From RM Require Import Base.ListFacts C18.Check C18.Format Gen.ContextTables.
Open Scope Z_scope.

Lemma name_eqb_eq : forall a b, name_eqb a b = true <-> a = b.
Proof.
  induction a as [|x a IH]; intros [|y b]; cbn [name_eqb]; split; intro H; try reflexivity; try discriminate.
  - apply andb_true_iff in H. destruct H as [H1 H2]. apply Z.eqb_eq in H1. apply IH in H2. subst. reflexivity.
  - inversion H; subst. apply andb_true_iff. split; [apply Z.eqb_refl | apply IH; reflexivity].
Qed.
Lemma name_eqb_refl : forall a, name_eqb a a = true.
Proof. intro a. apply name_eqb_eq. reflexivity. Qed.
Lemma name_eqb_sym : forall a b, name_eqb a b = name_eqb b a.
Proof.
  intros a b. destruct (name_eqb a b) eqn:E.
  - apply name_eqb_eq in E. subst. symmetry. apply name_eqb_refl.
  - destruct (name_eqb b a) eqn:E2; [|reflexivity]. apply name_eqb_eq in E2. subst. rewrite name_eqb_refl in E. discriminate.
Qed.

Lemma mem_In : forall n l, mem n l = true <-> In n l.
Proof.
  intros n l. unfold mem. rewrite existsb_exists. split.
  - intros [x [Hx He]]. apply name_eqb_eq in He. subst x. exact Hx.
  - intro H. exists n. split; [exact H | apply name_eqb_refl].
Qed.
Lemma mem_false : forall n l, mem n l = false <-> ~ In n l.
Proof. intros n l. rewrite <- mem_In. destruct (mem n l); split; congruence. Qed.

Lemma find_arm_In : forall A n (arms : list (list name * A)) x,
  find_arm n arms = Some x -> In n (names_of arms).
Proof.
  intros A n arms. induction arms as [|[ps y] r IH]; intros x H; cbn [find_arm] in H; [discriminate|].
  unfold names_of. cbn [map fst List.concat]. apply in_or_app.
  destruct (mem n ps) eqn:E.
  - left. apply mem_In. exact E.
  - right. exact (IH x H).
Qed.
Lemma find_arm_snd : forall n (arms : list (list name * name)) m,
  find_arm n arms = Some m -> In m (map snd arms).
Proof.
  intros n arms. induction arms as [|[ps y] r IH]; intros m H; cbn [find_arm] in H; [discriminate|].
  cbn [map snd]. destruct (mem n ps).
  - inversion H. left. reflexivity.
  - right. exact (IH m H).
Qed.

Lemma is_some_true : forall A (o : option A), is_some o = true -> exists x, o = Some x.
Proof. intros A [x|] H; [exists x; reflexivity | discriminate]. Qed.

Lemma opt_str_eqb_spec : forall a b, opt_str_eqb a b = true <-> a = b.
Proof.
  intros [x|] [y|]; cbn [opt_str_eqb]; split; intro H; try reflexivity; try discriminate.
  - apply name_eqb_eq in H. subst. reflexivity.
  - inversion H. apply name_eqb_refl.
Qed.
Lemma opt_str_eqb_refl : forall a, opt_str_eqb a a = true.
Proof. intro a. apply opt_str_eqb_spec. reflexivity. Qed.
Lemma opt_str_eqb_sym : forall a b, opt_str_eqb a b = opt_str_eqb b a.
Proof. intros [x|] [y|]; try reflexivity. apply name_eqb_sym. Qed.

Lemma strs_eqb_eq : forall a b, strs_eqb a b = true -> a = b.
Proof.
  induction a as [|x a IH]; intros [|y b] H; cbn [strs_eqb] in H; try discriminate; [reflexivity|].
  apply andb_true_iff in H. destruct H as [H1 H2]. apply name_eqb_eq in H1. apply IH in H2. subst. reflexivity.
Qed.
Lemma src_is_list_true : forall s l, src_is_list s l = true -> s = NList l.
Proof. intros [l'|] l H; [|discriminate]. apply strs_eqb_eq in H. rewrite H. reflexivity. Qed.

(* locations: [loc_eqb] compares what [rf_get] and [upd] look at *)
Lemma loc_eqb_iff : forall a b, loc_eqb a b = true <-> l_field a = l_field b /\ l_idx a = l_idx b.
Proof.
  intros a b. unfold loc_eqb. rewrite andb_true_iff, name_eqb_eq, Z.eqb_eq. reflexivity.
Qed.
Lemma loc_eqb_r : forall a b, loc_eqb a b = true -> forall x, loc_eqb x a = loc_eqb x b.
Proof. intros a b H x. apply loc_eqb_iff in H. destruct H as [H1 H2]. unfold loc_eqb. rewrite H1, H2. reflexivity. Qed.
Lemma rf_get_eq : forall rf a b, loc_eqb a b = true -> rf_get rf a = rf_get rf b.
Proof. intros rf a b H. apply loc_eqb_iff in H. destruct H as [H1 H2]. unfold rf_get. rewrite H1, H2. reflexivity. Qed.
Lemma rf_get_upd : forall rf b v a, rf_get (upd rf b v) a = if loc_eqb a b then v else rf_get rf a.
Proof. intros. reflexivity. Qed.

(* the generated expressions the checker calls plain: one location, or one call, under widening casts *)
Lemma plain_read_eval : forall e l, plain_read e = Some l -> loc_ok l = true ->
  forall rf env, aeval rf env e = Ret (rf_get rf l).
Proof.
  induction e; intros l0 H Hok rf env; cbn [plain_read] in H; try discriminate.
  - inversion H; subst. cbn [aeval]. unfold read_loc. rewrite Hok. reflexivity.
  - destruct (from <=? to) eqn:E; [|discriminate].
    cbn [aeval]. rewrite (IHe l0 H Hok rf env). cbn [obind]. rewrite E. reflexivity.
Qed.
Lemma plain_var_eval : forall e x, plain_var e x = true -> forall rf v, aeval rf [(x, v)] e = Ret v.
Proof.
  induction e; intros x0 H rf v; cbn [plain_var] in H; try discriminate.
  - cbn [aeval lookup_var]. rewrite H. reflexivity.
  - apply andb_true_iff in H. destruct H as [E H].
    cbn [aeval]. rewrite (IHe x0 H rf v). cbn [obind]. rewrite E. reflexivity.
Qed.
(* ... so a call's result passed through such an expression is the call's result *)
Lemma bind_plain_var : forall B e x, plain_var e x = true -> forall rf (o : outcome Z) (k : Z -> outcome B),
  (do v <- o; do y <- aeval rf [(x, v)] e; k y) = (do v <- o; k v).
Proof. intros B e x H rf [v| |t|] k; try reflexivity. cbn [obind]. rewrite (plain_var_eval e x H). reflexivity. Qed.
Lemma plain_bvar_eval : forall e x, plain_bvar e x = true -> forall rf v, beval rf [(x, v)] e = Ret (negb (v =? 0)).
Proof.
  intros e x H rf v. destruct e; cbn [plain_bvar] in H; try discriminate.
  cbn [beval lookup_var]. rewrite H. reflexivity.
Qed.
Lemma plain_bvar_pure : forall e x, plain_bvar e x = true -> forall t, bpure [(x, t)] e = t.
Proof.
  intros e x H t. destruct e; cbn [plain_bvar] in H; try discriminate.
  cbn [bpure lookup_b]. rewrite H. reflexivity.
Qed.

(* with the exact comparison, default_memoize_register(REGISTERS, reg) is "reg if it is in REGISTERS" *)
Lemma find_exact : forall n l, find (fun r => name_eqb r n) l = if mem n l then Some n else None.
Proof.
  intros n l. induction l as [|a l IH]; [reflexivity|].
  cbn [find]. unfold mem. cbn [existsb]. rewrite (name_eqb_sym n a).
  destruct (name_eqb a n) eqn:E.
  - apply name_eqb_eq in E. subst. reflexivity.
  - exact IH.
Qed.

Lemma no_upper_lower : forall n, has_upper n = false -> map lower n = n.
Proof.
  induction n as [|b n IH]; intro H; [reflexivity|].
  unfold has_upper in H. cbn [existsb] in H. apply orb_false_iff in H. destruct H as [H1 H2].
  cbn [map]. unfold lower at 1. rewrite H1. f_equal. apply IH. exact H2.
Qed.

Lemma mapM_ext : forall A B (f g : A -> outcome B), (forall a, f a = g a) -> forall l, mapM f l = mapM g l.
Proof. intros A B f g H l. induction l as [|a l IH]; [reflexivity|]. cbn [mapM]. rewrite H, IH. reflexivity. Qed.
Lemma filterM_ret : forall A (p : A -> outcome bool) (q : A -> bool) l,
  (forall a, p a = Ret (q a)) -> filterM p l = Ret (filter q l).
Proof.
  intros A p q l H. induction l as [|a l IH]; [reflexivity|].
  cbn [filterM filter]. rewrite H, IH. cbn [obind]. destruct (q a); reflexivity.
Qed.
Lemma filter_map_fst : forall (p : name -> bool) (g : name -> Z) l,
  filter (fun q : name * Z => p (fst q)) (map (fun n => (n, g n)) l) = map (fun n => (n, g n)) (filter p l).
Proof.
  intros p g l. induction l as [|a l IH]; [reflexivity|].
  cbn [map filter fst]. destruct (p a); [cbn [map]; rewrite IH; reflexivity | exact IH].
Qed.
Lemma forallb_existsb : forall A B (q : A -> B -> bool) l1 l2,
  forallb (fun a => existsb (q a) l2) l1 = true -> forall a, In a l1 -> exists b, In b l2 /\ q a b = true.
Proof. intros A B q l1 l2 H a Ha. rewrite forallb_forall in H. apply existsb_exists, H, Ha. Qed.
Lemma forallb_false_ex : forall (p : name -> bool) l, forallb p l = false -> exists a, In a l /\ p a = false.
Proof.
  intros p l. induction l as [|a l IH]; intro H; [discriminate|].
  cbn [forallb] in H. destruct (p a) eqn:E.
  - destruct (IH H) as [b [Hb Pb]]. exists b. split; [right; exact Hb | exact Pb].
  - exists a. split; [left; reflexivity | exact E].
Qed.

Lemma diag_nil : forall c msg p names, diag c msg p names = [] -> forall n, In n names -> p n = true.
Proof.
  intros c msg p names H n Hn. unfold diag in H. apply map_eq_nil in H.
  destruct (p n) eqn:E; [reflexivity|].
  assert (Hin : In n (filter (fun n => negb (p n)) names)).
  { apply filter_In. split; [exact Hn | rewrite E; reflexivity]. }
  rewrite H in Hin. contradiction.
Qed.

(* an empty diagnosis that begins with the entry for [p] over [names]: [p] holds on [names], and the rest is empty *)
Lemma diag_app_elim : forall c msg p names rest (P : Prop),
  ((forall n, In n names -> p n = true) -> rest = [] -> P) -> diag c msg p names ++ rest = [] -> P.
Proof. intros c msg p names rest P K H. apply app_eq_nil in H. destruct H as [H1 H2]. exact (K (diag_nil _ _ _ _ H1) H2). Qed.
Lemma diag1_app_elim : forall c msg p x rest (P : Prop),
  (p x = true -> rest = [] -> P) -> diag c msg p [x] ++ rest = [] -> P.
Proof. intros c msg p x rest P K. apply diag_app_elim. intro H. exact (K (H x (or_introl eq_refl))). Qed.

Lemma concat_map_nil : forall A B (f : A -> list B) l, List.concat (map f l) = [] -> forall a, In a l -> f a = [].
Proof.
  intros A B f l H a Ha. apply concat_nil_Forall in H. rewrite Forall_forall in H. apply H, in_map, Ha.
Qed.

Record ctx_facts (c : ctx_table) : Prop := {
  f_tables : forall n, In n (names_of (ct_get c) ++ names_of (ct_set c)) -> ok_tables c n = true;
  f_acc_memo : forall n, In n (accepted c) -> is_some (memoize c n) = true;
  f_memo_acc : forall n, In n (ct_registers c ++ names_of (ct_memo c)) -> is_some (find_arm n (ct_set c)) = true;
  f_memo_target : forall m, In m (map snd (ct_memo c)) -> mem m (ct_registers c) = true;
  f_alias : forall n, In n (accepted c) -> ok_alias c n = true;
  f_valid : forall n, In n (accepted c) -> ok_valid c n = true;
  f_groups_disj : forall n, In n (names_of (ct_groups c)) ->
                  match find_arm n (ct_groups c) with Some b => is_some (disj_alts b) | None => true end = true;
  f_groups : forall n, In n (names_of (ct_groups c)) -> is_some (memoize c n) = true;
  f_sp : ok_special c (ct_sp_acc c) (ct_sp_name c) = true;
  f_ip : ok_special c (ct_ip_acc c) (ct_ip_name c) = true;
  f_regs : forall r, In r (ct_registers c) -> ok_register c r = true;
  f_gpr : strs_eqb (ct_gpr c) (ct_registers c) = true;
  f_valid_all : plain_bvar (ct_valid_all c) v_memo = true;
  f_valid_default : plain_bvar (ct_valid_default c) v_contains = true;
  f_get_cond : plain_bvar (ct_get_cond c) v_iv = true;
  f_md_get : plain_var (ct_md_get c) v_ga = true;
  f_md_valid : plain_bvar (ct_md_valid c) v_iv = true;
  f_md_filter : plain_bvar (ct_md_filter c) v_iv = true;
  f_fmt : ct_fmt_prefix c = [48; 120] /\ ct_fmt_zero c = true /\ ct_fmt_mul c = 2;
  f_width : ct_width c = 32 \/ ct_width c = 64;
  f_cmp : ct_memo_cmp c = 0;
  f_lower : forall n, In n (accepted c) -> has_upper n = false;
  f_memo_tbl : ct_memo_tbl c = ct_registers c;
  f_iter_all : ct_iter_all c = NList (ct_registers c);
  f_regs_direct : ct_regs_direct c = None \/ ct_regs_direct c = Some (NList (ct_registers c));
  f_iter_some : ct_iter_some c = NSet;
  f_next : ct_next_slice c = 0 /\ ct_next_set c = 0 /\ plain_var (ct_next_val c) v_ga = true;
  f_md_regs : plain_var (ct_md_regs_val c) v_mga = true;
  f_md_size : plain_var (ct_md_size c) v_size = true;
  f_get_val : plain_var (ct_get_val c) v_ga = true /\ plain_var (ct_md_get_val c) v_mga = true;
  f_md_fmt : match ct_md_fmt c with
             | None => True
             | Some (p, z, d) => p = ct_fmt_prefix c /\ z = ct_fmt_zero c /\ d = register_size c * ct_fmt_mul c
             end;
  f_layout : forall n, In n (accepted c) -> ok_layout c n = true;
  f_disjoint : forall n, In n (accepted c) -> ok_disjoint c n = true
}.

(* The entries of [diagnose] and the fields of [ctx_facts] come in the same order: each field says that its entry
   is empty.  Where the checker's test is a boolean combination, the field is turned back into the test. *)
Lemma facts_of_diagnose : forall c, diagnose c = [] -> ctx_facts c.
Proof.
  intro c. unfold diagnose.
  repeat (first [apply diag1_app_elim | apply diag_app_elim]; intro). intro D.
  (* the fields that are the checker's test word for word are among the hypotheses; the last entry is [D] *)
  constructor; try assumption; [.. | exact (diag_nil _ _ _ _ D)].
  - (* f_fmt *) rewrite <- name_eqb_eq, <- Z.eqb_eq, <- !andb_true_iff, andb_assoc. assumption.
  - (* f_width *) rewrite <- !Z.eqb_eq. apply orb_true_iff. assumption.
  - (* f_cmp *) apply Z.eqb_eq. assumption.
  - (* f_lower *) intros n Hn. apply negb_true_iff. auto.
  - (* f_memo_tbl *) apply strs_eqb_eq. assumption.
  - (* f_iter_all *) apply src_is_list_true. assumption.
  - (* f_regs_direct *)
    destruct (ct_regs_direct c); [right; f_equal; apply src_is_list_true; assumption | left; reflexivity].
  - (* f_iter_some *) destruct (ct_iter_some c); [discriminate | reflexivity].
  - (* f_next *) rewrite <- !Z.eqb_eq, <- !andb_true_iff, andb_assoc. assumption.
  - (* f_get_val *) apply andb_true_iff. assumption.
  - (* f_md_fmt *) destruct (ct_md_fmt c) as [[[p z] d]|]; [|exact I].
    rewrite <- name_eqb_eq, <- Z.eqb_eq, <- (Bool.eqb_true_iff z), <- !andb_true_iff, andb_assoc. assumption.
Qed.

Lemma forallb_map : forall A B (g : A -> B) (p : B -> bool) l, forallb p (map g l) = forallb (fun a => p (g a)) l.
Proof. intros A B g p l. induction l as [|a l IH]; [reflexivity|]. cbn [map forallb]. rewrite IH. reflexivity. Qed.
(* [ok_alias], [ok_valid] and [ok_disjoint] compare every accepted name with every other one and look both up in the
   tables (loc_of, memoize, alts_of, loc_offset) again for each pair.  What is looked up depends on one name only: with
   the lookups [g] made once per name, the pairwise pass runs over their results.  The entry is the same list;
   evaluated in this form it costs a table of lookups, not a square of them.
   In [tables_diagnosis_empty] the three instances of [q], [g], [r] are the bodies of those predicates in Check.v,
   up to conversion: [rewrite] finds each entry by unifying the predicate with the left-hand side. *)
Lemma diag_by_table : forall c msg A (q : name -> bool) (g : name -> A) (r : A -> A -> bool) names,
  diag c msg (fun n => q n && forallb (fun m => r (g n) (g m)) names) names =
  let t := map g names in diag c msg (fun n => q n && let x := g n in forallb (r x) t) names.
Proof.
  intros c msg A q g r names. cbv zeta. unfold diag. f_equal. apply filter_ext. intro n.
  rewrite forallb_map. reflexivity.
Qed.

(* The one computational step: the checker run on the nine generated tables.  If a table
   in context.rs is edited so that an obligation breaks, this is the line that fails, and
   Coq prints the list of (context type: problem, register name) pairs it cannot unify
   with []. *)
Lemma tables_diagnosis_empty : forall c, In c all_contexts -> diagnose c = [].
Proof.
  intros c Hc. apply (map_eq_nil show_diag). unfold diagnose.
  rewrite (diag_by_table c _ _ (fun _ => true) (fun n => (loc_of c n, memoize c n))
             (fun x y => Bool.eqb (loc_eqb (fst x) (fst y)) (opt_str_eqb (snd x) (snd y))) (accepted c)).
  rewrite (diag_by_table c _ _ (fun n => forallb (fun a => opt_str_eqb (memoize c a) (memoize c n)) (alts_of c n))
             (fun n => (n, memoize c n, alts_of c n))
             (fun x y => implb (opt_str_eqb (snd (fst y)) (snd (fst x))) (mem (fst (fst y)) (snd x))) (accepted c)).
  rewrite (diag_by_table c _ _ (fun _ => true) (fun n => (loc_of c n, loc_offset c (loc_of c n)))
             (let w := ct_width c / 8 in    (* divided once per name, not once per pair *)
              fun x y => match snd x, snd y with
                         | Some a, Some b => loc_eqb (fst x) (fst y) || (a + w <=? b) || (b + w <=? a)
                         | _, _ => false
                         end) (accepted c)).
  revert c Hc. apply concat_map_nil. vm_compute. reflexivity.
Qed.

Lemma all_facts : forall c, In c all_contexts -> ctx_facts c.
Proof. intros c Hc. exact (facts_of_diagnose c (tables_diagnosis_empty c Hc)). Qed.

(* a deserialised value of n bytes fits n bytes *)
Lemma decode_le_range : forall bytes, (forall k, 0 <= bytes k < 256) -> forall n off, 0 <= decode_le bytes off n < 256 ^ Z.of_nat n.
Proof.
  intros bytes B n. induction n as [|n IH]; intro off; [cbn; lia|].
  cbn [decode_le]. rewrite Nat2Z.inj_succ, Z.pow_succ_r by lia. specialize (IH (off + 1)). specialize (B off). lia.
Qed.
Lemma decode_be_range : forall bytes, (forall k, 0 <= bytes k < 256) -> forall n off acc m, 0 <= acc < 256 ^ m -> 0 <= m ->
  0 <= decode_be bytes off n acc < 256 ^ (m + Z.of_nat n).
Proof.
  intros bytes B n. induction n as [|n IH]; intros off acc m A M; [cbn [decode_be]; rewrite Z.add_0_r; exact A|].
  cbn [decode_be]. replace (m + Z.of_nat (S n)) with ((m + 1) + Z.of_nat n) by lia. apply IH; [|lia].
  rewrite Z.pow_add_r by lia. specialize (B off). change (256 ^ 1) with 256. lia.
Qed.
Lemma decode_range : forall big bytes, (forall k, 0 <= bytes k < 256) -> forall off n, 0 <= decode big bytes off n < 256 ^ Z.of_nat n.
Proof.
  intros big bytes B off n. unfold decode. destruct big; [|apply decode_le_range; exact B].
  apply (decode_be_range bytes B n off 0 0); lia.
Qed.

Section WithFacts.
Variable c : ctx_table.
Hypothesis F : ctx_facts c.

(* Which strings are names: memoize_register = the alias arm, else the name itself iff it is in REGISTERS;
   the names it knows are exactly the patterns of set_register *)
Lemma memoize_cases : forall n,
  memoize c n = match find_arm n (ct_memo c) with
                | Some m => Some m
                | None => if mem n (ct_registers c) then Some n else None
                end.
Proof.
  intro n. unfold memoize, memo_eqb. rewrite (f_cmp c F), (f_memo_tbl c F). cbn [Z.eqb]. rewrite find_exact. reflexivity.
Qed.
Lemma memoizable_accepted : forall n m, memoize c n = Some m -> In n (accepted c).
Proof.
  intros n m H. rewrite memoize_cases in H.
  assert (I : In n (ct_registers c ++ names_of (ct_memo c))).
  { apply in_or_app. destruct (find_arm n (ct_memo c)) eqn:E; [right; exact (find_arm_In _ _ _ _ E)|].
    left. apply mem_In. destruct (mem n (ct_registers c)); [reflexivity | discriminate]. }
  apply (f_memo_acc c F), is_some_true in I. destruct I as [l Hl]. exact (find_arm_In _ _ _ _ Hl).
Qed.
Lemma accepted_known : forall n, mem n (accepted c) = is_some (memoize c n).
Proof.
  intro n. destruct (memoize c n) as [m|] eqn:E.
  - apply mem_In. exact (memoizable_accepted n m E).
  - destruct (mem n (accepted c)) eqn:A; [|reflexivity].
    apply mem_In, (f_acc_memo c F) in A. rewrite E in A. discriminate.
Qed.
Lemma accepted_memo : forall n, In n (accepted c) -> memoize c n <> None.
Proof. intros n H E. apply (f_acc_memo c F) in H. rewrite E in H. discriminate. Qed.
Lemma register_known : forall r, In r (ct_registers c) -> count r (ct_registers c) = 1 /\ memoize c r = Some r.
Proof.
  intros r Hr. pose proof (f_regs c F r Hr) as R. unfold ok_register in R.
  apply andb_true_iff in R. destruct R as [R1 R2]. split; [apply Z.eqb_eq; exact R2 | apply opt_str_eqb_spec; exact R1].
Qed.
Lemma canonical_fixpoint : forall n m, memoize c n = Some m -> memoize c m = Some m /\ In m (ct_registers c).
Proof.
  intros n m H. assert (Hm : In m (ct_registers c)).
  { rewrite memoize_cases in H. destruct (find_arm n (ct_memo c)) as [k|] eqn:E.
    - inversion H; subst k. apply mem_In, (f_memo_target c F), (find_arm_snd _ _ _ E).
    - destruct (mem n (ct_registers c)) eqn:E2; [|discriminate]. inversion H; subst m. apply mem_In. exact E2. }
  split; [exact (proj2 (register_known m Hm)) | exact Hm].
Qed.

(* Reading and writing by name: every pattern of get_register_always / set_register has its arm in each of the
   three tables: a plain read of the name's location, an assignment of `val` to that location *)
Lemma tables_arms : forall n, In n (names_of (ct_get c) ++ names_of (ct_set c)) -> exists e l sv,
  find_arm n (ct_get c) = Some e /\ find_arm n (ct_set c) = Some l /\ find_arm n (ct_set_val c) = Some sv /\
  plain_read e = Some (loc_of c n) /\ plain_var sv v_val = true /\
  loc_eqb (loc_of c n) l = true /\ loc_ok (loc_of c n) = true /\ loc_ok l = true.
Proof.
  intros n Hn. pose proof (f_tables c F n Hn) as H. unfold ok_tables in H. unfold loc_of, acc_loc.
  destruct (find_arm n (ct_get c)) as [e|]; [|discriminate].
  destruct (find_arm n (ct_set c)) as [l|]; [|discriminate].
  destruct (find_arm n (ct_set_val c)) as [sv|]; [|discriminate].
  destruct (plain_read e) as [a|] eqn:P; [|discriminate].
  rewrite !andb_true_iff in H. destruct H as [[[[[E Oa] Ol] _] _] V].
  exists e, l, sv. repeat apply conj; try reflexivity; assumption.
Qed.
(* get_register_always, for ALL strings: the location's value, or the unreachable!() arm *)
Lemma get_always_cases : forall rf n,
  get_always c rf n = if mem n (accepted c) then Ret (rf_get rf (loc_of c n)) else Panic 1.
Proof.
  intros rf n. unfold get_always. destruct (mem n (accepted c)) eqn:A.
  - apply mem_In in A. destruct (tables_arms n (in_or_app _ _ _ (or_intror A))) as (e & l & sv & G & _ & _ & P & _ & _ & O & _).
    rewrite G. exact (plain_read_eval e _ P O rf []).
  - destruct (find_arm n (ct_get c)) as [e|] eqn:G; [|reflexivity]. exfalso. apply mem_false in A. apply A.
    destruct (tables_arms n (in_or_app _ _ _ (or_introl (find_arm_In _ _ _ _ G)))) as (_ & l & _ & _ & S & _).
    exact (find_arm_In _ _ _ _ S).
Qed.
(* set_register, for ALL strings: it assigns the value to the location of its arm, or refuses *)
Lemma set_reg_eq : forall rf n v,
  set_reg c rf n v = Ret (option_map (fun l => upd rf l v) (find_arm n (ct_set c))).
Proof.
  intros rf n v. unfold set_reg. destruct (find_arm n (ct_set c)) as [l|] eqn:S; [|reflexivity].
  destruct (tables_arms n (in_or_app _ _ _ (or_intror (find_arm_In _ _ _ _ S)))) as (e & l' & sv & _ & S' & V & _ & P & _ & _ & O).
  rewrite S in S'. injection S' as <-. rewrite V, (plain_var_eval sv v_val P). cbn [obind option_map]. rewrite O. reflexivity.
Qed.
Lemma refused_unknown : forall n, find_arm n (ct_set c) = None -> memoize c n = None.
Proof.
  intros n S. destruct (memoize c n) as [m|] eqn:E; [exfalso | reflexivity].
  destruct (tables_arms n (in_or_app _ _ _ (or_intror (memoizable_accepted n m E)))) as (_ & l & _ & _ & S' & _).
  rewrite S in S'. discriminate.
Qed.
Lemma not_accepted_unknown : forall n, ~ In n (accepted c) -> memoize c n = None.
Proof.
  intros n H. destruct (find_arm n (ct_set c)) eqn:S; [destruct (H (find_arm_In _ _ _ _ S)) | exact (refused_unknown n S)].
Qed.
Lemma alias_loc_b : forall n m, In n (accepted c) -> In m (accepted c) ->
  loc_eqb (loc_of c n) (loc_of c m) = opt_str_eqb (memoize c n) (memoize c m).
Proof.
  intros n m Hn Hm. pose proof (f_alias c F n Hn) as H. unfold ok_alias in H.
  rewrite forallb_forall in H. exact (Bool.eqb_prop _ _ (H m Hm)).
Qed.
Lemma alias_loc : forall n m, In n (accepted c) -> In m (accepted c) ->
  loc_eqb (loc_of c n) (loc_of c m) = true <-> memoize c n = memoize c m.
Proof. intros n m Hn Hm. rewrite (alias_loc_b n m Hn Hm). apply opt_str_eqb_spec. Qed.
(* a write through n, read through m: the value written when m is a spelling of n's register, else what m read before *)
Lemma read_after_write : forall n l, find_arm n (ct_set c) = Some l -> forall m, In m (accepted c) -> forall rf v,
  get_always c (upd rf l v) m = if opt_str_eqb (memoize c n) (memoize c m) then Ret v else get_always c rf m.
Proof.
  intros n l S m Hm rf v. pose proof (find_arm_In _ _ _ _ S) as Hn.
  destruct (tables_arms n (in_or_app _ _ _ (or_intror Hn))) as (e & l' & sv & _ & S' & _ & _ & _ & L & _).
  rewrite S in S'. injection S' as <-.
  rewrite !get_always_cases, (proj2 (mem_In _ _) Hm), rf_get_upd, <- (loc_eqb_r _ _ L), (alias_loc_b m n Hm Hn), opt_str_eqb_sym.
  destruct (opt_str_eqb (memoize c n) (memoize c m)); reflexivity.
Qed.

(* the generated validity conditions are the plain calls *)
Lemma is_valid_all : forall n, is_valid c n VAll = is_some (memoize c n).
Proof. intro n. cbn [is_valid]. apply (plain_bvar_pure _ _ (f_valid_all c F)). Qed.
Lemma disj_alts_bset : forall n s b l, disj_alts b = Some l -> bset n s b = existsb (fun a => mem a s) l.
Proof.
  intros n s b. induction b; intros l H; cbn [disj_alts] in H; try discriminate.
  - cbn [bset]. destruct (strip_prefix has_prefix x) as [a|] eqn:E; [|discriminate]. inversion H; subst l.
    destruct (name_eqb x v_contains) eqn:Q.
    + apply name_eqb_eq in Q. subst x. discriminate E.
    + cbn [existsb]. rewrite orb_false_r. reflexivity.
  - destruct (disj_alts b1) as [l1|]; [|discriminate]. destruct (disj_alts b2) as [l2|]; [|discriminate].
    inversion H; subst l. cbn [bset]. rewrite existsb_app, (IHb1 l1 eq_refl), (IHb2 l2 eq_refl). reflexivity.
Qed.
Lemma is_valid_some : forall n s, is_valid c n (VSome s) = existsb (fun a => mem a s) (alts_of c n).
Proof.
  intros n s. cbn [is_valid]. unfold alts_of. destruct (find_arm n (ct_groups c)) as [b|] eqn:E.
  - pose proof (f_groups_disj c F n (find_arm_In _ _ _ _ E)) as D. rewrite E in D.
    apply is_some_true in D. destruct D as [l Hl]. rewrite Hl. exact (disj_alts_bset n s b l Hl).
  - rewrite (plain_bvar_pure _ _ (f_valid_default c F)). cbn [existsb]. rewrite orb_false_r. reflexivity.
Qed.
(* a string that is not a name has no validity arm: it is valid exactly when the set holds it *)
Lemma is_valid_unknown : forall n, ~ In n (accepted c) -> forall v,
  is_valid c n v = match v with VAll => false | VSome s => mem n s end.
Proof.
  intros n H [|s].
  - rewrite is_valid_all, (not_accepted_unknown n H). reflexivity.
  - rewrite is_valid_some. unfold alts_of. destruct (find_arm n (ct_groups c)) eqn:G.
    + apply find_arm_In, (f_groups c F) in G. rewrite (not_accepted_unknown n H) in G. discriminate.
    + cbn [existsb]. apply orb_false_r.
Qed.
Lemma validity_aliases : forall n, In n (accepted c) -> forall s,
  is_valid c n (VSome s) = true <-> exists a, In a s /\ memoize c a = memoize c n.
Proof.
  intros n Hn s. pose proof (f_valid c F n Hn) as V. unfold ok_valid in V.
  apply andb_true_iff in V. destruct V as [V1 V2]. rewrite forallb_forall in V1, V2.
  rewrite is_valid_some, existsb_exists. split; intros [a [Ha H]]; exists a.
  - split; [apply mem_In; exact H | apply opt_str_eqb_spec; exact (V1 a Ha)].
  - split; [|apply mem_In; exact Ha].
    assert (Aa : In a (accepted c)).
    { apply mem_In. rewrite accepted_known, H, <- accepted_known. apply mem_In. exact Hn. }
    specialize (V2 a Aa). rewrite H, opt_str_eqb_refl in V2. apply mem_In. exact V2.
Qed.
Lemma get_register_gated : forall rf n v,
  get_register c rf n v = if is_valid c n v then (do x <- get_always c rf n; Ret (Some x)) else Ret None.
Proof.
  intros rf n v. unfold get_register.
  rewrite (plain_bvar_pure _ _ (f_get_cond c F)), (bind_plain_var _ _ _ (proj1 (f_get_val c F))). reflexivity.
Qed.
(* the checked read, by cases, for ALL strings and ALL validity values *)
Lemma get_register_cases : forall rf n v,
  get_register c rf n v =
  if mem n (accepted c) then (if is_valid c n v then Ret (Some (rf_get rf (loc_of c n))) else Ret None)
  else match v with VAll => Ret None | VSome s => if mem n s then Panic 1 else Ret None end.
Proof.
  intros rf n v. rewrite get_register_gated, get_always_cases. destruct (mem n (accepted c)) eqn:A; [reflexivity|].
  rewrite (is_valid_unknown n (proj1 (mem_false _ _) A)). destruct v; reflexivity.
Qed.

Lemma unknown_absent : forall n, memoize c n = None ->
  (forall rf, get_register c rf n VAll = Ret None) /\
  (forall rf v, set_reg c rf n v = Ret None) /\
  (forall rf s, (forall a, In a s -> memoize c a <> None) -> get_register c rf n (VSome s) = Ret None).
Proof.
  intros n H. assert (A : mem n (accepted c) = false) by (rewrite accepted_known, H; reflexivity).
  split; [|split].
  - intro rf. rewrite get_register_cases, A. reflexivity.
  - intros rf v. rewrite set_reg_eq. destruct (find_arm n (ct_set c)) eqn:S; [|reflexivity].
    apply find_arm_In, mem_In in S. unfold accepted in A. rewrite S in A. discriminate.
  - intros rf s Hs. rewrite get_register_cases, A. destruct (mem n s) eqn:E; [|reflexivity].
    apply mem_In in E. destruct (Hs n E H).
Qed.

(* The dedicated accessors: a plain read of the location the sp / ip register name denotes, hence the by-name
   read of that name, whatever any other field holds *)
Lemma special_agrees : forall acc s, ok_special c acc s = true ->
  In s (accepted c) /\ forall rf, get_always c rf s = Ret (rf_get rf (acc_loc acc)) /\ aeval rf [] acc = get_always c rf s.
Proof.
  intros acc s H. unfold ok_special in H. apply andb_true_iff in H. destruct H as [H Hm].
  assert (As : mem s (accepted c) = true) by (rewrite accepted_known; exact Hm).
  split; [apply mem_In; exact As|]. intro rf. rewrite get_always_cases, As. unfold loc_of.
  destruct (find_arm s (ct_get c)) as [g|]; [|discriminate].
  destruct (plain_read acc) as [l|] eqn:P; [|discriminate]. apply andb_true_iff in H. destruct H as [E O].
  replace (acc_loc acc) with l by (unfold acc_loc; rewrite P; reflexivity).
  rewrite (plain_read_eval acc l P O), (rf_get_eq rf _ _ E). split; reflexivity.
Qed.
(* ... so it follows writes by name *)
Lemma special_follows : forall acc s, ok_special c acc s = true ->
  forall n l, find_arm n (ct_set c) = Some l -> forall rf v,
  aeval (upd rf l v) [] acc = if opt_str_eqb (memoize c n) (memoize c s) then Ret v else aeval rf [] acc.
Proof.
  intros acc s H n l S rf v. destruct (special_agrees acc s H) as [Hs A].
  rewrite (proj2 (A (upd rf l v))), (proj2 (A rf)). exact (read_after_write n l S s Hs rf v).
Qed.

(* MinidumpContext dispatch: the generated arms forward to the CpuContext methods *)
Lemma md_get_always_eq : forall rf n, md_get_always c rf n = get_always c rf n.
Proof.
  intros rf n. unfold md_get_always. destruct (get_always c rf n); try reflexivity.
  apply (plain_var_eval _ _ (f_md_get c F)).
Qed.
Lemma md_is_valid_eq : forall e, plain_bvar e v_iv = true -> forall rf n v,
  md_is_valid e c rf n v = Ret (is_valid c n v).
Proof.
  intros e H rf n v. unfold md_is_valid. rewrite (plain_bvar_eval e v_iv H). destruct (is_valid c n v); reflexivity.
Qed.
Lemma md_get_register_eq : forall rf n v, md_get_register c rf n v = get_register c rf n v.
Proof.
  intros rf n v. rewrite get_register_gated. unfold md_get_register.
  rewrite (md_is_valid_eq _ (f_md_valid c F)), (bind_plain_var _ _ _ (proj2 (f_get_val c F))), md_get_always_eq. reflexivity.
Qed.
Lemma md_named_eq : forall rf n, md_named c rf n = named c rf n.
Proof.
  intros rf n. unfold md_named. rewrite (bind_plain_var _ _ _ (f_md_regs c F)), md_get_always_eq. reflexivity.
Qed.
Lemma md_format_register_eq : forall rf n, md_format_register c rf n = format_register c rf n.
Proof.
  intros rf n. unfold md_format_register. pose proof (f_md_fmt c F) as X.
  destruct (ct_md_fmt c) as [[[p z] d]|]; [|reflexivity]. destruct X as [X1 [X2 X3]]. subst. reflexivity.
Qed.
Lemma md_register_size_eq : md_register_size c = Ret (register_size c).
Proof. apply (plain_var_eval _ _ (f_md_size c F)). Qed.

(* [listing rf names]: each name with the value of its location *)
Definition listing (rf : regfile) (names : list name) : list (name * Z) :=
  map (fun n => (n, rf_get rf (loc_of c n))) names.

(* reading a list of ANY strings in order reaches unreachable!() at the first that is not a name *)
Lemma mapM_named : forall rf l,
  mapM (named c rf) l = if forallb (fun a => mem a (accepted c)) l then Ret (listing rf l) else Panic 1.
Proof.
  intros rf l. induction l as [|a l IH]; [reflexivity|].
  cbn [mapM forallb]. unfold named at 1. rewrite get_always_cases, IH.
  destruct (mem a (accepted c)); [|reflexivity]. destruct (forallb (fun a0 => mem a0 (accepted c)) l); reflexivity.
Qed.
Lemma mapM_named_known : forall rf l, (forall a, In a l -> memoize c a <> None) -> mapM (named c rf) l = Ret (listing rf l).
Proof.
  intros rf l H. rewrite mapM_named.
  assert (E : forallb (fun a => mem a (accepted c)) l = true); [|rewrite E; reflexivity].
  apply forallb_forall. intros a Ha. rewrite accepted_known. specialize (H a Ha). destruct (memoize c a); [reflexivity | contradiction].
Qed.

(* CpuRegisters::next, step by step: it yields the head with what get_register_always returns for it and moves on;
   at the end it answers None and stays there *)
Lemma cpu_iter_next_cons : forall rf k r t,
  cpu_iter_next c rf (k, r :: t) = do x <- get_always c rf r; Ret (Some (r, x), (k, t)).
Proof.
  intros rf k r t. destruct (f_next c F) as [N1 [N2 N3]]. unfold cpu_iter_next. cbn [fst snd].
  assert (S0 : match k with KSlice => ct_next_slice c | KSet => ct_next_set c end = 0) by (destruct k; assumption).
  rewrite S0. cbn [Z.to_nat skipn]. apply (bind_plain_var _ _ _ N3).
Qed.
Lemma cpu_iter_next_nil : forall rf k, cpu_iter_next c rf (k, []) = Ret (None, (k, [])).
Proof. intros rf k. unfold cpu_iter_next. cbn [fst snd]. rewrite skipn_nil. reflexivity. Qed.
Lemma cpu_iter_step : forall rf k r t, memoize c r <> None ->
  cpu_iter_next c rf (k, r :: t) = Ret (Some (r, rf_get rf (loc_of c r)), (k, t)).
Proof.
  intros rf k r t H. rewrite cpu_iter_next_cons, get_always_cases, accepted_known.
  destruct (memoize c r); [reflexivity | contradiction].
Qed.
(* draining CpuRegisters = reading every name of the initial state in order; no fuel runs out *)
Lemma cpu_iter_collect_mapM : forall rf k st,
  cpu_iter_collect (S (length st)) c rf (k, st) = mapM (named c rf) st.
Proof.
  intros rf k st. induction st as [|r t IH].
  - cbn [length cpu_iter_collect]. rewrite cpu_iter_next_nil. reflexivity.
  - cbn [length]. remember (S (length t)) as fu. cbn [cpu_iter_collect]. rewrite cpu_iter_next_cons.
    cbn [mapM]. unfold named at 1.
    destruct (get_always c rf r) as [x| |tg|]; try reflexivity.
    cbn [obind]. subst fu. rewrite IH. destruct (mapM (named c rf) t); reflexivity.
Qed.
Lemma cpu_iter_init_eq : forall v,
  cpu_iter_init c v = match v with VAll => (KSlice, ct_registers c) | VSome s => (KSet, s) end.
Proof. intros [|s]; unfold cpu_iter_init; [rewrite (f_iter_all c F) | rewrite (f_iter_some c F)]; reflexivity. Qed.
Lemma cpu_valid_registers_mapM : forall rf v,
  cpu_valid_registers c rf v = mapM (named c rf) (match v with VAll => ct_registers c | VSome s => s end).
Proof.
  intros rf v. unfold cpu_valid_registers. rewrite cpu_iter_init_eq. destruct v; cbn [snd]; apply cpu_iter_collect_mapM.
Qed.
Lemma cpu_registers_eq : forall rf, cpu_registers c rf = mapM (named c rf) (ct_registers c).
Proof.
  intro rf. unfold cpu_registers. destruct (f_regs_direct c F) as [E|E]; rewrite E.
  - apply (cpu_valid_registers_mapM rf VAll).
  - cbn [src_state snd]. apply cpu_iter_collect_mapM.
Qed.

Lemma enumerations : forall rf,
  ct_gpr c = ct_registers c /\
  md_registers c rf = Ret (listing rf (ct_registers c)) /\
  cpu_valid_registers c rf VAll = Ret (listing rf (ct_registers c)) /\
  md_valid_registers c rf VAll = Ret (listing rf (ct_registers c)) /\
  (forall s, md_valid_registers c rf (VSome s) =
             Ret (listing rf (filter (fun n => is_valid c n (VSome s)) (ct_registers c)))) /\
  (forall s, (forall a, In a s -> memoize c a <> None) ->
             cpu_valid_registers c rf (VSome s) = Ret (listing rf s)) /\
  (forall r, In r (ct_registers c) -> count r (ct_registers c) = 1 /\ memoize c r = Some r).
Proof.
  intro rf. pose proof (strs_eqb_eq _ _ (f_gpr c F)) as G.
  assert (K : forall a, In a (ct_registers c) -> memoize c a <> None).
  { intros a Ha. rewrite (proj2 (register_known a Ha)). discriminate. }
  assert (M : md_registers c rf = Ret (listing rf (ct_registers c))).
  { unfold md_registers. rewrite G, (mapM_ext _ _ _ _ (md_named_eq rf)). exact (mapM_named_known rf _ K). }
  assert (V : forall v, md_valid_registers c rf v =
                        Ret (listing rf (filter (fun n => is_valid c n v) (ct_registers c)))).
  { intro v. unfold md_valid_registers. rewrite M. cbn [obind].
    rewrite (filterM_ret _ _ (fun p => is_valid c (fst p) v)) by (intro a; apply (md_is_valid_eq _ (f_md_filter c F))).
    unfold listing. rewrite (filter_map_fst (fun n => is_valid c n v)). reflexivity. }
  repeat apply conj; try assumption.
  - rewrite cpu_valid_registers_mapM. exact (mapM_named_known rf _ K).
  - rewrite V, filter_all; [reflexivity|].
    intros x Hx. rewrite is_valid_all, (proj2 (register_known x Hx)). reflexivity.
  - intro s. apply V.
  - intros s Hs. rewrite cpu_valid_registers_mapM. exact (mapM_named_known rf s Hs).
  - exact register_known.
Qed.

Lemma unreachable_exactly : forall rf n,
  (exists o, get_register c rf n VAll = Ret o) /\
  (forall s,
     (get_register c rf n (VSome s) = Panic 1 <-> In n s /\ ~ In n (accepted c)) /\
     (~ (In n s /\ ~ In n (accepted c)) -> exists o, get_register c rf n (VSome s) = Ret o) /\
     md_get_register c rf n (VSome s) = get_register c rf n (VSome s) /\
     (cpu_valid_registers c rf (VSome s) = Panic 1 <-> exists a, In a s /\ ~ In a (accepted c)) /\
     ((forall a, In a s -> In a (accepted c)) -> cpu_valid_registers c rf (VSome s) = Ret (listing rf s)) /\
     (exists l, md_valid_registers c rf (VSome s) = Ret l)).
Proof.
  intros rf n. split.
  { rewrite get_register_cases. destruct (mem n (accepted c)); [destruct (is_valid c n VAll)|]; eexists; reflexivity. }
  intro s. rewrite cpu_valid_registers_mapM, mapM_named, get_register_cases, <- (mem_In n s), <- (mem_false n (accepted c)).
  split; [|split; [|split; [|split; [|split]]]].
  - destruct (mem n (accepted c)), (mem n s), (is_valid c n (VSome s)); intuition congruence.
  - destruct (mem n (accepted c)), (mem n s), (is_valid c n (VSome s)); intro N; try (eexists; reflexivity); destruct N; split; reflexivity.
  - rewrite md_get_register_eq. exact (get_register_cases rf n (VSome s)).
  - destruct (forallb (fun a => mem a (accepted c)) s) eqn:E; split; try discriminate; try reflexivity.
    + intros [a [Ha N]]. rewrite forallb_forall in E. apply mem_false in N. rewrite (E a Ha) in N. discriminate.
    + intros _. destruct (forallb_false_ex _ _ E) as [a [Ha Pa]]. exists a. split; [exact Ha | apply mem_false; exact Pa].
  - intro H. assert (E : forallb (fun a => mem a (accepted c)) s = true); [|rewrite E; reflexivity].
    apply forallb_forall. intros a Ha. apply mem_In. exact (H a Ha).
  - destruct (enumerations rf) as [_ [_ [_ [_ [V _]]]]]. eexists. exact (V s).
Qed.

Lemma last_write_acc : forall m ops a,
  last_write c m ops a = match last_write c m ops None with Some x => Some x | None => a end.
Proof.
  intros m ops. induction ops as [|[n v] r IH]; intro a; [reflexivity|].
  cbn [last_write]. destruct (opt_name_eqb (memoize c n) (memoize c m)).
  - rewrite (IH (Some v)). destruct (last_write c m r None); reflexivity.
  - apply IH.
Qed.
Lemma write_sequence : forall ops rf,
  exists rf', apply_writes c rf ops = Ret rf' /\
    forall m, In m (accepted c) ->
      get_always c rf' m = match last_write c m ops None with Some v => Ret v | None => get_always c rf m end.
Proof.
  induction ops as [|[n v] r IH]; intro rf.
  - exists rf. split; [reflexivity|]. intros m _. reflexivity.
  - cbn [apply_writes last_write]. rewrite set_reg_eq. cbn [obind].
    destruct (find_arm n (ct_set c)) as [l|] eqn:S; cbn [option_map].
    + destruct (IH (upd rf l v)) as [rf' [A G]]. exists rf'. split; [exact A|].
      intros m Hm. rewrite (G m Hm), (read_after_write n l S m Hm). change opt_name_eqb with opt_str_eqb.
      destruct (opt_str_eqb (memoize c n) (memoize c m)); [rewrite (last_write_acc m r (Some v))|];
        destruct (last_write c m r None); reflexivity.
    + destruct (IH rf) as [rf' [A G]]. exists rf'. split; [exact A|].
      (* a refused name is unknown, m is known: the write is not one to m's register *)
      intros m Hm. rewrite (G m Hm), (refused_unknown n S).
      destruct (memoize c m) eqn:K; [reflexivity | destruct (accepted_memo m Hm K)].
Qed.

Lemma read_registers : forall n, In n (accepted c) -> forall big bytes,
  exists off, loc_offset c (loc_of c n) = Some off /\ 0 <= off /\
    get_always c (decode_base c big bytes) n = Ret (decode big bytes off (Z.to_nat (ct_width c / 8))) /\
    ((forall k, 0 <= bytes k < 256) -> 0 <= decode big bytes off (Z.to_nat (ct_width c / 8)) < 2 ^ ct_width c) /\
    (forall m, In m (accepted c) -> memoize c m <> memoize c n ->
       exists off', loc_offset c (loc_of c m) = Some off' /\ (off + ct_width c / 8 <= off' \/ off' + ct_width c / 8 <= off)).
Proof.
  intros n Hn big bytes. pose proof (f_layout c F n Hn) as L. unfold ok_layout in L.
  destruct (field_layout (l_field (loc_of c n)) (ct_fields c)) as [[[w len] off]|] eqn:E; [|discriminate].
  rewrite !andb_true_iff, !Z.eqb_eq, Z.leb_le in L. destruct L as [[W _] O]. subst w.
  set (i := if l_idx (loc_of c n) <? 0 then 0 else l_idx (loc_of c n)).
  assert (Idx : 0 <= i) by (unfold i; destruct (l_idx (loc_of c n) <? 0) eqn:Q; [lia | apply Z.ltb_ge in Q; exact Q]).
  assert (W8 : ct_width c = 32 /\ ct_width c / 8 = 4 \/ ct_width c = 64 /\ ct_width c / 8 = 8)
    by (destruct (f_width c F) as [X|X]; rewrite X; [left | right]; split; reflexivity).
  exists (off + i * (ct_width c / 8)).
  split; [unfold loc_offset; rewrite E; reflexivity|]. split; [nia|]. split.
  { rewrite get_always_cases, (proj2 (mem_In _ _) Hn). unfold rf_get, decode_base. rewrite E. reflexivity. }
  split.
  { intro B. pose proof (decode_range big bytes B (off + i * (ct_width c / 8)) (Z.to_nat (ct_width c / 8))) as R.
    destruct W8 as [[X Y]|[X Y]]; rewrite X, Y in *; exact R. }
  intros m Hm Hne. pose proof (f_disjoint c F n Hn) as D. unfold ok_disjoint in D. rewrite forallb_forall in D. specialize (D m Hm).
  unfold loc_offset in D at 1. rewrite E in D.
  destruct (loc_offset c (loc_of c m)) as [off'|]; [|discriminate]. exists off'. split; [reflexivity|].
  rewrite !orb_true_iff, !Z.leb_le in D. destruct D as [[D|D]|D]; [|left; exact D | right; exact D].
  destruct Hne. symmetry. apply (alias_loc n m Hn Hm). exact D.
Qed.
End WithFacts.
