(* C13/Proofs.v — what the proof files of this directory share (folds, strict total orders, the order of byte
   strings); facts about C13/Model.v: insertion sort on distinct keys and the order independence of the renderers,
   the certificate fold in closed form (the greatest certificate that lists the module), join by index. *)
From Coq Require Import Lia Sorting.Permutation.
From RM Require Import C13.Model.
Open Scope Z_scope.

Section Folds.
Context {A B : Type} (f : A -> B -> A).

Lemma fold_left_inv (P : A -> Prop) : (forall a x, P a -> P (f a x)) -> forall l a, P a -> P (fold_left f l a).
Proof. intros H. induction l as [|x t IH]; intros a Ha; cbn [fold_left]; [exact Ha|]. apply IH, H, Ha. Qed.

(* a step that commutes with itself: the fold does not depend on the order of the list *)
Lemma fold_left_perm : (forall a x y, f (f a x) y = f (f a y) x) ->
  forall l1 l2, Permutation l1 l2 -> forall a, fold_left f l1 a = fold_left f l2 a.
Proof.
  intros Hc. induction 1 as [|x l l' _ IH|x y l|l l' l'' _ IH1 _ IH2]; intros a; cbn [fold_left].
  - reflexivity.
  - apply IH.
  - rewrite Hc. reflexivity.
  - rewrite IH1. apply IH2.
Qed.
End Folds.

(* ---- a strict total order given as a boolean function *)
Section StrictOrder.
Context {K : Type} (ltb : K -> K -> bool).
Hypothesis ltb_irrefl : forall a, ltb a a = false.
Hypothesis ltb_trans : forall a b c, ltb a b = true -> ltb b c = true -> ltb a c = true.
Hypothesis ltb_total : forall a b, ltb a b = false -> ltb b a = false -> a = b.

Lemma ltb_asym a b : ltb a b = true -> ltb b a = false.
Proof.
  intros H. destruct (ltb b a) eqn:E; [|reflexivity].
  pose proof (ltb_trans _ _ _ H E) as X. rewrite ltb_irrefl in X. discriminate.
Qed.

Inductive tri_spec (a b : K) : Prop :=
| TriLt : ltb a b = true -> ltb b a = false -> tri_spec a b
| TriEq : a = b -> tri_spec a b
| TriGt : ltb a b = false -> ltb b a = true -> tri_spec a b.
Lemma tri a b : tri_spec a b.
Proof.
  destruct (ltb a b) eqn:E1.
  - apply TriLt; [exact E1|apply ltb_asym; exact E1].
  - destruct (ltb b a) eqn:E2.
    + apply TriGt; assumption.
    + apply TriEq. apply ltb_total; assumption.
Qed.
End StrictOrder.

(* [known_by]: rewrite every comparison the context decides; [derive_by]: add the comparisons that follow by
   transitivity *)
Ltac known_by ltb irrefl :=
  repeat match goal with
  | H : ltb ?a ?b = _ |- context [ltb ?a ?b] => rewrite H
  | |- context [ltb ?a ?a] => rewrite (irrefl a)
  end.
Ltac derive_by ltb trans asym :=
  repeat match goal with
  | H1 : ltb ?a ?b = true, H2 : ltb ?b ?c = true |- _ =>
      lazymatch goal with
      | _ : ltb a c = true |- _ => fail
      | _ => pose proof (trans _ _ _ H1 H2); pose proof (asym _ _ (trans _ _ _ H1 H2))
      end
  end.

(* ---- slice::sort_by on a list with distinct keys *)
Section SortFacts.
Context {K V : Type} (ltb : K -> K -> bool).
Hypothesis ltb_irrefl : forall a, ltb a a = false.
Hypothesis ltb_trans : forall a b c, ltb a b = true -> ltb b c = true -> ltb a c = true.
Hypothesis ltb_total : forall a b, ltb a b = false -> ltb b a = false -> a = b.

Lemma insert_comm (a b : K * V) l : fst a <> fst b ->
  insert_key ltb a (insert_key ltb b l) = insert_key ltb b (insert_key ltb a l).
Proof.
  intros Hab. induction l as [|x t IH]; cbn [insert_key].
  - destruct (tri ltb ltb_irrefl ltb_trans ltb_total (fst a) (fst b)) as [A B|E|A B]; [|contradiction|];
      known_by ltb ltb_irrefl; reflexivity.
  - destruct (ltb (fst b) (fst x)) eqn:Ebx; destruct (ltb (fst a) (fst x)) eqn:Eax; cbn [insert_key];
      rewrite ?Ebx, ?Eax.
    + destruct (tri ltb ltb_irrefl ltb_trans ltb_total (fst a) (fst b)) as [A B|E|A B]; [|contradiction|];
        known_by ltb ltb_irrefl; reflexivity.
    + destruct (ltb (fst a) (fst b)) eqn:E1.
      * rewrite (ltb_trans _ _ _ E1 Ebx) in Eax. discriminate.
      * reflexivity.
    + destruct (ltb (fst b) (fst a)) eqn:E2.
      * rewrite (ltb_trans _ _ _ E2 Eax) in Ebx. discriminate.
      * reflexivity.
    + rewrite IH. reflexivity.
Qed.

Lemma sort_perm_invariant (l1 l2 : list (K * V)) :
  Permutation l1 l2 -> NoDup (map fst l1) -> sort_by_key ltb l1 = sort_by_key ltb l2.
Proof.
  induction 1 as [|x l l' Hp IH|x y l|l l' l'' H1 IH1 H2 IH2]; intros Hnd; cbn [sort_by_key fold_right map] in *.
  - reflexivity.
  - inversion Hnd; subst. fold (sort_by_key ltb l). fold (sort_by_key ltb l'). rewrite IH by assumption. reflexivity.
  - fold (sort_by_key ltb l). apply insert_comm.
    inversion Hnd as [|? ? Hy Hrest]; subst. intros E. apply Hy. left. symmetry. exact E.
  - rewrite IH1 by assumption. apply IH2.
    eapply Permutation_NoDup; [apply Permutation_map; exact H1|exact Hnd].
Qed.

(* two iteration orders of one hash map (distinct keys) sort to the same list *)
Lemma sort_iter_invariant (m i1 i2 : list (K * V)) :
  NoDup (map fst m) -> Permutation i1 m -> Permutation i2 m -> sort_by_key ltb i1 = sort_by_key ltb i2.
Proof.
  intros Hnd H1 H2. apply sort_perm_invariant.
  - exact (Permutation_trans H1 (Permutation_sym H2)).
  - exact (Permutation_NoDup (Permutation_map fst (Permutation_sym H1)) Hnd).
Qed.

Lemma render_order_independent {R} (fmt : K * V -> R) (m i1 i2 : list (K * V)) :
  NoDup (map fst m) -> Permutation i1 m -> Permutation i2 m ->
  render ltb fmt i1 = render ltb fmt i2.
Proof. intros Hnd H1 H2. unfold render. rewrite (sort_iter_invariant m i1 i2 Hnd H1 H2). reflexivity. Qed.
End SortFacts.

Lemma cert_order_independent {C M} (meqb : M -> M -> bool) (cltb : C -> C -> bool)
  (Hi : forall a, cltb a a = false)
  (Ht : forall a b c, cltb a b = true -> cltb b c = true -> cltb a c = true)
  (Hto : forall a b, cltb a b = false -> cltb b a = false -> a = b)
  (m i1 i2 : list (C * list M)) x :
  NoDup (map fst m) -> Permutation i1 m -> Permutation i2 m ->
  cert_of meqb cltb i1 x = cert_of meqb cltb i2 x.
Proof. intros Hnd H1 H2. unfold cert_of. rewrite (sort_iter_invariant cltb Hi Ht Hto m i1 i2 Hnd H1 H2). reflexivity. Qed.

(* ---- closed form of the certificate fold: the GREATEST certificate (in the sort order) that lists the module *)
Section CertClosedForm.
Context {C M : Type} (meqb : M -> M -> bool) (cltb : C -> C -> bool).
Hypothesis cltb_irrefl : forall a, cltb a a = false.
Hypothesis cltb_trans : forall a b c, cltb a b = true -> cltb b c = true -> cltb a c = true.

(* ascending by name, ties allowed: no later entry has a smaller name than an earlier one *)
Fixpoint csorted (l : list (C * list M)) : Prop :=
  match l with [] => True | x :: t => (forall y, In y t -> cltb (fst y) (fst x) = false) /\ csorted t end.

Lemma insert_key_in (e : C * list M) l y : In y (insert_key cltb e l) <-> In y (e :: l).
Proof.
  induction l as [|x t IH]; cbn [insert_key]; [reflexivity|].
  destruct (cltb (fst e) (fst x)); [reflexivity|]. cbn [In] in *. rewrite IH. clear. tauto.
Qed.

Lemma insert_key_csorted (e : C * list M) l : csorted l -> csorted (insert_key cltb e l).
Proof.
  induction l as [|x t IH]; cbn [insert_key csorted]; intros H.
  - split; [intros ? []|exact I].
  - destruct H as [Hx Ht]. destruct (cltb (fst e) (fst x)) eqn:E; cbn [csorted].
    + split; [|split; assumption]. intros y [<-|Hy].
      * apply (ltb_asym cltb cltb_irrefl cltb_trans). exact E.
      * destruct (cltb (fst y) (fst e)) eqn:E2; [|reflexivity].
        rewrite <- (Hx y Hy). symmetry. eapply cltb_trans; eassumption.
    + split; [|apply IH; exact Ht]. intros y Hy. apply insert_key_in in Hy. destruct Hy as [<-|Hy]; [exact E|apply Hx; exact Hy].
Qed.

Lemma sort_by_key_csorted (l : list (C * list M)) : csorted (sort_by_key cltb l) /\ forall y, In y (sort_by_key cltb l) <-> In y l.
Proof.
  induction l as [|e t [IS IM]]; cbn [sort_by_key fold_right]; [split; [exact I|intuition]|].
  fold (sort_by_key cltb t). split; [apply insert_key_csorted; exact IS|].
  intros y. rewrite insert_key_in. cbn [In]. rewrite IM. reflexivity.
Qed.

Lemma last_cert_csorted x : forall (l : list (C * list M)) acc, csorted l ->
  (last_cert meqb x l acc = acc /\ forall e, In e l -> existsb (meqb x) (snd e) = false) \/
  (exists c ms, last_cert meqb x l acc = Some c /\ In (c, ms) l /\ existsb (meqb x) ms = true /\
                forall e, In e l -> existsb (meqb x) (snd e) = true -> cltb c (fst e) = false).
Proof.
  induction l as [|[c1 ms1] t IH]; intros acc Hs; cbn [last_cert].
  - left. split; [reflexivity|intros ? []].
  - destruct Hs as [Hx Ht]. destruct (existsb (meqb x) ms1) eqn:E.
    + right. destruct (IH (Some c1) Ht) as [[R N]|[c [ms [R [Hin [L G]]]]]].
      * exists c1, ms1. split; [exact R|]. split; [left; reflexivity|]. split; [exact E|].
        intros e [<-|He] Le; [apply cltb_irrefl|]. rewrite (N e He) in Le. discriminate.
      * exists c, ms. split; [exact R|]. split; [right; exact Hin|]. split; [exact L|].
        intros e [<-|He] Le; [exact (Hx (c, ms) Hin)|apply G; assumption].
    + destruct (IH acc Ht) as [[R N]|[c [ms [R [Hin [L G]]]]]].
      * left. split; [exact R|]. intros e [<-|He]; [exact E|apply N; exact He].
      * right. exists c, ms. split; [exact R|]. split; [right; exact Hin|]. split; [exact L|].
        intros e [<-|He] Le; [cbn [snd] in Le; congruence|apply G; assumption].
Qed.

Lemma cert_greatest_wins (iter : list (C * list M)) x :
  match cert_of meqb cltb iter x with
  | None => forall e, In e iter -> existsb (meqb x) (snd e) = false
  | Some c => (exists ms, In (c, ms) iter /\ existsb (meqb x) ms = true) /\
              forall e, In e iter -> existsb (meqb x) (snd e) = true -> cltb c (fst e) = false
  end.
Proof.
  unfold cert_of. destruct (sort_by_key_csorted iter) as [S Mem].
  destruct (last_cert_csorted x (sort_by_key cltb iter) None S) as [[R N]|[c [ms [R [Hin [L G]]]]]]; rewrite R.
  - intros e He. apply N. apply Mem. exact He.
  - split; [exists ms; split; [apply Mem; exact Hin|exact L]|]. intros e He Le. apply G; [apply Mem; exact He|exact Le].
Qed.
End CertClosedForm.

(* ---- the strict total order of byte strings (String's Ord on ASCII / UTF-8 bytes) and their equality *)
Lemma bytes_ltb_irrefl a : bytes_ltb a a = false.
Proof. induction a as [|x t IH]; cbn [bytes_ltb]; [reflexivity|]. rewrite Z.ltb_irrefl, Z.eqb_refl, IH. reflexivity. Qed.

Lemma bytes_ltb_trans a : forall b c, bytes_ltb a b = true -> bytes_ltb b c = true -> bytes_ltb a c = true.
Proof.
  induction a as [|x a IH]; intros [|y b] [|z c]; cbn [bytes_ltb]; try discriminate; try reflexivity.
  rewrite !orb_true_iff, !andb_true_iff, !Z.ltb_lt, !Z.eqb_eq.
  intros [H|[H1 H2]] [H'|[H1' H2']].
  - left; lia.
  - left; lia.
  - left; lia.
  - right. split; [lia|]. eapply IH; eauto.
Qed.

Lemma bytes_ltb_total a : forall b, bytes_ltb a b = false -> bytes_ltb b a = false -> a = b.
Proof.
  induction a as [|x a IH]; intros [|y b]; cbn [bytes_ltb]; try discriminate; try reflexivity.
  rewrite !orb_false_iff, !andb_false_iff, !Z.ltb_ge, !Z.eqb_neq.
  intros [H1 H2] [H3 H4].
  assert (x = y) by lia. subst y.
  destruct H2 as [H2|H2]; [lia|]. destruct H4 as [H4|H4]; [lia|].
  f_equal. apply IH; assumption.
Qed.

Lemma bytes_eqb_spec a : forall b, bytes_eqb a b = true <-> a = b.
Proof.
  induction a as [|x a IH]; intros [|y b]; cbn [bytes_eqb]; try (split; discriminate); [split; reflexivity|].
  rewrite andb_true_iff, Z.eqb_eq, IH. split; [intros [-> ->]; reflexivity|intros E; inversion E; split; reflexivity].
Qed.

Lemma bytes_eqb_refl a : bytes_eqb a a = true.
Proof. apply bytes_eqb_spec. reflexivity. Qed.

(* ---- registers: only membership of the validity set is used *)
Lemma existsb_perm {K} (f : K -> bool) l1 l2 : Permutation l1 l2 -> existsb f l1 = existsb f l2.
Proof.
  induction 1; cbn [existsb]; try congruence.
  - destruct (f x), (f y); reflexivity.
Qed.

Lemma join_by_index {A} n (res : nat -> A) completion :
  (forall i, (i < n)%nat -> In i completion) ->
  join_all n res completion = map (fun i => Some (res i)) (seq 0 n).
Proof.
  intros H. unfold join_all. apply map_ext_in. intros i Hi. apply in_seq in Hi.
  (* slot i is written when i completes, and every later write leaves it as it is *)
  destruct (in_split i completion) as [l1 [l2 ->]]; [apply H; lia|].
  rewrite fold_left_app. cbn [fold_left]. apply (fold_left_inv _ (fun f => f i = Some (res i))).
  - intros f j Hf. unfold updf. destruct (Nat.eqb i j) eqn:E; [apply Nat.eqb_eq in E; subst j; reflexivity|exact Hf].
  - unfold updf. rewrite Nat.eqb_refl. reflexivity.
Qed.

Lemma join_by_completion_depends :
  join_by_completion (fun i => i) [0%nat; 1%nat] <> join_by_completion (fun i => i) [1%nat; 0%nat].
Proof. cbn. discriminate. Qed.
