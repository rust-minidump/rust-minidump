(* C13/ProofsLinux.v — the lsb-release fold is "last line wins" (a function of the file-ordered lines); Pid and
   microcode take the first line with their key; in-place walks commute across threads. *)
From Coq Require Import Lia Sorting.Permutation String Ascii.
From RM Require Import C13.Model C13.Proofs C13.Linux.
Open Scope string_scope.
Open Scope list_scope.
Open Scope Z_scope.

(* readable byte strings for witnesses and examples (not part of the extracted model) *)
Definition bytes_of_string (s : string) : bytes := map (fun a => Z.of_nat (nat_of_ascii a)) (list_ascii_of_string s).

Lemma fld_eqb_refl f : fld_eqb f f = true.
Proof. destruct f; reflexivity. Qed.
Lemma fld_eqb_eq a b : fld_eqb a b = true -> a = b.
Proof. destruct a, b; cbn; intros H; try reflexivity; discriminate. Qed.

(* ---- LinuxStandardBase::from *)
Lemma lsb_step_at acc e f :
  lsb_step acc e f = match field_of_key (fst e) with
                     | Some g => if fld_eqb f g then snd e else acc f
                     | None => acc f end.
Proof. unfold lsb_step. destruct (field_of_key (fst e)) as [g|]; reflexivity. Qed.

Lemma lsb_fold_from lines : forall acc f,
  fold_left lsb_step lines acc f = last_value f lines (acc f).
Proof.
  induction lines as [|e t IH]; intros acc f; cbn [fold_left last_value]; [reflexivity|].
  rewrite IH, lsb_step_at. reflexivity.
Qed.

Lemma lsb_fold_last_wins lines f : lsb_fold lines f = lsb_spec lines f.
Proof. unfold lsb_fold, lsb_spec. rewrite lsb_fold_from. reflexivity. Qed.

(* the value of a field after appending a line that feeds it is that line's value, whatever came before *)
Lemma last_value_app f l1 l2 acc : last_value f (l1 ++ l2) acc = last_value f l2 (last_value f l1 acc).
Proof. revert acc. induction l1 as [|e t IH]; intros acc; cbn [app last_value]; [reflexivity|]. apply IH. Qed.

Lemma lsb_fold_snoc lines k v f :
  field_of_key k = Some f -> lsb_fold (lines ++ [(k, v)]) f = v.
Proof.
  intros H. rewrite lsb_fold_last_wins. unfold lsb_spec. rewrite last_value_app. cbn [last_value fst snd].
  rewrite H, fld_eqb_refl. reflexivity.
Qed.

(* first wins (Pid, microcode) *)
Lemma first_value_first key l1 v l2 :
  (forall e, In e l1 -> bytes_eqb (fst e) key = false) ->
  first_value key (l1 ++ (key, v) :: l2) = Some v.
Proof.
  intros H. unfold first_value. induction l1 as [|e t IH]; cbn [app find fst].
  - rewrite bytes_eqb_refl. reflexivity.
  - rewrite (H e (or_introl eq_refl)). apply IH. intros e' He'. apply H. right. exact He'.
Qed.

(* ---- walks in place *)
Section InPlaceFacts.
Context {A : Type}.

Lemma nth_error_upd_same (f : A -> A) : forall l i, nth_error (upd_slot i f l) i = option_map f (nth_error l i).
Proof.
  induction l as [|x t IH]; intros [|i]; cbn [upd_slot nth_error option_map]; try reflexivity. apply IH.
Qed.

Lemma nth_error_upd_other (f : A -> A) : forall l i j, i <> j -> nth_error (upd_slot i f l) j = nth_error l j.
Proof.
  induction l as [|x t IH]; intros [|i] [|j] H; cbn [upd_slot nth_error]; try reflexivity; try congruence.
  apply IH. congruence.
Qed.

Lemma upd_slot_length (f : A -> A) : forall l i, length (upd_slot i f l) = length l.
Proof. induction l as [|x t IH]; intros [|i]; cbn [upd_slot length]; try reflexivity. rewrite IH. reflexivity. Qed.

Lemma option_map_comp (f : A -> A) (g : A -> A) o : option_map g (option_map f o) = option_map (fun x => g (f x)) o.
Proof. destruct o; reflexivity. Qed.

Lemma run_events_nth (evs : list (nat * (A -> A))) : forall l i,
  nth_error (run_events evs l) i = option_map (apply_all (events_of i evs)) (nth_error l i).
Proof.
  induction evs as [|[k f] t IH]; intros l i; unfold run_events in *; cbn [fold_left fst snd].
  - unfold events_of, apply_all. cbn. destruct (nth_error l i); reflexivity.
  - rewrite IH. unfold events_of. cbn [filter fst].
    destruct (Nat.eqb k i) eqn:E.
    + apply Nat.eqb_eq in E. subst k. rewrite nth_error_upd_same, option_map_comp. cbn [map snd].
      destruct (nth_error l i); reflexivity.
    + apply Nat.eqb_neq in E. rewrite nth_error_upd_other by exact E. reflexivity.
Qed.

Lemma nth_error_ext_eq : forall (l1 l2 : list A), (forall i, nth_error l1 i = nth_error l2 i) -> l1 = l2.
Proof.
  induction l1 as [|x t IH]; intros [|y u] H.
  - reflexivity.
  - specialize (H O). discriminate.
  - specialize (H O). discriminate.
  - pose proof (H O) as H0. cbn in H0. inversion H0; subst. f_equal. apply IH. intros i. exact (H (S i)).
Qed.

Lemma nth_error_mapi_from {B} (f : nat -> A -> B) : forall l n i,
  nth_error (mapi_from n f l) i = option_map (f (n + i)%nat) (nth_error l i).
Proof.
  induction l as [|x t IH]; intros n [|i]; cbn [mapi_from nth_error option_map]; try reflexivity.
  - rewrite Nat.add_0_r. reflexivity.
  - rewrite IH. replace (S n + i)%nat with (n + S i)%nat by lia. reflexivity.
Qed.

(* the final threads are: slot i = thread i's own events applied in their order — no other thread, no
   interleaving, no completion order appears *)
Lemma run_events_closed_form (evs : list (nat * (A -> A))) l :
  run_events evs l = mapi_from 0 (fun i x => apply_all (events_of i evs) x) l.
Proof.
  apply nth_error_ext_eq. intros i. rewrite run_events_nth, nth_error_mapi_from. reflexivity.
Qed.

End InPlaceFacts.

