(* C13/Properties.v — the property theorems of C13 (partial: the logic cores of determinism), each with its full statement,
   a short proof from the lemmas of the Proofs files (an instance, or a few lines) and its Print Assumptions; the refutations
   carry their witnesses; at the end of each group, non-vacuity examples evaluated on concrete inputs. *)
From Coq Require Import Lia Sorting.Permutation String.
From RM Require Import C13.Model C13.Proofs C13.Linux C13.ProofsLinux C13.Sites.
From RM Require C12.Model C12.Proofs C13.Sched.
From RM Require Import C13.Adaptive C13.ProofsAdaptive C13.Budget C13.ProofsBudget C13.Cfi C13.ProofsCfi C13.Process.
From RM Require Import C13.Unloaded C13.ProofsUnloaded.
Open Scope string_scope.
Open Scope list_scope.
Open Scope Z_scope.

(* ---- rendering does not depend on hash iteration order *)
(* proc_limits (after fix 1b3b3b2): for any strict total order on the names, any two iteration
   orders of one map (distinct keys) render identically *)
Theorem c13_render_order_independent :
  forall (K V R : Type) (ltb : K -> K -> bool),
  (forall a, ltb a a = false) ->
  (forall a b c, ltb a b = true -> ltb b c = true -> ltb a c = true) ->
  (forall a b, ltb a b = false -> ltb b a = false -> a = b) ->
  forall (fmt : K * V -> R) (m i1 i2 : list (K * V)),
  NoDup (map fst m) -> Permutation i1 m -> Permutation i2 m ->
  render ltb fmt i1 = render ltb fmt i2.
Proof. intros K V R ltb Hi Ht Hto. exact (@render_order_independent K V ltb Hi Ht Hto R). Qed.
Print Assumptions c13_render_order_independent.

(* ... instantiated at the order actually used: String's bytewise order *)
Theorem c13_limits_json_order_independent :
  forall (V R : Type) (fmt : bytes * V -> R) (m i1 i2 : list (bytes * V)),
  NoDup (map fst m) -> Permutation i1 m -> Permutation i2 m ->
  render bytes_ltb fmt i1 = render bytes_ltb fmt i2.
Proof.
  intros V R. exact (@render_order_independent bytes V bytes_ltb bytes_ltb_irrefl bytes_ltb_trans bytes_ltb_total R).
Qed.
Print Assumptions c13_limits_json_order_independent.

(* F-C13a: before the fix the array was emitted in iteration order *)
Theorem c13_render_refuted :
  exists (m i1 i2 : list (Z * Z)), NoDup (map fst m) /\ Permutation i1 m /\ Permutation i2 m /\
    render_v0 (fun e => fst e) i1 <> render_v0 (fun e => fst e) i2.
Proof.
  exists [(1, 10); (2, 20)], [(1, 10); (2, 20)], [(2, 20); (1, 10)].
  split; [repeat constructor; cbn; intuition discriminate|].
  split; [apply Permutation_refl|]. split; [apply perm_swap|]. cbn. discriminate.
Qed.
Print Assumptions c13_render_refuted.

(* evil-json certificates (after fix 824bddc) *)
Theorem c13_cert_order_independent :
  forall (C M : Type) (meqb : M -> M -> bool) (cltb : C -> C -> bool),
  (forall a, cltb a a = false) ->
  (forall a b c, cltb a b = true -> cltb b c = true -> cltb a c = true) ->
  (forall a b, cltb a b = false -> cltb b a = false -> a = b) ->
  forall (m i1 i2 : list (C * list M)) (x : M),
  NoDup (map fst m) -> Permutation i1 m -> Permutation i2 m ->
  cert_of meqb cltb i1 x = cert_of meqb cltb i2 x.
Proof. exact @cert_order_independent. Qed.
Print Assumptions c13_cert_order_independent.

(* F-C13d: before the fix the certificate reported for a module listed twice depended on the order *)
Theorem c13_cert_refuted :
  exists (i1 i2 : list (Z * list Z)) x, Permutation i1 i2 /\ NoDup (map fst i1) /\
    cert_of_v0 Z.eqb i1 x <> cert_of_v0 Z.eqb i2 x.
Proof.
  exists [(1, [7]); (2, [7])], [(2, [7]); (1, [7])], 7.
  split; [apply perm_swap|]. split; [repeat constructor; cbn; intuition discriminate|]. cbn. discriminate.
Qed.
Print Assumptions c13_cert_refuted.

(* registers are emitted in the fixed order of general_purpose_registers(), whatever the
   iteration order of the validity HashSet *)
Theorem c13_registers_order_independent :
  forall (K : Type) (eqb : K -> K -> bool) (v1 v2 order : list K),
  Permutation v1 v2 -> emit_registers eqb v1 order = emit_registers eqb v2 order.
Proof. intros K eqb v1 v2 order H. unfold emit_registers. apply filter_ext. intros r. apply existsb_perm, H. Qed.
Print Assumptions c13_registers_order_independent.

(* ---- the per-thread walks *)
(* join_all returns the outputs by index, in whatever order the sub-futures complete *)
Theorem c13_join_by_index :
  forall (A : Type) (n : nat) (res : nat -> A) (completion : list nat),
  (forall i, (i < n)%nat -> In i completion) ->
  join_all n res completion = map (fun i => Some (res i)) (seq 0 n).
Proof. exact @join_by_index. Qed.
Print Assumptions c13_join_by_index.

(* every thread's symbol answers, hence its frames (any function [walk] of them), are the same
   under every schedule that lets all walks finish — from C12's invariant (every requester of a
   key sees the supplier's one answer) *)
Theorem c13_stacks_schedule_independent :
  forall (F : Type) (c : C12.Model.config) (walk : C12.Model.task -> list (C12.Model.key * C12.Model.outcome) -> F)
         (s1 s2 : list C12.Model.task),
  C12.Model.all_done c (C12.Model.run c s1) = true -> C12.Model.all_done c (C12.Model.run c s2) = true ->
  C13.Sched.process_threads walk c s1 = C13.Sched.process_threads walk c s2.
Proof.
  intros F c walk s1 s2 H1 H2. unfold C13.Sched.process_threads, C13.Sched.thread_frames. apply map_ext. intros t.
  rewrite (results_determined c s1 t H1), (results_determined c s2 t H2). reflexivity.
Qed.
Print Assumptions c13_stacks_schedule_independent.

(* ---- the symbol stats snapshot, keyed by leaf name *)
Theorem c13_stats_independent :
  forall (c : C12.Model.config) (s1 s2 : list C12.Model.task) (leafname : nat),
  C13.Sched.leaf_injective c ->
  C12.Model.all_done c (C12.Model.run c s1) = true -> C12.Model.all_done c (C12.Model.run c s2) = true ->
  C13.Sched.stats_snapshot c s1 leafname = C13.Sched.stats_snapshot c s2 leafname.
Proof. exact stats_independent. Qed.
Print Assumptions c13_stats_independent.

(* ... and the rendered "modules" array of print_json (loaded_symbols, missing_symbols, corrupt_symbols per
   module, looked up under the leaf name) is the same for all finishing schedules, and equals a function
   of the configuration alone *)
Theorem c13_modules_json_independent :
  forall (c : C12.Model.config) (s1 s2 : list C12.Model.task) (mods : list C12.Model.key),
  C13.Sched.leaf_injective c ->
  C12.Model.all_done c (C12.Model.run c s1) = true -> C12.Model.all_done c (C12.Model.run c s2) = true ->
  C13.Sched.render_modules c s1 mods = C13.Sched.render_modules c s2 mods.
Proof. intros c s1 s2 mods Hinj H1 H2. rewrite !render_modules_spec by assumption. reflexivity. Qed.
Print Assumptions c13_modules_json_independent.

(* modules_spec: the answer for the module's own key if some walk asked for it; else the answer for the requested key
   that shares its leaf name (the stats map is keyed by leaf name, so such a module shows the namesake's stats); else
   no entry *)
Theorem c13_modules_json_determined :
  forall (c : C12.Model.config) (sched : list C12.Model.task) (mods : list C12.Model.key),
  C13.Sched.leaf_injective c -> C12.Model.all_done c (C12.Model.run c sched) = true ->
  C13.Sched.render_modules c sched mods = C13.Sched.modules_spec c mods.
Proof. exact render_modules_spec. Qed.
Print Assumptions c13_modules_json_determined.

(* F-C13c: without "distinct module keys have distinct leaf names" the last completion wins *)
Theorem c13_stats_refuted :
  exists (c : C12.Model.config) (s1 s2 : list C12.Model.task) (leafname : nat),
  C12.Model.all_done c (C12.Model.run c s1) = true /\ C12.Model.all_done c (C12.Model.run c s2) = true /\
  C13.Sched.stats_snapshot c s1 leafname <> C13.Sched.stats_snapshot c s2 leafname.
Proof.
  (* two modules sharing one leaf name: the snapshot depends on who finishes last *)
  exists {| C12.Model.tasks := [[0]; [1]]%nat; C12.Model.susp := fun _ => 0%nat;
            C12.Model.outc := fun k => match k with O => C12.Model.OOk | _ => C12.Model.ONotFound end;
            C12.Model.leaf := fun _ => 0%nat |}, [0%nat; 1%nat], [1%nat; 0%nat], 0%nat.
  split; [reflexivity|]. split; [reflexivity|]. vm_compute. discriminate.
Qed.
Print Assumptions c13_stats_refuted.

(* ---- the proc_limits pipeline from the stream bytes: C03's parser, collect() into the HashMap (names stay
   distinct: a repeated name replaces the earlier entry), ANY iteration order of that map, the sort — the rendered array
   is the same.  That the names are distinct is proved of the map the code builds (to_map_names_distinct) *)
Theorem c13_limits_pipeline_order_independent :
  forall (p1 p2 : list entry -> list entry) (data : bytes),
  (forall m, Permutation (p1 m) m) -> (forall m, Permutation (p2 m) m) ->
  limits_json p1 data = limits_json p2 data.
Proof. exact (limits_render_order_independent (fun e => fst e)). Qed.
Print Assumptions c13_limits_pipeline_order_independent.

(* ---- Linux key/value streams *)
(* LinuxStandardBase::from is a fold over the lines in file order: every field of the result is the value of the
   LAST line whose key is one of the field's spellings (the spellings are regenerated from the match arms,
   Gen/C13Sites.v lsb_aliases) — a function of the line list, with no iteration-order parameter; so are the JSON
   lsb_release object and the text line built from it *)
Theorem c13_lsb_last_wins :
  forall (lines : list kv) (f : fld), lsb_fold lines f = lsb_spec lines f.
Proof. exact lsb_fold_last_wins. Qed.
Print Assumptions c13_lsb_last_wins.

Theorem c13_lsb_report_determined :
  forall (lines : list kv),
  lsb_json (lsb_fold lines) = lsb_json (lsb_spec lines) /\ lsb_text_line (lsb_fold lines) = lsb_text_line (lsb_spec lines).
Proof.
  intros lines. unfold lsb_json, lsb_text_line. rewrite !lsb_fold_last_wins. split; reflexivity.
Qed.
Print Assumptions c13_lsb_report_determined.

(* the variant that de-duplicates the lines into a HashMap first and folds the MAP: two iteration orders of one
   map (distinct keys), two reports — the two spellings of one field are different keys *)
Theorem c13_lsb_map_refuted :
  exists (lines : list kv) (p1 p2 : list kv -> list kv) (f : fld),
  (forall m, Permutation (p1 m) m) /\ (forall m, Permutation (p2 m) m) /\ NoDup (map fst (to_kv_map lines)) /\
  lsb_from_map p1 lines f <> lsb_from_map p2 lines f.
Proof.
  exists [(bytes_of_string "DISTRIB_ID", bytes_of_string "Ubuntu"); (bytes_of_string "ID", bytes_of_string "ubuntu")],
         (fun m => m), (@rev kv), FId.
  split; [intros m; apply Permutation_refl|]. split; [intros m; apply Permutation_sym, Permutation_rev|].
  split; [|vm_compute; discriminate].
  vm_compute. repeat constructor; cbn [In]; intuition discriminate.
Qed.
Print Assumptions c13_lsb_map_refuted.

(* Pid (LinuxProcStatus::from) and microcode (get_microcode_version) take the FIRST line with the key, whatever follows *)
Theorem c13_first_line_wins :
  forall (key : bytes) (l1 : list kv) (v : bytes) (l2 l2' : list kv),
  (forall e, In e l1 -> bytes_eqb (fst e) key = false) ->
  first_value key (l1 ++ (key, v) :: l2) = Some v /\ first_value key (l1 ++ (key, v) :: l2) = first_value key (l1 ++ (key, v) :: l2').
Proof.
  intros key l1 v l2 l2' H.
  rewrite !(first_value_first key l1 v _ H). split; reflexivity.
Qed.
Print Assumptions c13_first_line_wins.

(* ---- the per-thread walks in place *)
(* join_all over state.threads.iter_mut(): every piece of progress of future i transforms slot i only.  For ANY
   two interleavings with the same per-thread event sequences (in particular: any completion order, any number of
   suspensions in between) the final thread list is the same ... *)
Theorem c13_walks_in_place_interleaving_independent :
  forall (A : Type) (e1 e2 : list (nat * (A -> A))) (threads : list A),
  (forall i, events_of i e1 = events_of i e2) -> run_events e1 threads = run_events e2 threads.
Proof.
  intros A e1 e2 threads H. rewrite !run_events_closed_form. apply nth_error_ext_eq. intros i.
  rewrite !nth_error_mapi_from, H. reflexivity.
Qed.
Print Assumptions c13_walks_in_place_interleaving_independent.

(* ... namely: slot i = thread i's own steps applied to thread i's initial stack, in thread-list order *)
Theorem c13_walks_in_place_closed_form :
  forall (A : Type) (evs : list (nat * (A -> A))) (threads : list A),
  run_events evs threads = mapi_from 0 (fun i x => apply_all (events_of i evs) x) threads.
Proof. exact @run_events_closed_form. Qed.
Print Assumptions c13_walks_in_place_closed_form.

Theorem c13_join_all_permutations :
  forall (A : Type) (n : nat) (res : nat -> A) (completion : list nat),
  Permutation completion (seq 0 n) -> join_all n res completion = map (fun i => Some (res i)) (seq 0 n).
Proof.
  intros A n res completion H. apply join_by_index. intros i Hi.
  apply (Permutation_in _ (Permutation_sym H)), in_seq. lia.
Qed.
Print Assumptions c13_join_all_permutations.

(* collecting the stacks as the walks complete (buffer_unordered(..).collect()) is NOT a function of the thread list *)
Theorem c13_collect_unordered_refuted :
  exists (res : nat -> nat) (c1 c2 : list nat), Permutation c1 c2 /\ collect_unordered res c1 <> collect_unordered res c2.
Proof.
  exists (fun i => i), [0%nat; 1%nat], [1%nat; 0%nat]. split; [apply perm_swap|cbn; discriminate].
Qed.
Print Assumptions c13_collect_unordered_refuted.

(* ---- every hash-container iteration / future combinator of the source is one the theorems above cover *)
Theorem c13_hash_sites_modelled : RM.Gen.C13Sites.hash_iteration_sites = map fst modelled_hash_sites.
Proof. reflexivity. Qed.
Print Assumptions c13_hash_sites_modelled.

Theorem c13_concurrency_sites_modelled : RM.Gen.C13Sites.concurrency_sites = map fst modelled_concurrency_sites.
Proof. reflexivity. Qed.
Print Assumptions c13_concurrency_sites_modelled.

Theorem c13_shared_state_sites_modelled : RM.Gen.C13Sites.shared_state_sites = map fst modelled_shared_state_sites.
Proof. reflexivity. Qed.
Print Assumptions c13_shared_state_sites_modelled.

(* ---- ADAPTIVE walks (the next lookup is chosen from the answers received so far) *)
(* for EVERY schedule, finished or not, the adaptive system is C12's fixed-list system on the paths that the supplier's
   answers select: same Symbolizer state (slots, counters, supplier log, stats map, every thread's answer log), same
   position of every task, same quiescence *)
Theorem c13_adaptive_refines_fixed_model :
  forall (F : Type) (c : C12.Model.config) (d : F) (atasks : list (@atask F)) (sched : list C12.Model.task),
  ash (arun c d atasks sched) = C12.Model.sh (C12.Model.run (fixed c atasks) sched) /\
  (forall t, C12.Model.pcs (C12.Model.run (fixed c atasks) sched) t =
             (apath (C12.Model.outc c) (fst (apcs (arun c d atasks sched) t)), snd (apcs (arun c d atasks sched) t))) /\
  aall_done (length atasks) (arun c d atasks sched) =
    C12.Model.all_done (fixed c atasks) (C12.Model.run (fixed c atasks) sched).
Proof.
  intros F c d atasks sched. destruct (Refines_run c d atasks sched) as [A [B _]].
  split; [exact A|]. split; [exact B|apply adone_all_done].
Qed.
Print Assumptions c13_adaptive_refines_fixed_model.

(* what every adaptive walk returns, under every schedule that lets all walks finish: the value at the end of the path
   that the supplier's answers select — a function of the tree and of the answers, with no schedule in it *)
Theorem c13_adaptive_walks_determined :
  forall (F : Type) (c : C12.Model.config) (d : F) (atasks : list (@atask F)) (sched : list C12.Model.task),
  aall_done (length atasks) (arun c d atasks sched) = true ->
  aprocess_threads c d atasks sched = map (fun a => Some (aeval (C12.Model.outc c) a)) atasks.
Proof. intros F c d atasks sched. exact (aprocess_determined c d atasks sched). Qed.
Print Assumptions c13_adaptive_walks_determined.

(* ... hence one thread list for any two schedules that let all walks finish *)
Theorem c13_adaptive_walks_schedule_independent :
  forall (F : Type) (c : C12.Model.config) (d : F) (atasks : list (@atask F)) (s1 s2 : list C12.Model.task),
  aall_done (length atasks) (arun c d atasks s1) = true -> aall_done (length atasks) (arun c d atasks s2) = true ->
  aprocess_threads c d atasks s1 = aprocess_threads c d atasks s2.
Proof. intros F c d atasks s1 s2 H1 H2. rewrite !aprocess_determined by assumption. reflexivity. Qed.
Print Assumptions c13_adaptive_walks_schedule_independent.

(* the answers an adaptive thread received: exactly its path, each key with the supplier's answer *)
Theorem c13_adaptive_answers_determined :
  forall (F : Type) (c : C12.Model.config) (d : F) (atasks : list (@atask F)) (sched : list C12.Model.task) (t : nat),
  aall_done (length atasks) (arun c d atasks sched) = true -> (t < length atasks)%nat ->
  C12.Model.results (ash (arun c d atasks sched)) t =
    map (fun k => (k, C12.Model.outc c k)) (apath (C12.Model.outc c) (nth t atasks (ADone d))).
Proof.
  intros F c d atasks sched t H Ht. rewrite adone_all_done in H.
  rewrite ash_is_fixed_run, (results_determined (fixed c atasks) sched t H). cbn [fixed C12.Model.tasks C12.Model.outc].
  change (@nil C12.Model.key) with (apath (C12.Model.outc c) (@ADone F d)). rewrite map_nth. reflexivity.
Qed.
Print Assumptions c13_adaptive_answers_determined.

(* the stats snapshot after adaptive walks (which modules are asked for depends on the answers) *)
Theorem c13_adaptive_stats_independent :
  forall (F : Type) (c : C12.Model.config) (d : F) (atasks : list (@atask F)) (s1 s2 : list C12.Model.task) (leafname : nat),
  C13.Sched.leaf_injective (fixed c atasks) ->
  aall_done (length atasks) (arun c d atasks s1) = true -> aall_done (length atasks) (arun c d atasks s2) = true ->
  C12.Model.stats (ash (arun c d atasks s1)) leafname = C12.Model.stats (ash (arun c d atasks s2)) leafname.
Proof.
  intros F c d atasks s1 s2 leafname HL H1 H2. rewrite adone_all_done in H1, H2. rewrite !ash_is_fixed_run.
  exact (stats_independent (fixed c atasks) s1 s2 leafname HL H1 H2).
Qed.
Print Assumptions c13_adaptive_stats_independent.

(* the "modules" stats fields of print_json after adaptive walks: modules_spec at the paths the answers select *)
Theorem c13_adaptive_modules_json_determined :
  forall (F : Type) (c : C12.Model.config) (d : F) (atasks : list (@atask F)) (sched : list C12.Model.task) (mods : list C12.Model.key),
  C13.Sched.leaf_injective (fixed c atasks) ->
  aall_done (length atasks) (arun c d atasks sched) = true ->
  map (fun k => C13.Sched.module_fields (C12.Model.stats (ash (arun c d atasks sched)) (C12.Model.leaf c k))) mods =
    C13.Sched.modules_spec (fixed c atasks) mods.
Proof.
  intros F c d atasks sched mods HL H. rewrite adone_all_done in H. rewrite ash_is_fixed_run.
  exact (render_modules_spec (fixed c atasks) sched mods HL H).
Qed.
Print Assumptions c13_adaptive_modules_json_determined.

(* ---- what a future does after its walk_stack, on state shared by all the futures (C13/Budget.v) *)
(* if the post-walk steps of different futures commute, every completion order of the n walks leaves the same thread
   list and the same shared state *)
Theorem c13_post_walk_commuting_independent :
  forall (S F : Type) (post : S -> nat -> F -> S * F) (frames : nat -> F) (n : nat) (s : S) (c1 c2 : list nat),
  posts_commute post -> Permutation c1 (seq 0 n) -> Permutation c2 (seq 0 n) ->
  finish_threads post n frames s c1 = finish_threads post n frames s c2 /\
  fst (finish post frames s c1 (fun _ => None)) = fst (finish post frames s c2 (fun _ => None)).
Proof. intros S F post frames n s c1 c2. exact (finish_threads_commute post frames n s c1 c2). Qed.
Print Assumptions c13_post_walk_commuting_independent.

(* today's code: the post-walk statements write nothing shared (c13_walk_future_* below): slot i = future i's own step
   on its own frames, for every completion order that contains every index *)
Theorem c13_post_walk_readonly_independent :
  forall (S F : Type) (post : S -> nat -> F -> S * F) (frames : nat -> F) (n : nat) (s : S) (comp : list nat),
  post_readonly post -> (forall i, (i < n)%nat -> In i comp) ->
  finish_threads post n frames s comp = map (fun i => Some (snd (post s i (frames i)))) (seq 0 n).
Proof. intros S F post frames n s comp. exact (finish_threads_readonly post frames n s comp). Qed.
Print Assumptions c13_post_walk_readonly_independent.

(* a per-dump budget that the walks charge as they FINISH hands the truncation to whichever
   walk finishes later — two completion orders, two thread lists; the budget steps do not commute *)
Theorem c13_frame_budget_refuted :
  (exists (frames : nat -> list nat) (left : nat) (c1 c2 : list nat),
     Permutation c1 (seq 0 2) /\ Permutation c2 (seq 0 2) /\
     finish_threads budget_post 2 frames left c1 <> finish_threads budget_post 2 frames left c2) /\
  ~ posts_commute (@budget_post nat).
Proof.
  (* budget 3, two threads with 2 frames each *)
  split.
  - exists (fun _ => [7; 7]%nat), 3%nat, [0; 1]%nat, [1; 0]%nat.
    split; [apply Permutation_refl|]. split; [apply perm_swap|]. cbv. discriminate.
  - intros H. destruct (H 3 0 1 [7; 7] [7; 7])%nat as [_ [B _]]; [discriminate|]. cbv in B. discriminate.
Qed.
Print Assumptions c13_frame_budget_refuted.

(* ---- the per-thread part of into_process_state as one system: adaptive walks over the shared Symbolizer, the
   post-walk step of each future run in the poll in which its walk finishes, results read by index.  The schedule decides
   how the lookups interleave AND in which order the walks finish; when the post-walk steps commute, neither shows *)
Theorem c13_process_schedule_independent :
  forall (F S : Type) (post : S -> nat -> F -> S * F) (c : C12.Model.config) (d : F) (atasks : list (@atask F)) (s0 : S)
         (s1 s2 : list C12.Model.task),
  posts_commute post ->
  pall_finished (length atasks) (process post c d atasks s0 s1) = true ->
  pall_finished (length atasks) (process post c d atasks s0 s2) = true ->
  pthreads (length atasks) (process post c d atasks s0 s1) = pthreads (length atasks) (process post c d atasks s0 s2) /\
  pshared (process post c d atasks s0 s1) = pshared (process post c d atasks s0 s2).
Proof.
  intros F S post c d atasks s0 s1 s2 HC H1 H2.
  destruct (process_finish post c d atasks s0 s1 H1) as [c1 [P1 [T1 S1]]].
  destruct (process_finish post c d atasks s0 s2 H2) as [c2 [P2 [T2 S2]]].
  rewrite T1, T2, S1, S2. exact (finish_threads_commute post _ _ s0 c1 c2 HC P1 P2).
Qed.
Print Assumptions c13_process_schedule_independent.

(* today's code (read-only post-walk statements): thread i of the report = future i's own post-walk step applied to the
   value at the end of the path that the supplier's answers select in its tree — for every schedule that finishes *)
Theorem c13_process_determined :
  forall (F S : Type) (post : S -> nat -> F -> S * F) (c : C12.Model.config) (d : F) (atasks : list (@atask F)) (s0 : S)
         (sched : list C12.Model.task),
  post_readonly post ->
  pall_finished (length atasks) (process post c d atasks s0 sched) = true ->
  pthreads (length atasks) (process post c d atasks s0 sched) =
    map (fun i => Some (snd (post s0 i (aeval (C12.Model.outc c) (nth i atasks (ADone d)))))) (seq 0 (length atasks)).
Proof.
  intros F S post c d atasks s0 sched HR Hf. destruct (process_finish post c d atasks s0 sched Hf) as [comp [P [T _]]].
  rewrite T. apply finish_threads_readonly; [exact HR|].
  intros i Hi. apply (Permutation_in _ (Permutation_sym P)), in_seq. lia.
Qed.
Print Assumptions c13_process_determined.

(* ... and with the first-come-first-served budget the same system gives two thread lists for two schedules *)
Theorem c13_process_budget_refuted :
  exists (c : C12.Model.config) (atasks : list (@atask (list nat))) (s1 s2 : list C12.Model.task),
  pall_finished 2 (process budget_post c [] atasks 3%nat s1) = true /\
  pall_finished 2 (process budget_post c [] atasks 3%nat s2) = true /\
  pthreads 2 (process budget_post c [] atasks 3%nat s1) <> pthreads 2 (process budget_post c [] atasks 3%nat s2).
Proof.
  exists {| C12.Model.tasks := []; C12.Model.susp := fun k => match k with O => 2%nat | _ => 0%nat end;
            C12.Model.outc := fun _ => C12.Model.OOk; C12.Model.leaf := fun k => k |},
         [AAsk 0%nat (fun _ => ADone [7; 7]%nat); AAsk 1%nat (fun _ => ADone [8; 8]%nat)],
         [0; 0; 0; 1]%nat, [0; 1; 0; 0]%nat.
  split; [vm_compute; reflexivity|]. split; [vm_compute; reflexivity|]. vm_compute. discriminate.
Qed.
Print Assumptions c13_process_budget_refuted.

(* ---- the order in which walk_with_stack_cfi applies the general-register rules *)
(* whatever the walker does with a (name, rule) pair — aliases (x29/fp), failed rules that clear a register — the caller's
   registers are the same for every iteration order of the rule HashMap, because the rules are sorted by name and the
   map has one rule per name (cfi_map_nodup, proved of the map parse_cfi_exprs builds) *)
Theorem c13_cfi_rule_order_independent :
  forall (K E W : Type) (keqb ltb : K -> K -> bool),
  (forall a b, keqb a b = true <-> a = b) ->
  (forall a, ltb a a = false) ->
  (forall a b c, ltb a b = true -> ltb b c = true -> ltb a c = true) ->
  (forall a b, ltb a b = false -> ltb b a = false -> a = b) ->
  forall (step : K -> E -> W -> W) (iter1 iter2 : list (K * E) -> list (K * E)) (written : list (K * E)) (w : W),
  Permutation (iter1 (cfi_map keqb written)) (cfi_map keqb written) ->
  Permutation (iter2 (cfi_map keqb written)) (cfi_map keqb written) ->
  walk_cfi keqb ltb step iter1 written w = walk_cfi keqb ltb step iter2 written w.
Proof.
  intros K E W keqb ltb Hk Hi Ht Hto step iter1 iter2 written w.
  exact (walk_cfi_order_independent keqb Hk ltb Hi Ht Hto step iter1 iter2 written w).
Qed.
Print Assumptions c13_cfi_rule_order_independent.

(* ... instantiated at the arm64 walker that the Q cases compare with the real unwinder (register and alias tables
   regenerated from CONTEXT_ARM64, bytewise name order): every hypothesis of the general theorem is proved of the instance *)
Theorem c13_cfi_arm64_order_independent :
  forall (iter1 iter2 : list (bytes * option Z) -> list (bytes * option Z)) (written : list (bytes * option Z)) (callee : bytes -> Z),
  Permutation (iter1 (cfi_map bytes_eqb written)) (cfi_map bytes_eqb written) ->
  Permutation (iter2 (cfi_map bytes_eqb written)) (cfi_map bytes_eqb written) ->
  a64_walk iter1 written callee = a64_walk iter2 written callee.
Proof. exact (arch_walk_order_independent a64_tables). Qed.
Print Assumptions c13_cfi_arm64_order_independent.

(* ... and at the arm (32-bit) walker: r11/fp, r13/sp, r14/lr, r15/pc are pairs of names of one register, values that do not fit
   32 bits are rejected *)
Theorem c13_cfi_arm_order_independent :
  forall (iter1 iter2 : list (bytes * option Z) -> list (bytes * option Z)) (written : list (bytes * option Z)) (callee : bytes -> Z),
  Permutation (iter1 (cfi_map bytes_eqb written)) (cfi_map bytes_eqb written) ->
  Permutation (iter2 (cfi_map bytes_eqb written)) (cfi_map bytes_eqb written) ->
  arm_walk iter1 written callee = arm_walk iter2 written callee.
Proof. exact (arch_walk_order_independent arm_tables). Qed.
Print Assumptions c13_cfi_arm_order_independent.

(* the rule that is applied for a register is the LAST one written for it (INIT line first, then the delta lines) *)
Theorem c13_cfi_last_rule_wins :
  forall (K E : Type) (keqb : K -> K -> bool), (forall a b, keqb a b = true <-> a = b) ->
  forall (written : list (K * E)) (k : K),
  lookup keqb k (cfi_map keqb written) = lookup keqb k (rev written).
Proof. intros K E keqb Hk written k. exact (cfi_map_last_wins keqb Hk written k). Qed.
Print Assumptions c13_cfi_last_rule_wins.

(* a sort key that is not unique (seq = map size: a re-definition shares its number with the
   next new register) leaves tied rules in iteration order; with INIT `x29: 1`, delta `x29: 2 fp: 3` the caller's x29 is 3
   under one iteration order and 2 under the other *)
Theorem c13_cfi_seq_order_refuted :
  exists (written : list (nat * nat)) (iter1 iter2 : list (nat * (nat * nat)) -> list (nat * (nat * nat))),
  (forall m, Permutation (iter1 m) m) /\ (forall m, Permutation (iter2 m) m) /\
  walk_cfi_seq Nat.eqb (alias_step arm64_slot) iter1 written (fun _ => None) 29%nat <>
  walk_cfi_seq Nat.eqb (alias_step arm64_slot) iter2 written (fun _ => None) 29%nat.
Proof.
  exists [(29, 1); (29, 2); (129, 3)]%nat, (fun m => m), (@rev _).
  split; [intros m; apply Permutation_refl|]. split; [intros m; apply Permutation_sym; apply Permutation_rev|].
  cbv. discriminate.
Qed.
Print Assumptions c13_cfi_seq_order_refuted.

(* ---- MultiSymbolProvider::stats (`for p in providers { result.extend(p.stats()) }`, site class MapIntoMap): what a
   lookup in the merged map returns is the entry of the LAST provider (Vec order) that has the key — whatever the iteration
   order of each provider's own map *)
Theorem c13_multi_provider_stats_order_independent :
  forall (K V : Type) (keqb : K -> K -> bool), (forall a b, keqb a b = true <-> a = b) ->
  forall (maps its1 its2 : list (list (K * V))) (k : K),
  Forall (fun m => NoDup (map fst m)) maps ->
  Forall2 (@Permutation _) its1 maps -> Forall2 (@Permutation _) its2 maps ->
  lookup keqb k (merge_stats keqb its1) = lookup keqb k (merge_stats keqb its2) /\
  lookup keqb k (merge_stats keqb its1) = merged_spec keqb maps k.
Proof.
  intros K V keqb Hk maps its1 its2 k HF P1 P2.
  rewrite !(merge_stats_iter_spec keqb Hk maps) by assumption. split; reflexivity.
Qed.
Print Assumptions c13_multi_provider_stats_order_independent.

(* ---- every cell writable through a shared reference, and everything the per-thread future shares with its
   siblings, is one of the enumerated, classified sites *)
Theorem c13_interior_mutable_sites_modelled :
  RM.Gen.C13Sites.interior_mutable_sites = map fst modelled_interior_mutable_sites.
Proof. reflexivity. Qed.
Print Assumptions c13_interior_mutable_sites_modelled.

Theorem c13_walk_future_captures_modelled :
  RM.Gen.C13Sites.walk_future_captures = map fst modelled_walk_future_captures.
Proof. reflexivity. Qed.
Print Assumptions c13_walk_future_captures_modelled.

(* the statements of the future in order; exactly one of them awaits (walk_stack), none after it touches a cell *)
Definition ends_with (suffix s : string) : bool :=
  String.eqb (substring (String.length s - String.length suffix) (String.length suffix) s) suffix.
Theorem c13_walk_future_steps_modelled :
  RM.Gen.C13Sites.walk_future_steps = map fst modelled_walk_future_steps /\
  RM.Gen.C13Sites.walk_future_interior_mutations = [] /\
  (* exactly one statement of the generated list awaits, it is the walk_stack call, and nothing that awaits follows it *)
  map (fun t => substring 0 11 (snd t)) (filter (fun t => ends_with "|awaits" (snd t)) RM.Gen.C13Sites.walk_future_steps) = ["walk_stack("] /\
  map snd (filter (fun e => match snd e with SymbolizerC12 => true | _ => false end) modelled_walk_future_steps) = [SymbolizerC12] /\
  forallb (fun e => match snd e with OwnSlotOnly | ReporterOnly | SymbolizerC12 => true | _ => false end) modelled_walk_future_steps = true.
Proof. repeat split. Qed.
Print Assumptions c13_walk_future_steps_modelled.

(* the unwinder awaits nothing but its own async fns and the three SymbolProvider methods: a walk can be suspended only inside
   a symbol lookup (the premise of the adaptive model) *)
Theorem c13_walk_awaits_modelled :
  RM.Gen.C13Sites.walk_await_callees = map fst modelled_walk_await_callees /\
  forallb (fun e : string * site_class => match snd e with
             | SymbolizerC12 => existsb (String.eqb (fst e)) ["fill_symbol"; "walk_frame"; "get_file_path"]
             | WalkInternal => existsb (String.eqb (fst e)) RM.Gen.C13Sites.unwinder_async_fns
             | _ => false end) modelled_walk_await_callees = true.
Proof. split; reflexivity. Qed.
Print Assumptions c13_walk_awaits_modelled.

(* the ASCII constants of the model are the words they stand for, and the byte table is the string table *)
Theorem c13_constants_spelled :
  N_ID = bytes_of_string "id" /\ N_RELEASE = bytes_of_string "release" /\ N_CODENAME = bytes_of_string "codename" /\
  N_DESCRIPTION = bytes_of_string "description" /\ K_PID = bytes_of_string "Pid" /\ K_MICROCODE = bytes_of_string "microcode" /\
  T_LINUX = bytes_of_string "Linux " /\
  RM.Gen.C13Sites.lsb_alias_bytes = map (fun e => (map bytes_of_string (fst e), bytes_of_string (snd e))) RM.Gen.C13Sites.lsb_aliases.
Proof.
  (* nat_of_ascii makes a unary number of every character; Z.of_N (N_of_ascii _) is the same byte without it *)
  assert (E : forall s, bytes_of_string s = map (fun a => Z.of_N (Ascii.N_of_ascii a)) (list_ascii_of_string s))
    by (intros s; apply map_ext; intros a; apply N_nat_Z).
  rewrite (map_ext _ _ (fun e => f_equal2 pair (map_ext _ _ E (fst e)) (E (snd e)))), !E. repeat split.
Qed.
Print Assumptions c13_constants_spelled.

(* ---- non-vacuity *)
Example c13_nonvacuous_render :
  render Z.ltb (fun e : Z * Z => snd e) [(3, 30); (1, 10); (2, 20)] = [10; 20; 30] /\
  render Z.ltb (fun e : Z * Z => snd e) [(2, 20); (3, 30); (1, 10)] = [10; 20; 30].
Proof. split; reflexivity. Qed.

Example c13_nonvacuous_join :
  join_all 3 (fun i => (10 * i)%nat) [2%nat; 0%nat; 1%nat] = [Some 0%nat; Some 10%nat; Some 20%nat] /\
  join_by_completion (fun i => (10 * i)%nat) [2%nat; 0%nat; 1%nat] = [Some 20%nat; Some 0%nat; Some 10%nat].
Proof. split; reflexivity. Qed.

(* three threads sharing two modules with distinct leaf names, supplier suspending: two very
   different schedules finish and agree *)
Example c13_nonvacuous_sched :
  let c := {| C12.Model.tasks := [[0; 1]; [1; 0]; [0]]%nat;
              C12.Model.susp := fun k => match k with O => 2%nat | _ => 1%nat end;
              C12.Model.outc := fun k => match k with O => C12.Model.OOk | _ => C12.Model.OParse end;
              C12.Model.leaf := fun k => k |} in
  let s1 := [0; 0; 0; 0; 1; 1; 1; 2; 2]%nat in
  let s2 := [2; 1; 0; 2; 1; 0; 2; 1; 0; 2; 1; 0; 2; 1; 0]%nat in
  C12.Model.all_done c (C12.Model.run c s1) = true /\ C12.Model.all_done c (C12.Model.run c s2) = true /\
  C13.Sched.leaf_injective c /\
  C13.Sched.process_threads (fun _ l => l) c s1 = C13.Sched.process_threads (fun _ l => l) c s2 /\
  C13.Sched.stats_snapshot c s1 1%nat = Some C12.Model.OParse.
Proof.
  cbv zeta. split; [vm_compute; reflexivity|]. split; [vm_compute; reflexivity|].
  split; [intros k1 k2 _ _ H; exact H|]. split; vm_compute; reflexivity.
Qed.

(* an lsb-release stream with both spellings of the id, quoted and padded values: the last line wins *)
Example c13_nonvacuous_lsb :
  let data := (bytes_of_string "DISTRIB_ID=Ubuntu" ++ [10] ++ bytes_of_string "DISTRIB_RELEASE = 22.04 " ++ [10] ++
               bytes_of_string "junk line" ++ [10] ++ [73; 68; 61; 34] ++ bytes_of_string "ubuntu" ++ [34; 10])%list in
  lsb_json (lsb_from data) = [bytes_of_string "ubuntu"; bytes_of_string "22.04"; []; []] /\
  lsb_text_line (lsb_from data) = bytes_of_string "Linux ubuntu 22.04 -  ()" /\
  field_of_key (bytes_of_string "PRETTY_NAME") = Some FDescription.
Proof. vm_compute. repeat split. Qed.

(* three threads, two very different interleavings of the same per-thread steps *)
Example c13_nonvacuous_in_place :
  let a := (fun x => x + 1) in let b := (fun x => x * 2) in
  let e1 := [(0%nat, a); (0%nat, b); (1%nat, b); (2%nat, a); (2%nat, a)] in
  let e2 := [(2%nat, a); (1%nat, b); (0%nat, a); (2%nat, a); (0%nat, b)] in
  run_events e1 [10; 20; 30] = [22; 40; 32] /\ run_events e2 [10; 20; 30] = [22; 40; 32] /\
  collect_unordered (fun i => nth i [22; 40; 32] 0) [2%nat; 0%nat; 1%nat] = [32; 22; 40].
Proof. repeat split. Qed.

(* two adaptive walks: thread 0 asks for module 0 and, depending on the answer, for module 1 or module 2; thread 1 asks for
   module 2, then 0.  The supplier suspends; two very different schedules finish and agree; module 1 is never asked for *)
Example c13_nonvacuous_adaptive :
  let c := {| C12.Model.tasks := []; C12.Model.susp := fun k => match k with O => 2%nat | _ => 1%nat end;
              C12.Model.outc := fun k => match k with O => C12.Model.OOk | _ => C12.Model.ONotFound end;
              C12.Model.leaf := fun k => k |} in
  let a0 := AAsk 0%nat (fun o => match o with
                                 | C12.Model.OOk => AAsk 2%nat (fun o2 => ADone (if C12.Model.stat_loaded o2 then 11 else 12))
                                 | _ => AAsk 1%nat (fun _ => ADone 13) end) in
  let a1 := AAsk 2%nat (fun _ => AAsk 0%nat (fun o => ADone (if C12.Model.stat_loaded o then 21 else 22))) in
  let s1 := [0; 0; 0; 0; 0; 1; 1; 1]%nat in
  let s2 := [1; 0; 1; 0; 1; 0; 1; 0; 1; 0; 1; 0]%nat in
  aall_done 2 (arun c 0 [a0; a1] s1) = true /\ aall_done 2 (arun c 0 [a0; a1] s2) = true /\
  aprocess_threads c 0 [a0; a1] s1 = [Some 12; Some 21] /\ aprocess_threads c 0 [a0; a1] s2 = [Some 12; Some 21] /\
  C12.Model.tasks (fixed c [a0; a1]) = [[0; 2]; [2; 0]]%nat /\
  C12.Model.stats (ash (arun c 0 [a0; a1] s2)) 1%nat = None /\
  C12.Model.calls (ash (arun c 0 [a0; a1] s1)) <> C12.Model.calls (ash (arun c 0 [a0; a1] s2)).
Proof. cbv zeta. repeat split; try (vm_compute; reflexivity). vm_compute. discriminate. Qed.

(* three walks finishing in two different orders: the read-only post-walk step (mark the frames of thread i with i) gives
   one thread list, the first-come-first-served budget gives two *)
Example c13_nonvacuous_post_walk :
  let frames := (fun i : nat => repeat i (2 + i))%nat in
  let ro := (fun (s : nat) (i : nat) (f : list nat) => (s, i :: f)) in
  post_readonly ro /\
  finish_threads ro 3 frames 5%nat [2; 0; 1]%nat = finish_threads ro 3 frames 5%nat [0; 1; 2]%nat /\
  finish_threads ro 3 frames 5%nat [2; 0; 1]%nat = [Some [0; 0; 0]; Some [1; 1; 1; 1]; Some [2; 2; 2; 2; 2]]%nat /\
  finish_threads budget_post 3 frames 5%nat [2; 0; 1]%nat = [Some [0]; Some [1]; Some [2; 2; 2; 2]]%nat /\
  finish_threads budget_post 3 frames 5%nat [0; 1; 2]%nat = [Some [0; 0]; Some [1; 1; 1]; Some [2]]%nat.
Proof. cbv zeta. split; [intros s i f; reflexivity|]. repeat split. Qed.

(* INIT `fp: 10 x19: 11 lr: 12`, delta `fp: 13 x29: 14` (names as numbers, fp = 129 and x29 = 29 one register): sorted by
   name x29 is applied before fp whatever the map's iteration order *)
Example c13_nonvacuous_cfi :
  let written := [(129, 10); (19, 11); (130, 12); (129, 13); (29, 14)]%nat in
  cfi_map Nat.eqb written = [(129, 13); (19, 11); (130, 12); (29, 14)]%nat /\
  walk_cfi Nat.eqb Nat.ltb (alias_step arm64_slot) (fun m => m) written (fun _ => None) 29%nat = Some 13%nat /\
  walk_cfi Nat.eqb Nat.ltb (alias_step arm64_slot) (@rev _) written (fun _ => None) 29%nat = Some 13%nat.
Proof. cbv zeta. repeat split. Qed.

(* INIT `fp: 10 x19: 11`, delta `fp: 13 x29: 14 x31: 5 x19: <fails>`: fp and x29 are one register and x29 is applied last
   (name order), the failed x19 rule un-forwards x19, x20 is inherited from the callee, x31 is not a register *)
Example c13_nonvacuous_cfi_arm64 :
  let b := bytes_of_string in
  let written := [(b "fp", Some 10); (b "x19", Some 11); (b "fp", Some 13); (b "x29", Some 14); (b "x31", Some 5); (b "x19", None)] in
  let callee := (fun _ : bytes => 77) in
  a64_walk (fun m => m) written callee (b "fp") = Some 14 /\ a64_walk (@rev _) written callee (b "fp") = Some 14 /\
  a64_walk (@rev _) written callee (b "x19") = None /\ a64_walk (@rev _) written callee (b "x20") = Some 77 /\
  a64_walk (@rev _) written callee (b "lr") = None /\ a64_memoize (b "x30") = Some (b "lr") /\ a64_memoize (b "x31") = None /\
  arm_walk (@rev _) [(b "r11", Some 5); (b "fp", Some 6); (b "r4", Some 4294967296); (b "r14", Some 9)] callee (b "fp") = Some 5 /\
  arm_walk (@rev _) [(b "r11", Some 5); (b "fp", Some 6); (b "r4", Some 4294967296); (b "r14", Some 9)] callee (b "r4") = None /\
  arm_walk (@rev _) [(b "r11", Some 5); (b "fp", Some 6); (b "r4", Some 4294967296); (b "r14", Some 9)] callee (b "lr") = Some 9.
Proof. vm_compute. repeat split. Qed.

(* the whole per-thread system on two adaptive walks whose modules answer after 2 and 0 suspensions, with the reporter's
   counter as post-walk step: thread 1 finishes first under s2, the thread list and the counter do not care *)
Example c13_nonvacuous_process :
  let c := {| C12.Model.tasks := []; C12.Model.susp := fun k => match k with O => 2%nat | _ => 0%nat end;
              C12.Model.outc := fun _ => C12.Model.OOk; C12.Model.leaf := fun k => k |} in
  let atasks := [AAsk 0%nat (fun _ => ADone [7; 7]%nat); AAsk 1%nat (fun _ => ADone [8; 8]%nat)] in
  let s1 := [0; 0; 0; 1]%nat in let s2 := [0; 1; 0; 0]%nat in
  posts_commute (@counter_post (list nat)) /\
  pall_finished 2 (process counter_post c [] atasks 0%nat s1) = true /\
  pall_finished 2 (process counter_post c [] atasks 0%nat s2) = true /\
  pthreads 2 (process counter_post c [] atasks 0%nat s2) = [Some [7; 7]; Some [8; 8]]%nat /\
  pshared (process counter_post c [] atasks 0%nat s2) = 2%nat /\
  pthreads 2 (process budget_post c [] atasks 3%nat s1) = [Some [7; 7]; Some [8]]%nat /\
  pthreads 2 (process budget_post c [] atasks 3%nat s2) = [Some [7]; Some [8; 8]]%nat.
Proof. cbv zeta. split; [intros s i j f g _; cbv; repeat split|]. repeat split; vm_compute; reflexivity. Qed.

(* two providers, the second one knows module 2 as well: its entry wins for 2, the first provider's for 1 *)
Example c13_nonvacuous_merge :
  let maps := [[(1, 10); (2, 20)]; [(2, 21); (3, 31)]]%nat in
  lookup Nat.eqb 2%nat (merge_stats Nat.eqb maps) = Some 21%nat /\
  lookup Nat.eqb 2%nat (merge_stats Nat.eqb [[(2, 20); (1, 10)]; [(3, 31); (2, 21)]]%nat) = Some 21%nat /\
  lookup Nat.eqb 1%nat (merge_stats Nat.eqb maps) = Some 10%nat /\ lookup Nat.eqb 4%nat (merge_stats Nat.eqb maps) = None.
Proof. cbv zeta. repeat split. Qed.

(* ---- the per-frame map of overlapping UNLOADED modules (processor.rs, the statements of the walk future after walk_stack;
   printed by print_json and CallStack::print).  BTreeMap<String, BTreeSet<u64>> built by entry().or_insert_with().insert():
   for every order in which modules_at_address yields the overlapping modules, in both build profiles, the map is the same,
   and the offset subtraction never traps *)
Theorem c13_unloaded_offsets_order_independent :
  forall (p1 p2 : profile) (perm1 perm2 : list umod -> list umod) (addr : Z) (l : list umod),
  (forall h, Permutation (perm1 h) h) -> (forall h, Permutation (perm2 h) h) -> umods_wf l ->
  frame_offsets p1 perm1 addr l = frame_offsets p2 perm2 addr l.
Proof. intros p1 p2 perm1 perm2 addr l H1 H2 Hw. rewrite !frame_offsets_closed by assumption. reflexivity. Qed.
Print Assumptions c13_unloaded_offsets_order_independent.

(* (l = the list the reader hands over: unloaded_list_read, all of the stream or nothing; it keeps umods_wf and gives every
   module a range: ProofsUnloaded.unloaded_list_read_wf / _ranges) *)

(* ... and it is determined by the SET of (name, instruction - base) pairs of the modules whose range contains the address:
   names strictly ascending, offsets of a name strictly ascending, no empty entry, offset x listed under name n iff some
   overlapping module named n has base addr - x.  (A strictly sorted list is determined by its members, so this fixes the
   bytes the printers emit; what they emit is the list read from the left: render_unloaded_btree.) *)
Theorem c13_unloaded_offsets_determined :
  forall (p : profile) (perm : list umod -> list umod) (addr : Z) (l : list umod),
  (forall h, Permutation (perm h) h) -> umods_wf l ->
  exists m, frame_offsets p perm addr l = Ret m /\
    ksorted bytes_ltb m /\ (forall e, In e m -> snd e <> []) /\
    forall n x, listed m n x <-> exists u, In u l /\ u_contains addr u = true /\ u_name u = n /\ x = addr - u_base u.
Proof.
  intros p perm addr l Hp Hw. exists (map_of_pairs bytes_ltb (hit_pairs addr l)).
  split; [apply frame_offsets_closed; assumption|].
  split; [apply (map_of_pairs_sorted bytes_ltb bytes_ltb_irrefl bytes_ltb_trans bytes_ltb_total)|].
  split; [exact (map_of_pairs_nonempty bytes_ltb (hit_pairs addr l))|].
  intros n x. rewrite (map_of_pairs_listed bytes_ltb bytes_ltb_irrefl bytes_ltb_trans bytes_ltb_total). apply hit_pairs_in.
Qed.
Print Assumptions c13_unloaded_offsets_determined.

(* ... so the map IS a function of that set: two frames (of one dump or of two; any visiting orders, any profiles) whose overlapping
   modules give the same set of (name, instruction - base) pairs get the same map, byte for byte (ksorted_ext: a strictly sorted map
   without empty entries is determined by what it lists) *)
Theorem c13_unloaded_offsets_function_of_pair_set :
  forall (p1 p2 : profile) (perm1 perm2 : list umod -> list umod) (addr1 addr2 : Z) (l1 l2 : list umod),
  (forall h, Permutation (perm1 h) h) -> (forall h, Permutation (perm2 h) h) -> umods_wf l1 -> umods_wf l2 ->
  (forall n x, (exists u, In u l1 /\ u_contains addr1 u = true /\ u_name u = n /\ x = addr1 - u_base u) <->
               (exists u, In u l2 /\ u_contains addr2 u = true /\ u_name u = n /\ x = addr2 - u_base u)) ->
  frame_offsets p1 perm1 addr1 l1 = frame_offsets p2 perm2 addr2 l2.
Proof.
  intros p1 p2 perm1 perm2 addr1 addr2 l1 l2 H1 H2 W1 W2 E. rewrite !frame_offsets_closed by assumption. f_equal.
  apply (ksorted_ext bytes_ltb bytes_ltb_irrefl bytes_ltb_trans);
    try apply (map_of_pairs_sorted bytes_ltb bytes_ltb_irrefl bytes_ltb_trans bytes_ltb_total); try apply map_of_pairs_nonempty.
  intros n x. rewrite !(map_of_pairs_listed bytes_ltb bytes_ltb_irrefl bytes_ltb_trans bytes_ltb_total), !hit_pairs_in. apply E.
Qed.
Print Assumptions c13_unloaded_offsets_function_of_pair_set.

(* what reaches the loop is all of the stream or nothing: one entry with size 0 or a range past u64::MAX and NO frame of the
   report lists an unloaded module (the reader's `return Err(ModuleReadFailure)`; compared on the U cases) *)
Theorem c13_unloaded_stream_all_or_nothing :
  forall (raw : list umod), umods_wf raw ->
  umods_wf (unloaded_list_read raw) /\
  (forall u, In u (unloaded_list_read raw) -> u_range u = Some (u_base u, u_base u + u_size u - 1)) /\
  (existsb u_bad raw = true -> forall p perm addr, (forall h, Permutation (perm h) h) -> frame_offsets p perm addr (unloaded_list_read raw) = Ret []) /\
  (existsb u_bad raw = false -> unloaded_list_read raw = raw).
Proof.
  intros raw Hw. split; [apply unloaded_list_read_wf; exact Hw|].
  split; [intros u Hu; apply (unloaded_list_read_ranges raw u Hw Hu)|].
  unfold unloaded_list_read. split; intros E; rewrite E; [|reflexivity].
  intros p perm addr Hp. unfold frame_offsets. cbn [u_hits filter].
  assert (X : perm (@nil umod) = []) by (apply Permutation_nil, Permutation_sym, Hp). rewrite X. reflexivity.
Qed.
Print Assumptions c13_unloaded_stream_all_or_nothing.

(* the contrast (mutation "StackFrame.unloaded_modules: HashMap", or a HashSet of offsets): the same printers over hash
   containers depend on the iteration order *)
Theorem c13_unloaded_hash_containers_refuted :
  (exists (m : list (Z * list Z)) (i1 i2 : list (Z * list Z) -> list (Z * list Z)),
     (forall x, Permutation (i1 x) x) /\ (forall x, Permutation (i2 x) x) /\
     render_unloaded i1 (fun s => s) m <> render_unloaded i2 (fun s => s) m) /\
  (exists (m : list (Z * list Z)) (j1 j2 : list Z -> list Z),
     (forall x, Permutation (j1 x) x) /\ (forall x, Permutation (j2 x) x) /\
     render_unloaded (fun x => x) j1 m <> render_unloaded (fun x => x) j2 m).
Proof.
  split.
  - exists [(1, [10]); (2, [20])], (fun x => x), (@rev _).
    split; [intros; apply Permutation_refl|]. split; [intros; apply Permutation_sym, Permutation_rev|]. cbn. discriminate.
  - exists [(1, [10; 20])], (fun x => x), (@rev _).
    split; [intros; apply Permutation_refl|]. split; [intros; apply Permutation_sym, Permutation_rev|]. cbn. discriminate.
Qed.
Print Assumptions c13_unloaded_hash_containers_refuted.

(* non-vacuity: three unloaded modules, two of them with one name, all containing the address; visited forwards and
   backwards, debug and release *)
Example c13_nonvacuous_unloaded :
  let l := [ {| u_name := [98]; u_base := 4096; u_size := 8192 |}; {| u_name := [97]; u_base := 4352; u_size := 8192 |};
             {| u_name := [98]; u_base := 4608; u_size := 4096 |}; {| u_name := [99]; u_base := 0; u_size := 16 |} ] in
  umods_wf l /\ unloaded_list_read l = l /\
  unloaded_list_read ({| u_name := [100]; u_base := 4096; u_size := 0 |} :: l) = [] /\
  frame_offsets Debug (fun h => h) 5000 l = Ret [([97], [648]); ([98], [392; 904])] /\
  frame_offsets Release (@rev _) 5000 l = Ret [([97], [648]); ([98], [392; 904])].
Proof. cbn zeta. split; [intros u [<-|[<-|[<-|[<-|[]]]]]; cbv; discriminate|]. repeat split; vm_compute; reflexivity. Qed.

(* ---- the evil-json certificates from the MEMBERS of the parsed JSON object (a repeated certificate name replaces the earlier
   member, as serde's HashMap visitor does): whatever iteration order the HashMap has, every module gets the same certificate.
   That the names are distinct is proved of the map the members build (hm_of_members_nodup) *)
Theorem c13_cert_pipeline_order_independent :
  forall (perm1 perm2 : list (bytes * list bytes) -> list (bytes * list bytes)) (members : list (bytes * list bytes)) (module : bytes),
  (forall m, Permutation (perm1 m) m) -> (forall m, Permutation (perm2 m) m) ->
  cert_pipeline perm1 members module = cert_pipeline perm2 members module.
Proof.
  intros perm1 perm2 members module H1 H2. unfold cert_pipeline.
  apply (cert_order_independent bytes_eqb bytes_ltb bytes_ltb_irrefl bytes_ltb_trans bytes_ltb_total (hm_of_members bytes_eqb members));
    [apply hm_of_members_nodup, bytes_eqb_spec|apply H1|apply H2].
Qed.
Print Assumptions c13_cert_pipeline_order_independent.

Example c13_nonvacuous_cert_pipeline :
  (* {"b": [m], "a": [m], "b": [x]}: the second "b" replaces the first, so "a" is the only certificate of m *)
  cert_pipeline (@rev _) [([98], [[109]]); ([97], [[109]]); ([98], [[120]])] [109] = Some [97] /\
  cert_pipeline (fun x => x) [([98], [[109]]); ([97], [[109]]); ([98], [[120]])] [109] = Some [97].
Proof. split; vm_compute; reflexivity. Qed.

(* ---- the proc_limits array with everything print_json emits per entry (name, soft, hard, unit; any formatter), from the stream
   bytes: the same for every iteration order of the HashMap (c13_limits_pipeline_order_independent is the case of the names alone, fmt := fst) *)
Theorem c13_limits_entries_order_independent :
  forall (R : Type) (fmt : bytes * (limit * limit * bytes) -> R) (p1 p2 : list entry -> list entry) (data : bytes),
  (forall m, Permutation (p1 m) m) -> (forall m, Permutation (p2 m) m) ->
  limits_render fmt p1 data = limits_render fmt p2 data.
Proof. exact @limits_render_order_independent. Qed.
Print Assumptions c13_limits_entries_order_independent.

Example c13_nonvacuous_limits_entries :
  (* a stream whose second "Max open files" line replaces the first; the map iterated forwards and backwards *)
  let b := bytes_of_string in
  let nl := String (Ascii.ascii_of_nat 10) "" in
  let data := b ("Limit  Soft Limit  Hard Limit  Units" ++ nl ++ "Max open files  1024  4096  files" ++ nl ++
                 "Max cpu time  unlimited  unlimited  seconds" ++ nl ++ "Max open files  7  9  files" ++ nl)%string in
  limits_render (fun e => e) (@rev _) data =
    Ret [(b "Max cpu time", (Unlimited, Unlimited, b "seconds")); (b "Max open files", (Limited 7, Limited 9, b "files"))] /\
  limits_render (fun e => e) (fun m => m) data = limits_render (fun e => e) (@rev _) data.
Proof.
  cbv zeta. split; [vm_compute; reflexivity|].
  apply limits_render_order_independent; intros m; [apply Permutation_refl|apply Permutation_sym, Permutation_rev].
Qed.

(* closed form of the certificate fold (any iteration order, distinct names or not): the module gets the GREATEST certificate
   name, in the order the code sorts by, among the certificates that list it; none if no certificate lists it.  With a strict
   TOTAL order on the names this determines the certificate from the set of entries alone *)
Theorem c13_cert_greatest_wins :
  forall (C M : Type) (meqb : M -> M -> bool) (cltb : C -> C -> bool),
  (forall a, cltb a a = false) ->
  (forall a b c, cltb a b = true -> cltb b c = true -> cltb a c = true) ->
  forall (iter : list (C * list M)) (x : M),
  match cert_of meqb cltb iter x with
  | None => forall e, In e iter -> existsb (meqb x) (snd e) = false
  | Some c => (exists ms, In (c, ms) iter /\ existsb (meqb x) ms = true) /\
              forall e, In e iter -> existsb (meqb x) (snd e) = true -> cltb c (fst e) = false
  end.
Proof. intros C M meqb cltb Hi Ht. exact (@cert_greatest_wins C M meqb cltb Hi Ht). Qed.
Print Assumptions c13_cert_greatest_wins.

(* ... and from the MEMBERS of the JSON object, for every iteration order of the HashMap: the member that counts for a name is the last
   one written (last_member); the module gets the greatest name whose counting member lists it *)
Theorem c13_cert_pipeline_spec :
  forall (perm : list (bytes * list bytes) -> list (bytes * list bytes)) (members : list (bytes * list bytes)) (module : bytes),
  (forall m, Permutation (perm m) m) ->
  match cert_pipeline perm members module with
  | None => forall c ms, last_member bytes_eqb c members = Some ms -> existsb (bytes_eqb module) ms = false
  | Some c => (exists ms, last_member bytes_eqb c members = Some ms /\ existsb (bytes_eqb module) ms = true) /\
              forall c' ms', last_member bytes_eqb c' members = Some ms' -> existsb (bytes_eqb module) ms' = true -> bytes_ltb c c' = false
  end.
Proof.
  intros perm members x Hp. unfold cert_pipeline.
  pose proof (cert_greatest_wins bytes_eqb bytes_ltb bytes_ltb_irrefl bytes_ltb_trans (perm (hm_of_members bytes_eqb members)) x) as G.
  assert (Mem : forall c ms, In (c, ms) (perm (hm_of_members bytes_eqb members)) <-> last_member bytes_eqb c members = Some ms).
  { intros c ms. rewrite <- (hm_of_members_in bytes_eqb bytes_eqb_spec). split; apply Permutation_in; [apply Hp|apply Permutation_sym, Hp]. }
  destruct (cert_of bytes_eqb bytes_ltb (perm (hm_of_members bytes_eqb members)) x) as [c|].
  - destruct G as [[ms [Hin L]] Gr]. split; [exists ms; split; [apply Mem; exact Hin|exact L]|].
    intros c' ms' Hl Le. apply (Gr (c', ms')); [apply Mem; exact Hl|exact Le].
  - intros c ms Hl. apply (G (c, ms)), Mem, Hl.
Qed.
Print Assumptions c13_cert_pipeline_spec.

Example c13_nonvacuous_cert_greatest :
  cert_pipeline (@rev _) [([97], [[109]]); ([98], [[109]; [120]])] [109] = Some [98] /\
  cert_pipeline (fun x => x) [([98], [[109]; [120]]); ([97], [[109]])] [109] = Some [98] /\
  cert_pipeline (fun x => x) [([98], [[109]; [120]]); ([97], [[109]])] [121] = None.
Proof. repeat split; vm_compute; reflexivity. Qed.

(* ---- a BTreeSet of any strictly, totally ordered key (the register names check_for_bitflips walks; the offsets above): what
   an iteration yields is the strictly ascending list of the members, whatever the order of the inserts and however often a
   member was inserted *)
Theorem c13_ordered_set_order_independent :
  forall (K : Type) (kltb : K -> K -> bool),
  (forall a, kltb a a = false) ->
  (forall a b c, kltb a b = true -> kltb b c = true -> kltb a c = true) ->
  (forall a b, kltb a b = false -> kltb b a = false -> a = b) ->
  forall l1 l2 : list K, Permutation l1 l2 -> oset_of_list kltb l1 = oset_of_list kltb l2.
Proof. intros K kltb Hi Ht Hto. exact (@oset_of_list_perm K kltb Hi Ht Hto). Qed.
Print Assumptions c13_ordered_set_order_independent.

(* which list it is: strictly ascending, with exactly the inserted members *)
Theorem c13_ordered_set_determined :
  forall (K : Type) (kltb : K -> K -> bool),
  (forall a, kltb a a = false) ->
  (forall a b c, kltb a b = true -> kltb b c = true -> kltb a c = true) ->
  (forall a b, kltb a b = false -> kltb b a = false -> a = b) ->
  forall l : list K, osorted kltb (oset_of_list kltb l) /\ forall x, In x (oset_of_list kltb l) <-> In x l.
Proof. intros K kltb Hi Ht Hto. exact (@oset_of_list_spec K kltb Hi Ht Hto). Qed.
Print Assumptions c13_ordered_set_determined.

(* crash_info.possible_bit_flips: whatever order the operands of the crashing instruction contributed their registers in (and however
   often one register occurs), the array is the same; through a hash container it is not *)
Theorem c13_bitflip_candidates_order_independent :
  forall (K B : Type) (kltb : K -> K -> bool),
  (forall a, kltb a a = false) ->
  (forall a b c, kltb a b = true -> kltb b c = true -> kltb a c = true) ->
  (forall a b, kltb a b = false -> kltb b a = false -> a = b) ->
  forall (cands : K -> list B) (base : list B) (l1 l2 : list K), Permutation l1 l2 ->
  bitflip_candidates kltb cands base l1 = bitflip_candidates kltb cands base l2.
Proof.
  intros K B kltb Hi Ht Hto cands base l1 l2 H. unfold bitflip_candidates.
  rewrite (@oset_of_list_perm K kltb Hi Ht Hto l1 l2 H). reflexivity.
Qed.
Print Assumptions c13_bitflip_candidates_order_independent.

Theorem c13_bitflip_candidates_hash_refuted :
  exists (i1 i2 : list Z -> list Z) (regs : list Z),
    (forall x, Permutation (i1 x) x) /\ (forall x, Permutation (i2 x) x) /\
    bitflip_candidates_hash i1 (fun r => [r]) [] regs <> bitflip_candidates_hash i2 (fun r => [r]) [] regs.
Proof.
  exists (fun x => x), (@rev _), [1; 2].
  split; [intros; apply Permutation_refl|]. split; [intros; apply Permutation_sym, Permutation_rev|]. cbn. discriminate.
Qed.
Print Assumptions c13_bitflip_candidates_hash_refuted.

Example c13_nonvacuous_ordered_set :
  (* rcx, rax, rcx, rdx as byte strings *)
  oset_of_list bytes_ltb [[114; 99; 120]; [114; 97; 120]; [114; 99; 120]; [114; 100; 120]] = [[114; 97; 120]; [114; 99; 120]; [114; 100; 120]] /\
  oset_of_list bytes_ltb [[114; 100; 120]; [114; 99; 120]; [114; 97; 120]; [114; 99; 120]] = [[114; 97; 120]; [114; 99; 120]; [114; 100; 120]].
Proof. split; vm_compute; reflexivity. Qed.

(* ---- calculate_heuristics' loop over the valid registers of the crashing context (nearby_registers, poison_registers): a count
   and an any — the same for every order of the registers (the order is in fact fixed: MinidumpContext::valid_registers filters
   the REGISTERS slice; see Sites.PublicApiOnly for the HashSet iterator next to it) *)
Theorem c13_register_scan_order_independent :
  forall (near pois : Z -> bool) (i1 i2 : list Z), Permutation i1 i2 ->
  register_scan near pois i1 = register_scan near pois i2 /\
  register_scan near pois i1 = (length (filter near i1), existsb pois i1).
Proof. intros near pois i1 i2 H. split; [apply register_scan_perm; exact H|apply register_scan_closed]. Qed.
Print Assumptions c13_register_scan_order_independent.

Example c13_nonvacuous_register_scan :
  register_scan (fun a => a <? 10) (fun a => a =? 5) [1; 20; 5; 7] = (3%nat, true) /\
  register_scan (fun a => a <? 10) (fun a => a =? 5) [7; 5; 20; 1] = (3%nat, true).
Proof. split; vm_compute; reflexivity. Qed.

(* ---- every iteration over an ORDERED container and every field declared as one is an enumerated, classified site *)
Theorem c13_ordered_sites_modelled :
  RM.Gen.C13Sites.ordered_iteration_sites = map fst modelled_ordered_iteration_sites /\
  RM.Gen.C13Sites.ordered_container_fields = map fst modelled_ordered_container_fields.
Proof. split; reflexivity. Qed.
Print Assumptions c13_ordered_sites_modelled.

(* ... and the seven pieces of code that Model.cert_of and C13/Unloaded.v model read today exactly as they did when the model was written *)
Theorem c13_pinned_code_modelled :
  RM.Gen.C13Sites.pinned_model_code = map fst modelled_pinned_code.
Proof. reflexivity. Qed.
Print Assumptions c13_pinned_code_modelled.

(* ---- the thread_local print context is written by the printers themselves, first thing, and by nobody else; it is read only by
   Display for Address (compared on every oracle case: one state printed after dumps of both pointer widths were processed and
   printed on the same thread, and on a fresh OS thread, must give the bytes of the plain build-then-print run) *)
Theorem c13_print_context_set_by_printers :
  RM.Gen.C13Sites.print_context_sites = map fst modelled_print_context_sites.
Proof. reflexivity. Qed.
Print Assumptions c13_print_context_set_by_printers.
