(* C13/ProofsBudget.v — the thread list after the post-walk steps is the same for every completion order if those
   steps commute; read-only steps do, and then every slot has a closed form. *)
From Coq Require Import Lia Sorting.Permutation.
From RM Require Import C13.Model C13.Budget.
Close Scope Z_scope.
Open Scope nat_scope.

Section Post.
Context {S F : Type}.
Variable post : S -> nat -> F -> S * F.
Variable frames : nat -> F.

Lemma finish_ext : forall comp s o1 o2, (forall j, o1 j = o2 j) ->
  fst (finish post frames s comp o1) = fst (finish post frames s comp o2) /\
  forall j, snd (finish post frames s comp o1) j = snd (finish post frames s comp o2) j.
Proof.
  induction comp as [|i rest IH]; intros s o1 o2 H; cbn [finish].
  - split; [reflexivity|exact H].
  - apply IH. intros j. unfold updf. destruct (Nat.eqb j i); [reflexivity|apply H].
Qed.

Lemma finish_app : forall c1 c2 s out,
  finish post frames s (c1 ++ c2) out =
  finish post frames (fst (finish post frames s c1 out)) c2 (snd (finish post frames s c1 out)).
Proof.
  induction c1 as [|i rest IH]; intros c2 s out; cbn [app finish fst snd]; [reflexivity|]. apply IH.
Qed.

Lemma finish_perm : posts_commute post -> forall c1 c2, Permutation c1 c2 -> NoDup c1 ->
  forall s o1 o2, (forall j, o1 j = o2 j) ->
  fst (finish post frames s c1 o1) = fst (finish post frames s c2 o2) /\
  forall j, snd (finish post frames s c1 o1) j = snd (finish post frames s c2 o2) j.
Proof.
  intros HC c1 c2 HP. induction HP as [|x l l' HP IH|x y l|l l' l'' HP1 IH1 HP2 IH2]; intros ND s o1 o2 H.
  - cbn. split; [reflexivity|exact H].
  - cbn [finish]. inversion ND; subst. apply IH; [assumption|].
    intros j. unfold updf. destruct (Nat.eqb j x); [reflexivity|apply H].
  - cbn [finish]. inversion ND as [|? ? Hn ND']; subst.
    assert (Hxy : y <> x) by (intros E; apply Hn; left; symmetry; exact E).
    destruct (HC s y x (frames y) (frames x) Hxy) as [A [B C]]. cbv zeta in A, B, C.
    rewrite A. apply finish_ext. intros j. unfold updf.
    destruct (Nat.eqb_spec j x) as [Ex|_]; destruct (Nat.eqb_spec j y) as [Ey|_];
      [congruence|rewrite C; reflexivity|rewrite B; reflexivity|apply H].
  - destruct (IH1 ND s o1 o2 H) as [A B].
    assert (ND' : NoDup l') by (eapply Permutation_NoDup; eassumption).
    destruct (IH2 ND' s o2 o2 (fun j => eq_refl)) as [A' B'].
    split; [congruence|]. intros j. rewrite B. apply B'.
Qed.

Lemma finish_threads_commute n s c1 c2 :
  posts_commute post -> Permutation c1 (seq 0 n) -> Permutation c2 (seq 0 n) ->
  finish_threads post n frames s c1 = finish_threads post n frames s c2 /\
  fst (finish post frames s c1 (fun _ => None)) = fst (finish post frames s c2 (fun _ => None)).
Proof.
  intros HC P1 P2.
  assert (P : Permutation c1 c2) by (eapply Permutation_trans; [exact P1|apply Permutation_sym; exact P2]).
  assert (ND : NoDup c1) by (eapply Permutation_NoDup; [apply Permutation_sym; exact P1|apply seq_NoDup]).
  destruct (finish_perm HC c1 c2 P ND s (fun _ => None) (fun _ => None) (fun j => eq_refl)) as [A B].
  split; [|exact A]. unfold finish_threads. apply map_ext. exact B.
Qed.

Lemma readonly_commute : post_readonly post -> posts_commute post.
Proof.
  intros HR s i j f g Hij. cbv zeta. rewrite (HR s i f), (HR s j g), (HR s i f). repeat split; reflexivity.
Qed.

(* closed form for read-only post-walk steps: slot i = future i's own step on its own frames *)
Lemma finish_readonly : post_readonly post -> forall comp s out,
  fst (finish post frames s comp out) = s /\
  forall j, snd (finish post frames s comp out) j =
            if in_dec Nat.eq_dec j comp then Some (snd (post s j (frames j))) else out j.
Proof.
  intros HR. induction comp as [|i rest IH]; intros s out; cbn [finish].
  - split; [reflexivity|]. intros j. destruct (in_dec Nat.eq_dec j []) as [[]|]; reflexivity.
  - rewrite (HR s i (frames i)). destruct (IH s (updf out i (snd (post s i (frames i))))) as [A B]. split; [exact A|].
    intros j. rewrite B. unfold updf.
    destruct (in_dec Nat.eq_dec j rest) as [Hin|Hin]; destruct (in_dec Nat.eq_dec j (i :: rest)) as [Hin'|Hin'].
    + reflexivity.
    + destruct Hin'. right. exact Hin.
    + destruct Hin' as [E|E]; [subst; rewrite Nat.eqb_refl; reflexivity|contradiction].
    + destruct (Nat.eqb_spec j i) as [->|_]; [destruct Hin'; left|]; reflexivity.
Qed.

Lemma finish_threads_readonly n s comp :
  post_readonly post -> (forall i, i < n -> In i comp) ->
  finish_threads post n frames s comp = map (fun i => Some (snd (post s i (frames i)))) (seq 0 n).
Proof.
  intros HR Hc. unfold finish_threads. apply map_ext_in. intros j Hj. apply in_seq in Hj.
  destruct (finish_readonly HR comp s (fun _ => None)) as [_ B]. rewrite B.
  destruct (in_dec Nat.eq_dec j comp) as [|Hn]; [reflexivity|]. exfalso. apply Hn. apply Hc. lia.
Qed.
End Post.

