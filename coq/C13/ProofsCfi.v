(* C13/ProofsCfi.v — the insert-overwrite HashMap of C13/Cfi.v (one entry per key, lookup = the last written); the
   caller's registers after walk_with_stack_cfi, rules sorted by name, are a function of the written rules alone, for
   every walker, aliases or not; lookups in the merged stats map of MultiSymbolProvider. *)
From Coq Require Import Lia Sorting.Permutation.
From RM Require Import C13.Model C13.Proofs C13.Cfi.
Close Scope Z_scope.
Open Scope nat_scope.

Section Cfi.
Context {K E W : Type} (keqb : K -> K -> bool).
Hypothesis keqb_spec : forall a b, keqb a b = true <-> a = b.

Lemma map_insert_keys {V} k (v : V) m k' :
  In k' (map fst (map_insert keqb k v m)) -> k' = k \/ In k' (map fst m).
Proof.
  induction m as [|[k0 v0] t IH]; cbn [map_insert map fst].
  - intros [H|[]]. left. symmetry. exact H.
  - destruct (keqb k k0) eqn:Ek; cbn [map fst].
    + apply keqb_spec in Ek. subst k0. intros [H|H]; [left; symmetry; exact H|right; right; exact H].
    + intros [H|H]; [right; left; exact H|]. destruct (IH H) as [X|X]; [left; exact X|right; right; exact X].
Qed.

Lemma map_insert_nodup {V} k (v : V) m : NoDup (map fst m) -> NoDup (map fst (map_insert keqb k v m)).
Proof.
  induction m as [|[k0 v0] t IH]; cbn [map_insert map fst]; intros H.
  - constructor; [intros []|constructor].
  - inversion H as [|? ? Hn Ht]; subst. destruct (keqb k k0) eqn:Ek; cbn [map fst].
    + apply keqb_spec in Ek. subst k0. constructor; assumption.
    + constructor; [|apply IH; exact Ht].
      intros Hin. destruct (map_insert_keys k v t k0 Hin) as [X|X]; [|contradiction].
      subst k0. assert (keqb k k = true) by (apply keqb_spec; reflexivity). congruence.
Qed.

Lemma cfi_map_nodup (written : list (K * E)) : NoDup (map fst (cfi_map keqb written)).
Proof. unfold cfi_map. apply fold_left_inv; [intros m r; apply map_insert_nodup|constructor]. Qed.

(* HashMap::get after the inserts: the LAST written rule of the register *)
Fixpoint lookup {V} (k : K) (m : list (K * V)) : option V :=
  match m with [] => None | (k', v) :: t => if keqb k k' then Some v else lookup k t end.

Lemma lookup_insert {V} k (v : V) m k' :
  lookup k' (map_insert keqb k v m) = if keqb k' k then Some v else lookup k' m.
Proof.
  induction m as [|[k0 v0] t IH]; cbn [map_insert lookup].
  - reflexivity.
  - destruct (keqb k k0) eqn:Ek; cbn [lookup].
    + apply keqb_spec in Ek. subst k0. destruct (keqb k' k); reflexivity.
    + rewrite IH. destruct (keqb k' k0) eqn:E0; [|reflexivity].
      destruct (keqb k' k) eqn:E1; [|reflexivity].
      apply keqb_spec in E0, E1. subst. assert (keqb k0 k0 = true) by (apply keqb_spec; reflexivity). congruence.
Qed.

(* after a run of inserts: the last entry written for the key, else what the map held before *)
Lemma lookup_fold_insert {V} : forall (l m : list (K * V)) k,
  lookup k (fold_left (fun m r => map_insert keqb (fst r) (snd r) m) l m) =
  match lookup k (rev l) with Some v => Some v | None => lookup k m end.
Proof.
  induction l as [|[k0 v0] t IH] using rev_ind; intros m k; [reflexivity|].
  rewrite fold_left_app. cbn [fold_left fst snd]. rewrite lookup_insert.
  rewrite rev_app_distr. cbn [rev app lookup]. destruct (keqb k k0); [reflexivity|apply IH].
Qed.

Lemma cfi_map_last_wins (written : list (K * E)) k :
  lookup k (cfi_map keqb written) = lookup k (rev written).
Proof. unfold cfi_map. rewrite lookup_fold_insert. destruct (lookup k (rev written)); reflexivity. Qed.

Section Sorted.
Variable ltb : K -> K -> bool.
Hypothesis ltb_irrefl : forall a, ltb a a = false.
Hypothesis ltb_trans : forall a b c, ltb a b = true -> ltb b c = true -> ltb a c = true.
Hypothesis ltb_total : forall a b, ltb a b = false -> ltb b a = false -> a = b.

Lemma walk_cfi_order_independent (step : K -> E -> W -> W) (iter1 iter2 : list (K * E) -> list (K * E)) written w :
  Permutation (iter1 (cfi_map keqb written)) (cfi_map keqb written) ->
  Permutation (iter2 (cfi_map keqb written)) (cfi_map keqb written) ->
  walk_cfi keqb ltb step iter1 written w = walk_cfi keqb ltb step iter2 written w.
Proof.
  intros P1 P2. unfold walk_cfi.
  rewrite (sort_iter_invariant ltb ltb_irrefl ltb_trans ltb_total _ _ _ (cfi_map_nodup written) P1 P2). reflexivity.
Qed.
End Sorted.
End Cfi.

(* the aliases of the counterexample to sorting by sequence number (c13_cfi_seq_order_refuted): fp (name 129) and x29
   (name 29) are one register *)
Definition arm64_slot (name : nat) : nat := if Nat.eqb name 129 then 29 else name.

Lemma nat_ltb_irrefl a : Nat.ltb a a = false.
Proof. apply Nat.ltb_irrefl. Qed.
Lemma nat_ltb_trans a b c : Nat.ltb a b = true -> Nat.ltb b c = true -> Nat.ltb a c = true.
Proof. rewrite !Nat.ltb_lt. lia. Qed.
Lemma nat_ltb_total a b : Nat.ltb a b = false -> Nat.ltb b a = false -> a = b.
Proof. rewrite !Nat.ltb_ge. lia. Qed.

(* ---- the arm64 and arm instances that the Q cases compare with the real unwinder *)
Lemma arch_walk_order_independent (t : arch_tables) (iter1 iter2 : list (bytes * option Z) -> list (bytes * option Z)) written callee :
  Permutation (iter1 (cfi_map bytes_eqb written)) (cfi_map bytes_eqb written) ->
  Permutation (iter2 (cfi_map bytes_eqb written)) (cfi_map bytes_eqb written) ->
  arch_walk t iter1 written callee = arch_walk t iter2 written callee.
Proof.
  intros P1 P2. unfold arch_walk.
  exact (walk_cfi_order_independent bytes_eqb bytes_eqb_spec bytes_ltb bytes_ltb_irrefl bytes_ltb_trans bytes_ltb_total
           (arch_step t) iter1 iter2 written (arch_forwarded t callee) P1 P2).
Qed.

(* ---- MultiSymbolProvider::stats: what a lookup in the merged map returns does not depend on the iteration order of any
   provider's map: the last provider (in Vec order) that has the key decides *)
Section Merge.
Context {K V : Type} (keqb : K -> K -> bool).
Hypothesis keqb_spec : forall a b, keqb a b = true <-> a = b.

Lemma lookup_app (l1 l2 : list (K * V)) k :
  lookup keqb k (l1 ++ l2) = match lookup keqb k l1 with Some v => Some v | None => lookup keqb k l2 end.
Proof. induction l1 as [|[k0 v0] t IH]; cbn [app lookup]; [reflexivity|]. destruct (keqb k k0); [reflexivity|exact IH]. Qed.

Lemma lookup_not_in (l : list (K * V)) k : ~ In k (map fst l) -> lookup keqb k l = None.
Proof.
  induction l as [|[k0 v0] t IH]; cbn [lookup map fst]; intros H; [reflexivity|].
  destruct (keqb k k0) eqn:E; [apply keqb_spec in E; subst; exfalso; apply H; left; reflexivity|].
  apply IH. intros X. apply H. right. exact X.
Qed.

Lemma lookup_in (l : list (K * V)) k v : NoDup (map fst l) -> (In (k, v) l <-> lookup keqb k l = Some v).
Proof.
  induction l as [|[k0 v0] t IH]; cbn [lookup In map fst]; intros Hn.
  - split; [intros []|discriminate].
  - inversion Hn as [|? ? Hk Ht]; subst. destruct (keqb k k0) eqn:E.
    + apply keqb_spec in E. subst k0. split; [|intros A; inversion A; left; reflexivity].
      intros [A|A]; [inversion A; reflexivity|]. destruct Hk. exact (in_map fst _ _ A).
    + rewrite <- (IH Ht). split; [|intros A; right; exact A].
      intros [A|A]; [|exact A]. inversion A; subst. rewrite (proj2 (keqb_spec k k) eq_refl) in E. discriminate.
Qed.

(* a map has one entry per key: looking a key up does not depend on the order its entries are listed in *)
Lemma lookup_perm (l l' : list (K * V)) k :
  Permutation l l' -> NoDup (map fst l) -> lookup keqb k l = lookup keqb k l'.
Proof.
  intros P ND. pose proof (Permutation_NoDup (Permutation_map fst P) ND) as ND'.
  destruct (lookup keqb k l') as [v|] eqn:E'.
  - apply (lookup_in _ _ _ ND), (Permutation_in _ (Permutation_sym P)), (lookup_in _ _ _ ND'), E'.
  - destruct (lookup keqb k l) as [v|] eqn:E; [|reflexivity].
    apply (lookup_in _ _ _ ND), (Permutation_in _ P), (lookup_in _ _ _ ND') in E. congruence.
Qed.

Lemma lookup_rev (l : list (K * V)) k : NoDup (map fst l) -> lookup keqb k (rev l) = lookup keqb k l.
Proof. intros ND. symmetry. apply lookup_perm; [apply Permutation_rev|exact ND]. Qed.

(* the merged map, as a function: the last provider that knows the key *)
Fixpoint merged_spec (maps : list (list (K * V))) (k : K) : option V :=
  match maps with
  | [] => None
  | m :: rest => match merged_spec rest k with Some v => Some v | None => lookup keqb k m end
  end.

(* every provider's map in any iteration order of its own *)
Lemma merge_stats_iter_spec (maps its : list (list (K * V))) k :
  Forall (fun m => NoDup (map fst m)) maps -> Forall2 (@Permutation _) its maps ->
  lookup keqb k (merge_stats keqb its) = merged_spec maps k.
Proof.
  intros HF P. unfold merge_stats. rewrite (lookup_fold_insert keqb keqb_spec). cbn [lookup].
  induction P as [|i m its' maps' Him P IH]; [reflexivity|]. inversion HF as [|? ? Hm HF']; subst.
  cbn [concat merged_spec]. rewrite rev_app_distr, lookup_app, <- (IH HF').
  assert (Hi : NoDup (map fst i)) by exact (Permutation_NoDup (Permutation_map fst (Permutation_sym Him)) Hm).
  rewrite (lookup_rev i k Hi), (lookup_perm i m k Him Hi).
  destruct (lookup keqb k (rev (concat its'))); [reflexivity|]. destruct (lookup keqb k m); reflexivity.
Qed.
End Merge.
