(* C13/ProofsAdaptive.v — the per-thread walks over the C12 model of the shared Symbolizer, in three layers:
   walks with a FIXED list of lookups (C13/Sched.v): answers, stats snapshot and rendered modules at quiescence are
   functions of the configuration, from C12's invariant;
   ADAPTIVE walks (C13/Adaptive.v): they refine the fixed-list model on the configuration [fixed c atasks] (every task's
   list := the path its tree takes under the supplier's answers), for EVERY schedule;
   the per-thread system of C13/Process.v: the thread list (and the shared state) after the join is what [finish]
   (C13/Budget.v) makes of the trees' values in SOME completion order: no schedule in it beyond that order. *)
From Coq Require Import Lia Sorting.Permutation.
From RM Require Import C13.Process C13.ProofsBudget C12.Model C12.Proofs C13.Sched.
Close Scope Z_scope.
Open Scope nat_scope.

Section FixedLists.
Variable c : config.

(* what the stats map holds relative to the per-key slots *)
Definition StatsInv (s : shared) : Prop :=
  (forall l o, stats s l = Some o -> exists k, leaf c k = l /\ value s k = Some o) /\
  (forall k o, value s k = Some o -> exists o', stats s (leaf c k) = Some o').

Lemma StatsInv_complete t k s : StatsInv s -> StatsInv (complete c t k s).
Proof.
  intros [A B]. split; cbn [complete stats value]; unfold upd.
  - intros l o H. destruct (Nat.eqb_spec l (leaf c k)) as [->|Hl].
    + inversion H; subst. exists k. rewrite Nat.eqb_refl. split; reflexivity.
    + destruct (A l o H) as [k0 [Hk0 Hv]]. exists k0. split; [exact Hk0|].
      destruct (Nat.eqb_spec k0 k) as [->|_]; [congruence|exact Hv].
  - intros k0 o H. destruct (Nat.eqb_spec (leaf c k0) (leaf c k)) as [_|Hl]; [eexists; reflexivity|].
    destruct (Nat.eqb_spec k0 k) as [->|_]; [destruct Hl; reflexivity|exact (B k0 o H)].
Qed.

(* [hit] and [begin_call] leave [value] and [stats] as they are: StatsInv of the state before is StatsInv of the state after *)
Lemma advance_StatsInv t : forall rem ph s, StatsInv s -> StatsInv (snd (advance c t rem ph s)).
Proof.
  induction rem as [|k rest IH]; intros ph s H; cbn [advance]; [exact H|].
  destruct ph as [| |[|m]].
  1, 2: destruct (lock s k); [exact H|]; destruct (value s k) as [o|]; [apply IH; exact H|];
        destruct (susp c k); [apply IH, StatsInv_complete; exact H|exact H].
  - apply IH, StatsInv_complete, H.
  - exact H.
Qed.

Lemma poll_StatsInv t s : StatsInv (sh s) -> StatsInv (sh (poll c t s)).
Proof.
  intros H. unfold poll. destruct (pcs s t) as [rem ph].
  pose proof (advance_StatsInv t rem ph (sh s) H) as X.
  destruct (advance c t rem ph (sh s)) as [[rem' ph'] s']. exact X.
Qed.

Lemma run_StatsInv sched : StatsInv (sh (run c sched)).
Proof.
  unfold run, run_from.
  assert (G : forall l s, StatsInv (sh s) -> StatsInv (sh (fold_left (fun s t => poll c t s) l s))).
  { induction l as [|t l IH]; intros s H; cbn [fold_left]; [exact H|]. apply IH. apply poll_StatsInv. exact H. }
  apply G. split; cbn; intros; discriminate.
Qed.

Lemma quiescent_value sched k :
  all_done c (run c sched) = true -> In k (concat (tasks c)) ->
  value (sh (run c sched)) k = Some (outc c k).
Proof.
  intros Hd Hk. pose proof (run_inv c sched) as HI.
  pose proof (requested_called c _ HI Hd k Hk) as Hc.
  apply (inv_calls c _ _ HI) in Hc.
  rewrite (quiescent_unlocked c _ HI Hd k) in Hc.
  destruct Hc as [Hc|Hc]; [congruence|].
  destruct (value (sh (run c sched)) k) as [o|] eqn:E; [|congruence].
  rewrite (inv_val c _ _ HI k o E). reflexivity.
Qed.

Lemma valued_requested sched k o :
  value (sh (run c sched)) k = Some o -> In k (concat (tasks c)).
Proof.
  intros H. pose proof (run_inv c sched) as HI.
  apply (inv_creq c _ _ HI). apply (inv_calls c _ _ HI). right. congruence.
Qed.

Lemma stats_closed sched l :
  leaf_injective c -> all_done c (run c sched) = true ->
  stats_snapshot c sched l = option_map (outc c) (find (fun k => Nat.eqb (leaf c k) l) (concat (tasks c))).
Proof.
  intros Hinj Hd. pose proof (run_StatsInv sched) as [A B]. pose proof (run_inv c sched) as HI.
  unfold stats_snapshot. destruct (find _ _) as [k|] eqn:F; cbn [option_map].
  - apply find_some in F. destruct F as [Hk Hl]. apply Nat.eqb_eq in Hl. subst l.
    destruct (B k _ (quiescent_value sched k Hd Hk)) as [o' Ho']. rewrite Ho'.
    destruct (A _ _ Ho') as [k' [Hl' Hv']].
    pose proof (valued_requested sched k' o' Hv') as Hk'.
    assert (k' = k) by (apply Hinj; assumption). subst k'.
    rewrite (inv_val c _ _ HI k o' Hv'). reflexivity.
  - destruct (stats (sh (run c sched)) l) as [o|] eqn:E; [|reflexivity].
    destruct (A _ _ E) as [k [Hl Hv]]. pose proof (find_none _ _ F k (valued_requested sched k o Hv)) as X.
    cbv beta in X. rewrite Hl, Nat.eqb_refl in X. discriminate.
Qed.

Lemma stats_independent s1 s2 l :
  leaf_injective c -> all_done c (run c s1) = true -> all_done c (run c s2) = true ->
  stats_snapshot c s1 l = stats_snapshot c s2 l.
Proof. intros Hinj H1 H2. rewrite !stats_closed by assumption. reflexivity. Qed.

Lemma pairs_determined (l : list (key * outcome)) (ks : list key) :
  map fst l = ks -> (forall k o, In (k, o) l -> o = outc c k) -> l = map (fun k => (k, outc c k)) ks.
Proof.
  revert ks. induction l as [|[k o] t IH]; intros ks E H; cbn [map] in *; subst ks; [reflexivity|].
  cbn [map fst]. rewrite (H k o (or_introl eq_refl)). f_equal.
  apply IH; [reflexivity|]. intros k' o' Hin. apply H. right. exact Hin.
Qed.

Lemma results_determined sched t :
  all_done c (run c sched) = true ->
  results (sh (run c sched)) t = map (fun k => (k, outc c k)) (nth t (tasks c) []).
Proof.
  intros Hd. pose proof (run_inv c sched) as HI.
  apply pairs_determined.
  - apply results_complete. exact Hd.
  - intros k o Hin. apply (inv_val c _ _ HI). apply (inv_res c _ _ HI t). exact Hin.
Qed.

Lemma render_modules_spec sched mods :
  leaf_injective c -> all_done c (run c sched) = true ->
  render_modules c sched mods = modules_spec c mods.
Proof.
  intros Hinj Hd. unfold render_modules, modules_spec. apply map_ext. intros k. rewrite stats_closed by assumption.
  destruct (find (fun k' => Nat.eqb (leaf c k') (leaf c k)) (concat (tasks c))) as [k'|] eqn:F.
  - pose proof (find_some _ _ F) as [Hk' Hl]. apply Nat.eqb_eq in Hl.
    destruct (in_dec Nat.eq_dec k (concat (tasks c))) as [Hk|Hk]; [rewrite (Hinj k' k Hk' Hk Hl); reflexivity|].
    replace (existsb _ _) with true; [reflexivity|]. symmetry. apply existsb_exists. exists k'. rewrite Hl, Nat.eqb_refl. auto.
  - destruct (in_dec Nat.eq_dec k (concat (tasks c))) as [Hk|Hk].
    + pose proof (find_none _ _ F k Hk) as X. cbv beta in X. rewrite Nat.eqb_refl in X. discriminate.
    + destruct (existsb _ _); reflexivity.
Qed.
End FixedLists.

Section WithConfig.
Context {F : Type}.
Variable c : config.
Variable d : F.
Variable atasks : list (@atask F).
Let c' := fixed c atasks.
Let oc := outc c.

(* every cached value is the supplier's answer *)
Definition ValuesOk (s : shared) : Prop := forall k o, value s k = Some o -> o = oc k.

Lemma ValuesOk_complete t k s : ValuesOk s -> ValuesOk (complete c' t k s).
Proof.
  intros H k0 o. cbn [complete value]. unfold upd.
  destruct (Nat.eqb_spec k0 k) as [->|_]; [intros X; inversion X; reflexivity|apply H].
Qed.

(* one poll of a task: the adaptive step IS C12's step on the path; the value at the end of the tree is kept *)
Lemma aadvance_sim t : forall (a : @atask F) ph s, ValuesOk s ->
  advance c' t (apath oc a) ph s =
    (apath oc (fst (fst (aadvance c t a ph s))), snd (fst (aadvance c t a ph s)), snd (aadvance c t a ph s)) /\
  ValuesOk (snd (aadvance c t a ph s)) /\
  aeval oc (fst (fst (aadvance c t a ph s))) = aeval oc a.
Proof.
  induction a as [f|k cont IH]; intros ph s HV.
  - cbn. repeat split; auto.
  - cbn [apath aeval]. fold oc.
    assert (Hs : susp c' k = susp c k) by reflexivity.
    assert (Hc : forall s0, complete c' t k s0 = complete c t k s0) by reflexivity.
    destruct ph as [| |[|m]].
    (* [hit] and [begin_call] leave [value] alone: ValuesOk passes through them by conversion *)
    1, 2: cbn [advance aadvance]; destruct (lock s k) eqn:EL; [cbn; repeat split; auto|];
          destruct (value s k) as [o|] eqn:EV; [rewrite (HV k o EV); apply IH; exact HV|];
          rewrite Hs; destruct (susp c k); [rewrite <- Hc; apply IH, ValuesOk_complete; exact HV|cbn; repeat split; auto].
    + cbn [advance aadvance]. rewrite <- Hc. apply IH, ValuesOk_complete, HV.
    + cbn. repeat split; auto.
Qed.

(* the simulation relation between the adaptive system and C12's system on [c'] *)
Definition Refines (sa : @astate F) (s : state) : Prop :=
  ash sa = sh s /\
  (forall t, pcs s t = (apath oc (fst (apcs sa t)), snd (apcs sa t))) /\
  ValuesOk (sh s) /\
  (forall t, aeval oc (fst (apcs sa t)) = aeval oc (nth t atasks (ADone d))).

Lemma Refines_init : Refines (ainit d atasks) (init c').
Proof.
  unfold Refines, ainit, init. cbn. repeat split.
  - intros t. unfold c', fixed. cbn [tasks].
    change (@nil key) with (apath oc (@ADone F d)). rewrite map_nth. reflexivity.
  - intros k o X. discriminate.
Qed.

Lemma Refines_poll t sa s : Refines sa s -> Refines (apoll c t sa) (poll c' t s).
Proof.
  intros [Hsh [Hp [HV He]]]. unfold apoll, poll.
  rewrite (Hp t). destruct (apcs sa t) as [a ph] eqn:Ea. cbn [fst snd].
  rewrite Hsh. rewrite <- Hsh in HV.
  destruct (aadvance_sim t a ph (ash sa) HV) as [A [B C]].
  rewrite Hsh in A. rewrite A. rewrite Hsh in B, C.
  destruct (aadvance c t a ph (sh s)) as [[a' ph'] s'] eqn:Eadv. cbn [fst snd] in *.
  unfold Refines. cbn [ash sh apcs pcs]. repeat split.
  - intros t0. unfold upd. destruct (Nat.eqb t0 t); [reflexivity|apply Hp].
  - exact B.
  - intros t0. unfold upd. destruct (Nat.eqb_spec t0 t) as [->|_]; [|apply He].
    cbn [fst]. rewrite C. specialize (He t). rewrite Ea in He. exact He.
Qed.

Lemma Refines_run sched : Refines (arun c d atasks sched) (run c' sched).
Proof.
  unfold arun, run, run_from.
  assert (G : forall l sa s, Refines sa s -> Refines (fold_left (fun s t => apoll c t s) l sa) (fold_left (fun s t => poll c' t s) l s)).
  { induction l as [|t l IH]; intros sa s H; cbn [fold_left]; [exact H|]. apply IH. apply Refines_poll. exact H. }
  apply G. apply Refines_init.
Qed.

Lemma apath_nil_done (a : @atask F) : apath oc a = [] <-> exists f, a = ADone f.
Proof.
  destruct a as [f|k cont]; cbn; split; intros H.
  - exists f. reflexivity.
  - reflexivity.
  - discriminate.
  - destruct H as [f H]. discriminate.
Qed.

Lemma forallb_pointwise (f g : nat -> bool) (l : list nat) : (forall x, f x = g x) -> forallb f l = forallb g l.
Proof. intros H. induction l as [|x l IH]; cbn; [reflexivity|]. rewrite H, IH. reflexivity. Qed.

Lemma adone_all_done sched :
  aall_done (length atasks) (arun c d atasks sched) = all_done c' (run c' sched).
Proof.
  unfold aall_done, all_done. replace (ntasks c') with (length atasks) by (symmetry; apply map_length).
  destruct (Refines_run sched) as [_ [Hp _]].
  apply forallb_pointwise. intros t. unfold atask_done, task_done. rewrite (Hp t). cbn [fst].
  destruct (fst (apcs (arun c d atasks sched) t)); reflexivity.
Qed.

(* a finished walk returned the value at the end of the path that the supplier's answers select: a function of the
   tree and of [outc] alone — no schedule in it *)
Lemma aresult_determined sched t f :
  aresult (arun c d atasks sched) t = Some f -> f = aeval oc (nth t atasks (ADone d)).
Proof.
  destruct (Refines_run sched) as [_ [_ [_ He]]]. unfold aresult. specialize (He t).
  destruct (fst (apcs (arun c d atasks sched) t)) as [g|k cont]; intros X; inversion X. subst. exact He.
Qed.

Lemma aprocess_determined sched :
  aall_done (length atasks) (arun c d atasks sched) = true ->
  aprocess_threads c d atasks sched = map (fun a => Some (aeval oc a)) atasks.
Proof.
  intros Hd. unfold aprocess_threads, aall_done in *. rewrite forallb_forall in Hd.
  set (sa := arun c d atasks sched) in *.
  apply (nth_ext _ _ (aresult sa 0) (Some (aeval oc (ADone d)))); rewrite map_length, seq_length; [symmetry; apply map_length|].
  intros t Ht. rewrite (map_nth (aresult sa)), seq_nth, (map_nth (fun a => Some (aeval oc a))) by exact Ht. cbn [Nat.add].
  assert (Hin : In t (seq 0 (length atasks))) by (apply in_seq; lia).
  specialize (Hd t Hin). unfold atask_done in Hd.
  pose proof (aresult_determined sched t) as X. fold sa in X. unfold aresult in *.
  destruct (fst (apcs sa t)) as [g|k cont]; [|discriminate]. rewrite (X g eq_refl). reflexivity.
Qed.

(* the answers every adaptive thread received, the supplier log and the stats map are those of C12's run on [c'] *)
Lemma ash_is_fixed_run sched : ash (arun c d atasks sched) = sh (run c' sched).
Proof. destruct (Refines_run sched) as [H _]. exact H. Qed.

End WithConfig.

Section Process.
Context {F S : Type}.
Variable post : S -> nat -> F -> S * F.
Variable c : config.
Variable d : F.
Variable atasks : list (@atask F).
Variable s0 : S.
Let n := length atasks.
Let frames : nat -> F := fun i => aeval (outc c) (nth i atasks (ADone d)).

(* the state [ps] after the polls [pre], with [comp] = the walks whose post-walk step has run, in the order it ran:
   the walks are at arun's position, [comp] has no repetition and only thread indices, slot t is filled exactly for the
   t in [comp], and shared state and slots are what [finish] makes of [comp] from the initial state *)
Record ProcInv (pre : list task) (ps : @pstate F S) (comp : list nat) : Prop := {
  pi_pa : pa ps = arun c d atasks pre;
  pi_nodup : NoDup comp;
  pi_lt : forall t, In t comp -> t < n;
  pi_in : forall t, In t comp -> pout ps t <> None;
  pi_out : forall t, ~ In t comp -> pout ps t = None;
  pi_sh : pshared ps = fst (finish post frames s0 comp (fun _ => None));
  pi_slots : forall j, pout ps j = snd (finish post frames s0 comp (fun _ => None)) j
}.

Lemma ProcInv_step pre ps comp t : ProcInv pre ps comp ->
  exists comp', ProcInv (pre ++ [t]) (pstep post c n ps t) comp'.
Proof.
  intros H. unfold pstep.
  assert (Epa : apoll c t (pa ps) = arun c d atasks (pre ++ [t])) by (unfold arun; rewrite fold_left_app, (pi_pa _ _ _ H); reflexivity).
  (* a poll that does not run the post-walk step keeps the completion order *)
  assert (Keep : ProcInv (pre ++ [t]) {| pa := apoll c t (pa ps); pshared := pshared ps; pout := pout ps |} comp)
    by (destruct H; constructor; cbn [pa pshared pout]; auto).
  destruct (pout ps t) as [g|] eqn:Eo; [exists comp; exact Keep|].
  destruct (aresult (apoll c t (pa ps)) t) as [f|] eqn:Er; [|exists comp; exact Keep].
  destruct (Nat.ltb t n) eqn:Elt; [|exists comp; exact Keep].
  apply Nat.ltb_lt in Elt. rewrite Epa in Er. rewrite (aresult_determined c d atasks (pre ++ [t]) t f Er). fold (frames t).
  assert (Hn : ~ In t comp) by (intros Hin; apply (pi_in _ _ _ H t Hin); exact Eo).
  exists (comp ++ [t]). constructor; cbn [pa pshared pout].
  - exact Epa.
  - apply NoDup_snoc; [exact (pi_nodup _ _ _ H)|exact Hn].
  - intros x Hx. apply in_app_or in Hx. destruct Hx as [Hx|[Hx|[]]]; [exact (pi_lt _ _ _ H x Hx)|subst; exact Elt].
  - intros x Hx. unfold updf. destruct (Nat.eqb_spec x t) as [->|Hne]; [discriminate|].
    apply in_app_or in Hx. destruct Hx as [Hx|[Hx|[]]]; [exact (pi_in _ _ _ H x Hx)|congruence].
  - intros x Hx. unfold updf. destruct (Nat.eqb_spec x t) as [->|_].
    + destruct Hx. apply in_or_app. right. left. reflexivity.
    + apply (pi_out _ _ _ H). intros Hin. apply Hx, in_or_app. left. exact Hin.
  - rewrite finish_app. cbn [finish fst]. rewrite <- (pi_sh _ _ _ H). reflexivity.
  - intros j. rewrite finish_app. cbn [finish snd]. rewrite <- (pi_sh _ _ _ H).
    unfold updf. destruct (Nat.eqb j t); [reflexivity|apply (pi_slots _ _ _ H)].
Qed.

Lemma ProcInv_process sched : exists comp, ProcInv sched (process post c d atasks s0 sched) comp.
Proof.
  induction sched as [|t sched [comp H]] using rev_ind.
  - exists []. constructor; cbn; auto; try (intros; contradiction). constructor.
  - unfold process. rewrite fold_left_app. exact (ProcInv_step _ _ comp t H).
Qed.

(* when every future has completed, the order in which they did is a permutation of the thread indices, and the thread
   list is what [finish] makes of it *)
Lemma process_finish sched :
  pall_finished n (process post c d atasks s0 sched) = true ->
  exists comp, Permutation comp (seq 0 n) /\
    pthreads n (process post c d atasks s0 sched) = finish_threads post n frames s0 comp /\
    pshared (process post c d atasks s0 sched) = fst (finish post frames s0 comp (fun _ => None)).
Proof.
  intros Hf. destruct (ProcInv_process sched) as [comp H]. exists comp. split; [|split].
  - apply NoDup_Permutation; [exact (pi_nodup _ _ _ H)|apply seq_NoDup|].
    intros x. rewrite in_seq. split.
    + intros Hx. pose proof (pi_lt _ _ _ H x Hx). lia.
    + intros Hx. destruct (in_dec Nat.eq_dec x comp) as [Hin|Hn]; [exact Hin|].
      unfold pall_finished in Hf. rewrite forallb_forall in Hf.
      assert (Hs : In x (seq 0 n)) by (apply in_seq; lia). specialize (Hf x Hs).
      rewrite (pi_out _ _ _ H x Hn) in Hf. discriminate.
  - unfold pthreads, finish_threads. apply map_ext. exact (pi_slots _ _ _ H).
  - exact (pi_sh _ _ _ H).
Qed.

End Process.
