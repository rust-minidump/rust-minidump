(* C13/ProofsUnloaded.v — facts about the definitions of C13/Unloaded.v, in its order: the ordered containers (BTreeSet
   for any strict total order and for u64, BTreeMap<K, BTreeSet<u64>>: commuting inserts, sortedness, what is listed,
   extensionality); the per-frame unloaded-module map in closed form, independent of the order in which the overlapping
   modules are visited; serde's HashMap of the evil-json members as the insert-overwrite map of C13/Cfi.v; the
   proc_limits pipeline with all fields (limits_render); the register scan of calculate_heuristics. *)
From Coq Require Import Lia Sorting.Permutation.
From RM Require Import C13.Model C13.Proofs C13.Cfi C13.ProofsCfi C13.Unloaded.
Open Scope Z_scope.

(* ---- BTreeSet<K> for any strict total order *)
Section OrderedSetFacts.
Context {K : Type} (kltb : K -> K -> bool).
Hypothesis ltb_irrefl : forall a, kltb a a = false.
Hypothesis ltb_trans : forall a b c, kltb a b = true -> kltb b c = true -> kltb a c = true.
Hypothesis ltb_total : forall a b, kltb a b = false -> kltb b a = false -> a = b.

Let tri := tri kltb ltb_irrefl ltb_trans ltb_total.
Ltac known := known_by kltb ltb_irrefl.
Ltac derive := derive_by kltb ltb_trans (ltb_asym kltb ltb_irrefl ltb_trans).

Lemma oset_insert_comm x y (l : list K) : oset_insert kltb x (oset_insert kltb y l) = oset_insert kltb y (oset_insert kltb x l).
Proof.
  induction l as [|z t IH]; cbn [oset_insert].
  - destruct (tri x y) as [A B | -> | A B]; known; cbn [oset_insert]; known; reflexivity.
  - (* of the nine positions of x and y relative to z, seven are decided by the comparisons at hand and their transitive
       consequences; left are: both before z, both after z *)
    destruct (tri x z) as [A1 B1 | -> | A1 B1]; destruct (tri y z) as [A2 B2 | -> | A2 B2]; known; cbn [oset_insert]; known;
      try reflexivity; try (derive; known; reflexivity).
    + destruct (tri x y) as [A B | -> | A B]; known; cbn [oset_insert]; known; reflexivity.
    + rewrite IH. reflexivity.
Qed.

Lemma oset_of_list_perm (l1 l2 : list K) : Permutation l1 l2 -> oset_of_list kltb l1 = oset_of_list kltb l2.
Proof. intros H. unfold oset_of_list. apply fold_left_perm; [intros s x y; apply oset_insert_comm|exact H]. Qed.

Fixpoint osorted (l : list K) : Prop :=
  match l with [] => True | x :: t => (forall y, In y t -> kltb x y = true) /\ osorted t end.

Lemma oset_insert_in x y (l : list K) : In y (oset_insert kltb x l) <-> In y (x :: l).
Proof.
  induction l as [|z t IH]; cbn [oset_insert]; [reflexivity|].
  destruct (tri x z) as [A B | -> | A B]; known; [reflexivity|cbn [In]; tauto|].
  cbn [In] in *. rewrite IH. tauto.
Qed.

Lemma oset_insert_sorted x (l : list K) : osorted l -> osorted (oset_insert kltb x l).
Proof.
  induction l as [|z t IH]; cbn [oset_insert osorted]; intros H.
  - split; [intros ? []|exact I].
  - destruct H as [Hz Ht]. destruct (tri x z) as [A B | -> | A B]; known; cbn [osorted].
    + split; [|split; assumption]. intros y [<-|Hy]; [exact A|]. eapply ltb_trans; [exact A|apply Hz; exact Hy].
    + split; assumption.
    + split; [|apply IH; exact Ht]. intros y Hy. apply oset_insert_in in Hy. destruct Hy as [<-|Hy]; [exact B|apply Hz; exact Hy].
Qed.

Lemma oset_of_list_spec (l : list K) : osorted (oset_of_list kltb l) /\ forall x, In x (oset_of_list kltb l) <-> In x l.
Proof.
  unfold oset_of_list. split; [apply fold_left_inv; [intros s x; apply oset_insert_sorted|exact I]|].
  assert (G : forall s x, In x (fold_left (fun s x => oset_insert kltb x s) l s) <-> In x l \/ In x s).
  { induction l as [|a t IH]; intros s x; cbn [fold_left In]; [tauto|]. rewrite IH, oset_insert_in. cbn [In]. tauto. }
  intros x. rewrite G. cbn [In]. tauto.
Qed.
Lemma osorted_nodup (l : list K) : osorted l -> NoDup l.
Proof.
  induction l as [|x t IH]; cbn [osorted]; intros H; constructor; [|apply IH, H].
  intros Hx. pose proof (proj1 H x Hx) as X. rewrite ltb_irrefl in X. discriminate.
Qed.
End OrderedSetFacts.

(* ---- BTreeSet<u64>: [set_insert] is [oset_insert] at the order of Z *)
Lemma Z_ltb_trans a b c : (a <? b) = true -> (b <? c) = true -> (a <? c) = true.
Proof. rewrite !Z.ltb_lt. apply Z.lt_trans. Qed.
Lemma Z_ltb_total a b : (a <? b) = false -> (b <? a) = false -> a = b.
Proof. rewrite !Z.ltb_ge. intros H1 H2. apply Z.le_antisymm; assumption. Qed.

Lemma set_insert_oset x l : set_insert x l = oset_insert Z.ltb x l.
Proof. induction l as [|y t IH]; cbn [set_insert oset_insert]; [reflexivity|]. rewrite IH. reflexivity. Qed.

Fixpoint zsorted (l : list Z) : Prop :=
  match l with [] => True | x :: t => (forall y, In y t -> x < y) /\ zsorted t end.
Lemma zsorted_osorted l : zsorted l <-> osorted Z.ltb l.
Proof. induction l as [|x t IH]; cbn [zsorted osorted]; [reflexivity|]. rewrite IH. setoid_rewrite Z.ltb_lt. reflexivity. Qed.

Lemma set_insert_comm x y l : set_insert x (set_insert y l) = set_insert y (set_insert x l).
Proof. rewrite !set_insert_oset. apply (oset_insert_comm Z.ltb Z.ltb_irrefl Z_ltb_trans Z_ltb_total). Qed.

Lemma set_insert_in x y l : In y (set_insert x l) <-> In y (x :: l).
Proof. rewrite set_insert_oset. apply (oset_insert_in Z.ltb Z.ltb_irrefl Z_ltb_trans Z_ltb_total). Qed.

Lemma set_insert_sorted x l : zsorted l -> zsorted (set_insert x l).
Proof. rewrite !zsorted_osorted, set_insert_oset. apply (oset_insert_sorted Z.ltb Z.ltb_irrefl Z_ltb_trans Z_ltb_total). Qed.

Lemma zsorted_ext (l1 : list Z) : forall l2, zsorted l1 -> zsorted l2 -> (forall x, In x l1 <-> In x l2) -> l1 = l2.
Proof.
  induction l1 as [|a t IH]; intros [|b u] H1 H2 E.
  - reflexivity.
  - destruct (proj2 (E b) (in_eq _ _)).
  - destruct (proj1 (E a) (in_eq _ _)).
  - destruct H1 as [Ha Ht]. destruct H2 as [Hb Hu].
    assert (a = b).
    { destruct (proj1 (E a) (in_eq _ _)) as [->|A]; [reflexivity|].
      destruct (proj2 (E b) (in_eq _ _)) as [->|B]; [reflexivity|].
      specialize (Hb _ A). specialize (Ha _ B). lia. }
    subst b. f_equal. apply IH; [exact Ht|exact Hu|]. intros x. split; intros Hx.
    + destruct (proj1 (E x) (or_intror Hx)) as [<-|X]; [specialize (Ha _ Hx); lia|exact X].
    + destruct (proj2 (E x) (or_intror Hx)) as [<-|X]; [specialize (Hb _ Hx); lia|exact X].
Qed.

(* ---- BTreeMap<K, BTreeSet<u64>> *)
Section OrderedMapFacts.
Context {K : Type} (kltb : K -> K -> bool).
Hypothesis ltb_irrefl : forall a, kltb a a = false.
Hypothesis ltb_trans : forall a b c, kltb a b = true -> kltb b c = true -> kltb a c = true.
Hypothesis ltb_total : forall a b, kltb a b = false -> kltb b a = false -> a = b.

Let asym := ltb_asym kltb ltb_irrefl ltb_trans.
Let tri := tri kltb ltb_irrefl ltb_trans ltb_total.
Ltac known := known_by kltb ltb_irrefl.
Ltac derive := derive_by kltb ltb_trans asym.

Lemma upsert_comm k1 x1 k2 x2 (m : list (K * list Z)) :
  map_upsert kltb k1 x1 (map_upsert kltb k2 x2 m) = map_upsert kltb k2 x2 (map_upsert kltb k1 x1 m).
Proof.
  induction m as [|[k s] t IH]; cbn [map_upsert].
  - destruct (tri k1 k2) as [A B | -> | A B]; cbn [map_upsert]; known; [reflexivity| |reflexivity].
    do 2 f_equal. exact (set_insert_comm x1 x2 []).
  - (* as in oset_insert_comm; with both names equal to k the two offsets meet in one set *)
    destruct (tri k1 k) as [A1 B1 | -> | A1 B1]; destruct (tri k2 k) as [A2 B2 | -> | A2 B2]; known; cbn [map_upsert]; known;
      try reflexivity; try (derive; known; reflexivity).
    + destruct (tri k1 k2) as [A B | -> | A B]; known; cbn [map_upsert]; known; [reflexivity| |reflexivity].
      do 2 f_equal. exact (set_insert_comm x1 x2 []).
    + rewrite set_insert_comm. reflexivity.
    + rewrite IH. reflexivity.
Qed.

Lemma fold_upsert_swap (e : K * Z) (l : list (K * Z)) : forall m,
  fold_left (fun m e => map_upsert kltb (fst e) (snd e) m) l (map_upsert kltb (fst e) (snd e) m)
  = map_upsert kltb (fst e) (snd e) (fold_left (fun m e => map_upsert kltb (fst e) (snd e) m) l m).
Proof.
  induction l as [|a t IH]; intros m; cbn [fold_left]; [reflexivity|].
  rewrite upsert_comm. apply IH.
Qed.

Lemma map_of_pairs_perm (l1 l2 : list (K * Z)) : Permutation l1 l2 -> map_of_pairs kltb l1 = map_of_pairs kltb l2.
Proof. intros H. unfold map_of_pairs. apply fold_left_perm; [intros m a b; apply upsert_comm|exact H]. Qed.

(* ---- the invariant that makes "iterate the BTreeMap" = "read the list": names strictly ascending, every offsets list
   strictly ascending; and what the map contains *)
Fixpoint ksorted (m : list (K * list Z)) : Prop :=
  match m with [] => True | (k, s) :: t => (forall e, In e t -> kltb k (fst e) = true) /\ zsorted s /\ ksorted t end.

Lemma upsert_lb k0 k x (m : list (K * list Z)) : kltb k0 k = true ->
  (forall e, In e m -> kltb k0 (fst e) = true) -> forall e, In e (map_upsert kltb k x m) -> kltb k0 (fst e) = true.
Proof.
  intros A. induction m as [|[k' s] t IH]; cbn [map_upsert]; intros H e.
  - intros [<-|[]]. exact A.
  - destruct (kltb k k'); [|destruct (kltb k' k)]; intros [<-|He].
    + exact A.
    + apply H, He.
    + exact (H (k', s) (in_eq _ _)).
    + apply IH; [intros e' He'; apply H, in_cons, He'|exact He].
    + exact (H (k', s) (in_eq _ _)).
    + apply H, in_cons, He.
Qed.

Lemma upsert_sorted k x (m : list (K * list Z)) : ksorted m -> ksorted (map_upsert kltb k x m).
Proof.
  assert (Z1 : zsorted [x]) by (split; [intros ? []|exact I]).
  induction m as [|[k' s] t IH]; cbn [map_upsert ksorted].
  - intros _. split; [intros ? []|split; [exact Z1|exact I]].
  - intros [Hk [Hs Ht]]. destruct (tri k k') as [A B | -> | A B]; known; cbn [ksorted].
    + split; [|split; [exact Z1|split; [exact Hk|split; assumption]]].
      intros e [<-|He]; [exact A|exact (ltb_trans _ _ _ A (Hk e He))].
    + split; [exact Hk|split; [apply set_insert_sorted; exact Hs|exact Ht]].
    + split; [apply upsert_lb; assumption|split; [exact Hs|apply IH; exact Ht]].
Qed.

Lemma map_of_pairs_sorted (l : list (K * Z)) : ksorted (map_of_pairs kltb l).
Proof. unfold map_of_pairs. apply fold_left_inv; [intros m e; apply upsert_sorted|exact I]. Qed.

(* membership: offset x is listed under name k  iff  the pair (k, x) was inserted *)
Definition listed (m : list (K * list Z)) (k : K) (x : Z) : Prop := exists s, In (k, s) m /\ In x s.

Lemma listed_cons k' s (t : list (K * list Z)) k x : listed ((k', s) :: t) k x <-> (k' = k /\ In x s) \/ listed t k x.
Proof.
  unfold listed. cbn [In]. split.
  - intros [s0 [[E|H] Hx]]; [inversion E; subst; left; split; [reflexivity|exact Hx]|right; exists s0; split; assumption].
  - intros [[<- Hx]|[s0 [H Hx]]]; [exists s; split; [left; reflexivity|exact Hx]|exists s0; split; [right; exact H|exact Hx]].
Qed.

Lemma listed_nil k x : listed [] k x <-> False.
Proof. split; [intros [s [[] _]]|intros []]. Qed.

Lemma upsert_listed k x (m : list (K * list Z)) k0 x0 :
  listed (map_upsert kltb k x m) k0 x0 <-> (k, x) = (k0, x0) \/ listed m k0 x0.
Proof.
  rewrite pair_equal_spec. induction m as [|[k' s] t IH]; cbn [map_upsert].
  - rewrite listed_cons. cbn [In]. tauto.
  - destruct (tri k k') as [A B | -> | A B]; known.
    + rewrite listed_cons. cbn [In]. clear. tauto.
    + rewrite !listed_cons, set_insert_in. cbn [In]. clear. tauto.
    + rewrite !listed_cons, IH. clear. tauto.
Qed.

Lemma map_of_pairs_listed (l : list (K * Z)) k x : listed (map_of_pairs kltb l) k x <-> In (k, x) l.
Proof.
  unfold map_of_pairs.
  assert (G : forall m, listed (fold_left (fun m e => map_upsert kltb (fst e) (snd e) m) l m) k x <-> In (k, x) l \/ listed m k x).
  { induction l as [|[k1 x1] t IH]; intros m; cbn [fold_left In fst snd]; [tauto|]. rewrite IH, upsert_listed. tauto. }
  rewrite G, listed_nil. tauto.
Qed.

(* no empty entry: or_insert_with(new) is always followed by insert *)
Lemma upsert_nonempty k x (m : list (K * list Z)) : (forall e, In e m -> snd e <> []) -> forall e, In e (map_upsert kltb k x m) -> snd e <> [].
Proof.
  induction m as [|[k' s] t IH]; cbn [map_upsert]; intros Hm e.
  - intros [<-|[]]. discriminate.
  - destruct (kltb k k'); [|destruct (kltb k' k)]; intros [<-|H].
    + discriminate.
    + apply Hm, H.
    + exact (Hm (k', s) (in_eq _ _)).
    + apply IH; [intros e' He'; apply Hm, in_cons, He'|exact H].
    + cbn [snd]. intros E. pose proof (proj2 (set_insert_in x x s) (in_eq _ _)) as X. rewrite E in X. exact X.
    + apply Hm, in_cons, H.
Qed.

Lemma map_of_pairs_nonempty (l : list (K * Z)) : forall e, In e (map_of_pairs kltb l) -> snd e <> [].
Proof. unfold map_of_pairs. apply fold_left_inv; [intros m e; apply upsert_nonempty|intros ? []]. Qed.

Lemma listed_lb k0 (t : list (K * list Z)) k x :
  (forall e, In e t -> kltb k0 (fst e) = true) -> listed t k x -> kltb k0 k = true /\ k0 <> k.
Proof.
  intros H [s [Hin _]]. pose proof (H _ Hin) as X. split; [exact X|]. intros <-. rewrite ltb_irrefl in X. discriminate.
Qed.

(* two sorted maps with one head name, the first listing no more than the second: so do the head sets and the tails *)
Lemma ksorted_head_incl k s t s' (t' : list (K * list Z)) :
  (forall e, In e t -> kltb k (fst e) = true) -> (forall e, In e t' -> kltb k (fst e) = true) ->
  (forall k0 x, listed ((k, s) :: t) k0 x -> listed ((k, s') :: t') k0 x) ->
  (forall x, In x s -> In x s') /\ (forall k0 x, listed t k0 x -> listed t' k0 x).
Proof.
  intros H H' E. split.
  - intros x Hx. assert (A : listed ((k, s') :: t') k x) by (apply E, listed_cons; left; split; [reflexivity|exact Hx]).
    apply listed_cons in A. destruct A as [[_ A]|A]; [exact A|destruct (proj2 (listed_lb _ _ _ _ H' A)); reflexivity].
  - intros k0 x Hl. assert (A : listed ((k, s') :: t') k0 x) by (apply E, listed_cons; right; exact Hl).
    apply listed_cons in A. destruct A as [[<- _]|A]; [destruct (proj2 (listed_lb _ _ _ _ H Hl)); reflexivity|exact A].
Qed.

(* a map in this form is determined by what it lists: two strictly sorted maps without empty entries that list the same
   (name, offset) pairs are the same list *)
Lemma ksorted_ext (m1 : list (K * list Z)) : forall m2, ksorted m1 -> ksorted m2 ->
  (forall e, In e m1 -> snd e <> []) -> (forall e, In e m2 -> snd e <> []) ->
  (forall k x, listed m1 k x <-> listed m2 k x) -> m1 = m2.
Proof.
  induction m1 as [|[k1 s1] t1 IH]; intros [|[k2 s2] t2] S1 S2 N1 N2 E.
  - reflexivity.
  - destruct s2 as [|x s2]; [destruct (N2 _ (in_eq _ _)); reflexivity|].
    destruct (proj1 (listed_nil k2 x)). apply E, listed_cons. left. split; [reflexivity|apply in_eq].
  - destruct s1 as [|x s1]; [destruct (N1 _ (in_eq _ _)); reflexivity|].
    destruct (proj1 (listed_nil k1 x)). apply E, listed_cons. left. split; [reflexivity|apply in_eq].
  - destruct S1 as [H1 [Z1 T1]]. destruct S2 as [H2 [Z2 T2]].
    assert (k1 = k2).
    { pose proof (N1 _ (in_eq _ _)) as X1. pose proof (N2 _ (in_eq _ _)) as X2. cbn [snd] in X1, X2.
      destruct s1 as [|x1 s1]; [congruence|]. destruct s2 as [|x2 s2]; [congruence|].
      assert (A : listed ((k2, x2 :: s2) :: t2) k1 x1) by (apply E, listed_cons; left; split; [reflexivity|apply in_eq]).
      assert (B : listed ((k1, x1 :: s1) :: t1) k2 x2) by (apply E, listed_cons; left; split; [reflexivity|apply in_eq]).
      apply listed_cons in A, B. destruct A as [[A _]|A]; [symmetry; exact A|]. destruct B as [[B _]|B]; [exact B|].
      apply (listed_lb _ _ _ _ H2) in A. apply (listed_lb _ _ _ _ H1) in B. rewrite (asym _ _ (proj1 A)) in B. destruct B. discriminate. }
    subst k2.
    destruct (ksorted_head_incl _ _ _ _ _ H1 H2 (fun k x => proj1 (E k x))) as [I1 J1].
    destruct (ksorted_head_incl _ _ _ _ _ H2 H1 (fun k x => proj2 (E k x))) as [I2 J2].
    f_equal; [f_equal; apply zsorted_ext; [exact Z1|exact Z2|intros x; split; [apply I1|apply I2]]|].
    apply IH; [exact T1|exact T2|intros e He; apply N1, in_cons, He|intros e He; apply N2, in_cons, He|].
    intros k x. split; [apply J1|apply J2].
Qed.
End OrderedMapFacts.

(* ---- the loop of the walk future *)
(* base_of_image is a u64 *)
Definition umods_wf (l : list umod) : Prop := forall u, In u l -> 0 <= u_base u.

Lemma u_contains_bounds addr u : 0 <= u_base u -> u_contains addr u = true ->
  u_base u <= addr /\ addr - u_base u < 2 ^ 64.
Proof.
  intros Hb. unfold u_contains, u_range. destruct (u_size u =? 0); [discriminate|]. unfold checked_add.
  destruct (u_base u + u_size u <? 2 ^ 64) eqn:E; [|discriminate].
  rewrite andb_true_iff, !Z.leb_le. apply Z.ltb_lt in E. lia.
Qed.

Lemma offsets_loop_closed p addr hits : (forall u, In u hits -> 0 <= u_base u /\ u_contains addr u = true) -> forall m,
  offsets_loop p addr hits m
  = Ret (fold_left (fun m e => map_upsert bytes_ltb (fst e) (snd e) m) (map (fun u => (u_name u, addr - u_base u)) hits) m).
Proof.
  intros Hh. induction hits as [|u t IH]; intros m; cbn [offsets_loop map fold_left]; [reflexivity|].
  destruct (Hh u (or_introl eq_refl)) as [Hb Hc].
  destruct (u_contains_bounds addr u Hb Hc) as [H1 H2].
  unfold chk_sub, chk.
  assert (E : (0 <=? addr - u_base u) && (addr - u_base u <? 2 ^ 64) = true).
  { rewrite andb_true_iff, Z.leb_le, Z.ltb_lt. lia. }
  rewrite E. cbn [obind fst snd]. apply IH. intros u' Hu'. apply Hh. right. exact Hu'.
Qed.

Lemma unloaded_list_read_wf raw : umods_wf raw -> umods_wf (unloaded_list_read raw).
Proof. unfold unloaded_list_read. destruct (existsb u_bad raw); [intros _ u []|intros H; exact H]. Qed.

(* after the reader every module has a range: the None branches of memory_range are dead *)
Lemma unloaded_list_read_ranges raw u : umods_wf raw -> In u (unloaded_list_read raw) ->
  u_range u = Some (u_base u, u_base u + u_size u - 1).
Proof.
  unfold unloaded_list_read. destruct (existsb u_bad raw) eqn:E; [intros _ []|]. intros Hw Hu.
  assert (B : u_bad u = false).
  { destruct (u_bad u) eqn:B; [|reflexivity]. assert (X : existsb u_bad raw = true) by (apply existsb_exists; exists u; split; assumption). congruence. }
  unfold u_bad in B. apply orb_false_iff in B. destruct B as [B1 B2]. unfold u_range, checked_add. rewrite B1.
  apply Z.ltb_ge in B2. unfold U64MAX in B2.
  destruct (u_base u + u_size u <? 2 ^ 64) eqn:E2; [reflexivity|]. apply Z.ltb_ge in E2. change (2 ^ 64) with 18446744073709551616 in E2. lia.
Qed.

Definition hit_pairs (addr : Z) (l : list umod) : list (bytes * Z) := map (fun u => (u_name u, addr - u_base u)) (u_hits addr l).

Lemma frame_offsets_closed p perm addr l : (forall h, Permutation (perm h) h) -> umods_wf l ->
  frame_offsets p perm addr l = Ret (map_of_pairs bytes_ltb (hit_pairs addr l)).
Proof.
  intros Hp Hw. unfold frame_offsets. rewrite offsets_loop_closed.
  - f_equal. apply (map_of_pairs_perm bytes_ltb bytes_ltb_irrefl bytes_ltb_trans bytes_ltb_total), Permutation_map, Hp.
  - intros u Hu. apply (Permutation_in _ (Hp _)), filter_In in Hu.
    split; [apply Hw; exact (proj1 Hu)|exact (proj2 Hu)].
Qed.

Lemma hit_pairs_in addr l n x : In (n, x) (hit_pairs addr l) <-> exists u, In u l /\ u_contains addr u = true /\ u_name u = n /\ x = addr - u_base u.
Proof.
  unfold hit_pairs, u_hits. rewrite in_map_iff. split.
  - intros [u [E Hu]]. apply filter_In in Hu. inversion E; subst. exists u. intuition.
  - intros [u [Hu [Hc [<- ->]]]]. exists u. split; [reflexivity|apply filter_In; split; assumption].
Qed.

(* ---- evil-json certificates from the JSON members: serde's HashMap is the insert-overwrite map of C13/Cfi.v *)
Section CertPipelineFacts.
Context {C M : Type} (ceqb : C -> C -> bool).
Hypothesis ceqb_spec : forall a b, ceqb a b = true <-> a = b.

Lemma hm_insert_map_insert c ms (m : list (C * list M)) : hm_insert ceqb c ms m = map_insert ceqb c ms m.
Proof.
  induction m as [|[c' ms'] t IH]; cbn [hm_insert map_insert]; [reflexivity|].
  destruct (ceqb c c') eqn:E; [apply ceqb_spec in E; subst c'; reflexivity|rewrite IH; reflexivity].
Qed.

Lemma hm_of_members_cfi_map (members : list (C * list M)) : hm_of_members ceqb members = cfi_map ceqb members.
Proof.
  unfold hm_of_members, cfi_map. generalize (@nil (C * list M)).
  induction members as [|e t IH]; intros m; cbn [fold_left]; [reflexivity|]. rewrite hm_insert_map_insert. apply IH.
Qed.

Lemma hm_get_lookup c (m : list (C * list M)) : hm_get ceqb c m = lookup ceqb c m.
Proof. induction m as [|[c' ms] t IH]; cbn [hm_get lookup]; [reflexivity|]. rewrite IH. reflexivity. Qed.

Lemma last_member_lookup c (members : list (C * list M)) : last_member ceqb c members = lookup ceqb c (rev members).
Proof.
  unfold last_member. induction members as [|[c' ms] t IH] using rev_ind; [reflexivity|].
  rewrite fold_left_app, rev_app_distr. cbn [fold_left rev app lookup fst snd]. rewrite IH. reflexivity.
Qed.

Lemma hm_of_members_nodup (members : list (C * list M)) : NoDup (map fst (hm_of_members ceqb members)).
Proof. rewrite hm_of_members_cfi_map. apply cfi_map_nodup. exact ceqb_spec. Qed.

Lemma hm_get_of_members (members : list (C * list M)) c :
  hm_get ceqb c (hm_of_members ceqb members) = last_member ceqb c members.
Proof. rewrite hm_get_lookup, hm_of_members_cfi_map, last_member_lookup. apply cfi_map_last_wins. exact ceqb_spec. Qed.

Lemma hm_of_members_in (members : list (C * list M)) c ms :
  In (c, ms) (hm_of_members ceqb members) <-> last_member ceqb c members = Some ms.
Proof.
  rewrite (lookup_in ceqb ceqb_spec _ _ _ (hm_of_members_nodup members)), <- hm_get_lookup, hm_get_of_members. reflexivity.
Qed.
End CertPipelineFacts.

(* ---- the proc_limits pipeline from the stream bytes: on the names, the HashMap that collect() builds (C03's to_map) is the
   ordered set of the names, so they are distinct and the hypothesis of render_order_independent holds for the real pipeline *)
Definition ename (e : entry) : bytes := fst (fst (fst e)).

Lemma insert_sorted_names e l : map ename (insert_sorted e l) = oset_insert bytes_ltb (ename e) (map ename l).
Proof.
  induction l as [|y t IH]; cbn [insert_sorted map oset_insert]; [reflexivity|]. fold (ename e) (ename y).
  destruct (bytes_eqb (ename e) (ename y)) eqn:Q.
  - apply bytes_eqb_spec in Q. cbn [map]. fold (ename e). rewrite Q, bytes_ltb_irrefl. reflexivity.
  - destruct (bytes_ltb (ename e) (ename y)) eqn:L; [reflexivity|]. cbn [map]. rewrite IH.
    destruct (bytes_ltb (ename y) (ename e)) eqn:L2; [reflexivity|].
    rewrite (bytes_ltb_total _ _ L L2), bytes_eqb_refl in Q. discriminate.
Qed.

Lemma to_map_names_distinct l : NoDup (map ename (to_map l)).
Proof.
  assert (E : forall acc, map ename (fold_left (fun acc e => insert_sorted e acc) l acc)
                          = fold_left (fun s x => oset_insert bytes_ltb x s) (map ename l) (map ename acc)).
  { induction l as [|e t IH]; intros acc; cbn [fold_left map]; [reflexivity|]. rewrite IH, insert_sorted_names. reflexivity. }
  unfold to_map. rewrite E. apply (osorted_nodup bytes_ltb bytes_ltb_irrefl).
  apply (oset_of_list_spec bytes_ltb bytes_ltb_irrefl bytes_ltb_trans bytes_ltb_total).
Qed.

Lemma limits_render_order_independent {R} (fmt : bytes * (limit * limit * bytes) -> R) (p1 p2 : list entry -> list entry) data :
  (forall m, Permutation (p1 m) m) -> (forall m, Permutation (p2 m) m) ->
  limits_render fmt p1 data = limits_render fmt p2 data.
Proof.
  intros H1 H2. unfold limits_render. destruct (limits_from data) as [l| | |]; cbn [obind]; try reflexivity.
  f_equal. eapply (render_order_independent bytes_ltb bytes_ltb_irrefl bytes_ltb_trans bytes_ltb_total);
    [|apply Permutation_map, H1|apply Permutation_map, H2].
  rewrite map_map. erewrite map_ext; [apply to_map_names_distinct|]. intros [[[n s] h] u]. reflexivity.
Qed.

(* ---- the register scan of calculate_heuristics is a count and an any *)
Lemma register_scan_closed near pois iter : register_scan near pois iter = (length (filter near iter), existsb pois iter).
Proof.
  unfold register_scan.
  assert (G : forall n p, fold_left (fun (acc : nat * bool) a => ((if near a then S (fst acc) else fst acc), (if negb (snd acc) && pois a then true else snd acc))) iter (n, p)
                          = ((n + length (filter near iter))%nat, p || existsb pois iter)).
  { induction iter as [|a t IH]; intros n p; cbn [fold_left filter existsb length fst snd].
    - rewrite Nat.add_0_r, orb_false_r. reflexivity.
    - rewrite IH. destruct (near a), p, (pois a); cbn [length negb andb orb]; f_equal; lia. }
  rewrite G. reflexivity.
Qed.

Lemma register_scan_perm near pois i1 i2 : Permutation i1 i2 -> register_scan near pois i1 = register_scan near pois i2.
Proof.
  intros H. unfold register_scan. apply fold_left_perm; [|exact H].
  intros [n p] a b. cbn [fst snd]. destruct (near a), (near b), p, (pois a), (pois b); reflexivity.
Qed.
