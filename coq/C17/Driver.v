(* C17/Driver.v — entry point of the correspondence run (extracted to OCaml).
   Input: code_file, optional debug_file, optional raw breakpad id text (canonical:
   33..40 or 9..16 hex digits, appendix without leading zeros), optional raw code id
   text (any bytes: CodeId::new keeps the hex digits and lower-cases them).
   Output: eight (tag, path) pairs — tag 0 None, 1 Some path, 2 panic — for
   breakpad_sym.cache_rel, .server_rel, code_info, extra_debuginfo.cache_rel, .server_rel,
   binary.cache_rel, .server_rel, moz_lookup(binary).server_rel. *)
(* Round 5: the functions run here are the GENERATED ones (Gen/C17Lookup.v, compiled from the Rust source of the
   checkout by translate/c17_lookup.py): g_breakpad_sym_lookup, g_code_info_breakpad_sym_lookup,
   g_extra_debuginfo_lookup, g_binary_lookup, g_moz_lookup, g_join_rel_enc.  C17/Tie.v proves them equal to
   C17/Model.v; this file does not depend on that proof, so a checkout whose source compiles to a DIFFERENT model is
   still compared with its own code. *)
From RM Require Import C17.Model C17.Prims C17.IdModel C17.PathModel Gen.C17Lookup.
Open Scope Z_scope.

Definition mk_module (code_file : str) (debug_file dbg_id code_id : option str) : module_view :=
  {| m_code_file := code_file; m_code_identifier := code_id; m_debug_file := debug_file; m_debug_identifier := dbg_id |}.

(* DebugId::from_breakpad(text).breakpad().to_string(): parse to the VALUE (C17/IdModel.v: 8 or 32 hex digits +
   appendix as a u32) and render it ("{:08X}{:x}" / "{:X}{:x}"); text that does not parse is never generated (the
   harness `expect`s the parse) and falls back to case conversion. *)
Definition render_breakpad (raw : str) : str :=
  match parse_breakpad raw with
  | Some d => breakpad_text d
  | None =>
      let k := if Z.of_nat (length raw) <=? 16 then 8%nat else 32%nat in
      map upper (firstn k raw) ++ map lower (skipn k raw)
  end.
(* CodeId::new: retain(is_ascii_hexdigit); make_ascii_lowercase *)
Definition code_id_new (raw : str) : str := code_id_text raw.

Definition lookup_eqb (a b : option file_lookup) : bool :=
  match a, b with
  | None, None => true
  | Some x, Some y => str_eqb (cache_rel x) (cache_rel y) && str_eqb (server_rel x) (server_rel y)
  | _, _ => false
  end.
Definition tag_opt (o : option str) : Z * str :=
  match o with Some p => (1, p) | None => (0, []) end.

(* std::path on ROOT.join(rel) and its parent(), as component lists after ROOT's components (C17/PathModel.v);
   None: ROOT's components are not in front, or there is no parent.  ROOT = "/verif-root/symbols" (harness) *)
Definition obs_root : str := [47;118;101;114;105;102;45;114;111;111;116;47;115;121;109;98;111;108;115].
Definition after_root (l : list str) : option (list str) :=
  let r := posix_comps obs_root in
  if comps_prefix r l then Some (skipn (length r) l) else None.
Definition path_obs (rel : str) : option (list str) * option (list str) :=
  let j := posix_comps (posix_join obs_root rel) in
  (after_root j, match path_parent j with Some p => after_root p | None => None end).
Definition run_case_obs (fields : list (Z * str)) : list (option (option (list str) * option (list str))) :=
  map (fun f => if fst f =? 1 then Some (path_obs (snd f)) else None) (firstn 8 fields).

Definition run_case (code_file : str) (debug_file did_raw cid_raw : option str) : list (Z * str) :=
  let dbg_id := option_map render_breakpad did_raw in
  let code_id := option_map code_id_new cid_raw in
  let m := mk_module code_file debug_file dbg_id code_id in
  let bs := g_breakpad_sym_lookup m in
  let ed := g_extra_debuginfo_lookup m in
  let bn := g_binary_lookup m in
  [ tag_opt (option_map cache_rel bs); tag_opt (option_map server_rel bs);
    tag_opt (g_code_info_breakpad_sym_lookup m);
    tag_opt (option_map cache_rel ed); tag_opt (option_map server_rel ed);
    tag_opt (option_map cache_rel bn); tag_opt (option_map server_rel bn);
    match bn with
    | None => (0, [])
    | Some l => match g_moz_lookup l with Ret l' => (1, server_rel l') | _ => (2, []) end
    end;
    (* lookup(module, kind) agrees with the direct builders (1) or not (0) *)
    (if lookup_eqb (g_lookup m KBreakpadSym) bs && lookup_eqb (g_lookup m KExtraDebugInfo) ed
        && lookup_eqb (g_lookup m KBinary) bn then 1 else 0, []) ].

(* ---- url probe predictions (C17/UrlModel.v) -------------------------------------------
   [url_case]: the request paths HttpSymbolSupplier makes, in order, for
     locate_symbols, locate_file(Binary), locate_file(ExtraDebugInfo)
   against a server whose base path is [base_path] ([cab] = feature mozilla_cab_symbols).
   Each prediction is (tag, path): tag 1 = a request with this path, 2 = the URL leaves the server. *)
From RM Require Import C17.UrlModel.

Definition predict (base_path rel : str) : Z * str :=
  match url_join_path base_path (g_join_rel_enc rel) with Some r => (1, r) | None => (2, []) end.

Definition file_requests (cab : bool) (base_path : str) (o : option file_lookup) : list (Z * str) :=
  match o with
  | None => []
  | Some l =>
      predict base_path (server_rel l) ::
      (if cab then match g_moz_lookup l with Ret l' => [predict base_path (server_rel l')] | _ => [(3, [])] end
       else [])
  end.

Definition url_case (cab : bool) (base_path code_file : str) (debug_file did_raw cid_raw : option str)
  : list (list (Z * str)) :=
  let dbg_id := option_map render_breakpad did_raw in
  let code_id := option_map code_id_new cid_raw in
  let m := mk_module code_file debug_file dbg_id code_id in
  let sym :=
    match debug_file, dbg_id with
    | Some _, Some _ =>
        match g_lookup m KBreakpadSym with
        | Some l => [predict base_path (server_rel l)] | None => [] end
    | _, _ =>
        match g_code_info_breakpad_sym_lookup m with
        | Some p => [predict base_path p] | None => [] end
    end in
  [ sym;
    file_requests cab base_path (g_lookup m KBinary);
    file_requests cab base_path (g_lookup m KExtraDebugInfo) ].

(* [base_case]: the server URL is "http://host/" ++ suffix (HttpSymbolSupplier::new appends '/'
   unless it ends with one; Url::parse then runs the same path parser); the request for the plain
   lookup path [rel] *)
From RM Require Import C17.UrlFull.
Definition base_case (suffix rel : str) : Z * str := predict (server_base_path suffix) rel.

(* [redirect_case]: a module WITHOUT debug file / id; the server answers the code-info request with a redirect whose
   Location is [loc]; the requests locate_symbols makes: the code-info path, then — if the Location parses
   (parse_location, a well-formed debug id) and breakpad_sym_lookup accepts the server-supplied name — the symbol file *)
Definition redirect_case (base_path code_file : str) (cid_raw : option str) (loc : str) : list (Z * str) :=
  let code_id := option_map code_id_new cid_raw in
  let m0 := mk_module code_file None None code_id in
  match g_code_info_breakpad_sym_lookup m0 with
  | None => []
  | Some p =>
      predict base_path p ::
      match parse_location loc with
      | Some (dfp, idp) =>
          match parse_breakpad idp with
          | Some d =>
              match g_lookup (mk_module code_file (Some dfp) (Some (breakpad_text d)) code_id) KBreakpadSym with
              | Some l => [predict base_path (server_rel l)]
              | None => []
              end
          | None => []
          end
      | None => []
      end
  end.

(* ---- full reference resolution (C17/UrlFull.v), compared with the real url crate on raw references ----------
   [resolve_case]: (0, path, []) = the base's scheme and authority with this path; (1, scheme, authority text) =
   another authority; (2, scheme, rest) = a file: / non-special URL *)
Definition resolve_case (base_scheme base_path reference : str) : Z * str * str :=
  match url_resolve base_scheme base_path reference with
  | JSame q => (0, q, [])
  | JAuthority s a => (1, s, a)
  | JOpaque s r => (2, s, r)
  end.

(* ---- filesystem probe predictions (Gen/C17Flow.v) ---------------------------------------
   What the consumers return / create for a module, read off the provenance terms the flow translator derived
   from the source: the string joined at the RCacheDir site of fetch_lookup (HttpSymbolSupplier::locate_file
   downloads to cache.join(it) and returns that path) and at the RSymbolDir site of locate_file
   (SimpleSymbolSupplier answers dir.join(it) when the file is there), per FileKind.
   [plain]: every predicted path consists of ordinary components only (non-empty, not `.`/`..`, no NUL, at most
   255 bytes), so that the file system stores it under exactly that name; other cases are not compared. *)
From RM Require Import C17.FlowModel Gen.C17Flow.
Close Scope string_scope.
Open Scope list_scope.
Open Scope Z_scope.

Definition root_tag (r : g_root) : Z := match r with RSymbolDir => 0 | RCacheDir => 1 | RServerUrl => 2 | RUnknown => 3 | RTmpDir => 4 end.
(* g_flow_table = g_consumer_joins without Coq strings (C17/Properties.v c17_src_flow_table) *)
Definition site_arg (fn : str) (tag : Z) : option g_arg :=
  option_map snd (find (fun s => str_eqb (fst (fst s)) fn && Z.eqb (root_tag (snd (fst s))) tag) g_flow_table).
Definition fn_fetch_lookup : str := [102;101;116;99;104;95;108;111;111;107;117;112].
Definition fn_locate_file : str := [108;111;99;97;116;101;95;102;105;108;101].

Definition plain_component (c : str) : bool :=
  negb (str_is_empty c) && negb (str_eqb c [46]) && negb (str_eqb c dotdot) &&
  forallb (fun b => negb (b =? 0)) c && (Z.of_nat (length c) <=? 255).
Definition plain_rel (p : str) : bool := forallb plain_component (split_on 47 p).

Definition kinds3 : list kind := [KBreakpadSym; KBinary; KExtraDebugInfo].
(* (sites found, plain, HttpSymbolSupplier::locate_file per kind, SimpleSymbolSupplier::locate_file per kind) *)
Definition fs_case (code_file : str) (debug_file did_raw cid_raw : option str)
  : bool * bool * list (option str) * list (option str) :=
  let m := mk_module code_file debug_file (option_map render_breakpad did_raw) (option_map code_id_new cid_raw) in
  match site_arg fn_fetch_lookup 1, site_arg fn_locate_file 0 with
  | Some ah, Some asim =>
      let rh := map (fun k => eval_arg ah m k) kinds3 in
      let rs := map (fun k => eval_arg asim m k) kinds3 in
      (true, forallb (fun o => match o with Some p => plain_rel p | None => true end) (rh ++ rs)%list, rh, rs)
  | _, _ => (false, false, [], [])
  end.
