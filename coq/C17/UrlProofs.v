(* C17/UrlProofs.v — a safe relative path, encoded by join_rel and resolved by Url::join,
   stays below the base directory. *)
From Coq Require Import Lia.
From RM Require Import C17.Model C17.Proofs C17.UrlModel.
Open Scope Z_scope.

Definition is_byte (c : Z) : Prop := 0 <= c < 256.
Definition bytes (p : str) : Prop := Forall is_byte p.

Fixpoint upto (n : nat) (z : Z) : list Z :=            (* z, z+1, ..., z+n-1 *)
  match n with O => [] | S m => z :: upto m (z + 1) end.
Lemma in_upto : forall n z c, z <= c < z + Z.of_nat n -> In c (upto n z).
Proof.
  induction n as [|n IH]; intros z c H; [lia|]. cbn [upto].
  destruct (Z.eq_dec z c); [left; assumption | right; apply IH; lia].
Qed.
Definition all_bytes : list Z := upto 256 0.

Definition enc1 (c : Z) : str := if needs_escape c then pct c else [c].
Definition block (c : Z) : str := url_path_encode (enc1 c).

(* the characters the URL parser takes literally wherever they stand: no C0 / space, no ':' '?' '#' '\' *)
Definition plain (d : Z) : Prop := 32 < d /\ d <> 58 /\ d <> 63 /\ d <> 35 /\ d <> 92.
Definition plainb (d : Z) : bool :=
  (32 <? d) && negb (d =? 58) && negb (d =? 63) && negb (d =? 35) && negb (d =? 92).
(* what join_rel emits for one byte: at least one character, only plain ones, and no separator unless the byte is '/' *)
Definition chk_enc (c : Z) : bool :=
  match enc1 c with [] => false | e => forallb plainb e && ((c =? 47) || negb (has_sep e)) end.
(* what ends up in the URL for one byte: the byte itself (never a bare '%'), or an escape
   other than %2E / %2e; a '/' only for '/'.  In [decode_blocks]: a block that is the byte itself counts as a dot only
   if the byte is '.', and cannot open a "%2e" spelling because it is not '%'; an escape never is one *)
Definition chk_block (c : Z) : bool :=
  (str_eqb (block c) [c] && negb (c =? 37)) ||
  match block c with
  | [a; x; y] => (a =? 37) && negb ((x =? 50) && ((y =? 69) || (y =? 101))) && negb (c =? 47)
  | _ => false
  end.

Lemma all_chk : forallb (fun c => chk_enc c && chk_block c) all_bytes = true.
Proof. vm_compute. reflexivity. Qed.

Lemma byte_chk : forall c, is_byte c -> chk_enc c = true /\ chk_block c = true.
Proof.
  intros c H. pose proof all_chk as A. rewrite forallb_forall in A.
  specialize (A c (in_upto 256 0 c H)). apply andb_true_iff in A. exact A.
Qed.

Lemma plainb_plain : forall d, plainb d = true -> plain d.
Proof.
  intros d H. unfold plainb in H.
  repeat (apply andb_true_iff in H; destruct H as [H ?]).
  repeat match goal with X : negb (_ =? _) = true |- _ => apply negb_true_iff, Z.eqb_neq in X end.
  apply Z.ltb_lt in H. repeat split; assumption.
Qed.

Lemma enc1_spec : forall c, is_byte c ->
  enc1 c <> [] /\ Forall plain (enc1 c) /\ (c <> 47 -> nosep (enc1 c)).
Proof.
  intros c B. destruct (byte_chk c B) as [E _]. unfold chk_enc in E.
  destruct (enc1 c) as [|h t]; [discriminate|]. apply andb_true_iff in E. destruct E as [P S].
  split; [discriminate|]. split.
  - apply Forall_forall. intros d Hd. apply plainb_plain. rewrite forallb_forall in P. exact (P d Hd).
  - intro N. apply has_sep_false_nosep.
    apply orb_true_iff in S. destruct S as [S|S]; [apply Z.eqb_eq in S; contradiction | apply negb_true_iff; exact S].
Qed.

Lemma enc_cons : forall c p, join_rel_enc (c :: p) = enc1 c ++ join_rel_enc p.
Proof. reflexivity. Qed.

(* join_rel's output alphabet *)
Lemma enc_plain : forall p, bytes p -> Forall plain (join_rel_enc p).
Proof.
  induction p as [|c p IH]; intro H; [constructor|].
  apply Forall_cons_iff in H. destruct H as [Hc Hp]. rewrite enc_cons. apply Forall_app.
  split; [exact (proj1 (proj2 (enc1_spec c Hc))) | exact (IH Hp)].
Qed.

(* input preparation is the identity *)
Lemma drop_while_head : forall f s, (match s with c :: _ => f c = false | [] => True end) -> drop_while f s = s.
Proof. intros f [|c r] H; [reflexivity|]. cbn [drop_while]. rewrite H. reflexivity. Qed.

Lemma url_input_plain : forall s, Forall plain s -> url_input s = s.
Proof.
  intros s H. unfold url_input, trim.
  assert (D : forall t, Forall plain t -> drop_while c0_or_space t = t).
  { intros t Ht. apply drop_while_head. destruct Ht as [|c r [Hc _] _]; [exact I|]. apply Z.leb_gt. exact Hc. }
  rewrite (D s H), (D (rev s) (Forall_rev H)), rev_involutive.
  clear D. induction H as [|c r [Hc _] _ IH]; [reflexivity|]. cbn [filter].
  replace (tab_or_nl c) with false; [cbn [negb]; f_equal; exact IH|].
  symmetry. unfold tab_or_nl. repeat (apply orb_false_iff; split); apply Z.eqb_neq; lia.
Qed.

(* no scheme, no query, no fragment *)
Lemma scheme_rest_colon : forall s, scheme_rest s = true -> In 58 s.
Proof.
  induction s as [|c r IH]; intro H; [discriminate|]. cbn [scheme_rest] in H.
  destruct (c =? 58) eqn:E; [left; apply Z.eqb_eq in E; exact E|].
  destruct (scheme_char c); [right; exact (IH H) | discriminate].
Qed.

Lemma plain_no_scheme : forall s, Forall plain s -> has_scheme s = false.
Proof.
  intros s H. destruct (has_scheme s) eqn:E; [|reflexivity]. exfalso.
  unfold has_scheme in E. destruct s as [|c r]; [discriminate|].
  apply andb_true_iff in E. destruct E as [_ E]. apply scheme_rest_colon in E.
  rewrite Forall_forall in H. apply H in E. unfold plain in E. lia.
Qed.

Lemma path_part_id : forall s, Forall (fun c => c <> 63 /\ c <> 35) s -> path_part s = s.
Proof.
  induction 1 as [|c r [H1 H2] _ IH]; [reflexivity|]. cbn [path_part].
  replace ((c =? 63) || (c =? 35)) with false; [f_equal; exact IH|].
  symmetry. apply orb_false_iff. split; apply Z.eqb_neq; assumption.
Qed.
Lemma path_part_plain : forall s, Forall plain s -> path_part s = s.
Proof. intros s H. apply path_part_id. eapply Forall_impl; [|exact H]. unfold plain. intros c Hc. lia. Qed.

(* the first character join_rel emits for a byte other than '/' starts neither a path from the root, nor a query,
   nor a fragment *)
Lemma enc1_head : forall c, is_byte c -> c <> 47 ->
  exists h t, enc1 c = h :: t /\ is_sep h = false /\ (h =? 63) = false /\ (h =? 35) = false.
Proof.
  intros c Bc N. destruct (enc1_spec c Bc) as [NE [P S]]. specialize (S N).
  destruct (enc1 c) as [|h t]; [contradiction|]. exists h, t. split; [reflexivity|].
  apply Forall_cons_iff in S. split; [exact (proj1 S)|].
  apply Forall_cons_iff in P. destruct P as [P _]. unfold plain in P. split; apply Z.eqb_neq; lia.
Qed.

(* how the URL parser sees what join_rel emits: only a leading '/' of the lookup path keeps a meaning *)
Lemma classify_enc : forall p, bytes p ->
  classify (join_rel_enc p) =
  match p with
  | [] => KEmpty
  | c :: r => if c =? 47 then match r with c2 :: _ => if c2 =? 47 then KAuthority else KAbsPath | [] => KAbsPath end
              else KRelPath
  end.
Proof.
  intros p B. unfold classify. rewrite (plain_no_scheme _ (enc_plain p B)).
  destruct p as [|c r]; [reflexivity|]. apply Forall_cons_iff in B. destruct B as [Bc Br]. rewrite enc_cons.
  destruct (c =? 47) eqn:C.
  - apply Z.eqb_eq in C. subst c. change (enc1 47) with [47]. cbn [app]. change (is_sep 47) with true. cbv iota.
    change (47 =? 63) with false. change (47 =? 35) with false. cbv iota.
    destruct r as [|c2 r2]; [reflexivity|]. apply Forall_cons_iff in Br. rewrite enc_cons. destruct (c2 =? 47) eqn:C2.
    + apply Z.eqb_eq in C2. subst c2. reflexivity.
    + apply Z.eqb_neq in C2. destruct (enc1_head c2 (proj1 Br) C2) as [h [t [E [Sh _]]]]. rewrite E. cbn [app]. rewrite Sh. reflexivity.
  - apply Z.eqb_neq in C. destruct (enc1_head c Bc C) as [h [t [E [Sh [Q F]]]]]. rewrite E. cbn [app]. rewrite Q, F, Sh. reflexivity.
Qed.

Lemma split_seps_prefix : forall b s, nosep b ->
  split_seps (b ++ s) = match split_seps s with h :: t => (b ++ h) :: t | [] => [b] end.
Proof.
  induction b as [|x b IH]; intros s H.
  - cbn [app]. destruct (split_seps s) eqn:E; [exfalso; exact (split_seps_nonempty s E) | reflexivity].
  - apply Forall_cons_iff in H. destruct H as [Hx Hb]. cbn [app split_seps]. rewrite Hx, (IH s Hb).
    destruct (split_seps s); reflexivity.
Qed.

Lemma split_enc : forall p, bytes p ->
  split_seps (join_rel_enc p) = map join_rel_enc (split_on 47 p).
Proof.
  induction p as [|c r IH]; intro B; [reflexivity|].
  apply Forall_cons_iff in B. destruct B as [Bc Br]. specialize (IH Br).
  rewrite enc_cons. cbn [split_on]. destruct (c =? 47) eqn:E.
  - apply Z.eqb_eq in E. subst c. change (enc1 47) with [47]. cbn [app split_seps is_sep Z.eqb orb map].
    rewrite IH. reflexivity.
  - apply Z.eqb_neq in E. rewrite (split_seps_prefix _ _ (proj2 (proj2 (enc1_spec c Bc)) E)), IH.
    destruct (split_on 47 r) as [|h t] eqn:S; [exfalso; exact (split_on_nonempty _ _ S)|].
    cbn [map]. rewrite enc_cons. reflexivity.
Qed.

(* splitting on either separator refines splitting on '/' *)
Lemma split_refine : forall p, split_seps p = flat_map split_seps (split_on 47 p).
Proof.
  induction p as [|c r IH]; [reflexivity|].
  cbn [split_on]. destruct (c =? 47) eqn:E.
  - apply Z.eqb_eq in E. subst c. cbn [split_seps is_sep Z.eqb orb flat_map app]. rewrite IH. reflexivity.
  - destruct (split_on 47 r) as [|h0 t0] eqn:S0; [exfalso; exact (split_on_nonempty _ _ S0)|].
    cbn [flat_map] in IH |- *. cbn [split_seps]. rewrite IH.
    destruct (is_sep c); [reflexivity|].
    destruct (split_seps h0) as [|h1 t1] eqn:S1; [exfalso; exact (split_seps_nonempty _ S1)|].
    reflexivity.
Qed.

Lemma slash_segment_is_component : forall p s, In s (split_on 47 p) -> nosep s -> In s (split_seps p).
Proof.
  intros p s H N. rewrite split_refine. apply in_flat_map. exists s. split; [exact H|].
  rewrite (split_seps_nosep s N). left. reflexivity.
Qed.

(* WHATWG: a dot segment is made of '.', "%2e", "%2E"; [decode_dots] counts them *)
Fixpoint decode_dots (t : str) : option nat :=
  match t with
  | [] => Some 0%nat
  | c :: r =>
      if c =? 46 then option_map S (decode_dots r)
      else match r with
           | x :: y :: r' =>
               if (c =? 37) && (x =? 50) && ((y =? 69) || (y =? 101))
               then option_map S (decode_dots r') else None
           | _ => None
           end
  end.

Lemma dotdot_decodes : forall e, is_dotdot_seg e = true -> decode_dots e = Some 2%nat.
Proof.
  intros e H. unfold is_dotdot_seg in H. apply existsb_exists in H. destruct H as [t [Ht He]].
  apply str_eqb_spec in He. subst e.
  assert (A : forallb (fun t => match decode_dots t with Some 2%nat => true | _ => false end) dotdot_spellings = true)
    by (vm_compute; reflexivity).
  rewrite forallb_forall in A. specialize (A t Ht).
  destruct (decode_dots t) as [[|[|[|n]]]|]; try discriminate. reflexivity.
Qed.

Lemma block_flat : forall s, url_path_encode (join_rel_enc s) = flat_map block s.
Proof.
  induction s as [|c r IH]; [reflexivity|].
  rewrite enc_cons. unfold url_path_encode in *. rewrite flat_map_app. cbn [flat_map]. rewrite IH. reflexivity.
Qed.

Lemma decode_blocks : forall s n, bytes s -> decode_dots (flat_map block s) = Some n -> s = repeat 46 n.
Proof.
  induction s as [|c r IH]; intros n B H.
  - cbn in H. inversion H. reflexivity.
  - apply Forall_cons_iff in B. destruct B as [Bc Br].
    destruct (byte_chk c Bc) as [_ K]. unfold chk_block in K. cbn [flat_map] in H.
    apply orb_true_iff in K. destruct K as [K|K].
    + apply andb_true_iff in K. destruct K as [K1 K2]. apply str_eqb_spec in K1. rewrite K1 in H.
      cbn [app decode_dots] in H. apply negb_true_iff in K2.
      destruct (c =? 46) eqn:E.
      * apply Z.eqb_eq in E. subst c.
        destruct (decode_dots (flat_map block r)) as [m|] eqn:D; [|discriminate].
        cbn [option_map] in H. inversion H. cbn [repeat]. f_equal. exact (IH m Br eq_refl).
      * rewrite K2 in H. cbn [andb] in H. destruct (flat_map block r) as [|x [|y r']]; discriminate.
    + destruct (block c) as [|a [|x [|y [|z t]]]]; try discriminate.
      apply andb_true_iff in K. destruct K as [K _].
      apply andb_true_iff in K. destruct K as [Ka Kxy]. apply Z.eqb_eq in Ka. subst a.
      cbn [app decode_dots] in H. change (37 =? 46) with false in H. cbn iota in H.
      apply negb_true_iff in Kxy. change (37 =? 37) with true in H. cbn [andb] in H.
      destruct ((x =? 50) && ((y =? 69) || (y =? 101))) eqn:E; [discriminate | discriminate].
Qed.

Lemma segment_not_dotdot : forall s, bytes s -> s <> dotdot ->
  is_dotdot_seg (url_path_encode (join_rel_enc s)) = false.
Proof.
  intros s B N. destruct (is_dotdot_seg _) eqn:E; [|reflexivity]. exfalso.
  apply dotdot_decodes in E. rewrite block_flat in E. apply (decode_blocks s 2 B) in E.
  apply N. exact E.
Qed.

(* parse_path only appends *)
Lemma step_appends : forall p seg slash, is_dotdot_seg (url_path_encode seg) = false ->
  exists t, path_step p seg slash = p ++ t.
Proof.
  intros p seg slash H. unfold path_step. rewrite H.
  destruct (is_dot_seg _).
  - destruct (ends_slash p); [exists []; rewrite app_nil_r; reflexivity | exists [47]; reflexivity].
  - eexists. reflexivity.
Qed.

Lemma steps_append : forall segs p,
  Forall (fun s => is_dotdot_seg (url_path_encode s) = false) segs ->
  exists t, path_steps p segs = p ++ t.
Proof.
  induction segs as [|s r IH]; intros p H.
  - exists []. cbn. rewrite app_nil_r. reflexivity.
  - apply Forall_cons_iff in H. destruct H as [Hs Hr]. cbn [path_steps]. destruct r as [|s2 r'].
    + exact (step_appends p s false Hs).
    + destruct (step_appends p s true Hs) as [t1 E1]. rewrite E1.
      destruct (IH (p ++ t1) Hr) as [t2 E2]. rewrite E2. exists (t1 ++ t2). rewrite app_assoc. reflexivity.
Qed.

Lemma bytes_split_on : forall d p, bytes p -> Forall bytes (split_on d p).
Proof. intros d p. exact (split_on_forall is_byte d p). Qed.

Lemma url_join_contained : forall base_path p, bytes p -> safe_rel p ->
  exists r, request_path base_path p = Some r /\
            ((p = [] /\ r = base_path) \/ exists t, r = base_dir base_path ++ t).
Proof.
  intros bp p B [S1 [S2 S3]]. unfold request_path, url_join_path.
  pose proof (enc_plain p B) as P. rewrite (url_input_plain _ P), (classify_enc p B).
  destruct p as [|c0 p0]; [exists bp; split; [reflexivity | left; split; reflexivity]|].
  replace (c0 =? 47) with false by (symmetry; apply orb_false_iff in S1; exact (proj1 S1)).
  set (p := c0 :: p0) in *. rewrite (path_part_plain _ P), (split_enc p B).
  destruct (steps_append (map join_rel_enc (split_on 47 p)) (base_dir bp)) as [t Ht].
  - apply Forall_forall. intros e He. apply in_map_iff in He. destruct He as [s [Es Hs]]. subst e.
    pose proof (bytes_split_on 47 p B) as BS. rewrite Forall_forall in BS.
    apply segment_not_dotdot; [exact (BS s Hs)|].
    intro Ed. subst s. rewrite Forall_forall in S3. apply (S3 dotdot); [|reflexivity].
    apply slash_segment_is_component; [exact Hs | repeat constructor].
  - exists (base_dir bp ++ t). split; [rewrite Ht; reflexivity | right; exists t; reflexivity].
Qed.

(* what the builders return can be requested *)
Lemma hex_only_bytes : forall s, hex_only s -> bytes s.
Proof.
  intros s H. eapply Forall_impl; [|exact H]. intros c Hc. apply is_hex_iff in Hc. unfold is_byte. lia.
Qed.

Definition opt_bytes (o : option str) : Prop := match o with Some s => bytes s | None => True end.

(* what [request_path] needs of a lookup path to stay below the base directory *)
Definition joinable (p : str) : Prop := safe_rel p /\ bytes p /\ p <> [].

Lemma layout_joinable : forall cf df (B : str -> Prop) p, bytes cf -> opt_bytes df -> (forall b, B b -> hex_only b) ->
  layout true cf df B p -> joinable p.
Proof.
  intros cf df B p Bcf Bdf HB L.
  split; [exact (layout_safe cf df B p HB L)|]. split; [|exact (layout_nonempty _ _ _ _ _ L)].
  destruct L as [a [b [c [-> [La [Hb Hc]]]]]].
  assert (LB : forall x, leaf_of true cf df x -> bytes x).
  { intros x [q [[-> | ->] Hq]]; apply (pick_leaf_forall is_byte true _ x Hq); [exact Bcf | exact Bdf]. }
  assert (B46 : is_byte 46) by (unfold is_byte; lia). assert (B47 : is_byte 47) by (unfold is_byte; lia).
  apply rel3_forall; [exact B47 | exact (LB a La) | exact (hex_only_bytes b (HB b Hb)) |].
  destruct Hc as [Lc | [e ->]]; [exact (LB c Lc)|].
  apply roae_forall; [exact B46 | exact (LB a La) | repeat constructor; unfold is_byte; lia].
Qed.

Lemma lookup_joinable : forall k code_file debug_file dbg_id code_id l,
  bytes code_file -> opt_bytes debug_file -> opt_hex dbg_id -> opt_hex code_id ->
  lookup k code_file debug_file dbg_id code_id = Some l -> joinable (cache_rel l) /\ joinable (server_rel l).
Proof.
  intros k cf df id cid l Bcf Bdf. apply lookup_all. intros B p. apply layout_joinable; assumption.
Qed.

Lemma code_info_joinable : forall code_file code_id p, bytes code_file -> opt_hex code_id ->
  code_info_breakpad_sym_lookup code_file code_id = Some p -> joinable p.
Proof.
  intros cf cid p Bcf. apply code_info_all. intros B q. apply layout_joinable; [exact Bcf | exact I].
Qed.

Lemma moz_joinable : forall l l', joinable (server_rel l) -> moz_lookup l = Ret l' ->
  joinable (server_rel l') /\ cache_rel l' = cache_rel l.
Proof.
  intros l l' [S [B _]] H. destruct (moz_lookup_ret l l' H) as [q [t [E [-> C]]]]. rewrite E in S, B.
  split; [|exact C]. split; [exact (prefix_underscore_safe q t S)|]. split.
  - apply Forall_app in B. apply Forall_app. split; [exact (proj1 B) | repeat constructor; unfold is_byte; lia].
  - intro X. exact (app_cons_not_nil _ _ _ (eq_sym X)).
Qed.

Lemma joinable_requested : forall bp p, joinable p ->
  exists r, request_path bp p = Some r /\ is_prefix (base_dir bp) r = true.
Proof.
  intros bp p [S [B N]]. destruct (url_join_contained bp p B S) as [r [Hr [[E _]|[t Ht]]]]; [contradiction|].
  exists r. split; [exact Hr | rewrite Ht; apply is_prefix_app].
Qed.
