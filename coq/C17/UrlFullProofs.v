(* C17/UrlFullProofs.v — the full reference resolution (C17/UrlFull.v) on what join_rel emits, for ALL byte strings;
   agreement with the path-only model of C17/UrlModel.v wherever that one answers.  [starts_two_slashes] and the base
   path [b_r] of the examples are used by the statements of C17/Properties.v. *)
From Coq Require Import Lia.
From RM Require Import C17.Model C17.Proofs C17.UrlModel C17.UrlProofs C17.UrlFull.
Open Scope Z_scope.

Lemma scheme_split_rest : forall s acc, scheme_rest s = false -> scheme_split acc s = None.
Proof.
  induction s as [|c r IH]; intros acc H; [reflexivity|]. cbn [scheme_rest scheme_split] in *.
  destruct (c =? 58); [discriminate|]. destruct (scheme_char c); [exact (IH _ H) | reflexivity].
Qed.

Lemma scheme_split_some : forall s acc, scheme_rest s = true -> exists sch rest, scheme_split acc s = Some (sch, rest).
Proof.
  induction s as [|c r IH]; intros acc H; [discriminate|]. cbn [scheme_rest scheme_split] in *.
  destruct (c =? 58); [eexists; eexists; reflexivity|]. destruct (scheme_char c); [exact (IH _ H) | discriminate].
Qed.

Lemma parse_scheme_none : forall s, has_scheme s = false -> parse_scheme s = None.
Proof.
  intros [|c r] H; [reflexivity|]. unfold has_scheme in H. unfold parse_scheme.
  destruct (is_alpha c); [|reflexivity]. cbn [andb] in H. exact (scheme_split_rest _ _ H).
Qed.

Lemma parse_scheme_some : forall s, has_scheme s = true -> exists sch rest, parse_scheme s = Some (sch, rest).
Proof.
  intros [|c r] H; [discriminate|]. unfold has_scheme in H. unfold parse_scheme.
  destruct (is_alpha c); [|discriminate]. cbn [andb] in H. exact (scheme_split_some _ _ H).
Qed.

(* without a scheme, parse_relative dispatches on the same cases as the path-only model's [classify] *)
Lemma resolve_relative_classify : forall sch bp inp, has_scheme inp = false ->
  resolve_relative sch bp inp =
  match classify inp with
  | KScheme | KAuthority => JAuthority sch (authority_text (after_slashes inp))
  | KEmpty | KQuery | KFragment => JSame bp
  | KAbsPath => JSame (path_steps [47] (split_seps (path_part (tl inp))))
  | KRelPath => JSame (path_steps (base_dir bp) (split_seps (path_part inp)))
  end.
Proof.
  intros sch bp inp HS. unfold classify. rewrite HS. unfold resolve_relative. destruct inp as [|c r]; [reflexivity|].
  destruct (c =? 63); [reflexivity|]. destruct (c =? 35); [reflexivity|]. cbn [orb tl].
  destruct (is_sep c) eqn:S; [|reflexivity]. cbn [count_seps]. rewrite S.
  destruct r as [|c' r']; [reflexivity|]. cbn [count_seps]. destruct (is_sep c'); reflexivity.
Qed.

(* wherever the path-only model answers (no other scheme, no authority) the full model keeps scheme and
   authority and yields the same path *)
Lemma resolve_agrees : forall sch bp reference q,
  url_join_path bp reference = Some q -> url_resolve sch bp reference = JSame q.
Proof.
  intros sch bp reference q H. unfold url_join_path in H. unfold url_resolve. cbv zeta in *.
  destruct (has_scheme (url_input reference)) eqn:HS; [unfold classify in H; rewrite HS in H; discriminate|].
  rewrite (parse_scheme_none _ HS), (resolve_relative_classify _ _ _ HS).
  destruct (classify (url_input reference)); try discriminate; injection H as <-; reflexivity.
Qed.

(* the converse direction on the kinds: the path-only model declines exactly when the full one leaves the
   base's scheme or authority *)
Lemma resolve_none : forall sch bp reference,
  url_join_path bp reference = None ->
  match url_resolve sch bp reference with
  | JSame _ => exists s rest, parse_scheme (url_input reference) = Some (s, rest)   (* "http:x" against an http base *)
  | _ => True
  end.
Proof.
  intros sch bp reference H. unfold url_join_path in H. unfold url_resolve. cbv zeta in *.
  destruct (has_scheme (url_input reference)) eqn:HS.
  - destruct (parse_scheme_some _ HS) as [s [rest E]]. rewrite E.
    destruct (special_not_file s); [|exact I].
    destruct ((count_seps rest <? 2)%nat && str_eqb s sch); [|exact I].
    destruct (resolve_relative sch bp rest); try exact I. exists s, rest. reflexivity.
  - rewrite (parse_scheme_none _ HS), (resolve_relative_classify _ _ _ HS).
    destruct (classify (url_input reference)); try discriminate; exact I.
Qed.

(* the request target of EVERY byte string: never another scheme; another authority exactly for a leading "//";
   a path from the root exactly for a single leading '/'; otherwise a path below the base directory's prefix
   built from the encoded segments *)
Definition target_spec (sch bp p : str) : join_result :=
  match p with
  | [] => JSame bp
  | c :: r =>
      if c =? 47 then
        match r with
        | [] => JSame (path_steps [47] (split_seps []))
        | c2 :: r2 =>
            if c2 =? 47 then JAuthority sch (authority_text (join_rel_enc r2))
            else JSame (path_steps [47] (split_seps (join_rel_enc r)))
        end
      else JSame (path_steps (base_dir bp) (split_seps (join_rel_enc p)))
  end.

Lemma request_target_all : forall sch bp p, bytes p -> request_target sch bp p = target_spec sch bp p.
Proof.
  intros sch bp p B. unfold request_target, url_resolve.
  pose proof (enc_plain p B) as P. pose proof (plain_no_scheme _ P) as NS.
  rewrite (url_input_plain _ P), (parse_scheme_none _ NS), (resolve_relative_classify _ _ _ NS), (classify_enc p B).
  destruct p as [|c r]; [reflexivity|]. unfold target_spec. destruct (c =? 47) eqn:C.
  - apply Z.eqb_eq in C. subst c. rewrite enc_cons in *. change (enc1 47) with [47] in *. cbn [app tl] in *.
    destruct r as [|c2 r2]; [reflexivity|]. apply Forall_cons_iff in P. destruct P as [_ Pr].
    destruct (c2 =? 47) eqn:C2; [|rewrite (path_part_plain _ Pr); reflexivity].
    apply Z.eqb_eq in C2. subst c2. rewrite enc_cons. reflexivity.
  - rewrite (path_part_plain _ P). reflexivity.
Qed.

Definition starts_two_slashes (p : str) : bool :=
  match p with c :: c2 :: _ => (c =? 47) && (c2 =? 47) | _ => false end.

Definition b_r : str := [47;114;47].                     (* base path /r/ *)
