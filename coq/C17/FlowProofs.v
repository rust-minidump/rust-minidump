(* C17/FlowProofs.v — every consumer join site extracted from the source (Gen/C17Flow.v) joins a string
   that came out of a lookup builder, and such a string stays below the root it is joined onto ([below_root]);
   the table obligations on Gen/C17Flow.v; at the end the statements of the two witness examples of C17/Properties.v
   ([census_witness], [sinks_witness]) and the site keys on which the two translators are compared. *)
From Coq Require Import String.
From RM Require Import C17.Model C17.Proofs C17.UrlModel C17.UrlProofs C17.Prims Gen.C17Lookup C17.Tie
                       C17.FlowModel Gen.C17Flow C17.Consumers Gen.JoinSites.
Close Scope string_scope.
Open Scope list_scope.
Open Scope Z_scope.

(* every lookup value reachable by a known provenance has joinable fields *)
Lemma eval_prov_joinable : forall p m k l, mv_bytes m -> mv_hex m -> eval_prov p m k = Some l ->
  joinable (cache_rel l) /\ joinable (server_rel l).
Proof.
  induction p as [b|q IH|]; intros m k l MB MH H; cbn [eval_prov] in H.
  - destruct b; cbn [eval_builder] in H;
      [exact (g_lookup_joinable m k l MB MH H) | exact (g_lookup_joinable m KBreakpadSym l MB MH H)
      | exact (g_lookup_joinable m KBinary l MB MH H) | exact (g_lookup_joinable m KExtraDebugInfo l MB MH H)].
  - destruct (eval_prov q m k) as [l0|] eqn:E; [|discriminate].
    destruct (g_moz_lookup l0) as [l1| | |] eqn:M; try discriminate. injection H as <-. rewrite g_moz_eq in M.
    destruct (IH m k l0 MB MH E) as [Jc Js]. destruct (moz_joinable l0 l1 Js M) as [J C]. rewrite C. split; assumption.
  - discriminate.
Qed.

Lemma eval_arg_joinable : forall a m k p, mv_bytes m -> mv_hex m -> eval_arg a m k = Some p -> joinable p.
Proof.
  intros a m k p MB MH H. destruct a as [q|q| |]; cbn [eval_arg] in H.
  - destruct (eval_prov q m k) as [l|] eqn:E; [|discriminate]. injection H as <-. exact (proj1 (eval_prov_joinable q m k l MB MH E)).
  - destruct (eval_prov q m k) as [l|] eqn:E; [|discriminate]. injection H as <-. exact (proj2 (eval_prov_joinable q m k l MB MH E)).
  - exact (g_code_info_joinable m p MB MH H).
  - discriminate.
Qed.

(* what "stays below the root" means for each kind of root *)
Definition below_root (r : g_root) (p : str) : Prop :=
  match r with
  | RSymbolDir | RCacheDir | RTmpDir =>
      forall style root, is_prefix root (join style root p) = true /\
        exists s, join style root p = root ++ s ++ p /\ (s = [] \/ s = [47] \/ s = [92]) /\
                  Forall (fun c => c <> dotdot) (split_seps (s ++ p))
  | RServerUrl =>
      forall base_path, exists r, g_request_path base_path p = Some r /\ is_prefix (base_dir base_path) r = true
  | RUnknown => False
  end.

Lemma joinable_below : forall r p, known_root r = true -> joinable p -> below_root r p.
Proof.
  intros r p K J. destruct r; cbn [below_root]; try discriminate;
    [intros style root; exact (join_contained style root p (proj1 J)) ..
    | intro bp; exact (g_joinable_requested bp p J)].
Qed.

(* the obligations on the generated tables: "the list of offenders is empty", by evaluation *)
Lemma filter_nil_all : forall {A} (f : A -> bool) l, filter (fun x => negb (f x)) l = [] ->
  forall x, In x l -> f x = true.
Proof.
  intros A f l E x I. destruct (f x) eqn:K; [reflexivity|].
  assert (X : In x (filter (fun x => negb (f x)) l)) by (apply filter_In; rewrite K; auto).
  rewrite E in X. destruct X.
Qed.

Lemma all_sites_known : unknown_sites g_consumer_joins = [].
Proof. vm_compute. reflexivity. Qed.
Lemma site_known : forall s, In s g_consumer_joins -> known_site s = true.
Proof. exact (filter_nil_all known_site _ all_sites_known). Qed.

Lemma all_sinks_known : unknown_sinks g_fs_sinks = [].
Proof. vm_compute. reflexivity. Qed.
Lemma sink_known : forall k, In k g_fs_sinks -> known_sink k = true.
Proof. exact (filter_nil_all known_sink _ all_sinks_known). Qed.

Lemma sink_calls_covered : uncovered_sink_calls g_sink_calls g_fs_sinks = [].
Proof. vm_compute. reflexivity. Qed.
Lemma uncovered_nil : forall calls sinks, uncovered_sink_calls calls sinks = [] ->
  forall c, In c calls -> existsb (fun k => key_eqb c (sink_key k)) sinks = true.
Proof. intros calls sinks. unfold uncovered_sink_calls. apply filter_nil_all. Qed.
Lemma sink_call_covered : forall c, In c g_sink_calls -> existsb (fun k => key_eqb c (sink_key k)) g_fs_sinks = true.
Proof. exact (uncovered_nil _ _ sink_calls_covered). Qed.

Lemma key_eqb_eq : forall a b, key_eqb a b = true -> a = b.
Proof.
  intros [[a1 a2] a3] [[b1 b2] b3] H. unfold key_eqb in H. cbn [fst snd] in H.
  apply andb_true_iff in H. destruct H as [H H3]. apply andb_true_iff in H. destruct H as [H1 H2].
  apply String.eqb_eq in H1, H2, H3. subst. reflexivity.
Qed.

(* membership in a generated table, decided by a boolean equality *)
Lemma in_by_eqb : forall {A} (eqb : A -> A -> bool), (forall a b, eqb a b = true -> a = b) ->
  forall x l, existsb (eqb x) l = true -> In x l.
Proof.
  intros A eqb E x l H. apply existsb_exists in H. destruct H as [y [I K]]. rewrite (E x y K). exact I.
Qed.

(* the census is not empty: it closed the three files that touch the file system, lists known calls, and saw the
   constructor's own root being added *)
Definition census_witness : Prop :=
  In "http.rs"%string g_closed_files /\ In "lib.rs"%string g_closed_files /\ In "sym_file/mod.rs"%string g_closed_files /\
  In ("sym_file/mod.rs", "from_file", "File::open(path)")%string g_sink_calls /\
  In ("http.rs", "fetch_lookup", ".persist_noclobber(&final_cache_path)")%string g_sink_calls /\
  (12 <= List.length g_sink_calls)%nat /\
  existsb (fun e => match e_kind e with EkRootAdded => true | _ => false end) g_path_edits = true.
(* the sink table has the entries one expects: fetch_lookup's persist on cache.join(cache_rel), create_dir_all on one
   .parent(), ten sinks or more *)
Definition sinks_witness : Prop :=
  existsb (fun k => String.eqb (k_fn k) "fetch_lookup"%string && String.eqb (k_text k) ".persist_noclobber(&final_cache_path)"%string &&
                    match k_paths k with [PJoined RCacheDir (ACacheRel (GBuilt BLookup))] => true | _ => false end) g_fs_sinks = true /\
  existsb (fun k => String.eqb (k_text k) "fs::create_dir_all(base)"%string && Nat.eqb (k_parents k) 1) g_fs_sinks = true /\
  (10 <= List.length g_fs_sinks)%nat.
(* the two translators agree on which calls are consumer joins (join_sites.py: every `.join(` / `join_rel(`
   call with its text; c17_flow.py: the consumer ones with their provenance) *)
Definition is_consumer_site (x : (string * string * string) * site_class) : bool :=
  match snd x with Joins _ _ => true | _ => false end.
Definition site_key (x : string * string * string) : string * string := (fst (fst x), snd x).
