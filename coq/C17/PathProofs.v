(* C17/PathProofs.v — joining a safe relative path onto an absolute root appends its components; hence the parent
   directory of the joined path (what create_dir_all receives) still has every component of the root in front. *)
From RM Require Import C17.Model C17.Proofs C17.UrlProofs C17.PathModel.
From Coq Require Import Lia.
Open Scope Z_scope.

Lemma posix_comps_app_sep : forall a b, posix_comps (a ++ 47 :: b) = posix_comps a ++ posix_comps b.
Proof. intros a b. unfold posix_comps. rewrite split_on_app, filter_app. reflexivity. Qed.

Lemma posix_comps_trailing : forall a, posix_comps (a ++ [47]) = posix_comps a.
Proof. intro a. rewrite posix_comps_app_sep. cbn. apply app_nil_r. Qed.

(* Path::join on unix: the components of root, then those of rel *)
Lemma posix_join_comps : forall root rel, root <> [] -> starts_with_sep rel = false ->
  posix_comps (posix_join root rel) = posix_comps root ++ posix_comps rel.
Proof.
  intros root rel N S. unfold posix_join.
  assert (Hs : starts_with_slash rel = false).
  { destruct rel as [|c r]; [reflexivity|]. cbn in *. unfold is_sep in S. apply orb_false_iff in S. exact (proj1 S). }
  rewrite Hs. destruct root as [|c0 r0] eqn:ER; [contradiction|]. rewrite <- ER in *.
  destruct (last_is is_slash root) eqn:L.
  - destruct (last_slash_inv root L) as [r' E]. rewrite E, <- app_assoc. cbn [app].
    rewrite posix_comps_app_sep, posix_comps_trailing. reflexivity.
  - cbn [app]. apply posix_comps_app_sep.
Qed.

Lemma comps_prefix_app : forall a b, comps_prefix a (a ++ b) = true.
Proof.
  induction a as [|x a IH]; intro b; [reflexivity|]. cbn.
  rewrite (proj2 (str_eqb_spec x x) eq_refl). apply IH.
Qed.

Lemma removelast_app_nonempty : forall (a b : list str), b <> [] -> removelast (a ++ b) = a ++ removelast b.
Proof. intros a b H. apply removelast_app. exact H. Qed.

Lemma safe_rel_slash_comps : forall rel, safe_rel rel -> Forall (fun c => c <> dotdot) (posix_comps rel).
Proof.
  intros rel [_ [_ F]]. apply Forall_forall. intros c Hc E. subst c.
  unfold posix_comps in Hc. apply filter_In in Hc. destruct Hc as [Hc _].
  rewrite Forall_forall in F. apply (F dotdot); [|reflexivity].
  apply slash_segment_is_component; [exact Hc | repeat constructor].
Qed.

(* the parent of root.join(rel) — create_dir_all's argument — starts with the root's components and adds no `..` *)
Lemma parent_of_joined_below_root : forall root rel, root <> [] -> safe_rel rel -> posix_comps rel <> [] ->
  exists t, path_parent (posix_comps (posix_join root rel)) = Some (posix_comps root ++ t) /\
            comps_prefix (posix_comps root) (posix_comps root ++ t) = true /\
            Forall (fun c => c <> dotdot) t.
Proof.
  intros root rel N S C. pose proof (safe_rel_slash_comps rel S) as F. destruct S as [S _].
  exists (removelast (posix_comps rel)). rewrite (posix_join_comps root rel N S). split; [|split].
  - unfold path_parent. destruct (posix_comps root ++ posix_comps rel) eqn:E.
    + apply app_eq_nil in E. destruct E as [_ E]. contradiction.
    + rewrite <- E. rewrite removelast_app by exact C. reflexivity.
  - apply comps_prefix_app.
  - apply Forall_forall. intros c Hc. rewrite Forall_forall in F. apply F.
    destruct (exists_last C) as [l' [x E]]. rewrite E in *. rewrite removelast_last in Hc. apply in_or_app. left. exact Hc.
Qed.

(* every cache_rel has the identifier as a real component: <leaf>/<ID>/<name> with a non-empty hex ID *)
Lemma rel3_has_component : forall a id c, id <> [] -> hex_only id -> posix_comps (rel3 a id c) <> [].
Proof.
  intros a id c N H. rewrite rel3_eq, !posix_comps_app_sep.
  assert (E : posix_comps id = [id]).
  { unfold posix_comps. rewrite split_on_pat, split_pat_whole.
    - cbn [filter]. replace (real_component id) with true; [reflexivity|].
      destruct id as [|x r]; [contradiction|]. symmetry. apply negb_true_iff, str_eqb_false. intro D.
      injection D as -> _. apply Forall_cons_iff in H. exact (hex_not_dot 46 (proj1 H) eq_refl).
    - eapply Forall_impl; [|exact H]. intros x Hx. apply is_hex_iff in Hx. apply Z.eqb_neq. lia. }
  rewrite E. intro X. apply app_eq_nil in X. destruct X as [_ X]. discriminate.
Qed.

(* Windows rules, component level (model-only) *)
Lemma win_comps_app_sep : forall a c b, is_sep c = true -> win_comps (a ++ c :: b) = win_comps a ++ win_comps b.
Proof. intros a c b H. unfold win_comps. rewrite (split_seps_app a c b H), filter_app. reflexivity. Qed.

Lemma win_comps_trailing : forall a c, is_sep c = true -> win_comps (a ++ [c]) = win_comps a.
Proof. intros a c H. rewrite (win_comps_app_sep a c [] H). cbn. apply app_nil_r. Qed.

(* PathBuf::push under Windows rules, for an argument without drive prefix or leading separator, onto a root that is
   not a bare drive `X:`: the components of root, then those of rel *)
Lemma windows_join_comps : forall root rel, root <> [] -> is_bare_drive root = false ->
  starts_with_sep rel = false -> has_drive_prefix rel = false ->
  win_comps (windows_join root rel) = win_comps root ++ win_comps rel.
Proof.
  intros root rel N B H1 H2. unfold windows_join. rewrite H2, H1. unfold win_append.
  destruct root as [|r0 root'] eqn:ER; [contradiction|]. rewrite <- ER in *. rewrite B, orb_false_r.
  destruct (last_is is_sep root) eqn:L.
  - destruct (last_is_inv _ root L) as [r' [c [E Hc]]]. rewrite E, <- app_assoc. cbn [app].
    rewrite (win_comps_app_sep r' c rel Hc), (win_comps_trailing r' c Hc). reflexivity.
  - cbn [app]. apply win_comps_app_sep. reflexivity.
Qed.
