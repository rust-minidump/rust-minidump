(* C17/UrlFullSrc.v — where the code sends the request for a lookup path: the GENERATED encoder followed by the FULL
   model of Url::join (C17/UrlFull.v); it agrees with the path-only request wherever that one answers.
   Also: the pieces of a redirect's Location are byte strings again. *)
From RM Require Import C17.Model C17.Proofs C17.UrlModel C17.UrlProofs C17.UrlFull C17.UrlFullProofs.
From RM Require Import C17.Prims C17.Tie Gen.C17Lookup.

Definition g_request_target (base_scheme base_path rel : str) : join_result :=
  url_resolve base_scheme base_path (g_join_rel_enc rel).

Lemma g_target_of_path : forall sch bp rel r,
  g_request_path bp rel = Some r -> g_request_target sch bp rel = JSame r.
Proof. intros sch bp rel r H. unfold g_request_target. apply resolve_agrees. exact H. Qed.

(* names supplied by the server in a code-info redirect: the pieces of a Location are byte strings again *)
Lemma strip_one_slash_bytes : forall s, bytes s -> bytes (strip_one_slash s).
Proof.
  intros [|c r] B; [exact B|]. unfold strip_one_slash. destruct (c =? 47); [|exact B].
  apply Forall_cons_iff in B. exact (proj2 B).
Qed.

Lemma parse_location_bytes : forall loc dfp idp, bytes loc -> parse_location loc = Some (dfp, idp) -> bytes dfp /\ bytes idp.
Proof.
  intros loc dfp idp B H. unfold parse_location in H.
  pose proof (bytes_split_on 47 _ (strip_one_slash_bytes loc B)) as F.
  apply Forall_rev in F. destruct (rev (split_on 47 (strip_one_slash loc))) as [|a [|b [|c t]]]; try discriminate.
  inversion H. subst. apply Forall_cons_iff in F. destruct F as [_ F]. apply Forall_cons_iff in F. destruct F as [Fb F].
  apply Forall_cons_iff in F. destruct F as [Fc _]. split; assumption.
Qed.
