(* C17/Avail.v — the functional side of the builders: which names are answered.  The property (C17) is a safety
   statement; [ordinary_leaf] and the two lemmas on safe_leafname pin what a repair must not lose: a name with an
   ordinary leaf is accepted with that leaf, and a name is declined exactly when its leaf is empty, `..` or
   drive-prefixed (C17/Properties.v c17_src_available, c17_src_declines). *)
From RM Require Import C17.Model C17.Proofs.
Open Scope Z_scope.

(* a leaf the builders accept: not empty, not "..", no drive prefix *)
Definition ordinary_leaf (name : str) : Prop :=
  leafname name <> [] /\ leafname name <> dotdot /\ has_drive_prefix (leafname name) = false.

Lemma safe_leafname_ordinary : forall p, ordinary_leaf p -> safe_leafname p = Some (leafname p).
Proof.
  intros p [H1 [H2 H3]]. unfold safe_leafname. destruct (leafname p) as [|a r] eqn:E; [contradiction|].
  rewrite H3. destruct (str_eqb (a :: r) dotdot) eqn:D; [|reflexivity].
  apply str_eqb_spec in D. contradiction.
Qed.
Lemma safe_leafname_declines : forall p, ~ ordinary_leaf p -> safe_leafname p = None.
Proof.
  intros p H. unfold safe_leafname. destruct (leafname p) as [|a r] eqn:E; [reflexivity|].
  destruct (str_eqb (a :: r) dotdot) eqn:D; [reflexivity|]. destruct (has_drive_prefix (a :: r)) eqn:P; [reflexivity|].
  exfalso. apply H. unfold ordinary_leaf. rewrite E. split; [discriminate|]. split; [|exact P].
  intro X. apply str_eqb_false in D. contradiction.
Qed.
