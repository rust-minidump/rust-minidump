(* C17/Proofs.v — lemmas behind C17/Properties.v: every path a builder returns is <leaf>/<id>/<file> ([layout]);
   safety of such a path, of what moz_lookup makes of it, and of joining it onto a root. *)
From Coq Require Import Lia.
From RM Require Import C17.Model C17.Prims.
Open Scope Z_scope.

Definition nosep (s : str) : Prop := Forall (fun c => is_sep c = false) s.
Definition hex_only (s : str) : Prop := Forall (fun c => is_hex c = true) s.
Definition opt_hex (o : option str) : Prop := match o with Some s => hex_only s | None => True end.

Lemma str_eqb_spec : forall a b, str_eqb a b = true <-> a = b.
Proof.
  induction a as [|x a IH]; intros [|y b]; cbn [str_eqb]; split; intro H; try reflexivity; try discriminate.
  - apply andb_true_iff in H. destruct H as [H1 H2]. apply Z.eqb_eq in H1. apply IH in H2. subst. reflexivity.
  - inversion H; subst. apply andb_true_iff. split; [apply Z.eqb_refl | apply IH; reflexivity].
Qed.

Lemma str_eqb_false : forall a b, str_eqb a b = false <-> a <> b.
Proof. intros a b. rewrite <- str_eqb_spec. symmetry. apply not_true_iff_false. Qed.

Lemma has_sep_false_nosep : forall s, has_sep s = false <-> nosep s.
Proof.
  induction s as [|c s IH]; [split; [constructor | reflexivity]|].
  unfold nosep in *. cbn [has_sep existsb]. rewrite orb_false_iff, Forall_cons_iff, <- IH. reflexivity.
Qed.

Lemma leafname_nosep : forall p, nosep (leafname p).
Proof.
  induction p as [|c r IH]; cbn [leafname].
  - constructor.
  - destruct (has_sep r) eqn:Hs; [exact IH|].
    apply has_sep_false_nosep in Hs.
    destruct (is_sep c) eqn:Hc; [exact Hs | constructor; assumption].
Qed.

(* [split_seps] and [split_on d] are [split_pat] (C17/Prims.v) for the patterns "a separator" and "the character d":
   the facts about splitting are proved once, for any pattern *)
Section SplitPat.
Variable f : Z -> bool.

Lemma split_pat_nonempty : forall s, split_pat f s <> [].
Proof.
  destruct s as [|c r]; cbn [split_pat]; [discriminate|].
  destruct (f c); [discriminate|]. destruct (split_pat f r); discriminate.
Qed.

Lemma split_pat_whole : forall s, Forall (fun c => f c = false) s -> split_pat f s = [s].
Proof.
  induction s as [|c r IH]; intro H; [reflexivity|].
  apply Forall_cons_iff in H. destruct H as [Hc Hr]. cbn [split_pat]. rewrite Hc, (IH Hr). reflexivity.
Qed.

Lemma split_pat_app : forall a c b, f c = true -> split_pat f (a ++ c :: b) = split_pat f a ++ split_pat f b.
Proof.
  induction a as [|x a IH]; intros c b Hc.
  - cbn [app split_pat]. rewrite Hc. reflexivity.
  - cbn [app split_pat]. rewrite (IH c b Hc).
    destruct (f x); [reflexivity|].
    destruct (split_pat f a) as [|h t] eqn:E; [exfalso; exact (split_pat_nonempty a E) | reflexivity].
Qed.

Lemma split_pat_forall : forall (P : Z -> Prop) s, Forall P s -> Forall (Forall P) (split_pat f s).
Proof.
  induction s as [|c r IH]; intro H; cbn [split_pat].
  - constructor; constructor.
  - apply Forall_cons_iff in H. destruct H as [Hc Hr]. specialize (IH Hr).
    destruct (f c); [constructor; [constructor | exact IH]|].
    destruct (split_pat f r) as [|h t]; [repeat constructor; exact Hc|].
    apply Forall_cons_iff in IH. destruct IH as [Hh Ht]. constructor; [constructor; assumption | exact Ht].
Qed.
End SplitPat.

Lemma split_seps_pat : forall s, split_seps s = split_pat is_sep s.
Proof. induction s as [|c r IH]; [reflexivity|]. cbn [split_seps split_pat]. rewrite IH. reflexivity. Qed.
Lemma split_on_pat : forall d s, split_on d s = split_pat (fun c => c =? d) s.
Proof. intros d s. induction s as [|c r IH]; [reflexivity|]. cbn [split_on split_pat]. rewrite IH. reflexivity. Qed.

Lemma split_seps_nonempty : forall s, split_seps s <> [].
Proof. intro s. rewrite split_seps_pat. apply split_pat_nonempty. Qed.
Lemma split_seps_nosep : forall s, nosep s -> split_seps s = [s].
Proof. intro s. rewrite split_seps_pat. apply split_pat_whole. Qed.
Lemma split_seps_app : forall a c b, is_sep c = true ->
  split_seps (a ++ c :: b) = split_seps a ++ split_seps b.
Proof. intros a c b. rewrite !split_seps_pat. apply split_pat_app. Qed.

Lemma split_on_nonempty : forall d s, split_on d s <> [].
Proof. intros d s. rewrite split_on_pat. apply split_pat_nonempty. Qed.
Lemma split_on_app : forall d a b, split_on d (a ++ d :: b) = split_on d a ++ split_on d b.
Proof. intros d a b. rewrite !split_on_pat. apply split_pat_app. apply Z.eqb_refl. Qed.
Lemma split_on_forall : forall (P : Z -> Prop) d s, Forall P s -> Forall (Forall P) (split_on d s).
Proof. intros P d s. rewrite split_on_pat. apply split_pat_forall. Qed.

Lemma safe_relb_spec : forall p, safe_relb p = true <-> safe_rel p.
Proof.
  intro p. unfold safe_relb, safe_rel. rewrite !andb_true_iff, !negb_true_iff, forallb_forall, Forall_forall, and_assoc.
  do 2 (apply and_iff_compat_l). split; intros H c Hc; specialize (H c Hc).
  - apply str_eqb_false, negb_true_iff, H.
  - apply negb_true_iff, str_eqb_false, H.
Qed.

Lemma is_hex_iff : forall c, is_hex c = true <-> 48 <= c <= 57 \/ 65 <= c <= 70 \/ 97 <= c <= 102.
Proof.
  intro c. unfold is_hex. split.
  - intro H. repeat (apply orb_true_iff in H; destruct H as [H|H]);
      apply andb_true_iff in H; destruct H as [H1 H2]; apply Z.leb_le in H1, H2; auto.
  - intros [[H1 H2]|[[H1 H2]|[H1 H2]]]; apply Z.leb_le in H1, H2; rewrite H1, H2, ?orb_true_r; reflexivity.
Qed.

Lemma hex_not_sep : forall c, is_hex c = true -> is_sep c = false.
Proof. intros c H. apply is_hex_iff in H. apply orb_false_iff. split; apply Z.eqb_neq; lia. Qed.
Lemma hex_not_dot : forall c, is_hex c = true -> c <> 46.
Proof. intros c H. apply is_hex_iff in H. lia. Qed.
Lemma hex_upper : forall c, is_hex c = true -> is_hex (upper c) = true.
Proof.
  intros c H. apply is_hex_iff in H. apply is_hex_iff. unfold upper.
  destruct ((97 <=? c) && (c <=? 122)) eqn:E; [|exact H].
  apply andb_true_iff in E. destruct E as [E1 E2]. apply Z.leb_le in E1, E2. lia.
Qed.

Lemma hex_only_b : forall s, forallb is_hex s = true -> hex_only s.
Proof. intros s H. apply Forall_forall. apply forallb_forall. exact H. Qed.
Lemma hex_only_nosep : forall s, hex_only s -> nosep s.
Proof. intros s H. eapply Forall_impl; [|exact H]. exact hex_not_sep. Qed.
Lemma hex_only_not_dotdot : forall s, hex_only s -> s <> dotdot.
Proof. intros s H E. subst s. apply Forall_cons_iff in H. exact (hex_not_dot 46 (proj1 H) eq_refl). Qed.
Lemma hex_only_upper : forall s, hex_only s -> hex_only (map upper s).
Proof. intros s H. apply Forall_map. eapply Forall_impl; [|exact H]. exact hex_upper. Qed.

(* a property of characters that holds of the input and of the '.' / '/' the builders insert holds of their output *)
Section ForallChars.
Variable P : Z -> Prop.

Lemma join_with_forall : forall d l, Forall P d -> Forall (Forall P) l -> Forall P (join_with d l).
Proof.
  induction l as [|a l IH]; intros Hd Hl; cbn [join_with]; [constructor|].
  apply Forall_cons_iff in Hl. destruct Hl as [Ha Hl].
  destruct l as [|b l']; [exact Ha|].
  apply Forall_app. split; [exact Ha|]. apply Forall_app. split; [exact Hd|]. apply IH; assumption.
Qed.

Lemma leafname_forall : forall p, Forall P p -> Forall P (leafname p).
Proof.
  induction p as [|c r IH]; intro H; [constructor|].
  apply Forall_cons_iff in H. destruct H as [Hc Hr]. cbn [leafname].
  destruct (has_sep r); [exact (IH Hr)|]. destruct (is_sep c); [exact Hr | constructor; assumption].
Qed.

Lemma pick_leaf_forall : forall fixed p l, pick_leaf fixed p = Some l -> Forall P p -> Forall P l.
Proof.
  intros fixed p l H Hp. pose proof (leafname_forall p Hp) as L. destruct fixed; cbn [pick_leaf] in H.
  - unfold safe_leafname in H. destruct (leafname p) as [|c r]; [discriminate|].
    destruct (_ || _); [discriminate|]. injection H as <-. exact L.
  - injection H as <-. exact L.
Qed.

Lemma roae_forall : forall f e n, P 46 -> Forall P f -> Forall P n -> Forall P (replace_or_add_extension f e n).
Proof.
  intros f e n P46 Hf Hn. unfold replace_or_add_extension. apply join_with_forall.
  - constructor; [exact P46 | constructor].
  - pose proof (split_on_forall P 46 f Hf) as B. apply Forall_app. split; [|constructor; [exact Hn | constructor]].
    destruct (_ && _); [|exact B].
    rewrite (app_removelast_last [] (split_on_nonempty 46 f)) in B. apply Forall_app in B. exact (proj1 B).
Qed.

Lemma rel3_eq : forall a b c, rel3 a b c = a ++ 47 :: (b ++ 47 :: c).
Proof. intros. reflexivity. Qed.

Lemma rel3_forall : forall a b c, P 47 -> Forall P a -> Forall P b -> Forall P c -> Forall P (rel3 a b c).
Proof.
  intros a b c P47 Ha Hb Hc. rewrite rel3_eq. apply Forall_app. split; [exact Ha|].
  constructor; [exact P47|]. apply Forall_app. split; [exact Hb|]. constructor; [exact P47 | exact Hc].
Qed.
End ForallChars.

Lemma join_with_snoc_suffix : forall d l n, exists pre, join_with d (l ++ [n]) = pre ++ n.
Proof.
  induction l as [|a l IH]; intro n.
  - exists []. reflexivity.
  - destruct (IH n) as [pre Hpre].
    cbn [app join_with]. destruct (l ++ [n]) as [|b r] eqn:E.
    + exfalso. exact (app_cons_not_nil _ _ _ (eq_sym E)).
    + exists (a ++ d ++ pre). rewrite Hpre. rewrite <- !app_assoc. reflexivity.
Qed.

Lemma roae_suffix : forall f e n, exists pre, replace_or_add_extension f e n = pre ++ n.
Proof. intros f e n. unfold replace_or_add_extension. apply join_with_snoc_suffix. Qed.

Lemma snoc_not_dotdot : forall q c, c <> 46 -> q ++ [c] <> dotdot.
Proof.
  intros q c N E. apply (f_equal (@rev Z)) in E. rewrite rev_app_distr in E. injection E as E _. exact (N E).
Qed.

Lemma roae_sym_not_dotdot : forall f e, replace_or_add_extension f e s_sym <> dotdot.
Proof.
  intros f e. destruct (roae_suffix f e s_sym) as [pre ->].
  change s_sym with ([115; 121] ++ [109]). rewrite app_assoc. apply snoc_not_dotdot. discriminate.
Qed.

Lemma roae_sym_nosep : forall f e, nosep f -> nosep (replace_or_add_extension f e s_sym).
Proof. intros f e Hf. apply roae_forall; [reflexivity | exact Hf | repeat constructor]. Qed.

Lemma rel3_safe : forall a b c,
  nosep a -> a <> [] -> a <> dotdot -> has_drive_prefix a = false ->
  nosep b -> b <> dotdot -> nosep c -> c <> dotdot ->
  safe_rel (rel3 a b c).
Proof.
  intros a b c Ha Hne Hdd Hdr Hb Hbd Hc Hcd. rewrite rel3_eq. unfold safe_rel.
  split; [|split].
  - destruct a as [|x a']; [contradiction|]. apply Forall_cons_iff in Ha. destruct Ha as [Hx _]. exact Hx.
  - destruct a as [|x a']; [contradiction|]. destruct a' as [|y a''].
    + cbn [app has_drive_prefix]. apply andb_false_r.
    + exact Hdr.
  - rewrite split_seps_app by reflexivity. rewrite split_seps_app by reflexivity.
    rewrite (split_seps_nosep a Ha), (split_seps_nosep b Hb), (split_seps_nosep c Hc).
    cbn [app]. repeat constructor; assumption.
Qed.

(* a leaf picked from the module's code file or debug file *)
Definition leaf_of (fixed : bool) (cf : str) (df : option str) (a : str) : Prop :=
  exists p, (p = cf \/ df = Some p) /\ pick_leaf fixed p = Some a.
(* the shape of every path the builders return: such a leaf, an identifier ([B] says which), and a file name that
   is such a leaf again or the first one with its extension replaced by "sym" *)
Definition layout (fixed : bool) (cf : str) (df : option str) (B : str -> Prop) (p : str) : Prop :=
  exists a b c, p = rel3 a b c /\ leaf_of fixed cf df a /\ B b /\
                (leaf_of fixed cf df c \/ exists e, c = replace_or_add_extension a e s_sym).

Lemma layout_intro : forall fixed cf df (B : str -> Prop) a b c,
  leaf_of fixed cf df a -> B b -> (leaf_of fixed cf df c \/ exists e, c = replace_or_add_extension a e s_sym) ->
  layout fixed cf df B (rel3 a b c).
Proof. intros fixed cf df B a b c La Hb Hc. exists a, b, c. auto. Qed.

Lemma lookup_gen_layout : forall fixed k cf df id cid l, lookup_gen fixed k cf df id cid = Some l ->
  layout fixed cf df (fun b => id = Some b) (cache_rel l) /\
  layout fixed cf df (fun b => id = Some b \/ cid = Some b) (server_rel l).
Proof.
  intros fixed k cf df id cid l H.
  assert (Lc : forall a, pick_leaf fixed cf = Some a -> leaf_of fixed cf df a) by (intros a E; exists cf; auto).
  destruct df as [dfs|]; [|destruct k, cid; discriminate]. destruct id as [ids|]; [|destruct k, cid; discriminate].
  assert (Ld : forall a, pick_leaf fixed dfs = Some a -> leaf_of fixed cf (Some dfs) a) by (intros a E; exists dfs; auto).
  destruct k; cbn [lookup_gen] in H.
  - unfold breakpad_sym_lookup_gen in H. destruct (pick_leaf fixed dfs) as [a|] eqn:E; [|discriminate].
    injection H as <-. split; apply layout_intro; auto; right; exists s_pdb; reflexivity.
  - unfold binary_lookup_gen in H. destruct cid as [cids|]; [|discriminate].
    destruct (pick_leaf fixed cf) as [bl|] eqn:E1; [|discriminate].
    destruct (pick_leaf fixed dfs) as [dl|] eqn:E2; [|discriminate].
    injection H as <-. split; apply layout_intro; auto.
  - unfold extra_debuginfo_lookup_gen in H. destruct (pick_leaf fixed dfs) as [a|] eqn:E; [|discriminate].
    injection H as <-. split; apply layout_intro; auto.
Qed.

Lemma code_info_layout : forall fixed cf df cid p, code_info_breakpad_sym_lookup_gen fixed cf cid = Some p ->
  cf <> [] /\ layout fixed cf df (fun b => exists x, cid = Some x /\ b = map upper x) p.
Proof.
  intros fixed cf df cid p H. unfold code_info_breakpad_sym_lookup_gen in H.
  destruct cid as [x|]; [|discriminate]. destruct cf as [|c0 cf']; [discriminate|]. split; [discriminate|].
  destruct (pick_leaf fixed (c0 :: cf')) as [a|] eqn:E; [|discriminate]. injection H as <-.
  apply layout_intro; [exists (c0 :: cf'); auto | exists x; auto | right; exists s_dll; reflexivity].
Qed.

(* what holds of every path of that shape with hex identifiers holds of every path the (checked) builders return *)
Lemma lookup_all : forall (Q : str -> Prop) k cf df id cid l,
  (forall (B : str -> Prop) p, (forall b, B b -> hex_only b) -> layout true cf df B p -> Q p) ->
  opt_hex id -> opt_hex cid -> lookup k cf df id cid = Some l -> Q (cache_rel l) /\ Q (server_rel l).
Proof.
  intros Q k cf df id cid l HQ Hid Hcid H. destruct (lookup_gen_layout _ _ _ _ _ _ _ H) as [C S].
  split; [apply (HQ _ _) with (2 := C) | apply (HQ _ _) with (2 := S)].
  - intros b ->. exact Hid.
  - intros b [-> | ->]; assumption.
Qed.

Lemma code_info_all : forall (Q : str -> Prop) cf cid p,
  (forall (B : str -> Prop) p, (forall b, B b -> hex_only b) -> layout true cf None B p -> Q p) ->
  opt_hex cid -> code_info_breakpad_sym_lookup cf cid = Some p -> Q p.
Proof.
  intros Q cf cid p HQ Hcid H. apply (HQ _ _) with (2 := proj2 (code_info_layout true cf None cid p H)).
  intros b [x [-> ->]]. apply hex_only_upper. exact Hcid.
Qed.

Lemma layout_nonempty : forall fixed cf df B p, layout fixed cf df B p -> p <> [].
Proof. intros fixed cf df B p [a [b [c [-> _]]]] E. rewrite rel3_eq in E. exact (app_cons_not_nil _ _ _ (eq_sym E)). Qed.

Lemma safe_leafname_some : forall p l, safe_leafname p = Some l ->
  nosep l /\ l <> [] /\ l <> dotdot /\ has_drive_prefix l = false.
Proof.
  intros p l H. unfold safe_leafname in H.
  pose proof (leafname_nosep p) as Hn.
  destruct (leafname p) as [|c r] eqn:E; [discriminate|].
  destruct (str_eqb (c :: r) dotdot || has_drive_prefix (c :: r)) eqn:Hb; [discriminate|].
  inversion H; subst l. apply orb_false_iff in Hb. destruct Hb as [Hb1 Hb2].
  split; [exact Hn|]. split; [discriminate|]. split; [apply str_eqb_false; exact Hb1 | exact Hb2].
Qed.

(* with the checked leaves and hex identifiers, a path of that shape is safe *)
Lemma layout_safe : forall cf df (B : str -> Prop) p, (forall b, B b -> hex_only b) -> layout true cf df B p -> safe_rel p.
Proof.
  intros cf df B p HB [a [b [c [-> [[pa [_ La]] [Hb Hc]]]]]].
  apply safe_leafname_some in La. destruct La as [Na [Ne [Nd Np]]]. apply HB in Hb.
  apply rel3_safe; try assumption.
  - apply hex_only_nosep; exact Hb.
  - apply hex_only_not_dotdot; exact Hb.
  - destruct Hc as [[pc [_ Lc]] | [e ->]]; [apply safe_leafname_some in Lc; apply Lc | apply roae_sym_nosep; exact Na].
  - destruct Hc as [[pc [_ Lc]] | [e ->]]; [apply safe_leafname_some in Lc; apply Lc | apply roae_sym_not_dotdot].
Qed.

Lemma drop_last_char_rev_suffix : forall r, exists t, r = t ++ drop_last_char_rev r.
Proof.
  induction r as [|c r [t IH]]; [exists []; reflexivity|]. cbn [drop_last_char_rev].
  destruct (is_cont c); [exists (c :: t); cbn [app]; rewrite <- IH; reflexivity | exists [c]; reflexivity].
Qed.

(* String::pop leaves a prefix *)
Lemma pop_char_prefix : forall p q, pop_char p = Some q -> exists t, p = q ++ t.
Proof.
  intros p q H. unfold pop_char in H.
  assert (Hq : q = rev (drop_last_char_rev (rev p))) by (destruct p; [discriminate | injection H as <-; reflexivity]).
  destruct (drop_last_char_rev_suffix (rev p)) as [t E]. exists (rev t).
  rewrite Hq, <- rev_app_distr, <- E. symmetry. apply rev_involutive.
Qed.

Lemma last_sep_decomp : forall q,
  nosep q \/ exists q1 s q2, is_sep s = true /\ q = q1 ++ s :: q2 /\ nosep q2.
Proof.
  induction q as [|x q IH]; [left; constructor|].
  destruct IH as [Hn | [q1 [s [q2 [Hs [Hq Hn]]]]]].
  - destruct (is_sep x) eqn:Hx.
    + right. exists [], x, q. split; [exact Hx|]. split; [reflexivity | exact Hn].
    + left. constructor; assumption.
  - right. exists (x :: q1), s, q2. split; [exact Hs|]. split; [rewrite Hq; reflexivity | exact Hn].
Qed.

(* replacing what follows [q] by '_' only changes the component that [q] ends in *)
Lemma prefix_underscore_safe : forall q t, safe_rel (q ++ t) -> safe_rel (q ++ [95]).
Proof.
  intros q t [H1 [H2 H3]]. unfold safe_rel. split; [|split].
  - destruct q as [|x q']; [reflexivity | exact H1].
  - destruct q as [|x q']; [reflexivity|]. destruct q' as [|y q''].
    + cbn [app has_drive_prefix]. apply andb_false_r.
    + exact H2.
  - assert (L : forall q2, nosep q2 -> Forall (fun c => c <> dotdot) (split_seps (q2 ++ [95]))).
    { intros q2 Hn. rewrite split_seps_nosep.
      - constructor; [apply snoc_not_dotdot; discriminate | constructor].
      - apply Forall_app. split; [exact Hn | repeat constructor]. }
    destruct (last_sep_decomp q) as [Hn | [q1 [s [q2 [Hs [-> Hn]]]]]]; [exact (L q Hn)|].
    rewrite <- app_assoc in H3 |- *. cbn [app] in H3 |- *.
    rewrite split_seps_app in H3 |- * by exact Hs.
    apply Forall_app in H3. apply Forall_app. split; [exact (proj1 H3) | exact (L q2 Hn)].
Qed.

Lemma moz_lookup_ret : forall l l', moz_lookup l = Ret l' ->
  exists q t, server_rel l = q ++ t /\ server_rel l' = q ++ [95] /\ cache_rel l' = cache_rel l.
Proof.
  intros l l' H. unfold moz_lookup in H. destruct (pop_char (server_rel l)) as [q|] eqn:E; [|discriminate].
  injection H as <-. destruct (pop_char_prefix _ _ E) as [t Ht]. exists q, t. auto.
Qed.

(* `.pop().unwrap()` panics on the empty string only *)
Lemma moz_no_panic : forall l, server_rel l <> [] -> exists l', moz_lookup l = Ret l'.
Proof.
  intros l N. unfold moz_lookup, pop_char. destruct (server_rel l); [contradiction | eexists; reflexivity].
Qed.

Lemma last_is_inv : forall f s, last_is f s = true -> exists r c, s = r ++ [c] /\ f c = true.
Proof.
  intros f s H. unfold last_is in H. destruct (rev s) as [|c t] eqn:E; [discriminate|].
  exists (rev t), c. split; [|exact H]. rewrite <- (rev_involutive s), E. reflexivity.
Qed.

Lemma last_slash_inv : forall s, last_is is_slash s = true -> exists r, s = r ++ [47].
Proof. intros s H. destruct (last_is_inv _ _ H) as [r [c [-> Hc]]]. apply Z.eqb_eq in Hc. subst c. exists r. reflexivity. Qed.

Lemma is_prefix_app : forall a b, is_prefix a (a ++ b) = true.
Proof. induction a as [|x a IH]; intro b; [reflexivity|]. cbn [app is_prefix]. rewrite Z.eqb_refl, IH. reflexivity. Qed.

Lemma join_contained : forall style root rel, safe_rel rel ->
  is_prefix root (join style root rel) = true /\
  exists s, join style root rel = root ++ s ++ rel /\ (s = [] \/ s = [47] \/ s = [92]) /\
            Forall (fun c => c <> dotdot) (split_seps (s ++ rel)).
Proof.
  intros style root rel [H1 [H2 H3]].
  assert (A : exists s, join style root rel = root ++ s ++ rel /\ (s = [] \/ s = [47] \/ s = [92])).
  { destruct style; cbn [join].
    - unfold posix_join.
      assert (Hs : starts_with_slash rel = false).
      { destruct rel as [|c r]; [reflexivity|]. apply orb_false_iff in H1. exact (proj1 H1). }
      rewrite Hs. destruct root as [|r0 root']; [exists []; auto|].
      destruct (last_is is_slash (r0 :: root')); [exists [] | exists [47]]; auto.
    - unfold windows_join. rewrite H2, H1. unfold win_append. destruct root as [|r0 root']; [exists []; auto|].
      destruct (last_is is_sep (r0 :: root') || is_bare_drive (r0 :: root')); [exists [] | exists [92]]; auto.
    - exists []. auto. }
  destruct A as [s [Hj Hsn]]. split; [rewrite Hj; apply is_prefix_app|].
  exists s. split; [exact Hj|]. split; [exact Hsn|].
  destruct Hsn as [-> | [-> | ->]]; [exact H3 | |]; (constructor; [discriminate | exact H3]).
Qed.

(* the fix only removes answers *)
Lemma pick_leaf_mono : forall p l, pick_leaf true p = Some l -> pick_leaf false p = Some l.
Proof.
  intros p l H. cbn [pick_leaf] in *. unfold safe_leafname in H.
  destruct (leafname p) as [|c r]; [discriminate|].
  destruct (_ || _); [discriminate | exact H].
Qed.

(* verbatim windows roots *)
Lemma verbatim_push_appends : forall comps buf, Forall (fun c => c <> dotdot) comps ->
  exists t, verbatim_push buf comps = buf ++ t /\ Forall (fun c => c <> dotdot /\ c <> [] /\ c <> [46]) t.
Proof.
  induction comps as [|c r IH]; intros buf H.
  - exists []. split; [cbn; rewrite app_nil_r; reflexivity | constructor].
  - apply Forall_cons_iff in H. destruct H as [Hc Hr]. cbn [verbatim_push].
    destruct ((match c with [] => true | _ => false end) || str_eqb c [46]) eqn:E1.
    + exact (IH buf Hr).
    + apply orb_false_iff in E1. destruct E1 as [E1 E2].
      apply str_eqb_false in Hc. rewrite Hc. destruct (IH (buf ++ [c]) Hr) as [t [Ht Ft]].
      exists (c :: t). split; [rewrite Ht, <- app_assoc; reflexivity|].
      constructor; [|exact Ft]. split; [apply str_eqb_false; exact Hc|].
      split; [intro; subst c; discriminate | apply str_eqb_false; exact E2].
Qed.
