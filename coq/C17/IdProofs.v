(* C17/IdProofs.v — every identifier VALUE renders as hex-only text: the hypothesis `opt_hex` of the path theorems
   holds for all DebugId values and all raw code id strings. *)
From RM Require Import C17.Model C17.Proofs C17.IdModel C17.Prims C17.Tie Gen.C17Lookup.
From Coq Require Import Lia.
Open Scope Z_scope.

Lemma hex_digit_hex : forall up n, 0 <= n < 16 -> is_hex (hex_digit up n) = true.
Proof.
  intros up n H. apply is_hex_iff. unfold hex_digit.
  destruct (n <? 10) eqn:E; [apply Z.ltb_lt in E | apply Z.ltb_ge in E; destruct up]; lia.
Qed.

Lemma hex_fixed_hex : forall up d v, hex_only (hex_fixed up d v).
Proof.
  intros up d. induction d as [|d IH]; intro v; [constructor|].
  cbn [hex_fixed]. apply Forall_app. split; [apply IH|].
  constructor; [|constructor]. apply hex_digit_hex. apply Z.mod_pos_bound. lia.
Qed.

Lemma strip_zeros_hex : forall s, hex_only s -> hex_only (strip_zeros s).
Proof.
  induction s as [|c r IH]; intro H; [exact H|].
  destruct r as [|c' r']; [exact H|]. cbn [strip_zeros].
  destruct (c =? 48); [apply IH; inversion H; assumption | exact H].
Qed.

Lemma breakpad_text_hex : forall d, hex_only (breakpad_text d).
Proof.
  intro d. unfold breakpad_text, hex_min. apply Forall_app. split; [apply hex_fixed_hex|].
  apply strip_zeros_hex. apply hex_fixed_hex.
Qed.

Lemma hex_fixed_nonempty : forall up n v, hex_fixed up (S n) v <> [].
Proof. intros up n v E. cbn [hex_fixed] in E. exact (app_cons_not_nil _ _ _ (eq_sym E)). Qed.

Lemma breakpad_text_nonempty : forall d, breakpad_text d <> [].
Proof.
  intros d E. unfold breakpad_text in E. apply app_eq_nil in E. destruct E as [E _].
  destruct (d_pdb20 d); [exact (hex_fixed_nonempty _ 7 _ E) | exact (hex_fixed_nonempty _ 31 _ E)].
Qed.

Lemma lower_hex : forall c, is_hex c = true -> is_hex (lower c) = true.
Proof.
  intros c H. apply is_hex_iff in H. apply is_hex_iff. unfold lower.
  destruct ((65 <=? c) && (c <=? 90)) eqn:E; [|exact H].
  apply andb_true_iff in E. destruct E as [E1 E2]. apply Z.leb_le in E1, E2. lia.
Qed.

Lemma code_id_text_hex : forall raw, hex_only (code_id_text raw).
Proof.
  intro raw. unfold code_id_text, hex_only. apply Forall_forall. intros c Hc.
  apply in_map_iff in Hc. destruct Hc as [x [Ex Hx]]. subst c.
  apply filter_In in Hx. apply lower_hex. exact (proj2 Hx).
Qed.

(* a module whose identifiers are arbitrary VALUES: any DebugId, any raw code id text *)
Definition module_of_ids (code_file : str) (debug_file : option str) (d : option debug_id) (raw_code_id : option str)
  : module_view :=
  {| m_code_file := code_file; m_code_identifier := option_map code_id_text raw_code_id;
     m_debug_file := debug_file; m_debug_identifier := option_map breakpad_text d |}.

Lemma module_of_ids_hex : forall cf df d raw, mv_hex (module_of_ids cf df d raw).
Proof.
  intros cf df d raw. split; cbn.
  - destruct d; cbn; [apply breakpad_text_hex | exact I].
  - destruct raw; cbn; [apply code_id_text_hex | exact I].
Qed.
