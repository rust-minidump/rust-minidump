(* C17/ServerUrlProofs.v — the root of a symbol server is the WHOLE configured URL path: HttpSymbolSupplier::new appends
   the missing '/', so the base path ends with '/', base_dir is the identity on it, and every lookup path is requested
   below the configured path itself (not below its parent). *)
From Coq Require Import Lia.
From RM Require Import C17.Model C17.Proofs C17.UrlModel C17.UrlProofs C17.UrlFull.
Open Scope Z_scope.

Lemma ends_slash_snoc : forall x, ends_slash (x ++ [47]) = true.
Proof. intro x. unfold ends_slash, last_is. rewrite rev_app_distr. reflexivity. Qed.

Lemma path_step_true_ends : forall p seg, ends_slash (path_step p seg true) = true.
Proof.
  intros p seg. unfold path_step.
  destruct (is_dotdot_seg (url_path_encode seg)).
  - cbn [andb]. set (p2 := pop_path _). destruct (ends_slash p2) eqn:E; cbn [negb]; [exact E | apply ends_slash_snoc].
  - destruct (is_dot_seg (url_path_encode seg)).
    + destruct (ends_slash p) eqn:E; [exact E | apply ends_slash_snoc].
    + rewrite app_assoc. apply ends_slash_snoc.
Qed.

Lemma path_steps_trailing_empty : forall segs p, ends_slash p = true -> ends_slash (path_steps p (segs ++ [[]])) = true.
Proof.
  induction segs as [|s r IH]; intros p H.
  - cbn [app path_steps]. unfold path_step. cbn. rewrite app_nil_r. exact H.
  - replace (path_steps p ((s :: r) ++ [[]])) with (path_steps (path_step p s true) (r ++ [[]])).
    + apply IH. apply path_step_true_ends.
    + destruct r; reflexivity.
Qed.

Definition no_qf (s : str) : Prop := Forall (fun c => c <> 63 /\ c <> 35) s.

(* a raw URL tail that ends with '/' and has no query / fragment parses to a path that ends with '/' *)
Lemma base_path_of_ends : forall x, no_qf x -> ends_slash (server_base_path_of (x ++ [47])) = true.
Proof.
  intros x H. unfold server_base_path_of. rewrite rev_app_distr. cbn [rev app]. cbn [drop_while]. unfold c0_or_space at 1.
  replace (47 <=? 32) with false by reflexivity. cbn [rev]. rewrite rev_involutive.
  replace (filter (fun c : Z => negb (tab_or_nl c)) (x ++ [47])) with (filter (fun c : Z => negb (tab_or_nl c)) x ++ [47])
    by (rewrite filter_app; reflexivity).
  rewrite path_part_id.
  - rewrite split_seps_app by reflexivity. cbn [split_seps]. apply path_steps_trailing_empty. reflexivity.
  - apply Forall_app. split; [exact (incl_Forall (incl_filter _ x) H) | repeat constructor; lia].
Qed.

Lemma server_base_path_ends : forall suffix, no_qf suffix -> ends_slash (server_base_path suffix) = true.
Proof.
  intros suffix H. unfold server_base_path, normalise_suffix.
  destruct (last_is is_slash suffix) eqn:L.
  - destruct (last_slash_inv suffix L) as [x E]. subst suffix. apply base_path_of_ends.
    apply Forall_app in H. exact (proj1 H).
  - destruct suffix as [|c r]; [reflexivity|]. apply base_path_of_ends. exact H.
Qed.

Lemma base_dir_of_dir : forall bp, ends_slash bp = true -> base_dir bp = bp.
Proof.
  intros bp H. destruct (last_slash_inv bp H) as [x E]. subst bp. unfold base_dir, pop_path.
  rewrite rev_app_distr. cbn [rev app drop_while]. replace (negb (47 =? 47)) with false by reflexivity.
  cbn [rev]. rewrite rev_involutive. destruct x; reflexivity.
Qed.
