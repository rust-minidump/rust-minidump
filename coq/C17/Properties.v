(* C17/Properties.v — the property theorems of C17, each with its full statement, a short proof from the lemmas of
   the lemma files (an instance, or a few lines; later theorems use earlier ones) and its `Print Assumptions`, and
   the non-vacuity examples, proved by evaluation.
   Strings are byte lists; [safe_rel p] is exactly the property's three conditions:
   p does not start with '/' or '\\' (hence no UNC prefix), has no drive prefix (ASCII
   letter + ':' as its first two bytes), and no component — split on either separator —
   equal to "..".  A first component "." or an empty path is not flagged. *)
From RM Require Import C17.Model C17.Proofs.
Open Scope Z_scope.

(* All (code_file, debug_file, hex-only debug id, hex-only code id), every FileKind:
   every produced cache_rel / server_rel is genuinely relative. *)
Theorem c17_relative : forall code_file debug_file dbg_id code_id kind l,
  opt_hex dbg_id -> opt_hex code_id ->
  lookup kind code_file debug_file dbg_id code_id = Some l ->
  safe_rel (cache_rel l) /\ safe_rel (server_rel l).
Proof.
  intros cf df id cid k l. apply lookup_all. intros B p. apply layout_safe.
Qed.
Print Assumptions c17_relative.

(* the code-info variant (`<code file>/<CODE ID>/<code file>.sym`) *)
Theorem c17_relative_code_info : forall code_file code_id p, opt_hex code_id ->
  code_info_breakpad_sym_lookup code_file code_id = Some p -> safe_rel p.
Proof.
  intros cf cid p. apply code_info_all. intros B q. apply layout_safe.
Qed.
Print Assumptions c17_relative_code_info.

(* the mozilla-CAB variant: moz_lookup keeps a safe server path safe, leaves cache_rel
   alone, and its `.pop().unwrap()` never panics on what binary_lookup produces *)
Theorem c17_relative_moz : forall l l', safe_rel (server_rel l) -> moz_lookup l = Ret l' ->
  safe_rel (server_rel l') /\ cache_rel l' = cache_rel l.
Proof.
  intros l l' Hs H. destruct (moz_lookup_ret l l' H) as [q [t [E [-> C]]]]. rewrite E in Hs.
  split; [exact (prefix_underscore_safe q t Hs) | exact C].
Qed.
Print Assumptions c17_relative_moz.

Theorem c17_moz_no_panic : forall code_file code_id debug_file dbg_id l,
  binary_lookup code_file code_id debug_file dbg_id = Some l -> exists l', moz_lookup l = Ret l'.
Proof.
  intros cf cid df id l H. apply moz_no_panic.
  exact (layout_nonempty _ _ _ _ _ (proj2 (lookup_gen_layout true KBinary cf df id cid l H))).
Qed.
Print Assumptions c17_moz_no_panic.

(* Joining a safe relative path onto any root — POSIX Path::join, Windows Path::join, URL
   by concatenation — appends it (after at most one separator): the root stays a prefix
   and nothing appended is a ".." component. *)
Theorem c17_join_contained : forall style root rel, safe_rel rel ->
  is_prefix root (join style root rel) = true /\
  exists s, join style root rel = root ++ s ++ rel /\ (s = [] \/ s = [47] \/ s = [92]) /\
            Forall (fun c => c <> dotdot) (split_seps (s ++ rel)).
Proof. exact join_contained. Qed.
Print Assumptions c17_join_contained.

(* ... and onto a VERBATIM Windows root (`\\?\C:\cache`), where PathBuf::push replays the argument's
   components instead of appending text: the root's components stay a prefix and only ordinary
   components (not "..", ".", "") are added *)
Theorem c17_join_verbatim_contained : forall root_components rel, safe_rel rel ->
  exists t, verbatim_push root_components (split_seps rel) = root_components ++ t /\
            Forall (fun c => c <> dotdot /\ c <> [] /\ c <> [46]) t.
Proof. intros b rel [_ [_ H]]. exact (verbatim_push_appends (split_seps rel) b H). Qed.
Print Assumptions c17_join_verbatim_contained.

(* The tree before the fix of F-C17a ([lookup_gen false]: every leaf used as it is)
   violates each of the three conditions; debug files "..", "" and "C:evil.pdb". *)
Definition id33 : str := repeat 48 33.   (* DebugId::nil().breakpad() = "0" x 33 *)
Theorem c17_relative_unfixed_refuted :
  (exists df l, lookup_gen false KBreakpadSym [] (Some df) (Some id33) None = Some l /\
                hex_only id33 /\ Exists (fun c => c = dotdot) (split_seps (cache_rel l))) /\
  (exists df l, lookup_gen false KBreakpadSym [] (Some df) (Some id33) None = Some l /\
                starts_with_sep (cache_rel l) = true) /\
  (exists df l, lookup_gen false KBreakpadSym [] (Some df) (Some id33) None = Some l /\
                has_drive_prefix (cache_rel l) = true) /\
  (exists cf l, lookup_gen false KBinary cf (Some [97]) (Some id33) (Some []) = Some l /\
                safe_relb (cache_rel l) = false /\ safe_relb (server_rel l) = false).
Proof.
  split; [|split; [|split]].
  - exists dotdot. eexists. split; [reflexivity|]. split; [apply hex_only_b; reflexivity|].
    vm_compute. constructor. reflexivity.
  - exists []. eexists. split; reflexivity.
  - exists [67; 58; 101; 118; 105; 108; 46; 112; 100; 98]. eexists. split; reflexivity.
  - exists [97; 47; 46; 46]. eexists. split; [reflexivity|]. split; reflexivity.
Qed.
Print Assumptions c17_relative_unfixed_refuted.

(* the fix only removes answers: whatever the code returns now, it returned before *)
Theorem c17_fix_conservative : forall kind code_file debug_file dbg_id code_id l,
  lookup kind code_file debug_file dbg_id code_id = Some l ->
  lookup_gen false kind code_file debug_file dbg_id code_id = Some l.
Proof.
  intros k cf df id cid l H. destruct df as [df|], id as [id|]; try (destruct k, cid; discriminate).
  destruct k; cbn [lookup lookup_gen] in *.
  - unfold breakpad_sym_lookup_gen in *. destruct (pick_leaf true df) eqn:E; [|discriminate].
    rewrite (pick_leaf_mono _ _ E). exact H.
  - unfold binary_lookup_gen in *. destruct cid; [|discriminate].
    destruct (pick_leaf true cf) eqn:E1; [|discriminate]. destruct (pick_leaf true df) eqn:E2; [|discriminate].
    rewrite (pick_leaf_mono _ _ E1), (pick_leaf_mono _ _ E2). exact H.
  - unfold extra_debuginfo_lookup_gen in *. destruct (pick_leaf true df) eqn:E; [|discriminate].
    rewrite (pick_leaf_mono _ _ E). exact H.
Qed.
Print Assumptions c17_fix_conservative.

(* "c:\foo\Test.PDB", id 5A9832E5287241C1838ED98914E9B7FF + 1, code file "C:/w/kernel32.dll", code id 5a9832e5 *)
Definition ex_id : str :=
  [53;65;57;56;51;50;69;53;50;56;55;50;52;49;67;49;56;51;56;69;68;57;56;57;49;52;69;57;66;55;70;70;49].
Example c17_nonvacuous_binary :
  exists l, lookup KBinary [67;58;47;119;47;107;46;100;108;108] (Some [99;58;92;102;111;111;92;84;46;80;68;66])
                   (Some ex_id) (Some [53;97]) = Some l /\
            cache_rel l = [84;46;80;68;66;47] ++ ex_id ++ [47;107;46;100;108;108] /\
            server_rel l = [107;46;100;108;108;47;53;97;47;107;46;100;108;108] /\
            hex_only ex_id /\ safe_relb (cache_rel l) = true.
Proof.
  eexists. split; [reflexivity|]. split; [reflexivity|]. split; [reflexivity|].
  split; [apply hex_only_b; reflexivity | vm_compute; reflexivity].
Qed.
(* ".PDB" is matched case-insensitively and replaced: T.PDB -> T.sym *)
Example c17_nonvacuous_sym :
  option_map cache_rel (lookup KBreakpadSym [] (Some [99;58;92;84;46;80;68;66]) (Some [48;49]) None)
  = Some [84;46;80;68;66;47;48;49;47;84;46;115;121;109].
Proof. vm_compute. reflexivity. Qed.
(* the fixed code still answers for the leaf "." (not a violation by the property's wording) *)
Example c17_nonvacuous_dot :
  option_map cache_rel (lookup KBreakpadSym [] (Some [46]) (Some [48]) None) = Some [46;47;48;47;46;46;115;121;109]
  /\ safe_relb [46;47;48;47;46;46;115;121;109] = true.
Proof. vm_compute. split; reflexivity. Qed.
(* and declines the degenerate leaves *)
Example c17_nonvacuous_declined :
  lookup KBreakpadSym [] (Some dotdot) (Some [48]) None = None /\
  lookup KBreakpadSym [] (Some [97;47]) (Some [48]) None = None /\
  lookup KBreakpadSym [] (Some [67;58;101]) (Some [48]) None = None.
Proof. vm_compute. repeat split. Qed.
(* the join model does replace the root for unsafe arguments (it is not an append in disguise) *)
Example c17_nonvacuous_join :
  join Posix [47;115] [47;120] = [47;120] /\
  join Windows [67;58;92;115] [68;58;120] = [68;58;120] /\
  join Windows [67;58;92;115] [92;120] = [67;58;92;120] /\
  join Windows [67;58;92;115] [92;92;120] = [92;92;120] /\
  join Posix [47;115] [97;47;98] = [47;115;47;97;47;98] /\
  join Windows [67;58;92;115] [97;47;98] = [67;58;92;115;92;97;47;98] /\
  join Windows [67;58] [97] = [67;58;97] /\
  join Posix [47;115;47] [] = [47;115;47] /\ join Posix [47;115] [] = [47;115;47] /\
  verbatim_push [[99]; [100]] (split_seps [46;46;47;97;47;46;47;47;98]) = [[99]; [97]; [98]].   (* c\d + "../a/.//b" *)
Proof. vm_compute. repeat split. Qed.
(* moz_lookup pops one *character*: "a/1/é" -> "a/1/_" *)
Example c17_nonvacuous_moz :
  moz_lookup {| cache_rel := [97]; server_rel := [97;47;49;47;195;169] |}
  = Ret {| cache_rel := [97]; server_rel := [97;47;49;47;95] |}.
Proof. vm_compute. reflexivity. Qed.

(* ====================================================================================
   URL joining as the code does it: http.rs join_rel (percent-encoding) followed by
   Url::join, i.e. WHATWG reference resolution against an http(s) base (C17/UrlModel.v:
   input trimming, scheme detection, the relative / absolute-path / authority / query /
   fragment branches, pop_path, segment splitting on '/' and '\', the PATH percent-encode
   set, single- and double-dot segments in all nine + three spellings).
   [request_path base_path rel] is the path of the URL requested for [rel]; [None] means
   the reference selected another scheme or authority.  [bytes]: every element is 0..255. *)
From RM Require Import C17.UrlModel C17.UrlProofs C17.UrlFull C17.UrlFullProofs.

(* every safe relative byte path: the encoded reference is a plain relative path (no scheme,
   authority, query or fragment can be parsed from it) and resolution only appends to the base
   directory — for EVERY base path *)
Theorem c17_url_join_contained : forall base_path p, bytes p -> safe_rel p ->
  exists r, request_path base_path p = Some r /\
            ((p = [] /\ r = base_path) \/ exists t, r = base_dir base_path ++ t).
Proof. exact url_join_contained. Qed.
Print Assumptions c17_url_join_contained.

(* hence every server path the builders produce (all byte strings, hex ids, all kinds, and the
   mozilla-CAB variant) is requested below the base directory *)
Theorem c17_url_requests_contained : forall base_path kind code_file debug_file dbg_id code_id l,
  bytes code_file -> opt_bytes debug_file -> opt_hex dbg_id -> opt_hex code_id ->
  lookup kind code_file debug_file dbg_id code_id = Some l ->
  (exists r, request_path base_path (server_rel l) = Some r /\ is_prefix (base_dir base_path) r = true) /\
  (forall l', moz_lookup l = Ret l' ->
     exists r, request_path base_path (server_rel l') = Some r /\ is_prefix (base_dir base_path) r = true).
Proof.
  intros bp k cf df id cid l Bcf Bdf Hid Hcid H.
  destruct (lookup_joinable k cf df id cid l Bcf Bdf Hid Hcid H) as [_ J].
  split; [exact (joinable_requested bp _ J)|].
  intros l' M. exact (joinable_requested bp _ (proj1 (moz_joinable l l' J M))).
Qed.
Print Assumptions c17_url_requests_contained.

Theorem c17_url_code_info_contained : forall base_path code_file code_id p,
  bytes code_file -> opt_hex code_id ->
  code_info_breakpad_sym_lookup code_file code_id = Some p ->
  exists r, request_path base_path p = Some r /\ is_prefix (base_dir base_path) r = true.
Proof. intros bp cf cid p B H E. exact (joinable_requested bp p (code_info_joinable cf cid p B H E)). Qed.
Print Assumptions c17_url_code_info_contained.

(* F-C17b: without join_rel's encoding (the tree before f01a962) paths that satisfy the three
   conditions leave the base directory /root/ or the server *)
Theorem c17_url_unencoded_refuted :
  let root := [47;114;47] in                                         (* "/r/" *)
  safe_relb [37;50;69;37;50;69;47;48;47;120] = true /\               (* "%2E%2E/0/x" *)
  url_join_path root [37;50;69;37;50;69;47;48;47;120] = Some [47;48;47;120] /\   (* "/0/x" *)
  safe_relb [9;47;48;47;120] = true /\ url_join_path root [9;47;48;47;120] = Some [47;48;47;120] /\  (* TAB leaf *)
  safe_relb [46;9;46;47;48] = true /\ url_join_path root [46;9;46;47;48] = Some [47;48] /\           (* ".<TAB>./0" *)
  safe_relb [97;98;58;99;47;48] = true /\ url_join_path root [97;98;58;99;47;48] = None.            (* "ab:c/0" *)
Proof. vm_compute. repeat split. Qed.
Print Assumptions c17_url_unencoded_refuted.

(* with the encoding the same leaves stay below /r/ *)
Example c17_nonvacuous_url :
  request_path [47;114;47] [37;50;69;37;50;69;47;48;47;120]
    = Some [47;114;47;37;50;53;50;69;37;50;53;50;69;47;48;47;120] /\        (* /r/%252E%252E/0/x *)
  request_path [47;114;47] [46;9;46;47;48] = Some [47;114;47;46;37;48;57;46;47;48] /\   (* /r/.%09./0 *)
  request_path [47;114;47;105] [46;47;97;32;195;169] = Some [47;114;47;97;37;50;48;37;67;51;37;65;57] /\ (* "./a é" on /r/i -> /r/a%20%C3%A9 *)
  url_join_path [47;114;47;115;47] [46;46;47;46;46;47;46;46;47;120] = Some [47;120].      (* the model pops, never above "/" *)
Proof. vm_compute. repeat split. Qed.

(* ====================================================================================
   The WHOLE of Url::join's dispatch (C17/UrlFull.v): scheme detection incl. the
   "special scheme equal to the base's, fewer than two slashes => relative" rule, file / non-special schemes, the
   authority branch (leading "//", "\\/", ...), absolute paths, query / fragment — not only the relative-path
   branch the path-only model answers.  [request_target scheme base_path p] = where http.rs sends the request for
   the lookup path p: JSame path (the configured server), JAuthority (another host), JOpaque (another scheme). *)

(* ALL byte strings p, no hypothesis at all: after join_rel's encoding the request never leaves the configured
   server's scheme, and it leaves its authority (host) exactly when p starts with "//" *)
Theorem c17_url_resolve_all_strings : forall base_scheme base_path p, bytes p ->
  match request_target base_scheme base_path p with
  | JOpaque _ _ => False
  | JAuthority s _ => s = base_scheme /\ starts_two_slashes p = true
  | JSame _ => starts_two_slashes p = false
  end.
Proof.
  intros sch bp p B. rewrite (request_target_all sch bp p B). unfold target_spec, starts_two_slashes.
  destruct p as [|c [|c2 r2]]; [reflexivity | destruct (c =? 47); reflexivity |].
  destruct (c =? 47); [|reflexivity]. destruct (c2 =? 47); [split; reflexivity | reflexivity].
Qed.
Print Assumptions c17_url_resolve_all_strings.

(* the exact request target of every byte string (target_spec: the empty path keeps the base path; "//" selects an
   authority; one leading "/" resolves from the root; anything else below the base directory, segment by segment) *)
Theorem c17_url_resolve_exact : forall base_scheme base_path p, bytes p ->
  request_target base_scheme base_path p = target_spec base_scheme base_path p.
Proof. exact request_target_all. Qed.
Print Assumptions c17_url_resolve_exact.

(* a safe relative path: the configured scheme and authority, and a path below the base directory *)
Theorem c17_url_resolve_contained : forall base_scheme base_path p, bytes p -> safe_rel p ->
  exists r, request_target base_scheme base_path p = JSame r /\
            ((p = [] /\ r = base_path) \/ exists t, r = base_dir base_path ++ t).
Proof.
  intros sch bp p B S. destruct (url_join_contained bp p B S) as [r [H C]].
  exists r. split; [|exact C]. unfold request_target. apply resolve_agrees. exact H.
Qed.
Print Assumptions c17_url_resolve_contained.

(* the full model and the path-only model of C17/UrlModel.v agree wherever the latter answers *)
Theorem c17_url_models_agree : forall base_scheme base_path reference q,
  url_join_path base_path reference = Some q -> url_resolve base_scheme base_path reference = JSame q.
Proof. exact resolve_agrees. Qed.
Print Assumptions c17_url_models_agree.

(* non-vacuity / what the other branches do on raw references (these are what the url crate is compared with):
   https://e/x -> host e; http:x against an http base is RELATIVE (/r/x) but against https it is host x;
   //e/x and \/e?x -> host e; HT<TAB>TP:/x -> /x; ab:c and File:///x -> another scheme; /x and ../x -> /x *)
Example c17_nonvacuous_url_branches :
  url_resolve s_http b_r [104;116;116;112;115;58;47;47;101;47;120] = JAuthority s_https [101] /\
  url_resolve s_http b_r [104;116;116;112;58;120] = JSame [47;114;47;120] /\
  url_resolve s_https b_r [104;116;116;112;58;120] = JAuthority s_http [120] /\
  url_resolve s_http b_r [104;116;116;112;58;47;47;101;64;102;47] = JAuthority s_http [101;64;102] /\
  url_resolve s_http b_r [47;47;101;47;120] = JAuthority s_http [101] /\
  url_resolve s_http b_r [92;47;101;63;120] = JAuthority s_http [101] /\
  url_resolve s_http b_r [72;84;9;84;80;58;47;120] = JSame [47;120] /\
  url_resolve s_http b_r [97;98;58;99] = JOpaque [97;98] [99] /\
  url_resolve s_http b_r [70;105;108;101;58;47;47;47;120] = JOpaque s_file [47;47;47;120] /\
  url_resolve s_http b_r [47;120] = JSame [47;120] /\
  url_resolve s_http b_r [46;46;47;120] = JSame [47;120].
Proof. vm_compute. repeat split. Qed.
(* and through join_rel: "https://e/x" -> /r/https%3A//e/x, "\\\\e\\x" -> /r/%5C%5Ce%5Cx on the configured server;
   "//e/x" -> host e and "/x" -> /x: the two shapes the property's first condition excludes *)
Example c17_nonvacuous_url_encoded :
  request_target s_http b_r [104;116;116;112;115;58;47;47;101;47;120]
    = JSame [47;114;47;104;116;116;112;115;37;51;65;47;47;101;47;120] /\
  request_target s_http b_r [92;92;101;92;120] = JSame [47;114;47;37;53;67;37;53;67;101;37;53;67;120] /\
  request_target s_http b_r [47;47;101;47;120] = JAuthority s_http [101] /\
  request_target s_http b_r [47;120] = JSame [47;120].
Proof. vm_compute. repeat split. Qed.

(* ====================================================================================
   The consumers.  [joined_fields c module] is every string consumer c passes to Path::join or
   join_rel for the module (C17/Consumers.v); Gen/JoinSites.v is every `.join(` / `join_rel(`
   call of the non-test code of breakpad-symbols/src/{lib,http}.rs, regenerated on every run. *)
From RM Require Import C17.Consumers Gen.JoinSites.

(* every string a modelled consumer joins onto a symbol directory, a cache directory or a
   server URL is a safe relative path: all byte strings, hex ids, every consumer *)
Theorem c17_consumers_join_only_safe : forall c code_file debug_file dbg_id code_id,
  opt_hex dbg_id -> opt_hex code_id ->
  forall r s, In (r, s) (joined_fields c code_file debug_file dbg_id code_id) -> safe_rel s.
Proof.
  intros c cf df id cid Hid Hcid r s H.
  (* a consumer that joins fields of a lookup joins fields of some l with both paths safe *)
  assert (L : forall k (f : file_lookup -> list (root * str)),
            In (r, s) (of_lookup (lookup k cf df id cid) f) ->
            exists l, safe_rel (cache_rel l) /\ safe_rel (server_rel l) /\ In (r, s) (f l)).
  { intros k f I. destruct (lookup k cf df id cid) as [l|] eqn:E; [|destruct I]. exists l.
    destruct (c17_relative _ _ _ _ _ _ Hid Hcid E). auto. }
  destruct c as [k| |k|k|]; cbn [joined_fields] in H.
  - destruct (L _ _ H) as [l [Sc [_ I]]]. destruct I as [E|[]]. injection E as _ <-. exact Sc.   (* SimpleLocateFile *)
  - destruct (L _ _ H) as [l [Sc [Ss I]]]. cbn [In] in I. destruct I as [E|[E|[]]]; injection E as _ <-; assumption.   (* HttpFetchSymbolFile *)
  - destruct (L _ _ H) as [l [Sc [Ss I]]]. cbn [In] in I. destruct I as [E|[E|[]]]; injection E as _ <-; assumption.   (* HttpFetchLookup *)
  - (* HttpFetchCabLookup: the server path is moz_lookup's *)
    destruct (L _ _ H) as [l [Sc [Ss I]]]. cbv beta in I. destruct (moz_lookup l) as [l'| | |] eqn:M; [|destruct I ..].
    destruct (c17_relative_moz l l' Ss M) as [Sm _]. cbn [In] in I. destruct I as [E|[E|[]]]; injection E as _ <-; assumption.
  - (* HttpCodeInfo *) destruct (code_info_breakpad_sym_lookup cf cid) as [p|] eqn:E; [|destruct H].
    destruct H as [H|[]]. injection H as _ <-. exact (c17_relative_code_info cf cid p Hcid E).
Qed.
Print Assumptions c17_consumers_join_only_safe.

(* the join sites of the source are exactly the modelled ones (a new or changed join site —
   e.g. joining FileLookup.debug_file — fails here, and Coq prints both lists) *)
Theorem c17_join_sites_modelled : join_sites = map fst modelled_join_sites.
Proof. first [reflexivity | vm_compute; reflexivity]. Qed.   (* the second branch only to print both lists when they differ *)
Print Assumptions c17_join_sites_modelled.

(* ====================================================================================
   The property on the model GENERATED from the Rust source.
   Gen/C17Lookup.v is compiled on every run by translate/c17_lookup.py from the bodies of leafname,
   safe_leafname, replace_or_add_extension, the four builders, moz_lookup, lookup (lib.rs) and the
   escape set of join_rel (http.rs), over the std vocabulary of C17/Prims.v.  [module_view] is the module
   as the builders see it (code_file, code_identifier, debug_file, debug_identifier as breakpad text). *)
From RM Require Import C17.Prims C17.Tie Gen.C17Lookup.

(* the generated functions ARE the model the theorems above are about: for all strings / modules.
   (which separator leafname searches, the emptiness / `..` / drive tests of safe_leafname, the order of the
   `?` steps and which leaf goes where in each builder, moz_lookup's pop/push, lookup's dispatch, the
   characters join_rel escapes, and no slice expression that could panic) *)
Theorem c17_src_tie :
  (forall p, g_leafname p = leafname p) /\
  (forall p, g_safe_leafname p = safe_leafname p) /\
  (forall f e n, g_replace_or_add_extension f e n = replace_or_add_extension f e n) /\
  (forall m k, g_lookup m k = mv_args (lookup k) m) /\
  (forall m, g_breakpad_sym_lookup m = mv_args (lookup KBreakpadSym) m) /\
  (forall m, g_binary_lookup m = mv_args (lookup KBinary) m) /\
  (forall m, g_extra_debuginfo_lookup m = mv_args (lookup KExtraDebugInfo) m) /\
  (forall m, g_code_info_breakpad_sym_lookup m = code_info_breakpad_sym_lookup (m_code_file m) (m_code_identifier m)) /\
  (forall l, g_moz_lookup l = moz_lookup l) /\
  (forall p, bytes p -> g_join_rel_enc p = join_rel_enc p) /\
  g_partial_ops = O.
Proof.
  (* one equation of C17/Tie.v per conjunct; the three builders are g_lookup at their kind *)
  exact (conj g_leafname_eq (conj g_safe_leafname_eq (conj g_roae_eq (conj g_lookup_eq
        (conj (fun m => g_lookup_eq m KBreakpadSym) (conj (fun m => g_lookup_eq m KBinary)
        (conj (fun m => g_lookup_eq m KExtraDebugInfo) (conj g_code_info_eq (conj g_moz_eq
        (conj g_join_rel_enc_eq g_no_partial_ops)))))))))).
Qed.
Print Assumptions c17_src_tie.

(* the property, stated directly on the generated code: every module (all strings incl. mixed and
   trailing separators, hex ids), every FileKind *)
Theorem c17_src_relative : forall m kind l, mv_hex m -> g_lookup m kind = Some l ->
  safe_rel (cache_rel l) /\ safe_rel (server_rel l).
Proof. intros m k l [H1 H2] H. rewrite g_lookup_eq in H. exact (c17_relative _ _ _ _ _ _ H1 H2 H). Qed.
Print Assumptions c17_src_relative.

(* ... and joined the way the consumers join it: cache_rel onto any root by Path::join (POSIX / Windows)
   or concatenation keeps the root a prefix; server_rel — also after moz_lookup — through the generated
   join_rel encoder and Url::join is requested below the base directory of every base path *)
Theorem c17_src_contained : forall m kind l, mv_bytes m -> mv_hex m -> g_lookup m kind = Some l ->
  (forall style root, is_prefix root (join style root (cache_rel l)) = true) /\
  (forall base_path, exists r, g_request_path base_path (server_rel l) = Some r /\
                               is_prefix (base_dir base_path) r = true) /\
  (forall l', g_moz_lookup l = Ret l' ->
     cache_rel l' = cache_rel l /\
     forall base_path, exists r, g_request_path base_path (server_rel l') = Some r /\
                                 is_prefix (base_dir base_path) r = true).
Proof.
  intros m k l MB MH H. destruct (g_lookup_joinable m k l MB MH H) as [Jc Js].
  split; [intros style root; exact (proj1 (join_contained style root _ (proj1 Jc)))|].
  split; [intro bp; exact (g_joinable_requested bp _ Js)|].
  intros l' M. rewrite g_moz_eq in M. destruct (moz_joinable l l' Js M) as [J C].
  split; [exact C | intro bp; exact (g_joinable_requested bp _ J)].
Qed.
Print Assumptions c17_src_contained.

Theorem c17_src_code_info_contained : forall m p base_path, mv_bytes m -> mv_hex m ->
  g_code_info_breakpad_sym_lookup m = Some p ->
  safe_rel p /\ exists r, g_request_path base_path p = Some r /\ is_prefix (base_dir base_path) r = true.
Proof.
  intros m p bp MB MH H. pose proof (g_code_info_joinable m p MB MH H) as J.
  split; [exact (proj1 J) | exact (g_joinable_requested bp p J)].
Qed.
Print Assumptions c17_src_code_info_contained.

(* moz_lookup's unwrap never panics on what the generated binary_lookup returns; the result stays safe *)
Theorem c17_src_moz : forall m l, g_binary_lookup m = Some l ->
  exists l', g_moz_lookup l = Ret l' /\ cache_rel l' = cache_rel l /\ (mv_hex m -> safe_rel (server_rel l')).
Proof.
  intros m l H. rewrite g_binary_eq in H. destruct (c17_moz_no_panic _ _ _ _ _ H) as [l' M].
  exists l'. rewrite g_moz_eq. split; [exact M|].
  destruct (moz_lookup_ret l l' M) as [_ [_ [_ [_ C]]]]. split; [exact C|].
  intros [H1 H2]. exact (proj1 (c17_relative_moz l l' (proj2 (c17_relative _ _ _ _ KBinary l H1 H2 H)) M)).
Qed.
Print Assumptions c17_src_moz.

(* non-vacuity: a module with mixed separators ("c:\b/T.PDB", code file "C:/w\k.dll"); names that
   would escape if only one separator style were searched or a trailing separator ignored are handled ("x\../s" has
   the leaf "s"; "a\" and "C:\w/" have none and are declined) *)
Definition ex_module (cf df : str) : module_view :=
  {| m_code_file := cf; m_code_identifier := Some [53;97]; m_debug_file := Some df; m_debug_identifier := Some ex_id |}.
Example c17_nonvacuous_src :
  (exists l, g_lookup (ex_module [67;58;47;119;92;107;46;100;108;108] [99;58;92;98;47;84;46;80;68;66]) KBinary = Some l /\
             cache_rel l = [84;46;80;68;66;47] ++ ex_id ++ [47;107;46;100;108;108] /\
             server_rel l = [107;46;100;108;108;47;53;97;47;107;46;100;108;108]) /\
  mv_hex (ex_module [] []) /\
  option_map cache_rel (g_lookup (ex_module [107] [120;92;46;46;47;115]) KExtraDebugInfo)
    = Some ([115;47] ++ ex_id ++ [47;115]) /\
  g_lookup (ex_module [107] [97;92]) KBreakpadSym = None /\
  g_lookup (ex_module [67;58;92;119;47] [97]) KBinary = None /\
  g_leafname [120;47;46;46;92;115;47] = [] /\ g_leafname [120;92;46;46;47;115] = [115] /\
  g_join_rel_enc [97;58;37;32;98] = [97;37;51;65;37;50;53;37;50;48;98].
Proof.
  split; [eexists; split; [vm_compute; reflexivity | split; reflexivity]|].
  split; [split; apply hex_only_b; reflexivity|].
  vm_compute. repeat split.
Qed.

(* ====================================================================================
   The consumers, derived from the source.  Gen/C17Flow.v (translate/c17_flow.py) lists every
   `.join(` / `join_rel(` call of SimpleSymbolSupplier / HttpSymbolSupplier (lib.rs, http.rs, outside the path
   builders) with the PROVENANCE of the joined string (which builder produced the FileLookup whose cache_rel /
   server_rel is joined, followed through parameters to every call site; moz_lookup of it; the code-info path)
   and of the root (a symbol directory of self.paths, the cache directory, a server URL). *)
From RM Require Import C17.FlowModel C17.FlowProofs Gen.C17Flow.

(* nothing is joined that did not come out of a lookup builder, onto no root of unknown origin
   (an unknown entry — FileLookup.debug_file, a raw module name, a formatted string — is printed by Coq) *)
Theorem c17_src_consumers_known : unknown_sites g_consumer_joins = [].
Proof. exact all_sites_known. Qed.
Print Assumptions c17_src_consumers_known.

(* every join site, every module (all byte strings, hex ids), every FileKind: the joined string is a safe
   relative path and stays below its root — Path::join under POSIX and Windows rules and by concatenation for
   directories (root a prefix, at most one separator added, no `..` component), join_rel + Url::join for server URLs
   (requested below the base directory of every base path) *)
Theorem c17_src_consumers_contained : forall s m kind p,
  In s g_consumer_joins -> mv_bytes m -> mv_hex m ->
  eval_arg (s_arg s) m kind = Some p -> safe_rel p /\ below_root (s_root s) p.
Proof.
  intros s m k p I MB MH H. pose proof (eval_arg_joinable (s_arg s) m k p MB MH H) as J.
  pose proof (site_known s I) as K. apply andb_true_iff in K.
  split; [exact (proj1 J) | exact (joinable_below (s_root s) p (proj1 K) J)].
Qed.
Print Assumptions c17_src_consumers_contained.

(* the two extractions agree on which calls are consumer joins *)
Theorem c17_src_flow_sites_agree :
  map (fun s => (s_file s, s_text s)) g_consumer_joins
  = map (fun x => site_key (fst x)) (filter is_consumer_site modelled_join_sites).
Proof. vm_compute. reflexivity. Qed.
Print Assumptions c17_src_flow_sites_agree.

(* non-vacuity: for an ordinary module every extracted site does join something *)
Example c17_nonvacuous_flow : forall s, In s g_consumer_joins ->
  exists p, eval_arg (s_arg s)
              {| m_code_file := [107;46;100;108;108]; m_code_identifier := Some [53;97];
                 m_debug_file := Some [97;92;84;46;112;100;98]; m_debug_identifier := Some [48;49] |} KBinary = Some p.
Proof.
  intros s I.
  match goal with |- exists p, eval_arg _ ?m _ = _ =>
    assert (A : forallb (fun s => opt_is_some (eval_arg (s_arg s) m KBinary)) g_consumer_joins = true)
      by (vm_compute; reflexivity)
  end.
  rewrite forallb_forall in A. specialize (A s I).
  destruct (eval_arg (s_arg s) _ KBinary) as [p|]; [exists p; reflexivity | discriminate].
Qed.

(* the string-free copy of the site list the extracted driver reads (it predicts what the filesystem probe
   observes: which path each supplier returns and which files appear under the cache) is the site list *)
Theorem c17_src_flow_table : g_flow_table = map flow_row g_consumer_joins.
Proof. vm_compute. reflexivity. Qed.
Print Assumptions c17_src_flow_table.

(* ====================================================================================
   The identifiers as values (C17/IdModel.v, read from debugid 0.8.0): every DebugId value (PDB 7 or
   PDB 2.0, any uuid / timestamp / appendix) and every raw code id string renders as hex-only text, so the
   hypothesis `opt_hex` / `mv_hex` of the theorems above holds for all of them. *)
From RM Require Import C17.IdModel C17.IdProofs.

Theorem c17_ids_render_hex :
  (forall d, hex_only (breakpad_text d)) /\ (forall raw, hex_only (code_id_text raw)).
Proof. exact (conj breakpad_text_hex code_id_text_hex). Qed.
Print Assumptions c17_ids_render_hex.

(* the property with no assumption on the identifiers: all strings, all DebugId values, all raw code ids *)
Theorem c17_src_all_ids : forall code_file debug_file d raw_code_id kind l,
  g_lookup (module_of_ids code_file debug_file d raw_code_id) kind = Some l ->
  safe_rel (cache_rel l) /\ safe_rel (server_rel l).
Proof. intros cf df d raw k l. exact (c17_src_relative _ k l (module_of_ids_hex cf df d raw)). Qed.
Print Assumptions c17_src_all_ids.

Example c17_nonvacuous_ids :
  option_map breakpad_text (parse_breakpad [51;99;48;100;50;49;101;52;48;48;48;49]) = Some [51;67;48;68;50;49;69;52;49] /\
  option_map breakpad_text (parse_breakpad (repeat 48 33)) = Some (repeat 48 33) /\
  code_id_text [53;65;47;46;46;92;71;102] = [53;97;102].
Proof. vm_compute. repeat split. Qed.

(* ====================================================================================
   The file system SINKS of the consumers.  Gen/C17Flow.v g_fs_sinks: every call in lib.rs / http.rs
   (non-test) that opens, creates, removes, renames or probes a path — fs::*, File::*, NamedTempFile::*, persist*,
   SymbolFile::from_file, PathBuf::from / Path::new, .exists() / .is_file() / .is_dir() ... — with the provenance of
   that path, followed through `let`, parameters (every call site) and the values self.locate_file returns. *)
Theorem c17_src_sinks_known : unknown_sinks g_fs_sinks = [].
Proof. exact all_sinks_known. Qed.
Print Assumptions c17_src_sinks_known.

(* every path a sink receives is a root itself (a symbol directory, self.cache, self.tmp) or `<root>.join(s)` with s a
   safe relative path below that root, for every module and kind; at most one `.parent()` is applied (create_dir_all) *)
Theorem c17_src_sinks_contained : forall k, In k g_fs_sinks ->
  (k_parents k <= 1)%nat /\ k_paths k <> [] /\
  forall q, In q (k_paths k) ->
    match q with
    | PRoot r => known_root r = true
    | PJoined r a => known_root r = true /\
        forall m kind p, mv_bytes m -> mv_hex m -> eval_arg a m kind = Some p -> safe_rel p /\ below_root r p
    | PUnknownPath => False
    end.
Proof.
  intros k I. pose proof (sink_known k I) as K. unfold known_sink in K.
  apply andb_true_iff in K. destruct K as [K Kp]. apply andb_true_iff in K. destruct K as [Ka Kn].
  split; [apply Nat.leb_le; exact Kp|]. split; [destruct (k_paths k); discriminate|].
  intros q Hq. rewrite forallb_forall in Ka. specialize (Ka q Hq). destruct q as [r|r a|]; cbn [known_path] in Ka.
  - exact Ka.
  - apply andb_true_iff in Ka. destruct Ka as [Kr _]. split; [exact Kr|].
    intros m kd p MB MH H. pose proof (eval_arg_joinable a m kd p MB MH H) as J.
    split; [exact (proj1 J) | exact (joinable_below r p Kr J)].
  - discriminate.
Qed.
Print Assumptions c17_src_sinks_contained.

(* non-vacuity (statement in C17/FlowProofs.v sinks_witness): fetch_lookup's persist_noclobber receives
   self.cache joined with lookup(module, kind).cache_rel; create_dir_all receives one .parent(); >= 10 sinks *)
Example c17_nonvacuous_sinks : sinks_witness.
Proof. split; [|split]; [reflexivity | reflexivity | apply Nat.leb_le; reflexivity]. Qed.

(* ====================================================================================
   The callee census.  translate/c17_flow.py reads EVERY file of the crate; in each file
   that mentions a path / file-system word (g_closed_files) every callee name — function path, method, macro — must be
   on the translator's reviewed list, a fn of the crate or a constructor, else the translator aborts; every call,
   anywhere in the crate, of a callee that reaches the file system (fs::*, File::*, OpenOptions, tempfile / NamedTempFile,
   Path::* / PathBuf::*, env::*, process / Command, SymbolFile::from_file, .exists / .is_file / .is_dir / .metadata /
   .canonicalize / .read_dir / .persist* / .open / .create ...) is listed in g_sink_calls. *)
(* each of them is one of the sinks whose path provenance is derived (and proved contained above) *)
Theorem c17_src_sink_calls_covered : forall c, In c g_sink_calls -> exists k, In k g_fs_sinks /\ sink_key k = c.
Proof.
  intros c H. pose proof (sink_call_covered c H) as E. apply existsb_exists in E. destruct E as [k [I K]]. exists k. split; [exact I | symmetry; exact (key_eqb_eq _ _ K)].
Qed.
Print Assumptions c17_src_sink_calls_covered.

(* outside the compiled builders nothing edits a path in place: every .push / .pop / .set_file_name / .set_extension /
   .with_file_name / .with_extension / .extend / .clear ... of those files is applied to a String, to a Vec without paths, or
   is the constructor adding its own cache root to the list of symbol directories *)
Theorem c17_src_no_path_edits : path_edits g_path_edits = [].
Proof. vm_compute. reflexivity. Qed.
Print Assumptions c17_src_no_path_edits.

Example c17_nonvacuous_census : census_witness.
Proof.
  pose proof (in_by_eqb String.eqb (fun a b => proj1 (String.eqb_eq a b))) as S.
  pose proof (in_by_eqb key_eqb key_eqb_eq) as K.
  unfold census_witness. repeat split; [apply S | apply S | apply S | apply K | apply K | apply Nat.leb_le]; reflexivity.
Qed.

(* minidump-common/src/utils.rs basename (display names, the `code_file` query parameter), compiled by the same
   translator: it is the same function as leafname although it is written with rfind + a slice, and that slice
   `&f[(index + 1)..]` — the only expression of the compiled functions that could panic — is always in bounds *)
Theorem c17_src_basename : (forall s, g_basename s = leafname s) /\
  (forall f s i, rfind_pat f s = Some i -> (i + 1 <= length s)%nat) /\ g_basename_partial_ops = 1%nat.
Proof. exact (conj g_basename_eq (conj rfind_pat_in_bounds eq_refl)). Qed.
Print Assumptions c17_src_basename.

(* ====================================================================================
   What the builders answer (C17/Avail.v).  The property is a safety statement; these pin the functional
   side a repair must keep: [ordinary_leaf name]: the leaf is not empty, not `..`, has no drive prefix. *)
From RM Require Import C17.Avail.

(* every module whose names have ordinary leaves is answered, with the symbol-server layout *)
Theorem c17_src_available : forall m df id, m_debug_file m = Some df -> m_debug_identifier m = Some id -> ordinary_leaf df ->
  g_lookup m KBreakpadSym =
    Some (let rel := rel3 (leafname df) id (replace_or_add_extension (leafname df) s_pdb s_sym) in
          {| cache_rel := rel; server_rel := rel |}) /\
  g_lookup m KExtraDebugInfo =
    Some (let rel := rel3 (leafname df) id (leafname df) in {| cache_rel := rel; server_rel := rel |}) /\
  (forall cid, m_code_identifier m = Some cid -> ordinary_leaf (m_code_file m) ->
     g_lookup m KBinary = Some {| cache_rel := rel3 (leafname df) id (leafname (m_code_file m));
                                  server_rel := rel3 (leafname (m_code_file m)) cid (leafname (m_code_file m)) |} /\
     g_code_info_breakpad_sym_lookup m =
       Some (rel3 (leafname (m_code_file m)) (map upper cid) (replace_or_add_extension (leafname (m_code_file m)) s_dll s_sym))).
Proof.
  intros m df id Hdf Hid O. rewrite !g_lookup_eq, Hdf, Hid. cbn [lookup lookup_gen].
  unfold breakpad_sym_lookup_gen, extra_debuginfo_lookup_gen, binary_lookup_gen, pick_leaf.
  rewrite (safe_leafname_ordinary df O). split; [reflexivity|]. split; [reflexivity|].
  intros cid Hcid Oc. rewrite g_code_info_eq, Hcid.
  unfold code_info_breakpad_sym_lookup, code_info_breakpad_sym_lookup_gen, pick_leaf.
  rewrite (safe_leafname_ordinary _ Oc). split; [reflexivity|].
  destruct (m_code_file m) eqn:E; [|reflexivity]. destruct Oc as [X _]. exfalso. apply X. reflexivity.
Qed.
Print Assumptions c17_src_available.

(* and a lookup is declined when the debug file's leaf is degenerate *)
Theorem c17_src_declines : forall m df, m_debug_file m = Some df -> ~ ordinary_leaf df ->
  g_lookup m KBreakpadSym = None /\ g_lookup m KExtraDebugInfo = None /\ g_lookup m KBinary = None.
Proof.
  intros m df Hdf N. rewrite !g_lookup_eq, Hdf. cbn [lookup lookup_gen].
  unfold breakpad_sym_lookup_gen, extra_debuginfo_lookup_gen, binary_lookup_gen, pick_leaf.
  rewrite (safe_leafname_declines df N).
  destruct (m_debug_identifier m), (m_code_identifier m), (safe_leafname (m_code_file m)); repeat split; reflexivity.
Qed.
Print Assumptions c17_src_declines.

(* ====================================================================================
   std::path at the level of components (C17/PathModel.v: Path::components on unix, Path::parent = the path
   without its final component; compared with the real std::path on every produced path by the correspondence run).
   What the file-system sinks with a `.parent()` (create_dir_all) and the file creation receive. *)
From RM Require Import C17.PathModel C17.PathProofs C17.IdModel C17.IdProofs C17.UrlFullSrc C17.ServerUrlProofs.

(* joining a safe relative path onto a non-empty root appends its components, none of them `..` *)
Theorem c17_path_join_components : forall root rel, root <> [] -> safe_rel rel ->
  posix_comps (posix_join root rel) = posix_comps root ++ posix_comps rel /\
  comps_prefix (posix_comps root) (posix_comps (posix_join root rel)) = true /\
  Forall (fun c => c <> dotdot) (posix_comps rel).
Proof.
  intros root rel N S. pose proof (safe_rel_slash_comps rel S) as F. destruct S as [S _].
  rewrite (posix_join_comps root rel N S). split; [reflexivity|]. split; [apply comps_prefix_app | exact F].
Qed.
Print Assumptions c17_path_join_components.

(* every module with a debug id VALUE, every kind, every root: cache.join(cache_rel) has the root's components in front, and
   so has its parent directory (cache_rel always contains the identifier as a component, so the parent never climbs to
   the parent of the root); no `..` is added *)
Theorem c17_cache_paths_below_root : forall code_file debug_file d raw_code_id kind l root,
  g_lookup (module_of_ids code_file debug_file (Some d) raw_code_id) kind = Some l -> root <> [] ->
  (posix_comps (posix_join root (cache_rel l)) = posix_comps root ++ posix_comps (cache_rel l) /\
   Forall (fun c => c <> dotdot) (posix_comps (cache_rel l))) /\
  exists t, path_parent (posix_comps (posix_join root (cache_rel l))) = Some (posix_comps root ++ t) /\
            comps_prefix (posix_comps root) (posix_comps root ++ t) = true /\
            Forall (fun c => c <> dotdot) t.
Proof.
  intros cf df d raw k l root H N.
  destruct (c17_src_relative _ k l (module_of_ids_hex cf df (Some d) raw) H) as [Sc _].
  split.
  - destruct (c17_path_join_components root (cache_rel l) N Sc) as [E [_ F]]. split; assumption.
  - apply parent_of_joined_below_root; [exact N | exact Sc |].
    (* the middle piece of cache_rel is the debug id: a component of its own *)
    rewrite g_lookup_eq in H. destruct (proj1 (lookup_gen_layout _ _ _ _ _ _ _ H)) as [a [b [c [-> [_ [E _]]]]]].
    injection E as <-. apply rel3_has_component; [apply breakpad_text_nonempty | apply breakpad_text_hex].
Qed.
Print Assumptions c17_cache_paths_below_root.

(* non-vacuity: "/c/" joined with "./0/." (the leaf `.` of extra_debuginfo): components c,0 — parent c *)
Example c17_nonvacuous_path :
  posix_comps (posix_join [47;99;47] [46;47;48;47;46]) = [[99]; [48]] /\
  path_parent (posix_comps (posix_join [47;99;47] [46;47;48;47;46])) = Some [[99]] /\
  path_parent (posix_comps [47]) = None /\
  posix_comps (posix_join [47;99] [97;92;98;47;47;100]) = [[99]; [97;92;98]; [100]].
Proof. vm_compute. repeat split. Qed.

(* ====================================================================================
   THE PROPERTY, in one statement on the code as compiled from the source, with no hypothesis on the
   identifiers: every code_file / debug_file (arbitrary byte strings, either separator style, mixed, trailing, `.`,
   `..`, drive / UNC prefixes, NUL, non-ASCII), every DebugId value, every raw code id, every FileKind:
   the paths are genuinely relative; joined onto a symbol / cache directory they keep the root (textually under POSIX,
   Windows and concatenation rules; as std::path components on unix, including the parent directory that gets created);
   through join_rel + Url::join — also in the mozilla-CAB variant — they are requested below the server's base directory. *)
Theorem c17_property : forall code_file debug_file d raw_code_id kind l,
  bytes code_file -> opt_bytes debug_file ->
  g_lookup (module_of_ids code_file debug_file d raw_code_id) kind = Some l ->
  safe_rel (cache_rel l) /\ safe_rel (server_rel l) /\
  (forall style root, is_prefix root (join style root (cache_rel l)) = true) /\
  (forall root, root <> [] ->
     comps_prefix (posix_comps root) (posix_comps (posix_join root (cache_rel l))) = true /\
     Forall (fun c => c <> dotdot) (posix_comps (cache_rel l)) /\
     exists t, path_parent (posix_comps (posix_join root (cache_rel l))) = Some (posix_comps root ++ t) /\
               Forall (fun c => c <> dotdot) t) /\
  (forall base_path, exists r, g_request_path base_path (server_rel l) = Some r /\
                               is_prefix (base_dir base_path) r = true) /\
  (forall l', g_moz_lookup l = Ret l' ->
     cache_rel l' = cache_rel l /\ safe_rel (server_rel l') /\
     forall base_path, exists r, g_request_path base_path (server_rel l') = Some r /\
                                 is_prefix (base_dir base_path) r = true).
Proof.
  intros cf df d raw k l B1 B2 H.
  assert (MB : mv_bytes (module_of_ids cf df d raw)) by (split; assumption).
  destruct (g_lookup_joinable _ k l MB (module_of_ids_hex cf df d raw) H) as [Jc Js].
  destruct d as [d|].
  2:{ (* no debug id, no answer *)
      rewrite g_lookup_eq in H. destruct (proj1 (lookup_gen_layout _ _ _ _ _ _ _ H)) as [a [b [c [_ [_ [E _]]]]]].
      discriminate E. }
  split; [exact (proj1 Jc)|]. split; [exact (proj1 Js)|].
  split; [intros style root; exact (proj1 (join_contained style root _ (proj1 Jc)))|]. split.
  - intros root N. destruct (c17_cache_paths_below_root cf df d raw k l root H N) as [[E F] [t [P [_ T]]]].
    split; [rewrite E; apply comps_prefix_app|]. split; [exact F|]. exists t. split; assumption.
  - split; [intro bp; exact (g_joinable_requested bp _ Js)|]. intros l' Hm. rewrite g_moz_eq in Hm.
    destruct (moz_joinable l l' Js Hm) as [J C]. split; [exact C|]. split; [exact (proj1 J)|].
    intro bp. exact (g_joinable_requested bp _ J).
Qed.
Print Assumptions c17_property.

(* the code-info variant (`<code file>/<CODE ID>/<code file>.sym`, only ever joined onto a server URL) *)
Theorem c17_property_code_info : forall code_file debug_file d raw_code_id p base_path,
  bytes code_file -> opt_bytes debug_file ->
  g_code_info_breakpad_sym_lookup (module_of_ids code_file debug_file d raw_code_id) = Some p ->
  safe_rel p /\ exists r, g_request_path base_path p = Some r /\ is_prefix (base_dir base_path) r = true.
Proof.
  intros cf df d raw p bp B1 B2 H.
  assert (MB : mv_bytes (module_of_ids cf df d raw)) by (split; assumption).
  pose proof (g_code_info_joinable _ p MB (module_of_ids_hex cf df d raw) H) as J.
  split; [exact (proj1 J) | exact (g_joinable_requested bp p J)].
Qed.
Print Assumptions c17_property_code_info.

(* non-vacuity: a module with mixed separators, a PDB 2.0 id parsed from text and a raw code id with junk *)
Example c17_nonvacuous_property :
  exists d l, parse_breakpad [51;99;48;100;50;49;101;52;49] = Some d /\
    g_lookup (module_of_ids [67;58;47;119;92;107;46;100;108;108] (Some [99;58;92;98;47;84;46;80;68;66]) (Some d) (Some [53;65;47;46;46]))
             KBinary = Some l /\
    cache_rel l = [84;46;80;68;66;47;51;67;48;68;50;49;69;52;49;47;107;46;100;108;108] /\   (* T.PDB/3C0D21E41/k.dll *)
    server_rel l = [107;46;100;108;108;47;53;97;47;107;46;100;108;108].                    (* k.dll/5a/k.dll *)
Proof. eexists. eexists. split; [vm_compute; reflexivity|]. split; [vm_compute; reflexivity|]. split; reflexivity. Qed.

(* The URL clause of the headline on the FULL model of Url::join (all branches of its dispatch,
   C17/UrlFull.v) and the generated encoder: for every special base scheme and every base path the request goes to the
   configured scheme and authority (JSame), below the base directory; also the mozilla-CAB variant *)
Theorem c17_property_url_full : forall code_file debug_file d raw_code_id kind l base_scheme,
  bytes code_file -> opt_bytes debug_file ->
  g_lookup (module_of_ids code_file debug_file d raw_code_id) kind = Some l ->
  (forall base_path, exists r, g_request_target base_scheme base_path (server_rel l) = JSame r /\
                               is_prefix (base_dir base_path) r = true) /\
  (forall l', g_moz_lookup l = Ret l' ->
     forall base_path, exists r, g_request_target base_scheme base_path (server_rel l') = JSame r /\
                                 is_prefix (base_dir base_path) r = true).
Proof.
  intros cf df d raw k l sch B1 B2 H.
  destruct (c17_property cf df d raw k l B1 B2 H) as [_ [_ [_ [_ [U M]]]]].
  split.
  - intro bp. destruct (U bp) as [r [E P]]. exists r. split; [exact (g_target_of_path sch bp _ r E) | exact P].
  - intros l' Hm bp. destruct (M l' Hm) as [_ [_ R]]. destruct (R bp) as [r [E P]].
    exists r. split; [exact (g_target_of_path sch bp _ r E) | exact P].
Qed.
Print Assumptions c17_property_url_full.

Theorem c17_property_url_full_code_info : forall code_file debug_file d raw_code_id p base_scheme base_path,
  bytes code_file -> opt_bytes debug_file ->
  g_code_info_breakpad_sym_lookup (module_of_ids code_file debug_file d raw_code_id) = Some p ->
  exists r, g_request_target base_scheme base_path p = JSame r /\ is_prefix (base_dir base_path) r = true.
Proof.
  intros cf df d raw p sch bp B1 B2 H.
  destruct (c17_property_code_info cf df d raw p bp B1 B2 H) as [_ [r [E P]]].
  exists r. split; [exact (g_target_of_path sch bp p r E) | exact P].
Qed.
Print Assumptions c17_property_url_full_code_info.

(* ALL byte strings through the GENERATED encoder (no hypothesis): never another scheme; another host exactly for "//" *)
Theorem c17_src_url_resolve_all_strings : forall base_scheme base_path p, bytes p ->
  match g_request_target base_scheme base_path p with
  | JOpaque _ _ => False
  | JAuthority s _ => s = base_scheme /\ starts_two_slashes p = true
  | JSame _ => starts_two_slashes p = false
  end.
Proof.
  intros sch bp p B. unfold g_request_target. rewrite (g_join_rel_enc_eq p B). exact (c17_url_resolve_all_strings sch bp p B).
Qed.
Print Assumptions c17_src_url_resolve_all_strings.

Example c17_nonvacuous_url_full :
  g_request_target s_https [47;114;47;105] [107;46;100;108;108;47;53;97;47;107;46;100;108;108]
    = JSame [47;114;47;107;46;100;108;108;47;53;97;47;107;46;100;108;108].                    (* k.dll/5a/k.dll on https /r/i -> /r/k.dll/5a/k.dll *)
Proof. vm_compute. reflexivity. Qed.

(* The server URL as CONFIGURED is the root.  HttpSymbolSupplier::new appends the missing '/'
   (pinned from the source: Gen/C17Flow.v g_server_url_norm, obligation below), so the parsed base path ends with '/',
   base_dir is the identity on it and every safe lookup path is requested from the configured scheme and host with a
   path that EXTENDS the configured path — for every URL tail without query / fragment (any dot segments, spaces,
   backslashes, TABs in it), every special scheme, every byte string p that is a safe relative path *)
Theorem c17_server_url_root : forall base_scheme suffix p, no_qf suffix -> bytes p -> safe_rel p ->
  exists t, request_target base_scheme (server_base_path suffix) p = JSame (server_base_path suffix ++ t).
Proof.
  intros sch suffix p Q B S. destruct (c17_url_resolve_contained sch (server_base_path suffix) p B S) as [r [E [[_ R]|[t R]]]].
  - exists []. rewrite app_nil_r, E, R. reflexivity.
  - exists t. rewrite E, R, (base_dir_of_dir _ (server_base_path_ends suffix Q)). reflexivity.
Qed.
Print Assumptions c17_server_url_root.

Theorem c17_src_server_url_normalised : g_server_url_norm = UnAppendSlash.
Proof. reflexivity. Qed.
Print Assumptions c17_src_server_url_normalised.

(* refutation of the variant without the appended '/': `http://host/root` taken as it is has the base directory "/",
   the request for `x` goes to /x — outside the configured /root/ *)
Theorem c17_server_url_unnormalised_refuted :
  server_base_path [114;111;111;116] = [47;114;111;111;116;47] /\
  server_base_path_of [114;111;111;116] = [47;114;111;111;116] /\
  request_target s_http (server_base_path_of [114;111;111;116]) [120] = JSame [47;120] /\
  request_target s_http (server_base_path [114;111;111;116]) [120] = JSame [47;114;111;111;116;47;120].
Proof. vm_compute. repeat split. Qed.
Print Assumptions c17_server_url_unnormalised_refuted.

Example c17_nonvacuous_server_url :
  no_qf [97;47;46;46;47;98;32;92;99] /\ server_base_path [97;47;46;46;47;98;32;92;99] = [47;98;37;50;48;47;99;47].   (* "a/../b \c" -> /b%20/c/ *)
Proof. split; [repeat constructor; discriminate | vm_compute; reflexivity]. Qed.

(* Names supplied by the SERVER.  In a code-info redirect (http.rs
   individual_lookup_debug_info_by_code_info) the Location header provides the debug file name that locate_symbols then
   looks up.  Whatever Location the server sends (any byte string; parse_location = strip one '/', rsplit('/'), nth(1), next()),
   whatever debug id value it parses to: the lookup paths built from the server's name are genuinely relative, stay below
   every directory root and are requested from the configured scheme and host below the base directory. *)
Theorem c17_redirect_contained : forall code_file loc dfp idp d raw_code_id kind l base_scheme,
  bytes code_file -> bytes loc -> parse_location loc = Some (dfp, idp) ->
  g_lookup (module_of_ids code_file (Some dfp) (Some d) raw_code_id) kind = Some l ->
  safe_rel (cache_rel l) /\ safe_rel (server_rel l) /\
  (forall style root, is_prefix root (join style root (cache_rel l)) = true) /\
  (forall base_path, exists r, g_request_target base_scheme base_path (server_rel l) = JSame r /\
                               is_prefix (base_dir base_path) r = true).
Proof.
  intros cf loc dfp idp d raw k l sch B1 B2 P H.
  destruct (parse_location_bytes loc dfp idp B2 P) as [Bd _].
  destruct (c17_property cf (Some dfp) (Some d) raw k l B1 Bd H) as [S1 [S2 [J _]]].
  destruct (c17_property_url_full cf (Some dfp) (Some d) raw k l sch B1 Bd H) as [U _].
  split; [exact S1|]. split; [exact S2|]. split; [exact J | exact U].
Qed.
Print Assumptions c17_redirect_contained.

(* the source still parses the Location the way parse_location models it (pinned text of the statements) *)
Theorem c17_src_redirect_parse : g_redirect_parse = RpStripSlashRsplitNth1Next.
Proof. reflexivity. Qed.
Print Assumptions c17_src_redirect_parse.

(* non-vacuity: which pieces of a Location become the debug file / debug id ("/a/../5A1/x.sym" -> "..", declined later by
   safe_leafname; "//e/0/x" -> "e"; "..\..\w/0/x" -> the whole "..\..\w", whose leaf is "w"; "0/x" -> nothing) *)
Example c17_nonvacuous_redirect :
  parse_location [47;97;47;46;46;47;53;65;49;47;120;46;115;121;109] = Some ([46;46], [53;65;49]) /\
  parse_location [47;47;101;47;48;47;120] = Some ([101], [48]) /\
  parse_location [46;46;92;46;46;92;119;47;48;47;120] = Some ([46;46;92;46;46;92;119], [48]) /\
  parse_location [48;47;120] = None.
Proof. vm_compute. repeat split. Qed.

(* Windows rules at component level (model-only: std's Windows path code cannot be executed on this machine): pushing a
   safe relative path onto a root that is not a bare drive `X:` keeps the root's components in front and adds no `..` *)
Theorem c17_windows_join_components : forall root rel, root <> [] -> is_bare_drive root = false -> safe_rel rel ->
  win_comps (windows_join root rel) = win_comps root ++ win_comps rel /\
  Forall (fun c => c <> dotdot) (win_comps rel).
Proof.
  intros root rel N B [H1 [H2 H3]]. split; [exact (windows_join_comps root rel N B H1 H2)|].
  unfold win_comps. apply Forall_forall. intros c Hc. apply filter_In in Hc. rewrite Forall_forall in H3.
  exact (H3 c (proj1 Hc)).
Qed.
Print Assumptions c17_windows_join_components.
