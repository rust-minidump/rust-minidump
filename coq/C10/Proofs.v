(* C10/Proofs.v — chunk independence.  A line is dropped ("enormous line" recovery) only when the 160 KiB buffer is
   full at the head of the loop with nothing to consume ([room] fails).  As long as that does not happen the driver
   never enters recovery and its outcome is [spec] ([ci_step]).  Lines shorter than 80 KiB never fill the buffer
   ([short_room]); for lines that fit the largest buffer, a read of at most 80 KiB cannot ([parse_phase_room]). *)
From Coq Require Import Lia ZArith List Bool.
From RM Require Import Base.Word C09.Model C09.Proofs C10.Model C10.Stream C10.Band.
Import ListNotations.
Open Scope Z_scope.

(* lia is to see through the b_cap / 2 of [consume] *)
Ltac Zify.zify_post_hook ::= Z.div_mod_to_equations.

(* a fill of n > 0 bytes followed by a consume leaves the buffer full only if the fill made the window the
   whole buffer and at most half of it was consumed *)
Lemma fill_consume_full : forall b n c, geom b -> 0 < n <= space b -> 0 <= c <= avail b + n ->
  space (consume (fill b n) c) = 0 -> avail b + n = b_cap b /\ c <= b_cap b / 2.
Proof.
  (* both operations are a few comparisons on the three indices: split on each, the rest is linear arithmetic *)
  intros [p e cp] n c [H1 [H2 H3]] Hn Hc. unfold fill, consume, shift, space, avail in *. cbn [b_pos b_end b_cap] in *.
  rewrite (Z.min_l n (cp - e)) by lia.
  repeat match goal with
         | |- context [if ?a <? ?b then _ else _] => destruct (Z.ltb_spec a b); cbn [b_pos b_end b_cap] in *
         | |- context [Z.min ?a ?b] => rewrite (Z.min_l a b) by lia
         end; lia.
Qed.

Lemma short_wide : forall (L : Type) (llen : L -> Z) lines t0, short_lines llen lines t0 -> wide_lines llen lines t0.
Proof.
  intros L llen lines t0 [S T]. split; [|unfold HALF_CAP, MAX_CAP in *; lia].
  eapply Forall_impl; [|exact S]. unfold HALF_CAP, MAX_CAP. intros; lia.
Qed.

Section CI.
  Variable L : Type.
  Variable llen : L -> Z.
  Variable PS : Type.
  Variable init_ps : PS.
  Variable recog : PS -> L -> PS + Z.
  Variable bump : PS -> PS.
  Variable lineno : PS -> Z.
  Hypothesis llen_pos : forall l, 1 <= llen l.
  Variable lines : list L.
  Variable t0 : Z.

  Local Notation tail := (Z.max 0 t0).
  Local Notation ilen := (input_len L llen lines t0).
  Local Notation St := (st L PS).
  Local Notation step := (step L llen PS recog bump lineno).
  Local Notation parse_phase := (parse_phase L llen PS recog lineno).
  Local Notation pm := (pm L llen PS recog lineno).
  Local Notation read_n := (read_n L PS).
  Local Notation size := (size L llen).
  Local Notation fold_recog := (fold_recog L PS recog lineno).
  Local Notation replay := (replay L PS recog bump lineno).
  Local Notation spec := (spec L PS init_ps recog lineno).
  Local Notation WF := (WF L llen PS init_ps recog bump lineno tail ilen lines).
  Local Notation WFm := (WFm L llen PS init_ps recog bump lineno tail ilen lines).
  Local Notation size_nonneg := (size_nonneg L llen PS init_ps recog bump lineno llen_pos).

  Definition fed (d : bool * L) : Prop := fst d = false.

  (* The invariant of chunk independence, at the head of the loop: never in recovery, and every line disposed of was
     handed to the recogniser ([ci_fed]).  [ci_fc1]/[ci_fc0] are what the end-of-input tests need: fully_consumed can
     only be set by a parse that consumed something (so Ok means at least one line), and while it is not set either
     unparsed bytes are in the buffer or nothing was ever consumed (which tells error 3 from error 4). *)
  Record CI (s : St) : Prop := {
    ci_wf : WF s;
    ci_pr : pr s = false;
    ci_fc1 : fc s = true -> log s <> [];
    ci_fc0 : fc s = false -> avail (buf s) <> 0 \/ total s = 0;
    ci_fed : Forall fed (log s)
  }.

  Lemma replay_fed_all : forall ds p, Forall fed ds -> replay p ds = fold_recog p (map snd ds).
  Proof.
    induction ds as [|[d l] t IH]; intros p H; cbn [map snd Model.replay Model.fold_recog]; [reflexivity|].
    inversion H as [|x y Hd Ht]; subst. unfold fed in Hd. cbn [fst] in Hd. subst d.
    destruct (recog p l); [apply IH; exact Ht|reflexivity].
  Qed.

  Lemma size_zero_nil : forall ls, size ls = 0 -> ls = [].
  Proof.
    intros [|l t] H; [reflexivity|]. cbn [Model.size] in H. pose proof (llen_pos l). pose proof (size_nonneg t). lia.
  Qed.

  Lemma parse_phase_ci : forall s2 s', geom (buf s2) -> off s2 = 0 -> pr s2 = false -> 0 < avail (buf s2) ->
    Forall fed (log s2) -> parse_phase s2 = Next s' ->
    pr s' = false /\ (fc s' = true -> log s' <> []) /\ (fc s' = false -> avail (buf s') <> 0) /\ Forall fed (log s').
  Proof.
    intros s s' Wg Hoff Hpr Hav Hfed H.
    unfold Model.parse_phase in H. rewrite Hpr, (geom_ok_true _ Wg) in H. cbn [negb] in H.
    rewrite Hoff in H. cbn [Z.eqb negb] in H.
    destruct (pm (avail (buf s)) (ps s) (rest s) 0 (log s)) as [[[[p' r'] c'] lg']|[c ln]] eqn:P; [|discriminate].
    inversion H; subst s'; clear H.
    apply (pm_inl L llen PS recog bump lineno llen_pos) in P; [|lia].
    destruct P as [tk [H1 [H2 [H3 [H4 [H5 [H6 H7]]]]]]].
    pose proof (size_nonneg tk) as Hsz.
    assert (K : 0 <= c' <= avail (buf s)) by lia.
    destruct (consume_spec (buf s) c' Wg K) as [G [A [C [P E]]]].
    cbn [fc log buf pr]. split; [reflexivity|]. split; [|split].
    - intros Hf. apply Z.eqb_eq in Hf. destruct tk as [|l t]; [cbn [Model.size] in H2; lia|].
      rewrite H4. cbn [map rev]. intros Hn. apply app_eq_nil in Hn. destruct Hn as [Hn _].
      apply app_eq_nil in Hn. destruct Hn as [_ Hn]. discriminate.
    - intros Hf. apply Z.eqb_neq in Hf. rewrite A. lia.
    - rewrite H4. apply Forall_app. split; [|exact Hfed]. apply Forall_rev. apply Forall_map.
      apply Forall_forall. intros x _. reflexivity.
  Qed.

  Lemma parse_phase_done : forall s2 r s', pr s2 = false -> parse_phase s2 = Done r s' ->
    exists c tk l r' p1,
      r = RErr c (lineno p1) /\ rest s2 = tk ++ l :: r' /\ fold_recog (ps s2) tk = inl p1 /\ recog p1 l = inr c.
  Proof.
    intros s r s' Hpr H. unfold Model.parse_phase in H. rewrite Hpr in H.
    destruct (negb (geom_ok (buf s))); [discriminate|].
    destruct (negb (off s =? 0)); [discriminate|].
    destruct (pm (avail (buf s)) (ps s) (rest s) 0 (log s)) as [[[[p' r1] c'] lg']|[c ln]] eqn:P; [discriminate|].
    inversion H; subst. apply (pm_inr L llen PS recog bump lineno llen_pos) in P.
    destruct P as [tk [l [r' [p1 [H1 [H2 [H3 [H4 H5]]]]]]]]. cbn [fst snd] in *.
    exists c, tk, l, r', p1. subst ln. repeat split; assumption.
  Qed.

  (* how [spec] is computed from a state that has disposed of [rev (log s)] *)
  Lemma spec_of_fold : forall s, WFm s -> Forall fed (log s) ->
    fold_recog init_ps (map snd (rev (log s))) = inl (ps s).
  Proof.
    intros s W Hf. rewrite <- replay_fed_all; [exact (wf_replay _ _ _ _ _ _ _ _ _ _ _ W)|]. apply Forall_rev. exact Hf.
  Qed.

  (* a line the recogniser rejects, found while the log holds only recognised lines: the fold over all lines fails there *)
  Lemma fold_err : forall s c tk l r' p1, WFm s -> Forall fed (log s) ->
    rest s = tk ++ l :: r' -> fold_recog (ps s) tk = inl p1 -> recog p1 l = inr c ->
    fold_recog init_ps lines = inr (c, lineno p1).
  Proof.
    intros s c tk l r' p1 W Hf Hr H1 H2.
    rewrite (wf_lines _ _ _ _ _ _ _ _ _ _ _ W), Hr, (fold_recog_app L PS recog lineno), (spec_of_fold s W Hf).
    exact (fold_recog_err L PS recog lineno tk l r' (ps s) p1 c H1 H2).
  Qed.

  (* at the head of the loop the buffer, once at 160 KiB, has room *)
  Definition room (s : St) : Prop := b_cap (buf s) = MAX_CAP -> 0 < space (buf s).

  Section Wide.
  Hypothesis wide : wide_lines llen lines t0.

  Lemma in_lines_wide : forall a l b, lines = a ++ l :: b -> llen l <= MAX_CAP.
  Proof.
    intros a l b H. destruct wide as [S _]. rewrite H in S. apply Forall_app in S. destruct S as [_ S].
    inversion S; assumption.
  Qed.

  (* a read of at most 80 KiB cannot leave the 160 KiB buffer full *)
  Lemma parse_phase_room : forall s n sch' s',
    WFm s -> pr s = false -> partial L llen PS s -> 0 < n <= space (buf s) -> n <= unread s -> n <= HALF_CAP ->
    parse_phase (mkst (fill (buf s) n) (fc s) false (pr s) (jf s) (total s) (ps s) (rest s) (off s)
                      (unread s - n) sch' (ncb s) (cbsum s) (nrd s + 1)
                      (Z.max (maxsp s) (space (buf s))) (log s)) = Next s' ->
    room s'.
  Proof.
    intros s n sch' s' Wm Hpr Hpart Hn Hnu Hfine H.
    destruct Wm as [Wg Wc Wh [Wo1 Wo2] Wa Ws Wu Wpo Wpc Wtg Wcb Wms Wt Wpl Wl Wr Wd].
    specialize (Wpo Hpr).
    assert (Hn1 : 0 <= n <= space (buf s)) by lia.
    destruct (fill_spec (buf s) n Wg Hn1) as [G [A [C [P E]]]].
    unfold Model.parse_phase in H. cbn [pr buf off ps rest log fc tg jf total unread sched ncb cbsum nrd maxsp] in H.
    rewrite Hpr, (geom_ok_true _ G) in H. cbn [negb] in H. rewrite Wpo in H. cbn [Z.eqb negb] in H.
    destruct (pm (avail (fill (buf s) n)) (ps s) (rest s) 0 (log s)) as [[[[p' r'] c'] lg']|[c ln]] eqn:Pm; [|discriminate].
    inversion H; subst s'; clear H.
    assert (Hav : 0 <= avail (buf s)) by (destruct Wg as [? [? ?]]; unfold avail; lia).
    apply (pm_inl L llen PS recog bump lineno llen_pos) in Pm; [|lia].
    destruct Pm as [tk [H1 [H2 [H3 [H4 [H5 [H6 H7]]]]]]].
    pose proof (size_nonneg tk) as Hsz.
    unfold room. cbn [buf]. intros Hcap.
    assert (K : 0 <= c' <= avail (buf s) + n) by lia.
    assert (G' : geom (consume (fill (buf s) n) c')).
    { apply consume_spec; [exact G|lia]. }
    destruct (Z_lt_le_dec 0 (space (consume (fill (buf s) n) c'))) as [Q|Q]; [exact Q|exfalso].
    assert (Q0 : space (consume (fill (buf s) n) c') = 0).
    { destruct G' as [? [? ?]]. unfold space in *. lia. }
    destruct (fill_consume_full (buf s) n c' Wg Hn K Q0) as [F1 F2].
    assert (Hc : b_cap (buf s) = MAX_CAP).
    { assert (b_cap (consume (fill (buf s) n) c') = b_cap (buf s)).
      { destruct (consume_spec (fill (buf s) n) c' G ltac:(lia)) as [_ [_ [C2 _]]]. rewrite C2. exact C. }
      lia. }
    rewrite Hc in *. unfold MAX_CAP, HALF_CAP in *.
    change (163840 / 2) with 81920 in F2.
    destruct tk as [|l t].
    - cbn [Model.size app] in *. subst r'.
      destruct (rest s) as [|l r] eqn:Er.
      + cbn [Model.size] in Wa. destruct wide as [_ Wt0]. unfold MAX_CAP in Wt0. lia.
      + pose proof (in_lines_wide _ _ _ Wl). unfold MAX_CAP in *. lia.
    - cbn [app] in H1. unfold partial in Hpart. rewrite H1 in Hpart.
      cbn [Model.size] in H2. pose proof (size_nonneg t). lia.
  Qed.

  (* one iteration with room in the buffer; if moreover its read returns at most 80 KiB there is room again *)
  Lemma ci_step : forall s, CI s -> room s ->
    match step s with
    | Next s' => CI s' /\ ((forall n sch', read_n (space (buf s)) s = (n, sch') -> n <= HALF_CAP) -> room s')
    | Done r s' => r = spec lines t0
    | StPanic _ => False
    end.
  Proof.
    intros s [W Hpr Hf1 Hf0 Hfed] Hroom.
    pose proof (step_wf L llen PS init_ps recog bump lineno llen_pos tail ltac:(lia) ilen lines s W) as SW.
    pose proof (wf_m _ _ _ _ _ _ _ _ _ _ _ W) as Wm. pose proof Wm as Wm0.
    pose proof (wf_jf _ _ _ _ _ _ _ _ _ _ _ W Hpr) as Hjf.
    pose proof (wf_partial _ _ _ _ _ _ _ _ _ _ _ W Hpr) as Hpart.
    pose proof (wf_fc _ _ _ _ _ _ _ _ _ _ _ W Hpr) as Hfca.
    destruct Wm as [Wg Wc Wh [Wo1 Wo2] Wa Ws Wu Wpo Wpc Wtg Wcb Wms Wt Wpl Wl Wr Wd].
    specialize (Wpo Hpr).
    revert SW. unfold Model.step. rewrite (geom_ok_true _ Wg). cbn [negb]. rewrite andb_false_r, Hpr.
    unfold Model.step_rest, Model.step_after_read. rewrite (geom_ok_true _ Wg). cbn [negb].
    assert (Hsp : 0 <= space (buf s)) by (destruct Wg as [? [? ?]]; unfold space; lia).
    assert (Hav : 0 <= avail (buf s)) by (destruct Wg as [? [? ?]]; unfold avail; lia).
    destruct (read_n (space (buf s)) s) as [n sch'] eqn:R.
    destruct (read_n_spec L PS init_ps recog bump lineno _ _ _ _ R Hsp Wu) as [Hn1 [Hn2 Hn0]].
    destruct (fill_spec (buf s) n Wg Hn1) as [G [A [C [P E]]]].
    pose proof (caps_bounds L PS init_ps recog bump lineno _ Wc) as Hcb.
    destruct (n =? 0) eqn:En.
    - apply Z.eqb_eq in En. subst n. cbn [jf fc tg total ps buf]. rewrite Hjf. cbn [andb].
      destruct (fc s) eqn:Efc.
      + intros [W' [_ [Fa [Fu _]]]]. cbn [buf unread] in Fa, Fu.
        assert (Hrest : rest s = []).
        { destruct (rest s) as [|l t]; [reflexivity|]. cbn [Model.size] in Wa. pose proof (size_nonneg t).
          pose proof (llen_pos l). rewrite A in Fa. lia. }
        rewrite Hrest in *. cbn [Model.size] in Wa. rewrite app_nil_r in Wl.
        unfold Model.spec. rewrite Wl.
        rewrite (spec_of_fold s Wm0 Hfed).
        specialize (Hf1 eq_refl).
        destruct (map snd (rev (log s))) as [|l t] eqn:Em.
        { exfalso. apply Hf1. apply map_eq_nil in Em. destruct (log s); [reflexivity|].
          cbn [rev] in Em. apply app_eq_nil in Em. destruct Em; discriminate. }
        replace (0 <? t0) with false by (symmetry; apply Z.ltb_ge; rewrite A in Fa; lia).
        reflexivity.
      + destruct ((space (buf s) =? 0) && negb (tg s)) eqn:Eb.
        * apply andb_true_iff in Eb. destruct Eb as [Eb1 Eb2]. apply Z.eqb_eq in Eb1.
          destruct (MAX_CAP <? Z.min (b_cap (fill (buf s) 0) * 2) U64MAX) eqn:Em.
          -- (* recovery cannot start: at 160 KiB the buffer has room at the head of the loop *)
             exfalso. apply Z.ltb_lt in Em. rewrite C in Em. unfold MAX_CAP, U64MAX in Em.
             assert (Hc : b_cap (buf s) = MAX_CAP) by (unfold caps, MAX_CAP in *; lia).
             specialize (Hroom Hc). lia.
          -- intros [W' _].
             apply Z.ltb_ge in Em. rewrite C in Em. unfold MAX_CAP, U64MAX in Em.
             split; [constructor|intros _].
             ++ exact W'.
             ++ cbn [set_buf_tg pr]. exact Hpr.
             ++ cbn [set_buf_tg fc log]. intros Q; congruence.
             ++ cbn [set_buf_tg fc buf total]. intros _.
                unfold grow. rewrite C.
                replace (Z.min (b_cap (buf s) * 2) U64MAX <=? b_cap (buf s)) with false
                  by (symmetry; apply Z.leb_gt; unfold U64MAX; lia).
                unfold avail in *. cbn [b_pos b_end]. destruct (Hf0 eq_refl) as [Q|Q]; [left; lia|right; exact Q].
             ++ cbn [set_buf_tg log]. exact Hfed.
             ++ unfold room. cbn [set_buf_tg buf]. intros _.
                unfold grow. rewrite C.
                replace (Z.min (b_cap (buf s) * 2) U64MAX <=? b_cap (buf s)) with false
                  by (symmetry; apply Z.leb_gt; unfold U64MAX; lia).
                unfold space. cbn [b_cap b_end]. destruct G as [? [? ?]]. unfold U64MAX. lia.
        * (* end of input with a partial line (or nothing at all) left *)
          intros _.
          assert (Hu : unread s = 0).
          { apply andb_false_iff in Eb. destruct Eb as [Eb|Eb].
            - apply Z.eqb_neq in Eb. lia.
            - apply negb_false_iff in Eb. specialize (Wtg Eb). unfold space in *. lia. }
          assert (Hrest : rest s = []).
          { unfold partial in Hpart. destruct (rest s) as [|l t]; [reflexivity|]. cbn [Model.size] in Wa.
            pose proof (size_nonneg t). lia. }
          rewrite Hrest in *. cbn [Model.size] in Wa. rewrite app_nil_r in Wl.
          unfold Model.spec. rewrite Wl.
          rewrite (spec_of_fold s Wm0 Hfed).
          destruct (total s =? 0) eqn:Et.
          -- apply Z.eqb_eq in Et.
             assert (Hlog : map snd (rev (log s)) = []).
             { apply size_zero_nil. pose proof (size_nonneg (map snd (rev (log s)))). lia. }
             rewrite Hlog. reflexivity.
          -- apply Z.eqb_neq in Et.
             destruct (map snd (rev (log s))) as [|l t] eqn:Em; [cbn [Model.size] in Wt; lia|].
             replace (0 <? t0) with true; [reflexivity|]. symmetry. apply Z.ltb_lt.
             destruct (Hf0 eq_refl) as [Q|Q]; [lia|contradiction].
    - apply Z.eqb_neq in En. unfold set_tg. cbn [buf fc tg pr jf total ps rest off unread sched ncb cbsum nrd maxsp log].
      set (s2 := mkst (fill (buf s) n) (fc s) false (pr s) (jf s) (total s) (ps s) (rest s) (off s)
                      (unread s - n) sch' (ncb s) (cbsum s) (nrd s + 1)
                      (Z.max (maxsp s) (space (buf s))) (log s)).
      assert (Hp2 : pr s2 = false) by exact Hpr.
      destruct (parse_phase s2) as [s'|r s'|t] eqn:PP.
      + intros [W' _].
        destruct (parse_phase_ci s2 s' G Wpo Hp2 ltac:(subst s2; cbn [buf]; lia) Hfed PP) as [Q1 [Q2 [Q3 Q4]]].
        split.
        * constructor; try assumption. intros Q. left. exact (Q3 Q).
        * intros Hfine. exact (parse_phase_room s n sch' s' Wm0 Hpr Hpart ltac:(lia) Hn2 (Hfine n sch' eq_refl) PP).
      + intros _. destruct (parse_phase_done s2 r s' Hp2 PP) as [c [tk [l [r' [p1 [Q1 [Q2 [Q3 Q4]]]]]]]].
        subst r. symmetry.
        unfold Model.spec. rewrite (fold_err s c tk l r' p1 Wm0 Hfed Q2 Q3 Q4). reflexivity.
      + intros F. exact F.
  Qed.

  End Wide.

  Hypothesis short : short_lines llen lines t0.

  (* with short lines the unparsed part of the buffer is less than half of it *)
  Lemma short_room : forall s, CI s -> room s.
  Proof.
    intros s [W Hpr _ _ _] Hc. pose proof (wf_partial _ _ _ _ _ _ _ _ _ _ _ W Hpr) as Hpart.
    destruct (wf_m _ _ _ _ _ _ _ _ _ _ _ W) as [Wg Wc Wh [Wo1 Wo2] Wa Ws Wu Wpo Wpc Wtg Wcb Wms Wt Wpl Wl Wr Wd].
    specialize (Wpo Hpr). destruct short as [Sl St]. rewrite Hc in Wh. unfold MAX_CAP, HALF_CAP in *.
    unfold partial in Hpart. unfold space, avail in *. destruct Wg as [? [? ?]].
    destruct (rest s) as [|l t] eqn:Er.
    - cbn [Model.size] in Wa. lia.
    - assert (llen l <= 81920); [|lia]. rewrite Wl in Sl. apply Forall_app in Sl. destruct Sl as [_ Sl]. inversion Sl; assumption.
  Qed.

  Local Notation init_st := (init_st L llen PS init_ps).

  Lemma ci_init : forall sch, CI (init_st lines t0 sch).
  Proof.
    intros sch. constructor.
    - apply init_wf'. exact llen_pos.
    - reflexivity.
    - cbn [Model.init_st fc]. discriminate.
    - intros _. right. reflexivity.
    - constructor.
  Qed.
End CI.
