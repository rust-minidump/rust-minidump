(* C10/ProofsAsync.v — SymbolFile::parse_async is SymbolFile::parse under the schedule of the
   reads it actually performs: for every sequence of (non-empty) HTTP chunks there is a reader
   schedule under which [drive] ends with the same result and the same final state (reader state
   aside).  Hence every theorem about [drive] for all schedules also holds for [drive_async].

   Which model is the code.  [drive_async] / [read_async] (C09/Model.v) take ONE chunk per refill and assume that no
   chunk is empty: that is parse_async up to /repo 29e7bfd.  The parse_async of the repository as it stands skips
   empty chunks and can fail; its model is [drive_stream] (C10/Stream.v, proofs in ProofsStream.v).  On bodies of
   non-empty chunks that do not fail the two agree; C10/OldRefill.v keeps the one-chunk refill inside the stream model
   only to exhibit what an empty chunk did to it.

   The first half of the file is about SymbolFile::parse itself: the loop body writes the reader's fields ([sched],
   [unread], [nrd]) at the read and nowhere else.  ProofsFine.v, ProofsStream.v and ProofsReadFail.v use these facts. *)
From Coq Require Import Lia ZArith List Bool.
From RM Require Import Base.Word C09.Model C09.Proofs.
Import ListNotations.
Open Scope Z_scope.

Section Async.
  Variable L : Type.
  Variable llen : L -> Z.
  Variable PS : Type.
  Variable init_ps : PS.
  Variable recog : PS -> L -> PS + Z.
  Variable bump : PS -> PS.
  Variable lineno : PS -> Z.
  Hypothesis llen_pos : forall l, 1 <= llen l.

  Local Notation St := (st L PS).
  Local Notation step := (step L llen PS recog bump lineno).
  Local Notation step_async := (step_async L llen PS recog bump lineno).
  Local Notation step_after_read := (step_after_read L llen PS recog lineno).
  Local Notation parse_phase := (parse_phase L llen PS recog lineno).
  Local Notation recovery := (recovery L llen PS bump).
  Local Notation read_n := (read_n L PS).
  Local Notation read_async := (read_async L PS).
  Local Notation iter_nat := (iter_nat L llen PS recog bump lineno).

  (* [ws x s]: s with schedule x ("with schedule"); [erase]: the reader's schedule forgotten, to compare states of
     runs under different readers; [lift f]: f on the state a step result carries *)
  Definition ws (x : list Z) (s : St) : St :=
    mkst (buf s) (fc s) (tg s) (pr s) (jf s) (total s) (ps s) (rest s) (off s) (unread s) x
         (ncb s) (cbsum s) (nrd s) (maxsp s) (log s).
  Definition erase (s : St) : St := ws [] s.
  Definition lift (f : St -> St) (r : stepres L PS) : stepres L PS :=
    match r with Next s => Next (f s) | Done x s => Done x (f s) | StPanic t => StPanic t end.

  Ltac projs := cbn [ws buf fc tg pr jf total ps rest off unread sched ncb cbsum nrd maxsp log].

  (* what an iteration leaves alone: the read counter and the reader state change only at the read *)
  Definition same_reader (s s' : St) : Prop := sched s' = sched s /\ unread s' = unread s /\ nrd s' = nrd s.
  Definition framed (P : St -> Prop) (r : stepres L PS) : Prop :=
    match r with Next s' | Done _ s' => P s' | StPanic _ => True end.

  (* parse_more and the bookkeeping after it do not look at the reader state, and pass it on *)
  Lemma parse_phase_ws : forall x s, parse_phase (ws x s) = lift (ws x) (parse_phase s).
  Proof.
    intros x s. unfold Model.parse_phase. projs. destruct (pr s); [reflexivity|].
    destruct (negb (geom_ok (buf s))); [reflexivity|]. destruct (negb (off s =? 0)); [reflexivity|].
    destruct (pm L llen PS recog lineno (avail (buf s)) (ps s) (rest s) 0 (log s)) as [[[[? ?] ?] ?]|[? ?]]; reflexivity.
  Qed.

  Lemma parse_phase_frame : forall s, framed (same_reader s) (parse_phase s).
  Proof.
    intros s. unfold Model.parse_phase. destruct (pr s); [repeat split|].
    destruct (negb (geom_ok (buf s))); [exact I|]. destruct (negb (off s =? 0)); [exact I|].
    destruct (pm L llen PS recog lineno (avail (buf s)) (ps s) (rest s) 0 (log s)) as [[[[? ?] ?] ?]|[? ?]]; repeat split.
  Qed.

  Lemma parse_phase_erase : forall x s, lift erase (parse_phase (ws x s)) = lift erase (parse_phase s).
  Proof. intros x s. rewrite parse_phase_ws. destruct (parse_phase s); reflexivity. Qed.

  Ltac sar_cases :=
    unfold Model.step_after_read, set_pr, set_tg, set_buf_tg; projs;
    repeat match goal with |- context [if ?c then _ else _] => destruct c end.

  (* the part of the loop body after the read does not look at the reader state *)
  Lemma after_read_ws : forall n y y' sp x s,
    lift erase (step_after_read n y sp s) = lift erase (step_after_read n y' sp (ws x s)).
  Proof.
    intros n y y' sp x s. sar_cases; try reflexivity.
    all: match goal with |- lift erase (parse_phase ?S1) = lift erase (parse_phase ?S2) =>
           rewrite <- (parse_phase_erase [] S1), <- (parse_phase_erase [] S2) end; reflexivity.
  Qed.

  Lemma after_read_frame : forall n y sp s,
    framed (fun s' => sched s' = y /\ unread s' = unread s - n /\ nrd s' = nrd s + 1) (step_after_read n y sp s).
  Proof.
    intros n y sp s. sar_cases; try (repeat split).
    all: match goal with |- framed _ (parse_phase ?S) => exact (parse_phase_frame S) end.
  Qed.

  Lemma erase_eq : forall a b : St, erase a = erase b -> b = ws (sched b) a.
  Proof. intros [] [] H. unfold erase, ws in *. cbn in *. inversion H; subst. reflexivity. Qed.

  Lemma recovery_ws : forall x s, recovery (ws x s) = ws x (recovery s).
  Proof.
    intros x s. unfold Model.recovery. change (first_nl L llen PS (ws x s)) with (first_nl L llen PS s). projs.
    destruct (first_nl L llen PS s); [destruct (rest s)|]; reflexivity.
  Qed.

  Lemma recovery_frame : forall s, same_reader s (recovery s).
  Proof.
    intros s. unfold Model.recovery. destruct (first_nl L llen PS s); [destruct (rest s)|]; repeat split.
  Qed.

  (* the state in the middle of an iteration: after the recovery block, before the read *)
  Definition mid (s : St) : St := if pr s then recovery s else s.

  Lemma mid_ws : forall x s, mid (ws x s) = ws x (mid s).
  Proof. intros x s. unfold mid. cbn [ws pr]. destruct (pr s); [apply recovery_ws|reflexivity]. Qed.

  Lemma mid_frame : forall s, same_reader s (mid s).
  Proof. intros s. unfold mid. destruct (pr s); [apply recovery_frame|repeat split]. Qed.

  Fixpoint zsum (l : list Z) : Z := match l with [] => 0 | x :: t => x + zsum t end.

  (* the invariant of the async reader ([AI s], on its two fields [AIp]): [sched] holds the bytes left in the current
     slice, then the chunks still to come (all non-empty); together they are the bytes not yet read *)
  Definition AIp (sch : list Z) (u : Z) : Prop :=
    exists cur more, sch = cur :: more /\ 0 <= cur /\ Forall (fun c => 0 < c) more /\ cur + zsum more = u.
  Definition AI (s : St) : Prop := AIp (sched s) (unread s).

  (* the reads parse_async performs, in order (zero-byte reads left out) *)
  Fixpoint areads (fuel : nat) (s : St) : list Z :=
    match fuel with
    | O => []
    | S f =>
        let n := fst (read_async (space (buf (mid s))) (mid s)) in
        let pre := if n =? 0 then [] else [n] in
        match step_async s with
        | Next s' => pre ++ areads f s'
        | _ => pre
        end
    end.

  Fixpoint iter_nat_async (n : nat) (s : St) : stepres L PS :=
    match n with
    | O => Next s
    | S n' => match step_async s with Next s1 => iter_nat_async n' s1 | r => r end
    end.

  Lemma iter_nat_async_add : forall a b s,
    iter_nat_async (a + b) s = match iter_nat_async a s with Next s1 => iter_nat_async b s1 | r => r end.
  Proof.
    induction a as [|a IH]; intros b s; cbn [iter_nat_async Nat.add]; [reflexivity|].
    destruct (step_async s); try reflexivity. apply IH.
  Qed.

  Lemma iter_pos_async_nat : forall p s,
    iter_pos_async L llen PS recog bump lineno p s = iter_nat_async (Pos.to_nat p) s.
  Proof.
    induction p as [q IH|q IH|]; intros s; cbn [Model.iter_pos_async].
    - rewrite Pos2Nat.inj_xI. replace (S (2 * Pos.to_nat q))%nat with (1 + (Pos.to_nat q + Pos.to_nat q))%nat by lia.
      rewrite iter_nat_async_add. cbn [iter_nat_async]. destruct (step_async s) as [s1| |]; try reflexivity.
      rewrite iter_nat_async_add. rewrite IH. destruct (iter_nat_async (Pos.to_nat q) s1); try reflexivity. apply IH.
    - rewrite Pos2Nat.inj_xO. replace (2 * Pos.to_nat q)%nat with (Pos.to_nat q + Pos.to_nat q)%nat by lia.
      rewrite iter_nat_async_add. rewrite IH. destruct (iter_nat_async (Pos.to_nat q) s); try reflexivity. apply IH.
    - rewrite Pos2Nat.inj_1. cbn [iter_nat_async]. destruct (step_async s); reflexivity.
  Qed.

  Lemma zsum_nonneg : forall l, Forall (fun c => 0 < c) l -> 0 <= zsum l.
  Proof. induction 1; cbn [zsum]; lia. Qed.

  (* a reader that has [c] bytes at hand gives min(space, c); so does the scheduled reader whose schedule starts with that
     amount (a read of 0 bytes uses up no schedule entry) *)
  Lemma read_n_one : forall (s : St) sp c X, 0 <= sp -> 0 <= c <= unread s -> (c = 0 -> unread s = 0) ->
    let n := Z.max 0 (Z.min sp c) in
    read_n sp (ws ((if n =? 0 then [] else [n]) ++ X) s) = (n, X).
  Proof.
    intros s sp c X Hsp Hc Hz n. unfold Model.read_n. cbn [ws unread sched]. destruct (n =? 0) eqn:En; cbn [app].
    - apply Z.eqb_eq in En. rewrite En.
      replace ((sp <=? 0) || (unread s <=? 0)) with true; [reflexivity|]. symmetry. apply orb_true_iff.
      destruct (Z.eq_dec c 0) as [Q|Q]; [right; rewrite (Hz Q)|left]; apply Z.leb_le; lia.
    - apply Z.eqb_neq in En.
      replace (sp <=? 0) with false by (symmetry; apply Z.leb_gt; lia).
      replace (unread s <=? 0) with false by (symmetry; apply Z.leb_gt; lia).
      cbn [orb]. f_equal. lia.
  Qed.

  (* one read: what the chunked reader gives is what the scheduled reader gives when the schedule
     starts with that amount *)
  Lemma read_agree : forall s sp X, AI s -> 0 <= sp ->
    let n := fst (read_async sp s) in
    read_n sp (ws ((if n =? 0 then [] else [n]) ++ X) s) = (n, X) /\
    (0 <= n) /\ AIp (snd (read_async sp s)) (unread s - n).
  Proof.
    intros s sp X [cur [more [Hs [Hc [Hm Hsum]]]]] Hsp. pose proof (zsum_nonneg more Hm) as Hmore.
    unfold Model.read_async. rewrite Hs.
    (* the slice the read is served from, and the chunks after it *)
    assert (E : exists c t, (if cur <=? 0 then match more with [] => (0, []) | c :: t => (c, t) end else (cur, more)) = (c, t) /\
                            0 <= c /\ Forall (fun c => 0 < c) t /\ c + zsum t = unread s /\ (c = 0 -> unread s = 0)).
    { destruct (cur <=? 0) eqn:Ec; [apply Z.leb_le in Ec|apply Z.leb_gt in Ec].
      - destruct more as [|c t]; [exists 0, []|exists c, t; inversion Hm; subst]; cbn [zsum] in *;
          (split; [reflexivity|]); repeat split; try assumption; try constructor; lia.
      - exists cur, more. split; [reflexivity|]. repeat split; try assumption; lia. }
    destruct E as [c [t [E [H0 [Ht [Hu Hz]]]]]]. rewrite E. cbn [fst snd]. pose proof (zsum_nonneg t Ht).
    split; [exact (read_n_one s sp c X Hsp ltac:(lia) Hz)|]. split; [lia|].
    exists (c - Z.max 0 (Z.min sp c)), t. repeat split; try assumption; lia.
  Qed.

  Lemma geom_ok_space : forall b, geom_ok b = true -> 0 <= space b.
  Proof.
    intros b H. unfold geom_ok in H. apply andb_true_iff in H. destruct H as [_ H]. apply Z.leb_le in H.
    unfold space. lia.
  Qed.

  Lemma lift_next : forall f a b s, lift f a = lift f b -> a = Next s -> exists s', b = Next s' /\ f s = f s'.
  Proof. intros f a b s H E. subst a. destruct b; cbn in H; inversion H. eauto. Qed.

  Lemma step_async_eq : forall sa,
    pr sa && negb (geom_ok (buf sa)) = false -> geom_ok (buf (mid sa)) = true ->
    step_async sa = step_after_read (fst (read_async (space (buf (mid sa))) (mid sa)))
                                    (snd (read_async (space (buf (mid sa))) (mid sa)))
                                    (space (buf (mid sa))) (mid sa).
  Proof.
    intros sa E1 E2. unfold Model.step_async. rewrite E1. fold (mid sa). unfold Model.step_rest_async.
    rewrite E2. cbn [negb]. destruct (read_async (space (buf (mid sa))) (mid sa)); reflexivity.
  Qed.

  Lemma step_eq : forall sa x,
    pr sa && negb (geom_ok (buf sa)) = false -> geom_ok (buf (mid sa)) = true ->
    step (ws x sa) = step_after_read (fst (read_n (space (buf (mid sa))) (ws x (mid sa))))
                                     (snd (read_n (space (buf (mid sa))) (ws x (mid sa))))
                                     (space (buf (mid sa))) (ws x (mid sa)).
  Proof.
    intros sa x E1 E2. unfold Model.step. cbn [ws pr buf]. rewrite E1.
    change (if pr sa then recovery (ws x sa) else ws x sa) with (mid (ws x sa)). rewrite mid_ws.
    unfold Model.step_rest. cbn [ws buf]. rewrite E2. cbn [negb].
    destruct (read_n (space (buf (mid sa))) (ws x (mid sa))); reflexivity.
  Qed.

  (* The simulation.  [areads fuel sa] lists the non-zero reads of the async run; feed them to [step] as its schedule:
     at each iteration the async read returns n, the scheduled reader, whose schedule starts with n, returns n too
     ([read_agree]), the rest of the loop body does not look at the reader ([after_read_ws]), so the two states stay
     equal up to [erase] and the remaining schedule is the reads still to come. *)
  Lemma sim : forall fuel sa x, AI sa -> x = areads fuel sa ->
    lift erase (iter_nat_async fuel sa) = lift erase (iter_nat fuel (ws x sa)).
  Proof.
    induction fuel as [|f IH]; intros sa x Hai Hx; cbn [iter_nat_async Proofs.iter_nat]; [reflexivity|].
    destruct (pr sa && negb (geom_ok (buf sa))) eqn:Eg.
    { unfold Model.step_async, Model.step. cbn [ws pr buf]. rewrite Eg. reflexivity. }
    destruct (geom_ok (buf (mid sa))) eqn:Eg1.
    2:{ unfold Model.step_async, Model.step. cbn [ws pr buf]. rewrite Eg.
        change (if pr sa then recovery (ws x sa) else ws x sa) with (mid (ws x sa)). rewrite mid_ws.
        fold (mid sa). unfold Model.step_rest_async, Model.step_rest. cbn [ws buf]. rewrite Eg1. reflexivity. }
    pose proof (geom_ok_space _ Eg1) as Hsp.
    destruct (mid_frame sa) as [Ms [Mu _]].
    assert (Hai1 : AI (mid sa)) by (unfold AI; rewrite Ms, Mu; exact Hai).
    pose proof (step_async_eq sa Eg Eg1) as HA.
    cbn [areads] in Hx.
    set (sp := space (buf (mid sa))) in *.
    set (n := fst (read_async sp (mid sa))) in *.
    set (y := snd (read_async sp (mid sa))) in *.
    set (X := match step_async sa with Next s' => areads f s' | _ => [] end).
    assert (Hxx : x = (if n =? 0 then [] else [n]) ++ X).
    { rewrite Hx. subst X. destruct (step_async sa); [reflexivity|rewrite app_nil_r; reflexivity..]. }
    destruct (read_agree (mid sa) sp X Hai1 Hsp) as [Hr [Hn Hai2]]. fold n in Hr, Hai2. fold y in Hai2.
    assert (Hr' : read_n sp (ws x (mid sa)) = (n, X)) by (rewrite Hxx; exact Hr).
    pose proof (step_eq sa x Eg Eg1) as HS. fold sp in HS. rewrite Hr' in HS. cbn [fst snd] in HS.
    pose proof (after_read_ws n y X sp x (mid sa)) as HW.
    pose proof (after_read_frame n y sp (mid sa)) as FA.
    pose proof (after_read_frame n X sp (ws x (mid sa))) as FS.
    rewrite <- HA in HW, FA. rewrite <- HS in HW, FS.
    destruct (step_async sa) as [sa'| ra sa'|ta] eqn:EA.
    - destruct (lift_next erase _ _ sa' HW eq_refl) as [ss' [ES Ee]]. rewrite ES in *.
      destruct FA as [FA1 [FA2 _]]. destruct FS as [FS1 _].
      pose proof (erase_eq _ _ Ee) as Hss. rewrite Hss. apply IH.
      + unfold AI. rewrite FA1, FA2. exact Hai2.
      + rewrite FS1. reflexivity.
    - destruct (step (ws x sa)); cbn [lift] in *; try discriminate; exact HW.
    - destruct (step (ws x sa)); cbn [lift] in *; try discriminate; exact HW.
  Qed.

  Lemma done_inj : forall (r r' : result PS) (a b : St), Done r a = Done r' b -> r = r' /\ a = b.
  Proof. intros r r' a b H. inversion H. split; reflexivity. Qed.

  Definition init_async (lines : list L) (tail : Z) (chunks : list Z) : St :=
    init_st L llen PS init_ps lines tail (0 :: chunks).

  (* parse_async over chunks = parse under the schedule of the reads it performs *)
  Theorem async_is_sync : forall lines tail chunks,
    Forall (fun c => 0 < c) chunks -> zsum chunks = input_len L llen lines tail ->
    exists sch r s1 s2,
      drive_async L llen PS init_ps recog bump lineno lines tail chunks = Ret (r, s1) /\
      drive L llen PS init_ps recog bump lineno lines tail sch = Ret (r, s2) /\
      erase s1 = erase s2.
  Proof.
    intros lines tail chunks Hc Hsum.
    set (fuel := Pos.to_nat (fuel_for L llen lines tail)).
    set (sa := init_async lines tail chunks).
    exists (areads fuel sa).
    destruct (drive_fin L llen PS init_ps recog bump lineno llen_pos lines tail (areads fuel sa)) as [r [s2 [H2 _]]].
    assert (Hai : AI sa).
    { exists 0, chunks. subst sa. unfold init_async, init_st. cbn [sched unread]. repeat split; try lia; assumption. }
    pose proof (sim fuel sa (areads fuel sa) Hai eq_refl) as S.
    assert (Hw : ws (areads fuel sa) sa = init_st L llen PS init_ps lines tail (areads fuel sa)) by reflexivity.
    rewrite Hw in S.
    unfold Model.drive in H2. rewrite iter_pos_nat in H2. fold fuel in H2.
    destruct (Proofs.iter_nat L llen PS recog bump lineno fuel (init_st L llen PS init_ps lines tail (areads fuel sa)))
      as [sx|rx sx|tx] eqn:E2; try discriminate.
    inversion H2; subst rx sx. cbn [lift] in S.
    unfold Model.drive_async. rewrite iter_pos_async_nat. fold fuel. fold (init_async lines tail chunks). fold sa.
    destruct (iter_nat_async fuel sa) as [s1|r1 s1|t1]; cbn [lift] in S; try discriminate.
    destruct (done_inj _ _ _ _ S) as [S1 S2]. subst r1.
    exists r, s1, s2. split; [reflexivity|]. split; [|exact S2].
    unfold Model.drive. rewrite iter_pos_nat. fold fuel. rewrite E2. reflexivity.
  Qed.
End Async.
