(* C10/ProofsStream.v — parse_async over an arbitrary body (empty chunks, a body that fails at chunk k):
   every iteration of [step_stream] is an iteration of C09's [step] (SymbolFile::parse) under a one-entry
   reader schedule, so C09's invariant (no panic, termination, callback accounting) and C10's invariant
   (while the buffer keeps room: never in recovery, outcome = [spec_stream]) carry over step by step.

   [drive_stream] (C10/Stream.v) is the model of parse_async as the repository has it: the refill block skips empty
   chunks and a failed chunk ends the parse.  [drive_async] (C09/Model.v, ProofsAsync.v) is the one-chunk refill that
   preceded it, for bodies of non-empty chunks; C10/OldRefill.v puts that refill into the stream model to show what an
   empty chunk did to it.

   One iteration of [step_stream] is characterised three times, for three uses: [step_stream_char] relates it to
   C09's [step] (to carry invariants of [step] over), [step_stream_unfold_gen] spells it out over [step_after_read] on
   the state after the recovery block (for facts about a single iteration, any input), [step_stream_unfold] is the
   latter outside recovery, where that state is the state itself. *)
From Coq Require Import Lia ZArith List Bool.
From RM Require Import Base.Word C09.Model C09.Proofs C10.Model C10.Proofs C10.ProofsAsync C10.Stream C10.Band.
From RM Require Gen.C10Stream.
Import ListNotations.
Open Scope Z_scope.
Local Arguments wf_acct {_ _ _ _ _ _ _ _ _ _ _} _.
Local Arguments wf_cb {_ _ _ _ _ _ _ _ _ _ _} _.
Local Arguments wf_fc {_ _ _ _ _ _ _ _ _ _ _} _.
Local Arguments wf_geom {_ _ _ _ _ _ _ _ _ _ _} _.
Local Arguments wf_jf {_ _ _ _ _ _ _ _ _ _ _} _.
Local Arguments wf_lines {_ _ _ _ _ _ _ _ _ _ _} _.
Local Arguments wf_m {_ _ _ _ _ _ _ _ _ _ _} _.
Local Arguments wf_partial {_ _ _ _ _ _ _ _ _ _ _} _.
Local Arguments wf_pr_off {_ _ _ _ _ _ _ _ _ _ _} _.
Local Arguments wf_total {_ _ _ _ _ _ _ _ _ _ _} _.

(* [next_chunk] and [refill] of C10/Stream.v written over the guard and the match arms that translate/c10_stream.py
   extracts from parse_async's source (the four constants of Gen/C10Stream.v) *)
Fixpoint next_chunk_src (pend : list sev) : option (Z * list sev) :=
  match pend with
  | [] => Some (C10Stream.src_none_len, [])
  | SChunk n :: t => if C10Stream.src_skip_chunk n then next_chunk_src t else Some (n, t)
  | SFail :: _ => if C10Stream.src_fail_is_load_error then None else Some (0, [])
  end.
Definition refill_src (cur : Z) (pend : list sev) : option (Z * list sev) :=
  if C10Stream.src_refill_guard cur then next_chunk_src pend else Some (cur, pend).

Lemma refill_is_source : forall cur pend, refill cur pend = refill_src cur pend.
Proof.
  intros cur pend. unfold refill, refill_src, C10Stream.src_refill_guard.
  destruct (cur <=? 0); [|reflexivity].
  induction pend as [|[n|] t IH]; cbn [next_chunk next_chunk_src]; try reflexivity.
  all: unfold C10Stream.src_skip_chunk; destruct (n <=? 0); [exact IH|reflexivity].
Qed.

Lemma delivered_nonneg : forall p, 0 <= delivered p.
Proof. induction p as [|[n|] t IH]; cbn [delivered]; lia. Qed.

Lemma next_chunk_some : forall p c1 p1, next_chunk p = Some (c1, p1) ->
  0 <= c1 /\ c1 + delivered p1 = delivered p /\ fails p1 = fails p /\
  (c1 = 0 -> p1 = [] /\ fails p = false).
Proof.
  induction p as [|[n|] t IH]; intros c1 p1 H; cbn [next_chunk] in H.
  - inversion H; subst. cbn [delivered fails]. split; [lia|]. split; [lia|]. split; [reflexivity|]. intros _. split; reflexivity.
  - cbn [delivered fails]. destruct (n <=? 0) eqn:E.
    + apply Z.leb_le in E. destruct (IH _ _ H) as [A [B [C D]]].
      split; [exact A|]. split; [lia|]. split; [exact C|exact D].
    + apply Z.leb_gt in E. inversion H; subst.
      split; [lia|]. split; [lia|]. split; [reflexivity|]. intros Q. lia.
  - discriminate.
Qed.

Lemma next_chunk_none : forall p, next_chunk p = None -> delivered p = 0 /\ fails p = true.
Proof.
  induction p as [|[n|] t IH]; intros H; cbn [next_chunk] in H.
  - discriminate.
  - cbn [delivered fails]. destruct (n <=? 0) eqn:E; [|discriminate]. apply Z.leb_le in E.
    destruct (IH H) as [A B]. split; [lia|exact B].
  - cbn [delivered fails]. split; reflexivity.
Qed.

Lemma refill_some : forall cur p c1 p1, 0 <= cur -> refill cur p = Some (c1, p1) ->
  0 <= c1 /\ c1 + delivered p1 = cur + delivered p /\ fails p1 = fails p /\
  (c1 = 0 -> cur + delivered p = 0 /\ fails p = false).
Proof.
  intros cur p c1 p1 Hc H. unfold refill in H. destruct (cur <=? 0) eqn:E.
  - apply Z.leb_le in E. assert (cur = 0) by lia. subst cur.
    destruct (next_chunk_some _ _ _ H) as [A [B [C D]]].
    split; [exact A|]. split; [lia|]. split; [exact C|].
    intros Q. destruct (D Q) as [D1 D2]. subst p1 c1. cbn [delivered] in B. split; [lia|exact D2].
  - apply Z.leb_gt in E. inversion H; subst.
    split; [lia|]. split; [lia|]. split; [reflexivity|]. intros Q. lia.
Qed.

Lemma refill_none : forall cur p, 0 <= cur -> refill cur p = None ->
  cur + delivered p = 0 /\ fails p = true.
Proof.
  intros cur p Hc H. unfold refill in H. destruct (cur <=? 0) eqn:E; [|discriminate].
  apply Z.leb_le in E. destruct (next_chunk_none _ H). split; [lia|assumption].
Qed.

Section StreamProofs.
  Variable L : Type.
  Variable llen : L -> Z.
  Variable PS : Type.
  Variable init_ps : PS.
  Variable recog : PS -> L -> PS + Z.
  Variable bump : PS -> PS.
  Variable lineno : PS -> Z.
  Hypothesis llen_pos : forall l, 1 <= llen l.
  Variable lines : list L.
  Variable t0 : Z.

  Local Notation tail := (Z.max 0 t0).
  Local Notation ilen := (input_len L llen lines t0).
  Local Notation St := (st L PS).
  Local Notation SSt := (@sst L PS).
  Local Notation step := (step L llen PS recog bump lineno).
  Local Notation step_stream := (step_stream L llen PS recog bump lineno).
  Local Notation sar := (step_after_read L llen PS recog lineno).
  Local Notation ws := (ws L PS).
  Local Notation lift := (lift L PS).
  Local Notation mid := (mid L llen PS bump).
  Local Notation wrap := (wrap L PS).
  Local Notation phi := (phi L PS).
  Local Notation WF := (WF L llen PS init_ps recog bump lineno tail ilen lines).
  Local Notation WFm := (WFm L llen PS init_ps recog bump lineno tail ilen lines).
  Local Notation Fin := (Fin L llen PS init_ps recog bump lineno tail ilen lines).
  Local Notation spec := (spec L PS init_ps recog lineno).
  Local Notation fold_recog := (fold_recog L PS recog lineno).

  Lemma ws_nil_id : forall s : St, sched s = [] -> ws [] s = s.
  Proof. intros [] H. unfold ProofsAsync.ws. cbn in *. subst. reflexivity. Qed.

  Lemma lift_frame : forall n sp (s : St), lift (ws []) (sar n [] sp s) = sar n [] sp s.
  Proof.
    intros n sp s. pose proof (after_read_frame L llen PS recog lineno n [] sp s) as F.
    destruct (sar n [] sp s) as [s'|r s'|t]; cbn [ProofsAsync.lift]; try reflexivity;
      destruct F as [F _]; rewrite (ws_nil_id _ F); reflexivity.
  Qed.

  (* one iteration of parse_async = one iteration of parse whose reader returns what the slice gives *)
  Lemma step_stream_char : forall (x : SSt) c1 pend1,
    refill (cur x) (pend x) = Some (c1, pend1) ->
    0 <= c1 <= unread (core x) -> (c1 = 0 -> unread (core x) = 0) ->
    let n := Z.max 0 (Z.min (space (buf (mid (core x)))) c1) in
    let sch := if n =? 0 then [] else [n] in
    step_stream x = wrap (c1 - n) pend1 (lift (ws []) (step (ws sch (core x)))) /\
    match step (ws sch (core x)) with
    | Next s' | Done _ s' => unread s' = unread (core x) - n
    | StPanic _ => True
    end.
  Proof.
    intros x c1 pend1 R Hc Hz n sch. unfold Stream.step_stream. rewrite R.
    set (s0 := core x) in *.
    destruct (pr s0 && negb (geom_ok (buf s0))) eqn:Eg.
    { unfold Model.step. cbn [ProofsAsync.ws pr buf]. rewrite Eg. split; [reflexivity|exact I]. }
    change (if pr s0 then recovery L llen PS bump s0 else s0) with (mid s0).
    destruct (geom_ok (buf (mid s0))) eqn:Eg1; cbn [negb].
    2:{ unfold Model.step. cbn [ProofsAsync.ws pr buf]. rewrite Eg.
        change (if pr s0 then recovery L llen PS bump (ws sch s0) else ws sch s0) with (mid (ws sch s0)).
        rewrite mid_ws. unfold Model.step_rest. cbn [ProofsAsync.ws buf]. rewrite Eg1. split; [reflexivity|exact I]. }
    fold n.
    rewrite (step_eq L llen PS recog bump lineno s0 sch Eg Eg1).
    pose proof (geom_ok_space L PS init_ps recog bump lineno _ Eg1) as Hsp.
    destruct (mid_frame L llen PS bump s0) as [_ [Mu _]].
    set (sp := space (buf (mid s0))) in *.
    assert (Hr : read_n L PS sp (ws sch (mid s0)) = (n, [])).
    { rewrite <- (app_nil_r sch). refine (read_n_one L PS init_ps recog bump lineno (mid s0) sp c1 [] Hsp _ _); rewrite Mu; assumption. }
    rewrite Hr. cbn [fst snd]. split.
    - rewrite <- (lift_frame n sp (mid s0)).
      apply f_equal.
      exact (after_read_ws L llen PS recog lineno n [] [] sp sch (mid s0)).
    - pose proof (after_read_frame L llen PS recog lineno n [] sp (ws sch (mid s0))) as F.
      destruct (sar n [] sp (ws sch (mid s0))); try exact I; destruct F as [_ [F _]]; rewrite F;
        cbn [ProofsAsync.ws unread]; rewrite Mu; reflexivity.
  Qed.

  (* [RI]: the reader of parse_async accounts for exactly the bytes that are not yet in the buffer *)
  Definition RI (x : SSt) : Prop := 0 <= cur x /\ unread (core x) = cur x + delivered (pend x).

  Lemma ws_WF : forall sch s, WF s -> WF (ws sch s).
  Proof.
    intros sch s [[? ? ? ? ? ? ? ? ? ? ? ? ? ? ? ? ?] ? ? ?]. constructor; [constructor|..]; assumption.
  Qed.

  Lemma mid_wfm : forall s, WF s -> WFm (mid s).
  Proof.
    intros s W. unfold ProofsAsync.mid. destruct (pr s) eqn:E; [|exact (wf_m W)].
    exact (proj1 (recovery_wfm L llen PS init_ps recog bump lineno llen_pos tail ltac:(lia) ilen lines s
                    (wf_m W) E)).
  Qed.

  Lemma ws_WFm : forall sch s, WFm s -> WFm (ws sch s).
  Proof. intros sch s [? ? ? ? ? ? ? ? ? ? ? ? ? ? ? ? ?]. constructor; assumption. Qed.

  Lemma ws_Fin : forall sch r s, Fin r s -> Fin r (ws sch s).
  Proof. intros sch r s [Wm M]. split; [exact (ws_WFm sch s Wm)|]. destruct r; exact M. Qed.

  Lemma stream_step_wf : forall x, WF (core x) -> RI x ->
    match step_stream x with
    | SNext x' => WF (core x') /\ RI x' /\ phi (core x') < phi (core x) /\ fails (pend x') = fails (pend x)
    | SDone r x' => WFm (core x') /\ ((r = RErr LOAD_ERROR 0 /\ fails (pend x) = true) \/ Fin r (core x'))
    | SPanic _ => False
    end.
  Proof.
    intros x W [Hc Hu].
    pose proof (mid_wfm _ W) as Wm1.
    destruct (refill (cur x) (pend x)) as [[c1 pend1]|] eqn:R.
    - destruct (refill_some _ _ _ _ Hc R) as [A [B [C D]]].
      pose proof (delivered_nonneg pend1) as Hd.
      assert (Hc1 : 0 <= c1 <= unread (core x)) by lia.
      assert (Hz : c1 = 0 -> unread (core x) = 0) by (intros Q; destruct (D Q); lia).
      destruct (step_stream_char x c1 pend1 R Hc1 Hz) as [E F]. cbn zeta in E, F. rewrite E. clear E.
      set (n := Z.max 0 (Z.min (space (buf (mid (core x)))) c1)) in *.
      set (sch := if n =? 0 then [] else [n]) in *.
      pose proof (step_wf L llen PS init_ps recog bump lineno llen_pos tail ltac:(lia) ilen lines
                          (ws sch (core x)) (ws_WF sch _ W)) as SW.
      assert (Hn : 0 <= n <= c1) by (subst n; lia).
      destruct (step (ws sch (core x))) as [s'|r s'|t]; cbn [ProofsAsync.lift Stream.wrap core cur pend].
      + destruct SW as [W' P']. split; [exact (ws_WF [] _ W')|]. split; [|split].
        * unfold RI. cbn [core cur pend ProofsAsync.ws unread]. rewrite F. lia.
        * exact P'.
        * exact C.
      + split; [exact (ws_WFm [] _ (proj1 SW))|]. right. exact (ws_Fin [] _ _ SW).
      + exact SW.
    - unfold Stream.step_stream. rewrite R.
      rewrite (geom_ok_true _ (wf_geom (wf_m W))).
      cbn [negb]. rewrite andb_false_r.
      change (if pr (core x) then recovery L llen PS bump (core x) else core x) with (mid (core x)).
      cbn [core]. split; [exact Wm1|]. left. split; [reflexivity|].
      exact (proj2 (refill_none _ _ Hc R)).
  Qed.

  Local Notation iter_stream := (iter_stream L llen PS recog bump lineno).
  Fixpoint iter_nat_s (n : nat) (x : SSt) : @sres L PS :=
    match n with
    | O => SNext x
    | S n' => match step_stream x with SNext x1 => iter_nat_s n' x1 | r => r end
    end.

  Lemma iter_nat_s_add : forall a b x,
    iter_nat_s (a + b) x = match iter_nat_s a x with SNext x1 => iter_nat_s b x1 | r => r end.
  Proof.
    induction a as [|a IH]; intros b x; cbn [iter_nat_s Nat.add]; [reflexivity|].
    destruct (step_stream x); try reflexivity. apply IH.
  Qed.

  Lemma iter_stream_nat : forall p x, iter_stream p x = iter_nat_s (Pos.to_nat p) x.
  Proof.
    induction p as [q IH|q IH|]; intros x; cbn [Stream.iter_stream].
    - rewrite Pos2Nat.inj_xI. replace (S (2 * Pos.to_nat q))%nat with (1 + (Pos.to_nat q + Pos.to_nat q))%nat by lia.
      rewrite iter_nat_s_add. cbn [iter_nat_s]. destruct (step_stream x) as [x1| |]; try reflexivity.
      rewrite iter_nat_s_add. rewrite IH. destruct (iter_nat_s (Pos.to_nat q) x1); try reflexivity. apply IH.
    - rewrite Pos2Nat.inj_xO. replace (2 * Pos.to_nat q)%nat with (Pos.to_nat q + Pos.to_nat q)%nat by lia.
      rewrite iter_nat_s_add. rewrite IH. destruct (iter_nat_s (Pos.to_nat q) x); try reflexivity. apply IH.
    - rewrite Pos2Nat.inj_1. cbn [iter_nat_s]. destruct (step_stream x); reflexivity.
  Qed.

  Lemma stream_run_wf : forall n x, WF (core x) -> RI x -> phi (core x) < Z.of_nat n ->
    exists r x', iter_nat_s n x = SDone r x' /\ WFm (core x') /\
                 ((r = RErr LOAD_ERROR 0 /\ fails (pend x) = true) \/ Fin r (core x')).
  Proof.
    induction n as [|n IH]; intros x W Ri Hphi.
    - pose proof (phi_nonneg _ _ _ _ _ _ _ _ _ _ (core x) (wf_m W)) as Q. cbn in Hphi. lia.
    - cbn [iter_nat_s]. pose proof (stream_step_wf x W Ri) as SW.
      destruct (step_stream x) as [x1|r x1|t].
      + destruct SW as [W1 [R1 [P1 F1]]]. destruct (IH x1 W1 R1 ltac:(lia)) as [r [x' [H1 [H2 H3]]]].
        exists r, x'. split; [exact H1|]. split; [exact H2|]. rewrite <- F1. exact H3.
      + exists r, x1. split; [reflexivity|exact SW].
      + contradiction.
  Qed.

  Local Notation init_stream := (init_stream L llen PS init_ps).
  Local Notation drive_stream := (drive_stream L llen PS init_ps recog bump lineno).

  Lemma init_RI : forall script, delivered script = ilen -> RI (init_stream lines t0 script).
  Proof. intros script H. unfold RI, Stream.init_stream, init_st. cbn [core cur pend unread]. lia. Qed.

  (* C09's [init_phi]; the fuel 6 * ilen + 24 is above it *)
  Lemma init_phi_s : forall script, phi (core (init_stream lines t0 script)) = 6 * ilen + 17.
  Proof.
    intros script. unfold Stream.init_stream. cbn [core].
    exact (init_phi L llen PS init_ps recog bump lineno tail ilen lines t0 [] eq_refl eq_refl).
  Qed.

  (* parse_async is total and the callback gets a prefix of what the body delivered — everything on Ok —
     whatever the body does: chunks of any size, empty chunks, a failure at any point.  All inputs. *)
  Lemma stream_total : forall script, delivered script = ilen ->
    exists r x, drive_stream lines t0 script = Ret (r, x) /\
      cbsum (core x) = total (core x) /\ 0 <= total (core x) <= ilen /\
      (forall p, r = ROk p -> cbsum (core x) = ilen).
  Proof.
    intros script Hd. unfold Stream.drive_stream. rewrite iter_stream_nat.
    destruct (stream_run_wf (Pos.to_nat (fuel_for L llen lines t0)) (init_stream lines t0 script)) as [r [x [H1 [W F]]]].
    - unfold Stream.init_stream. cbn [core]. apply init_wf'. exact llen_pos.
    - exact (init_RI script Hd).
    - rewrite init_phi_s. rewrite positive_nat_Z. unfold fuel_for.
      pose proof (input_len_nonneg L llen PS init_ps recog bump lineno llen_pos lines t0). rewrite Z2Pos.id; lia.
    - rewrite H1. exists r, x. split; [reflexivity|].
      pose proof W as W0. destruct W.
      pose proof (size_nonneg L llen PS init_ps recog bump lineno llen_pos (map snd (rev (log (core x))))).
      destruct wf_geom as [? [? ?]]. destruct wf_off as [? ?]. unfold avail in *.
      split; [exact wf_cb|]. split; [lia|].
      intros p Hp. subst r. destruct F as [[F _]|[_ [_ [F2 [F3 _]]]]]; [discriminate|]. unfold avail in F2. lia.
  Qed.

  (* What the first state satisfies and every iteration keeps decides what a finished parse returns.  The loop
     invariant, the reader's account and whether the body will fail are carried along here once. *)
  Lemma drive_stream_inv : forall (I : SSt -> Prop) (Q : result PS -> SSt -> Prop) script r x,
    delivered script = ilen ->
    (forall y, WF (core y) -> RI y -> fails (pend y) = fails script -> I y ->
       match step_stream y with SNext y' => I y' | SDone r' y' => Q r' y' | SPanic _ => True end) ->
    I (init_stream lines t0 script) -> drive_stream lines t0 script = Ret (r, x) -> Q r x.
  Proof.
    intros I Q script r x Hd Hstep Hi H. unfold Stream.drive_stream in H. rewrite iter_stream_nat in H.
    pose proof (init_wf' L llen PS init_ps recog bump lineno llen_pos lines t0 []) as W.
    pose proof (init_RI script Hd) as Ri. assert (Hf : fails (pend (init_stream lines t0 script)) = fails script) by reflexivity.
    change (init_st L llen PS init_ps lines t0 []) with (core (init_stream lines t0 script)) in W.
    revert W Ri Hf Hi H. generalize (init_stream lines t0 script).
    induction (Pos.to_nat (fuel_for L llen lines t0)) as [|n IH]; intros y W Ri Hf Hi H; cbn [iter_nat_s] in H; [discriminate|].
    specialize (Hstep y W Ri Hf Hi). pose proof (stream_step_wf y W Ri) as SW.
    destruct (step_stream y) as [y1|r1 y1|t]; [|injection H as H1 H2; subst; exact Hstep|discriminate].
    destruct SW as [W1 [R1 [_ F1]]]. apply (IH y1 W1 R1); [rewrite F1; exact Hf|exact Hstep|exact H].
  Qed.

  Local Notation parse_phase := (parse_phase L llen PS recog lineno).

  Lemma parse_phase_done_err : forall s r s', parse_phase s = Done r s' -> exists c ln, r = RErr c ln.
  Proof.
    intros s r s' H. unfold Model.parse_phase in H.
    destruct (pr s); [discriminate|]. destruct (negb (geom_ok (buf s))); [discriminate|].
    destruct (negb (off s =? 0)); [discriminate|].
    destruct (pm L llen PS recog lineno (avail (buf s)) (ps s) (rest s) 0 (log s)) as [[[[p' r1] c'] lg']|[c ln]]; [discriminate|].
    inversion H. exists c, ln. reflexivity.
  Qed.

  (* A slice that is not empty, and the loop body still ends the parse: then never with Ok.  If the read returned
     bytes the end can only come from parse_more, an error.  If it returned none, space() was 0; Ok needs
     fully_consumed, which means an empty buffer, and an empty buffer has space. *)
  Lemma sar_not_ok : forall s1 c1 r s', WFm s1 -> (fc s1 = true -> avail (buf s1) = 0) -> 0 < c1 ->
    sar (Z.max 0 (Z.min (space (buf s1)) c1)) [] (space (buf s1)) s1 = Done r s' -> forall p, r <> ROk p.
  Proof.
    intros s1 c1 r s' Wm Hfc Hc H p Hr. subst r.
    destruct Wm as [Wg Wc Wh [Wo1 Wo2] Wa Ws Wu Wpo Wpc Wtg Wcb Wms Wt Wpl Wl Wr Wd].
    pose proof (caps_bounds L PS init_ps recog bump lineno _ Wc) as Hcb.
    assert (Hsp : 0 <= space (buf s1)) by (destruct Wg as [? [? ?]]; unfold space; lia).
    set (sp := space (buf s1)) in *. set (n := Z.max 0 (Z.min sp c1)) in *.
    unfold Model.step_after_read in H.
    destruct (n =? 0) eqn:En.
    - apply Z.eqb_eq in En. assert (Hs0 : sp = 0) by (subst n; lia).
      cbn [jf fc tg total ps buf] in H.
      match type of H with (if ?c then _ else _) = _ => destruct c end.
      + destruct (parse_phase_done_err _ _ _ H) as [c [ln Q]]. discriminate.
      + destruct (fc s1) eqn:Efc.
        * specialize (Hfc eq_refl). destruct Wg as [? [? ?]]. unfold space, avail in *. subst sp. lia.
        * match type of H with (if ?c then _ else _) = _ => destruct c end.
          -- match type of H with (if ?c then _ else _) = _ => destruct c end; discriminate.
          -- match type of H with (if ?c then _ else _) = _ => destruct c end; discriminate.
    - destruct (parse_phase_done_err _ _ _ H) as [c [ln Q]]. discriminate.
  Qed.

  Lemma step_stream_unfold_gen : forall x c1 pend1, WF (core x) ->
    refill (cur x) (pend x) = Some (c1, pend1) ->
    step_stream x = wrap (c1 - Z.max 0 (Z.min (space (buf (mid (core x)))) c1)) pend1
                         (sar (Z.max 0 (Z.min (space (buf (mid (core x)))) c1)) [] (space (buf (mid (core x)))) (mid (core x))).
  Proof.
    intros x c1 pend1 W R. unfold Stream.step_stream. rewrite R.
    rewrite (geom_ok_true _ (wf_geom (wf_m W))). cbn [negb]. rewrite andb_false_r.
    change (if pr (core x) then recovery L llen PS bump (core x) else core x) with (mid (core x)).
    rewrite (geom_ok_true _ (wf_geom (mid_wfm _ W))). reflexivity.
  Qed.

  Lemma mid_fc : forall s, WF s -> fc (mid s) = true -> avail (buf (mid s)) = 0.
  Proof.
    intros s W. unfold ProofsAsync.mid. destruct (pr s) eqn:E.
    - exact (proj1 (proj2 (recovery_wfm L llen PS init_ps recog bump lineno llen_pos tail ltac:(lia) ilen lines s
                             (wf_m W) E))).
    - exact (wf_fc W E).
  Qed.

  Lemma stream_step_fail_not_ok : forall x r x', WF (core x) -> RI x -> fails (pend x) = true ->
    step_stream x = SDone r x' -> forall p, r <> ROk p.
  Proof.
    intros x r x' W [Hc Hu] Hf H p.
    destruct (refill (cur x) (pend x)) as [[c1 pend1]|] eqn:R.
    - destruct (refill_some _ _ _ _ Hc R) as [A [B [C D]]].
      assert (Hpos : 0 < c1).
      { destruct (Z.eq_dec c1 0) as [Q|Q]; [|lia]. destruct (D Q) as [_ D2]. congruence. }
      rewrite (step_stream_unfold_gen x c1 pend1 W R) in H.
      destruct (sar (Z.max 0 (Z.min (space (buf (mid (core x)))) c1)) [] (space (buf (mid (core x)))) (mid (core x)))
        as [s2|r2 s2|t2] eqn:S; cbn [Stream.wrap] in H; try discriminate.
      inversion H; subst r2.
      exact (sar_not_ok (mid (core x)) c1 r s2 (mid_wfm _ W) (mid_fc _ W) Hpos S p).
    - unfold Stream.step_stream in H. rewrite R in H.
      destruct (pr (core x) && negb (geom_ok (buf (core x)))); [discriminate|]. inversion H. discriminate.
  Qed.

  (* ALL inputs (also with over-long lines, in or after a recovery): when the body fails parse_async returns an error *)
  Lemma stream_fail_not_ok : forall script, delivered script = ilen -> fails script = true ->
    forall r x, drive_stream lines t0 script = Ret (r, x) -> forall p, r <> ROk p.
  Proof.
    intros script Hd Hf r x H.
    refine (drive_stream_inv (fun _ => True) (fun r _ => forall p, r <> ROk p) script r x Hd _ I H).
    intros y W Ri Hfy _. rewrite Hf in Hfy.
    destruct (step_stream y) as [y1|r1 y1|t] eqn:E; [exact I| |exact I].
    exact (stream_step_fail_not_ok y r1 y1 W Ri Hfy E).
  Qed.

  Local Notation CI := (CI L llen PS init_ps recog bump lineno lines t0).
  Local Notation room := (room L PS).
  Local Notation spec_stream := (spec_stream L PS init_ps recog lineno).

  Lemma ws_CI : forall sch s, CI s -> CI (ws sch s).
  Proof. intros sch s [W ? ? ? ?]. constructor; try assumption. exact (ws_WF sch s W). Qed.

  (* everything delivered and nothing left to read: at the head of the loop only an unterminated rest can be unparsed *)
  Lemma all_read_rest : forall s, CI s -> unread s = 0 -> rest s = [].
  Proof.
    intros s [W Hpr _ _ _] Hu.
    pose proof (wf_m W) as Wm.
    pose proof (wf_partial W Hpr) as Hp. unfold partial in Hp.
    pose proof (wf_acct Wm) as Wa.
    pose proof (wf_pr_off Wm Hpr) as Wo.
    destruct (rest s) as [|l t]; [reflexivity|]. cbn [Model.size] in Wa.
    pose proof (size_nonneg L llen PS init_ps recog bump lineno llen_pos t). lia.
  Qed.

  Lemma all_read_fold : forall s, CI s -> unread s = 0 -> fold_recog init_ps lines = inl (ps s).
  Proof.
    intros s Hci Hu. pose proof (all_read_rest s Hci Hu) as Hrest. destruct Hci as [W _ _ _ Hfed].
    pose proof (wf_m W) as Wm.
    rewrite (wf_lines Wm), Hrest, app_nil_r.
    exact (spec_of_fold L llen PS init_ps recog bump lineno lines t0 s Wm Hfed).
  Qed.

  (* a body that will fail still has a non-empty slice to read from: the iteration cannot end the parse
     except with a line the recogniser rejects *)
  Lemma sar_done_reject : forall s c1 r s', CI s -> 0 < c1 ->
    sar (Z.max 0 (Z.min (space (buf s)) c1)) [] (space (buf s)) s = Done r s' ->
    exists c tk l r' p1,
      r = RErr c (lineno p1) /\ rest s = tk ++ l :: r' /\ fold_recog (ps s) tk = inl p1 /\ recog p1 l = inr c.
  Proof.
    intros s c1 r s' [W Hpr Hf1 Hf0 Hfed] Hc H.
    pose proof (wf_m W) as Wm.
    pose proof (wf_jf W Hpr) as Hjf.
    pose proof (wf_fc W Hpr) as Hfca.
    destruct Wm as [Wg Wc Wh [Wo1 Wo2] Wa Ws Wu Wpo Wpc Wtg Wcb Wms Wt Wpl Wl Wr Wd].
    pose proof (caps_bounds L PS init_ps recog bump lineno _ Wc) as Hcb.
    assert (Hsp : 0 <= space (buf s)) by (destruct Wg as [? [? ?]]; unfold space; lia).
    set (sp := space (buf s)) in *. set (n := Z.max 0 (Z.min sp c1)) in *.
    unfold Model.step_after_read in H.
    destruct (n =? 0) eqn:En.
    - apply Z.eqb_eq in En. exfalso. assert (Hs0 : sp = 0) by (subst n; lia).
      cbn [jf fc tg total ps buf] in H. rewrite Hjf in H. cbn [andb] in H.
      destruct (fc s) eqn:Efc.
      + specialize (Hfca eq_refl). destruct Wg as [? [? ?]]. unfold space, avail in *. subst sp. lia.
      + replace (sp =? 0) with true in H by (symmetry; apply Z.eqb_eq; exact Hs0).
        destruct (tg s) eqn:Etg.
        * specialize (Wtg eq_refl). unfold space in *. subst sp. lia.
        * cbn [negb andb] in H. destruct (MAX_CAP <? Z.min (b_cap (fill (buf s) n) * 2) U64MAX); discriminate.
    - apply Z.eqb_neq in En.
      assert (P : pr (set_tg L PS (mkst (fill (buf s) n) (fc s) (tg s) (pr s) (jf s) (total s) (ps s) (rest s) (off s)
                                   (unread s - n) [] (ncb s) (cbsum s) (nrd s + 1) (Z.max (maxsp s) sp) (log s)) false) = false)
        by exact Hpr.
      destruct (parse_phase_done L llen PS recog bump lineno llen_pos _ r s' P H) as [c [tk [l [r' [p1 Q]]]]].
      exists c, tk, l, r', p1. exact Q.
  Qed.

  Lemma step_stream_unfold : forall x c1 pend1, WF (core x) -> pr (core x) = false ->
    refill (cur x) (pend x) = Some (c1, pend1) ->
    step_stream x = wrap (c1 - Z.max 0 (Z.min (space (buf (core x))) c1)) pend1
                         (sar (Z.max 0 (Z.min (space (buf (core x))) c1)) [] (space (buf (core x))) (core x)).
  Proof.
    intros x c1 pend1 W Hpr R. unfold Stream.step_stream. rewrite R, Hpr.
    rewrite (geom_ok_true _ (wf_geom (wf_m W))). reflexivity.
  Qed.

  Section Wide.
  Hypothesis wide : wide_lines llen lines t0.

  Lemma next_chunk_fine : forall p c1 p1, fine_body p -> next_chunk p = Some (c1, p1) ->
    c1 <= HALF_CAP /\ fine_body p1.
  Proof.
    induction p as [|[n|] t IH]; intros c1 p1 F H; cbn [next_chunk] in H.
    - inversion H; subst. split; [unfold HALF_CAP; lia|constructor].
    - inversion F as [|x y Fn Ft]; subst. cbn [fine_ev] in Fn. destruct (n <=? 0).
      + exact (IH _ _ Ft H).
      + inversion H; subst. split; assumption.
    - discriminate.
  Qed.

  Lemma refill_fine : forall cur p c1 p1, cur <= HALF_CAP -> fine_body p -> refill cur p = Some (c1, p1) ->
    c1 <= HALF_CAP /\ fine_body p1.
  Proof.
    intros cur p c1 p1 Hc F H. unfold refill in H. destruct (cur <=? 0).
    - exact (next_chunk_fine _ _ _ F H).
    - inversion H; subst. split; assumption.
  Qed.

  (* two ways to keep room: lines shorter than 80 KiB, or a slice and chunks of at most 80 KiB *)
  Definition calm_body (x : SSt) : Prop := short_lines llen lines t0 \/ (cur x <= HALF_CAP /\ fine_body (pend x)).
  (* [SI], the invariant of the stream loop while the buffer keeps room: C10's [CI] and [room] on the loop state, and
     one of the two reasons why room stays *)
  Definition SI (x : SSt) : Prop := CI (core x) /\ room (core x) /\ calm_body x.

  Lemma stream_step_ci : forall x, SI x -> RI x ->
    match step_stream x with
    | SNext x' => SI x'
    | SDone r x' => r = spec_stream lines t0 (pend x)
    | SPanic _ => False
    end.
  Proof.
    intros x [Hci [Hroom Hcalm]] [Hc Hu]. pose proof Hci as [W Hpr _ _ Hfed].
    destruct (refill (cur x) (pend x)) as [[c1 pend1]|] eqn:R.
    - destruct (refill_some _ _ _ _ Hc R) as [A [B [C D]]].
      pose proof (delivered_nonneg pend1) as Hd.
      assert (Hc1 : 0 <= c1 <= unread (core x)) by lia.
      assert (Hz : c1 = 0 -> unread (core x) = 0) by (intros Q; destruct (D Q); lia).
      destruct (step_stream_char x c1 pend1 R Hc1 Hz) as [E _]. cbn zeta in E.
      pose proof (step_stream_unfold x c1 pend1 W Hpr R) as U.
      assert (Hmid : mid (core x) = core x) by (unfold ProofsAsync.mid; rewrite Hpr; reflexivity).
      rewrite Hmid in E.
      set (n := Z.max 0 (Z.min (space (buf (core x))) c1)) in *.
      set (sch := if n =? 0 then [] else [n]) in *.
      pose proof (ci_step L llen PS init_ps recog bump lineno llen_pos lines t0 wide
                          (ws sch (core x)) (ws_CI sch _ Hci) Hroom) as CS.
      rewrite E in *. clear E.
      destruct (step (ws sch (core x))) as [s'|r s'|t]; cbn [ProofsAsync.lift Stream.wrap core cur pend] in *.
      + destruct CS as [CS1 CS2]. split; [exact (ws_CI [] _ CS1)|].
        destruct Hcalm as [Hs|[Hcur Hbody]].
        * split; [|left; exact Hs].
          exact (short_room L llen PS init_ps recog bump lineno llen_pos lines t0 Hs _ (ws_CI [] _ CS1)).
        * destruct (refill_fine _ _ _ _ Hcur Hbody R) as [Hc1f Hp1f].
          split; [|right; split; [cbn [cur]; unfold n; lia|exact Hp1f]].
          apply CS2. intros n0 sch0 Q. cbn [ProofsAsync.ws buf] in Q. rewrite <- (app_nil_r sch) in Q. unfold sch, n in Q.
          pose proof (wf_geom (wf_m W)) as [_ [_ Wg]].
          rewrite (read_n_one L PS init_ps recog bump lineno (core x) (space (buf (core x))) c1 [] ltac:(unfold space; lia) Hc1 Hz) in Q.
          inversion Q. lia.
      + subst r. unfold Stream.spec_stream. destruct (fails (pend x)) eqn:Ef; [|reflexivity].
        assert (Hpos : 0 < c1).
        { destruct (Z.eq_dec c1 0) as [Q|Q]; [|lia]. destruct (D Q) as [_ D2]. congruence. }
        destruct (sar n [] (space (buf (core x))) (core x)) as [s2|r2 s2|t2] eqn:S;
          cbn [Stream.wrap] in U; try discriminate.
        inversion U as [[U1 U2]].
        destruct (sar_done_reject (core x) c1 r2 s2 Hci Hpos S) as [c [tk [l [r' [p1 [Q1 [Q2 [Q3 Q4]]]]]]]].
        pose proof (fold_err L llen PS init_ps recog bump lineno lines t0 (core x) c tk l r' p1 (wf_m W) Hfed Q2 Q3 Q4) as FE.
        unfold Model.spec. rewrite FE. reflexivity.
      + exact CS.
    - destruct (refill_none _ _ Hc R) as [N1 N2].
      unfold Stream.step_stream. rewrite R, Hpr.
      rewrite (geom_ok_true _ (wf_geom (wf_m W))). cbn [negb andb].
      unfold Stream.spec_stream. rewrite N2.
      pose proof (delivered_nonneg (pend x)).
      rewrite (all_read_fold (core x) Hci ltac:(lia)). reflexivity.
  Qed.

  Lemma init_SI : forall script, short_lines llen lines t0 \/ fine_body script -> SI (init_stream lines t0 script).
  Proof.
    intros script H. unfold Stream.init_stream. split; [cbn [core]; apply ci_init; exact llen_pos|]. split.
    - unfold Proofs.room, init_st. cbn [core buf b_cap]. unfold INITIAL_CAP, MAX_CAP. lia.
    - destruct H as [H|H]; [left; exact H|right; split; [cbn [cur]; unfold HALF_CAP; lia|exact H]].
  Qed.

  (* chunk independence for parse_async: lines that fit the largest buffer, and either they are shorter than 80 KiB or
     no chunk of the body is longer than that.  Whatever else the body does — EMPTY chunks anywhere, a failure after
     any chunk — the outcome is [spec_stream]: the schedule-free verdict on the delivered bytes when the body is
     delivered in full; when the body fails, the error of the first delivered complete line the recogniser rejects,
     else the load error (never Ok). *)
  Lemma calm_stream_is_spec : forall script, delivered script = ilen -> short_lines llen lines t0 \/ fine_body script ->
    exists x, drive_stream lines t0 script = Ret (spec_stream lines t0 script, x).
  Proof.
    intros script Hd Hc. destruct (stream_total script Hd) as [r [x [H _]]]. exists x. rewrite H. f_equal. f_equal.
    refine (drive_stream_inv SI (fun r _ => r = spec_stream lines t0 script) script r x Hd _ (init_SI script Hc) H).
    intros y _ Ri Hf Hsi. pose proof (stream_step_ci y Hsi Ri) as CS.
    destruct (step_stream y); [exact CS| |exact I]. unfold Stream.spec_stream in *. rewrite <- Hf. exact CS.
  Qed.
  End Wide.

  Hypothesis short : short_lines llen lines t0.

  Lemma stream_is_spec : forall script, delivered script = ilen ->
    exists x, drive_stream lines t0 script
              = Ret (spec_stream lines t0 script, x).
  Proof.
    intros script Hd.
    exact (calm_stream_is_spec (short_wide L llen lines t0 short) script Hd (or_introl short)).
  Qed.

  Local Notation size := (size L llen).

  Lemma stream_step_cb : forall x r x' p0, CI (core x) -> RI x -> fails (pend x) = true ->
    fold_recog init_ps lines = inl p0 ->
    step_stream x = SDone r x' -> r = RErr LOAD_ERROR 0 /\ cbsum (core x') = size lines.
  Proof.
    intros x r x' p0 Hci [Hc Hu] Hf Hfold H. pose proof Hci as [W Hpr _ _ Hfed].
    destruct (refill (cur x) (pend x)) as [[c1 pend1]|] eqn:R.
    - exfalso. destruct (refill_some _ _ _ _ Hc R) as [A [B [C D]]].
      assert (Hpos : 0 < c1).
      { destruct (Z.eq_dec c1 0) as [Q|Q]; [|lia]. destruct (D Q) as [_ D2]. congruence. }
      rewrite (step_stream_unfold x c1 pend1 W Hpr R) in H.
      destruct (sar (Z.max 0 (Z.min (space (buf (core x))) c1)) [] (space (buf (core x))) (core x)) as [s2|r2 s2|t2] eqn:S;
        cbn [Stream.wrap] in H; try discriminate.
      destruct (sar_done_reject (core x) c1 r2 s2 Hci Hpos S) as [c [tk [l [r' [p1 [Q1 [Q2 [Q3 Q4]]]]]]]].
      pose proof (fold_err L llen PS init_ps recog bump lineno lines t0 (core x) c tk l r' p1 (wf_m W) Hfed Q2 Q3 Q4) as FE. congruence.
    - destruct (refill_none _ _ Hc R) as [N1 _].
      unfold Stream.step_stream in H. rewrite R, Hpr in H.
      rewrite (geom_ok_true _ (wf_geom (wf_m W))) in H. cbn [negb andb] in H.
      inversion H; subst r x'. split; [reflexivity|]. cbn [core].
      pose proof (wf_m W) as Wm.
      pose proof (wf_pr_off Wm Hpr) as Wo.
      pose proof (delivered_nonneg (pend x)).
      pose proof (all_read_rest (core x) Hci ltac:(lia)) as Hrest.
      rewrite (wf_cb Wm), (wf_total Wm), Wo.
      pose proof (wf_lines Wm) as Wl. rewrite Hrest, app_nil_r in Wl. rewrite <- Wl. lia.
  Qed.

  Local Notation short_is_wide := (short_wide L llen lines t0 short).

  (* the body fails and no delivered complete line is rejected: the outcome is the load error and the callback has been
     given exactly the complete lines that were delivered (not the unterminated rest) *)
  Lemma stream_failed_cb : forall script p0, delivered script = ilen -> fails script = true ->
    fold_recog init_ps lines = inl p0 ->
    exists x, drive_stream lines t0 script = Ret (RErr LOAD_ERROR 0, x) /\ cbsum (core x) = size lines.
  Proof.
    intros script p0 Hd Hf Hfold. destruct (stream_total script Hd) as [r [x [H _]]]. exists x.
    cut (r = RErr LOAD_ERROR 0 /\ cbsum (core x) = size lines); [intros [Q1 Q2]; subst r; split; assumption|].
    refine (drive_stream_inv SI (fun r x => r = RErr LOAD_ERROR 0 /\ cbsum (core x) = size lines) script r x Hd _
                             (init_SI script (or_introl short)) H).
    intros y _ Ri Hfy Hsi. rewrite Hf in Hfy. pose proof (stream_step_ci short_is_wide y Hsi Ri) as CS.
    destruct (step_stream y) as [y1|r1 y1|t] eqn:E; [exact CS| |exact I].
    exact (stream_step_cb y r1 y1 p0 (proj1 Hsi) Ri Hfy Hfold E).
  Qed.
End StreamProofs.

(* a body that fails never yields a symbol table *)
Lemma stream_failed_never_ok :
  forall (L : Type) (llen : L -> Z) (PS : Type) (init_ps : PS)
         (recog : PS -> L -> PS + Z) (bump : PS -> PS) (lineno : PS -> Z),
    (forall l, 1 <= llen l) ->
    forall (lines : list L) (tail : Z), short_lines llen lines tail ->
    forall script, delivered script = input_len L llen lines tail -> fails script = true ->
    forall r x, drive_stream L llen PS init_ps recog bump lineno lines tail script = Ret (r, x) ->
    forall p, r <> ROk p.
Proof.
  intros L llen PS init_ps recog bump lineno Hl lines tail Hs script Hd Hf r x H p.
  destruct (stream_is_spec L llen PS init_ps recog bump lineno Hl lines tail Hs script Hd) as [x' E].
  rewrite H in E. inversion E as [[E1 E2]]. unfold spec_stream. rewrite Hf.
  destruct (fold_recog L PS recog lineno init_ps lines) as [q|[c ln]]; discriminate.
Qed.
