(* C10/ProofsStreamTrace.v — the concrete instance (real recogniser, real symbol table) of the stream model.
   [iter_tr_stream_run]: the traced iteration that the correspondence run executes goes through exactly the states of
   [iter_stream].  [spec_table_defined]: for lines shorter than 80 KiB the schedule-free verdict has a table or is an
   error (SymbolParser::finish cannot panic: C09/ProofsFinal.v).  [stream_table]: parse_async on the real table. *)
From Coq Require Import ZArith List Bool.
From RM Require Import Base.Word C08.Model C11.Model C09.Model C09.Grammar C10.Stream C10.Driver.
From RM Require Import C09.Proofs C09.ProofsBytes C09.ProofsFinish C09.ProofsFinal C10.Model C10.Proofs C10.ProofsCache C10.ProofsStream.
Import ListNotations.
Open Scope Z_scope.

Lemma iter_tr_stream_run : forall p x a,
  fst (iter_tr_stream p x a) = iter_stream rle cllen pst recog_pst bump_pst lineno_pst p x.
Proof.
  induction p as [q IH|q IH|]; intros x a; cbn [iter_tr_stream iter_stream].
  - unfold cstep_stream. destruct (step_stream rle cllen pst recog_pst bump_pst lineno_pst x) as [x1|r x1|t] eqn:E; try reflexivity.
    pose proof (IH x1 (tr_step_cb a (core x) (unwrap (SNext x1)))) as H1.
    destruct (iter_tr_stream q x1 (tr_step_cb a (core x) (unwrap (SNext x1)))) as [r1 a1] eqn:E1. cbn [fst] in H1. rewrite <- H1.
    destruct r1 as [x2|r2 x2|t2]; try reflexivity. apply IH.
  - pose proof (IH x a) as H1. destruct (iter_tr_stream q x a) as [r1 a1] eqn:E1. cbn [fst] in H1. rewrite <- H1.
    destruct r1 as [x2|r2 x2|t2]; try reflexivity. apply IH.
  - reflexivity.
Qed.

Lemma spec_table_defined : forall (lines : list rle) (tail : Z), short_lines cllen lines tail ->
  exists t, table_of (spec_c lines tail) = Ret t /\ (t <> None -> exists p, spec_c lines tail = ROk p).
Proof.
  intros lines tail Hs.
  destruct (parse_total lines tail []) as [r0 [s0 [t [H0 T0]]]].
  destruct (table_chunk_independent lines tail Hs []) as [r1 [s1 [H1 [E1 _]]]].
  rewrite H0 in H1. inversion H1; subst r1 s1. subst r0.
  exists t. split; [exact T0|]. intros Ht.
  destruct (spec_c lines tail) as [p|c ln]; [exists p; reflexivity|].
  cbn [table_of] in T0. inversion T0; subst t. contradiction Ht; reflexivity.
Qed.

(* parse_async over any non-failing body that delivers an input whose lines are shorter than 80 KiB ends with the verdict of
   the schedule-free specification; that verdict is a symbol table or an error (finish cannot panic); the callback got a
   prefix, and everything when it is a table *)
Lemma stream_table : forall (lines : list rle) (tail : Z) (script : list sev),
  short_lines cllen lines tail -> delivered script = input_len rle cllen lines tail -> fails script = false ->
  exists t x, table_of (spec_c lines tail) = Ret t /\
              drive_stream_c lines tail script = Ret (spec_c lines tail, x) /\
              cbsum (core x) = total (core x) /\ (t <> None -> cbsum (core x) = input_len rle cllen lines tail).
Proof.
  intros lines tail script Hs Hd Hf. destruct (spec_table_defined lines tail Hs) as [t [T0 Hok]].
  destruct (stream_is_spec rle cllen pst init_pst recog_pst bump_pst lineno_pst ProofsBytes.cllen_pos lines tail Hs script Hd) as [x E].
  unfold spec_stream in E. rewrite Hf in E.
  destruct (stream_total rle cllen pst init_pst recog_pst bump_pst lineno_pst ProofsBytes.cllen_pos lines tail script Hd)
    as [r [x' [E' [C [_ A]]]]].
  rewrite E in E'. inversion E'; subst r x'.
  exists t, x. split; [exact T0|]. split; [exact E|]. split; [exact C|].
  intros Ht. destruct (Hok Ht) as [p Hp]. exact (A p Hp).
Qed.
