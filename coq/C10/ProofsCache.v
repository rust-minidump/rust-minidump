(* C10/ProofsCache.v — appending an `INFO URL <u>` line to an accepted input gives the same symbol
   table with url = u (the parser contract that C16 assumes): [cached_form_parse], with [url_last_wins].
   At the end [table_chunk_independent], chunk independence on the real recogniser, its second and third conjunct
   saying the same thing twice as the statement of c10_table_chunk_independent does. *)
From Coq Require Import Lia ZArith List Bool.
From RM Require Import Base.Word C08.Model C11.Model C09.Model C09.Grammar C09.Driver C09.Proofs C09.ProofsBytes C10.Model C10.Proofs C10.ProofsFine.
Import ListNotations.
Open Scope Z_scope.

Lemma split_bytes_app : forall a c cur,
  split_bytes (a ++ c) cur =
  let '(ls, tl) := split_bytes a cur in
  let '(ls', tl') := split_bytes c (rev tl) in (ls ++ ls', tl').
Proof.
  induction a as [|x a IH]; intros c cur; cbn [app split_bytes].
  - rewrite rev_involutive. destruct (split_bytes c cur); reflexivity.
  - destruct (x =? 10).
    + rewrite IH. destruct (split_bytes a []) as [ls tl]. destruct (split_bytes c (rev tl)); reflexivity.
    + apply IH.
Qed.

Lemma split_bytes_line : forall l cur, Forall (fun b => b <> 10) l ->
  split_bytes (l ++ [10]) cur = ([rev cur ++ l], []).
Proof.
  induction l as [|x l IH]; intros cur H; cbn [app split_bytes].
  - cbn. rewrite app_nil_r. reflexivity.
  - inversion H; subst. destruct (x =? 10) eqn:E; [apply Z.eqb_eq in E; contradiction|].
    rewrite IH by assumption. cbn [rev]. rewrite <- app_assoc. reflexivity.
Qed.

Lemma ends_nl_split : forall b cur f, (f = true <-> cur = []) ->
  (ends_nl_from f b = true <-> snd (split_bytes b cur) = []).
Proof.
  induction b as [|x b IH]; intros cur f Hf; cbn [ends_nl_from split_bytes snd].
  - rewrite Hf. split; intros H.
    + subst. reflexivity.
    + destruct cur; [reflexivity|]. cbn [rev] in H. apply app_eq_nil in H. destruct H; discriminate.
  - destruct (x =? 10) eqn:E.
    + destruct (split_bytes b []) as [ls tl] eqn:S. cbn [snd].
      specialize (IH [] true ltac:(split; reflexivity)). rewrite S in IH. exact IH.
    + apply IH. split; intros H; discriminate.
Qed.

Lemma rle_expand_app : forall a b, rle_expand (a ++ b) = rle_expand a ++ rle_expand b.
Proof. induction a as [|[x c] a IH]; intros b; cbn [app rle_expand]; [reflexivity|]. rewrite IH, app_assoc. reflexivity. Qed.

Lemma rle_expand_to_rle : forall u, rle_expand (to_rle u) = u.
Proof. induction u as [|x u IH]; cbn; [reflexivity|]. unfold to_rle in IH. rewrite IH. reflexivity. Qed.

Lemma rle_norm_acc_expand : forall s acc, Forall (fun r => 1 <= snd r) acc ->
  rle_expand (rle_norm_acc s acc) = rle_expand (rev acc) ++ rle_expand s.
Proof.
  induction s as [|[b c] s IH]; intros acc Hacc; cbn [rle_norm_acc rle_expand].
  - rewrite rev_append_rev, !app_nil_r. reflexivity.
  - destruct acc as [|[b0 c0] acc'].
    + rewrite IH by (constructor; [cbn; lia|constructor]). cbn [rev app rle_expand].
      replace (Z.max 1 (Z.max 1 c)) with (Z.max 1 c) by lia. rewrite app_nil_r. reflexivity.
    + inversion Hacc as [|x y H0 Hacc']; subst. cbn [snd] in H0.
      destruct (b0 =? b) eqn:E.
      * apply Z.eqb_eq in E. subst b0. rewrite IH by (constructor; [cbn; lia|assumption]).
        cbn [rev]. rewrite !rle_expand_app. cbn [rle_expand]. rewrite !app_nil_r, <- !app_assoc. f_equal.
        rewrite app_assoc. f_equal.
        replace (Z.max 1 (c0 + Z.max 1 c)) with (c0 + Z.max 1 c) by lia.
        replace (Z.max 1 c0) with c0 by lia.
        rewrite Z2Nat.inj_add by lia. rewrite repeat_app. reflexivity.
      * rewrite IH by (constructor; [cbn; lia|assumption]).
        cbn [rev]. rewrite !rle_expand_app. cbn [rle_expand]. rewrite !app_nil_r, <- !app_assoc.
        replace (Z.max 1 (Z.max 1 c)) with (Z.max 1 c) by lia. reflexivity.
Qed.

Lemma rle_norm_expand : forall s, rle_expand (rle_norm s) = rle_expand s.
Proof. intros s. unfold rle_norm. rewrite rle_norm_acc_expand by constructor. reflexivity. Qed.

Definition urlline (u : list Z) : rle := to_rle (INFO_URL_SP ++ u).

Lemma skip_sp_to_rle : forall u, match u with b :: _ => is_sp b = false | [] => True end ->
  skip_while is_sp (to_rle u) = to_rle u.
Proof. intros [|b u] H; cbn; [reflexivity|]. rewrite H. reflexivity. Qed.

Lemma span_acc_none : forall stop s acc, Forall (fun r => stop (fst r) = false) s ->
  span_acc stop s acc = (rev acc ++ s, []).
Proof.
  induction s as [|[b c] s IH]; intros acc H; cbn [span_acc].
  - rewrite rev_append_rev, !app_nil_r. reflexivity.
  - inversion H; subst. cbn [fst] in *. rewrite H2. rewrite IH by assumption. cbn [rev]. rewrite <- app_assoc. reflexivity.
Qed.

Lemma name_eol_url : forall u, url_ok u -> name_eol (to_rle u) = Some (rle_norm (to_rle u)).
Proof.
  intros u [Hnl [Hutf _]]. unfold name_eol, span_not.
  rewrite span_acc_none.
  - cbn [rev app]. rewrite Hutf. reflexivity.
  - unfold to_rle. apply Forall_map. eapply Forall_impl; [|exact Hnl]. cbn. intros a [_ Ha].
    unfold is_cr. apply Z.eqb_neq. exact Ha.
Qed.

Lemma line_top_url : forall u, url_ok u -> line_top (urlline u) = Some (IUrl (rle_norm (to_rle u))).
Proof.
  intros u Hu. unfold line_top, alt, p_info_url, hdr, urlline, INFO_URL_SP, T_INFO_URL.
  cbn [app to_rle map tag uncons fst snd]. cbn.
  destruct Hu as [H1 [H2 H3]].
  change (map (fun b : Z => (b, 1)) u) with (to_rle u).
  rewrite (skip_sp_to_rle u H3). rewrite (name_eol_url u (conj H1 (conj H2 H3))). reflexivity.
Qed.

Lemma sub_func_url : forall u, sub_func (urlline u) = None.
Proof. intros u. unfold sub_func, urlline, INFO_URL_SP. cbn. reflexivity. Qed.

Lemma sub_cfi_url : forall u, sub_cfi (urlline u) = None.
Proof. intros u. unfold sub_cfi, hdr, urlline, INFO_URL_SP. cbn. reflexivity. Qed.

Lemma eol_url : forall u, eol (urlline u) = false.
Proof. intros u. unfold eol, urlline, INFO_URL_SP. cbn. reflexivity. Qed.

(* the state after the INFO URL line: the open item is closed, the url is set *)
Definition with_url (p : pst) (u : rle) : pst :=
  let q := close_cur p in
  mkp (p_lines q + 1) CNone (p_modinfo q) (p_files q) (p_origins q) (p_publics q) (p_funcs q) (p_cfis q)
      (p_win_fd q) (p_win_fpo q) (Some u).

Lemma top_url : forall p u, url_ok u -> p_cur p = CNone ->
  top p (urlline u) = inl (with_url p (rle_norm (to_rle u))).
Proof.
  intros p u Hu Hc. unfold top. rewrite eol_url, (line_top_url u Hu).
  unfold with_url, close_cur. rewrite Hc. reflexivity.
Qed.

Lemma close_cur_none : forall p, p_cur (close_cur p) = CNone.
Proof. intros p. unfold close_cur. destruct (p_cur p) eqn:E; [exact E|reflexivity|reflexivity]. Qed.

Lemma close_cur_idem : forall p, close_cur (close_cur p) = close_cur p.
Proof. intros p. unfold close_cur at 1. rewrite close_cur_none. reflexivity. Qed.

Lemma recog_url : forall p u, url_ok u ->
  recog_pst p (urlline u) = inl (with_url p (rle_norm (to_rle u))).
Proof.
  intros p u Hu. unfold recog_pst. destruct (p_cur p) eqn:E.
  - apply top_url; assumption.
  - rewrite sub_func_url. rewrite (top_url (close_cur p) u Hu (close_cur_none p)).
    unfold with_url. rewrite close_cur_idem. reflexivity.
  - rewrite sub_cfi_url. rewrite (top_url (close_cur p) u Hu (close_cur_none p)).
    unfold with_url. rewrite close_cur_idem. reflexivity.
Qed.

Lemma finish_with_url : forall p u t, finish p = Ret t -> finish (with_url p u) = Ret (set_url t (Some u)).
Proof.
  intros p u t H. unfold finish in *. unfold with_url.
  set (q := close_cur p) in *.
  change (close_cur (mkp (p_lines q + 1) CNone (p_modinfo q) (p_files q) (p_origins q) (p_publics q)
                         (p_funcs q) (p_cfis q) (p_win_fd q) (p_win_fpo q) (Some u)))
    with (mkp (p_lines q + 1) CNone (p_modinfo q) (p_files q) (p_origins q) (p_publics q)
              (p_funcs q) (p_cfis q) (p_win_fd q) (p_win_fpo q) (Some u)).
  cbn [p_funcs p_cfis p_win_fd p_win_fpo p_modinfo p_files p_origins p_publics p_url].
  destruct (finish_funcs (rev (p_funcs q))) as [fl| | |]; cbn [obind] in *; try discriminate.
  destruct (build_p sfunc_eqb fl) as [funcs| | |]; cbn [obind] in *; try discriminate.
  destruct (build_p scfi_eqb (keep_somes (map finish_cfi (rev (p_cfis q))))) as [cfis| | |]; cbn [obind] in *; try discriminate.
  destruct (win_collect [] (rev (p_win_fd q))) as [wfd| | |]; cbn [obind] in *; try discriminate.
  destruct (build_p wi_eqb wfd) as [tfd| | |]; cbn [obind] in *; try discriminate.
  destruct (win_collect [] (rev (p_win_fpo q))) as [wfpo| | |]; cbn [obind] in *; try discriminate.
  destruct (build_p wi_eqb wfpo) as [tfpo| | |]; cbn [obind] in *; try discriminate.
  inversion H; subst. reflexivity.
Qed.

Lemma spec_c_ok_inv : forall lines tail p, spec_c lines tail = ROk p ->
  fold_recog rle pst recog_pst lineno_pst init_pst lines = inl p /\ lines <> [] /\ (0 <? tail) = false.
Proof.
  intros lines tail p H. unfold spec_c, spec in H.
  destruct (fold_recog rle pst recog_pst lineno_pst init_pst lines) as [p0|[c ln]]; [|discriminate].
  destruct lines as [|l t]; [discriminate|]. destruct (0 <? tail) eqn:E; [discriminate|].
  inversion H; subst. repeat split; discriminate || reflexivity.
Qed.

Theorem cached_form_parse : forall b u t x,
  url_ok u -> parse_bytes b = Some (t, x) -> parse_bytes (cached_form b u) = Some (t, Some u).
Proof.
  intros b u t x Hu H. unfold parse_bytes in H.
  destruct (split_bytes b []) as [ls tl] eqn:S.
  destruct (spec_c (map to_rle ls) (Z.of_nat (length tl))) as [p|c ln] eqn:Sp; [|discriminate].
  destruct (finish p) as [t0| | |] eqn:F; try discriminate. inversion H; subst t x; clear H.
  destruct (spec_c_ok_inv _ _ _ Sp) as [Hfold [Hne Htl]].
  assert (tl = []).
  { destruct tl; [reflexivity|]. cbn [length] in Htl. apply Z.ltb_ge in Htl. lia. }
  subst tl.
  assert (Hend : ends_nl b = true).
  { unfold ends_nl. apply (ends_nl_split b [] true); [split; reflexivity|]. rewrite S. reflexivity. }
  unfold cached_form, nl_sep. rewrite Hend. cbn [app]. unfold url_trailer.
  replace (INFO_URL_SP ++ u ++ [10]) with ((INFO_URL_SP ++ u) ++ [10]) by (rewrite <- app_assoc; reflexivity).
  unfold parse_bytes. rewrite split_bytes_app, S. cbn [rev].
  rewrite split_bytes_line.
  2:{ apply Forall_app. split.
      - unfold INFO_URL_SP. repeat constructor; discriminate.
      - destruct Hu as [Hnl _]. eapply Forall_impl; [|exact Hnl]. cbn. intros a [Ha _]. exact Ha. }
  cbn [rev app length]. rewrite map_app. cbn [map].
  change (to_rle (INFO_URL_SP ++ u)) with (urlline u).
  unfold spec_c, spec. rewrite (fold_recog_app rle pst recog_pst lineno_pst), Hfold.
  cbn [fold_recog]. rewrite (recog_url p u Hu).
  destruct (map to_rle ls ++ [urlline u]) as [|l0 r0] eqn:E; [apply app_eq_nil in E; destruct E; discriminate|].
  cbn [Z.of_nat Z.ltb Z.compare].
  rewrite (finish_with_url p _ t0 F). cbn [set_url t_url t_module_id t_debug_file t_files t_origins t_publics t_funcs t_cfi t_win_fd t_win_fpo option_map].
  rewrite rle_norm_expand, rle_expand_to_rle. reflexivity.
Qed.

(* what an INFO URL record inside the body means: the url of the LAST such record is the table's url
   (each one overwrites the previous); the appended line therefore always wins. *)
Lemma url_last_wins : forall p u1 u2, url_ok u2 ->
  p_url (with_url (with_url p u1) (rle_norm (to_rle u2))) = Some (rle_norm (to_rle u2)).
Proof. intros. reflexivity. Qed.

(* the concrete instance of chunk independence, on tables *)
Lemma table_chunk_independent : forall (lines : list rle) (tail : Z),
  short_lines cllen lines tail ->
  forall sch, exists r s, drive_c lines tail sch = Ret (r, s) /\ r = spec_c lines tail /\
                          table_of r = table_of (spec_c lines tail).
Proof.
  intros lines tail Hs sch.
  destruct (drive_is_spec rle cllen pst init_pst recog_pst bump_pst lineno_pst cllen_pos lines tail Hs sch) as [s E].
  exists (spec_c lines tail), s. split; [exact E|]. split; reflexivity.
Qed.
