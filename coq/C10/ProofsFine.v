(* C10/ProofsFine.v — whole runs of SymbolFile::parse.  A line is dropped ("enormous line" recovery) only when
   ONE read of more than 80 KiB fills the 160 KiB buffer completely: if no single read returns more than
   HALF_CAP = 81920 bytes, recovery never starts for any input whose lines fit the largest buffer (content
   < 160 KiB), and the outcome is [spec] — the schedule-free verdict — exactly as for short lines.
   So chunk dependence inside the 80..160 KiB band is caused by reads larger than 80 KiB and by nothing else. *)
From Coq Require Import Lia ZArith List Bool.
From RM Require Import Base.Word C09.Model C09.Proofs C10.Model C10.Proofs C10.ProofsAsync.
From RM Require Import C10.Band.
Import ListNotations.
Open Scope Z_scope.

Section Fine.
  Variable L : Type.
  Variable llen : L -> Z.
  Variable PS : Type.
  Variable init_ps : PS.
  Variable recog : PS -> L -> PS + Z.
  Variable bump : PS -> PS.
  Variable lineno : PS -> Z.
  Hypothesis llen_pos : forall l, 1 <= llen l.
  Variable lines : list L.
  Variable t0 : Z.
  Hypothesis wide : wide_lines llen lines t0.

  Local Notation tail := (Z.max 0 t0).
  Local Notation ilen := (input_len L llen lines t0).
  Local Notation St := (st L PS).
  Local Notation step := (step L llen PS recog bump lineno).
  Local Notation spec := (spec L PS init_ps recog lineno).
  Local Notation CI := (CI L llen PS init_ps recog bump lineno lines t0).
  Local Notation room := (room L PS).
  Local Notation read_n := (read_n L PS).

  Local Notation iter_nat := (iter_nat L llen PS recog bump lineno).
  Local Notation init_st := (init_st L llen PS init_ps).
  Local Notation drive := (drive L llen PS init_ps recog bump lineno).

  Lemma read_n_fine : forall (s : St) sp n sch', fine_sched (sched s) (unread s) -> 0 <= sp ->
    read_n sp s = (n, sch') -> n <= HALF_CAP /\ fine_sched sch' (unread s - n).
  Proof.
    intros s sp n sch' [F1 F2] Hsp H. unfold Model.read_n in H.
    destruct ((sp <=? 0) || (unread s <=? 0)) eqn:E.
    - inversion H; subst. split; [unfold HALF_CAP; lia|]. split; [exact F1|]. replace (unread s - 0) with (unread s) by lia. exact F2.
    - apply orb_false_iff in E. destruct E as [E1 E2]. apply Z.leb_gt in E1. apply Z.leb_gt in E2.
      destruct (sched s) as [|c t] eqn:Es.
      + cbn [length] in F2. lia.
      + inversion H; subst. inversion F1 as [|x y Fc Ft]; subst. cbn [length] in F2.
        split; [unfold HALF_CAP in *; lia|]. split; [exact Ft|]. lia.
  Qed.

  (* two ways to keep room in the buffer: lines shorter than 80 KiB, or reads of at most 80 KiB *)
  Definition calm_sched (s : St) : Prop := short_lines llen lines t0 \/ fine_sched (sched s) (unread s).
  (* [SS], the invariant of SymbolFile::parse while the buffer keeps room *)
  Definition SS (s : St) : Prop := CI s /\ room s /\ calm_sched s.

  Lemma ss_step : forall s, SS s ->
    match step s with
    | Next s' => SS s'
    | Done r s' => r = spec lines t0
    | StPanic _ => False
    end.
  Proof.
    intros s [C [R Hcalm]]. pose proof C as [W Hpr _ _ _].
    pose proof (wf_geom _ _ _ _ _ _ _ _ _ _ _ (wf_m _ _ _ _ _ _ _ _ _ _ _ W)) as Wg.
    assert (Hsp : 0 <= space (buf s)) by (destruct Wg as [? [? ?]]; unfold space; lia).
    pose proof (ci_step L llen PS init_ps recog bump lineno llen_pos lines t0 wide s C R) as H.
    destruct (read_n (space (buf s)) s) as [n sch'] eqn:Rd.
    assert (E : step s = step_after_read L llen PS recog lineno n sch' (space (buf s)) s).
    { unfold Model.step. rewrite Hpr. cbn [andb]. unfold Model.step_rest.
      rewrite (geom_ok_true _ Wg). cbn [negb]. rewrite Rd. reflexivity. }
    pose proof (after_read_frame L llen PS recog lineno n sch' (space (buf s)) s) as F. rewrite <- E in F.
    destruct (step s) as [s'|r s'|t]; try exact H.
    destruct H as [C' R']. destruct F as [F1 [F2 _]]. split; [exact C'|].
    destruct Hcalm as [Hs|Hf].
    - split; [|left; exact Hs]. exact (short_room L llen PS init_ps recog bump lineno llen_pos lines t0 Hs s' C').
    - destruct (read_n_fine s _ n sch' Hf Hsp Rd) as [Hn Hs'].
      split; [|right; rewrite F1, F2; exact Hs']. apply R'. intros n0 sch0 Q. inversion Q; subst. exact Hn.
  Qed.

  (* Chunk independence of SymbolFile::parse: lines that fit the largest buffer, and either they are shorter than
     80 KiB or no read returns more than that: the outcome is [spec] under the schedule. *)
  Lemma calm_drive_is_spec : forall sch, short_lines llen lines t0 \/ fine_sched sch ilen ->
    exists s, drive lines t0 sch = Ret (spec lines t0, s).
  Proof.
    intros sch Hc.
    destruct (drive_fin L llen PS init_ps recog bump lineno llen_pos lines t0 sch) as [r [s [H _]]].
    exists s. rewrite H. f_equal. f_equal.
    unfold Model.drive in H. rewrite iter_pos_nat in H.
    assert (I0 : SS (init_st lines t0 sch)).
    { split; [apply ci_init; exact llen_pos|]. split; [|exact Hc].
      unfold Proofs.room, Model.init_st. cbn [buf b_cap]. unfold INITIAL_CAP, MAX_CAP. lia. }
    revert I0 H. generalize (init_st lines t0 sch).
    induction (Pos.to_nat (fuel_for L llen lines t0)) as [|n IH]; intros s0 I0 H; cbn [Proofs.iter_nat] in H; [discriminate|].
    pose proof (ss_step s0 I0) as CS. destruct (step s0) as [s1|r1 s1|t]; [exact (IH s1 CS H)| |contradiction].
    injection H as H1 _. rewrite <- H1. exact CS.
  Qed.
End Fine.

Lemma drive_is_spec :
  forall (L : Type) (llen : L -> Z) (PS : Type) (init_ps : PS)
         (recog : PS -> L -> PS + Z) (bump : PS -> PS) (lineno : PS -> Z),
    (forall l, 1 <= llen l) ->
    forall (lines : list L) (tail : Z), short_lines llen lines tail ->
    forall sch : list Z,
    exists s, drive L llen PS init_ps recog bump lineno lines tail sch = Ret (spec L PS init_ps recog lineno lines tail, s).
Proof.
  intros L llen PS init_ps recog bump lineno Hl lines tail Hs sch.
  exact (calm_drive_is_spec L llen PS init_ps recog bump lineno Hl lines tail (short_wide L llen lines tail Hs) sch (or_introl Hs)).
Qed.
