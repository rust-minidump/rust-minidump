(* C10/ProofsReadFail.v — a failing read() cuts the run: [drive_rf k] is [drive] stopped at the head of the iteration
   whose read would have been the k-th, with the load error.  Consequences: total, callback prefix (all inputs);
   lines < 80 KiB: the outcome is [spec] or the load error, and the callback has then been given complete lines only. *)
From Coq Require Import Lia ZArith List Bool.
From RM Require Import Base.Word C09.Model C09.Proofs C10.Model C10.Proofs C10.ProofsFine C10.ProofsAsync C10.Stream C10.ProofsStream.
From RM Require Import C10.ReadFail.
Import ListNotations.
Open Scope Z_scope.

Section RF.
  Variable L : Type.
  Variable llen : L -> Z.
  Variable PS : Type.
  Variable init_ps : PS.
  Variable recog : PS -> L -> PS + Z.
  Variable bump : PS -> PS.
  Variable lineno : PS -> Z.
  Hypothesis llen_pos : forall l, 1 <= llen l.

  Local Notation St := (st L PS).
  Local Notation step := (step L llen PS recog bump lineno).
  Local Notation step_rf := (step_rf L llen PS recog bump lineno).
  Local Notation iter_rf := (iter_rf L llen PS recog bump lineno).
  Local Notation iter_nat := (iter_nat L llen PS recog bump lineno).
  Local Notation mid := (mid L llen PS bump).
  Local Notation recovery := (recovery L llen PS bump).
  Local Notation step_after_read := (step_after_read L llen PS recog lineno).

  Fixpoint iter_rf_nat (k : Z) (n : nat) (s : St) : stepres L PS :=
    match n with
    | O => Next s
    | S n' => match step_rf k s with Next s1 => iter_rf_nat k n' s1 | r => r end
    end.

  Lemma iter_rf_nat_add : forall k a b s,
    iter_rf_nat k (a + b) s = match iter_rf_nat k a s with Next s1 => iter_rf_nat k b s1 | r => r end.
  Proof.
    induction a as [|a IH]; intros b s; cbn [iter_rf_nat Nat.add]; [reflexivity|].
    destruct (step_rf k s); try reflexivity. apply IH.
  Qed.

  Lemma iter_rf_is_nat : forall k p s, iter_rf k p s = iter_rf_nat k (Pos.to_nat p) s.
  Proof.
    induction p as [q IH|q IH|]; intros s; cbn [ReadFail.iter_rf].
    - rewrite Pos2Nat.inj_xI. replace (S (2 * Pos.to_nat q))%nat with (1 + (Pos.to_nat q + Pos.to_nat q))%nat by lia.
      rewrite iter_rf_nat_add. cbn [iter_rf_nat]. destruct (step_rf k s) as [s1| |]; try reflexivity.
      rewrite iter_rf_nat_add. rewrite IH. destruct (iter_rf_nat k (Pos.to_nat q) s1); try reflexivity. apply IH.
    - rewrite Pos2Nat.inj_xO. replace (2 * Pos.to_nat q)%nat with (Pos.to_nat q + Pos.to_nat q)%nat by lia.
      rewrite iter_rf_nat_add. rewrite IH. destruct (iter_rf_nat k (Pos.to_nat q) s); try reflexivity. apply IH.
    - rewrite Pos2Nat.inj_1. cbn [iter_rf_nat]. destruct (step_rf k s); reflexivity.
  Qed.

  (* every iteration performs exactly one read() *)
  Lemma step_nrd : forall s,
    match step s with
    | Next s' | Done _ s' => nrd s' = nrd s + 1
    | StPanic _ => True
    end.
  Proof.
    intros s. unfold Model.step. destruct (pr s && negb (geom_ok (buf s))); [exact I|].
    change (if pr s then recovery s else s) with (mid s).
    unfold Model.step_rest. destruct (negb (geom_ok (buf (mid s)))); [exact I|].
    destruct (read_n L PS (space (buf (mid s))) (mid s)) as [n sch'].
    pose proof (after_read_frame L llen PS recog lineno n sch' (space (buf (mid s))) (mid s)) as H.
    destruct (mid_frame L llen PS bump s) as [_ [_ M]].
    destruct (step_after_read n sch' (space (buf (mid s))) (mid s)); try exact I; destruct H as [_ [_ H]]; rewrite H, M; reflexivity.
  Qed.

  (* the failing iteration, or the ordinary one *)
  Lemma step_rf_char : forall k s,
    (nrd s <> k /\ step_rf k s = step s) \/
    (nrd s = k /\ (step_rf k s = Done (RErr LOAD_ERROR 0) (mid s) \/ exists t, step_rf k s = StPanic t /\ step s = StPanic t)).
  Proof.
    intros k s. unfold ReadFail.step_rf, Model.step.
    destruct (pr s && negb (geom_ok (buf s))) eqn:E1.
    - destruct (Z.eq_dec (nrd s) k) as [Q|Q]; [right|left]; split; try assumption; [|reflexivity].
      right. exists 2. split; reflexivity.
    - change (if pr s then recovery s else s) with (mid s). unfold Model.step_rest.
      destruct (negb (geom_ok (buf (mid s)))) eqn:E2.
      + destruct (Z.eq_dec (nrd s) k) as [Q|Q]; [right|left]; split; try assumption; [|reflexivity].
        right. exists 1. split; reflexivity.
      + rewrite (proj2 (proj2 (mid_frame L llen PS bump s))). destruct (nrd s =? k) eqn:E3.
        * apply Z.eqb_eq in E3. right. split; [exact E3|]. left. reflexivity.
        * apply Z.eqb_neq in E3. left. split; [exact E3|reflexivity].
  Qed.

  (* the cut: the run with the failing reader is the ordinary run, or the ordinary run stopped at the head of the
     iteration that would have issued read number k *)
  Lemma rf_cut : forall k n s, nrd s <= k ->
    iter_rf_nat k n s = iter_nat n s \/
    exists (j : nat) sj, (j < n)%nat /\ iter_nat j s = Next sj /\ nrd sj = k /\
                         iter_rf_nat k n s = Done (RErr LOAD_ERROR 0) (mid sj).
  Proof.
    induction n as [|n IH]; intros s Hk; cbn [iter_rf_nat Proofs.iter_nat]; [left; reflexivity|].
    destruct (step_rf_char k s) as [[Q E]|[Q [E|[t [E1 E2]]]]].
    - rewrite E. pose proof (step_nrd s) as N. destruct (step s) as [s1|r s1|t] eqn:Es; try (left; reflexivity).
      destruct (IH s1 ltac:(lia)) as [H|[j [sj [H1 [H2 [H3 H4]]]]]]; [left; exact H|].
      right. exists (S j), sj. split; [lia|]. cbn [Proofs.iter_nat]. rewrite Es.
      split; [exact H2|]. split; assumption.
    - right. exists 0%nat, s. split; [lia|]. split; [reflexivity|]. split; [exact Q|]. rewrite E. reflexivity.
    - left. rewrite E1, E2. reflexivity.
  Qed.
End RF.

Section RFTop.
  Variable L : Type.
  Variable llen : L -> Z.
  Variable PS : Type.
  Variable init_ps : PS.
  Variable recog : PS -> L -> PS + Z.
  Variable bump : PS -> PS.
  Variable lineno : PS -> Z.
  Hypothesis llen_pos : forall l, 1 <= llen l.
  Variable lines : list L.
  Variable t0 : Z.

  Local Notation tail := (Z.max 0 t0).
  Local Notation ilen := (input_len L llen lines t0).
  Local Notation St := (st L PS).
  Local Notation step := (step L llen PS recog bump lineno).
  Local Notation iter_nat := (iter_nat L llen PS recog bump lineno).
  Local Notation mid := (mid L llen PS bump).
  Local Notation init_st := (init_st L llen PS init_ps).
  Local Notation drive := (drive L llen PS init_ps recog bump lineno).
  Local Notation drive_rf := (drive_rf L llen PS init_ps recog bump lineno).
  Local Notation spec := (spec L PS init_ps recog lineno).
  Local Notation size := (size L llen).
  Local Notation WF := (WF L llen PS init_ps recog bump lineno tail ilen lines).
  Local Notation CI := (CI L llen PS init_ps recog bump lineno lines t0).

  (* [rf_cut] at the initial state and the fuel of [drive] *)
  Lemma rf_drive_cut : forall sch k, 0 <= k ->
    drive_rf lines t0 sch k = drive lines t0 sch \/
    exists (j : nat) sj, iter_nat j (init_st lines t0 sch) = Next sj /\ nrd sj = k /\
                         drive_rf lines t0 sch k = Ret (RErr LOAD_ERROR 0, mid sj).
  Proof.
    intros sch k Hk. unfold ReadFail.drive_rf, Model.drive.
    rewrite (iter_rf_is_nat L llen PS recog bump lineno), iter_pos_nat.
    destruct (rf_cut L llen PS recog bump lineno k (Pos.to_nat (fuel_for L llen lines t0)) (init_st lines t0 sch))
      as [H|[j [sj [H1 [H2 [H3 H4]]]]]].
    - unfold Model.init_st. cbn [nrd]. exact Hk.
    - left. rewrite H. reflexivity.
    - right. exists j, sj. split; [exact H2|]. split; [exact H3|]. rewrite H4. reflexivity.
  Qed.

  (* all inputs, all schedules, a failure at any read: the parse returns, the callback has been given a prefix of the
     input, and an Ok result is the Ok of the undisturbed run (the failing read was never issued) *)
  Lemma rf_total : forall sch k, 0 <= k ->
    exists r s, drive_rf lines t0 sch k = Ret (r, s) /\
      cbsum s = total s /\ 0 <= total s <= ilen /\
      (forall p, r = ROk p -> cbsum s = ilen /\ drive lines t0 sch = Ret (ROk p, s)) /\
      (drive lines t0 sch = Ret (r, s) \/ (r = RErr LOAD_ERROR 0 /\ nrd s = k)).
  Proof.
    intros sch k Hk. destruct (rf_drive_cut sch k Hk) as [H|[j [sj [H1 [H2 H3]]]]].
    - destruct (drive_fin L llen PS init_ps recog bump lineno llen_pos lines t0 sch) as [r [s [D _]]].
      exists r, s. rewrite H. split; [exact D|].
      destruct (drive_callback L llen PS init_ps recog bump lineno llen_pos lines t0 sch r s D) as [A [B C]].
      split; [exact A|]. split; [exact B|]. split; [|left; exact D].
      intros p Hp. split; [exact (C p Hp)|]. subst r. exact D.
    - exists (RErr LOAD_ERROR 0), (mid sj). split; [exact H3|].
      assert (W : WF sj).
      { eapply (reach_wf L llen PS init_ps recog bump lineno llen_pos tail ltac:(lia) ilen lines); [|exact H1].
        apply init_wf'. exact llen_pos. }
      pose proof (mid_wfm L llen PS init_ps recog bump lineno llen_pos lines t0 sj W) as Wm. destruct Wm.
      pose proof (size_nonneg L llen PS init_ps recog bump lineno llen_pos (map snd (rev (log (mid sj))))).
      destruct wf_geom as [? [? ?]]. destruct wf_off as [? ?]. unfold avail in *.
      split; [exact wf_cb|]. split; [lia|]. split; [intros p Hp; discriminate|].
      right. split; [reflexivity|]. rewrite (proj2 (proj2 (mid_frame L llen PS bump sj))). exact H2.
  Qed.

  Hypothesis short : short_lines llen lines t0.

  (* under short lines every state the run reaches satisfies [CI] *)
  Lemma reach_ci : forall n s0 s, CI s0 -> iter_nat n s0 = Next s -> CI s.
  Proof.
    induction n as [|n IH]; intros s0 s C H; cbn [Proofs.iter_nat] in H.
    - inversion H; subst; exact C.
    - pose proof (ci_step L llen PS init_ps recog bump lineno llen_pos lines t0 (short_wide L llen lines t0 short) s0 C
                          (short_room L llen PS init_ps recog bump lineno llen_pos lines t0 short s0 C)) as CS.
      destruct (step s0) as [s1|r s1|t]; try discriminate. exact (IH s1 s (proj1 CS) H).
  Qed.

  (* the outcome is the schedule-free verdict, or the load error; in the second case the callback (the cache writer)
     has been given complete lines only: the lines disposed of so far, not the unterminated rest in the buffer *)
  Lemma rf_short : forall sch k, 0 <= k ->
    exists s,
      drive_rf lines t0 sch k = Ret (spec lines t0, s) \/
      (drive_rf lines t0 sch k = Ret (RErr LOAD_ERROR 0, s) /\ nrd s = k /\
       exists done todo, lines = done ++ todo /\ cbsum s = size done).
  Proof.
    intros sch k Hk. destruct (rf_drive_cut sch k Hk) as [H|[j [sj [H1 [H2 H3]]]]].
    - destruct (drive_is_spec L llen PS init_ps recog bump lineno llen_pos lines t0 short sch) as [s D].
      exists s. left. rewrite H. exact D.
    - assert (C : CI sj).
      { eapply reach_ci; [|exact H1]. apply ci_init. exact llen_pos. }
      destruct C as [W Hpr _ _ _].
      assert (Hm : mid sj = sj) by (unfold ProofsAsync.mid; rewrite Hpr; reflexivity).
      rewrite Hm in H3. exists sj. right. split; [exact H3|]. split; [exact H2|].
      pose proof (wf_m _ _ _ _ _ _ _ _ _ _ _ W) as Wm. destruct Wm.
      exists (map snd (rev (log sj))), (rest sj). split; [exact wf_lines|].
      rewrite wf_cb, wf_total, (wf_pr_off Hpr). lia.
  Qed.
End RFTop.
