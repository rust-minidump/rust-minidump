(* C10/Properties.v — streamed parsing ignores chunking; the callback gets every byte.
   The property theorems of C10, each with its full statement, a short proof from the lemmas of the lemma files
   (an instance, or a few lines) and its Print Assumptions; and the non-vacuity examples, by evaluation.
   [drive], [spec]: C09/Model.v (SymbolFile::parse).  parse_async has two models: [drive_stream] (C10/Stream.v) is
   the function as the repository has it (empty chunks skipped, a failed chunk ends the parse); [drive_async]
   (C09/Model.v) is its one-chunk refill up to /repo 29e7bfd, for bodies of non-empty chunks, and the c10_async_*
   theorems are about that one; [step_stream_old] (C10/OldRefill.v) is the one-chunk refill inside the stream model,
   kept to state what an empty chunk did to it (c10_old_refill_refuted). *)
From Coq Require Import ZArith List Bool.
From RM Require Import Base.Word C08.Model C11.Model C09.Model C09.Grammar C09.Driver C09.Proofs C09.ProofsBytes C10.Model C10.Proofs C10.ProofsCache C10.ProofsAsync C09.ProofsFinish C09.ProofsFinal C10.Stream C10.ProofsStream C10.Driver C10.ProofsStreamTrace C10.ProofsBound C10.OldRefill C10.Band C10.ProofsFine C10.ProofsBandAll C10.ReadFail C10.ProofsReadFail.
From RM Require Gen.C10Stream.
From RM Require C09.Pins.
Import ListNotations.
Open Scope Z_scope.

(* All inputs, all schedules, any recogniser.  The model hands the callback data()[..amount]
   where data() starts at input offset total_consumed; [cbsum] adds up the amounts passed to the
   callback and [total] the amounts consumed from the buffer (they are separate in the code):
   they agree, so the concatenated callback bytes are input[0 .. cbsum): a prefix of the input —
   and all of it when the result is Ok. *)
Theorem c10_callback_prefix :
  forall (L : Type) (llen : L -> Z) (PS : Type) (init_ps : PS)
         (recog : PS -> L -> PS + Z) (bump : PS -> PS) (lineno : PS -> Z),
    (forall l, 1 <= llen l) ->
    forall (lines : list L) (tail : Z) (sch : list Z) r s,
    drive L llen PS init_ps recog bump lineno lines tail sch = Ret (r, s) ->
    cbsum s = total s /\ 0 <= total s <= input_len L llen lines tail /\
    (forall p, r = ROk p -> cbsum s = input_len L llen lines tail).
Proof. exact drive_callback. Qed.
Print Assumptions c10_callback_prefix.

(* If every line (and the unterminated rest) is shorter than 80 KiB, the outcome under ANY
   schedule is [spec]: the fold of the recogniser over the lines, then the end-of-input rule. *)
Theorem c10_chunk_independent :
  forall (L : Type) (llen : L -> Z) (PS : Type) (init_ps : PS)
         (recog : PS -> L -> PS + Z) (bump : PS -> PS) (lineno : PS -> Z),
    (forall l, 1 <= llen l) ->
    forall (lines : list L) (tail : Z),
    short_lines llen lines tail ->
    forall sch : list Z,
    exists s, drive L llen PS init_ps recog bump lineno lines tail sch
              = Ret (spec L PS init_ps recog lineno lines tail, s).
Proof. exact drive_is_spec. Qed.
Print Assumptions c10_chunk_independent.

(* ... hence any two schedules (in particular a chunked reader and the whole slice, [sch = []])
   give the same result: the same parser state or the same error. *)
Theorem c10_any_two_schedules :
  forall (L : Type) (llen : L -> Z) (PS : Type) (init_ps : PS)
         (recog : PS -> L -> PS + Z) (bump : PS -> PS) (lineno : PS -> Z),
    (forall l, 1 <= llen l) ->
    forall (lines : list L) (tail : Z),
    short_lines llen lines tail ->
    forall (s1 s2 : list Z) r1 st1 r2 st2,
    drive L llen PS init_ps recog bump lineno lines tail s1 = Ret (r1, st1) ->
    drive L llen PS init_ps recog bump lineno lines tail s2 = Ret (r2, st2) ->
    r1 = r2.
Proof.
  intros L llen PS init_ps recog bump lineno Hl lines tail Hs s1 s2 r1 st1 r2 st2 H1 H2.
  destruct (drive_is_spec L llen PS init_ps recog bump lineno Hl lines tail Hs s1) as [x1 E1].
  destruct (drive_is_spec L llen PS init_ps recog bump lineno Hl lines tail Hs s2) as [x2 E2].
  congruence.
Qed.
Print Assumptions c10_any_two_schedules.

(* The same on the real symbol table (concrete recogniser + finish): under any schedule the
   result and its table are those of the schedule-free specification. *)
Theorem c10_table_chunk_independent :
  forall (lines : list rle) (tail : Z),
    short_lines cllen lines tail ->
    forall sch, exists r s, drive_c lines tail sch = Ret (r, s) /\ r = spec_c lines tail /\
                            table_of r = table_of (spec_c lines tail).
Proof. exact table_chunk_independent. Qed.
Print Assumptions c10_table_chunk_independent.

Definition bl (bs : list Z) : rle := map (fun b => (b, 1)) bs.
Definition ex_lines : list rle :=
  [ bl [77;79;68;85;76;69;32;97;32;98;32;99;32;100];                 (* MODULE a b c d *)
    bl [70;73;76;69;32;49;32;120];                                   (* FILE 1 x *)
    bl [70;85;78;67;32;49;48;32;52;32;48;32;102];                    (* FUNC 10 4 0 f *)
    bl [49;48;32;52;32;49;32;49];                                    (* 10 4 1 1 *)
    bl [80;85;66;76;73;67;32;50;48;32;48;32;103;13] ].               (* PUBLIC 20 0 g\r *)

(* parse_async ([drive_async]: the same loop, reading from the current HTTP chunk and fetching the
   next one when it is used up) over any sequence of non-empty chunks that make up the input ends
   like parse ([drive]) under the schedule of the reads it performs: same result, same final
   state apart from the reader.  So everything proved about [drive] for all schedules holds for it. *)
Theorem c10_async_is_sync :
  forall (L : Type) (llen : L -> Z) (PS : Type) (init_ps : PS)
         (recog : PS -> L -> PS + Z) (bump : PS -> PS) (lineno : PS -> Z),
    (forall l, 1 <= llen l) ->
    forall (lines : list L) (tail : Z) (chunks : list Z),
    Forall (fun c => 0 < c) chunks -> zsum chunks = input_len L llen lines tail ->
    exists sch r s1 s2,
      drive_async L llen PS init_ps recog bump lineno lines tail chunks = Ret (r, s1) /\
      drive L llen PS init_ps recog bump lineno lines tail sch = Ret (r, s2) /\
      erase L PS s1 = erase L PS s2.
Proof. exact async_is_sync. Qed.
Print Assumptions c10_async_is_sync.

(* ... so for lines shorter than 80 KiB the one-chunk parse_async ends with [spec], whatever the chunking. *)
Theorem c10_async_chunk_independent :
  forall (L : Type) (llen : L -> Z) (PS : Type) (init_ps : PS)
         (recog : PS -> L -> PS + Z) (bump : PS -> PS) (lineno : PS -> Z),
    (forall l, 1 <= llen l) ->
    forall (lines : list L) (tail : Z) (chunks : list Z),
    short_lines llen lines tail ->
    Forall (fun c => 0 < c) chunks -> zsum chunks = input_len L llen lines tail ->
    exists s, drive_async L llen PS init_ps recog bump lineno lines tail chunks
              = Ret (spec L PS init_ps recog lineno lines tail, s).
Proof.
  intros L llen PS init_ps recog bump lineno Hl lines tail chunks Hs Hc Hsum.
  destruct (async_is_sync L llen PS init_ps recog bump lineno Hl lines tail chunks Hc Hsum) as [sch [r [s1 [s2 [H1 [H2 _]]]]]].
  destruct (drive_is_spec L llen PS init_ps recog bump lineno Hl lines tail Hs sch) as [s3 H3].
  exists s1. congruence.
Qed.
Print Assumptions c10_async_chunk_independent.

(* The parser contract assumed by C16 (symbol cache): [parse_bytes] is the whole-input verdict
   (table without url, url of the last INFO URL record).  Appending `INFO URL <u>` (after a '\n'
   if the body lacks one: an accepted body never does) to an accepted body gives the same table
   with url = u — also when the body already contains INFO URL records (the last one wins). *)
Theorem c10_cached_form_parse :
  forall (b u : list Z) (t : table) (x : option (list Z)),
    url_ok u -> parse_bytes b = Some (t, x) -> parse_bytes (cached_form b u) = Some (t, Some u).
Proof. exact cached_form_parse. Qed.
Print Assumptions c10_cached_form_parse.

(* parse_async on 3 HTTP chunks of a 62-byte file (sizes 20, 1, 41) *)
Example c10_nonvacuous_async :
  match drive_async rle cllen pst init_pst recog_pst bump_pst lineno_pst ex_lines 0 [20; 1; 41] with
  | Ret (ROk p, s) => (zlen (p_files p), cbsum s, nrd s)
  | _ => (-1, 0, 0)
  end = (1, 62, 4).
Proof. vm_compute. reflexivity. Qed.

Example c10_nonvacuous_cached :
  let body := [77;79;68;85;76;69;32;97;32;98;32;99;32;100;10; 73;78;70;79;32;85;82;76;32;111;108;100;10;
               70;85;78;67;32;49;48;32;52;32;48;32;102;10] in        (* MODULE a b c d / INFO URL old / FUNC 10 4 0 f *)
  let u := [104;116;116;112;58;47;47;120] in                        (* http://x *)
  (match parse_bytes body with Some (t, x) => (zlen (t_funcs t), x) | None => (-1, None) end,
   match parse_bytes (cached_form body u) with Some (t, x) => (zlen (t_funcs t), x) | None => (-1, None) end)
  = ((1, Some [111;108;100]), (1, Some u)).
Proof. vm_compute. reflexivity. Qed.

(* non-vacuity: a file with a FILE record, a FUNC group and a PUBLIC record, read 1 byte / 7 bytes at a time and
   whole: short_lines holds and the three runs agree with spec (Ok, 1 file, 1 public) *)
Example c10_nonvacuous_short : short_lines cllen ex_lines 0.
Proof.
  unfold short_lines, ex_lines. split; [|apply Z.ltb_lt; vm_compute; reflexivity].
  repeat (apply Forall_cons; [apply Z.leb_le; vm_compute; reflexivity|]). apply Forall_nil.
Qed.
Example c10_nonvacuous_runs :
  let o1 := run_case ex_lines 0 (repeat 1 80) in
  let o2 := run_case ex_lines 0 [7; 7; 7; 7; 7; 7; 7; 7; 7] in
  let o3 := run_case ex_lines 0 [] in
  (o_kind o1, o_files o1, o_publics o1, o_cb o1, o_skind o1) = (0, 1, 1, 62, 0) /\
  (o_kind o2, o_files o2, o_publics o2, o_cb o2) = (0, 1, 1, 62) /\
  (o_kind o3, o_files o3, o_publics o3, o_cb o3) = (0, 1, 1, 62) /\
  o_ncb o1 <> o_ncb o3.
Proof. vm_compute. repeat split; try reflexivity; discriminate. Qed.
(* and an unterminated last line is an error under every schedule (finding F-C10b) *)
Example c10_nonvacuous_unterminated :
  let o1 := run_case ex_lines 3 [5; 5; 5] in
  let o3 := run_case ex_lines 3 [] in
  (o_kind o1, o_code o1, o_line o1, o_skind o1, o_scode o1) = (1, 4, 5, 1, 4) /\
  (o_kind o3, o_code o3, o_line o3) = (1, 4, 5).
Proof. vm_compute. split; reflexivity. Qed.

(* Streamed = whole, on the real table, with the table known to EXIST: under any schedule the streamed parse of an
   input whose lines are shorter than 80 KiB ends with the verdict of the schedule-free specification, and that
   verdict is a symbol table or an error — SymbolParser::finish cannot panic (C09.ProofsFinish). *)
Theorem c10_streamed_equals_whole_defined :
  forall (lines : list rle) (tail : Z),
    short_lines cllen lines tail ->
    exists t, table_of (spec_c lines tail) = Ret t /\
      forall sch, exists s, drive_c lines tail sch = Ret (spec_c lines tail, s) /\
                            cbsum s = total s /\ (t <> None -> cbsum s = input_len rle cllen lines tail).
Proof.
  intros lines tail Hs. destruct (spec_table_defined lines tail Hs) as [t [T0 Hok]].
  exists t. split; [exact T0|]. intros sch.
  destruct (table_chunk_independent lines tail Hs sch) as [r [s [H [E _]]]]. subst r.
  exists s. split; [exact H|].
  destruct (drive_callback rle cllen pst init_pst recog_pst bump_pst lineno_pst ProofsBytes.cllen_pos lines tail sch _ s H) as [C [_ A]].
  split; [exact C|]. intros Ht. destruct (Hok Ht) as [p Hp]. exact (A p Hp).
Qed.
Print Assumptions c10_streamed_equals_whole_defined.

(* parse_async's loop in the model is the loop assembled from the conditions the translator extracts from
   parse_async's own source text (translate/symfile_loop.py; coq/Gen/SymFileLoop.v, the async_ definitions). *)
Theorem c10_async_loop_is_source :
  forall (L : Type) (llen : L -> Z) (PS : Type) (recog : PS -> L -> PS + Z) (bump : PS -> PS) (lineno : PS -> Z) s,
    step_async L llen PS recog bump lineno s = Pins.step_async_src L llen PS recog bump lineno s.
Proof. intros. apply Pins.pin_step. Qed.
Print Assumptions c10_async_loop_is_source.

(* non-vacuity: the async run the correspondence uses (run_async = drive_async + callback trace) on 3 chunks *)
Example c10_nonvacuous_async_run :
  let '(o, t) := run_async ex_lines 0 [20; 1; 41] in
  (o_kind o, o_cb o, o_files o, 0 <? tr_events t) = (0, 62, 1, true).
Proof. vm_compute. reflexivity. Qed.

(* parse_async over ANY body.
   [drive_stream] (C10/Stream.v) is parse_async as a model of its own: the body of the reqwest::Response is a script of
   events — chunks of any size, EMPTY chunks, a failure at any point ([SFail]: response.chunk() returns Err) — and the
   refill block in front of the read is modelled as it is in the source (empty chunks are skipped; finding F-C10c: with
   the one-chunk refill an empty chunk read as 0 bytes = end of input, and the parse ended early with Ok and a truncated table).
   [delivered script] = the bytes the body hands over before it ends or fails; the input IS those bytes. *)

(* All inputs, all bodies: parse_async returns (no panic, within the linear fuel), the callback got exactly the first
   total_consumed bytes of what was delivered, and all of it when the result is Ok. *)
Theorem c10_stream_total_prefix :
  forall (L : Type) (llen : L -> Z) (PS : Type) (init_ps : PS)
         (recog : PS -> L -> PS + Z) (bump : PS -> PS) (lineno : PS -> Z),
    (forall l, 1 <= llen l) ->
    forall (lines : list L) (tail : Z) (script : list sev),
    delivered script = input_len L llen lines tail ->
    exists r x, drive_stream L llen PS init_ps recog bump lineno lines tail script = Ret (r, x) /\
      cbsum (core x) = total (core x) /\ 0 <= total (core x) <= input_len L llen lines tail /\
      (forall p, r = ROk p -> cbsum (core x) = input_len L llen lines tail).
Proof. exact stream_total. Qed.
Print Assumptions c10_stream_total_prefix.

(* Chunk independence of parse_async at full strength: lines shorter than 80 KiB => for EVERY body the outcome is
   [spec_stream]: the schedule-free [spec] when the body is delivered in full (whatever the chunk sizes, wherever the
   empty chunks), and when the body fails: the error of the first delivered complete line the recogniser rejects,
   else the load error — never Ok. *)
Theorem c10_stream_chunk_independent :
  forall (L : Type) (llen : L -> Z) (PS : Type) (init_ps : PS)
         (recog : PS -> L -> PS + Z) (bump : PS -> PS) (lineno : PS -> Z),
    (forall l, 1 <= llen l) ->
    forall (lines : list L) (tail : Z),
    short_lines llen lines tail ->
    forall script : list sev, delivered script = input_len L llen lines tail ->
    exists x, drive_stream L llen PS init_ps recog bump lineno lines tail script
              = Ret (spec_stream L PS init_ps recog lineno lines tail script, x).
Proof. exact stream_is_spec. Qed.
Print Assumptions c10_stream_chunk_independent.

(* ... hence two bodies that deliver the same input in full agree, however they cut it and wherever they put empty chunks. *)
Theorem c10_stream_any_two_bodies :
  forall (L : Type) (llen : L -> Z) (PS : Type) (init_ps : PS)
         (recog : PS -> L -> PS + Z) (bump : PS -> PS) (lineno : PS -> Z),
    (forall l, 1 <= llen l) ->
    forall (lines : list L) (tail : Z), short_lines llen lines tail ->
    forall s1 s2, delivered s1 = input_len L llen lines tail -> delivered s2 = input_len L llen lines tail ->
    fails s1 = false -> fails s2 = false ->
    forall r1 x1 r2 x2,
    drive_stream L llen PS init_ps recog bump lineno lines tail s1 = Ret (r1, x1) ->
    drive_stream L llen PS init_ps recog bump lineno lines tail s2 = Ret (r2, x2) ->
    r1 = r2 /\ r1 = spec L PS init_ps recog lineno lines tail.
Proof.
  intros L llen PS init_ps recog bump lineno Hl lines tail Hs s1 s2 D1 D2 F1 F2 r1 x1 r2 x2 H1 H2.
  destruct (stream_is_spec L llen PS init_ps recog bump lineno Hl lines tail Hs s1 D1) as [y1 E1].
  destruct (stream_is_spec L llen PS init_ps recog bump lineno Hl lines tail Hs s2 D2) as [y2 E2].
  rewrite H1 in E1. rewrite H2 in E2. inversion E1. inversion E2. unfold spec_stream. rewrite F1, F2. split; reflexivity.
Qed.
Print Assumptions c10_stream_any_two_bodies.

(* ALL inputs (over-long lines, recovery in progress, anything): a body that fails never yields a symbol table. *)
Theorem c10_stream_failed_body_never_ok :
  forall (L : Type) (llen : L -> Z) (PS : Type) (init_ps : PS)
         (recog : PS -> L -> PS + Z) (bump : PS -> PS) (lineno : PS -> Z),
    (forall l, 1 <= llen l) ->
    forall (lines : list L) (tail : Z) (script : list sev),
    delivered script = input_len L llen lines tail -> fails script = true ->
    forall r x, drive_stream L llen PS init_ps recog bump lineno lines tail script = Ret (r, x) ->
    forall p, r <> ROk p.
Proof. exact stream_fail_not_ok. Qed.
Print Assumptions c10_stream_failed_body_never_ok.

(* The refill block of the model is the one assembled from the guard and the match arms that translate/c10_stream.py
   extracts from parse_async's source (coq/Gen/C10Stream.v): which chunks are skipped, what the end of the body gives,
   that a failed chunk ends the parse. *)
Theorem c10_stream_refill_is_source :
  forall (cur : Z) (pend : list sev), refill cur pend = refill_src cur pend.
Proof. exact refill_is_source. Qed.
Print Assumptions c10_stream_refill_is_source.

(* The traced iteration that [run_stream] (what the correspondence run executes) is built on goes through the states
   of [drive_stream]: its first component is [drive_stream_c]. *)
Theorem c10_run_stream_is_drive_stream :
  forall lines tail script,
    drive_stream_c lines tail script =
    match fst (iter_tr_stream (fuel_for rle cllen lines tail)
                              (init_stream rle cllen pst init_pst lines tail script) init_tr) with
    | SNext _ => OutOfFuel
    | SDone r x => Ret (r, x)
    | SPanic t => Panic t
    end.
Proof. intros. rewrite iter_tr_stream_run. reflexivity. Qed.
Print Assumptions c10_run_stream_is_drive_stream.

(* non-vacuity.  The 62-byte file of ex_lines; bodies: [20; EMPTY; 1; EMPTY; EMPTY; 41], then the same with a failure
   after 21 bytes (only `MODULE a b c d` is complete by then), and a failure before anything is delivered. *)
Example c10_nonvacuous_stream_empty_chunks :
  let script := [SChunk 20; SChunk 0; SChunk 1; SChunk 0; SChunk 0; SChunk 41] in
  delivered script = input_len rle cllen ex_lines 0 /\ fails script = false /\
  match run_stream ex_lines 0 script with
  | (o, t) => (o_kind o, o_cb o, o_files o, o_publics o, o_skind o)
  end = (0, 62, 1, 1, 0).
Proof. vm_compute. repeat split; reflexivity. Qed.

Definition ex_lines_21 : list rle := [ bl [77;79;68;85;76;69;32;97;32;98;32;99;32;100] ].   (* MODULE a b c d *)
Example c10_nonvacuous_stream_failure :
  let script := [SChunk 15; SChunk 0; SChunk 6; SFail; SChunk 41] in
  delivered script = input_len rle cllen ex_lines_21 6 /\ fails script = true /\
  short_lines cllen ex_lines_21 6 /\
  match run_stream ex_lines_21 6 script with
  | (o, t) => (o_kind o, o_code o, o_cb o, o_skind o, o_scode o)
  end = (1, 8, 15, 1, 8).
Proof.
  split; [vm_compute; reflexivity|]. split; [vm_compute; reflexivity|]. split.
  - unfold short_lines, ex_lines_21. split; [|apply Z.ltb_lt; vm_compute; reflexivity].
    repeat (apply Forall_cons; [apply Z.leb_le; vm_compute; reflexivity|]). apply Forall_nil.
  - vm_compute. reflexivity.
Qed.

(* a rejected line among the delivered ones wins over the failure of the body: `FOO` is not a record *)
Example c10_nonvacuous_stream_failure_after_bad_line :
  let lines := [ bl [77;79;68;85;76;69;32;97;32;98;32;99;32;100]; bl [70;79;79] ] in
  let script := [SChunk 19; SFail] in
  delivered script = input_len rle cllen lines 0 /\
  match run_stream lines 0 script with
  | (o, t) => (o_kind o, o_code o, o_line o, o_skind o, o_scode o, o_sline o)
  end = (1, 1, 1, 1, 1, 1).
Proof. vm_compute. split; reflexivity. Qed.

(* The class is exactly as wide as it can be.
   c10_chunk_independent needs every line to have at most HALF_CAP = 81920 bytes with its '\n' (content < 80 KiB).
   With a single line of HALF_CAP + 1 bytes (content = 80 KiB exactly) and every other line inside the class there
   are two schedules with different symbol tables: 10240-byte reads keep the line (5 FILE records), the whole-slice
   read (from_bytes) discards it as an "enormous line" (4 FILE records).  Replayed on the real code (corpus). *)
Theorem c10_bound_is_tight :
  exists (lines : list rle) (s1 s2 : list Z) r1 x1 r2 x2 t1 t2,
    Forall (fun l => cllen l <= HALF_CAP + 1) lines /\
    drive_c lines 0 s1 = Ret (r1, x1) /\ drive_c lines 0 s2 = Ret (r2, x2) /\
    table_of r1 = Ret (Some t1) /\ table_of r2 = Ret (Some t2) /\
    zlen (t_files t1) = 5 /\ zlen (t_files t2) = 4 /\ t1 <> t2.
Proof. exact bound_tight. Qed.
Print Assumptions c10_bound_is_tight.

(* The other end of the alignment-dependent band: a line of MAX_CAP = 163840 bytes with its '\n' (content 160 KiB - 1)
   is kept under one schedule and discarded under another; from MAX_CAP + 1 on it is discarded under every schedule
   (c09_long_line_dropped).  So the band is exactly 80 KiB <= content < 160 KiB at both ends. *)
Theorem c10_band_top_dependent :
  exists (lines : list rle) (s1 s2 : list Z) r1 x1 r2 x2 t1 t2,
    Forall (fun l => cllen l <= MAX_CAP) lines /\
    drive_c lines 0 s1 = Ret (r1, x1) /\ drive_c lines 0 s2 = Ret (r2, x2) /\
    table_of r1 = Ret (Some t1) /\ table_of r2 = Ret (Some t2) /\
    zlen (t_files t1) <> zlen (t_files t2).
Proof. exact band_top_dependent. Qed.
Print Assumptions c10_band_top_dependent.

(* parse_async on the real symbol table: any non-failing body (chunks of any size, empty chunks anywhere) delivering an input
   whose lines are shorter than 80 KiB ends with the schedule-free verdict; the verdict is a table or an error, never a
   panic of finish(); the callback got a prefix and, when it is a table, everything. *)
Theorem c10_stream_table_chunk_independent :
  forall (lines : list rle) (tail : Z) (script : list sev),
    short_lines cllen lines tail -> delivered script = input_len rle cllen lines tail -> fails script = false ->
    exists t x, table_of (spec_c lines tail) = Ret t /\
                drive_stream_c lines tail script = Ret (spec_c lines tail, x) /\
                cbsum (core x) = total (core x) /\ (t <> None -> cbsum (core x) = input_len rle cllen lines tail).
Proof. exact stream_table. Qed.
Print Assumptions c10_stream_table_chunk_independent.

(* F-C10c, stated on the model of the loop as it was before the fix ([step_stream_old]: the refill block takes one chunk,
   empty or not): `MODULE a b c d / FILE 1 x / PUBLIC 20 0 g` as chunks [15; EMPTY; 23] — old loop: Ok, callback 15 of 38
   bytes, no FILE, no PUBLIC; fixed loop ([drive_stream]): Ok, 38 bytes, both records.  The same witness was replayed on the
   real parse_async before and after the fix (corpus/C10/cases.txt). *)
Theorem c10_old_refill_refuted :
  let script := [SChunk 15; SChunk 0; SChunk 23] in
  short_lines cllen f10c_lines 0 /\ delivered script = input_len rle cllen f10c_lines 0 /\ fails script = false /\
  (exists p x t, iter_old 20 (init_stream rle cllen pst init_pst f10c_lines 0 script) = SDone (ROk p) x /\
                 cbsum (core x) = 15 /\ table_of (ROk p) = Ret (Some t) /\ zlen (t_files t) = 0 /\ zlen (t_publics t) = 0) /\
  (exists p x t, drive_stream rle cllen pst init_pst recog_pst bump_pst lineno_pst f10c_lines 0 script = Ret (ROk p, x) /\
                 cbsum (core x) = 38 /\ table_of (ROk p) = Ret (Some t) /\ zlen (t_files t) = 1 /\ zlen (t_publics t) = 1).
Proof. exact old_refill_refuted. Qed.
Print Assumptions c10_old_refill_refuted.

(* What the callback (in fetch_symbol_file: the symbol-cache writer) has been given when the body fails and no delivered
   complete line is rejected: exactly the complete lines that were delivered, not the unterminated rest; the outcome is the
   load error.  (Lines shorter than 80 KiB, any body that fails.) *)
Theorem c10_stream_failed_body_callback :
  forall (L : Type) (llen : L -> Z) (PS : Type) (init_ps : PS)
         (recog : PS -> L -> PS + Z) (bump : PS -> PS) (lineno : PS -> Z),
    (forall l, 1 <= llen l) ->
    forall (lines : list L) (tail : Z), short_lines llen lines tail ->
    forall (script : list sev) (p0 : PS),
    delivered script = input_len L llen lines tail -> fails script = true ->
    fold_recog L PS recog lineno init_ps lines = inl p0 ->
    exists x, drive_stream L llen PS init_ps recog bump lineno lines tail script = Ret (RErr LOAD_ERROR 0, x) /\
              cbsum (core x) = size L llen lines.
Proof. exact stream_failed_cb. Qed.
Print Assumptions c10_stream_failed_body_callback.

(* Lines of 80 KiB and more are chunk-dependent ONLY through reads of more than 80 KiB.  All inputs whose lines
   fit the largest buffer (content < 160 KiB: [wide_lines]), every reader whose read() calls never return more
   than HALF_CAP = 81920 bytes ([fine_sched]; the schedule must not run out before the input does, because a
   used-up schedule is the whole-slice reader): the outcome is [spec], the schedule-free verdict, exactly as for
   lines shorter than 80 KiB (recovery needs ONE read of at least 81921 bytes that fills the 160 KiB buffer). *)
Theorem c10_fine_reads_exact :
  forall (L : Type) (llen : L -> Z) (PS : Type) (init_ps : PS)
         (recog : PS -> L -> PS + Z) (bump : PS -> PS) (lineno : PS -> Z),
    (forall l, 1 <= llen l) ->
    forall (lines : list L) (tail : Z),
    wide_lines llen lines tail ->
    forall sch : list Z, fine_sched sch (input_len L llen lines tail) ->
    exists s, drive L llen PS init_ps recog bump lineno lines tail sch
              = Ret (spec L PS init_ps recog lineno lines tail, s).
Proof.
  intros L llen PS init_ps recog bump lineno Hl lines tail Hw sch Hf.
  exact (calm_drive_is_spec L llen PS init_ps recog bump lineno Hl lines tail Hw sch (or_intror Hf)).
Qed.
Print Assumptions c10_fine_reads_exact.

(* The same for parse_async: a body whose chunks are at most 80 KiB each (empty chunks anywhere, a failure
   anywhere) gives [spec_stream] on every input whose lines are shorter than 160 KiB. *)
Theorem c10_stream_fine_chunks_exact :
  forall (L : Type) (llen : L -> Z) (PS : Type) (init_ps : PS)
         (recog : PS -> L -> PS + Z) (bump : PS -> PS) (lineno : PS -> Z),
    (forall l, 1 <= llen l) ->
    forall (lines : list L) (tail : Z),
    wide_lines llen lines tail ->
    forall script : list sev,
    delivered script = input_len L llen lines tail -> fine_body script ->
    exists x, drive_stream L llen PS init_ps recog bump lineno lines tail script
              = Ret (spec_stream L PS init_ps recog lineno lines tail script, x).
Proof.
  intros L llen PS init_ps recog bump lineno Hl lines tail Hw script Hd Hf.
  exact (calm_stream_is_spec L llen PS init_ps recog bump lineno Hl lines tail Hw script Hd (or_intror Hf)).
Qed.
Print Assumptions c10_stream_fine_chunks_exact.

(* EVERY line length in the band is chunk-dependent, for every recogniser: |A| = |A'| = 80 KiB exactly (the
   longest lines of the class), B any line of at most 40 KiB, X any line with 81920 < |X| <= 163840, A, B, A'
   accepted.  Read from a slice (schedule [] = from_bytes) the file A/B/A'/X is Ok with X DROPPED (line counter
   bumped, the recogniser never sees X); under every fine reader the outcome is what the recogniser says about X.
   The two differ whenever [recog p3 X <> inl (bump p3)], e.g. for every FILE/PUBLIC/FUNC record and for every
   malformed line.  ([c10_bound_is_tight] / [c10_band_top_dependent] are the two end points.) *)
Theorem c10_band_everywhere_dependent :
  forall (L : Type) (llen : L -> Z) (PS : Type) (init_ps : PS)
         (recog : PS -> L -> PS + Z) (bump : PS -> PS) (lineno : PS -> Z),
    (forall l, 1 <= llen l) ->
    forall (A B A' X : L) (p1 p2 p3 : PS),
    llen A = 81920 -> 1 <= llen B <= 40960 -> llen A' = 81920 -> 81920 < llen X <= 163840 ->
    recog init_ps A = inl p1 -> recog p1 B = inl p2 -> recog p2 A' = inl p3 ->
    (exists s, drive L llen PS init_ps recog bump lineno [A; B; A'; X] 0 [] = Ret (ROk (bump p3), s) /\
               log s = [(true, X); (false, A'); (false, B); (false, A)]) /\
    (forall sch, fine_sched sch (input_len L llen [A; B; A'; X] 0) ->
       exists s, drive L llen PS init_ps recog bump lineno [A; B; A'; X] 0 sch
                 = Ret (match recog p3 X with inl p4 => ROk p4 | inr c => RErr c (lineno p3) end, s)).
Proof.
  intros L llen PS init_ps recog bump lineno Hl A B A' X p1 p2 p3 HA HB HA' HX RA RB RA'. split.
  - eapply whole_slice_drops; eassumption.
  - eapply fine_keeps; eassumption.
Qed.
Print Assumptions c10_band_everywhere_dependent.

(* non-vacuity on the real recogniser: MODULE Linux x86 0 a{81900} / FILE 1 aaa / FILE 2 a{81912} / FILE 3 a{n}
   with a band line of 100000 bytes; 4096-byte reads keep FILE 3, the whole-slice read drops it *)
Definition band_ex (n : Z) : list rle :=
  [ lit [77;79;68;85;76;69;32;76;105;110;117;120;32;120;56;54;32;48;32] ++ [(97, 81900)];
    file_line [49] 3; file_line [50] 81912; file_line [51] n ].
Example c10_nonvacuous_band_file :
  map cllen (band_ex 99992) = [81920; 11; 81920; 100000] /\
  wide_lines cllen (band_ex 99992) 0 /\
  fine_sched (repeat 4096 (Z.to_nat 263851)) (input_len rle cllen (band_ex 99992) 0).
Proof.
  split; [vm_compute; reflexivity|]. split.
  - split; [|reflexivity]. unfold band_ex. repeat (apply Forall_cons; [apply Z.leb_le; vm_compute; reflexivity|]). apply Forall_nil.
  - split; [apply Forall_forall; intros c Hc; apply repeat_spec in Hc; subst c; apply Z.leb_le; reflexivity|].
    rewrite repeat_length. vm_compute. discriminate.
Qed.
Example c10_nonvacuous_band_runs :
  exists r1 x1 r2 x2 t1 t2,
    drive_c (band_ex 99992) 0 (repeat 4096 100) = Ret (r1, x1) /\ drive_c (band_ex 99992) 0 [] = Ret (r2, x2) /\
    table_of r1 = Ret (Some t1) /\ table_of r2 = Ret (Some t2) /\
    zlen (t_files t1) = 3 /\ zlen (t_files t2) = 2.
Proof.
  do 6 eexists.
  split; [vm_compute; reflexivity|]. split; [vm_compute; reflexivity|].
  split; [vm_compute; reflexivity|]. split; [vm_compute; reflexivity|].
  split; vm_compute; reflexivity.
Qed.

(* ------------------------------------------------------------------ a sync reader whose read() fails (C10/ReadFail.v) *)

(* The run with a reader whose k-th read() call returns Err is the undisturbed run, or the undisturbed run stopped
   at the head of the iteration that would have issued read number k (after its recovery block), ending with
   SymbolError::LoadError.  All inputs, all schedules, any k. *)
Theorem c10_read_error_is_cut :
  forall (L : Type) (llen : L -> Z) (PS : Type) (init_ps : PS)
         (recog : PS -> L -> PS + Z) (bump : PS -> PS) (lineno : PS -> Z)
         (lines : list L) (tail : Z) (sch : list Z) (k : Z), 0 <= k ->
    drive_rf L llen PS init_ps recog bump lineno lines tail sch k
      = drive L llen PS init_ps recog bump lineno lines tail sch \/
    exists (j : nat) sj,
      iter_nat L llen PS recog bump lineno j (init_st L llen PS init_ps lines tail sch) = Next sj /\ nrd sj = k /\
      drive_rf L llen PS init_ps recog bump lineno lines tail sch k
        = Ret (RErr LOAD_ERROR 0, mid L llen PS bump sj).
Proof. exact rf_drive_cut. Qed.
Print Assumptions c10_read_error_is_cut.

(* ... hence (all inputs): it returns within the fuel without a panic, the callback has been given a prefix of the
   input, an Ok result is the Ok of the undisturbed run with everything handed to the callback (the failing read was
   never issued), and otherwise the result is the undisturbed one or the load error: a failed read never yields a
   table (the analogue of c10_stream_failed_body_never_ok for SymbolFile::parse). *)
Theorem c10_read_error_total_prefix :
  forall (L : Type) (llen : L -> Z) (PS : Type) (init_ps : PS)
         (recog : PS -> L -> PS + Z) (bump : PS -> PS) (lineno : PS -> Z),
    (forall l, 1 <= llen l) ->
    forall (lines : list L) (tail : Z) (sch : list Z) (k : Z), 0 <= k ->
    exists r s, drive_rf L llen PS init_ps recog bump lineno lines tail sch k = Ret (r, s) /\
      cbsum s = total s /\ 0 <= total s <= input_len L llen lines tail /\
      (forall p, r = ROk p -> cbsum s = input_len L llen lines tail /\
                              drive L llen PS init_ps recog bump lineno lines tail sch = Ret (ROk p, s)) /\
      (drive L llen PS init_ps recog bump lineno lines tail sch = Ret (r, s) \/ (r = RErr LOAD_ERROR 0 /\ nrd s = k)).
Proof. exact rf_total. Qed.
Print Assumptions c10_read_error_total_prefix.

(* Lines shorter than 80 KiB: whatever the schedule and wherever the reader fails, the outcome is the schedule-free
   verdict or the load error; in the second case the callback has been given complete lines only. *)
Theorem c10_read_error_chunk_independent :
  forall (L : Type) (llen : L -> Z) (PS : Type) (init_ps : PS)
         (recog : PS -> L -> PS + Z) (bump : PS -> PS) (lineno : PS -> Z),
    (forall l, 1 <= llen l) ->
    forall (lines : list L) (tail : Z),
    short_lines llen lines tail ->
    forall (sch : list Z) (k : Z), 0 <= k ->
    exists s,
      drive_rf L llen PS init_ps recog bump lineno lines tail sch k
        = Ret (spec L PS init_ps recog lineno lines tail, s) \/
      (drive_rf L llen PS init_ps recog bump lineno lines tail sch k = Ret (RErr LOAD_ERROR 0, s) /\ nrd s = k /\
       exists done todo, lines = done ++ todo /\ cbsum s = size L llen done).
Proof. exact rf_short. Qed.
Print Assumptions c10_read_error_chunk_independent.

(* non-vacuity: the 62-byte example read 7 bytes at a time: 10 reads (9 with data, 1 EOF); a failure at read 0..9 is
   the load error with 0 .. 55 callback bytes (complete lines), a failure at read 10 is never reached: Ok, 62 bytes *)
Example c10_nonvacuous_read_error :
  let o3 := run_rfail ex_lines 0 (repeat 7 20) 3 in
  let o9 := run_rfail ex_lines 0 (repeat 7 20) 9 in
  let o10 := run_rfail ex_lines 0 (repeat 7 20) 10 in
  (o_kind o3, o_code o3, o_cb o3, o_nrd o3) = (1, 8, 15, 3) /\
  (o_kind o9, o_code o9, o_nrd o9) = (1, 8, 9) /\
  (o_kind o10, o_cb o10, o_nrd o10, o_files o10) = (0, 62, 10, 1).
Proof. vm_compute. repeat split; reflexivity. Qed.
