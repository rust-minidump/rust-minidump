(* C10/ProofsBandAll.v — the 80..160 KiB band is chunk-dependent at EVERY line length, for every recogniser.
   The file  A / B / A' / X  with |A| = |A'| = 81920 bytes (the longest lines of C10's class), 1 <= |B| <= 40960 and
   81920 < |X| <= 163840 (any length in the band):  read from a slice (from_bytes: every read fills all of space())
   X is discarded as an "enormous line" ([whole_slice_drops]: the 13 loop iterations, each by the equation that
   characterises it, |B| and |X| left symbolic); under any reader whose reads return at most 80 KiB X is handed to
   the recogniser ([fine_keeps], a corollary of ProofsFine.calm_drive_is_spec). *)
From Coq Require Import Lia ZArith List Bool.
From RM Require Import Base.Word C09.Model C09.Proofs C10.Model C10.Proofs.
From RM Require Import C10.Band C10.ProofsFine.
Import ListNotations.
Open Scope Z_scope.

(* lia is to see through the b_cap / 2 of [consume] *)
Ltac Zify.zify_post_hook ::= Z.div_mod_to_equations.

(* a fill that uses up all of space() moves the data to the front *)
Lemma fill_all : forall p e c, 0 <= p <= e -> e <= c -> p < c -> fill (mkbuf p e c) (c - e) = mkbuf 0 (c - p) c.
Proof.
  intros p e c H1 H2 H3. unfold fill, shift, space, avail. cbn [b_pos b_end b_cap]. rewrite Z.min_id.
  replace (c - (e + (c - e)) <? e + (c - e) - p + (c - e)) with true by (symmetry; apply Z.ltb_lt; lia).
  destruct (0 <? p) eqn:E; [|apply Z.ltb_ge in E]; f_equal; lia.
Qed.

Lemma consume_keep : forall p e c k, 0 <= k <= e - p -> p + k <= c / 2 -> consume (mkbuf p e c) k = mkbuf (p + k) e c.
Proof.
  intros p e c k H1 H2. unfold consume, avail. cbn [b_pos b_end b_cap]. rewrite Z.min_l by lia.
  replace (c / 2 <? p + k) with false by (symmetry; apply Z.ltb_ge; exact H2). reflexivity.
Qed.

Lemma consume_shift : forall p e c k, 0 <= p -> 0 <= k <= e - p -> c / 2 < p + k -> 0 < p + k ->
  consume (mkbuf p e c) k = mkbuf 0 (e - (p + k)) c.
Proof.
  intros p e c k H0 H1 H2 H3. unfold consume, shift, avail. cbn [b_pos b_end b_cap]. rewrite Z.min_l by lia.
  replace (c / 2 <? p + k) with true by (symmetry; apply Z.ltb_lt; exact H2).
  replace (0 <? p + k) with true by (symmetry; apply Z.ltb_lt; exact H3). reflexivity.
Qed.

Lemma fill_zero : forall p c, 0 <= p < c -> fill (mkbuf p c c) 0 = mkbuf 0 (c - p) c.
Proof. intros p c H. rewrite <- (fill_all p c c) by lia. rewrite Z.sub_diag. reflexivity. Qed.

Section Slice.
  Variable L : Type.
  Variable llen : L -> Z.
  Variable PS : Type.
  Variable recog : PS -> L -> PS + Z.
  Variable bump : PS -> PS.
  Variable lineno : PS -> Z.

  Local Notation step := (step L llen PS recog bump lineno).
  Local Notation parse_phase := (parse_phase L llen PS recog lineno).
  Local Notation pm := (pm L llen PS recog lineno).
  Local Notation iter_nat := (iter_nat L llen PS recog bump lineno).

  Lemma pm_stop : forall budget p l t c lg, budget < llen l -> pm budget p (l :: t) c lg = inl (p, l :: t, c, lg).
  Proof.
    intros. cbn [Model.pm]. replace (llen l <=? budget) with false by (symmetry; apply Z.leb_gt; assumption). reflexivity.
  Qed.

  Lemma pm_take : forall budget p l t c lg p', llen l <= budget -> recog p l = inl p' ->
    pm budget p (l :: t) c lg = pm (budget - llen l) p' t (c + llen l) ((false, l) :: lg).
  Proof.
    intros budget p l t c lg p' H R. cbn [Model.pm]. rewrite R.
    replace (llen l <=? budget) with true by (symmetry; apply Z.leb_le; assumption). reflexivity.
  Qed.

  (* One iteration outside recovery under the whole-slice reader ([sched = []]).  While more is unread than fits, the
     read fills all of space() ... *)
  Lemma step_slice_read : forall s, pr s = false -> sched s = [] -> geom_ok (buf s) = true ->
    0 < space (buf s) <= unread s ->
    step s = parse_phase (mkst (fill (buf s) (space (buf s))) (fc s) false false (jf s) (total s) (ps s) (rest s) (off s)
                               (unread s - space (buf s)) [] (ncb s) (cbsum s) (nrd s + 1)
                               (Z.max (maxsp s) (space (buf s))) (log s)).
  Proof.
    intros s Hp Hs Hg Hsp. unfold Model.step, Model.step_rest, Model.read_n. rewrite Hp, Hs, Hg. cbn [andb negb].
    replace (space (buf s) <=? 0) with false by (symmetry; apply Z.leb_gt; lia).
    replace (unread s <=? 0) with false by (symmetry; apply Z.leb_gt; lia). cbn [orb].
    rewrite Z.min_l by lia. unfold Model.step_after_read.
    replace (space (buf s) =? 0) with false by (symmetry; apply Z.eqb_neq; lia).
    unfold set_tg. cbn [buf fc tg pr jf total ps rest off unread sched ncb cbsum nrd maxsp log]. rewrite Hp. reflexivity.
  Qed.

  (* ... and when there is no space left, nothing was consumed and the buffer has not just grown, it grows, or, at its
     largest, the loop enters recovery *)
  Lemma step_slice_full : forall s, pr s = false -> sched s = [] -> geom_ok (buf s) = true ->
    space (buf s) = 0 -> jf s = false -> fc s = false -> tg s = false ->
    step s =
    let b2 := fill (buf s) 0 in
    let s2 tg pr b := mkst b false tg pr false (total s) (ps s) (rest s) (off s) (unread s - 0) []
                           (ncb s) (cbsum s) (nrd s + 1) (Z.max (maxsp s) 0) (log s) in
    if MAX_CAP <? Z.min (b_cap b2 * 2) U64MAX then Next (s2 false true b2)
    else Next (s2 true false (grow b2 (Z.min (b_cap b2 * 2) U64MAX))).
  Proof.
    intros s Hp Hs Hg Hsp Hj Hf Ht. unfold Model.step, Model.step_rest, Model.read_n. rewrite Hp, Hs, Hg, Hsp.
    cbn [andb negb Z.leb Z.compare orb]. unfold Model.step_after_read.
    cbn [Z.eqb buf fc tg pr jf total ps rest off unread sched ncb cbsum nrd maxsp log]. rewrite Hp, Hj, Hf, Ht. reflexivity.
  Qed.

  Lemma parse_phase_next : forall s p' r' k lg', pr s = false -> geom_ok (buf s) = true -> off s = 0 ->
    pm (avail (buf s)) (ps s) (rest s) 0 (log s) = inl (p', r', k, lg') ->
    parse_phase s = Next (mkst (consume (buf s) k) (avail (buf s) =? k) (tg s) false false (total s + k) p' r' 0
                               (unread s) (sched s) (ncb s + 1) (cbsum s + k) (nrd s) (maxsp s) lg').
  Proof. intros s p' r' k lg' Hp Hg Ho H. unfold Model.parse_phase. rewrite Hp, Hg, Ho, H. reflexivity. Qed.

  Lemma run_cons : forall n s s1 r, step s = Next s1 -> iter_nat n s1 = r -> iter_nat (S n) s = r.
  Proof. intros n s s1 r H1 H2. cbn [Proofs.iter_nat]. rewrite H1. exact H2. Qed.

  (* the last iteration of a recovery at the end of the input: the rest of the enormous line is in the buffer, its
     '\n' is found, the line is dropped, and the read that follows returns 0 bytes *)
  Lemma step_recovery_last : forall s l, pr s = true -> rest s = [l] -> geom (buf s) -> 0 <= off s ->
    avail (buf s) = llen l - off s -> unread s = 0 ->
    exists s', step s = Done (ROk (bump (ps s))) s' /\ log s' = (true, l) :: log s.
  Proof.
    intros s l Hp Hr Hg Ho Ha Hu.
    destruct (consume_spec (buf s) (avail (buf s)) Hg ltac:(destruct Hg as [? [? ?]]; unfold avail; lia)) as [G [A _]].
    cbn zeta in G, A. rewrite Z.sub_diag in A.
    destruct (fill_spec _ 0 G ltac:(destruct G as [? [? ?]]; unfold space; lia)) as [_ [A2 _]]. cbn zeta in A2. rewrite A, Z.add_0_r in A2.
    unfold Model.step. rewrite Hp, (geom_ok_true _ Hg). cbn [negb andb].
    unfold Model.recovery, Model.first_nl. rewrite Hr, <- Ha, Z.leb_refl, Z.sub_add.
    unfold Model.step_rest, Model.read_n. cbn [buf unread]. rewrite (geom_ok_true _ G), Hu. cbn [negb Z.leb Z.compare].
    rewrite orb_true_r. unfold Model.step_after_read.
    cbn [Z.eqb buf fc tg pr jf total ps rest off unread sched ncb cbsum nrd maxsp log].
    rewrite A2, A. cbn [Z.eqb negb andb]. eexists. split; reflexivity.
  Qed.
End Slice.

(* [zb1] decides the first min, max or comparison of the goal by lia and rewrites it away *)
Ltac zb1 :=
  match goal with
  | |- context [Z.min ?a ?b] => first [rewrite (Z.min_l a b) by lia | rewrite (Z.min_r a b) by lia]
  | |- context [Z.max ?a ?b] => first [rewrite (Z.max_l a b) by lia | rewrite (Z.max_r a b) by lia]
  | |- context [?a <=? ?b] =>
      first [ replace (a <=? b) with true by (symmetry; apply Z.leb_le; lia)
            | replace (a <=? b) with false by (symmetry; apply Z.leb_gt; lia) ]
  | |- context [?a <? ?b] =>
      first [ replace (a <? b) with true by (symmetry; apply Z.ltb_lt; lia)
            | replace (a <? b) with false by (symmetry; apply Z.ltb_ge; lia) ]
  | |- context [?a =? ?b] =>
      first [ replace (a =? b) with true by (symmetry; apply Z.eqb_eq; lia)
            | replace (a =? b) with false by (symmetry; apply Z.eqb_neq; lia) ]
  end.

Section BandAll.
  Variable L : Type.
  Variable llen : L -> Z.
  Variable PS : Type.
  Variable init_ps : PS.
  Variable recog : PS -> L -> PS + Z.
  Variable bump : PS -> PS.
  Variable lineno : PS -> Z.
  Hypothesis llen_pos : forall l, 1 <= llen l.
  Variables A B A' X : L.
  Variables p1 p2 p3 : PS.
  Hypothesis HA : llen A = 81920.
  Hypothesis HB : 1 <= llen B <= 40960.
  Hypothesis HA' : llen A' = 81920.
  Hypothesis HX : 81920 < llen X <= 163840.
  Hypothesis RA : recog init_ps A = inl p1.
  Hypothesis RB : recog p1 B = inl p2.
  Hypothesis RA' : recog p2 A' = inl p3.

  Local Notation step := (step L llen PS recog bump lineno).
  Local Notation iter_nat := (iter_nat L llen PS recog bump lineno).
  Local Notation init_st := (init_st L llen PS init_ps).
  Local Notation pm := (pm L llen PS recog lineno).
  Local Notation parse_phase := (parse_phase L llen PS recog lineno).

  Ltac projs := cbn [buf fc tg pr jf total ps rest off unread sched ncb cbsum nrd maxsp log b_pos b_end b_cap].
  Ltac zb := repeat (zb1; cbn [andb orb negb b_pos b_end b_cap]).
  (* The run is a chain of [run_cons].  [rd pmt] does one iteration whose read fills the buffer: [step_slice_read], the
     fill in closed form ([fill_all]), parse_more evaluated by [pmt] ([pm0]: no complete line in the buffer; [pm1 R]:
     exactly one, accepted by hypothesis R), the consume in closed form.  [full] does one iteration that finds no
     space ([step_slice_full]): grow, or enter recovery.  [side] discharges their side conditions (a flag by
     computation, a bound by lia); [norm] brings the numbers of the state reached to normal form, so that the next
     step matches. *)
  Ltac side := first [reflexivity | apply geom_ok_true; unfold geom | unfold space | idtac]; projs; lia.
  Ltac norm :=
    match goal with
    | |- context [@mkst _ _ (mkbuf ?p ?e ?c) _ _ _ _ ?tot _ _ ?o ?unr _ ?nc ?cb ?nr ?ms _] =>
        ring_simplify p e c tot o unr nc cb nr ms
    end.
  Ltac pm0 := apply pm_stop; rewrite ?HA, ?HA'; lia.
  Ltac pm1 R := erewrite pm_take; [apply pm_stop | | exact R]; rewrite ?HA, ?HA'; lia.
  Ltac rd pmt := eapply run_cons; [
    rewrite step_slice_read by side; projs; unfold space; projs; rewrite fill_all by lia;
    match goal with |- parse_phase ?S = _ =>
      let H := fresh in
      eassert (H : pm (avail (buf S)) (ps S) (rest S) 0 (log S) = inl (_, _, _, _)) by (projs; unfold avail; projs; pmt);
      erewrite parse_phase_next; [clear H | side | side | side | exact H]
    end; projs; first [rewrite consume_keep by lia | rewrite consume_shift by lia]; unfold avail; projs; zb1; rewrite ?HA, ?HA';
    norm; reflexivity |].
  Ltac full := eapply run_cons; [
    rewrite step_slice_full by side; projs; rewrite fill_zero by lia; unfold grow, MAX_CAP, U64MAX; projs; zb; norm; reflexivity |].

  Definition band_file : list L := [A; B; A'; X].
  Definition band_log : list (bool * L) := [(true, X); (false, A'); (false, B); (false, A)].

  (* The whole-slice reader ([sched = []]: every read fills all of space()), buffer as (position, end, capacity):
     (0,0,10K) read (0,10K,10K) grow, read (0,20K,20K) grow, read (0,40K,40K) grow, read: A fits exactly and is
     consumed (0,0,80K); read: B and the first 81920 - |B| bytes of A', B consumed (|B|,80K,80K); no space: grow,
     the data moved to the front (0,80K-|B|,160K); read: the rest of A' and 81920 bytes of X, A' consumed — exactly
     half of the buffer, so no shift — (80K,160K,160K); no space, nothing consumed, cannot grow: recovery, with the
     data moved to the front (0,80K,160K). *)
  Definition at_recovery : st L PS :=
    mkst (mkbuf 0 81920 163840) false false true false (163840 + llen B) p3 [X] 0 (llen X - 81920) []
         6 (163840 + llen B) 11 (llen B + 81920) [(false, A'); (false, B); (false, A)].

  Lemma slice_to_recovery : iter_nat 11 (init_st band_file 0 []) = Next at_recovery.
  Proof.
    unfold band_file, Model.init_st, input_len, INITIAL_CAP. cbn [Model.size Z.max]. rewrite HA, HA'.
    rd pm0. full. rd pm0. full. rd pm0. full. rd ltac:(pm1 RA).
    rd ltac:(pm1 RB). full. rd ltac:(pm1 RA'). full.
    cbn [Proofs.iter_nat]. unfold at_recovery. f_equal. f_equal; lia.
  Qed.

  Lemma recovery_drops : exists s, iter_nat 2 at_recovery = Done (ROk (bump p3)) s /\ log s = band_log.
  Proof.
    (* the state after the first of the two iterations: the first 81920 bytes of X are discarded and the rest of it
       is read; whether that fill shifts is left open.  245760 = 163840 + 81920 bytes consumed before X's rest, and
       the counters stand at 7 callbacks and 12 reads. *)
    set (s12 := mkst (fill (mkbuf 81920 81920 163840) (llen X - 81920)) true false true false (llen B + 245760) p3 [X] 81920
                     0 [] 7 (llen B + 245760) 12 (llen B + 81920) [(false, A'); (false, B); (false, A)]).
    destruct (fill_spec (mkbuf 81920 81920 163840) (llen X - 81920)) as [G [Av _]];
      [unfold geom; cbn; lia | unfold space; cbn; lia |].
    destruct (step_recovery_last L llen PS recog bump lineno s12 X) as [s [E Hl]];
      try reflexivity; [exact G | cbn; lia | cbn [s12 buf off]; rewrite Av; unfold avail; cbn; lia |].
    exists s. split; [|exact Hl]. eapply run_cons; [|cbn [Proofs.iter_nat]; rewrite E; reflexivity].
    unfold at_recovery, Model.step; projs. unfold Model.recovery, Model.first_nl, Model.discard_all; projs.
    unfold geom_ok, consume, shift, space, avail; projs; zb.
    unfold Model.step_rest, Model.read_n, geom_ok, space; projs; zb.
    unfold Model.step_after_read; projs; zb. unfold set_tg, Model.parse_phase; projs.
    ring_simplify (0 + (81920 - 0)) (163840 + llen B + (81920 - 0)) (llen X - 81920 - (llen X - 81920)) (6 + 1) (11 + 1).
    reflexivity.
  Qed.

  Lemma iter_nat_done_mono : forall n m s r s', (n <= m)%nat ->
    iter_nat n s = Done r s' -> iter_nat m s = Done r s'.
  Proof.
    induction n as [|n IH]; intros m s r s' Hm H; [discriminate|].
    destruct m as [|m]; [lia|]. cbn [Proofs.iter_nat] in *.
    destruct (step s) as [s1|r1 s1|t]; try exact H. apply IH; [lia|exact H].
  Qed.

  Local Notation drive := (drive L llen PS init_ps recog bump lineno).
  Local Notation spec := (spec L PS init_ps recog lineno).

  Lemma whole_slice_drops : exists s,
    drive band_file 0 [] = Ret (ROk (bump p3), s) /\ log s = band_log.
  Proof.
    destruct recovery_drops as [s [H1 H2]]. exists s. split; [|exact H2].
    assert (H13 : iter_nat (11 + 2) (init_st band_file 0 []) = Done (ROk (bump p3)) s)
      by (rewrite (iter_nat_add L llen PS recog bump lineno), slice_to_recovery; exact H1).
    assert (Hfuel : (13 <= Pos.to_nat (fuel_for L llen band_file 0))%nat).
    { unfold fuel_for, input_len, band_file. cbn [Model.size]. rewrite HA, HA'.
      match goal with |- (_ <= Pos.to_nat (Z.to_pos ?e))%nat => set (z := e) end.
      assert (Hz : 13 <= z) by (subst z; lia).
      clearbody z. destruct z as [|p|p]; try lia. }
    unfold Model.drive. rewrite iter_pos_nat.
    rewrite (iter_nat_done_mono 13 _ _ _ _ Hfuel H13). reflexivity.
  Qed.

  Definition band_spec : result PS :=
    match recog p3 X with inl p4 => ROk p4 | inr c => RErr c (lineno p3) end.

  Lemma band_spec_is_spec : spec band_file 0 = band_spec.
  Proof.
    unfold Model.spec, band_file, band_spec. cbn [Model.fold_recog]. rewrite RA, RB, RA'.
    destruct (recog p3 X); reflexivity.
  Qed.

  Lemma band_file_wide : wide_lines llen band_file 0.
  Proof.
    split; [|unfold MAX_CAP; lia]. unfold band_file, MAX_CAP.
    repeat (apply Forall_cons; [lia|]). apply Forall_nil.
  Qed.

  Lemma fine_keeps : forall sch, fine_sched sch (input_len L llen band_file 0) ->
    exists s, drive band_file 0 sch = Ret (band_spec, s).
  Proof.
    intros sch Hf. rewrite <- band_spec_is_spec.
    exact (calm_drive_is_spec L llen PS init_ps recog bump lineno llen_pos band_file 0 band_file_wide sch (or_intror Hf)).
  Qed.
End BandAll.
