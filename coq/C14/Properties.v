(* C14/Properties.v — the property theorems of C14, each with its full statement, a short proof from the lemmas of Proofs.v,
   Proofs2.v, Source.v and BytesProofs.v (an instance, or a few lines), and its `Print Assumptions`; the non-vacuity examples with
   the dumps they evaluate (ex_dump, bx_model).  The theorems about the BYTES of a dump come last, after C02's reader model is
   imported: C02.Model and C14.Model both define `dec`, `os_of_platform`, `OsWindows`, so C14.Model is imported again after it. *)
From Coq Require Import Lia.
From Coq Require String.
Import String.StringSyntax.
From RM Require Import C14.Model C14.Proofs C14.Proofs2 Gen.C14Reason Gen.C14Process C14.Source.
Open Scope Z_scope.

(* Exactly one call stack per entry of the thread list, in the same order, with the same
   thread ids and the names the thread names stream gives those ids (also for the skipped
   dump-writer thread). No bound on the number of threads. *)
Theorem c14_threads_one_to_one : forall d : dump,
  length (threads_of d) = length (d_threads d) /\
  map cs_id (threads_of d) = map t_id (d_threads d) /\
  forall i t cs, nth_error (d_threads d) i = Some t -> nth_error (threads_of d) i = Some cs ->
    cs_id cs = t_id t /\ cs_name cs = get_name (d_names d) (t_id t) /\
    (dump_tid d = Some (t_id t) -> cs_info cs = CsDumpThreadSkipped /\ cs_ctx cs = None) /\
    (dump_tid d <> Some (t_id t) -> cs_info cs <> CsDumpThreadSkipped).
Proof.
  intro d. split; [rewrite threads_of_map; apply map_length|]. split.
  - rewrite threads_of_map, map_map. apply map_ext. intro t. apply stack_of_spec.
  - intros i t cs Ht Hcs. apply nth_threads_of in Hcs. destruct Hcs as (t' & Ht' & ->). rewrite Ht in Ht'. injection Ht' as <-.
    destruct (stack_of_spec d t) as (Hid & Hname & Hskip & Hctx). rewrite Hskip. repeat split; auto.
Qed.
Print Assumptions c14_threads_one_to_one.

(* the name of an id is the last readable entry of the thread names stream for that id *)
Theorem c14_thread_name_last : forall names id n,
  get_name names id = Some n <->
  exists l1 l2, names = l1 ++ (id, Some n) :: l2 /\ forall n', ~ In (id, Some n') l2.
Proof.
  intros names id n. induction names as [|[i o] rest IH]; cbn [get_name].
  - split; [discriminate|]. intros (l1 & l2 & H & _). destruct l1; discriminate H.
  - destruct (get_name rest id) as [x|] eqn:G; split.
    + intro H. destruct (proj1 IH H) as (l1 & l2 & -> & Hn). exists ((i, o) :: l1), l2. split; [reflexivity|exact Hn].
    + intros (l1 & l2 & E & Hn). destruct l1 as [|p l1]; inversion E; subst.
      * rewrite (proj2 (get_name_none l2 id) Hn) in G. discriminate G.
      * apply IH. exists l1, l2. split; [reflexivity|exact Hn].
    + intro H. destruct (i =? id) eqn:E; [|discriminate]. apply Z.eqb_eq in E. subst i o.
      exists [], rest. split; [reflexivity|apply get_name_none, G].
    + intros (l1 & l2 & E & Hn). destruct l1 as [|p l1]; inversion E; subst; [rewrite Z.eqb_refl; reflexivity|].
      exfalso. apply (proj1 (get_name_none _ id) G n), in_elt.
Qed.
Print Assumptions c14_thread_name_last.

(* The requesting thread is the LAST thread-list entry whose id is the target id and is not
   the dump-writer thread's id; there is none exactly when no entry qualifies (in particular
   when the target is the dump-writer thread itself). *)
Theorem c14_requesting_thread : forall d : dump,
  match requesting_thread d with
  | Some i => (exists t, nth_error (d_threads d) i = Some t /\
                         target_tid d = Some (t_id t) /\ dump_tid d <> Some (t_id t)) /\
              forall j t, (i < j)%nat -> nth_error (d_threads d) j = Some t ->
                          ~ (target_tid d = Some (t_id t) /\ dump_tid d <> Some (t_id t))
  | None => forall j t, nth_error (d_threads d) j = Some t ->
                        ~ (target_tid d = Some (t_id t) /\ dump_tid d <> Some (t_id t))
  end.
Proof. exact requesting_spec. Qed.
Print Assumptions c14_requesting_thread.

(* the target id is the exception record's thread id, else the Breakpad info's requesting
   thread id when its validity bit is set; the dump-writer id needs its own validity bit *)
Theorem c14_target_thread_id : forall d : dump,
  ((exists e, d_exc d = Some e /\ target_tid d = Some (e_tid e)) \/
   (d_exc d = None /\ target_tid d = req_tid d)) /\
  (forall id, req_tid d = Some id <->
     exists b, d_bp d = Some b /\ Z.testbit (b_validity b) 1 = true /\ b_req_tid b = id) /\
  (forall id, dump_tid d = Some id <->
     exists b, d_bp d = Some b /\ Z.testbit (b_validity b) 0 = true /\ b_dump_tid b = id).
Proof.
  intro d. split; [unfold target_tid; destruct (d_exc d) as [e|]; [left; eauto|right; auto]|].
  split; intro id; [exact (valid_id_spec (d_bp d) 1 b_req_tid id)|exact (valid_id_spec (d_bp d) 0 b_dump_tid id)].
Qed.
Print Assumptions c14_target_thread_id.

(* A thread named as the requesting one starts its walk from the exception's context when that
   can be read, else from its own; every other thread from its own; info is Ok / MissingContext
   according to whether a context was found. *)
Theorem c14_context_choice : forall (d : dump) i t cs,
  nth_error (d_threads d) i = Some t -> nth_error (threads_of d) i = Some cs ->
  dump_tid d <> Some (t_id t) ->
  ((target_tid d = Some (t_id t) /\ dump_tid d <> Some (t_id t)) ->
     cs_ctx cs = match exc_ctx d with
                 | Some c => Some (FromException, c)
                 | None => tag_ctx FromThread (t_ctx t)
                 end) /\
  (~ (target_tid d = Some (t_id t) /\ dump_tid d <> Some (t_id t)) ->
     cs_ctx cs = tag_ctx FromThread (t_ctx t)) /\
  (cs_info cs = CsOk <-> cs_ctx cs <> None) /\
  (cs_info cs = CsMissingContext <-> cs_ctx cs = None).
Proof.
  intros d i t cs Ht Hcs. apply nth_threads_of in Hcs. destruct Hcs as (t' & Ht' & ->). rewrite Ht in Ht'. injection Ht' as <-.
  apply stack_of_ctx.
Qed.
Print Assumptions c14_context_choice.

(* the stack memory of a walk: the thread's own when 8 bytes at frame 0's stack pointer lie in
   it, else the memory-list region found at that stack pointer, else the thread's own *)
Theorem c14_stack_memory_choice : forall mems t s c,
  let own := thread_stack mems t in
  ((exists k, own = Some k /\ readable_u64 mems k (c_sp c) = true) ->
     choose_stack mems t (Some (s, c)) = own) /\
  (~ (exists k, own = Some k /\ readable_u64 mems k (c_sp c) = true) ->
     choose_stack mems t (Some (s, c)) =
       match mem_at mems (c_sp c) with Some k => Some k | None => own end) /\
  choose_stack mems t None = own.
Proof.
  intros mems t s c own. unfold choose_stack. fold own. split; [|split]; [| |reflexivity].
  - intros (k & Ho & Hr). rewrite Ho, Hr. reflexivity.
  - intro Hn. destruct own as [k|]; [|reflexivity].
    destruct (readable_u64 mems k (c_sp c)) eqn:E; [|reflexivity].
    exfalso. apply Hn. eauto.
Qed.
Print Assumptions c14_stack_memory_choice.

(* Crash address: information[1] for a Windows access violation / in-page error with at least
   two parameters, the exception address otherwise; reduced modulo 2^32 (zero-extended) on
   32-bit CPUs, unchanged on 64-bit and unknown CPUs. *)
Theorem c14_crash_address : forall o c e,
  0 <= e_info1 e < two64 -> 0 <= e_addr e < two64 ->
  (o = OsWindows /\ (e_code e = 3221225477 \/ e_code e = 3221225478) /\ 2 <= e_nparams e ->
     crash_address_raw o e = e_info1 e) /\
  (~ (o = OsWindows /\ (e_code e = 3221225477 \/ e_code e = 3221225478) /\ 2 <= e_nparams e) ->
     crash_address_raw o e = e_addr e) /\
  (pointer_width c = W32 ->
     crash_address o c e = crash_address_raw o e mod two32 /\ 0 <= crash_address o c e < two32) /\
  (pointer_width c <> W32 -> crash_address o c e = crash_address_raw o e) /\
  0 <= crash_address o c e < two64.
Proof.
  intros o c e H1 H2. pose proof (crash_address_raw_spec o e) as [Ha Hb].
  assert (Hr : 0 <= crash_address_raw o e < two64).
  { unfold crash_address_raw. destruct (_ && _ && _); assumption. }
  pose proof (crash_address_spec o c e Hr) as (Hc & Hd & He).
  repeat split; try assumption; try (apply Hc; assumption); try (apply Hd; assumption); try apply He.
Qed.
Print Assumptions c14_crash_address.

(* gates of the refined crash reasons (any membership function for the leaf enumerations) *)
Theorem c14_reason_gates : forall (lk : Z -> Z -> bool) c e,
  (forall o, o <> OsWindows -> o <> OsMac -> o <> OsIos -> o <> OsLinux -> o <> OsAndroid ->
     crash_reason lk o c e = (Unknown, [e_code e; e_flags e])) /\
  (fst (crash_reason lk OsWindows c e) = WindowsAccessViolation <->
     lk EN_WIN_EXC (e_code e) = true /\ e_code e = EXCEPTION_ACCESS_VIOLATION /\ 1 <= e_nparams e /\
     lk EN_WIN_ACCESS (e_info0 e) = true) /\
  (fst (crash_reason lk OsWindows c e) = WindowsInPageError <->
     lk EN_WIN_EXC (e_code e) = true /\ e_code e = EXCEPTION_IN_PAGE_ERROR /\ 3 <= e_nparams e /\
     lk EN_WIN_INPAGE (e_info0 e) = true) /\
  (fst (crash_reason lk OsWindows c e) = WindowsStackBufferOverrun <->
     lk EN_WIN_EXC (e_code e) = false /\ lk EN_WIN_ERROR (e_code e) = false /\
     lk EN_WIN_NTSTATUS (e_code e) = true /\ e_code e = STATUS_STACK_BUFFER_OVERRUN /\ 1 <= e_nparams e).
Proof.
  intros lk c e. split; [intros o; unfold crash_reason; destruct o; try congruence; reflexivity|].
  change (crash_reason lk OsWindows c e) with (windows_reason lk e). rewrite windows_reason_eq. cbv zeta. split; [split|split; split].
  (* "only if": the tests on the path to that family are named, [other_paths] closes every branch that ends in another family;
     "if": the tree evaluated under the conditions *)
  - destruct (lk EN_WIN_EXC (e_code e)) eqn:Hexc, (e_code e =? EXCEPTION_ACCESS_VIOLATION) eqn:Hcode,
             ((1 <=? e_nparams e) && lk EN_WIN_ACCESS (e_info0 e)) eqn:Hgate; other_paths.
    apply andb_true_iff in Hgate as [Hn Hacc]. apply Z.eqb_eq in Hcode. apply Z.leb_le in Hn. auto.
  - intros (G1 & G2 & G3 & G4). apply Z.leb_le in G3. rewrite G1, G2, G3, G4. reflexivity.
  - destruct (lk EN_WIN_EXC (e_code e)) eqn:Hexc, (e_code e =? EXCEPTION_IN_PAGE_ERROR) eqn:Hcode,
             ((3 <=? e_nparams e) && lk EN_WIN_INPAGE (e_info0 e)) eqn:Hgate; other_paths.
    apply andb_true_iff in Hgate as [Hn Hacc]. apply Z.eqb_eq in Hcode. apply Z.leb_le in Hn. auto.
  - intros (G1 & G2 & G3 & G4). apply Z.leb_le in G3. rewrite G1, G2, G3, G4. reflexivity.
  - destruct (lk EN_WIN_EXC (e_code e)) eqn:Hexc, (lk EN_WIN_ERROR (e_code e)) eqn:Herr, (lk EN_WIN_NTSTATUS (e_code e)) eqn:Hnt,
             ((e_code e =? STATUS_STACK_BUFFER_OVERRUN) && (1 <=? e_nparams e)) eqn:Hgate; other_paths.
    apply andb_true_iff in Hgate as [Hcode Hn]. apply Z.eqb_eq in Hcode. apply Z.leb_le in Hn. auto.
  - intros (G1 & G2 & G3 & G4 & G5). apply Z.leb_le in G5. rewrite G1, G2, G3, G4, G5. reflexivity.
Qed.
Print Assumptions c14_reason_gates.

(* process id: the misc info's when that stream exists (None when its flag is clear, whatever
   the Linux status says), else the Linux status' Pid; create time only from the misc info *)
Theorem c14_pid_time : forall d : dump,
  (forall m, d_misc d = Some m ->
     process_id d = (if Z.testbit (mi_flags1 m) 0 then Some (mi_pid m) else None) /\
     process_create_time d = (if Z.testbit (mi_flags1 m) 1 then Some (mi_ctime m) else None)) /\
  (d_misc d = None -> process_id d = option_map status_pid (d_status d) /\ process_create_time d = None).
Proof.
  intro d. unfold process_id, process_create_time, MISC1_PROCESS_ID, MISC1_PROCESS_TIMES.
  split; [intros m H; rewrite H; auto|intro H; rewrite H; auto].
Qed.
Print Assumptions c14_pid_time.

(* Unloaded modules per frame, both build profiles: the subtraction never traps; a frame inside
   a loaded module lists nothing; otherwise the listed (module name, offset) pairs are exactly
   instruction - base for every unloaded module whose range contains the instruction.
   Uses c08_unloaded_exact (RM.C08.Proofs.unloaded_iff). *)
Theorem c14_unloaded_offsets : forall (p : profile) (d : dump) x,
  0 <= x < two64 -> (forall b s nm, In (b, s, nm) (d_unloaded d) -> 0 <= b) ->
  exists l, frame_unloaded p d x = Ret l /\
    (module_at (read_modules (d_modules d)) x <> None -> l = []) /\
    (module_at (read_modules (d_modules d)) x = None ->
       forall nm off, In (nm, off) l <->
         exists i b s r, nth_error (read_unloaded (d_unloaded d)) i = Some (b, s, nm) /\
                         mk_range b s = Some r /\ contains r x = true /\ off = x - b) /\
    (forall nm off, In (nm, off) l -> 0 <= off < two64).
Proof. exact frame_unloaded_spec. Qed.
Print Assumptions c14_unloaded_offsets.

(* the state's module list: the stream's entries with a usable image size *)
Theorem c14_modules_of_stream : forall l m,
  In m (read_modules l) <-> In m l /\ snd m <> 0 /\ fst m + snd m <= U64MAX.
Proof.
  intros l m. unfold read_modules, good_image. rewrite filter_In, andb_true_iff, negb_true_iff, Z.eqb_neq, Z.leb_le.
  split; intros (H1 & H2 & H3); repeat split; try assumption; lia.
Qed.
Print Assumptions c14_modules_of_stream.

(* Linux / Android: whenever the membership function agrees with the translated name tables, every crash
   reason has a predicted Display string (signal name, " / " si_code name or 0x%08x, or the refined
   "SIGSEGV / SEGV_MAPERR" form); an unknown signal renders as "unknown 0x.. / 0x..". *)
Theorem c14_linux_reason_string : forall (lk : Z -> Z -> bool),
  (forall v, lk EN_LINUX v = true -> name_of NAMES_ExceptionCodeLinux v <> None) ->
  (forall v, lk EN_SIGILL v = true -> name_of NAMES_ExceptionCodeLinuxSigillKind v <> None) ->
  (forall v, lk EN_SIGTRAP v = true -> name_of NAMES_ExceptionCodeLinuxSigtrapKind v <> None) ->
  (forall v, lk EN_SIGFPE v = true -> name_of NAMES_ExceptionCodeLinuxSigfpeKind v <> None) ->
  (forall v, lk EN_SIGSEGV v = true -> name_of NAMES_ExceptionCodeLinuxSigsegvKind v <> None) ->
  (forall v, lk EN_SIGBUS v = true -> name_of NAMES_ExceptionCodeLinuxSigbusKind v <> None) ->
  (forall v, lk EN_SIGSYS v = true -> name_of NAMES_ExceptionCodeLinuxSigsysKind v <> None) ->
  forall c e o, o = OsLinux \/ o = OsAndroid -> reason_string (crash_reason lk o c e) <> None.
Proof. exact linux_reason_string. Qed.
Print Assumptions c14_linux_reason_string.

Example c14_nonvacuous_reason_string :
  reason_string (LinuxSigsegv, [1]) = Some [83; 73; 71; 83; 69; 71; 86; 32; 47; 32; 83; 69; 71; 86; 95; 77; 65; 80; 69; 82; 82] /\
  reason_string (LinuxGeneral, [11; 128]) = Some [83; 73; 71; 83; 69; 71; 86; 32; 47; 32; 83; 73; 95; 75; 69; 82; 78; 69; 76] /\
  reason_string (Unknown, [11; 1]) = Some [117; 110; 107; 110; 111; 119; 110; 32; 48; 120; 48; 48; 48; 48; 48; 48; 48; 98; 32; 47; 32; 48; 120; 48; 48; 48; 48; 48; 48; 48; 49].
Proof. vm_compute. repeat split. Qed.

Definition ex_dump : dump :=
  {| d_platform := 2; d_arch := 0; d_time := 7;
     d_threads := [ {| t_id := 5; t_ctx := Some {| c_ip := 100; c_sp := 4096 |}; t_stack := Some 0; t_sbase := 4096 |};
                    {| t_id := 9; t_ctx := Some {| c_ip := 200; c_sp := 8192 |}; t_stack := None; t_sbase := 0 |};
                    {| t_id := 7; t_ctx := None; t_stack := None; t_sbase := 0 |};
                    {| t_id := 7; t_ctx := Some {| c_ip := 20580; c_sp := 8200 |}; t_stack := Some 0; t_sbase := 4096 |} ];
     d_names := [(7, Some 1); (7, None); (5, Some 2); (9, Some 9); (7, Some 3)];
     d_exc := Some {| e_tid := 7; e_code := 3221225477; e_flags := 0; e_nparams := 2; e_info0 := 1;
                      e_info1 := 18446744071562067968; e_info2 := 0; e_addr := 4198400;
                      e_ctx := Some {| c_ip := 20500; c_sp := 8192 |} |};
     d_bp := Some {| b_validity := 3; b_dump_tid := 9; b_req_tid := 5 |};
     d_misc := Some {| mi_flags1 := 1; mi_pid := 42; mi_ctime := 99 |};
     d_status := Some [80; 105; 100; 58; 9; 55; 55; 10];
     d_modules := [(65536, 4096); (1, 0)];
     d_unloaded := [(20480, 256, 1); (20000, 1000, 2); (20480, 64, 1)];
     d_mems := [(4096, 64); (8192, 64)] |}.

Example c14_nonvacuous_threads :
  map cs_id (threads_of ex_dump) = [5; 9; 7; 7] /\
  map cs_name (threads_of ex_dump) = [Some 2; Some 9; Some 3; Some 3] /\
  map cs_info (threads_of ex_dump) = [CsOk; CsDumpThreadSkipped; CsOk; CsOk] /\
  requesting_thread ex_dump = Some 3%nat /\
  map cs_ctx (threads_of ex_dump) =
    [Some (FromThread, {| c_ip := 100; c_sp := 4096 |}); None;
     Some (FromException, {| c_ip := 20500; c_sp := 8192 |});
     Some (FromException, {| c_ip := 20500; c_sp := 8192 |})].
Proof. vm_compute. repeat split. Qed.

Example c14_nonvacuous_address :
  crash_address OsWindows X86 {| e_tid := 7; e_code := 3221225477; e_flags := 0; e_nparams := 2; e_info0 := 1;
                                 e_info1 := 18446744071562067968; e_info2 := 0; e_addr := 4198400; e_ctx := None |}
  = 2147483648 /\
  process_id ex_dump = Some 42 /\ process_create_time ex_dump = None.
Proof. vm_compute. repeat split. Qed.

Example c14_nonvacuous_unloaded :
  frame_unloaded Debug ex_dump 20500 = Ret [(2, 500); (1, 20); (1, 20)] /\
  choose_stack (d_mems ex_dump)
     {| t_id := 7; t_ctx := None; t_stack := Some 0; t_sbase := 4096 |}
     (Some (FromException, {| c_ip := 20500; c_sp := 8192 |})) = Some 1.
Proof. vm_compute. repeat split. Qed.

(* The crash-reason and crash-address model IS the source: for every membership function, OS, CPU and exception record the
   hand-written dispatch equals the decision trees translate/c14_reason.py regenerates from CrashReason::from_exception /
   from_windows_code / from_windows_error / from_windows_error_with_facility / from_windows_exception / from_mac_exception /
   from_linux_exception and MinidumpException::get_crash_address on every run (which enumeration is consulted first,
   parameter-count gates, masks, refinement arms, the constants they are keyed on). *)
Theorem c14_reason_is_source : forall (lk : Z -> Z -> bool) o c e,
  crash_reason lk o c e = gen_from_exception lk o c e /\
  crash_address o c e = gen_crash_address o c e.
Proof. intros. split; [apply crash_reason_is_source|apply crash_address_is_source]. Qed.
Print Assumptions c14_reason_is_source.

(* The documented refinements, on the membership tables regenerated from minidump-common/src/errors (gen_lk): Windows code
   0xC0000409 (__fastfail) is the fast-fail reason carrying information[0] whenever the record has a parameter and the NTSTATUS
   otherwise - no enumeration consulted earlier shadows it; access violation / in-page error are refined exactly for the
   documented access types 0 / 1 / 8 with >= 1 / >= 3 parameters. *)
Theorem c14_windows_refinements_documented : forall c e,
  (e_code e = 3221226505 ->
     crash_reason gen_lk OsWindows c e =
     if 1 <=? e_nparams e then (WindowsStackBufferOverrun, [low32 (e_info0 e)]) else (WindowsNtStatus, [3221226505])) /\
  (e_code e = 3221225477 ->
     crash_reason gen_lk OsWindows c e =
     if (1 <=? e_nparams e) && documented_access (e_info0 e) then (WindowsAccessViolation, [e_info0 e])
     else (WindowsGeneral, [3221225477])) /\
  (e_code e = 3221225478 ->
     crash_reason gen_lk OsWindows c e =
     if (3 <=? e_nparams e) && documented_access (e_info0 e) then (WindowsInPageError, [e_info0 e; low32 (e_info2 e)])
     else (WindowsGeneral, [3221225478])).
Proof.
  intros c e. change (crash_reason gen_lk OsWindows c e) with (windows_reason gen_lk e). unfold windows_reason.
  change (gen_lk EN_WIN_ACCESS (e_info0 e)) with (gen_mem [0; 1; 8] (e_info0 e)).
  change (gen_lk EN_WIN_INPAGE (e_info0 e)) with (gen_mem [0; 1; 8] (e_info0 e)). rewrite mem_documented.
  repeat split; intros ->.
  - rewrite windows_code_fast_fail. reflexivity.
  - rewrite windows_code_av. reflexivity.
  - rewrite windows_code_inpage. reflexivity.
Qed.
Print Assumptions c14_windows_refinements_documented.

(* Linux / Android on the regenerated tables: a signal of the table is refined by its si_code table exactly for SIGILL,
   SIGTRAP, SIGFPE, SIGSEGV, SIGBUS, SIGSYS (all six, and the seven refined Mach exceptions, are members of their tables);
   anything else is LinuxGeneral, a code outside the table Unknown. *)
Theorem c14_signals_documented : forall c e o, o = OsLinux \/ o = OsAndroid ->
  crash_reason gen_lk o c e =
  (if gen_lk EN_LINUX (e_code e) then
     match linux_refinement (e_code e) with
     | Some (en, f) => if gen_lk en (e_flags e) then (f, [e_flags e]) else (LinuxGeneral, [e_code e; e_flags e])
     | None => (LinuxGeneral, [e_code e; e_flags e])
     end
   else (Unknown, [e_code e; e_flags e])) /\
  forallb (gen_lk EN_LINUX) [4; 5; 7; 8; 11; 31] = true /\ forallb (gen_lk EN_MAC) [1; 2; 3; 5; 6; 11; 12] = true.
Proof.
  intros c e o Ho. split; [|vm_compute; split; reflexivity].
  assert (E : crash_reason gen_lk o c e =
              match linux_reason gen_lk e with Some x => x | None => (Unknown, [e_code e; e_flags e]) end)
    by (destruct Ho; subst o; reflexivity).
  rewrite E. unfold linux_reason, linux_refinement, refine.
  destruct (gen_lk EN_LINUX (e_code e)); cbn [negb]; [|reflexivity].
  split_ifs; reflexivity.
Qed.
Print Assumptions c14_signals_documented.

(* Duplicate thread ids: EVERY thread-list entry that carries the requesting id (and is not the dump-writer thread) starts
   from the exception's context when that is readable - in particular the LAST of them, the one requesting_thread points at. *)
Theorem c14_duplicate_ids_context : forall (d : dump) ec i ti ci,
  exc_ctx d = Some ec ->
  nth_error (d_threads d) i = Some ti -> nth_error (threads_of d) i = Some ci ->
  target_tid d = Some (t_id ti) -> dump_tid d <> Some (t_id ti) ->
  cs_ctx ci = Some (FromException, ec) /\ cs_info ci = CsOk /\
  exists r tr cr, requesting_thread d = Some r /\ (i <= r)%nat /\
    nth_error (d_threads d) r = Some tr /\ t_id tr = t_id ti /\
    nth_error (threads_of d) r = Some cr /\ cs_ctx cr = Some (FromException, ec).
Proof.
  intros d ec i ti ci Hec Hti Hci Htg Hnd. assert (Hel : eligible_prop d ti) by (split; assumption).
  assert (Hctx : forall t, eligible_prop d t -> cs_ctx (stack_of d t) = Some (FromException, ec) /\ cs_info (stack_of d t) = CsOk).
  { intros t He. destruct (stack_of_ctx d t (proj2 He)) as (Hc & _ & Hok & _). specialize (Hc He). rewrite Hec in Hc.
    split; [exact Hc|]. apply Hok. rewrite Hc. discriminate. }
  apply nth_threads_of in Hci. destruct Hci as (t' & Ht' & ->). rewrite Hti in Ht'. injection Ht' as <-.
  split; [apply Hctx, Hel|]. split; [apply Hctx, Hel|].
  pose proof (requesting_spec d) as Hr. destruct (requesting_thread d) as [r|]; [|exfalso; exact (Hr i ti Hti Hel)].
  destruct Hr as ((tr & Hntr & Hetr) & Hlast). exists r, tr, (stack_of d tr). split; [reflexivity|].
  split; [destruct (Nat.le_gt_cases i r) as [H|H]; [exact H|exfalso; exact (Hlast i ti H Hti Hel)]|].
  split; [exact Hntr|]. split; [destruct Hetr, Hel; congruence|]. split; [apply nth_threads_of; eauto|apply Hctx, Hetr].
Qed.
Print Assumptions c14_duplicate_ids_context.

(* /proc/self/status (any length, any number of lines): the process id is the decimal value of the FIRST line whose key is
   "Pid" (0 when it exceeds u32 or there is no such line); lines = the pieces between line feeds. *)
Theorem c14_status_pid : forall pre v post,
  (forall l b, In l (pre ++ (KEY_PID ++ 58 :: 9 :: v) :: post) -> In b l -> b <> 10) ->
  (forall l k w, In l pre -> kv_of_line l = Some (k, w) -> zlist_eqb k KEY_PID = false) ->
  v <> [] -> forallb is_digit v = true ->
  status_pid (join_lines (pre ++ (KEY_PID ++ 58 :: 9 :: v) :: post)) =
    (if dec_value v <=? 4294967295 then dec_value v else 0) /\
  (forall lines, lines <> [] -> (forall l b, In l lines -> In b l -> b <> 10) ->
     (forall l k w, In l lines -> kv_of_line l = Some (k, w) -> zlist_eqb k KEY_PID = false) ->
     status_pid (join_lines lines) = 0).
Proof.
  intros pre v post H1 H2 H3 H4. split.
  2: { intros lines Hne Hnl H. unfold status_pid. rewrite split_join by assumption.
       rewrite <- (app_nil_r lines). apply (pid_of_lines_skip lines [] H). }
  rewrite (status_pid_first_line pre _ post v H1 H2 (kv_pid_line v H3 H4)), parse_u32_digits by assumption.
  destruct (dec_value v <=? 4294967295); reflexivity.
Qed.
Print Assumptions c14_status_pid.

(* The platform tables and flag bits ARE the source: Os::from_platform_id, Cpu::from_processor_architecture, Cpu::pointer_width
   (decision trees regenerated from system_info.rs over the PlatformId / ProcessorArchitecture discriminants of format.rs), the
   raw architectures MinidumpContext::read has an arm for (context.rs), the BreakpadInfoValid bit that guards each thread id in
   MinidumpBreakpadInfo::read and the MiscInfoFlags bit that guards RawMiscInfo::process_id / process_create_time. *)
Theorem c14_platform_is_source :
  (forall id, os_of_platform id = gen_os_of_platform id) /\
  (forall a, cpu_of_arch a = gen_cpu_of_arch a) /\
  (forall c, pointer_width c = gen_pointer_width c) /\
  (forall a, arch_has_context a = gen_arch_has_context a) /\
  forall d : dump,
    dump_tid d = match d_bp d with
                 | Some b => if Z.testbit (b_validity b) GEN_BP_BIT_dump_thread_id then Some (b_dump_tid b) else None
                 | None => None end /\
    req_tid d = match d_bp d with
                | Some b => if Z.testbit (b_validity b) GEN_BP_BIT_requesting_thread_id then Some (b_req_tid b) else None
                | None => None end /\
    process_id d = match d_misc d with
                   | Some m => if Z.testbit (mi_flags1 m) GEN_MISC_BIT_process_id then Some (mi_pid m) else None
                   | None => option_map status_pid (d_status d) end /\
    process_create_time d = match d_misc d with
                            | Some m => if Z.testbit (mi_flags1 m) GEN_MISC_BIT_process_create_time then Some (mi_ctime m) else None
                            | None => None end /\
    (* a Breakpad info / misc info stream is read iff it holds the whole (smallest) structure of format.rs *)
    BREAKPAD_INFO_SIZE = GEN_BREAKPAD_INFO_SIZE /\ MISC_INFO_SIZE = GEN_MISC_INFO_SIZE.
Proof.
  split; [reflexivity|]. split; [reflexivity|]. split; [reflexivity|]. split; [|intro d; repeat split].
  intro a. unfold arch_has_context, gen_arch_has_context. cbn [existsb]. rewrite orb_false_r, !orb_assoc. reflexivity.
Qed.
Print Assumptions c14_platform_is_source.

(* into_process_state IS the source: one iteration of the thread -> CallStack closure (dump-writer thread skipped first and
   keeping its name, `crashing_thread_id.or(requesting_thread_id) == Some(id)`, requesting_thread = Some(i) exactly there,
   `exception_context.or(thread_context)` there and the thread context elsewhere, Ok / MissingContext), the process id / create
   time expressions, MinidumpThread::stack_memory and the choice of the stack memory handed to walk_stack equal the trees translate/c14_reason.py obtains
   by symbolic execution of minidump-processor/src/processor.rs on every run (Gen/C14Process.v). *)
Theorem c14_process_state_is_source : forall d : dump,
  (forall i t req, one_thread d i t req = gen_one_thread d i t req) /\
  (* the whole `.iter().enumerate().map(closure).collect()` with the captured requesting_thread *)
  (forall ts i req, walk_threads d i ts req =
     (fix go (i : nat) (ts : list thread) (req : option nat) : list callstack * option nat :=
        match ts with
        | [] => ([], req)
        | t :: rest => let '(cs, req1) := gen_one_thread d i t req in
                       let '(css, req2) := go (S i) rest req1 in (cs :: css, req2)
        end) i ts req) /\
  process_id d = gen_process_id d /\ process_create_time d = gen_process_create_time d /\
  (forall mems t f, choose_stack mems t f = gen_choose_stack mems t f) /\
  (forall mems t, thread_stack mems t = gen_thread_stack mems t) /\
  (* /proc/self/status: separator, key, first match, the value for `no Pid line` and for `does not parse` *)
  (forall lines, pid_of_lines lines =
                 pid_of_lines_with GEN_STATUS_SEP GEN_STATUS_KEY GEN_STATUS_ABSENT GEN_STATUS_UNPARSEABLE lines).
Proof.
  intro d. split; [intros; apply one_thread_is_source|]. split.
  { induction ts as [|t rest IH]; intros i req; [reflexivity|].
    cbn [walk_threads]. rewrite one_thread_is_source. destruct (gen_one_thread d i t req) as [cs req1].
    rewrite IH. reflexivity. }
  unfold process_id, process_create_time, gen_process_id, gen_process_create_time.
  split; [destruct (d_misc d); reflexivity|]. split; [destruct (d_misc d); reflexivity|].
  split; [intros; apply choose_stack_is_source|]. split; [intros; apply thread_stack_is_source|exact status_consts_are_source].
Qed.
Print Assumptions c14_process_state_is_source.

(* Display for CrashReason: for the 21 variants rendered as "<literal><Debug name of the payload>" the predicted string starts
   with the literal the translator reads from the `Variant(ex) => write!(f, "..{ex:?}")` arm of the source (the Debug names are the
   tables of Gen/C14Names.v). *)
Theorem c14_display_prefix_is_source : forall f p v s,
  In (f, p) GEN_DISPLAY -> f <> WindowsGeneral -> reason_string (f, [v]) = Some s -> exists n, s = p ++ n.
Proof.
  intros f p v s.
  assert (A : Forall (fun fp => fst fp <> WindowsGeneral ->
                                reason_string (fst fp, [v]) = Some s -> exists n, s = snd fp ++ n) GEN_DISPLAY).
  { repeat constructor; cbn [fst snd]; intro Hne; try exact (prefixed_app _ _ v s). contradiction Hne; reflexivity. }
  intro Hin. exact (proj1 (Forall_forall _ _) A (f, p) Hin).
Qed.
Print Assumptions c14_display_prefix_is_source.

(* Mac / iOS: whenever the membership function agrees with the translated name tables, every crash reason has a predicted
   Display string - also EXC_RESOURCE / EXC_GUARD with their bit-field renderings (exc_resource_string, exc_guard_string). *)
Theorem c14_mac_reason_string : forall (lk : Z -> Z -> bool),
  (forall v, lk EN_MAC v = true -> name_of NAMES_ExceptionCodeMac v <> None) ->
  (forall v, lk EN_MAC_KERN v = true -> name_of NAMES_ExceptionCodeMacBadAccessKernType v <> None) ->
  (forall v, lk EN_MAC_ACC_ARM v = true -> name_of NAMES_ExceptionCodeMacBadAccessArmType v <> None) ->
  (forall v, lk EN_MAC_ACC_PPC v = true -> name_of NAMES_ExceptionCodeMacBadAccessPpcType v <> None) ->
  (forall v, lk EN_MAC_ACC_X86 v = true -> name_of NAMES_ExceptionCodeMacBadAccessX86Type v <> None) ->
  (forall v, lk EN_MAC_INS_ARM v = true -> name_of NAMES_ExceptionCodeMacBadInstructionArmType v <> None) ->
  (forall v, lk EN_MAC_INS_PPC v = true -> name_of NAMES_ExceptionCodeMacBadInstructionPpcType v <> None) ->
  (forall v, lk EN_MAC_INS_X86 v = true -> name_of NAMES_ExceptionCodeMacBadInstructionX86Type v <> None) ->
  (forall v, lk EN_MAC_ARI_ARM v = true -> name_of NAMES_ExceptionCodeMacArithmeticArmType v <> None) ->
  (forall v, lk EN_MAC_ARI_PPC v = true -> name_of NAMES_ExceptionCodeMacArithmeticPpcType v <> None) ->
  (forall v, lk EN_MAC_ARI_X86 v = true -> name_of NAMES_ExceptionCodeMacArithmeticX86Type v <> None) ->
  (forall v, lk EN_MAC_SOFTWARE v = true -> name_of NAMES_ExceptionCodeMacSoftwareType v <> None) ->
  (forall v, lk EN_MAC_BRK_ARM v = true -> name_of NAMES_ExceptionCodeMacBreakpointArmType v <> None) ->
  (forall v, lk EN_MAC_BRK_PPC v = true -> name_of NAMES_ExceptionCodeMacBreakpointPpcType v <> None) ->
  (forall v, lk EN_MAC_BRK_X86 v = true -> name_of NAMES_ExceptionCodeMacBreakpointX86Type v <> None) ->
  (forall v, lk EN_MAC_RESOURCE v = true -> name_of NAMES_ExceptionCodeMacResourceType v <> None) ->
  (forall v, lk EN_MAC_GUARD v = true -> name_of NAMES_ExceptionCodeMacGuardType v <> None) ->
  forall c e o, o = OsMac \/ o = OsIos -> reason_string (crash_reason lk o c e) <> None.
Proof. exact mac_reason_string. Qed.
Print Assumptions c14_mac_reason_string.

Example c14_nonvacuous_mac_strings :
  (* EXC_RESOURCE / RESOURCE_TYPE_CPU / FLAVOR_CPU_MONITOR interval: 3s CPU limit: 5% CPU consumed: 7% *)
  reason_string (MacResource, [1; Z.shiftl 1 58 + Z.shiftl 3 7 + 5; 7]) =
    Some (zs "EXC_RESOURCE / RESOURCE_TYPE_CPU / FLAVOR_CPU_MONITOR interval: 3s CPU limit: 5% CPU consumed: 7%") /\
  reason_string (MacGuard, [3; 4294967296 + 9; 18446744073709551615]) =
    Some (zs "EXC_GUARD / GUARD_TYPE_USER/ namespace: 9 guard identifier: 18446744073709551615") /\
  reason_string (MacGuard, [2; 7; 1]) =
    Some (zs "EXC_GUARD / GUARD_TYPE_FD / 0x0000000000000007 / 0x0000000000000001").
Proof. vm_compute. repeat split. Qed.

(* str::parse::<u32> exactly, and the general form of c14_status_pid: the FIRST line whose key - after removing blanks and
   one pair of quotes - is "Pid" decides, whatever it looks like; its value parses iff it is an optional `+` and at least one
   ASCII digit with value <= u32::MAX. *)
Theorem c14_status_pid_first_line : forall pre line post v,
  (forall l b, In l (pre ++ line :: post) -> In b l -> b <> 10) ->
  (forall l k w, In l pre -> kv_of_line l = Some (k, w) -> zlist_eqb k KEY_PID = false) ->
  kv_of_line line = Some (KEY_PID, v) ->
  status_pid (join_lines (pre ++ line :: post)) = match parse_u32 v with Some n => n | None => 0 end /\
  forall n, parse_u32 v = Some n <->
    unsigned_body v <> [] /\ forallb is_digit (unsigned_body v) = true /\ dec_value (unsigned_body v) = n /\ n <= 4294967295.
Proof.
  intros pre line post v H1 H2 H3. split; [apply status_pid_first_line; assumption|intro n; apply parse_u32_spec].
Qed.
Print Assumptions c14_status_pid_first_line.

(* Which values the tables consulted one after the other share, on the regenerated tables: a value in two of them is decided
   by the order of the dispatch, so a NEW enumeration value that shadows a later table changes one
   of these lists.  23 exception codes are also NTSTATUS values, 26 winerror.h values are also NTSTATUS values, no value of the
   three tables is a facility / winerror.h composite, no kernel return code is an architecture-specific EXC_BAD_ACCESS code. *)
Theorem c14_dispatch_overlaps_documented :
  overlap MEM_ExceptionCodeWindows MEM_WinErrorWindows = [] /\
  overlap MEM_ExceptionCodeWindows MEM_NtStatusWindows =
    [2147483649; 2147483650; 2147483651; 2147483652; 3221225477; 3221225478; 3221225480; 3221225501; 3221225509; 3221225510;
     3221225612; 3221225613; 3221225614; 3221225615; 3221225616; 3221225617; 3221225618; 3221225619; 3221225620; 3221225621;
     3221225622; 3221225725; 3221225876] /\
  overlap MEM_WinErrorWindows MEM_NtStatusWindows =
    [0; 1; 2; 3; 63; 128; 191; 192; 255; 259; 266; 267; 275; 276; 277; 278; 288; 298; 299; 300; 301; 302; 303; 304; 514; 534] /\
  filter facility_decomposable (MEM_ExceptionCodeWindows ++ MEM_WinErrorWindows ++ MEM_NtStatusWindows) = [] /\
  overlap MEM_ExceptionCodeMacBadAccessKernType
          (MEM_ExceptionCodeMacBadAccessArmType ++ MEM_ExceptionCodeMacBadAccessPpcType ++ MEM_ExceptionCodeMacBadAccessX86Type) = [].
Proof. exact dispatch_overlaps. Qed.
Print Assumptions c14_dispatch_overlaps_documented.

Example c14_nonvacuous_round5 :
  crash_reason gen_lk OsWindows X86_64
    {| e_tid := 1; e_code := 3221226505; e_flags := 0; e_nparams := 1; e_info0 := 4294967296 + 7; e_info1 := 0; e_info2 := 0;
       e_addr := 0; e_ctx := None |} = (WindowsStackBufferOverrun, [7]) /\
  crash_reason gen_lk OsLinux X86_64
    {| e_tid := 1; e_code := 11; e_flags := 1; e_nparams := 0; e_info0 := 0; e_info1 := 0; e_info2 := 0;
       e_addr := 0; e_ctx := None |} = (LinuxSigsegv, [1]) /\
  (* "Name:\tx\nPid:\t4242\nPPid:\t1\nPid:\t7\n" *)
  status_pid [78; 97; 109; 101; 58; 9; 120; 10; 80; 105; 100; 58; 9; 52; 50; 52; 50; 10; 80; 80; 105; 100; 58; 9; 49; 10;
              80; 105; 100; 58; 9; 55; 10] = 4242 /\
  status_pid [34; 80; 105; 100; 34; 32; 58; 32; 43; 48; 48; 55; 32; 13] = 7 /\     (* "Pid" : +007 \r *)
  status_pid [80; 105; 100; 58; 52; 50; 57; 52; 57; 54; 55; 50; 57; 54] = 0 /\     (* Pid:4294967296 *)
  process_id ex_dump = Some 42 /\
  process_id {| d_platform := 33281; d_arch := 9; d_time := 0; d_threads := []; d_names := []; d_exc := None; d_bp := None;
                d_misc := None; d_status := Some [80; 105; 100; 58; 9; 55; 55; 10]; d_modules := []; d_unloaded := [];
                d_mems := [] |} = Some 77.
Proof. vm_compute. repeat split. Qed.

(* Windows: whenever the name function [nm] (names of the two large tables winerror.h / ntstatus.h) and the translated small name
   tables agree with membership, EVERY crash reason has a predicted Display string - also WinError ("{e:?}"), WinErrorWithFacility
   ("{f:?} / {e:?}"), NtStatus and InPageError ("EXCEPTION_IN_PAGE_ERROR_{a:?} / " + the NTSTATUS name, else {:#010x}).  With
   c14_linux_reason_string and c14_mac_reason_string: all 33 variants. *)
Theorem c14_windows_reason_string : forall (lk : Z -> Z -> bool) (nm : Z -> Z -> option (list Z)),
  (forall v, lk EN_WIN_EXC v = true -> name_of NAMES_ExceptionCodeWindows v <> None) ->
  (forall v, lk EN_WIN_ERROR v = true -> nm EN_WIN_ERROR v <> None) ->
  (forall v, lk EN_WIN_FACILITY v = true -> name_of NAMES_WinErrorFacilityWindows v <> None) ->
  (forall v, lk EN_WIN_ACCESS v = true -> name_of NAMES_ExceptionCodeWindowsAccessType v <> None) ->
  (forall v, lk EN_WIN_INPAGE v = true -> name_of NAMES_ExceptionCodeWindowsInPageErrorType v <> None) ->
  forall c e, reason_string_nm nm (crash_reason lk OsWindows c e) <> None.
Proof. exact windows_reason_string. Qed.
Print Assumptions c14_windows_reason_string.

(* the name function is consulted for those four families only: every other reason renders as reason_string does *)
Theorem c14_reason_string_nm_conservative : forall nm r, reason_string r <> None -> reason_string_nm nm r = reason_string r.
Proof.
  intros nm [f p] H.
  destruct f; try reflexivity; cbn [reason_string] in H;
    repeat (destruct p as [|? p]; try (exfalso; apply H; reflexivity)); reflexivity.
Qed.
Print Assumptions c14_reason_string_nm_conservative.

Example c14_nonvacuous_windows_strings :
  let nm := fun en v => if (en =? EN_WIN_ERROR) && (v =? 5) then Some (zs "ERROR_ACCESS_DENIED")
                        else if (en =? EN_WIN_NTSTATUS) && (v =? 3221225485) then Some (zs "STATUS_INVALID_PARAMETER") else None in
  reason_string_nm nm (WindowsWinError, [5]) = Some (zs "ERROR_ACCESS_DENIED") /\
  reason_string_nm nm (WindowsWinErrorWithFacility, [109; 5]) = Some (zs "FACILITY_VISUALCPP / ERROR_ACCESS_DENIED") /\
  reason_string_nm nm (WindowsNtStatus, [3221225485]) = Some (zs "STATUS_INVALID_PARAMETER") /\
  reason_string_nm nm (WindowsInPageError, [1; 3221225485]) = Some (zs "EXCEPTION_IN_PAGE_ERROR_WRITE / STATUS_INVALID_PARAMETER") /\
  reason_string_nm nm (WindowsInPageError, [8; 3221225486]) = Some (zs "EXCEPTION_IN_PAGE_ERROR_EXEC / 0xc000000e") /\
  reason_string_nm nm (LinuxSigsegv, [1]) = Some (zs "SIGSEGV / SEGV_MAPERR").
Proof. vm_compute. repeat split. Qed.

From RM Require Import C02.Model C02.Proofs4.
From RM Require Import C14.Model C14.Bytes C14.BytesProofs.

(* The dump record the processor works on, computed from the bytes of a serialized dump model (C02: any subset of streams,
   any item counts, either byte order, arbitrary leading directory entries), is the record read off the model directly;
   processing succeeds exactly when the model has a system info and a thread list.  For EVERY CPU-context reader [rc].
   Composition of c02_dump_roundtrip (Minidump::read + get_stream) with MinidumpInfo::new. *)
Theorem c14_bytes_are_the_model : forall rc e m, wf_model e m = true ->
  dump_of_bytes rc (encode_dump e m) = dump_of_model rc e m /\
  (dump_of_model rc e m <> None <-> m_sysinfo m <> None /\ m_threads m <> None).
Proof. intros rc e m H. split; [apply bytes_roundtrip; exact H|apply streams_required]. Qed.
Print Assumptions c14_bytes_are_the_model.

(* "Modules, unloaded modules, process id and times are those of the corresponding streams", end to end from the bytes:
   the state's module list is the module list stream's (base, size) entries in order (all of them: a well-formed model has no
   entry the reader drops), likewise the unloaded modules with their names; the dump time is the header's; process id and
   create time are the misc info's fields under their flag bits, else the first Pid line of the Linux status stream. *)
Theorem c14_bytes_streams : forall rc e m d, wf_model e m = true -> dump_of_bytes rc (encode_dump e m) = Some d ->
  d_time d = m_time m /\
  read_modules (d_modules d) = map module_of (opt_list (m_modules m)) /\
  read_unloaded (d_unloaded d) = map unloaded_of (opt_list (m_unloaded m)) /\
  process_id d = match m_misc m with
                 | Some mi => if Z.testbit (nth 1 (snd mi) 0) 0 then Some (nth 2 (snd mi) 0) else None
                 | None => option_map status_pid (m_lx_status m)
                 end /\
  process_create_time d = match m_misc m with
                          | Some mi => if Z.testbit (nth 1 (snd mi) 0) 1 then Some (nth 3 (snd mi) 0) else None
                          | None => None
                          end.
Proof.
  intros rc e m d Hwf Hd. rewrite (bytes_roundtrip rc e m Hwf) in Hd. apply streams_inv in Hd. destruct Hd as (s & ts & _ & _ & ->).
  destruct (wf_model_parts e m Hwf) as (Hm & Hu & _). cbn [d_modules d_unloaded].
  split; [reflexivity|]. split; [exact (read_modules_wf e _ Hm)|]. split; [exact (read_unloaded_wf _ Hu)|].
  split; apply streams_pid_time.
Qed.
Print Assumptions c14_bytes_streams.

(* one call stack per entry of the thread list stream, in order, with the same ids; the name is the last entry of the thread
   names stream for that id; a stack is marked skipped exactly when its id is the Breakpad info's dump-writer thread id *)
Theorem c14_bytes_threads : forall rc e m d, wf_model e m = true -> dump_of_bytes rc (encode_dump e m) = Some d ->
  map cs_id (threads_of d) = map th_id (opt_list (m_threads m)) /\
  forall i cs, nth_error (threads_of d) i = Some cs ->
    exists t, nth_error (opt_list (m_threads m)) i = Some t /\ cs_id cs = th_id t /\
      cs_name cs = get_name (map tname_of (opt_list (m_tnames m))) (th_id t) /\
      (bp_dump_tid (m_breakpad m) = Some (th_id t) <-> cs_info cs = CsDumpThreadSkipped).
Proof.
  intros rc e m d Hwf Hd. rewrite (bytes_roundtrip rc e m Hwf) in Hd. apply streams_inv in Hd. destruct Hd as (s & ts & _ & -> & ->).
  apply streams_threads.
Qed.
Print Assumptions c14_bytes_threads.

(* The requesting thread, end to end from the bytes: the LAST entry of the thread list stream whose id is the exception
   stream's thread id - else, without an exception stream, the Breakpad info's requesting thread id under its validity bit -
   and is not the Breakpad info's dump-writer thread id (under its own validity bit); none exactly when no entry qualifies
   (exception thread id = dump-writer thread id, id absent from the thread list, neither stream).  Its walk - like that of every
   entry with that id - starts from the exception stream's context when [rc] can read it, else from the thread's own. *)
Theorem c14_bytes_requesting_thread : forall rc e m d, wf_model e m = true -> dump_of_bytes rc (encode_dump e m) = Some d ->
  match requesting_thread d with
  | Some i => (exists t, nth_error (opt_list (m_threads m)) i = Some t /\ named_requesting (m_exception m) (m_breakpad m) t) /\
              forall j t, (i < j)%nat -> nth_error (opt_list (m_threads m)) j = Some t ->
                          ~ named_requesting (m_exception m) (m_breakpad m) t
  | None => forall j t, nth_error (opt_list (m_threads m)) j = Some t -> ~ named_requesting (m_exception m) (m_breakpad m) t
  end /\
  forall s i t cs, m_sysinfo m = Some s ->
    nth_error (opt_list (m_threads m)) i = Some t -> nth_error (threads_of d) i = Some cs ->
    bp_dump_tid (m_breakpad m) <> Some (th_id t) ->
    (named_requesting (m_exception m) (m_breakpad m) t ->
       cs_ctx cs = match opt_and_then (m_exception m) (fun x => read_ctx rc e (si_arch s) (ex_ctx x)) with
                   | Some c => Some (FromException, c)
                   | None => tag_ctx FromThread (read_ctx rc e (si_arch s) (th_ctx t))
                   end) /\
    (~ named_requesting (m_exception m) (m_breakpad m) t ->
       cs_ctx cs = tag_ctx FromThread (read_ctx rc e (si_arch s) (th_ctx t))).
Proof.
  intros rc e m d Hwf Hd. rewrite (bytes_roundtrip rc e m Hwf) in Hd. apply streams_inv in Hd. destruct Hd as (s & ts & Hs & -> & ->).
  split; [apply streams_requesting|]. intros s' i t cs Hs'. rewrite Hs in Hs'. injection Hs' as <-. apply streams_context.
Qed.
Print Assumptions c14_bytes_requesting_thread.

(* Which streams are required and what an unreadable optional stream means is the source's: every (stream type, treatment) pair
   the byte-level model relies on is among the get_stream calls of MinidumpInfo::new as regenerated on every run (`.or(Err(..))?` =
   required, `.ok()` / `if let Ok` = treated as absent, `unwrap_or_else(default)` / `Err(_) => new()` = empty list); and a parsed
   file is processed exactly when the reader serves a system info and a thread list. *)
Theorem c14_stream_policy_is_source :
  forallb (policy_in GEN_STREAM_POLICY) stream_policy = true /\
  forall rc v, dump_of_view rc v <> None <-> (exists s, v_sysinfo v = SOk s) /\ (exists ts, v_threads v = SOk ts).
Proof.
  split; [vm_compute; reflexivity|]. intros rc v.
  assert (S : forall A (r : sres A), sres_opt r <> None <-> exists a, r = SOk a).
  { intros A [| |a]; cbn [sres_opt]; split; try congruence; try (intros [a' H]; discriminate H). intros _. exists a. reflexivity. }
  unfold dump_of_view. rewrite streams_required, !S. reflexivity.
Qed.
Print Assumptions c14_stream_policy_is_source.

(* The same choice for ANY file the reader accepts (not only serialized models: hostile directories, unreadable optional
   streams): in terms of what get_stream serves - an exception / Breakpad info stream that is missing OR unreadable counts as absent. *)
Theorem c14_file_requesting_thread : forall rc bs v d, decode_dump bs = Some v -> dump_of_bytes rc bs = Some d ->
  exists s ts, v_sysinfo v = SOk s /\ v_threads v = SOk ts /\
  let exc := sres_opt (v_exception v) in let bp := sres_opt (v_breakpad v) in
  map cs_id (threads_of d) = map th_id ts /\
  match requesting_thread d with
  | Some i => (exists t, nth_error ts i = Some t /\ named_requesting exc bp t) /\
              forall j t, (i < j)%nat -> nth_error ts j = Some t -> ~ named_requesting exc bp t
  | None => forall j t, nth_error ts j = Some t -> ~ named_requesting exc bp t
  end.
Proof.
  intros rc bs v d Hv Hd. rewrite (bytes_of_view rc bs v Hv) in Hd. apply streams_inv in Hd. destruct Hd as (s & ts & Hs & Ht & ->).
  exists s, ts. split; [apply sres_opt_some, Hs|]. split; [apply sres_opt_some, Ht|]. cbv zeta.
  split; [apply streams_threads|apply streams_requesting].
Qed.
Print Assumptions c14_file_requesting_thread.

(* ... and the rest of the index for ANY accepted file, in terms of the streams the reader serves (an unreadable module / unloaded
   module / thread names stream = an empty one; an unreadable misc info / Breakpad info / status stream = none): dump time, module
   lists (before the reader-independent filtering read_modules / read_unloaded), process id and create time, names, skipped stacks *)
Theorem c14_file_streams : forall rc bs v d, decode_dump bs = Some v -> dump_of_bytes rc bs = Some d ->
  d_time d = v_time v /\
  d_modules d = map module_of (sres_list (v_modules v)) /\
  d_unloaded d = map unloaded_of (sres_list (v_unloaded v)) /\
  process_id d = match sres_opt (v_misc v) with
                 | Some mi => if Z.testbit (nth 1 (snd mi) 0) 0 then Some (nth 2 (snd mi) 0) else None
                 | None => option_map status_pid (sres_opt (v_lx_status v))
                 end /\
  process_create_time d = match sres_opt (v_misc v) with
                          | Some mi => if Z.testbit (nth 1 (snd mi) 0) 1 then Some (nth 3 (snd mi) 0) else None
                          | None => None
                          end /\
  forall i cs, nth_error (threads_of d) i = Some cs ->
    cs_name cs = get_name (map tname_of (sres_list (v_tnames v))) (cs_id cs) /\
    (bp_dump_tid (sres_opt (v_breakpad v)) = Some (cs_id cs) <-> cs_info cs = CsDumpThreadSkipped).
Proof.
  intros rc bs v d Hv Hd. rewrite (bytes_of_view rc bs v Hv) in Hd. apply streams_inv in Hd. destruct Hd as (s & ts & _ & _ & ->).
  split; [reflexivity|]. split; [reflexivity|]. split; [reflexivity|]. split; [apply streams_pid_time|]. split; [apply streams_pid_time|].
  intros i cs Hcs. eapply streams_threads in Hcs. destruct Hcs as (t & _ & -> & Hname & Hskip). split; assumption.
Qed.
Print Assumptions c14_file_streams.

(* unloaded modules with per-frame offsets, end to end from the bytes, both build profiles: the subtraction never traps; a frame
   inside a module of the module list stream lists nothing; otherwise the listed (name, offset) pairs are exactly
   instruction - base for every entry of the unloaded module list stream whose range contains the instruction *)
Theorem c14_bytes_unloaded_offsets : forall rc p e m d x, wf_model e m = true -> dump_of_bytes rc (encode_dump e m) = Some d ->
  0 <= x < two64 ->
  exists l, frame_unloaded p d x = Ret l /\
    (module_at (map module_of (opt_list (m_modules m))) x <> None -> l = []) /\
    (module_at (map module_of (opt_list (m_modules m))) x = None ->
       forall nm off, In (nm, off) l <->
         exists i u r, nth_error (opt_list (m_unloaded m)) i = Some u /\ nm = pack_units (um_name u) /\
                       mk_range (um_base u) (um_size u) = Some r /\ contains r x = true /\ off = x - um_base u) /\
    (forall nm off, In (nm, off) l -> 0 <= off < two64).
Proof.
  intros rc p e m d x Hwf Hd Hx. rewrite (bytes_roundtrip rc e m Hwf) in Hd. apply streams_inv in Hd. destruct Hd as (s & ts & _ & _ & ->).
  destruct (wf_model_parts e m Hwf) as (Hm & Hu & _). set (unl := opt_list (m_unloaded m)) in *.
  match goal with |- exists l, frame_unloaded p ?d0 x = _ /\ _ => set (d := d0) end.
  assert (Hb : forall b s nm, In (b, s, nm) (d_unloaded d) -> 0 <= b).
  { intros b sz nm Hin. apply in_map_iff in Hin. destruct Hin as (u & Heq & Hin). inversion Heq; subst.
    apply (wf_unloaded_good u (proj1 (forallb_forall _ _) Hu u Hin)). }
  destruct (c14_unloaded_offsets p d x Hx Hb) as (l & H1 & H2 & H3 & H4). exists l.
  unfold d in H2, H3. cbn [d_modules d_unloaded] in H2, H3. rewrite (read_modules_wf e _ Hm) in H2, H3. rewrite (read_unloaded_wf _ Hu) in H3.
  split; [exact H1|]. split; [exact H2|]. split; [|exact H4].
  intros Hnone nm off. rewrite (H3 Hnone nm off). fold unl. split.
  - intros (i & b & sz & r & Hn & Hr & Hc & Ho). rewrite nth_error_map in Hn.
    destruct (nth_error unl i) as [u|] eqn:Hu'; [|discriminate Hn]. inversion Hn; subst. exists i, u, r. auto.
  - intros (i & u & r & Hn & -> & Hr & Hc & ->). exists i, (um_base u), (um_size u), r. rewrite nth_error_map, Hn. auto.
Qed.
Print Assumptions c14_bytes_unloaded_offsets.

(* "Crash reason and crash address are the documented functions of the exception record, operating system and CPU", end to end from
   the bytes: OS and CPU are the system info stream's platform id / processor architecture, the record is the exception stream's
   (information[0..2], code, flags, parameter count, address); the crash address is information[1] for a Windows access violation /
   in-page error with at least two parameters, the exception address otherwise, reduced mod 2^32 on 32-bit CPUs - with no range
   hypothesis left: a serialized record has 64-bit fields.  (The crash reason of that record: c14_reason_is_source,
   c14_windows_refinements_documented, c14_signals_documented.) *)
Theorem c14_bytes_crash_address : forall rc e m d s x, wf_model e m = true -> dump_of_bytes rc (encode_dump e m) = Some d ->
  m_sysinfo m = Some s -> m_exception m = Some x ->
  let o := os_of_platform (si_platform s) in let c := cpu_of_arch (si_arch s) in
  let ex := exception_of rc e (si_arch s) x in
  d_platform d = si_platform s /\ d_arch d = si_arch s /\ d_exc d = Some ex /\
  crash_address o c ex =
    (let a := if os_eqb_windows o && ((ex_code x =? 3221225477) || (ex_code x =? 3221225478)) && (2 <=? ex_nparams x)
              then nth 1 (ex_info x) 0 else ex_address x in
     match pointer_width c with W32 => a mod two32 | _ => a end) /\
  0 <= crash_address o c ex < two64.
Proof.
  intros rc e m d s x Hwf Hd Hs Hx. rewrite (bytes_roundtrip rc e m Hwf) in Hd. apply streams_inv in Hd.
  destruct Hd as (s' & ts & Hs' & _ & ->). rewrite Hs in Hs'. injection Hs' as <-.
  intros o c ex. cbn [d_platform d_arch d_exc]. rewrite Hx. split; [reflexivity|]. split; [reflexivity|]. split; [reflexivity|].
  destruct (wf_model_parts e m Hwf) as (_ & _ & Hwx). rewrite Hx in Hwx. exact (crash_address_wf rc e _ o c x Hwx).
Qed.
Print Assumptions c14_bytes_crash_address.

(* What the index depends on: two serialized dump models with the same header time and the same streams (system info, thread
   list, thread names, exception, Breakpad info, misc info, Linux status, module list, unloaded module list, the two memory lists)
   are processed to the same record - whatever their leading (decoy / duplicate) directory entries, list padding, header version /
   checksum / flags, memory info, assertion, thread info, handle and other Linux streams. *)
Theorem c14_bytes_depend_on_streams : forall rc e m1 m2, wf_model e m1 = true -> wf_model e m2 = true ->
  m_time m1 = m_time m2 -> m_sysinfo m1 = m_sysinfo m2 -> m_threads m1 = m_threads m2 -> m_tnames m1 = m_tnames m2 ->
  m_exception m1 = m_exception m2 -> m_breakpad m1 = m_breakpad m2 -> m_misc m1 = m_misc m2 -> m_lx_status m1 = m_lx_status m2 ->
  m_modules m1 = m_modules m2 -> m_unloaded m1 = m_unloaded m2 -> m_memory m1 = m_memory m2 -> m_memory64 m1 = m_memory64 m2 ->
  dump_of_bytes rc (encode_dump e m1) = dump_of_bytes rc (encode_dump e m2).
Proof.
  intros rc e m1 m2 W1 W2 H1 H2 H3 H4 H5 H6 H7 H8 H9 H10 H11 H12. rewrite (bytes_roundtrip rc e m1 W1), (bytes_roundtrip rc e m2 W2).
  unfold dump_of_model, unified_model. rewrite H1, H2, H3, H4, H5, H6, H7, H8, H9, H10, H11, H12. reflexivity.
Qed.
Print Assumptions c14_bytes_depend_on_streams.

(* The context reader of the correspondence run finds ip / sp by FIELD NAME in the context structures as format.rs declares them
   (layouts and field names regenerated on every run): eip / esp of CONTEXT_X86, rip / rsp of CONTEXT_AMD64, iregs[15] / iregs[13] of CONTEXT_ARM, pc / sp of both ARM64 contexts, epc / iregs[29]
   of CONTEXT_MIPS, srr0 / gpr[1] of CONTEXT_PPC and CONTEXT_PPC64, pc / g_r[14] of CONTEXT_SPARC; a reordered or resized field breaks
   this theorem (the extracted positions, Bytes.ctx_regs, are numbers).  The reader covers exactly the architectures MinidumpContext::read has an
   arm for (arch_has_context, itself regenerated from context.rs: c14_platform_is_source). *)
Theorem c14_context_registers_by_name :
  (forall arch, ctx_regs arch = ctx_regs_named arch) /\
  (forall arch, ctx_regs arch <> None <-> arch_has_context arch = true).
Proof. split; [exact ctx_regs_by_name|exact ctx_regs_covers]. Qed.
Print Assumptions c14_context_registers_by_name.

(* Byte order: the same dump model written little- or big-endian is processed to the same record up to the CPU contexts (byte-order
   specific blobs, interpreted by [rc]) - and the contexts do not enter the requesting thread, the ids and names of the call stacks,
   process id / create time, crash reason and crash address (nor, trivially, times and module lists). *)
Theorem c14_bytes_byte_order_independent : forall rc m, wf_model LE m = true -> wf_model BE m = true ->
  option_map forget_ctx (dump_of_bytes rc (encode_dump LE m)) = option_map forget_ctx (dump_of_bytes rc (encode_dump BE m)) /\
  forall d,
    requesting_thread (forget_ctx d) = requesting_thread d /\
    map cs_id (threads_of (forget_ctx d)) = map cs_id (threads_of d) /\
    map cs_name (threads_of (forget_ctx d)) = map cs_name (threads_of d) /\
    process_id (forget_ctx d) = process_id d /\ process_create_time (forget_ctx d) = process_create_time d /\
    (forall lk o c x, crash_reason lk o c (forget_exc_ctx x) = crash_reason lk o c x /\
                      crash_address o c (forget_exc_ctx x) = crash_address o c x).
Proof.
  intros rc m H1 H2. split; [rewrite (bytes_roundtrip rc LE m H1), (bytes_roundtrip rc BE m H2); apply model_forget_ctx|].
  intro d. split; [|split; [|split]].
  - unfold requesting_thread. rewrite !walk_threads_eq. cbn [snd forget_ctx d_threads]. rewrite forget_last_eligible. reflexivity.
  - rewrite !(proj1 (proj2 (c14_threads_one_to_one _))). cbn [forget_ctx d_threads]. rewrite map_map. reflexivity.
  - rewrite !threads_of_map. cbn [forget_ctx d_threads]. rewrite !map_map. apply map_ext. intro t.
    unfold stack_of, one_thread. rewrite forget_target_tid. cbn [t_id forget_thread_ctx].
    change (dump_tid (forget_ctx d)) with (dump_tid d). destruct (oz_eqb (dump_tid d) (t_id t)); reflexivity.
  - split; [reflexivity|]. split; [reflexivity|]. intros lk o c x. destruct x. split; reflexivity.
Qed.
Print Assumptions c14_bytes_byte_order_independent.

(* "Stack memory chosen to contain the context's stack pointer", end to end from the bytes, for a thread whose stack descriptor is
   null (full-dump / Memory64 layout): the regions are those get_memory() serves - the Memory64List when the model has one, else the
   MemoryList -, the thread's own memory is the region at start_of_memory_range; the walk keeps it when 8 bytes are readable there at
   the starting context's stack pointer, else takes the region containing the stack pointer, else keeps the own one. *)
Theorem c14_bytes_stack_memory : forall rc e m d s t, wf_model e m = true -> dump_of_bytes rc (encode_dump e m) = Some d ->
  m_sysinfo m = Some s -> th_stack t = None ->
  let regs := map region_of (unified_model m) in
  let own := mem_at regs (th_stack_base t) in
  d_mems d = regs /\
  forall src c,
    ((exists k, own = Some k /\ readable_u64 regs k (c_sp c) = true) ->
       choose_stack (d_mems d) (thread_of rc e (si_arch s) t) (Some (src, c)) = own) /\
    (~ (exists k, own = Some k /\ readable_u64 regs k (c_sp c) = true) ->
       choose_stack (d_mems d) (thread_of rc e (si_arch s) t) (Some (src, c)) =
         match mem_at regs (c_sp c) with Some k => Some k | None => own end) /\
    choose_stack (d_mems d) (thread_of rc e (si_arch s) t) None = own.
Proof.
  intros rc e m d s t Hwf Hd _ _. rewrite (bytes_roundtrip rc e m Hwf) in Hd. apply streams_inv in Hd. destruct Hd as (s' & ts & _ & _ & ->).
  intros regs own. split; [reflexivity|]. intros src c. exact (c14_stack_memory_choice regs (thread_of rc e (si_arch s) t) src c).
Qed.
Print Assumptions c14_bytes_stack_memory.

(* names are kept apart: the integer a UTF-16 name is carried as determines the name *)
Theorem c14_names_injective : forall u1 u2,
  Forall (fun x => 0 <= x < 65536) u1 -> Forall (fun x => 0 <= x < 65536) u2 -> pack_units u1 = pack_units u2 -> u1 = u2.
Proof.
  assert (Hnn : forall u, Forall (fun x => 0 <= x < 65536) u -> 0 <= pack_units u).
  { induction 1 as [|x u Hx _ IH]; cbn [pack_units fold_right]; [lia|]. fold (pack_units u). lia. }
  induction u1 as [|x u1 IH]; intros [|y u2] H1 H2 He; [reflexivity| | |];
    try (inversion H1 as [|? ? Hx H1']; subst; pose proof (Hnn u1 H1'));
    try (inversion H2 as [|? ? Hy H2']; subst; pose proof (Hnn u2 H2'));
    cbn [pack_units fold_right] in He; try fold (pack_units u1) in *; try fold (pack_units u2) in *; try lia.
  (* both units are below the base 65537 *)
  assert (x = y /\ pack_units u1 = pack_units u2) as [-> Hq] by lia.
  f_equal. apply IH; assumption.
Qed.
Print Assumptions c14_names_injective.

(* ---- non-vacuity: an ARM / Linux dump model (3 threads, ids 5 9 7; exception on thread 7; Breakpad info: dump-writer 9,
   requesting 5, both valid; misc info with the process-id flag only; 2 modules; 2 overlapping unloaded modules; names for 7
   twice) is well formed in both byte orders, and the bytes the serializer writes for it are processed to: *)
Definition bx_ctx (pc sp : Z) : list Z :=
  flat_map (enc_uint LE 4) ([1073741826] ++ repeat 0 13 ++ [sp; 0; pc; 0]) ++ repeat 0 296.
Definition bx_thread (id pc sp : Z) : mthread :=
  {| th_id := id; th_suspend := 0; th_pclass := 0; th_prio := 0; th_teb := 0; th_stack_base := sp;
     th_stack := None; th_ctx := Some (bx_ctx pc sp) |}.
Definition bx_module (b s : Z) : mmodule :=
  {| md_base := b; md_size := s; md_checksum := 0; md_time := 0; md_name := [109]; md_ver := repeat 0 13; md_cv := CvNone;
     md_misc := (0, 0); md_res := [0; 0; 0; 0] |}.
Definition bx_with (exc_tid : option Z) (bp : option (list Z)) : model :=
  {| m_version := 42899; m_checksum := 0; m_time := 1262805309; m_flags := 0; m_extra_dir := []; m_pad_lists := false;
     m_sysinfo := Some {| si_arch := 5; si_level := 0; si_revision := 0; si_nproc := 1; si_ptype := 0; si_major := 0; si_minor := 0;
                          si_build := 0; si_platform := 33281; si_suite := 0; si_reserved2 := 0; si_cpu := repeat 0 24; si_csd := Some [] |};
     m_threads := Some [bx_thread 5 4096 65536; bx_thread 9 8192 65600; bx_thread 7 20500 65700];
     m_modules := Some [bx_module 4096 4096; bx_module 1879048192 65536];
     m_memory := Some [ {| mr_base := 65536; mr_bytes := repeat 7 256 |}; {| mr_base := 65792; mr_bytes := repeat 9 64 |} ]; m_memory64 := None;
     m_exception := match exc_tid with None => None | Some tid => Some {| ex_thread_id := tid; ex_align := 0; ex_code := 11; ex_flags := 1; ex_record := 0; ex_address := 3735928559;
                            ex_nparams := 0; ex_align2 := 0; ex_info := repeat 0 15; ex_ctx := Some (bx_ctx 20480 65800) |} end;
     m_tnames := Some [(7, [110; 49]); (5, [110; 50]); (7, [110; 51])];
     m_unloaded := Some [ {| um_base := 20000; um_size := 1000; um_checksum := 0; um_time := 0; um_name := [117; 49] |};
                          {| um_base := 20400; um_size := 4096; um_checksum := 0; um_time := 0; um_name := [117; 50] |} ];
     m_meminfo := None;
     m_misc := Some (1, [24; 1; 4242; 77; 0; 0]);
     m_breakpad := bp;
     m_assertion := None; m_thread_info := None; m_lx_cpuinfo := None;
     m_lx_status := Some [80; 105; 100; 58; 9; 55; 10];
     m_lx_lsb := None; m_lx_environ := None; m_lx_maps := None; m_lx_limits := None; m_handles := None |}.
Definition bx_model : model := bx_with (Some 7) (Some [3; 9; 5]).
(* the exception thread IS the dump-writer thread: no requesting thread; no exception stream: the Breakpad info's requesting id
   (thread 5, index 0) - unless its validity bit is clear; big-endian bytes give the same index *)
Example c14_nonvacuous_bytes_requesting :
  option_map requesting_thread (dump_of_bytes ctx_of_bytes (encode_dump LE (bx_with (Some 9) (Some [3; 9; 5])))) = Some None /\
  option_map requesting_thread (dump_of_bytes ctx_of_bytes (encode_dump LE (bx_with None (Some [3; 9; 5])))) = Some (Some 0%nat) /\
  option_map requesting_thread (dump_of_bytes ctx_of_bytes (encode_dump LE (bx_with None (Some [1; 9; 5])))) = Some None /\
  option_map requesting_thread (dump_of_bytes ctx_of_bytes (encode_dump LE (bx_with (Some 9) (Some [2; 9; 5])))) = Some (Some 1%nat) /\
  option_map requesting_thread (dump_of_bytes ctx_of_bytes (encode_dump BE (bx_with (Some 7) None))) = Some (Some 2%nat) /\
  option_map requesting_thread (dump_of_bytes ctx_of_bytes (encode_dump LE (bx_with (Some 4) None))) = Some None.
Proof. vm_compute. repeat split. Qed.
Example c14_nonvacuous_bytes :
  wf_model LE bx_model = true /\ wf_model BE bx_model = true /\
  match dump_of_bytes ctx_of_bytes (encode_dump LE bx_model) with
  | Some d =>
      map cs_id (threads_of d) = [5; 9; 7] /\
      map cs_name (threads_of d) = [Some (pack_units [110; 50]); None; Some (pack_units [110; 51])] /\
      map cs_info (threads_of d) = [CsOk; CsDumpThreadSkipped; CsOk] /\
      requesting_thread d = Some 2%nat /\
      map cs_ctx (threads_of d) = [Some (FromThread, {| c_ip := 4096; c_sp := 65536 |}); None;
                                   Some (FromException, {| c_ip := 20480; c_sp := 65800 |})] /\
      process_id d = Some 4242 /\ process_create_time d = None /\ d_time d = 1262805309 /\
      read_modules (d_modules d) = [(4096, 4096); (1879048192, 65536)] /\
      frame_unloaded Debug d 20480 = Ret [(pack_units [117; 49], 480); (pack_units [117; 50], 80)] /\
      frame_unloaded Release d 4100 = Ret [] /\
      (* null stack descriptors: thread 5 keeps the region at its start_of_memory_range (sp 65536 readable there); the walk of
         thread 7 starts at the exception's sp 65800, which lies in the SECOND region *)
      d_mems d = [(65536, 256); (65792, 64)] /\
      map (fun tc => choose_stack (d_mems d) (fst tc) (cs_ctx (snd tc))) (combine (d_threads d) (threads_of d)) = [Some 0; Some 0; Some 1]
  | None => False
  end.
Proof. vm_compute. repeat split. Qed.
