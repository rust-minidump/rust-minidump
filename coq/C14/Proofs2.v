(* C14/Proofs2.v — /proc/self/status -> Pid (lines, the first "Pid" key, str::parse::<u32>); every reason of the Mac and
   Windows dispatch has a string. *)
From Coq Require Import Lia.
From Coq Require String Ascii.
From RM Require Import C14.Model C14.Proofs.
Open Scope Z_scope.

(* string literals for the Examples of Properties.v (not part of the extracted model) *)
Fixpoint zs (s : String.string) : list Z :=
  match s with
  | String.EmptyString => []
  | String.String c r => Z.of_nat (Ascii.nat_of_ascii c) :: zs r
  end.
Arguments zs s%string_scope.

(* lines without the key are passed over: the Pid is decided by the FIRST line that has a key "Pid" *)
Lemma pid_of_lines_skip l1 rest :
  (forall l k w, In l l1 -> kv_of_line l = Some (k, w) -> zlist_eqb k KEY_PID = false) ->
  pid_of_lines (l1 ++ rest) = pid_of_lines rest.
Proof.
  induction l1 as [|a l1 IH]; intro Hpre; cbn [app pid_of_lines]; [reflexivity|].
  assert (IH' : pid_of_lines (l1 ++ rest) = pid_of_lines rest) by (apply IH; intros l k w Hin; apply Hpre; right; exact Hin).
  destruct (kv_of_line a) as [[k w]|] eqn:Ea; [rewrite (Hpre a k w (or_introl eq_refl) Ea)|]; exact IH'.
Qed.

(* lines: splitting the text at every line feed inverts joining lines that contain none *)
Fixpoint join_lines (ls : list (list Z)) : list Z :=
  match ls with [] => [] | [l] => l | l :: rest => l ++ 10 :: join_lines rest end.

Lemma split_on_app_nosep sep l rest : Forall (fun b => b <> sep) l ->
  split_on sep (l ++ sep :: rest) = l :: split_on sep rest.
Proof.
  induction 1 as [|b l Hb _ IH]; cbn [app split_on]; [rewrite Z.eqb_refl; reflexivity|].
  rewrite (proj2 (Z.eqb_neq _ _) Hb), IH. reflexivity.
Qed.
Lemma split_on_nosep sep l : Forall (fun b => b <> sep) l -> split_on sep l = [l].
Proof.
  induction 1 as [|b l Hb _ IH]; cbn [split_on]; [reflexivity|]. rewrite (proj2 (Z.eqb_neq _ _) Hb), IH. reflexivity.
Qed.
Lemma split_join ls : ls <> [] ->
  (forall l b, In l ls -> In b l -> b <> 10) -> split_on 10 (join_lines ls) = ls.
Proof.
  induction ls as [|l rest IH]; intros Hne H; [congruence|].
  assert (Hl : Forall (fun b => b <> 10) l) by (apply Forall_forall; intros b Hb; exact (H l b (or_introl eq_refl) Hb)).
  destruct rest as [|l' rest']; [exact (split_on_nosep 10 l Hl)|].
  change (join_lines (l :: l' :: rest')) with (l ++ 10 :: join_lines (l' :: rest')).
  rewrite (split_on_app_nosep 10 l _ Hl), IH; [reflexivity|discriminate|]. intros l0 b Hin. apply H. right. exact Hin.
Qed.

(* ANY first line with the key (blanks, quotes, sign included) decides *)
Lemma status_pid_first_line pre line post v :
  (forall l b, In l (pre ++ line :: post) -> In b l -> b <> 10) ->
  (forall l k w, In l pre -> kv_of_line l = Some (k, w) -> zlist_eqb k KEY_PID = false) ->
  kv_of_line line = Some (KEY_PID, v) ->
  status_pid (join_lines (pre ++ line :: post)) = match parse_u32 v with Some n => n | None => 0 end.
Proof.
  intros Hnl Hpre Hline. unfold status_pid. rewrite split_join; [|destruct pre; discriminate|exact Hnl].
  rewrite (pid_of_lines_skip pre _ Hpre). cbn [pid_of_lines]. rewrite Hline. reflexivity.
Qed.

Definition dec_step (a b : Z) : Z := a * 10 + (b - 48).
Definition dec_value (s : list Z) : Z := fold_left dec_step s 0.
Lemma is_digit_range b : is_digit b = true -> 48 <= b <= 57.
Proof. unfold is_digit. intro H. apply andb_prop in H. destruct H as [H1 H2]. apply Z.leb_le in H1, H2. lia. Qed.
Lemma fold_dec_mono s : forall acc, 0 <= acc -> forallb is_digit s = true -> acc <= fold_left dec_step s acc.
Proof.
  induction s as [|b s IH]; intros acc Hacc Hd; cbn [fold_left]; [lia|].
  cbn [forallb] in Hd. apply andb_prop in Hd. destruct Hd as [Hb Hs]. apply is_digit_range in Hb.
  assert (acc <= dec_step acc b) by (unfold dec_step; lia).
  specialize (IH (dec_step acc b) ltac:(lia) Hs). lia.
Qed.
(* the checked accumulation succeeds exactly on digits whose value fits: once above u32 the value stays above *)
Lemma digits_value_eq s : forall acc, 0 <= acc <= 4294967295 ->
  digits_value acc s = if forallb is_digit s && (fold_left dec_step s acc <=? 4294967295)
                       then Some (fold_left dec_step s acc) else None.
Proof.
  induction s as [|b s IH]; intros acc Hacc; cbn [digits_value forallb fold_left andb].
  - destruct (acc <=? 4294967295) eqn:E; [reflexivity|apply Z.leb_gt in E; lia].
  - destruct (is_digit b) eqn:Hb; cbn [andb]; [|reflexivity]. pose proof (is_digit_range b Hb) as Hr. fold (dec_step acc b).
    destruct (dec_step acc b <=? 4294967295) eqn:E.
    + apply Z.leb_le in E. apply IH. unfold dec_step in *. lia.
    + destruct (forallb is_digit s) eqn:Hs; cbn [andb]; [|reflexivity]. apply Z.leb_gt in E.
      pose proof (fold_dec_mono s (dec_step acc b) ltac:(unfold dec_step; lia) Hs).
      destruct (_ <=? _) eqn:E2; [apply Z.leb_le in E2; lia|reflexivity].
Qed.

Definition unsigned_body (s : list Z) : list Z := match s with 43 :: r => r | _ => s end.
Lemma parse_u32_spec s n :
  parse_u32 s = Some n <->
  unsigned_body s <> [] /\ forallb is_digit (unsigned_body s) = true /\
  dec_value (unsigned_body s) = n /\ n <= 4294967295.
Proof.
  unfold parse_u32. fold (unsigned_body s). destruct (unsigned_body s) as [|b r]; [split; [discriminate|intros [H _]; congruence]|].
  rewrite digits_value_eq by lia. fold (dec_value (b :: r)).
  destruct (forallb is_digit (b :: r)); cbn [andb]; [|split; [discriminate|intros (_ & H & _); discriminate H]].
  destruct (dec_value (b :: r) <=? 4294967295) eqn:L.
  - apply Z.leb_le in L. split; [intro H; inversion H; subst n; repeat split; (discriminate || assumption)|].
    intros (_ & _ & <- & _). reflexivity.
  - apply Z.leb_gt in L. split; [discriminate|]. intros (_ & _ & <- & Hle). lia.
Qed.
Lemma parse_u32_digits s : s <> [] -> forallb is_digit s = true ->
  parse_u32 s = if dec_value s <=? 4294967295 then Some (dec_value s) else None.
Proof.
  intros Hne Hd. destruct s as [|b r]; [congruence|].
  (* a digit is not the sign *)
  assert (E : unsigned_body (b :: r) = b :: r).
  { assert (Hb : 48 <= b <= 57) by (cbn [forallb] in Hd; apply andb_prop in Hd; apply is_digit_range, Hd).
    unfold unsigned_body. destruct b as [|q|q]; try reflexivity. repeat (destruct q as [q|q|]; try reflexivity). lia. }
  unfold parse_u32, dec_value. fold (unsigned_body (b :: r)). rewrite E, digits_value_eq, Hd by lia. reflexivity.
Qed.

Lemma digit_not_ws b : is_digit b = true -> is_ws b = false.
Proof.
  intro H. apply is_digit_range in H. unfold is_ws.
  repeat (apply Bool.orb_false_intro); apply Z.eqb_neq; lia.
Qed.
Lemma trim_front_digit b r : is_ws b = false -> trim_front (b :: r) = b :: r.
Proof. intro H. cbn [trim_front]. rewrite H. reflexivity. Qed.
Lemma strip_quotes_tab_digits v : v <> [] -> forallb is_digit v = true -> strip_quotes (9 :: v) = v.
Proof.
  intros Hne Hd. unfold strip_quotes, trim. cbn [trim_front]. change (is_ws 9) with true. cbv iota.
  destruct v as [|b r]; [congruence|].
  assert (Hb : is_digit b = true) by (cbn [forallb] in Hd; apply andb_prop in Hd; tauto).
  rewrite (trim_front_digit b r (digit_not_ws b Hb)).
  (* the last byte is a digit too *)
  destruct (rev (b :: r)) as [|z zs] eqn:Er.
  { exfalso. apply (f_equal (@length Z)) in Er. rewrite rev_length in Er. discriminate Er. }
  assert (Hz : is_digit z = true).
  { assert (In z (b :: r)) by (apply in_rev; rewrite Er; left; reflexivity).
    rewrite forallb_forall in Hd. apply Hd. assumption. }
  rewrite (trim_front_digit z zs (digit_not_ws z Hz)). rewrite <- Er, rev_involutive.
  apply is_digit_range in Hb. destruct b as [|p|p]; try lia.
  repeat (destruct p as [p|p|]; try reflexivity; try lia).
Qed.
Lemma split_once_pid rest : (forall b, In b KEY_PID -> b <> 58) -> split_once 58 (KEY_PID ++ 58 :: rest) = Some (KEY_PID, rest).
Proof. intros _. reflexivity. Qed.
(* a well-formed line "Pid:<TAB>digits" *)
Lemma kv_pid_line v : v <> [] -> forallb is_digit v = true ->
  kv_of_line (KEY_PID ++ 58 :: 9 :: v) = Some (KEY_PID, v).
Proof.
  intros Hne Hd. unfold kv_of_line. change (split_once 58 (KEY_PID ++ 58 :: 9 :: v)) with (Some (KEY_PID, 9 :: v)).
  cbv beta iota. rewrite (strip_quotes_tab_digits v Hne Hd). reflexivity.
Qed.

Section MacStrings.
Variable lk : Z -> Z -> bool.
Hypothesis Hmac : forall v, lk EN_MAC v = true -> name_of NAMES_ExceptionCodeMac v <> None.
Hypothesis Hkern : forall v, lk EN_MAC_KERN v = true -> name_of NAMES_ExceptionCodeMacBadAccessKernType v <> None.
Hypothesis Haa : forall v, lk EN_MAC_ACC_ARM v = true -> name_of NAMES_ExceptionCodeMacBadAccessArmType v <> None.
Hypothesis Hap : forall v, lk EN_MAC_ACC_PPC v = true -> name_of NAMES_ExceptionCodeMacBadAccessPpcType v <> None.
Hypothesis Hax : forall v, lk EN_MAC_ACC_X86 v = true -> name_of NAMES_ExceptionCodeMacBadAccessX86Type v <> None.
Hypothesis Hia : forall v, lk EN_MAC_INS_ARM v = true -> name_of NAMES_ExceptionCodeMacBadInstructionArmType v <> None.
Hypothesis Hip : forall v, lk EN_MAC_INS_PPC v = true -> name_of NAMES_ExceptionCodeMacBadInstructionPpcType v <> None.
Hypothesis Hix : forall v, lk EN_MAC_INS_X86 v = true -> name_of NAMES_ExceptionCodeMacBadInstructionX86Type v <> None.
Hypothesis Hra : forall v, lk EN_MAC_ARI_ARM v = true -> name_of NAMES_ExceptionCodeMacArithmeticArmType v <> None.
Hypothesis Hrp : forall v, lk EN_MAC_ARI_PPC v = true -> name_of NAMES_ExceptionCodeMacArithmeticPpcType v <> None.
Hypothesis Hrx : forall v, lk EN_MAC_ARI_X86 v = true -> name_of NAMES_ExceptionCodeMacArithmeticX86Type v <> None.
Hypothesis Hsw : forall v, lk EN_MAC_SOFTWARE v = true -> name_of NAMES_ExceptionCodeMacSoftwareType v <> None.
Hypothesis Hba : forall v, lk EN_MAC_BRK_ARM v = true -> name_of NAMES_ExceptionCodeMacBreakpointArmType v <> None.
Hypothesis Hbp : forall v, lk EN_MAC_BRK_PPC v = true -> name_of NAMES_ExceptionCodeMacBreakpointPpcType v <> None.
Hypothesis Hbx : forall v, lk EN_MAC_BRK_X86 v = true -> name_of NAMES_ExceptionCodeMacBreakpointX86Type v <> None.
Hypothesis Hres : forall v, lk EN_MAC_RESOURCE v = true -> name_of NAMES_ExceptionCodeMacResourceType v <> None.
Hypothesis Hgrd : forall v, lk EN_MAC_GUARD v = true -> name_of NAMES_ExceptionCodeMacGuardType v <> None.

Lemma mac_general_some code flags : name_of NAMES_ExceptionCodeMac code <> None ->
  reason_string (MacGeneral, [code; flags]) <> None.
Proof.
  intro H. cbn [reason_string]. destruct (name_of NAMES_ExceptionCodeMac code) as [n|]; [|congruence].
  destruct (str_eqb n S_SIMULATED); discriminate.
Qed.

Lemma resource_some ty a b : name_of NAMES_ExceptionCodeMacResourceType ty <> None ->
  reason_string (MacResource, [ty; a; b]) <> None.
Proof. intro H. cbn [reason_string]. unfold exc_resource_string. destruct (name_of NAMES_ExceptionCodeMacResourceType ty); [discriminate|congruence]. Qed.
Lemma guard_some ty a b : name_of NAMES_ExceptionCodeMacGuardType ty <> None ->
  reason_string (MacGuard, [ty; a; b]) <> None.
Proof. intro H. cbn [reason_string]. unfold exc_guard_string. destruct (name_of NAMES_ExceptionCodeMacGuardType ty); [discriminate|congruence]. Qed.

Lemma mac_reason_string c e o : o = OsMac \/ o = OsIos ->
  reason_string (crash_reason lk o c e) <> None.
Proof.
  intro Ho. assert (E : crash_reason lk o c e =
                        match mac_reason lk c e with Some x => x | None => (Unknown, [e_code e; e_flags e]) end)
    by (destruct Ho; subst o; reflexivity).
  rewrite E. unfold mac_reason. destruct (lk EN_MAC (e_code e)) eqn:L; cbn [negb]; [|discriminate].
  pose proof (mac_general_some (e_code e) (e_flags e) (Hmac _ L)) as G.
  (* by exception type, and by CPU where the dispatch looks at it: the general reason or a refinement of it *)
  destruct (e_code e =? 1).
  { destruct (lk EN_MAC_KERN (e_flags e)) eqn:K; [cbn [reason_string]; apply prefixed_some, Hkern, K|]. destruct c; refined G. }
  destruct (e_code e =? 2); [destruct c; refined G|]. destruct (e_code e =? 3); [destruct c; refined G|].
  destruct (e_code e =? 5); [refined G|]. destruct (e_code e =? 6); [destruct c; refined G|].
  destruct (e_code e =? 11); [destruct (lk EN_MAC_RESOURCE _) eqn:K; [apply resource_some; auto|exact G]|].
  destruct (e_code e =? 12); [destruct (lk EN_MAC_GUARD _) eqn:K; [apply guard_some; auto|exact G]|exact G].
Qed.
End MacStrings.

Section WindowsStrings.
Variable lk : Z -> Z -> bool.
Variable nm : Z -> Z -> option (list Z).
Hypothesis Hexc : forall v, lk EN_WIN_EXC v = true -> name_of NAMES_ExceptionCodeWindows v <> None.
Hypothesis Herr : forall v, lk EN_WIN_ERROR v = true -> nm EN_WIN_ERROR v <> None.
Hypothesis Hfac : forall v, lk EN_WIN_FACILITY v = true -> name_of NAMES_WinErrorFacilityWindows v <> None.
Hypothesis Hacc : forall v, lk EN_WIN_ACCESS v = true -> name_of NAMES_ExceptionCodeWindowsAccessType v <> None.
Hypothesis Hinp : forall v, lk EN_WIN_INPAGE v = true -> name_of NAMES_ExceptionCodeWindowsInPageErrorType v <> None.

Lemma windows_general_some code : lk EN_WIN_EXC code = true -> reason_string_nm nm (WindowsGeneral, [code]) <> None.
Proof.
  intro H. cbn [reason_string_nm reason_string]. destruct (name_of NAMES_ExceptionCodeWindows code) eqn:E; [|exfalso; exact (Hexc _ H E)].
  repeat match goal with |- context [if ?b then _ else _] => destruct b end; discriminate.
Qed.

Lemma windows_reason_string c e : reason_string_nm nm (crash_reason lk OsWindows c e) <> None.
Proof.
  change (crash_reason lk OsWindows c e) with (windows_reason lk e). rewrite windows_reason_eq. cbv zeta.
  repeat match goal with
         | |- context [if ?b then _ else _] => destruct b eqn:?
         end; try (apply windows_general_some; assumption); cbn [reason_string_nm reason_string]; try discriminate.
  (* left: the four families whose text needs a name that only the hypotheses provide *)
  - (* WindowsAccessViolation *)
    match goal with Hgate : _ && lk EN_WIN_ACCESS _ = true |- _ => apply andb_true_iff in Hgate; apply prefixed_some, Hacc, Hgate end.
  - (* WindowsInPageError *)
    match goal with Hgate : _ && lk EN_WIN_INPAGE _ = true |- _ =>
      apply andb_true_iff in Hgate; destruct (name_of _ _) eqn:N; [discriminate|exfalso; exact (Hinp _ (proj2 Hgate) N)] end.
  - (* WindowsWinError *)
    match goal with Hmem : lk EN_WIN_ERROR (e_code e) = true |- _ => exact (Herr _ Hmem) end.
  - (* WindowsWinErrorWithFacility *)
    match goal with Hgate : _ && lk EN_WIN_FACILITY _ && lk EN_WIN_ERROR _ = true |- _ =>
      apply andb_true_iff in Hgate; destruct Hgate as [Hfacility Hcode]; apply andb_true_iff in Hfacility;
      destruct (name_of _ _) eqn:N1; [|exfalso; exact (Hfac _ (proj2 Hfacility) N1)];
      destruct (nm EN_WIN_ERROR _) eqn:N2; [discriminate|exfalso; exact (Herr _ Hcode N2)] end.
Qed.
End WindowsStrings.
