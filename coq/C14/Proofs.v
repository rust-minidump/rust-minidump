(* C14/Proofs.v — lemmas about the process-state model: the walk of the thread list as one equation (walk_threads_eq) over the
   call stack of one thread (stack_of); thread names; the crash-address gate; from_windows_exception as one decision tree
   (windows_reason_eq); the offsets of unloaded modules (frame_unloaded_spec, on C08's unloaded_iff); refine_some (a refinement
   has a string) with the reason strings of the Linux dispatch (those of Mac and Windows: C14/Proofs2.v). *)
From Coq Require Import Lia.
From RM Require Import C08.Proofs C08.IndexProofs C14.Model.
Open Scope Z_scope.

Lemma oz_eqb_true a b : oz_eqb a b = true <-> a = Some b.
Proof.
  destruct a as [x|]; cbn [oz_eqb].
  - rewrite Z.eqb_eq. split; intro H; [subst; reflexivity|inversion H; reflexivity].
  - split; intro H; discriminate H.
Qed.
Lemma oz_eqb_false a b : oz_eqb a b = false <-> a <> Some b.
Proof.
  rewrite <- oz_eqb_true. destruct (oz_eqb a b); split; intro H; congruence.
Qed.

(* a thread the dump names as the requesting one: it has the target id and is not the dump-writer thread
   (for a dump read from streams this is Bytes.named_requesting: BytesProofs.eligible_named) *)
Definition eligible (d : dump) (t : thread) : bool :=
  negb (oz_eqb (dump_tid d) (t_id t)) && oz_eqb (target_tid d) (t_id t).
Definition eligible_prop (d : dump) (t : thread) : Prop :=
  target_tid d = Some (t_id t) /\ dump_tid d <> Some (t_id t).
Lemma eligible_iff d t : eligible d t = true <-> eligible_prop d t.
Proof.
  unfold eligible, eligible_prop. rewrite andb_true_iff, negb_true_iff, oz_eqb_false, oz_eqb_true. tauto.
Qed.

(* the call stack of one thread does not depend on its index or on the captured variable *)
Definition stack_of (d : dump) (t : thread) : callstack := fst (one_thread d 0%nat t None).
Lemma one_thread_eq d i t req : one_thread d i t req = (stack_of d t, if eligible d t then Some i else req).
Proof.
  unfold stack_of, one_thread, eligible. destruct (oz_eqb (dump_tid d) (t_id t)); [reflexivity|].
  destruct (oz_eqb (target_tid d) (t_id t)); reflexivity.
Qed.

Fixpoint last_eligible (d : dump) (i : nat) (ts : list thread) : option nat :=
  match ts with
  | [] => None
  | t :: rest =>
      match last_eligible d (S i) rest with
      | Some j => Some j
      | None => if eligible d t then Some i else None
      end
  end.

Lemma walk_threads_eq d ts : forall i req,
  walk_threads d i ts req = (map (stack_of d) ts, match last_eligible d i ts with Some j => Some j | None => req end).
Proof.
  induction ts as [|t rest IH]; intros i req; cbn [walk_threads map last_eligible]; [reflexivity|].
  rewrite one_thread_eq, IH. destruct (last_eligible d (S i) rest); [reflexivity|].
  destruct (eligible d t); reflexivity.
Qed.

Lemma last_eligible_spec d ts : forall i,
  match last_eligible d i ts with
  | Some j => exists k, j = (i + k)%nat /\ (exists t, nth_error ts k = Some t /\ eligible_prop d t) /\
                        forall k' t', (k < k')%nat -> nth_error ts k' = Some t' -> ~ eligible_prop d t'
  | None => forall k t, nth_error ts k = Some t -> ~ eligible_prop d t
  end.
Proof.
  induction ts as [|t rest IH]; intros i; cbn [last_eligible].
  - intros k t H. destruct k; discriminate H.
  - specialize (IH (S i)). destruct (last_eligible d (S i) rest) as [j|].
    + destruct IH as (k & Hj & Hk & Hlater). exists (S k). split; [lia|]. split; [exact Hk|].
      intros [|k'] t' Hlt Hn'; [lia|]. apply (Hlater k' t'); [lia|exact Hn'].
    + destruct (eligible d t) eqn:He.
      * exists 0%nat. split; [lia|]. split; [exists t; split; [reflexivity|apply eligible_iff, He]|].
        intros [|k'] t' Hlt Hn'; [lia|exact (IH k' t' Hn')].
      * intros [|k] t0 Hn; [inversion Hn; subst; intro Hp; apply eligible_iff in Hp; congruence|exact (IH k t0 Hn)].
Qed.

Lemma threads_of_map d : threads_of d = map (stack_of d) (d_threads d).
Proof. unfold threads_of. rewrite walk_threads_eq. reflexivity. Qed.

Lemma nth_error_map_iff {A B} (f : A -> B) l j y :
  nth_error (map f l) j = Some y <-> exists x, nth_error l j = Some x /\ y = f x.
Proof.
  rewrite nth_error_map. destruct (nth_error l j) as [x|]; cbn [option_map]; split.
  - intro H. inversion H. eauto.
  - intros (x' & H & ->). inversion H. reflexivity.
  - discriminate.
  - intros (x' & H & _). discriminate H.
Qed.
Lemma nth_threads_of d i cs :
  nth_error (threads_of d) i = Some cs <-> exists t, nth_error (d_threads d) i = Some t /\ cs = stack_of d t.
Proof. rewrite threads_of_map. apply nth_error_map_iff. Qed.

Lemma stack_of_spec d t :
  cs_id (stack_of d t) = t_id t /\ cs_name (stack_of d t) = get_name (d_names d) (t_id t) /\
  (cs_info (stack_of d t) = CsDumpThreadSkipped <-> dump_tid d = Some (t_id t)) /\
  (dump_tid d = Some (t_id t) -> cs_ctx (stack_of d t) = None).
Proof.
  unfold stack_of, one_thread. rewrite <- oz_eqb_true.
  destruct (oz_eqb (dump_tid d) (t_id t)); cbn [fst cs_id cs_info cs_name cs_ctx]; repeat split; try discriminate.
  destruct (if oz_eqb (target_tid d) (t_id t) then _ else _); discriminate.
Qed.

(* thread names: an id has no name exactly when the stream has no readable entry for it *)
Lemma get_name_none names id : get_name names id = None <-> forall n, ~ In (id, Some n) names.
Proof.
  induction names as [|[i o] rest IH]; cbn [get_name In]; [split; [intros _ n []|reflexivity]|].
  destruct (get_name rest id) as [x|].
  - split; [discriminate|]. intro H. apply IH. intros n Hn. apply (H n). right. exact Hn.
  - assert (Hrest : forall n, ~ In (id, Some n) rest) by (apply IH; reflexivity).
    destruct (i =? id) eqn:E.
    + apply Z.eqb_eq in E. subst i. destruct o as [n0|].
      * split; [discriminate|]. intro H. exfalso. apply (H n0). left. reflexivity.
      * split; [|reflexivity]. intros _ n [Hc|Hc]; [discriminate Hc|exact (Hrest n Hc)].
    + split; [|reflexivity]. intros _ n [Hc|Hc]; [|exact (Hrest n Hc)].
      inversion Hc; subst i. rewrite Z.eqb_refl in E. discriminate E.
Qed.
Lemma requesting_spec d :
  match requesting_thread d with
  | Some i => (exists t, nth_error (d_threads d) i = Some t /\ eligible_prop d t) /\
              forall j t, (i < j)%nat -> nth_error (d_threads d) j = Some t -> ~ eligible_prop d t
  | None => forall j t, nth_error (d_threads d) j = Some t -> ~ eligible_prop d t
  end.
Proof.
  unfold requesting_thread. rewrite walk_threads_eq. cbn [snd].
  pose proof (last_eligible_spec d (d_threads d) 0%nat) as H.
  destruct (last_eligible d 0%nat (d_threads d)) as [j|]; [|exact H].
  destruct H as (k & -> & H). exact H.
Qed.

(* a thread id of the Breakpad info counts when its validity bit is set *)
Lemma valid_id_spec (bp : option breakpad) (bit : Z) (f : breakpad -> Z) id :
  match bp with Some b => if Z.testbit (b_validity b) bit then Some (f b) else None | None => None end = Some id <->
  exists b, bp = Some b /\ Z.testbit (b_validity b) bit = true /\ f b = id.
Proof.
  destruct bp as [b|]; [destruct (Z.testbit (b_validity b) bit) eqn:E|]; split; try discriminate;
    try (intros (b' & Hb & Hv & Hid); inversion Hb; subst; congruence).
  intro H. inversion H. eauto.
Qed.

Lemma stack_of_ctx d t : dump_tid d <> Some (t_id t) ->
  let cs := stack_of d t in
  (eligible_prop d t ->
     cs_ctx cs = match exc_ctx d with
                 | Some c => Some (FromException, c)
                 | None => tag_ctx FromThread (t_ctx t)
                 end) /\
  (~ eligible_prop d t -> cs_ctx cs = tag_ctx FromThread (t_ctx t)) /\
  (cs_info cs = CsOk <-> cs_ctx cs <> None) /\
  (cs_info cs = CsMissingContext <-> cs_ctx cs = None).
Proof.
  intros Hnd cs. unfold cs, stack_of, one_thread. rewrite (proj2 (oz_eqb_false _ _) Hnd). cbn [fst cs_ctx cs_info].
  split; [|split].
  - intros [Htg _]. apply oz_eqb_true in Htg. rewrite Htg.
    destruct (exc_ctx d); reflexivity.
  - intro Hne. destruct (oz_eqb (target_tid d) (t_id t)) eqn:E; [|reflexivity].
    exfalso. apply Hne. split; [apply oz_eqb_true; exact E|exact Hnd].
  - destruct (if oz_eqb (target_tid d) (t_id t) then _ else _); split; split; intro H; congruence.
Qed.

Lemma crash_address_raw_spec o e :
  let gate := o = OsWindows /\ (e_code e = EXCEPTION_ACCESS_VIOLATION \/ e_code e = EXCEPTION_IN_PAGE_ERROR) /\
              2 <= e_nparams e in
  (gate -> crash_address_raw o e = e_info1 e) /\ (~ gate -> crash_address_raw o e = e_addr e).
Proof.
  intro gate.
  assert (G : os_eqb_windows o && ((e_code e =? EXCEPTION_ACCESS_VIOLATION) || (e_code e =? EXCEPTION_IN_PAGE_ERROR))
              && (2 <=? e_nparams e) = true <-> gate).
  { unfold gate. rewrite !andb_true_iff, orb_true_iff, !Z.eqb_eq, Z.leb_le.
    assert (os_eqb_windows o = true <-> o = OsWindows) by (destruct o; split; (reflexivity || discriminate)). tauto. }
  unfold crash_address_raw. destruct (_ && _ && _).
  - split; [reflexivity|]. intro Hn. exfalso. apply Hn, G. reflexivity.
  - split; [|reflexivity]. intro Hg. apply G in Hg. discriminate Hg.
Qed.

Lemma crash_address_spec o c e :
  0 <= crash_address_raw o e < two64 ->
  (pointer_width c = W32 ->
     crash_address o c e = crash_address_raw o e mod two32 /\ 0 <= crash_address o c e < two32) /\
  (pointer_width c <> W32 -> crash_address o c e = crash_address_raw o e) /\
  0 <= crash_address o c e < two64.
Proof.
  intro Hr. unfold crash_address, wrap32.
  assert (Hm : 0 <= crash_address_raw o e mod two32 < two32) by (apply Z.mod_pos_bound; reflexivity).
  assert (H32 : two32 < two64) by reflexivity.
  destruct (pointer_width c).
  - (* W32: reduced mod 2^32 *) split; [intros _; split; [reflexivity|exact Hm]|]. split; [intro H; contradiction H; reflexivity|lia].
  - (* W64 *) split; [discriminate|]. split; [reflexivity|exact Hr].
  - (* unknown width *) split; [discriminate|]. split; [reflexivity|exact Hr].
Qed.

(* from_windows_exception with from_windows_code inlined: one decision tree *)
Lemma windows_reason_eq lk e :
  windows_reason lk e =
  let code := e_code e in
  if lk EN_WIN_EXC code then
    if code =? EXCEPTION_ACCESS_VIOLATION then
      if (1 <=? e_nparams e) && lk EN_WIN_ACCESS (e_info0 e) then (WindowsAccessViolation, [e_info0 e]) else (WindowsGeneral, [code])
    else if code =? EXCEPTION_IN_PAGE_ERROR then
      if (3 <=? e_nparams e) && lk EN_WIN_INPAGE (e_info0 e) then (WindowsInPageError, [e_info0 e; low32 (e_info2 e)])
      else (WindowsGeneral, [code])
    else (WindowsGeneral, [code])
  else if lk EN_WIN_ERROR code then (WindowsWinError, [code])
  else if lk EN_WIN_NTSTATUS code then
    if (code =? STATUS_STACK_BUFFER_OVERRUN) && (1 <=? e_nparams e) then (WindowsStackBufferOverrun, [low32 (e_info0 e)])
    else (WindowsNtStatus, [code])
  else if negb (Z.land code 4026531840 =? 0) && lk EN_WIN_FACILITY (Z.shiftr (Z.land code 268369920) 16) &&
          lk EN_WIN_ERROR (Z.land code 65535)
       then (WindowsWinErrorWithFacility, [Z.shiftr (Z.land code 268369920) 16; Z.land code 65535])
       else (WindowsUnknown, [code]).
Proof.
  unfold windows_reason. cbv zeta. remember (windows_code lk (e_code e)) as r eqn:Hr. unfold windows_code in Hr.
  destruct (lk EN_WIN_EXC (e_code e)); [subst r; reflexivity|]. destruct (lk EN_WIN_ERROR (e_code e)); [subst r; reflexivity|].
  destruct (lk EN_WIN_NTSTATUS (e_code e)); [subst r; reflexivity|]. destruct (_ && _ && _); subst r; reflexivity.
Qed.

(* [fst (decision tree) = family -> _]: closes the goal on every path of the tree that ends in another family *)
Ltac other_paths :=
  repeat match goal with
         | |- context [if ?b then _ else _] => destruct b
         end; cbn [fst]; try discriminate; intros _.

Definition covers (u : list (Z * Z * Z)) (x : Z) (nm off : Z) : Prop :=
  exists i b s r, nth_error u i = Some (b, s, nm) /\ mk_range b s = Some r /\ contains r x = true /\ off = x - b.

(* the indices the sorted table yields at [x]: the entries whose range contains it (C08: unloaded_iff) *)
Lemma unloaded_idx u x i :
  In i (unloaded_at (unloaded_build (unloaded_ranges u)) x) <->
  exists n b s nm r, i = Z.of_nat n /\ nth_error u n = Some (b, s, nm) /\ mk_range b s = Some r /\ contains r x = true.
Proof.
  rewrite unloaded_iff. unfold unloaded_ranges. split.
  - intros (r & Hin & Hc). apply enumerate_from_in in Hin. destruct Hin as [Hi Hn]. rewrite Z.sub_0_r, nth_error_map in Hn.
    destruct (nth_error u (Z.to_nat i)) as [[[b s] nm]|] eqn:En; [|discriminate Hn].
    cbn [option_map fst snd] in Hn. inversion Hn as [Hr]. exists (Z.to_nat i), b, s, nm, r. split; [lia|auto].
  - intros (n & b & s & nm & r & -> & Hn & Hr & Hc). exists r. split; [|exact Hc].
    apply (enumerate_from_nth _ 0). rewrite nth_error_map, Hn. cbn [option_map fst snd]. rewrite Hr. reflexivity.
Qed.

(* where no subtraction leaves u64 the loop is a map *)
Definition offset_at (u : list (Z * Z * Z)) (x i : Z) : Z * Z :=
  match nth_error u (Z.to_nat i) with Some (b, _, nm) => (nm, x - b) | None => (0, 0) end.
Lemma offsets_of_eq p u x idxs :
  (forall i, In i idxs -> exists b s nm, nth_error u (Z.to_nat i) = Some (b, s, nm) /\ 0 <= x - b < two64) ->
  offsets_of p u x idxs = Ret (map (offset_at u x) idxs).
Proof.
  induction idxs as [|i rest IH]; intro H; cbn [offsets_of map]; [reflexivity|].
  destruct (H i (or_introl eq_refl)) as (b & s & nm & Hn & Hlo & Hhi). unfold offset_at at 1. rewrite Hn.
  unfold chk_sub, chk. change (2 ^ 64) with two64.
  apply Z.leb_le in Hlo. apply Z.ltb_lt in Hhi. rewrite Hlo, Hhi. cbn [andb obind].
  rewrite IH by (intros j Hj; apply H; right; exact Hj). reflexivity.
Qed.

Lemma frame_unloaded_spec p d x :
  0 <= x < two64 -> (forall b s nm, In (b, s, nm) (d_unloaded d) -> 0 <= b) ->
  exists l, frame_unloaded p d x = Ret l /\
    (module_at (read_modules (d_modules d)) x <> None -> l = []) /\
    (module_at (read_modules (d_modules d)) x = None ->
       forall nm off, In (nm, off) l <-> covers (read_unloaded (d_unloaded d)) x nm off) /\
    (forall nm off, In (nm, off) l -> 0 <= off < two64).
Proof.
  intros Hx Hb. unfold frame_unloaded. set (u := read_unloaded (d_unloaded d)).
  assert (Hbu : forall b s nm, In (b, s, nm) u -> 0 <= b).
  { intros b s nm H. apply (Hb b s nm). unfold u, read_unloaded in H.
    destruct (forallb (fun m => good_image (fst m)) (d_unloaded d)); [exact H|destruct H]. }
  destruct (module_at (read_modules (d_modules d)) x) as [k|].
  { exists []. split; [reflexivity|]. split; [reflexivity|]. split; [intro H; congruence|intros ? ? []]. }
  set (idxs := unloaded_at (unloaded_build (unloaded_ranges u)) x).
  (* an entry found starts at or below x, and bases are not negative *)
  assert (Hoff : forall i, In i idxs -> exists b s nm, nth_error u (Z.to_nat i) = Some (b, s, nm) /\ 0 <= x - b < two64).
  { intros i Hi. apply unloaded_idx in Hi. destruct Hi as (n & b & s & nm & r & -> & Hn & Hr & Hc). rewrite Nat2Z.id.
    exists b, s, nm. split; [exact Hn|]. pose proof (mk_range_contains _ _ _ _ Hr Hc).
    specialize (Hbu b s nm (nth_error_In _ _ Hn)). lia. }
  exists (map (offset_at u x) idxs). split; [apply offsets_of_eq, Hoff|].
  split; [intro H; exfalso; apply H; reflexivity|]. split.
  - intros _ nm off. rewrite in_map_iff. unfold covers, offset_at. split.
    + intros (i & Ho & Hi). apply unloaded_idx in Hi. destruct Hi as (n & b & s & nm' & r & -> & Hn & Hr & Hc).
      rewrite Nat2Z.id, Hn in Ho. inversion Ho; subst. exists n, b, s, r. auto.
    + intros (n & b & s & r & Hn & Hr & Hc & ->). exists (Z.of_nat n). rewrite Nat2Z.id, Hn.
      split; [reflexivity|]. apply unloaded_idx. exists n, b, s, nm, r. auto.
  - intros nm off Hin. apply in_map_iff in Hin. destruct Hin as (i & Ho & Hi).
    destruct (Hoff i Hi) as (b & s & nm' & Hn & Hr). unfold offset_at in Ho. rewrite Hn in Ho. inversion Ho; subst. exact Hr.
Qed.

Lemma prefixed_some p tbl v : name_of tbl v <> None -> prefixed p tbl v <> None.
Proof. unfold prefixed. destruct (name_of tbl v); [discriminate|congruence]. Qed.

Lemma prefixed_app p tbl v s : prefixed p tbl v = Some s -> exists n, s = p ++ n.
Proof. unfold prefixed. destruct (name_of tbl v) as [n|]; intro H; inversion H. eexists; reflexivity. Qed.

(* a refinement has a string when its name table knows every value the membership function accepts
   and the general reason it falls back to has one *)
Lemma refine_some lk en f v g p tbl :
  reason_string (f, [v]) = prefixed p tbl v -> (lk en v = true -> name_of tbl v <> None) ->
  reason_string g <> None -> reason_string (refine lk en f v g) <> None.
Proof.
  intros Hf Hn Hg. unfold refine. destruct (lk en v); [rewrite Hf; apply prefixed_some, Hn; reflexivity|exact Hg].
Qed.

(* the general reason [G] has a string, and so has a refinement of it *)
Ltac refined G := first [exact G | eapply refine_some; [reflexivity|auto|exact G]].

Section ReasonStrings.
Variable lk : Z -> Z -> bool.
Hypothesis Hlinux : forall v, lk EN_LINUX v = true -> name_of NAMES_ExceptionCodeLinux v <> None.
Hypothesis Hill : forall v, lk EN_SIGILL v = true -> name_of NAMES_ExceptionCodeLinuxSigillKind v <> None.
Hypothesis Htrap : forall v, lk EN_SIGTRAP v = true -> name_of NAMES_ExceptionCodeLinuxSigtrapKind v <> None.
Hypothesis Hfpe : forall v, lk EN_SIGFPE v = true -> name_of NAMES_ExceptionCodeLinuxSigfpeKind v <> None.
Hypothesis Hsegv : forall v, lk EN_SIGSEGV v = true -> name_of NAMES_ExceptionCodeLinuxSigsegvKind v <> None.
Hypothesis Hbus : forall v, lk EN_SIGBUS v = true -> name_of NAMES_ExceptionCodeLinuxSigbusKind v <> None.
Hypothesis Hsys : forall v, lk EN_SIGSYS v = true -> name_of NAMES_ExceptionCodeLinuxSigsysKind v <> None.

Lemma general_some code flags : name_of NAMES_ExceptionCodeLinux code <> None ->
  reason_string (LinuxGeneral, [code; flags]) <> None.
Proof.
  intro H. cbn [reason_string]. destruct (name_of NAMES_ExceptionCodeLinux code) as [n|]; [|congruence].
  destruct (name_of NAMES_ExceptionCodeLinuxSicode (signed32 flags)); [destruct (signed32 flags =? 0)|]; discriminate.
Qed.

Lemma linux_reason_string c e o : o = OsLinux \/ o = OsAndroid ->
  reason_string (crash_reason lk o c e) <> None.
Proof.
  intro Ho. assert (E : crash_reason lk o c e =
                        match linux_reason lk e with Some x => x | None => (Unknown, [e_code e; e_flags e]) end)
    by (destruct Ho; subst o; reflexivity).
  rewrite E. unfold linux_reason. destruct (lk EN_LINUX (e_code e)) eqn:L; cbn [negb]; [|discriminate].
  pose proof (general_some (e_code e) (e_flags e) (Hlinux _ L)) as G.
  repeat match goal with
         | |- context [if ?b then _ else _] => destruct b
         end; refined G.
Qed.
End ReasonStrings.
