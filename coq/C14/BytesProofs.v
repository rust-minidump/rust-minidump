(* C14/BytesProofs.v — the process state computed from the BYTES of a dump: C02's reader model composed with C14's model.
   The facts are stated for arbitrary streams handed to MinidumpInfo::new (Section Streams; crash_address_wf and read_*_wf for
   streams that meet C02's well-formedness); a serialized model (bytes_roundtrip) and any accepted file (bytes_of_view) are
   instances, through streams_inv. *)
From Coq Require Import Lia.
(* C02.Model first: it and C14.Model both define dec, os_of_platform, OsWindows; the later import is the one meant *)
From RM Require Import C02.Model C02.Proofs1 C02.Proofs3 C02.Proofs4.
From RM Require Import C14.Model C14.Proofs C14.Bytes Gen.C14Process.
Open Scope Z_scope.

Lemma sres_opt_of {A} (o : option A) : sres_opt (sres_of o) = o.
Proof. destruct o; reflexivity. Qed.
Lemma sres_list_of {A} (o : option (list A)) : sres_list (sres_of o) = opt_list o.
Proof. destruct o; reflexivity. Qed.
Lemma sres_opt_some {A} (r : sres A) a : sres_opt r = Some a <-> r = SOk a.
Proof. destruct r; cbn [sres_opt]; split; intro H; inversion H; reflexivity. Qed.

(* the conjuncts of a boolean well-formedness condition, as hypotheses *)
Ltac split_andb H := repeat (apply andb_true_iff in H; destruct H as [H ?]).

Section Reader.
Variable rc : endian -> Z -> list Z -> option ctx.

Lemma view_of_model e m : dump_of_view rc (view_of e m) = dump_of_model rc e m.
Proof.
  unfold dump_of_view, dump_of_model, view_of.
  unfold unified_view, unified_model.
  cbn [v_endian v_time v_sysinfo v_threads v_tnames v_exception v_breakpad v_misc v_lx_status v_modules v_unloaded v_memory v_memory64].
  rewrite !sres_opt_of, !sres_list_of. destruct (m_memory64 m); [reflexivity|]. destruct (m_memory m); reflexivity.
Qed.

Lemma bytes_roundtrip e m : wf_model e m = true ->
  dump_of_bytes rc (encode_dump e m) = dump_of_model rc e m.
Proof. intro H. unfold dump_of_bytes. rewrite (dump_roundtrip e m H). apply view_of_model. Qed.

Lemma bytes_of_view bs v : decode_dump bs = Some v -> dump_of_bytes rc bs = dump_of_view rc v.
Proof. intro H. unfold dump_of_bytes. rewrite H. reflexivity. Qed.

Lemma streams_required e time sys threads tn exc bp mi st mods unl mems :
  dump_of_streams rc e time sys threads tn exc bp mi st mods unl mems <> None <-> sys <> None /\ threads <> None.
Proof.
  unfold dump_of_streams. destruct threads, sys; split; try (intros [H1 H2]); congruence || (split; congruence).
Qed.

Section Streams.
Variables (e : endian) (time : Z) (s : msysinfo) (ts : list mthread) (tn : list (Z * list Z))
          (exc : option mexception) (bp : option (list Z)) (mi : option (Z * list Z)) (st : option (list Z))
          (mods : list mmodule) (unl : list munloaded) (mems : list mregion).
Let d : dump :=
  {| d_platform := si_platform s; d_arch := si_arch s; d_time := time;
     d_threads := map (thread_of rc e (si_arch s)) ts; d_names := map tname_of tn;
     d_exc := option_map (exception_of rc e (si_arch s)) exc;
     d_bp := match bp with Some l => breakpad_of l | None => None end;
     d_misc := option_map misc_of mi; d_status := st;
     d_modules := map module_of mods; d_unloaded := map unloaded_of unl; d_mems := map region_of mems |}.

Lemma streams_some : dump_of_streams rc e time (Some s) (Some ts) tn exc bp mi st mods unl mems = Some d.
Proof. reflexivity. Qed.

Lemma d_dump_tid : dump_tid d = bp_dump_tid bp.
Proof.
  unfold dump_tid, bp_dump_tid, d. cbn [d_bp].
  destruct bp as [[|v [|dt [|rt [|? ?]]]]|]; reflexivity.
Qed.
Lemma d_target_tid : target_tid d = streams_target exc bp.
Proof.
  unfold target_tid, streams_target, req_tid, bp_req_tid, d. cbn [d_exc d_bp]. destruct exc; [reflexivity|].
  destruct bp as [[|v [|dt [|rt [|? ?]]]]|]; reflexivity.
Qed.

Lemma nth_thread j t' : nth_error (d_threads d) j = Some t' <->
  exists t, nth_error ts j = Some t /\ t' = thread_of rc e (si_arch s) t.
Proof. apply nth_error_map_iff. Qed.

Lemma eligible_named t : eligible_prop d (thread_of rc e (si_arch s) t) <-> named_requesting exc bp t.
Proof.
  unfold eligible_prop, named_requesting. rewrite d_target_tid, d_dump_tid. cbn [t_id thread_of]. reflexivity.
Qed.

Lemma streams_requesting :
  match requesting_thread d with
  | Some i => (exists t, nth_error ts i = Some t /\ named_requesting exc bp t) /\
              forall j t, (i < j)%nat -> nth_error ts j = Some t -> ~ named_requesting exc bp t
  | None => forall j t, nth_error ts j = Some t -> ~ named_requesting exc bp t
  end.
Proof.
  assert (Hno : forall j t, nth_error ts j = Some t ->
            (forall t', nth_error (d_threads d) j = Some t' -> ~ eligible_prop d t') -> ~ named_requesting exc bp t).
  { intros j t Hj H Hnamed. exact (H _ (map_nth_error _ j ts Hj) (proj2 (eligible_named t) Hnamed)). }
  pose proof (requesting_spec d) as H. destruct (requesting_thread d) as [i|].
  - destruct H as [(t' & Hn & He) Hl]. apply nth_thread in Hn. destruct Hn as (t & Hn & ->). split.
    + exists t. split; [exact Hn|]. apply eligible_named. exact He.
    + intros j t0 Hij Hj. apply (Hno j t0 Hj). intro t'. exact (Hl j t' Hij).
  - intros j t0 Hj. apply (Hno j t0 Hj). intro t'. exact (H j t').
Qed.

Lemma streams_threads :
  map cs_id (threads_of d) = map th_id ts /\
  forall i cs, nth_error (threads_of d) i = Some cs ->
    exists t, nth_error ts i = Some t /\ cs_id cs = th_id t /\ cs_name cs = get_name (map tname_of tn) (th_id t) /\
      (bp_dump_tid bp = Some (th_id t) <-> cs_info cs = CsDumpThreadSkipped).
Proof.
  split.
  - rewrite threads_of_map. unfold d at 2. cbn [d_threads]. rewrite !map_map. apply map_ext. intro t. apply stack_of_spec.
  - intros i cs Hcs. apply nth_threads_of in Hcs. destruct Hcs as (t' & Ht' & ->).
    apply nth_thread in Ht'. destruct Ht' as (t & Ht & ->). exists t. split; [exact Ht|].
    destruct (stack_of_spec d (thread_of rc e (si_arch s) t)) as (Hid & Hname & Hskip & _).
    rewrite Hskip, d_dump_tid. split; [exact Hid|]. split; [exact Hname|reflexivity].
Qed.

Lemma streams_context i t cs :
  nth_error ts i = Some t -> nth_error (threads_of d) i = Some cs -> bp_dump_tid bp <> Some (th_id t) ->
  (named_requesting exc bp t ->
     cs_ctx cs = match opt_and_then exc (fun x => read_ctx rc e (si_arch s) (ex_ctx x)) with
                 | Some c => Some (FromException, c)
                 | None => tag_ctx FromThread (read_ctx rc e (si_arch s) (th_ctx t))
                 end) /\
  (~ named_requesting exc bp t -> cs_ctx cs = tag_ctx FromThread (read_ctx rc e (si_arch s) (th_ctx t))).
Proof.
  intros Ht Hcs Hd. apply nth_threads_of in Hcs. destruct Hcs as (t' & Ht' & ->).
  unfold d in Ht' at 1. cbn [d_threads] in Ht'. rewrite (map_nth_error _ i ts Ht) in Ht'. injection Ht' as <-.
  assert (Hd' : dump_tid d <> Some (t_id (thread_of rc e (si_arch s) t))) by (rewrite d_dump_tid; exact Hd).
  pose proof (stack_of_ctx d _ Hd') as (H1 & H2 & _).
  split.
  - intro Hn. rewrite (H1 (proj2 (eligible_named t) Hn)). unfold exc_ctx, d. cbn [d_exc t_ctx thread_of].
    destruct exc as [x|]; reflexivity.
  - intro Hn. apply H2. intro He. apply Hn. apply eligible_named. exact He.
Qed.

Lemma streams_pid_time :
  process_id d = match mi with
                 | Some m => if Z.testbit (nth 1 (snd m) 0) 0 then Some (nth 2 (snd m) 0) else None
                 | None => option_map status_pid st
                 end /\
  process_create_time d = match mi with
                          | Some m => if Z.testbit (nth 1 (snd m) 0) 1 then Some (nth 3 (snd m) 0) else None
                          | None => None
                          end /\
  d_time d = time.
Proof. unfold process_id, process_create_time, d. cbn [d_misc d_status d_time]. destruct mi; repeat split. Qed.
End Streams.

(* processing succeeds on a system info and a thread list only, and then yields the record of Section Streams *)
Lemma streams_inv e time sys threads tn exc bp mi st mods unl mems d :
  dump_of_streams rc e time sys threads tn exc bp mi st mods unl mems = Some d ->
  exists s ts, sys = Some s /\ threads = Some ts /\
    d = {| d_platform := si_platform s; d_arch := si_arch s; d_time := time;
           d_threads := map (thread_of rc e (si_arch s)) ts; d_names := map tname_of tn;
           d_exc := option_map (exception_of rc e (si_arch s)) exc;
           d_bp := match bp with Some l => breakpad_of l | None => None end;
           d_misc := option_map misc_of mi; d_status := st;
           d_modules := map module_of mods; d_unloaded := map unloaded_of unl; d_mems := map region_of mems |}.
Proof.
  unfold dump_of_streams. destruct threads as [ts|], sys as [s|]; try discriminate.
  intro H. inversion H. exists s, ts. repeat split.
Qed.

Lemma good_of_not_bad b sz : bad_image b sz = false -> good_image (b, sz) = true.
Proof.
  unfold bad_image, good_image. cbn [fst snd]. intro H. apply orb_false_iff in H. destruct H as [H1 H2].
  rewrite H1. cbn [negb andb]. apply Z.leb_le. rewrite Z.gtb_ltb in H2. apply Z.ltb_ge in H2. exact H2.
Qed.

Lemma wf_module_good e m : wf_module e m = true -> good_image (module_of m) = true.
Proof. unfold wf_module. intro H. split_andb H. apply good_of_not_bad, negb_true_iff. assumption. Qed.
Lemma wf_unloaded_good u : wf_unloaded u = true -> good_image (fst (unloaded_of u)) = true /\ 0 <= um_base u.
Proof.
  unfold wf_unloaded. intro H. split_andb H. split; [apply good_of_not_bad, negb_true_iff|apply Z.leb_le]; assumption.
Qed.

Lemma read_modules_wf e l : forallb (wf_module e) l = true -> read_modules (map module_of l) = map module_of l.
Proof.
  induction l as [|m l IH]; intro H; [reflexivity|]. cbn [forallb] in H. apply andb_true_iff in H. destruct H as [H1 H2].
  unfold read_modules in *. cbn [map filter]. rewrite (wf_module_good e m H1). rewrite (IH H2). reflexivity.
Qed.
Lemma read_unloaded_wf l : forallb wf_unloaded l = true -> read_unloaded (map unloaded_of l) = map unloaded_of l.
Proof.
  intro H. unfold read_unloaded.
  replace (forallb (fun m => good_image (fst m)) (map unloaded_of l)) with true; [reflexivity|].
  symmetry. induction l as [|u l IH]; [reflexivity|]. cbn [forallb] in H. apply andb_true_iff in H. destruct H as [H1 H2].
  cbn [map forallb]. rewrite (proj1 (wf_unloaded_good u H1)). rewrite (IH H2). reflexivity.
Qed.

Lemma wf_model_parts e m : wf_model e m = true ->
  forallb (wf_module e) (opt_list (m_modules m)) = true /\ forallb wf_unloaded (opt_list (m_unloaded m)) = true /\
  oall wf_exception (m_exception m) = true.
Proof.
  unfold wf_model. intro H. split_andb H.
  split; [destruct (m_modules m)|split; [destruct (m_unloaded m)|]]; assumption || reflexivity.
Qed.

Lemma wt_arr_spec w : forall n l, wt (LArr n (LU w)) (varr l) = true -> length l = n /\ Forall (fun x => 0 <= x < wbits w) l.
Proof.
  induction n as [|n IH]; intros [|x l] H; try (cbn in H; discriminate H); [split; [reflexivity|constructor]|].
  change (wt (LArr (S n) (LU w)) (varr (x :: l))) with (wt (LU w) (VInt x) && wt (LArr n (LU w)) (varr l)) in H.
  apply andb_true_iff in H. destruct H as [Hx Hl]. destruct (IH l Hl) as [Hlen Hall].
  cbn [wt] in Hx. apply andb_true_iff in Hx. destruct Hx as [A B]. apply Z.leb_le in A. apply Z.ltb_lt in B.
  split; [cbn [length]; congruence|constructor; [lia|exact Hall]].
Qed.

(* information[1] and the address of a well-formed exception record are 64-bit values *)
Lemma wf_exception_ranges x : wf_exception x = true -> 0 <= nth 1 (ex_info x) 0 < two64 /\ 0 <= ex_address x < two64.
Proof.
  unfold wf_exception. intro H. split_andb H.
  match goal with Hw : wt (LArr 15 (LU 8)) (varr (ex_info x)) = true |- _ => destruct (wt_arr_spec 8 15 _ Hw) as [Hlen Hall] end.
  split; [apply (proj1 (Forall_nth _ _) Hall); rewrite Hlen; lia|].
  match goal with Ha : u64b (ex_address x) = true |- _ => unfold u64b in Ha; apply andb_true_iff in Ha; destruct Ha as [A B];
    apply Z.leb_le in A; apply Z.ltb_lt in B; split; [exact A|exact B] end.
Qed.

Lemma crash_address_wf e arch o c x : wf_exception x = true ->
  let ex := exception_of rc e arch x in
  crash_address o c ex =
    (let a := if os_eqb_windows o && ((ex_code x =? 3221225477) || (ex_code x =? 3221225478)) && (2 <=? ex_nparams x)
              then nth 1 (ex_info x) 0 else ex_address x in
     match pointer_width c with W32 => a mod two32 | _ => a end) /\
  0 <= crash_address o c ex < two64.
Proof.
  intros Hwf ex. destruct (wf_exception_ranges x Hwf) as (Hi & Ha). split; [reflexivity|].
  apply crash_address_spec. unfold crash_address_raw, ex. cbn [e_code e_nparams e_info1 e_addr exception_of].
  destruct (os_eqb_windows o && _ && _); assumption.
Qed.
End Reader.

(* what follows does not depend on the context reader: the positions of ip / sp, and the record without its contexts *)
Lemma ctx_regs_by_name arch : ctx_regs arch = ctx_regs_named arch.
Proof.
  unfold ctx_regs, ctx_regs_named.
  repeat match goal with
         | |- (if ?b then _ else _) = _ => destruct b; [vm_compute; reflexivity|]
         end.
  reflexivity.
Qed.

(* the byte-level context reader covers exactly the architectures MinidumpContext::read has an arm for *)
Lemma ctx_regs_covers arch : (ctx_regs arch <> None) <-> arch_has_context arch = true.
Proof.
  unfold ctx_regs, arch_has_context.
  (* one test of [arch] at a time: where it holds, both sides are decided *)
  repeat match goal with
         | |- context [arch =? ?k] =>
             destruct (arch =? k); rewrite ?orb_true_r; cbn [orb]; [split; [reflexivity|discriminate]|]
         end.
  split; [intro H; exfalso; apply H; reflexivity|discriminate].
Qed.

Lemma model_forget_ctx rc e1 e2 m : option_map forget_ctx (dump_of_model rc e1 m) = option_map forget_ctx (dump_of_model rc e2 m).
Proof.
  unfold dump_of_model, dump_of_streams. destruct (m_threads m) as [ts|]; [|reflexivity]. destruct (m_sysinfo m) as [s|]; [|reflexivity].
  cbn [option_map]. f_equal. unfold forget_ctx. cbn [d_platform d_arch d_time d_threads d_names d_exc d_bp d_misc d_status d_modules d_unloaded d_mems].
  f_equal.
  - rewrite !map_map. apply map_ext. intro t. reflexivity.
  - destruct (m_exception m); reflexivity.
Qed.

Lemma forget_target_tid d : target_tid (forget_ctx d) = target_tid d.
Proof. unfold target_tid, req_tid, forget_ctx. cbn [d_exc d_bp]. destruct (d_exc d); reflexivity. Qed.

Lemma forget_last_eligible d ts : forall i,
  last_eligible (forget_ctx d) i (map forget_thread_ctx ts) = last_eligible d i ts.
Proof.
  induction ts as [|t ts IH]; intro i; cbn [map last_eligible]; [reflexivity|].
  rewrite IH. unfold eligible. rewrite forget_target_tid. reflexivity.
Qed.
