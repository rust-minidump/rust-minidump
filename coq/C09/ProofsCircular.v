(* C09/ProofsCircular.v — the byte-level circular::Buffer (C09/Circular.v) refines (a) the index model of
   C09/Model.v and (b) a FIFO queue of bytes; the parse loop run on real bytes keeps
        callback bytes ++ data() ++ bytes not yet read  =  input
   so the "window of the input at total_consumed" that Model.v assumes for data() is a theorem. *)
From Coq Require Import Lia ZArith List Bool.
From RM Require Import Base.Word C09.Model C09.Circular C09.Proofs.
Import ListNotations.
Open Scope Z_scope.

Lemma zlength_nonneg : forall A (l : list A), 0 <= zlength l.
Proof. intros. unfold zlength. lia. Qed.

Lemma zlength_app : forall A (a b : list A), zlength (a ++ b) = zlength a + zlength b.
Proof. intros. unfold zlength. rewrite app_length. lia. Qed.

Lemma zlength_zfirstn : forall A (l : list A) n, 0 <= n <= zlength l -> zlength (zfirstn n l) = n.
Proof. intros A l n H. unfold zlength, zfirstn in *. rewrite firstn_length. lia. Qed.

Lemma zlength_zskipn : forall A (l : list A) n, 0 <= n <= zlength l -> zlength (zskipn n l) = zlength l - n.
Proof. intros A l n H. unfold zlength, zskipn in *. rewrite skipn_length. lia. Qed.

Lemma zlength_zeros : forall n, 0 <= n -> zlength (zeros n) = n.
Proof. intros n H. unfold zlength, zeros. rewrite repeat_length. lia. Qed.

(* sub_*: about the slice [firstn n (skipn a l)] of n elements from index a.  It only looks at the first a + n elements *)
Lemma sub_app_l : forall A (l r : list A) a n, (a + n <= length l)%nat ->
  firstn n (skipn a (l ++ r)) = firstn n (skipn a l).
Proof.
  intros A l r a n H. rewrite skipn_app, firstn_app.
  replace (n - length (skipn a l))%nat with 0%nat by (rewrite skipn_length; lia).
  cbn [firstn]. apply app_nil_r.
Qed.

Lemma sub_length : forall A (l : list A) a n, (a + n <= length l)%nat -> length (firstn n (skipn a l)) = n.
Proof. intros. rewrite firstn_length, skipn_length. lia. Qed.

Lemma skipn_add : forall A a c (l : list A), skipn c (skipn a l) = skipn (a + c) l.
Proof.
  induction a as [|a IH]; intros c l; [reflexivity|].
  destruct l as [|x t]; [rewrite !skipn_nil; reflexivity|]. cbn [skipn Nat.add]. apply IH.
Qed.

Lemma sub_skip : forall A (l : list A) a n c,
  skipn c (firstn n (skipn a l)) = firstn (n - c) (skipn (a + c) l).
Proof.
  intros. rewrite skipn_firstn_comm, skipn_add. reflexivity.
Qed.

(* the reader overwrote memory[e .. e + k] *)
Lemma sub_write : forall A (l bytes : list A) p e, (p <= e)%nat -> (e + length bytes <= length l)%nat ->
  firstn (e + length bytes - p) (skipn p (firstn e l ++ bytes ++ skipn (e + length bytes) l))
  = firstn (e - p) (skipn p l) ++ bytes.
Proof.
  intros A l bytes p e Hp He.
  assert (Hfe : length (firstn e l) = e) by (rewrite firstn_length; lia).
  rewrite skipn_app. rewrite Hfe. replace (p - e)%nat with 0%nat by lia. cbn [skipn].
  rewrite skipn_firstn_comm.
  assert (Hd : length (firstn (e - p) (skipn p l)) = (e - p)%nat) by (apply sub_length; lia).
  rewrite firstn_app. rewrite Hd.
  rewrite (firstn_all2 (firstn (e - p) (skipn p l))) by lia.
  f_equal.
  replace (e + length bytes - p - (e - p))%nat with (length bytes) by lia.
  rewrite firstn_app. rewrite Nat.sub_diag. cbn [firstn]. rewrite firstn_all. apply app_nil_r.
Qed.

Definition bwf (b : bbuf) : Prop :=
  zlength (m_mem b) = m_cap b /\ 0 <= m_pos b /\ m_pos b <= m_end b /\ m_end b <= m_cap b.

Lemma bwf_geom : forall b, bwf b -> geom (idx b).
Proof. intros b [H0 [H1 [H2 H3]]]. unfold geom, idx. cbn [b_pos b_end b_cap]. lia. Qed.

Lemma bwf_geom_ok : forall b, bwf b -> bgeom_ok b = true.
Proof.
  intros b H. unfold bgeom_ok. rewrite (geom_ok_true _ (bwf_geom b H)). destruct H as [H0 _].
  cbn [andb]. apply Z.leb_le. lia.
Qed.

Lemma bwf_with_capacity : forall c, 0 <= c -> bwf (with_capacity c).
Proof. intros c H. unfold bwf, with_capacity. cbn [m_mem m_pos m_end m_cap]. rewrite zlength_zeros; lia. Qed.

Lemma bdata_length : forall b, bwf b -> zlength (bdata b) = bavail b.
Proof.
  intros [m p e c] [H0 [H1 [H2 H3]]]. unfold bdata, bavail, zslice, zlength, zfirstn, zskipn in *.
  cbn [m_mem m_pos m_end m_cap] in *. rewrite sub_length; lia.
Qed.

Lemma idx_shift : forall b, idx (bshift b) = shift (idx b).
Proof.
  intros [m p e c]. unfold bshift, shift, idx. cbn [m_mem m_pos m_end m_cap b_pos b_end b_cap].
  destruct (0 <? p); reflexivity.
Qed.

Lemma idx_consume : forall b k, idx (bconsume b k) = consume (idx b) k.
Proof.
  intros [m p e c] k. unfold bconsume, consume, bshift, shift, idx, bavail, avail.
  cbn [m_mem m_pos m_end m_cap b_pos b_end b_cap].
  repeat match goal with |- context [if ?c then _ else _] => destruct c end; reflexivity.
Qed.

Lemma idx_fill : forall b k, idx (bfill b k) = fill (idx b) k.
Proof.
  intros [m p e c] k. unfold bfill, fill, bshift, shift, idx, bavail, avail, bspace, space.
  cbn [m_mem m_pos m_end m_cap b_pos b_end b_cap].
  repeat match goal with |- context [if ?c then _ else _] => destruct c end; reflexivity.
Qed.

Lemma idx_grow : forall b n, idx (bgrow b n) = grow (idx b) n.
Proof.
  intros [m p e c] n. unfold bgrow, grow, idx. cbn [m_mem m_pos m_end m_cap b_pos b_end b_cap].
  destruct (n <=? c); reflexivity.
Qed.

Lemma idx_write : forall b bytes, idx (bwrite b bytes) = idx b.
Proof. intros. reflexivity. Qed.

(* shift(): memmove; data() unchanged *)
Lemma bshift_spec : forall b, bwf b -> bwf (bshift b) /\ bdata (bshift b) = bdata b.
Proof.
  intros b W. pose proof (bdata_length b W) as HL. destruct b as [m p e c].
  destruct W as [H0 [H1 [H2 H3]]]. unfold bshift. cbn [m_mem m_pos m_end m_cap] in *.
  destruct (0 <? p) eqn:E; [|split; [unfold bwf; cbn [m_mem m_pos m_end m_cap]; lia|reflexivity]].
  unfold bavail in HL. cbn [m_pos m_end] in HL.
  split.
  - unfold bwf. cbn [m_mem m_pos m_end m_cap]. rewrite zlength_app, HL, zlength_zskipn; lia.
  - unfold bdata at 1. unfold zslice. cbn [m_mem m_pos m_end m_cap].
    unfold zskipn at 1. cbn [Z.to_nat skipn]. unfold zfirstn. rewrite firstn_app.
    unfold zlength in HL.
    replace (Z.to_nat (e - p - 0) - length (bdata (mkbb m p e c)))%nat with 0%nat by lia.
    cbn [firstn]. rewrite app_nil_r. apply firstn_all2. lia.
Qed.

(* consume(k): the first min(k, available_data) bytes leave the queue *)
Lemma bconsume_spec : forall b k, bwf b -> 0 <= k ->
  bwf (bconsume b k) /\ bdata (bconsume b k) = zskipn (Z.min k (bavail b)) (bdata b).
Proof.
  intros [m p e c] k W Hk. destruct W as [H0 [H1 [H2 H3]]]. cbn [m_mem m_pos m_end m_cap] in *.
  unfold bconsume. unfold bavail. cbn [m_mem m_pos m_end m_cap].
  set (cnt := Z.min k (e - p)).
  assert (Hc : 0 <= cnt <= e - p) by (unfold cnt; lia).
  assert (W1 : bwf (mkbb m (p + cnt) e c)) by (unfold bwf; cbn [m_mem m_pos m_end m_cap]; lia).
  assert (D1 : bdata (mkbb m (p + cnt) e c) = zskipn cnt (bdata (mkbb m p e c))).
  { unfold bdata, zslice, zskipn, zfirstn. cbn [m_mem m_pos m_end m_cap]. rewrite sub_skip.
    f_equal; [lia|]. f_equal. lia. }
  destruct (c / 2 <? p + cnt).
  - destruct (bshift_spec _ W1) as [W2 D2]. split; [exact W2|]. rewrite D2. exact D1.
  - split; [exact W1|exact D1].
Qed.

(* read() wrote [bytes] into space(), then fill(len): they join the queue at the back *)
Lemma bwrite_fill_spec : forall b bytes, bwf b -> zlength bytes <= bspace b ->
  let b' := bfill (bwrite b bytes) (zlength bytes) in
  bwf b' /\ bdata b' = bdata b ++ bytes.
Proof.
  intros [m p e c] bytes W Hs. destruct W as [H0 [H1 [H2 H3]]]. unfold bspace in Hs.
  cbn [m_mem m_pos m_end m_cap] in *. pose proof (zlength_nonneg _ bytes) as Hb.
  unfold bwrite, bfill. cbn [m_mem m_pos m_end m_cap].
  set (m' := zfirstn e m ++ bytes ++ zskipn (e + zlength bytes) m).
  assert (Hmin : Z.min (zlength bytes) (bspace (mkbb m' p e c)) = zlength bytes)
    by (unfold bspace; cbn [m_mem m_pos m_end m_cap]; lia).
  rewrite Hmin.
  assert (Lm : zlength m' = c).
  { unfold m'. rewrite !zlength_app, zlength_zfirstn, zlength_zskipn; lia. }
  assert (W1 : bwf (mkbb m' p (e + zlength bytes) c)) by (unfold bwf; cbn [m_mem m_pos m_end m_cap]; lia).
  assert (D1 : bdata (mkbb m' p (e + zlength bytes) c) = bdata (mkbb m p e c) ++ bytes).
  { unfold bdata, zslice, m', zskipn, zfirstn, zlength in *. cbn [m_mem m_pos m_end m_cap].
    replace (Z.to_nat (e + Z.of_nat (length bytes))) with (Z.to_nat e + length bytes)%nat by lia.
    replace (Z.to_nat (e + Z.of_nat (length bytes) - p)) with (Z.to_nat e + length bytes - Z.to_nat p)%nat by lia.
    replace (Z.to_nat (e - p)) with (Z.to_nat e - Z.to_nat p)%nat by lia.
    apply sub_write; lia. }
  cbv zeta.
  match goal with |- context [if ?c then _ else _] => destruct c end.
  - destruct (bshift_spec _ W1) as [W2 D2]. split; [exact W2|]. rewrite D2. exact D1.
  - split; [exact W1|exact D1].
Qed.

(* grow(n): memory.resize(n, 0) *)
Lemma bgrow_spec : forall b n, bwf b -> bwf (bgrow b n) /\ bdata (bgrow b n) = bdata b.
Proof.
  intros [m p e c] n W. destruct W as [H0 [H1 [H2 H3]]]. cbn [m_mem m_pos m_end m_cap] in *.
  unfold bgrow. cbn [m_mem m_pos m_end m_cap]. destruct (n <=? c) eqn:E.
  - split; [unfold bwf; cbn [m_mem m_pos m_end m_cap]; lia|reflexivity].
  - apply Z.leb_gt in E. split.
    + unfold bwf. cbn [m_mem m_pos m_end m_cap]. rewrite zlength_app, zlength_zeros; lia.
    + unfold bdata, zslice, zfirstn, zskipn, zlength in *. cbn [m_mem m_pos m_end m_cap].
      apply sub_app_l. lia.
Qed.

Lemma bapply_spec : forall b o, bwf b -> bop_ok (idx b) o = true ->
  bwf (bapply b o) /\ idx (bapply b o) = capply (idx b) o /\ bdata (bapply b o) = qapply (bdata b) o.
Proof.
  intros b o W Hok. destruct o as [bytes|n|n|]; cbn [bapply capply qapply bop_ok] in *.
  - apply Z.leb_le in Hok.
    destruct (bwrite_fill_spec b bytes W) as [W' D']; [exact Hok|].
    split; [exact W'|]. split; [|exact D']. rewrite idx_fill, idx_write. reflexivity.
  - apply andb_true_iff in Hok. destruct Hok as [Ha Hb]. apply Z.leb_le in Ha. apply Z.leb_le in Hb.
    destruct (bconsume_spec b n W Ha) as [W' D']. split; [exact W'|]. split; [apply idx_consume|].
    rewrite D'. f_equal. unfold avail, idx, bavail in *. cbn [b_pos b_end] in Hb. lia.
  - destruct (bgrow_spec b n W) as [W' D']. split; [exact W'|]. split; [apply idx_grow|exact D'].
  - destruct (bshift_spec b W) as [W' D']. split; [exact W'|]. split; [apply idx_shift|exact D'].
Qed.

Theorem fifo_refinement : forall ops b, bwf b -> ops_ok (idx b) ops = true ->
  let b' := fold_left bapply ops b in
  bwf b' /\ idx b' = fold_left capply ops (idx b) /\ bdata b' = fold_left qapply ops (bdata b).
Proof.
  induction ops as [|o t IH]; intros b W Hok; cbn [fold_left].
  - split; [exact W|split; reflexivity].
  - cbn [ops_ok] in Hok. apply andb_true_iff in Hok. destruct Hok as [Ho Ht].
    destruct (bapply_spec b o W Ho) as [W' [I' D']].
    rewrite <- I' in Ht. specialize (IH (bapply b o) W' Ht). cbv zeta in IH.
    destruct IH as [A [B C]]. cbv zeta. rewrite <- I', <- D'. split; [exact A|split; [exact B|exact C]].
Qed.

Lemma avail_idx : forall b, avail (idx b) = bavail b.
Proof. reflexivity. Qed.
Lemma space_idx : forall b, space (idx b) = bspace b.
Proof. reflexivity. Qed.

(* a ++ b ++ c = inp: a and b are slices of inp *)
Lemma app3_slices : forall A (a b c inp : list A), a ++ b ++ c = inp ->
  a = zfirstn (zlength a) inp /\ b = zslice inp (zlength a) (zlength a + zlength b).
Proof.
  intros A a b c inp H. subst inp. unfold zfirstn, zslice, zskipn, zfirstn, zlength. split.
  - rewrite Nat2Z.id. rewrite firstn_app, Nat.sub_diag, firstn_all. cbn [firstn]. rewrite app_nil_r. reflexivity.
  - rewrite Nat2Z.id. rewrite skipn_app, Nat.sub_diag, skipn_all. cbn [skipn app].
    replace (Z.to_nat (Z.of_nat (length a) + Z.of_nat (length b) - Z.of_nat (length a))) with (length b) by lia.
    rewrite firstn_app, Nat.sub_diag, firstn_all. cbn [firstn]. rewrite app_nil_r. reflexivity.
Qed.

Section BSim.
  Variable L : Type.
  Variable llen : L -> Z.
  Variable PS : Type.
  Variable init_ps : PS.
  Variable recog : PS -> L -> PS + Z.
  Variable bump : PS -> PS.
  Variable lineno : PS -> Z.
  Hypothesis llen_pos : forall l, 1 <= llen l.
  Variable tail : Z.
  Hypothesis tail_nonneg : 0 <= tail.
  Variable ilen : Z.
  Variable lines : list L.
  Variable inp : list Z.                         (* the bytes of the input *)

  Local Notation St := (st L PS).
  Local Notation Bst := (bst L PS).
  Local Notation WFm := (WFm L llen PS init_ps recog bump lineno tail ilen lines).
  Local Notation WF := (WF L llen PS init_ps recog bump lineno tail ilen lines).
  Local Notation step := (step L llen PS recog bump lineno).
  Local Notation step_rest := (step_rest L llen PS recog lineno).
  Local Notation step_after_read := (step_after_read L llen PS recog lineno).
  Local Notation recovery := (recovery L llen PS bump).
  Local Notation parse_phase := (parse_phase L llen PS recog lineno).
  Local Notation bstep := (bstep L llen PS recog bump lineno).
  Local Notation b_step_rest := (b_step_rest L llen PS recog lineno).
  Local Notation b_step_after_read := (b_step_after_read L llen PS recog lineno).
  Local Notation b_recovery := (b_recovery L llen PS bump).
  Local Notation b_parse_phase := (b_parse_phase L llen PS recog lineno).
  Local Notation iter_nat := (iter_nat L llen PS recog bump lineno).
  Local Notation biter := (biter L llen PS recog bump lineno).

  (* the representation invariant *)
  Record BInv (x : Bst) : Prop := {
    bi_idx : idx (x_b x) = buf (x_s x);                         (* Model.v's indices are the real ones *)
    bi_wf : bwf (x_b x);
    bi_all : x_cb x ++ bdata (x_b x) ++ x_in x = inp;           (* nothing lost, nothing reordered *)
    bi_in : zlength (x_in x) = unread (x_s x);
    bi_cb : zlength (x_cb x) = cbsum (x_s x)
  }.

  Lemma binv_geom : forall x, BInv x -> geom (buf (x_s x)).
  Proof. intros x I. rewrite <- (bi_idx x I). apply bwf_geom. apply (bi_wf x I). Qed.

  Lemma consume_inv : forall x a s', BInv x -> 0 <= a <= avail (buf (x_s x)) ->
    buf s' = consume (buf (x_s x)) a -> unread s' = unread (x_s x) -> cbsum s' = cbsum (x_s x) + a ->
    BInv (mkb s' (bconsume (x_b x) a) (x_in x) (x_cb x ++ zfirstn a (bdata (x_b x)))).
  Proof.
    intros x a s' I Ha Hb Hu Hc. destruct I as [I1 I2 I3 I4 I5].
    rewrite <- I1, avail_idx in Ha.
    destruct (bconsume_spec (x_b x) a I2 (proj1 Ha)) as [W D].
    pose proof (bdata_length _ I2) as HL.
    constructor; cbn [x_s x_b x_in x_cb].
    - rewrite idx_consume, I1. symmetry. exact Hb.
    - exact W.
    - rewrite D. replace (Z.min a (bavail (x_b x))) with a by lia.
      rewrite <- app_assoc. rewrite (app_assoc (zfirstn a _)). unfold zfirstn, zskipn; rewrite firstn_skipn. exact I3.
    - rewrite Hu. exact I4.
    - rewrite zlength_app, zlength_zfirstn, I5, Hc; lia.
  Qed.

  Lemma write_inv : forall x n s', BInv x -> 0 <= n <= space (buf (x_s x)) -> n <= unread (x_s x) ->
    buf s' = fill (buf (x_s x)) n -> unread s' = unread (x_s x) - n -> cbsum s' = cbsum (x_s x) ->
    BInv (mkb s' (bfill (bwrite (x_b x) (zfirstn n (x_in x))) n) (zskipn n (x_in x)) (x_cb x)).
  Proof.
    intros x n s' I Hn Hun Hb Hu Hc. destruct I as [I1 I2 I3 I4 I5].
    rewrite <- I1, space_idx in Hn.
    assert (HL : zlength (zfirstn n (x_in x)) = n) by (apply zlength_zfirstn; lia).
    pose proof (bwrite_fill_spec (x_b x) (zfirstn n (x_in x)) I2) as S. rewrite HL in S.
    destruct (S (proj2 Hn)) as [W D].
    constructor; cbn [x_s x_b x_in x_cb].
    - rewrite idx_fill, idx_write, I1. symmetry. exact Hb.
    - exact W.
    - rewrite D. rewrite <- app_assoc. unfold zfirstn, zskipn; rewrite firstn_skipn. exact I3.
    - rewrite zlength_zskipn, Hu; lia.
    - rewrite Hc. exact I5.
  Qed.

  Lemma grow_inv : forall x n s', BInv x ->
    buf s' = grow (buf (x_s x)) n -> unread s' = unread (x_s x) -> cbsum s' = cbsum (x_s x) ->
    BInv (mkb s' (bgrow (x_b x) n) (x_in x) (x_cb x)).
  Proof.
    intros x n s' I Hb Hu Hc. destruct I as [I1 I2 I3 I4 I5].
    destruct (bgrow_spec (x_b x) n I2) as [W D].
    constructor; cbn [x_s x_b x_in x_cb].
    - rewrite idx_grow, I1. symmetry. exact Hb.
    - exact W.
    - rewrite D. exact I3.
    - rewrite Hu. exact I4.
    - rewrite Hc. exact I5.
  Qed.

  Lemma with_s_inv : forall x s', BInv x ->
    buf s' = buf (x_s x) -> unread s' = unread (x_s x) -> cbsum s' = cbsum (x_s x) ->
    BInv (with_s L PS x s').
  Proof.
    intros x s' I Hb Hu Hc. destruct I as [I1 I2 I3 I4 I5].
    constructor; cbn [with_s x_s x_b x_in x_cb]; try assumption; congruence.
  Qed.

  (* lock step: the byte-level loop and the index model take the same branch *)
  Definition sim (br : bres L PS) (r : stepres L PS) : Prop :=
    match br, r with
    | BNext x', Next s' => x_s x' = s' /\ BInv x'
    | BDone r1 x', Done r2 s' => r1 = r2 /\ x_s x' = s' /\ BInv x'
    | BPanic _, StPanic _ => True
    | _, _ => False
    end.

  Lemma b_recovery_inv : forall x, WFm (x_s x) -> BInv x ->
    x_s (b_recovery x) = recovery (x_s x) /\ BInv (b_recovery x).
  Proof.
    intros x W I. split; [reflexivity|].
    pose proof (binv_geom x I) as G.
    unfold Circular.b_recovery. destruct (Model.first_nl L llen PS (x_s x)) as [i|] eqn:F.
    - pose proof F as F'. apply (first_nl_some L llen PS init_ps recog bump lineno llen_pos) in F'. destruct F' as [l [t [Hr [Hi Hle]]]].
      rewrite Hr. cbv iota. destruct (wf_off _ _ _ _ _ _ _ _ _ _ _ W) as [Wo1 Wo2]. rewrite Hr in Wo2.
      apply consume_inv; try exact I; try lia.
      all: unfold Model.recovery; rewrite F, Hr; reflexivity.
    - assert (E : recovery (x_s x) = discard_all L PS (x_s x)).
      { unfold Model.recovery. rewrite F. reflexivity. }
      cbv iota. change (bavail (x_b x)) with (avail (idx (x_b x))). rewrite (bi_idx x I).
      rewrite E. destruct G as [G1 [G2 G3]].
      apply consume_inv; try exact I; try reflexivity. unfold avail. lia.
  Qed.

  Lemma b_parse_phase_sim : forall x, BInv x -> sim (b_parse_phase x) (parse_phase (x_s x)).
  Proof.
    intros x I. unfold Circular.b_parse_phase, Model.parse_phase.
    destruct (pr (x_s x)) eqn:Ep; [cbn [sim]; split; [reflexivity|exact I]|].
    rewrite (bwf_geom_ok _ (bi_wf x I)). rewrite (geom_ok_true _ (binv_geom x I)). cbn [negb].
    destruct (off (x_s x) =? 0); cbn [negb]; [|exact Logic.I].
    rewrite <- avail_idx, (bi_idx x I).
    pose proof (binv_geom x I) as G.
    assert (Hav : 0 <= avail (buf (x_s x))) by (destruct G as [? [? ?]]; unfold avail; lia).
    destruct (pm L llen PS recog lineno (avail (buf (x_s x))) (ps (x_s x)) (rest (x_s x)) 0 (log (x_s x)))
      as [[[[p' r'] c'] lg']|[c ln]] eqn:P.
    - apply (pm_inl L llen PS recog bump lineno llen_pos) in P; [|exact Hav].
      destruct P as [tk [H1 [H2 [H3 _]]]].
      pose proof (size_ge0 L llen llen_pos tk) as Hsz.
      replace (avail (buf (x_s x)) <? c') with false by (symmetry; apply Z.ltb_ge; lia).
      cbn [sim]. split; [reflexivity|].
      apply consume_inv; try exact I; try reflexivity. lia.
    - cbn [sim]. split; [reflexivity|split; [reflexivity|exact I]].
  Qed.

  Lemma b_step_after_read_sim : forall x1 n sch' sp, BInv x1 ->
    sp = space (buf (x_s x1)) -> 0 <= n <= sp -> n <= unread (x_s x1) ->
    sim (b_step_after_read n sch' sp x1) (step_after_read n sch' sp (x_s x1)).
  Proof.
    intros x1 n sch' sp I Hsp Hn Hu. subst sp.
    unfold Circular.b_step_after_read, Model.step_after_read. cbv zeta.
    match goal with |- context [mkb ?s2 (bfill ?w n) ?i ?c] =>
      assert (I2 : BInv (mkb s2 (bfill w n) i c)) by (apply write_inv; try exact I; try reflexivity; lia);
      set (S2 := s2) in *; set (X2 := mkb S2 (bfill w n) i c) in *
    end.
    destruct (n =? 0).
    - destruct (jf S2 && negb (avail (fill (buf (x_s x1)) n) =? 0)).
      + exact (b_parse_phase_sim X2 I2).
      + destruct (fc S2); [cbn [sim]; split; [reflexivity|split; [reflexivity|exact I2]]|].
        destruct ((space (buf (x_s x1)) =? 0) && negb (tg S2)).
        * destruct (MAX_CAP <? Z.min (b_cap (fill (buf (x_s x1)) n) * 2) U64MAX).
          { cbn [sim]. split; [reflexivity|]. apply with_s_inv; try exact I2; reflexivity. }
          { cbn [sim]. split; [reflexivity|]. apply (grow_inv X2); try exact I2; reflexivity. }
        * destruct (total S2 =? 0); cbn [sim]; (split; [reflexivity|split; [reflexivity|exact I2]]).
    - apply (b_parse_phase_sim (with_s L PS X2 (set_tg L PS S2 false))).
      apply with_s_inv; try exact I2; reflexivity.
  Qed.

  Lemma b_step_rest_sim : forall x1, BInv x1 -> sim (b_step_rest x1) (step_rest (x_s x1)).
  Proof.
    intros x1 I. unfold Circular.b_step_rest, Model.step_rest.
    rewrite (bwf_geom_ok _ (bi_wf x1 I)). rewrite (geom_ok_true _ (binv_geom x1 I)). cbn [negb].
    rewrite <- space_idx, (bi_idx x1 I).
    destruct (read_n L PS (space (buf (x_s x1))) (x_s x1)) as [n sch'] eqn:R.
    pose proof (binv_geom x1 I) as G.
    assert (Hs : 0 <= space (buf (x_s x1))) by (destruct G as [? [? ?]]; unfold space; lia).
    assert (Hu : 0 <= unread (x_s x1)) by (rewrite <- (bi_in x1 I); apply zlength_nonneg).
    destruct (read_n_spec L PS init_ps recog bump lineno _ _ _ _ R Hs Hu) as [A [B _]].
    apply b_step_after_read_sim; try assumption. reflexivity.
  Qed.

  Lemma bstep_sim : forall x0, WFm (x_s x0) -> BInv x0 -> sim (bstep x0) (step (x_s x0)).
  Proof.
    intros x0 W I. unfold Circular.bstep, Model.step.
    rewrite (bwf_geom_ok _ (bi_wf x0 I)). rewrite (geom_ok_true _ (binv_geom x0 I)). cbn [negb].
    rewrite andb_false_r.
    destruct (pr (x_s x0)) eqn:Ep.
    - destruct (b_recovery_inv x0 W I) as [E I1]. rewrite <- E. apply b_step_rest_sim. exact I1.
    - apply b_step_rest_sim. exact I.
  Qed.

  (* any number of iterations: lock step, and the index run keeps its invariant *)
  Lemma biter_sim : forall n x0, WF (x_s x0) -> BInv x0 ->
    sim (biter n x0) (iter_nat n (x_s x0)) /\
    match iter_nat n (x_s x0) with Next s => WF s | Done _ s => WFm s | StPanic _ => False end.
  Proof.
    induction n as [|n IH]; intros x0 W I; cbn [Circular.biter Proofs.iter_nat].
    - cbn [sim]. split; [split; [reflexivity|exact I]|exact W].
    - pose proof (bstep_sim x0 (wf_m _ _ _ _ _ _ _ _ _ _ _ W) I) as S.
      pose proof (step_wf L llen PS init_ps recog bump lineno llen_pos tail tail_nonneg ilen lines (x_s x0) W) as SW.
      destruct (bstep x0) as [x1|r1 x1|t1]; destruct (step (x_s x0)) as [s1|r2 s1|t2]; cbn [sim] in S; try contradiction.
      + destruct S as [<- I1]. destruct SW as [W1 _]. apply IH; assumption.
      + split; [exact S|apply SW].
  Qed.
End BSim.

Section BTop.
  Variable L : Type.
  Variable llen : L -> Z.
  Variable PS : Type.
  Variable init_ps : PS.
  Variable recog : PS -> L -> PS + Z.
  Variable bump : PS -> PS.
  Variable lineno : PS -> Z.
  Hypothesis llen_pos : forall l, 1 <= llen l.

  Local Notation init_st := (init_st L llen PS init_ps).
  Local Notation iter_pos := (iter_pos L llen PS recog bump lineno).
  Local Notation iter_nat := (iter_nat L llen PS recog bump lineno).
  Local Notation biter := (biter L llen PS recog bump lineno).
  Local Notation input_len := (input_len L llen).
  Local Notation WF' lines t0 := (WF L llen PS init_ps recog bump lineno (Z.max 0 t0) (input_len lines t0) lines).
  Local Notation WFm' lines t0 := (WFm L llen PS init_ps recog bump lineno (Z.max 0 t0) (input_len lines t0) lines).

  (* what the buffer, the callback and the reader hold, in terms of the input *)
  Definition window (inp : list Z) (x : bst L PS) : Prop :=
    let s := x_s x in
    idx (x_b x) = buf s /\
    x_cb x ++ bdata (x_b x) ++ x_in x = inp /\
    x_cb x = zfirstn (total s) inp /\
    bdata (x_b x) = zslice inp (total s) (total s + avail (buf s)).

  Lemma binv_window : forall lines t0 inp x, BInv L PS inp x -> WFm' lines t0 (x_s x) -> window inp x.
  Proof.
    intros lines t0 inp x I W. destruct I as [I1 I2 I3 I4 I5].
    pose proof (wf_cb _ _ _ _ _ _ _ _ _ _ _ W) as Hcb.
    pose proof (bdata_length _ I2) as HL. rewrite <- avail_idx, I1 in HL.
    destruct (app3_slices _ _ _ _ _ I3) as [A B]. rewrite I5, Hcb in A. rewrite I5, Hcb, HL in B.
    unfold window. cbv zeta. repeat split; assumption.
  Qed.

  Lemma binit_inv : forall lines t0 sch inp, zlength inp = input_len lines t0 ->
    BInv L PS inp (binit L PS (init_st lines t0 sch) inp).
  Proof.
    intros lines t0 sch inp H. unfold binit, Model.init_st.
    constructor; cbn [x_s x_b x_in x_cb buf unread cbsum b_cap]; try reflexivity; [|exact H].
    apply bwf_with_capacity. unfold INITIAL_CAP. lia.
  Qed.

  (* The byte-level run goes in lock step with the index run, and whatever follows from the representation invariant and
     the loop invariant holds in each of its states. *)
  Lemma reach_sim : forall (Q : bst L PS -> st L PS -> Prop) lines t0 sch inp p, zlength inp = input_len lines t0 ->
    (forall x, BInv L PS inp x -> WFm' lines t0 (x_s x) -> Q x (x_s x)) ->
    let x0 := binit L PS (init_st lines t0 sch) inp in
    match iter_pos p (init_st lines t0 sch) with
    | Next s => exists x, biter (Pos.to_nat p) x0 = BNext x /\ Q x s
    | Done r s => exists x, biter (Pos.to_nat p) x0 = BDone r x /\ Q x s
    | StPanic _ => False
    end.
  Proof.
    intros Q lines t0 sch inp p H HQ x0. rewrite iter_pos_nat.
    pose proof (init_wf' L llen PS init_ps recog bump lineno llen_pos lines t0 sch) as W0.
    destruct (biter_sim L llen PS init_ps recog bump lineno llen_pos (Z.max 0 t0) ltac:(lia)
                        (input_len lines t0) lines inp (Pos.to_nat p) x0 W0 (binit_inv lines t0 sch inp H)) as [S W].
    change (x_s x0) with (init_st lines t0 sch) in S, W.
    destruct (iter_nat (Pos.to_nat p) (init_st lines t0 sch)) as [s|r s|t];
      destruct (biter (Pos.to_nat p) x0) as [x|r1 x|t1]; cbn [sim] in S; try contradiction.
    - destruct S as [<- I]. exists x. split; [reflexivity|]. apply HQ; [exact I|apply W].
    - destruct S as [<- [<- I]]. exists x. split; [reflexivity|]. apply HQ; [exact I|exact W].
  Qed.

  Lemma zlength_zero_nil : forall A (l : list A), zlength l = 0 -> l = [].
  Proof. intros A l H. destruct l; [reflexivity|]. unfold zlength in H. cbn [length] in H. lia. Qed.

  (* a successful parse has handed the WHOLE input to the callback, byte for byte, and left nothing in the buffer *)
  Lemma ok_callback_whole : forall lines t0 sch inp p s, zlength inp = input_len lines t0 ->
    drive L llen PS init_ps recog bump lineno lines t0 sch = Ret (ROk p, s) ->
    exists x, biter (Pos.to_nat (fuel_for L llen lines t0)) (binit L PS (init_st lines t0 sch) inp) = BDone (ROk p) x /\
              x_s x = s /\ x_cb x = inp /\ bdata (x_b x) = [] /\ x_in x = [].
  Proof.
    intros lines t0 sch inp p s H D.
    destruct (drive_ret_fin L llen PS init_ps recog bump lineno llen_pos lines t0 sch _ _ D) as [_ [_ [Fa [Fu _]]]].
    unfold Model.drive in D.
    pose proof (reach_sim (fun x s => x_s x = s /\ BInv L PS inp x) lines t0 sch inp (fuel_for L llen lines t0) H
                          (fun x I _ => conj eq_refl I)) as R. cbv zeta in R.
    destruct (iter_pos (fuel_for L llen lines t0) (init_st lines t0 sch)) as [s1|r1 s1|t1]; try discriminate.
    inversion D; subst r1 s1. clear D.
    destruct R as [x [B [E [I1 I2 I3 I4 I5]]]]. exists x. split; [exact B|]. split; [exact E|]. rewrite E in *.
    pose proof (bdata_length _ I2) as HL. rewrite <- avail_idx, I1, Fa in HL.
    rewrite Fu in I4.
    apply zlength_zero_nil in HL. apply zlength_zero_nil in I4.
    rewrite HL, I4, !app_nil_r in I3. repeat split; assumption.
  Qed.
End BTop.
