(* C09/PinsNum.v — the numeric helpers of parser.rs.
   coq/Gen/C09Numeric.v is `hex_str` / `decimal_u32` COMPILED from the Rust source (translate/c09_numeric.py), over plain
   byte lists, with the checked operators of both build profiles and the slice site `&input[k..]`.  Here:
   * the compiled functions never panic, for every byte list (any Z as a byte), in both profiles;
   * they are equal to the number recognisers of Grammar.v (which work on run-length encoded lines);
   * a declarative description of what they accept: the longest prefix of at most N digit bytes, non-empty; the value is the
     positional value; decimal_u32 additionally rejects values above u32::MAX; a byte >= 0x80 is never a digit. *)
From Coq Require Import Lia ZArith List Bool.
From RM Require Import Base.Word Base.WordFacts C08.Model C11.Model C09.Grammar Gen.C09Numeric.
Import ListNotations.
Open Scope Z_scope.

(* the bytes of a run-length encoded line *)
Fixpoint expand (s : rle) : list Z :=
  match s with
  | [] => []
  | (b, c) :: t => repeat b (Z.to_nat (Z.max 1 c)) ++ expand t
  end.

Lemma expand_to_rle l : expand (to_rle l) = l.
Proof.
  unfold to_rle. induction l as [|b t IH]; cbn [map expand]; [reflexivity|].
  change (Z.to_nat (Z.max 1 1)) with 1%nat. cbn [repeat app]. rewrite IH. reflexivity.
Qed.

Lemma uncons_expand s :
  match uncons s with
  | None => expand s = []
  | Some (b, s') => expand s = b :: expand s'
  end.
Proof.
  destruct s as [|[b c] t]; cbn [uncons]; [reflexivity|].
  destruct (c <=? 1) eqn:E.
  - cbn [expand]. replace (Z.max 1 c) with 1 by lia. reflexivity.
  - cbn [expand]. replace (Z.max 1 c) with c by lia. replace (Z.max 1 (c - 1)) with (c - 1) by lia.
    replace (Z.to_nat c) with (S (Z.to_nat (c - 1))) by lia. reflexivity.
Qed.

(* char::to_digit vs the digit tables of Grammar.v *)
Lemma between_spec lo hi b : BoolSpec (lo <= b <= hi) (~ lo <= b <= hi) ((lo <=? b) && (b <=? hi)).
Proof. destruct (Z.leb_spec lo b), (Z.leb_spec b hi); constructor; lia. Qed.

(* to_digit knows the letters up to 'z' / 'Z' and then compares with the radix; the tables stop at 'f' / 'F' *)
Lemma to_digit_16 b : to_digit b 16 = hexval b.
Proof.
  unfold to_digit, hexval.
  destruct (between_spec 48 57 b). { destruct (Z.ltb_spec (b - 48) 16); [reflexivity|lia]. }
  destruct (between_spec 97 122 b).
  { destruct (between_spec 97 102 b), (Z.ltb_spec (b - 97 + 10) 16); try lia; [f_equal; lia|].
    destruct (between_spec 65 70 b); [lia|reflexivity]. }
  destruct (between_spec 97 102 b); [lia|].
  destruct (between_spec 65 90 b).
  - destruct (between_spec 65 70 b), (Z.ltb_spec (b - 65 + 10) 16); try lia; [f_equal; lia|reflexivity].
  - destruct (between_spec 65 70 b); [lia|reflexivity].
Qed.

Lemma to_digit_10 b : to_digit b 10 = decval b.
Proof.
  unfold to_digit, decval.
  destruct (between_spec 48 57 b). { destruct (Z.ltb_spec (b - 48) 10); [reflexivity|lia]. }
  destruct (between_spec 97 122 b). { destruct (Z.ltb_spec (b - 97 + 10) 10); [lia|reflexivity]. }
  destruct (between_spec 65 90 b); [destruct (Z.ltb_spec (b - 65 + 10) 10); [lia|]|]; reflexivity.
Qed.

Lemma hexval_range b d : hexval b = Some d -> 0 <= d < 16.
Proof.
  unfold hexval.
  destruct ((48 <=? b) && (b <=? 57)) eqn:E1; [intros H; inversion H; lia|].
  destruct ((97 <=? b) && (b <=? 102)) eqn:E2; [intros H; inversion H; lia|].
  destruct ((65 <=? b) && (b <=? 70)) eqn:E3; [intros H; inversion H; lia|discriminate].
Qed.
Lemma decval_range b d : decval b = Some d -> 0 <= d < 10.
Proof. unfold decval. destruct ((48 <=? b) && (b <=? 57)) eqn:E1; [intros H; inversion H; lia|discriminate]. Qed.

(* a byte outside ASCII is never a digit *)
Lemma non_ascii_no_digit b : 128 <= b -> hexval b = None /\ decval b = None.
Proof.
  intros H. unfold hexval, decval.
  destruct (Z.leb_spec b 57), (Z.leb_spec b 102), (Z.leb_spec b 70); try lia.
  rewrite !andb_false_r. split; reflexivity.
Qed.

Lemma land_low a d : 0 <= d < 16 -> Z.land (a * 16) d = 0.
Proof.
  intros Hd. apply Z.bits_inj'. intros n Hn. rewrite Z.land_spec, Z.bits_0.
  change (a * 16) with (a * 2 ^ 4). rewrite <- Z.shiftl_mul_pow2 by lia.
  destruct (Z.lt_ge_cases n 4) as [L|G].
  - rewrite Z.shiftl_spec_low by lia. reflexivity.
  - assert (E : Z.testbit d n = false).
    { destruct (Z.eq_dec d 0) as [->|N]; [apply Z.bits_0|].
      apply Z.bits_above_log2; [lia|]. assert (Z.log2 d < 4) by (apply Z.log2_lt_pow2; [lia|]; change (2 ^ 4) with 16; lia). lia. }
    rewrite E. apply andb_false_r.
Qed.

Lemma lor_low a d : 0 <= d < 16 -> Z.lor (a * 16) d = a * 16 + d.
Proof.
  intros Hd. pose proof (land_low a d Hd) as L.
  rewrite (Z.add_nocarry_lxor _ _ L). symmetry. apply Z.lxor_lor. exact L.
Qed.

(* [body] is the compiled loop body, [val] / [base] the digit table it should implement, [lim] the bound below which the
   accumulator cannot overflow: while (acc + 1) * base <= lim one more digit fits. *)
Section Loop.
Context (body : Z * Z -> Z -> outcome (option (Z * Z))) (val : Z -> option Z) (base lim : Z).
Hypothesis base_pos : 0 < base.
Hypothesis val_range : forall b d, val b = Some d -> 0 <= d < base.
Hypothesis body_ok : forall acc k b, 0 <= acc -> (acc + 1) * base <= lim -> 0 <= k -> k + 1 < 2 ^ 64 ->
  body (acc, k) b = Ret (match val b with Some d => Some (acc * base + d, k + 1) | None => None end).
Hypothesis body_none : forall acc k b, val b = None -> body (acc, k) b = Ret None.

Lemma loop_is_digits : forall n s acc k v k' s',
  digits val base n s acc k = (v, k', s') -> 0 <= acc -> (acc + 1) * base ^ Z.of_nat n <= lim -> 0 <= k ->
  k + Z.of_nat n < 2 ^ 64 ->
  for_take n (expand s) body (acc, k) = Ret (v, k') /\
  expand s' = skipn (Z.to_nat (k' - k)) (expand s) /\ k <= k' /\ k' - k <= Z.of_nat (length (expand s)).
Proof.
  induction n as [|n IH]; intros s acc k v k' s' H Ha Hl Hk Hk2.
  - cbn [digits] in H. inversion H; subst. cbn [for_take]. rewrite Z.sub_diag. cbn [Z.to_nat skipn].
    repeat split; try reflexivity; lia.
  - cbn [digits] in H. pose proof (uncons_expand s) as U.
    assert (HP : 0 < base ^ Z.of_nat n) by (apply Z.pow_pos_nonneg; lia).
    rewrite Nat2Z.inj_succ, Z.pow_succ_r in Hl by lia.
    destruct (uncons s) as [[b s1]|].
    + rewrite U. cbn [for_take].
      destruct (val b) as [d|] eqn:Ed.
      * pose proof (val_range _ _ Ed) as Hd.
        assert (Hstep : (acc + 1) * base <= lim).
        { assert ((acc + 1) * base * 1 <= (acc + 1) * base * base ^ Z.of_nat n) by (apply Z.mul_le_mono_nonneg_l; nia). nia. }
        rewrite body_ok by lia. rewrite Ed. cbn [obind].
        assert (Hl' : (acc * base + d + 1) * base ^ Z.of_nat n <= lim).
        { assert ((acc * base + d + 1) * base ^ Z.of_nat n <= ((acc + 1) * base) * base ^ Z.of_nat n)
            by (apply Z.mul_le_mono_nonneg_r; nia). nia. }
        assert (H0 : 0 <= acc * base + d) by nia.
        destruct (IH s1 (acc * base + d) (k + 1) v k' s' H H0 Hl' ltac:(lia) ltac:(lia)) as (A & B & C & D).
        split; [exact A|]. split.
        { replace (Z.to_nat (k' - k)) with (S (Z.to_nat (k' - (k + 1)))) by lia. cbn [skipn]. exact B. }
        split; [lia|]. cbn [length]. lia.
      * inversion H; subst. rewrite body_none by assumption. cbn [obind]. rewrite Z.sub_diag. cbn [Z.to_nat skipn].
        repeat split; try lia; try exact U.
    + inversion H; subst. rewrite U. cbn [for_take]. rewrite Z.sub_diag. cbn [Z.to_nat skipn].
      repeat split; try lia; try (symmetry; exact U).
Qed.

(* what [digits] accepts, declaratively: the longest prefix of at most n digit bytes *)
Definition is_digit (b : Z) : Prop := val b <> None.
Definition dvalue (acc : Z) (ds : list Z) : Z :=
  fold_left (fun a b => a * base + match val b with Some d => d | None => 0 end) ds acc.
Definition stops (l : list Z) : Prop := match l with [] => True | b :: _ => val b = None end.

Lemma digits_grammar : forall n s acc k v k' s',
  digits val base n s acc k = (v, k', s') ->
  exists ds, expand s = ds ++ expand s' /\ Z.of_nat (length ds) = k' - k /\ (length ds <= n)%nat /\
             Forall is_digit ds /\ v = dvalue acc ds /\ (length ds = n \/ stops (expand s')).
Proof.
  induction n as [|n IH]; intros s acc k v k' s' H.
  - cbn [digits] in H. inversion H; subst. exists []. cbn. repeat split; try lia; auto.
  - cbn [digits] in H. pose proof (uncons_expand s) as U.
    destruct (uncons s) as [[b s1]|].
    + destruct (val b) as [d|] eqn:Ed.
      * destruct (IH _ _ _ _ _ _ H) as (ds & A & B & C & D & E & F).
        exists (b :: ds). rewrite U, A. cbn [app length dvalue fold_left]. rewrite Ed.
        repeat split; try lia; auto.
        -- constructor; [unfold is_digit; congruence|assumption].
        -- destruct F as [F|F]; [left; lia|right; exact F].
      * inversion H; subst. exists []. cbn. repeat split; try lia; auto. right. rewrite U. exact Ed.
    + inversion H; subst. exists []. cbn. repeat split; try lia; auto. right. rewrite U. exact I.
Qed.

Lemma dvalue_bound : forall ds acc, 0 <= acc -> 0 <= dvalue acc ds /\ dvalue acc ds + 1 <= (acc + 1) * base ^ Z.of_nat (length ds).
Proof.
  induction ds as [|b t IH]; intros acc Ha; cbn [dvalue fold_left length].
  - change (base ^ Z.of_nat 0) with 1. lia.
  - assert (Hd : 0 <= match val b with Some d => d | None => 0 end < base).
    { destruct (val b) eqn:E; [eapply val_range; eassumption|lia]. }
    set (d := match val b with Some d => d | None => 0 end) in *.
    destruct (IH (acc * base + d)) as [A B]; [nia|]. fold (dvalue (acc * base + d) t). split; [exact A|].
    assert (HP : 0 < base ^ Z.of_nat (length t)) by (apply Z.pow_pos_nonneg; lia).
    rewrite Nat2Z.inj_succ, Z.pow_succ_r by lia.
    assert ((acc * base + d + 1) * base ^ Z.of_nat (length t) <= ((acc + 1) * base) * base ^ Z.of_nat (length t))
      by (apply Z.mul_le_mono_nonneg_r; nia).
    lia.
Qed.
End Loop.

Lemma hex_body_ok p sz : forall acc k b, 0 <= acc -> (acc + 1) * 16 <= 2 ^ (sz * 8) -> 0 <= k -> k + 1 < 2 ^ 64 ->
  hex_str_body p sz (acc, k) b = Ret (match hexval b with Some d => Some (acc * 16 + d, k + 1) | None => None end).
Proof.
  intros acc k b Ha Hl Hk Hk2. unfold hex_str_body. rewrite to_digit_16.
  destruct (hexval b) as [d|] eqn:Ed; [|reflexivity].
  pose proof (hexval_range _ _ Ed) as Hd.
  unfold chk_add. rewrite chk_ok by lia. cbn [obind].
  unfold shl_w. change (2 ^ 4) with 16. rewrite (Z.mod_small (acc * 16)) by lia.
  rewrite (Z.mod_small d 256) by lia. rewrite lor_low by assumption. reflexivity.
Qed.
Lemma hex_body_none p sz acc k b : hexval b = None -> hex_str_body p sz (acc, k) b = Ret None.
Proof. intros H. unfold hex_str_body. rewrite to_digit_16, H. reflexivity. Qed.

Lemma dec_body_ok p : forall acc k b, 0 <= acc -> (acc + 1) * 10 <= 2 ^ 64 -> 0 <= k -> k + 1 < 2 ^ 64 ->
  decimal_u32_body p (acc, k) b = Ret (match decval b with Some d => Some (acc * 10 + d, k + 1) | None => None end).
Proof.
  intros acc k b Ha Hl Hk Hk2. unfold decimal_u32_body. cbv zeta. rewrite to_digit_10.
  destruct (decval b) as [d|] eqn:Ed; [|reflexivity].
  pose proof (decval_range _ _ Ed) as Hd.
  unfold chk_mul, chk_add. rewrite (chk_ok p 64 _ (acc * 10)) by lia. cbn [obind].
  rewrite (chk_ok p 64 _ (acc * 10 + d)) by lia. cbn [obind].
  rewrite chk_ok by lia. reflexivity.
Qed.
Lemma dec_body_none p acc k b : decval b = None -> decimal_u32_body p (acc, k) b = Ret None.
Proof. intros H. unfold decimal_u32_body. cbv zeta. rewrite to_digit_10, H. reflexivity. Qed.

(* the result type of the compiled functions: (remaining bytes, value) *)
Definition lift (o : option (Z * rle)) : option (list Z * Z) :=
  match o with Some (v, s') => Some (expand s', v) | None => None end.

Lemma hex_src_is_grammar p sz nd : (sz = 4 /\ nd = 8%nat) \/ (sz = 8 /\ nd = 16%nat) -> forall s,
  hex_str_src p sz (expand s) = Ret (lift (Grammar.hex_str nd s)).
Proof.
  intros Hsz s. unfold hex_str_src, Grammar.hex_str.
  assert (E2 : chk_mul p 64 9511 sz 2 = Ret (Z.of_nat nd)).
  { unfold chk_mul. destruct Hsz as [[-> ->]|[-> ->]]; apply chk_ok; cbn; lia. }
  rewrite E2. cbn [obind]. cbv zeta. rewrite Nat2Z.id.
  destruct (digits hexval 16 nd s 0 0) as [[v k'] s'] eqn:E.
  assert (P1 : (0 + 1) * 16 ^ Z.of_nat nd <= 2 ^ (sz * 8)) by (destruct Hsz as [[-> ->]|[-> ->]]; vm_compute; discriminate).
  assert (P2 : 0 + Z.of_nat nd < 2 ^ 64) by (destruct Hsz as [[_ ->]|[_ ->]]; vm_compute; reflexivity).
  destruct (loop_is_digits (hex_str_body p sz) hexval 16 (2 ^ (sz * 8)) ltac:(lia) hexval_range
              (hex_body_ok p sz) (hex_body_none p sz) nd s 0 0 v k' s' E ltac:(lia) P1 ltac:(lia) P2) as (A & B & C & D).
  rewrite A. cbn [obind]. rewrite Z.sub_0_r in B, D.
  destruct (k' =? 0); [reflexivity|].
  unfold slice_from. destruct (Z.leb_spec 0 k'); [|lia]. destruct (Z.leb_spec k' (Z.of_nat (length (expand s)))); [|lia].
  cbn [andb obind lift]. rewrite B. reflexivity.
Qed.

Lemma dec_src_is_grammar p : forall s, decimal_u32_src p (expand s) = Ret (lift (Grammar.decimal_u32 s)).
Proof.
  intros s. unfold decimal_u32_src, Grammar.decimal_u32. cbv zeta.
  change (Z.to_nat 10) with 10%nat.
  destruct (digits decval 10 10%nat s 0 0) as [[v k'] s'] eqn:E.
  assert (P1 : (0 + 1) * 10 ^ Z.of_nat 10 <= 2 ^ 64) by (vm_compute; discriminate).
  assert (P2 : 0 + Z.of_nat 10 < 2 ^ 64) by (vm_compute; reflexivity).
  destruct (loop_is_digits (decimal_u32_body p) decval 10 (2 ^ 64) ltac:(lia) decval_range
              (dec_body_ok p) (dec_body_none p) 10%nat s 0 0 v k' s' E ltac:(lia) P1 ltac:(lia) P2) as (A & B & C & D).
  rewrite A. cbn [obind]. rewrite Z.sub_0_r in B, D.
  destruct (k' =? 0); [reflexivity|].
  destruct (Z.leb_spec v U32MAX) as [L|G].
  - destruct (Z.ltb_spec U32MAX v); [lia|].
    unfold slice_from. destruct (Z.leb_spec 0 k'); [|lia]. destruct (Z.leb_spec k' (Z.of_nat (length (expand s)))); [|lia].
    cbn [andb obind lift]. rewrite B. reflexivity.
  - destruct (Z.ltb_spec U32MAX v); [|lia]. reflexivity.
Qed.

Definition hexdigits (ds : list Z) : Prop := Forall (fun b => hexval b <> None) ds.
Definition decdigits (ds : list Z) : Prop := Forall (fun b => decval b <> None) ds.
Definition hex_stops (l : list Z) : Prop := match l with [] => True | b :: _ => hexval b = None end.
Definition dec_stops (l : list Z) : Prop := match l with [] => True | b :: _ => decval b = None end.

(* hex_str::<u32> (sz = 4, 8 digits) / hex_str::<u64> (sz = 8, 16 digits), any byte list, both profiles:
   never a panic; error iff the input does not start with a hex digit; otherwise the longest prefix of at most 2*sz hex
   digits is consumed and its positional value (< 2^(8*sz)) returned *)
Lemma hex_src_grammar p sz nd : (sz = 4 /\ nd = 8%nat) \/ (sz = 8 /\ nd = 16%nat) -> forall input,
  (hex_str_src p sz input = Ret None /\ hex_stops input) \/
  (exists ds rest, hex_str_src p sz input = Ret (Some (rest, dvalue hexval 16 0 ds)) /\ input = ds ++ rest /\ ds <> [] /\
                   (length ds <= nd)%nat /\ hexdigits ds /\ (length ds = nd \/ hex_stops rest) /\
                   0 <= dvalue hexval 16 0 ds < 2 ^ (8 * sz)).
Proof.
  intros Hsz input. rewrite <- (expand_to_rle input). set (s := to_rle input).
  rewrite (hex_src_is_grammar p sz nd Hsz). unfold Grammar.hex_str.
  destruct (digits hexval 16 nd s 0 0) as [[v k'] s'] eqn:E.
  destruct (digits_grammar hexval 16 nd s 0 0 v k' s' E) as (ds & A & B & C & D & V & F).
  destruct (Z.eqb_spec k' 0) as [K|K].
  - left. split; [reflexivity|]. destruct ds as [|? ?]; [|cbn [length] in B; lia].
    cbn [app] in A. rewrite A. destruct F as [F|F]; [|exact F].
    cbn [length] in F. subst nd. destruct Hsz as [[_ X]|[_ X]]; discriminate.
  - right. exists ds, (expand s'). cbn [lift]. rewrite V.
    split; [reflexivity|]. split; [exact A|]. split; [intros ->; cbn [length] in B; lia|].
    split; [exact C|]. split; [exact D|]. split; [exact F|].
    destruct (dvalue_bound hexval 16 ltac:(lia) hexval_range ds 0 ltac:(lia)) as [V0 V1]. split; [exact V0|].
    assert (16 ^ Z.of_nat (length ds) <= 16 ^ Z.of_nat nd) by (apply Z.pow_le_mono_r; lia).
    assert (16 ^ Z.of_nat nd = 2 ^ (8 * sz)) by (destruct Hsz as [[-> ->]|[-> ->]]; reflexivity).
    lia.
Qed.

(* decimal_u32, any byte list, both profiles: never a panic (the u64 accumulator cannot overflow within 10 digits);
   error iff the input does not start with a decimal digit or the value of the (at most 10) digits exceeds u32::MAX *)
Lemma dec_src_grammar p : forall input,
  (decimal_u32_src p input = Ret None /\ dec_stops input) \/
  (exists ds rest, input = ds ++ rest /\ ds <> [] /\ (length ds <= 10)%nat /\ decdigits ds /\
                   (length ds = 10%nat \/ dec_stops rest) /\ 0 <= dvalue decval 10 0 ds < 10 ^ 10 /\
                   decimal_u32_src p input =
                   Ret (if dvalue decval 10 0 ds <=? U32MAX then Some (rest, dvalue decval 10 0 ds) else None)).
Proof.
  intros input. rewrite <- (expand_to_rle input). set (s := to_rle input).
  rewrite (dec_src_is_grammar p). unfold Grammar.decimal_u32.
  destruct (digits decval 10 10%nat s 0 0) as [[v k'] s'] eqn:E.
  destruct (digits_grammar decval 10 10%nat s 0 0 v k' s' E) as (ds & A & B & C & D & V & F).
  destruct (Z.eqb_spec k' 0) as [K|K].
  - left. split; [reflexivity|]. destruct ds as [|? ?]; [|cbn [length] in B; lia].
    cbn [app] in A. rewrite A. destruct F as [F|F]; [discriminate|exact F].
  - right. exists ds, (expand s'). rewrite V.
    split; [exact A|]. split; [intros ->; cbn [length] in B; lia|].
    split; [exact C|]. split; [exact D|]. split; [exact F|].
    destruct (dvalue_bound decval 10 ltac:(lia) decval_range ds 0 ltac:(lia)) as [V0 V1].
    assert (10 ^ Z.of_nat (length ds) <= 10 ^ Z.of_nat 10) by (apply Z.pow_le_mono_r; lia).
    change (10 ^ Z.of_nat 10) with (10 ^ 10) in *.
    split; [lia|].
    destruct (Z.ltb_spec U32MAX (dvalue decval 10 0 ds)); destruct (Z.leb_spec (dvalue decval 10 0 ds) U32MAX); try lia; reflexivity.
Qed.
