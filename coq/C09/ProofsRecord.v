(* C09/ProofsRecord.v — a whole record as a declarative grammar over BYTES, both directions.
   FILE and INLINE_ORIGIN records (the top-level parsers [p_file] / [p_inline_origin] of Grammar.v, which work on run-length
   encoded lines):
       line ::= KEYWORD sp+ digit{1,10} sp+ name cr*        sp = ' ' | '\t',  cr = '\r',  value(digits) <= u32::MAX,
                                                             name: no '\r', does not start with sp, well-formed UTF-8
   The recogniser answers POk (id, name) iff the bytes of the line have this shape with id = value(digits) and the bytes of the
   returned string = name; PErr (alt tries the next parser) iff the line does not start with KEYWORD sp; PFail (cut) otherwise.
   Also here, for all record kinds: tag, space1, the longest prefix of at most n digits ([digits_sound] / [digits_complete]),
   the name field, the header test ([hdr_err_iff]) and `alt` ([alt_some] / [alt_none]).
   The other record kinds are in ProofsRecord2.v (STACK CFI, line records; also the vocabulary [spaces], [hex_field],
   [dec_field], [text_tail] in which their predicates are written), 3 (PUBLIC, FUNC), 4 (INFO, MODULE), 5 (STACK WIN), 6 (INLINE). *)
From Coq Require Import Lia ZArith List Bool.
From RM Require Import Base.Word C08.Model C11.Model C09.Grammar C09.PinsNum C09.ProofsText.
Import ListNotations.
Open Scope Z_scope.

Definition sp_byte (b : Z) : Prop := b = 32 \/ b = 9.
Lemma is_sp_iff b : is_sp b = true <-> sp_byte b.
Proof. unfold is_sp, sp_byte. rewrite orb_true_iff, !Z.eqb_eq. reflexivity. Qed.

(* a maximal prefix is unique *)
Lemma split_unique (P : Z -> Prop) : forall a1 r1 a2 r2,
  Forall P a1 -> starts (fun b => ~ P b) r1 -> Forall P a2 -> starts (fun b => ~ P b) r2 ->
  a1 ++ r1 = a2 ++ r2 -> a1 = a2 /\ r1 = r2.
Proof.
  induction a1 as [|x t IH]; intros r1 a2 r2 H1 S1 H2 S2 E.
  - destruct a2 as [|y u]; [split; [reflexivity|exact E]|].
    cbn [app] in E. subst r1. cbn in S1. inversion H2; subst. contradiction.
  - destruct a2 as [|y u].
    + cbn [app] in E. subst r2. cbn in S2. inversion H1; subst. contradiction.
    + cbn [app] in E. inversion E; subst. inversion H1; subst. inversion H2; subst.
      destruct (IH r1 u r2) as [A B]; try assumption. subst. split; reflexivity.
Qed.

(* the longer of two all-P prefixes, when the shorter one is followed by a non-P byte, is the shorter one *)
Lemma prefix_unique (P : Z -> Prop) : forall a1 r1 a2 r2,
  Forall P a1 -> Forall P a2 -> starts (fun b => ~ P b) r2 -> a1 ++ r1 = a2 ++ r2 ->
  (length a2 <= length a1)%nat -> a1 = a2 /\ r1 = r2.
Proof.
  induction a1 as [|x t IH]; intros r1 a2 r2 H1 H2 S2 E L.
  - destruct a2 as [|y u]; [split; [reflexivity|exact E]|cbn in L; lia].
  - destruct a2 as [|y u].
    + cbn [app] in E. subst r2. cbn in S2. inversion H1; subst. contradiction.
    + cbn [app] in E. inversion E; subst. inversion H1; subst. inversion H2; subst. cbn [length] in L.
      destruct (IH r1 u r2) as [A B]; try assumption; [lia|]. subst. split; reflexivity.
Qed.

Lemma tag_sound bs : forall s s', tag bs s = Some s' -> expand s = bs ++ expand s'.
Proof.
  induction bs as [|x t IH]; intros s s' H; cbn [tag] in H.
  - inversion H; subst. reflexivity.
  - pose proof (uncons_expand s) as U. destruct (uncons s) as [[b s1]|]; [|discriminate].
    destruct (Z.eqb_spec b x); [|discriminate]. subst. rewrite U. cbn [app]. f_equal. apply IH. exact H.
Qed.

Lemma tag_complete bs : forall s r, expand s = bs ++ r -> exists s', tag bs s = Some s' /\ expand s' = r.
Proof.
  induction bs as [|x t IH]; intros s r H; cbn [tag].
  - exists s. split; [reflexivity|exact H].
  - pose proof (uncons_expand s) as U. destruct (uncons s) as [[b s1]|].
    + rewrite U in H. cbn [app] in H. inversion H; subst. rewrite Z.eqb_refl. apply IH. assumption.
    + rewrite U in H. discriminate.
Qed.

Lemma skip_while_length p s : (length (skip_while p s) <= length s)%nat.
Proof. induction s as [|[b c] t IH]; cbn [skip_while length]; [lia|]. destruct (p b); cbn [length]; lia. Qed.

Lemma space1_sound s s' : space1 s = Some s' ->
  exists sp, expand s = sp ++ expand s' /\ sp <> [] /\ Forall sp_byte sp /\ starts (fun b => ~ sp_byte b) (expand s').
Proof.
  intros H.
  assert (Hs : s' = skip_while is_sp s /\ (length s' < length s)%nat).
  { unfold space1 in H. destruct s as [|[b c] t]; [discriminate|]. destruct (is_sp b) eqn:E; [|discriminate].
    inversion H. split; [reflexivity|]. cbn [skip_while]. rewrite E. pose proof (skip_while_length is_sp t). cbn [length]. lia. }
  destruct Hs as [-> Hlen].
  destruct (skip_while_split is_sp s) as (pre & A & B & C).
  remember (skip_while is_sp s) as r. clear Heqr H.
  exists (expand pre). split; [rewrite A at 1; apply expand_app|]. split.
  { destruct pre as [|[b0 c0] pre']; [cbn [app] in A; subst s; lia|].
    destruct (expand_cons_head b0 c0 pre') as [x X]. rewrite X. discriminate. }
  split. { apply Forall_expand. eapply Forall_impl; [|exact B]. intros a Ha. apply is_sp_iff. exact Ha. }
  destruct r as [|[b1 c1] t1]; [exact I|].
  destruct (expand_cons_head b1 c1 t1) as [x X]. rewrite X. cbn. intros Hs. apply is_sp_iff in Hs. congruence.
Qed.

Lemma space1_none s : space1 s = None -> starts (fun b => ~ sp_byte b) (expand s).
Proof.
  unfold space1. destruct s as [|[b c] t]; [intros; exact I|]. destruct (is_sp b) eqn:E; [discriminate|]. intros _.
  destruct (expand_cons_head b c t) as [x X]. rewrite X. cbn. intros Hs. apply is_sp_iff in Hs. congruence.
Qed.

Lemma space1_complete s sp r : expand s = sp ++ r -> sp <> [] -> Forall sp_byte sp -> starts (fun b => ~ sp_byte b) r ->
  exists s', space1 s = Some s' /\ expand s' = r.
Proof.
  intros E N F S. destruct (space1 s) as [s'|] eqn:H.
  - exists s'. split; [reflexivity|]. destruct (space1_sound s s' H) as (sp' & A & B & C & D).
    rewrite A in E. destruct (split_unique sp_byte sp' (expand s') sp r C D F S E) as [_ R]. exact R.
  - exfalso. apply space1_none in H. rewrite E in H. destruct sp as [|x t]; [contradiction|].
    cbn in H. inversion F; subst. contradiction.
Qed.

Section Digits.
Context (val : Z -> option Z) (base : Z).

Lemma digits_sound n s v k s' : digits val base n s 0 0 = (v, k, s') -> k <> 0 ->
  exists ds, expand s = ds ++ expand s' /\ ds <> [] /\ (length ds <= n)%nat /\ Forall (fun b => val b <> None) ds /\
             v = dvalue val base 0 ds /\ (length ds = n \/ starts (fun b => val b = None) (expand s')).
Proof.
  intros E K. destruct (digits_grammar val base n s 0 0 v k s' E) as (ds & A & B & C & D & V & F).
  exists ds. split; [exact A|]. split; [intros ->; cbn [length] in B; lia|]. split; [exact C|]. split; [exact D|].
  split; [exact V|]. destruct F as [F|F]; [left; exact F|right]. unfold stops in F. destruct (expand s'); [exact I|exact F].
Qed.

Lemma digits_complete n s ds r : expand s = ds ++ r -> ds <> [] -> (length ds <= n)%nat ->
  Forall (fun b => val b <> None) ds -> starts (fun b => val b = None) r ->
  exists k s', digits val base n s 0 0 = (dvalue val base 0 ds, k, s') /\ k <> 0 /\ expand s' = r.
Proof.
  intros E N L D Sr. destruct (digits val base n s 0 0) as [[v k] s0] eqn:Ed.
  destruct (digits_grammar val base n s 0 0 v k s0 Ed) as (ds' & A & B & C & D' & V & F).
  assert (Hstop : starts (fun b => ~ (val b <> None)) r).
  { destruct r as [|x t]; [exact I|]. cbn in *. intros Q. apply Q. exact Sr. }
  assert (X : ds' = ds /\ expand s0 = r).
  { rewrite A in E. destruct F as [F|F].
    - apply (prefix_unique (fun b => val b <> None)); try assumption. lia.
    - apply (split_unique (fun b => val b <> None)); try assumption.
      unfold stops in F. destruct (expand s0); [exact I|]. cbn. intros Q. apply Q. exact F. }
  destruct X as [-> X]. exists k, s0. rewrite V. split; [reflexivity|]. split; [|exact X].
  destruct ds; [contradiction|]. cbn [length] in B. lia.
Qed.
End Digits.

(* a separator follows: the digits end there *)
Lemma spaces_stop (val : Z -> option Z) sp r : (forall b, sp_byte b -> val b = None) -> sp <> [] -> Forall sp_byte sp ->
  starts (fun b => val b = None) (sp ++ r).
Proof. intros H N F. destruct sp as [|x t]; [contradiction|]. inversion F; subst. cbn. auto. Qed.

(* terminated(decimal_u32, space1) *)
Definition dec_digits (ds : list Z) : Prop := Forall (fun b => decval b <> None) ds.
Definition dec_value (ds : list Z) : Z := dvalue decval 10 0 ds.

Lemma sp_not_digit b : sp_byte b -> decval b = None.
Proof. intros [->| ->]; reflexivity. Qed.

Lemma decsp_sound s v s' : decsp s = Some (v, s') ->
  exists ds sp, expand s = ds ++ sp ++ expand s' /\ ds <> [] /\ (length ds <= 10)%nat /\ dec_digits ds /\
                v = dec_value ds /\ v <= U32MAX /\ sp <> [] /\ Forall sp_byte sp /\
                starts (fun b => ~ sp_byte b) (expand s').
Proof.
  unfold decsp, osp, Grammar.decimal_u32.
  destruct (digits decval 10 10%nat s 0 0) as [[v0 k] s0] eqn:E.
  destruct (Z.eqb_spec k 0) as [|K]; [discriminate|]. destruct (Z.ltb_spec U32MAX v0); [discriminate|].
  destruct (space1 s0) as [s2|] eqn:E2; [|discriminate]. intros HH. inversion HH; subst. clear HH.
  destruct (digits_sound _ _ _ _ _ _ _ E K) as (ds & A & N & L & D & V & _).
  destruct (space1_sound s0 s' E2) as (sp & A2 & B2 & C2 & D2).
  exists ds, sp. rewrite A, A2. repeat split; assumption.
Qed.

Lemma decsp_complete s ds sp r : expand s = ds ++ sp ++ r -> ds <> [] -> (length ds <= 10)%nat -> dec_digits ds ->
  dec_value ds <= U32MAX -> sp <> [] -> Forall sp_byte sp -> starts (fun b => ~ sp_byte b) r ->
  exists s', decsp s = Some (dec_value ds, s') /\ expand s' = r.
Proof.
  intros E N L D V Ns Fs Sr. unfold decsp, osp, Grammar.decimal_u32.
  destruct (digits_complete decval 10 10 s ds _ E N L D (spaces_stop decval sp r sp_not_digit Ns Fs)) as (k & s0 & Ed & K & X).
  rewrite Ed. destruct (Z.eqb_spec k 0); [contradiction|]. fold (dec_value ds).
  destruct (Z.ltb_spec U32MAX (dec_value ds)); [lia|].
  destruct (space1_complete s0 sp r X Ns Fs Sr) as (s' & S1 & S2). rewrite S1. exists s'. split; [reflexivity|exact S2].
Qed.

Lemma name_eol_sound s n : name_eol s = Some n ->
  exists name crs, expand s = name ++ crs /\ Forall (fun b => b <> 13) name /\ Forall (fun b => b = 13) crs /\
                   wf8 name /\ expand n = name.
Proof.
  intros H. destruct (name_eol_bytes s) as (name & rest & A & B & C & D & E). rewrite D in H.
  destruct (utf8_bytes name) eqn:U; [|discriminate]. destruct (forallb (fun b => b =? 13) rest) eqn:R; [|discriminate].
  cbn [andb] in H. inversion H as [Hn]. exists name, rest.
  split; [exact A|]. split; [exact B|].
  split. { apply Forall_forall. intros x Hx. rewrite forallb_forall in R. apply Z.eqb_eq. auto. }
  split; [apply utf8_bytes_wf; exact U|]. exact E.
Qed.

Lemma name_eol_complete s name crs : expand s = name ++ crs -> Forall (fun b => b <> 13) name ->
  Forall (fun b => b = 13) crs -> wf8 name -> exists n, name_eol s = Some n /\ expand n = name.
Proof.
  intros E Fn Fc W. destruct (name_eol_bytes s) as (name' & rest' & A & B & C & D & E').
  assert (X : name' = name /\ rest' = crs).
  { rewrite A in E. apply (split_unique (fun b => b <> 13)); try assumption.
    - destruct rest'; [exact I|]. cbn in *. intros Q. apply Q. exact C.
    - destruct crs; [exact I|]. cbn. inversion Fc; subst. intros Q. apply Q. reflexivity. }
  destruct X as [-> ->]. rewrite D. apply utf8_bytes_wf in W. rewrite W.
  assert (R : forallb (fun b => b =? 13) crs = true).
  { apply forallb_forall. intros x Hx. rewrite Forall_forall in Fc. apply Z.eqb_eq. auto. }
  rewrite R. cbn [andb]. eexists. split; [reflexivity|exact E'].
Qed.

(* KEYWORD sp+ id sp+ name cr* *)
Definition id_name_line (kw l : list Z) (id : Z) (name : list Z) : Prop :=
  exists sp1 ds sp2 crs,
    l = kw ++ sp1 ++ ds ++ sp2 ++ name ++ crs /\
    sp1 <> [] /\ Forall sp_byte sp1 /\
    ds <> [] /\ (length ds <= 10)%nat /\ dec_digits ds /\ id = dec_value ds /\ id <= U32MAX /\
    sp2 <> [] /\ Forall sp_byte sp2 /\
    starts (fun b => ~ sp_byte b) (name ++ crs) /\ Forall (fun b => b <> 13) name /\ wf8 name /\
    Forall (fun b => b = 13) crs.

(* does the line start with KEYWORD followed by a space or tab? *)
Definition has_header (kw l : list Z) : Prop := exists b r, l = kw ++ b :: r /\ sp_byte b.

Lemma hdr_some kw s s1 : hdr kw s = Some s1 -> has_header kw (expand s).
Proof.
  unfold hdr. destruct (tag kw s) as [s0|] eqn:T; [|discriminate]. intros H.
  destruct (space1_sound s0 s1 H) as (sp & A & B & C & D). apply tag_sound in T.
  destruct sp as [|x t]; [contradiction|]. inversion C; subst.
  exists x, (t ++ expand s1). split; [|assumption]. rewrite T, A. reflexivity.
Qed.

Lemma hdr_none kw s : hdr kw s = None -> ~ has_header kw (expand s).
Proof.
  unfold hdr. intros H (b & r & E & S).
  destruct (tag_complete kw s (b :: r) E) as (s0 & T & X). rewrite T in H.
  apply space1_none in H. rewrite X in H. cbn in H. contradiction.
Qed.

(* `terminated(tag(kw), space1)` followed by `cut(..)`: PErr (alt tries the next record kind) iff the header is missing.
   The only overlapping headers are "INFO URL " and "INFO " (INFO URL is tried first). *)
Lemma hdr_err_iff {A} kw (f : rle -> option A) s :
  match hdr kw s with None => PErr | Some s1 => cutp (f s1) end = PErr <-> ~ has_header kw (expand s).
Proof.
  destruct (hdr kw s) as [s1|] eqn:H.
  - split; [destruct (f s1); discriminate|intros N; exfalso; apply N; eapply hdr_some; eassumption].
  - split; [intros _; apply hdr_none; exact H|reflexivity].
Qed.

Section IdName.
Context (kw : list Z) (mk : Z -> rle -> item).
(* p_file / p_inline_origin are this, with their keyword and constructor *)
Definition p_id_name (s : rle) : pres item :=
  match hdr kw s with
  | None => PErr
  | Some s1 => cutp (match id_name s1 with Some (id, n) => Some (mk id n) | None => None end)
  end.

Lemma p_id_name_sound s it : p_id_name s = POk it ->
  exists id n name, it = mk id n /\ id_name_line kw (expand s) id name /\ expand n = name.
Proof.
  unfold p_id_name. destruct (hdr kw s) as [s1|] eqn:Hh; [|discriminate].
  unfold cutp. destruct (id_name s1) as [[id n]|] eqn:Hi; [|discriminate].
  intros H. inversion H; subst it. clear H.
  unfold hdr in Hh. destruct (tag kw s) as [s0|] eqn:T; [|discriminate].
  apply tag_sound in T. destruct (space1_sound s0 s1 Hh) as (sp1 & A1 & B1 & C1 & D1).
  unfold id_name in Hi. destruct (decsp s1) as [[v s2]|] eqn:Hd; [|discriminate].
  destruct (name_eol s2) as [nm|] eqn:Hn; [|discriminate]. inversion Hi; subst v nm.
  destruct (decsp_sound s1 id s2 Hd) as (ds & sp2 & A2 & N2 & L2 & D2 & V2 & U2 & Ns & Fs & Ss).
  destruct (name_eol_sound s2 n Hn) as (name & crs & A3 & F3 & C3 & W3 & E3).
  exists id, n, name. split; [reflexivity|]. split; [|exact E3].
  exists sp1, ds, sp2, crs. rewrite T, A1, A2, A3. rewrite A3 in Ss. repeat split; assumption.
Qed.

Lemma p_id_name_complete s id name : id_name_line kw (expand s) id name ->
  exists n, p_id_name s = POk (mk id n) /\ expand n = name.
Proof.
  intros (sp1 & ds & sp2 & crs & E & N1 & F1 & Nd & Ld & Dd & Vd & Ud & N2 & F2 & Sn & Fn & Wn & Fc).
  destruct (tag_complete kw s _ E) as (s0 & T & X0).
  assert (S1 : starts (fun b => ~ sp_byte b) (ds ++ sp2 ++ name ++ crs)).
  { destruct ds as [|d t]; [contradiction|]. cbn. inversion Dd; subst. intros Q. apply sp_not_digit in Q. contradiction. }
  destruct (space1_complete s0 sp1 _ X0 N1 F1 S1) as (s1 & Sp & X1).
  subst id.
  destruct (decsp_complete s1 ds sp2 (name ++ crs) X1 Nd Ld Dd Ud N2 F2 Sn) as (s2 & Dc & X2).
  destruct (name_eol_complete s2 name crs X2 Fn Fc Wn) as (n & Ne & En).
  exists n. split; [|exact En].
  unfold p_id_name, hdr. rewrite T, Sp. unfold id_name. rewrite Dc, Ne. reflexivity.
Qed.
End IdName.

(* "FILE 12 \t a\xc3\xa9\r\r" is a FILE line with id 12 and name "aé" *)
Lemma file_line_example :
  id_name_line T_FILE ([70; 73; 76; 69] ++ [32] ++ [49; 50] ++ [32; 9] ++ [97; 195; 169] ++ [13; 13]) 12 [97; 195; 169].
Proof.
  exists [32], [49; 50], [32; 9], [13; 13].
  split; [reflexivity|]. split; [discriminate|]. split; [constructor; [left; reflexivity|constructor]|].
  split; [discriminate|]. split; [cbn; lia|].
  split; [unfold dec_digits; repeat constructor; cbn; discriminate|].
  split; [reflexivity|]. split; [vm_compute; discriminate|]. split; [discriminate|].
  split; [constructor; [left; reflexivity|constructor; [right; reflexivity|constructor]]|].
  split; [cbn; unfold sp_byte; lia|]. split; [repeat constructor; lia|].
  split; [apply wf8_1; [lia|]; apply wf8_2; [lia|unfold cont; lia|constructor]|].
  repeat constructor.
Qed.

(* alt: the first parser that does not answer PErr decides *)
Lemma alt_some ps s it : alt ps s = Some it <->
  exists pre p post, ps = pre ++ p :: post /\ Forall (fun q => q s = PErr) pre /\ p s = POk it.
Proof.
  induction ps as [|p t IH]; cbn [alt].
  - split; [discriminate|]. intros (pre & q & post & E & _). destruct pre; discriminate.
  - destruct (p s) as [| |i] eqn:E.
    + rewrite IH. split.
      * intros (pre & q & post & -> & F & Q). exists (p :: pre), q, post. repeat split; [constructor; assumption|exact Q].
      * intros (pre & q & post & E1 & F & Q). destruct pre as [|x pre'].
        -- cbn [app] in E1. inversion E1; subst. congruence.
        -- cbn [app] in E1. inversion E1; subst. inversion F; subst. exists pre', q, post. repeat split; assumption.
    + split; [discriminate|]. intros (pre & q & post & E1 & F & Q). destruct pre as [|x pre'].
      * cbn [app] in E1. inversion E1; subst. congruence.
      * cbn [app] in E1. inversion E1; subst. inversion F; subst. congruence.
    + split.
      * intros H. inversion H; subst. exists [], p, t. repeat split; [constructor|exact E].
      * intros (pre & q & post & E1 & F & Q). destruct pre as [|x pre'].
        -- cbn [app] in E1. inversion E1; subst. congruence.
        -- cbn [app] in E1. inversion E1; subst. inversion F; subst. congruence.
Qed.

Lemma alt_none ps s : alt ps s = None <->
  Forall (fun q => q s = PErr) ps \/ exists pre p post, ps = pre ++ p :: post /\ Forall (fun q => q s = PErr) pre /\ p s = PFail.
Proof.
  induction ps as [|p t IH]; cbn [alt].
  - split; [left; constructor|reflexivity].
  - destruct (p s) as [| |i] eqn:E.
    + rewrite IH. split.
      * intros [F|(pre & q & post & -> & F & Q)]; [left; constructor; assumption|].
        right. exists (p :: pre), q, post. repeat split; [constructor; assumption|exact Q].
      * intros [F|(pre & q & post & E1 & F & Q)]; [inversion F; subst; left; assumption|].
        destruct pre as [|x pre']; cbn [app] in E1; inversion E1; subst; [congruence|].
        inversion F; subst. right. exists pre', q, post. repeat split; assumption.
    + split; [|reflexivity]. intros _. right. exists [], p, t. repeat split; [constructor|exact E].
    + split; [discriminate|]. intros [F|(pre & q & post & E1 & F & Q)]; [inversion F; subst; congruence|].
      destruct pre as [|x pre']; cbn [app] in E1; inversion E1; subst; [congruence|]. inversion F; subst. congruence.
Qed.
