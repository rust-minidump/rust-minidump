(* C09/ProofsFinish.v — SymbolParser::finish never panics on a parser state the recogniser can
   reach: the numeric fields the number recognisers produce are in range, the invariant is kept
   by every line, and under it every range-map builder and insert_win_stack_info return. *)
From Coq Require Import Lia ZArith List Bool.
From RM Require Import Base.Word C08.Model C11.Model C09.Model C09.Grammar C09.Driver C08.Proofs.
Import ListNotations.
Open Scope Z_scope.

(* numeric fields produced by the number recognisers are in range *)
Definition fr_wf (f : Grammar.func_raw) : Prop :=
  0 <= Grammar.fr_addr f /\ 0 <= Grammar.fr_size f /\ Forall (fun l => 0 <= l_addr l) (Grammar.fr_lines f).
Definition cfi_wf (c : cfi_raw) : Prop := 0 <= cr_addr (ci_init c) /\ 0 <= ci_size c.
Definition wi_wf (w : win_info) : Prop := 0 <= wi_addr w /\ 0 <= wi_size w < 4294967296.
Definition pst_wf (p : pst) : Prop :=
  match p_cur p with CFunc f => fr_wf f | CCfi c => cfi_wf c | CNone => True end /\
  Forall fr_wf (p_funcs p) /\ Forall cfi_wf (p_cfis p) /\ Forall wi_wf (p_win_fd p) /\ Forall wi_wf (p_win_fpo p).

Lemma digits_bound val base :
  0 < base -> (forall b d, val b = Some d -> 0 <= d < base) ->
  forall n s acc k v k' s', digits val base n s acc k = (v, k', s') -> 0 <= acc ->
  0 <= v /\ v + 1 <= (acc + 1) * base ^ Z.of_nat n.
Proof.
  intros Hb Hv. induction n as [|n IH]; intros s acc k v k' s' H Ha.
  - cbn [digits] in H. inversion H; subst. change (base ^ Z.of_nat 0) with 1. lia.
  - cbn [digits] in H.
    assert (HP : 0 < base ^ Z.of_nat n) by (apply Z.pow_pos_nonneg; lia).
    rewrite Nat2Z.inj_succ, Z.pow_succ_r by lia.
    destruct (uncons s) as [[b s1]|]; [destruct (val b) as [d|] eqn:E|].
    + specialize (Hv _ _ E). apply IH in H; [|nia]. destruct H as [H0 H1]. split; [lia|].
      assert ((acc * base + d + 1) * base ^ Z.of_nat n <= ((acc + 1) * base) * base ^ Z.of_nat n)
        by (apply Z.mul_le_mono_nonneg_r; nia).
      lia.
    + inversion H; subst. split; [lia|]. nia.
    + inversion H; subst. split; [lia|]. nia.
Qed.

(* PinsNum.v proves this too; it is repeated because PinsNum.v rests on the regenerated Gen/C09Numeric.v, which the
   checks of C08, C10 and C11 (they build this file) do not regenerate *)
Lemma hexval_range b d : hexval b = Some d -> 0 <= d < 16.
Proof.
  unfold hexval.
  destruct ((48 <=? b) && (b <=? 57)) eqn:E1; [intros H; inversion H; lia|].
  destruct ((97 <=? b) && (b <=? 102)) eqn:E2; [intros H; inversion H; lia|].
  destruct ((65 <=? b) && (b <=? 70)) eqn:E3; [intros H; inversion H; lia|discriminate].
Qed.

Lemma hex_str_bound n s v s' : hex_str n s = Some (v, s') -> 0 <= v < 16 ^ Z.of_nat n.
Proof.
  unfold hex_str. destruct (digits hexval 16 n s 0 0) as [[v0 k] s0] eqn:E.
  destruct (k =? 0); [discriminate|]. intros H; inversion H; subst.
  apply digits_bound in E; [lia|lia|apply hexval_range|lia].
Qed.

Lemma osp_some {A} (o : option (A * rle)) v s' : osp o = Some (v, s') -> exists s1, o = Some (v, s1).
Proof.
  unfold osp. destruct o as [[v0 s1]|]; [|discriminate]. destruct (space1 s1); [|discriminate].
  intros H; inversion H; subst. eexists; reflexivity.
Qed.

Lemma hex64sp_bound s v s' : hex64sp s = Some (v, s') -> 0 <= v < two64.
Proof.
  unfold hex64sp. intros H. apply osp_some in H. destruct H as [s1 H]. apply hex_str_bound in H.
  assert (E : 16 ^ Z.of_nat 16 = two64) by reflexivity. lia.
Qed.

Lemma hex32sp_bound s v s' : hex32sp s = Some (v, s') -> 0 <= v < 4294967296.
Proof.
  unfold hex32sp. intros H. apply osp_some in H. destruct H as [s1 H]. apply hex_str_bound in H.
  assert (E : 16 ^ Z.of_nat 8 = 4294967296) by reflexivity. lia.
Qed.

Definition item_wf (it : item) : Prop :=
  match it with
  | IFunc f => fr_wf f /\ Grammar.fr_lines f = []
  | ICfiInit c => cfi_wf c
  | IWin (FrameData i) => wi_wf i
  | IWin (Fpo i) => wi_wf i
  | _ => True
  end.

(* A successful run of a record parser, as a hypothesis H : (chain of `let?` and `if`) = POk _ / Some _: [brk] destructs
   every scrutinee in it (failing branches vanish), [crack] then inverts the result and turns each hex64sp / hex32sp success
   into the bound on its value ([bounds]).  Used here and by C11. *)
Ltac brk :=
  repeat match goal with
         | H : context [match ?e with _ => _ end] |- _ => destruct e eqn:?; try discriminate
         end.
Ltac bounds :=
  repeat match goal with
         | H : hex64sp _ = Some (_, _) |- _ => apply hex64sp_bound in H
         | H : hex32sp _ = Some (_, _) |- _ => apply hex32sp_bound in H
         end.
Ltac crack :=
  brk;
  repeat match goal with
         | H : POk _ = POk _ |- _ => inversion H; clear H
         | H : Some _ = Some _ |- _ => inversion H; clear H
         end;
  subst; bounds.

Lemma alt_in ps s it : alt ps s = Some it -> exists p, In p ps /\ p s = POk it.
Proof.
  induction ps as [|p t IH]; cbn [alt]; [discriminate|]. destruct (p s) as [| |i] eqn:E; [|discriminate|].
  - intros H. destruct (IH H) as (q & Hq & Hs). exists q. split; [right; exact Hq|exact Hs].
  - intros H. inversion H; subst. exists p. split; [left; reflexivity|exact E].
Qed.

(* whichever record kind a top-level line is, the numeric fields of the record are in range *)
Lemma line_top_wf s it : line_top s = Some it -> item_wf it.
Proof.
  unfold line_top. intros H. apply alt_in in H. destruct H as (p & Hin & H). cbn [In] in Hin.
  repeat (destruct Hin as [<-|Hin]); [..|contradiction];
    unfold p_info_url, p_info, p_file, p_inline_origin, p_public, p_func, p_stack_win, p_stack_cfi_init, p_module,
           cutp, guard in H; cbv zeta in H; crack; try exact I.
  (* left: FUNC, STACK WIN, STACK CFI INIT, whose numbers come from hex_str *)
  - cbn. unfold fr_wf. cbn. repeat split; try lia. constructor.
  - unfold win_of_fields. cbv zeta.
    repeat match goal with |- context [if ?c then _ else _] => destruct c end; cbn; auto; unfold wi_wf; cbn; lia.
  - cbn. unfold cfi_wf. cbn. lia.
Qed.

Lemma sub_line_data_wf s l : sub_line_data s = Some l -> 0 <= l_addr l.
Proof.
  unfold sub_line_data, guard. intros H. crack. cbn. lia.
Qed.

Lemma sub_func_line_wf s l : sub_func s = Some (SLine l) -> 0 <= l_addr l.
Proof.
  unfold sub_func. intros H.
  destruct (tag T_INLINE_ORIGIN_SP s).
  - destruct (p_inline_origin s) as [| |[]]; discriminate.
  - destruct (tag T_INLINE_SP s).
    + destruct (sub_inline s); discriminate.
    + destruct (sub_line_data s) eqn:E; [|discriminate]. inversion H; subst.
      eapply sub_line_data_wf; eauto.
Qed.

Lemma close_cur_wf p : pst_wf p -> pst_wf (close_cur p) /\ p_cur (close_cur p) = CNone.
Proof.
  unfold pst_wf, close_cur. intros (Hc & Hf & Hci & Hfd & Hfpo).
  destruct (p_cur p) eqn:E; cbn; rewrite ?E; repeat split; auto.
Qed.

Lemma close_cur_lines p : p_lines (close_cur p) = p_lines p.
Proof. unfold close_cur. destruct (p_cur p); reflexivity. Qed.

(* one line at top level keeps the invariant and counts as one line *)
Lemma top_spec p s p' : pst_wf p -> top p s = inl p' -> pst_wf p' /\ p_lines p' = p_lines p + 1.
Proof.
  unfold pst_wf, top. intros (Hc & Hf & Hci & Hfd & Hfpo) H.
  destruct (eol s).
  { inversion H; subst; cbn; auto 10. }
  destruct (line_top s) as [it|] eqn:E; [|discriminate].
  apply line_top_wf in E.
  destruct it as [id f|u| |id nm|id nm|pb|f|w|c]; cbn in E;
    [destruct (p_lines p =? 0); [|discriminate]| | | | | | |destruct w as [i|i|]|];
    inversion H; subst; cbn; repeat split; auto 10; apply E.
Qed.

Lemma recog_pst_spec : forall p s p', pst_wf p -> recog_pst p s = inl p' -> pst_wf p' /\ p_lines p' = p_lines p + 1.
Proof.
  intros p s p' Hwf H. unfold recog_pst in H.
  pose proof Hwf as (Hc & Hf & Hci & Hfd & Hfpo).
  assert (Hclose : pst_wf p' /\ p_lines p' = p_lines (close_cur p) + 1 -> pst_wf p' /\ p_lines p' = p_lines p + 1)
    by (rewrite close_cur_lines; auto).
  destruct (p_cur p) as [|f|c] eqn:Ec.
  - eapply top_spec; eauto.
  - destruct (sub_func s) as [[id nm|l|l]|] eqn:Es.
    + inversion H; subst. split; [|reflexivity]. unfold pst_wf; cbn; auto.
    + inversion H; subst. split; [|reflexivity]. unfold pst_wf; cbn. repeat split; auto; apply Hc.
    + inversion H; subst. split; [|reflexivity]. apply sub_func_line_wf in Es.
      unfold pst_wf, fr_wf; cbn. destruct Hc as (A & B & C). repeat split; auto.
    + apply Hclose. eapply top_spec; [|eassumption]. apply close_cur_wf; assumption.
  - destruct (sub_cfi s) as [r|].
    + inversion H; subst. split; [|reflexivity]. unfold pst_wf; cbn. repeat split; auto; apply Hc.
    + apply Hclose. eapply top_spec; [|eassumption]. apply close_cur_wf; assumption.
Qed.

Lemma bump_pst_wf p : pst_wf p -> pst_wf (bump_pst p).
Proof. unfold pst_wf, bump_pst, set_lines_cur; cbn; auto. Qed.

Lemma replay_wf : forall (ds : list (bool * rle)) p p',
  pst_wf p -> replay rle pst recog_pst bump_pst lineno_pst p ds = inl p' ->
  pst_wf p' /\ p_lines p' = p_lines p + Z.of_nat (length ds).
Proof.
  induction ds as [|[b l] t IH]; intros p p' Hwf H.
  - cbn in H. inversion H; subst. cbn. split; [assumption|lia].
  - cbn [replay] in H. cbn [length]. rewrite Nat2Z.inj_succ. destruct b.
    + apply IH in H; [|apply bump_pst_wf; assumption]. destruct H as [A B]. split; [assumption|].
      rewrite B. cbn. lia.
    + destruct (recog_pst p l) as [p1|c] eqn:E; [|discriminate].
      destruct (recog_pst_spec p l p1 Hwf E) as [W1 N1].
      apply IH in H; [|exact W1]. destruct H as [A B]. split; [assumption|]. lia.
Qed.

Lemma init_pst_wf : pst_wf init_pst.
Proof. unfold pst_wf, init_pst; cbn; auto. Qed.

Lemma line_entries_wf ls : Forall (fun l => 0 <= l_addr l) ls -> wf_entries (line_entries ls).
Proof.
  unfold wf_entries, line_entries. induction 1 as [|l t Hl Ht IH]; cbn [filter map].
  - constructor.
  - destruct (0 <? l_size l) eqn:E; [|assumption]. cbn [map]. constructor; [|assumption].
    cbn [fst]. unfold mk_range_line, checked_add.
    destruct (l_addr l + (l_size l - 1) <? 2 ^ 64) eqn:E1; [|exact I].
    unfold wf_range; cbn [fst snd]. rewrite two64_val. lia.
Qed.

Lemma finish_func_total fr : fr_wf fr ->
  exists x, finish_func fr = Ret x /\ match x with Some e => wf_range (fst e) | None => True end.
Proof.
  intros (A & B & C). unfold finish_func.
  rewrite (build_total line_eqb).
  2:{ apply line_entries_wf. apply Forall_rev. assumption. }
  cbn [obind]. eexists. split; [reflexivity|].
  destruct (mk_range (Grammar.fr_addr fr) (Grammar.fr_size fr)) eqn:E; [|exact I].
  cbn [fst]. exact (mk_range_wf _ _ _ A B E).
Qed.

Lemma finish_funcs_total l : Forall fr_wf l -> exists fl, finish_funcs l = Ret fl /\ wf_ranges fl.
Proof.
  induction 1 as [|fr t Hf Ht IH]; cbn [finish_funcs].
  - eexists; split; [reflexivity|constructor].
  - destruct (finish_func_total fr Hf) as (x & Hx & Hw). destruct IH as (rest & Hr & Hrw).
    rewrite Hx. cbn [obind]. rewrite Hr. cbn [obind]. eexists; split; [reflexivity|].
    destruct x; [constructor|]; assumption.
Qed.

Lemma finish_cfis_wf l : Forall cfi_wf l -> wf_ranges (keep_somes (map finish_cfi l)).
Proof.
  induction 1 as [|c t Hc Ht IH]; cbn [map keep_somes].
  - constructor.
  - unfold finish_cfi at 1. destruct (mk_range (cr_addr (ci_init c)) (ci_size c)) eqn:E; [|assumption].
    constructor; [|assumption]. cbn [fst]. destruct Hc as [A B]. exact (mk_range_wf _ _ _ A B E).
Qed.

(* the accumulator of insert_win_stack_info: ordered ranges, and the head record still has the range it was entered with
   (the shrinking branch of win_insert recomputes the head's range from its own address and size) *)
Definition acc_inv (acc : list (range * win_info)) : Prop :=
  wf_ranges acc /\
  match acc with
  | (lr, lw) :: _ => wi_range lw = Some lr /\ wi_wf lw
  | [] => True
  end.

Lemma win_insert_total acc w : acc_inv acc -> wi_wf w ->
  exists acc', win_insert acc w = Ret acc' /\ acc_inv acc'.
Proof.
  intros [Hwf Hh] Hw. unfold win_insert.
  destruct (wi_range w) as [mr|] eqn:Em.
  2:{ eexists; split; [reflexivity|split; assumption]. }
  assert (Hmr : wf_range mr) by (unfold wi_range in Em; destruct Hw as [A B]; refine (mk_range_wf _ _ _ A _ Em); lia).
  assert (Hnew : forall a, wf_ranges a -> acc_inv ((mr, w) :: a)).
  { intros a Ha. split; [constructor; assumption|]. split; assumption. }
  destruct acc as [|[lr lw] acc'].
  { eexists; split; [reflexivity|]. apply Hnew. constructor. }
  destruct Hh as [Hl Hlw].
  destruct (intersects lr mr) eqn:Ei.
  2:{ eexists; split; [reflexivity|]. apply Hnew. assumption. }
  destruct (wi_addr w >? wi_addr lw) eqn:Eg.
  2:{ destruct (negb (range_eqb lr mr)); eexists; (split; [reflexivity|]).
      - split; [assumption|]. split; assumption.
      - apply Hnew. assumption. }
  (* the shrink branch *)
  assert (Hd : 0 < wi_addr w - wi_addr lw < wi_size lw /\ wi_addr w < two64).
  { unfold wi_range, mk_range, checked_add in Hl, Em. rewrite <- two64_val in Hl, Em.
    destruct (wi_size lw =? 0); [discriminate|].
    destruct (wi_addr lw + wi_size lw <? two64) eqn:E1; [|discriminate].
    destruct (wi_size w =? 0) eqn:E0; [discriminate|].
    destruct (wi_addr w + wi_size w <? two64) eqn:E2; [|discriminate].
    inversion Hl; subst lr. inversion Em; subst mr.
    unfold intersects in Ei. cbn [fst snd] in Ei. apply andb_true_iff in Ei. destruct Ei as [I1 I2].
    destruct Hw as [W1 W2]. lia. }
  destruct Hlw as [L1 L2].
  assert (Hwr : wrap32 (wi_addr w - wi_addr lw) = wi_addr w - wi_addr lw).
  { unfold wrap32, two32. apply Z.mod_small. lia. }
  rewrite Hwr.
  unfold wi_range at 1. unfold wi_set_size; cbn [wi_addr wi_size].
  unfold mk_range, checked_add. rewrite <- two64_val.
  destruct (wi_addr w - wi_addr lw =? 0) eqn:E0; [lia|].
  destruct (wi_addr lw + (wi_addr w - wi_addr lw) <? two64) eqn:E1; [|lia].
  eexists; split; [reflexivity|]. apply Hnew.
  inversion Hwf; subst. constructor; [|assumption]. cbn [fst]. unfold wf_range; cbn [fst snd]. lia.
Qed.

Lemma win_collect_total ws : Forall wi_wf ws -> forall acc, acc_inv acc ->
  exists r, win_collect acc ws = Ret r /\ wf_ranges r.
Proof.
  induction 1 as [|w t Hw Ht IH]; intros acc Hacc; cbn [win_collect].
  - eexists; split; [reflexivity|]. apply Forall_rev. apply Hacc.
  - destruct (win_insert_total acc w Hacc Hw) as (acc' & E & Hacc'). rewrite E. cbn [obind].
    apply IH; assumption.
Qed.

Lemma acc_inv_nil : acc_inv [].
Proof. split; [constructor|exact I]. Qed.

(* finish on a well-formed state: every collecting step returns a list of ordered ranges, every range-map builder
   returns its merge, and the table is made of these *)
Lemma finish_parts : forall p0, pst_wf p0 -> let p := close_cur p0 in
  exists fl wfd wfpo,
    finish_funcs (rev (p_funcs p)) = Ret fl /\ wf_ranges fl /\
    wf_ranges (keep_somes (map finish_cfi (rev (p_cfis p)))) /\ wf_ranges wfd /\ wf_ranges wfpo /\
    finish p0 = Ret (mk_table (fst (p_modinfo p)) (snd (p_modinfo p)) (map_of_log (p_files p)) (map_of_log (p_origins p))
                              (sort_by pub_lt (rev (p_publics p))) (into_rangemap_safe_p sfunc_eqb fl)
                              (into_rangemap_safe_p scfi_eqb (keep_somes (map finish_cfi (rev (p_cfis p)))))
                              (into_rangemap_safe_p wi_eqb wfd) (into_rangemap_safe_p wi_eqb wfpo) (p_url p)).
Proof.
  intros p0 Hwf0 p. unfold finish. fold p.
  destruct (close_cur_wf p0 Hwf0) as [(_ & Hf & Hc & Hfd & Hfpo) _]. fold p in Hf, Hc, Hfd, Hfpo.
  destruct (finish_funcs_total (rev (p_funcs p))) as (fl & E1 & W1); [apply Forall_rev; assumption|].
  assert (Wc : wf_ranges (keep_somes (map finish_cfi (rev (p_cfis p))))) by (apply finish_cfis_wf, Forall_rev; assumption).
  destruct (win_collect_total (rev (p_win_fd p))) with (acc := @nil (range * win_info)) as (wfd & E2 & W2);
    [apply Forall_rev; assumption|apply acc_inv_nil|].
  destruct (win_collect_total (rev (p_win_fpo p))) with (acc := @nil (range * win_info)) as (wfpo & E3 & W3);
    [apply Forall_rev; assumption|apply acc_inv_nil|].
  exists fl, wfd, wfpo. rewrite E1. cbn [obind]. rewrite (build_total_p sfunc_eqb fl W1). cbn [obind].
  rewrite (build_total_p scfi_eqb _ Wc). cbn [obind]. rewrite E2. cbn [obind]. rewrite (build_total_p wi_eqb wfd W2).
  cbn [obind]. rewrite E3. cbn [obind]. rewrite (build_total_p wi_eqb wfpo W3). cbn [obind]. repeat split; assumption.
Qed.

Lemma finish_total : forall p, pst_wf p -> exists t, finish p = Ret t.
Proof. intros p W. destruct (finish_parts p W) as (fl & wfd & wfpo & _ & _ & _ & _ & _ & E). eexists. exact E. Qed.
