(* C09/ProofsRecord5.v — STACK WIN records as a declarative grammar over BYTES, both directions.
       stack_win ::= "STACK WIN" sp+ hexdigit sp+ hex{1,16} sp+ (hex{1,8} sp+){7} digit sp+ rest cr*
   (type, address, code size, prologue, epilogue, parameter size, saved registers, locals, max stack, has_program_string,
   program string or allocates_base_pointer); what is built from the fields is [win_of_fields] (the tail of stack_win_line). *)
From Coq Require Import Lia ZArith List Bool.
From RM Require Import Base.Word C08.Model C11.Model C09.Grammar C09.PinsNum C09.ProofsText C09.ProofsRecord C09.ProofsRecord2.
Import ListNotations.
Open Scope Z_scope.

(* terminated(single(pred), space1) *)
Lemma single_sp_complete {pred s b sp r} : expand s = [b] ++ sp ++ r -> pred b = true -> spaces sp ->
  starts (fun b => ~ sp_byte b) r -> exists s2, single_sp pred s = Some (b, s2) /\ expand s2 = r.
Proof.
  intros E P (Ns & Fs) Sr. unfold single_sp. pose proof (uncons_expand s) as U.
  destruct (uncons s) as [[x s1]|]; [|rewrite U in E; discriminate].
  rewrite U in E. cbn [app] in E. inversion E; subst x. rewrite P.
  destruct (space1_complete s1 sp r ltac:(assumption) Ns Fs Sr) as (s2 & S1 & S2). rewrite S1. exists s2. split; [reflexivity|exact S2].
Qed.

Lemma single_starts_nonsp pred b rest : pred b = true -> (forall x, sp_byte x -> pred x = false) ->
  starts (fun b => ~ sp_byte b) ([b] ++ rest).
Proof. intros P N. cbn. intros Q. apply N in Q. congruence. Qed.
Lemma sp_not_is_hex x : sp_byte x -> is_hex x = false.
Proof. intros [->| ->]; reflexivity. Qed.
Lemma sp_not_is_dec x : sp_byte x -> is_dec x = false.
Proof. intros [->| ->]; reflexivity. Qed.

Definition win_line (l : list Z) (ty a sz pro epi par sav loc mx hp : Z) (rest : list Z) : Prop :=
  exists sp0 spt d1 sp1 d2 sp2 d3 sp3 d4 sp4 d5 sp5 d6 sp6 d7 sp7 d8 sp8 sph crs,
    l = T_STACK_WIN ++ sp0 ++ [ty] ++ spt ++ d1 ++ sp1 ++ d2 ++ sp2 ++ d3 ++ sp3 ++ d4 ++ sp4 ++ d5 ++ sp5 ++ d6 ++ sp6 ++
        d7 ++ sp7 ++ d8 ++ sp8 ++ [hp] ++ sph ++ rest ++ crs /\
    spaces sp0 /\ is_hex ty = true /\ spaces spt /\
    hex_field 16 d1 a /\ spaces sp1 /\ hex_field 8 d2 sz /\ spaces sp2 /\ hex_field 8 d3 pro /\ spaces sp3 /\
    hex_field 8 d4 epi /\ spaces sp4 /\ hex_field 8 d5 par /\ spaces sp5 /\ hex_field 8 d6 sav /\ spaces sp6 /\
    hex_field 8 d7 loc /\ spaces sp7 /\ hex_field 8 d8 mx /\ spaces sp8 /\
    is_dec hp = true /\ spaces sph /\ text_tail rest crs.

Lemma single_sp_bind {A} pred s (k : Z -> rle -> option A) y : (let? (b, s') := single_sp pred s in k b s') = Some y ->
  exists b s' sp, expand s = [b] ++ sp ++ expand s' /\ pred b = true /\ spaces sp /\
                  starts (fun b => ~ sp_byte b) (expand s') /\ k b s' = Some y.
Proof.
  unfold single_sp. pose proof (uncons_expand s) as U. destruct (uncons s) as [[x s1]|]; [|discriminate].
  destruct (pred x) eqn:P; [|discriminate]. destruct (space1 s1) as [s'|] eqn:S; [|discriminate]. intros H.
  destruct (space1_sound s1 s' S) as (sp & A0 & B & C & D). exists x, s', sp. rewrite U, A0. unfold spaces. auto 6.
Qed.

Lemma win_sound s it : p_stack_win s = POk it ->
  exists ty a sz pro epi par sav loc mx hp n rest,
    it = IWin (win_of_fields ty a sz pro epi par sav loc mx hp n) /\
    win_line (expand s) ty a sz pro epi par sav loc mx hp rest /\ expand n = rest.
Proof.
  intros H. apply hdr_cut_bind in H. destruct H as (s0 & sp0 & A0 & B0 & _ & H).
  apply single_sp_bind in H. destruct H as (ty & s1 & spt & At & Bt & Ct & _ & H).
  apply hexsp_bind in H. destruct H as (a & s2 & d1 & sp1 & A1 & B1 & C1 & _ & H).
  apply hexsp_bind in H. destruct H as (sz & s3 & d2 & sp2 & A2 & B2 & C2 & _ & H).
  apply hexsp_bind in H. destruct H as (pro & s4 & d3 & sp3 & A3 & B3 & C3 & _ & H).
  apply hexsp_bind in H. destruct H as (epi & s5 & d4 & sp4 & A4 & B4 & C4 & _ & H).
  apply hexsp_bind in H. destruct H as (par & s6 & d5 & sp5 & A5 & B5 & C5 & _ & H).
  apply hexsp_bind in H. destruct H as (sav & s7 & d6 & sp6 & A6 & B6 & C6 & _ & H).
  apply hexsp_bind in H. destruct H as (loc & s8 & d7 & sp7 & A7 & B7 & C7 & _ & H).
  apply hexsp_bind in H. destruct H as (mx & s9 & d8 & sp8 & A8 & B8 & C8 & _ & H).
  apply single_sp_bind in H. destruct H as (hp & s10 & sph & Ap & Bp & Cp & Dp & H).
  apply name_bind in H; [|exact Dp]. destruct H as (n & rest & crs & An & Bn & Cn & ->).
  exists ty, a, sz, pro, epi, par, sav, loc, mx, hp, n, rest. split; [reflexivity|]. split; [|exact Cn].
  exists sp0, spt, d1, sp1, d2, sp2, d3, sp3, d4, sp4, d5, sp5, d6, sp6, d7, sp7, d8, sp8, sph, crs.
  rewrite A0, At, A1, A2, A3, A4, A5, A6, A7, A8, Ap, An. auto 30.
Qed.

Lemma win_complete s ty a sz pro epi par sav loc mx hp rest : win_line (expand s) ty a sz pro epi par sav loc mx hp rest ->
  exists n, p_stack_win s = POk (IWin (win_of_fields ty a sz pro epi par sav loc mx hp n)) /\ expand n = rest.
Proof.
  intros (sp0 & spt & d1 & sp1 & d2 & sp2 & d3 & sp3 & d4 & sp4 & d5 & sp5 & d6 & sp6 & d7 & sp7 & d8 & sp8 & sph & crs &
          E & S0 & Pt & St & F1 & S1 & F2 & S2 & F3 & S3 & F4 & S4 & F5 & S5 & F6 & S6 & F7 & S7 & F8 & S8 & Pp & Sp & T).
  destruct (hdr_complete E S0 (single_starts_nonsp is_hex ty _ Pt sp_not_is_hex)) as (s0 & H0 & X0).
  destruct (single_sp_complete X0 Pt St (hex_starts_nonsp _ F1)) as (s1 & Ht & Xt).
  destruct (hexsp_complete Xt F1 S1 (hex_starts_nonsp _ F2)) as (s2 & H1 & X1).
  destruct (hexsp_complete X1 F2 S2 (hex_starts_nonsp _ F3)) as (s3 & H2 & X2).
  destruct (hexsp_complete X2 F3 S3 (hex_starts_nonsp _ F4)) as (s4 & H3 & X3).
  destruct (hexsp_complete X3 F4 S4 (hex_starts_nonsp _ F5)) as (s5 & H4 & X4).
  destruct (hexsp_complete X4 F5 S5 (hex_starts_nonsp _ F6)) as (s6 & H5 & X5).
  destruct (hexsp_complete X5 F6 S6 (hex_starts_nonsp _ F7)) as (s7 & H6 & X6).
  destruct (hexsp_complete X6 F7 S7 (hex_starts_nonsp _ F8)) as (s8 & H7 & X7).
  destruct (hexsp_complete X7 F8 S8 (single_starts_nonsp is_dec hp _ Pp sp_not_is_dec)) as (s9 & H8 & X8).
  destruct (single_sp_complete X8 Pp Sp (proj1 T)) as (s10 & Hp & Xp).
  destruct (name_tail_complete Xp T) as (n & Hn & Xn).
  exists n. split; [|exact Xn]. unfold p_stack_win, hex64sp, hex32sp. rewrite H0, Ht, H1, H2, H3, H4, H5, H6, H7, H8, Hp, Hn. reflexivity.
Qed.
