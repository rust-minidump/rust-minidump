(* C09/ProofsRecord2.v — more record kinds as declarative grammars over BYTES, both directions:
   STACK CFI INIT records, STACK CFI delta sub-lines and line records of a FUNC.
       cfi_init ::= "STACK CFI INIT" sp+ hex{1,16} sp+ hex{1,8} sp+ rules cr*
       cfi_add  ::= "STACK CFI" sp+ hex{1,16} sp+ rules cr*
       line_rec ::= hex{1,16} sp+ hex{1,8} sp+ digit{1,10} sp+ digit{1,10} cr*          (decimal values <= u32::MAX)
   rules: no '\r', not starting with sp, well-formed UTF-8.
   The field parsers hex_str / decimal_u32 (bare and followed by space1) are characterised here, and a record parser being a
   chain `let? (v, s') := field s in ..`, the lemmas [hdr_bind] .. [name_bind] take the first link off a chain that succeeded:
   soundness of a record kind is their composition, completeness the composition of the fields' completeness lemmas. *)
From Coq Require Import Lia ZArith List Bool.
From RM Require Import Base.Word C08.Model C11.Model C09.Grammar C09.PinsNum C09.ProofsText C09.ProofsRecord.
Import ListNotations.
Open Scope Z_scope.

Definition spaces (sp : list Z) : Prop := sp <> [] /\ Forall sp_byte sp.
Definition hex_digits (ds : list Z) : Prop := Forall (fun b => hexval b <> None) ds.
Definition hex_value (ds : list Z) : Z := dvalue hexval 16 0 ds.
Definition hex_field (n : nat) (ds : list Z) (v : Z) : Prop :=
  ds <> [] /\ (length ds <= n)%nat /\ hex_digits ds /\ v = hex_value ds.
Definition dec_field (ds : list Z) (v : Z) : Prop :=
  ds <> [] /\ (length ds <= 10)%nat /\ dec_digits ds /\ v = dec_value ds /\ v <= U32MAX.
Definition text_tail (text crs : list Z) : Prop :=
  starts (fun b => ~ sp_byte b) (text ++ crs) /\ Forall (fun b => b <> 13) text /\ wf8 text /\ Forall (fun b => b = 13) crs.

Lemma sp_not_hex b : sp_byte b -> hexval b = None.
Proof. intros [->| ->]; reflexivity. Qed.

(* hex_str, bare and followed by space1 *)
Lemma hex_sound n s v s' : hex_str n s = Some (v, s') ->
  exists ds, expand s = ds ++ expand s' /\ hex_field n ds v /\ (length ds = n \/ starts (fun b => hexval b = None) (expand s')).
Proof.
  unfold hex_str. destruct (digits hexval 16 n s 0 0) as [[v0 k] s0] eqn:E.
  destruct (Z.eqb_spec k 0) as [|K]; [discriminate|]. intros HH. inversion HH; subst. clear HH.
  destruct (digits_sound _ _ _ _ _ _ _ E K) as (ds & A & N & L & D & V & F). exists ds. repeat split; assumption.
Qed.

Lemma hex_complete {n s ds r v} : expand s = ds ++ r -> hex_field n ds v -> starts (fun b => hexval b = None) r ->
  exists s', hex_str n s = Some (v, s') /\ expand s' = r.
Proof.
  intros E (N & L & D & ->) Sr. unfold hex_str.
  destruct (digits_complete hexval 16 n s ds r E N L D Sr) as (k & s0 & Ed & K & X). rewrite Ed.
  destruct (Z.eqb_spec k 0); [contradiction|]. exists s0. split; [reflexivity|exact X].
Qed.

Lemma hexsp_sound n s v s' : osp (hex_str n s) = Some (v, s') ->
  exists ds sp, expand s = ds ++ sp ++ expand s' /\ hex_field n ds v /\ spaces sp /\ starts (fun b => ~ sp_byte b) (expand s').
Proof.
  unfold osp. destruct (hex_str n s) as [[v0 s0]|] eqn:E; [|discriminate].
  destruct (space1 s0) as [s2|] eqn:E2; [|discriminate]. intros HH. inversion HH; subst. clear HH.
  destruct (hex_sound _ _ _ _ E) as (ds & A & B & _). destruct (space1_sound s0 s' E2) as (sp & A2 & B2 & C2 & D2).
  exists ds, sp. rewrite A, A2. split; [reflexivity|]. split; [exact B|]. split; [split; assumption|exact D2].
Qed.

Lemma hexsp_complete {n s ds sp r v} : expand s = ds ++ sp ++ r -> hex_field n ds v -> spaces sp ->
  starts (fun b => ~ sp_byte b) r -> exists s', osp (hex_str n s) = Some (v, s') /\ expand s' = r.
Proof.
  intros E F (Ns & Fs) Sr. unfold osp.
  destruct (hex_complete E F (spaces_stop hexval sp r sp_not_hex Ns Fs)) as (s0 & H0 & X). rewrite H0.
  destruct (space1_complete s0 sp r X Ns Fs Sr) as (s' & S1 & S2). rewrite S1. exists s'. split; [reflexivity|exact S2].
Qed.

(* decsp in the same form *)
Lemma decsp_field_complete {s ds sp r v} : expand s = ds ++ sp ++ r -> dec_field ds v -> spaces sp ->
  starts (fun b => ~ sp_byte b) r -> exists s', decsp s = Some (v, s') /\ expand s' = r.
Proof.
  intros E (A & B & C & -> & D) (F & G) S. exact (decsp_complete s ds sp r E A B C D F G S).
Qed.

(* decimal_u32 not followed by space1: the digits end at a non-digit (or at the end of the line) *)
Lemma decimal_sound s v s' : Grammar.decimal_u32 s = Some (v, s') ->
  exists ds, expand s = ds ++ expand s' /\ dec_field ds v /\ (length ds = 10%nat \/ starts (fun b => decval b = None) (expand s')).
Proof.
  unfold Grammar.decimal_u32.
  destruct (digits decval 10 10%nat s 0 0) as [[v0 k] s0] eqn:E.
  destruct (Z.eqb_spec k 0) as [|K]; [discriminate|]. destruct (Z.ltb_spec U32MAX v0); [discriminate|].
  intros HH. inversion HH; subst. clear HH.
  destruct (digits_sound _ _ _ _ _ _ _ E K) as (ds & A & N & L & D & V & F). exists ds. repeat split; assumption.
Qed.
Lemma decimal_complete {s ds r v} : expand s = ds ++ r -> dec_field ds v -> starts (fun b => decval b = None) r ->
  exists s', Grammar.decimal_u32 s = Some (v, s') /\ expand s' = r.
Proof.
  intros E (N & L & D & -> & U) Sr. unfold Grammar.decimal_u32.
  destruct (digits_complete decval 10 10 s ds r E N L D Sr) as (k & s0 & Ed & K & X). rewrite Ed.
  destruct (Z.eqb_spec k 0); [contradiction|]. fold (dec_value ds).
  destruct (Z.ltb_spec U32MAX (dec_value ds)); [lia|]. exists s0. split; [reflexivity|exact X].
Qed.

Lemma name_tail_complete {s text crs} : expand s = text ++ crs -> text_tail text crs ->
  exists n, name_eol s = Some n /\ expand n = text.
Proof. intros E (A & B & C & D). exact (name_eol_complete s text crs E B D C). Qed.

Lemma hdr_complete {kw s sp r} : expand s = kw ++ sp ++ r -> spaces sp -> starts (fun b => ~ sp_byte b) r ->
  exists s1, hdr kw s = Some s1 /\ expand s1 = r.
Proof.
  intros E (N & F) S. destruct (tag_complete kw s _ E) as (s0 & T & X).
  destruct (space1_complete s0 sp r X N F S) as (s1 & A & B). exists s1. unfold hdr. rewrite T, A. split; [reflexivity|exact B].
Qed.

Lemma hex_starts_nonsp {n ds v} rest : hex_field n ds v -> starts (fun b => ~ sp_byte b) (ds ++ rest).
Proof. intros (N & _ & D & _). destruct ds as [|d t]; [contradiction|]. cbn. inversion D; subst. intros Q. apply sp_not_hex in Q. contradiction. Qed.
Lemma dec_starts_nonsp {ds v} rest : dec_field ds v -> starts (fun b => ~ sp_byte b) (ds ++ rest).
Proof. intros (N & _ & D & _). destruct ds as [|d t]; [contradiction|]. cbn. inversion D; subst. intros Q. apply sp_not_digit in Q. contradiction. Qed.

(* one step of a record parser
   A record parser is a chain of `let? (v, s') := field s in ..`; each lemma below takes the first link off such a chain
   that succeeded: the bytes the field consumed, what it says about them, and the rest of the chain.  In the soundness
   proofs below every conjunct of the line predicate is then one of the hypotheses ([auto n] with n the number of conjuncts). *)
Lemma hexsp_bind {A} n s (k : Z -> rle -> option A) y : (let? (v, s') := osp (hex_str n s) in k v s') = Some y ->
  exists v s' ds sp, expand s = ds ++ sp ++ expand s' /\ hex_field n ds v /\ spaces sp /\
                     starts (fun b => ~ sp_byte b) (expand s') /\ k v s' = Some y.
Proof.
  destruct (osp (hex_str n s)) as [[v s']|] eqn:E; [|discriminate]. intros H.
  destruct (hexsp_sound _ _ _ _ E) as (ds & sp & A0 & B & C & D). exists v, s', ds, sp. auto 6.
Qed.

Lemma decsp_bind {A} s (k : Z -> rle -> option A) y : (let? (v, s') := decsp s in k v s') = Some y ->
  exists v s' ds sp, expand s = ds ++ sp ++ expand s' /\ dec_field ds v /\ spaces sp /\
                     starts (fun b => ~ sp_byte b) (expand s') /\ k v s' = Some y.
Proof.
  destruct (decsp s) as [[v s']|] eqn:E; [|discriminate]. intros H.
  destruct (decsp_sound s v s' E) as (ds & sp & A0 & B & C & D & E0 & F & G & I & J).
  exists v, s', ds, sp. unfold dec_field, spaces. auto 10.
Qed.

Lemma hdr_bind {A} kw s (k : rle -> option A) y : (let? s' := hdr kw s in k s') = Some y ->
  exists s' sp, expand s = kw ++ sp ++ expand s' /\ spaces sp /\ starts (fun b => ~ sp_byte b) (expand s') /\ k s' = Some y.
Proof.
  unfold hdr. destruct (tag kw s) as [s0|] eqn:T; [|discriminate]. destruct (space1 s0) as [s'|] eqn:E; [|discriminate].
  intros H. apply tag_sound in T. destruct (space1_sound s0 s' E) as (sp & A0 & B & C & D).
  exists s', sp. rewrite T, A0. unfold spaces. auto 6.
Qed.

(* the same for a top-level parser: header, then everything under `cut` *)
Lemma hdr_cut_bind {A} kw s (k : rle -> option A) (y : A) :
  match hdr kw s with None => PErr | Some s' => cutp (k s') end = POk y ->
  exists s' sp, expand s = kw ++ sp ++ expand s' /\ spaces sp /\ starts (fun b => ~ sp_byte b) (expand s') /\ k s' = Some y.
Proof.
  intros H. apply hdr_bind. destruct (hdr kw s) as [s'|]; [|discriminate]. destruct (k s'); inversion H. reflexivity.
Qed.

(* the last link: the text up to the end of the line *)
Lemma name_bind {A} s (g : rle -> A) y : starts (fun b => ~ sp_byte b) (expand s) -> (let? n := name_eol s in Some (g n)) = Some y ->
  exists n text crs, expand s = text ++ crs /\ text_tail text crs /\ expand n = text /\ y = g n.
Proof.
  intros S. destruct (name_eol s) as [n|] eqn:E; [|discriminate]. intros H. inversion H.
  destruct (name_eol_sound s n E) as (text & crs & A0 & B & C & D & E0). rewrite A0 in S.
  exists n, text, crs. unfold text_tail. auto 8.
Qed.

(* STACK CFI INIT <addr> <size> <rules> *)
Definition cfi_init_line (l : list Z) (a sz : Z) (rules : list Z) : Prop :=
  exists sp0 d1 sp1 d2 sp2 crs,
    l = T_STACK_CFI_INIT ++ sp0 ++ d1 ++ sp1 ++ d2 ++ sp2 ++ rules ++ crs /\
    spaces sp0 /\ hex_field 16 d1 a /\ spaces sp1 /\ hex_field 8 d2 sz /\ spaces sp2 /\ text_tail rules crs.

Lemma cfi_init_sound s it : p_stack_cfi_init s = POk it ->
  exists a sz r rules, it = ICfiInit (mk_cfi (mk_rule a r) sz []) /\ cfi_init_line (expand s) a sz rules /\ expand r = rules.
Proof.
  intros H. apply hdr_cut_bind in H. destruct H as (s1 & sp0 & A0 & B0 & C0 & H).
  apply hexsp_bind in H. destruct H as (a & s2 & d1 & sp1 & A1 & B1 & C1 & D1 & H).
  apply hexsp_bind in H. destruct H as (sz & s3 & d2 & sp2 & A2 & B2 & C2 & D2 & H).
  apply name_bind in H; [|exact D2]. destruct H as (r & rules & crs & A3 & B3 & C3 & ->).
  exists a, sz, r, rules. split; [reflexivity|]. split; [|exact C3].
  exists sp0, d1, sp1, d2, sp2, crs. rewrite A0, A1, A2, A3. auto 8.
Qed.

Lemma cfi_init_complete s a sz rules : cfi_init_line (expand s) a sz rules ->
  exists r, p_stack_cfi_init s = POk (ICfiInit (mk_cfi (mk_rule a r) sz [])) /\ expand r = rules.
Proof.
  intros (sp0 & d1 & sp1 & d2 & sp2 & crs & E & S0 & F1 & S1 & F2 & S2 & T).
  destruct (hdr_complete E S0 (hex_starts_nonsp _ F1)) as (s1 & H0 & X0).
  destruct (hexsp_complete X0 F1 S1 (hex_starts_nonsp _ F2)) as (s2 & H1 & X1).
  destruct (hexsp_complete X1 F2 S2 (proj1 T)) as (s3 & H2 & X2).
  destruct (name_tail_complete X2 T) as (r & H3 & X3).
  exists r. split; [|exact X3]. unfold p_stack_cfi_init, hex64sp, hex32sp. rewrite H0, H1, H2, H3. reflexivity.
Qed.

(* STACK CFI <addr> <rules> (inside a STACK CFI INIT group) *)
Definition cfi_add_line (l : list Z) (a : Z) (rules : list Z) : Prop :=
  exists sp0 d1 sp1 crs,
    l = T_STACK_CFI ++ sp0 ++ d1 ++ sp1 ++ rules ++ crs /\ spaces sp0 /\ hex_field 16 d1 a /\ spaces sp1 /\ text_tail rules crs.

Lemma cfi_add_sound s x : sub_cfi s = Some x ->
  exists a r rules, x = mk_rule a r /\ cfi_add_line (expand s) a rules /\ expand r = rules.
Proof.
  intros H. apply hdr_bind in H. destruct H as (s1 & sp0 & A0 & B0 & C0 & H).
  apply hexsp_bind in H. destruct H as (a & s2 & d1 & sp1 & A1 & B1 & C1 & D1 & H).
  apply name_bind in H; [|exact D1]. destruct H as (r & rules & crs & A3 & B3 & C3 & ->).
  exists a, r, rules. split; [reflexivity|]. split; [|exact C3].
  exists sp0, d1, sp1, crs. rewrite A0, A1, A3. auto 6.
Qed.

Lemma cfi_add_complete s a rules : cfi_add_line (expand s) a rules ->
  exists r, sub_cfi s = Some (mk_rule a r) /\ expand r = rules.
Proof.
  intros (sp0 & d1 & sp1 & crs & E & S0 & F1 & S1 & T).
  destruct (hdr_complete E S0 (hex_starts_nonsp _ F1)) as (s1 & H0 & X0).
  destruct (hexsp_complete X0 F1 S1 (proj1 T)) as (s2 & H1 & X1).
  destruct (name_tail_complete X1 T) as (r & H3 & X3).
  exists r. split; [|exact X3]. unfold sub_cfi, hex64sp. rewrite H0, H1, H3. reflexivity.
Qed.

(* <address> <size> <line> <file> *)
Definition line_rec_line (l : list Z) (a sz ln fl : Z) : Prop :=
  exists d1 sp1 d2 sp2 d3 sp3 d4 crs,
    l = d1 ++ sp1 ++ d2 ++ sp2 ++ d3 ++ sp3 ++ d4 ++ crs /\
    hex_field 16 d1 a /\ spaces sp1 /\ hex_field 8 d2 sz /\ spaces sp2 /\ dec_field d3 ln /\ spaces sp3 /\ dec_field d4 fl /\
    Forall (fun b => b = 13) crs.

Lemma cr_not_digit crs : Forall (fun b => b = 13) crs -> starts (fun b => decval b = None) crs.
Proof. intros H. destruct crs as [|x t]; [exact I|]. inversion H; subst. reflexivity. Qed.

Lemma line_rec_sound s x : sub_line_data s = Some x ->
  exists a sz ln fl, x = mk_line a sz fl ln /\ line_rec_line (expand s) a sz ln fl.
Proof.
  intros H. apply hexsp_bind in H. destruct H as (a & s1 & d1 & sp1 & A1 & B1 & C1 & _ & H).
  apply hexsp_bind in H. destruct H as (sz & s2 & d2 & sp2 & A2 & B2 & C2 & _ & H).
  apply decsp_bind in H. destruct H as (ln & s3 & d3 & sp3 & A3 & B3 & C3 & _ & H).
  destruct (Grammar.decimal_u32 s3) as [[fl s4]|] eqn:H4; [|discriminate]. unfold guard in H.
  destruct (eol s4) eqn:H5; inversion H. destruct (decimal_sound _ _ _ H4) as (d4 & A4 & B4 & _). apply eol_bytes in H5.
  exists a, sz, ln, fl. split; [reflexivity|].
  exists d1, sp1, d2, sp2, d3, sp3, d4, (expand s4). rewrite A1, A2, A3, A4. auto 10.
Qed.

Lemma line_rec_complete s a sz ln fl : line_rec_line (expand s) a sz ln fl -> sub_line_data s = Some (mk_line a sz fl ln).
Proof.
  intros (d1 & sp1 & d2 & sp2 & d3 & sp3 & d4 & crs & E & F1 & S1 & F2 & S2 & F3 & S3 & F4 & C).
  destruct (hexsp_complete E F1 S1 (hex_starts_nonsp _ F2)) as (s1 & H1 & X1).
  destruct (hexsp_complete X1 F2 S2 (dec_starts_nonsp _ F3)) as (s2 & H2 & X2).
  destruct (decsp_field_complete X2 F3 S3 (dec_starts_nonsp _ F4)) as (s3 & H3 & X3).
  destruct (decimal_complete X3 F4 (cr_not_digit _ C)) as (s4 & H4 & X4).
  assert (H5 : eol s4 = true) by (apply eol_bytes; rewrite X4; exact C).
  unfold sub_line_data, hex64sp, hex32sp, guard. rewrite H1, H2, H3, H4, H5. reflexivity.
Qed.

(* "1000 10 7 1\r" is the line record address 0x1000, size 0x10, line 7, file 1 *)
Lemma line_rec_example : line_rec_line ([49; 48; 48; 48] ++ [32] ++ [49; 48] ++ [32] ++ [55] ++ [32] ++ [49] ++ [13]) 4096 16 7 1.
Proof.
  assert (SP : spaces [32]) by (split; [discriminate|constructor; [left; reflexivity|constructor]]).
  exists [49; 48; 48; 48], [32], [49; 48], [32], [55], [32], [49], [13].
  split; [reflexivity|].
  split. { split; [discriminate|]. split; [cbn; lia|]. split; [repeat constructor; cbn; discriminate|reflexivity]. }
  split; [exact SP|].
  split. { split; [discriminate|]. split; [cbn; lia|]. split; [repeat constructor; cbn; discriminate|reflexivity]. }
  split; [exact SP|].
  split. { split; [discriminate|]. split; [cbn; lia|]. split; [repeat constructor; cbn; discriminate|]. split; [reflexivity|vm_compute; discriminate]. }
  split; [exact SP|].
  split. { split; [discriminate|]. split; [cbn; lia|]. split; [repeat constructor; cbn; discriminate|]. split; [reflexivity|vm_compute; discriminate]. }
  repeat constructor.
Qed.
