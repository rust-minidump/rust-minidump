(* C09/ProofsRecord4.v — INFO URL, INFO and MODULE records as declarative grammars over BYTES.
       info_url ::= "INFO URL" sp+ url cr*                 (url: no '\r', not starting with sp, well-formed UTF-8)
       info     ::= "INFO" sp+ raw cr*                     (raw: any bytes but '\r', not starting with sp; no UTF-8 check)
       module   ::= "MODULE" sp+ field sep field sep hexdigit+ sp+ file cr*
                    field = bytes other than ' ' '\r' '\n' (a tab is part of the field), well-formed UTF-8
                    sep   = ' ' sp*                        (non_space stops at ' ' only; space1 then also eats tabs) *)
From Coq Require Import Lia ZArith List Bool.
From RM Require Import Base.Word C08.Model C11.Model C09.Grammar C09.PinsNum C09.ProofsText C09.ProofsRecord C09.ProofsRecord2.
Import ListNotations.
Open Scope Z_scope.

(* terminated(not_my_eol, my_eol) *)
Lemma raw_eol_sound s : raw_eol s = true ->
  exists raw crs, expand s = raw ++ crs /\ Forall (fun b => b <> 13) raw /\ Forall (fun b => b = 13) crs.
Proof.
  unfold raw_eol. destruct (span_not_split is_cr s) as (pre & r & A & B & C & D). rewrite A. intros H.
  exists (expand pre), (expand r). split; [rewrite B at 1; apply expand_app|]. split; [|apply eol_bytes; exact H].
  apply Forall_expand. eapply Forall_impl; [|exact C]. intros [b c]. cbn [fst]. unfold is_cr. rewrite Z.eqb_neq. auto.
Qed.

Lemma raw_eol_complete s raw crs : expand s = raw ++ crs -> Forall (fun b => b <> 13) raw -> Forall (fun b => b = 13) crs ->
  raw_eol s = true.
Proof.
  intros E Fr Fc. unfold raw_eol. destruct (span_not_split is_cr s) as (pre & r & A & B & C & D). rewrite A.
  assert (X : expand pre = raw /\ expand r = crs).
  { rewrite B, expand_app in E. apply (split_unique (fun b => b <> 13)); try assumption.
    - apply Forall_expand. eapply Forall_impl; [|exact C]. intros [b c]. cbn [fst]. unfold is_cr. rewrite Z.eqb_neq. auto.
    - destruct r as [|[b c] t]; [exact I|]. destruct (expand_cons_head b c t) as [x X]. rewrite X. cbn.
      unfold is_cr in D. apply Z.eqb_eq in D. intros Q. apply Q. exact D.
    - destruct crs; [exact I|]. cbn. inversion Fc; subst. intros Q. apply Q. reflexivity. }
  destruct X as [_ X]. apply eol_bytes. rewrite X. exact Fc.
Qed.

Definition info_line (l : list Z) : Prop :=
  exists sp0 raw crs, l = T_INFO ++ sp0 ++ raw ++ crs /\ spaces sp0 /\ starts (fun b => ~ sp_byte b) (raw ++ crs) /\
                      Forall (fun b => b <> 13) raw /\ Forall (fun b => b = 13) crs.

Lemma info_sound s it : p_info s = POk it -> it = IInfo /\ info_line (expand s).
Proof.
  intros H. apply hdr_cut_bind in H. destruct H as (s1 & sp0 & A0 & B0 & C0 & H). unfold guard in H.
  destruct (raw_eol s1) eqn:R; inversion H. split; [reflexivity|].
  destruct (raw_eol_sound s1 R) as (raw & crs & A1 & B & C).
  exists sp0, raw, crs. rewrite A0, A1. rewrite A1 in C0. auto 6.
Qed.

Lemma info_complete s : info_line (expand s) -> p_info s = POk IInfo.
Proof.
  intros (sp0 & raw & crs & E & S0 & St & Fr & Fc).
  destruct (hdr_complete E S0 St) as (s1 & H0 & X0).
  unfold p_info. rewrite H0. unfold cutp, guard. rewrite (raw_eol_complete s1 raw crs X0 Fr Fc). reflexivity.
Qed.

Definition info_url_line (l : list Z) (u : list Z) : Prop :=
  exists sp0 crs, l = T_INFO_URL ++ sp0 ++ u ++ crs /\ spaces sp0 /\ text_tail u crs.

Lemma info_url_sound s it : p_info_url s = POk it ->
  exists n u, it = IUrl n /\ info_url_line (expand s) u /\ expand n = u.
Proof.
  intros H. apply hdr_cut_bind in H. destruct H as (s1 & sp0 & A0 & B0 & C0 & H).
  apply name_bind in H; [|exact C0]. destruct H as (n & u & crs & A3 & B3 & C3 & ->).
  exists n, u. split; [reflexivity|]. split; [|exact C3]. exists sp0, crs. rewrite A0, A3. auto.
Qed.

Lemma info_url_complete s u : info_url_line (expand s) u -> exists n, p_info_url s = POk (IUrl n) /\ expand n = u.
Proof.
  intros (sp0 & crs & E & S0 & T).
  destruct (hdr_complete E S0 (proj1 T)) as (s1 & H0 & X0).
  destruct (name_tail_complete X0 T) as (n & H3 & X3).
  exists n. split; [|exact X3]. unfold p_info_url. rewrite H0, H3. reflexivity.
Qed.

Definition ns_stop (b : Z) : bool := (b =? 32) || (b =? 13) || (b =? 10).
Definition ns_byte (b : Z) : Prop := b <> 32 /\ b <> 13 /\ b <> 10.
Definition ns_field (f : list Z) : Prop := Forall ns_byte f /\ wf8 f.
Definition sep32 (sp : list Z) : Prop := exists t, sp = 32 :: t /\ Forall sp_byte t.

Lemma ns_stop_iff b : ns_stop b = false <-> ns_byte b.
Proof. unfold ns_stop, ns_byte. rewrite !orb_false_iff, !Z.eqb_neq. tauto. Qed.

Lemma sep32_spaces sp : sep32 sp -> spaces sp.
Proof. intros (t & -> & F). split; [discriminate|]. constructor; [left; reflexivity|exact F]. Qed.

Lemma nonspace_sp_sound s s' : nonspace_sp s = Some s' ->
  exists f sp, expand s = f ++ sp ++ expand s' /\ ns_field f /\ sep32 sp /\ starts (fun b => ~ sp_byte b) (expand s').
Proof.
  unfold nonspace_sp. fold ns_stop. destruct (span_not_split ns_stop s) as (pre & r & A & B & C & D). rewrite A.
  destruct (utf8_ok pre) eqn:U; [|discriminate]. intros H.
  destruct (space1_sound r s' H) as (sp & A1 & B1 & C1 & D1).
  exists (expand pre), sp. split; [rewrite B at 1; rewrite expand_app, A1; reflexivity|]. split.
  { split; [|apply utf8_bytes_wf; rewrite <- utf8_ok_bytes; exact U].
    apply Forall_expand. eapply Forall_impl; [|exact C]. intros a Ha. apply ns_stop_iff. exact Ha. }
  split; [|exact D1].
  (* the byte the field stopped at is one of ' ' '\r' '\n' and a space1 byte: it is ' ' *)
  destruct r as [|[b c] t]; [cbn in A1; destruct sp; [contradiction|discriminate]|].
  destruct (expand_cons_head b c t) as [x X]. rewrite X in A1. destruct sp as [|y u]; [contradiction|].
  cbn [app] in A1. inversion A1; subst y. inversion C1; subst.
  exists u. split; [|assumption]. f_equal. unfold ns_stop in D. rewrite !orb_true_iff, !Z.eqb_eq in D.
  match goal with H : sp_byte b |- _ => destruct H end; lia.
Qed.

Lemma nonspace_sp_complete {s f sp r} : expand s = f ++ sp ++ r -> ns_field f -> sep32 sp -> starts (fun b => ~ sp_byte b) r ->
  exists s', nonspace_sp s = Some s' /\ expand s' = r.
Proof.
  intros E (Ff & Wf) Hsep Sr. pose proof (sep32_spaces sp Hsep) as (Ns & Fs). destruct Hsep as (t & -> & Ft).
  unfold nonspace_sp. fold ns_stop. destruct (span_not_split ns_stop s) as (pre & r0 & A & B & C & D). rewrite A.
  assert (X : expand pre = f /\ expand r0 = (32 :: t) ++ r).
  { rewrite B, expand_app in E. apply (split_unique ns_byte); try assumption.
    - apply Forall_expand. eapply Forall_impl; [|exact C]. intros a Ha. apply ns_stop_iff. exact Ha.
    - destruct r0 as [|[b c] t0]; [exact I|]. destruct (expand_cons_head b c t0) as [x X]. rewrite X. cbn.
      intros Q. apply ns_stop_iff in Q. congruence.
    - cbn. unfold ns_byte. intros Q. destruct Q as [Q _]. apply Q. reflexivity. }
  destruct X as [X1 X2].
  assert (U : utf8_ok pre = true) by (rewrite utf8_ok_bytes, X1; apply utf8_bytes_wf; exact Wf). rewrite U.
  exact (space1_complete r0 (32 :: t) r X2 Ns Fs Sr).
Qed.

(* hex_digit1 (one or more hex digits, no limit) then space1 *)
Lemma hexdigit1_sp_sound s d s' : hexdigit1_sp s = Some (d, s') ->
  exists ds sp, expand s = ds ++ sp ++ expand s' /\ ds <> [] /\ hex_digits ds /\ spaces sp /\
                starts (fun b => ~ sp_byte b) (expand s') /\ expand d = ds.
Proof.
  unfold hexdigit1_sp. destruct s as [|[b c] t]; [discriminate|]. destruct (is_hex b) eqn:Hb; [|discriminate].
  destruct (span_not_split (fun b => negb (is_hex b)) ((b, c) :: t)) as (pre & r & A & B & C & D). rewrite A.
  destruct (space1 r) as [r'|] eqn:S; [|discriminate]. intros HH. inversion HH; subst d s'. clear HH.
  destruct (space1_sound r r' S) as (sp & A1 & B1 & C1 & D1).
  exists (expand pre), sp. split; [rewrite B at 1; rewrite expand_app, A1; reflexivity|]. split.
  { destruct pre as [|[b0 c0] p']; [|destruct (expand_cons_head b0 c0 p') as [x X]; rewrite X; discriminate].
    cbn [app] in B. subst r. rewrite Hb in D. discriminate. }
  split. { apply Forall_expand. eapply Forall_impl; [|exact C]. intros [x cx]. cbn [fst]. unfold is_hex.
           destruct (hexval x); [intros _; discriminate|discriminate]. }
  split; [split; assumption|]. split; [exact D1|apply rle_norm_bytes].
Qed.

Lemma hexdigit1_sp_complete {s ds sp r} : expand s = ds ++ sp ++ r -> ds <> [] -> hex_digits ds -> spaces sp ->
  starts (fun b => ~ sp_byte b) r -> exists d s', hexdigit1_sp s = Some (d, s') /\ expand s' = r /\ expand d = ds.
Proof.
  intros E N Hd (Ns & Fs) Sr. unfold hexdigit1_sp.
  destruct s as [|[b c] t]; [destruct ds; [contradiction|discriminate]|].
  assert (Hb : is_hex b = true).
  { destruct (expand_cons_head b c t) as [x X]. rewrite X in E. destruct ds as [|d0 dt]; [contradiction|].
    cbn [app] in E. inversion E; subst. inversion Hd; subst. unfold is_hex. destruct (hexval d0); [reflexivity|contradiction]. }
  rewrite Hb.
  destruct (span_not_split (fun b => negb (is_hex b)) ((b, c) :: t)) as (pre & r0 & A & B & C & D). rewrite A.
  assert (X : expand pre = ds /\ expand r0 = sp ++ r).
  { rewrite B, expand_app in E. apply (split_unique (fun b => hexval b <> None)); try assumption.
    - apply Forall_expand. eapply Forall_impl; [|exact C]. intros [x cx]. cbn [fst]. unfold is_hex.
      destruct (hexval x); [intros _; discriminate|discriminate].
    - destruct r0 as [|[b1 c1] t0]; [exact I|]. destruct (expand_cons_head b1 c1 t0) as [x X]. rewrite X. cbn.
      unfold is_hex in D. destruct (hexval b1); [discriminate|]. intros Q. apply Q. reflexivity.
    - destruct sp as [|y u]; [contradiction|]. cbn. inversion Fs; subst. intros Q. apply Q. apply sp_not_hex. assumption. }
  destruct X as [X1 X2].
  destruct (space1_complete r0 sp r X2 Ns Fs Sr) as (s' & S1 & S2). rewrite S1.
  eexists _, s'. split; [reflexivity|]. split; [exact S2|]. rewrite rle_norm_bytes. exact X1.
Qed.

Definition module_line (l : list Z) (id file : list Z) : Prop :=
  exists sp0 os sep1 cpu sep2 sp3 crs,
    l = T_MODULE ++ sp0 ++ os ++ sep1 ++ cpu ++ sep2 ++ id ++ sp3 ++ file ++ crs /\
    spaces sp0 /\ starts (fun b => ~ sp_byte b) (os ++ sep1 ++ cpu ++ sep2 ++ id ++ sp3 ++ file ++ crs) /\
    ns_field os /\ sep32 sep1 /\ starts (fun b => ~ sp_byte b) (cpu ++ sep2 ++ id ++ sp3 ++ file ++ crs) /\
    ns_field cpu /\ sep32 sep2 /\ id <> [] /\ hex_digits id /\ spaces sp3 /\ text_tail file crs.

Lemma module_sound s it : p_module s = POk it ->
  exists i f id file, it = IModule i f /\ module_line (expand s) id file /\ expand i = id /\ expand f = file.
Proof.
  intros H. apply hdr_cut_bind in H. destruct H as (s1 & sp0 & A0 & B0 & C0 & H).
  destruct (nonspace_sp s1) as [s2|] eqn:H1; [|discriminate].
  destruct (nonspace_sp s2) as [s3|] eqn:H2; [|discriminate].
  destruct (hexdigit1_sp s3) as [[i s4]|] eqn:H3; [|discriminate].
  destruct (nonspace_sp_sound _ _ H1) as (os & sep1 & A1 & B1 & C1 & D1).
  destruct (nonspace_sp_sound _ _ H2) as (cpu & sep2 & A2 & B2 & C2 & D2).
  destruct (hexdigit1_sp_sound _ _ _ H3) as (id & sp3 & A3 & B3 & C3 & D3 & E3 & F3).
  apply name_bind in H; [|exact E3]. destruct H as (f & file & crs & A4 & B4 & C4 & ->).
  exists i, f, id, file. split; [reflexivity|]. split; [|split; assumption].
  exists sp0, os, sep1, cpu, sep2, sp3, crs. rewrite A0. rewrite A1 in C0 |- *. rewrite A2 in D1, C0 |- *.
  rewrite A3 in D1, C0 |- *. rewrite A4 in D1, C0 |- *. auto 15.
Qed.

Lemma module_complete s id file : module_line (expand s) id file ->
  exists i f, p_module s = POk (IModule i f) /\ expand i = id /\ expand f = file.
Proof.
  intros (sp0 & os & sep1 & cpu & sep2 & sp3 & crs & E & S0 & St0 & F1 & P1 & St1 & F2 & P2 & Ni & Hi & S3 & T).
  destruct (hdr_complete E S0 St0) as (s1 & H0 & X0).
  destruct (nonspace_sp_complete X0 F1 P1 St1) as (s2 & H1 & X1).
  assert (St2 : starts (fun b => ~ sp_byte b) (id ++ sp3 ++ file ++ crs)).
  { destruct id as [|d t]; [contradiction|]. cbn. inversion Hi; subst. intros Q. apply sp_not_hex in Q. contradiction. }
  destruct (nonspace_sp_complete X1 F2 P2 St2) as (s3 & H2 & X2).
  destruct (hexdigit1_sp_complete X2 Ni Hi S3 (proj1 T)) as (i & s4 & H3 & X3 & Y3).
  destruct (name_tail_complete X3 T) as (f & H4 & X4).
  exists i, f. split; [|split; assumption]. unfold p_module. rewrite H0, H1, H2, H3, H4. reflexivity.
Qed.

(* "MODULE Linux x86 ABC1 a.pdb\r" has the shape of a MODULE record with id "ABC1" and file "a.pdb" *)
Lemma module_line_example :
  module_line (expand (to_rle [77; 79; 68; 85; 76; 69; 32; 76; 105; 110; 117; 120; 32; 120; 56; 54; 32; 65; 66; 67; 49; 32; 97; 46; 112; 100; 98; 13]))
              [65; 66; 67; 49] [97; 46; 112; 100; 98].
Proof.
  destruct (module_sound (to_rle [77; 79; 68; 85; 76; 69; 32; 76; 105; 110; 117; 120; 32; 120; 56; 54; 32; 65; 66; 67; 49; 32; 97; 46; 112; 100; 98; 13])
                         (IModule [(65, 1); (66, 1); (67, 1); (49, 1)] [(97, 1); (46, 1); (112, 1); (100, 1); (98, 1)]))
    as (i & f & id & file & E & Hl & X & Y); [vm_compute; reflexivity|].
  inversion E; subst. exact Hl.
Qed.
