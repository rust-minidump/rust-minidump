(* C09/Properties.v — the property theorems about SymbolFile::parse, each with its full statement, a short proof from the
   lemmas of the Proofs and Pins files (an instance, or a few lines) and its Print Assumptions, and the non-vacuity examples:
   the loop is total and bounded (any recogniser, any read schedule); over-long lines; the symbol table and finish; the
   Buffer with its bytes; the model against the source; numbers, text fields and every record kind as a grammar on bytes.
   [drive] is the loop of SymbolFile::parse over ANY line recogniser [recog] (C09/Model.v); the
   input is a list of complete lines ([llen l] bytes each, '\n' included) plus [tail] bytes
   without '\n'; the reader follows ANY schedule [sch] of read sizes. *)
From Coq Require Import ZArith List Bool.
From RM Require Import Base.Word C08.Model C11.Model C09.Model C09.Grammar C09.Driver C09.Proofs C09.ProofsBytes C09.ProofsFinish C09.ProofsFinal C09.ProofsTrace C09.Circular C09.ProofsCircular C09.ProofsLines C09.ProofsTable.
From RM Require C09.Pins C09.PinsMem C08.Proofs C09.PinsNum Gen.C09Numeric C09.ProofsText C09.ProofsRecord C09.ProofsRecord2 C09.ProofsRecord3 C09.ProofsRecord4 C09.ProofsRecord5 C09.ProofsRecord6 C09.PinsLines Gen.C09Lines.
Import ListNotations.
Open Scope Z_scope.

(* Every run ends with Ok or Err — no panic site is reached and the loop body runs at most
   6*|input|+24 times ([drive] gives OutOfFuel beyond that). *)
Theorem c09_total :
  forall (L : Type) (llen : L -> Z) (PS : Type) (init_ps : PS)
         (recog : PS -> L -> PS + Z) (bump : PS -> PS) (lineno : PS -> Z),
    (forall l, 1 <= llen l) ->
    forall (lines : list L) (tail : Z) (sch : list Z),
    exists r s, drive L llen PS init_ps recog bump lineno lines tail sch = Ret (r, s).
Proof.
  intros L llen PS init_ps recog bump lineno Hl lines tail sch.
  destruct (drive_fin L llen PS init_ps recog bump lineno Hl lines tail sch) as [r [s [H _]]]. exists r, s. exact H.
Qed.
Print Assumptions c09_total.

(* The same for byte strings and the byte-level model of the line parsers: every byte string
   is a list of lines plus a rest ([split_bytes], inverse of [join_bytes]). *)
Theorem c09_total_bytes :
  forall (bytes : list Z) (sch : list Z),
    join_bytes (fst (split_bytes bytes [])) (snd (split_bytes bytes [])) = bytes /\
    exists r s, drive_c (map to_rle (fst (split_bytes bytes [])))
                        (Z.of_nat (length (snd (split_bytes bytes [])))) sch = Ret (r, s).
Proof.
  intros bytes sch. split; [apply split_join_id|].
  destruct (drive_fin rle cllen pst init_pst recog_pst bump_pst lineno_pst cllen_pos
                      (map to_rle (fst (split_bytes bytes []))) (Z.of_nat (length (snd (split_bytes bytes [])))) sch)
    as [r [s [H _]]].
  exists r, s. exact H.
Qed.
Print Assumptions c09_total_bytes.

(* In every reachable state the capacity is one of 10/20/40/80/160 KiB, the unparsed window
   fits in it, and the reader was never offered more than 160 KiB. *)
Theorem c09_bounded_window :
  forall (L : Type) (llen : L -> Z) (PS : Type) (init_ps : PS)
         (recog : PS -> L -> PS + Z) (bump : PS -> PS) (lineno : PS -> Z),
    (forall l, 1 <= llen l) ->
    forall (lines : list L) (tail : Z) (sch : list Z) (p : positive) (s : st L PS),
    iter_pos L llen PS recog bump lineno p (init_st L llen PS init_ps lines tail sch) = Next s ->
    In (b_cap (buf s)) [10240; 20480; 40960; 81920; 163840] /\
    0 <= avail (buf s) <= b_cap (buf s) /\ b_cap (buf s) <= MAX_CAP /\ 0 <= maxsp s <= MAX_CAP.
Proof.
  intros L llen PS init_ps recog bump lineno Hl lines tail sch p s H.
  exact (wfm_window L llen PS init_ps recog bump lineno lines tail s
           (wf_m _ _ _ _ _ _ _ _ _ _ _ (reach_wf' L llen PS init_ps recog bump lineno Hl lines tail sch p s H))).
Qed.
Print Assumptions c09_bounded_window.

(* ... and also in the state the run ends in. *)
Theorem c09_bounded_window_final :
  forall (L : Type) (llen : L -> Z) (PS : Type) (init_ps : PS)
         (recog : PS -> L -> PS + Z) (bump : PS -> PS) (lineno : PS -> Z),
    (forall l, 1 <= llen l) ->
    forall (lines : list L) (tail : Z) (sch : list Z) r s,
    drive L llen PS init_ps recog bump lineno lines tail sch = Ret (r, s) ->
    In (b_cap (buf s)) [10240; 20480; 40960; 81920; 163840] /\ 0 <= maxsp s <= MAX_CAP.
Proof.
  intros L llen PS init_ps recog bump lineno Hl lines tail sch r s H.
  destruct (drive_ret_fin L llen PS init_ps recog bump lineno Hl lines tail sch r s H) as [W _].
  destruct (wfm_window L llen PS init_ps recog bump lineno lines tail s W) as [C [_ [_ R]]]. exact (conj C R).
Qed.
Print Assumptions c09_bounded_window_final.

(* Over-long lines.  Whatever the input and the schedule, the run disposes of the lines in
   order, each either shown to the recogniser or dropped (line counter bumped, open FUNC /
   STACK CFI INIT item kept): [ds] is that list of decisions, [replay] folds it.
   - a line that is shown to the recogniser has at most 163840 bytes with its '\n', so a line of
     >= 163840 content bytes is never parsed: it can only be dropped ([dec_ok]);
   - only lines of more than 81920 bytes are ever dropped;
   - Ok: all lines were disposed of and the parser state is the replay of the decisions;
   - Err: the recogniser rejected a line that fits the buffer (not an over-long one), or it is one
     of the two end-of-input errors. *)
Theorem c09_long_line_dropped :
  forall (L : Type) (llen : L -> Z) (PS : Type) (init_ps : PS)
         (recog : PS -> L -> PS + Z) (bump : PS -> PS) (lineno : PS -> Z),
    (forall l, 1 <= llen l) ->
    forall (lines : list L) (tail : Z) (sch : list Z) r s,
    drive L llen PS init_ps recog bump lineno lines tail sch = Ret (r, s) ->
    exists ds : list (bool * L),
      Forall (fun d : bool * L => if fst d then HALF_CAP < llen (snd d) else llen (snd d) <= MAX_CAP) ds /\
      lines = map snd ds ++ rest s /\
      replay L PS recog bump lineno init_ps ds = inl (ps s) /\
      match r with
      | ROk p => p = ps s /\ rest s = []
      | RErr c ln =>
          (exists taken l r' p1,
              rest s = taken ++ l :: r' /\ fold_recog L PS recog lineno (ps s) taken = inl p1 /\
              recog p1 l = inr c /\ ln = lineno p1 /\ llen l <= MAX_CAP)
          \/ (c = 3 /\ ln = 0) \/ (c = 4 /\ ln = lineno (ps s))
      end.
Proof. exact drive_shape. Qed.
Print Assumptions c09_long_line_dropped.

Definition ex_module : rle := map (fun b => (b, 1)) [77;79;68;85;76;69;32;97;32;98;32;99;32;100].   (* MODULE a b c d *)
Definition ex_file : rle := map (fun b => (b, 1)) [70;73;76;69;32;49;32;120].                       (* FILE 1 x *)

(* The symbol table.  [recog_pst] (C09/Grammar.v) returns the parsed records and [finish] builds the
   canonical table (finish_item + SymbolParser::finish: C08's range-map builder, the sorts, the
   zero-size filters, insert_win_stack_info).  If no complete line is longer than 80 KiB, an Ok
   result under any schedule is the fold of the recogniser over all lines, and its table is
   [finish] of that fold. *)
Theorem c09_table_spec :
  forall (lines : list rle) (tail : Z) (sch : list Z) p s,
    Forall (fun l => cllen l <= HALF_CAP) lines ->
    drive_c lines tail sch = Ret (ROk p, s) ->
    fold_recog rle pst recog_pst lineno_pst init_pst lines = inl p /\
    table_of (ROk p) =
    match fold_recog rle pst recog_pst lineno_pst init_pst lines with
    | inl q => obind (finish q) (fun t => Ret (Some t))
    | inr _ => Ret None
    end.
Proof.
  intros lines tail sch p s Hs H.
  pose proof (ok_is_fold rle cllen pst init_pst recog_pst bump_pst lineno_pst cllen_pos lines tail sch p s Hs H) as F.
  split; [exact F|]. rewrite F. reflexivity.
Qed.
Print Assumptions c09_table_spec.

(* non-vacuity: a file with overlapping FUNCs, zero-size lines and inlinees, a CFI group: the table *)
Example c09_nonvacuous_table :
  let o := run_case [ex_module;
                     map (fun b => (b, 1)) [70;85;78;67;32;49;48;32;56;32;48;32;102];      (* FUNC 10 8 0 f *)
                     map (fun b => (b, 1)) [49;48;32;52;32;55;32;49];                        (* 10 4 7 1 *)
                     map (fun b => (b, 1)) [49;52;32;48;32;56;32;49];                        (* 14 0 8 1 *)
                     map (fun b => (b, 1)) [70;85;78;67;32;49;52;32;56;32;48;32;103];      (* FUNC 14 8 0 g *)
                     ex_file] 0 [3; 5] in
  (o_kind o, o_files o, o_funcs o,
   match o_table o with Some t => map (fun e => (fst e, zlen (sf_lines (snd e)))) (t_funcs t) | None => [] end)
  = (0, 1, 1, [((16, 23), 1)]).
Proof. vm_compute. reflexivity. Qed.

(* non-vacuity: a 200000-byte line between valid records is dropped, the parse succeeds and
   the records after it are seen (1 FILE id); the buffer ends at 160 KiB *)
Example c09_nonvacuous_drop :
  let o := run_case [ex_module; [(97, 200000)]; ex_file] 0 [] in
  (o_kind o, o_dropped o, o_files o, o_cap o, o_cb o) = (0, 1, 1, 163840, 200025).
Proof. vm_compute. reflexivity. Qed.

(* non-vacuity: the recogniser does reject lines (so the Err branch is inhabited) *)
Example c09_nonvacuous_err :
  let o := run_case [ex_module; map (fun b => (b, 1)) [70;79;79]] 0 [5] in
  (o_kind o, o_code o, o_line o) = (1, 1, 1).
Proof. vm_compute. reflexivity. Qed.

(* Known finding F-C09a (recorded, not fixed): when the over-long line is the header of a group, dropping it
   orphans its sub-lines.  Here every line but the over-long FUNC header is a valid record, the header is
   dropped (o_dropped = 1) exactly as c09_long_line_dropped says, and the parse still fails at the line
   record that follows it ("failed to parse file", line 3): "dropped" is not "as if the group were absent".
   The theorems above state what the driver does (replay of the decisions); they do not claim Ok here. *)
Example c09_known_overlong_header_witness :
  let o := run_case [ex_module;
                     map (fun b => (b, 1)) [73;78;70;79;32;120];                               (* INFO x *)
                     map (fun b => (b, 1)) [70;85;78;67;32;49;48;32;52;32;48;32] ++ [(78, 163840)];   (* FUNC 10 4 0 NNN... *)
                     map (fun b => (b, 1)) [49;48;32;52;32;49;32;49];                          (* 10 4 1 1 *)
                     ex_file] 0 [] in
  (o_kind o, o_code o, o_line o, o_dropped o) = (1, 1, 3, 1).
Proof. vm_compute. reflexivity. Qed.
Print Assumptions c09_known_overlong_header_witness.
(* ... and when a FUNC is open in front of it, the orphaned line record is attributed to that FUNC *)
Example c09_known_overlong_header_misattributed :
  let o := run_case [ex_module;
                     map (fun b => (b, 1)) [70;85;78;67;32;49;48;32;52;32;48;32;102];           (* FUNC 10 4 0 f *)
                     map (fun b => (b, 1)) [70;85;78;67;32;50;48;32;52;32;48;32] ++ [(78, 163840)];   (* FUNC 20 4 0 NNN... *)
                     map (fun b => (b, 1)) [50;48;32;52;32;49;32;49];                          (* 20 4 1 1 *)
                     ex_file] 0 [] in
  (o_kind o, o_dropped o,
   match o_table o with Some t => map (fun e => (fst e, map fst (sf_lines (snd e)))) (t_funcs t) | None => [] end)
  = (0, 1, [((16, 19), [(32, 35)])]).
Proof. vm_compute. reflexivity. Qed.
Print Assumptions c09_known_overlong_header_misattributed.

(* The WHOLE parse never panics: the loop ends with Ok or Err (c09_total) and, on Ok, SymbolParser::finish —
   finish_item for every FUNC / STACK CFI INIT item (line tables through C08's range-map builder), the sorts,
   insert_win_stack_info with its `last_info.memory_range().unwrap()`, the four `try_from_iter(..).unwrap()` —
   returns a table: no Panic site of [finish] is reachable from a parser state the line recognisers can build
   (hex_str <= 8 / 16 digits, decimal_u32 <= u32::MAX keep every numeric field in range: [pst_wf]). *)
Theorem c09_parse_never_panics :
  forall (lines : list rle) (tail : Z) (sch : list Z),
    exists r s t, drive_c lines tail sch = Ret (r, s) /\ table_of r = Ret t.
Proof. exact parse_total. Qed.
Print Assumptions c09_parse_never_panics.

Theorem c09_parse_never_panics_bytes :
  forall (bytes : list Z) (sch : list Z),
    exists r s t, drive_c (map to_rle (fst (split_bytes bytes [])))
                          (Z.of_nat (length (snd (split_bytes bytes [])))) sch = Ret (r, s) /\ table_of r = Ret t.
Proof. intros. apply parse_total. Qed.
Print Assumptions c09_parse_never_panics_bytes.

(* [finish] is total on every well-formed parser state, and the recognisers only build well-formed states *)
Theorem c09_finish_total :
  (forall p, pst_wf p -> exists t, finish p = Ret t) /\
  pst_wf init_pst /\
  (forall p s p', pst_wf p -> recog_pst p s = inl p' -> pst_wf p' /\ p_lines p' = p_lines p + 1).
Proof.
  split; [exact finish_total|]. split; [exact init_pst_wf|exact recog_pst_spec].
Qed.
Print Assumptions c09_finish_total.

(* The u64 counters.  `total_consumed += amount as u64` and `parser.lines += 1` are unbounded additions in the
   model; at every loop head and at the end total_consumed <= |input| and parser.lines <= number of lines <= |input|,
   and both only grow: for an input of fewer than 2^64 bytes no addition overflows in either build profile. *)
Theorem c09_counters_fit_u64 :
  forall (lines : list rle) (tail : Z) (sch : list Z),
    input_len rle cllen lines tail < two64 ->
    (forall p s,
        iter_pos rle cllen pst recog_pst bump_pst lineno_pst p (init_st rle cllen pst init_pst lines tail sch) = Next s ->
        0 <= total s < two64 /\ 0 <= p_lines (ps s) < two64) /\
    (forall r s, drive_c lines tail sch = Ret (r, s) ->
        0 <= total s < two64 /\ 0 <= p_lines (ps s) < two64 /\ cbsum s = total s).
Proof.
  intros lines tail sch Hlt. pose proof (lines_le_bytes lines tail) as Hl. split.
  - intros p s H. destruct (counters_reach lines tail sch p s H) as [[? ?] [? ?]]. repeat split; Lia.lia.
  - intros r s H. destruct (counters_final lines tail sch r s H) as [[? ?] [[? ?] ?]]. repeat split; Lia.lia.
Qed.
Print Assumptions c09_counters_fit_u64.

(* The traced run (what the correspondence compares event by event: every read() as (space offered, bytes
   returned), every callback as slice length) goes through exactly the states of the run the theorems are about. *)
Theorem c09_trace_is_run :
  forall p s a, fst (iter_tr p s a) = iter_pos rle cllen pst recog_pst bump_pst lineno_pst p s.
Proof. exact iter_tr_run. Qed.
Print Assumptions c09_trace_is_run.

(* The model against the source.  coq/Gen/SymFileLoop.v is regenerated from sym_file/mod.rs and from the circular
   crate that Cargo.lock pins on every run (translate/symfile_loop.py: constants, every condition and flag
   assignment of both loops, min / shift conditions of circular::Buffer; it aborts if the statement skeleton
   changes).  One iteration of the model's loop IS the iteration assembled from those pieces — for parse and for
   parse_async. *)
Theorem c09_source_pins :
  (INITIAL_CAP = Pins.G.INITIAL_BUFFER_CAPACITY /\ MAX_CAP = Pins.G.MAX_BUFFER_CAPACITY /\
   HALF_CAP = Pins.G.MAX_BUFFER_CAPACITY / 2) /\
  (forall b n, consume b n = Pins.consume_src b n /\ fill b n = Pins.fill_src b n /\
               grow b n = Pins.grow_src b n /\ shift b = Pins.shift_src b) /\
  (forall (L : Type) (llen : L -> Z) (PS : Type) (recog : PS -> L -> PS + Z) (bump : PS -> PS) (lineno : PS -> Z) s,
      step L llen PS recog bump lineno s = Pins.step_src L llen PS recog bump lineno s /\
      step_async L llen PS recog bump lineno s = Pins.step_async_src L llen PS recog bump lineno s).
Proof. split; [exact Pins.pin_constants|]. split; [exact Pins.pin_circular|exact Pins.pin_step]. Qed.
Print Assumptions c09_source_pins.

(* non-vacuity: STACK WIN records that overlap (the branch with the unwrap) and a FUNC whose line table needs the
   range-map builder: finish returns a table; 2 frame-data entries after the length fix-up *)
Example c09_nonvacuous_finish :
  let o := run_case [ex_module;
                     map (fun b => (b, 1)) [83;84;65;67;75;32;87;73;78;32;52;32;49;48;32;49;48;32;48;32;48;32;48;32;48;32;48;32;48;32;49;32;120];  (* STACK WIN 4 10 10 0 0 0 0 0 0 1 x *)
                     map (fun b => (b, 1)) [83;84;65;67;75;32;87;73;78;32;52;32;49;52;32;99;32;48;32;48;32;48;32;48;32;48;32;48;32;49;32;121]]     (* STACK WIN 4 14 c 0 0 0 0 0 0 1 y *)
                    0 [] in
  (o_kind o, match o_table o with Some t => map fst (t_win_fd t) | None => [] end) = (0, [(16, 19); (20, 31)]).
Proof. vm_compute. reflexivity. Qed.

(* non-vacuity of the trace: a 200000-byte line: 4 grows to 160 KiB, discard iterations, one recovery *)
Example c09_nonvacuous_trace :
  let t := run_trace [ex_module; [(97, 200000)]; ex_file] 0 [] in
  (tr_grows t, tr_recovered t, 0 <? tr_discards t, 0 <? tr_shifts t, 0 <? tr_full_reads t) = (4, 1, true, true, true).
Proof. vm_compute. reflexivity. Qed.

(* The buffer WITH its bytes.
   C09/Circular.v: circular::Buffer 0.3.0 as memory + capacity/position/end (with_capacity zero-fills, data() / space()
   are slices of memory, shift is a memmove to the front, grow is resize(n, 0), the reader overwrites the start of space()).
   For ANY sequence of operations the code can perform (a read() puts at most space() bytes, consume takes at most
   available_data()): the indices are those of the index model of C09/Model.v, memory.len() == capacity and
   position <= end <= capacity persist, and data() is a FIFO queue of bytes — a write appends, consume(n) drops the first n,
   shift and grow change nothing (the FIFO contract of the crate that C09/Model.v builds on). *)
Theorem c09_buffer_refines_fifo :
  forall (ops : list bop) (b : bbuf),
    (zlength (m_mem b) = m_cap b /\ 0 <= m_pos b /\ m_pos b <= m_end b /\ m_end b <= m_cap b) ->
    ops_ok (idx b) ops = true ->
    let b' := fold_left bapply ops b in
    (zlength (m_mem b') = m_cap b' /\ 0 <= m_pos b' /\ m_pos b' <= m_end b' /\ m_end b' <= m_cap b') /\
    idx b' = fold_left capply ops (idx b) /\
    bdata b' = fold_left qapply ops (bdata b).
Proof. exact fifo_refinement. Qed.
Print Assumptions c09_buffer_refines_fifo.

(* The parse loop run on real bytes ([bstep]: the loop of Model.v, statement by statement, with the buffer above, a reader
   that copies the next bytes of the input [inp] into space(), and a callback that records the slices it is given).
   For every input (any lines, any unterminated rest, ANY bytes [inp] of that total length), every schedule and every
   number of iterations: the byte-level run takes the branches of the index model (its state projects onto it, [idx]), never
   reaches a slice panic, and
        callback bytes ++ data() ++ bytes not yet read = input,
   so the callback has been given exactly the first total_consumed bytes of the input, in order, and data() is exactly the
   window input[total_consumed .. total_consumed + available_data()] that Model.v assumed. *)
Theorem c09_window_is_input :
  forall (L : Type) (llen : L -> Z) (PS : Type) (init_ps : PS)
         (recog : PS -> L -> PS + Z) (bump : PS -> PS) (lineno : PS -> Z),
    (forall l, 1 <= llen l) ->
    forall (lines : list L) (tail : Z) (sch : list Z) (inp : list Z) (p : positive),
    zlength inp = input_len L llen lines tail ->
    let x0 := binit L PS (init_st L llen PS init_ps lines tail sch) inp in
    let good (x : bst L PS) (s : st L PS) :=
      x_s x = s /\
      idx (x_b x) = buf s /\
      x_cb x ++ bdata (x_b x) ++ x_in x = inp /\
      x_cb x = zfirstn (total s) inp /\
      bdata (x_b x) = zslice inp (total s) (total s + avail (buf s)) in
    match iter_pos L llen PS recog bump lineno p (init_st L llen PS init_ps lines tail sch) with
    | Next s => exists x, biter L llen PS recog bump lineno (Pos.to_nat p) x0 = BNext x /\ good x s
    | Done r s => exists x, biter L llen PS recog bump lineno (Pos.to_nat p) x0 = BDone r x /\ good x s
    | StPanic _ => False
    end.
Proof.
  intros L llen PS init_ps recog bump lineno Hl lines tail sch inp p H x0 good.
  apply (reach_sim L llen PS init_ps recog bump lineno Hl good lines tail sch inp p H).
  intros x I W. split; [reflexivity|]. exact (binv_window L llen PS init_ps recog bump lineno lines tail inp x I W).
Qed.
Print Assumptions c09_window_is_input.

(* What Model.v says about the CONTENT of data() — [rest]/[off] ("the unconsumed lines minus the first off bytes"),
   [first_nl] ("the first newline is at llen - off - 1 if that is inside the window") and [pm] ("parse_more walks over the
   complete lines that fit") — is true of the real bytes: when every line [l] is its content (no '\n') followed by '\n' and
   the rest has no '\n', then in every state of the byte-level run
     - data() ++ unread bytes = the unconsumed lines and the rest, minus [off] bytes;
     - `data.iter().position(|b| b == '\n')` on the bytes of data() is Model.first_nl;
     - outside recovery, `&data[..=rposition('\n')]` (what parse_more keeps) is the concatenation of the lines that fit. *)
Theorem c09_data_is_the_lines :
  forall (L : Type) (llen : L -> Z) (PS : Type) (init_ps : PS)
         (recog : PS -> L -> PS + Z) (bump : PS -> PS) (lineno : PS -> Z) (bytes_of : L -> list Z),
    (forall l, exists body, bytes_of l = body ++ [10] /\ Forall (fun c => c <> 10) body /\ zlength (bytes_of l) = llen l) ->
    forall (lines : list L) (tl : list Z) (sch : list Z) (p : positive),
    Forall (fun c => c <> 10) tl ->
    let inp := flat_map bytes_of lines ++ tl in
    let s0 := init_st L llen PS init_ps lines (zlength tl) sch in
    let x0 := binit L PS s0 inp in
    let good (x : bst L PS) (s : st L PS) :=
      x_s x = s /\
      bdata (x_b x) ++ x_in x = zskipn (off s) (flat_map bytes_of (rest s) ++ tl) /\
      position_nl (bdata (x_b x)) 0 = first_nl L llen PS s /\
      (off s = 0 -> trim_nl (bdata (x_b x)) = flat_map bytes_of (fit llen (avail (buf s)) (rest s))) in
    match iter_pos L llen PS recog bump lineno p s0 with
    | Next s => exists x, biter L llen PS recog bump lineno (Pos.to_nat p) x0 = BNext x /\ good x s
    | Done r s => exists x, biter L llen PS recog bump lineno (Pos.to_nat p) x0 = BDone r x /\ good x s
    | StPanic _ => False
    end.
Proof.
  intros L llen PS init_ps recog bump lineno bytes_of Hb lines tl sch p Htl inp s0 x0 good.
  apply (reach_sim L llen PS init_ps recog bump lineno (llen_pos' L llen bytes_of Hb) good lines (zlength tl) sch inp p
                   (cat_input_len L llen bytes_of Hb lines tl)).
  intros x I W. split; [reflexivity|]. exact (binv_content L llen PS init_ps recog bump lineno bytes_of Hb lines tl x Htl I W).
Qed.
Print Assumptions c09_data_is_the_lines.

(* non-vacuity: a capacity-8 buffer, a write, a consume past the half (shift = memmove: the stale bytes stay behind), a write
   that makes fill() shift, a grow.  The operations are admissible, data() is the queue, and the memory is what memmove /
   resize leave. *)
Example c09_nonvacuous_buffer :
  let ops := [OWrite [1;2;3;4;5;6]; OConsume 5; OWrite [7;8;9]; OConsume 1; OGrow 12; OWrite [10;11]] in
  let b := fold_left bapply ops (with_capacity 8) in
  ops_ok (idx (with_capacity 8)) ops = true /\
  bdata b = [7;8;9;10;11] /\ m_mem b = [7;8;9;10;11;11;0;0;0;0;0;0] /\ idx b = mkbuf 0 5 12.
Proof. vm_compute. repeat split. Qed.

(* non-vacuity: three lines and an unterminated rest, read 3 bytes at a time: the byte-level run ends with
   "unexpected EOF" after the callback has been given exactly the three lines. *)
Example c09_nonvacuous_bytes_run :
  let lines := [[77;79;68;10]; [70;10]; [10]] in
  let inp := flat_map (fun l => l) lines ++ [120;121] in
  let s0 := init_st (list Z) zlength (list Z) [] lines 2 [3;3;3;3] in
  match biter (list Z) zlength (list Z) (fun p l => inl (p ++ l)) (fun p => p) (fun _ => 0) 6 (binit _ _ s0 inp) with
  | BDone (RErr 4 _) x => x_cb x = [77;79;68;10;70;10;10] /\ bdata (x_b x) = [120;121] /\ ps (x_s x) = x_cb x
  | _ => False
  end.
Proof. vm_compute. repeat split. Qed.

(* The byte-level run of the correspondence ([run_bytes], whose hash of the space() slices is compared with the real
   buffer) goes through the states of [biter], and for every input it reports the outcome of [drive_c], with the callback
   bytes equal to the input's prefix and data() holding exactly what the index model says is left. *)
Theorem c09_bytes_trace_is_run :
  forall p x h, fst (biter_tr p x h) = biter rle cllen pst recog_pst bump_pst lineno_pst (Pos.to_nat p) x.
Proof. exact biter_tr_run. Qed.
Print Assumptions c09_bytes_trace_is_run.

Theorem c09_bytes_run_is_drive :
  forall (lines : list rle) (tail : Z) (sch : list Z) (inp : list Z),
    zlength inp = input_len rle cllen lines tail ->
    exists r s, drive_c lines tail sch = Ret (r, s) /\
      let bo := run_bytes lines tail sch inp in
      (bo_kind bo, bo_code bo, bo_line bo) = match r with ROk _ => (0, 0, 0) | RErr c l => (1, c, l) end /\
      bo_cb bo = cbsum s /\ bo_cbok bo = true /\ bo_left bo = avail (buf s).
Proof. exact run_bytes_is_drive. Qed.
Print Assumptions c09_bytes_run_is_drive.

(* The byte-level Buffer operations of C09/Circular.v are what the source of the pinned circular crate says: rebuilt from
   generic memory primitives (a Vec of a repeated value, slices, ptr::copy as memmove, Vec::resize) applied to the operands
   that translate/c09_circular_mem.py reads off with_capacity / data / space / shift / grow (coq/Gen/C09CircMem.v) and the
   conditions translate/symfile_loop.py reads off consume / fill / grow / shift, they are the model's operations. *)
Theorem c09_memory_ops_are_source :
  (forall c, PinsMem.with_capacity_src c = with_capacity c) /\
  (forall b, PinsMem.bdata_src b = bdata b /\ PinsMem.bspace_slice_src b = bspace_slice b) /\
  (forall b, PinsMem.bshift_src b = bshift b) /\
  (forall b k, PinsMem.bconsume_src b k = bconsume b k) /\
  (forall b k, PinsMem.bfill_src b k = bfill b k) /\
  (forall b n, zlength (m_mem b) = m_cap b -> PinsMem.bgrow_src b n = bgrow b n).
Proof.
  split; [exact PinsMem.pin_with_capacity|]. split; [exact PinsMem.pin_slices|]. split; [exact PinsMem.pin_shift|].
  split; [exact PinsMem.pin_consume|]. split; [exact PinsMem.pin_fill|exact PinsMem.pin_grow].
Qed.
Print Assumptions c09_memory_ops_are_source.

(* The two amounts the loop hands to the callback and to consume() are determined by the real bytes of data(): in every
   state of the byte-level run, `match data.iter().position('\n') { Some(i) => i + 1, None => data.len() }` is what the
   recovery block of the index model consumes, and whenever parse_more succeeds in the index model ([pm] = inl) its
   [consumed] is the length of data() up to its last '\n' and the callback slice `&data[..consumed]` is exactly that prefix. *)
Theorem c09_amounts_from_bytes :
  forall (L : Type) (llen : L -> Z) (PS : Type) (init_ps : PS)
         (recog : PS -> L -> PS + Z) (bump : PS -> PS) (lineno : PS -> Z) (bytes_of : L -> list Z),
    (forall l, exists body, bytes_of l = body ++ [10] /\ Forall (fun c => c <> 10) body /\ zlength (bytes_of l) = llen l) ->
    forall (lines : list L) (tl : list Z) (sch : list Z) (p : positive),
    Forall (fun c => c <> 10) tl ->
    let inp := flat_map bytes_of lines ++ tl in
    let s0 := init_st L llen PS init_ps lines (zlength tl) sch in
    let x0 := binit L PS s0 inp in
    let good (x : bst L PS) (s : st L PS) :=
      x_s x = s /\
      (match position_nl (bdata (x_b x)) 0 with Some i => i + 1 | None => zlength (bdata (x_b x)) end
       = total (recovery L llen PS bump s) - total s) /\
      (off s = 0 -> forall p' r' c' lg',
         pm L llen PS recog lineno (avail (buf s)) (ps s) (rest s) 0 (log s) = inl (p', r', c', lg') ->
         c' = zlength (trim_nl (bdata (x_b x))) /\ zfirstn c' (bdata (x_b x)) = trim_nl (bdata (x_b x))) in
    match iter_pos L llen PS recog bump lineno p s0 with
    | Next s => exists x, biter L llen PS recog bump lineno (Pos.to_nat p) x0 = BNext x /\ good x s
    | Done r s => exists x, biter L llen PS recog bump lineno (Pos.to_nat p) x0 = BDone r x /\ good x s
    | StPanic _ => False
    end.
Proof.
  intros L llen PS init_ps recog bump lineno bytes_of Hb lines tl sch p Htl inp s0 x0 good.
  apply (reach_sim L llen PS init_ps recog bump lineno (llen_pos' L llen bytes_of Hb) good lines (zlength tl) sch inp p
                   (cat_input_len L llen bytes_of Hb lines tl)).
  intros x I W. split; [reflexivity|].
  apply (content_amounts L llen PS init_ps recog bump lineno bytes_of Hb tl x (bi_wf _ _ _ _ I) (bi_idx _ _ _ _ I)).
  exact (binv_content L llen PS init_ps recog bump lineno bytes_of Hb lines tl x Htl I W).
Qed.
Print Assumptions c09_amounts_from_bytes.

(* non-vacuity of the hypothesis on [bytes_of] in c09_data_is_the_lines / c09_amounts_from_bytes: lines of n letters 'a' *)
Example c09_nonvacuous_bytes_of :
  forall n : nat, exists body,
    repeat 97 n ++ [10] = body ++ [10] /\ Forall (fun c => c <> 10) body /\
    zlength (repeat 97 n ++ [10]) = Z.of_nat n + 1.
Proof.
  intros n. exists (repeat 97 n). split; [reflexivity|]. split.
  - apply Forall_forall. intros c Hc. apply repeat_spec in Hc. subst c. discriminate.
  - unfold zlength. rewrite app_length, repeat_length. cbn [length]. rewrite Nat2Z.inj_add. reflexivity.
Qed.

(* A successful parse has handed the WHOLE input to the callback, byte for byte and in order (what the symbol cache
   stores is the file), and nothing is left in the buffer or in the reader. *)
Theorem c09_ok_callback_is_whole_input :
  forall (L : Type) (llen : L -> Z) (PS : Type) (init_ps : PS)
         (recog : PS -> L -> PS + Z) (bump : PS -> PS) (lineno : PS -> Z),
    (forall l, 1 <= llen l) ->
    forall (lines : list L) (tail : Z) (sch : list Z) (inp : list Z) (p : PS) (s : st L PS),
    zlength inp = input_len L llen lines tail ->
    drive L llen PS init_ps recog bump lineno lines tail sch = Ret (ROk p, s) ->
    exists x, biter L llen PS recog bump lineno (Pos.to_nat (fuel_for L llen lines tail))
                    (binit L PS (init_st L llen PS init_ps lines tail sch) inp) = BDone (ROk p) x /\
              x_s x = s /\ x_cb x = inp /\ bdata (x_b x) = [] /\ x_in x = [].
Proof. exact ok_callback_whole. Qed.
Print Assumptions c09_ok_callback_is_whole_input.

(* [trim_nl] (what parse_more keeps of data(), c09_data_is_the_lines / c09_amounts_from_bytes) is what the head of
   SymbolParser::parse_more says: translate/c09_circular_mem.py reads off which newline is searched (`rposition`), what is kept
   (`&input[..idx + 1]`) and what is returned without a newline (`Ok(0)`); rebuilt from those, the slice is [trim_nl]. *)
Theorem c09_trim_is_source : forall d, PinsMem.trim_src d = trim_nl d.
Proof. exact PinsMem.pin_trim. Qed.
Print Assumptions c09_trim_is_source.

(* finish_item / finish composed with C08.  For EVERY byte string and every
   schedule of reads: the loop returns, finish returns, every (start, end) pair handed to `Range::new` on the
   way - line records `address .. address + size - 1`, memory_range() of FUNC / STACK CFI INIT / STACK WIN
   records, the STACK WIN record shortened by insert_win_stack_info ([finish_new_ranges]) - satisfies
   0 <= start <= end < 2^64 (Range::new asserts "Ranges must be ordered": the class of seeded C09-8), and the
   five range maps of the table (functions, each function's line table, CFI, STACK WIN frame data / fpo) are
   strictly sorted, pairwise disjoint, made of ordered ranges ([table_wf]; C08's builder theorems applied to
   what the recognisers produce). *)
Theorem c09_table_ranges_ordered :
  forall (bytes : list Z) (sch : list Z),
    exists r s t, drive_c (map to_rle (fst (split_bytes bytes [])))
                          (Z.of_nat (length (snd (split_bytes bytes [])))) sch = Ret (r, s) /\
                  table_of r = Ret t /\ table_opt_wf t /\ Forall C08.Proofs.wf_range (result_new_ranges r).
Proof. intros. apply parse_table_wf. Qed.
Print Assumptions c09_table_ranges_ordered.

(* the same over the parser state, for all record sequences: any list of recognised / dropped lines replayed
   from the initial state (not only those a run of the loop produces) *)
Theorem c09_finish_ranges_ordered :
  (forall (ds : list (bool * rle)) p,
      replay rle pst recog_pst bump_pst lineno_pst init_pst ds = inl p ->
      Forall C08.Proofs.wf_range (finish_new_ranges p) /\ exists t, finish p = Ret t /\ table_wf t) /\
  (forall V (m : list (range * V)), map_wf m ->
      forall i j a b, (i < j)%nat -> nth_error m i = Some a -> nth_error m j = Some b ->
      fst (fst a) <= snd (fst a) /\ snd (fst a) < fst (fst b) /\ fst (fst b) <= snd (fst b)).
Proof. split; [exact replay_table_wf|exact @map_wf_disjoint]. Qed.
Print Assumptions c09_finish_ranges_ordered.

(* non-vacuity: two overlapping STACK WIN records (the fix-up shortens the first: a third Range::new), a FUNC at
   the top of the address space whose line record ends exactly at 2^64 - 1 and one that would end beyond it
   (checked_add = None: no Range::new), a zero-size line: the Range::new arguments and the resulting maps *)
Example c09_nonvacuous_ranges :
  let r := drive_c [ex_module;
                    map (fun b => (b, 1)) [83;84;65;67;75;32;87;73;78;32;52;32;49;48;32;49;48;32;48;32;48;32;48;32;48;32;48;32;48;32;49;32;120];  (* STACK WIN 4 10 10 0 0 0 0 0 0 1 x *)
                    map (fun b => (b, 1)) [83;84;65;67;75;32;87;73;78;32;52;32;49;52;32;99;32;48;32;48;32;48;32;48;32;48;32;48;32;49;32;121];     (* STACK WIN 4 14 c 0 0 0 0 0 0 1 y *)
                    map (fun b => (b, 1)) [70;85;78;67;32;102;102;102;102;102;102;102;102;102;102;102;102;102;102;102;48;32;102;32;48;32;102];  (* FUNC fffffffffffffff0 f 0 f *)
                    map (fun b => (b, 1)) [102;102;102;102;102;102;102;102;102;102;102;102;102;102;102;48;32;49;48;32;55;32;49];                    (* fffffffffffffff0 10 7 1 *)
                    map (fun b => (b, 1)) [102;102;102;102;102;102;102;102;102;102;102;102;102;102;102;56;32;57;32;55;32;49];                        (* fffffffffffffff8 9 7 1 *)
                    map (fun b => (b, 1)) [102;102;102;102;102;102;102;102;102;102;102;102;102;102;102;56;32;48;32;55;32;49]]                       (* fffffffffffffff8 0 7 1 *)
                   0 [7; 11] in
  (match r with
  | Ret (ROk p, _) =>
      (finish_new_ranges p,
       match finish p with
       | Ret t => (map fst (t_win_fd t), map (fun e => map fst (sf_lines (snd e))) (t_funcs t))
       | _ => ([], [])
       end)
  | _ => ([], ([], []))
  end) = ([(18446744073709551600, 18446744073709551615); (18446744073709551600, 18446744073709551614);
           (16, 31); (20, 31); (16, 19)],
          ([(16, 19); (20, 31)], [[(18446744073709551600, 18446744073709551615)]])).
Proof. vm_compute. reflexivity. Qed.

(* The numeric helpers of parser.rs, `hex_str::<u32>` / `hex_str::<u64>` / `decimal_u32`, COMPILED from the Rust source
   (translate/c09_numeric.py -> Gen/C09Numeric.v: every statement one `let` / `do`, `+` `*` `+=` as the checked operators of
   both build profiles, `&input[k..]` as a slice site) are, on the bytes of every run-length encoded line and in both
   profiles, the number recognisers of Grammar.v - in particular they never panic (`res * 10 + digit` stays below 2^64 within
   MAX_LEN digits, `res << 4` never loses a bit within size_of::<T>() * 2 digits, k <= input.len()). *)
Theorem c09_numeric_helpers_are_source :
  forall (p : profile) (s : rle),
    C09Numeric.hex_str_src p 4 (PinsNum.expand s) = Ret (PinsNum.lift (hex_str 8%nat s)) /\
    C09Numeric.hex_str_src p 8 (PinsNum.expand s) = Ret (PinsNum.lift (hex_str 16%nat s)) /\
    C09Numeric.decimal_u32_src p (PinsNum.expand s) = Ret (PinsNum.lift (decimal_u32 s)).
Proof.
  intros p s. split; [apply (PinsNum.hex_src_is_grammar p 4 8%nat); left; split; reflexivity|].
  split; [apply (PinsNum.hex_src_is_grammar p 8 16%nat); right; split; reflexivity|apply PinsNum.dec_src_is_grammar].
Qed.
Print Assumptions c09_numeric_helpers_are_source.

(* What the compiled functions accept, declaratively, for EVERY byte list (any integer as a byte) and both profiles:
   hex_str: an error iff the input does not start with a hex digit; otherwise exactly the longest prefix of at most 8 / 16 hex
   digits is consumed and the result is its positional value, below 2^32 / 2^64.  decimal_u32: an error iff the input does not
   start with a decimal digit or the value of the longest prefix of at most 10 digits exceeds u32::MAX (an eleventh digit is
   left in the input).  A byte >= 0x80 is not a digit of either kind (class of seeded C09-7). *)
Theorem c09_numeric_grammar :
  forall (p : profile) (input : list Z),
    (forall sz nd, (sz = 4 /\ nd = 8%nat) \/ (sz = 8 /\ nd = 16%nat) ->
       (C09Numeric.hex_str_src p sz input = Ret None /\ PinsNum.hex_stops input) \/
       (exists ds rest, C09Numeric.hex_str_src p sz input = Ret (Some (rest, PinsNum.dvalue hexval 16 0 ds)) /\
                        input = ds ++ rest /\ ds <> [] /\ (length ds <= nd)%nat /\ PinsNum.hexdigits ds /\
                        (length ds = nd \/ PinsNum.hex_stops rest) /\
                        0 <= PinsNum.dvalue hexval 16 0 ds < 2 ^ (8 * sz))) /\
    ((C09Numeric.decimal_u32_src p input = Ret None /\ PinsNum.dec_stops input) \/
     (exists ds rest, input = ds ++ rest /\ ds <> [] /\ (length ds <= 10)%nat /\ PinsNum.decdigits ds /\
                      (length ds = 10%nat \/ PinsNum.dec_stops rest) /\ 0 <= PinsNum.dvalue decval 10 0 ds < 10 ^ 10 /\
                      C09Numeric.decimal_u32_src p input =
                      Ret (if PinsNum.dvalue decval 10 0 ds <=? U32MAX
                           then Some (rest, PinsNum.dvalue decval 10 0 ds) else None))) /\
    (forall b, 128 <= b -> hexval b = None /\ decval b = None).
Proof.
  intros p input. split; [intros sz nd H; exact (PinsNum.hex_src_grammar p sz nd H input)|].
  split; [exact (PinsNum.dec_src_grammar p input)|exact PinsNum.non_ascii_no_digit].
Qed.
Print Assumptions c09_numeric_grammar.

(* non-vacuity: "1aF9z" -> 0x1af9, rest "z"; nine hex digits into a u32: eight consumed; a byte 0xC8 first: error;
   "4294967295 " accepted, "4294967296" too large, eleven digits: ten consumed (1 < u32::MAX), rest "1"; "" : error *)
Example c09_nonvacuous_numeric :
  (C09Numeric.hex_str_src Debug 4 [49; 97; 70; 57; 122],
   C09Numeric.hex_str_src Debug 4 [49; 50; 51; 52; 53; 54; 55; 56; 57],
   C09Numeric.hex_str_src Release 8 [200; 49],
   C09Numeric.decimal_u32_src Debug [52; 50; 57; 52; 57; 54; 55; 50; 57; 53; 32],
   C09Numeric.decimal_u32_src Debug [52; 50; 57; 52; 57; 54; 55; 50; 57; 54],
   C09Numeric.decimal_u32_src Release [48; 48; 48; 48; 48; 48; 48; 48; 48; 49; 49],
   C09Numeric.decimal_u32_src Debug [])
  = (Ret (Some ([122], 6905)), Ret (Some ([57], 305419896)), Ret None,
     Ret (Some ([32], 4294967295)), Ret None, Ret (Some ([49], 1)), Ret None).
Proof. vm_compute. reflexivity. Qed.

(* The text fields of a record on BYTES (Grammar.v works on run-length encoded lines).  `my_eol`: everything left of the
   line must be '\r'.  `terminated(map_res(not_my_eol, from_utf8), my_eol)` (names, rule strings, program strings, URL): the
   line splits - at its first '\r' - into a name without '\r' and a rest; the field is accepted iff the name is valid UTF-8
   and the rest consists of '\r' only, and the string returned has exactly the bytes of the name.  `str::from_utf8` validity:
   the run-length shortcut of the model is the byte-by-byte automaton, and that automaton accepts exactly the well-formed
   byte sequences of the Unicode standard (table 3-7: no overlong forms, no surrogates, nothing above U+10FFFF). *)
Theorem c09_text_fields_on_bytes :
  (forall s, eol s = true <-> Forall (fun b => b = 13) (PinsNum.expand s)) /\
  (forall s, exists name rest,
      PinsNum.expand s = name ++ rest /\ Forall (fun b => b <> 13) name /\ ProofsText.starts (fun b => b = 13) rest /\
      name_eol s = (if ProofsText.utf8_bytes name && forallb (fun b => b =? 13) rest
                    then Some (rle_norm (fst (span_not is_cr s))) else None) /\
      PinsNum.expand (rle_norm (fst (span_not is_cr s))) = name) /\
  (forall s, utf8_ok s = ProofsText.utf8_bytes (PinsNum.expand s)) /\
  (forall l, ProofsText.utf8_bytes l = true <-> ProofsText.wf8 l) /\
  (forall l, PinsNum.expand (to_rle l) = l).
Proof.
  split; [exact ProofsText.eol_bytes|]. split; [exact ProofsText.name_eol_bytes|].
  split; [exact ProofsText.utf8_ok_bytes|]. split; [exact ProofsText.utf8_bytes_wf|exact PinsNum.expand_to_rle].
Qed.
Print Assumptions c09_text_fields_on_bytes.

(* non-vacuity: "é€" + U+1F600 is well formed and accepted; an overlong form (C0 80), a surrogate (ED A0 80), a code point
   above U+10FFFF (F4 90 80 80) and a run of five continuation bytes are rejected; "ab\r\r" is the name "ab" *)
Example c09_nonvacuous_text :
  ProofsText.wf8 [195; 169; 226; 130; 172; 240; 159; 152; 128] /\
  (utf8_ok [(195, 1); (169, 1); (226, 1); (130, 1); (172, 1); (240, 1); (159, 1); (152, 1); (128, 1)],
   utf8_ok [(192, 1); (128, 1)], utf8_ok [(237, 1); (160, 1); (128, 1)], utf8_ok [(244, 1); (144, 1); (128, 2)],
   utf8_ok [(128, 5)], name_eol [(97, 1); (98, 1); (13, 2)], name_eol [(97, 1); (13, 1); (98, 1)])
  = (true, false, false, false, false, Some [(97, 1); (98, 1)], None).
Proof.
  split; [exact ProofsText.wf8_example|vm_compute; reflexivity].
Qed.

(* A whole record kind as a declarative grammar over BYTES, both directions: FILE and INLINE_ORIGIN (the other kinds follow below):
       line ::= KEYWORD sp+ digit{1,10} sp+ name cr*     sp = ' ' | '\t', cr = '\r', value(digits) <= u32::MAX,
                                                          name: no '\r', not starting with sp, well-formed UTF-8
   ([ProofsRecord.id_name_line]).  The recogniser answers PErr (alt tries the next record kind) iff the line does not start
   with KEYWORD followed by a space or tab; it answers POk iff the line has this shape, the id being the value of the digits
   and the returned string having exactly the bytes of the name; everything else is PFail (cut: the whole parse fails). *)
Theorem c09_id_name_record_grammar :
  forall s : rle,
    (p_file s = PErr <-> ~ ProofsRecord.has_header T_FILE (PinsNum.expand s)) /\
    (forall it, p_file s = POk it ->
        exists id n name, it = IFile id n /\ ProofsRecord.id_name_line T_FILE (PinsNum.expand s) id name /\ PinsNum.expand n = name) /\
    (forall id name, ProofsRecord.id_name_line T_FILE (PinsNum.expand s) id name ->
        exists n, p_file s = POk (IFile id n) /\ PinsNum.expand n = name) /\
    (p_inline_origin s = PErr <-> ~ ProofsRecord.has_header T_INLINE_ORIGIN (PinsNum.expand s)) /\
    (forall it, p_inline_origin s = POk it ->
        exists id n name, it = IOrigin id n /\ ProofsRecord.id_name_line T_INLINE_ORIGIN (PinsNum.expand s) id name /\
                          PinsNum.expand n = name) /\
    (forall id name, ProofsRecord.id_name_line T_INLINE_ORIGIN (PinsNum.expand s) id name ->
        exists n, p_inline_origin s = POk (IOrigin id n) /\ PinsNum.expand n = name).
Proof.
  intros s.
  split; [exact (ProofsRecord.hdr_err_iff T_FILE _ s)|]. split; [intros it; apply (ProofsRecord.p_id_name_sound T_FILE IFile)|].
  split; [intros id name; apply (ProofsRecord.p_id_name_complete T_FILE IFile)|].
  split; [exact (ProofsRecord.hdr_err_iff T_INLINE_ORIGIN _ s)|].
  split; [intros it; apply (ProofsRecord.p_id_name_sound T_INLINE_ORIGIN IOrigin)|].
  intros id name; apply (ProofsRecord.p_id_name_complete T_INLINE_ORIGIN IOrigin).
Qed.
Print Assumptions c09_id_name_record_grammar.

(* non-vacuity: "FILE 12 \t a\xc3\xa9\r\r" has the shape (id 12, name "aé") and is recognised as such; "FILE 4294967296 x"
   and "FILE 1 \xff" have the header but not the shape: PFail; "FILEX 1 x" has no header: PErr *)
Example c09_nonvacuous_record :
  ProofsRecord.id_name_line T_FILE (PinsNum.expand (to_rle [70; 73; 76; 69; 32; 49; 50; 32; 9; 97; 195; 169; 13; 13])) 12 [97; 195; 169] /\
  (p_file (to_rle [70; 73; 76; 69; 32; 49; 50; 32; 9; 97; 195; 169; 13; 13]),
   p_file (to_rle [70; 73; 76; 69; 32; 52; 50; 57; 52; 57; 54; 55; 50; 57; 54; 32; 120]),
   p_file (to_rle [70; 73; 76; 69; 32; 49; 32; 255]),
   p_file (to_rle [70; 73; 76; 69; 88; 32; 49; 32; 120]))
  = (POk (IFile 12 [(97, 1); (195, 1); (169, 1)]), PFail, PFail, PErr).
Proof. split; [rewrite PinsNum.expand_to_rle; exact ProofsRecord.file_line_example|vm_compute; reflexivity]. Qed.

(* STACK CFI INIT records, STACK CFI delta
   sub-lines, and the line records of a FUNC (hex{1,16} / hex{1,8} fields, decimal fields <= u32::MAX, sp+ between fields,
   rules text without '\r' that is well-formed UTF-8, cr* before the newline) as declarative grammars over BYTES, both directions. *)
Theorem c09_cfi_and_line_record_grammar :
  forall s : rle,
    (forall it, p_stack_cfi_init s = POk it ->
        exists a sz r rules, it = ICfiInit (mk_cfi (mk_rule a r) sz []) /\
                             ProofsRecord2.cfi_init_line (PinsNum.expand s) a sz rules /\ PinsNum.expand r = rules) /\
    (forall a sz rules, ProofsRecord2.cfi_init_line (PinsNum.expand s) a sz rules ->
        exists r, p_stack_cfi_init s = POk (ICfiInit (mk_cfi (mk_rule a r) sz [])) /\ PinsNum.expand r = rules) /\
    (forall x, sub_cfi s = Some x ->
        exists a r rules, x = mk_rule a r /\ ProofsRecord2.cfi_add_line (PinsNum.expand s) a rules /\ PinsNum.expand r = rules) /\
    (forall a rules, ProofsRecord2.cfi_add_line (PinsNum.expand s) a rules ->
        exists r, sub_cfi s = Some (mk_rule a r) /\ PinsNum.expand r = rules) /\
    (forall x, sub_line_data s = Some x ->
        exists a sz ln fl, x = mk_line a sz fl ln /\ ProofsRecord2.line_rec_line (PinsNum.expand s) a sz ln fl) /\
    (forall a sz ln fl, ProofsRecord2.line_rec_line (PinsNum.expand s) a sz ln fl -> sub_line_data s = Some (mk_line a sz fl ln)).
Proof.
  intros s. split; [apply ProofsRecord2.cfi_init_sound|]. split; [apply ProofsRecord2.cfi_init_complete|].
  split; [apply ProofsRecord2.cfi_add_sound|]. split; [apply ProofsRecord2.cfi_add_complete|].
  split; [apply ProofsRecord2.line_rec_sound|apply ProofsRecord2.line_rec_complete].
Qed.
Print Assumptions c09_cfi_and_line_record_grammar.

(* non-vacuity: "1000 10 7 1\r" has the shape of a line record and is recognised as address 0x1000, size 0x10, line 7,
   file 1; with an eleventh digit in the file field, or a byte 0xE9 after the digits, it is not *)
Example c09_nonvacuous_line_record :
  ProofsRecord2.line_rec_line (PinsNum.expand (to_rle [49; 48; 48; 48; 32; 49; 48; 32; 55; 32; 49; 13])) 4096 16 7 1 /\
  (sub_line_data (to_rle [49; 48; 48; 48; 32; 49; 48; 32; 55; 32; 49; 13]),
   sub_line_data (to_rle [49; 48; 48; 48; 32; 49; 48; 32; 55; 32; 48; 48; 48; 48; 48; 48; 48; 48; 48; 48; 49]),
   sub_line_data (to_rle [49; 48; 48; 48; 32; 49; 48; 32; 55; 32; 49; 233]))
  = (Some (mk_line 4096 16 1 7), None, None).
Proof. split; [rewrite PinsNum.expand_to_rle; exact ProofsRecord2.line_rec_example|vm_compute; reflexivity]. Qed.

(* PUBLIC and FUNC records (with the optional `m` marker) as declarative grammars over BYTES, both directions. *)
Theorem c09_public_func_record_grammar :
  forall s : rle,
    (forall it, p_public s = POk it ->
        exists a ps n name, it = IPublic (mk_pubs a n ps) /\ ProofsRecord3.public_line (PinsNum.expand s) a ps name /\
                            PinsNum.expand n = name) /\
    (forall a ps name, ProofsRecord3.public_line (PinsNum.expand s) a ps name ->
        exists n, p_public s = POk (IPublic (mk_pubs a n ps)) /\ PinsNum.expand n = name) /\
    (forall it, p_func s = POk it ->
        exists a sz ps n name, it = IFunc (mk_fr a sz ps n [] []) /\ ProofsRecord3.func_line (PinsNum.expand s) a sz ps name /\
                               PinsNum.expand n = name) /\
    (forall a sz ps name, ProofsRecord3.func_line (PinsNum.expand s) a sz ps name ->
        exists n, p_func s = POk (IFunc (mk_fr a sz ps n [] [])) /\ PinsNum.expand n = name).
Proof.
  intros s. split; [apply ProofsRecord3.public_sound|]. split; [apply ProofsRecord3.public_complete|].
  split; [apply ProofsRecord3.func_sound|apply ProofsRecord3.func_complete].
Qed.
Print Assumptions c09_public_func_record_grammar.

(* non-vacuity: "FUNC m 1000 10 4 f" has the shape; a ninth digit in the size field, or `m` not followed by a space, breaks it *)
Example c09_nonvacuous_func_record :
  ProofsRecord3.func_line (PinsNum.expand (to_rle [70; 85; 78; 67; 32; 109; 32; 49; 48; 48; 48; 32; 49; 48; 32; 52; 32; 102])) 4096 16 4 [102] /\
  (p_func (to_rle [70; 85; 78; 67; 32; 49; 48; 48; 48; 32; 49; 50; 51; 52; 53; 54; 55; 56; 57; 32; 52; 32; 102]),
   p_func (to_rle [70; 85; 78; 67; 32; 109; 49; 48; 48; 48; 32; 49; 48; 32; 52; 32; 102]))
  = (PFail, PFail).
Proof. split; [exact ProofsRecord3.func_line_example|vm_compute; reflexivity]. Qed.

(* INFO URL, INFO and MODULE records as declarative grammars over BYTES, both directions.  A MODULE field (os, cpu) is any
   run of bytes other than ' ' '\r' '\n' that is well-formed UTF-8 (a tab is part of the field), the separator after it is a
   ' ' followed by spaces / tabs; the id is one or more hex digits (no length limit); the file name is the rest of the line.
   Each is proved equal to the recogniser the correspondence run compares with the code. *)
Theorem c09_info_module_record_grammar :
  forall s : rle,
    (forall it, p_info_url s = POk it ->
        exists n u, it = IUrl n /\ ProofsRecord4.info_url_line (PinsNum.expand s) u /\ PinsNum.expand n = u) /\
    (forall u, ProofsRecord4.info_url_line (PinsNum.expand s) u -> exists n, p_info_url s = POk (IUrl n) /\ PinsNum.expand n = u) /\
    (forall it, p_info s = POk it -> it = IInfo /\ ProofsRecord4.info_line (PinsNum.expand s)) /\
    (ProofsRecord4.info_line (PinsNum.expand s) -> p_info s = POk IInfo) /\
    (forall it, p_module s = POk it ->
        exists i f id file, it = IModule i f /\ ProofsRecord4.module_line (PinsNum.expand s) id file /\
                            PinsNum.expand i = id /\ PinsNum.expand f = file) /\
    (forall id file, ProofsRecord4.module_line (PinsNum.expand s) id file ->
        exists i f, p_module s = POk (IModule i f) /\ PinsNum.expand i = id /\ PinsNum.expand f = file).
Proof.
  intros s. split; [apply ProofsRecord4.info_url_sound|]. split; [apply ProofsRecord4.info_url_complete|].
  split; [apply ProofsRecord4.info_sound|]. split; [apply ProofsRecord4.info_complete|].
  split; [apply ProofsRecord4.module_sound|apply ProofsRecord4.module_complete].
Qed.
Print Assumptions c09_info_module_record_grammar.

(* non-vacuity: "MODULE Linux x86 ABC1 a.pdb\r" has the shape; a tab instead of the space after the os field makes the tab part
   of the field ("Linux\tx86" is the os, "ABC1" the cpu, "a.pdb" is not a hex id): PFail *)
Example c09_nonvacuous_module_record :
  ProofsRecord4.module_line
    (PinsNum.expand (to_rle [77; 79; 68; 85; 76; 69; 32; 76; 105; 110; 117; 120; 32; 120; 56; 54; 32; 65; 66; 67; 49; 32; 97; 46; 112; 100; 98; 13]))
    [65; 66; 67; 49] [97; 46; 112; 100; 98] /\
  p_module (to_rle [77; 79; 68; 85; 76; 69; 32; 76; 105; 110; 117; 120; 9; 120; 56; 54; 32; 65; 66; 67; 49; 32; 97; 46; 112; 100; 98; 13]) = PFail.
Proof. split; [exact ProofsRecord4.module_line_example|vm_compute; reflexivity]. Qed.

(* STACK WIN records and INLINE sub-lines as declarative grammars over BYTES, both directions.  With
   c09_id_name_record_grammar, c09_cfi_and_line_record_grammar, c09_public_func_record_grammar and
   c09_info_module_record_grammar, every record kind and every sub-line kind of the format has a declarative counterpart proved equal to the byte-level
   recogniser that the correspondence run compares with parser.rs. *)
Theorem c09_win_inline_record_grammar :
  forall s : rle,
    (forall it, p_stack_win s = POk it ->
        exists ty a sz pro epi par sav loc mx hp n rest,
          it = IWin (win_of_fields ty a sz pro epi par sav loc mx hp n) /\
          ProofsRecord5.win_line (PinsNum.expand s) ty a sz pro epi par sav loc mx hp rest /\ PinsNum.expand n = rest) /\
    (forall ty a sz pro epi par sav loc mx hp rest,
        ProofsRecord5.win_line (PinsNum.expand s) ty a sz pro epi par sav loc mx hp rest ->
        exists n, p_stack_win s = POk (IWin (win_of_fields ty a sz pro epi par sav loc mx hp n)) /\ PinsNum.expand n = rest) /\
    (forall x, sub_inline s = Some x ->
        exists depth cline cfile origin rs, x = ProofsRecord6.inlinees depth cline cfile origin rs /\
                                            ProofsRecord6.inline_line (PinsNum.expand s) depth cline cfile origin rs) /\
    (forall depth cline cfile origin rs, ProofsRecord6.inline_line (PinsNum.expand s) depth cline cfile origin rs ->
        sub_inline s = Some (ProofsRecord6.inlinees depth cline cfile origin rs)).
Proof.
  intros s. split; [apply ProofsRecord5.win_sound|]. split; [intros; eapply ProofsRecord5.win_complete; eassumption|].
  split; [apply ProofsRecord6.inline_sound|apply ProofsRecord6.inline_complete].
Qed.
Print Assumptions c09_win_inline_record_grammar.

(* non-vacuity: an INLINE line with two ranges has the shape; a trailing space after the last range (the separator that
   separated_list1 gives back) or a ninth digit in a size makes the line invalid *)
Example c09_nonvacuous_inline_record :
  ProofsRecord6.inline_line
    (PinsNum.expand (to_rle [73; 78; 76; 73; 78; 69; 32; 48; 32; 51; 32; 49; 32; 50; 32; 49; 48; 48; 48; 32; 49; 48; 32; 50; 48; 48; 48; 32; 52; 13]))
    0 3 1 2 [(4096, 16); (8192, 4)] /\
  (sub_inline (to_rle [73; 78; 76; 73; 78; 69; 32; 48; 32; 51; 32; 49; 32; 50; 32; 49; 48; 48; 48; 32; 49; 48; 32]),
   sub_inline (to_rle [73; 78; 76; 73; 78; 69; 32; 48; 32; 51; 32; 49; 32; 50; 32; 49; 48; 48; 48; 32; 49; 50; 51; 52; 53; 54; 55; 56; 57]))
  = (None, None).
Proof. split; [exact ProofsRecord6.inline_line_example|vm_compute; reflexivity]. Qed.

(* The dispatch between record kinds.  Every top-level line parser answers PErr (`alt` goes on to the next kind) iff the line
   does not start with its KEYWORD followed by a space or tab - after the keyword the parser is under `cut`: POk or PFail (the
   whole parse fails with "failed to parse file").  `line_top` = `alt` over the nine parsers in the order of parser.rs: the first
   parser that does not answer PErr decides. *)
Theorem c09_record_dispatch :
  forall s : rle,
    (p_info_url s = PErr <-> ~ ProofsRecord.has_header T_INFO_URL (PinsNum.expand s)) /\
    (p_info s = PErr <-> ~ ProofsRecord.has_header T_INFO (PinsNum.expand s)) /\
    (p_file s = PErr <-> ~ ProofsRecord.has_header T_FILE (PinsNum.expand s)) /\
    (p_inline_origin s = PErr <-> ~ ProofsRecord.has_header T_INLINE_ORIGIN (PinsNum.expand s)) /\
    (p_public s = PErr <-> ~ ProofsRecord.has_header T_PUBLIC (PinsNum.expand s)) /\
    (p_func s = PErr <-> ~ ProofsRecord.has_header T_FUNC (PinsNum.expand s)) /\
    (p_stack_win s = PErr <-> ~ ProofsRecord.has_header T_STACK_WIN (PinsNum.expand s)) /\
    (p_stack_cfi_init s = PErr <-> ~ ProofsRecord.has_header T_STACK_CFI_INIT (PinsNum.expand s)) /\
    (p_module s = PErr <-> ~ ProofsRecord.has_header T_MODULE (PinsNum.expand s)) /\
    (forall ps it, alt ps s = Some it <->
        exists pre p post, ps = pre ++ p :: post /\ Forall (fun q => q s = PErr) pre /\ p s = POk it) /\
    (forall ps, alt ps s = None <->
        Forall (fun q => q s = PErr) ps \/
        exists pre p post, ps = pre ++ p :: post /\ Forall (fun q => q s = PErr) pre /\ p s = PFail) /\
    line_top s = alt [p_info_url; p_info; p_file; p_inline_origin; p_public; p_func; p_stack_win; p_stack_cfi_init; p_module] s.
Proof.
  intros s.
  split; [exact (ProofsRecord.hdr_err_iff T_INFO_URL _ s)|]. split; [exact (ProofsRecord.hdr_err_iff T_INFO _ s)|].
  split; [exact (ProofsRecord.hdr_err_iff T_FILE _ s)|]. split; [exact (ProofsRecord.hdr_err_iff T_INLINE_ORIGIN _ s)|].
  split; [exact (ProofsRecord.hdr_err_iff T_PUBLIC _ s)|]. split; [exact (ProofsRecord.hdr_err_iff T_FUNC _ s)|].
  split; [exact (ProofsRecord.hdr_err_iff T_STACK_WIN _ s)|]. split; [exact (ProofsRecord.hdr_err_iff T_STACK_CFI_INIT _ s)|].
  split; [exact (ProofsRecord.hdr_err_iff T_MODULE _ s)|].
  split; [intros ps it; apply ProofsRecord.alt_some|]. split; [intros ps; apply ProofsRecord.alt_none|reflexivity].
Qed.
Print Assumptions c09_record_dispatch.

(* The line recognisers of Grammar.v are the interpretation of what a translator (translate/c09_lines.py ->
   Gen/C09Lines.v) reads off the nom parsers of parser.rs: the keyword of `terminated(tag(..), space1)`, whether the fields are
   under `cut`, the order and kind of the field parsers inside `tuple((..))` (vocabulary: decimal_u32 / hex_str::<u64> /
   hex_str::<u32> followed by space1, opt(m), name + my_eol, not_my_eol + my_eol, non_space + space1, hex_digit1 + space1,
   decimal_u32 + my_eol, bare hex_str::<u32>), and the order of the alternatives of `line()`.  An edit to a keyword, to the
   position of `cut`, to a field or to the order of fields / alternatives changes Gen/C09Lines.v and breaks these equalities
   (stack_win_line and inline_line have bodies outside the translator's template and stay hand-written). *)
Theorem c09_line_parsers_are_source :
  forall s : rle,
    p_module s = match PinsLines.run_desc C09Lines.module_line_desc s with
                 | POk ([PinsLines.VStr id; PinsLines.VStr f], _) => POk (IModule id f) | POk _ => PFail | PFail => PFail | PErr => PErr end /\
    p_info_url s = match PinsLines.run_desc C09Lines.info_url_desc s with
                   | POk ([PinsLines.VStr u], _) => POk (IUrl u) | POk _ => PFail | PFail => PFail | PErr => PErr end /\
    p_info s = match PinsLines.run_desc C09Lines.info_line_desc s with
               | POk ([], _) => POk IInfo | POk _ => PFail | PFail => PFail | PErr => PErr end /\
    p_file s = match PinsLines.run_desc C09Lines.file_line_desc s with
               | POk ([PinsLines.VNum id; PinsLines.VStr n], _) => POk (IFile id n) | POk _ => PFail | PFail => PFail | PErr => PErr end /\
    p_inline_origin s = match PinsLines.run_desc C09Lines.inline_origin_line_desc s with
               | POk ([PinsLines.VNum id; PinsLines.VStr n], _) => POk (IOrigin id n) | POk _ => PFail | PFail => PFail | PErr => PErr end /\
    p_public s = match PinsLines.run_desc C09Lines.public_line_desc s with
               | POk ([PinsLines.VNum a; PinsLines.VNum ps; PinsLines.VStr n], _) => POk (IPublic (mk_pubs a n ps)) | POk _ => PFail
               | PFail => PFail | PErr => PErr end /\
    p_func s = match PinsLines.run_desc C09Lines.func_line_desc s with
               | POk ([PinsLines.VNum a; PinsLines.VNum sz; PinsLines.VNum ps; PinsLines.VStr n], _) => POk (IFunc (mk_fr a sz ps n [] []))
               | POk _ => PFail | PFail => PFail | PErr => PErr end /\
    p_stack_cfi_init s = match PinsLines.run_desc C09Lines.stack_cfi_init_desc s with
               | POk ([PinsLines.VNum a; PinsLines.VNum sz; PinsLines.VStr r], _) => POk (ICfiInit (mk_cfi (mk_rule a r) sz []))
               | POk _ => PFail | PFail => PFail | PErr => PErr end /\
    sub_cfi s = match PinsLines.run_desc C09Lines.stack_cfi_desc s with
                | POk ([PinsLines.VNum a; PinsLines.VStr r], _) => Some (mk_rule a r) | _ => None end /\
    sub_line_data s = match PinsLines.run_desc C09Lines.func_line_data_desc s with
                | POk ([PinsLines.VNum a; PinsLines.VNum sz; PinsLines.VNum ln; PinsLines.VNum fl], _) => Some (mk_line a sz fl ln)
                | _ => None end /\
    addr_range s = match PinsLines.run_desc C09Lines.inline_address_range_desc s with
                | POk ([PinsLines.VNum a; PinsLines.VNum sz], s') => Some (a, sz, s') | _ => None end /\
    line_top s = alt (map PinsLines.parser_of C09Lines.line_alt_order) s.
Proof.
  intros s. split; [apply PinsLines.pin_module|]. split; [apply PinsLines.pin_info_url|]. split; [apply PinsLines.pin_info|].
  split; [apply PinsLines.pin_file|]. split; [apply PinsLines.pin_inline_origin|]. split; [apply PinsLines.pin_public|].
  split; [apply PinsLines.pin_func|]. split; [apply PinsLines.pin_stack_cfi_init|]. split; [apply PinsLines.pin_stack_cfi|].
  split; [apply PinsLines.pin_func_line_data|]. split; [apply PinsLines.pin_addr_range|apply PinsLines.pin_line_order].
Qed.
Print Assumptions c09_line_parsers_are_source.
