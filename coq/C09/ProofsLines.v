(* C09/ProofsLines.v — the description of data() that C09/Model.v works with ([rest], [off], [avail];
   "first newline at llen - off - 1"; "parse_more walks over the complete lines that fit") against the real bytes
   of the byte-level run (C09/Circular.v): searching '\n' in the bytes of data() gives Model.first_nl, and the
   prefix of data() up to its last '\n' is the concatenation of the lines Model.pm walks over. *)
From Coq Require Import Lia ZArith List Bool.
From RM Require Import Base.Word C09.Model C09.Circular C09.Proofs C09.ProofsCircular.
Import ListNotations.
Open Scope Z_scope.

Definition no_nl (d : list Z) : Prop := Forall (fun c => c <> 10) d.

Lemma no_nl_parts : forall n d, no_nl d -> no_nl (firstn n d) /\ no_nl (skipn n d).
Proof. intros n d H. apply Forall_app. rewrite firstn_skipn. exact H. Qed.

Lemma position_none : forall d i, no_nl d -> position_nl d i = None.
Proof.
  induction d as [|c t IH]; intros i H; [reflexivity|]. inversion H; subst. cbn [position_nl].
  destruct (c =? 10) eqn:E; [apply Z.eqb_eq in E; contradiction|]. apply IH. assumption.
Qed.

Lemma position_pre : forall pre post a i, no_nl pre ->
  position_nl (firstn a (pre ++ 10 :: post)) i =
  if (length pre <? a)%nat then Some (i + Z.of_nat (length pre)) else None.
Proof.
  induction pre as [|c t IH]; intros post a i H.
  - cbn [app length]. destruct a as [|a]; [reflexivity|]. cbn [firstn position_nl Z.eqb Pos.eqb Nat.ltb Nat.leb].
    f_equal. lia.
  - inversion H; subst. cbn [app length]. destruct a as [|a]; [reflexivity|].
    cbn [firstn position_nl]. destruct (c =? 10) eqn:E; [apply Z.eqb_eq in E; contradiction|].
    rewrite IH by assumption. change (S (length t) <? S a)%nat with (length t <? a)%nat.
    destruct (length t <? a)%nat; [f_equal; lia|reflexivity].
Qed.

Lemma trim_pre : forall pre d, trim_nl (pre ++ 10 :: d) = pre ++ 10 :: trim_nl d.
Proof.
  induction pre as [|c t IH]; intros d.
  - cbn [app trim_nl Z.eqb Pos.eqb]. destruct (trim_nl d); reflexivity.
  - cbn [app trim_nl]. rewrite IH. destruct t; reflexivity.
Qed.

Lemma trim_none : forall d, no_nl d -> trim_nl d = [].
Proof.
  induction d as [|c t IH]; intros H; [reflexivity|]. inversion H; subst. cbn [trim_nl]. rewrite IH by assumption.
  destruct (c =? 10) eqn:E; [apply Z.eqb_eq in E; contradiction|reflexivity].
Qed.

Lemma trim_prefix : forall d, exists r, d = trim_nl d ++ r.
Proof.
  induction d as [|c t [r IH]]; [exists []; reflexivity|]. cbn [trim_nl].
  destruct (trim_nl t) as [|y ys] eqn:E.
  - destruct (c =? 10); [exists t; reflexivity|exists (c :: t); reflexivity].
  - exists r. cbn [app]. f_equal. exact IH.
Qed.

Lemma zskipn_app_exact : forall A (a b : list A) k, 0 <= k ->
  zskipn (zlength a + k) (a ++ b) = zskipn k b.
Proof.
  intros A a b k Hk. unfold zskipn, zlength.
  replace (Z.to_nat (Z.of_nat (length a) + k)) with (length a + Z.to_nat k)%nat by lia.
  rewrite <- skipn_add. rewrite skipn_app, Nat.sub_diag, skipn_all. reflexivity.
Qed.

Section Lines.
  Variable L : Type.
  Variable llen : L -> Z.
  Variable bytes_of : L -> list Z.
  (* a line is its content, which has no '\n', followed by '\n'; [llen] is its length *)
  Hypothesis bytes_ok : forall l, exists body, bytes_of l = body ++ [10] /\ no_nl body /\ zlength (bytes_of l) = llen l.

  Definition cat (ls : list L) : list Z := flat_map bytes_of ls.

  Lemma llen_pos' : forall l, 1 <= llen l.
  Proof.
    intros l. destruct (bytes_ok l) as [body [E [_ HL]]]. rewrite <- HL, E, zlength_app.
    pose proof (zlength_nonneg _ body). unfold zlength at 2. cbn [length]. lia.
  Qed.

  Lemma cat_length : forall ls, zlength (cat ls) = size L llen ls.
  Proof.
    induction ls as [|l t IH]; [reflexivity|]. cbn [cat flat_map Model.size]. rewrite zlength_app.
    destruct (bytes_ok l) as [_ [_ [_ HL]]]. fold (cat t). rewrite IH, HL. reflexivity.
  Qed.

  Lemma cat_input_len : forall ls tl, zlength (cat ls ++ tl) = input_len L llen ls (zlength tl).
  Proof. intros. unfold input_len. rewrite zlength_app, cat_length. pose proof (zlength_nonneg _ tl). lia. Qed.

  Lemma cat_app : forall a b, cat (a ++ b) = cat a ++ cat b.
  Proof. intros. unfold cat. apply flat_map_app. Qed.

  (* the newline search on the bytes of data() *)
  Lemma position_window : forall (ls : list L) (tl : list Z) (off av : Z), no_nl tl ->
    0 <= off -> 0 <= av -> match ls with l :: _ => off < llen l | [] => True end ->
    position_nl (zfirstn av (zskipn off (cat ls ++ tl))) 0 =
    match ls with
    | l :: _ => let d := llen l - off in if d <=? av then Some (d - 1) else None
    | [] => None
    end.
  Proof.
    intros ls tl off av Htl Ho Ha Hoff. destruct ls as [|l t].
    - cbn [cat flat_map app]. apply position_none. apply no_nl_parts, no_nl_parts, Htl.
    - destruct (bytes_ok l) as [body [E [Hb HL]]]. cbn [cat flat_map]. rewrite E.
      rewrite E, zlength_app in HL. unfold zlength in HL. cbn [length] in HL.
      rewrite <- !app_assoc. cbn [app]. unfold zskipn, zfirstn.
      rewrite skipn_app. replace (Z.to_nat off - length body)%nat with 0%nat by lia. cbn [skipn].
      rewrite position_pre by (apply no_nl_parts, Hb).
      rewrite skipn_length. cbv zeta.
      destruct (llen l - off <=? av) eqn:C.
      + apply Z.leb_le in C. replace (length body - Z.to_nat off <? Z.to_nat av)%nat with true
          by (symmetry; apply Nat.ltb_lt; lia). f_equal. lia.
      + apply Z.leb_gt in C. replace (length body - Z.to_nat off <? Z.to_nat av)%nat with false
          by (symmetry; apply Nat.ltb_ge; lia). reflexivity.
  Qed.

  (* what parse_more keeps of data(): the lines that fit *)
  Lemma trim_fit : forall (ls : list L) (tl : list Z) (av : Z), no_nl tl -> 0 <= av ->
    trim_nl (zfirstn av (cat ls ++ tl)) = cat (fit llen av ls).
  Proof.
    induction ls as [|l t IH]; intros tl av Htl Ha.
    - cbn [cat flat_map app fit]. apply trim_none. apply no_nl_parts, Htl.
    - destruct (bytes_ok l) as [body [E [Hb HL]]]. cbn [cat flat_map fit]. fold (cat t).
      pose proof HL as HL'. rewrite E, zlength_app in HL'. unfold zlength in HL'. cbn [length] in HL'.
      destruct (llen l <=? av) eqn:C.
      + apply Z.leb_le in C. cbn [cat flat_map]. fold (cat (fit llen (av - llen l) t)).
        unfold zfirstn. rewrite <- app_assoc. rewrite firstn_app.
        rewrite firstn_all2 by (unfold zlength in HL; lia).
        replace (Z.to_nat av - length (bytes_of l))%nat with (Z.to_nat (av - llen l)) by (unfold zlength in HL; lia).
        rewrite E at 1. rewrite <- app_assoc. cbn [app]. rewrite trim_pre.
        specialize (IH tl (av - llen l) Htl ltac:(lia)). unfold zfirstn in IH. rewrite IH.
        rewrite E. rewrite <- app_assoc. reflexivity.
      + apply Z.leb_gt in C. cbn [cat flat_map]. apply trim_none.
        unfold zfirstn. rewrite <- app_assoc, E, <- app_assoc. rewrite firstn_app.
        replace (Z.to_nat av - length body)%nat with 0%nat by lia. cbn [firstn]. rewrite app_nil_r.
        apply no_nl_parts, Hb.
  Qed.

  Lemma fit_unique : forall taken r budget,
    size L llen taken <= budget ->
    match r with l :: _ => budget - size L llen taken < llen l | [] => True end ->
    fit llen budget (taken ++ r) = taken.
  Proof.
    induction taken as [|l t IH]; intros r budget Hs Hr; cbn [app fit Model.size] in *.
    - destruct r as [|l r]; [reflexivity|]. cbn [fit]. replace (llen l <=? budget) with false; [reflexivity|].
      symmetry. apply Z.leb_gt. lia.
    - pose proof (size_ge0 L llen llen_pos' t) as Hn.
      replace (llen l <=? budget) with true by (symmetry; apply Z.leb_le; lia).
      f_equal. apply IH; [lia|]. destruct r; [exact I|]. lia.
  Qed.
End Lines.

Section LinesTop.
  Variable L : Type.
  Variable llen : L -> Z.
  Variable PS : Type.
  Variable init_ps : PS.
  Variable recog : PS -> L -> PS + Z.
  Variable bump : PS -> PS.
  Variable lineno : PS -> Z.
  Variable bytes_of : L -> list Z.
  Hypothesis bytes_ok : forall l, exists body, bytes_of l = body ++ [10] /\ no_nl body /\ zlength (bytes_of l) = llen l.

  Local Notation cat := (cat L bytes_of).
  Local Notation init_st := (init_st L llen PS init_ps).
  Local Notation iter_pos := (iter_pos L llen PS recog bump lineno).
  Local Notation biter := (biter L llen PS recog bump lineno).

  (* data() in terms of the lines: what Model.v says about it is true of the real bytes *)
  Definition content (tl : list Z) (x : bst L PS) : Prop :=
    let s := x_s x in
    bdata (x_b x) ++ x_in x = zskipn (off s) (cat (rest s) ++ tl) /\
    position_nl (bdata (x_b x)) 0 = first_nl L llen PS s /\
    (off s = 0 -> trim_nl (bdata (x_b x)) = cat (fit llen (avail (buf s)) (rest s))).

  Lemma binv_content : forall lines tl x, no_nl tl ->
    BInv L PS (cat lines ++ tl) x ->
    WFm L llen PS init_ps recog bump lineno (Z.max 0 (zlength tl)) (input_len L llen lines (zlength tl)) lines (x_s x) ->
    content tl x.
  Proof.
    intros lines tl x Htl I W. destruct I as [I1 I2 I3 I4 I5].
    pose proof (wf_cb _ _ _ _ _ _ _ _ _ _ _ W) as Hcb.
    pose proof (wf_total _ _ _ _ _ _ _ _ _ _ _ W) as Ht.
    pose proof (wf_lines _ _ _ _ _ _ _ _ _ _ _ W) as Hl.
    destruct (wf_off _ _ _ _ _ _ _ _ _ _ _ W) as [Ho1 Ho2].
    pose proof (bdata_length _ I2) as HL. rewrite <- avail_idx, I1 in HL.
    assert (Hav : 0 <= avail (buf (x_s x))) by (rewrite <- HL; apply zlength_nonneg).
    assert (A : bdata (x_b x) ++ x_in x = zskipn (off (x_s x)) (cat (rest (x_s x)) ++ tl)).
    { set (done := map snd (rev (log (x_s x)))) in *.
      assert (E : bdata (x_b x) ++ x_in x = zskipn (zlength (x_cb x) + 0) (x_cb x ++ bdata (x_b x) ++ x_in x))
        by (rewrite zskipn_app_exact by lia; reflexivity).
      rewrite E, I3, I5, Hcb, Ht, Hl. rewrite (cat_app L bytes_of), <- app_assoc.
      rewrite <- (cat_length L llen bytes_of bytes_ok done). rewrite Z.add_0_r.
      apply zskipn_app_exact. exact Ho1. }
    assert (B : bdata (x_b x) = zfirstn (avail (buf (x_s x))) (zskipn (off (x_s x)) (cat (rest (x_s x)) ++ tl))).
    { rewrite <- A, <- HL. unfold zfirstn, zlength. rewrite Nat2Z.id.
      rewrite firstn_app, Nat.sub_diag, firstn_all. cbn [firstn]. rewrite app_nil_r. reflexivity. }
    unfold content. cbv zeta. split; [exact A|]. split.
    - rewrite B. rewrite (position_window L llen bytes_of bytes_ok); try assumption.
      + unfold Model.first_nl. destruct (rest (x_s x)); reflexivity.
      + destruct (rest (x_s x)); [exact Logic.I|exact Ho2].
    - intros Ho. rewrite B, Ho. unfold zskipn at 1. cbn [Z.to_nat skipn].
      apply (trim_fit L llen bytes_of bytes_ok); assumption.
  Qed.



  (* recovery: `match input.iter().position(..) { Some(i) => i + 1, None => input.len() }` on the bytes of data()
     parse:    parse_more returns the length of data() up to its last newline, and the callback gets exactly those bytes *)
  Definition amounts (x : bst L PS) : Prop :=
    let s := x_s x in
    let d := bdata (x_b x) in
    (match position_nl d 0 with Some i => i + 1 | None => zlength d end
     = total (recovery L llen PS bump s) - total s) /\
    (off s = 0 -> forall p' r' c' lg',
       pm L llen PS recog lineno (avail (buf s)) (ps s) (rest s) 0 (log s) = inl (p', r', c', lg') ->
       c' = zlength (trim_nl d) /\ zfirstn c' d = trim_nl d).

  Lemma content_amounts : forall tl x, bwf (x_b x) -> idx (x_b x) = buf (x_s x) ->
    content tl x -> amounts x.
  Proof.
    intros tl x Wb Hi [_ [C2 C3]]. cbv zeta in *. unfold amounts. cbv zeta.
    pose proof (bdata_length _ Wb) as HL. rewrite <- avail_idx, Hi in HL.
    split.
    - rewrite C2. unfold Model.recovery, Model.first_nl.
      destruct (rest (x_s x)) as [|l t] eqn:Er.
      + unfold discard_all. cbn [total]. rewrite HL. lia.
      + cbv zeta. destruct (llen l - off (x_s x) <=? avail (buf (x_s x))).
        * cbn [total]. lia.
        * unfold discard_all. cbn [total]. rewrite HL. lia.
    - intros Ho p' r' c' lg' P. specialize (C3 Ho).
      assert (Hav : 0 <= avail (buf (x_s x))) by (rewrite <- HL; apply zlength_nonneg).
      apply (pm_inl L llen PS recog bump lineno (llen_pos' L llen bytes_of bytes_ok)) in P; [|exact Hav].
      destruct P as [tk [H1 [H2 [H3 [_ [_ [_ H7]]]]]]].
      rewrite H1 in C3. rewrite (fit_unique L llen bytes_of bytes_ok tk r' _ H3 H7) in C3.
      assert (Ec : c' = zlength (trim_nl (bdata (x_b x)))).
      { rewrite C3, (cat_length L llen bytes_of bytes_ok). lia. }
      split; [exact Ec|]. rewrite Ec.
      destruct (trim_prefix (bdata (x_b x))) as [r Hr]. rewrite Hr at 2.
      unfold zfirstn, zlength. rewrite Nat2Z.id. rewrite firstn_app, Nat.sub_diag, firstn_all. cbn [firstn].
      apply app_nil_r.
  Qed.
End LinesTop.
