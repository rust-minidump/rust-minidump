(* C09/ProofsBytes.v — byte strings versus the (lines, rest) form of the model's input. *)
From Coq Require Import Lia ZArith List Bool.
From RM Require Import Base.Word C09.Model C09.Grammar C09.Driver C09.Proofs.
Import ListNotations.
Open Scope Z_scope.

Lemma split_join_acc : forall bs cur ls tl,
  split_bytes bs cur = (ls, tl) ->
  match ls with
  | [] => tl = rev cur ++ bs
  | l :: ls' => exists l0, l = rev cur ++ l0 /\ join_bytes (l0 :: ls') tl = bs
  end.
Proof.
  induction bs as [|b t IH]; intros cur ls tl H; cbn [split_bytes] in H.
  - inversion H; subst. rewrite app_nil_r. reflexivity.
  - destruct (b =? 10) eqn:E.
    + apply Z.eqb_eq in E. subst b.
      destruct (split_bytes t []) as [ls' tl'] eqn:S. inversion H; subst.
      exists []. rewrite app_nil_r. split; [reflexivity|].
      specialize (IH [] ls' tl S). unfold join_bytes in *. cbn [flat_map app].
      destruct ls' as [|l1 ls1].
      * cbn [flat_map app]. subst tl. reflexivity.
      * destruct IH as [l0 [Hl Hj]]. cbn [rev app] in Hl. subst l1. rewrite Hj. reflexivity.
    + specialize (IH (b :: cur) ls tl H). destruct ls as [|l ls'].
      * rewrite IH. cbn [rev]. rewrite <- app_assoc. reflexivity.
      * destruct IH as [l0 [Hl Hj]]. exists (b :: l0). cbn [rev] in Hl. rewrite <- app_assoc in Hl.
        split; [exact Hl|]. unfold join_bytes in *. cbn [flat_map app] in *. rewrite <- Hj. reflexivity.
Qed.

Lemma split_join_id : forall bs,
  join_bytes (fst (split_bytes bs [])) (snd (split_bytes bs [])) = bs.
Proof.
  intros bs. destruct (split_bytes bs []) as [ls tl] eqn:S. cbn [fst snd].
  pose proof (split_join_acc bs [] ls tl S) as H. destruct ls as [|l ls'].
  - cbn [rev app] in H. subst tl. reflexivity.
  - destruct H as [l0 [Hl Hj]]. cbn [rev app] in Hl. subst l0. exact Hj.
Qed.

Lemma rle_len_nonneg : forall s, 0 <= rle_len s.
Proof. induction s as [|[b c] t IH]; cbn [rle_len]; lia. Qed.

Lemma cllen_pos : forall l, 1 <= cllen l.
Proof. intros l. unfold cllen. pose proof (rle_len_nonneg l). lia. Qed.
