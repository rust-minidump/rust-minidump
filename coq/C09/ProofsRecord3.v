(* C09/ProofsRecord3.v — PUBLIC and FUNC records as declarative grammars over BYTES, both directions.
       public ::= "PUBLIC" sp+ [ "m" sp+ ] hex{1,16} sp+ hex{1,8} sp+ name cr*
       func   ::= "FUNC"   sp+ [ "m" sp+ ] hex{1,16} sp+ hex{1,8} sp+ hex{1,8} sp+ name cr* *)
From Coq Require Import Lia ZArith List Bool.
From RM Require Import Base.Word C08.Model C11.Model C09.Grammar C09.PinsNum C09.ProofsText C09.ProofsRecord C09.ProofsRecord2.
Import ListNotations.
Open Scope Z_scope.

(* opt(terminated(tag("m"), space1)) *)
Definition opt_m_bytes (m : list Z) : Prop := m = [] \/ exists spm, m = 109 :: spm /\ spaces spm.

Lemma opt_m_sound s : exists m, expand s = m ++ expand (opt_m s) /\ opt_m_bytes m.
Proof.
  unfold opt_m. destruct (tag [109] s) as [s0|] eqn:T; [|exists []; split; [reflexivity|left; reflexivity]].
  destruct (space1 s0) as [s1|] eqn:S; [|exists []; split; [reflexivity|left; reflexivity]].
  apply tag_sound in T. destruct (space1_sound s0 s1 S) as (sp & A & B & C & D).
  exists (109 :: sp). split; [rewrite T, A; reflexivity|]. right. exists sp. split; [reflexivity|split; assumption].
Qed.

Lemma opt_m_complete s m r n ds v : expand s = m ++ ds ++ r -> opt_m_bytes m -> hex_field n ds v ->
  expand (opt_m s) = ds ++ r.
Proof.
  intros E M F. pose proof (hex_starts_nonsp r F) as Hns.
  destruct F as (N & _ & D & _). destruct ds as [|d t]; [contradiction|]. inversion D as [|? ? Hd _]; subst.
  unfold opt_m. destruct M as [->|(spm & -> & Ns & Fs)].
  - cbn [app] in E. destruct (tag [109] s) as [s0|] eqn:T; [|exact E].
    apply tag_sound in T. rewrite E in T. cbn [app] in T. inversion T; subst d. cbn in Hd. contradiction.
  - destruct (tag_complete [109] s (spm ++ (d :: t) ++ r) E) as (s0 & T & X). rewrite T.
    destruct (space1_complete s0 spm _ X Ns Fs Hns) as (s1 & S & Y). rewrite S. exact Y.
Qed.

(* PUBLIC [m] <addr> <param size> <name> *)
Definition public_line (l : list Z) (a ps : Z) (name : list Z) : Prop :=
  exists sp0 m d1 sp1 d2 sp2 crs,
    l = T_PUBLIC ++ sp0 ++ m ++ d1 ++ sp1 ++ d2 ++ sp2 ++ name ++ crs /\
    spaces sp0 /\ opt_m_bytes m /\ hex_field 16 d1 a /\ spaces sp1 /\ hex_field 8 d2 ps /\ spaces sp2 /\ text_tail name crs.

Lemma public_sound s it : p_public s = POk it ->
  exists a ps n name, it = IPublic (mk_pubs a n ps) /\ public_line (expand s) a ps name /\ expand n = name.
Proof.
  intros H. apply hdr_cut_bind in H. destruct H as (s1 & sp0 & A0 & B0 & _ & H). cbv zeta in H.
  destruct (opt_m_sound s1) as (m & Am & Bm).
  apply hexsp_bind in H. destruct H as (a & s3 & d1 & sp1 & A1 & B1 & C1 & _ & H).
  apply hexsp_bind in H. destruct H as (ps & s4 & d2 & sp2 & A2 & B2 & C2 & D2 & H).
  apply name_bind in H; [|exact D2]. destruct H as (n & name & crs & A3 & B3 & C3 & ->).
  exists a, ps, n, name. split; [reflexivity|]. split; [|exact C3].
  exists sp0, m, d1, sp1, d2, sp2, crs. rewrite A0, Am, A1, A2, A3. auto 10.
Qed.

Lemma opt_m_starts_nonsp {m n ds v} rest : opt_m_bytes m -> hex_field n ds v -> starts (fun b => ~ sp_byte b) (m ++ ds ++ rest).
Proof.
  intros [->|(spm & -> & _)] F; [exact (hex_starts_nonsp rest F)|]. cbn. unfold sp_byte. lia.
Qed.

Lemma public_complete s a ps name : public_line (expand s) a ps name ->
  exists n, p_public s = POk (IPublic (mk_pubs a n ps)) /\ expand n = name.
Proof.
  intros (sp0 & m & d1 & sp1 & d2 & sp2 & crs & E & S0 & M & F1 & S1 & F2 & S2 & T).
  destruct (hdr_complete E S0 (opt_m_starts_nonsp _ M F1)) as (s1 & H0 & X0).
  pose proof (opt_m_complete s1 m _ _ _ _ X0 M F1) as Xm.
  destruct (hexsp_complete Xm F1 S1 (hex_starts_nonsp _ F2)) as (s3 & H1 & X1).
  destruct (hexsp_complete X1 F2 S2 (proj1 T)) as (s4 & H2 & X2).
  destruct (name_tail_complete X2 T) as (n & H3 & X3).
  exists n. split; [|exact X3]. unfold p_public, hex64sp, hex32sp. rewrite H0. cbv zeta. rewrite H1, H2, H3. reflexivity.
Qed.

(* FUNC [m] <addr> <size> <param size> <name> *)
Definition func_line (l : list Z) (a sz ps : Z) (name : list Z) : Prop :=
  exists sp0 m d1 sp1 d2 sp2 d3 sp3 crs,
    l = T_FUNC ++ sp0 ++ m ++ d1 ++ sp1 ++ d2 ++ sp2 ++ d3 ++ sp3 ++ name ++ crs /\
    spaces sp0 /\ opt_m_bytes m /\ hex_field 16 d1 a /\ spaces sp1 /\ hex_field 8 d2 sz /\ spaces sp2 /\
    hex_field 8 d3 ps /\ spaces sp3 /\ text_tail name crs.

Lemma func_sound s it : p_func s = POk it ->
  exists a sz ps n name, it = IFunc (mk_fr a sz ps n [] []) /\ func_line (expand s) a sz ps name /\ expand n = name.
Proof.
  intros H. apply hdr_cut_bind in H. destruct H as (s1 & sp0 & A0 & B0 & _ & H). cbv zeta in H.
  destruct (opt_m_sound s1) as (m & Am & Bm).
  apply hexsp_bind in H. destruct H as (a & s3 & d1 & sp1 & A1 & B1 & C1 & _ & H).
  apply hexsp_bind in H. destruct H as (sz & s4 & d2 & sp2 & A2 & B2 & C2 & _ & H).
  apply hexsp_bind in H. destruct H as (ps & s5 & d3 & sp3 & A2b & B2b & C2b & D2b & H).
  apply name_bind in H; [|exact D2b]. destruct H as (n & name & crs & A3 & B3 & C3 & ->).
  exists a, sz, ps, n, name. split; [reflexivity|]. split; [|exact C3].
  exists sp0, m, d1, sp1, d2, sp2, d3, sp3, crs. rewrite A0, Am, A1, A2, A2b, A3. auto 12.
Qed.

Lemma func_complete s a sz ps name : func_line (expand s) a sz ps name ->
  exists n, p_func s = POk (IFunc (mk_fr a sz ps n [] [])) /\ expand n = name.
Proof.
  intros (sp0 & m & d1 & sp1 & d2 & sp2 & d3 & sp3 & crs & E & S0 & M & F1 & S1 & F2 & S2 & F3 & S3 & T).
  destruct (hdr_complete E S0 (opt_m_starts_nonsp _ M F1)) as (s1 & H0 & X0).
  pose proof (opt_m_complete s1 m _ _ _ _ X0 M F1) as Xm.
  destruct (hexsp_complete Xm F1 S1 (hex_starts_nonsp _ F2)) as (s3 & H1 & X1).
  destruct (hexsp_complete X1 F2 S2 (hex_starts_nonsp _ F3)) as (s4 & H2 & X2).
  destruct (hexsp_complete X2 F3 S3 (proj1 T)) as (s5 & H2b & X2b).
  destruct (name_tail_complete X2b T) as (n & H3 & X3).
  exists n. split; [|exact X3]. unfold p_func, hex64sp, hex32sp. rewrite H0. cbv zeta. rewrite H1, H2, H2b, H3. reflexivity.
Qed.

(* "FUNC m 1000 10 4 f" has the shape of a FUNC record: address 0x1000, size 0x10, parameter size 4, name "f" *)
Lemma func_line_example :
  func_line (expand (to_rle [70; 85; 78; 67; 32; 109; 32; 49; 48; 48; 48; 32; 49; 48; 32; 52; 32; 102])) 4096 16 4 [102].
Proof.
  destruct (func_sound (to_rle [70; 85; 78; 67; 32; 109; 32; 49; 48; 48; 48; 32; 49; 48; 32; 52; 32; 102])
                       (IFunc (mk_fr 4096 16 4 [(102, 1)] [] []))) as (a & sz & ps & n & name & E & Hl & X);
    [vm_compute; reflexivity|].
  inversion E; subst. exact Hl.
Qed.
