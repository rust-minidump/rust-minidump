(* C09/ProofsText.v — the text fields of a record (names, rule strings, line endings) on BYTES.
   Grammar.v works on run-length encoded lines; here its string recognisers are described over the expanded byte list:
   * `my_eol` = `\r*` before the '\n' ([eol_bytes]);
   * `terminated(map_res(not_my_eol, from_utf8), my_eol)` ([name_eol_bytes]): the bytes up to the first '\r' are the name,
     everything after must be '\r', the name must be valid UTF-8 and is returned unchanged (normalising the runs keeps the bytes);
   * `str::from_utf8` validity: the run-length shortcut of [utf8_from] (a run of five equal non-ASCII bytes is rejected at
     once) is the plain byte-by-byte automaton ([utf8_ok_bytes]), and that automaton accepts exactly the well-formed
     byte sequences of the Unicode standard, table 3-7 ([utf8_bytes_wf]). *)
From Coq Require Import Lia ZArith List Bool.
From RM Require Import Base.Word C08.Model C11.Model C09.Grammar C09.PinsNum.
Import ListNotations.
Open Scope Z_scope.

Lemma expand_app a b : expand (a ++ b) = expand a ++ expand b.
Proof.
  induction a as [|[x c] t IH]; cbn [app expand]; [reflexivity|]. rewrite IH, app_assoc. reflexivity.
Qed.

Lemma expand_cons_head b c t : exists r, expand ((b, c) :: t) = b :: r.
Proof.
  cbn [expand]. destruct (Z.to_nat (Z.max 1 c)) as [|n] eqn:E; [lia|]. cbn [repeat app]. eexists; reflexivity.
Qed.

Lemma Forall_repeat {A} (P : A -> Prop) x n : P x -> Forall P (repeat x n).
Proof. intros H. induction n; cbn; constructor; assumption. Qed.

Lemma Forall_expand (P : Z -> Prop) s : Forall (fun bc => P (fst bc)) s -> Forall P (expand s).
Proof.
  induction 1 as [|[b c] t Hb Ht IH]; cbn [expand]; [constructor|].
  apply Forall_app. split; [apply Forall_repeat; exact Hb|exact IH].
Qed.

Lemma expand_Forall (P : Z -> Prop) s : Forall P (expand s) -> Forall (fun bc => P (fst bc)) s.
Proof.
  induction s as [|[b c] t IH]; intros H; [constructor|].
  destruct (expand_cons_head b c t) as [r E]. cbn [expand] in H. apply Forall_app in H. destruct H as [H1 H2].
  constructor; [|apply IH; exact H2]. cbn [fst].
  destruct (Z.to_nat (Z.max 1 c)) as [|n] eqn:En; [lia|]. cbn [repeat] in H1. inversion H1; assumption.
Qed.

Definition starts (P : Z -> Prop) (l : list Z) : Prop := match l with [] => True | b :: _ => P b end.

Lemma skip_while_split p s :
  exists pre, s = pre ++ skip_while p s /\ Forall (fun bc => p (fst bc) = true) pre /\
              match skip_while p s with [] => True | (b, _) :: _ => p b = false end.
Proof.
  induction s as [|[b c] t IH]; cbn [skip_while].
  - exists []. repeat split; constructor.
  - destruct (p b) eqn:E.
    + destruct IH as (pre & A & B & C). exists ((b, c) :: pre). cbn [app]. rewrite <- A.
      repeat split; [constructor; assumption|exact C].
    + exists []. repeat split; [constructor|exact E].
Qed.

Lemma span_acc_split stop s : forall acc,
  exists pre r, span_acc stop s acc = (rev acc ++ pre, r) /\ s = pre ++ r /\
                Forall (fun bc => stop (fst bc) = false) pre /\
                match r with [] => True | (b, _) :: _ => stop b = true end.
Proof.
  induction s as [|[b c] t IH]; intros acc; cbn [span_acc].
  - exists [], []. rewrite rev_append_rev, !app_nil_r. repeat split; constructor.
  - destruct (stop b) eqn:E.
    + exists [], ((b, c) :: t). rewrite rev_append_rev, !app_nil_r. repeat split; [constructor|exact E].
    + destruct (IH ((b, c) :: acc)) as (pre & r & A & B & C & D).
      exists ((b, c) :: pre), r. rewrite A. cbn [rev app]. rewrite <- app_assoc. cbn [app].
      repeat split; [rewrite B; reflexivity|constructor; assumption|exact D].
Qed.

Lemma span_not_split stop s :
  exists pre r, span_not stop s = (pre, r) /\ s = pre ++ r /\
                Forall (fun bc => stop (fst bc) = false) pre /\
                match r with [] => True | (b, _) :: _ => stop b = true end.
Proof. unfold span_not. destruct (span_acc_split stop s []) as (pre & r & A & B); exists pre, r. split; [exact A|exact B]. Qed.

Lemma eol_cons b c t : eol ((b, c) :: t) = is_cr b && eol t.
Proof. unfold eol. cbn [skip_while]. destruct (is_cr b); reflexivity. Qed.

(* `\r*` (the '\n' is the end of the line): every remaining byte is a carriage return *)
Lemma eol_bytes s : eol s = true <-> Forall (fun b => b = 13) (expand s).
Proof.
  induction s as [|[b c] t IH].
  - cbn. split; [constructor|reflexivity].
  - rewrite eol_cons, andb_true_iff, IH. unfold is_cr. rewrite Z.eqb_eq. split.
    + intros [A B]. apply Forall_expand. constructor; [exact A|]. apply (expand_Forall (fun b => b = 13)). exact B.
    + intros H. apply (expand_Forall (fun b => b = 13)) in H. inversion H; subst. split; [assumption|].
      apply Forall_expand. assumption.
Qed.

Definition counts_pos (s : rle) : Prop := Forall (fun bc => 1 <= snd bc) s.

Lemma rle_norm_acc_bytes s : forall acc, counts_pos acc ->
  expand (rle_norm_acc s acc) = expand (rev acc) ++ expand s.
Proof.
  induction s as [|[b c] t IH]; intros acc Hacc; cbn [rle_norm_acc].
  - rewrite rev_append_rev, !app_nil_r. reflexivity.
  - cbv zeta. destruct acc as [|[b0 c0] acc'].
    + rewrite IH by (constructor; [cbn; lia|constructor]). cbn [rev app expand].
      replace (Z.max 1 (Z.max 1 c)) with (Z.max 1 c) by lia. rewrite !app_nil_r. reflexivity.
    + inversion Hacc as [|? ? H0 Hacc']; subst. cbn [snd] in H0.
      destruct (Z.eqb_spec b0 b) as [->|N].
      * rewrite IH by (constructor; [cbn; lia|assumption]). cbn [rev]. rewrite !expand_app. cbn [expand].
        rewrite !app_nil_r, <- !app_assoc. f_equal.
        replace (Z.max 1 (c0 + Z.max 1 c)) with (c0 + Z.max 1 c) by lia. replace (Z.max 1 c0) with c0 by lia.
        rewrite Z2Nat.inj_add by lia. rewrite repeat_app, <- app_assoc. reflexivity.
      * rewrite IH by (constructor; [cbn; lia|constructor; [cbn; lia|assumption]]).
        cbn [rev]. rewrite !expand_app. cbn [expand]. rewrite !app_nil_r, <- !app_assoc.
        replace (Z.max 1 (Z.max 1 c)) with (Z.max 1 c) by lia. reflexivity.
Qed.

Lemma rle_norm_bytes s : expand (rle_norm s) = expand s.
Proof. unfold rle_norm. rewrite rle_norm_acc_bytes by constructor. reflexivity. Qed.

Definition ust := (Z * Z * Z)%type.
Definition u_init : ust := (0, 128, 191).
Fixpoint utf8_run (st : ust) (l : list Z) : option ust :=
  match l with
  | [] => Some st
  | b :: t => match u8_step st b with Some st' => utf8_run st' t | None => None end
  end.
Definition utf8_done (o : option ust) : bool :=
  match o with Some (need, _, _) => need =? 0 | None => false end.
(* the plain automaton: one step per byte *)
Definition utf8_bytes (l : list Z) : bool := utf8_done (utf8_run u_init l).

(* states the automaton can be in *)
Definition st_ok (st : ust) : Prop := let '(need, lo, hi) := st in 0 <= need <= 3 /\ 128 <= lo /\ hi <= 191.

Lemma u8_step_ok st b st' : st_ok st -> u8_step st b = Some st' -> st_ok st'.
Proof.
  destruct st as [[need lo] hi]. intros (A & B & C). unfold u8_step.
  destruct (Z.eqb_spec need 0) as [E|E].
  - repeat match goal with
           | |- (if ?c then _ else _) = _ -> _ => destruct c
           end; intros H; inversion H; subst; cbn; lia.
  - destruct ((lo <=? b) && (b <=? hi)); intros H; inversion H; subst. cbn. lia.
Qed.

Lemma u8_rep_is_run n : forall st b, u8_rep n st b = utf8_run st (repeat b n).
Proof.
  induction n as [|n IH]; intros st b; cbn [u8_rep repeat utf8_run]; [reflexivity|].
  destruct (u8_step st b); [apply IH|reflexivity].
Qed.

Lemma utf8_run_app a : forall st b, utf8_run st (a ++ b) = match utf8_run st a with Some st' => utf8_run st' b | None => None end.
Proof.
  induction a as [|x t IH]; intros st b; cbn [app utf8_run]; [reflexivity|].
  destruct (u8_step st x); [apply IH|reflexivity].
Qed.

(* a lead byte cannot follow itself, and at most three continuation bytes follow a lead: five equal non-ASCII bytes
   are rejected from every state *)
Lemma lead_then_same st b st' : st_ok st -> 128 <= b -> u8_step st b = Some st' ->
  (let '(need, _, _) := st in need = 0) -> u8_step st' b = None.
Proof.
  destruct st as [[need lo] hi]. intros (A & B & C) Hb H E. subst need. unfold u8_step in H. cbn [Z.eqb] in H.
  destruct (Z.ltb_spec b 128); [lia|].
  repeat match type of H with
         | (if ?c then _ else _) = _ => destruct c eqn:?
         end; inversion H; subst; unfold u8_step; cbn [Z.eqb];
  match goal with |- (if ?c then _ else _) = None => destruct c eqn:X; [lia|reflexivity] end.
Qed.

Lemma cont_step st b st' : st_ok st -> (let '(need, _, _) := st in need <> 0) -> u8_step st b = Some st' ->
  128 <= b <= 191 /\ st' = (fst (fst st) - 1, 128, 191).
Proof.
  destruct st as [[need lo] hi]. intros (A & B & C) E H. unfold u8_step in H.
  destruct (Z.eqb_spec need 0); [contradiction|].
  destruct (Z.leb_spec lo b), (Z.leb_spec b hi); cbn [andb] in H; try discriminate.
  inversion H; subst. cbn. split; [lia|reflexivity].
Qed.

Lemma lead_range b st' : u8_step (0, 128, 191) b = Some st' -> 128 <= b -> 194 <= b.
Proof.
  unfold u8_step. cbn [Z.eqb]. intros H Hb. destruct (Z.ltb_spec b 128); [lia|].
  destruct (Z.leb_spec 194 b); [assumption|]. cbn [andb] in H.
  repeat match type of H with
         | (if ?c then _ else _) = _ => destruct c eqn:?; try lia
         end; discriminate.
Qed.

Lemma five_same_rejected : forall st b, st_ok st -> 128 <= b -> utf8_run st (repeat b 5) = None.
Proof.
  intros [[need lo] hi] b Hok Hb.
  assert (Hinit : forall lo hi st1, u8_step (0, lo, hi) b = Some st1 -> u8_step st1 b = None).
  { intros lo0 hi0 st1 H. assert (H' : u8_step (0, 128, 191) b = Some st1) by exact H.
    eapply (lead_then_same (0, 128, 191)); [cbn; lia|exact Hb|exact H'|reflexivity]. }
  (* at most three continuation steps, then the byte would have to be a lead byte *)
  assert (Hcont : forall k st, (k <= 3)%nat -> st_ok st -> fst (fst st) = Z.of_nat k ->
                               utf8_run st (repeat b (S (S k))) = None).
  { induction k as [|k IH]; intros [[n l] h] Hk Hs Hn; cbn [fst] in Hn; subst n.
    - cbn [repeat utf8_run]. destruct (u8_step (Z.of_nat 0, l, h) b) as [st1|] eqn:E; [|reflexivity].
      change (Z.of_nat 0) with 0 in E. rewrite (Hinit l h st1 E). reflexivity.
    - change (repeat b (S (S (S k)))) with (b :: repeat b (S (S k))). cbn [utf8_run].
      destruct (u8_step (Z.of_nat (S k), l, h) b) as [st1|] eqn:E; [|reflexivity].
      destruct (cont_step _ _ _ Hs ltac:(cbn; lia) E) as [Hr ->]. cbn [fst].
      apply IH; [lia|change (0 <= Z.of_nat (S k) - 1 <= 3 /\ 128 <= 128 /\ 191 <= 191); lia|cbn [fst]; lia]. }
  destruct Hok as (A & B & C).
  assert (Hn : need = 0 \/ need = 1 \/ need = 2 \/ need = 3) by lia.
  destruct Hn as [-> | [-> | [-> | ->]]].
  - change (repeat b 5) with (repeat b 2 ++ repeat b 3). rewrite utf8_run_app.
    rewrite (Hcont 0%nat (0, lo, hi)); [reflexivity|lia|cbn; lia|reflexivity].
  - change (repeat b 5) with (repeat b 3 ++ repeat b 2). rewrite utf8_run_app.
    rewrite (Hcont 1%nat (1, lo, hi)); [reflexivity|lia|cbn; lia|reflexivity].
  - change (repeat b 5) with (repeat b 4 ++ repeat b 1). rewrite utf8_run_app.
    rewrite (Hcont 2%nat (2, lo, hi)); [reflexivity|lia|cbn; lia|reflexivity].
  - exact (Hcont 3%nat (3, lo, hi) ltac:(lia) ltac:(cbn; lia) eq_refl).
Qed.

Lemma utf8_run_ok l : forall st st', st_ok st -> utf8_run st l = Some st' -> st_ok st'.
Proof.
  induction l as [|b t IH]; intros st st' Hs H; cbn [utf8_run] in H.
  - inversion H; subst; assumption.
  - destruct (u8_step st b) as [st1|] eqn:E; [|discriminate]. eapply IH; [eapply u8_step_ok; eassumption|exact H].
Qed.

Lemma ascii_run st b n : (let '(need, _, _) := st in need = 0) -> b < 128 ->
  utf8_run st (repeat b (S n)) = Some (0, 128, 191).
Proof.
  destruct st as [[need lo] hi]. intros -> Hb.
  assert (S1 : forall l h, u8_step (0, l, h) b = Some (0, 128, 191)).
  { intros. unfold u8_step. cbn [Z.eqb]. destruct (Z.ltb_spec b 128); [reflexivity|lia]. }
  cbn [repeat utf8_run]. rewrite S1. induction n as [|n IH]; cbn [repeat utf8_run]; [reflexivity|]. rewrite S1. exact IH.
Qed.

(* with no continuation byte pending the rest of the state is not looked at *)
Lemma utf8_from_need0 s : forall lo hi, utf8_from (0, lo, hi) s = utf8_from (0, 128, 191) s.
Proof.
  induction s as [|[b c] t IH]; intros lo hi; cbn [utf8_from]; [reflexivity|].
  destruct (b <? 128); [cbn [Z.eqb]; apply IH|]. destruct (4 <? c); [reflexivity|].
  destruct (Z.to_nat (Z.max 1 c)) as [|m]; [cbn [u8_rep]; apply IH|].
  cbn [u8_rep]. assert (E : u8_step (0, lo, hi) b = u8_step (0, 128, 191) b) by reflexivity. rewrite E. reflexivity.
Qed.

(* the run-length shortcut is the byte-by-byte automaton *)
Lemma utf8_from_bytes s : forall st, st_ok st -> utf8_from st s = utf8_done (utf8_run st (expand s)).
Proof.
  induction s as [|[b c] t IH]; intros st Hs.
  - cbn [utf8_from expand utf8_run utf8_done]. destruct st as [[need lo] hi]. reflexivity.
  - cbn [utf8_from expand]. rewrite utf8_run_app.
    destruct (Z.ltb_spec b 128) as [L|G].
    + destruct st as [[need lo] hi]. destruct (Z.eqb_spec need 0) as [->|N].
      * destruct (Z.to_nat (Z.max 1 c)) as [|n] eqn:En; [lia|].
        rewrite (ascii_run (0, lo, hi) b n eq_refl L). rewrite <- IH by (cbn; lia).
        apply utf8_from_need0.
      * destruct (Z.to_nat (Z.max 1 c)) as [|n] eqn:En; [lia|]. cbn [repeat utf8_run].
        assert (E : u8_step (need, lo, hi) b = None).
        { unfold u8_step. destruct (Z.eqb_spec need 0); [contradiction|]. destruct Hs as (A & B & C).
          destruct (Z.leb_spec lo b); [lia|]. reflexivity. }
        rewrite E. reflexivity.
    + destruct (Z.ltb_spec 4 c) as [L4|G4].
      * (* five or more equal non-ASCII bytes *)
        replace (Z.to_nat (Z.max 1 c)) with (5 + (Z.to_nat c - 5))%nat by lia.
        rewrite repeat_app, utf8_run_app, five_same_rejected by assumption. reflexivity.
      * rewrite u8_rep_is_run. destruct (utf8_run st (repeat b (Z.to_nat (Z.max 1 c)))) as [st'|] eqn:E; [|reflexivity].
        apply IH. eapply utf8_run_ok; eassumption.
Qed.

Lemma utf8_ok_bytes s : utf8_ok s = utf8_bytes (expand s).
Proof. unfold utf8_ok, utf8_bytes, u_init. apply utf8_from_bytes. cbn. lia. Qed.

(* terminated(map_res(not_my_eol, from_utf8), my_eol) *)
Lemma name_eol_bytes s :
  exists name rest, expand s = name ++ rest /\ Forall (fun b => b <> 13) name /\ starts (fun b => b = 13) rest /\
    name_eol s = (if utf8_bytes name && forallb (fun b => b =? 13) rest then Some (rle_norm (fst (span_not is_cr s))) else None) /\
    expand (rle_norm (fst (span_not is_cr s))) = name.
Proof.
  destruct (span_not_split is_cr s) as (pre & r & A & B & C & D).
  exists (expand pre), (expand r). unfold name_eol. rewrite A. cbn [fst].
  split; [rewrite B at 1; apply expand_app|].
  split. { apply Forall_expand. eapply Forall_impl; [|exact C]. intros [b c]. cbn [fst]. unfold is_cr. rewrite Z.eqb_neq. auto. }
  split. { destruct r as [|[b c] t]; [exact I|]. destruct (expand_cons_head b c t) as [x E]. rewrite E. cbn.
           unfold is_cr in D. apply Z.eqb_eq. exact D. }
  split; [|apply rle_norm_bytes].
  assert (E : eol r = forallb (fun b => b =? 13) (expand r)).
  { destruct (eol r) eqn:E1; symmetry.
    - apply forallb_forall. apply eol_bytes in E1. rewrite Forall_forall in E1. intros x Hx. apply Z.eqb_eq. auto.
    - destruct (forallb (fun b => b =? 13) (expand r)) eqn:E2; [|reflexivity].
      assert (eol r = true); [|congruence]. apply eol_bytes. rewrite Forall_forall. intros x Hx.
      rewrite forallb_forall in E2. apply Z.eqb_eq. auto. }
  cbv iota beta. rewrite utf8_ok_bytes, E. reflexivity.
Qed.

(* well-formed UTF-8 (Unicode standard, table 3-7) *)
Definition cont (b : Z) : Prop := 128 <= b <= 191.
Definition lead3 (b1 b2 : Z) : Prop :=
  (b1 = 224 /\ 160 <= b2 <= 191) \/ (225 <= b1 <= 236 /\ cont b2) \/ (b1 = 237 /\ 128 <= b2 <= 159) \/
  (238 <= b1 <= 239 /\ cont b2).
Definition lead4 (b1 b2 : Z) : Prop :=
  (b1 = 240 /\ 144 <= b2 <= 191) \/ (241 <= b1 <= 243 /\ cont b2) \/ (b1 = 244 /\ 128 <= b2 <= 143).
Inductive wf8 : list Z -> Prop :=
| wf8_nil : wf8 []
| wf8_1 b t : b < 128 -> wf8 t -> wf8 (b :: t)
| wf8_2 b1 b2 t : 194 <= b1 <= 223 -> cont b2 -> wf8 t -> wf8 (b1 :: b2 :: t)
| wf8_3 b1 b2 b3 t : lead3 b1 b2 -> cont b3 -> wf8 t -> wf8 (b1 :: b2 :: b3 :: t)
| wf8_4 b1 b2 b3 b4 t : lead4 b1 b2 -> cont b3 -> cont b4 -> wf8 t -> wf8 (b1 :: b2 :: b3 :: b4 :: t).

(* a continuation byte is accepted iff it lies in the range the state allows *)
Lemma step_cont need lo hi b : need <> 0 ->
  u8_step (need, lo, hi) b = if (lo <=? b) && (b <=? hi) then Some (need - 1, 128, 191) else None.
Proof. intros N. unfold u8_step. destruct (Z.eqb_spec need 0); [contradiction|reflexivity]. Qed.

(* a lead byte, by class: the number of continuation bytes it asks for, and the range it allows for the first of them is
   exactly what table 3-7 allows after it *)
Lemma lead_1 b : b < 128 -> u8_step u_init b = Some u_init.
Proof. intros R. unfold u8_step, u_init. cbn [Z.eqb]. destruct (Z.ltb_spec b 128); [reflexivity|lia]. Qed.

Lemma lead_2 b : 194 <= b <= 223 -> u8_step u_init b = Some (1, 128, 191).
Proof.
  intros R. unfold u8_step, u_init. cbn [Z.eqb]. destruct (Z.ltb_spec b 128); [lia|].
  destruct (between_spec 194 223 b); [reflexivity|lia].
Qed.

Lemma lead_3 b : 224 <= b <= 239 ->
  exists lo hi, u8_step u_init b = Some (2, lo, hi) /\ forall b2, lo <= b2 <= hi <-> lead3 b b2.
Proof.
  intros R. unfold u8_step, u_init, lead3, cont. cbn [Z.eqb]. destruct (Z.ltb_spec b 128); [lia|].
  destruct (between_spec 194 223 b); [lia|].
  destruct (Z.eqb_spec b 224); [exists 160, 191; split; [reflexivity|intros b2; lia]|].
  destruct (Z.eqb_spec b 237); [exists 128, 159; split; [reflexivity|intros b2; lia]|].
  destruct (between_spec 225 239 b); [exists 128, 191; split; [reflexivity|intros b2; lia]|lia].
Qed.

Lemma lead_4 b : 240 <= b <= 244 ->
  exists lo hi, u8_step u_init b = Some (3, lo, hi) /\ forall b2, lo <= b2 <= hi <-> lead4 b b2.
Proof.
  intros R. unfold u8_step, u_init, lead4, cont. cbn [Z.eqb]. destruct (Z.ltb_spec b 128); [lia|].
  destruct (between_spec 194 223 b); [lia|]. destruct (Z.eqb_spec b 224); [lia|]. destruct (Z.eqb_spec b 237); [lia|].
  destruct (between_spec 225 239 b); [lia|].
  destruct (Z.eqb_spec b 240); [exists 144, 191; split; [reflexivity|intros b2; lia]|].
  destruct (between_spec 241 243 b); [exists 128, 191; split; [reflexivity|intros b2; lia]|].
  destruct (Z.eqb_spec b 244); [exists 128, 143; split; [reflexivity|intros b2; lia]|lia].
Qed.

Lemma lead_none b : 128 <= b < 194 \/ 244 < b -> u8_step u_init b = None.
Proof.
  intros R. unfold u8_step, u_init. cbn [Z.eqb]. destruct (Z.ltb_spec b 128); [lia|].
  destruct (between_spec 194 223 b); [lia|]. destruct (Z.eqb_spec b 224); [lia|]. destruct (Z.eqb_spec b 237); [lia|].
  destruct (between_spec 225 239 b); [lia|]. destruct (Z.eqb_spec b 240); [lia|].
  destruct (between_spec 241 243 b); [lia|]. destruct (Z.eqb_spec b 244); [lia|reflexivity].
Qed.

Lemma cont_run need lo hi l : need <> 0 -> utf8_done (utf8_run (need, lo, hi) l) = true ->
  exists b t, l = b :: t /\ lo <= b <= hi /\ utf8_done (utf8_run (need - 1, 128, 191) t) = true.
Proof.
  intros N H. destruct l as [|b t]; cbn [utf8_run utf8_done] in H.
  - destruct (Z.eqb_spec need 0); [contradiction|discriminate].
  - rewrite step_cont in H by exact N. destruct (between_spec lo hi b); [|discriminate].
    exists b, t. repeat split; try lia. exact H.
Qed.

Lemma wf8_accepted l : wf8 l -> utf8_run u_init l = Some u_init.
Proof.
  assert (C : forall need lo hi b, need <> 0 -> lo <= b <= hi -> u8_step (need, lo, hi) b = Some (need - 1, 128, 191)).
  { intros need lo hi b N R. rewrite step_cont by exact N. destruct (between_spec lo hi b); [reflexivity|contradiction]. }
  induction 1 as [|b t Hb _ IH|b1 b2 t H1 H2 _ IH|b1 b2 b3 t H1 H3 _ IH|b1 b2 b3 b4 t H1 H3 H4 _ IH];
    unfold cont in *; cbn [utf8_run].
  - reflexivity.
  - rewrite lead_1 by exact Hb. exact IH.
  - rewrite lead_2, C by lia. exact IH.
  - destruct (lead_3 b1) as (lo & hi & E & I); [unfold lead3 in H1; lia|]. apply I in H1.
    rewrite E, C by lia. change (2 - 1) with 1. rewrite C by lia. exact IH.
  - destruct (lead_4 b1) as (lo & hi & E & I); [unfold lead4 in H1; lia|]. apply I in H1.
    rewrite E, C by lia. change (3 - 1) with 2. rewrite C by lia. change (2 - 1) with 1. rewrite C by lia. exact IH.
Qed.

Lemma accepted_wf8 : forall n l, (length l <= n)%nat -> utf8_done (utf8_run u_init l) = true -> wf8 l.
Proof.
  induction n as [|n IH]; intros l Hl H.
  - destruct l; [constructor|cbn in Hl; lia].
  - destruct l as [|b t]; [constructor|]. cbn [length] in Hl. cbn [utf8_run] in H.
    assert (K : b < 128 \/ 194 <= b <= 223 \/ 224 <= b <= 239 \/ 240 <= b <= 244 \/ (128 <= b < 194 \/ 244 < b)) by lia.
    destruct K as [K|[K|[K|[K|K]]]].
    + rewrite lead_1 in H by exact K. apply wf8_1; [exact K|]. apply IH; [lia|exact H].
    + rewrite lead_2 in H by exact K.
      apply cont_run in H; [|lia]. destruct H as (b2 & t2 & -> & R2 & H2). cbn [length] in Hl.
      apply wf8_2; [exact K|exact R2|]. apply IH; [lia|exact H2].
    + destruct (lead_3 b K) as (lo & hi & E & I). rewrite E in H.
      apply cont_run in H; [|lia]. destruct H as (b2 & t2 & -> & R2 & H2).
      apply cont_run in H2; [|lia]. destruct H2 as (b3 & t3 & -> & R3 & H3). cbn [length] in Hl.
      apply wf8_3; [apply I; exact R2|exact R3|]. apply IH; [lia|exact H3].
    + destruct (lead_4 b K) as (lo & hi & E & I). rewrite E in H.
      apply cont_run in H; [|lia]. destruct H as (b2 & t2 & -> & R2 & H2).
      apply cont_run in H2; [|lia]. destruct H2 as (b3 & t3 & -> & R3 & H3).
      apply cont_run in H3; [|lia]. destruct H3 as (b4 & t4 & -> & R4 & H4). cbn [length] in Hl.
      apply wf8_4; [apply I; exact R2|exact R3|exact R4|]. apply IH; [lia|exact H4].
    + rewrite lead_none in H by exact K. discriminate.
Qed.

(* the automaton accepts exactly the well-formed sequences *)
Lemma utf8_bytes_wf l : utf8_bytes l = true <-> wf8 l.
Proof.
  unfold utf8_bytes. split.
  - apply (accepted_wf8 (length l)). lia.
  - intros H. rewrite (wf8_accepted l H). reflexivity.
Qed.

Lemma wf8_example : wf8 [195; 169; 226; 130; 172; 240; 159; 152; 128].
Proof.
  apply wf8_2; [lia|unfold cont; lia|].
  apply wf8_3; [right; left; unfold cont; lia|unfold cont; lia|].
  apply wf8_4; [left; lia|unfold cont; lia|unfold cont; lia|constructor].
Qed.
