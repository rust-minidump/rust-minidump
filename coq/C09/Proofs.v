(* C09/Proofs.v — the driver of C09/Model.v: facts about the index Buffer, the loop invariant [WFm] / [WF] and the four
   kinds of update that keep it, the termination measure [phi], and what the Properties are made of: [drive_fin] (every run
   returns, in a state that satisfies [Fin]), [drive_shape] (the lines were disposed of in order), [drive_callback],
   [ok_is_fold]. *)
From Coq Require Import Lia ZArith List Bool.
From RM Require Import Base.Word C09.Model.
Import ListNotations.
Open Scope Z_scope.

Ltac Zify.zify_post_hook ::= Z.div_mod_to_equations.

Definition geom (b : cbuf) : Prop := 0 <= b_pos b /\ b_pos b <= b_end b /\ b_end b <= b_cap b.

Lemma geom_ok_true : forall b, geom b -> geom_ok b = true.
Proof.
  intros b [H1 [H2 H3]]. unfold geom_ok.
  apply andb_true_intro; split; [apply andb_true_intro; split|]; apply Z.leb_le; assumption.
Qed.

(* consume and fill move an index and then shift (position back to 0) under their condition: plain index arithmetic *)
Lemma consume_spec : forall b k, geom b -> 0 <= k <= avail b ->
  let b' := consume b k in
  geom b' /\ avail b' = avail b - k /\ b_cap b' = b_cap b /\ b_pos b' <= b_cap b / 2 /\
  b_end b' <= b_end b.
Proof.
  intros [p e c] k [H1 [H2 H3]] Hk. unfold consume, shift, geom, avail in *. cbn [b_pos b_end b_cap] in *.
  rewrite Z.min_l by lia.
  destruct (c / 2 <? p + k) eqn:E; [destruct (0 <? p + k) eqn:E0|]; cbn [b_pos b_end b_cap];
    rewrite ?Z.ltb_lt, ?Z.ltb_ge in *; lia.
Qed.

Lemma fill_spec : forall b n, geom b -> 0 <= n <= space b ->
  let b' := fill b n in
  geom b' /\ avail b' = avail b + n /\ b_cap b' = b_cap b /\ b_pos b' <= b_pos b /\
  b_end b' <= b_end b + n.
Proof.
  intros [p e c] n [H1 [H2 H3]] Hn. unfold fill, shift, geom, avail, space in *. cbn [b_pos b_end b_cap] in *.
  rewrite Z.min_l by lia.
  destruct (c - (e + n) <? e + n - p + n) eqn:E; [destruct (0 <? p) eqn:E0|]; cbn [b_pos b_end b_cap];
    rewrite ?Z.ltb_lt, ?Z.ltb_ge in *; lia.
Qed.

(* the capacities the buffer goes through: INITIAL_CAP doubled up to MAX_CAP *)
Definition caps (c : Z) : Prop :=
  c = 10240 \/ c = 20480 \/ c = 40960 \/ c = 81920 \/ c = 163840.

(* doublings still possible *)
Definition gsteps (c : Z) : Z :=
  if c <=? 10240 then 4 else if c <=? 20480 then 3 else if c <=? 40960 then 2
  else if c <=? 81920 then 1 else 0.

Lemma size_ge0 : forall L (llen : L -> Z), (forall l, 1 <= llen l) -> forall ls, 0 <= size L llen ls.
Proof. intros L llen H. induction ls as [|l t IH]; cbn [Model.size]; [lia|]. pose proof (H l). lia. Qed.

Definition b2z (b : bool) : Z := if b then 1 else 0.
Lemma b2z_range : forall b, 0 <= b2z b <= 1.
Proof. destruct b; cbn; lia. Qed.

Section Driver.
  Variable L : Type.
  Variable llen : L -> Z.
  Variable PS : Type.
  Variable init_ps : PS.
  Variable recog : PS -> L -> PS + Z.
  Variable bump : PS -> PS.
  Variable lineno : PS -> Z.
  Hypothesis llen_pos : forall l, 1 <= llen l.

  Local Notation St := (st L PS).
  Local Notation step := (step L llen PS recog bump lineno).
  Local Notation recovery := (recovery L llen PS bump).
  Local Notation parse_phase := (parse_phase L llen PS recog lineno).
  Local Notation pm := (pm L llen PS recog lineno).
  Local Notation size := (size L llen).
  Local Notation iter_pos := (iter_pos L llen PS recog bump lineno).
  Local Notation first_nl := (first_nl L llen PS).
  Local Notation read_n := (read_n L PS).
  Local Notation fold_recog := (fold_recog L PS recog lineno).

  (* C10 calls this one with all the section's parameters *)
  Lemma size_nonneg : forall ls, 0 <= size ls.
  Proof using L llen PS init_ps recog bump lineno llen_pos. exact (size_ge0 L llen llen_pos). Qed.

  Lemma size_app : forall a b, size (a ++ b) = size a + size b.
  Proof. induction a as [|l t IH]; intros b; cbn [Model.size app]; [lia|]. rewrite IH. lia. Qed.

  Fixpoint iter_nat (n : nat) (s : St) : stepres L PS :=
    match n with
    | O => Next s
    | S n' => match step s with Next s1 => iter_nat n' s1 | r => r end
    end.

  Lemma iter_nat_add : forall a b s,
    iter_nat (a + b) s = match iter_nat a s with Next s1 => iter_nat b s1 | r => r end.
  Proof.
    induction a as [|a IH]; intros b s; cbn [iter_nat Nat.add]; [reflexivity|].
    destruct (step s); try reflexivity. apply IH.
  Qed.

  Lemma iter_pos_nat : forall p s, iter_pos p s = iter_nat (Pos.to_nat p) s.
  Proof.
    induction p as [q IH|q IH|]; intros s; cbn [Model.iter_pos].
    - rewrite Pos2Nat.inj_xI. replace (S (2 * Pos.to_nat q))%nat with (1 + (Pos.to_nat q + Pos.to_nat q))%nat by lia.
      rewrite iter_nat_add. cbn [iter_nat]. destruct (step s) as [s1| |]; try reflexivity.
      rewrite iter_nat_add. rewrite IH. destruct (iter_nat (Pos.to_nat q) s1); try reflexivity. apply IH.
    - rewrite Pos2Nat.inj_xO. replace (2 * Pos.to_nat q)%nat with (Pos.to_nat q + Pos.to_nat q)%nat by lia.
      rewrite iter_nat_add. rewrite IH. destruct (iter_nat (Pos.to_nat q) s); try reflexivity. apply IH.
    - rewrite Pos2Nat.inj_1. cbn [iter_nat]. destruct (step s); reflexivity.
  Qed.

  Lemma pm_inl : forall ls budget p c lg p' r' c' lg', 0 <= budget ->
    pm budget p ls c lg = inl (p', r', c', lg') ->
    exists taken,
      ls = taken ++ r' /\ c' = c + size taken /\ size taken <= budget /\
      lg' = rev (map (pair false) taken) ++ lg /\
      fold_recog p taken = inl p' /\
      Forall (fun l => llen l <= budget) taken /\
      match r' with l :: _ => budget - size taken < llen l | [] => True end.
  Proof.
    induction ls as [|l t IH]; intros budget p c lg p' r' c' lg' Hb H; cbn [Model.pm] in H.
    - inversion H; subst. exists []. cbn. repeat split; try lia; constructor.
    - destruct (llen l <=? budget) eqn:E.
      + apply Z.leb_le in E. destruct (recog p l) as [p1|e] eqn:R; [|discriminate].
        apply IH in H; [|lia]. destruct H as [tk [H1 [H2 [H3 [H4 [H5 [H6 H7]]]]]]].
        exists (l :: tk). cbn [app Model.size map rev Model.fold_recog]. rewrite R.
        repeat split; try lia.
        * rewrite H1 at 1. reflexivity.
        * rewrite H4. rewrite <- app_assoc. reflexivity.
        * assumption.
        * constructor; [lia|]. eapply Forall_impl; [|exact H6]. cbn. intros a Ha.
          pose proof (llen_pos l). lia.
        * destruct r'; [exact I|]. lia.
      + apply Z.leb_gt in E. inversion H; subst. exists []. cbn. repeat split; try lia; constructor.
  Qed.

  Lemma fold_recog_app : forall a b p,
    fold_recog p (a ++ b) = match fold_recog p a with inl p' => fold_recog p' b | inr e => inr e end.
  Proof.
    induction a as [|l t IH]; intros b p; cbn [app Model.fold_recog]; [reflexivity|].
    destruct (recog p l); [apply IH|reflexivity].
  Qed.

  Lemma pm_inr : forall ls budget p c lg e,
    pm budget p ls c lg = inr e ->
    exists taken l r p1,
      ls = taken ++ l :: r /\ fold_recog p taken = inl p1 /\
      recog p1 l = inr (fst e) /\ snd e = lineno p1 /\ llen l <= budget.
  Proof.
    induction ls as [|l t IH]; intros budget p c lg e H; cbn [Model.pm] in H; [discriminate|].
    destruct (llen l <=? budget) eqn:E; [|discriminate]. apply Z.leb_le in E.
    destruct (recog p l) as [p1|c1] eqn:R.
    - apply IH in H. destruct H as [tk [l1 [r [p2 [H1 [H2 [H3 [H4 H5]]]]]]]].
      exists (l :: tk), l1, r, p2. cbn [app Model.fold_recog]. rewrite R.
      pose proof (llen_pos l). repeat split; try assumption; try lia. rewrite H1. reflexivity.
    - inversion H; subst. exists [], l, t, p. cbn. repeat split; try assumption; try lia.
  Qed.

  Lemma fold_recog_err : forall taken l r p p1 c,
    fold_recog p taken = inl p1 -> recog p1 l = inr c ->
    fold_recog p (taken ++ l :: r) = inr (c, lineno p1).
  Proof.
    intros taken l r p p1 c H1 H2. rewrite fold_recog_app, H1. cbn [Model.fold_recog]. rewrite H2. reflexivity.
  Qed.

  Variable tail : Z.            (* bytes after the last '\n' *)
  Hypothesis tail_nonneg : 0 <= tail.
  Variable ilen : Z.            (* input length *)
  Variable lines : list L.      (* all complete lines of the input *)
  Local Notation replay := (replay L PS recog bump lineno).

  Definition dec_ok (d : bool * L) : Prop :=
    if fst d then HALF_CAP < llen (snd d) else llen (snd d) <= MAX_CAP.

  (* holds at every point of the loop body *)
  Record WFm (s : St) : Prop := {
    wf_geom : geom (buf s);
    wf_cap : caps (b_cap (buf s));
    wf_half : b_pos (buf s) <= b_cap (buf s) / 2;
    wf_off : 0 <= off s /\ match rest s with l :: _ => off s < llen l | [] => off s <= tail end;
    wf_acct : avail (buf s) + unread s = size (rest s) - off s + tail;
    wf_sum : total s + avail (buf s) + unread s = ilen;
    wf_unread : 0 <= unread s;
    wf_pr_off : pr s = false -> off s = 0;
    wf_pr_cap : pr s = true -> b_cap (buf s) = MAX_CAP;
    wf_tg : tg s = true -> b_end (buf s) < b_cap (buf s);
    wf_cb : cbsum s = total s;
    wf_maxsp : 0 <= maxsp s <= MAX_CAP;
    wf_total : total s = size (map snd (rev (log s))) + off s;
    wf_pr_long : pr s = true -> match rest s with l :: _ => HALF_CAP < llen l | [] => True end;
    wf_lines : lines = map snd (rev (log s)) ++ rest s;
    wf_replay : replay init_ps (rev (log s)) = inl (ps s);
    wf_decs : Forall dec_ok (log s)
  }.

  (* holds at the head of the loop *)
  Definition partial (s : St) : Prop :=
    match rest s with l :: _ => avail (buf s) < llen l | [] => True end.

  Record WF (s : St) : Prop := {
    wf_m : WFm s;
    wf_partial : pr s = false -> partial s;
    wf_fc : pr s = false -> fc s = true -> avail (buf s) = 0;
    wf_jf : pr s = false -> jf s = false
  }.

  Lemma replay_app : forall a b p,
    replay p (a ++ b) = match replay p a with inl p' => replay p' b | inr e => inr e end.
  Proof.
    induction a as [|[d l] t IH]; intros b p; cbn [app Model.replay]; [reflexivity|].
    destruct d; [apply IH|]. destruct (recog p l); [apply IH|reflexivity].
  Qed.

  (* The termination measure: every iteration of the loop lowers it (step_wf).  A byte costs 6 while unread and 3 once it
     is in the buffer, so reading n bytes gains 3n and consuming k bytes gains 3k; one doubling of the buffer costs 4 of the
     at most four ([gsteps]); the two flags pay for the iterations that only switch recovery on (negb pr) or resume parsing
     after it (jf).  At the start phi = 6 * |input| + 4 * 4 + 1 ([init_phi]), which the fuel 6 * |input| + 24 of
     Model.fuel_for exceeds. *)
  Definition phi (s : St) : Z :=
    6 * unread s + 3 * avail (buf s) + 4 * gsteps (b_cap (buf s)) + b2z (negb (pr s)) + b2z (jf s).

  Lemma gsteps_nonneg : forall c, 0 <= gsteps c.
  Proof. intros c. unfold gsteps. repeat match goal with |- context [if ?c then _ else _] => destruct c end; lia. Qed.

  Lemma gsteps_double : forall c, caps c -> c <= HALF_CAP -> gsteps (c * 2) = gsteps c - 1.
  Proof. unfold HALF_CAP. intros c [K|[K|[K|[K|K]]]] H; subst c; [reflexivity..|lia]. Qed.

  Lemma phi_nonneg : forall s, WFm s -> 0 <= phi s.
  Proof.
    intros s W. destruct (wf_geom s W) as (_ & Hg & _). pose proof (wf_unread s W).
    pose proof (gsteps_nonneg (b_cap (buf s))). pose proof (b2z_range (negb (pr s))). pose proof (b2z_range (jf s)).
    unfold phi, avail. lia.
  Qed.

  Lemma first_nl_some : forall s idx, first_nl s = Some idx ->
    exists l t, rest s = l :: t /\ idx = llen l - off s - 1 /\ llen l - off s <= avail (buf s).
  Proof.
    intros s idx H. unfold Model.first_nl in H. destruct (rest s) as [|l t]; [discriminate|].
    destruct (llen l - off s <=? avail (buf s)) eqn:E; [|discriminate].
    apply Z.leb_le in E. inversion H. exists l, t. repeat split; lia.
  Qed.

  Lemma first_nl_none : forall s, first_nl s = None ->
    match rest s with l :: _ => avail (buf s) < llen l - off s | [] => True end.
  Proof.
    intros s H. unfold Model.first_nl in H. destruct (rest s) as [|l t]; [exact I|].
    destruct (llen l - off s <=? avail (buf s)) eqn:E; [discriminate|]. apply Z.leb_gt in E. lia.
  Qed.

  (* The three places where the loop consumes: [k] bytes leave the buffer and are accounted for by the new
     [rest] / [off] / [log]; recovery may only stay on when nothing was disposed of. *)
  Lemma wfm_consume : forall s k fc' pr' jf' ps' rest' off' ncb' log',
    WFm s -> 0 <= k <= avail (buf s) ->
    (0 <= off' /\ match rest' with l :: _ => off' < llen l | [] => off' <= tail end) ->
    size rest' - off' = size (rest s) - off s - k ->
    total s + k = size (map snd (rev log')) + off' ->
    lines = map snd (rev log') ++ rest' ->
    replay init_ps (rev log') = inl ps' ->
    Forall dec_ok log' ->
    (pr' = false -> off' = 0) ->
    (pr' = true -> pr s = true /\ rest' = rest s) ->
    WFm (mkst (consume (buf s) k) fc' (tg s) pr' jf' (total s + k) ps' rest' off' (unread s) (sched s)
              ncb' (cbsum s + k) (nrd s) (maxsp s) log').
  Proof.
    intros s k fc' pr' jf' ps' rest' off' ncb' log' W Hk Hoff Hacct Htot Hlines Hreplay Hdecs Hpo Hpr.
    destruct W as [Wg Wc Wh _ Wa Ws Wu _ Wpc Wtg Wcb Wms _ Wpl _ _ _].
    destruct (consume_spec (buf s) k Wg Hk) as [G [A [C [P E]]]]. cbv zeta in *.
    constructor; cbn [buf fc tg pr jf total ps rest off unread sched ncb cbsum nrd maxsp log]; rewrite ?A, ?C;
      try assumption; try lia.
    - intros Q. exact (Wpc (proj1 (Hpr Q))).
    - intros Q. destruct (Hpr Q) as [Q1 ->]. exact (Wpl Q1).
  Qed.

  (* the recovery block *)
  Lemma recovery_wfm : forall s, WFm s -> pr s = true ->
    let s1 := recovery s in
    WFm s1 /\ (fc s1 = true -> avail (buf s1) = 0) /\
    ((pr s1 = true /\ fc s1 = true /\ avail (buf s1) = 0 /\ phi s1 <= phi s /\ jf s1 = jf s) \/
     (pr s1 = false /\ jf s1 = true /\ phi s1 < phi s /\ (avail (buf s1) = 0 -> fc s1 = true))).
  Proof.
    intros s W Hpr. pose proof W as [Wg _ _ [Wo1 Wo2] Wa _ Wu _ _ _ _ _ Wt Wpl Wl Wr Wd].
    assert (Hav : 0 <= avail (buf s)) by (destruct Wg as (_ & ? & _); unfold avail; lia).
    unfold Model.recovery. destruct (first_nl s) as [idx|] eqn:F.
    - (* a newline in the window: the rest of the over-long line goes, recovery ends *)
      apply first_nl_some in F. destruct F as [l [t [Hr [Hi Hle]]]]. rewrite Hr in *. cbn [Model.size] in Wa.
      assert (K : 0 <= idx + 1 <= avail (buf s)) by lia.
      destruct (consume_spec (buf s) (idx + 1) Wg K) as [_ [A [C _]]]. cbv zeta in *.
      split; [|split].
      + apply wfm_consume; try assumption; try discriminate; cbn [rev]; rewrite ?Hr.
        * split; [lia|]. destruct t as [|l2 t2]; [lia|]. pose proof (llen_pos l2). lia.
        * cbn [Model.size]. lia.
        * rewrite map_app, size_app. cbn [map snd Model.size]. lia.
        * rewrite map_app, <- app_assoc. exact Wl.
        * rewrite replay_app, Wr. reflexivity.
        * constructor; [exact (Wpl Hpr)|exact Wd].
        * reflexivity.
      + cbn [fc buf]. apply Z.eqb_eq.
      + right. cbn [pr jf fc buf]. split; [reflexivity|]. split; [reflexivity|]. split; [|apply Z.eqb_eq].
        unfold phi. cbn [buf unread pr jf]. rewrite A, C, Hpr. pose proof (b2z_range (jf s)). cbn [b2z negb]. lia.
    - (* no newline yet: everything in the window goes *)
      pose proof (first_nl_none s F) as Fn.
      replace (match rest s with [] => discard_all L PS s | _ :: _ => discard_all L PS s end)
        with (discard_all L PS s) by (destruct (rest s); reflexivity).
      assert (K : 0 <= avail (buf s) <= avail (buf s)) by lia.
      destruct (consume_spec (buf s) (avail (buf s)) Wg K) as [_ [A [C _]]]. unfold discard_all. cbv zeta in *.
      split; [|split].
      + apply wfm_consume; try assumption; try lia; try congruence.
        * split; [lia|]. destruct (rest s) as [|l t]; [cbn [Model.size] in Wa|]; lia.
        * intros _. split; [exact Hpr|reflexivity].
      + cbn [fc buf]. intros _. lia.
      + left. cbn [pr fc buf jf]. repeat split; try assumption; try lia.
        unfold phi. cbn [buf unread pr jf]. rewrite A, C. lia.
  Qed.

  Lemma read_n_spec : forall sp (s : St) n sch', read_n sp s = (n, sch') -> 0 <= sp -> 0 <= unread s ->
    0 <= n <= sp /\ n <= unread s /\ (n = 0 -> sp = 0 \/ unread s = 0).
  Proof.
    intros sp s n sch' H Hsp Hu. unfold Model.read_n in H.
    destruct ((sp <=? 0) || (unread s <=? 0)) eqn:E.
    - inversion H; subst. apply orb_true_iff in E. destruct E as [E|E]; apply Z.leb_le in E; lia.
    - apply orb_false_iff in E. destruct E as [E1 E2]. apply Z.leb_gt in E1. apply Z.leb_gt in E2.
      destruct (sched s); inversion H; subst; lia.
  Qed.

  Lemma caps_bounds : forall c, caps c -> 10240 <= c <= 163840.
  Proof. unfold caps. intros. lia. Qed.

  (* parse_more failed: on a line that was completely inside the buffer *)
  Definition pm_err (s : St) (c ln : Z) : Prop :=
    exists taken l r p1,
      rest s = taken ++ l :: r /\ fold_recog (ps s) taken = inl p1 /\
      recog p1 l = inr c /\ ln = lineno p1 /\ llen l <= MAX_CAP.

  Lemma replay_fed : forall taken p, Model.replay L PS recog bump lineno p (map (pair false) taken) = Model.fold_recog L PS recog lineno p taken.
  Proof.
    induction taken as [|l t IH]; intros p; cbn [map Model.replay Model.fold_recog]; [reflexivity|].
    destruct (recog p l); [apply IH|reflexivity].
  Qed.

  (* from `if in_panic_recovery { continue }` to the end of the loop body, recovery being off *)
  Lemma parse_phase_wf : forall s2, WFm s2 -> pr s2 = false ->
    match parse_phase s2 with
    | Next s' => WF s' /\ phi s' <= phi s2 - b2z (jf s2) /\ pr s' = false
    | Done r s' => s' = s2 /\ exists c ln, r = RErr c ln /\ pm_err s2 c ln
    | StPanic _ => False
    end.
  Proof.
    intros s W Hpr. pose proof W as [Wg Wc _ _ Wa _ _ Wpo _ _ _ _ Wt _ Wl Wr Wd].
    assert (Hav : 0 <= avail (buf s) <= MAX_CAP).
    { pose proof (caps_bounds _ Wc). destruct Wg as (? & ? & ?). unfold avail, MAX_CAP. lia. }
    unfold Model.parse_phase. rewrite Hpr, (geom_ok_true _ Wg), (Wpo Hpr). cbn [Z.eqb negb].
    rewrite (Wpo Hpr) in Wa, Wt.
    destruct (pm (avail (buf s)) (ps s) (rest s) 0 (log s)) as [[[[p' r'] c'] lg']|[c ln]] eqn:P.
    - apply pm_inl in P; [|lia]. destruct P as [tk [H1 [H2 [H3 [H4 [H5 [H6 H7]]]]]]].
      pose proof (size_nonneg tk) as Hsz. rewrite H1, size_app in Wa.
      assert (K : 0 <= c' <= avail (buf s)) by lia.
      destruct (consume_spec (buf s) c' Wg K) as [_ [A [C _]]]. cbv zeta in *.
      assert (Hlog : map snd (rev lg') = map snd (rev (log s)) ++ tk).
      { rewrite H4, rev_app_distr, rev_involutive, map_app, map_map. cbn [snd]. rewrite map_id. reflexivity. }
      split; [|split; [|reflexivity]].
      + constructor; cbn [buf fc pr jf rest]; [|intros _..].
        * apply wfm_consume; try assumption; try discriminate; rewrite ?Hlog.
          -- split; [lia|]. destruct r' as [|l2 t2]; [lia|]. pose proof (llen_pos l2). lia.
          -- rewrite H1, size_app, (Wpo Hpr). lia.
          -- rewrite size_app. lia.
          -- rewrite <- app_assoc, <- H1. exact Wl.
          -- rewrite H4, rev_app_distr, rev_involutive, replay_app, Wr, replay_fed. exact H5.
          -- rewrite H4. apply Forall_app. split; [|exact Wd]. apply Forall_rev, Forall_map.
             eapply Forall_impl; [|exact H6]. intros a Ha. unfold dec_ok. cbn [fst snd] in *. lia.
          -- reflexivity.
        * unfold partial. cbn [rest buf]. rewrite A. destruct r'; [exact I|]. lia.
        * intros Q. apply Z.eqb_eq in Q. lia.
        * reflexivity.
      + unfold phi. cbn [buf unread pr jf]. rewrite A, C, Hpr. pose proof (b2z_range (jf s)). cbn [b2z negb]. lia.
    - apply pm_inr in P. destruct P as [tk [l1 [r [p1 [H1 [H2 [H3 [H4 H5]]]]]]]]. cbn [fst snd] in *.
      split; [reflexivity|]. exists c, ln. split; [reflexivity|].
      exists tk, l1, r, p1. repeat split; try assumption. lia.
  Qed.

  (* read(): [n] bytes enter the buffer *)
  Lemma wfm_fill : forall s n tgv sch' nrd', WFm s -> 0 <= n <= space (buf s) -> n <= unread s ->
    (tgv = true -> tg s = true /\ n = 0) ->
    WFm (mkst (fill (buf s) n) (fc s) tgv (pr s) (jf s) (total s) (ps s) (rest s) (off s) (unread s - n) sch'
              (ncb s) (cbsum s) nrd' (Z.max (maxsp s) (space (buf s))) (log s)).
  Proof.
    intros s n tgv sch' nrd' W Hn Hu Htg. destruct W as [Wg Wc Wh Wo Wa Ws Wu Wpo Wpc Wtg Wcb Wms Wt Wpl Wl Wr Wd].
    destruct (fill_spec (buf s) n Wg Hn) as [G [A [C [P E]]]]. cbv zeta in *. pose proof (caps_bounds _ Wc).
    constructor; cbn [buf fc tg pr jf total ps rest off unread sched ncb cbsum nrd maxsp log]; rewrite ?A, ?C;
      try assumption; try lia.
    - intros Q. destruct (Htg Q) as [Q1 Q2]. specialize (Wtg Q1). lia.
    - destruct Wg as (? & ? & ?). unfold space, MAX_CAP in *. lia.
  Qed.

  (* a full buffer of maximal capacity: the loop enters recovery *)
  Lemma wfm_set_pr : forall s, WFm s -> b_cap (buf s) = MAX_CAP ->
    match rest s with l :: _ => HALF_CAP < llen l | [] => True end -> WFm (set_pr L PS s true).
  Proof.
    intros s W Hc Hl. destruct W. constructor; cbn [set_pr buf fc tg pr jf total ps rest off unread sched ncb cbsum nrd maxsp log];
      try assumption; try discriminate; intros _; assumption.
  Qed.

  (* a full buffer below the maximal capacity is doubled *)
  Lemma wfm_grow : forall s, WFm s -> pr s = false -> b_cap (buf s) <= HALF_CAP ->
    WFm (set_buf_tg L PS s (mkbuf (b_pos (buf s)) (b_end (buf s)) (b_cap (buf s) * 2)) true).
  Proof.
    intros s W Hp Hc. destruct W as [(? & ? & ?) Wc Wh Wo Wa Ws Wu Wpo Wpc Wtg Wcb Wms Wt Wpl Wl Wr Wd].
    pose proof (caps_bounds _ Wc). unfold avail, HALF_CAP in *.
    constructor; cbn [set_buf_tg buf fc tg pr jf total ps rest off unread sched ncb cbsum nrd maxsp log b_pos b_end b_cap avail];
      try assumption; try congruence; try lia.
    - unfold geom. cbn [b_pos b_end b_cap]. lia.
    - unfold caps in *. lia.
  Qed.

  (* the state between the recovery block and the read: what [step_rest] may assume *)
  Definition Pre (s1 : St) : Prop :=
    WFm s1 /\ (fc s1 = true -> avail (buf s1) = 0) /\ (pr s1 = true -> fc s1 = true) /\
    (pr s1 = false -> jf s1 = false -> partial s1) /\
    (pr s1 = false -> jf s1 = true -> avail (buf s1) = 0 -> fc s1 = true).

  (* a finished run: the invariant, and how the result relates to the final state.  [drive_shape] reads all of it but the
     [partial] clause of the two end-of-input errors; C10's stream proofs carry [Fin] whole. *)
  Definition Fin (r : result PS) (s' : St) : Prop :=
    WFm s' /\
    match r with
    | ROk p => p = ps s' /\ avail (buf s') = 0 /\ unread s' = 0 /\ fc s' = true
    | RErr c ln =>
        (pr s' = false /\ pm_err s' c ln) \/
        (unread s' = 0 /\ fc s' = false /\ (pr s' = false -> jf s' = false -> partial s') /\
         ((c = 3 /\ ln = 0 /\ total s' = 0) \/ (c = 4 /\ ln = lineno (ps s') /\ total s' <> 0)))
    end.

  Lemma step_rest_wf : forall s1, Pre s1 ->
    match step_rest L llen PS recog lineno s1 with
    | Next s' => WF s' /\ phi s' < phi s1
    | Done r s' => Fin r s'
    | StPanic _ => False
    end.
  Proof.
    intros s1 [W [Hfc [Hprfc [Hpart Hjfc]]]].
    pose proof (wf_geom _ W) as Wg. pose proof (wf_cap _ W) as Wc. pose proof (wf_unread _ W) as Wu.
    pose proof (wf_tg _ W) as Wtg. pose proof (wf_half _ W) as Wh.
    pose proof (caps_bounds _ Wc) as Hcb. pose proof Wg as (Hg1 & Hg2 & Hg3).
    assert (Hsp : 0 <= space (buf s1)) by (unfold space; lia).
    unfold Model.step_rest, Model.step_after_read. rewrite (geom_ok_true _ Wg). cbn [negb].
    destruct (read_n (space (buf s1)) s1) as [n sch'] eqn:R. cbv zeta.
    destruct (read_n_spec _ _ _ _ R Hsp Wu) as [Hn1 [Hn2 Hn0]].
    destruct (fill_spec (buf s1) n Wg Hn1) as [_ [A [C _]]]. cbv zeta in A, C.
    (* the state after read() and fill(), with either value of tried_to_grow *)
    pose (s2 tgv := mkst (fill (buf s1) n) (fc s1) tgv (pr s1) (jf s1) (total s1) (ps s1) (rest s1) (off s1)
                         (unread s1 - n) sch' (ncb s1) (cbsum s1) (nrd s1 + 1)
                         (Z.max (maxsp s1) (space (buf s1))) (log s1)).
    assert (W2 : forall tgv, (tgv = true -> tg s1 = true /\ n = 0) -> WFm (s2 tgv))
      by (intros tgv Htg; apply wfm_fill; assumption).
    assert (Phi2 : forall tgv, phi (s2 tgv) = phi s1 - 3 * n) by (intros; unfold phi; cbn [s2 buf unread pr jf]; rewrite A, C; lia).
    assert (Hparse : forall tgv, WFm (s2 tgv) -> pr s1 = false -> 0 < n + b2z (jf s1) ->
              match parse_phase (s2 tgv) with
              | Next s' => WF s' /\ phi s' < phi s1
              | Done r s' => Fin r s'
              | StPanic _ => False
              end).
    { intros tgv Wv Hp Hpos. pose proof (parse_phase_wf (s2 tgv) Wv Hp) as PP. specialize (Phi2 tgv).
      destruct (parse_phase (s2 tgv)) as [s'|r s'|t]; [| |exact PP].
      - destruct PP as [PW [PPhi _]]. split; [exact PW|]. cbn [s2 jf] in PPhi. lia.
      - destruct PP as [-> [c [ln [-> Hf]]]]. split; [exact Wv|]. left. split; [exact Hp|exact Hf]. }
    destruct (n =? 0) eqn:En.
    - apply Z.eqb_eq in En. subst n. specialize (W2 (tg s1) (fun H => conj H eq_refl)). specialize (Phi2 (tg s1)).
      cbn [jf fc tg total ps buf]. fold (s2 (tg s1)).
      destruct (jf s1 && negb (avail (fill (buf s1) 0) =? 0)) eqn:Ea.
      + (* just finished recovering and there is data: parse it *)
        apply andb_true_iff in Ea. destruct Ea as [Ej Ea]. apply negb_true_iff, Z.eqb_neq in Ea. rewrite A in Ea.
        apply Hparse; [exact W2| |rewrite Ej; cbn [b2z]; lia].
        destruct (pr s1); [specialize (Hfc (Hprfc eq_refl)); lia|reflexivity].
      + destruct (fc s1) eqn:Efc.
        * (* proper end of input *)
          split; [exact W2|]. cbn [s2 ps buf unread fc]. specialize (Hfc eq_refl). unfold space, avail in *.
          repeat split; lia.
        * assert (Hp1 : pr s1 = false) by (destruct (pr s1); [specialize (Hprfc eq_refl); congruence|reflexivity]).
          assert (Hj1 : jf s1 = false).
          { destruct (jf s1); [|reflexivity]. cbn [andb] in Ea. apply negb_false_iff, Z.eqb_eq in Ea.
            rewrite A in Ea. pose proof (Hjfc Hp1 eq_refl ltac:(lia)). congruence. }
          specialize (Hpart Hp1 Hj1). unfold partial in Hpart.
          destruct ((space (buf s1) =? 0) && negb (tg s1)) eqn:Eb.
          -- apply andb_true_iff in Eb. destruct Eb as [Eb1 Eb2]. apply Z.eqb_eq in Eb1. apply negb_true_iff in Eb2.
             rewrite C. destruct (MAX_CAP <? Z.min (b_cap (buf s1) * 2) U64MAX) eqn:Em; unfold U64MAX, MAX_CAP in Em.
             ++ (* the buffer cannot grow: recover *)
                apply Z.ltb_lt in Em. assert (Hc : b_cap (buf s1) = MAX_CAP) by (unfold caps, MAX_CAP in *; lia).
                split.
                ** constructor; [|cbn [set_pr pr]; discriminate..].
                   apply wfm_set_pr; [exact W2|cbn [s2 buf]; rewrite C; exact Hc|].
                   cbn [s2 rest]. destruct (rest s1) as [|l t]; [exact I|].
                   unfold space, avail, HALF_CAP, MAX_CAP in *. lia.
                ** unfold phi. cbn [set_pr s2 buf unread pr jf]. rewrite A, C, Hp1. cbn [negb b2z]. lia.
             ++ (* grow *)
                apply Z.ltb_ge in Em. assert (Hc : b_cap (buf s1) <= HALF_CAP) by (unfold HALF_CAP; lia).
                unfold grow. rewrite C.
                replace (Z.min (b_cap (buf s1) * 2) U64MAX) with (b_cap (buf s1) * 2) by (unfold U64MAX; lia).
                replace (b_cap (buf s1) * 2 <=? b_cap (buf s1)) with false by (symmetry; apply Z.leb_gt; lia).
                pose proof (wfm_grow _ W2 Hp1) as Wgr. cbn [s2 buf] in Wgr. rewrite C in Wgr.
                split.
                ** constructor; [exact (Wgr Hc)|cbn [set_buf_tg s2 pr fc jf rest buf]; intros _..].
                   { unfold partial, avail in *. cbn [set_buf_tg s2 rest buf b_pos b_end]. destruct (rest s1); [exact I|]. lia. }
                   { congruence. }
                   { exact Hj1. }
                ** pose proof (gsteps_double _ Wc Hc). unfold phi. cbn [set_buf_tg s2 buf unread pr jf b_cap].
                   unfold avail in *. cbn [b_pos b_end]. lia.
          -- (* end of input with unparsed bytes left *)
             assert (Hu : unread s1 = 0).
             { apply andb_false_iff in Eb. destruct Eb as [Eb|Eb].
               - apply Z.eqb_neq in Eb. lia.
               - apply negb_false_iff in Eb. specialize (Wtg Eb). unfold space in *. lia. }
             assert (Hp2 : pr s1 = false -> jf s1 = false -> partial (s2 (tg s1))).
             { intros _ _. unfold partial. cbn [s2 rest buf]. rewrite A. destruct (rest s1); [exact I|]. lia. }
             assert (F : forall c ln, (c = 3 /\ ln = 0 /\ total s1 = 0) \/ (c = 4 /\ ln = lineno (ps s1) /\ total s1 <> 0) ->
                         Fin (RErr c ln) (s2 (tg s1))).
             { intros c ln H. split; [exact W2|]. right. cbn [s2 unread fc pr jf total ps].
               split; [lia|]. split; [reflexivity|]. split; [exact Hp2|exact H]. }
             destruct (total s1 =? 0) eqn:Et; apply F; [left|right]; repeat split; [apply Z.eqb_eq|apply Z.eqb_neq]; exact Et.
    - (* the reader delivered n > 0 bytes *)
      apply Z.eqb_neq in En. specialize (W2 false ltac:(discriminate)). specialize (Phi2 false).
      unfold set_tg. cbn [buf fc tg pr jf total ps rest off unread sched ncb cbsum nrd maxsp log]. fold (s2 false).
      destruct (pr s1) eqn:Ep.
      + (* still discarding *)
        unfold Model.parse_phase. cbn [s2 pr]. fold (s2 false).
        split; [|lia]. constructor; [exact W2|cbn [s2 pr]; discriminate..].
      + apply Hparse; [exact W2|reflexivity|]. pose proof (b2z_range (jf s1)). lia.
  Qed.

  Lemma step_wf : forall s, WF s ->
    match step s with
    | Next s' => WF s' /\ phi s' < phi s
    | Done r s' => Fin r s'
    | StPanic _ => False
    end.
  Proof.
    intros s [W Hp Hf Hj]. unfold Model.step.
    rewrite (geom_ok_true _ (wf_geom _ W)). cbn [negb]. rewrite andb_false_r.
    destruct (pr s) eqn:Ep.
    - destruct (recovery_wfm s W Ep) as [W1 [F1 D]]. cbn zeta in *.
      assert (HP : Pre (recovery s) /\ phi (recovery s) <= phi s).
      { destruct D as [[P1 [P2 [P3 [P4 P5]]]]|[P1 [P2 [P3 P4]]]].
        - split; [|exact P4]. split; [exact W1|]. split; [exact F1|]. split; [intros _; exact P2|].
          split; intros Q; congruence.
        - split; [|lia]. split; [exact W1|]. split; [exact F1|]. split; [intros Q; congruence|].
          split; [intros _ Q; congruence|]. intros _ _ Ha. exact (P4 Ha). }
      destruct HP as [HP Hphi]. pose proof (step_rest_wf _ HP) as SR.
      destruct (step_rest L llen PS recog lineno (recovery s)); [|exact SR|exact SR].
      destruct SR as [SW SP]. split; [exact SW|lia].
    - assert (HP : Pre s).
      { split; [exact W|]. split; [exact (Hf eq_refl)|]. split; [intros Q; congruence|].
        split; [intros _ _; exact (Hp eq_refl)|]. intros _ Q. rewrite (Hj eq_refl) in Q. discriminate. }
      exact (step_rest_wf _ HP).
  Qed.

  Lemma run_wf : forall n s, WF s -> phi s < Z.of_nat n ->
    exists r s', iter_nat n s = Done r s' /\ Fin r s'.
  Proof.
    induction n as [|n IH]; intros s W Hphi.
    - pose proof (phi_nonneg s (wf_m _ W)). cbn in Hphi. lia.
    - cbn [iter_nat]. pose proof (step_wf s W) as SW.
      destruct (step s) as [s1|r s1|t].
      + destruct SW as [W1 P1]. apply IH; [exact W1|lia].
      + exists r, s1. split; [reflexivity|exact SW].
      + contradiction.
  Qed.

  Lemma reach_wf : forall n s0 s, WF s0 -> iter_nat n s0 = Next s -> WF s.
  Proof.
    induction n as [|n IH]; intros s0 s W H; cbn [iter_nat] in H.
    - inversion H; subst; exact W.
    - pose proof (step_wf s0 W) as SW. destruct (step s0) as [s1|r s1|t]; try discriminate.
      destruct SW as [W1 _]. eapply IH; eauto.
  Qed.

  Lemma init_phi : forall t0 sch, Z.max 0 t0 = tail -> ilen = size lines + tail ->
    phi (init_st L llen PS init_ps lines t0 sch) = 6 * ilen + 17.
  Proof.
    intros t0 sch Ht Hi. unfold init_st, input_len, phi. rewrite Ht.
    cbn [buf unread pr jf negb b2z]. unfold avail, INITIAL_CAP, gsteps. cbn [b_cap b_pos b_end].
    change (10240 <=? 10240) with true. cbn iota. lia.
  Qed.
End Driver.

Section Top.
  Variable L : Type.
  Variable llen : L -> Z.
  Variable PS : Type.
  Variable init_ps : PS.
  Variable recog : PS -> L -> PS + Z.
  Variable bump : PS -> PS.
  Variable lineno : PS -> Z.
  Hypothesis llen_pos : forall l, 1 <= llen l.

  Local Notation drive := (drive L llen PS init_ps recog bump lineno).
  Local Notation init_st := (init_st L llen PS init_ps).
  Local Notation iter_pos := (iter_pos L llen PS recog bump lineno).
  Local Notation input_len := (input_len L llen).
  Local Notation WF' lines t0 := (WF L llen PS init_ps recog bump lineno (Z.max 0 t0) (input_len lines t0) lines).
  Local Notation WFm' lines t0 := (WFm L llen PS init_ps recog bump lineno (Z.max 0 t0) (input_len lines t0) lines).
  Local Notation Fin' lines t0 := (Fin L llen PS init_ps recog bump lineno (Z.max 0 t0) (input_len lines t0) lines).

  Lemma init_wf' : forall lines t0 sch, WF' lines t0 (init_st lines t0 sch).
  Proof.
    intros lines t0 sch. pose proof (size_ge0 L llen llen_pos lines) as Hs.
    unfold Model.init_st, Model.input_len.
    constructor; [constructor|..];
      cbn [buf fc tg pr jf total ps rest off unread sched ncb cbsum nrd maxsp log rev map app Model.size Model.replay];
      try discriminate; try reflexivity; unfold partial, geom, caps, avail, INITIAL_CAP, MAX_CAP;
      cbn [rest buf b_pos b_end b_cap]; try lia; try (constructor; fail).
    - split; [lia|]. destruct lines as [|l t]; [lia|]. pose proof (llen_pos l). lia.
    - intros _. destruct lines as [|l t]; [exact I|]. pose proof (llen_pos l). lia.
  Qed.

  Lemma input_len_nonneg : forall lines t0, 0 <= input_len lines t0.
  Proof. intros. unfold Model.input_len. pose proof (size_ge0 L llen llen_pos lines). lia. Qed.

  Lemma drive_fin : forall lines t0 sch,
    exists r s', drive lines t0 sch = Ret (r, s') /\ Fin' lines t0 r s'.
  Proof.
    intros lines t0 sch. unfold Model.drive. rewrite iter_pos_nat.
    destruct (run_wf L llen PS init_ps recog bump lineno llen_pos (Z.max 0 t0) ltac:(lia)
                     (input_len lines t0) lines
                     (Pos.to_nat (fuel_for L llen lines t0)) (init_st lines t0 sch)) as [r [s' [H1 H2]]].
    - apply init_wf'.
    - rewrite (init_phi L llen PS init_ps recog bump lineno (Z.max 0 t0) (input_len lines t0) lines t0 sch eq_refl eq_refl).
      rewrite positive_nat_Z. unfold fuel_for. pose proof (input_len_nonneg lines t0).
      rewrite Z2Pos.id; lia.
    - rewrite H1. exists r, s'. split; [reflexivity|exact H2].
  Qed.

  Lemma drive_ret_fin : forall lines t0 sch r s, drive lines t0 sch = Ret (r, s) -> Fin' lines t0 r s.
  Proof.
    intros lines t0 sch r s H. destruct (drive_fin lines t0 sch) as [r' [s' [H1 F]]].
    rewrite H in H1. inversion H1. exact F.
  Qed.

  Lemma reach_wf' : forall lines t0 sch p s,
    iter_pos p (init_st lines t0 sch) = Next s -> WF' lines t0 s.
  Proof.
    intros lines t0 sch p s H. rewrite iter_pos_nat in H.
    eapply reach_wf; [exact llen_pos|lia|apply init_wf'|exact H].
  Qed.

  Lemma wfm_window : forall lines t0 s, WFm' lines t0 s ->
    In (b_cap (buf s)) [10240; 20480; 40960; 81920; 163840] /\
    0 <= avail (buf s) <= b_cap (buf s) /\ b_cap (buf s) <= MAX_CAP /\ 0 <= maxsp s <= MAX_CAP.
  Proof.
    intros lines t0 s W. pose proof (caps_bounds L PS init_ps recog bump lineno _ (wf_cap _ _ _ _ _ _ _ _ _ _ _ W)).
    destruct (wf_geom _ _ _ _ _ _ _ _ _ _ _ W) as (? & ? & ?). unfold avail, MAX_CAP.
    split; [|split; [lia|split; [lia|exact (wf_maxsp _ _ _ _ _ _ _ _ _ _ _ W)]]].
    destruct (wf_cap _ _ _ _ _ _ _ _ _ _ _ W) as [-> | [-> | [-> | [-> | ->]]]]; cbn [In]; auto 6.
  Qed.

  Lemma fin_rest_nil : forall lines t0 s,
    WFm' lines t0 s -> avail (buf s) = 0 -> unread s = 0 -> rest s = [] /\ total s = input_len lines t0.
  Proof.
    intros lines t0 s W Ha Hu. destruct W. split; [|lia].
    destruct (rest s) as [|l t]; [reflexivity|]. cbn [Model.size] in wf_acct0.
    pose proof (size_ge0 L llen llen_pos t). destruct wf_off0. lia.
  Qed.

  (* what a finished run looks like, whatever the input and the schedule *)
  Definition outcome_shape (lines : list L) (r : result PS) (s : st L PS) : Prop :=
    exists ds : list (bool * L),
      Forall (dec_ok L llen) ds /\ lines = map snd ds ++ rest s /\
      Model.replay L PS recog bump lineno init_ps ds = inl (ps s) /\
      match r with
      | ROk p => p = ps s /\ rest s = []
      | RErr c ln =>
          (exists taken l r' p1,
              rest s = taken ++ l :: r' /\ Model.fold_recog L PS recog lineno (ps s) taken = inl p1 /\
              recog p1 l = inr c /\ ln = lineno p1 /\ llen l <= MAX_CAP)
          \/ (c = 3 /\ ln = 0) \/ (c = 4 /\ ln = lineno (ps s))
      end.

  Lemma drive_shape : forall lines t0 sch r s,
    drive lines t0 sch = Ret (r, s) -> outcome_shape lines r s.
  Proof.
    intros lines t0 sch r s H. destruct (drive_ret_fin lines t0 sch r s H) as [W F].
    exists (rev (log s)). pose proof W as W0. destruct W.
    split; [apply Forall_rev; exact wf_decs0|]. split; [exact wf_lines0|]. split; [exact wf_replay0|].
    destruct r as [p|c ln].
    - destruct F as [F1 [F2 [F3 _]]]. split; [exact F1|]. exact (proj1 (fin_rest_nil lines t0 s W0 F2 F3)).
    - destruct F as [[_ F]|[_ [_ [_ [F|F]]]]].
      + left. exact F.
      + right. left. destruct F as [? [? ?]]. split; assumption.
      + right. right. destruct F as [? [? ?]]. split; assumption.
  Qed.

  Lemma drive_callback : forall lines t0 sch r s,
    drive lines t0 sch = Ret (r, s) ->
    cbsum s = total s /\ 0 <= total s <= input_len lines t0 /\
    (forall p, r = ROk p -> cbsum s = input_len lines t0).
  Proof.
    intros lines t0 sch r s H. destruct (drive_ret_fin lines t0 sch r s H) as [W F].
    pose proof W as W0. destruct W.
    pose proof (size_ge0 L llen llen_pos (map snd (rev (log s)))).
    destruct wf_geom0 as [? [? ?]]. destruct wf_off0 as [? ?]. unfold avail in *.
    split; [exact wf_cb0|]. split; [lia|].
    intros p Hp. subst r. destruct F as [_ [F2 [F3 _]]].
    rewrite wf_cb0. exact (proj2 (fin_rest_nil lines t0 s W0 F2 F3)).
  Qed.

  Lemma replay_all_fed : forall (ds : list (bool * L)) p,
    Forall (fun d => fst d = false) ds ->
    Model.replay L PS recog bump lineno p ds = Model.fold_recog L PS recog lineno p (map snd ds).
  Proof.
    induction ds as [|[d l] t IH]; intros p H; cbn [map snd Model.replay Model.fold_recog]; [reflexivity|].
    inversion H as [|x y Hd Ht]; subst. cbn [fst] in Hd. subst d.
    destruct (recog p l); [apply IH; exact Ht|reflexivity].
  Qed.

  (* no complete line longer than 80 KiB: an Ok result is the fold of the recogniser over all lines *)
  Lemma ok_is_fold : forall lines t0 sch p s,
    Forall (fun l => llen l <= HALF_CAP) lines ->
    drive lines t0 sch = Ret (ROk p, s) ->
    Model.fold_recog L PS recog lineno init_ps lines = inl p.
  Proof.
    intros lines t0 sch p s Hs H.
    destruct (drive_shape lines t0 sch (ROk p) s H) as [ds [Hd [Hl [Hr [Hp Hn]]]]].
    rewrite Hn, app_nil_r in Hl. subst p.
    rewrite <- Hr, Hl. symmetry. apply replay_all_fed.
    rewrite Hl in Hs. clear - Hd Hs. induction ds as [|[d l] t IH]; [constructor|].
    inversion Hd as [|x y Hd1 Hd2]; subst. cbn [map snd] in Hs. inversion Hs as [|x y Hs1 Hs2]; subst.
    constructor; [|apply IH; assumption].
    unfold dec_ok in Hd1. cbn [fst snd] in *. destruct d; [lia|reflexivity].
  Qed.
End Top.
