(* C09/ProofsTable.v — finish_item / finish composed with C08.
   Every range handed to `Range::new` while SymbolParser::finish runs (line records, FUNC / STACK CFI INIT /
   STACK WIN memory_range(), the shortened STACK WIN record of insert_win_stack_info) has start <= end < 2^64
   — `Range::new` asserts "Ranges must be ordered" — and the five range maps of the resulting symbol table
   (functions, every function's line table, CFI, STACK WIN frame data, STACK WIN fpo) are strictly sorted,
   pairwise disjoint and made of ordered ranges: for EVERY parser state the line recognisers can build, i.e.
   for all record sequences. *)
From Coq Require Import Lia ZArith List Bool Sorted Permutation.
From RM Require Import Base.Word C08.Model C11.Model C09.Model C09.Grammar C09.Driver C08.Proofs
                       C09.Proofs C09.ProofsBytes C09.ProofsFinish C09.ProofsFinal.
Import ListNotations.
Open Scope Z_scope.

(* the (start, end) pairs given to Range::new by finish_item for one FUNC item *)
Definition func_new_ranges (fr : Grammar.func_raw) : list range :=
  keep_somes (map fst (line_entries (rev (Grammar.fr_lines fr)))) ++
  match mk_range (Grammar.fr_addr fr) (Grammar.fr_size fr) with Some r => [r] | None => [] end.
Definition cfi_new_ranges (c : cfi_raw) : list range :=
  match mk_range (cr_addr (ci_init c)) (ci_size c) with Some r => [r] | None => [] end.
(* insert_win_stack_info: info.memory_range(), and last_info.memory_range() after the size fix-up *)
Definition win_insert_new_ranges (acc : list (range * win_info)) (w : win_info) : list range :=
  match wi_range w with
  | None => []
  | Some mr =>
      mr :: match acc with
            | (lr, lw) :: _ =>
                if intersects lr mr && (wi_addr w >? wi_addr lw)
                then match wi_range (wi_set_size lw (wrap32 (wi_addr w - wi_addr lw))) with
                     | Some r => [r] | None => [] end
                else []
            | [] => []
            end
  end.
Fixpoint win_new_ranges (acc : list (range * win_info)) (ws : list win_info) : list range :=
  match ws with
  | [] => []
  | w :: t => win_insert_new_ranges acc w ++
              match win_insert acc w with Ret acc' => win_new_ranges acc' t | _ => [] end
  end.
(* every Range::new of SymbolParser::finish, in program order per kind *)
Definition finish_new_ranges (p0 : pst) : list range :=
  let p := close_cur p0 in
  flat_map func_new_ranges (rev (p_funcs p)) ++ flat_map cfi_new_ranges (rev (p_cfis p)) ++
  win_new_ranges [] (rev (p_win_fd p)) ++ win_new_ranges [] (rev (p_win_fpo p)).

Definition map_wf {V} (m : list (range * V)) : Prop :=
  StronglySorted strictly_before m /\ wf_ranges m.
Definition table_wf (t : table) : Prop :=
  map_wf (t_funcs t) /\ Forall (fun e => map_wf (sf_lines (snd e))) (t_funcs t) /\
  map_wf (t_cfi t) /\ map_wf (t_win_fd t) /\ map_wf (t_win_fpo t).

(* two different entries of a well-formed map never share an address *)
Lemma map_wf_disjoint {V} (m : list (range * V)) : map_wf m ->
  forall i j a b, (i < j)%nat -> nth_error m i = Some a -> nth_error m j = Some b ->
  fst (fst a) <= snd (fst a) /\ snd (fst a) < fst (fst b) /\ fst (fst b) <= snd (fst b).
Proof.
  intros [Hs Hw]. induction Hs as [|x t Ht IH Hx]; intros i j a b Hij Ha Hb.
  - destruct i; discriminate.
  - inversion Hw as [|? ? Hwx Hwt]; subst.
    destruct j as [|j]; [lia|]. cbn [nth_error] in Hb.
    destruct i as [|i].
    + cbn [nth_error] in Ha. inversion Ha; subst a.
      apply nth_error_In in Hb. rewrite Forall_forall in Hx. specialize (Hx _ Hb).
      unfold wf_ranges in Hwt. rewrite Forall_forall in Hwt. specialize (Hwt _ Hb).
      unfold strictly_before in Hx. cbv beta in *. unfold wf_range in *. lia.
    + cbn [nth_error] in Ha. apply (IH Hwt i j a b); [lia|assumption|assumption].
Qed.

Section Vals.
Context {V : Type} (eqb : V -> V -> bool) (P : V -> Prop).
Let PV (e : range * V) : Prop := P (snd e).

Lemma merge_step_vals acc rv : Forall PV acc -> PV rv -> Forall PV (merge_step eqb acc rv).
Proof.
  intros Ha Hr. destruct acc as [|[lr lv] acc']; cbn [merge_step]; [constructor; [assumption|constructor]|].
  destruct rv as [r v].
  destruct ((fst r <=? snd lr) && negb (eqb v lv)); [assumption|].
  destruct ((fst r <=? sat_add 64 (snd lr) 1) && eqb v lv); [|constructor; assumption].
  inversion Ha; subst. constructor; assumption.
Qed.

Lemma fold_merge_vals l : forall acc, Forall PV acc -> Forall PV l -> Forall PV (fold_left (merge_step eqb) l acc).
Proof.
  induction l as [|rv t IH]; intros acc Ha Hl; cbn [fold_left]; [assumption|].
  inversion Hl; subst. apply IH; [apply merge_step_vals; assumption|assumption].
Qed.

Lemma safe_p_vals l : Forall PV l -> Forall PV (into_rangemap_safe_p eqb l).
Proof.
  intros H. unfold into_rangemap_safe_p, merge_sorted. apply Forall_rev. apply fold_merge_vals; [constructor|].
  eapply Permutation_Forall; [apply sort_perm|assumption].
Qed.
End Vals.

Lemma keep_somes_entries_wf {V} (l : list (option range * V)) :
  wf_entries l -> Forall wf_range (keep_somes (map fst l)).
Proof.
  unfold wf_entries. induction 1 as [|[o v] t Hx Ht IH]; cbn [map keep_somes fst]; [constructor|].
  destruct o as [r|]; [constructor; assumption|assumption].
Qed.

Lemma func_new_ranges_wf fr : fr_wf fr -> Forall wf_range (func_new_ranges fr).
Proof.
  intros (A & B & C). unfold func_new_ranges. apply Forall_app. split.
  - apply keep_somes_entries_wf. apply line_entries_wf. apply Forall_rev. assumption.
  - destruct (mk_range (Grammar.fr_addr fr) (Grammar.fr_size fr)) eqn:E; constructor; [|constructor].
    exact (mk_range_wf _ _ _ A B E).
Qed.

Lemma cfi_new_ranges_wf c : cfi_wf c -> Forall wf_range (cfi_new_ranges c).
Proof.
  intros [A B]. unfold cfi_new_ranges.
  destruct (mk_range (cr_addr (ci_init c)) (ci_size c)) eqn:E; constructor; [|constructor].
  exact (mk_range_wf _ _ _ A B E).
Qed.

Lemma finish_func_lines fr x : fr_wf fr -> finish_func fr = Ret (Some x) -> map_wf (sf_lines (snd x)).
Proof.
  intros (A & B & C). unfold finish_func.
  assert (W : wf_entries (line_entries (rev (Grammar.fr_lines fr)))) by (apply line_entries_wf; apply Forall_rev; assumption).
  rewrite (build_total line_eqb _ W). cbn [obind].
  destruct (mk_range (Grammar.fr_addr fr) (Grammar.fr_size fr)); intros H; inversion H; subst. cbn [snd sf_lines].
  exact (sorted_disjoint line_eqb _ W).
Qed.

Lemma finish_funcs_lines l : Forall fr_wf l -> forall fl, finish_funcs l = Ret fl ->
  Forall (fun e => map_wf (sf_lines (snd e))) fl.
Proof.
  induction 1 as [|fr t Hf Ht IH]; cbn [finish_funcs]; intros fl H.
  - inversion H; subst. constructor.
  - destruct (finish_func fr) as [x| | |] eqn:E; cbn [obind] in H; try discriminate.
    destruct (finish_funcs t) as [rest| | |] eqn:E2; cbn [obind] in H; try discriminate.
    inversion H; subst. specialize (IH rest eq_refl).
    destruct x as [e|]; [constructor; [|assumption]|assumption].
    eapply finish_func_lines; eauto.
Qed.

Lemma win_insert_new_ranges_wf acc w : acc_inv acc -> wi_wf w -> Forall wf_range (win_insert_new_ranges acc w).
Proof.
  intros Hacc Hw. unfold win_insert_new_ranges.
  destruct (wi_range w) as [mr|] eqn:Em; [|constructor].
  assert (Hmr : wf_range mr) by (unfold wi_range in Em; destruct Hw as [A B]; refine (mk_range_wf _ _ _ A _ Em); lia).
  constructor; [assumption|].
  destruct acc as [|[lr lw] acc']; [constructor|].
  destruct (intersects lr mr && (wi_addr w >? wi_addr lw)) eqn:E; [|constructor].
  apply andb_true_iff in E. destruct E as [Ei Eg].
  (* the fix-up branch: win_insert returns the accumulator with the shortened record in second place *)
  destruct (win_insert_total _ w Hacc Hw) as (acc2 & Hins & [Hwf2 _]).
  unfold win_insert in Hins. rewrite Em, Ei, Eg in Hins.
  destruct (wi_range (wi_set_size lw (wrap32 (wi_addr w - wi_addr lw)))) as [r|]; [|constructor].
  inversion Hins; subst acc2. inversion Hwf2 as [|? ? _ Hrest]; subst. inversion Hrest; subst.
  constructor; [assumption|constructor].
Qed.

Lemma win_new_ranges_wf ws : Forall wi_wf ws -> forall acc, acc_inv acc -> Forall wf_range (win_new_ranges acc ws).
Proof.
  induction 1 as [|w t Hw Ht IH]; intros acc Hacc; cbn [win_new_ranges]; [constructor|].
  apply Forall_app. split; [apply win_insert_new_ranges_wf; assumption|].
  destruct (win_insert_total acc w Hacc Hw) as (acc' & E & Hacc'). rewrite E. apply IH. assumption.
Qed.

Lemma flat_map_forall {A B} (f : A -> list B) (P : B -> Prop) (Q : A -> Prop) l :
  (forall a, Q a -> Forall P (f a)) -> Forall Q l -> Forall P (flat_map f l).
Proof.
  intros H. induction 1 as [|a t Ha Ht IH]; cbn [flat_map]; [constructor|].
  apply Forall_app. split; [apply H; assumption|assumption].
Qed.

Lemma finish_new_ranges_ordered : forall p, pst_wf p -> Forall wf_range (finish_new_ranges p).
Proof.
  intros p0 Hwf0. unfold finish_new_ranges. cbv zeta.
  destruct (close_cur_wf p0 Hwf0) as [Hwf _]. set (p := close_cur p0) in *.
  destruct Hwf as (_ & Hf & Hc & Hfd & Hfpo).
  repeat (apply Forall_app; split).
  - eapply flat_map_forall; [apply func_new_ranges_wf|apply Forall_rev; assumption].
  - eapply flat_map_forall; [apply cfi_new_ranges_wf|apply Forall_rev; assumption].
  - apply win_new_ranges_wf; [apply Forall_rev; assumption|apply acc_inv_nil].
  - apply win_new_ranges_wf; [apply Forall_rev; assumption|apply acc_inv_nil].
Qed.

Lemma finish_table_wf : forall p, pst_wf p -> exists t, finish p = Ret t /\ table_wf t.
Proof.
  intros p0 Hwf0. destruct (finish_parts p0 Hwf0) as (fl & wfd & wfpo & E1 & W1 & Wc & W2 & W3 & E). cbv zeta in *.
  destruct (close_cur_wf p0 Hwf0) as [(_ & Hf & _) _]. apply Forall_rev in Hf.
  eexists. split; [exact E|]. unfold table_wf; cbn [t_funcs t_cfi t_win_fd t_win_fpo].
  split; [exact (sorted_disjoint_p sfunc_eqb fl W1)|].
  split; [apply (safe_p_vals sfunc_eqb (fun f => map_wf (sf_lines f))); exact (finish_funcs_lines _ Hf fl E1)|].
  split; [exact (sorted_disjoint_p scfi_eqb _ Wc)|].
  split; [exact (sorted_disjoint_p wi_eqb wfd W2)|exact (sorted_disjoint_p wi_eqb wfpo W3)].
Qed.

(* any sequence of recognised / dropped lines, from the initial parser state *)
Lemma replay_table_wf : forall (ds : list (bool * rle)) p,
  replay rle pst recog_pst bump_pst lineno_pst init_pst ds = inl p ->
  Forall wf_range (finish_new_ranges p) /\ exists t, finish p = Ret t /\ table_wf t.
Proof.
  intros ds p H. destruct (replay_wf ds init_pst p init_pst_wf H) as [W _].
  split; [apply finish_new_ranges_ordered; assumption|apply finish_table_wf; assumption].
Qed.

Definition table_opt_wf (o : option table) : Prop := match o with Some t => table_wf t | None => True end.
Definition result_new_ranges (r : result pst) : list range :=
  match r with ROk p => finish_new_ranges p | RErr _ _ => [] end.

Lemma parse_table_wf : forall lines tail sch,
  exists r s t, drive_c lines tail sch = Ret (r, s) /\ table_of r = Ret t /\ table_opt_wf t /\
                Forall wf_range (result_new_ranges r).
Proof.
  intros lines tail sch. destruct (drive_c_result lines tail sch) as (r & s & H & W). exists r, s.
  destruct r as [p|c ln]; [|exists None; split; [exact H|]; split; [reflexivity|]; split; [exact I|constructor]].
  destruct (finish_table_wf p W) as [t [Ht Htw]]. exists (Some t). split; [exact H|]. cbn [table_of]. rewrite Ht.
  split; [reflexivity|]. split; [exact Htw|]. exact (finish_new_ranges_ordered p W).
Qed.
