(* C09/PinsLines.v — the line recognisers of Grammar.v are the interpretation of the descriptions
   translate/c09_lines.py reads off parser.rs (Gen/C09Lines.v): keyword of `terminated(tag(..), space1)`, position of `cut`,
   order and kind of the field parsers inside `tuple((..))`, order of the alternatives of `line()`. *)
From Coq Require Import ZArith List Bool.
From RM Require Import Base.Word C08.Model C11.Model C09.Grammar Gen.C09Lines.
Import ListNotations.
Open Scope Z_scope.

Inductive val := VNum (z : Z) | VStr (s : rle).

(* one field parser: the values it yields and the rest of the line (a field ending in my_eol ends the line) *)
Definition run_field (f : field) (s : rle) : option (list val * rle) :=
  match f with
  | FDecSp => match decsp s with Some (v, s') => Some ([VNum v], s') | None => None end
  | FHex64Sp => match hex64sp s with Some (v, s') => Some ([VNum v], s') | None => None end
  | FHex32Sp => match hex32sp s with Some (v, s') => Some ([VNum v], s') | None => None end
  | FOptM => Some ([], opt_m s)
  | FNameEol => match name_eol s with Some n => Some ([VStr n], []) | None => None end
  | FRawEol => if raw_eol s then Some ([], []) else None
  | FNonSpaceSp => match nonspace_sp s with Some s' => Some ([], s') | None => None end
  | FHexDigit1Sp => match hexdigit1_sp s with Some (d, s') => Some ([VStr d], s') | None => None end
  | FDecEol => match Grammar.decimal_u32 s with Some (v, s') => if eol s' then Some ([VNum v], []) else None | None => None end
  | FHex32 => match hex_str 8%nat s with Some (v, s') => Some ([VNum v], s') | None => None end
  end.

(* tuple((..)) *)
Fixpoint run_fields (fs : list field) (s : rle) : option (list val * rle) :=
  match fs with
  | [] => Some ([], s)
  | f :: t => match run_field f s with
              | Some (v1, s1) => match run_fields t s1 with Some (v2, s2) => Some (v1 ++ v2, s2) | None => None end
              | None => None
              end
  end.

(* [terminated(tag(kw), space1)(input)?;]  [cut](tuple(fields))(input) *)
Definition run_desc (d : line_desc) (s : rle) : pres (list val * rle) :=
  match (match ld_keyword d with Some kw => hdr kw s | None => Some s end) with
  | None => PErr
  | Some s1 => match run_fields (ld_fields d) s1 with
               | Some r => POk r
               | None => if ld_cut d then PFail else PErr
               end
  end.

(* After unfolding a description both sides of a pin are the same nest of matches on the same field parsers, the
   hand-written one with `let?`, the interpreted one with run_fields.  [crunch] walks down that nest: it destructs the
   innermost scrutinee that is not itself a match, and each leaf is closed by reflexivity or by a clash of constructors. *)
Ltac crunch :=
  repeat match goal with
         | |- context [match ?x with _ => _ end] =>
             match x with
             | context [match _ with _ => _ end] => fail 1
             | _ => destruct x eqn:?
             end
         end; cbn [app] in *; try reflexivity; try discriminate; try congruence.
(* the keyword constants of Grammar.v, to be compared with the literal lists of Gen/C09Lines.v *)
Ltac kws := unfold T_MODULE, T_INFO_URL, T_INFO, T_FILE, T_INLINE_ORIGIN, T_PUBLIC, T_FUNC, T_STACK_CFI, T_STACK_CFI_INIT.

Lemma pin_file s : p_file s = match run_desc file_line_desc s with
                              | POk ([VNum id; VStr n], _) => POk (IFile id n) | POk _ => PFail | PFail => PFail | PErr => PErr end.
Proof. unfold p_file, id_name, run_desc, file_line_desc, cutp. kws. cbn -[hdr decsp name_eol]. crunch. Qed.

Lemma pin_inline_origin s : p_inline_origin s = match run_desc inline_origin_line_desc s with
                              | POk ([VNum id; VStr n], _) => POk (IOrigin id n) | POk _ => PFail | PFail => PFail | PErr => PErr end.
Proof. unfold p_inline_origin, id_name, run_desc, inline_origin_line_desc, cutp. kws. cbn -[hdr decsp name_eol]. crunch. Qed.

Lemma pin_info_url s : p_info_url s = match run_desc info_url_desc s with
                              | POk ([VStr u], _) => POk (IUrl u) | POk _ => PFail | PFail => PFail | PErr => PErr end.
Proof. unfold p_info_url, run_desc, info_url_desc, cutp. kws. cbn -[hdr name_eol]. crunch. Qed.

Lemma pin_info s : p_info s = match run_desc info_line_desc s with
                              | POk ([], _) => POk IInfo | POk _ => PFail | PFail => PFail | PErr => PErr end.
Proof. unfold p_info, run_desc, info_line_desc, cutp, guard. kws. cbn -[hdr raw_eol]. crunch. Qed.

Lemma pin_public s : p_public s = match run_desc public_line_desc s with
                              | POk ([VNum a; VNum ps; VStr n], _) => POk (IPublic (mk_pubs a n ps)) | POk _ => PFail
                              | PFail => PFail | PErr => PErr end.
Proof. unfold p_public, run_desc, public_line_desc, cutp. kws. cbn -[hdr opt_m hex64sp hex32sp name_eol]. crunch. Qed.

Lemma pin_func s : p_func s = match run_desc func_line_desc s with
                              | POk ([VNum a; VNum sz; VNum ps; VStr n], _) => POk (IFunc (mk_fr a sz ps n [] [])) | POk _ => PFail
                              | PFail => PFail | PErr => PErr end.
Proof. unfold p_func, run_desc, func_line_desc, cutp. kws. cbn -[hdr opt_m hex64sp hex32sp name_eol]. crunch. Qed.

Lemma pin_stack_cfi_init s : p_stack_cfi_init s = match run_desc stack_cfi_init_desc s with
                              | POk ([VNum a; VNum sz; VStr r], _) => POk (ICfiInit (mk_cfi (mk_rule a r) sz [])) | POk _ => PFail
                              | PFail => PFail | PErr => PErr end.
Proof. unfold p_stack_cfi_init, run_desc, stack_cfi_init_desc, cutp. kws. cbn -[hdr hex64sp hex32sp name_eol]. crunch. Qed.

Lemma pin_module s : p_module s = match run_desc module_line_desc s with
                              | POk ([VStr id; VStr f], _) => POk (IModule id f) | POk _ => PFail | PFail => PFail | PErr => PErr end.
Proof. unfold p_module, run_desc, module_line_desc, cutp. kws. cbn -[hdr nonspace_sp hexdigit1_sp name_eol]. crunch. Qed.

(* sub-line parsers: any nom error sends the line to the top-level parser, so Error and Failure are both None *)
Lemma pin_stack_cfi s : sub_cfi s = match run_desc stack_cfi_desc s with
                              | POk ([VNum a; VStr r], _) => Some (mk_rule a r) | _ => None end.
Proof. unfold sub_cfi, run_desc, stack_cfi_desc. kws. cbn -[hdr hex64sp name_eol]. crunch. Qed.

Lemma pin_func_line_data s : sub_line_data s = match run_desc func_line_data_desc s with
                              | POk ([VNum a; VNum sz; VNum ln; VNum fl], _) => Some (mk_line a sz fl ln) | _ => None end.
Proof. unfold sub_line_data, run_desc, func_line_data_desc, guard. kws. cbn -[hex64sp hex32sp decsp Grammar.decimal_u32 eol]. crunch. Qed.

Lemma pin_addr_range s : addr_range s = match run_desc inline_address_range_desc s with
                              | POk ([VNum a; VNum sz], s') => Some (a, sz, s') | _ => None end.
Proof. unfold addr_range, run_desc, inline_address_range_desc. kws. cbn -[hex64sp hex_str]. crunch. Qed.

(* the alternatives of line(), in the order of the source *)
Definition parser_of (a : alt_parser) : rle -> pres item :=
  match a with
  | AInfoUrl => p_info_url | AInfoLine => p_info | AFileLine => p_file | AInlineOriginLine => p_inline_origin
  | APublicLine => p_public | AFuncLine => p_func | AStackWinLine => p_stack_win | AStackCfiInit => p_stack_cfi_init
  | AModuleLine => p_module
  end.
Lemma pin_line_order s : line_top s = alt (map parser_of line_alt_order) s.
Proof. reflexivity. Qed.
