(* C09/ProofsRecord6.v — INLINE sub-lines (separated_list1 of address ranges) as a declarative grammar
   over BYTES, both directions.
       inline ::= "INLINE" sp+ dec sp+ dec sp+ dec sp+ dec sp+ range (sp+ range)* cr*        range ::= hex{1,16} sp+ hex{1,8}
   (depth, call line, call file, origin; one Inlinee per range, in line order).  separated_list1 "gives back" a separator
   that is not followed by a range, so trailing spaces make the line invalid (my_eol does not accept them). *)
From Coq Require Import Lia ZArith List Bool.
From RM Require Import Base.Word C08.Model C11.Model C09.Grammar C09.PinsNum C09.ProofsText C09.ProofsRecord C09.ProofsRecord2.
Import ListNotations.
Open Scope Z_scope.

(* the parsers never lengthen the list of runs *)
Lemma uncons_length s b s' : uncons s = Some (b, s') -> (length s' <= length s)%nat.
Proof.
  destruct s as [|[x c] t]; cbn [uncons]; [discriminate|]. destruct (c <=? 1); intros H; inversion H; subst; cbn [length]; lia.
Qed.
Lemma digits_length val base n : forall s acc k v k' s', digits val base n s acc k = (v, k', s') -> (length s' <= length s)%nat.
Proof.
  induction n as [|n IH]; intros s acc k v k' s' H; cbn [digits] in H; [inversion H; subst; lia|].
  destruct (uncons s) as [[b s1]|] eqn:U; [|inversion H; subst; lia].
  destruct (val b); [|inversion H; subst; lia]. apply IH in H. apply uncons_length in U. lia.
Qed.
Lemma hex_str_length n s v s' : hex_str n s = Some (v, s') -> (length s' <= length s)%nat.
Proof.
  unfold hex_str. destruct (digits hexval 16 n s 0 0) as [[v0 k] s0] eqn:E. destruct (k =? 0); [discriminate|].
  intros H; inversion H; subst. eapply digits_length; eassumption.
Qed.
Lemma space1_length s s' : space1 s = Some s' -> (length s' < length s)%nat.
Proof.
  unfold space1. destruct s as [|[b c] t]; [discriminate|]. destruct (is_sp b) eqn:E; [|discriminate].
  intros H; inversion H. cbn [skip_while]. rewrite E. pose proof (skip_while_length is_sp t). cbn [length]. lia.
Qed.
Lemma osp_length {A} (o : option (A * rle)) (s : rle) (v : A) (s' : rle) : (forall v1 s1, o = Some (v1, s1) -> (length s1 <= length s)%nat) ->
  osp o = Some (v, s') -> (length s' < length s)%nat.
Proof.
  intros L. unfold osp. destruct o as [[v1 s1]|]; [|discriminate]. destruct (space1 s1) as [s2|] eqn:S; [|discriminate].
  intros H; inversion H; subst. apply space1_length in S. specialize (L _ _ eq_refl). lia.
Qed.
Lemma addr_range_length s a sz s' : addr_range s = Some (a, sz, s') -> (length s' < length s)%nat.
Proof.
  unfold addr_range. destruct (hex64sp s) as [[a0 s1]|] eqn:H1; [|discriminate].
  destruct (hex_str 8 s1) as [[z s2]|] eqn:H2; [|discriminate]. intros H; inversion H; subst.
  apply hex_str_length in H2. unfold hex64sp in H1. apply (osp_length _ s) in H1; [lia|]. intros; eapply hex_str_length; eassumption.
Qed.

(* (sp+ range)* *)
Inductive ranges_rel : list Z -> list (Z * Z) -> list Z -> Prop :=
| rr_nil r : ranges_rel r [] r
| rr_cons sp d1 sp1 d2 a sz l rs r :
    spaces sp -> hex_field 16 d1 a -> spaces sp1 -> hex_field 8 d2 sz -> starts (fun b => hexval b = None) l ->
    ranges_rel l rs r -> ranges_rel (sp ++ d1 ++ sp1 ++ d2 ++ l) ((a, sz) :: rs) r.

Lemma cr_starts_nonhex l : Forall (fun b => b = 13) l -> starts (fun b => hexval b = None) l.
Proof. intros H. destruct l as [|x t]; [exact I|]. inversion H; subst. reflexivity. Qed.
Lemma cr_starts_nonsp l : Forall (fun b => b = 13) l -> starts (fun b => ~ sp_byte b) l.
Proof. intros H. destruct l as [|x t]; [exact I|]. inversion H; subst. cbn. unfold sp_byte. lia. Qed.

Lemma more_ranges_sound : forall fuel s acc acc' s',
  more_ranges fuel s acc = (acc', s') -> eol s' = true -> (length s < fuel)%nat ->
  exists rs, acc' = rev rs ++ acc /\ ranges_rel (expand s) rs (expand s') /\ starts (fun b => hexval b = None) (expand s).
Proof.
  induction fuel as [|f IH]; intros s acc acc' s' H He Hl; [lia|]. cbn [more_ranges] in H.
  destruct (space1 s) as [s1|] eqn:S.
  - destruct (space1_sound s s1 S) as (sp & A & Nsp & Fsp & Dsp).
    assert (St : starts (fun b => hexval b = None) (expand s)).
    { rewrite A. destruct sp as [|x t]; [contradiction|]. cbn. inversion Fsp; subst. apply sp_not_hex. assumption. }
    destruct (addr_range s1) as [[[a sz] s2]|] eqn:R.
    + pose proof (space1_length _ _ S). pose proof (addr_range_length _ _ _ _ R).
      destruct (IH s2 ((a, sz) :: acc) acc' s' H He ltac:(lia)) as (rs & E1 & E2 & E3).
      unfold addr_range in R. destruct (hex64sp s1) as [[a0 s1']|] eqn:Hx1; [|discriminate].
      destruct (hex_str 8 s1') as [[z s2']|] eqn:Hx2; [|discriminate]. inversion R; subst a0 z s2'. clear R.
      destruct (hexsp_sound _ _ _ _ Hx1) as (d1 & sp1 & A1 & B1 & C1 & D1).
      destruct (hex_sound _ _ _ _ Hx2) as (d2 & A2 & B2 & _).
      exists ((a, sz) :: rs). split; [rewrite E1; cbn [rev]; rewrite <- app_assoc; reflexivity|]. split; [|exact St].
      rewrite A, A1, A2. apply rr_cons; try assumption. split; assumption.
    + inversion H; subst. exfalso. apply eol_bytes in He. rewrite A in He. destruct sp as [|x t]; [contradiction|].
      cbn [app] in He. inversion He as [|? ? Hx Hy]. inversion Fsp as [|? ? Hs Hs2]. unfold sp_byte in Hs. cbv beta in Hx. lia.
  - inversion H; subst. exists []. split; [reflexivity|]. split; [constructor|].
    apply cr_starts_nonhex. apply eol_bytes. exact He.
Qed.

Lemma more_ranges_complete : forall l rs r, ranges_rel l rs r -> Forall (fun b => b = 13) r ->
  forall fuel s acc, expand s = l -> (length s < fuel)%nat ->
  exists s', more_ranges fuel s acc = (rev rs ++ acc, s') /\ expand s' = r.
Proof.
  induction 1 as [r|sp d1 sp1 d2 a sz l rs r Ssp F1 S1 F2 Sl Hr IH]; intros Hc fuel s acc E Hl.
  - destruct fuel as [|f]; [lia|]. cbn [more_ranges].
    destruct (space1 s) as [s1|] eqn:S.
    + exfalso. destruct (space1_sound s s1 S) as (sp & A & Nsp & Fsp & _). subst r. rewrite A in Hc.
      destruct sp as [|x t]; [contradiction|]. cbn [app] in Hc. inversion Hc as [|? ? Hx Hy]. inversion Fsp as [|? ? Hs Hs2].
      unfold sp_byte in Hs. cbv beta in Hx. lia.
    + exists s. split; [reflexivity|exact E].
  - destruct fuel as [|f]; [lia|]. cbn [more_ranges]. destruct Ssp as (Nsp & Fsp).
    destruct (space1_complete s sp _ E Nsp Fsp (hex_starts_nonsp _ F1)) as (s1 & S & X1). rewrite S.
    destruct (hexsp_complete X1 F1 S1 (hex_starts_nonsp _ F2)) as (s2 & H1 & X2).
    destruct (hex_complete X2 F2 Sl) as (s3 & H2 & X3).
    assert (R : addr_range s1 = Some (a, sz, s3)) by (unfold addr_range, hex64sp; rewrite H1, H2; reflexivity).
    rewrite R. pose proof (space1_length _ _ S). pose proof (addr_range_length _ _ _ _ R).
    destruct (IH Hc f s3 ((a, sz) :: acc) X3 ltac:(lia)) as (s' & M & Y).
    exists s'. split; [|exact Y]. rewrite M. cbn [rev]. rewrite <- app_assoc. reflexivity.
Qed.

(* INLINE <depth> <call line> <call file> <origin> <range>+ *)
Definition inline_line (l : list Z) (depth cline cfile origin : Z) (rs : list (Z * Z)) : Prop :=
  exists sp0 c1 p1 c2 p2 c3 p3 c4 p4 d1 sp1 d2 a sz tl rest crs,
    l = T_INLINE ++ sp0 ++ c1 ++ p1 ++ c2 ++ p2 ++ c3 ++ p3 ++ c4 ++ p4 ++ d1 ++ sp1 ++ d2 ++ tl /\
    spaces sp0 /\ dec_field c1 depth /\ spaces p1 /\ dec_field c2 cline /\ spaces p2 /\ dec_field c3 cfile /\ spaces p3 /\
    dec_field c4 origin /\ spaces p4 /\ hex_field 16 d1 a /\ spaces sp1 /\ hex_field 8 d2 sz /\
    starts (fun b => hexval b = None) tl /\ ranges_rel tl rest crs /\ Forall (fun b => b = 13) crs /\ rs = (a, sz) :: rest.

Definition inlinees (depth cline cfile origin : Z) (rs : list (Z * Z)) : list inl_rec :=
  map (fun r => mk_inl depth (fst r) (snd r) cfile cline origin) rs.

Lemma inline_sound s x : sub_inline s = Some x ->
  exists depth cline cfile origin rs, x = inlinees depth cline cfile origin rs /\ inline_line (expand s) depth cline cfile origin rs.
Proof.
  intros H. apply hdr_bind in H. destruct H as (s0 & sp0 & A0 & B0 & _ & H).
  apply decsp_bind in H. destruct H as (depth & s1 & c1 & p1 & A1 & B1 & C1 & _ & H).
  apply decsp_bind in H. destruct H as (cline & s2 & c2 & p2 & A2 & B2 & C2 & _ & H).
  apply decsp_bind in H. destruct H as (cfile & s3 & c3 & p3 & A3 & B3 & C3 & _ & H).
  apply decsp_bind in H. destruct H as (origin & s4 & c4 & p4 & A4 & B4 & C4 & _ & H).
  unfold addr_range in H. destruct (hex64sp s4) as [[a s4']|] eqn:H5; [|discriminate].
  destruct (hex_str 8 s4') as [[sz s5]|] eqn:H6; [|discriminate].
  destruct (more_ranges (S (length s5)) s5 [(a, sz)]) as [racc s6] eqn:M. unfold guard in H.
  destruct (eol s6) eqn:He; inversion H.
  destruct (hexsp_sound _ _ _ _ H5) as (d1 & sp1 & A5 & B5 & C5 & _).
  destruct (hex_sound _ _ _ _ H6) as (d2 & A6 & B6 & _).
  destruct (more_ranges_sound _ _ _ _ _ M He ltac:(lia)) as (rest & E1 & E2 & E3).
  exists depth, cline, cfile, origin, ((a, sz) :: rest). split.
  { unfold inlinees. f_equal. rewrite E1, rev_app_distr, rev_involutive. reflexivity. }
  exists sp0, c1, p1, c2, p2, c3, p3, c4, p4, d1, sp1, d2, a, sz, (expand s5), rest, (expand s6).
  rewrite A0, A1, A2, A3, A4, A5, A6. apply eol_bytes in He. auto 20.
Qed.

Lemma inline_complete s depth cline cfile origin rs : inline_line (expand s) depth cline cfile origin rs ->
  sub_inline s = Some (inlinees depth cline cfile origin rs).
Proof.
  intros (sp0 & c1 & p1 & c2 & p2 & c3 & p3 & c4 & p4 & d1 & sp1 & d2 & a & sz & tl & rest & crs &
          E & S0 & F1 & P1 & F2 & P2 & F3 & P3 & F4 & P4 & G1 & Q1 & G2 & St & Hr & Hc & ->).
  destruct (hdr_complete E S0 (dec_starts_nonsp _ F1)) as (s0 & H0 & X0).
  destruct (decsp_field_complete X0 F1 P1 (dec_starts_nonsp _ F2)) as (s1 & H1 & X1).
  destruct (decsp_field_complete X1 F2 P2 (dec_starts_nonsp _ F3)) as (s2 & H2 & X2).
  destruct (decsp_field_complete X2 F3 P3 (dec_starts_nonsp _ F4)) as (s3 & H3 & X3).
  destruct (decsp_field_complete X3 F4 P4 (hex_starts_nonsp _ G1)) as (s4 & H4 & X4).
  destruct (hexsp_complete X4 G1 Q1 (hex_starts_nonsp _ G2)) as (s4' & H5 & X5).
  destruct (hex_complete X5 G2 St) as (s5 & H6 & X6).
  destruct (more_ranges_complete _ _ _ Hr Hc (S (length s5)) s5 [(a, sz)] X6 ltac:(lia)) as (s6 & M & X7).
  assert (He : eol s6 = true) by (apply eol_bytes; rewrite X7; exact Hc).
  unfold sub_inline, addr_range, hex64sp, guard. rewrite H0, H1, H2, H3, H4, H5, H6, M, He.
  unfold inlinees. rewrite rev_app_distr, rev_involutive. reflexivity.
Qed.

(* "INLINE 0 3 1 2 1000 10 2000 4\r" has the shape: depth 0, call line 3, call file 1, origin 2, ranges (0x1000, 0x10) (0x2000, 4) *)
Lemma inline_line_example :
  inline_line (expand (to_rle [73; 78; 76; 73; 78; 69; 32; 48; 32; 51; 32; 49; 32; 50; 32; 49; 48; 48; 48; 32; 49; 48; 32; 50; 48; 48; 48; 32; 52; 13]))
              0 3 1 2 [(4096, 16); (8192, 4)].
Proof.
  destruct (inline_sound (to_rle [73; 78; 76; 73; 78; 69; 32; 48; 32; 51; 32; 49; 32; 50; 32; 49; 48; 48; 48; 32; 49; 48; 32; 50; 48; 48; 48; 32; 52; 13])
                         (inlinees 0 3 1 2 [(4096, 16); (8192, 4)]))
    as (depth & cline & cfile & origin & rs & E & Hl); [vm_compute; reflexivity|].
  destruct rs as [|[a1 z1] [|[a2 z2] [|? ?]]]; cbn in E; try discriminate. inversion E; subst. exact Hl.
Qed.
