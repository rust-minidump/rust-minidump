(* C09/Pins.v — the hand-written model of C09/Model.v against what translate/symfile_loop.py extracts from the
   source (coq/Gen/SymFileLoop.v, regenerated on every run): the capacity constants, every condition and every
   flag assignment of the loops of SymbolFile::parse and SymbolFile::parse_async, and the index arithmetic of
   circular::Buffer.  The statement skeleton (order of callback / consume / total_consumed, slices, messages) is
   matched by the translator itself, which aborts when it changes.  Here: the model's functions, rebuilt from the
   extracted conditions, are the model's functions.  A change of a condition in the source changes the generated
   file and breaks these lemmas. *)
From Coq Require Import ZArith List Bool.
From RM Require Import Base.Word C09.Model.
From RM Require Gen.SymFileLoop.
Import ListNotations.
Open Scope Z_scope.
Module G := RM.Gen.SymFileLoop.

(* circular::Buffer from the extracted pieces *)
Definition shift_src (b : cbuf) : cbuf :=
  if G.circ_shift_cond (b_pos b) then mkbuf 0 (b_end b - b_pos b) (b_cap b) else b.
Definition consume_src (b : cbuf) (count : Z) : cbuf :=
  let cnt := G.circ_consume_cnt count (avail b) in
  let b1 := mkbuf (b_pos b + cnt) (b_end b) (b_cap b) in
  if G.circ_consume_shift (b_pos b1) (b_cap b1) then shift_src b1 else b1.
Definition fill_src (b : cbuf) (count : Z) : cbuf :=
  let cnt := G.circ_fill_cnt count (space b) in
  let b1 := mkbuf (b_pos b) (b_end b + cnt) (b_cap b) in
  if G.circ_fill_shift (space b1) (avail b1) cnt then shift_src b1 else b1.
Definition grow_src (b : cbuf) (n : Z) : cbuf :=
  if G.circ_grow_noop (b_cap b) n then b else mkbuf (b_pos b) (b_end b) n.

(* the conditions of one loop (parse or parse_async) *)
Record conds := mk_conds {
  k_fc_rec : G.obs -> bool; k_fc_disc : G.obs -> bool; k_bfull : G.obs -> bool; k_resume : G.obs -> bool;
  k_ok : G.obs -> bool; k_grow : G.obs -> bool; k_factor : G.obs -> Z; k_recover : G.obs -> bool;
  k_empty : G.obs -> bool; k_tg_read : G.obs -> bool; k_jf_parse : G.obs -> bool; k_fc_parse : G.obs -> bool }.
Definition sync_conds : conds :=
  mk_conds G.sync_fc_rec G.sync_fc_disc G.sync_bfull G.sync_c_resume G.sync_c_ok G.sync_c_grow G.sync_factor
           G.sync_c_recover G.sync_c_empty G.sync_tg_read G.sync_jf_parse G.sync_fc_parse.
Definition async_conds : conds :=
  mk_conds G.async_fc_rec G.async_fc_disc G.async_bfull G.async_c_resume G.async_c_ok G.async_c_grow G.async_factor
           G.async_c_recover G.async_c_empty G.async_tg_read G.async_jf_parse G.async_fc_parse.

Section Pins.
  Variable L : Type.
  Variable llen : L -> Z.
  Variable PS : Type.
  Variable recog : PS -> L -> PS + Z.
  Variable bump : PS -> PS.
  Variable lineno : PS -> Z.
  Variable k : conds.

  Definition obs_of (s : st L PS) (b : cbuf) (bfull : bool) (tot newcap len consumed : Z) : G.obs :=
    G.mk_obs (jf s) (fc s) (tg s) (pr s) bfull (avail b) (space b) (b_cap b) tot newcap len consumed.

  Definition recovery_src (s : st L PS) : st L PS :=
    match first_nl L llen PS s, rest s with
    | Some idx, l :: t =>
        let amount := idx + 1 in
        let b' := consume_src (buf s) amount in
        mkst b' (k_fc_rec k (obs_of s b' false (total s + amount) 0 0 0)) (tg s) false true (total s + amount)
             (bump (ps s)) t 0 (unread s) (sched s) (ncb s + 1) (cbsum s + amount) (nrd s) (maxsp s) ((true, l) :: log s)
    | _, _ =>
        let amount := avail (buf s) in
        let b' := consume_src (buf s) amount in
        mkst b' (k_fc_disc k (obs_of s b' false (total s + amount) 0 0 0)) (tg s) (pr s) (jf s) (total s + amount)
             (ps s) (rest s) (off s + amount) (unread s) (sched s) (ncb s + 1) (cbsum s + amount) (nrd s) (maxsp s) (log s)
    end.

  Definition parse_phase_src (s : st L PS) : stepres L PS :=
    if pr s then Next s else
    if negb (geom_ok (buf s)) then StPanic 2 else
    if negb (off s =? 0) then StPanic 99
    else
      let len := avail (buf s) in
      match pm L llen PS recog lineno len (ps s) (rest s) 0 (log s) with
      | inr (c, ln) => Done (RErr c ln) s
      | inl (p', rest', consumed, lg') =>
          let o := obs_of s (buf s) false (total s + consumed) 0 len consumed in
          Next (mkst (consume_src (buf s) consumed) (k_fc_parse k o) (tg s) false (k_jf_parse k o)
                     (total s + consumed) p' rest' 0 (unread s) (sched s)
                     (ncb s + 1) (cbsum s + consumed) (nrd s) (maxsp s) lg')
      end.

  Definition step_after_read_src (n : Z) (sch' : list Z) (sp : Z) (s1 : st L PS) : stepres L PS :=
    let b := buf s1 in
    let buffer_full := k_bfull k (G.mk_obs (jf s1) (fc s1) (tg s1) (pr s1) false (avail b) sp (b_cap b) (total s1) 0 0 0) in
    let b2 := fill_src b n in
    let s2 := mkst b2 (fc s1) (tg s1) (pr s1) (jf s1) (total s1) (ps s1) (rest s1) (off s1)
                   (unread s1 - n) sch' (ncb s1) (cbsum s1) (nrd s1 + 1) (Z.max (maxsp s1) sp) (log s1) in
    let o2 := obs_of s2 b2 buffer_full (total s2) 0 0 0 in
    if n =? 0 then
      if k_resume k o2 then parse_phase_src s2
      else if k_ok k o2 then Done (ROk (ps s2)) s2
      else if k_grow k o2 then
        let new_cap := Z.min (b_cap b2 * k_factor k o2) U64MAX in        (* saturating_mul *)
        if k_recover k (obs_of s2 b2 buffer_full (total s2) new_cap 0 0) then Next (set_pr L PS s2 true)
        else Next (set_buf_tg L PS s2 (grow_src b2 new_cap) true)
      else if k_empty k o2 then Done (RErr 3 0) s2
      else Done (RErr 4 (lineno (ps s2))) s2
    else parse_phase_src (set_tg L PS s2 (k_tg_read k o2)).
End Pins.

Lemma pin_constants :
  INITIAL_CAP = G.INITIAL_BUFFER_CAPACITY /\ MAX_CAP = G.MAX_BUFFER_CAPACITY /\ HALF_CAP = G.MAX_BUFFER_CAPACITY / 2.
Proof. repeat split; reflexivity. Qed.

Lemma pin_circular : forall b n,
  consume b n = consume_src b n /\ fill b n = fill_src b n /\ grow b n = grow_src b n /\ shift b = shift_src b.
Proof. intros; repeat split; reflexivity. Qed.

Lemma pin_recovery : forall L llen PS bump s,
  recovery L llen PS bump s = recovery_src L llen PS bump sync_conds s /\
  recovery L llen PS bump s = recovery_src L llen PS bump async_conds s.
Proof.
  intros. unfold recovery, recovery_src, discard_all.
  destruct (first_nl L llen PS s); destruct (rest s); split; reflexivity.
Qed.

Lemma pin_parse_phase : forall L llen PS recog lineno s,
  parse_phase L llen PS recog lineno s = parse_phase_src L llen PS recog lineno sync_conds s /\
  parse_phase L llen PS recog lineno s = parse_phase_src L llen PS recog lineno async_conds s.
Proof.
  intros. unfold parse_phase, parse_phase_src.
  destruct (pr s); [split; reflexivity|]. destruct (negb (geom_ok (buf s))); [split; reflexivity|].
  destruct (negb (off s =? 0)); [split; reflexivity|].
  destruct (pm L llen PS recog lineno (avail (buf s)) (ps s) (rest s) 0 (log s)) as [[[[p' r'] c] lg]|[c ln]]; split; reflexivity.
Qed.

Lemma pin_step_after_read : forall L llen PS recog lineno n sch' sp s1,
  step_after_read L llen PS recog lineno n sch' sp s1 = step_after_read_src L llen PS recog lineno sync_conds n sch' sp s1 /\
  step_after_read L llen PS recog lineno n sch' sp s1 = step_after_read_src L llen PS recog lineno async_conds n sch' sp s1.
Proof.
  intros. unfold step_after_read, step_after_read_src.
  (* the conditions are applied to explicit records: evaluating them (and nothing else) leaves the same text on both sides *)
  split;
    cbv [sync_conds async_conds obs_of k_bfull k_resume k_ok k_grow k_factor k_recover k_empty k_tg_read
         G.sync_bfull G.sync_c_resume G.sync_c_ok G.sync_c_grow G.sync_factor G.sync_c_recover G.sync_c_empty G.sync_tg_read
         G.async_bfull G.async_c_resume G.async_c_ok G.async_c_grow G.async_factor G.async_c_recover G.async_c_empty
         G.async_tg_read G.ob_jf G.ob_fc G.ob_tg G.ob_bfull G.ob_avail G.ob_space G.ob_total G.ob_newcap];
    [rewrite <- !(proj1 (pin_parse_phase L llen PS recog lineno _))|rewrite <- !(proj2 (pin_parse_phase L llen PS recog lineno _))];
    reflexivity.
Qed.

(* one iteration of `loop { .. }` of parse and of parse_async, assembled from the extracted conditions *)
Section Steps.
  Variable L : Type.
  Variable llen : L -> Z.
  Variable PS : Type.
  Variable recog : PS -> L -> PS + Z.
  Variable bump : PS -> PS.
  Variable lineno : PS -> Z.

  Definition step_src (s0 : st L PS) : stepres L PS :=
    if pr s0 && negb (geom_ok (buf s0)) then StPanic 2 else
    let s1 := if pr s0 then recovery_src L llen PS bump sync_conds s0 else s0 in
    let b := buf s1 in
    if negb (geom_ok b) then StPanic 1 else
    let sp := space b in
    let '(n, sch') := read_n L PS sp s1 in
    step_after_read_src L llen PS recog lineno sync_conds n sch' sp s1.

  Definition step_async_src (s0 : st L PS) : stepres L PS :=
    if pr s0 && negb (geom_ok (buf s0)) then StPanic 2 else
    let s1 := if pr s0 then recovery_src L llen PS bump async_conds s0 else s0 in
    let b := buf s1 in
    if negb (geom_ok b) then StPanic 1 else
    let sp := space b in
    let '(n, sch') := read_async L PS sp s1 in
    step_after_read_src L llen PS recog lineno async_conds n sch' sp s1.
End Steps.

Lemma pin_step : forall L llen PS recog bump lineno s,
  step L llen PS recog bump lineno s = step_src L llen PS recog bump lineno s /\
  step_async L llen PS recog bump lineno s = step_async_src L llen PS recog bump lineno s.
Proof.
  intros. unfold step, step_src, step_rest, step_async, step_async_src, step_rest_async.
  destruct (pin_recovery L llen PS bump s) as [R1 R2]. rewrite <- R1, <- R2.
  split.
  - destruct (pr s && negb (geom_ok (buf s))); [reflexivity|].
    set (s1 := if pr s then recovery L llen PS bump s else s).
    destruct (negb (geom_ok (buf s1))); [reflexivity|].
    destruct (read_n L PS (space (buf s1)) s1) as [n sch']. apply pin_step_after_read.
  - destruct (pr s && negb (geom_ok (buf s))); [reflexivity|].
    set (s1 := if pr s then recovery L llen PS bump s else s).
    destruct (negb (geom_ok (buf s1))); [reflexivity|].
    destruct (read_async L PS (space (buf s1)) s1) as [n sch']. apply pin_step_after_read.
Qed.

Lemma pin_init : forall L llen PS init_ps lines tail sch,
  buf (init_st L llen PS init_ps lines tail sch) = mkbuf 0 0 G.INITIAL_BUFFER_CAPACITY.
Proof. reflexivity. Qed.
