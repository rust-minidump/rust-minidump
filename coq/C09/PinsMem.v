(* C09/PinsMem.v — the byte-level Buffer operations of C09/Circular.v against the operands that
   translate/c09_circular_mem.py extracts from the source of the pinned circular crate (coq/Gen/C09CircMem.v,
   regenerated on every run) and the conditions translate/symfile_loop.py extracts (coq/Gen/SymFileLoop.v).
   The operations are rebuilt from generic memory primitives (Vec of a repeated value, slice, ptr::copy = memmove,
   Vec::resize) applied to the extracted operands, and proved equal to the hand-written ones.  A changed operand in
   the source changes the generated file and breaks these lemmas; a changed statement makes the translator abort. *)
From Coq Require Import ZArith List Bool Lia.
From RM Require Import Base.Word C09.Model C09.Circular.
From RM Require Gen.C09CircMem Gen.SymFileLoop.
Import ListNotations.
Open Scope Z_scope.
Module M := RM.Gen.C09CircMem.
Module G := RM.Gen.SymFileLoop.

(* the value of an operand in a buffer state; [arg] is the function's parameter (capacity / new_size) *)
Definition fieldv (b : bbuf) (arg : Z) (o : M.operand) : Z :=
  match o with
  | M.OpPosition => m_pos b
  | M.OpEnd => m_end b
  | M.OpCapacity => m_cap b
  | M.OpArg => arg
  | M.OpLit z => z
  | M.OpLength => 0
  end.
(* shift(): `let length = <a> - <b>` *)
Definition opv (b : bbuf) (arg : Z) (o : M.operand) : Z :=
  match o with
  | M.OpLength => fieldv b arg M.sh_length_a - fieldv b arg M.sh_length_b
  | _ => fieldv b arg o
  end.

(* generic memory primitives *)
Definition vec_repeat (v n : Z) : list Z := repeat v (Z.to_nat n).
(* ptr::copy(&m[src_lo..], &mut m[dst_lo..], count): memmove *)
Definition copy_within (m : list Z) (src_lo dst_lo count : Z) : list Z :=
  zfirstn dst_lo m ++ zslice m src_lo (src_lo + count) ++ zskipn (dst_lo + count) m.
(* Vec::resize(len, v) *)
Definition vec_resize (m : list Z) (len v : Z) : list Z :=
  if len <=? zlength m then zfirstn len m else m ++ vec_repeat v (len - zlength m).

Definition with_capacity_src (c : Z) : bbuf :=
  let z := mkbb [] 0 0 0 in
  mkbb (vec_repeat (opv z c M.init_fill) (opv z c M.init_len)) (opv z c M.init_pos) (opv z c M.init_end) (opv z c M.init_cap).
Definition bdata_src (b : bbuf) : list Z := zslice (m_mem b) (opv b 0 M.data_lo) (opv b 0 M.data_hi).
Definition bspace_slice_src (b : bbuf) : list Z := zslice (m_mem b) (opv b 0 M.space_lo) (opv b 0 M.space_hi).
Definition bshift_src (b : bbuf) : bbuf :=
  if G.circ_shift_cond (m_pos b) then
    mkbb (copy_within (m_mem b) (opv b 0 M.sh_src_lo) 0 (opv b 0 M.sh_count)) (opv b 0 M.sh_new_pos) (opv b 0 M.sh_new_end) (m_cap b)
  else b.
Definition bconsume_src (b : bbuf) (count : Z) : bbuf :=
  let cnt := G.circ_consume_cnt count (bavail b) in
  let b1 := mkbb (m_mem b) (m_pos b + cnt) (m_end b) (m_cap b) in
  if G.circ_consume_shift (m_pos b1) (m_cap b1) then bshift_src b1 else b1.
Definition bfill_src (b : bbuf) (count : Z) : bbuf :=
  let cnt := G.circ_fill_cnt count (bspace b) in
  let b1 := mkbb (m_mem b) (m_pos b) (m_end b + cnt) (m_cap b) in
  if G.circ_fill_shift (bspace b1) (bavail b1) cnt then bshift_src b1 else b1.
Definition bgrow_src (b : bbuf) (n : Z) : bbuf :=
  if G.circ_grow_noop (m_cap b) n then b
  else mkbb (vec_resize (m_mem b) (opv b n M.gr_len) (opv b n M.gr_fill)) (m_pos b) (m_end b) (opv b n M.gr_cap).

Lemma pin_with_capacity : forall c, with_capacity_src c = with_capacity c.
Proof. reflexivity. Qed.

Lemma pin_slices : forall b, bdata_src b = bdata b /\ bspace_slice_src b = bspace_slice b.
Proof. intros. split; reflexivity. Qed.

(* the two slices handed to ptr::copy have exactly [count] elements: source memory[position..end], destination memory[..length] *)
Lemma pin_shift_slices : forall b,
  opv b 0 M.sh_src_hi - opv b 0 M.sh_src_lo = opv b 0 M.sh_count /\ opv b 0 M.sh_dst_hi = opv b 0 M.sh_count.
Proof. intros. cbn. split; reflexivity. Qed.

Lemma pin_shift : forall b, bshift_src b = bshift b.
Proof.
  intros [m p e c]. unfold bshift_src, bshift, G.circ_shift_cond. cbn [m_mem m_pos m_end m_cap].
  destruct (0 <? p); [|reflexivity].
  unfold copy_within, bdata, zslice. cbn [opv fieldv M.sh_src_lo M.sh_count M.sh_new_pos M.sh_new_end M.sh_length_a M.sh_length_b
                                          m_mem m_pos m_end m_cap].
  replace (p + (e - p) - p) with (e - p) by lia. replace (0 + (e - p)) with (e - p) by lia. reflexivity.
Qed.

Lemma pin_consume : forall b k, bconsume_src b k = bconsume b k.
Proof.
  intros. unfold bconsume_src, bconsume, G.circ_consume_cnt, G.circ_consume_shift. cbv zeta. rewrite pin_shift. reflexivity.
Qed.

Lemma pin_fill : forall b k, bfill_src b k = bfill b k.
Proof.
  intros. unfold bfill_src, bfill, G.circ_fill_cnt, G.circ_fill_shift. cbv zeta. rewrite pin_shift. reflexivity.
Qed.

Lemma pin_grow : forall b n, zlength (m_mem b) = m_cap b -> bgrow_src b n = bgrow b n.
Proof.
  intros [m p e c] n H. cbn [m_mem m_cap] in H. unfold bgrow_src, bgrow, G.circ_grow_noop. cbn [m_mem m_pos m_end m_cap].
  destruct (n <=? c) eqn:E; [reflexivity|].
  unfold vec_resize. cbn [opv fieldv M.gr_len M.gr_fill M.gr_cap]. rewrite H, E. reflexivity.
Qed.

(* parse_more: what it keeps of data() *)
(* input.iter().rposition(|&x| x == b'\n'), counting from [i] *)
Fixpoint rposition_nl (d : list Z) (i : Z) : option Z :=
  match d with
  | [] => None
  | c :: t => match rposition_nl t (i + 1) with
              | Some j => Some j
              | None => if c =? 10 then Some i else None
              end
  end.

Definition search_nl (k : M.nl_search) (d : list Z) : option Z :=
  match k with M.FirstNewline => position_nl d 0 | M.LastNewline => rposition_nl d 0 end.

(* `if let Some(idx) = <search> { &input[..idx + <add>] } else { return Ok(<none>) }`: the slice parse_more goes on with, and
   (all its lines parsed) the number it returns *)
Definition trim_src (d : list Z) : list Z :=
  match search_nl M.pm_trim_search d with
  | Some idx => zfirstn (idx + M.pm_trim_add) d
  | None => zfirstn M.pm_no_newline_result d
  end.

Lemma rposition_trim : forall d i,
  match rposition_nl d i with
  | Some j => i <= j /\ trim_nl d = zfirstn (j - i + 1) d
  | None => trim_nl d = []
  end.
Proof.
  induction d as [|c t IH]; intros i; cbn [rposition_nl trim_nl]; [reflexivity|].
  specialize (IH (i + 1)). destruct (rposition_nl t (i + 1)) as [j|] eqn:E.
  - destruct IH as [Hj Ht]. split; [lia|].
    destruct t as [|y t']; [cbn [rposition_nl] in E; discriminate E|].
    rewrite Ht. unfold zfirstn.
    replace (Z.to_nat (j - i + 1)) with (S (Z.to_nat (j - (i + 1) + 1))) by lia.
    replace (Z.to_nat (j - (i + 1) + 1)) with (S (Z.to_nat (j - (i + 1)))) by lia.
    reflexivity.
  - rewrite IH. destruct (c =? 10).
    + split; [lia|]. replace (i - i + 1) with 1 by lia. reflexivity.
    + reflexivity.
Qed.

Lemma pin_trim : forall d, trim_src d = trim_nl d.
Proof.
  intros d. unfold trim_src, search_nl, M.pm_trim_search, M.pm_trim_add, M.pm_no_newline_result.
  pose proof (rposition_trim d 0) as H. destruct (rposition_nl d 0) as [j|].
  - destruct H as [_ H]. rewrite H. f_equal. lia.
  - rewrite H. reflexivity.
Qed.
