(* C09/ProofsFinal.v — the whole parse (loop + SymbolParser::finish) never panics; the u64 counters
   total_consumed and parser.lines are bounded by the input. *)
From Coq Require Import Lia ZArith List Bool.
From RM Require Import Base.Word C08.Model C11.Model C09.Model C09.Grammar C09.Driver C09.Proofs C09.ProofsBytes C09.ProofsFinish.
Import ListNotations.
Open Scope Z_scope.

(* every parser state the loop can end in is well formed: it is the replay of a list of decisions *)
Lemma final_pst_wf : forall lines tail sch r s,
  drive_c lines tail sch = Ret (r, s) ->
  pst_wf (ps s) /\ 0 <= p_lines (ps s) <= Z.of_nat (length lines).
Proof.
  intros lines tail sch r s H. unfold drive_c in H.
  destruct (drive_shape rle cllen pst init_pst recog_pst bump_pst lineno_pst cllen_pos lines tail sch r s H)
    as [ds [_ [Hl [Hr _]]]].
  destruct (replay_wf ds init_pst (ps s) init_pst_wf Hr) as [W N].
  split; [exact W|]. rewrite N. cbn [init_pst p_lines].
  rewrite Hl, app_length, map_length. lia.
Qed.

(* every run returns, and an Ok result carries a well-formed parser state *)
Lemma drive_c_result : forall lines tail sch,
  exists r s, drive_c lines tail sch = Ret (r, s) /\ match r with ROk p => pst_wf p | RErr _ _ => True end.
Proof.
  intros lines tail sch.
  destruct (drive_fin rle cllen pst init_pst recog_pst bump_pst lineno_pst cllen_pos lines tail sch) as [r [s [H _]]].
  fold (drive_c lines tail sch) in H. exists r, s. split; [exact H|]. destruct r as [p|c ln]; [|exact I].
  destruct (drive_shape rle cllen pst init_pst recog_pst bump_pst lineno_pst cllen_pos lines tail sch (ROk p) s H)
    as [ds [_ [_ [_ [-> _]]]]].
  exact (proj1 (final_pst_wf lines tail sch _ s H)).
Qed.

Lemma parse_total : forall lines tail sch,
  exists r s t, drive_c lines tail sch = Ret (r, s) /\ table_of r = Ret t.
Proof.
  intros lines tail sch. destruct (drive_c_result lines tail sch) as (r & s & H & W). exists r, s.
  destruct r as [p|c ln]; [|exists None; split; [exact H|reflexivity]].
  destruct (finish_total p W) as [t Ht]. exists (Some t). split; [exact H|]. cbn [table_of]. rewrite Ht. reflexivity.
Qed.

(* total_consumed and parser.lines at every loop head and at the end *)
Lemma counters_reach : forall lines tail sch p s,
  iter_pos rle cllen pst recog_pst bump_pst lineno_pst p (init_st rle cllen pst init_pst lines tail sch) = Next s ->
  0 <= total s <= input_len rle cllen lines tail /\ 0 <= p_lines (ps s) <= Z.of_nat (length lines).
Proof.
  intros lines tail sch p s H.
  pose proof (reach_wf' rle cllen pst init_pst recog_pst bump_pst lineno_pst cllen_pos lines tail sch p s H) as W.
  destruct W as [M _ _ _].
  destruct M as [wf_geom0 _ _ wf_off0 _ wf_sum0 wf_unread0 _ _ _ _ _ wf_total0 _ wf_lines0 wf_replay0 _].
  pose proof (size_ge0 rle cllen cllen_pos (map snd (rev (log s)))).
  destruct wf_geom0 as [? [? ?]]. destruct wf_off0 as [? _]. unfold avail in *.
  split; [lia|].
  destruct (replay_wf (rev (log s)) init_pst (ps s) init_pst_wf wf_replay0) as [_ N].
  rewrite N. cbn [init_pst p_lines].
  assert (E : length lines = (length (rev (log s)) + length (rest s))%nat).
  { rewrite wf_lines0 at 1. rewrite app_length, map_length. reflexivity. }
  rewrite E. lia.
Qed.

Lemma counters_final : forall lines tail sch r s,
  drive_c lines tail sch = Ret (r, s) ->
  0 <= total s <= input_len rle cllen lines tail /\ 0 <= p_lines (ps s) <= Z.of_nat (length lines) /\
  cbsum s = total s.
Proof.
  intros lines tail sch r s H.
  destruct (drive_callback rle cllen pst init_pst recog_pst bump_pst lineno_pst cllen_pos lines tail sch r s H) as [C [T _]].
  destruct (final_pst_wf lines tail sch r s H) as [_ N]. repeat split; try lia.
Qed.

(* number of lines <= number of bytes: one '\n' each *)
Lemma lines_le_bytes : forall lines tail, Z.of_nat (length lines) <= input_len rle cllen lines tail.
Proof.
  intros lines tail. unfold input_len.
  assert (Z.of_nat (length lines) <= Model.size rle cllen lines).
  { induction lines as [|l t IH]; cbn [length Model.size]; [lia|]. pose proof (cllen_pos l). lia. }
  lia.
Qed.
