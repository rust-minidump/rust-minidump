(* C06/Proofs12.v — after Proofs5.v and Proofs9.v.  The real CfiStackWalker WITHOUT the non-aliasing hypothesis: when
   several rule targets name the same machine register (arm64 `x29` / `fp`, `x30` / `lr`), the rule applied last
   decides ([fold_real_last]), and since commit 3a7f18b "last" is the greatest register name in byte-lexicographic
   order, the derived Ord of CfiReg ([sort_rules_sorted]).  Also, on its own: the bounds of a dereference
   ([mem_read_exact]). *)
From Coq Require Import Lia Permutation Sorted.
From RM Require Import C08.Model C08.Proofs C06.Model C06.Proofs C06.Proofs2 C06.Proofs5 C06.Proofs9.
Open Scope Z_scope.

(* validity / value left at c by the rule that decides it *)
Definition decided (a : arch) (p : profile) (E : env) (cfa : Z) (s : rstate) (c : bytes) (e : expr) : Prop :=
  r_valid s c = match val p E (Some cfa) e with Some v => fits (a_width a) v | None => false end /\
  (forall v, val p E (Some cfa) e = Some v -> fits (a_width a) v = true -> r_ctx s c = v).

Lemma cellr_decided : forall a p E cfa s c e old,
  reg_at s c = cellr a old (val p E (Some cfa) e) -> decided a p E cfa s c e.
Proof.
  intros a p E cfa s c e old H. unfold decided, reg_at, cellr in *.
  destruct (val p E (Some cfa) e) as [v|]; [destruct (fits (a_width a) v) eqn:F|]; injection H as H1 H2;
    (split; [exact H2|]); intros v' Hv Hf; try discriminate Hv; injection Hv as <-; [exact H1|congruence].
Qed.

Lemma fold_real_last : forall a p E cfa l s c,
  match find_canon a c (rev l) with
  | Some (n, e) => decided a p E cfa (fold_left (stepf (real_ops a) p E cfa) l s) c e
  | None => r_ctx (fold_left (stepf (real_ops a) p E cfa) l s) c = r_ctx s c /\
            r_valid (fold_left (stepf (real_ops a) p E cfa) l s) c = r_valid s c
  end.
Proof.
  intros a p E cfa l. induction l as [|[k e] l IH] using rev_ind; intros s c.
  - cbn. split; reflexivity.
  - rewrite rev_app_distr, fold_left_app. cbn [rev app fold_left find_canon].
    set (s' := fold_left (stepf (real_ops a) p E cfa) l s). specialize (IH s c). fold s' in IH.
    pose proof (stepf_real_at a p E cfa s' (k, e) c) as St. unfold canon_of in St. cbn [fst snd] in St.
    (* a rule for another register leaves what the earlier rules decided *)
    assert (Hother : reg_at (stepf (real_ops a) p E cfa s' (k, e)) c = reg_at s' c ->
              match find_canon a c (rev l) with
              | Some (n, e0) => decided a p E cfa (stepf (real_ops a) p E cfa s' (k, e)) c e0
              | None => r_ctx (stepf (real_ops a) p E cfa s' (k, e)) c = r_ctx s c /\
                        r_valid (stepf (real_ops a) p E cfa s' (k, e)) c = r_valid s c
              end).
    { intro Hs. injection Hs as A B. destruct (find_canon a c (rev l)) as [[n e0]|]; [unfold decided in *|];
        rewrite A, B; exact IH. }
    destruct k as [| |n]; try (apply Hother, St).
    destruct (memoize a n) as [c'|]; [|apply Hother, St].
    destruct (beq c' c); [|apply Hother, St]. exact (cellr_decided _ _ _ _ _ _ _ _ St).
Qed.

(* the sort of the remaining rules: ascending register name *)
Definition name_le (x y : cfireg * expr) : Prop := cfireg_ltb (fst y) (fst x) = false.

Lemma cfireg_ltb_le : forall x y, cfireg_ltb x y = true -> cfireg_ltb y x = false.
Proof. intros [| |a] [| |b]; cbn; try reflexivity; try discriminate. apply bytes_ltb_asym. Qed.
Lemma cfireg_le_trans : forall x y z, cfireg_ltb y x = false -> cfireg_ltb z y = false -> cfireg_ltb z x = false.
Proof.
  intros [| |a] [| |b] [| |c]; cbn; try reflexivity; try discriminate. apply bytes_le_trans.
Qed.

(* [insert_rule] is C08's stable insertion with [cfireg_ltb] as the order *)
Lemma sort_rules_sorted : forall l, StronglySorted name_le (sort_rules l).
Proof. exact (sort_sorted cfireg_ltb cfireg_ltb_le cfireg_le_trans). Qed.

(* the memory read of both walkers takes the evaluator's 64-bit address as it is: a successful read lies entirely
   inside [base, base + len) - the address is never folded into a narrower address space; only the VALUE read has
   the register width *)
Lemma mem_read_exact : forall w base data addr,
  (forall v, mem_read w base data addr = Some v ->
     base <= addr /\ addr - base + w <= blen data /\
     v = le_val (firstn (Z.to_nat w) (skipn (Z.to_nat (addr - base)) data))) /\
  (addr < base \/ blen data < addr - base + w -> mem_read w base data addr = None).
Proof.
  intros w base data addr. unfold mem_read.
  destruct ((base <=? addr) && (addr - base + w <=? blen data)) eqn:C.
  - apply Bool.andb_true_iff in C. destruct C as [C1 C2]. apply Z.leb_le in C1. apply Z.leb_le in C2.
    split; [intros v H; injection H as <-; repeat split; lia|lia].
  - split; [discriminate|reflexivity].
Qed.
