(* C06/Proofs17.v — after Proofs16.v.  The order of the INIT records in the file does not matter: for ALL files (overlapping ones included)
   whose records with a range have pairwise different ranges, permuting the records leaves the record table — hence
   every lookup and every unwind step — unchanged.  (Records with EQUAL ranges are the one case where file order
   decides: the stable sort keeps the earlier one first and the later one is dropped.) *)
From Coq Require Import Lia Sorted Permutation.
From RM Require Import Base.Word C08.Model C08.Proofs C08.Tie C08.WinProofs C08.EndToEnd Gen.C08Tables Gen.CfiOps
                       C06.Model C06.GenModel C06.Proofs C06.Driver C06.GenDriver C06.FileTable C06.Proofs15 C06.Proofs16.
Open Scope Z_scope.

Section Unique.
Context {A : Type} (R : A -> A -> Prop).
Lemma sorted_perm_unique : forall l l', StronglySorted R l -> StronglySorted R l' -> Permutation l l' ->
  (forall x y, In x l -> In y l -> R x y -> R y x -> x = y) -> l = l'.
Proof.
  induction l as [|x t IH]; intros l' S1 S2 P Hanti.
  - apply Permutation_nil in P. subst. reflexivity.
  - destruct l' as [|y t']; [apply Permutation_sym, Permutation_nil in P; discriminate|].
    inversion S1 as [|? ? S1t S1h]; subst. inversion S2 as [|? ? S2t S2h]; subst.
    rewrite Forall_forall in S1h, S2h.
    assert (Exy : x = y).
    { assert (Ix : In x (y :: t')) by (apply (Permutation_in _ P); left; reflexivity).
      assert (Iy : In y (x :: t)) by (apply (Permutation_in _ (Permutation_sym P)); left; reflexivity).
      destruct Ix as [->|Ix]; [reflexivity|]. destruct Iy as [->|Iy]; [reflexivity|].
      apply Hanti; [left; reflexivity|right; exact Iy|apply S1h; exact Iy|apply S2h; exact Ix]. }
    subst y. f_equal. apply IH; [exact S1t|exact S2t|apply (Permutation_cons_inv P)|].
    intros a b Ha Hb. apply Hanti; right; assumption.
Qed.
End Unique.

Lemma range_lt_antisym : forall a b : range, range_lt a b = false -> range_lt b a = false -> a = b.
Proof.
  intros [a1 a2] [b1 b2]. unfold range_lt. cbn [fst snd]. intros H1 H2.
  apply Bool.orb_false_iff in H1. apply Bool.orb_false_iff in H2. destruct H1 as [A1 A2], H2 as [B1 B2].
  apply Z.ltb_ge in A1. apply Z.ltb_ge in B1. assert (E : a1 = b1) by lia. subst b1.
  rewrite Z.eqb_refl in A2, B2. cbn [andb] in A2, B2. apply Z.ltb_ge in A2. apply Z.ltb_ge in B2. f_equal. lia.
Qed.

Lemma sort_stable_perm_eq : forall (V : Type) (l l' : list (range * V)),
  Permutation l l' -> NoDup (map fst l) -> sort_stable range_lt l = sort_stable range_lt l'.
Proof.
  intros V l l' P ND.
  apply (sorted_perm_unique (le_keys range_lt)).
  - apply sort_sorted; [apply range_lt_asym|apply range_lt_negtrans].
  - apply sort_sorted; [apply range_lt_asym|apply range_lt_negtrans].
  - eapply Permutation_trans; [apply Permutation_sym, sort_perm|]. eapply Permutation_trans; [exact P|apply sort_perm].
  - intros x y Hx Hy R1 R2. unfold le_keys in R1, R2.
    apply (nodup_fst_inj _ _ l); [exact ND| | |apply range_lt_antisym; assumption];
      apply (Permutation_in _ (Permutation_sym (sort_perm range_lt l))); assumption.
Qed.

Lemma keep_ranged_perm : forall (V : Type) (l l' : list (option range * V)),
  Permutation l l' -> Permutation (keep_ranged l) (keep_ranged l').
Proof.
  intros V l l' P. induction P as [|[[r|] v] l l' P IH|[[r1|] v1] [[r2|] v2] l|l l' l'' P1 IH1 P2 IH2]; cbn [keep_ranged].
  - constructor.
  - constructor. exact IH.
  - exact IH.
  - apply perm_swap.
  - apply Permutation_refl.
  - apply Permutation_refl.
  - apply Permutation_refl.
  - eapply Permutation_trans; eassumption.
Qed.

(* the ranges of the records that have one *)
Definition file_keys (rs : list cfi_record) : list range := map fst (keep_ranged (map pure_rec (file_recs rs))).

Theorem file_order_irrelevant : forall p rs rs', u64_file rs -> Permutation rs rs' -> NoDup (file_keys rs) ->
  cfi_file_table p rs = cfi_file_table p rs'.
Proof.
  intros p rs rs' H P ND.
  assert (H' : u64_file rs') by (unfold u64_file in *; eapply Permutation_Forall; eassumption).
  destruct (file_table_eq p rs H) as [-> _]. destruct (file_table_eq p rs' H') as [-> _]. f_equal.
  unfold into_rangemap_safe_p. f_equal. apply sort_stable_perm_eq; [|exact ND].
  apply keep_ranged_perm. unfold file_recs. apply Permutation_map. apply Permutation_map. exact P.
Qed.

