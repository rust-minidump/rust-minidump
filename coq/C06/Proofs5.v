(* C06/Proofs5.v — after Proofs4.v.  The unwind step through the REAL CfiStackWalker is [cfi_spec_real] when distinct rule
   targets name distinct machine registers ([real_walk_refines_spec]).  At the end, what get_caller_frame does with
   the result on x86 / amd64 ([handover_x86], over Driver.post_real; C07 uses it). *)
From Coq Require Import Lia Permutation.
From RM Require Import C06.Model C06.Proofs C06.Proofs2 C06.Proofs3 C06.Proofs4 C06.Driver.
Import ListNotations.
Open Scope Z_scope.

(* the machine register a rule writes *)
Definition canon_of (a : arch) (x : cfireg * expr) : option bytes :=
  match fst x with ROther n => memoize a n | _ => None end.

Lemma stepf_real_at : forall a p E cfa s x c,
  reg_at (stepf (real_ops a) p E cfa s x) c =
  match canon_of a x with
  | Some c' => if beq c' c then cellr a (reg_at s c) (val p E (Some cfa) (snd x)) else reg_at s c
  | None => reg_at s c
  end.
Proof.
  intros a p E cfa s [k e] c. unfold stepf, canon_of. cbn [fst snd].
  destruct k as [| |n]; [reflexivity..|apply real_act_at].
Qed.

Lemma fold_real_untouched : forall a p E cfa l s c,
  (forall x, In x l -> canon_of a x <> Some c) ->
  reg_at (fold_left (stepf (real_ops a) p E cfa) l s) c = reg_at s c.
Proof.
  induction l as [|x r IH]; intros s c H; cbn [fold_left]; [reflexivity|].
  rewrite IH by (intros y Hy; apply H; right; exact Hy). rewrite stepf_real_at.
  specialize (H x (or_introl eq_refl)). destruct (canon_of a x) as [c'|]; [|reflexivity].
  destruct (beq c' c) eqn:B; [|reflexivity]. apply beq_eq in B. subst c'. contradiction H. reflexivity.
Qed.

Lemma find_canon_some : forall a c l n e, find_canon a c l = Some (n, e) -> In (ROther n, e) l /\ memoize a n = Some c.
Proof.
  induction l as [|[k e'] r IH]; intros n e H; cbn [find_canon] in H; [discriminate|].
  destruct k as [| |n']; try (destruct (IH n e H); split; [right|]; assumption).
  destruct (memoize a n') as [c'|] eqn:M; [|destruct (IH n e H); split; [right|]; assumption].
  destruct (beq c' c) eqn:B; [|destruct (IH n e H); split; [right|]; assumption].
  inversion H; subst. apply beq_eq in B. subst. split; [left; reflexivity|exact M].
Qed.
Lemma find_canon_none : forall a c l, find_canon a c l = None -> forall x, In x l -> canon_of a x <> Some c.
Proof.
  induction l as [|[k e'] r IH]; intros H x Hx; [contradiction|]. cbn [find_canon] in H.
  destruct Hx as [Hx|Hx].
  - subst x. unfold canon_of. cbn [fst]. destruct k as [| |n']; try discriminate.
    destruct (memoize a n') as [c'|]; [|discriminate]. destruct (beq c' c) eqn:B; [discriminate|].
    apply beq_neq in B. congruence.
  - apply IH; [|exact Hx]. destruct k as [| |n']; try exact H.
    destruct (memoize a n') as [c'|]; [|exact H]. destruct (beq c' c); [discriminate|exact H].
Qed.

Lemma find_canon_unique : forall a c l n e,
  (forall x y, In x l -> In y l -> canon_of a x = Some c -> canon_of a y = Some c -> x = y) ->
  In (ROther n, e) l -> memoize a n = Some c -> find_canon a c l = Some (n, e).
Proof.
  intros a c l n e Hu Hin M. destruct (find_canon a c l) as [[n' e']|] eqn:F.
  - destruct (find_canon_some _ _ _ _ _ F) as [Hin' M'].
    assert (E : (ROther n', e') = (ROther n, e)) by (apply Hu; assumption). injection E as -> ->. reflexivity.
  - exfalso. exact (find_canon_none _ _ _ F _ Hin M).
Qed.

(* when at most one rule names c, that rule decides c from the start value *)
Lemma fold_real_state : forall a p E cfa l s c,
  NoDup (map fst l) ->
  (forall x y, In x l -> In y l -> canon_of a x = Some c -> canon_of a y = Some c -> x = y) ->
  reg_at (fold_left (stepf (real_ops a) p E cfa) l s) c =
  match find_canon a c l with
  | Some (n, e) => cellr a (reg_at s c) (val p E (Some cfa) e)
  | None => reg_at s c
  end.
Proof.
  intros a p E cfa l s c Hnd Hu. destruct (find_canon a c l) as [[n e]|] eqn:F.
  - (* l = l1 ++ rule :: l2, and neither l1 nor l2 has a rule for c *)
    destruct (find_canon_some _ _ _ _ _ F) as [Hin M]. destruct (in_split _ _ Hin) as (l1 & l2 & ->).
    assert (Hrest : forall x, In x (l1 ++ l2) -> canon_of a x <> Some c).
    { intros x Hx Hc. rewrite map_app in Hnd. cbn [map] in Hnd. apply NoDup_remove_2 in Hnd. apply Hnd.
      rewrite <- map_app. replace (fst (ROther n, e)) with (fst x); [apply in_map, Hx|].
      f_equal. apply Hu; [|apply in_or_app; right; left; reflexivity|exact Hc|exact M].
      apply in_app_or in Hx. apply in_or_app. destruct Hx; [left|right; right]; assumption. }
    rewrite fold_left_app. cbn [fold_left].
    rewrite fold_real_untouched by (intros x Hx; apply Hrest, in_or_app; right; exact Hx).
    rewrite stepf_real_at. unfold canon_of. cbn [fst snd]. rewrite M, beq_refl.
    rewrite fold_real_untouched by (intros x Hx; apply Hrest, in_or_app; left; exact Hx). reflexivity.
  - apply fold_real_untouched, find_canon_none, F.
Qed.

Lemma last_rule_exists : forall k ps e, In (k, e) ps -> exists e', last_rule k ps = Some e'.
Proof.
  induction ps as [|[k' e'] r IH]; intros e H; [contradiction|]. cbn [last_rule].
  destruct (last_rule k r) as [e2|] eqn:L; [eexists; reflexivity|].
  destruct H as [H|H].
  - inversion H; subst. rewrite (proj2 (cfireg_eqb_eq k k) eq_refl). eexists; reflexivity.
  - destruct (IH e H) as [e3 He3]. discriminate.
Qed.

(* distinct rule targets name distinct machine registers *)
Definition real_documented_nonaliasing (a : arch) (r : cfi_record) (addr : Z) : Prop :=
  canon_distinct a (targets (texts_of r addr)).

Theorem real_walk_refines_spec : forall a p E r addr s0,
  env_wf E -> all_documented r addr -> real_documented_nonaliasing a r addr ->
  match walk_frame_cfi (real_ops a) p E r addr s0, cfi_spec_real a E r addr s0 with
  | Ret (Some s), Some (ctx, valid) => forall c, r_ctx s c = ctx c /\ r_valid s c = valid c
  | Ret None, None => True
  | _, _ => False
  end.
Proof.
  intros a p E r addr s0 HE Hdoc Hna. unfold walk_frame_cfi, cfi_spec_real. fold (texts_of r addr).
  destruct (cfi_covers r addr); [|exact I]. unfold walk_with_stack_cfi.
  rewrite (walk_cfi_ord_resolve _ _ _ sort_rules_in), (resolve_spec p E _ HE Hdoc).
  unfold real_documented_nonaliasing, targets in Hna. rewrite parse_all_pairs in Hna. fold ins in Hna.
  destruct (all_pairs (texts_of r addr)) as [ps|] eqn:Eps; [|exact I].
  destruct (last_rule RCfa ps) as [ce|] eqn:Lc; [|exact I].
  destruct (last_rule RRa ps) as [re|] eqn:Lr; [|exact I].
  destruct (spec_eval E None ce) as [cfa|] eqn:Sc; [|exact I].
  destruct (spec_eval E (Some cfa) re) as [ra|] eqn:Sr; [|exact I].
  cbn [real_ops o_set_cfa o_set_ra]. unfold real_set.
  destruct (memoize a (a_sp a)) as [spc|] eqn:Msp; [|destruct (memoize a (a_ip a)); exact I].
  destruct (fits (a_width a) cfa) eqn:Fc; cbn [andb]; [|destruct (memoize a (a_ip a)); exact I].
  destruct (memoize a (a_ip a)) as [ipc|] eqn:Mip; [|exact I].
  destruct (fits (a_width a) ra) eqn:Fr; [|exact I].
  set (m := fold_left ins ps []) in *.
  assert (Hn : NoDup (map fst m)).
  { apply (parse_all_nodup (texts_of r addr)). rewrite parse_all_pairs, Eps. reflexivity. }
  destruct (rest_perm m _ Hn (sort_rules_perm (rest m))) as (Nd & _ & Hin).
  assert (Hin_iff : forall n e, In (ROther n, e) (sort_rules (rest m)) <-> last_rule (ROther n) ps = Some e).
  { intros n e. rewrite Hin. unfold m. rewrite find_ins_all. reflexivity. }
  assert (Htarget : forall n e, last_rule (ROther n) ps = Some e -> In n (other_names m)).
  { intros n e H. eapply in_other_names. apply find_in; [exact Hn|]. unfold m. rewrite find_ins_all. exact H. }
  assert (Hsame : forall n1 n2 c, In n1 (other_names m) -> In n2 (other_names m) ->
            memoize a n1 = Some c -> memoize a n2 = Some c -> n1 = n2).
  { intros n1 n2 c H1 H2 M1 M2. destruct (beq n1 n2) eqn:B; [apply beq_eq; exact B|].
    apply beq_neq in B. destruct (Hna n1 n2 H1 H2 B) as [D|[D|D]]; congruence. }
  set (s2 := mkR (updz (updz (r_ctx s0) spc cfa) ipc ra) (updb (updb (r_valid s0) spc true) ipc true)).
  intro c.
  assert (Hu : forall x y, In x (sort_rules (rest m)) -> In y (sort_rules (rest m)) ->
            canon_of a x = Some c -> canon_of a y = Some c -> x = y).
  { intros [kx ex] [ky ey] Hx Hy Cx Cy. unfold canon_of in Cx, Cy. cbn [fst] in Cx, Cy.
    destruct kx as [| |nx]; try discriminate. destruct ky as [| |ny]; try discriminate.
    assert (nx = ny).
    { eapply Hsame; [eapply Htarget; apply Hin_iff; exact Hx|eapply Htarget; apply Hin_iff; exact Hy|exact Cx|exact Cy]. }
    subst ny. eapply nodup_fst_inj; eauto. }
  pose proof (fold_real_state a p E cfa (sort_rules (rest m)) s2 c Nd Hu) as Hst.
  (* the first target in the text that names c is the one rule left in the map that names c *)
  cbv beta zeta. destruct (find_canon a c ps) as [[n e0]|] eqn:Fp.
  - destruct (find_canon_some _ _ _ _ _ Fp) as [Hi Mn]. destruct (last_rule_exists _ _ _ Hi) as [e Le].
    rewrite (find_canon_unique a c _ n e Hu (proj2 (Hin_iff n e) Le) Mn) in Hst.
    rewrite (rule_refines p E ps ce cfa HE (Hdoc ps Eps) Lc Sc _ _ Le) in Hst. rewrite Le.
    split; [exact (f_equal fst Hst)|exact (f_equal snd Hst)].
  - destruct (find_canon a c (sort_rules (rest m))) as [[n e]|] eqn:Fs.
    + exfalso. destruct (find_canon_some _ _ _ _ _ Fs) as [Hi Mn]. apply Hin_iff, last_rule_in in Hi.
      exact (find_canon_none _ _ _ Fp _ Hi Mn).
    + split; [exact (f_equal fst Hst)|exact (f_equal snd Hst)].
Qed.

(* x86 and amd64: the walker's context and validity set become the frame's, unchanged; the frame exists
   iff the instruction pointer is not in the first page and the stack pointer grew *)
Lemma handover_x86 : forall k a callee_sp s, k <> 2 ->
  match post_real k a callee_sp s with
  | Some s1 => s1 = s /\ 4096 <= r_ctx s (a_ip a) /\ callee_sp < r_ctx s (a_sp a)
  | None => r_ctx s (a_ip a) < 4096 \/ r_ctx s (a_sp a) <= callee_sp
  end.
Proof.
  intros k a csp s Hk. unfold post_real.
  replace (k =? 2) with false by (symmetry; apply Z.eqb_neq; exact Hk).
  destruct (r_ctx s (a_ip a) <? 4096) eqn:E1; [left; apply Z.ltb_lt; exact E1|].
  destruct (r_ctx s (a_sp a) <=? csp) eqn:E2; [right; apply Z.leb_le; exact E2|].
  apply Z.ltb_ge in E1. apply Z.leb_gt in E2. repeat split; lia.
Qed.

