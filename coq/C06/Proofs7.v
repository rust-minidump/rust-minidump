(* C06/Proofs7.v — two definitions (no lemmas; C06/ArchDriver.v builds on them): architecture tables from the constants
   that translate/unwind_consts.py regenerates from minidump-unwind/src/{x86,amd64,arm64}.rs and minidump/src/context.rs
   (Gen/UnwindConsts.v encodes a register name as the big-endian base-256 value of its spelling).  C06/Properties.v
   checks the tables of C06/Model.v against them (c06_arch_tables_pinned); C06/ArchDriver.v computes the tables of
   arm / mips / mips64 this way. *)
From RM Require Import C06.Model C06.Driver Gen.UnwindConsts.
Open Scope Z_scope.

Fixpoint name_bytes_aux (fuel : nat) (n : Z) (acc : bytes) : bytes :=
  match fuel with
  | O => acc
  | S f => if n =? 0 then acc else name_bytes_aux f (n / 256) (n mod 256 :: acc)
  end.
Definition name_bytes (n : Z) : bytes := name_bytes_aux 16 n [].

Definition arch_of_consts (pw : Z) (regs : list Z) (aliases : list (Z * Z)) (sp ip : Z) (saved : list Z) : arch :=
  mkArch pw (map name_bytes regs) (map (fun ab => (name_bytes (fst ab), name_bytes (snd ab))) aliases)
         (name_bytes sp) (name_bytes ip) (map name_bytes saved).

