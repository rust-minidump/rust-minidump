(* C06/Proofs2.v — after Proofs.v.  (1) Folding commuting steps over a permutation, and with it: the walk does not depend
   on the order of the remaining rules when their targets do not alias ([order_irrelevant]).  (2) The mock walker: its
   action as one equation, it never aliases, its register file after the walk for any order ([mock_fold_result],
   [mock_walk_result]).  (3) The real walker: (value, validity) of a machine register, its action as one equation
   ([real_act_at]); non-aliasing = distinct canonical registers ([canon_distinct], decidable); the rule set of
   c06_alias_order_matters.  (4) Failure modes of one expression. *)
From Coq Require Import String Lia Permutation Morphisms Setoid.
From RM Require Import C06.Model C06.Proofs.
Import ListNotations.
Open Scope Z_scope.

Section Fold.
Context {S X : Type} (eqv : S -> S -> Prop) (Heq : Equivalence eqv) (f : S -> X -> S).
Hypothesis f_proper : forall s s' x, eqv s s' -> eqv (f s x) (f s' x).

Lemma fold_proper : forall l s s', eqv s s' -> eqv (fold_left f l s) (fold_left f l s').
Proof. induction l as [|x r IH]; intros s s' H; cbn [fold_left]; auto. Qed.

Lemma fold_perm : forall l l', Permutation l l' ->
  (forall x y, In x l -> In y l -> x <> y -> forall s, eqv (f (f s x) y) (f (f s y) x)) ->
  NoDup l -> forall s s', eqv s s' -> eqv (fold_left f l s) (fold_left f l' s').
Proof.
  induction 1 as [|x l l' Hp IH|x y l|l l' l'' Hp1 IH1 Hp2 IH2]; intros Hc Hnd s s' Hs.
  - exact Hs.
  - cbn [fold_left]. inversion Hnd; subst. apply IH; auto.
    intros a b Ha Hb. apply Hc; right; assumption.
  - cbn [fold_left]. inversion Hnd as [|? ? Hn1 Hd1]; subst.
    assert (Hxy : y <> x) by (intro; subst; apply Hn1; left; reflexivity).
    apply fold_proper. etransitivity.
    + apply (Hc y x); [left; reflexivity|right; left; reflexivity|exact Hxy].
    + apply f_proper. apply f_proper. exact Hs.
  - etransitivity.
    + apply (IH1 Hc Hnd s s). reflexivity.
    + apply IH2; auto.
      * intros a b Ha Hb. apply Hc; eapply Permutation_in; try (apply Permutation_sym; exact Hp1); assumption.
      * eapply Permutation_NoDup; eauto.
Qed.
End Fold.

(* the general-register names among the keys *)
Definition other_names (m : rmap) : list bytes :=
  flat_map (fun x => match fst x with ROther n => [n] | _ => [] end) m.
(* the general-register targets of a rule set *)
Definition targets (texts : list bytes) : list bytes :=
  match parse_all texts [] with Ret m => other_names m | _ => [] end.

Definition act_proper {S} (ops : wops S) (eqv : S -> S -> Prop) : Prop :=
  forall s s' n o, eqv s s' -> eqv (act ops s n o) (act ops s' n o).
(* two distinct rule targets never name the same thing in the walker *)
Definition nonaliasing {S} (ops : wops S) (eqv : S -> S -> Prop) (names : list bytes) : Prop :=
  forall n1 n2, In n1 names -> In n2 names -> n1 <> n2 ->
  forall s o1 o2, eqv (act ops (act ops s n1 o1) n2 o2) (act ops (act ops s n2 o2) n1 o1).

Definition oeqv {S} (eqv : S -> S -> Prop) (x y : outcome (option S)) : Prop :=
  match x, y with
  | Ret (Some a), Ret (Some b) => eqv a b
  | Ret None, Ret None => True
  | _, _ => False
  end.

Lemma in_other_names : forall m n e, In (ROther n, e) m -> In n (other_names m).
Proof.
  intros m n e H. unfold other_names. apply in_flat_map. exists (ROther n, e). split; [exact H|left; reflexivity].
Qed.

Theorem order_irrelevant : forall S (ops : wops S) (eqv : S -> S -> Prop), Equivalence eqv ->
  act_proper ops eqv ->
  forall ord1 ord2 : rmap -> rmap,
  (forall l, Permutation (ord1 l) l) -> (forall l, Permutation (ord2 l) l) ->
  forall p E texts s,
  nonaliasing ops eqv (targets texts) ->
  oeqv eqv (walk_cfi_ord ops ord1 p E texts s) (walk_cfi_ord ops ord2 p E texts s).
Proof.
  intros S ops eqv Heq Hprop ord1 ord2 Ho1 Ho2 p E texts s Hna.
  rewrite !walk_cfi_ord_resolve by (intros l x; apply Permutation_in; auto).
  destruct (resolve p E texts) as [[[cfa ra] m2]|] eqn:R; [|exact I].
  destruct (resolve_rest _ _ _ _ _ _ R) as (m & Em & Hn & ->). unfold targets in Hna. rewrite Em in Hna.
  destruct (o_set_cfa ops s cfa) as [s1|]; [|exact I].
  destruct (o_set_ra ops s1 ra) as [s2|]; [|exact I]. cbn [oeqv].
  destruct (rest_perm m _ Hn (Ho1 (rest m))) as (Nd & Hall & Hin).
  apply (fold_perm eqv Heq (stepf ops p E cfa)).
  - intros a b x Hab. unfold stepf. destruct (fst x); auto.
  - eapply Permutation_trans; [apply Ho1|apply Permutation_sym; apply Ho2].
  - (* two distinct remaining rules have distinct general-register targets of the rule set *)
    intros [kx ex] [ky ey] Hx Hy Hxy s0.
    destruct (Hall _ Hx) as [n1 Hn1]. destruct (Hall _ Hy) as [n2 Hn2]. cbn [fst] in Hn1, Hn2. subst kx ky.
    unfold stepf. cbn [fst snd]. apply Hna.
    + eapply in_other_names, find_in, Hin, Hx. exact Hn.
    + eapply in_other_names, find_in, Hin, Hy. exact Hn.
    + intro Heqn. subst n2. apply Hxy. eapply nodup_fst_inj; eauto.
  - eapply NoDup_map_inv. exact Nd.
  - reflexivity.
Qed.

Definition meqv (a b : mstate) : Prop :=
  m_cfa a = m_cfa b /\ m_ra a = m_ra b /\ forall n, m_regs a n = m_regs b n.
Lemma meqv_equiv : Equivalence meqv.
Proof.
  split.
  - intro a. repeat split.
  - intros a b [H1 [H2 H3]]. repeat split; auto.
  - intros a b c [H1 [H2 H3]] [G1 [G2 G3]]. repeat split; try congruence; try (intro n; rewrite H3; apply G3).
Qed.

(* one rule writes one cell of the register file *)
Lemma mock_act_spec : forall w s n o,
  act (mock_ops w) s n o = mkM (m_cfa s) (m_ra s) (upd (m_regs s) n (mock_cell w n o)).
Proof.
  intros w s n o. unfold act, mock_ops, mock_cell. cbn [o_set o_clear].
  destruct o as [v|]; [destruct (starts_no n || negb (fits w v))|]; reflexivity.
Qed.

Lemma mock_act_proper : forall w, act_proper (mock_ops w) meqv.
Proof.
  intros w s s' n o [H1 [H2 H3]]. rewrite !mock_act_spec. unfold meqv. cbn [m_cfa m_ra m_regs].
  repeat split; auto. intro x. unfold upd. destruct (beq x n); auto.
Qed.

Lemma mock_nonaliasing : forall w names, nonaliasing (mock_ops w) meqv names.
Proof.
  intros w names n1 n2 _ _ Hne s o1 o2. rewrite !mock_act_spec. unfold meqv. cbn [m_cfa m_ra m_regs].
  repeat split. intro x. unfold upd.
  destruct (beq x n1) eqn:E1, (beq x n2) eqn:E2; auto.
  apply beq_eq in E1. apply beq_eq in E2. congruence.
Qed.

(* the real walker: non-aliasing = distinct canonical registers *)
Definition reqv (a b : rstate) : Prop :=
  forall n, r_ctx a n = r_ctx b n /\ r_valid a n = r_valid b n.
Lemma reqv_equiv : Equivalence reqv.
Proof.
  split.
  - intros a n. split; reflexivity.
  - intros a b H n. destruct (H n). split; auto.
  - intros a b c H G n. destruct (H n), (G n). split; congruence.
Qed.

(* value and validity of the machine register c *)
Definition reg_at (s : rstate) (c : bytes) : Z * bool := (r_ctx s c, r_valid s c).
(* ... after a rule for it with value o *)
Definition cellr (a : arch) (old : Z * bool) (o : option Z) : Z * bool :=
  match o with
  | Some v => if fits (a_width a) v then (v, true) else (fst old, false)
  | None => (fst old, false)
  end.

Lemma reqv_reg_at : forall s s', reqv s s' <-> forall x, reg_at s x = reg_at s' x.
Proof.
  intros s s'. unfold reqv, reg_at. split; intros H x.
  - destruct (H x) as [-> ->]. reflexivity.
  - specialize (H x). injection H as -> ->. split; reflexivity.
Qed.

(* one rule changes the machine register its target names and no other *)
Lemma real_act_at : forall a s n o x,
  reg_at (act (real_ops a) s n o) x =
  match memoize a n with
  | Some c => if beq c x then cellr a (reg_at s x) o else reg_at s x
  | None => reg_at s x
  end.
Proof.
  intros a s n o x. unfold act, real_ops. cbn [o_set o_clear]. unfold real_set.
  destruct (memoize a n) as [c|]; [|destruct o; reflexivity]. unfold reg_at, cellr.
  destruct (beq c x) eqn:B.
  - apply beq_eq in B. subst c.
    destruct o as [v|]; [destruct (fits (a_width a) v)|]; cbn [r_ctx r_valid fst]; unfold updz, updb; rewrite beq_refl; reflexivity.
  - assert (B' : beq x c = false) by (apply beq_neq; intro; subst; rewrite beq_refl in B; discriminate B).
    destruct o as [v|]; [destruct (fits (a_width a) v)|]; cbn [r_ctx r_valid]; unfold updz, updb; rewrite B'; reflexivity.
Qed.

Lemma real_act_proper : forall a, act_proper (real_ops a) reqv.
Proof.
  intros a s s' n o H. rewrite reqv_reg_at in *. intro x. rewrite !real_act_at, H. reflexivity.
Qed.

Definition canon_distinct (a : arch) (names : list bytes) : Prop :=
  forall n1 n2, In n1 names -> In n2 names -> n1 <> n2 ->
  memoize a n1 = None \/ memoize a n2 = None \/ memoize a n1 <> memoize a n2.

Definition canon_distinctb (a : arch) (names : list bytes) : bool :=
  forallb (fun n1 => forallb (fun n2 =>
    beq n1 n2 || match memoize a n1, memoize a n2 with
                 | Some c1, Some c2 => negb (beq c1 c2)
                 | _, _ => true
                 end) names) names.
Lemma canon_distinct_iff : forall a names, canon_distinctb a names = true <-> canon_distinct a names.
Proof.
  intros a names. unfold canon_distinctb, canon_distinct. rewrite forallb_forall. split.
  - intros H n1 n2 H1 H2 Hne. specialize (H n1 H1). rewrite forallb_forall in H. specialize (H n2 H2).
    apply beq_neq in Hne. rewrite Hne in H. cbn [orb] in H.
    destruct (memoize a n1) as [c1|]; [|left; reflexivity].
    destruct (memoize a n2) as [c2|]; [|right; left; reflexivity].
    right; right. intro E. injection E as ->. rewrite beq_refl in H. discriminate H.
  - intros H n1 H1. apply forallb_forall. intros n2 H2. destruct (beq n1 n2) eqn:B; [reflexivity|].
    apply beq_neq in B. cbn [orb].
    destruct (H n1 n2 H1 H2 B) as [D|[D|D]]; [rewrite D; reflexivity|rewrite D; destruct (memoize a n1); reflexivity|].
    destruct (memoize a n1) as [c1|], (memoize a n2) as [c2|]; try reflexivity.
    apply Bool.negb_true_iff, beq_neq. congruence.
Qed.

Lemma real_nonaliasing : forall a names, canon_distinct a names -> nonaliasing (real_ops a) reqv names.
Proof.
  intros a names Hcd n1 n2 H1 H2 Hne s o1 o2. specialize (Hcd n1 n2 H1 H2 Hne).
  apply reqv_reg_at. intro x. rewrite !real_act_at.
  destruct (memoize a n1) as [c1|], (memoize a n2) as [c2|]; try reflexivity.
  destruct (beq c1 x) eqn:B1, (beq c2 x) eqn:B2; try reflexivity.
  apply beq_eq in B1. apply beq_eq in B2. subst c1 c2. destruct Hcd as [D|[D|D]]; congruence.
Qed.

(* aliasing targets, for c06_alias_order_matters: the order is observable (arm64 x29 / fp) *)
Definition alias_texts : list bytes := [bs ".cfa: 16 .ra: 8 x29: 111 fp: 222"].
Definition null_env : env := mkEnv (fun _ => None) (fun _ => None) 0 false 0.
Lemma eval_loop_app : forall p E cfa a b st,
  eval_loop p E cfa (a ++ b) st = obind (eval_loop p E cfa a st) (fun st' => eval_loop p E cfa b st').
Proof.
  induction a as [|t r IH]; intros b st; cbn [app eval_loop obind]; [reflexivity|].
  destruct (eval_step p E cfa t st); cbn [obind]; auto.
Qed.

Lemma eval_fail_at : forall p E cfa pre t post st,
  eval_loop p E cfa pre [] = Ret st -> eval_step p E cfa t st = Fail ->
  eval_cfi_expr p E (pre ++ t :: post) cfa = Fail.
Proof.
  intros p E cfa pre t post st H1 H2. unfold eval_cfi_expr.
  rewrite eval_loop_app, H1. cbn [obind eval_loop]. rewrite H2. reflexivity.
Qed.

Definition is_binop (t : bytes) : Prop :=
  t = T_plus \/ t = T_minus \/ t = T_star \/ t = T_slash \/ t = T_pct \/ t = T_at.

Lemma fm_underflow_binop : forall p E cfa t st, is_binop t -> (length st < 2)%nat -> eval_step p E cfa t st = Fail.
Proof.
  intros p E cfa t st Ht Hl.
  destruct st as [|a [|b s]]; cbn in Hl; try lia;
  destruct Ht as [H|[H|[H|[H|[H|H]]]]]; subst; reflexivity.
Qed.
Lemma fm_unknown_dollar_reg : forall p E cfa n st,
  n <> [] -> e_callee E n = None -> eval_step p E cfa (36 :: n) st = Fail.
Proof.
  intros p E cfa n st Hn H. unfold eval_step.
  cbn [beq T_caret T_at T_plus T_minus T_star T_slash T_pct T_cfa T_undef Z.eqb Pos.eqb andb after_dollar].
  rewrite H. reflexivity.
Qed.
Lemma fm_unknown_bare_reg : forall p E cfa t st,
  is_special t = false -> after_dollar t = None -> parse_int 64 t = None -> e_callee E t = None ->
  eval_step p E cfa t st = Fail.
Proof.
  intros p E cfa t st Hs Ha Hp Hc. rewrite (eval_step_default p E cfa t st Hs). unfold default_arm.
  rewrite Ha, Hp, Hc. reflexivity.
Qed.
Lemma fm_leftover : forall p E cfa e st,
  eval_loop p E cfa e [] = Ret st -> length st <> 1%nat -> eval_cfi_expr p E e cfa = Fail.
Proof.
  intros p E cfa e st H Hl. unfold eval_cfi_expr. rewrite H. cbn [obind].
  destruct st as [|v [|w s]]; try reflexivity. cbn in Hl. lia.
Qed.

(* the mock walker's final register file, rule by rule *)
Lemma mock_fold : forall w p E cfa l s, NoDup (map fst l) ->
  let s' := fold_left (stepf (mock_ops w) p E cfa) l s in
  m_cfa s' = m_cfa s /\ m_ra s' = m_ra s /\
  forall n, m_regs s' n = match find (ROther n) l with
                          | Some e => mock_cell w n (val p E (Some cfa) e)
                          | None => m_regs s n
                          end.
Proof.
  induction l as [|[k e] r IH]; intros s Hnd; cbn [fold_left]; [repeat split|].
  cbn in Hnd. inversion Hnd as [|? ? Hnin Hd]; subst.
  destruct (IH (stepf (mock_ops w) p E cfa s (k, e)) Hd) as (A & B & C). cbv zeta. rewrite A, B.
  unfold stepf in *. cbn [fst snd] in *. destruct k as [| |n']; try (repeat split; exact C).
  rewrite mock_act_spec in *. cbn [m_cfa m_ra m_regs] in *. repeat split. intro n. rewrite C. cbn [find cfireg_eqb].
  unfold upd. destruct (beq n n') eqn:Bn; [|reflexivity].
  apply beq_eq in Bn. subst n'. rewrite (find_none _ _ Hnin). reflexivity.
Qed.

(* for any visiting order, any start state *)
Lemma mock_fold_result : forall w p E cfa m l s, NoDup (map fst m) -> Permutation l (rest m) ->
  let s' := fold_left (stepf (mock_ops w) p E cfa) l s in
  m_cfa s' = m_cfa s /\ m_ra s' = m_ra s /\
  forall n, m_regs s' n = match find (ROther n) m with
                          | Some e => mock_cell w n (val p E (Some cfa) e)
                          | None => m_regs s n
                          end.
Proof.
  intros w p E cfa m l s Hn P. destruct (rest_perm m l Hn P) as (Nd & _ & Hin).
  destruct (mock_fold w p E cfa l s Nd) as (A & B & C). split; [exact A|]. split; [exact B|].
  intro n. rewrite C. destruct (find (ROther n) l) as [e|] eqn:F.
  - apply (find_in _ _ _ Nd), Hin in F. rewrite F. reflexivity.
  - destruct (find (ROther n) m) as [e|] eqn:G; [|reflexivity].
    apply Hin, (find_in _ _ _ Nd) in G. congruence.
Qed.

Theorem mock_walk_result : forall w p E texts s s' m,
  walk_with_stack_cfi (mock_ops w) p E texts s = Ret (Some s') -> parse_all texts [] = Ret m ->
  exists cfa ra,
    m_cfa s' = Some cfa /\ m_ra s' = Some ra /\
    (exists e, In (RCfa, e) m /\ eval_cfi_expr p E e None = Ret cfa) /\
    (exists e, In (RRa, e) m /\ eval_cfi_expr p E e (Some cfa) = Ret ra) /\
    (forall n e, In (ROther n, e) m -> m_regs s' n = mock_cell w n (val p E (Some cfa) e)) /\
    (forall n, ~ In (ROther n) (map fst m) -> m_regs s' n = m_regs s n).
Proof.
  intros w p E texts s s' m H Hm. unfold walk_with_stack_cfi in H.
  rewrite (walk_cfi_ord_resolve _ _ _ sort_rules_in) in H. unfold resolve in H. rewrite Hm in H.
  pose proof (parse_all_nodup _ _ Hm) as Hn.
  destruct (find RCfa m) as [ce|] eqn:Fc; [|discriminate H]. destruct (find RRa m) as [re|] eqn:Fr; [|discriminate H].
  destruct (val p E None ce) as [cfa|] eqn:Vc; [|discriminate H].
  destruct (val p E (Some cfa) re) as [ra|] eqn:Vr; [|discriminate H].
  cbn [mock_ops o_set_cfa o_set_ra] in H.
  destruct (fits w cfa); [|discriminate H]. cbn [m_cfa m_ra m_regs] in H. destruct (fits w ra); [|discriminate H].
  injection H as <-.
  destruct (mock_fold_result w p E cfa m _ (mkM (Some cfa) (Some ra) (m_regs s)) Hn (sort_rules_perm _)) as (Gc & Gr & Gn).
  exists cfa, ra. split; [exact Gc|]. split; [exact Gr|].
  split; [exists ce; split; [apply find_in; assumption|rewrite eval_val, Vc; reflexivity]|].
  split; [exists re; split; [apply find_in; assumption|rewrite eval_val, Vr; reflexivity]|]. split.
  - intros n e Hin. rewrite Gn. apply (find_in _ _ _ Hn) in Hin. rewrite Hin. reflexivity.
  - intros n Hnin. rewrite Gn. destruct (find (ROther n) m) as [e|] eqn:F; [|reflexivity].
    exfalso. apply Hnin. apply (find_in _ _ _ Hn) in F. apply (in_map fst) in F. exact F.
Qed.
