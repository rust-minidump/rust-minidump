(* C06/Proofs4.v — after Proofs2.v and Proofs3.v.  [resolve] in documented terms ([resolve_spec]), and the whole unwind
   step through the mock walker is [cfi_spec] ([walk_refines_spec]). *)
From Coq Require Import Lia Permutation.
From RM Require Import C06.Model C06.Proofs C06.Proofs2 C06.Proofs3.
Import ListNotations.
Open Scope Z_scope.

Definition ins (m : rmap) (p : cfireg * expr) : rmap := map_insert (fst p) (snd p) m.

(* the rule in force for a register, read off the parsed map *)
Lemma find_ins_all : forall ps k, find k (fold_left ins ps []) = last_rule k ps.
Proof. intros. unfold ins. rewrite find_insert_all. destruct (last_rule k ps); reflexivity. Qed.

Lemma last_rule_in : forall k ps e, last_rule k ps = Some e -> In (k, e) ps.
Proof.
  induction ps as [|[k' e'] r IH]; intros e H; cbn [last_rule] in H; [discriminate|].
  destruct (last_rule k r) as [e2|].
  - inversion H; subst. right. apply IH. reflexivity.
  - destruct (cfireg_eqb k k') eqn:E; [|discriminate]. apply cfireg_eqb_eq in E. inversion H; subst. left; reflexivity.
Qed.

(* with the CFA of a documented rule set, every rule of the set evaluates as documented *)
Lemma rule_refines : forall p E ps ce cfa, env_wf E -> Forall (fun q => Forall documented (snd q)) ps ->
  last_rule RCfa ps = Some ce -> spec_eval E None ce = Some cfa ->
  forall k e, last_rule k ps = Some e -> val p E (Some cfa) e = spec_eval E (Some cfa) e.
Proof.
  intros p E ps ce cfa HE Hdoc Lc Sc k e L. rewrite Forall_forall in Hdoc.
  apply eval_refines_spec; [exact HE| |exact (Hdoc _ (last_rule_in _ _ _ L))].
  intros c Hc. injection Hc as <-.
  assert (Dc : Forall documented ce) by exact (Hdoc _ (last_rule_in _ _ _ Lc)).
  apply (val_inr Debug E None ce cfa HE); [discriminate|exact Dc|].
  rewrite (eval_refines_spec Debug E None ce HE) by (discriminate || exact Dc). exact Sc.
Qed.

(* [resolve] in documented terms: the part that [cfi_spec] and [cfi_spec_real] share *)
Lemma resolve_spec : forall p E texts, env_wf E ->
  (forall ps, all_pairs texts = Some ps -> Forall (fun q => Forall documented (snd q)) ps) ->
  resolve p E texts =
  match all_pairs texts with
  | Some ps =>
      match last_rule RCfa ps, last_rule RRa ps with
      | Some ce, Some re =>
          match spec_eval E None ce with
          | Some cfa => match spec_eval E (Some cfa) re with
                        | Some ra => Some (cfa, ra, rest (fold_left ins ps []))
                        | None => None
                        end
          | None => None
          end
      | _, _ => None
      end
  | None => None
  end.
Proof.
  intros p E texts HE Hdoc. unfold resolve. rewrite parse_all_pairs.
  destruct (all_pairs texts) as [ps|]; [|reflexivity]. specialize (Hdoc ps eq_refl).
  fold ins. rewrite !find_ins_all.
  destruct (last_rule RCfa ps) as [ce|] eqn:Lc; [|reflexivity].
  destruct (last_rule RRa ps) as [re|] eqn:Lr; [|reflexivity].
  rewrite (eval_refines_spec p E None ce HE); [|discriminate|rewrite Forall_forall in Hdoc; exact (Hdoc _ (last_rule_in _ _ _ Lc))].
  destruct (spec_eval E None ce) as [cfa|] eqn:Sc; [|reflexivity].
  rewrite (rule_refines p E ps ce cfa HE Hdoc Lc Sc _ _ Lr). reflexivity.
Qed.

Definition texts_of (r : cfi_record) (addr : Z) : list bytes :=
  snd (c_init r) :: map snd (take_applicable addr (sort_cfi (c_add r))).
(* every expression token of the applicable records is in the documented alphabet *)
Definition all_documented (r : cfi_record) (addr : Z) : Prop :=
  forall ps, all_pairs (texts_of r addr) = Some ps -> Forall (fun q => Forall documented (snd q)) ps.

Lemma all_documented_dec : forall r addr,
  match all_pairs (texts_of r addr) with
  | Some ps => forallb (fun q => forallb documentedb (snd q)) ps
  | None => true
  end = true -> all_documented r addr.
Proof.
  intros r addr H ps E. rewrite E in H. rewrite forallb_forall in H.
  apply Forall_forall. intros q Hq. apply documented_dec, H, Hq.
Qed.

Theorem walk_refines_spec : forall w p E r addr,
  env_wf E -> all_documented r addr ->
  match walk_frame_cfi (mock_ops w) p E r addr m_init, cfi_spec w E r addr with
  | Ret (Some s), Some (cfa, ra, regs) =>
      m_cfa s = Some cfa /\ m_ra s = Some ra /\ forall n, m_regs s n = regs n
  | Ret None, None => True
  | _, _ => False
  end.
Proof.
  intros w p E r addr HE Hdoc. unfold walk_frame_cfi, cfi_spec. fold (texts_of r addr).
  destruct (cfi_covers r addr); [|exact I]. unfold walk_with_stack_cfi.
  rewrite (walk_cfi_ord_resolve _ _ _ sort_rules_in), (resolve_spec p E _ HE Hdoc).
  destruct (all_pairs (texts_of r addr)) as [ps|] eqn:Eps; [|exact I].
  destruct (last_rule RCfa ps) as [ce|] eqn:Lc; [|exact I].
  destruct (last_rule RRa ps) as [re|] eqn:Lr; [|exact I].
  destruct (spec_eval E None ce) as [cfa|] eqn:Sc; [|exact I].
  destruct (spec_eval E (Some cfa) re) as [ra|] eqn:Sr; [|exact I].
  cbn [mock_ops o_set_cfa o_set_ra m_init m_cfa m_ra m_regs].
  destruct (fits w cfa); cbn [andb]; [|exact I]. destruct (fits w ra); [|exact I].
  assert (Hn : NoDup (map fst (fold_left ins ps []))).
  { apply (parse_all_nodup (texts_of r addr)). rewrite parse_all_pairs, Eps. reflexivity. }
  destruct (mock_fold_result w p E cfa _ _ (mkM (Some cfa) (Some ra) (fun _ => Unset)) Hn (sort_rules_perm _))
    as (Gc & Gr & Gn).
  split; [exact Gc|]. split; [exact Gr|]. intro n. rewrite Gn, find_ins_all.
  destruct (last_rule (ROther n) ps) as [e|] eqn:Ln; [|reflexivity].
  rewrite (rule_refines p E ps ce cfa HE (Hdoc ps Eps) Lc Sc _ _ Ln). reflexivity.
Qed.
