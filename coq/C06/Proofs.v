(* C06/Proofs.v — read first after Model.v.  The two facts every theorem about the walk rests on: parse_cfi_exprs is
   the right-to-left grouping of the token list ([parse_all_pairs]; no panic and distinct keys follow), and
   walk_with_stack_cfi is [resolve] (parse, take out .cfa and .ra, evaluate both) followed by a fold of register
   actions ([walk_cfi_ord_resolve]).  On the way: byte strings ([bs], [beq]), the tokens eval_cfi_expr matches
   literally and its default arm, rule maps as partial functions ([find], [rest_perm]).
   Reading order of the lemma files: Proofs, then 9 / 10 / 11 (each on its own: record selection, literals, tokeniser),
   2, 3, 4, 5, 12, 8, 13, 14, 15, 16, 17; Proofs7 holds the two definitions ArchDriver.v needs. *)
From Coq Require Import String Ascii Lia Permutation.
From RM Require Import C06.Model.
Import ListNotations.
Open Scope Z_scope.

(* the byte constants of Model.v are the texts they stand for *)
Fixpoint bs (s : string) : bytes :=
  match s with
  | EmptyString => []
  | String c r => Z.of_N (N_of_ascii c) :: bs r
  end.
Lemma consts_ok :
  T_plus = bs "+" /\ T_minus = bs "-" /\ T_star = bs "*" /\ T_slash = bs "/" /\ T_pct = bs "%" /\
  T_at = bs "@" /\ T_caret = bs "^" /\ T_cfa = bs ".cfa" /\ T_ra = bs ".ra" /\ T_undef = bs ".undef" /\
  a_regs x86 = map bs ["eip"; "esp"; "ebp"; "ebx"; "esi"; "edi"; "eax"; "ecx"; "edx"; "eflags"]%string /\
  a_saved x86 = map bs ["ebp"; "ebx"; "edi"; "esi"]%string /\ a_sp x86 = bs "esp" /\ a_ip x86 = bs "eip" /\
  a_regs amd64 = map bs ["rax"; "rdx"; "rcx"; "rbx"; "rsi"; "rdi"; "rbp"; "rsp"; "r8"; "r9"; "r10"; "r11";
                         "r12"; "r13"; "r14"; "r15"; "rip"]%string /\
  a_saved amd64 = map bs ["rbx"; "rbp"; "r12"; "r13"; "r14"; "r15"]%string /\
  a_sp amd64 = bs "rsp" /\ a_ip amd64 = bs "rip" /\
  a_regs arm64 = map bs ["x0"; "x1"; "x2"; "x3"; "x4"; "x5"; "x6"; "x7"; "x8"; "x9"; "x10"; "x11"; "x12";
                         "x13"; "x14"; "x15"; "x16"; "x17"; "x18"; "x19"; "x20"; "x21"; "x22"; "x23"; "x24";
                         "x25"; "x26"; "x27"; "x28"; "fp"; "lr"; "sp"; "pc"]%string /\
  a_alias arm64 = [(bs "x29", bs "fp"); (bs "x30", bs "lr")] /\
  a_saved arm64 = map bs ["x19"; "x20"; "x21"; "x22"; "x23"; "x24"; "x25"; "x26"; "x27"; "x28"; "fp"]%string /\
  a_sp arm64 = bs "sp" /\ a_ip arm64 = bs "pc".
Proof. repeat split; reflexivity. Qed.

Lemma beq_eq : forall a b, beq a b = true <-> a = b.
Proof.
  induction a as [|x a IH]; destruct b as [|y b]; cbn [beq]; split; intro H; try discriminate; auto.
  - apply andb_prop in H. destruct H as [H1 H2]. apply Z.eqb_eq in H1. apply IH in H2. congruence.
  - inversion H; subst. rewrite Z.eqb_refl. cbn. apply IH. reflexivity.
Qed.
Lemma beq_refl : forall a, beq a a = true.
Proof. intro a. apply beq_eq. reflexivity. Qed.
Lemma beq_neq : forall a b, beq a b = false <-> a <> b.
Proof.
  intros a b. split; intro H.
  - intro E. apply beq_eq in E. congruence.
  - destruct (beq a b) eqn:E; auto. apply beq_eq in E. contradiction.
Qed.
Lemma cfireg_eqb_eq : forall a b, cfireg_eqb a b = true <-> a = b.
Proof.
  destruct a, b; cbn; split; intro H; try discriminate; auto.
  - apply beq_eq in H. congruence.
  - inversion H. apply beq_refl.
Qed.
Lemma cfireg_eqb_neq : forall a b, cfireg_eqb a b = false <-> a <> b.
Proof.
  intros a b. split; intro H.
  - intro E. apply cfireg_eqb_eq in E. congruence.
  - destruct (cfireg_eqb a b) eqn:E; auto. apply cfireg_eqb_eq in E. contradiction.
Qed.

(* the tokens eval_cfi_expr matches literally *)
Definition is_special (t : bytes) : bool :=
  existsb (beq t) [T_plus; T_minus; T_star; T_slash; T_pct; T_at; T_caret; T_cfa; T_undef].

(* the `_` arm of eval_cfi_expr's match: `$reg`, then a literal, then a bare register name *)
Definition default_arm (E : env) (t : bytes) (st : list Z) : outcome (list Z) :=
  match after_dollar t with
  | Some reg => push_opt (e_callee E reg) st
  | None => match parse_int 64 t with
            | Some v => Ret (wrap64 v :: st)
            | None => push_opt (e_callee E t) st
            end
  end.

Lemma eval_step_default : forall p E cfa t st,
  is_special t = false -> eval_step p E cfa t st = default_arm E t st.
Proof.
  intros p E cfa t st Hs. unfold is_special in Hs. cbn [existsb] in Hs.
  repeat (apply orb_false_elim in Hs; destruct Hs as [?H Hs]).
  unfold eval_step.
  repeat match goal with H : beq t ?c = false |- _ => rewrite H; clear H end.
  reflexivity.
Qed.

(* outcomes that are neither Panic nor OutOfFuel *)
Definition ok {A} (x : outcome A) : Prop :=
  match x with Ret _ => True | Fail => True | _ => False end.

Lemma ok_bind : forall A B (x : outcome A) (f : A -> outcome B),
  ok x -> (forall a, x = Ret a -> ok (f a)) -> ok (obind x f).
Proof. intros A B x f Hx Hf. destruct x; cbn in *; auto. Qed.

(* the tokens lie one after the other between offsets lo and hi *)
Fixpoint toks_wf (lo hi : Z) (l : list tok) : Prop :=
  match l with
  | [] => lo <= hi
  | t :: r => lo <= t_off t /\ toks_wf (t_end t) hi r
  end.

Lemma blen_nil : blen [] = 0.
Proof. reflexivity. Qed.
Lemma blen_nonneg : forall b, 0 <= blen b.
Proof. intro b. unfold blen. lia. Qed.
Lemma blen_cons : forall c b, blen (c :: b) = blen b + 1.
Proof. intros. unfold blen. cbn [length]. lia. Qed.
Lemma blen_rev : forall b, blen (rev b) = blen b.
Proof. intro b. unfold blen. rewrite rev_length. reflexivity. Qed.

Lemma toks_wf_le : forall l lo hi, toks_wf lo hi l -> lo <= hi.
Proof.
  induction l as [|t r IH]; cbn; intros lo hi H; auto.
  destruct H as [H1 H2]. apply IH in H2. unfold t_end in H2. pose proof (blen_nonneg (t_body t)). lia.
Qed.
Lemma split_off_wf : forall s o cur lo hi,
  lo <= o - blen cur -> o + blen s <= hi -> toks_wf lo hi (split_off o cur s).
Proof.
  induction s as [|c t IH]; intros o cur lo hi Hlo Hhi; cbn [split_off]; pose proof (blen_nonneg cur) as Hc.
  - rewrite blen_nil in Hhi. destruct cur; cbn [toks_wf]; [lia|].
    unfold t_end. cbn [t_off t_body]. rewrite blen_rev. lia.
  - rewrite blen_cons in Hhi. destruct (is_ws c).
    + destruct cur as [|x cur'].
      * apply IH; rewrite blen_nil in *; lia.
      * cbn [toks_wf]. split; [exact Hlo|]. unfold t_end. cbn [t_off t_body]. rewrite blen_rev.
        apply IH; rewrite ?blen_nil; lia.
    + apply IH; rewrite ?blen_cons; lia.
Qed.

Lemma tokens_wf : forall s, toks_wf 0 (blen s) (tokens s).
Proof. intro s. apply split_off_wf; rewrite ?blen_nil; lia. Qed.

(* no REG: group has an empty expression *)
Definition groups_ok (gs : list (bytes * expr)) : bool := forallb (fun g => negb (is_nil_l (snd g))) gs.
(* labels classified into .cfa / .ra / other registers *)
Definition cls (gs : list (bytes * expr)) : list (cfireg * expr) :=
  map (fun g => (classify_reg (fst g), snd g)) gs.

Lemma rev_not_nil : forall (A : Type) (l : list A), l <> [] -> is_nil_l (rev l) = false.
Proof.
  intros A l H. destruct (rev l) eqn:Er; [|reflexivity].
  apply (f_equal (@length _)) in Er. rewrite rev_length in Er. destruct l; [contradiction|discriminate Er].
Qed.

(* the states of the loop, having read tokens up to offset [lo]: before the first label; just after a label; inside
   an expression, [acc] holding its tokens so far (reversed), [f] the first and [l] the last of them *)
Inductive pstate (lo : Z) : option cfireg -> option tok -> option tok -> list bytes -> Prop :=
| PIdle : pstate lo None None None []
| PLabel : forall rg, pstate lo (Some rg) None None []
| PExpr : forall rg f l a acc, 0 <= t_off f -> t_off f <= t_end l -> t_end l <= lo ->
    pstate lo (Some rg) (Some f) (Some l) (a :: acc).

(* the slice bounds of a commit hold for tokens read in order *)
Lemma commit_some : forall len rg f l acc out,
  0 <= t_off f -> t_off f <= t_end l -> t_end l <= len ->
  commit len (Some rg) (Some f) (Some l) acc out = Ret (map_insert rg (rev acc) out).
Proof.
  intros len rg f l acc out H1 H2 H3. unfold commit.
  replace (0 <=? t_off f) with true by (symmetry; apply Z.leb_le; lia).
  replace (t_off f <=? t_end l) with true by (symmetry; apply Z.leb_le; lia).
  replace (t_end l <=? len) with true by (symmetry; apply Z.leb_le; lia). reflexivity.
Qed.

Lemma parse_loop_groups : forall toks len reg first last acc out lo,
  pstate lo reg first last acc -> 0 <= lo -> toks_wf lo len toks ->
  parse_loop len toks reg first last acc out =
  let '(pre, gs) := split_groups (map t_body toks) in
  match reg with
  | None => if is_nil_l pre && negb (is_nil_l gs) && groups_ok gs
            then Ret (fold_left (fun m q => map_insert (fst q) (snd q) m) (cls gs) out) else Fail
  | Some rg => if negb (is_nil_l (rev acc ++ pre)) && groups_ok gs
               then Ret (fold_left (fun m q => map_insert (fst q) (snd q) m) ((rg, rev acc ++ pre) :: cls gs) out)
               else Fail
  end.
Proof.
  induction toks as [|t r IH]; intros len reg first last acc out lo Hs Hlo0 Hwf.
  - cbn [parse_loop map split_groups]. destruct Hs as [|rg|rg f l a acc H1 H2 H3]; try reflexivity.
    rewrite app_nil_r, commit_some by (try assumption; apply toks_wf_le in Hwf; lia).
    rewrite (rev_not_nil _ (a :: acc)) by discriminate. reflexivity.
  - cbn [toks_wf] in Hwf. destruct Hwf as [Ht Hr].
    pose proof (toks_wf_le _ _ _ Hr) as Hle.
    assert (Hend : t_off t <= t_end t) by (unfold t_end; pose proof (blen_nonneg (t_body t)); lia).
    cbn [parse_loop map split_groups].
    destruct (split_groups (map t_body r)) as [pre' gs'] eqn:Esg.
    destruct (strip_suffix_colon (t_body t)) as [name|] eqn:Esc.
    + (* a label: commit the expression read so far, if any *)
      destruct Hs as [|rg|rg f l a acc H1 H2 H3].
      * rewrite (IH len _ None None [] out (t_end t) (PLabel _ _)) by (lia || exact Hr).
        cbn [rev app is_nil_l negb andb groups_ok forallb snd cls map fst].
        fold (groups_ok gs'). fold (cls gs'). reflexivity.
      * reflexivity.
      * rewrite app_nil_r, commit_some by (assumption || lia). cbn [obind].
        rewrite (IH len _ None None [] _ (t_end t) (PLabel _ _)) by (lia || exact Hr).
        rewrite (rev_not_nil _ (a :: acc)) by discriminate. cbn [rev app].
        cbn [negb andb groups_ok forallb snd cls map fst fold_left].
        fold (groups_ok gs'). fold (cls gs').
        destruct (negb (is_nil_l pre') && groups_ok gs'); reflexivity.
    + (* an expression token *)
      destruct Hs as [|rg|rg f l a acc H1 H2 H3]; [reflexivity| |].
      * rewrite (IH len _ (Some t) (Some t) [t_body t] out (t_end t)) by (lia || exact Hr || (constructor; lia)).
        reflexivity.
      * rewrite (IH len _ (Some f) (Some t) (t_body t :: a :: acc) out (t_end t)) by (lia || exact Hr || (constructor; lia)).
        cbn [rev]. rewrite <- !app_assoc. reflexivity.
Qed.

Lemma parse_pairs : forall input out,
  parse_cfi_exprs input out =
  match spec_pairs (split_ws input) with
  | Some ps => Ret (fold_left (fun m q => map_insert (fst q) (snd q) m) ps out)
  | None => Fail
  end.
Proof.
  intros. unfold parse_cfi_exprs.
  rewrite (parse_loop_groups (tokens input) (blen input) None None None [] out 0 (PIdle 0));
    [|lia|apply tokens_wf].
  unfold spec_pairs, split_ws. destruct (split_groups (map t_body (tokens input))) as [pre gs].
  fold (groups_ok gs). fold (cls gs). destruct (is_nil_l pre && negb (is_nil_l gs) && groups_ok gs); reflexivity.
Qed.

Lemma parse_all_pairs : forall texts out,
  parse_all texts out =
  match all_pairs texts with
  | Some ps => Ret (fold_left (fun m q => map_insert (fst q) (snd q) m) ps out)
  | None => Fail
  end.
Proof.
  induction texts as [|t r IH]; intro out; cbn [parse_all all_pairs]; [reflexivity|].
  rewrite parse_pairs. destruct (spec_pairs (split_ws t)) as [a|]; cbn [obind]; [|reflexivity].
  rewrite IH. destruct (all_pairs r) as [b|]; [|reflexivity]. rewrite fold_left_app. reflexivity.
Qed.

Lemma parse_all_ok : forall texts out, ok (parse_all texts out).
Proof. intros. rewrite parse_all_pairs. destruct (all_pairs texts); exact I. Qed.

Lemma is_pow2_pos : forall r, is_pow2 r = true -> 0 < r.
Proof. intros r H. unfold is_pow2 in H. apply andb_prop in H. destruct H as [H _]. apply Z.ltb_lt in H. exact H. Qed.

Lemma binop_ok : forall st f, (forall l r, ok (f l r)) -> ok (binop st f).
Proof.
  intros st f Hf. unfold binop. destruct st as [|r [|l s]]; try exact I.
  apply ok_bind; [apply Hf|]. intros; exact I.
Qed.
Lemma push_opt_ok : forall o st, ok (push_opt o st).
Proof. destruct o; intros; exact I. Qed.

Lemma eval_step_ok : forall p E cfa t st, ok (eval_step p E cfa t st).
Proof.
  intros p E cfa t st. unfold eval_step.
  destruct (beq t T_plus). { apply binop_ok. intros; exact I. }
  destruct (beq t T_minus). { apply binop_ok. intros; exact I. }
  destruct (beq t T_star). { apply binop_ok. intros; exact I. }
  destruct (beq t T_slash). { apply binop_ok. intros l r. destruct (r =? 0); exact I. }
  destruct (beq t T_pct). { apply binop_ok. intros l r. destruct (r =? 0); exact I. }
  destruct (beq t T_at).
  { apply binop_ok. intros l r. destruct (r =? 0) eqn:E0; cbn [orb]; [exact I|].
    destruct (is_pow2 r) eqn:Ep; cbn [negb]; [|exact I].
    apply is_pow2_pos in Ep. unfold chk_usub.
    replace (0 <=? r - 1) with true by (symmetry; apply Z.leb_le; lia). exact I. }
  destruct (beq t T_caret). { destruct st; [exact I|apply push_opt_ok]. }
  destruct (beq t T_cfa). { apply push_opt_ok. }
  destruct (beq t T_undef). { exact I. }
  destruct (after_dollar t). { apply push_opt_ok. }
  destruct (parse_int 64 t). { exact I. }
  apply push_opt_ok.
Qed.

Lemma eval_loop_ok : forall p E cfa toks st, ok (eval_loop p E cfa toks st).
Proof.
  induction toks as [|t r IH]; intro st; cbn [eval_loop]; [exact I|].
  apply ok_bind; [apply eval_step_ok|]. intros; apply IH.
Qed.
Lemma eval_ok : forall p E e cfa, ok (eval_cfi_expr p E e cfa).
Proof.
  intros. unfold eval_cfi_expr. apply ok_bind; [apply eval_loop_ok|].
  intros st _. destruct st as [|v [|]]; exact I.
Qed.

(* the value of a rule: Some v / None (the rule fails) *)
Definition val (p : profile) (E : env) (cfa : option Z) (e : expr) : option Z :=
  match eval_cfi_expr p E e cfa with Ret v => Some v | _ => None end.
Lemma eval_val : forall p E e cfa,
  eval_cfi_expr p E e cfa = match val p E cfa e with Some v => Ret v | None => Fail end.
Proof.
  intros. unfold val. pose proof (eval_ok p E e cfa) as H.
  destruct (eval_cfi_expr p E e cfa); cbn in *; auto; contradiction.
Qed.

(* a rule map read as a partial function *)
Fixpoint find (k : cfireg) (m : rmap) : option expr :=
  match m with
  | [] => None
  | (k', e) :: r => if cfireg_eqb k k' then Some e else find k r
  end.

(* in a list of pairs with distinct keys, the key determines the pair *)
Lemma nodup_fst_inj : forall (A B : Type) (l : list (A * B)) x y,
  NoDup (map fst l) -> In x l -> In y l -> fst x = fst y -> x = y.
Proof.
  induction l as [|a r IH]; intros x y Hn Hx Hy Hf; [contradiction|].
  cbn in Hn. inversion Hn as [|? ? Hnin Hd]; subst.
  destruct Hx as [Hx|Hx], Hy as [Hy|Hy]; subst; auto.
  - exfalso. apply Hnin. rewrite Hf. apply in_map. exact Hy.
  - exfalso. apply Hnin. rewrite <- Hf. apply in_map. exact Hx.
Qed.

Lemma find_none : forall k (l : rmap), ~ In k (map fst l) -> find k l = None.
Proof.
  induction l as [|[k' e] r IH]; intro H; cbn [find]; [reflexivity|]. cbn in H.
  replace (cfireg_eqb k k') with false by (symmetry; apply cfireg_eqb_neq; intuition congruence).
  apply IH. tauto.
Qed.

Lemma find_in : forall k e m, NoDup (map fst m) -> (find k m = Some e <-> In (k, e) m).
Proof.
  induction m as [|[k' e'] r IH]; intro Hn; cbn [find]; [split; [discriminate|contradiction]|].
  cbn in Hn. inversion Hn as [|? ? Hnin Hd]; subst.
  destruct (cfireg_eqb k k') eqn:E.
  - apply cfireg_eqb_eq in E. subst k'. split; intro H.
    + inversion H; subst. left; reflexivity.
    + destruct H as [H|H]; [inversion H; reflexivity|]. exfalso. apply Hnin. apply in_map_iff. exists (k, e). auto.
  - apply cfireg_eqb_neq in E. rewrite (IH Hd). split; intro H; [right; exact H|].
    destruct H as [H|H]; [inversion H; congruence|exact H].
Qed.

Lemma find_insert : forall k k' e m,
  find k (map_insert k' e m) = if cfireg_eqb k k' then Some e else find k m.
Proof.
  induction m as [|[k2 e2] r IH]; cbn [map_insert find]; [reflexivity|].
  destruct (cfireg_eqb k' k2) eqn:E2.
  - apply cfireg_eqb_eq in E2. subst k2. cbn [find]. destruct (cfireg_eqb k k'); reflexivity.
  - cbn [find]. rewrite IH. destruct (cfireg_eqb k k2) eqn:E3; [|reflexivity].
    apply cfireg_eqb_eq in E3. subst k2. destruct (cfireg_eqb k k') eqn:E4; [|reflexivity].
    apply cfireg_eqb_eq in E4. subst k'. rewrite (proj2 (cfireg_eqb_eq k k) eq_refl) in E2. discriminate.
Qed.

(* a later rule for a register replaces an earlier one *)
Lemma find_insert_all : forall ps k m,
  find k (fold_left (fun m q => map_insert (fst q) (snd q) m) ps m) =
  match last_rule k ps with Some e => Some e | None => find k m end.
Proof.
  induction ps as [|[k' e] r IH]; intros k m; cbn [fold_left last_rule]; [reflexivity|].
  rewrite IH. destruct (last_rule k r); [reflexivity|]. cbn [fst snd]. rewrite find_insert.
  destruct (cfireg_eqb k k'); reflexivity.
Qed.

Lemma map_insert_in : forall k v m x, In x (map_insert k v m) -> x = (k, v) \/ In x m.
Proof.
  intros k v m x. induction m as [|[k' v'] r IH]; cbn [map_insert]; intro H.
  - destruct H as [H|[]]; left; symmetry; exact H.
  - destruct (cfireg_eqb k k').
    + destruct H as [H|H]; [left; symmetry; exact H|right; right; exact H].
    + destruct H as [H|H]; [right; left; exact H|]. destruct (IH H) as [E|E]; [left; exact E|right; right; exact E].
Qed.
Lemma map_insert_nodup : forall k v m, NoDup (map fst m) -> NoDup (map fst (map_insert k v m)).
Proof.
  induction m as [|[k' v'] r IH]; cbn [map_insert]; intro H.
  - cbn. constructor; [intros []|constructor].
  - destruct (cfireg_eqb k k') eqn:E.
    + apply cfireg_eqb_eq in E; subst. exact H.
    + cbn in *. inversion H as [|? ? Hn Hd]; subst. constructor; [|apply IH; exact Hd].
      intro Hin. apply in_map_iff in Hin. destruct Hin as [x [Hx1 Hx2]].
      apply map_insert_in in Hx2. destruct Hx2 as [->|Hx2].
      * apply cfireg_eqb_neq in E. cbn in Hx1. congruence.
      * apply Hn. rewrite <- Hx1. apply in_map. exact Hx2.
Qed.

Lemma parse_all_nodup : forall texts m, parse_all texts [] = Ret m -> NoDup (map fst m).
Proof.
  intros texts m H. rewrite parse_all_pairs in H. destruct (all_pairs texts) as [ps|]; [|discriminate H].
  injection H as <-. cut (NoDup (map fst (@nil (cfireg * expr)))); [|constructor].
  generalize (@nil (cfireg * expr)).
  induction ps as [|q ps IH]; intros m Hm; cbn [fold_left]; [exact Hm|]. apply IH, map_insert_nodup, Hm.
Qed.

Lemma map_remove_eq : forall k m, map_remove k m = (find k m, snd (map_remove k m)).
Proof.
  induction m as [|[k' e] r IH]; cbn [map_remove find]; [reflexivity|].
  destruct (cfireg_eqb k k'); [reflexivity|]. destruct (map_remove k r) as [o r']. injection IH as ->. reflexivity.
Qed.
Lemma map_remove_spec : forall k m, NoDup (map fst m) ->
  NoDup (map fst (snd (map_remove k m))) /\
  forall x, In x (snd (map_remove k m)) <-> In x m /\ fst x <> k.
Proof.
  induction m as [|[k' v'] r IH]; intro Hn; cbn [map_remove].
  - split; [constructor|]. intro x. split; [intros []|intros [[] _]].
  - cbn in Hn. inversion Hn as [|? ? Hnin Hd]; subst. destruct (cfireg_eqb k k') eqn:E.
    + apply cfireg_eqb_eq in E; subst k'. cbn [fst snd]. split; [exact Hd|]. intro x. split.
      * intro Hx. split; [right; exact Hx|]. intro Hk. apply Hnin. rewrite <- Hk. apply in_map. exact Hx.
      * intros [[Hx|Hx] Hk]; [subst x; cbn in Hk; congruence|exact Hx].
    + destruct (IH Hd) as (B & C). destruct (map_remove k r) as [o r1]. cbn [fst snd] in *.
      apply cfireg_eqb_neq in E. split.
      * cbn. constructor; [|exact B]. intro Hin. apply Hnin. apply in_map_iff in Hin. destruct Hin as [x [Hx1 Hx2]].
        apply C in Hx2. apply in_map_iff. exists x. tauto.
      * intro x. split.
        -- intros [Hx|Hx]; [subst x; split; [left; reflexivity|cbn; congruence]|]. apply C in Hx. split; [right|]; tauto.
        -- intros [[Hx|Hx] Hk]; [left; exact Hx|right; apply C; tauto].
Qed.
Lemma map_remove_find_other : forall k k2 m, k <> k2 -> find k2 (snd (map_remove k m)) = find k2 m.
Proof.
  induction m as [|[k' e'] r IH]; intro Hne; cbn [map_remove find]; [reflexivity|].
  destruct (cfireg_eqb k k') eqn:E.
  - apply cfireg_eqb_eq in E. subst k'. cbn [snd].
    replace (cfireg_eqb k2 k) with false by (symmetry; apply cfireg_eqb_neq; congruence). reflexivity.
  - destruct (map_remove k r) as [o r'] eqn:Er. cbn [snd find] in *. rewrite (IH Hne). reflexivity.
Qed.

Definition all_other (l : rmap) : Prop := forall x, In x l -> exists n, fst x = ROther n.

(* the rules that remain once .cfa and .ra are taken out, in any order: one per general register *)
Definition rest (m : rmap) : rmap := snd (map_remove RRa (snd (map_remove RCfa m))).

Lemma rest_perm : forall m l, NoDup (map fst m) -> Permutation l (rest m) ->
  NoDup (map fst l) /\ all_other l /\ forall n e, In (ROther n, e) l <-> find (ROther n) m = Some e.
Proof.
  intros m l Hn P. unfold rest in P.
  destruct (map_remove_spec RCfa m Hn) as (N1 & I1).
  destruct (map_remove_spec RRa _ N1) as (N2 & I2).
  assert (Hin : forall x, In x l <-> In x m /\ fst x <> RCfa /\ fst x <> RRa).
  { intro x. rewrite <- and_assoc, <- I1, <- I2. split; apply Permutation_in; [exact P|apply Permutation_sym, P]. }
  split; [exact (Permutation_NoDup (Permutation_map fst (Permutation_sym P)) N2)|]. split.
  - intros x Hx. apply Hin in Hx. destruct (fst x) as [| |n]; [tauto|tauto|exists n; reflexivity].
  - intros n e. rewrite (find_in _ _ _ Hn), Hin. cbn [fst]. split; [tauto|]. intro H. repeat split; [exact H|discriminate..].
Qed.

Section Acts.
Context {S : Type} (ops : wops S).

(* what one rule does to the caller state: set, or clear when the rule fails or the walker rejects *)
Definition act (s : S) (n : bytes) (o : option Z) : S :=
  match o with
  | Some v => match o_set ops s n v with Some s' => s' | None => o_clear ops s n end
  | None => o_clear ops s n
  end.
Definition stepf (p : profile) (E : env) (cfa : Z) (s : S) (re : cfireg * expr) : S :=
  match fst re with
  | ROther n => act s n (val p E (Some cfa) (snd re))
  | _ => s
  end.

Lemma apply_rule_act : forall p E cfa s n e,
  apply_rule ops p E cfa s (ROther n, e) = Ret (act s n (val p E (Some cfa) e)).
Proof.
  intros. unfold apply_rule. cbn [fst snd]. rewrite eval_val. unfold act.
  destruct (val p E (Some cfa) e); [destruct (o_set ops s n z)|]; reflexivity.
Qed.

Lemma apply_rules_fold : forall p E cfa l s,
  all_other l -> apply_rules ops p E cfa l s = Ret (fold_left (stepf p E cfa) l s).
Proof.
  induction l as [|[k e] r IH]; intros s H; cbn [apply_rules fold_left]; [reflexivity|].
  destruct (H (k, e) (or_introl eq_refl)) as [n Hn]. cbn in Hn. subst k.
  rewrite apply_rule_act. cbn [obind]. unfold stepf at 2. cbn [fst snd].
  apply IH. intros x Hx. apply H. right; exact Hx.
Qed.
End Acts.

(* what walk_with_stack_cfi computes before it touches the walker: CFA, return address, remaining rules *)
Definition resolve (p : profile) (E : env) (texts : list bytes) : option (Z * Z * rmap) :=
  match parse_all texts [] with
  | Ret m =>
      match find RCfa m, find RRa m with
      | Some ce, Some re =>
          match val p E None ce with
          | Some cfa => match val p E (Some cfa) re with
                        | Some ra => Some (cfa, ra, rest m)
                        | None => None
                        end
          | None => None
          end
      | _, _ => None
      end
  | _ => None
  end.

Lemma resolve_rest : forall p E texts cfa ra m2, resolve p E texts = Some (cfa, ra, m2) ->
  exists m, parse_all texts [] = Ret m /\ NoDup (map fst m) /\ m2 = rest m.
Proof.
  intros p E texts cfa ra m2 H. unfold resolve in H.
  destruct (parse_all texts []) as [m| | |] eqn:Em; try discriminate H.
  destruct (find RCfa m), (find RRa m); try discriminate H.
  destruct (val p E None _) as [c|]; [|discriminate H]. destruct (val p E (Some c) _); [|discriminate H].
  injection H as _ _ <-. exists m. split; [reflexivity|]. split; [exact (parse_all_nodup _ _ Em)|reflexivity].
Qed.

Theorem walk_cfi_ord_resolve : forall S (ops : wops S) (ord : rmap -> rmap),
  (forall l x, In x (ord l) -> In x l) ->
  forall p E texts s,
  walk_cfi_ord ops ord p E texts s =
  match resolve p E texts with
  | Some (cfa, ra, m2) =>
      match o_set_cfa ops s cfa with
      | Some s1 => match o_set_ra ops s1 ra with
                   | Some s2 => Ret (Some (fold_left (stepf ops p E cfa) (ord m2) s2))
                   | None => Ret None
                   end
      | None => Ret None
      end
  | None => Ret None
  end.
Proof.
  intros S ops ord Hord p E texts s. unfold walk_cfi_ord, resolve.
  pose proof (parse_all_ok texts []) as Hp.
  destruct (parse_all texts []) as [m| | |] eqn:Em; cbn in Hp; try contradiction; cbn [try_]; [|reflexivity].
  rewrite (map_remove_eq RCfa m), (map_remove_eq RRa (snd (map_remove RCfa m))), map_remove_find_other by discriminate.
  fold (rest m). cbv beta iota.
  destruct (rest_perm m (rest m) (parse_all_nodup _ _ Em) (Permutation_refl _)) as (_ & Hall & _).
  destruct (find RCfa m) as [ce|]; [|reflexivity]. destruct (find RRa m) as [re|]; [|reflexivity].
  rewrite (eval_val p E ce None). destruct (val p E None ce) as [cfa|]; cbn [try_]; [|reflexivity].
  rewrite (eval_val p E re (Some cfa)). destruct (val p E (Some cfa) re) as [ra|]; cbn [try_]; [|reflexivity].
  destruct (o_set_cfa ops s cfa) as [s1|]; [|reflexivity].
  destruct (o_set_ra ops s1 ra) as [s2|]; [|reflexivity].
  rewrite apply_rules_fold; [reflexivity|]. intros x Hx. apply Hall, Hord, Hx.
Qed.

Lemma walk_cfi_ord_total : forall S (ops : wops S) (ord : rmap -> rmap),
  (forall l x, In x (ord l) -> In x l) ->
  forall p E texts s, exists r, walk_cfi_ord ops ord p E texts s = Ret r.
Proof.
  intros S ops ord Hord p E texts s. rewrite (walk_cfi_ord_resolve S ops ord Hord).
  destruct (resolve p E texts) as [[[cfa ra] m2]|]; [|eexists; reflexivity].
  destruct (o_set_cfa ops s cfa) as [s1|]; [|eexists; reflexivity].
  destruct (o_set_ra ops s1 ra); eexists; reflexivity.
Qed.

Lemma insert_rule_perm : forall x l, Permutation (insert_rule x l) (x :: l).
Proof.
  induction l as [|y t IH]; cbn [insert_rule]; [apply Permutation_refl|].
  destruct (cfireg_ltb (fst y) (fst x)); [|apply Permutation_refl].
  eapply Permutation_trans; [apply perm_skip; exact IH|apply perm_swap].
Qed.
Lemma sort_rules_perm : forall l, Permutation (sort_rules l) l.
Proof.
  induction l as [|x t IH]; cbn; [constructor|].
  eapply Permutation_trans; [apply insert_rule_perm|]. apply perm_skip. exact IH.
Qed.
Lemma sort_rules_in : forall l x, In x (sort_rules l) -> In x l.
Proof. intros l x. apply Permutation_in, sort_rules_perm. Qed.

Lemma walk_total : forall S (ops : wops S) p E texts s,
  exists r, walk_with_stack_cfi ops p E texts s = Ret r.
Proof. intros. apply walk_cfi_ord_total, sort_rules_in. Qed.
Lemma walk_frame_total : forall S (ops : wops S) p E r addr s,
  exists o, walk_frame_cfi ops p E r addr s = Ret o.
Proof.
  intros. unfold walk_frame_cfi. destruct (cfi_covers r addr); [apply walk_total|eexists; reflexivity].
Qed.
