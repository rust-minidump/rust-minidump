(* C06/Proofs16.v — after Proofs15.v.  OVERLAPPING INIT records: the record with the smallest (start, end) key is found at every address
   it covers, whatever overlaps it (into_rangemap_safe sorts by range and keeps the first of two overlapping
   records; ties keep file order). *)
From Coq Require Import Lia Sorted Permutation.
From RM Require Import Base.Word C08.Model C08.Proofs C08.Tie C08.WinProofs C08.EndToEnd Gen.C08Tables Gen.CfiOps
                       C06.Model C06.GenModel C06.Proofs C06.Proofs13 C06.Proofs9 C06.Driver C06.GenDriver C06.FileTable C06.Proofs15.
Open Scope Z_scope.

Section First.
Context {V : Type} (eqb : V -> V -> bool).

Lemma sort_head : forall (l1 : list (range * V)) x l2,
  Forall (fun y => range_lt (fst x) (fst y) = true) l1 ->
  Forall (fun y => range_lt (fst y) (fst x) = false) l2 ->
  exists rest, sort_stable range_lt (l1 ++ x :: l2) = x :: rest.
Proof.
  induction l1 as [|a l1 IH]; intros x l2 H1 H2.
  - cbn [app sort_stable fold_right]. fold (sort_stable range_lt l2). exists (sort_stable range_lt l2).
    apply insert_front. eapply Permutation_Forall; [apply sort_perm|exact H2].
  - inversion H1 as [|? ? Ha H1']; subst. destruct (IH x l2 H1' H2) as [rest E].
    cbn [app sort_stable fold_right]. fold (sort_stable range_lt (l1 ++ x :: l2)). rewrite E.
    cbn [insert_stable]. rewrite Ha. eexists. reflexivity.
Qed.

Lemma first_wins : forall (l1 : list (range * V)) r0 v0 l2 x,
  wf_ranges (l1 ++ (r0, v0) :: l2) ->
  Forall (fun y => range_lt r0 (fst y) = true) l1 ->
  Forall (fun y => range_lt (fst y) r0 = false) l2 ->
  contains r0 x = true ->
  rm_get (into_rangemap_safe_p eqb (l1 ++ (r0, v0) :: l2)) x = Some v0.
Proof.
  intros l1 r0 v0 l2 x Hwf H1 H2 Hc.
  destruct (sorted_disjoint_p eqb _ Hwf) as [Hsd Hw].
  destruct (sort_head l1 (r0, v0) l2 H1 H2) as [rest E].
  eapply spans_get; try eassumption.
  unfold into_rangemap_safe_p, merge_sorted. rewrite E. cbn [fold_left merge_step].
  apply Exists_rev. apply fold_merge_keeps. left. unfold spans. cbn [fst snd]. repeat split; lia.
Qed.
End First.

(* the sort key of a record that has a range: (start, end) = (address, address + size - 1) *)
Definition has_range (r : cfi_record) : Prop := c_size r <> 0 /\ fst (c_init r) + c_size r < two64.
Definition key_lt (a b : cfi_record) : Prop :=
  fst (c_init a) < fst (c_init b) \/ (fst (c_init a) = fst (c_init b) /\ c_size a < c_size b).

(* a record of the file with its range, or None when it has none: finish_item without the outcome monad *)
Definition pure_rec (e : Z * Z * cfi_record) : option range * cfi_record := let '(b, s, v) := e in (mk_range b s, v).

Lemma file_table_eq : forall p rs, u64_file rs ->
  cfi_file_table p rs = Ret (into_rangemap_safe_p cfi_rec_eqb (keep_ranged (map pure_rec (file_recs rs)))) /\
  wf_ranges (keep_ranged (map pure_rec (file_recs rs))).
Proof.
  intros p rs H. pose proof (u64_file_recs rs H) as Hu.
  assert (Hl : omap (fun e => let '(b, s, v) := e in do r <- g_mr_StackInfoCfi p b s; Ret (r, v)) (file_recs rs)
               = Ret (map pure_rec (file_recs rs))).
  { apply (omap_pure _ pure_rec (fun e => u64 (fst (fst e)) /\ u64 (snd (fst e)))); [|exact Hu].
    intros [[b s] v] [Hb Hs]. cbn [fst snd] in *. rewrite g_mr_StackInfoCfi_eq by assumption. reflexivity. }
  assert (Hwf : wf_ranges (keep_ranged (map pure_rec (file_recs rs)))).
  { unfold wf_ranges. apply Forall_forall. intros [r v] Hin. cbn [fst]. apply keep_ranged_in in Hin.
    apply in_map_iff in Hin. destruct Hin as [[[b s] v'] [E Hin]]. cbn in E. inversion E; subst.
    unfold u64_recs in Hu. rewrite Forall_forall in Hu. destruct (Hu _ Hin) as [Hb Hs]. cbn [fst snd] in *.
    exact (mk_range_wf64 b s r Hb Hs H1). }
  split; [|exact Hwf].
  unfold cfi_file_table, g_record_table. rewrite Hl. cbn [obind]. apply g_build_parser_total. exact Hwf.
Qed.

(* every record of the file that has a range satisfies Q, and Q of a record gives P of its (start, end) key:
   then P holds of every key in the list the record table is built from *)
Lemma kept_key : forall (P : range -> Prop) (Q : cfi_record -> Prop) rs,
  (forall r', In r' rs -> has_range r' -> Q r') ->
  (forall r', Q r' -> has_range r' -> P (fst (c_init r'), fst (c_init r') + c_size r' - 1)) ->
  Forall (fun y => P (fst y)) (keep_ranged (map pure_rec (file_recs rs))).
Proof.
  intros P Q rs HQ HP. apply Forall_forall. intros [r v] Hin. cbn [fst]. apply keep_ranged_in in Hin.
  apply in_map_iff in Hin. destruct Hin as [[[b s] v'] [E Hin]]. cbn in E. inversion E as [[Hr Hv]].
  unfold file_recs in Hin. apply in_map_iff in Hin. destruct Hin as [r' [E' Hr']]. inversion E'; subst b s v'.
  apply mk_range_shape in Hr. destruct Hr as [-> [Hn Hlt]].
  apply HP; [apply HQ; [exact Hr'|split; assumption]|split; assumption].
Qed.

Theorem file_first_wins : forall p r1 r0 r2 x, u64_file (r1 ++ r0 :: r2) -> cfi_covers r0 x = true ->
  (forall r', In r' r1 -> has_range r' -> key_lt r0 r') ->
  (forall r', In r' r2 -> has_range r' -> ~ key_lt r' r0) ->
  exists t, cfi_file_table p (r1 ++ r0 :: r2) = Ret t /\ rm_get t x = Some (finished r0).
Proof.
  intros p r1 r0 r2 x H Hc H1 H2. destruct (file_table_eq p _ H) as [Ht Hwf].
  eexists. split; [exact Ht|].
  apply cfi_covers_spec in Hc. rewrite <- two64_val in Hc. destruct Hc as [Hs0 [Hlt0 Hx]].
  assert (U0 : u64 (fst (c_init r0)) /\ u64 (c_size r0)).
  { unfold u64_file in H. rewrite Forall_forall in H. apply H. apply in_or_app. right. left. reflexivity. }
  assert (Hr0 : mk_range (fst (c_init r0)) (c_size r0) = Some (fst (c_init r0), fst (c_init r0) + c_size r0 - 1)).
  { apply mk_range_some; [destruct U0 as [_ [? _]]; lia|lia]. }
  assert (El : keep_ranged (map pure_rec (file_recs (r1 ++ r0 :: r2))) =
               keep_ranged (map pure_rec (file_recs r1)) ++
               ((fst (c_init r0), fst (c_init r0) + c_size r0 - 1), finished r0) :: keep_ranged (map pure_rec (file_recs r2))).
  { unfold file_recs. rewrite !map_app, keep_ranged_app. cbn [map keep_ranged pure_rec]. rewrite Hr0. reflexivity. }
  revert Hwf. rewrite El. intro Hwf.
  apply (first_wins cfi_rec_eqb); [exact Hwf| | |unfold contains; cbn [fst snd]; apply andb_true_intro; split; apply Z.leb_le; lia].
  - apply (kept_key (fun k => range_lt (fst (c_init r0), fst (c_init r0) + c_size r0 - 1) k = true) (key_lt r0) r1 H1).
    intros r' [K|[K1 K2]] _; unfold range_lt; cbn [fst snd]; apply Bool.orb_true_iff;
      [left; apply Z.ltb_lt; exact K|right; apply andb_true_intro; split; [apply Z.eqb_eq; exact K1|apply Z.ltb_lt; lia]].
  - apply (kept_key (fun k => range_lt k (fst (c_init r0), fst (c_init r0) + c_size r0 - 1) = false) (fun r' => ~ key_lt r' r0) r2 H2).
    intros r' K _. unfold range_lt. cbn [fst snd]. apply Bool.orb_false_iff. unfold key_lt in K.
    split; [apply Z.ltb_ge; lia|].
    destruct (fst (c_init r') =? fst (c_init r0)) eqn:Eq; [|reflexivity]. apply Z.eqb_eq in Eq. cbn [andb]. apply Z.ltb_ge. lia.
Qed.

(* and its walk *)
Theorem file_walk_first_wins : forall S (ops : wops S) p E r1 r0 r2 addr s, u64_file (r1 ++ r0 :: r2) ->
  cfi_covers r0 addr = true ->
  (forall r', In r' r1 -> has_range r' -> key_lt r0 r') ->
  (forall r', In r' r2 -> has_range r' -> ~ key_lt r' r0) ->
  gen_walk_file ops p E (r1 ++ r0 :: r2) addr s = gen_walk_frame_cfi ops p E r0 addr s.
Proof.
  intros S ops p E r1 r0 r2 addr s H Hc H1 H2. destruct (file_first_wins p r1 r0 r2 addr H Hc H1 H2) as [t [Ht Hg]].
  unfold gen_walk_file. rewrite Ht, Hg. apply walk_of_finished. exact Hc.
Qed.

(* an INIT record without a range (size 0, or address + size beyond u64) is invisible: the table of the file is the
   table of the file without it, so every lookup and every unwind step is unchanged *)
Theorem rangeless_invisible : forall p r1 r r2, u64_file (r1 ++ r :: r2) ->
  (c_size r = 0 \/ two64 <= fst (c_init r) + c_size r) ->
  cfi_file_table p (r1 ++ r :: r2) = cfi_file_table p (r1 ++ r2).
Proof.
  intros p r1 r r2 H Hn.
  assert (H' : u64_file (r1 ++ r2)).
  { unfold u64_file in *. apply Forall_app in H. destruct H as [A B]. inversion B; subst. apply Forall_app. split; assumption. }
  destruct (file_table_eq p _ H) as [-> _]. destruct (file_table_eq p _ H') as [-> _]. do 2 f_equal.
  unfold file_recs. rewrite !map_app, !keep_ranged_app. cbn [map keep_ranged pure_rec].
  assert (Hr : mk_range (fst (c_init r)) (c_size r) = None).
  { unfold mk_range, checked_add. destruct (c_size r =? 0) eqn:E0; [reflexivity|].
    destruct Hn as [Hn|Hn]; [apply Z.eqb_neq in E0; contradiction|].
    destruct (fst (c_init r) + c_size r <? 2 ^ 64) eqn:E1; [|reflexivity].
    apply Z.ltb_lt in E1. rewrite two64_val in Hn. lia. }
  rewrite Hr. reflexivity.
Qed.

