(* C06/Proofs9.v — after Model.v alone.  Record selection, against an independent statement of "rules at or below the
   address are applied in address order": finish_item's sort followed by walk_frame's prefix loop selects exactly the
   delta records whose address is <= the lookup address (as a multiset), in non-decreasing address order, ties in
   the order of the rule text ([selection_spec]).  Also what [cfi_covers] says of one INIT record
   ([cfi_covers_spec]) and the facts on [bytes_ltb] that Proofs12.v uses again. *)
From Coq Require Import Lia Permutation Sorted.
From RM Require Import C06.Model.
Open Scope Z_scope.

Definition addr_le (a b : cfi_rules) : Prop := fst a <= fst b.
Definition at_or_below (addr : Z) (d : cfi_rules) : bool := fst d <=? addr.

Lemma insert_cfi_perm : forall x l, Permutation (insert_cfi x l) (x :: l).
Proof.
  intros x l. induction l as [|y t IH]; cbn [insert_cfi]; [apply Permutation_refl|].
  destruct (rules_ltb x y); [apply Permutation_refl|].
  eapply Permutation_trans; [apply perm_skip; exact IH|apply perm_swap].
Qed.

Lemma sort_cfi_perm : forall l, Permutation (sort_cfi l) l.
Proof.
  induction l as [|x t IH]; [apply Permutation_refl|]. unfold sort_cfi in *. cbn [fold_right].
  eapply Permutation_trans; [apply insert_cfi_perm|apply perm_skip; exact IH].
Qed.

(* the order of the sort: (address, rule text), byte-lexicographic on the text *)
Definition rules_le (a b : cfi_rules) : Prop := rules_ltb b a = false.

Lemma bytes_ltb_asym : forall a b, bytes_ltb a b = true -> bytes_ltb b a = false.
Proof.
  induction a as [|x a IH]; intros [|y b] H; cbn [bytes_ltb] in *; try reflexivity; try discriminate H.
  destruct (x <? y) eqn:A.
  - destruct (y <? x) eqn:B; [lia|]. reflexivity.
  - destruct (y <? x) eqn:B; [discriminate H|]. apply IH. exact H.
Qed.

(* a <= b and b <= c give a <= c, with "u <= v" written as bytes_ltb v u = false *)
Lemma bytes_le_trans : forall a b c, bytes_ltb b a = false -> bytes_ltb c b = false -> bytes_ltb c a = false.
Proof.
  induction a as [|x a IH]; intros b c H1 H2.
  - destruct c; reflexivity.
  - destruct b as [|y b]; [cbn in H1; discriminate H1|].
    destruct c as [|z c]; [cbn in H2; discriminate H2|].
    cbn [bytes_ltb] in *.
    destruct (y <? x) eqn:A; [discriminate H1|]. destruct (x <? y) eqn:B.
    + destruct (z <? y) eqn:C; [discriminate H2|]. destruct (z <? x) eqn:D; [lia|]. destruct (x <? z) eqn:E; [reflexivity|lia].
    + assert (x = y) by lia. subst y.
      destruct (z <? x) eqn:C; [discriminate H2|]. destruct (x <? z) eqn:D; [reflexivity|].
      eapply IH; eassumption.
Qed.

Lemma rules_le_spec : forall a b,
  rules_le a b <-> fst a < fst b \/ (fst a = fst b /\ bytes_ltb (snd b) (snd a) = false).
Proof.
  intros a b. unfold rules_le, rules_ltb. rewrite Bool.orb_false_iff. split.
  - intros [A B]. destruct (fst b =? fst a) eqn:E; [right; cbn [andb] in B; split; [lia|exact B]|left; lia].
  - intros [H|[H1 H2]].
    + split; [apply Z.ltb_ge; lia|]. replace (fst b =? fst a) with false by (symmetry; apply Z.eqb_neq; lia). reflexivity.
    + split; [apply Z.ltb_ge; lia|]. rewrite H1, Z.eqb_refl. exact H2.
Qed.

Lemma rules_le_addr : forall a b, rules_le a b -> addr_le a b.
Proof. intros a b H. apply rules_le_spec in H. unfold addr_le. lia. Qed.

Lemma rules_ltb_le : forall x y, rules_ltb x y = true -> rules_le x y.
Proof.
  intros x y H. apply rules_le_spec. unfold rules_ltb in H.
  destruct (fst x <? fst y) eqn:A; [left; lia|]. right.
  destruct (fst x =? fst y) eqn:B; [|discriminate H]. split; [lia|]. apply bytes_ltb_asym. exact H.
Qed.

Lemma rules_le_trans : forall x y z, rules_le x y -> rules_le y z -> rules_le x z.
Proof.
  intros x y z H1 H2. apply rules_le_spec in H1. apply rules_le_spec in H2. apply rules_le_spec.
  destruct H1 as [H1|[H1 B1]], H2 as [H2|[H2 B2]]; try (left; lia).
  right. split; [lia|]. eapply bytes_le_trans; eassumption.
Qed.

Lemma insert_cfi_sorted : forall x l, StronglySorted rules_le l -> StronglySorted rules_le (insert_cfi x l).
Proof.
  intros x l H. induction H as [|y t Ht IH Hy]; cbn [insert_cfi].
  - constructor; constructor.
  - destruct (rules_ltb x y) eqn:E.
    + constructor; [constructor; assumption|].
      apply rules_ltb_le in E. constructor; [exact E|].
      eapply Forall_impl; [|exact Hy]. intros z Hz. eapply rules_le_trans; eassumption.
    + constructor; [exact IH|].
      apply (Permutation_Forall (Permutation_sym (insert_cfi_perm x t))). constructor; [exact E|exact Hy].
Qed.

Lemma sort_cfi_sorted : forall l, StronglySorted rules_le (sort_cfi l).
Proof.
  induction l as [|x t IH]; [constructor|]. unfold sort_cfi in *. cbn [fold_right]. apply insert_cfi_sorted. exact IH.
Qed.

Section Sorted.
Context {A : Type} (R : A -> A -> Prop).

Lemma sorted_weaken : forall (R' : A -> A -> Prop) l, (forall a b, R a b -> R' a b) ->
  StronglySorted R l -> StronglySorted R' l.
Proof.
  intros R' l HR H. induction H as [|x t Ht IH Hx]; constructor; [exact IH|].
  eapply Forall_impl; [|exact Hx]. intro b. apply HR.
Qed.

Lemma filter_sorted : forall (f : A -> bool) l, StronglySorted R l -> StronglySorted R (filter f l).
Proof.
  intros f l H. induction H as [|x t Ht IH Hx]; cbn [filter]; [constructor|].
  destruct (f x); [|exact IH]. constructor; [exact IH|].
  apply Forall_forall. intros z Hz. apply filter_In in Hz. rewrite Forall_forall in Hx. apply Hx. tauto.
Qed.
End Sorted.

(* on a list sorted by address the prefix loop of walk_frame is a filter *)
Lemma take_applicable_filter : forall addr l, StronglySorted addr_le l ->
  take_applicable addr l = filter (at_or_below addr) l.
Proof.
  intros addr l H. induction H as [|x t Ht IH Hx]; [reflexivity|].
  cbn [take_applicable filter]. unfold at_or_below at 1. destruct (fst x <=? addr) eqn:E; [rewrite IH; reflexivity|].
  symmetry. clear IH Ht. induction t as [|y t IHt]; [reflexivity|].
  inversion Hx as [|? ? Hy Ht']; subst. cbn [filter]. unfold at_or_below at 1. unfold addr_le in Hy.
  destruct (fst y <=? addr) eqn:F; [lia|]. apply IHt. exact Ht'.
Qed.

Lemma filter_perm : forall (f : cfi_rules -> bool) l l', Permutation l l' -> Permutation (filter f l) (filter f l').
Proof.
  intros f l l' H. induction H; cbn [filter].
  - apply Permutation_refl.
  - destruct (f x); [apply perm_skip|]; assumption.
  - destruct (f x), (f y); try apply Permutation_refl. apply perm_swap.
  - eapply Permutation_trans; eassumption.
Qed.

Lemma selection_spec : forall addr deltas,
  let sel := take_applicable addr (sort_cfi deltas) in
  Permutation sel (filter (at_or_below addr) deltas) /\ StronglySorted addr_le sel /\
  (forall d, In d sel <-> In d deltas /\ fst d <= addr) /\
  StronglySorted rules_le sel.
Proof.
  intros addr deltas sel. unfold sel.
  rewrite (take_applicable_filter addr _ (sorted_weaken _ _ _ rules_le_addr (sort_cfi_sorted deltas))).
  pose proof (filter_sorted _ (at_or_below addr) _ (sort_cfi_sorted deltas)) as S.
  split; [apply filter_perm, sort_cfi_perm|]. split; [exact (sorted_weaken _ _ _ rules_le_addr S)|]. split; [|exact S].
  intro d. rewrite filter_In. unfold at_or_below. rewrite Z.leb_le.
  split; intros [H1 H2]; (split; [|exact H2]).
  - apply (Permutation_in _ (sort_cfi_perm deltas)). exact H1.
  - apply (Permutation_in _ (Permutation_sym (sort_cfi_perm deltas))). exact H1.
Qed.

(* StackInfoCfi::memory_range + the range lookup for one INIT record: the record covers [address, address + size)
   when that interval is non-empty and its end fits u64 *)
Lemma cfi_covers_spec : forall r addr,
  cfi_covers r addr = true <->
  c_size r <> 0 /\ fst (c_init r) + c_size r < 2 ^ 64 /\ fst (c_init r) <= addr < fst (c_init r) + c_size r.
Proof.
  intros r addr. unfold cfi_covers, checked_add. cbv zeta.
  destruct (c_size r =? 0) eqn:A; cbn [negb andb].
  - split; [discriminate|]. intros (H & _). lia.
  - destruct (fst (c_init r) + c_size r <? 2 ^ 64) eqn:B.
    + rewrite Bool.andb_true_iff, !Z.leb_le. lia.
    + split; [discriminate|]. lia.
Qed.
