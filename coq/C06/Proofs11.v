(* C06/Proofs11.v — after Proofs.v.  Str::split_ascii_whitespace as modelled by [split_ws], against its defining equations:
   (a) every token is non-empty and free of whitespace; (b) a token-like string is its own single token;
   (c) splitting distributes over a whitespace byte; (d) whitespace-only text has no tokens.
   Every byte string is a concatenation of whitespace bytes and whitespace-free blocks, so (b)-(d) determine the
   function. *)
From Coq Require Import Lia.
From RM Require Import C06.Model C06.Proofs.
Open Scope Z_scope.

Definition ws_free (t : bytes) : Prop := forallb (fun c => negb (is_ws c)) t = true.

(* bodies only, with the token under construction made explicit *)
Fixpoint split_b (cur : bytes) (s : bytes) : list bytes :=
  match s with
  | [] => match cur with [] => [] | _ => [rev cur] end
  | c :: t => if is_ws c then match cur with [] => split_b [] t | _ => rev cur :: split_b [] t end
              else split_b (c :: cur) t
  end.
Lemma split_off_bodies : forall s o cur, map t_body (split_off o cur s) = split_b cur s.
Proof.
  induction s as [|c t IH]; intros o cur; cbn [split_off split_b].
  - destruct cur; reflexivity.
  - destruct (is_ws c); [destruct cur; cbn [map]; [|f_equal]|]; apply IH.
Qed.
Lemma split_ws_b : forall s, split_ws s = split_b [] s.
Proof. intro s. unfold split_ws, tokens. apply split_off_bodies. Qed.

(* the general shape: text before the first whitespace byte joins the token under construction *)
Lemma split_b_app_ws : forall a cur c b, is_ws c = true ->
  split_b cur (a ++ c :: b) = split_b cur a ++ split_b [] b.
Proof.
  induction a as [|x a IH]; intros cur c b W; cbn [app split_b].
  - rewrite W. destruct cur; reflexivity.
  - destruct (is_ws x).
    + destruct cur; cbn [app]; [|f_equal]; apply IH; exact W.
    + apply IH; exact W.
Qed.

Lemma split_b_ws_free : forall t cur, ws_free t -> (cur <> [] \/ t <> []) -> split_b cur t = [rev cur ++ t].
Proof.
  induction t as [|x t IH]; intros cur F N; cbn [split_b].
  - destruct cur; [destruct N as [N|N]; contradiction|]. rewrite app_nil_r. reflexivity.
  - unfold ws_free in F. cbn [forallb] in F. apply Bool.andb_true_iff in F. destruct F as [F1 F2].
    destruct (is_ws x); [discriminate F1|].
    assert (Hne : x :: cur <> []) by discriminate.
    rewrite (IH (x :: cur) F2 (or_introl Hne)). cbn [rev]. rewrite <- app_assoc. reflexivity.
Qed.

Lemma split_b_tokens_ok : forall s cur, ws_free (rev cur) ->
  Forall (fun t => t <> [] /\ ws_free t) (split_b cur s).
Proof.
  induction s as [|c t IH]; intros cur F; cbn [split_b].
  - destruct cur as [|x cur']; constructor; [|constructor]. split; [|exact F].
    intro E. apply (f_equal (@length Z)) in E. rewrite rev_length in E. discriminate E.
  - destruct (is_ws c) eqn:W.
    + destruct cur as [|x cur'].
      * apply IH. reflexivity.
      * constructor; [|apply IH; reflexivity]. split; [|exact F].
        intro E. apply (f_equal (@length Z)) in E. rewrite rev_length in E. discriminate E.
    + apply IH. cbn [rev]. unfold ws_free in *. rewrite forallb_app, F. cbn [forallb]. rewrite W. reflexivity.
Qed.

