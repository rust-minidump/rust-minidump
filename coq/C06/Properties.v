(* C06/Properties.v — the property theorems c06_*, each with its full statement, a short proof from the lemmas of the
   Proofs files (an instance, or a few lines) and its [Print Assumptions]; and the worked examples c06_nonvacuous_*.
   Model: C06/Model.v (the code after fix commits 3a7f18b, 811f017, 2c8a29b). *)
From Coq Require Import String Permutation Morphisms Sorted.
From RM Require Import C06.Model C06.GenModel C06.Proofs C06.Proofs2 C06.Proofs3 C06.Proofs4 C06.Proofs5 C06.Proofs7 C06.Proofs8 C06.Proofs9 C06.Proofs10 C06.Proofs11 C06.Proofs12 C06.Proofs13 C06.Proofs14 C06.Proofs15 C06.Proofs16 C06.Proofs17 C06.Driver C06.GenDriver C06.ArchDriver C06.FileTable Gen.UnwindConsts Gen.CfiOps.
From RM Require Import Base.Word C08.Model C08.Tie Gen.C08Tables.
Open Scope Z_scope.

(* No Panic and no OutOfFuel: for ALL rule texts (arbitrary byte strings), every walker (any
   state type and callbacks), both build profiles, every environment and start state.
   Covers: the slice &input[min..max] in parse_cfi_exprs, unreachable!() in
   walk_with_stack_cfi, `rhs - 1` in the '@' operator.  The loops are structural (one step per
   token), so no fuel is involved. *)
Theorem c06_total :
  forall (S : Type) (ops : wops S) (p : profile) (E : env) (texts : list bytes) (s : S),
    exists r : option S, walk_with_stack_cfi ops p E texts s = Ret r.
Proof. exact walk_total. Qed.
Print Assumptions c06_total.

(* the same with walk_frame's record lookup and rule selection in front *)
Theorem c06_total_walk_frame :
  forall (S : Type) (ops : wops S) (p : profile) (E : env) (r : cfi_record) (addr : Z) (s : S),
    exists o : option S, walk_frame_cfi ops p E r addr s = Ret o.
Proof. exact walk_frame_total. Qed.
Print Assumptions c06_total_walk_frame.

(* ... and for any visiting order of the remaining rules (the HashMap iteration of the
   code before commit 3a7f18b) *)
Theorem c06_total_any_order :
  forall (S : Type) (ops : wops S) (ord : rmap -> rmap),
    (forall l x, In x (ord l) -> In x l) ->
    forall p E texts s, exists r : option S, walk_cfi_ord ops ord p E texts s = Ret r.
Proof. exact walk_cfi_ord_total. Qed.
Print Assumptions c06_total_any_order.

(* The result does not depend on the order in which the rules other than .cfa/.ra are
   applied — PROVIDED no two distinct rule targets alias in the walker ([nonaliasing]: their
   set/clear actions commute up to the walker's observational equivalence). *)
Theorem c06_order_irrelevant :
  forall (S : Type) (ops : wops S) (eqv : S -> S -> Prop), Equivalence eqv ->
  act_proper ops eqv ->
  forall ord1 ord2 : rmap -> rmap,
  (forall l, Permutation (ord1 l) l) -> (forall l, Permutation (ord2 l) l) ->
  forall p E texts s,
  nonaliasing ops eqv (targets texts) ->
  oeqv eqv (walk_cfi_ord ops ord1 p E texts s) (walk_cfi_ord ops ord2 p E texts s).
Proof. exact order_irrelevant. Qed.
Print Assumptions c06_order_irrelevant.

(* the hypothesis always holds for the abstract (mock) walker ... *)
Theorem c06_mock_never_aliases :
  forall w names, Equivalence meqv /\ act_proper (mock_ops w) meqv /\ nonaliasing (mock_ops w) meqv names.
Proof. intros w names. exact (conj meqv_equiv (conj (mock_act_proper w) (mock_nonaliasing w names))). Qed.
Print Assumptions c06_mock_never_aliases.

(* ... for the real CfiStackWalker it holds exactly when the targets' canonical (memoized)
   names are distinct ... *)
Theorem c06_real_nonaliasing :
  forall a names, canon_distinct a names ->
    Equivalence reqv /\ act_proper (real_ops a) reqv /\ nonaliasing (real_ops a) reqv names.
Proof. intros a names H. exact (conj reqv_equiv (conj (real_act_proper a) (real_nonaliasing a names H))). Qed.
Print Assumptions c06_real_nonaliasing.

(* ... and it is needed: arm64 `x29:` / `fp:` (finding F-C13b; since 3a7f18b the code fixes the
   order by sorting the names, so the result is at least deterministic). *)
Theorem c06_alias_order_matters :
  ~ canon_distinct arm64 (targets alias_texts) /\
  match walk_cfi_ord (real_ops arm64) (fun l => l) Debug null_env alias_texts (real_init arm64 [] None),
        walk_cfi_ord (real_ops arm64) (@rev _) Debug null_env alias_texts (real_init arm64 [] None) with
  | Ret (Some a), Ret (Some b) => r_ctx a (bs "fp") = 222 /\ r_ctx b (bs "fp") = 111
  | _, _ => False
  end.
Proof.
  split; [|vm_compute; split; reflexivity].
  intro H. apply canon_distinct_iff in H. vm_compute in H. discriminate H.
Qed.
Print Assumptions c06_alias_order_matters.

(* Failure modes, expression level: a failing token makes the whole expression fail, and each
   documented condition makes its token fail. *)
Theorem c06_failure_modes_expr :
  (forall p E cfa pre t post st,
     eval_loop p E cfa pre [] = Ret st -> eval_step p E cfa t st = Fail ->
     eval_cfi_expr p E (pre ++ t :: post) cfa = Fail) /\
  (forall p E cfa t st, is_binop t -> (length st < 2)%nat -> eval_step p E cfa t st = Fail) /\   (* stack underflow *)
  (forall p E cfa, eval_step p E cfa T_caret [] = Fail) /\
  (forall p E cfa e st, eval_loop p E cfa e [] = Ret st -> length st <> 1%nat ->
     eval_cfi_expr p E e cfa = Fail) /\                                                           (* leftover operands / empty *)
  (forall p E cfa l s, eval_step p E cfa T_slash (0 :: l :: s) = Fail) /\                         (* / 0 *)
  (forall p E cfa l s, eval_step p E cfa T_pct (0 :: l :: s) = Fail) /\                           (* % 0 *)
  (forall p E cfa r l s, is_pow2 r = false -> eval_step p E cfa T_at (r :: l :: s) = Fail) /\     (* @ non-power-of-two *)
  (forall p E cfa a s, e_mem E a = None -> eval_step p E cfa T_caret (a :: s) = Fail) /\          (* unreadable memory *)
  (forall p E cfa n st, n <> [] -> e_callee E n = None -> eval_step p E cfa (36 :: n) st = Fail) /\  (* unknown $reg *)
  (forall p E cfa t st, is_special t = false -> after_dollar t = None -> parse_int 64 t = None ->
     e_callee E t = None -> eval_step p E cfa t st = Fail) /\                                     (* unknown bare reg / junk *)
  (forall p E cfa st, eval_step p E cfa T_undef st = Fail) /\                                     (* .undef *)
  (forall p E st, eval_step p E None T_cfa st = Fail).                                            (* .cfa inside the CFA rule *)
Proof.
  split; [exact eval_fail_at|]. split; [exact fm_underflow_binop|]. split; [reflexivity|].
  split; [exact fm_leftover|]. split; [reflexivity|]. split; [reflexivity|].
  split.
  { intros p E cfa r l s H. unfold eval_step. cbn [beq T_at T_plus T_minus T_star T_slash T_pct Z.eqb Pos.eqb andb].
    cbn [binop]. rewrite H. cbn [negb]. rewrite orb_true_r. reflexivity. }
  split.
  { intros p E cfa a s H. unfold eval_step. cbn [beq T_caret T_at T_plus T_minus T_star T_slash T_pct Z.eqb Pos.eqb andb].
    rewrite H. reflexivity. }
  split; [exact fm_unknown_dollar_reg|]. split; [exact fm_unknown_bare_reg|]. split; reflexivity.
Qed.
Print Assumptions c06_failure_modes_expr.

(* Failure modes, walk level: malformed text, a missing or failing .cfa / .ra rule make the
   whole walk return None (any walker, any order). *)
Theorem c06_failure_modes_mandatory :
  (forall S (ops : wops S) ord p E texts s,
     parse_all texts [] = Fail -> walk_cfi_ord ops ord p E texts s = Ret None) /\
  (forall S (ops : wops S) ord p E texts s m,
     parse_all texts [] = Ret m ->
     (fst (map_remove RCfa m) = None \/
      exists e, fst (map_remove RCfa m) = Some e /\ eval_cfi_expr p E e None = Fail) ->
     walk_cfi_ord ops ord p E texts s = Ret None) /\
  (forall S (ops : wops S) ord p E texts s m cfa_e m1 cfa,
     parse_all texts [] = Ret m -> map_remove RCfa m = (Some cfa_e, m1) ->
     eval_cfi_expr p E cfa_e None = Ret cfa ->
     (fst (map_remove RRa m1) = None \/
      exists e, fst (map_remove RRa m1) = Some e /\ eval_cfi_expr p E e (Some cfa) = Fail) ->
     walk_cfi_ord ops ord p E texts s = Ret None).
Proof.
  split; [|split].
  - intros. unfold walk_cfi_ord. rewrite H. reflexivity.
  - intros S ops ord p E texts s m Hm H. unfold walk_cfi_ord. rewrite Hm. cbn [try_].
    destruct (map_remove RCfa m) as [ocfa m1]. cbn [fst] in H.
    destruct H as [H|[e [H1 H2]]]; subst; [reflexivity|].
    destruct (map_remove RRa m1) as [ora m2]. destruct ora; [|reflexivity].
    rewrite H2. reflexivity.
  - intros S ops ord p E texts s m cfa_e m1 cfa Hm H1 Hc H. unfold walk_cfi_ord. rewrite Hm. cbn [try_].
    rewrite H1. destruct (map_remove RRa m1) as [ora m2]. cbn [fst] in H.
    destruct H as [H|[e [H2 H3]]]; subst; [reflexivity|].
    rewrite Hc. cbn [try_]. rewrite H3. reflexivity.
Qed.
Print Assumptions c06_failure_modes_mandatory.

(* Failure modes, other registers: after a successful walk the abstract walker holds, for every
   general-register rule, exactly the value of that rule — or the register is cleared when the
   rule fails (or the walker rejects the value); registers without a rule are untouched. *)
Theorem c06_failure_modes :
  forall w p E texts s s' m,
  walk_with_stack_cfi (mock_ops w) p E texts s = Ret (Some s') -> parse_all texts [] = Ret m ->
  exists cfa ra,
    m_cfa s' = Some cfa /\ m_ra s' = Some ra /\
    (exists e, In (RCfa, e) m /\ eval_cfi_expr p E e None = Ret cfa) /\
    (exists e, In (RRa, e) m /\ eval_cfi_expr p E e (Some cfa) = Ret ra) /\
    (forall n e, In (ROther n, e) m -> m_regs s' n = mock_cell w n (val p E (Some cfa) e)) /\
    (forall n, ~ In (ROther n) (map fst m) -> m_regs s' n = m_regs s n).
Proof. exact mock_walk_result. Qed.
Print Assumptions c06_failure_modes.

(* Refinement of the documented expression semantics: on programs whose tokens are all in the
   documented alphabet, for environments and CFA values within u64, the implementation's
   evaluator equals the independent [spec_eval]. *)
Theorem c06_refines_spec_expr :
  forall p E cfa e,
    env_wf E -> (forall c, cfa = Some c -> 0 <= c < two64) -> Forall documented e ->
    val p E cfa e = spec_eval E cfa e.
Proof. exact eval_refines_spec. Qed.
Print Assumptions c06_refines_spec_expr.

(* Refinement of the documented semantics of a whole unwind step: for every INIT record with its
   delta records (in file order), every lookup address, profile, word size, callee registers and
   memory within u64 — whenever the expressions of the applicable records use documented tokens
   only — SymbolFile::walk_frame with the abstract walker yields exactly [cfi_spec]: the same
   Some/None, the same CFA and return address, and for EVERY register name the same cell (set to
   its rule's value, cleared when its rule fails, untouched without a rule).  [cfi_spec] is built
   from the independent pieces spec_pairs (right-to-left grouping into REG: EXPR), last_rule (later
   overrides earlier), spec_eval; the record selection (sort by address, prefix <= lookup) is shared
   with the implementation model. *)
Theorem c06_refines_spec :
  forall w p E r addr,
    env_wf E -> all_documented r addr ->
    match walk_frame_cfi (mock_ops w) p E r addr m_init, cfi_spec w E r addr with
    | Ret (Some s), Some (cfa, ra, regs) =>
        m_cfa s = Some cfa /\ m_ra s = Some ra /\ forall n, m_regs s n = regs n
    | Ret None, None => True
    | _, _ => False
    end.
Proof. exact walk_refines_spec. Qed.
Print Assumptions c06_refines_spec.

(* The same through the REAL CfiStackWalker (front-end B's model): for every architecture table,
   start state (the forwarded callee-saved registers), INIT + delta records, lookup address,
   in-range environment and documented tokens — and rule targets that name pairwise distinct machine
   registers ([canon_distinct], the non-aliasing hypothesis of c06_order_irrelevant) — the walk
   yields exactly [cfi_spec_real]: for EVERY canonical register c the caller's value and validity:
   sp = CFA, ip = return address, a register with a rule gets its value and becomes valid, or becomes
   invalid when the rule fails or the value does not fit the register width (memoised names, so
   `x29: .undef` invalidates fp), every other register keeps what was forwarded from the callee. *)
Theorem c06_real_walker_refines_spec :
  forall a p E r addr s0,
    env_wf E -> all_documented r addr -> real_documented_nonaliasing a r addr ->
    match walk_frame_cfi (real_ops a) p E r addr s0, cfi_spec_real a E r addr s0 with
    | Ret (Some s), Some (ctx, valid) => forall c, r_ctx s c = ctx c /\ r_valid s c = valid c
    | Ret None, None => True
    | _, _ => False
    end.
Proof. exact real_walk_refines_spec. Qed.
Print Assumptions c06_real_walker_refines_spec.

(* What walk_stack receives after the walk (get_caller_by_cfi builds the frame's context from the
   walker; get_caller_frame drops the frame when ip < 4096 or sp does not grow): on x86 / amd64 the
   walker's registers and validity set are handed over unchanged; on arm64 the validity set is
   unchanged and pc, lr, fp are masked to 47 bits. *)
Theorem c06_frame_handover :
  (forall k a callee_sp s, k <> 2 ->
     match post_real k a callee_sp s with
     | Some s1 => s1 = s /\ 4096 <= r_ctx s (a_ip a) /\ callee_sp < r_ctx s (a_sp a)
     | None => r_ctx s (a_ip a) < 4096 \/ r_ctx s (a_sp a) <= callee_sp
     end) /\
  (forall callee_sp s s1,
     post_real 2 arm64 callee_sp s = Some s1 ->
     (forall n, r_valid s1 n = r_valid s n) /\
     (forall n, r_ctx s1 n = if beq n R_fp || beq n R_lr || beq n R_pc then Z.land (r_ctx s n) (2 ^ 47 - 1) else r_ctx s n) /\
     4096 <= r_ctx s1 R_pc /\ callee_sp <= r_ctx s1 (a_sp arm64)).
Proof.
  split; [exact handover_x86|].
  intros csp s s1 H. unfold post_real in H. cbn [Z.eqb Pos.eqb] in H.
  match type of H with (if ?c then _ else _) = _ => destruct c eqn:E1; [discriminate|] end.
  match type of H with (if ?c then _ else _) = _ => destruct c eqn:E2; [discriminate|] end.
  inversion H; subst s1. clear H. apply Z.ltb_ge in E1. apply Z.ltb_ge in E2. cbn [r_ctx r_valid] in *.
  split; [intro; reflexivity|]. split; [|split; [exact E1|exact E2]].
  intro n. unfold updz.
  destruct (beq n R_fp) eqn:B1; cbn [orb]; [apply beq_eq in B1; subst; reflexivity|].
  destruct (beq n R_lr) eqn:B2; cbn [orb]; [apply beq_eq in B2; subst; reflexivity|].
  destruct (beq n R_pc) eqn:B3; [apply beq_eq in B3; subst; reflexivity|reflexivity].
Qed.
Print Assumptions c06_frame_handover.

(* the text-level part on its own, for ALL byte strings: parse_cfi_exprs is the grouping spec *)
Theorem c06_parse_refines_spec :
  forall texts out,
    parse_all texts out =
    match all_pairs texts with Some ps => Ret (fold_left ins ps out) | None => Fail end.
Proof. exact parse_all_pairs. Qed.
Print Assumptions c06_parse_refines_spec.

Example c06_nonvacuous_walk :
  let E := mkEnv (fun n => assoc n [(bs "rsp", 100); (bs "rax", 7)])
                 (mem_read 8 96 [1;2;3;4;5;6;7;8;9;10;11;12;13;14;15;16;17;18;19;20;21;22;23;24]) 5 false 0 in
  match walk_frame_cfi (mock_ops 8) Debug E
          (mkCfi (0, bs ".cfa: $rsp 8 + .ra: .cfa -8 + ^") 16
                 [(6, bs "$rbx: 5"); (1, bs ".cfa: $rsp 16 + $rax: .cfa -16 + ^ $rcx: 1 0 /")]) 5 m_init with
  | Ret (Some s) => m_cfa s = Some 116 /\ m_ra s = Some 1446519769809227277 /\
                    m_regs s (bs "rax") = SetTo 867798387104613893 /\ m_regs s (bs "rcx") = Cleared /\
                    m_regs s (bs "rbx") = Unset
  | _ => False
  end.
Proof. vm_compute. repeat split; reflexivity. Qed.

Example c06_nonvacuous_documented :
  Forall documented (split_ws (bs ".cfa $rsp 3 + * ^ -8 x11 @ 9223372036854775808")).
Proof. apply documented_dec. vm_compute. reflexivity. Qed.

Example c06_nonvacuous_targets :
  targets [bs ".cfa: 1 .ra: 2 $rax: 3 x11: 4"; bs "rax: .undef"] = [bs "rax"; bs "x11"] /\
  canon_distinct x86 [bs "ebx"; bs "esi"].
Proof.
  split; [vm_compute; reflexivity|]. apply canon_distinct_iff. vm_compute. reflexivity.
Qed.

Example c06_nonvacuous_spec :
  let E := mkEnv (fun n => assoc n [(bs "rsp", 100); (bs "rax", 7)])
                 (mem_read 8 96 [1;2;3;4;5;6;7;8;9;10;11;12;13;14;15;16;17;18;19;20;21;22;23;24]) 5 false 0 in
  let r := mkCfi (0, bs ".cfa: $rsp 8 + .ra: .cfa -8 + ^") 16
                 [(6, bs "$rbx: 5"); (1, bs ".cfa: $rsp 16 + $rax: .cfa -16 + ^ $rcx: 1 0 /")] in
  all_documented r 5 /\
  match cfi_spec 8 E r 5 with
  | Some (cfa, ra, regs) => cfa = 116 /\ ra = 1446519769809227277 /\ regs (bs "rcx") = Cleared /\
                            regs (bs "rax") = SetTo 867798387104613893 /\ regs (bs "rbx") = Unset
  | None => False
  end.
Proof.
  split; [apply all_documented_dec; vm_compute; reflexivity|]. vm_compute. repeat split; reflexivity.
Qed.

Example c06_nonvacuous_real :
  let ctx := [(bs "eip", 1073741924); (bs "esp", 2147483648); (bs "ebp", 5); (bs "ebx", 6); (bs "esi", 7)] in
  let E := mkEnv (real_callee x86 ctx None) (mem_read 4 2147483648 [1;0;0;0; 2;0;0;0; 3;0;0;0; 4;0;0;0]) 100 false 0 in
  let r := mkCfi (0, bs ".cfa: $esp 16 + .ra: 1073742080 $ebx: 4294967296 $esi: .cfa 8 - ^ $eax: 9") 4096 [] in
  all_documented r 100 /\ real_documented_nonaliasing x86 r 100 /\
  match cfi_spec_real x86 E r 100 (real_init x86 ctx None) with
  | Some (c, v) => c (bs "esp") = 2147483664 /\ c (bs "eip") = 1073742080 /\ v (bs "ebx") = false /\
                   c (bs "esi") = 3 /\ v (bs "esi") = true /\ v (bs "eax") = true /\ v (bs "ebp") = true /\
                   v (bs "ecx") = false
  | None => False
  end.
Proof.
  split; [apply all_documented_dec; vm_compute; reflexivity|].
  split; [apply canon_distinct_iff; vm_compute; reflexivity|]. vm_compute. repeat split; reflexivity.
Qed.

(* ==== The evaluator REGENERATED from walker.rs (Gen/CfiOps.v, translate/c06_cfi_ops.py) ====
   [gen_eval_step] interprets the `match token` arms of eval_cfi_expr (statement lists: pops, guards, pushes over
   wrapping / checked u64 operations, in source order, then the if-let chain of the `_` arm); [gen_classify] /
   [gen_strip_label] the label chain of parse_cfi_exprs; [gen_walk] the statement skeleton of walk_with_stack_cfi
   (parse order, removals, the cfa argument of each evaluation, set_cfa / set_ra, the sort, the actions of the rule
   loop).  The interpretation is the hand-written model, for ALL inputs: every theorem above is a theorem about the
   tables the translator produced from the code of this run. *)
Theorem c06_gen_model_is_model :
  (forall p E cfa t st, gen_eval_step p E cfa t st = eval_step p E cfa t st) /\
  (forall p E e cfa, gen_eval_cfi_expr p E e cfa = eval_cfi_expr p E e cfa) /\
  (forall name, gen_classify name = classify_reg name) /\
  (forall t, gen_strip_label t = strip_suffix_colon t) /\
  (forall texts out, gen_parse_all texts out = parse_all texts out) /\
  (forall S (ops : wops S) p E init adds s,
     gen_walk ops p E init adds s = walk_with_stack_cfi ops p E (init :: adds) s) /\
  (forall S (ops : wops S) p E r addr s,
     gen_walk_frame_cfi ops p E r addr s = walk_frame_cfi ops p E r addr s).
Proof.
  exact (conj gen_eval_step_eq (conj gen_eval_cfi_expr_eq (conj gen_classify_eq (conj gen_strip_label_eq
        (conj gen_parse_all_eq (conj (@gen_walk_eq) gen_walk_frame_eq)))))).
Qed.
Print Assumptions c06_gen_model_is_model.

(* no Panic from the generated evaluator: besides the slice, unreachable!() and `rhs - 1`, this covers the zero
   divisor of u64::wrapping_div / wrapping_rem (PANIC_DIV0: the guards `if rhs == 0 { return None }` of the
   generated arms are what excludes it) and ill-formed step sequences (PANIC_GEN) *)
Theorem c06_gen_total :
  forall (S : Type) (ops : wops S) (p : profile) (E : env) (r : cfi_record) (addr : Z) (s : S),
    exists o : option S, gen_walk_frame_cfi ops p E r addr s = Ret o.
Proof. exact gen_walk_frame_total. Qed.
Print Assumptions c06_gen_total.

(* the generated operator table against the documented postfix language *)
Theorem c06_gen_refines_spec_expr :
  forall p E cfa e,
    env_wf E -> (forall c, cfa = Some c -> 0 <= c < two64) -> Forall documented e ->
    gen_eval_cfi_expr p E e cfa = match spec_eval E cfa e with Some v => Ret v | None => Fail end.
Proof.
  intros p E cfa e H1 H2 H3. rewrite gen_eval_cfi_expr_eq, eval_val.
  rewrite (eval_refines_spec p E cfa e H1 H2 H3). reflexivity.
Qed.
Print Assumptions c06_gen_refines_spec_expr.

(* c06_refines_spec for the generated evaluator (this is the function the correspondence run extracts) *)
Theorem c06_gen_refines_spec :
  forall w p E r addr,
    env_wf E -> all_documented r addr ->
    match gen_walk_frame_cfi (mock_ops w) p E r addr m_init, cfi_spec w E r addr with
    | Ret (Some s), Some (cfa, ra, regs) =>
        m_cfa s = Some cfa /\ m_ra s = Some ra /\ forall n, m_regs s n = regs n
    | Ret None, None => True
    | _, _ => False
    end.
Proof. intros. rewrite gen_walk_frame_eq. apply walk_refines_spec; assumption. Qed.
Print Assumptions c06_gen_refines_spec.

Theorem c06_gen_real_walker_refines_spec :
  forall a p E r addr s0,
    env_wf E -> all_documented r addr -> real_documented_nonaliasing a r addr ->
    match gen_walk_frame_cfi (real_ops a) p E r addr s0, cfi_spec_real a E r addr s0 with
    | Ret (Some s), Some (ctx, valid) => forall c, r_ctx s c = ctx c /\ r_valid s c = valid c
    | Ret None, None => True
    | _, _ => False
    end.
Proof. intros. rewrite gen_walk_frame_eq. apply real_walk_refines_spec; assumption. Qed.
Print Assumptions c06_gen_real_walker_refines_spec.

(* non-vacuity: the generated tables compute (every operator arm, the three branches of the `_` arm, a failing rule) *)
Example c06_nonvacuous_gen :
  let E := mkEnv (fun n => assoc n [(bs "rsp", 100); (bs "rax", 7)])
                 (mem_read 8 96 [1;2;3;4;5;6;7;8;9;10;11;12;13;14;15;16;17;18;19;20;21;22;23;24]) 5 false 0 in
  match gen_walk_frame_cfi (mock_ops 8) Debug E
          (mkCfi (0, bs ".cfa: $rsp 8 + .ra: .cfa -8 + ^") 16
                 [(6, bs "$rbx: 5"); (1, bs ".cfa: $rsp 16 + $rax: .cfa -16 + ^ $rcx: 1 0 / r9: 77 rax 3 * - 5 % 40 + 16 @ 2 /")]) 5 m_init with
  | Ret (Some s) => m_cfa s = Some 116 /\ m_ra s = Some 1446519769809227277 /\
                    m_regs s (bs "rax") = SetTo 867798387104613893 /\ m_regs s (bs "rcx") = Cleared /\
                    m_regs s (bs "rbx") = Unset /\ m_regs s (bs "r9") = SetTo 16
  | _ => False
  end.
Proof. vm_compute. repeat split; reflexivity. Qed.

(* The per-architecture tables of the real-walker model (c06_real_walker_refines_spec quantifies over them) are
   the ones translate/unwind_consts.py regenerates from the code: CpuContext::REGISTERS, the memoize_register
   aliases (x29~fp, x30~lr), size_of::<Register>(), the names given to set_cfa / set_ra, CALLEE_SAVED_REGS. *)
Theorem c06_arch_tables_pinned :
  x86 = arch_of_consts x86_pw x86_registers [] x86_sp_name x86_ip_name x86_callee_saved /\
  amd64 = arch_of_consts amd64_pw amd64_registers [] amd64_sp_name amd64_ip_name amd64_callee_saved /\
  arm64 = arch_of_consts arm64_pw arm64_registers arm64_aliases arm64_cfi_sp_name arm64_cfi_ip_name arm64_callee_saved.
Proof. repeat apply conj; vm_compute; reflexivity. Qed.
Print Assumptions c06_arch_tables_pinned.

(* The step between the code and the token-list model: parse_cfi_exprs keeps, per register, the SUBSTRING
   `&input[first.start .. last.end]` and eval_cfi_expr tokenises it again.  For ALL byte strings: re-tokenising the
   substring from the start of the first to the end of the last token of any run of consecutive tokens yields exactly
   the tokens of the run; and every expression in the rule map that parse_cfi_exprs builds is such a re-tokenised
   substring of one of the rule texts (so the token lists the model evaluates are the ones the code evaluates). *)
Theorem c06_retokenise :
  (forall input pre run last_ post,
     tokens input = pre ++ (run ++ [last_]) ++ post ->
     split_ws (substr input (t_off (hd last_ run)) (t_end last_)) = map t_body (run ++ [last_])) /\
  (forall texts m, parse_all texts [] = Ret m -> forall k e, In (k, e) m ->
     exists input first last, In input texts /\ In first (tokens input) /\ In last (tokens input) /\
       e = split_ws (substr input (t_off first) (t_end last))).
Proof. exact (conj retokenise_run exprs_are_retokenised_slices). Qed.
Print Assumptions c06_retokenise.

Example c06_nonvacuous_retokenise :
  let input := bs "  .cfa:  $rsp 	 8 +  .ra:	.cfa  -8 + ^ " in
  exists pre post,
    tokens input = pre ++ ([mkTok 9 (bs "$rsp"); mkTok 16 (bs "8")] ++ [mkTok 18 (bs "+")]) ++ post /\
    substr input 9 19 = bs "$rsp 	 8 +" /\
    split_ws (substr input 9 19) = [bs "$rsp"; bs "8"; bs "+"].
Proof. eexists [_], _. vm_compute. repeat split; reflexivity. Qed.

(* Record selection, which c06_refines_spec shares between implementation model and [cfi_spec], against an
   independent statement of "rules at or below the address are applied in address order": for every list of delta
   records (file order) and lookup address, finish_item's sort followed by walk_frame's prefix loop selects exactly
   the records with address <= lookup (as a multiset: duplicates kept), in non-decreasing address order; and an INIT
   record covers exactly the non-empty interval [address, address + size) whose end fits u64. *)
Theorem c06_selection_spec :
  (forall addr deltas,
     let sel := take_applicable addr (sort_cfi deltas) in
     Permutation sel (filter (at_or_below addr) deltas) /\ StronglySorted addr_le sel /\
     (forall d, In d sel <-> In d deltas /\ fst d <= addr) /\
     (* records with the same address: in byte-lexicographic order of their rule text (derived Ord of CfiRules) *)
     StronglySorted rules_le sel) /\
  (forall a b, rules_le a b <-> fst a < fst b \/ (fst a = fst b /\ bytes_ltb (snd b) (snd a) = false)) /\
  (forall r addr,
     cfi_covers r addr = true <->
     c_size r <> 0 /\ fst (c_init r) + c_size r < 2 ^ 64 /\ fst (c_init r) <= addr < fst (c_init r) + c_size r).
Proof. exact (conj selection_spec (conj rules_le_spec cfi_covers_spec)). Qed.
Print Assumptions c06_selection_spec.

Example c06_nonvacuous_selection :
  take_applicable 20 (sort_cfi [(30, bs "a: 1"); (20, bs "b: 2"); (7, bs "c: 3"); (20, bs "a: 9"); (21, bs "d: 4")])
  = [(7, bs "c: 3"); (20, bs "a: 9"); (20, bs "b: 2")] /\
  cfi_covers (mkCfi (18446744073709551600, bs ".cfa: 1 .ra: 2") 15 []) 18446744073709551614 = true /\
  cfi_covers (mkCfi (18446744073709551600, bs ".cfa: 1 .ra: 2") 16 []) 18446744073709551614 = false.
Proof. vm_compute. repeat split; reflexivity. Qed.

(* the unwinders' cut-off constants, as generated from the code, have the values that Driver.post_real writes as
   literals (ip < 4096 ends the walk; 47-bit pointer-authentication mask on arm64; sp must grow on x86 / amd64) *)
Theorem c06_post_real_consts_pinned :
  x86_ip_cutoff = 4096 /\ amd64_ip_cutoff = 4096 /\ arm64_ip_cutoff = 4096 /\ arm64_apple_bits = 47 /\
  x86_sp_stop_le = true /\ amd64_sp_stop_le = true.
Proof. repeat split; reflexivity. Qed.
Print Assumptions c06_post_real_consts_pinned.

(* Literals ([parse_int] is shared by the implementation model and [spec_lex]): a token is a literal of value v
   exactly when it is an optional single sign followed by one or more decimal digits and nothing else, and
   -2^63 <= v <= 2^63 - 1 (so `+5`, `-0`, `00012`, `-9223372036854775808` are literals; `9223372036854775808`, `--5`,
   `+`, `1_0`, `0x10` are not and fall through to the register lookup). *)
Theorem c06_literal_spec :
  forall t v,
    parse_int 64 t = Some v <->
    exists neg ds, lit_shape t neg ds /\ ds <> [] /\ forallb is_digit ds = true /\
                   v = (if neg then - dec_val ds else dec_val ds) /\
                   (if neg then dec_val ds <= 2 ^ 63 else dec_val ds < 2 ^ 63).
Proof. exact (parse_int_spec 64). Qed.
Print Assumptions c06_literal_spec.

Example c06_nonvacuous_literal :
  parse_int 64 (bs "-9223372036854775808") = Some (-9223372036854775808) /\ parse_int 64 (bs "9223372036854775808") = None /\
  parse_int 64 (bs "+5") = Some 5 /\ parse_int 64 (bs "-0") = Some 0 /\ parse_int 64 (bs "00012") = Some 12 /\
  parse_int 64 (bs "--5") = None /\ parse_int 64 (bs "+") = None /\ parse_int 64 (bs "1_0") = None.
Proof. vm_compute. repeat split; reflexivity. Qed.

(* The tokenizer ([split_ws] = str::split_ascii_whitespace, hand-written in Model.v) against its defining equations,
   for ALL byte strings (NUL, vertical tab, bytes >= 128 are ordinary token bytes): tokens are non-empty and
   whitespace-free; a non-empty whitespace-free string is its own single token; splitting distributes over any
   whitespace byte; the whitespace bytes are exactly space, \t, \n, \x0C, \r.  (Every string is a concatenation of
   whitespace bytes and whitespace-free blocks, so these equations determine the function.) *)
Theorem c06_tokenizer_spec :
  (forall s, Forall (fun t => t <> [] /\ ws_free t) (split_ws s)) /\
  (forall t, t <> [] -> ws_free t -> split_ws t = [t]) /\
  (forall a c b, is_ws c = true -> split_ws (a ++ c :: b) = split_ws a ++ split_ws b) /\
  split_ws [] = [] /\
  (forall c, is_ws c = true <-> c = 32 \/ c = 9 \/ c = 10 \/ c = 12 \/ c = 13).
Proof.
  split; [|split; [|split; [|split]]].
  - intro s. rewrite split_ws_b. apply split_b_tokens_ok. reflexivity.
  - intros t N F. rewrite split_ws_b. rewrite (split_b_ws_free t [] F (or_intror N)). reflexivity.
  - intros a c b W. rewrite !split_ws_b. apply split_b_app_ws. exact W.
  - reflexivity.
  - intro c. unfold is_ws. rewrite !Bool.orb_true_iff, !Z.eqb_eq. tauto.
Qed.
Print Assumptions c06_tokenizer_spec.

Example c06_nonvacuous_tokenizer :
  split_ws [32; 0; 11; 200; 9; 12; 65; 13; 10] = [[0; 11; 200]; [65]].
Proof. vm_compute. reflexivity. Qed.

(* The real CfiStackWalker WITHOUT the non-aliasing hypothesis of c06_real_walker_refines_spec: the general-register
   rules are applied in ascending register-name order (byte-lexicographic: the derived Ord of CfiReg, commit 3a7f18b),
   and for every machine register c the LAST rule in that order whose target memoizes to c decides c: valid iff that
   rule evaluates to a value that fits the register, and then holding that value; a register no rule names keeps
   what set_cfa / set_ra / the callee forwarded.  (arm64 `x29: A fp: B`: "fp" < "x29", so x29's rule decides fp.) *)
Theorem c06_real_alias_last_name_wins :
  forall a p E cfa m2 s2,
    all_other m2 ->
    StronglySorted name_le (sort_rules m2) /\ Permutation (sort_rules m2) m2 /\
    exists s3, apply_rules (real_ops a) p E cfa (sort_rules m2) s2 = Ret s3 /\
      forall c,
        match find_canon a c (rev (sort_rules m2)) with
        | Some (n, e) => decided a p E cfa s3 c e
        | None => r_ctx s3 c = r_ctx s2 c /\ r_valid s3 c = r_valid s2 c
        end.
Proof.
  intros a p E cfa m2 s2 H. split; [apply sort_rules_sorted|]. split; [apply sort_rules_perm|].
  eexists. split; [apply apply_rules_fold; intros x Hx; apply H, sort_rules_in, Hx|].
  intro c. apply fold_real_last.
Qed.
Print Assumptions c06_real_alias_last_name_wins.

Example c06_nonvacuous_alias_sorted :
  match walk_with_stack_cfi (real_ops arm64) Debug null_env [bs ".cfa: 16 .ra: 8 x29: 111 fp: 222 lr: 5 x30: .undef"]
                            (real_init arm64 [] None) with
  | Ret (Some s) => r_ctx s (bs "fp") = 111 /\ r_valid s (bs "fp") = true /\ r_valid s (bs "lr") = false
  | _ => False
  end.
Proof. vm_compute. repeat split; reflexivity. Qed.

(* Dereference ("unreadable memory ... make the affected rule fail"): the memory image of both walkers is read at
   the evaluator's 64-bit address as it is - a read succeeds only when [addr, addr + w) lies inside the image and
   then returns the w little-endian bytes there; an address outside fails, whatever its low 32 bits are (the class of
   seeded change C06-6: an address >= 2^32 on a 32-bit context must not be folded back onto the stack). *)
Theorem c06_deref_exact :
  forall w base data addr,
    (forall v, mem_read w base data addr = Some v ->
       base <= addr /\ addr - base + w <= blen data /\
       v = le_val (firstn (Z.to_nat w) (skipn (Z.to_nat (addr - base)) data))) /\
    (addr < base \/ blen data < addr - base + w -> mem_read w base data addr = None).
Proof. exact mem_read_exact. Qed.
Print Assumptions c06_deref_exact.

Example c06_nonvacuous_deref :
  mem_read 4 2147483648 [1;0;0;0; 2;0;0;0] 2147483652 = Some 2 /\
  mem_read 4 2147483648 [1;0;0;0; 2;0;0;0] (2147483652 + 4294967296) = None.
Proof. vm_compute. split; reflexivity. Qed.

(* Several INIT records in one symbol file (front-end kind M): when the records' ranges are pairwise disjoint, the
   record used for a lookup address is the one that covers it (none: no CFI), whatever the order of the records in the
   file.  (Overlapping ranges: c06_overlap_first_key_wins below.) *)
Theorem c06_record_lookup :
  (forall rs addr, disjoint_recs rs ->
     (forall r, find_record rs addr = Some r <-> In r rs /\ cfi_covers r addr = true) /\
     (find_record rs addr = None <-> forall r, In r rs -> cfi_covers r addr = false)) /\
  (forall rs rs' addr, Permutation rs rs' -> disjoint_recs rs -> find_record rs addr = find_record rs' addr).
Proof. exact (conj find_record_spec find_record_perm). Qed.
Print Assumptions c06_record_lookup.

(* the extracted entry points (C06/GenDriver.v, over the generated tables) equal the hand-written drivers of
   C06/Driver.v (whose environment, observation and hand-over functions C07/Driver.v uses); a single-record M case
   is the A case *)
Theorem c06_gen_driver_is_driver :
  (forall w lookup initaddr initsize regs membase mem init deltas names,
     run_mock_gen w lookup initaddr initsize regs membase mem init deltas names =
     run_mock w lookup initaddr initsize regs membase mem init deltas names) /\
  (forall k ctx valid stackbase stack initaddr initsize init deltas,
     run_real_gen k ctx valid stackbase stack initaddr initsize init deltas =
     run_real k ctx valid stackbase stack initaddr initsize init deltas) /\
  (forall w lookup regs membase mem r names,
     run_mock_multi_gen w lookup regs membase mem [r] names =
     run_mock w lookup (fst (c_init r)) (c_size r) regs membase mem (snd (c_init r)) (c_add r) names).
Proof.
  split; [|split].
  - intros. unfold run_mock_gen, run_mock. rewrite gen_walk_frame_eq. reflexivity.
  - intros. unfold run_real_gen, run_real. cbv zeta. rewrite gen_walk_frame_eq. reflexivity.
  - intros. unfold run_mock_multi_gen, run_mock. cbn [find_record].
    destruct r as [[ia it] sz ad]. cbn [c_init c_size c_add fst snd].
    destruct (cfi_covers (mkCfi (ia, it) sz ad) lookup) eqn:C.
    + rewrite gen_walk_frame_eq. reflexivity.
    + unfold walk_frame_cfi. rewrite C. reflexivity.
Qed.
Print Assumptions c06_gen_driver_is_driver.

(* ==== Front-end B for every context whose unwinder uses CfiStackWalker ====
   x86 / amd64 / arm64 (C06/Driver.v), plus 32-bit ARM (aliases r11~fp r13~sp r14~lr r15~pc), MIPS (Mips32Context: the u32
   view of the one CONTEXT_MIPS — callee values are the low 32 bits of the 64-bit slots, values must fit u32) and
   MIPS64.  The tables of these three are COMPUTED from the generated constants (C06/ArchDriver.v). *)

(* all six tables: canonical names are fixed points of memoize_register and lie in REGISTERS; the names given to
   set_cfa / set_ra are distinct canonical registers; CALLEE_SAVED_REGS is a subset of REGISTERS; the register width
   is between 1 and 8 bytes *)
Theorem c06_arch_tables_wellformed :
  forall k, let a := arch_of2 k in
    (forall n c, memoize a n = Some c -> In c (a_regs a) /\ memoize a c = Some c) /\
    memoize a (a_sp a) = Some (a_sp a) /\ memoize a (a_ip a) = Some (a_ip a) /\ a_sp a <> a_ip a /\
    In (a_sp a) (a_regs a) /\ In (a_ip a) (a_regs a) /\ (forall c, In c (a_saved a) -> In c (a_regs a)) /\
    0 < a_width a <= 8.
Proof. exact (fun k => conj (arch_wf_memoize _ (arch_tables_wf k)) (arch_wf_sp_ip _ (arch_tables_wf k))). Qed.
Print Assumptions c06_arch_tables_wellformed.

(* END TO END, every architecture k (0 x86, 1 amd64, 2 arm64, 3 arm, 4 mips, 5 mips64), every callee context with
   values within u64, every validity set, every stack image, every INIT + delta records with documented tokens and
   non-aliasing targets: the extracted entry point the correspondence run compares with walk_stack equals the
   documented result cfi_spec_real (CFA first and not self-referential, .ra mandatory, every other register set from
   its rule or unknown, width check, aliases resolved through memoize_register) followed by the hand-over of
   <arch>::get_caller_frame.  The guards in front: walk_stack unwinds only with a stack memory that has a range
   (stack_ok = C08's mk_range of base and length), the unwinder needs a valid stack pointer, and the instruction must
   lie in the module the symbols belong to. *)
Theorem c06_real_end_to_end :
  forall k ctx valid stackbase stack initaddr initsize init deltas,
    ctx_wf ctx -> bytes_wf stack ->
    let a := arch_of2 k in
    let ip := match assoc (a_ip a) ctx with Some v => v | None => 0 end in
    let sp := match assoc (a_sp a) ctx with Some v => v | None => 0 end in
    let r := mkCfi (initaddr, init) initsize deltas in
    let E := real_env2 k ctx valid stackbase stack ip in
    all_documented r (ip - 1073741824) -> real_documented_nonaliasing a r (ip - 1073741824) ->
    run_real2_gen k ctx valid stackbase stack initaddr initsize init deltas =
      if negb (stack_ok stackbase stack)
         || negb (match valid with None => true | Some which => mem_b (a_sp a) which end)
         || (ip <? 1073741824) || (1073741824 + 65536 <=? ip) then out_none
      else frame_of_spec k a sp (cfi_spec_real a E r (ip - 1073741824) (real_init a ctx valid)).
Proof. exact real_end_to_end. Qed.
Print Assumptions c06_real_end_to_end.

(* arm / mips / mips64 hand-over: the walker's context and validity set reach walk_stack unchanged; the frame exists
   iff pc >= 4096 and the stack pointer did not go down (the context frame may be a leaf: equality is allowed) *)
Theorem c06_frame_handover_arm_mips :
  forall k a callee_sp s, 3 <= k ->
    match post_real2 k a callee_sp s with
    | Some s1 => s1 = s /\ 4096 <= r_ctx s (a_ip a) /\ callee_sp <= r_ctx s (a_sp a)
    | None => r_ctx s (a_ip a) < 4096 \/ r_ctx s (a_sp a) < callee_sp
    end.
Proof. exact handover_arm_mips. Qed.
Print Assumptions c06_frame_handover_arm_mips.

(* the observation (values of the valid registers among REGISTERS) loses nothing: the validity set of the documented
   result never leaves REGISTERS when it starts from the forwarded callee-saved registers *)
Theorem c06_real_observation_complete :
  forall k E r addr ctx valid c v,
    cfi_spec_real (arch_of2 k) E r addr (real_init (arch_of2 k) ctx valid) = Some (c, v) ->
    forall n, v n = true -> In n (a_regs (arch_of2 k)).
Proof.
  exact (fun k E r addr ctx valid c v H =>
    spec_real_valid_in_regs _ E r addr _ c v (arch_tables_wf k) (real_init_valid_in_regs _ ctx valid (arch_tables_wf k)) H).
Qed.
Print Assumptions c06_real_observation_complete.

(* on x86 / amd64 / arm64 the entry point for all six architectures is the one of C06/GenDriver.v *)
Theorem c06_real_entry_point_extends :
  forall k ctx valid stackbase stack initaddr initsize init deltas, k < 3 -> stack_ok stackbase stack = true ->
    run_real2_gen k ctx valid stackbase stack initaddr initsize init deltas =
    run_real_gen k ctx valid stackbase stack initaddr initsize init deltas.
Proof. exact run_real2_three_arch. Qed.
Print Assumptions c06_real_entry_point_extends.

(* walk_stack's own precondition: a stack memory without a range — empty, or base + size beyond u64 — ends the walk
   before any frame is unwound, whatever the call frame information says *)
Theorem c06_no_stack_no_frame :
  forall k ctx valid stackbase stack initaddr initsize init deltas,
    (blen stack = 0 \/ two64 <= stackbase + blen stack) ->
    run_real2_gen k ctx valid stackbase stack initaddr initsize init deltas = out_none.
Proof. exact no_stack_no_frame. Qed.
Print Assumptions c06_no_stack_no_frame.

(* the register width check and the alias resolution of CfiStackWalker, on every architecture table:
   set_caller_register(name, v) (and set_cfa / set_ra, which are the same write to the sp / ip register) succeeds iff
   memoize_register knows the name and v fits size_of::<Register>() bytes; it then makes exactly the memoized register
   valid with value v and touches no other register; on failure walk_with_stack_cfi clears the register (811f017) *)
Theorem c06_width_check_and_aliases :
  forall a s n v,
    match o_set (real_ops a) s n v with
    | Some s' => exists c, memoize a n = Some c /\ v < 2 ^ (8 * a_width a) /\
                   r_ctx s' c = v /\ r_valid s' c = true /\
                   forall c', c' <> c -> r_ctx s' c' = r_ctx s c' /\ r_valid s' c' = r_valid s c'
    | None => memoize a n = None \/ 2 ^ (8 * a_width a) <= v
    end.
Proof.
  intros a s n v. cbn [real_ops o_set]. unfold real_set. destruct (memoize a n) as [c|]; [|left; reflexivity].
  unfold fits. destruct (v <? 2 ^ (8 * a_width a)) eqn:F.
  - apply Z.ltb_lt in F. exists c. split; [reflexivity|]. split; [exact F|]. cbn [r_ctx r_valid]. unfold updz, updb.
    rewrite beq_refl. split; [reflexivity|]. split; [reflexivity|].
    intros c' Hne. apply beq_neq in Hne. rewrite Hne. split; reflexivity.
  - right. apply Z.ltb_ge. exact F.
Qed.
Print Assumptions c06_width_check_and_aliases.

(* non-vacuity: the computed tables *)
Example c06_nonvacuous_arch2 :
  arm = mkArch 4 (map bs ["r0"; "r1"; "r2"; "r3"; "r4"; "r5"; "r6"; "r7"; "r8"; "r9"; "r10"; "r12"; "fp"; "sp"; "lr"; "pc"]%string)
               [(bs "r11", bs "fp"); (bs "r13", bs "sp"); (bs "r14", bs "lr"); (bs "r15", bs "pc")] (bs "sp") (bs "pc")
               (map bs ["r4"; "r5"; "r6"; "r7"; "r8"; "r9"; "r10"; "fp"]%string) /\
  mips32 = mkArch 4 (map bs ["gp"; "sp"; "fp"; "ra"; "pc"; "s0"; "s1"; "s2"; "s3"; "s4"; "s5"; "s6"; "s7"]%string) []
               (bs "sp") (bs "pc") (map bs ["s0"; "s1"; "s2"; "s3"; "s4"; "s5"; "s6"; "s7"; "gp"; "sp"; "fp"]%string) /\
  mips64 = mkArch 8 (a_regs mips32) [] (bs "sp") (bs "pc") (a_saved mips32) /\
  memoize arm (bs "r11") = Some (bs "fp") /\ memoize arm (bs "r15") = Some (bs "pc") /\ memoize arm (bs "r16") = None /\
  memoize mips32 (bs "r11") = None.
Proof. vm_compute. repeat split; reflexivity. Qed.

(* non-vacuity of c06_real_end_to_end, 32-bit ARM: an alias as rule target (r11 = fp, read from the stack), a value
   that does not fit u32 (r0 stays unknown), `.undef` (r5 forwarded by default, unknown after its rule); the answer is the one
   walk_stack gave for this input *)
Example c06_nonvacuous_end_to_end_arm :
  let ctx := [(bs "pc", 1073742080); (bs "sp", 2147483648); (bs "fp", 2147483680); (bs "r4", 11); (bs "r5", 12); (bs "r0", 14)] in
  let stack := [1;2;3;4;5;6;7;8;9;10;11;12;13;14;15;16] in
  let init := bs ".cfa: sp 16 + .ra: 1073742080 r4: 7 r11: .cfa 8 - ^ r0: 4294967296 r5: .undef" in
  let r := mkCfi (0, init) 4096 [] in
  ctx_wf ctx /\ bytes_wf stack /\ all_documented r 256 /\ real_documented_nonaliasing arm r 256 /\
  let o := run_real2_gen 3 ctx None 2147483648 stack 0 4096 init [] in
  o_status o = 1 /\
  o_regs o = [(bs "r4", 7); (bs "r6", 0); (bs "r7", 0); (bs "r8", 0); (bs "r9", 0); (bs "r10", 0);
              (bs "fp", 202050057); (bs "sp", 2147483664); (bs "pc", 1073742080)].
Proof.
  split; [apply ctx_wf_dec; vm_compute; reflexivity|].
  split; [apply bytes_wf_dec; vm_compute; reflexivity|].
  split; [apply all_documented_dec; vm_compute; reflexivity|].
  split; [apply canon_distinct_iff; vm_compute; reflexivity|]. vm_compute. split; reflexivity.
Qed.

(* MIPS, 32-bit view: the evaluator sees the low 32 bits of a callee register (s0 = 2^32 + 3 reads as 3), the caller
   context keeps the 64-bit slot of a forwarded register; sp is among the forwarded registers and is overwritten by
   the CFA; the answers are those walk_stack gave for these inputs (a one-byte stack memory; with an empty one no frame) *)
Example c06_nonvacuous_end_to_end_mips :
  let ctx := [(bs "pc", 1073742080); (bs "sp", 2147483648); (bs "fp", 5); (bs "s0", 4294967299); (bs "gp", 77); (bs "ra", 9)] in
  let init := bs ".cfa: sp 16 + .ra: 1073742080 s1: s0 1 +" in
  let r := mkCfi (0, init) 4096 [] in
  ctx_wf ctx /\ all_documented r 256 /\ real_documented_nonaliasing mips32 r 256 /\
  o_regs (run_real2_gen 4 ctx (Some [bs "pc"; bs "sp"; bs "s0"]) 2147483648 [0] 0 4096 init []) =
    [(bs "sp", 2147483664); (bs "pc", 1073742080); (bs "s0", 4294967299); (bs "s1", 4)] /\
  o_regs (run_real2_gen 5 ctx (Some [bs "pc"; bs "sp"; bs "s0"]) 2147483648 [0] 0 4096 init []) =
    [(bs "sp", 2147483664); (bs "pc", 1073742080); (bs "s0", 4294967299); (bs "s1", 4294967300)] /\
  o_status (run_real2_gen 4 ctx (Some [bs "pc"; bs "sp"; bs "s0"]) 2147483648 [] 0 4096 init []) = 0.
Proof.
  split; [apply ctx_wf_dec; vm_compute; reflexivity|].
  split; [apply all_documented_dec; vm_compute; reflexivity|].
  split; [apply canon_distinct_iff; vm_compute; reflexivity|]. vm_compute. repeat split; reflexivity.
Qed.

(* ==== SEVERAL INIT records in one file, through C08's generated parser tables ====
   C06/FileTable.v: finish_item files each record under StackInfoCfi::memory_range() (Gen/C08Tables.v
   g_mr_StackInfoCfi), the parser-local into_rangemap_safe + RangeMap::try_from_iter build the table
   (g_record_table / g_build_parser), walk_frame finds the record with RangeMap::get (C08's rm_get: the real binary
   search) and walks it.  GenDriver.find_record is "the record that covers", for pairwise disjoint records only. *)

(* for ALL files (u64 addresses and sizes, any overlaps, duplicates, empty or overflowing ranges), both profiles:
   the table is built without a panic (the `- 1` of memory_range, Range::new, try_from_iter(..).unwrap()), is sorted
   and non-overlapping; a lookup returns only a record OF THE FILE (with finish_item's sort applied) whose own range
   covers the address — so a record of size 0, or whose end address leaves u64, is never returned; and a record that
   every other record lies beside (or has no range at all) is returned at every address it covers *)
Theorem c06_file_table :
  forall p rs, u64_file rs ->
    exists t, cfi_file_table p rs = Ret t /\
      StronglySorted (fun a b => snd (fst a) < fst (fst b)) t /\
      (forall x v, rm_get t x = Some v -> exists r0, In r0 rs /\ v = finished r0 /\ cfi_covers r0 x = true) /\
      (forall r1 r0 r2 x, rs = r1 ++ r0 :: r2 -> cfi_covers r0 x = true ->
         (forall r', In r' (r1 ++ r2) -> beside r0 r') -> rm_get t x = Some (finished r0)).
Proof. exact file_table_spec. Qed.
Print Assumptions c06_file_table.

(* the unwind step over a whole file: never a panic; it is None or the walk (c06_gen_refines_spec,
   c06_gen_real_walker_refines_spec speak about it) of a record of the file that covers the address; None when no
   record covers; the walk of r0 when r0 covers and all other records lie beside it *)
Theorem c06_file_walk :
  forall (S : Type) (ops : wops S) p E,
    (forall rs addr s, u64_file rs -> exists o, gen_walk_file ops p E rs addr s = Ret o) /\
    (forall rs addr s, u64_file rs ->
       gen_walk_file ops p E rs addr s = Ret None \/
       exists r0, In r0 rs /\ cfi_covers r0 addr = true /\
                  gen_walk_file ops p E rs addr s = gen_walk_frame_cfi ops p E r0 addr s) /\
    (forall rs addr s, u64_file rs -> (forall r0, In r0 rs -> cfi_covers r0 addr = false) ->
       gen_walk_file ops p E rs addr s = Ret None) /\
    (forall r1 r0 r2 addr s, u64_file (r1 ++ r0 :: r2) -> cfi_covers r0 addr = true ->
       (forall r', In r' (r1 ++ r2) -> beside r0 r') ->
       gen_walk_file ops p E (r1 ++ r0 :: r2) addr s = gen_walk_frame_cfi ops p E r0 addr s).
Proof.
  intros S ops p E.
  split; [|exact (conj (file_walk_sound S ops p E) (conj (file_walk_none S ops p E) (file_walk_isolated S ops p E)))].
  intros rs addr s H. destruct (file_walk_sound S ops p E rs addr s H) as [E0|[r0 [_ [_ E0]]]]; [exists None; exact E0|].
  rewrite E0. apply gen_walk_frame_total.
Qed.
Print Assumptions c06_file_walk.

(* on duplicate-free files with pairwise disjoint records the table lookup is "the record that covers"
   (GenDriver.find_record, c06_record_lookup) *)
Theorem c06_file_walk_disjoint :
  forall (S : Type) (ops : wops S) p E rs addr s, u64_file rs -> NoDup rs -> disjoint_recs rs ->
    gen_walk_file ops p E rs addr s =
    match find_record rs addr with Some r => gen_walk_frame_cfi ops p E r addr s | None => Ret None end.
Proof. exact file_walk_disjoint. Qed.
Print Assumptions c06_file_walk_disjoint.

(* OVERLAPPING INIT records (malformed input the documentation is silent about; what the code does): the record with
   the smallest (start, end) key — among records that have a range; on equal keys the one earlier in the file — is
   found at every address it covers, whatever overlaps it, and the unwind step is its walk.  (into_rangemap_safe
   sorts by range and drops the later of two overlapping records as a whole; c06_nonvacuous_file_overlap shows an
   address that only a dropped record covers finding nothing.) *)
Theorem c06_overlap_first_key_wins :
  forall (S : Type) (ops : wops S) p E r1 r0 r2 addr s, u64_file (r1 ++ r0 :: r2) ->
    cfi_covers r0 addr = true ->
    (forall r', In r' r1 -> has_range r' -> key_lt r0 r') ->
    (forall r', In r' r2 -> has_range r' -> ~ key_lt r' r0) ->
    (exists t, cfi_file_table p (r1 ++ r0 :: r2) = Ret t /\ rm_get t addr = Some (finished r0)) /\
    gen_walk_file ops p E (r1 ++ r0 :: r2) addr s = gen_walk_frame_cfi ops p E r0 addr s.
Proof.
  exact (fun S ops p E r1 r0 r2 addr s H Hc H1 H2 =>
    conj (file_first_wins p r1 r0 r2 addr H Hc H1 H2) (file_walk_first_wins S ops p E r1 r0 r2 addr s H Hc H1 H2)).
Qed.
Print Assumptions c06_overlap_first_key_wins.

(* the documented result for a whole FILE (abstract walker): when every other record lies beside the covering record
   r0, or r0 has the smallest key, the unwind step over the file equals cfi_spec of r0 — Some/None, CFA, return
   address and the cell of every register name (c06_gen_refines_spec lifted from one record to the record table) *)
Theorem c06_file_refines_spec :
  forall w p E r1 r0 r2 addr, u64_file (r1 ++ r0 :: r2) -> cfi_covers r0 addr = true ->
    ((forall r', In r' (r1 ++ r2) -> beside r0 r') \/
     ((forall r', In r' r1 -> has_range r' -> key_lt r0 r') /\ (forall r', In r' r2 -> has_range r' -> ~ key_lt r' r0))) ->
    env_wf E -> all_documented r0 addr ->
    match gen_walk_file (mock_ops w) p E (r1 ++ r0 :: r2) addr m_init, cfi_spec w E r0 addr with
    | Ret (Some s), Some (cfa, ra, regs) => m_cfa s = Some cfa /\ m_ra s = Some ra /\ forall n, m_regs s n = regs n
    | Ret None, None => True
    | _, _ => False
    end.
Proof.
  intros w p E r1 r0 r2 addr H Hc Hsel Hwf Hd.
  assert (Ew : gen_walk_file (mock_ops w) p E (r1 ++ r0 :: r2) addr m_init = gen_walk_frame_cfi (mock_ops w) p E r0 addr m_init).
  { destruct Hsel as [Hb|[H1 H2]]; [apply file_walk_isolated|apply file_walk_first_wins]; assumption. }
  rewrite Ew, gen_walk_frame_eq. apply walk_refines_spec; assumption.
Qed.
Print Assumptions c06_file_refines_spec.

(* an INIT record without a range — size 0, or address + size beyond u64 (so also a record whose LAST byte is 2^64-1) —
   is invisible: the record table, hence every lookup and every unwind step, is that of the file without it *)
Theorem c06_rangeless_records_invisible :
  forall (S : Type) (ops : wops S) p E r1 r r2 addr s, u64_file (r1 ++ r :: r2) ->
    (c_size r = 0 \/ two64 <= fst (c_init r) + c_size r) ->
    cfi_file_table p (r1 ++ r :: r2) = cfi_file_table p (r1 ++ r2) /\
    gen_walk_file ops p E (r1 ++ r :: r2) addr s = gen_walk_file ops p E (r1 ++ r2) addr s.
Proof.
  intros S ops p E r1 r r2 addr s H Hn. pose proof (rangeless_invisible p r1 r r2 H Hn) as T.
  split; [exact T|]. unfold gen_walk_file. rewrite T. reflexivity.
Qed.
Print Assumptions c06_rangeless_records_invisible.

(* the order of the INIT records in the file does not matter — for ALL files, overlapping ones included, whose records
   with a range have pairwise different ranges: permuting the records leaves the record table, every lookup and every
   unwind step unchanged.  (Two records with the SAME range are the one case where file order decides.) *)
Theorem c06_file_order_irrelevant :
  forall (S : Type) (ops : wops S) p E rs rs' addr s, u64_file rs -> Permutation rs rs' -> NoDup (file_keys rs) ->
    cfi_file_table p rs = cfi_file_table p rs' /\
    gen_walk_file ops p E rs addr s = gen_walk_file ops p E rs' addr s.
Proof.
  intros S ops p E rs rs' addr s H P ND. pose proof (file_order_irrelevant p rs rs' H P ND) as T.
  split; [exact T|]. unfold gen_walk_file. rewrite T. reflexivity.
Qed.
Print Assumptions c06_file_order_irrelevant.

(* non-vacuity, and what happens to OVERLAPPING INIT records (the answers are those of the real code): A = [16,47],
   B = [40,71] overlaps A, C has size 0, D = [2^64-16, 2^64-1] (end + 1 leaves u64), E = [72,79].  A wins the overlap;
   B is dropped as a whole — address 60, which only B covers, finds nothing; C and D are never found; E is found;
   the file order does not matter here *)
Example c06_nonvacuous_file_overlap :
  let A := mkCfi (16, bs ".cfa: 16 .ra: 8") 32 [] in
  let B := mkCfi (40, bs ".cfa: 24 .ra: 5") 32 [] in
  let C := mkCfi (100, bs ".cfa: 32 .ra: 5") 0 [] in
  let D := mkCfi (18446744073709551600, bs ".cfa: 40 .ra: 5") 16 [] in
  let E := mkCfi (72, bs ".cfa: 48 .ra: 5") 8 [] in
  u64_file [A; B; C; D; E] /\ file_keys [A; B; C; D; E] = [(16, 47); (40, 71); (72, 79)] /\ NoDup (file_keys [A; B; C; D; E]) /\
  forall rs, rs = [A; B; C; D; E] \/ rs = [E; D; B; C; A] ->
    map (fun x => o_cfa (run_mock_file_gen 8 x [] 0 [] rs [])) [15; 20; 45; 48; 60; 72; 79; 80; 100; 18446744073709551608] =
    [None; Some 16; Some 16; None; None; Some 48; Some 48; None; None; None].
Proof.
  intros A B C D E.
  assert (K : file_keys [A; B; C; D; E] = [(16, 47); (40, 71); (72, 79)]) by (vm_compute; reflexivity).
  split; [repeat constructor; vm_compute; try discriminate; reflexivity|]. split; [exact K|]. split.
  - rewrite K. repeat constructor; cbn [In]; intro Hx; repeat (destruct Hx as [Hx|Hx]; [discriminate Hx|]); exact Hx.
  - intros rs [->| ->]; vm_compute; reflexivity.
Qed.
