(* C06/Proofs8.v — after Proofs.v and Proofs11.v.  The model keeps an expression as a list of tokens; the code keeps, per
   register, the SUBSTRING `&input[first.start .. last.end]` and eval_cfi_expr tokenises it again.  For every
   byte string and every run of consecutive tokens, re-tokenising the substring from the start of the first to the
   end of the last token yields exactly the tokens of the run. *)
From Coq Require Import Lia.
From RM Require Import C06.Model C06.Proofs C06.Proofs11.
Open Scope Z_scope.

Definition substr (s : bytes) (lo hi : Z) : bytes := firstn (Z.to_nat (hi - lo)) (skipn (Z.to_nat lo) s).

(* every token produced ends at or after the current offset *)
Lemma split_off_end_ge : forall s o cur x, In x (split_off o cur s) -> o <= t_end x.
Proof.
  induction s as [|c t IH]; intros o cur x H; cbn [split_off] in H.
  - destruct cur; [destruct H|]. destruct H as [<-|[]]. unfold t_end; cbn [t_off t_body]. rewrite blen_rev. lia.
  - destruct (is_ws c).
    + destruct cur.
      * apply IH in H. lia.
      * destruct H as [<-|H]; [unfold t_end; cbn [t_off t_body]; rewrite blen_rev; lia|]. apply IH in H. lia.
    + apply IH in H. lia.
Qed.

(* with a token under construction, the first token produced starts where that one started *)
Lemma split_off_first : forall s o cur, cur <> [] ->
  exists body rest, split_off o cur s = mkTok (o - blen cur) body :: rest.
Proof.
  induction s as [|c t IH]; intros o cur Hc; cbn [split_off].
  - destruct cur; [contradiction|]. eexists _, _; reflexivity.
  - destruct (is_ws c).
    + destruct cur; [contradiction|]. eexists _, _; reflexivity.
    + destruct (IH (o + 1) (c :: cur)) as (b & r & E); [discriminate|].
      rewrite E. rewrite blen_cons. replace (o + 1 - (blen cur + 1)) with (o - blen cur) by lia.
      eexists _, _; reflexivity.
Qed.

(* suffix: the text from the start of a token on tokenises to that token and everything after it.  The side
   condition excludes the one case where it fails: x is the token under construction ([cur] not empty, nothing
   produced before it), whose start lies before s *)
Lemma split_off_suffix : forall s o cur l1 x l2,
  split_off o cur s = l1 ++ x :: l2 -> (l1 <> [] \/ cur = []) ->
  exists k : nat, t_off x = o + Z.of_nat k /\ split_off (t_off x) [] (skipn k s) = x :: l2.
Proof.
  induction s as [|c t IH]; intros o cur l1 x l2 H Hc; cbn [split_off] in H.
  - exfalso. destruct cur.
    + destruct l1; discriminate H.
    + destruct Hc as [Hc|Hc]; [|discriminate Hc]. destruct l1 as [|a [|b l1]]; try contradiction; discriminate H.
  - destruct (is_ws c) eqn:W.
    + destruct cur.
      * destruct (IH _ _ _ _ _ H (or_intror eq_refl)) as (k & E1 & E2).
        exists (Datatypes.S k). split; [lia|]. exact E2.
      * destruct Hc as [Hc|Hc]; [|discriminate Hc]. destruct l1 as [|a l1]; [contradiction|].
        cbn [app] in H. injection H as _ H.
        destruct (IH _ _ _ _ _ H (or_intror eq_refl)) as (k & E1 & E2).
        exists (Datatypes.S k). split; [lia|]. exact E2.
    + destruct l1 as [|a l1].
      * destruct Hc as [Hc|Hc]; [contradiction|]. subst cur. cbn [app] in H.
        destruct (split_off_first t (o + 1) [c]) as (b & r & E); [discriminate|].
        rewrite E in H. injection H as Hx Hr. subst x l2.
        exists O. cbn [t_off skipn]. rewrite blen_cons. cbn [blen length Z.of_nat].
        replace (o + 1 - (0 + 1)) with o by lia. split; [lia|].
        cbn [split_off]. rewrite W. rewrite E. rewrite blen_cons. cbn [blen length Z.of_nat].
        replace (o + 1 - (0 + 1)) with o by lia. reflexivity.
      * assert (Hne : a :: l1 <> []) by discriminate.
        destruct (IH _ _ _ _ _ H (or_introl Hne)) as (k & E1 & E2).
        exists (Datatypes.S k). split; [lia|]. exact E2.
Qed.

(* prefix: the text up to the end of a token tokenises to everything up to and including that token *)
Lemma split_off_prefix : forall s o cur run x post,
  split_off o cur s = run ++ x :: post ->
  split_off o cur (firstn (Z.to_nat (t_end x - o)) s) = run ++ [x].
Proof.
  induction s as [|c t IH]; intros o cur run x post H.
  - rewrite firstn_nil. cbn [split_off] in *. destruct cur.
    + destruct run; discriminate H.
    + destruct run as [|a run]; [|destruct run; discriminate H]. cbn [app] in *. injection H as H _. subst x. reflexivity.
  - cbn [split_off] in H. destruct (is_ws c) eqn:W.
    + destruct cur.
      * assert (B : o + 1 <= t_end x) by (apply (split_off_end_ge t (o + 1) []); rewrite H; apply in_or_app; right; left; reflexivity).
        replace (Z.to_nat (t_end x - o)) with (Datatypes.S (Z.to_nat (t_end x - (o + 1)))) by lia.
        cbn [firstn split_off]. rewrite W. apply (IH _ _ _ _ _ H).
      * destruct run as [|a run].
        -- cbn [app] in H. injection H as Hx _. subst x. change (rev cur ++ [z]) with (rev (z :: cur)). unfold t_end at 1. cbn [t_off t_body]. rewrite blen_rev.
           replace (o - blen (z :: cur) + blen (z :: cur) - o) with 0 by lia. cbn [Z.to_nat firstn split_off app]. reflexivity.
        -- cbn [app] in H. injection H as Ha H. subst a.
           assert (B : o + 1 <= t_end x) by (apply (split_off_end_ge t (o + 1) []); rewrite H; apply in_or_app; right; left; reflexivity).
           replace (Z.to_nat (t_end x - o)) with (Datatypes.S (Z.to_nat (t_end x - (o + 1)))) by lia.
           cbn [firstn split_off]. rewrite W. cbn [app]. f_equal. apply (IH _ _ _ _ _ H).
    + assert (B : o + 1 <= t_end x) by (apply (split_off_end_ge t (o + 1) (c :: cur)); rewrite H; apply in_or_app; right; left; reflexivity).
      replace (Z.to_nat (t_end x - o)) with (Datatypes.S (Z.to_nat (t_end x - (o + 1)))) by lia.
      cbn [firstn split_off]. rewrite W. apply (IH _ _ _ _ _ H).
Qed.

Theorem retokenise_run : forall input pre run last_ post,
  tokens input = pre ++ (run ++ [last_]) ++ post ->
  split_ws (substr input (t_off (hd last_ run)) (t_end last_)) = map t_body (run ++ [last_]).
Proof.
  intros input pre run l post H. unfold tokens in H.
  set (f := hd l run).
  assert (R : exists run', run ++ [l] = f :: run').
  { unfold f. destruct run as [|a run]; cbn; eexists; reflexivity. }
  destruct R as (run' & R). rewrite R in H. cbn [app] in H.
  destruct (split_off_suffix _ _ _ _ _ _ H (or_intror eq_refl)) as (k & E1 & E2).
  rewrite app_comm_cons, <- R in E2.
  rewrite <- app_assoc in E2. cbn [app] in E2.
  pose proof (split_off_prefix _ _ _ _ _ _ E2) as P.
  unfold substr, split_ws, tokens. replace (Z.to_nat (t_off f)) with k by lia.
  rewrite split_off_bodies, <- (split_off_bodies _ (t_off f)), P. reflexivity.
Qed.

(* connection with parse_cfi_exprs: every expression kept in the rule map is such a run *)
Definition expr_is_slice (input : bytes) (e : expr) : Prop :=
  exists pre run l post, tokens input = pre ++ (run ++ [l]) ++ post /\ e = map t_body (run ++ [l]).

Definition run_inv (done : list tok) (reg : option cfireg) (first last : option tok) (acc : list bytes) : Prop :=
  match first, last with
  | None, None => acc = []
  | Some f, Some l => reg <> None /\ exists pre run, done = pre ++ run ++ [l] /\ f = hd l run /\
                                                  acc = rev (map t_body (run ++ [l]))
  | _, _ => False
  end.

(* a commit keeps what the map held and adds the run that ends where [done] ends *)
Lemma commit_slices_at : forall input done post reg first last acc out m,
  tokens input = done ++ post -> run_inv done reg first last acc ->
  commit (blen input) reg first last acc out = Ret m ->
  forall k e, In (k, e) m -> In (k, e) out \/ expr_is_slice input e.
Proof.
  intros input done post reg first last acc out m Ht Hi Hc k e Hin.
  unfold commit in Hc. destruct first as [f|], last as [l|]; try discriminate Hc.
  destruct ((0 <=? t_off f) && (t_off f <=? t_end l) && (t_end l <=? blen input)); [|discriminate Hc].
  destruct reg as [r|]; [|discriminate Hc]. injection Hc as <-.
  apply map_insert_in in Hin. destruct Hin as [E|Hin]; [|left; exact Hin].
  injection E as -> ->. right.
  destruct Hi as (_ & pre & run & Hd & _ & Ha). subst acc. rewrite rev_involutive.
  exists pre, run, l, post. split; [|reflexivity]. rewrite Ht, Hd, <- !app_assoc. reflexivity.
Qed.

Lemma commit_slices : forall input done reg first last acc out m,
  tokens input = done -> run_inv done reg first last acc ->
  commit (blen input) reg first last acc out = Ret m ->
  forall k e, In (k, e) m -> In (k, e) out \/ expr_is_slice input e.
Proof.
  intros input done reg first last acc out m Ht. apply (commit_slices_at input done []).
  rewrite app_nil_r. exact Ht.
Qed.

Lemma parse_loop_slices : forall toks input done reg first last acc out m,
  tokens input = done ++ toks -> run_inv done reg first last acc ->
  parse_loop (blen input) toks reg first last acc out = Ret m ->
  forall k e, In (k, e) m -> In (k, e) out \/ expr_is_slice input e.
Proof.
  induction toks as [|t r IH]; intros input done reg first last acc out m Ht Hi Hp k e Hin; cbn [parse_loop] in Hp.
  - exact (commit_slices_at _ _ _ _ _ _ _ _ _ Ht Hi Hp k e Hin).
  - assert (Ht' : tokens input = (done ++ [t]) ++ r) by (rewrite <- app_assoc; exact Ht).
    destruct (strip_suffix_colon (t_body t)) as [name|].
    + destruct reg as [rg|].
      * destruct (commit (blen input) (Some rg) first last acc out) as [out'| | |] eqn:Ec; cbn [obind] in Hp; try discriminate Hp.
        assert (Hi' : run_inv (done ++ [t]) (Some (classify_reg name)) None None []) by reflexivity.
        destruct (IH _ _ _ _ _ _ _ _ Ht' Hi' Hp k e Hin) as [Ho|Hs]; [|right; exact Hs].
        exact (commit_slices_at _ _ _ _ _ _ _ _ _ Ht Hi Ec k e Ho).
      * assert (Hi' : run_inv (done ++ [t]) (Some (classify_reg name)) first last acc).
        { unfold run_inv in *. destruct first, last; try exact Hi. destruct Hi as (Hn & _). exfalso. apply Hn. reflexivity. }
        exact (IH _ _ _ _ _ _ _ _ Ht' Hi' Hp k e Hin).
    + destruct reg as [rg|]; [|discriminate Hp].
      assert (Hi' : run_inv (done ++ [t]) (Some rg) (match first with None => Some t | _ => first end) (Some t) (t_body t :: acc)).
      { unfold run_inv in *. destruct first as [f|], last as [l|]; try contradiction.
        - destruct Hi as (Hn & pre & run & Hd & Hf & Ha). split; [exact Hn|].
          exists pre, (run ++ [l]). split; [rewrite Hd, <- !app_assoc; reflexivity|]. split.
          + rewrite Hf. destruct run; reflexivity.
          + rewrite Ha. rewrite (map_app t_body (run ++ [l]) [t]). rewrite rev_app_distr. reflexivity.
        - subst acc. split; [discriminate|]. exists done, []. repeat split; reflexivity. }
      exact (IH _ _ _ _ _ _ _ _ Ht' Hi' Hp k e Hin).
Qed.


Lemma parse_all_slices : forall texts out m,
  parse_all texts out = Ret m ->
  forall k e, In (k, e) m -> In (k, e) out \/ exists input, In input texts /\ expr_is_slice input e.
Proof.
  induction texts as [|t r IH]; intros out m H k e Hin; cbn [parse_all] in H.
  - injection H as <-. left; exact Hin.
  - destruct (parse_cfi_exprs t out) as [out'| | |] eqn:E; cbn [obind] in H; try discriminate H.
    destruct (IH _ _ H k e Hin) as [Ho|(input & Hi & Hs)].
    + destruct (parse_loop_slices (tokens t) t [] None None None [] out out' eq_refl eq_refl E k e Ho) as [Ho'|Hs];
        [left; exact Ho'|].
      right. exists t. split; [left; reflexivity|exact Hs].
    + right. exists input. split; [right; exact Hi|exact Hs].
Qed.

(* every expression the walk evaluates is what eval_cfi_expr's own split_ascii_whitespace makes of the substring
   `&input[first.start .. last.end]` of one of the rule texts, first / last being tokens of that text *)
Theorem exprs_are_retokenised_slices : forall texts m,
  parse_all texts [] = Ret m ->
  forall k e, In (k, e) m ->
  exists input first last,
    In input texts /\ In first (tokens input) /\ In last (tokens input) /\
    e = split_ws (substr input (t_off first) (t_end last)).
Proof.
  intros texts m H k e Hin.
  destruct (parse_all_slices _ _ _ H k e Hin) as [[]|(input & Hi & pre & run & l & post & Ht & He)].
  exists input, (hd l run), l. split; [exact Hi|].
  assert (Hl : In l (tokens input)) by (rewrite Ht; apply in_or_app; right; apply in_or_app; left; apply in_or_app; right; left; reflexivity).
  assert (Hf : In (hd l run) (tokens input)).
  { rewrite Ht. apply in_or_app; right; apply in_or_app; left. destruct run; [left; reflexivity|left; reflexivity]. }
  split; [exact Hf|]. split; [exact Hl|].
  rewrite He, <- (retokenise_run input pre run l post Ht).
  reflexivity.
Qed.
