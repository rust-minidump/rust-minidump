(* C06/Proofs3.v — after Proofs.v.  One token, then a whole expression, of eval_cfi_expr refines the documented postfix
   language ([refines], [step_refines], [eval_refines_spec]); values stay within u64. *)
From Coq Require Import Lia.
From RM Require Import Base.WordFacts C06.Model C06.Proofs.
Import ListNotations.
Open Scope Z_scope.

Definition inr (v : Z) : Prop := 0 <= v < two64.
Definition env_wf (E : env) : Prop :=
  (forall n v, e_callee E n = Some v -> inr v) /\ (forall a v, e_mem E a = Some v -> inr v).
(* a token of the documented alphabet *)
Definition documented (t : bytes) : Prop := spec_lex t <> SJunk.

(* decidable, for concrete expressions (the worked examples evaluate this) *)
Definition documentedb (t : bytes) : bool := match spec_lex t with SJunk => false | _ => true end.
Lemma documented_dec : forall e, forallb documentedb e = true -> Forall documented e.
Proof.
  intros e H. rewrite forallb_forall in H. apply Forall_forall. intros t Ht D.
  specialize (H t Ht). unfold documentedb in H. rewrite D in H. discriminate H.
Qed.

Definition opt {A} (x : outcome A) : option A := match x with Ret a => Some a | _ => None end.

(* an implementation step agrees with the documented step and keeps the stack within u64 *)
Definition refines (x : outcome (list Z)) (y : option (list Z)) : Prop :=
  opt x = y /\ forall st', x = Ret st' -> Forall inr st'.
Lemma refines_fail : refines Fail None.
Proof. split; [reflexivity|discriminate]. Qed.
Lemma refines_ret : forall st, Forall inr st -> refines (Ret st) (Some st).
Proof. intros st H. split; [reflexivity|]. intros st' E. injection E as <-. exact H. Qed.
Lemma refines_push : forall o st, (forall v, o = Some v -> inr v) -> Forall inr st ->
  refines (push_opt o st) (match o with Some v => Some (v :: st) | None => None end).
Proof. intros [v|] st Ho Hst; [apply refines_ret; constructor; auto|apply refines_fail]. Qed.

(* and-ing with (all ones xor the low k ones) clears the low k bits: x - x mod 2^k *)
Lemma align_pow2 : forall x k, 0 <= x < 2 ^ 64 -> 0 <= k < 64 ->
  Z.land x (Z.lxor (2 ^ 64 - 1) (2 ^ k - 1)) = x - x mod 2 ^ k.
Proof.
  intros x k Hx Hk.
  replace (2 ^ 64 - 1) with (Z.ones 64) by (rewrite Z.ones_equiv; reflexivity).
  replace (2 ^ k - 1) with (Z.ones k) by (rewrite Z.ones_equiv; lia).
  assert (E : Z.land x (Z.lxor (Z.ones 64) (Z.ones k)) = Z.ldiff x (Z.ones k)).
  { apply Z.bits_inj'. intros i Hi.
    rewrite Z.land_spec, Z.lxor_spec, Z.ldiff_spec.
    destruct (Z_lt_le_dec i k) as [H1|H1].
    - rewrite (Z.ones_spec_low k i) by lia. rewrite (Z.ones_spec_low 64 i) by lia.
      cbn. rewrite !andb_false_r. reflexivity.
    - rewrite (Z.ones_spec_high k i) by lia.
      destruct (Z_lt_le_dec i 64) as [H2|H2].
      + rewrite (Z.ones_spec_low 64 i) by lia. reflexivity.
      + rewrite (Z.ones_spec_high 64 i) by lia. cbn. rewrite andb_false_r, andb_true_r.
        symmetry. destruct (Z.eq_dec x 0) as [->|Hne]; [apply Z.bits_0|].
        apply Z.bits_above_log2; [lia|].
        assert (Z.log2 x < 64) by (apply Z.log2_lt_pow2; lia). lia. }
  rewrite E. rewrite Z.ldiff_ones_r by lia.
  rewrite Z.shiftr_div_pow2, Z.shiftl_mul_pow2 by lia.
  pose proof (Z.div_mod x (2 ^ k)) as D. assert (0 < 2 ^ k) by (apply Z.pow_pos_nonneg; lia). lia.
Qed.


(* a binary operator: the stack handling is [binop]'s, the arithmetic is compared on two values *)
Lemma binop_refines : forall st f g, Forall inr st ->
  (forall x y, inr x -> inr y -> opt (f x y) = g x y /\ forall v, f x y = Ret v -> inr v) ->
  refines (binop st f)
          (match st with y :: x :: s => match g x y with Some v => Some (v :: s) | None => None end | _ => None end).
Proof.
  intros st f g Hst H. destruct st as [|y [|x s]]; try exact refines_fail.
  inversion Hst as [|? ? Hy Hst1]; subst. inversion Hst1 as [|? ? Hx Hs]; subst.
  destruct (H x y Hx Hy) as [<- Hv]. cbn [binop]. destruct (f x y) as [v| | |]; try (split; [reflexivity|discriminate]).
  apply refines_ret. constructor; [apply Hv; reflexivity|exact Hs].
Qed.

Lemma binop_step : forall p E cfa c st,
  is_binop_byte c = true -> Forall inr st ->
  refines (eval_step p E cfa [c] st) (spec_step E cfa (SBin c) st).
Proof.
  intros p E cfa c st Hc Hst. unfold is_binop_byte in Hc.
  repeat (apply orb_prop in Hc; destruct Hc as [Hc|Hc]); apply Z.eqb_eq in Hc; subst c;
    apply (binop_refines st _ (fun x y => spec_bin _ x y) Hst); intros x y Hx Hy; unfold inr in Hx, Hy.
  1-3: (* + - * *) split; [reflexivity|intros v H; injection H as <-; apply wrap64_range].
  - (* / *) change (spec_bin 47 x y) with (if y =? 0 then None else Some (x / y)).
    destruct (y =? 0) eqn:E0; [split; [reflexivity|discriminate]|]. apply Z.eqb_neq in E0.
    split; [reflexivity|]. intros v H. injection H as <-. unfold inr. split; [apply Z.div_pos; lia|].
    assert (x / y <= x) by (apply Z.div_le_upper_bound; nia). lia.
  - (* % *) change (spec_bin 37 x y) with (if y =? 0 then None else Some (x mod y)).
    destruct (y =? 0) eqn:E0; [split; [reflexivity|discriminate]|]. apply Z.eqb_neq in E0.
    split; [reflexivity|]. intros v H. injection H as <-. unfold inr. pose proof (Z.mod_pos_bound x y). lia.
  - (* @ *) change (spec_bin 64 x y) with (if (0 <? y) && (y =? 2 ^ Z.log2 y) then Some (x - x mod y) else None).
    unfold is_pow2.
    destruct ((0 <? y) && (y =? 2 ^ Z.log2 y)) eqn:Ep; cbn [negb]; [|rewrite orb_true_r; split; [reflexivity|discriminate]].
    apply andb_prop in Ep. destruct Ep as [P1 P2]. apply Z.ltb_lt in P1. apply Z.eqb_eq in P2.
    replace (y =? 0) with false by (symmetry; apply Z.eqb_neq; lia). cbn [orb].
    unfold chk_usub. replace (0 <=? y - 1) with true by (symmetry; apply Z.leb_le; lia).
    cbn [obind].
    assert (Hk : 0 <= Z.log2 y < 64).
    { split; [apply Z.log2_nonneg|]. apply Z.log2_lt_pow2; [lia|]. rewrite <- two64_val. lia. }
    assert (Ha : Z.land x (Z.lxor U64MAX (y - 1)) = x - x mod y).
    { rewrite P2 at 1 2. change U64MAX with (2 ^ 64 - 1). rewrite two64_val in Hx.
      rewrite (align_pow2 x (Z.log2 y) Hx Hk). rewrite <- P2. reflexivity. }
    rewrite Ha. split; [reflexivity|]. intros v H. injection H as <-. unfold inr.
    pose proof (Z.mod_pos_bound x y P1). pose proof (Z.mod_le x y). lia.
Qed.

Lemma special_single : forall c, is_binop_byte c = false -> (c =? 94) = false -> is_special [c] = false.
Proof.
  intros c Hb H94. unfold is_binop_byte in Hb.
  repeat match goal with H : (_ || _) = false |- _ => apply orb_false_elim in H; destruct H end.
  unfold is_special. cbn [existsb]. unfold T_plus, T_minus, T_star, T_slash, T_pct, T_at, T_caret, T_cfa, T_undef.
  cbn [beq]. rewrite ?andb_true_r, ?andb_false_r.
  repeat match goal with H : (c =? _) = false |- _ => rewrite H; clear H end. reflexivity.
Qed.
Lemma special_not_single : forall t, length t <> 1%nat -> beq t T_cfa = false -> beq t T_undef = false ->
  is_special t = false.
Proof.
  intros t Hl H1 H2. unfold is_special. cbn [existsb]. rewrite H1, H2.
  destruct t as [|c [|c2 r]]; [reflexivity|cbn in Hl; lia|].
  unfold T_plus, T_minus, T_star, T_slash, T_pct, T_at, T_caret. cbn [beq]. rewrite !andb_false_r. reflexivity.
Qed.

Lemma is_alnum_not_dollar : forall c, is_alnum c = true -> (c =? 36) = false.
Proof.
  intros c H. destruct (c =? 36) eqn:E; [|reflexivity]. apply Z.eqb_eq in E. subst. discriminate H.
Qed.
Lemma alnum_no_dollar : forall t, forallb is_alnum t = true -> after_dollar t = None.
Proof.
  induction t as [|c r IH]; cbn [forallb after_dollar]; intro H; [reflexivity|].
  apply andb_prop in H. destruct H as [H1 H2]. rewrite (is_alnum_not_dollar c H1). apply IH. exact H2.
Qed.
Lemma digit_not_dollar : forall c d, digit c = Some d -> (c =? 36) = false.
Proof.
  intros c d H. unfold digit in H. destruct ((48 <=? c) && (c <=? 57)) eqn:E; [|discriminate].
  apply andb_prop in E. destruct E as [E1 E2]. apply Z.leb_le in E1. apply Z.eqb_neq. lia.
Qed.
Lemma digits_no_dollar : forall l acc v, digits_val acc l = Some v -> after_dollar l = None.
Proof.
  induction l as [|c r IH]; intros acc v H; cbn [digits_val after_dollar] in *; [reflexivity|].
  destruct (digit c) as [d|] eqn:Ed; [|discriminate]. rewrite (digit_not_dollar c d Ed). eapply IH; eauto.
Qed.
Lemma parse_int_no_dollar : forall bits t v, parse_int bits t = Some v -> after_dollar t = None.
Proof.
  intros bits t v H. unfold parse_int in H. destruct t as [|c r]; [discriminate|].
  destruct ((c =? 43) || (c =? 45)) eqn:Es.
  - destruct r as [|c2 r2]; [discriminate|].
    destruct (digits_val 0 (c2 :: r2)) as [w|] eqn:Ed; [|discriminate].
    cbn [after_dollar]. replace (c =? 36) with false.
    + exact (digits_no_dollar _ _ _ Ed).
    + symmetry. apply Z.eqb_neq. apply orb_prop in Es. destruct Es as [Es|Es]; apply Z.eqb_eq in Es; lia.
  - destruct (digits_val 0 (c :: r)) as [w|] eqn:Ed; [|discriminate].
    exact (digits_no_dollar _ _ _ Ed).
Qed.

(* a one-byte token is a literal exactly when it is a digit *)
Lemma parse_int_single : forall c, parse_int 64 [c] = digit c.
Proof.
  intro c. unfold parse_int.
  destruct (Z.eqb_spec c 43) as [->|N1]; [reflexivity|]. destruct (Z.eqb_spec c 45) as [->|N2]; [reflexivity|].
  cbn [orb digits_val]. unfold digit. destruct ((48 <=? c) && (c <=? 57)) eqn:D; [|reflexivity].
  apply andb_prop in D. destruct D as [D1 D2]. apply Z.leb_le in D1. apply Z.leb_le in D2.
  replace (0 * 10 + (c - 48) <? 2 ^ (64 - 1)) with true by (symmetry; apply Z.ltb_lt; lia). reflexivity.
Qed.

Lemma step_refines : forall p E cfa t st,
  env_wf E -> (forall c, cfa = Some c -> inr c) -> documented t -> Forall inr st ->
  refines (eval_step p E cfa t st) (spec_step E cfa (spec_lex t) st).
Proof.
  intros p E cfa t st [Hreg Hmem] Hcfa Hdoc Hst. unfold documented in Hdoc.
  assert (Hcallee : forall n, refines (push_opt (e_callee E n) st)
                      (match e_callee E n with Some v => Some (v :: st) | None => None end))
    by (intro n; apply refines_push; [apply Hreg|exact Hst]).
  assert (Hlit : forall v, refines (Ret (wrap64 v :: st)) (Some (v mod two64 :: st)))
    by (intro v; apply refines_ret; constructor; [apply wrap64_range|exact Hst]).
  destruct t as [|c [|c2 r]].
  - (* empty token: not documented *)
    exfalso. apply Hdoc. reflexivity.
  - (* single byte *)
    cbn [spec_lex] in *.
    destruct (is_binop_byte c) eqn:Eb; [apply binop_step; assumption|].
    destruct (c =? 94) eqn:E94.
    { apply Z.eqb_eq in E94. subst c.
      change (eval_step p E cfa [94] st) with (match st with ptr :: s => push_opt (e_mem E ptr) s | [] => Fail end).
      cbn [spec_step]. destruct st as [|a s]; [exact refines_fail|].
      inversion Hst; subst. apply refines_push; [apply Hmem|assumption]. }
    rewrite (eval_step_default p E cfa [c] st (special_single c Eb E94)). unfold default_arm.
    rewrite parse_int_single. destruct (digit c) as [d|] eqn:Ed.
    + cbn [after_dollar]. rewrite (digit_not_dollar c d Ed). apply Hlit.
    + destruct (is_alnum c) eqn:Ea; [|exfalso; apply Hdoc; reflexivity].
      cbn [after_dollar]. rewrite (is_alnum_not_dollar c Ea). apply Hcallee.
  - (* two or more bytes *)
    set (t := c :: c2 :: r) in *.
    assert (Hlen : length t <> 1%nat) by (cbn; lia).
    unfold spec_lex in *. fold t in Hdoc |- *.
    change (match t with [c0] => _ | _ => ?x end) with x in Hdoc |- *.
    destruct (beq t T_cfa) eqn:Ecfa.
    { apply beq_eq in Ecfa. rewrite Ecfa.
      change (eval_step p E cfa T_cfa st) with (push_opt cfa st). apply refines_push; assumption. }
    destruct (beq t T_undef) eqn:Eund.
    { apply beq_eq in Eund. rewrite Eund. exact refines_fail. }
    rewrite (eval_step_default p E cfa t st (special_not_single t Hlen Ecfa Eund)). unfold default_arm.
    destruct (strip_prefix_dollar t) as [n|] eqn:Esd.
    + unfold strip_prefix_dollar, t in Esd. destruct (c =? 36) eqn:E36; [|discriminate].
      inversion Esd; subst n. apply Z.eqb_eq in E36. subst c.
      destruct (forallb is_alnum (c2 :: r) && negb (is_nil (c2 :: r))) eqn:Ean; [|exfalso; apply Hdoc; reflexivity].
      unfold t. cbn [after_dollar Z.eqb Pos.eqb]. apply Hcallee.
    + destruct (parse_int 64 t) as [v|] eqn:Epi.
      * rewrite (parse_int_no_dollar 64 t v Epi). apply Hlit.
      * destruct (forallb is_alnum t && negb (is_nil t)) eqn:Ean; [|exfalso; apply Hdoc; reflexivity].
        apply andb_prop in Ean. destruct Ean as [Ean _].
        rewrite (alnum_no_dollar t Ean). apply Hcallee.
Qed.

Lemma loop_refines : forall p E cfa e st,
  env_wf E -> (forall c, cfa = Some c -> inr c) -> Forall documented e -> Forall inr st ->
  refines (eval_loop p E cfa e st) (spec_run E cfa (map spec_lex e) st).
Proof.
  induction e as [|t r IH]; intros st HE Hcfa Hdoc Hst; cbn [eval_loop map spec_run]; [apply refines_ret, Hst|].
  inversion Hdoc as [|? ? Ht Hr]; subst.
  destruct (step_refines p E cfa t st HE Hcfa Ht Hst) as [H1 H2]. rewrite <- H1.
  destruct (eval_step p E cfa t st) as [st'| | |]; cbn [obind opt]; try (split; [reflexivity|discriminate]).
  apply IH; auto.
Qed.

Theorem eval_refines_spec : forall p E cfa e,
  env_wf E -> (forall c, cfa = Some c -> inr c) -> Forall documented e ->
  val p E cfa e = spec_eval E cfa e.
Proof.
  intros p E cfa e HE Hcfa Hdoc. unfold val, spec_eval, eval_cfi_expr.
  destruct (loop_refines p E cfa e [] HE Hcfa Hdoc (Forall_nil _)) as [<- _].
  destruct (eval_loop p E cfa e []) as [st| | |]; cbn [obind opt]; try reflexivity.
  destruct st as [|v [|w s]]; reflexivity.
Qed.

(* values stay within u64 *)
Lemma val_inr : forall p E cfa e v,
  env_wf E -> (forall c, cfa = Some c -> inr c) -> Forall documented e ->
  val p E cfa e = Some v -> inr v.
Proof.
  intros p E cfa e v HE Hcfa Hdoc H. unfold val, eval_cfi_expr in H.
  destruct (loop_refines p E cfa e [] HE Hcfa Hdoc (Forall_nil _)) as [_ L].
  destruct (eval_loop p E cfa e []) as [st| | |]; cbn [obind] in H; try discriminate.
  specialize (L st eq_refl). destruct st as [|x [|y s]]; try discriminate.
  inversion H; subst. inversion L; assumption.
Qed.
