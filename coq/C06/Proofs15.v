(* C06/Proofs15.v — after Proofs9.v, Proofs13.v, FileTable.v and C08.  Several STACK CFI INIT records in one file (C06/FileTable.v), tied to C08's generated parser
   tables: building the record table never panics; a lookup returns only a record of the file whose own range
   covers the address (records of size 0 or whose end leaves u64 are never returned and never shadow another record);
   a record that overlaps no other is found at every address it covers; and the walk of the file is the walk of the
   record found.  On files whose records are pairwise disjoint this is the "one that covers" model of GenDriver. *)
From Coq Require Import Lia Sorted.
From RM Require Import Base.Word C08.Model C08.Proofs C08.Tie C08.EndToEnd Gen.C08Tables Gen.CfiOps
                       C06.Model C06.GenModel C06.Proofs C06.Proofs9 C06.Proofs13 C06.Driver C06.GenDriver C06.FileTable.
Open Scope Z_scope.

Lemma rules_eqb_eq : forall a b, rules_eqb a b = true <-> a = b.
Proof.
  intros [a1 a2] [b1 b2]. unfold rules_eqb. cbn [fst snd]. rewrite Bool.andb_true_iff, Z.eqb_eq, beq_eq.
  split; [intros [-> ->]; reflexivity|intro H; inversion H; split; reflexivity].
Qed.
Lemma rules_list_eqb_eq : forall a b, rules_list_eqb a b = true <-> a = b.
Proof.
  induction a as [|x a IH]; destruct b as [|y b]; cbn [rules_list_eqb]; try (split; [discriminate|intro H; discriminate H]).
  - split; reflexivity.
  - rewrite Bool.andb_true_iff, rules_eqb_eq, IH. split; [intros [-> ->]; reflexivity|intro H; inversion H; split; reflexivity].
Qed.
Lemma cfi_rec_eqb_eq : forall a b, cfi_rec_eqb a b = true <-> a = b.
Proof.
  intros [ai asz aa] [bi bsz ba]. unfold cfi_rec_eqb. cbn [c_init c_size c_add].
  rewrite !Bool.andb_true_iff, rules_eqb_eq, Z.eqb_eq, rules_list_eqb_eq.
  split; [intros [[-> ->] ->]; reflexivity|intro H; inversion H; repeat split; reflexivity].
Qed.

(* what the parser can produce: u64 addresses, u32 sizes (within u64 is all the theorems need) *)
Definition u64_file (rs : list cfi_record) : Prop := Forall (fun r => u64 (fst (c_init r)) /\ u64 (c_size r)) rs.

Lemma u64_file_recs : forall rs, u64_file rs -> u64_recs (file_recs rs).
Proof.
  intros rs H. unfold u64_recs, file_recs. apply Forall_forall. intros e Hin. apply in_map_iff in Hin.
  destruct Hin as [r [<- Hr]]. cbn [fst snd]. unfold u64_file in H. rewrite Forall_forall in H. apply (H r Hr).
Qed.

Lemma covers_finished : forall r x, cfi_covers (finished r) x = cfi_covers r x.
Proof. intros. reflexivity. Qed.

(* [r'] cannot interfere with [r0]: it has no range (size 0 / end beyond u64) or lies entirely beside it *)
Definition beside (r0 r' : cfi_record) : Prop :=
  c_size r' = 0 \/ two64 <= fst (c_init r') + c_size r' \/
  fst (c_init r') + c_size r' <= fst (c_init r0) \/ fst (c_init r0) + c_size r0 <= fst (c_init r').

Theorem file_table_spec : forall p rs, u64_file rs ->
  exists t, cfi_file_table p rs = Ret t /\
    StronglySorted (fun a b => snd (fst a) < fst (fst b)) t /\
    (forall x v, rm_get t x = Some v -> exists r0, In r0 rs /\ v = finished r0 /\ cfi_covers r0 x = true) /\
    (forall r1 r0 r2 x, rs = r1 ++ r0 :: r2 -> cfi_covers r0 x = true ->
       (forall r', In r' (r1 ++ r2) -> beside r0 r') -> rm_get t x = Some (finished r0)).
Proof.
  intros p rs H.
  destruct (records_end_to_end cfi_record cfi_rec_eqb g_mr_StackInfoCfi cfi_rec_eqb_eq
              (or_intror (or_introl eq_refl)) p (file_recs rs) (u64_file_recs rs H)) as [t [Ht [Hs [Hsound Hiso]]]].
  exists t. split; [exact Ht|]. split; [exact Hs|]. split.
  - intros x v Hg. destruct (Hsound x v Hg) as [b [s [Hin [Hs0 [Hlt Hx]]]]].
    unfold file_recs in Hin. apply in_map_iff in Hin. destruct Hin as [r0 [E Hr0]]. inversion E; subst b s v.
    exists r0. split; [exact Hr0|]. split; [reflexivity|]. apply cfi_covers_spec. rewrite <- two64_val. lia.
  - intros r1 r0 r2 x E Hc Hb. apply cfi_covers_spec in Hc. rewrite <- two64_val in Hc.
    apply (Hiso (file_recs r1) (fst (c_init r0)) (c_size r0) (finished r0) (file_recs r2) x); try lia.
    + rewrite E. unfold file_recs. rewrite map_app. reflexivity.
    + intros b' s' v' Hin. unfold file_recs in Hin. rewrite <- map_app in Hin. apply in_map_iff in Hin.
      destruct Hin as [r' [E' Hr']]. inversion E'; subst b' s' v'. apply (Hb r' Hr').
Qed.

(* the walk of the file = the walk of the record the lookup finds *)
Lemma walk_of_finished : forall S (ops : wops S) p E r0 addr s, cfi_covers r0 addr = true ->
  gen_walk ops p E (snd (c_init (finished r0))) (map snd (gen_take_applicable addr (c_add (finished r0)))) s =
  gen_walk_frame_cfi ops p E r0 addr s.
Proof. intros S ops p E r0 addr s H. unfold gen_walk_frame_cfi. rewrite H. reflexivity. Qed.

Theorem file_walk_sound : forall S (ops : wops S) p E rs addr s, u64_file rs ->
  gen_walk_file ops p E rs addr s = Ret None \/
  exists r0, In r0 rs /\ cfi_covers r0 addr = true /\
             gen_walk_file ops p E rs addr s = gen_walk_frame_cfi ops p E r0 addr s.
Proof.
  intros S ops p E rs addr s H. destruct (file_table_spec p rs H) as [t [Ht [_ [Hsound _]]]].
  unfold gen_walk_file. rewrite Ht. destruct (rm_get t addr) as [v|] eqn:G; [|left; reflexivity].
  destruct (Hsound addr v G) as [r0 [Hin [-> Hc]]]. right. exists r0. split; [exact Hin|]. split; [exact Hc|].
  apply walk_of_finished. exact Hc.
Qed.

Theorem file_walk_none : forall S (ops : wops S) p E rs addr s, u64_file rs ->
  (forall r0, In r0 rs -> cfi_covers r0 addr = false) -> gen_walk_file ops p E rs addr s = Ret None.
Proof.
  intros S ops p E rs addr s H Hn. destruct (file_walk_sound S ops p E rs addr s H) as [E0|[r0 [Hin [Hc _]]]]; [exact E0|].
  rewrite (Hn r0 Hin) in Hc. discriminate Hc.
Qed.

Theorem file_walk_isolated : forall S (ops : wops S) p E r1 r0 r2 addr s, u64_file (r1 ++ r0 :: r2) ->
  cfi_covers r0 addr = true -> (forall r', In r' (r1 ++ r2) -> beside r0 r') ->
  gen_walk_file ops p E (r1 ++ r0 :: r2) addr s = gen_walk_frame_cfi ops p E r0 addr s.
Proof.
  intros S ops p E r1 r0 r2 addr s H Hc Hb. destruct (file_table_spec p _ H) as [t [Ht [_ [_ Hiso]]]].
  unfold gen_walk_file. rewrite Ht. rewrite (Hiso r1 r0 r2 addr eq_refl Hc Hb). apply walk_of_finished. exact Hc.
Qed.

(* pairwise disjoint, duplicate-free files: the table lookup is "the record that covers" of GenDriver.find_record *)
Lemma disjoint_beside : forall rs, disjoint_recs rs -> forall r0 r', In r0 rs -> In r' rs -> r0 <> r' ->
  u64 (fst (c_init r0)) -> u64 (fst (c_init r')) -> u64 (c_size r0) -> u64 (c_size r') ->
  c_size r0 <> 0 -> fst (c_init r0) + c_size r0 < two64 -> beside r0 r'.
Proof.
  intros rs D r0 r' H0 H' Hne [A0 _] [A' _] [S0 _] [S' _] Hs Hlt. unfold beside.
  destruct (Z.eq_dec (c_size r') 0) as [|Hs']; [left; assumption|].
  destruct (Z_le_gt_dec two64 (fst (c_init r') + c_size r')) as [|Hlt']; [right; left; assumption|].
  destruct (Z_le_gt_dec (fst (c_init r') + c_size r') (fst (c_init r0))) as [|G1]; [right; right; left; assumption|].
  destruct (Z_le_gt_dec (fst (c_init r0) + c_size r0) (fst (c_init r'))) as [|G2]; [right; right; right; assumption|].
  exfalso. apply Hne. set (x := Z.max (fst (c_init r0)) (fst (c_init r'))).
  apply (D r0 r' x H0 H'); apply cfi_covers_spec; rewrite <- two64_val; unfold x; lia.
Qed.

Theorem file_walk_disjoint : forall S (ops : wops S) p E rs addr s, u64_file rs -> NoDup rs -> disjoint_recs rs ->
  gen_walk_file ops p E rs addr s =
  match find_record rs addr with Some r => gen_walk_frame_cfi ops p E r addr s | None => Ret None end.
Proof.
  intros S ops p E rs addr s H ND D. destruct (find_record rs addr) as [r0|] eqn:F.
  - destruct (find_record_some _ _ _ F) as [Hin Hc]. destruct (in_split _ _ Hin) as [r1 [r2 E0]]. subst rs.
    apply file_walk_isolated; [exact H|exact Hc|]. intros r' Hr'.
    assert (Hne : r0 <> r').
    { intro; subst r'. apply NoDup_remove_2 in ND. apply ND. exact Hr'. }
    assert (Hin' : In r' (r1 ++ r0 :: r2)) by (apply in_app_or in Hr'; apply in_or_app; destruct Hr'; [left|right; right]; assumption).
    unfold u64_file in H. rewrite Forall_forall in H. destruct (H r0 Hin) as [A0 S0]. destruct (H r' Hin') as [A' S'].
    apply cfi_covers_spec in Hc. rewrite <- two64_val in Hc.
    apply (disjoint_beside _ D r0 r' Hin Hin' Hne A0 A' S0 S'); lia.
  - apply file_walk_none; [exact H|]. apply find_record_none. exact F.
Qed.
