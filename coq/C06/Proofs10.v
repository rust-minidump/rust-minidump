(* C06/Proofs10.v — after Model.v alone.  I64::from_str as modelled by [parse_int] (shared by the implementation model and [spec_lex]),
   against a declarative statement of "signed decimal integer within range": an optional single sign, at least one
   digit, digits only, value within [-2^(bits-1), 2^(bits-1) - 1]. *)
From Coq Require Import Lia.
From RM Require Import C06.Model.
Open Scope Z_scope.

Definition is_digit (c : Z) : bool := (48 <=? c) && (c <=? 57).
Definition dec_val (ds : bytes) : Z := fold_left (fun a c => a * 10 + (c - 48)) ds 0.

Inductive lit_shape : bytes -> bool -> bytes -> Prop :=
| LPlain : forall ds, lit_shape ds false ds
| LPlus : forall ds, lit_shape (43 :: ds) false ds
| LMinus : forall ds, lit_shape (45 :: ds) true ds.

Lemma digits_val_dec : forall l acc,
  digits_val acc l = if forallb is_digit l then Some (fold_left (fun a c => a * 10 + (c - 48)) l acc) else None.
Proof.
  induction l as [|c r IH]; intro acc; cbn [digits_val forallb fold_left]; [reflexivity|].
  unfold digit, is_digit at 1. destruct ((48 <=? c) && (c <=? 57)); [apply IH|reflexivity].
Qed.

(* sign, digits, range: what [parse_int] does once the sign is taken off *)
Definition signed (bits : Z) (neg : bool) (ds : bytes) : option Z :=
  match ds with
  | [] => None
  | _ => match digits_val 0 ds with
         | None => None
         | Some v => if neg then (if v <=? 2 ^ (bits - 1) then Some (- v) else None)
                     else (if v <? 2 ^ (bits - 1) then Some v else None)
         end
  end.

Lemma signed_spec : forall bits neg ds v,
  signed bits neg ds = Some v <->
  ds <> [] /\ forallb is_digit ds = true /\ v = (if neg then - dec_val ds else dec_val ds) /\
  (if neg then dec_val ds <= 2 ^ (bits - 1) else dec_val ds < 2 ^ (bits - 1)).
Proof.
  intros bits neg ds v. unfold signed. destruct ds as [|d r]; [split; [discriminate|intros [H _]; contradiction]|].
  rewrite digits_val_dec. fold (dec_val (d :: r)).
  destruct (forallb is_digit (d :: r)); [|split; [discriminate|intros (_ & H & _); discriminate H]].
  destruct neg.
  - destruct (Z.leb_spec (dec_val (d :: r)) (2 ^ (bits - 1))) as [R|R].
    + split; [intro H; injection H as <-; repeat split; [discriminate|exact R]|intros (_ & _ & -> & _); reflexivity].
    + split; [discriminate|intros (_ & _ & _ & H); lia].
  - destruct (Z.ltb_spec (dec_val (d :: r)) (2 ^ (bits - 1))) as [R|R].
    + split; [intro H; injection H as <-; repeat split; [discriminate|exact R]|intros (_ & _ & -> & _); reflexivity].
    + split; [discriminate|intros (_ & _ & _ & H); lia].
Qed.

Lemma parse_int_spec : forall bits t v,
  parse_int bits t = Some v <->
  exists neg ds, lit_shape t neg ds /\ ds <> [] /\ forallb is_digit ds = true /\
                 v = (if neg then - dec_val ds else dec_val ds) /\
                 (if neg then dec_val ds <= 2 ^ (bits - 1) else dec_val ds < 2 ^ (bits - 1)).
Proof.
  intros bits t v.
  (* a sign byte is not a digit, so a signed token is not a plain one *)
  assert (Hsign : forall c r, c = 43 \/ c = 45 -> forallb is_digit (c :: r) = true -> False)
    by (intros c r [-> | ->] H; discriminate H).
  destruct t as [|c r].
  - split; [discriminate|]. intros (neg & ds & S & Hn & _). inversion S; subst; contradiction.
  - change (parse_int bits (c :: r)) with (signed bits (c =? 45) (if (c =? 43) || (c =? 45) then r else c :: r)).
    rewrite signed_spec. destruct (Z.eqb_spec c 45) as [->|N45]; [|destruct (Z.eqb_spec c 43) as [->|N43]]; cbn [orb].
    + split; [intro H; exists true, r; split; [constructor|exact H]|].
      intros (neg & ds & S & H). inversion S; subst; [exfalso; apply (Hsign 45 r); tauto|exact H].
    + split; [intro H; exists false, r; split; [constructor|exact H]|].
      intros (neg & ds & S & H). inversion S; subst; [exfalso; apply (Hsign 43 r); tauto|exact H].
    + split; [intro H; exists false, (c :: r); split; [constructor|exact H]|].
      intros (neg & ds & S & H). inversion S; subst; [exact H|contradiction..].
Qed.
