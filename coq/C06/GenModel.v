(* C06/GenModel.v — the STACK CFI evaluator as an INTERPRETATION of coq/Gen/CfiOps.v, the tables that
   translate/c06_cfi_ops.py regenerates from breakpad-symbols/src/sym_file/walker.rs on every run:
     gen_eval_step / gen_eval_cfi_expr   the `match token` arms of eval_cfi_expr in source order, the if-let chain of
                                         the `_` arm, the final stack-length test
     gen_classify / gen_strip_label      the label suffix and the classification chain of parse_cfi_exprs
     gen_walk                            the statement skeleton of walk_with_stack_cfi (step list + loop actions)
   Definitions only (extracted through C06/GenDriver.v).  C06/Proofs13.v proves them equal to the hand-written
   model of C06/Model.v, so every theorem of C06/Properties.v is a theorem about the generated tables. *)
From RM Require Export C06.Model.
From RM Require Export Gen.CfiOps.
Open Scope Z_scope.

Definition PANIC_DIV0 : Z := 604.   (* u64::wrapping_div / wrapping_rem with a zero divisor *)
Definition PANIC_GEN : Z := 605.    (* a step sequence rustc would reject (use before definition) *)

(* ---- expressions and conditions of an operator arm ---- *)
Fixpoint gexp_eval (p : profile) (vars : list Z) (e : gexp) : outcome Z :=
  match e with
  | GVar n => Ret (nth n vars 0)
  | GLit z => Ret z
  | GWrapAdd a b => do x <- gexp_eval p vars a; do y <- gexp_eval p vars b; Ret (wrap64 (x + y))
  | GWrapSub a b => do x <- gexp_eval p vars a; do y <- gexp_eval p vars b; Ret (wrap64 (x - y))
  | GWrapMul a b => do x <- gexp_eval p vars a; do y <- gexp_eval p vars b; Ret (wrap64 (x * y))
  | GWrapDiv a b => do x <- gexp_eval p vars a; do y <- gexp_eval p vars b;
                    if y =? 0 then Panic PANIC_DIV0 else Ret (x / y)
  | GWrapRem a b => do x <- gexp_eval p vars a; do y <- gexp_eval p vars b;
                    if y =? 0 then Panic PANIC_DIV0 else Ret (x mod y)
  | GAnd a b => do x <- gexp_eval p vars a; do y <- gexp_eval p vars b; Ret (Z.land x y)
  | GXor a b => do x <- gexp_eval p vars a; do y <- gexp_eval p vars b; Ret (Z.lxor x y)
  | GSub a b => do x <- gexp_eval p vars a; do y <- gexp_eval p vars b; chk_usub p PANIC_SUB x y
  end.

Fixpoint gcond_eval (p : profile) (vars : list Z) (c : gcond) : outcome bool :=
  match c with
  | CEq a b => do x <- gexp_eval p vars a; do y <- gexp_eval p vars b; Ret (x =? y)
  | CPow2 a => do x <- gexp_eval p vars a; Ret (is_pow2 x)
  | CNot c => do b <- gcond_eval p vars c; Ret (negb b)
  | COr a b => do x <- gcond_eval p vars a; if x then Ret true else gcond_eval p vars b   (* `||` short-circuits *)
  end.

(* the statements of one arm; [vars] = the values popped so far, in binding order; Fail = `return None` *)
Fixpoint run_stmts (p : profile) (E : env) (cfa : option Z) (ss : list gstmt) (vars : list Z) (st : list Z)
  : outcome (list Z) :=
  match ss with
  | [] => Ret st
  | SPop :: r => match st with v :: st' => run_stmts p E cfa r (vars ++ [v]) st' | [] => Fail end
  | SGuard c :: r => do b <- gcond_eval p vars c; if b then Fail else run_stmts p E cfa r vars st
  | SPush e :: r => do v <- gexp_eval p vars e; run_stmts p E cfa r vars (v :: st)
  | SPushDeref e :: r => do a <- gexp_eval p vars e;
                         match e_mem E a with Some v => run_stmts p E cfa r vars (v :: st) | None => Fail end
  | SPushCfa :: r => match cfa with Some c => run_stmts p E cfa r vars (c :: st) | None => Fail end
  | SReturnNone :: _ => Fail
  end.

Fixpoint find_arm (t : bytes) (arms : list (list Z * list gstmt)) : option (list gstmt) :=
  match arms with
  | [] => None
  | (k, ss) :: r => if beq t k then Some ss else find_arm t r
  end.

Fixpoint run_default (E : env) (t : bytes) (st : list Z) (l : list gdefault) : outcome (list Z) :=
  match l with
  | [] => Fail
  | DAfterDollar :: r => match after_dollar t with
                         | Some reg => push_opt (e_callee E reg) st
                         | None => run_default E t st r
                         end
  | DInt bits :: r => match parse_int bits t with
                      | Some v => Ret (wrap64 v :: st)
                      | None => run_default E t st r
                      end
  | DBareReg :: r => match e_callee E t with
                     | Some v => Ret (v :: st)
                     | None => run_default E t st r
                     end
  end.

Definition gen_eval_step (p : profile) (E : env) (cfa : option Z) (t : bytes) (st : list Z) : outcome (list Z) :=
  match find_arm t cfi_arms with
  | Some ss => run_stmts p E cfa ss [] st
  | None => run_default E t st cfi_default
  end.

Fixpoint gen_eval_loop (p : profile) (E : env) (cfa : option Z) (toks : expr) (st : list Z) : outcome (list Z) :=
  match toks with
  | [] => Ret st
  | t :: r => do st' <- gen_eval_step p E cfa t st; gen_eval_loop p E cfa r st'
  end.

(* if stack.len() == N { stack.pop() } else { None } *)
Definition gen_eval_cfi_expr (p : profile) (E : env) (e : expr) (cfa : option Z) : outcome Z :=
  do st <- gen_eval_loop p E cfa e [];
  if Nat.eqb (length st) cfi_final_len then match st with v :: _ => Ret v | [] => Fail end else Fail.

(* ---- parse_cfi_exprs: label detection and classification from the generated chain ---- *)
Definition gen_strip_label (t : bytes) : option bytes :=
  match rev t with
  | c :: r => if c =? cfi_label_suffix then Some (rev r) else None
  | [] => None
  end.
Fixpoint gen_classify_with (l : list gclass) (name : bytes) : cfireg :=
  match l with
  | [] => ROther name
  | KEq n k :: r => if beq name n then (match k with KCfa => RCfa | KRa => RRa end) else gen_classify_with r name
  | KStripPrefix c :: r => match name with
                           | x :: rest => if x =? c then ROther rest else gen_classify_with r name
                           | [] => gen_classify_with r name
                           end
  | KBare :: _ => ROther name
  end.
Definition gen_classify := gen_classify_with cfi_classify.

Fixpoint gen_parse_loop (len : Z) (toks : list tok) (reg : option cfireg)
         (first last : option tok) (acc : list bytes) (out : rmap) : outcome rmap :=
  match toks with
  | [] => commit len reg first last acc out
  | t :: r =>
      match gen_strip_label (t_body t) with
      | Some name =>
          match reg with
          | Some _ =>
              do out' <- commit len reg first last acc out;
              gen_parse_loop len r (Some (gen_classify name)) None None [] out'
          | None => gen_parse_loop len r (Some (gen_classify name)) first last acc out
          end
      | None =>
          match reg with
          | None => Fail
          | Some _ =>
              gen_parse_loop len r reg (match first with None => Some t | _ => first end)
                             (Some t) (t_body t :: acc) out
          end
      end
  end.
Definition gen_parse_cfi_exprs (input : bytes) (out : rmap) : outcome rmap :=
  gen_parse_loop (blen input) (tokens input) None None None [] out.
Fixpoint gen_parse_all (texts : list bytes) (out : rmap) : outcome rmap :=
  match texts with
  | [] => Ret out
  | t :: r => do out' <- gen_parse_cfi_exprs t out; gen_parse_all r out'
  end.

(* ---- walk_with_stack_cfi: the generated step list ---- *)
Section GenWalk.
Context {S : Type} (ops : wops S).

Record wst := mkW {
  w_map : rmap; w_sorted : bool;
  w_cfa_e : option expr; w_ra_e : option expr;
  w_cfa : option Z; w_ra : option Z;
  w_s : S
}.

Definition run_acts (acts : list gact) (s : S) (name : bytes) : S :=
  fold_left (fun s a => match a with AClear => o_clear ops s name end) acts s.

Definition gen_apply_rule (p : profile) (E : env) (cfa : Z) (s : S) (re : cfireg * expr) : outcome S :=
  match fst re with
  | ROther name =>
      match gen_eval_cfi_expr p E (snd re) (if cfi_loop_with_cfa then Some cfa else None) with
      | Ret v => match o_set ops s name v with
                 | Some s' => Ret (run_acts cfi_on_accepted s' name)
                 | None => Ret (run_acts cfi_on_rejected s name)
                 end
      | Fail => Ret (run_acts cfi_on_failed s name)
      | Panic t => Panic t
      | OutOfFuel => OutOfFuel
      end
  | _ => Panic PANIC_UNREACHABLE
  end.
Fixpoint gen_apply_rules (p : profile) (E : env) (cfa : Z) (l : rmap) (s : S) : outcome S :=
  match l with
  | [] => Ret s
  | re :: r => do s' <- gen_apply_rule p E cfa s re; gen_apply_rules p E cfa r s'
  end.

(* one statement of the skeleton; Ret None = the function returns None (`?`) *)
Definition gen_step (p : profile) (E : env) (init : bytes) (adds : list bytes) (k : wstep) (w : wst)
  : outcome (option wst) :=
  match k with
  | WParseInit =>
      try_ (gen_parse_cfi_exprs init (w_map w)) (fun m =>
        Ret (Some (mkW m (w_sorted w) (w_cfa_e w) (w_ra_e w) (w_cfa w) (w_ra w) (w_s w))))
  | WParseAdditional =>
      try_ (gen_parse_all adds (w_map w)) (fun m =>
        Ret (Some (mkW m (w_sorted w) (w_cfa_e w) (w_ra_e w) (w_cfa w) (w_ra w) (w_s w))))
  | WRemoveCfa =>
      let '(o, m) := map_remove RCfa (w_map w) in
      match o with
      | Some e => Ret (Some (mkW m (w_sorted w) (Some e) (w_ra_e w) (w_cfa w) (w_ra w) (w_s w)))
      | None => Ret None
      end
  | WRemoveRa =>
      let '(o, m) := map_remove RRa (w_map w) in
      match o with
      | Some e => Ret (Some (mkW m (w_sorted w) (w_cfa_e w) (Some e) (w_cfa w) (w_ra w) (w_s w)))
      | None => Ret None
      end
  | WEvalCfa with_cfa =>
      match w_cfa_e w with
      | Some e =>
          try_ (gen_eval_cfi_expr p E e (if with_cfa then w_cfa w else None)) (fun v =>
            Ret (Some (mkW (w_map w) (w_sorted w) (w_cfa_e w) (w_ra_e w) (Some v) (w_ra w) (w_s w))))
      | None => Panic PANIC_GEN
      end
  | WEvalRa with_cfa =>
      match w_ra_e w with
      | Some e =>
          try_ (gen_eval_cfi_expr p E e (if with_cfa then w_cfa w else None)) (fun v =>
            Ret (Some (mkW (w_map w) (w_sorted w) (w_cfa_e w) (w_ra_e w) (w_cfa w) (Some v) (w_s w))))
      | None => Panic PANIC_GEN
      end
  | WSetCfa =>
      match w_cfa w with
      | Some c => match o_set_cfa ops (w_s w) c with
                  | Some s' => Ret (Some (mkW (w_map w) (w_sorted w) (w_cfa_e w) (w_ra_e w) (w_cfa w) (w_ra w) s'))
                  | None => Ret None
                  end
      | None => Panic PANIC_GEN
      end
  | WSetRa =>
      match w_ra w with
      | Some c => match o_set_ra ops (w_s w) c with
                  | Some s' => Ret (Some (mkW (w_map w) (w_sorted w) (w_cfa_e w) (w_ra_e w) (w_cfa w) (w_ra w) s'))
                  | None => Ret None
                  end
      | None => Panic PANIC_GEN
      end
  | WSort => Ret (Some (mkW (sort_rules (w_map w)) true (w_cfa_e w) (w_ra_e w) (w_cfa w) (w_ra w) (w_s w)))
  end.

Fixpoint gen_steps (p : profile) (E : env) (init : bytes) (adds : list bytes) (ks : list wstep) (w : wst)
  : outcome (option wst) :=
  match ks with
  | [] => Ret (Some w)
  | k :: r =>
      match gen_step p E init adds k w with
      | Ret (Some w') => gen_steps p E init adds r w'
      | Ret None => Ret None
      | Fail => Fail
      | Panic t => Panic t
      | OutOfFuel => OutOfFuel
      end
  end.

(* walk_with_stack_cfi(init, additional, walker) *)
Definition gen_walk (p : profile) (E : env) (init : bytes) (adds : list bytes) (s : S) : outcome (option S) :=
  match gen_steps p E init adds cfi_walk_steps (mkW [] false None None None None s) with
  | Ret (Some w) =>
      match w_cfa w, w_sorted w with
      | Some cfa, true => try_ (gen_apply_rules p E cfa (w_map w) (w_s w)) (fun s3 => Ret (Some s3))
      | _, _ => Panic PANIC_GEN
      end
  | Ret None => Ret None
  | Fail => Fail
  | Panic t => Panic t
  | OutOfFuel => OutOfFuel
  end.
End GenWalk.

(* SymbolFile::walk_frame, STACK CFI part, over the generated evaluator and the generated record selection *)
Definition gen_take_cmp (a addr : Z) : bool :=
  match cfi_take_cmp with CmpLe => a <=? addr | CmpLt => a <? addr end.
Fixpoint gen_take_applicable (addr : Z) (l : list cfi_rules) : list cfi_rules :=
  match l with
  | [] => []
  | x :: t => if gen_take_cmp (fst x) addr then x :: gen_take_applicable addr t else []
  end.
Definition gen_deltas (l : list cfi_rules) : list cfi_rules := if cfi_deltas_sorted then sort_cfi l else l.

Definition gen_walk_frame_cfi {S} (ops : wops S) (p : profile) (E : env) (r : cfi_record) (addr : Z) (s : S)
  : outcome (option S) :=
  if cfi_covers r addr then
    gen_walk ops p E (snd (c_init r)) (map snd (gen_take_applicable addr (gen_deltas (c_add r)))) s
  else Ret None.
