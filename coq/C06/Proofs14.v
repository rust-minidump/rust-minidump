(* C06/Proofs14.v — after Proofs5.v, Proofs13.v, ArchDriver.v.  Front-end B for every architecture whose unwinder uses CfiStackWalker (x86, amd64, arm64, arm,
   mips 32-bit view, mips64): the architecture tables are well-formed (canonical names are fixed points of
   memoize_register and lie in REGISTERS, so the validity set the walker builds never leaves REGISTERS), the
   environment the driver builds is within u64, and the extracted entry point [run_real2_gen] — the function the
   correspondence run compares with walk_stack — equals the documented result [cfi_spec_real] followed by the
   hand-over of <arch>::get_caller_frame. *)
From Coq Require Import Lia.
From RM Require Import C08.Model C06.Model C06.GenModel C06.Proofs C06.Proofs2 C06.Proofs3 C06.Proofs4 C06.Proofs5 C06.Proofs13
                       C06.Proofs7 C06.Driver C06.GenDriver C06.ArchDriver Gen.UnwindConsts Gen.CfiOps.
Open Scope Z_scope.

(* canonical names (alias targets, REGISTERS) are fixed points of memoize_register; alias targets and
   CALLEE_SAVED_REGS lie in REGISTERS; so do the names given to set_cfa / set_ra, which are canonical and distinct;
   the register width is 1..8 bytes *)
Definition arch_wfb (a : arch) : bool :=
  forallb (fun c => match memoize a c with Some c' => beq c' c | None => false end) (map snd (a_alias a) ++ a_regs a) &&
  forallb (fun c => mem_b c (a_regs a)) (map snd (a_alias a) ++ a_saved a) &&
  mem_b (a_sp a) (a_regs a) && mem_b (a_ip a) (a_regs a) &&
  match memoize a (a_sp a), memoize a (a_ip a) with
  | Some s, Some i => beq s (a_sp a) && beq i (a_ip a) && negb (beq s i)
  | _, _ => false
  end &&
  (0 <? a_width a) && (a_width a <=? 8).

Lemma mem_b_In : forall k l, mem_b k l = true <-> In k l.
Proof.
  induction l as [|x r IH]; cbn [mem_b In]; [split; [discriminate|contradiction]|].
  rewrite Bool.orb_true_iff, IH. split; (intros [H|H]; [left|right; exact H]).
  - apply beq_eq in H. symmetry. exact H.
  - subst. apply beq_refl.
Qed.
Lemma assoc_b_In : forall k l c, assoc_b k l = Some c -> In c (map snd l).
Proof.
  induction l as [|[k' v] r IH]; intros c H; cbn [assoc_b] in H; [discriminate|].
  destruct (beq k k'); [injection H as <-; left; reflexivity|right; apply IH; exact H].
Qed.

(* the conjuncts of [arch_wfb], in its order: fixed points, subsets, sp, ip, sp / ip canonical and distinct, width *)
Lemma arch_wfb_parts : forall a, arch_wfb a = true ->
  forallb (fun c => match memoize a c with Some c' => beq c' c | None => false end) (map snd (a_alias a) ++ a_regs a) = true /\
  forallb (fun c => mem_b c (a_regs a)) (map snd (a_alias a) ++ a_saved a) = true /\
  mem_b (a_sp a) (a_regs a) = true /\ mem_b (a_ip a) (a_regs a) = true /\
  match memoize a (a_sp a), memoize a (a_ip a) with
  | Some s, Some i => beq s (a_sp a) && beq i (a_ip a) && negb (beq s i)
  | _, _ => false
  end = true /\
  (0 <? a_width a) = true /\ (a_width a <=? 8) = true.
Proof.
  intros a W. unfold arch_wfb in W. repeat (apply andb_prop in W; destruct W as [W ?]). repeat split; assumption.
Qed.

Lemma arch_wf_memoize : forall a, arch_wfb a = true ->
  forall n c, memoize a n = Some c -> In c (a_regs a) /\ memoize a c = Some c.
Proof.
  intros a W n c M. destruct (arch_wfb_parts a W) as (W1 & W2 & _).
  rewrite forallb_forall in W1, W2.
  assert (Hin : In c (map snd (a_alias a) ++ a_regs a)).
  { unfold memoize in M. destruct (assoc_b n (a_alias a)) as [c'|] eqn:A.
    - injection M as <-. apply in_or_app. left. eapply assoc_b_In. exact A.
    - destruct (mem_b n (a_regs a)) eqn:B; [|discriminate]. injection M as <-.
      apply in_or_app. right. apply mem_b_In. exact B. }
  split.
  - apply in_app_or in Hin. destruct Hin as [H|H]; [|exact H].
    apply mem_b_In. apply W2. apply in_or_app. left. exact H.
  - specialize (W1 c Hin). destruct (memoize a c) as [c'|]; [|discriminate]. apply beq_eq in W1. subst. reflexivity.
Qed.

Lemma arch_wf_sp_ip : forall a, arch_wfb a = true ->
  memoize a (a_sp a) = Some (a_sp a) /\ memoize a (a_ip a) = Some (a_ip a) /\ a_sp a <> a_ip a /\
  In (a_sp a) (a_regs a) /\ In (a_ip a) (a_regs a) /\ (forall c, In c (a_saved a) -> In c (a_regs a)) /\
  0 < a_width a <= 8.
Proof.
  intros a W. destruct (arch_wfb_parts a W) as (_ & W2 & W3 & W4 & W5 & W6 & W7).
  destruct (memoize a (a_sp a)) as [s|]; [|discriminate]. destruct (memoize a (a_ip a)) as [i|]; [|discriminate].
  apply andb_prop in W5. destruct W5 as [W5 C]. apply andb_prop in W5. destruct W5 as [A B].
  apply beq_eq in A. apply beq_eq in B. subst s i.
  apply Z.ltb_lt in W6. apply Z.leb_le in W7.
  split; [reflexivity|]. split; [reflexivity|].
  split; [intro H; rewrite H, beq_refl in C; discriminate|].
  split; [apply mem_b_In; exact W3|]. split; [apply mem_b_In; exact W4|].
  split; [|lia].
  intros c Hc. rewrite forallb_forall in W2. apply mem_b_In. apply W2. apply in_or_app. right. exact Hc.
Qed.

Lemma arch_tables_wf : forall k, arch_wfb (arch_of2 k) = true.
Proof.
  intro k. unfold arch_of2, arch_of.
  destruct (k =? 3); [vm_compute; reflexivity|]. destruct (k =? 4); [vm_compute; reflexivity|].
  destruct (k =? 5); [vm_compute; reflexivity|]. destruct (k =? 0); [vm_compute; reflexivity|].
  destruct (k =? 1); vm_compute; reflexivity.
Qed.

Definition ctx_wf (ctx : list (bytes * Z)) : Prop := forall n v, In (n, v) ctx -> 0 <= v < two64.
Definition bytes_wf (l : bytes) : Prop := forall b, In b l -> 0 <= b < 256.

Lemma ctx_wf_dec : forall ctx, forallb (fun nv => (0 <=? snd nv) && (snd nv <? two64)) ctx = true -> ctx_wf ctx.
Proof.
  intros ctx H n v Hin. rewrite forallb_forall in H. specialize (H (n, v) Hin). cbn [snd] in H.
  apply Bool.andb_true_iff in H. destruct H as [H1 H2]. apply Z.leb_le in H1. apply Z.ltb_lt in H2. split; assumption.
Qed.
Lemma bytes_wf_dec : forall l, forallb (fun b => (0 <=? b) && (b <? 256)) l = true -> bytes_wf l.
Proof.
  intros l H b Hin. rewrite forallb_forall in H. specialize (H b Hin).
  apply Bool.andb_true_iff in H. destruct H as [H1 H2]. apply Z.leb_le in H1. apply Z.ltb_lt in H2. split; assumption.
Qed.

Lemma assoc_In : forall k l v, assoc k l = Some v -> exists k', In (k', v) l.
Proof.
  induction l as [|[k' v'] r IH]; intros v H; cbn [assoc] in H; [discriminate|].
  destruct (beq k k'); [injection H as <-; exists k'; left; reflexivity|].
  destruct (IH _ H) as [k'' I]. exists k''. right. exact I.
Qed.

Lemma le_val_bound : forall l, bytes_wf l -> 0 <= le_val l < 256 ^ Z.of_nat (length l).
Proof.
  induction l as [|b r IH]; intro W; cbn [le_val length]; [cbn; lia|].
  assert (Hb : 0 <= b < 256) by (apply W; left; reflexivity).
  assert (Hr : 0 <= le_val r < 256 ^ Z.of_nat (length r)) by (apply IH; intros x Hx; apply W; right; exact Hx).
  rewrite Nat2Z.inj_succ, Z.pow_succ_r by lia. nia.
Qed.

Lemma in_firstn : forall (A : Type) n (l : list A) x, In x (firstn n l) -> In x l.
Proof. intros A n l x H. rewrite <- (firstn_skipn n l). apply in_or_app. left. exact H. Qed.
Lemma in_skipn : forall (A : Type) n (l : list A) x, In x (skipn n l) -> In x l.
Proof. intros A n l x H. rewrite <- (firstn_skipn n l). apply in_or_app. right. exact H. Qed.

Lemma mem_read_inr : forall w base data addr v, 0 < w <= 8 -> bytes_wf data ->
  mem_read w base data addr = Some v -> 0 <= v < two64.
Proof.
  intros w base data addr v Hw W H. unfold mem_read in H.
  destruct ((base <=? addr) && (addr - base + w <=? blen data)); [|discriminate]. injection H as <-.
  set (l := firstn (Z.to_nat w) (skipn (Z.to_nat (addr - base)) data)).
  assert (Wl : bytes_wf l).
  { intros b Hb. apply W. unfold l in Hb. apply in_firstn in Hb. apply in_skipn in Hb. exact Hb. }
  pose proof (le_val_bound l Wl) as B.
  assert (L : (length l <= Z.to_nat w)%nat) by (unfold l; apply firstn_le_length).
  assert (P : 256 ^ Z.of_nat (length l) <= 256 ^ 8) by (apply Z.pow_le_mono_r; lia).
  unfold two64. change (256 ^ 8) with (2 ^ 64) in P. lia.
Qed.

Lemma real_env2_wf : forall k ctx valid stackbase stack ip,
  ctx_wf ctx -> bytes_wf stack -> env_wf (real_env2 k ctx valid stackbase stack ip).
Proof.
  intros k ctx valid sb st ip Wc Ws. unfold real_env2, env_wf. cbn [e_callee e_mem]. split.
  - assert (B : forall n v, real_callee (arch_of2 k) ctx valid n = Some v -> 0 <= v < two64).
    { intros n v H. unfold real_callee in H. destruct (memoize (arch_of2 k) n) as [c|]; [|discriminate].
      match type of H with (if ?b then _ else _) = _ => destruct b; [|discriminate] end.
      injection H as <-. destruct (assoc c ctx) as [v|] eqn:A; [|split; [lia|reflexivity]].
      destruct (assoc_In _ _ _ A) as [k' I]. apply (Wc _ _ I). }
    intros n v H. unfold inr. unfold real_callee2 in H. destruct (k =? 4); [|apply (B n v H)].
    destruct (real_callee (arch_of2 k) ctx valid n) as [v0|]; [|discriminate]. injection H as <-.
    (* a value reduced mod 2^32 is below 2^64 *)
    change cfi_mips32_callee_bits with 32.
    pose proof (Z.mod_pos_bound v0 (2 ^ 32) eq_refl) as M.
    assert (L : 2 ^ 32 < two64) by reflexivity. lia.
  - intros a v H. unfold inr. pose proof (arch_wf_sp_ip _ (arch_tables_wf k)) as [_ [_ [_ [_ [_ [_ Hw]]]]]].
    eapply mem_read_inr; eassumption.
Qed.

(* pointwise-equal walker states ([reqv]) are observed alike *)
Lemma observe_real_ext : forall a s s', reqv s s' -> observe_real a s = observe_real a s'.
Proof.
  intros a s s' H. unfold observe_real. induction (a_regs a) as [|n r IH]; [reflexivity|].
  cbn [flat_map]. destruct (H n) as [-> ->]. rewrite IH. reflexivity.
Qed.

Lemma post_real2_ext : forall k a sp s s', reqv s s' ->
  match post_real2 k a sp s, post_real2 k a sp s' with
  | Some x, Some y => reqv x y
  | None, None => True
  | _, _ => False
  end.
Proof.
  intros k a sp s s' H. assert (Hc : forall n, r_ctx s n = r_ctx s' n) by (intro n; apply H).
  unfold post_real2, post_real. destruct (k <? 3); [destruct (k =? 2)|]; cbn [r_ctx r_valid]; unfold updz; repeat rewrite Hc.
  - destruct (_ <? 4096); [exact I|]. destruct (_ <? sp); [exact I|].
    intro c. cbn [r_ctx r_valid]. rewrite Hc. split; [reflexivity|apply H].
  - destruct (_ <? 4096); [exact I|]. destruct (_ <=? sp); [exact I|exact H].
  - destruct (_ <? 4096); [exact I|]. destruct (_ <? sp); [exact I|exact H].
Qed.

(* what walk_stack makes of the documented result: the hand-over, then the observed registers *)
Definition frame_of_spec (k : Z) (a : arch) (callee_sp : Z) (res : option ((bytes -> Z) * (bytes -> bool))) : c06_out :=
  match res with
  | Some (c, v) =>
      match post_real2 k a callee_sp (mkR c v) with
      | Some s1 => Build_c06_out 1 None None (observe_real a s1) []
      | None => out_none
      end
  | None => out_none
  end.

Theorem real_end_to_end : forall k ctx valid stackbase stack initaddr initsize init deltas,
  ctx_wf ctx -> bytes_wf stack ->
  let a := arch_of2 k in
  let ip := match assoc (a_ip a) ctx with Some v => v | None => 0 end in
  let sp := match assoc (a_sp a) ctx with Some v => v | None => 0 end in
  let r := mkCfi (initaddr, init) initsize deltas in
  let E := real_env2 k ctx valid stackbase stack ip in
  all_documented r (ip - 1073741824) -> real_documented_nonaliasing a r (ip - 1073741824) ->
  run_real2_gen k ctx valid stackbase stack initaddr initsize init deltas =
    if negb (stack_ok stackbase stack)
       || negb (match valid with None => true | Some which => mem_b (a_sp a) which end)
       || (ip <? 1073741824) || (1073741824 + 65536 <=? ip) then out_none
    else frame_of_spec k a sp (cfi_spec_real a E r (ip - 1073741824) (real_init a ctx valid)).
Proof.
  intros k ctx valid sb st ia isz init deltas Wc Ws a ip sp r E Hd Hn.
  unfold run_real2_gen. fold a. fold ip. fold sp. fold E. fold r.
  destruct (negb (stack_ok sb st)); [reflexivity|]. cbn [orb].
  destruct (negb _ || _ || _); [reflexivity|]. rewrite gen_walk_frame_eq.
  pose proof (real_walk_refines_spec a Debug E r (ip - 1073741824) (real_init a ctx valid)
                (real_env2_wf k ctx valid sb st ip Wc Ws) Hd Hn) as R.
  destruct (walk_frame_cfi (real_ops a) Debug E r (ip - 1073741824) (real_init a ctx valid)) as [[s|]| | |];
    destruct (cfi_spec_real a E r (ip - 1073741824) (real_init a ctx valid)) as [[c v]|]; try contradiction; try reflexivity.
  unfold frame_of_spec.
  assert (Q : reqv s (mkR c v)) by (intro x; cbn [r_ctx r_valid]; apply R).
  pose proof (post_real2_ext k a sp _ _ Q) as P.
  destruct (post_real2 k a sp s) as [x|], (post_real2 k a sp (mkR c v)) as [y|]; try contradiction; [|reflexivity].
  rewrite (observe_real_ext a x y P). reflexivity.
Qed.

(* what arm.rs / mips.rs hand to walk_stack: the walker's context unchanged; the frame exists iff pc >= 4096 and the
   stack pointer did not go down (a context frame may be a leaf: equality is allowed) *)
Lemma handover_arm_mips : forall k a callee_sp s, 3 <= k ->
  match post_real2 k a callee_sp s with
  | Some s1 => s1 = s /\ 4096 <= r_ctx s (a_ip a) /\ callee_sp <= r_ctx s (a_sp a)
  | None => r_ctx s (a_ip a) < 4096 \/ r_ctx s (a_sp a) < callee_sp
  end.
Proof.
  intros k a csp s Hk. unfold post_real2. replace (k <? 3) with false by (symmetry; apply Z.ltb_ge; lia).
  destruct (r_ctx s (a_ip a) <? 4096) eqn:E1; [left; apply Z.ltb_lt; exact E1|].
  destruct (r_ctx s (a_sp a) <? csp) eqn:E2; [right; apply Z.ltb_lt; exact E2|].
  apply Z.ltb_ge in E1. apply Z.ltb_ge in E2. repeat split; lia.
Qed.

(* on x86 / amd64 / arm64 with a stack memory, [run_real2_gen] is [run_real_gen] *)
Lemma run_real2_three_arch : forall k ctx valid stackbase stack initaddr initsize init deltas, k < 3 ->
  stack_ok stackbase stack = true ->
  run_real2_gen k ctx valid stackbase stack initaddr initsize init deltas =
  run_real_gen k ctx valid stackbase stack initaddr initsize init deltas.
Proof.
  intros k ctx valid sb st ia isz init deltas Hk Hst. unfold run_real2_gen, run_real_gen, real_env2, post_real2, arch_of2.
  rewrite Hst. cbn [negb].
  replace (k =? 3) with false by (symmetry; apply Z.eqb_neq; lia).
  replace (k =? 4) with false by (symmetry; apply Z.eqb_neq; lia).
  replace (k =? 5) with false by (symmetry; apply Z.eqb_neq; lia).
  replace (k <? 3) with true by (symmetry; apply Z.ltb_lt; lia).
  unfold real_callee2. replace (k =? 4) with false by (symmetry; apply Z.eqb_neq; lia). reflexivity.
Qed.

(* the observation loses nothing: the validity set of the documented result stays inside REGISTERS *)
Lemma real_init_valid_in_regs : forall a ctx valid, arch_wfb a = true ->
  forall c, r_valid (real_init a ctx valid) c = true -> In c (a_regs a).
Proof.
  intros a ctx valid W c H. unfold real_init in H. cbn [r_valid] in H. apply Bool.andb_true_iff in H. destruct H as [H _].
  apply mem_b_In in H. destruct (arch_wf_sp_ip a W) as [_ [_ [_ [_ [_ [S _]]]]]]. apply S. exact H.
Qed.

Lemma spec_real_valid_in_regs : forall a E r addr s0 ctx valid, arch_wfb a = true ->
  (forall c, r_valid s0 c = true -> In c (a_regs a)) ->
  cfi_spec_real a E r addr s0 = Some (ctx, valid) ->
  forall c, valid c = true -> In c (a_regs a).
Proof.
  intros a E r addr s0 ctx valid W H0 H c Hc. unfold cfi_spec_real in H.
  destruct (arch_wf_sp_ip a W) as [Msp [Mip [_ [Isp [Iip _]]]]]. rewrite Msp, Mip in H.
  destruct (cfi_covers r addr); [|discriminate].
  destruct (all_pairs _) as [ps|]; [|discriminate].
  destruct (last_rule RCfa ps); [|discriminate]. destruct (last_rule RRa ps); [|discriminate].
  destruct (spec_eval E None _) as [cfa|]; [|discriminate].
  destruct (spec_eval E (Some cfa) _) as [ra|]; [|discriminate].
  destruct (fits (a_width a) cfa && fits (a_width a) ra); [|discriminate].
  injection H as _ Hv. subst valid. cbn beta in Hc.
  assert (Hb : (if beq c (a_ip a) then true else if beq c (a_sp a) then true else r_valid s0 c) = true -> In c (a_regs a)).
  { destruct (beq c (a_ip a)) eqn:B1; [apply beq_eq in B1; subst; intro; exact Iip|].
    destruct (beq c (a_sp a)) eqn:B2; [apply beq_eq in B2; subst; intro; exact Isp|]. apply H0. }
  destruct (find_canon a c ps) as [[n ee]|] eqn:F; [|apply Hb; exact Hc].
  destruct (find_canon_some _ _ _ _ _ F) as [_ M]. apply (arch_wf_memoize a W n c M).
Qed.

(* a stack memory without a range (empty, or base + size beyond u64) ends the walk before any frame is unwound *)
Lemma no_stack_no_frame : forall k ctx valid stackbase stack initaddr initsize init deltas,
  (blen stack = 0 \/ two64 <= stackbase + blen stack) ->
  run_real2_gen k ctx valid stackbase stack initaddr initsize init deltas = out_none.
Proof.
  intros k ctx valid sb st ia isz init deltas H. unfold run_real2_gen.
  assert (E : stack_ok sb st = false).
  { unfold stack_ok, mk_range, checked_add. destruct (blen st =? 0) eqn:E0; [reflexivity|].
    destruct H as [H|H]; [apply Z.eqb_neq in E0; contradiction|].
    destruct (sb + blen st <? 2 ^ 64) eqn:E1; [|reflexivity]. apply Z.ltb_lt in E1. unfold two64 in H. lia. }
  rewrite E. reflexivity.
Qed.
