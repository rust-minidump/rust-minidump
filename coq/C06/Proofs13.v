(* C06/Proofs13.v — after Proofs.v, GenModel.v, GenDriver.v.  The generated tables compute the hand-written model: the interpretation of Gen/CfiOps.v
   (C06/GenModel.v) equals C06/Model.v for all inputs ([gen_walk_frame_eq]).  Also several INIT records: with
   pairwise disjoint ranges the record used for a lookup address is "the one that covers it", independent of the
   order of the records in the file. *)
From Coq Require Import Lia Permutation.
From RM Require Import C06.Model C06.GenModel C06.Proofs C06.Driver C06.GenDriver.
Open Scope Z_scope.

Lemma gen_eval_step_eq : forall p E cfa t st, gen_eval_step p E cfa t st = eval_step p E cfa t st.
Proof.
  intros p E cfa t st. unfold gen_eval_step, eval_step, cfi_arms.
  cbn [find_arm].
  change [43] with T_plus. change [45] with T_minus. change [42] with T_star. change [47] with T_slash.
  change [37] with T_pct. change [64] with T_at. change [94] with T_caret.
  change [46; 99; 102; 97] with T_cfa. change [46; 117; 110; 100; 101; 102] with T_undef.
  destruct (beq t T_plus). { destruct st as [|r [|l s]]; reflexivity. }
  destruct (beq t T_minus). { destruct st as [|r [|l s]]; reflexivity. }
  destruct (beq t T_star). { destruct st as [|r [|l s]]; reflexivity. }
  destruct (beq t T_slash). { destruct st as [|r [|l s]]; try reflexivity. cbn. destruct (r =? 0); reflexivity. }
  destruct (beq t T_pct). { destruct st as [|r [|l s]]; try reflexivity. cbn. destruct (r =? 0); reflexivity. }
  destruct (beq t T_at).
  { destruct st as [|r [|l s]]; [reflexivity|reflexivity|].
    cbn [run_stmts app gcond_eval gexp_eval nth obind binop].
    destruct (r =? 0); cbn [orb negb]; [reflexivity|].
    destruct (is_pow2 r); cbn [negb]; [|reflexivity].
    unfold chk_usub. destruct (0 <=? r - 1); [reflexivity|]. destruct p; reflexivity. }
  destruct (beq t T_caret). { destruct st as [|a s]; reflexivity. }
  destruct (beq t T_cfa). { cbn. destruct cfa; reflexivity. }
  destruct (beq t T_undef). { reflexivity. }
  cbn. destruct (after_dollar t); [reflexivity|]. destruct (parse_int 64 t); [reflexivity|].
  destruct (e_callee E t); reflexivity.
Qed.

Lemma gen_eval_loop_eq : forall p E cfa toks st, gen_eval_loop p E cfa toks st = eval_loop p E cfa toks st.
Proof.
  intros p E cfa toks. induction toks as [|t r IH]; intro st; [reflexivity|].
  cbn [gen_eval_loop eval_loop]. rewrite gen_eval_step_eq.
  destruct (eval_step p E cfa t st); cbn; [apply IH|reflexivity..].
Qed.

Lemma gen_eval_cfi_expr_eq : forall p E e cfa, gen_eval_cfi_expr p E e cfa = eval_cfi_expr p E e cfa.
Proof.
  intros. unfold gen_eval_cfi_expr, eval_cfi_expr. rewrite gen_eval_loop_eq.
  destruct (eval_loop p E cfa e []) as [st| | |]; cbn; try reflexivity.
  destruct st as [|v [|w s]]; reflexivity.
Qed.

Lemma gen_strip_label_eq : forall t, gen_strip_label t = strip_suffix_colon t.
Proof. reflexivity. Qed.

Lemma gen_classify_eq : forall name, gen_classify name = classify_reg name.
Proof.
  intro name. unfold gen_classify, classify_reg, cfi_classify. cbn [gen_classify_with].
  change [46; 99; 102; 97] with T_cfa. change [46; 114; 97] with T_ra.
  destruct (beq name T_cfa); [reflexivity|]. destruct (beq name T_ra); [reflexivity|].
  unfold strip_prefix_dollar. destruct name as [|x rest]; [reflexivity|]. destruct (x =? 36); reflexivity.
Qed.

Lemma gen_parse_loop_eq : forall toks len reg first last acc out,
  gen_parse_loop len toks reg first last acc out = parse_loop len toks reg first last acc out.
Proof.
  induction toks as [|t r IH]; intros; [reflexivity|].
  cbn [gen_parse_loop parse_loop]. rewrite gen_strip_label_eq.
  destruct (strip_suffix_colon (t_body t)) as [name|].
  - rewrite gen_classify_eq. destruct reg.
    + destruct (commit len (Some c) first last acc out); cbn; [apply IH|reflexivity..].
    + apply IH.
  - destruct reg; [apply IH|reflexivity].
Qed.

Lemma gen_parse_cfi_exprs_eq : forall input out, gen_parse_cfi_exprs input out = parse_cfi_exprs input out.
Proof. intros. apply gen_parse_loop_eq. Qed.

Lemma gen_parse_all_eq : forall texts out, gen_parse_all texts out = parse_all texts out.
Proof.
  induction texts as [|t r IH]; intro out; [reflexivity|].
  cbn [gen_parse_all parse_all]. rewrite gen_parse_cfi_exprs_eq.
  destruct (parse_cfi_exprs t out); cbn; [apply IH|reflexivity..].
Qed.

Section W.
Context {S : Type} (ops : wops S).

Lemma gen_apply_rule_eq : forall p E cfa s re, gen_apply_rule ops p E cfa s re = apply_rule ops p E cfa s re.
Proof.
  intros. unfold gen_apply_rule, apply_rule. destruct (fst re); try reflexivity.
  rewrite gen_eval_cfi_expr_eq. cbn.
  destruct (eval_cfi_expr p E (snd re) (Some cfa)); try reflexivity.
  all: try (destruct (o_set ops s name a); reflexivity).
Qed.

Lemma gen_apply_rules_eq : forall p E cfa l s, gen_apply_rules ops p E cfa l s = apply_rules ops p E cfa l s.
Proof.
  intros p E cfa l. induction l as [|re r IH]; intro s; [reflexivity|].
  cbn [gen_apply_rules apply_rules]. rewrite gen_apply_rule_eq.
  destruct (apply_rule ops p E cfa s re); cbn; [apply IH|reflexivity..].
Qed.

(* after each statement of the skeleton: read the fields of the walk state it built *)
Ltac fields := cbn [w_map w_sorted w_cfa_e w_ra_e w_cfa w_ra w_s].

Lemma gen_walk_eq : forall p E init adds s,
  gen_walk ops p E init adds s = walk_with_stack_cfi ops p E (init :: adds) s.
Proof.
  intros. unfold gen_walk, walk_with_stack_cfi, walk_cfi_ord, cfi_walk_steps.
  cbn [parse_all]. cbn [gen_steps gen_step]. fields.
  rewrite gen_parse_cfi_exprs_eq.
  destruct (parse_cfi_exprs init []) as [m0| | |]; cbn [try_ obind]; try reflexivity.
  fields.
  rewrite gen_parse_all_eq.
  destruct (parse_all adds m0) as [m| | |]; cbn [try_ obind]; try reflexivity.
  fields.
  destruct (map_remove RCfa m) as [[cfa_e|] m1]; [|reflexivity].
  fields.
  destruct (map_remove RRa m1) as [[ra_e|] m2]; [|reflexivity].
  fields.
  rewrite gen_eval_cfi_expr_eq.
  destruct (eval_cfi_expr p E cfa_e None) as [cfa| | |]; cbn [try_]; try reflexivity.
  fields.
  rewrite gen_eval_cfi_expr_eq.
  destruct (eval_cfi_expr p E ra_e (Some cfa)) as [ra| | |]; cbn [try_]; try reflexivity.
  fields.
  destruct (o_set_cfa ops s cfa) as [s1|]; [|reflexivity].
  fields.
  destruct (o_set_ra ops s1 ra) as [s2|]; [|reflexivity].
  fields.
  rewrite gen_apply_rules_eq. reflexivity.
Qed.
End W.

Lemma gen_take_applicable_eq : forall addr l, gen_take_applicable addr l = take_applicable addr l.
Proof. intros addr l. induction l as [|x t IH]; [reflexivity|]. cbn. rewrite IH. reflexivity. Qed.

Lemma gen_walk_frame_eq : forall S (ops : wops S) p E r addr s,
  gen_walk_frame_cfi ops p E r addr s = walk_frame_cfi ops p E r addr s.
Proof.
  intros. unfold gen_walk_frame_cfi, walk_frame_cfi. destruct (cfi_covers r addr); [|reflexivity].
  rewrite gen_take_applicable_eq. apply gen_walk_eq.
Qed.

Lemma gen_walk_frame_total : forall S (ops : wops S) p E r addr s,
  exists o : option S, gen_walk_frame_cfi ops p E r addr s = Ret o.
Proof. intros. rewrite gen_walk_frame_eq. apply walk_frame_total. Qed.

Definition disjoint_recs (rs : list cfi_record) : Prop :=
  forall r1 r2 addr, In r1 rs -> In r2 rs -> cfi_covers r1 addr = true -> cfi_covers r2 addr = true -> r1 = r2.

Lemma find_record_some : forall rs addr r, find_record rs addr = Some r -> In r rs /\ cfi_covers r addr = true.
Proof.
  induction rs as [|x t IH]; intros addr r H; cbn [find_record] in H; [discriminate|].
  destruct (cfi_covers x addr) eqn:C.
  - injection H as <-. split; [left; reflexivity|exact C].
  - destruct (IH _ _ H) as [A B]. split; [right; exact A|exact B].
Qed.
Lemma find_record_none : forall rs addr, find_record rs addr = None -> forall r, In r rs -> cfi_covers r addr = false.
Proof.
  induction rs as [|x t IH]; intros addr H r Hr; [contradiction|]. cbn [find_record] in H.
  destruct (cfi_covers x addr) eqn:C; [discriminate|]. destruct Hr as [<-|Hr]; [exact C|apply (IH _ H _ Hr)].
Qed.

Lemma find_record_spec : forall rs addr, disjoint_recs rs ->
  (forall r, find_record rs addr = Some r <-> In r rs /\ cfi_covers r addr = true) /\
  (find_record rs addr = None <-> forall r, In r rs -> cfi_covers r addr = false).
Proof.
  intros rs addr D. split.
  - intro r. split; [apply find_record_some|]. intros [Hin Hc].
    destruct (find_record rs addr) as [r'|] eqn:F.
    + destruct (find_record_some _ _ _ F) as [A B]. f_equal. apply (D r' r addr A Hin B Hc).
    + rewrite (find_record_none _ _ F r Hin) in Hc. discriminate Hc.
  - split; [apply find_record_none|]. intro H.
    destruct (find_record rs addr) as [r'|] eqn:F; [|reflexivity].
    destruct (find_record_some _ _ _ F) as [A B]. rewrite (H r' A) in B. discriminate B.
Qed.

Lemma find_record_perm : forall rs rs' addr, Permutation rs rs' -> disjoint_recs rs ->
  find_record rs addr = find_record rs' addr.
Proof.
  intros rs rs' addr P D.
  assert (D' : disjoint_recs rs').
  { intros r1 r2 a H1 H2. apply D; apply (Permutation_in _ (Permutation_sym P)); assumption. }
  destruct (find_record rs addr) as [r|] eqn:F.
  - symmetry. apply (proj1 (find_record_spec rs' addr D')). destruct (find_record_some _ _ _ F) as [A B].
    split; [apply (Permutation_in _ P A)|exact B].
  - symmetry. apply (proj2 (find_record_spec rs' addr D')). intros r Hr.
    apply (find_record_none _ _ F). apply (Permutation_in _ (Permutation_sym P) Hr).
Qed.

