(* C01/PProofs.v — the stack-word loop of MinidumpThread::print never traps, for the pointer width of
   every processor_architecture value; it writes exactly len / chunk words; the compared field TSW is total. *)
From Coq Require Import Lia.
From RM Require Import C01.Model C01.Proofs C01.Driver C01.Final C01.QModel C01.QProofs C01.LModel C01.LProofs C01.SModel C01.SProofs C01.PModel.
Open Scope Z_scope.

(* the counting loop is Model.stack_print with a counter *)
Lemma stack_words_print : forall p w fuel remaining offset acc,
  stack_print p fuel w remaining offset = rbind (stack_words p fuel w remaining offset acc) (fun _ => Ok tt).
Proof.
  intros p w. induction fuel as [|fuel IH]; intros remaining offset acc; cbn [stack_print stack_words].
  - destruct (remaining <? chunk_size w); reflexivity.
  - destruct (remaining <? chunk_size w); [reflexivity|].
    destruct (chunk_size w =? array_len w); [|reflexivity].
    destruct (of_chk (chk_add p 64 PANIC_PRINT_OFFSET offset (chunk_size w))) as [o| | |]; cbn [rbind]; try reflexivity.
    apply IH.
Qed.

(* with 4 bytes of stack per unit of fuel the loop neither traps nor runs dry, and it counts exactly the whole
   chunks (chunks_exact drops the remainder); nothing is assumed about the sign of [remaining] *)
Lemma stack_words_ok : forall p w fuel remaining offset acc, 0 <= offset -> offset + Z.max 0 remaining < T62 ->
  remaining <= 4 * Z.of_nat fuel -> stack_words p fuel w remaining offset acc = Ok (acc + Z.max 0 remaining / chunk_size w).
Proof.
  intros p w. pose proof (chunk_bounds w) as Hc.
  induction fuel as [|fuel IH]; intros remaining offset acc H0 Hs Hf; cbn [stack_words].
  all: destruct (Z.ltb_spec remaining (chunk_size w)); [rewrite Z.div_small by lia; f_equal; lia|].
  - lia.
  - rewrite chunk_array_agree, Z.eqb_refl, <- chunk_array_agree.
    unfold chk_add. rewrite chk_ok by (unfold T62, T64 in *; lia). cbn [rbind].
    rewrite IH by lia. f_equal. rewrite !Z.max_r by lia.
    replace remaining with ((remaining - chunk_size w) + 1 * chunk_size w) at 2 by lia.
    rewrite Z.div_add by lia. lia.
Qed.
Lemma stack_print_rsat : forall p w fuel remaining offset, 0 <= offset -> offset + Z.max 0 remaining < T62 ->
  remaining <= 4 * Z.of_nat fuel -> rsat (fun _ => True) (stack_print p fuel w remaining offset).
Proof. intros. rewrite (stack_words_print _ _ _ _ _ 0), stack_words_ok by lia. apply rsat_any. Qed.

Lemma hexdump_print_rsat : forall p fuel remaining offset, 0 <= offset -> offset + remaining < T62 ->
  remaining <= 16 * Z.of_nat fuel -> rsat (fun _ => True) (hexdump_print p fuel remaining offset).
Proof.
  intros p. induction fuel as [|fuel IH]; intros remaining offset H0 Hs Hf; cbn [hexdump_print].
  all: destruct (Z.leb_spec remaining 0); [apply rsat_any|].
  - lia.
  - unfold chk_add. rewrite chk_ok by (unfold T62, T64 in *; lia). cbn [rbind].
    apply IH; lia.
Qed.

(* printing a stack of [len] bytes / a hex dump of [len] bytes, with fuel len + 1 *)
Lemma print_sites_total : forall p w len, 0 <= len < T62 ->
  ((forall t, stack_print p (Z.to_nat len + 1) w len 0 <> Pan t) /\ stack_print p (Z.to_nat len + 1) w len 0 <> NoFuel) /\
  ((forall t, hexdump_print p (Z.to_nat len + 1) len 0 <> Pan t) /\ hexdump_print p (Z.to_nat len + 1) len 0 <> NoFuel) /\
  chunk_size w = array_len w.
Proof.
  intros p w len H. split; [|split; [|apply chunk_array_agree]].
  - eapply rsat_total, stack_print_rsat; lia.
  - eapply rsat_total, hexdump_print_rsat; lia.
Qed.

(* MinidumpThread::print itself: whatever the pointer width and the length of the stack, the word loop writes
   len / chunk words of 4 or 8 bytes, and the chunk it cuts has the length of the array it must fill *)
Lemma print_words_total : forall p w len, 0 <= len < T62 ->
  (exists n, stack_words p (Z.to_nat len + 1) w len 0 0 = Ok n /\ n = len / chunk_size w /\ chunk_size w * n <= len) /\
  stack_print p (Z.to_nat len + 1) w len 0 = Ok tt /\
  chunk_size w = array_len w /\ (chunk_size w = 4 \/ chunk_size w = 8).
Proof.
  intros p w len Hl. pose proof (chunk_bounds w) as Hc.
  assert (E : stack_words p (Z.to_nat len + 1) w len 0 0 = Ok (len / chunk_size w))
    by (rewrite stack_words_ok by lia; rewrite Z.max_r by lia; reflexivity).
  split; [exists (len / chunk_size w); split; [exact E|]; split; [reflexivity | apply Z.mul_div_le; lia]|].
  split; [rewrite (stack_words_print p w _ len 0 0), E; reflexivity|].
  split; [apply chunk_array_agree|]. destruct w; cbn; lia.
Qed.

(* the count alone, whatever the fuel *)
Lemma stack_words_count : forall p w fuel remaining offset acc n, 0 <= remaining ->
  stack_words p fuel w remaining offset acc = Ok n -> n = acc + remaining / chunk_size w.
Proof.
  intros p w. pose proof (chunk_bounds w) as Hc.
  induction fuel as [|fuel IH]; intros remaining offset acc n Hr E; cbn [stack_words] in E.
  all: destruct (Z.ltb_spec remaining (chunk_size w)); [inversion E; subst; rewrite Z.div_small by lia; lia|].
  - discriminate.
  - destruct (chunk_size w =? array_len w); [|discriminate].
    destruct (of_chk (chk_add p 64 PANIC_PRINT_OFFSET offset (chunk_size w))) as [o| | |]; cbn [rbind] in E; try discriminate.
    apply IH in E; [|lia]. subst n.
    replace remaining with ((remaining - chunk_size w) + 1 * chunk_size w) at 2 by lia.
    rewrite Z.div_add by lia. lia.
Qed.

Lemma stack_len_rsat : forall e descs d src, -2 <= src < blen descs ->
  rsat (fun _ => True) (stack_len e descs d src).
Proof.
  intros e descs d src H. unfold stack_len.
  destruct (src =? -2); [apply rsat_any|].
  destruct (Z.ltb_spec src 0); [apply rsat_any|].
  destruct (nth_error descs (Z.to_nat src)) as [x|] eqn:En; [apply rsat_any|].
  apply nth_error_None in En. unfold blen in H. lia.
Qed.

Lemma thread_words_rsat : forall p file w len, blen file < T62 -> rsat (fun _ => True) (thread_words p file w len).
Proof.
  intros p file w [n|] Hlen; cbn [thread_words]; [|apply rsat_any].
  pose proof (blen_nonneg _ file) as Hnn.
  rewrite stack_words_ok by (unfold fuel_of, blen in *; lia). apply rsat_any.
Qed.

Lemma run_prints_total : forall p file, wf_bytes file -> blen file < T62 -> fields_total (run_prints p file).
Proof.
  intros p file Hwf Hlen. unfold run_prints.
  destruct (read_header file) as [[e ds]| | |]; [|apply fields_total_nil..].
  apply fields_total_cons; [|apply fields_total_nil]. eapply fld_rsat. unfold q_tsw.
  eapply rsat_bind; [apply s_tl_sat; assumption|]. intros raws _.
  eapply rsat_bind; [apply file_memory_rsat; assumption|]. intros u (Hu & Hk).
  eapply rsat_bind; [apply lookups_at_rsat; exact Hu|]. intros found (_ & Hf).
  (* a thread's source is -2, -1 or a position of the unified list *)
  apply seq_res_total, Forall_map, Forall_forall. intros (d & i) Hin.
  apply in_combine_r in Hin. rewrite Forall_forall in Hf. specialize (Hf _ Hin). cbn [fst snd].
  eapply rsat_bind with (Q1 := fun _ => True).
  - apply stack_len_rsat. unfold stack_source. destruct (thread_stack_ok e file d); pose proof (blen_nonneg _ (snd u)); lia.
  - intros len _. apply thread_words_rsat; exact Hlen.
Qed.

(* ---- the ledger of the lookup table: at most 24 bytes per 16-byte descriptor of the memory-list stream *)
Lemma table_ledger_backed : forall p file, wf_bytes file -> blen file < T62 ->
  forall a, In a (table_ledger p file) -> 0 <= a /\ 2 * a <= 3 * blen file /\ a <= ALLOC_FILE_C * blen file.
Proof.
  intros p file Hwf Hlen a Hin. unfold table_ledger in Hin.
  destruct (read_header file) as [[e ds]| | |]; try contradiction.
  destruct (s_mem_sat p e file ds Hwf Hlen) as (_ & _ & _ & S3).
  destruct (snd (s_mem p e file ds)) as [regions| | |]; try contradiction.
  destruct Hin as [<-|[]]. destruct (S3 regions eq_refl) as (_ & R1).
  pose proof (blen_nonneg _ regions). unfold MSZ_RANGE_ENTRY, FSZ_MEMDESC, ALLOC_FILE_C in *. lia.
Qed.
