(* C01/LayoutPins.v — the file-layout constants of C01/Model.v, QModel.v and LModel.v (record sizes, field offsets and
   widths, array lengths) against Gen/Layouts.v, which translate/format_layouts.py regenerates from the struct definitions of
   minidump-common/src/format.rs on every run.  An edit of a struct (a field added, removed, reordered or resized, an array
   length changed) changes a computed value below, and c01_layout_pinned no longer holds. *)
From Coq Require Import ZArith List String Bool.
From RM Require C02.Layout.
From RM Require Import Gen.Layouts.
From RM Require Import C01.Model C01.QModel.
Import ListNotations.
Open Scope string_scope.
Open Scope Z_scope.

Notation layout := C02.Layout.layout.
Notation lsize := C02.Layout.lsize.

(* offset, and layout, of the field called [name] of a struct layout whose field names are [names] *)
Fixpoint field_at (L : layout) (names : list string) (name : string) (off : Z) : option (Z * layout) :=
  match L, names with
  | C02.Layout.LSeq t r, n :: ns => if String.eqb n name then Some (off, t) else field_at r ns name (off + lsize t)
  | _, _ => None
  end.
(* a path through nested structs: (field names of the struct, field) at every level; yields (offset, size) *)
Fixpoint path_at (L : layout) (path : list (list string * string)) (off : Z) : option (Z * Z) :=
  match path with
  | [] => Some (off, lsize L)
  | (names, name) :: rest =>
      match field_at L names name off with
      | Some (o, t) => path_at t rest o
      | None => None
      end
  end.
Definition fld_at (L : layout) (names : list string) (name : string) : option (Z * Z) := path_at L [(names, name)] 0.
(* element count of an array field *)
Definition arr_len (L : layout) (names : list string) (name : string) : option Z :=
  match field_at L names name 0 with
  | Some (_, C02.Layout.LArr n _) => Some (Z.of_nat n)
  | _ => None
  end.

Definition LOC := (N_MINIDUMP_LOCATION_DESCRIPTOR, L_MINIDUMP_LOCATION_DESCRIPTOR).

(* ---- record sizes: the FSZ_* constants of Model.v and the literal sizes inside its definitions *)
Definition size_pins : list (string * Z * Z) :=
  [("FSZ_HEADER", FSZ_HEADER, lsize L_MINIDUMP_HEADER); ("FSZ_DIRENT", FSZ_DIRENT, lsize L_MINIDUMP_DIRECTORY);
   ("FSZ_THREAD", FSZ_THREAD, lsize L_MINIDUMP_THREAD); ("FSZ_MODULE", FSZ_MODULE, lsize L_MINIDUMP_MODULE);
   ("FSZ_MEMDESC", FSZ_MEMDESC, lsize L_MINIDUMP_MEMORY_DESCRIPTOR); ("FSZ_MEMDESC64", FSZ_MEMDESC64, lsize L_MINIDUMP_MEMORY_DESCRIPTOR64);
   ("FSZ_MEMINFO", FSZ_MEMINFO, lsize L_MINIDUMP_MEMORY_INFO); ("FSZ_THREADINFO", FSZ_THREADINFO, lsize L_MINIDUMP_THREAD_INFO);
   ("FSZ_UNLOADED", FSZ_UNLOADED, lsize L_MINIDUMP_UNLOADED_MODULE); ("FSZ_THREADNAME", FSZ_THREADNAME, lsize L_MINIDUMP_THREAD_NAME);
   ("FSZ_HANDLE1", FSZ_HANDLE1, lsize L_MINIDUMP_HANDLE_DESCRIPTOR); ("FSZ_HANDLE2", FSZ_HANDLE2, lsize L_MINIDUMP_HANDLE_DESCRIPTOR_2);
   ("FSZ_OBJINFO", FSZ_OBJINFO, lsize L_MINIDUMP_HANDLE_OBJECT_INFORMATION); ("FSZ_SYSINFO", FSZ_SYSINFO, lsize L_MINIDUMP_SYSTEM_INFO);
   ("FSZ_EXCEPTION", FSZ_EXCEPTION, lsize L_MINIDUMP_EXCEPTION_STREAM); ("FSZ_ASSERTION", FSZ_ASSERTION, lsize L_MINIDUMP_ASSERTION_INFO);
   ("FSZ_CRASHPAD", FSZ_CRASHPAD, lsize L_MINIDUMP_CRASHPAD_INFO); ("FSZ_MODULE_CRASHPAD", FSZ_MODULE_CRASHPAD, lsize L_MINIDUMP_MODULE_CRASHPAD_INFO);
   ("FSZ_LINK", FSZ_LINK, lsize L_MINIDUMP_MODULE_CRASHPAD_INFO_LINK); ("FSZ_MAC_CRASH", FSZ_MAC_CRASH, lsize L_MINIDUMP_MAC_CRASH_INFO);
   (* read_misc_info: the five sizes tried, largest first *)
   ("misc 5", 1364, lsize L_MINIDUMP_MISC_INFO_5); ("misc 4", 832, lsize L_MINIDUMP_MISC_INFO_4); ("misc 3", 232, lsize L_MINIDUMP_MISC_INFO_3);
   ("misc 2", 44, lsize L_MINIDUMP_MISC_INFO_2); ("misc 1", 24, lsize L_MINIDUMP_MISC_INFO);
   (* read_breakpad_info, read_mac_bootargs, dictionary / annotation entries, memory-info entry stride of QModel / LModel *)
   ("breakpad", 12, lsize L_MINIDUMP_BREAKPAD_INFO); ("bootargs", 12, lsize L_MINIDUMP_MAC_BOOTARGS);
   ("dict entry", 8, lsize L_MINIDUMP_SIMPLE_STRING_DICTIONARY_ENTRY); ("annotation", 12, lsize L_MINIDUMP_ANNOTATION);
   (* read_codeview: the fixed parts by signature *)
   ("pdb70 fixed", 24, lsize L_CV_INFO_PDB70); ("pdb20 fixed", 16, lsize L_CV_INFO_PDB20); ("elf fixed", 4, lsize L_CV_INFO_ELF);
   (* mac_layout: fixed part of a crash-info record by version *)
   ("mac record v1", 16, lsize L_MINIDUMP_MAC_CRASH_INFO_RECORD); ("mac record v4", 32, lsize L_MINIDUMP_MAC_CRASH_INFO_RECORD_4);
   ("mac record v5", 40, lsize L_MINIDUMP_MAC_CRASH_INFO_RECORD_5)].

(* ---- field offsets and widths used as literals in the models: (where, (offset, width), computed) *)
Definition P (L : layout) (path : list (list string * string)) := path_at L path 0.
Definition field_pins : list (string * (Z * Z) * option (Z * Z)) :=
  [ (* read_header / dir_walk *)
   ("header.signature", (0, 4), fld_at L_MINIDUMP_HEADER N_MINIDUMP_HEADER "signature");
   ("header.version", (4, 4), fld_at L_MINIDUMP_HEADER N_MINIDUMP_HEADER "version");
   ("header.stream_count", (8, 4), fld_at L_MINIDUMP_HEADER N_MINIDUMP_HEADER "stream_count");
   ("header.stream_directory_rva", (12, 4), fld_at L_MINIDUMP_HEADER N_MINIDUMP_HEADER "stream_directory_rva");
   ("dirent.stream_type", (0, 4), fld_at L_MINIDUMP_DIRECTORY N_MINIDUMP_DIRECTORY "stream_type");
   ("dirent.location.data_size", (4, 4), P L_MINIDUMP_DIRECTORY [(N_MINIDUMP_DIRECTORY, "location"); (fst LOC, "data_size")]);
   ("dirent.location.rva", (8, 4), P L_MINIDUMP_DIRECTORY [(N_MINIDUMP_DIRECTORY, "location"); (fst LOC, "rva")]);
   (* memory descriptors: memory_ok, mem_descs, region_probes *)
   ("memdesc.start_of_memory_range", (0, 8), fld_at L_MINIDUMP_MEMORY_DESCRIPTOR N_MINIDUMP_MEMORY_DESCRIPTOR "start_of_memory_range");
   ("memdesc.memory.data_size", (8, 4), P L_MINIDUMP_MEMORY_DESCRIPTOR [(N_MINIDUMP_MEMORY_DESCRIPTOR, "memory"); (fst LOC, "data_size")]);
   ("memdesc.memory.rva", (12, 4), P L_MINIDUMP_MEMORY_DESCRIPTOR [(N_MINIDUMP_MEMORY_DESCRIPTOR, "memory"); (fst LOC, "rva")]);
   ("memdesc64.start_of_memory_range", (0, 8), fld_at L_MINIDUMP_MEMORY_DESCRIPTOR64 N_MINIDUMP_MEMORY_DESCRIPTOR64 "start_of_memory_range");
   ("memdesc64.data_size", (8, 8), fld_at L_MINIDUMP_MEMORY_DESCRIPTOR64 N_MINIDUMP_MEMORY_DESCRIPTOR64 "data_size");
   (* threads: thread_ctx_kind, thread_stack_ok, q_te, get_thread_index *)
   ("thread.thread_id", (0, 4), fld_at L_MINIDUMP_THREAD N_MINIDUMP_THREAD "thread_id");
   ("thread.teb", (16, 8), fld_at L_MINIDUMP_THREAD N_MINIDUMP_THREAD "teb");
   ("thread.stack", (24, 16), fld_at L_MINIDUMP_THREAD N_MINIDUMP_THREAD "stack");
   ("thread.thread_context.data_size", (40, 4), P L_MINIDUMP_THREAD [(N_MINIDUMP_THREAD, "thread_context"); (fst LOC, "data_size")]);
   ("thread.thread_context.rva", (44, 4), P L_MINIDUMP_THREAD [(N_MINIDUMP_THREAD, "thread_context"); (fst LOC, "rva")]);
   ("thread_info.thread_id", (0, 4), fld_at L_MINIDUMP_THREAD_INFO N_MINIDUMP_THREAD_INFO "thread_id");
   ("thread_name.thread_id", (0, 4), fld_at L_MINIDUMP_THREAD_NAME N_MINIDUMP_THREAD_NAME "thread_id");
   ("thread_name.thread_name_rva", (4, 8), fld_at L_MINIDUMP_THREAD_NAME N_MINIDUMP_THREAD_NAME "thread_name_rva");
   (* modules: modules, unloaded_modules, module_descs *)
   ("module.base_of_image", (0, 8), fld_at L_MINIDUMP_MODULE N_MINIDUMP_MODULE "base_of_image");
   ("module.size_of_image", (8, 4), fld_at L_MINIDUMP_MODULE N_MINIDUMP_MODULE "size_of_image");
   ("module.module_name_rva", (20, 4), fld_at L_MINIDUMP_MODULE N_MINIDUMP_MODULE "module_name_rva");
   ("module.cv_record.data_size", (76, 4), P L_MINIDUMP_MODULE [(N_MINIDUMP_MODULE, "cv_record"); (fst LOC, "data_size")]);
   ("module.cv_record.rva", (80, 4), P L_MINIDUMP_MODULE [(N_MINIDUMP_MODULE, "cv_record"); (fst LOC, "rva")]);
   ("unloaded.base_of_image", (0, 8), fld_at L_MINIDUMP_UNLOADED_MODULE N_MINIDUMP_UNLOADED_MODULE "base_of_image");
   ("unloaded.size_of_image", (8, 4), fld_at L_MINIDUMP_UNLOADED_MODULE N_MINIDUMP_UNLOADED_MODULE "size_of_image");
   ("unloaded.module_name_rva", (20, 4), fld_at L_MINIDUMP_UNLOADED_MODULE N_MINIDUMP_UNLOADED_MODULE "module_name_rva");
   (* memory info: mi_entry_range, meminfo_descs; the list header of read_ex_stream_list *)
   ("meminfo.base_address", (0, 8), fld_at L_MINIDUMP_MEMORY_INFO N_MINIDUMP_MEMORY_INFO "base_address");
   ("meminfo.region_size", (24, 8), fld_at L_MINIDUMP_MEMORY_INFO N_MINIDUMP_MEMORY_INFO "region_size");
   ("meminfo_list.size_of_header", (0, 4), fld_at L_MINIDUMP_MEMORY_INFO_LIST N_MINIDUMP_MEMORY_INFO_LIST "size_of_header");
   ("meminfo_list.size_of_entry", (4, 4), fld_at L_MINIDUMP_MEMORY_INFO_LIST N_MINIDUMP_MEMORY_INFO_LIST "size_of_entry");
   ("meminfo_list.number_of_entries", (8, 8), fld_at L_MINIDUMP_MEMORY_INFO_LIST N_MINIDUMP_MEMORY_INFO_LIST "number_of_entries");
   (* handle data: read_handle_data, read_descriptor, info_chain *)
   ("handle_stream.size_of_header", (0, 4), fld_at L_MINIDUMP_HANDLE_DATA_STREAM N_MINIDUMP_HANDLE_DATA_STREAM "size_of_header");
   ("handle_stream.size_of_descriptor", (4, 4), fld_at L_MINIDUMP_HANDLE_DATA_STREAM N_MINIDUMP_HANDLE_DATA_STREAM "size_of_descriptor");
   ("handle_stream.number_of_descriptors", (8, 4), fld_at L_MINIDUMP_HANDLE_DATA_STREAM N_MINIDUMP_HANDLE_DATA_STREAM "number_of_descriptors");
   ("handle.type_name_rva", (8, 4), fld_at L_MINIDUMP_HANDLE_DESCRIPTOR N_MINIDUMP_HANDLE_DESCRIPTOR "type_name_rva");
   ("handle.object_name_rva", (12, 4), fld_at L_MINIDUMP_HANDLE_DESCRIPTOR N_MINIDUMP_HANDLE_DESCRIPTOR "object_name_rva");
   ("handle2.type_name_rva", (8, 4), fld_at L_MINIDUMP_HANDLE_DESCRIPTOR_2 N_MINIDUMP_HANDLE_DESCRIPTOR_2 "type_name_rva");
   ("handle2.object_name_rva", (12, 4), fld_at L_MINIDUMP_HANDLE_DESCRIPTOR_2 N_MINIDUMP_HANDLE_DESCRIPTOR_2 "object_name_rva");
   ("handle2.object_info_rva", (32, 4), fld_at L_MINIDUMP_HANDLE_DESCRIPTOR_2 N_MINIDUMP_HANDLE_DESCRIPTOR_2 "object_info_rva");
   ("objinfo.next_info_rva", (0, 4), fld_at L_MINIDUMP_HANDLE_OBJECT_INFORMATION N_MINIDUMP_HANDLE_OBJECT_INFORMATION "next_info_rva");
   ("objinfo.info_type", (4, 4), fld_at L_MINIDUMP_HANDLE_OBJECT_INFORMATION N_MINIDUMP_HANDLE_OBJECT_INFORMATION "info_type");
   (* system info: read_system_info, sysinfo_strings *)
   ("sysinfo.processor_architecture", (0, 2), fld_at L_MINIDUMP_SYSTEM_INFO N_MINIDUMP_SYSTEM_INFO "processor_architecture");
   ("sysinfo.csd_version_rva", (24, 4), fld_at L_MINIDUMP_SYSTEM_INFO N_MINIDUMP_SYSTEM_INFO "csd_version_rva");
   (* exception stream: read_exception, q_ca / exc_info *)
   ("exception.exception_code", (8, 4), P L_MINIDUMP_EXCEPTION_STREAM [(N_MINIDUMP_EXCEPTION_STREAM, "exception_record"); (N_MINIDUMP_EXCEPTION, "exception_code")]);
   ("exception.exception_address", (24, 8), P L_MINIDUMP_EXCEPTION_STREAM [(N_MINIDUMP_EXCEPTION_STREAM, "exception_record"); (N_MINIDUMP_EXCEPTION, "exception_address")]);
   ("exception.number_parameters", (32, 4), P L_MINIDUMP_EXCEPTION_STREAM [(N_MINIDUMP_EXCEPTION_STREAM, "exception_record"); (N_MINIDUMP_EXCEPTION, "number_parameters")]);
   ("exception.exception_information", (40, 120), P L_MINIDUMP_EXCEPTION_STREAM [(N_MINIDUMP_EXCEPTION_STREAM, "exception_record"); (N_MINIDUMP_EXCEPTION, "exception_information")]);
   ("exception.thread_context.data_size", (160, 4), P L_MINIDUMP_EXCEPTION_STREAM [(N_MINIDUMP_EXCEPTION_STREAM, "thread_context"); (fst LOC, "data_size")]);
   ("exception.thread_context.rva", (164, 4), P L_MINIDUMP_EXCEPTION_STREAM [(N_MINIDUMP_EXCEPTION_STREAM, "thread_context"); (fst LOC, "rva")]);
   (* misc info 5: xstate_data.enabled_features *)
   ("misc5.xstate_data.enabled_features", (840, 8), P L_MINIDUMP_MISC_INFO_5 [(N_MINIDUMP_MISC_INFO_5, "xstate_data"); (N_XSTATE_CONFIG_FEATURE_MSC_INFO, "enabled_features")]);
   (* assertion: three [u16; 128] buffers *)
   ("assertion.expression", (0, 256), fld_at L_MINIDUMP_ASSERTION_INFO N_MINIDUMP_ASSERTION_INFO "expression");
   ("assertion.function", (256, 256), fld_at L_MINIDUMP_ASSERTION_INFO N_MINIDUMP_ASSERTION_INFO "function");
   ("assertion.file", (512, 256), fld_at L_MINIDUMP_ASSERTION_INFO N_MINIDUMP_ASSERTION_INFO "file");
   ("breakpad.validity", (0, 4), fld_at L_MINIDUMP_BREAKPAD_INFO N_MINIDUMP_BREAKPAD_INFO "validity");
   ("bootargs.bootargs", (4, 8), fld_at L_MINIDUMP_MAC_BOOTARGS N_MINIDUMP_MAC_BOOTARGS "bootargs");
   (* crashpad *)
   ("crashpad.version", (0, 4), fld_at L_MINIDUMP_CRASHPAD_INFO N_MINIDUMP_CRASHPAD_INFO "version");
   ("crashpad.simple_annotations.data_size", (36, 4), P L_MINIDUMP_CRASHPAD_INFO [(N_MINIDUMP_CRASHPAD_INFO, "simple_annotations"); (fst LOC, "data_size")]);
   ("crashpad.simple_annotations.rva", (40, 4), P L_MINIDUMP_CRASHPAD_INFO [(N_MINIDUMP_CRASHPAD_INFO, "simple_annotations"); (fst LOC, "rva")]);
   ("crashpad.module_list.data_size", (44, 4), P L_MINIDUMP_CRASHPAD_INFO [(N_MINIDUMP_CRASHPAD_INFO, "module_list"); (fst LOC, "data_size")]);
   ("crashpad.module_list.rva", (48, 4), P L_MINIDUMP_CRASHPAD_INFO [(N_MINIDUMP_CRASHPAD_INFO, "module_list"); (fst LOC, "rva")]);
   ("module_crashpad.list_annotations.data_size", (4, 4), P L_MINIDUMP_MODULE_CRASHPAD_INFO [(N_MINIDUMP_MODULE_CRASHPAD_INFO, "list_annotations"); (fst LOC, "data_size")]);
   ("module_crashpad.list_annotations.rva", (8, 4), P L_MINIDUMP_MODULE_CRASHPAD_INFO [(N_MINIDUMP_MODULE_CRASHPAD_INFO, "list_annotations"); (fst LOC, "rva")]);
   ("module_crashpad.simple_annotations.data_size", (12, 4), P L_MINIDUMP_MODULE_CRASHPAD_INFO [(N_MINIDUMP_MODULE_CRASHPAD_INFO, "simple_annotations"); (fst LOC, "data_size")]);
   ("module_crashpad.simple_annotations.rva", (16, 4), P L_MINIDUMP_MODULE_CRASHPAD_INFO [(N_MINIDUMP_MODULE_CRASHPAD_INFO, "simple_annotations"); (fst LOC, "rva")]);
   ("module_crashpad.annotation_objects.data_size", (20, 4), P L_MINIDUMP_MODULE_CRASHPAD_INFO [(N_MINIDUMP_MODULE_CRASHPAD_INFO, "annotation_objects"); (fst LOC, "data_size")]);
   ("module_crashpad.annotation_objects.rva", (24, 4), P L_MINIDUMP_MODULE_CRASHPAD_INFO [(N_MINIDUMP_MODULE_CRASHPAD_INFO, "annotation_objects"); (fst LOC, "rva")]);
   ("link.location.rva", (8, 4), P L_MINIDUMP_MODULE_CRASHPAD_INFO_LINK [(N_MINIDUMP_MODULE_CRASHPAD_INFO_LINK, "location"); (fst LOC, "rva")]);
   ("annotation.name", (0, 4), fld_at L_MINIDUMP_ANNOTATION N_MINIDUMP_ANNOTATION "name");
   ("annotation.ty", (4, 2), fld_at L_MINIDUMP_ANNOTATION N_MINIDUMP_ANNOTATION "ty");
   ("annotation.value", (8, 4), fld_at L_MINIDUMP_ANNOTATION N_MINIDUMP_ANNOTATION "value");
   (* mac crash info *)
   ("mac.record_count", (4, 4), fld_at L_MINIDUMP_MAC_CRASH_INFO N_MINIDUMP_MAC_CRASH_INFO "record_count");
   ("mac.record_start_size", (8, 4), fld_at L_MINIDUMP_MAC_CRASH_INFO N_MINIDUMP_MAC_CRASH_INFO "record_start_size");
   ("mac.records", (12, 160), fld_at L_MINIDUMP_MAC_CRASH_INFO N_MINIDUMP_MAC_CRASH_INFO "records");
   ("mac_record.version", (8, 8), fld_at L_MINIDUMP_MAC_CRASH_INFO_RECORD N_MINIDUMP_MAC_CRASH_INFO_RECORD "version")].

(* ---- array lengths *)
Definition EXC_INFO_LEN : Z := 15.   (* exception_information: exc_print_loop's bound, exc_info's `seq 0 15`, crash_address's 15-entry hypothesis *)
Definition MAC_RECORDS_MAX : Z := 20. (* mac_locs: min(record_count, 20) *)
Definition length_pins : list (string * Z * option Z) :=
  [("exception_information", EXC_INFO_LEN, arr_len L_MINIDUMP_EXCEPTION N_MINIDUMP_EXCEPTION "exception_information");
   ("xstate features", XSTATE_FEATURES, arr_len L_XSTATE_CONFIG_FEATURE_MSC_INFO N_XSTATE_CONFIG_FEATURE_MSC_INFO "features");
   ("mac records", MAC_RECORDS_MAX, arr_len L_MINIDUMP_MAC_CRASH_INFO N_MINIDUMP_MAC_CRASH_INFO "records");
   ("assertion.expression", 128, arr_len L_MINIDUMP_ASSERTION_INFO N_MINIDUMP_ASSERTION_INFO "expression");
   ("guid.data4", 8, arr_len L_GUID N_GUID "data4")].

(* ---- the CONTEXT_* table of Model.ctx_table: size of the struct, offset and width of context_flags *)
Definition ctx_layout (k : ctxkind) : layout * list string :=
  match k with
  | CX86 => (L_CONTEXT_X86, N_CONTEXT_X86) | CAmd64 => (L_CONTEXT_AMD64, N_CONTEXT_AMD64) | CPpc => (L_CONTEXT_PPC, N_CONTEXT_PPC)
  | CPpc64 => (L_CONTEXT_PPC64, N_CONTEXT_PPC64) | CSparc => (L_CONTEXT_SPARC, N_CONTEXT_SPARC) | CArm => (L_CONTEXT_ARM, N_CONTEXT_ARM)
  | CArm64 => (L_CONTEXT_ARM64, N_CONTEXT_ARM64) | CArm64Old => (L_CONTEXT_ARM64_OLD, N_CONTEXT_ARM64_OLD) | CMips => (L_CONTEXT_MIPS, N_CONTEXT_MIPS)
  end.
Definition ctx_row_ok (arch : Z) : bool :=
  match ctx_table arch with
  | None => true
  | Some (k, size, off, w, _) =>
      let '(L, N) := ctx_layout k in
      (size =? lsize L) && match fld_at L N "context_flags" with Some (o, w') => (o =? off) && (w' =? w) | None => false end
  end.
(* every processor_architecture value ctx_table knows *)
Definition ctx_archs : list Z := [0; 10; 9; 3; 32770; 32769; 5; 12; 32771; 1].

Definition zpair_eqb (a b : Z * Z) : bool := (fst a =? fst b) && (snd a =? snd b).
Definition size_ok (r : string * Z * Z) : bool := snd (fst r) =? snd r.
Definition field_ok (r : string * (Z * Z) * option (Z * Z)) : bool :=
  match snd r with Some c => zpair_eqb (snd (fst r)) c | None => false end.
Definition length_ok (r : string * Z * option Z) : bool :=
  match snd r with Some c => snd (fst r) =? c | None => false end.

Definition layout_pins_ok : bool :=
  forallb size_ok size_pins && forallb field_ok field_pins && forallb length_ok length_pins && forallb ctx_row_ok ctx_archs.

Lemma layout_pinned : layout_pins_ok = true.
Proof. vm_compute. reflexivity. Qed.

(* the names of the failing rows, for the error message of a broken run *)
Definition first_bad : list string :=
  map (fun r => fst (fst r)) (filter (fun r => negb (size_ok r)) size_pins) ++
  map (fun r => fst (fst r)) (filter (fun r => negb (field_ok r)) field_pins) ++
  map (fun r => fst (fst r)) (filter (fun r => negb (length_ok r)) length_pins).

(* for every architecture value: one case per arm of ctx_table, each a row checked by evaluation; the final
   [reflexivity] is the default arm, where there is nothing to check *)
Lemma ctx_rows_ok : forall arch, ctx_row_ok arch = true.
Proof.
  intros arch. unfold ctx_row_ok, ctx_table.
  repeat match goal with |- context [if ?c then Some _ else _] => destruct c; [vm_compute; reflexivity|] end.
  reflexivity.
Qed.
