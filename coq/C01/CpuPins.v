(* C01/CpuPins.v — the CPU / pointer-width tables of PModel.v and the chunk / array lengths of
   Model.stack_print are what translate/c01_cpu.py reads from the Rust source (Gen/C01Cpu.v, regenerated on every run):
   Cpu::from_processor_architecture, Cpu::pointer_width, PointerWidth::size_in_bytes, and in MinidumpThread::print the
   `unwrap_or(N)`, the expression the chunks are cut by, and the integer type each arm of `match pointer_width` fills from a chunk.
   Consequence stated on the generated tables alone (gen_chunk_fills_array): for every u16 architecture value the chunk
   length equals the array length, i.e. `chunk.try_into().unwrap()` cannot fail. *)
From Coq Require Import String Lia.
From RM Require Import C01.Model C01.Proofs C01.PModel.
From RM Require Gen.C01Cpu.
Import Gen.C01Cpu.
Open Scope Z_scope.

Definition cpu_name (c : cpu) : string :=
  match c with
  | CpuX86 => "X86" | CpuX86_64 => "X86_64" | CpuPpc => "Ppc" | CpuPpc64 => "Ppc64" | CpuSparc => "Sparc" | CpuArm => "Arm"
  | CpuArm64 => "Arm64" | CpuMips => "Mips" | CpuMips64 => "Mips64" | CpuUnknown => "Unknown"
  end%string.
Definition gw (w : ptr_width) : gwidth := match w with Bits32 => GBits32 | Bits64 => GBits64 | BitsUnknown => GUnknown end.
Definition gwidth_eqb (a b : gwidth) : bool :=
  match a, b with GBits32, GBits32 | GBits64, GBits64 | GUnknown, GUnknown => true | _, _ => false end.

Fixpoint assoc_z {B} (k : Z) (l : list (Z * B)) : option B :=
  match l with [] => None | (k', v) :: t => if k =? k' then Some v else assoc_z k t end.
Fixpoint assoc_s {B} (k : string) (l : list (string * B)) : option B :=
  match l with [] => None | (k', v) :: t => if String.eqb k k' then Some v else assoc_s k t end.
Fixpoint assoc_w {B} (k : gwidth) (l : list (gwidth * B)) : option B :=
  match l with [] => None | (k', v) :: t => if gwidth_eqb k k' then Some v else assoc_w k t end.

(* the code's tables, composed: architecture value -> Cpu variant -> pointer width -> chunk length / array length *)
Definition gen_cpu (arch : Z) : string := match assoc_z arch cpu_of_arch_arms with Some c => c | None => cpu_default end.
Definition gen_width (arch : option Z) : option gwidth :=
  match arch with None => Some print_no_system_width | Some a => assoc_s (gen_cpu a) pointer_width_arms end.
Definition gen_chunk (w : gwidth) : option Z :=
  match assoc_w w size_in_bytes_arms with Some (Some n) => Some n | Some None => Some print_chunk_default | None => None end.
Definition gen_array (w : gwidth) : option Z := assoc_w w print_array_arms.

Definition all_cpus : list cpu := [CpuX86; CpuX86_64; CpuPpc; CpuPpc64; CpuSparc; CpuArm; CpuArm64; CpuMips; CpuMips64; CpuUnknown].
Definition all_widths : list ptr_width := [Bits32; Bits64; BitsUnknown].
Definition opt_z_eqb (a b : option Z) : bool := match a, b with Some x, Some y => x =? y | None, None => true | _, _ => false end.
Definition opt_w_eqb (a b : option gwidth) : bool := match a, b with Some x, Some y => gwidth_eqb x y | None, None => true | _, _ => false end.

Definition cpu_pins_ok : bool :=
  forallb (fun c => opt_w_eqb (assoc_s (cpu_name c) pointer_width_arms) (Some (gw (pointer_width c)))) all_cpus
  && forallb (fun w => opt_z_eqb (gen_chunk (gw w)) (Some (chunk_size w)) && opt_z_eqb (gen_array (gw w)) (Some (array_len w))
                       && match assoc_w (gw w) size_in_bytes_arms with Some o => opt_z_eqb o (size_in_bytes w) | None => false end) all_widths
  && gwidth_eqb print_no_system_width (gw (print_width None))
  && String.eqb print_chunk_source "pointer_width"
  (* every architecture the code names is a value of the enum, and a u16 *)
  && forallb (fun a => existsb (fun v => snd v =? fst a) arch_values && (0 <=? fst a) && (fst a <? 65536)) cpu_of_arch_arms.

Lemma cpu_pins : cpu_pins_ok = true.
Proof. vm_compute. reflexivity. Qed.

(* for EVERY architecture value (any integer), not only the listed ones: one case per arm of the two tables, the
   final [reflexivity] is their default arm *)
Lemma cpu_of_arch_pinned : forall arch, cpu_name (cpu_of_arch arch) = gen_cpu arch.
Proof.
  intros arch. unfold gen_cpu, cpu_of_arch, cpu_of_arch_arms, cpu_default. cbn [assoc_z].
  repeat match goal with
         | |- context [arch =? ?k] => destruct (Z.eqb_spec arch k); [subst; reflexivity|]
         end.
  reflexivity.
Qed.

Lemma width_pinned : forall arch, gen_width arch = Some (gw (print_width arch)).
Proof.
  intros [a|]; cbn [gen_width print_width]; [|reflexivity].
  rewrite <- cpu_of_arch_pinned. destruct (cpu_of_arch a); reflexivity.
Qed.

Lemma gen_chunk_fills_array : forall arch, exists w n,
  gen_width arch = Some w /\ gen_chunk w = Some n /\ gen_array w = Some n /\ (n = 4 \/ n = 8).
Proof.
  intros arch. exists (gw (print_width arch)). rewrite width_pinned.
  destruct (print_width arch); [exists 4|exists 8|exists 8]; repeat split; try reflexivity; lia.
Qed.
