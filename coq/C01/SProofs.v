(* C01/SProofs.v — get_memory / stack_memory never trap; a stack found through the fallback is a region of the list. *)
From Coq Require Import Lia.
From RM Require Import C01.Model C01.Proofs C01.Driver C01.Final C01.QModel C01.QProofs C01.LModel C01.LProofs C01.SModel.
Open Scope Z_scope.

Lemma lookups_at_rsat : forall p descs addrs, wf_descs descs ->
  rsat (fun l => blen l = blen addrs /\ Forall (fun i => -1 <= i < blen descs) l) (lookups_at p descs addrs).
Proof.
  intros p descs addrs H. unfold lookups_at.
  eapply rsat_bind; [apply ranges_of_rsat; exact H|]. intros ranges (Hr & Hl).
  rewrite (table_of_ok ranges Hr). cbn [rbind].
  eapply rsat_weaken; [|apply index_at_all_rsat; eassumption]. cbn beta. tauto.
Qed.

(* the stack a thread gets through the fallback is a region of the unified list *)
Lemma stack_fallback_sound : forall p descs addr i, wf_descs descs ->
  lookups_at p descs [addr] = Ok [i] -> i = -1 \/ 0 <= i < blen descs.
Proof.
  intros p descs addr i H E. destruct (lookups_at_rsat p descs [addr] H) as (_ & _ & G).
  destruct (G _ E) as (_ & F). inversion F; subst. lia.
Qed.

Lemma unified_memory_rsat : forall e m64raw m64 mem, rsat wf_bytes m64raw -> rsat (fun _ => True) m64 -> rsat (Forall wf_bytes) mem ->
  rsat (fun u => wf_descs (snd u) /\ 0 <= fst u <= 2) (unified_memory e m64raw m64 mem).
Proof.
  intros e m64raw m64 mem Hraw (H1 & H2 & _) (M1 & M2 & M3). unfold unified_memory.
  destruct m64 as [n|er|t|]; [| |destruct (H1 t); reflexivity|destruct H2; reflexivity].
  - eapply rsat_bind; [exact Hraw|]. intros b Hb. apply rsat_ok. cbn [fst snd]. split; [apply mem64_descs_wf; exact Hb|lia].
  - destruct mem as [regions|er'|t|]; [| |destruct (M1 t); reflexivity|destruct M2; reflexivity].
    + apply rsat_ok. cbn [fst snd]. split; [apply mem_descs_wf; apply M3; reflexivity|lia].
    + apply rsat_ok. cbn [fst snd]. split; [constructor|lia].
Qed.
(* Minidump::get_memory on the streams of a file *)
Lemma file_memory_rsat : forall p e file ds, wf_bytes file -> blen file < T62 ->
  rsat (fun u => wf_descs (snd u) /\ 0 <= fst u <= 2)
       (unified_memory e (s_raw file ds ST_MEMORY64_LIST) (snd (s_m64 p e file ds)) (snd (s_mem p e file ds))).
Proof.
  intros p e file ds Hwf Hlen. apply unified_memory_rsat; [apply raw_stream_wf, Hwf | apply s_m64_sat; assumption | apply s_mem_wf; assumption].
Qed.

(* what q_ts answers: the list kind, then per thread -2 (own stack), -1 (none) or a position of the unified list *)
Definition ts_ok (l : list Z) : Prop :=
  match l with [] => False | k :: srcs => 0 <= k <= 2 /\ Forall (fun i => -2 <= i) srcs end.

Lemma q_ts_rsat : forall p e file tl um, rsat (fun _ => True) tl -> rsat (fun u => wf_descs (snd u) /\ 0 <= fst u <= 2) um ->
  rsat ts_ok (q_ts p e file tl um).
Proof.
  intros p e file tl um Htl Hum. unfold q_ts.
  eapply rsat_bind; [exact Htl|]. intros raws _.
  eapply rsat_bind; [exact Hum|]. intros u (Hu & Hk).
  eapply rsat_bind; [apply lookups_at_rsat; exact Hu|]. intros found (_ & Hf).
  apply rsat_ok. cbn [ts_ok]. split; [exact Hk|].
  apply Forall_forall. intros x Hx. apply in_map_iff in Hx. destruct Hx as ((d & i) & <- & Hin).
  apply in_combine_r in Hin. rewrite Forall_forall in Hf. specialize (Hf _ Hin). cbn [fst snd]. unfold stack_source.
  destruct (thread_stack_ok e file d); lia.
Qed.

Lemma run_stacks_total : forall p file, wf_bytes file -> blen file < T62 -> fields_total (run_stacks p file).
Proof.
  intros p file Hwf Hlen. unfold run_stacks.
  destruct (read_header file) as [[e ds]| | |]; [|apply fields_total_nil..].
  repeat apply fields_total_cons; [..|apply fields_total_nil]; eapply fld_rsat.
  - apply q_ts_rsat; [apply s_tl_sat; assumption | apply file_memory_rsat; assumption].
  - unfold q_tig. eapply rsat_bind; [apply s_ti_sat; assumption|]. intros n _.
    eapply rsat_bind; [apply raw_stream_wf, Hwf|]. intros b _. apply get_threads_total.
Qed.
