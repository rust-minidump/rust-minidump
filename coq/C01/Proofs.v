(* C01/Proofs.v — lemmas about the reader model (C01/Model.v). *)
From Coq Require Import Lia.
From RM Require Import C01.Model.
Open Scope Z_scope.

Definition wf_bytes (b : bytes) : Prop := Forall (fun x => 0 <= x < 256) b.
Definition T62 : Z := 4611686018427387904.   (* 2^62 *)
Definition T64 : Z := 18446744073709551616.  (* 2^64 *)
Definition T32 : Z := 4294967296.

Lemma blen_nonneg : forall A (l : list A), 0 <= blen l.
Proof. intros; unfold blen; lia. Qed.
Lemma blen_cons : forall A (x : A) l, blen (x :: l) = Z.succ (blen l).
Proof. intros; unfold blen; cbn [length]; lia. Qed.

Lemma blen_sub_le : forall (b : bytes) off n, blen (sub b off n) <= blen b.
Proof. intros; unfold sub, blen. rewrite firstn_length, skipn_length. lia. Qed.
Lemma Forall_firstn_skipn : forall A (P : A -> Prop) k l, Forall P l -> Forall P (firstn k l) /\ Forall P (skipn k l).
Proof. intros A P k l H. apply Forall_app. rewrite firstn_skipn. exact H. Qed.
Lemma Forall_filter : forall A (P : A -> Prop) f l, Forall P l -> Forall P (filter f l).
Proof. intros A P f l H. rewrite Forall_forall in *. intros x Hx. apply filter_In in Hx. apply H, Hx. Qed.
Lemma filter_blen_le : forall A (f : A -> bool) l, blen (filter f l) <= blen l.
Proof.
  intros A f. induction l as [|x t IH]; cbn [filter]; [lia|]. destruct (f x); rewrite ?blen_cons; lia.
Qed.
Lemma Forall_map_all : forall A B (P : B -> Prop) (f : A -> B) l, (forall x, P (f x)) -> Forall P (map f l).
Proof. intros. apply Forall_map, Forall_forall. auto. Qed.

Lemma wf_sub : forall (b : bytes) off n, wf_bytes b -> wf_bytes (sub b off n).
Proof. intros b off n H. unfold sub. apply Forall_firstn_skipn, Forall_firstn_skipn, H. Qed.

Lemma le_val_bounds : forall l, wf_bytes l -> 0 <= le_val l < 256 ^ blen l.
Proof.
  induction l as [|x t IH]; intros H.
  - cbn. lia.
  - inversion H as [|? ? Hx Ht]; subst. specialize (IH Ht).
    rewrite blen_cons, Z.pow_succ_r by apply blen_nonneg. cbn [le_val]. nia.
Qed.
Lemma val_bounds : forall e l, wf_bytes l -> 0 <= val e l < 256 ^ blen l.
Proof.
  intros [] l H; cbn [val].
  - apply le_val_bounds; assumption.
  - replace (blen l) with (blen (rev l)) by (unfold blen; rewrite rev_length; reflexivity).
    apply le_val_bounds. apply Forall_rev. assumption.
Qed.
Lemma val_sub_nonneg : forall e (b : bytes) off n, wf_bytes b -> 0 <= val e (sub b off n).
Proof. intros e b off n H. apply (val_bounds e (sub b off n) (wf_sub b off n H)). Qed.
Lemma val_sub_bounds : forall e (b : bytes) off n, wf_bytes b -> 0 <= n ->
  0 <= val e (sub b off n) < 256 ^ n.
Proof.
  intros e b off n H Hn.
  pose proof (val_bounds e (sub b off n) (wf_sub b off n H)) as Hv.
  assert (Hl : blen (sub b off n) <= n) by (unfold sub, blen; rewrite firstn_length; lia).
  pose proof (blen_nonneg _ (sub b off n)) as H0.
  assert (256 ^ blen (sub b off n) <= 256 ^ n) by (apply Z.pow_le_mono_r; lia).
  lia.
Qed.
Lemma val4 : forall e b off, wf_bytes b -> 0 <= val e (sub b off 4) < T32.
Proof. intros. change T32 with (256 ^ 4). apply val_sub_bounds; [assumption|lia]. Qed.
Lemma val8 : forall e b off, wf_bytes b -> 0 <= val e (sub b off 8) < T64.
Proof. intros. change T64 with (256 ^ 8). apply val_sub_bounds; [assumption|lia]. Qed.
Lemma val2 : forall e b off, wf_bytes b -> 0 <= val e (sub b off 2) < 65536.
Proof. intros. change 65536 with (256 ^ 2). apply val_sub_bounds; [assumption|lia]. Qed.

Lemma can_read_iff : forall (b : bytes) off n, can_read b off n = true <-> off + n <= blen b.
Proof. intros; unfold can_read. apply Z.leb_le. Qed.

Lemma get_u_some : forall n e b off v, get_u n e b off = Some v ->
  off + n <= blen b /\ v = val e (sub b off n).
Proof.
  intros n e b off v H. unfold get_u in H. destruct (can_read b off n) eqn:E; [|discriminate].
  apply can_read_iff in E. inversion H. auto.
Qed.

Lemma chk_ok : forall p tag x, 0 <= x < T64 -> of_chk (chk p 64 tag x) = Ok x.
Proof.
  intros p tag x H. unfold chk. change (2 ^ 64) with T64.
  destruct (Z.leb_spec 0 x); destruct (Z.ltb_spec x T64); cbn [andb]; try lia. reflexivity.
Qed.
Lemma checked_add_some : forall a b r, checked_add 64 a b = Some r -> r = a + b /\ a + b < T64.
Proof.
  intros a b r H. unfold checked_add in H. change (2 ^ 64) with T64 in H.
  destruct (Z.ltb_spec (a + b) T64); inversion H. auto.
Qed.
Lemma checked_mul_some : forall a b r, checked_mul 64 a b = Some r -> r = a * b /\ a * b < T64.
Proof.
  intros a b r H. unfold checked_mul in H. change (2 ^ 64) with T64 in H.
  destruct (Z.ltb_spec (a * b) T64); inversion H. auto.
Qed.
Lemma checked_sub_some : forall a b r, checked_sub a b = Some r -> r = a - b /\ 0 <= a - b.
Proof.
  intros a b r H. unfold checked_sub in H.
  destruct (Z.leb_spec 0 (a - b)); inversion H. auto.
Qed.

(* result level: not a panic, not out of fuel, and Q on success *)
Definition rsat {A} (Q : A -> Prop) (r : res A) : Prop :=
  (forall t, r <> Pan t) /\ r <> NoFuel /\ (forall a, r = Ok a -> Q a).
(* ledger level: additionally every recorded request is within [0, K] *)
Definition sat {A} (K : Z) (Q : A -> Prop) (m : M A) : Prop :=
  Forall (fun x => 0 <= x <= K) (fst m) /\ rsat Q (snd m).

Lemma rsat_ok : forall A (Q : A -> Prop) a, Q a -> rsat Q (Ok a).
Proof. intros; repeat split; try discriminate. intros a' H'; inversion H'; subst; assumption. Qed.
Lemma rsat_any : forall A (a : A), rsat (fun _ => True) (Ok a).
Proof. intros. apply rsat_ok. exact I. Qed.
Lemma rsat_err : forall A (Q : A -> Prop) e, rsat Q (Err e).
Proof. intros; repeat split; discriminate. Qed.
Lemma rsat_weaken : forall A (Q Q' : A -> Prop) r, (forall a, Q a -> Q' a) -> rsat Q r -> rsat Q' r.
Proof. intros A Q Q' r HQ (H1 & H2 & H3). repeat split; auto. Qed.
Lemma rsat_total : forall A (Q : A -> Prop) r, rsat Q r -> (forall t, r <> Pan t) /\ r <> NoFuel.
Proof. intros A Q r (H1 & H2 & _). split; assumption. Qed.
Lemma rsat_bind : forall A B (Q1 : A -> Prop) (Q2 : B -> Prop) r f,
  rsat Q1 r -> (forall a, Q1 a -> rsat Q2 (f a)) -> rsat Q2 (rbind r f).
Proof.
  intros A B Q1 Q2 r f (H1 & H2 & H3) Hf. destruct r as [a|e|t|]; cbn [rbind].
  - apply Hf, H3; reflexivity.
  - apply rsat_err.
  - destruct (H1 t); reflexivity.
  - destruct H2; reflexivity.
Qed.
Lemma rsat_of_opt : forall A (Q : A -> Prop) e o, (forall a, o = Some a -> Q a) -> rsat Q (of_opt e o).
Proof. intros A Q e [a|] H; cbn [of_opt]; [apply rsat_ok; auto | apply rsat_err]. Qed.

(* [total] closes a goal [rsat Q r] whose reason is the shape of [r] alone: it descends through Ok (for the
   trivial Q) and Err, case distinctions, and binds whose first part is total by a lemma about the function
   called (hint database [total]).  It is always the last step of a proof: where a result needs a reason of its
   own (arithmetic, a postcondition), that part is a lemma in the database or the proof is written out. *)
Create HintDb total.
Lemma rsat_bind_any : forall A B (Q : B -> Prop) (r : res A) f,
  rsat (fun _ => True) r -> (forall a, rsat Q (f a)) -> rsat Q (rbind r f).
Proof. intros. eapply rsat_bind; [eassumption | auto]. Qed.
Ltac total :=
  repeat match goal with
  | |- rsat (fun _ => True) (Ok _) => apply rsat_any
  | |- rsat _ (Err _) => apply rsat_err
  | |- rsat _ (match ?c with _ => _ end) => destruct c
  | |- rsat _ (rbind _ _) => apply rsat_bind_any; [solve [total] | intros ?]
  end; auto with total.

Lemma sat_lift : forall A K (Q : A -> Prop) r, rsat Q r -> sat K Q (lift r).
Proof. intros; split; [constructor | assumption]. Qed.
Lemma sat_ret : forall A K (Q : A -> Prop) a, Q a -> sat K Q (ret a).
Proof. intros; apply sat_lift, rsat_ok; assumption. Qed.
Lemma sat_alloc : forall K n, 0 <= n <= K -> sat K (fun _ => True) (alloc n).
Proof. intros; split; [repeat constructor; lia | apply rsat_any]. Qed.
Lemma sat_weaken : forall A K K' (Q Q' : A -> Prop) m,
  K <= K' -> (forall a, Q a -> Q' a) -> sat K Q m -> sat K' Q' m.
Proof.
  intros A K K' Q Q' m HK HQ (H1 & H2). split.
  - eapply Forall_impl; [|exact H1]. cbn; intros; lia.
  - eapply rsat_weaken; eauto.
Qed.
Lemma sat_bind : forall A B K (Q1 : A -> Prop) (Q2 : B -> Prop) (m : M A) (f : A -> M B),
  sat K Q1 m -> (forall a, Q1 a -> sat K Q2 (f a)) -> sat K Q2 (bind m f).
Proof.
  intros A B K Q1 Q2 [l r] f (Hl & H1 & H2 & H3) Hf. cbn [fst snd] in *.
  destruct r as [a|e|t|]; cbn [bind].
  - specialize (Hf a (H3 a eq_refl)). destruct (f a) as [l2 r2]. destruct Hf as (Hl2 & Hr2).
    cbn [fst snd] in *. split; [apply Forall_app; split; assumption | assumption].
  - split; [assumption | apply rsat_err].
  - destruct (H1 t); reflexivity.
  - destruct H2; reflexivity.
Qed.
(* the same with the ledger as a membership statement *)
Lemma sat_fields : forall A K (Q : A -> Prop) (m : M A), sat K Q m ->
  (forall t, snd m <> Pan t) /\ snd m <> NoFuel /\ (forall a, In a (fst m) -> 0 <= a <= K).
Proof. intros A K Q m (Hl & H1 & H2 & _). rewrite Forall_forall in Hl. auto. Qed.

(* an integer read from well-formed bytes is not negative *)
Lemma get_u_sat : forall K n er e b off, wf_bytes b -> sat K (fun u => 0 <= u) (lift (of_opt er (get_u n e b off))).
Proof.
  intros. apply sat_lift, rsat_of_opt. intros u Hu. apply get_u_some in Hu. destruct Hu as [_ ->].
  apply val_sub_nonneg; assumption.
Qed.

Lemma slice_some : forall (b : bytes) s e r, slice b s e = Some r ->
  s <= e /\ e <= blen b /\ r = sub b s (e - s).
Proof.
  intros b s e r H. unfold slice in H.
  destruct (Z.leb_spec s e); destruct (Z.leb_spec e (blen b)); cbn [andb] in H; inversion H. auto.
Qed.
Lemma location_slice_some : forall (b : bytes) size rva r, location_slice b size rva = Some r ->
  rva <= rva + size /\ rva + size <= blen b /\ r = sub b rva size.
Proof.
  intros b size rva r H. unfold location_slice in H.
  destruct (checked_add 64 rva size) as [e|] eqn:E; [|discriminate].
  apply checked_add_some in E. destruct E as [-> _].
  apply slice_some in H. destruct H as (H1 & H2 & ->).
  repeat split; try assumption. f_equal. lia.
Qed.
Lemma location_slice_wf : forall b size rva r, wf_bytes b -> location_slice b size rva = Some r ->
  wf_bytes r /\ blen r <= blen b.
Proof.
  intros b size rva r Hwf H. apply location_slice_some in H. destruct H as (_ & _ & ->).
  split; [apply wf_sub; assumption | apply blen_sub_le].
Qed.

Lemma ensure_rsat : forall buflen n sz off,
  rsat (fun cx => cx = (n, n * sz + off) /\ n * sz + off <= buflen) (ensure_count_in_bound buflen n sz off).
Proof.
  intros. unfold ensure_count_in_bound.
  destruct (checked_mul 64 n sz) as [m|] eqn:Em; [|apply rsat_err].
  apply checked_mul_some in Em. destruct Em as [-> _].
  destruct (checked_add 64 (n * sz) off) as [x|] eqn:Ea; [|apply rsat_err].
  apply checked_add_some in Ea. destruct Ea as [-> _].
  destruct (Z.ltb_spec buflen (n * sz + off)); [apply rsat_err|].
  apply rsat_ok. split; [reflexivity | lia].
Qed.

Lemma for_entries_sat : forall A K (Q : A -> Prop) (f : Z -> M A) esz,
  (forall off, sat K Q (f off)) ->
  forall fuel off count, count <= Z.of_nat fuel ->
  sat K (fun l => blen l = Z.max 0 count /\ Forall Q l) (for_entries fuel f off esz count).
Proof.
  intros A K Q f esz Hf. induction fuel as [|fuel IH]; intros off count Hc; cbn [for_entries].
  all: destruct (Z.leb_spec count 0); [apply sat_ret; split; [unfold blen; cbn; lia | constructor]|].
  - lia.
  - eapply sat_bind; [apply Hf|]. intros a Ha.
    eapply sat_bind; [apply IH; lia|]. intros l (Hl & HQ).
    apply sat_ret. split; [rewrite blen_cons; lia | constructor; assumption].
Qed.
Lemma raw_entry_sat : forall K b esz off, wf_bytes b -> sat K wf_bytes (raw_entry b esz off).
Proof.
  intros. unfold raw_entry. apply sat_lift. destruct (can_read b off esz); [apply rsat_ok, wf_sub; assumption | apply rsat_err].
Qed.
(* [count] entries of [esz] bytes that fit the stream: fuel |b| + 1 is enough *)
Lemma raw_entries_sat : forall K b esz off count, wf_bytes b -> 0 < esz -> 0 <= count -> count * esz <= blen b ->
  sat K (fun raws => blen raws = count /\ Forall wf_bytes raws) (for_entries (fuel_of b) (raw_entry b esz) off esz count).
Proof.
  intros K b esz off count Hwf He Hc Hfit.
  eapply sat_weaken; [apply Z.le_refl | | apply for_entries_sat with (Q := wf_bytes)].
  - cbn beta. intros l (Hl & Hq). rewrite Z.max_r in Hl by assumption. auto.
  - intros; apply raw_entry_sat; assumption.
  - unfold fuel_of, blen in *. nia.
Qed.
(* ... preceded by the Vec::with_capacity(count) of the list readers *)
Lemma alloc_entries_sat : forall K b fsz msz off count, wf_bytes b -> 0 < fsz -> 0 <= msz <= ALLOC_C * fsz ->
  ALLOC_C * blen b <= K -> 0 <= count -> count * fsz <= blen b ->
  sat K (fun raws => blen raws = count /\ Forall wf_bytes raws)
      (bind (alloc (count * msz)) (fun _ => for_entries (fuel_of b) (raw_entry b fsz) off fsz count)).
Proof.
  intros. eapply sat_bind; [apply sat_alloc; unfold ALLOC_C in *; nia|]. intros _ _.
  apply raw_entries_sat; assumption.
Qed.

Lemma read_stream_list_sat : forall p e b fsz msz K,
  wf_bytes b -> blen b < T62 -> 0 < fsz -> 0 <= msz <= ALLOC_C * fsz -> ALLOC_C * blen b <= K ->
  sat K (fun raws => 0 <= blen raws /\ blen raws * fsz + 4 <= blen b /\ Forall wf_bytes raws) (read_stream_list p e b fsz msz).
Proof.
  intros p e b fsz msz K Hwf Hlen Hf Hm HK. unfold read_stream_list.
  apply sat_bind with (Q1 := fun u => 0 <= u); [apply get_u_sat; assumption|]. intros u Hu.
  eapply sat_bind; [apply sat_lift, ensure_rsat|]. intros _ (-> & Hc). cbv beta iota.
  assert (Hprod : 0 <= u * fsz) by nia.
  apply sat_bind with (Q1 := fun rest => True).
  { apply sat_lift. unfold chk_sub. rewrite chk_ok by (unfold T62, T64 in *; lia). apply rsat_any. }
  intros rest _.
  apply sat_bind with (Q1 := fun _ => True).
  { apply sat_lift. destruct (rest =? 0); [apply rsat_any|]. destruct (rest =? 4); [apply rsat_any | apply rsat_err]. }
  intros off _.
  eapply sat_weaken; [apply Z.le_refl | | apply alloc_entries_sat; try assumption; lia].
  cbn beta. intros l (-> & Hq). repeat split; try lia; assumption.
Qed.

Lemma read_ex_stream_list_sat : forall p e wide b fsz msz K,
  wf_bytes b -> blen b < T62 -> 0 < fsz -> 0 <= msz <= ALLOC_C * fsz -> ALLOC_C * blen b <= K ->
  sat K (fun raws => 0 <= blen raws /\ blen raws * fsz <= blen b /\ Forall wf_bytes raws) (read_ex_stream_list p e wide b fsz msz).
Proof.
  intros p e wide b fsz msz K Hwf Hlen Hf Hm HK. unfold read_ex_stream_list.
  apply sat_bind with (Q1 := fun u => 0 <= u < T32).
  { apply sat_lift, rsat_of_opt. intros u Hu. apply get_u_some in Hu. destruct Hu as [_ ->]. apply val4; assumption. }
  intros shdr Hshdr.
  apply sat_bind with (Q1 := fun u => True). { apply sat_lift, rsat_of_opt. intros; exact I. }
  intros sent _.
  apply sat_bind with (Q1 := fun u => 0 <= u); [apply get_u_sat; assumption|]. intros n Hn.
  apply sat_bind with (Q1 := fun _ => sent = fsz).
  { apply sat_lift. destruct (Z.eqb_spec sent fsz); [apply rsat_ok; assumption | apply rsat_err]. }
  intros _ ->.
  eapply sat_bind; [apply sat_lift, ensure_rsat|]. intros _ (-> & Hc). cbv beta iota.
  assert (Hprod : 0 <= n * fsz) by nia.
  set (cur := 8 + (if (wide && (16 <=? shdr))%bool then 8 else 4)) in *.
  assert (Hcur : 0 <= cur <= 16) by (unfold cur; destruct (wide && (16 <=? shdr))%bool; lia).
  apply sat_bind with (Q1 := fun pad => pad = shdr - cur /\ 0 <= pad).
  { apply sat_lift, rsat_of_opt. intros pad Hp. apply checked_sub_some in Hp. lia. }
  intros pad (-> & Hpad).
  apply sat_bind with (Q1 := fun _ => True).
  { apply sat_lift. unfold chk_add. rewrite chk_ok by (unfold T32, T64 in *; lia). apply rsat_any. }
  intros off _.
  eapply sat_weaken; [apply Z.le_refl | | apply alloc_entries_sat; try assumption; lia].
  cbn beta. intros l (-> & Hq). repeat split; try lia; assumption.
Qed.

Lemma read_string_utf16_rsat : forall p e b off, wf_bytes b -> blen b < T62 -> 0 <= off ->
  rsat (fun _ => True) (read_string_utf16 p e b off).
Proof.
  intros p e b off Hwf Hlen Hoff. unfold read_string_utf16.
  destruct (get_u 4 e b off) as [size|] eqn:E; [|apply rsat_any].
  apply get_u_some in E. destruct E as [Hb ->].
  pose proof (val4 e b off Hwf) as Hv.
  destruct (negb (val e (sub b off 4) mod 2 =? 0)); [apply rsat_any|].
  unfold chk_add. rewrite chk_ok by (unfold T32, T62, T64 in *; lia). cbn [rbind].
  destruct (_ >? _); [apply rsat_any|].
  destruct (utf16_ok _); apply rsat_any.
Qed.

(* a UTF-16 string that is returned lies inside the buffer *)
Lemma utf16_in_bounds : forall p e b off us endo, read_string_utf16 p e b off = Ok (Some (us, endo)) -> endo <= blen b.
Proof.
  intros p e b off us endo H. unfold read_string_utf16 in H.
  destruct (get_u 4 e b off) as [size|]; [|discriminate].
  destruct (negb _); [discriminate|].
  destruct (of_chk _) as [x| | |]; cbn [rbind] in H; try discriminate.
  destruct (Z.gtb_spec x (blen b)); [discriminate|].
  destruct (utf16_ok _); inversion H. subst. lia.
Qed.

Lemma cstring_loop_rsat : forall b fuel off, 0 <= off -> blen b - off <= Z.of_nat fuel ->
  rsat (fun r => match r with Some o => 1 <= o <= blen b | None => True end) (cstring_loop fuel b off).
Proof.
  intros b. induction fuel as [|fuel IH]; intros off Hoff Hf; cbn [cstring_loop].
  all: destruct (get_u 1 LE b off) as [c|] eqn:E; [|apply rsat_ok; exact I].
  all: apply get_u_some in E; destruct E as [Hb _].
  all: destruct (c =? 0); [apply rsat_ok; lia|].
  - lia.
  - apply IH; lia.
Qed.
(* the string returned ends at least one byte after [off] *)
Lemma read_cstring_utf8_rsat : forall p b off, blen b < T62 -> 0 <= off ->
  rsat (fun r => match r with Some (_, o) => 1 <= o | None => True end) (read_cstring_utf8 p b off).
Proof.
  intros p b off Hlen Hoff. unfold read_cstring_utf8.
  eapply rsat_bind; [apply cstring_loop_rsat; [assumption | unfold fuel_of, blen; lia]|].
  intros [o|] Ho; [|apply rsat_ok; exact I].
  unfold chk_sub. rewrite chk_ok by (unfold T62, T64 in *; lia). cbn [rbind].
  destruct (slice b off (o - 1)); apply rsat_ok; [lia | exact I].
Qed.

Ltac usz := unfold ALLOC_C, FSZ_THREAD, MSZ_THREAD_RAW, MSZ_THREAD, FSZ_MODULE, MSZ_MODULE_RAW, MSZ_MODULE,
  FSZ_MEMDESC, MSZ_MEMDESC_RAW, MSZ_MEMORY, FSZ_MEMDESC64, MSZ_MEMDESC64_RAW, MSZ_MEMORY64, FSZ_MEMINFO,
  MSZ_MEMINFO_RAW, FSZ_THREADINFO, MSZ_THREADINFO_RAW, MSZ_THREADINFO, FSZ_UNLOADED, MSZ_UNLOADED_RAW,
  MSZ_UNLOADED, FSZ_THREADNAME, MSZ_THREADNAME_RAW, FSZ_HANDLE1, FSZ_HANDLE2, MSZ_HANDLE, FSZ_OBJINFO in *.

Lemma mem64_regions_rsat : forall e all raws rva, rsat (fun _ => True) (mem64_regions e all rva raws).
Proof. intros e all. induction raws as [|d t IH]; intros rva; cbn [mem64_regions]; total. Qed.

Lemma info_chain_fixed_rsat : forall e all fuel rva visited,
  blen all / FSZ_OBJINFO - visited <= Z.of_nat fuel ->
  rsat (fun n => visited <= n <= Z.max visited (blen all / FSZ_OBJINFO)) (info_chain Fixed fuel e all rva visited).
Proof.
  intros e all. induction fuel as [|fuel IH]; intros rva visited Hf; cbn [info_chain].
  all: destruct (rva =? 0); [apply rsat_ok; lia|].
  all: destruct (Z.leb_spec (blen all / FSZ_OBJINFO) visited); [apply rsat_ok; lia|].
  - lia.
  - destruct (can_read all rva FSZ_OBJINFO); [|apply rsat_ok; lia].
    destruct (known_info_type _); [|apply rsat_ok; lia].
    eapply rsat_weaken; [|apply IH; lia]. cbn beta; intros; lia.
Qed.

(* from no record visited yet, with the fuel of the file: at most one record per 12 bytes *)
Lemma info_chain_bounded : forall e all rva,
  rsat (fun n => 0 <= n <= blen all / FSZ_OBJINFO) (info_chain Fixed (fuel_of all) e all rva 0).
Proof.
  intros e all rva. pose proof (blen_nonneg _ all).
  assert (Hd : 0 <= blen all / FSZ_OBJINFO <= blen all)
    by (unfold FSZ_OBJINFO; split; [apply Z.div_pos | apply Z.div_le_upper_bound]; lia).
  eapply rsat_weaken; [|apply info_chain_fixed_rsat; unfold fuel_of, blen in *; lia]. cbn beta; intros; lia.
Qed.

Lemma mac_cstring_rsat : forall p b off, blen b < T62 -> 0 <= off ->
  rsat (fun r => match r with Some o => 1 <= o | None => True end) (mac_cstring p b off).
Proof.
  intros p b off Hlen Hoff. unfold mac_cstring.
  eapply rsat_bind; [apply read_cstring_utf8_rsat; assumption|].
  intros [[s o]|] Hr; [|apply rsat_ok; exact I].
  destruct (utf8_ok s); apply rsat_ok; [exact Hr | exact I].
Qed.
(* set_string(i) stays inside the [num] strings of the record: at most [num] - i strings are still to be read *)
Lemma mac_strings_rsat : forall p b num, blen b < T62 ->
  forall n i off, 0 <= off -> i + Z.of_nat n <= num -> rsat (fun _ => True) (mac_strings p n i num b off).
Proof.
  intros p b num Hlen. induction n as [|n IH]; intros i off Hoff Hi; cbn [mac_strings]; [apply rsat_any|].
  eapply rsat_bind; [apply mac_cstring_rsat; assumption|].
  intros [o|] Ho; [|apply rsat_any].
  destruct (Z.ltb_spec i num); [|lia]. apply IH; lia.
Qed.
Lemma mac_layout_num : forall version fixed num, mac_layout version = Some (fixed, num) -> 0 <= num.
Proof.
  intros version fixed num H. unfold mac_layout in H.
  repeat (match type of H with context [if ?c then _ else _] => destruct c end); inversion H; lia.
Qed.
(* what is read through RVAs of a well-formed file [all] of less than 2^62 bytes *)
Section File.
Variables (p : profile) (e : endian) (all : bytes).
Hypotheses (Hwfa : wf_bytes all) (Hlena : blen all < T62).

(* read_string_utf16_rsat with the hypotheses of the section discharged, the form the database [total] uses *)
Lemma utf16_at : forall off, 0 <= off -> rsat (fun _ => True) (read_string_utf16 p e all off).
Proof. intros. apply read_string_utf16_rsat; assumption. Qed.
#[local] Hint Resolve utf16_at val_sub_nonneg wf_sub : total.

Lemma thread_names_rsat : forall raws ids, Forall wf_bytes raws -> rsat (fun _ => True) (thread_names p e all raws ids).
Proof.
  induction raws as [|d t IH]; intros ids Hr; cbn [thread_names]; [total|]. inversion Hr; subst. total.
Qed.
Lemma modules_rsat : forall raws, Forall wf_bytes raws -> rsat (fun _ => True) (modules p e all raws).
Proof.
  induction raws as [|d t IH]; intros Hr; cbn [modules]; [total|]. inversion Hr; subst. total.
Qed.
Lemma unloaded_modules_rsat : forall raws, Forall wf_bytes raws -> rsat (fun _ => True) (unloaded_modules p e all raws).
Proof.
  induction raws as [|d t IH]; intros Hr; cbn [unloaded_modules]; [total|]. inversion Hr; subst. total.
Qed.
Lemma handle_string_rsat : forall rva, 0 <= rva -> rsat (fun _ => True) (handle_string p e all rva).
Proof. intros. unfold handle_string. total. Qed.
#[local] Hint Resolve handle_string_rsat : total.
Lemma read_descriptor_fixed_sat : forall K b fieldsize off, wf_bytes b ->
  sat K (fun n => 0 <= n <= blen all) (read_descriptor Fixed p e all b fieldsize off).
Proof.
  intros K b fieldsize off Hwf. unfold read_descriptor. apply sat_lift.
  destruct (_ || _)%bool; [|apply rsat_err].
  destruct (can_read b off fieldsize); [|apply rsat_err].
  apply rsat_bind_any; [apply handle_string_rsat, val_sub_nonneg, wf_sub, Hwf|]. intros _.
  apply rsat_bind_any; [apply handle_string_rsat, val_sub_nonneg, wf_sub, Hwf|]. intros _.
  pose proof (blen_nonneg _ all) as Hn.
  assert (blen all / FSZ_OBJINFO <= blen all) by (apply Z.div_le_upper_bound; usz; lia).
  destruct (fieldsize =? FSZ_HANDLE2); [|apply rsat_ok; lia].
  eapply rsat_weaken; [|apply info_chain_bounded]. cbn beta. intros n Hn'. lia.
Qed.
Lemma sysinfo_strings_rsat : forall b, wf_bytes b -> rsat (fun _ => True) (sysinfo_strings p e all b).
Proof. intros b Hwf. unfold sysinfo_strings. total. Qed.
Lemma read_mac_bootargs_rsat : forall b, wf_bytes b -> rsat (fun _ => True) (read_mac_bootargs p e all b).
Proof. intros b Hwf. unfold read_mac_bootargs. total. Qed.

Lemma mac_records_rsat : forall strings_off, 0 <= strings_off ->
  forall locs prev acc, rsat (fun _ => True) (mac_records p e all strings_off locs prev acc).
Proof.
  intros so Hso. induction locs as [|[size rva] t IH]; intros prev acc; cbn [mac_records]; [apply rsat_any|].
  destruct (location_slice all size rva) as [r|] eqn:El; [|apply rsat_err].
  destruct (location_slice_wf _ _ _ _ Hwfa El) as [Hr Hrl].
  destruct (can_read r 0 16); [|apply rsat_err].
  destruct (match prev with Some v => _ | None => false end); [apply rsat_err|].
  destruct (mac_layout _) as [[fixed num]|] eqn:Em; [|apply IH].
  destruct (can_read r 0 fixed); [|apply rsat_err].
  destruct (fixed >? so); [apply rsat_err|].
  eapply rsat_bind; [apply mac_strings_rsat; try lia; apply mac_layout_num in Em; lia|].
  intros [|] _; [apply IH | apply rsat_err].
Qed.
Lemma read_mac_crash_info_rsat : forall b, wf_bytes b -> rsat (fun _ => True) (read_mac_crash_info p e all b).
Proof.
  intros b Hwf. unfold read_mac_crash_info. destruct (can_read b 0 FSZ_MAC_CRASH); [|apply rsat_err].
  apply mac_records_rsat, val_sub_nonneg, Hwf.
Qed.

(* the readers of one stream [b] of the file; every request is within ALLOC_C * |b| *)
Section Stream.
Variables (b : bytes) (K : Z).
Hypotheses (Hwf : wf_bytes b) (Hlen : blen b < T62) (HK : ALLOC_C * blen b <= K).

Lemma read_thread_list_sat : sat K (fun _ => True) (read_thread_list p e b).
Proof.
  unfold read_thread_list.
  eapply sat_bind; [apply read_stream_list_sat; try assumption; usz; lia|]. intros raws (H0 & H1 & _).
  eapply sat_bind; [apply sat_alloc; usz; lia|]. intros _ _. apply sat_ret; exact I.
Qed.

(* the regions kept are well-formed pieces of the stream, at most one per 16-byte descriptor *)
Lemma read_memory_list_sat :
  sat K (fun regions => Forall wf_bytes regions /\ blen regions * FSZ_MEMDESC + 4 <= blen b) (read_memory_list p e all b).
Proof.
  unfold read_memory_list.
  eapply sat_bind; [apply read_stream_list_sat; try assumption; usz; lia|]. intros raws (H0 & H1 & H2).
  eapply sat_bind; [apply sat_alloc; usz; lia|]. intros _ _. apply sat_ret.
  split; [apply Forall_filter; assumption|].
  pose proof (filter_blen_le _ (memory_ok e all) raws). usz. lia.
Qed.

Lemma read_memory64_list_sat : sat K (fun _ => True) (read_memory64_list p e all b).
Proof.
  unfold read_memory64_list.
  apply sat_bind with (Q1 := fun u => 0 <= u); [apply get_u_sat; assumption|]. intros u Hu.
  apply sat_bind with (Q1 := fun _ => True). { apply sat_lift, rsat_of_opt; intros; exact I. }
  intros rva _.
  eapply sat_bind; [apply sat_lift, ensure_rsat|]. intros _ (-> & Hc). cbv beta iota.
  apply sat_bind with (Q1 := fun _ => True).
  { apply sat_lift. destruct (_ =? _); [apply rsat_any | apply rsat_err]. }
  intros _ _.
  eapply sat_bind; [apply sat_alloc; usz; nia|]. intros _ _.
  eapply sat_bind; [apply raw_entries_sat; try assumption; usz; lia|]. intros raws (Hl & _).
  eapply sat_bind; [apply sat_alloc; usz; nia|]. intros _ _.
  apply sat_lift, mem64_regions_rsat.
Qed.

Lemma read_memory_info_list_sat : sat K (fun _ => True) (read_memory_info_list p e b).
Proof.
  unfold read_memory_info_list.
  eapply sat_bind; [apply read_ex_stream_list_sat; try assumption; usz; lia|].
  intros; apply sat_ret; exact I.
Qed.
Lemma read_thread_info_list_sat : sat K (fun _ => True) (read_thread_info_list p e b).
Proof.
  unfold read_thread_info_list.
  eapply sat_bind; [apply read_ex_stream_list_sat; try assumption; usz; lia|]. intros raws (H0 & H1 & _).
  eapply sat_bind; [apply sat_alloc; usz; lia|]. intros _ _. apply sat_ret; exact I.
Qed.

Lemma read_thread_names_sat : sat K (fun _ => True) (read_thread_names p e all b).
Proof.
  unfold read_thread_names.
  eapply sat_bind; [apply read_stream_list_sat; try assumption; usz; lia|].
  intros raws (H0 & H1 & Hr). apply sat_lift, thread_names_rsat; assumption.
Qed.
Lemma read_module_list_sat : sat K (fun _ => True) (read_module_list p e all b).
Proof.
  unfold read_module_list.
  eapply sat_bind; [apply read_stream_list_sat; try assumption; usz; lia|]. intros raws (H0 & H1 & Hr).
  eapply sat_bind; [apply sat_alloc; usz; lia|]. intros _ _.
  apply sat_lift, modules_rsat; assumption.
Qed.
Lemma read_unloaded_module_list_sat : sat K (fun _ => True) (read_unloaded_module_list p e all b).
Proof.
  unfold read_unloaded_module_list.
  eapply sat_bind; [apply read_ex_stream_list_sat; try assumption; usz; lia|]. intros raws (H0 & H1 & Hr).
  eapply sat_bind; [apply sat_alloc; usz; lia|]. intros _ _.
  apply sat_lift, unloaded_modules_rsat; assumption.
Qed.

Lemma read_handle_data_fixed_sat : sat K (fun _ => True) (read_handle_data Fixed p e all b).
Proof.
  unfold read_handle_data.
  apply sat_bind with (Q1 := fun u => 0 <= u); [apply get_u_sat; assumption|]. intros shdr Hshdr.
  apply sat_bind with (Q1 := fun u => True). { apply sat_lift, rsat_of_opt; intros; exact I. }
  intros sdesc _.
  apply sat_bind with (Q1 := fun u => 0 <= u); [apply get_u_sat; assumption|]. intros n Hn.
  apply sat_bind with (Q1 := fun _ => sdesc = FSZ_HANDLE1 \/ sdesc = FSZ_HANDLE2).
  { apply sat_lift. destruct (Z.eqb_spec sdesc FSZ_HANDLE1); [apply rsat_ok; auto|].
    destruct (Z.eqb_spec sdesc FSZ_HANDLE2); cbn [orb]; [apply rsat_ok; auto | apply rsat_err]. }
  intros _ Hs.
  eapply sat_bind; [apply sat_lift, ensure_rsat|]. intros _ (-> & Hc). cbv beta iota.
  eapply sat_bind; [apply sat_alloc; usz; destruct Hs; subst sdesc; nia|]. intros _ _.
  eapply sat_bind.
  { apply for_entries_sat with (Q := fun n => 0 <= n <= blen all).
    - intros; apply read_descriptor_fixed_sat; assumption.
    - unfold fuel_of. usz. unfold blen in *. destruct Hs; subst sdesc; nia. }
  intros infos _. apply sat_ret; exact I.
Qed.
End Stream.
End File.


Lemma exc_print_loop_rsat : forall n i limit, limit <= 15 -> rsat (fun _ => True) (exc_print_loop n i limit).
Proof.
  induction n as [|n IH]; intros i limit Hl; cbn [exc_print_loop].
  all: destruct (Z.leb_spec limit i); [apply rsat_any|].
  - apply rsat_any.
  - destruct (Z.leb_spec 15 i); [lia|]. apply IH; assumption.
Qed.
Lemma exception_print_fixed_rsat : forall n, rsat (fun _ => True) (exception_print Fixed n).
Proof. intros; unfold exception_print. apply exc_print_loop_rsat. lia. Qed.
#[export] Hint Resolve exception_print_fixed_rsat : total.

Lemma dir_walk_rsat : forall e b fuel off count acc,
  blen b - off < FSZ_DIRENT * (Z.of_nat fuel + 1) -> rsat (fun _ => True) (dir_walk fuel e b off count acc).
Proof.
  intros e b. induction fuel as [|fuel IH]; intros off count acc Hf; cbn [dir_walk].
  all: destruct (count <=? 0); [apply rsat_any|].
  all: destruct (can_read b off FSZ_DIRENT) eqn:E; [|apply rsat_err].
  - apply can_read_iff in E. lia.
  - apply IH. lia.
Qed.
(* the walk of read_header: from stream_directory_rva, with the fuel of the file *)
Lemma dir_walk_header_rsat : forall e b count, wf_bytes b ->
  rsat (fun _ => True) (dir_walk (fuel_of b) e b (val e (sub b 12 4)) count []).
Proof.
  intros e b count Hwf. apply dir_walk_rsat. pose proof (val_sub_nonneg e b 12 4 Hwf).
  unfold fuel_of, FSZ_DIRENT, blen. lia.
Qed.
#[local] Hint Resolve dir_walk_header_rsat : total.
Lemma read_header_rsat : forall b, wf_bytes b -> rsat (fun _ => True) (read_header b).
Proof. intros b Hwf. unfold read_header. total. Qed.

Lemma raw_stream_rsat : forall all ds ty, wf_bytes all ->
  rsat (fun s => wf_bytes s /\ blen s <= blen all) (raw_stream all ds ty).
Proof.
  intros all ds ty Hwf. unfold raw_stream. destruct (dir_find ty ds) as [d|]; [|apply rsat_err].
  apply rsat_of_opt. intros s Hs. eapply location_slice_wf; eassumption.
Qed.
Lemma raw_stream_wf : forall all ds ty, wf_bytes all -> rsat wf_bytes (raw_stream all ds ty).
Proof. intros all ds ty H. eapply rsat_weaken; [|apply raw_stream_rsat; exact H]. intros a (Ha & _). exact Ha. Qed.
Lemma get_stream_sat : forall A all ds ty (rd : bytes -> M A) K (Q : A -> Prop), wf_bytes all ->
  (forall s, wf_bytes s -> blen s <= blen all -> sat K Q (rd s)) -> sat K Q (get_stream all ds ty rd).
Proof.
  intros A all ds ty rd K Q Hwf Hrd. unfold get_stream.
  eapply sat_bind; [apply sat_lift, raw_stream_rsat; assumption|].
  intros s (Hs & Hl). apply Hrd; assumption.
Qed.

Lemma context_print_fixed_rsat : forall k, rsat (fun _ => True) (context_print Fixed k).
Proof. intros k; destruct k; apply rsat_any. Qed.
#[export] Hint Resolve context_print_fixed_rsat : total.
Lemma threads_print_fixed_rsat : forall ks, rsat (fun _ => True) (threads_print Fixed ks).
Proof. induction ks as [|[k|] t IH]; cbn [threads_print]; total. Qed.

(* the xstate feature iterator: never shifts by 64 or more, never indexes past the 64 entries,
   stops within 64 steps, yields increasing in-range indices *)
Lemma xstate_loop_rsat : forall p enabled fuel idx, 0 <= idx -> XSTATE_FEATURES - idx <= Z.of_nat fuel ->
  rsat (fun l => Forall (fun i => idx <= i < XSTATE_FEATURES) l /\ blen l <= Z.max 0 (XSTATE_FEATURES - idx))
       (xstate_loop p fuel idx enabled).
Proof.
  intros p enabled. unfold XSTATE_FEATURES. induction fuel as [|fuel IH]; intros idx H0 Hf; cbn [xstate_loop]; unfold XSTATE_FEATURES.
  all: destruct (Z.leb_spec 64 idx); [apply rsat_ok; split; [constructor | unfold blen; cbn; lia]|].
  - lia.
  - destruct (Z.ltb_spec idx 64); [|lia]. cbn [rbind].
    assert (IH' := IH (idx + 1) ltac:(lia) ltac:(lia)).
    destruct (Z.testbit enabled idx).
    + eapply rsat_bind; [exact IH'|]. intros l (Hl & Hn). apply rsat_ok. split.
      * constructor; [lia|]. eapply Forall_impl; [|exact Hl]. cbn; intros; lia.
      * rewrite blen_cons. lia.
    + eapply rsat_weaken; [|exact IH']. cbn beta. intros l (Hl & Hn). split.
      * eapply Forall_impl; [|exact Hl]. cbn; intros; lia.
      * lia.
Qed.
Lemma xstate_iter_rsat : forall p enabled,
  rsat (fun l => Forall (fun i => 0 <= i < XSTATE_FEATURES) l /\ blen l <= XSTATE_FEATURES) (xstate_iter p enabled).
Proof.
  intros. unfold xstate_iter. eapply rsat_weaken; [|apply xstate_loop_rsat; unfold XSTATE_FEATURES; lia].
  cbn beta. unfold XSTATE_FEATURES. intros l (H1 & H2). split; [assumption | lia].
Qed.
Lemma read_misc_info_rsat : forall e b, rsat (fun _ => True) (read_misc_info e b).
Proof. intros. unfold read_misc_info. total. Qed.

(* get_memory_at_address: a value is only ever produced from inside the region *)
Lemma mem_read_in_bounds : forall n e base region addr v, mem_read n e base region addr = Some v ->
  base <= addr /\ (addr - base) + n <= blen region.
Proof.
  intros n e base region addr v H. unfold mem_read in H.
  destruct (checked_sub addr base) as [start|] eqn:E; [|discriminate].
  apply checked_sub_some in E. destruct E as [-> E]. apply get_u_some in H. lia.
Qed.

Lemma split_on_count : forall sep l cur, blen (split_on sep l cur) <= blen l + 1.
Proof.
  intros sep. induction l as [|c t IH]; intros cur; cbn [split_on]; [unfold blen; cbn; lia|].
  destruct (c =? sep); [specialize (IH []) | specialize (IH (c :: cur))]; unfold blen in *; cbn [length]; lia.
Qed.
Lemma kv_of_lines_count : forall sep lines, blen (kv_of_lines sep lines) <= blen lines.
Proof.
  intros sep. induction lines as [|ln t IH]; cbn [kv_of_lines]; [unfold blen; cbn; lia|].
  destruct (split_once sep ln []) as [[k v]|]; unfold blen in *; cbn [length]; lia.
Qed.
Lemma drop_ws_shorter : forall l, blen (drop_ws l) <= blen l.
Proof.
  induction l as [|c t IH]; cbn [drop_ws]; [lia|]. destruct (is_ws c); rewrite ?blen_cons; lia.
Qed.
Lemma trim_ws_shorter : forall l, blen (trim_ws l) <= blen l.
Proof.
  intros l. unfold trim_ws.
  pose proof (drop_ws_shorter l). pose proof (drop_ws_shorter (rev (drop_ws l))).
  unfold blen in *. rewrite !rev_length in *. lia.
Qed.
Lemma strip_quotes_shorter : forall l, blen (strip_quotes l) <= blen l.
Proof.
  intros l. unfold strip_quotes. pose proof (trim_ws_shorter l) as H.
  destruct (trim_ws l) as [|c r]; [exact H|].
  destruct (c =? 34); [|exact H].
  destruct (rev r) as [|c2 r'] eqn:Er; [exact H|].
  destruct (c2 =? 34); [|exact H].
  assert (length r = S (length r')) by (rewrite <- (rev_length r), Er; reflexivity).
  unfold blen in *. cbn [length] in H. rewrite rev_length. lia.
Qed.
Lemma linux_kv_bounded : forall sep b,
  blen (linux_kv sep b) <= blen (linux_lines b) /\ blen (linux_lines b) <= blen b + 1.
Proof.
  intros. unfold linux_kv, linux_lines. split; [apply kv_of_lines_count | apply split_on_count].
Qed.

(* the counts of the dictionary and of the annotation objects are not validated: the loops end with the data *)
Lemma dict_loop_rsat : forall e all data fuel off count keys,
  blen data - off < 8 * (Z.of_nat fuel + 1) -> rsat (fun _ => True) (dict_loop fuel e all data off count keys).
Proof.
  intros e all data. induction fuel as [|fuel IH]; intros off count keys Hf; cbn [dict_loop].
  all: destruct (count <=? 0); [apply rsat_any|].
  all: destruct (can_read data off 8) eqn:E; [|apply rsat_err].
  - apply can_read_iff in E. lia.
  - destruct (utf8_string e all _); [|apply rsat_err].
    destruct (utf8_string e all _); [|apply rsat_err].
    apply IH. lia.
Qed.
Lemma annot_loop_rsat : forall e all data fuel off count keys,
  blen data - off < 12 * (Z.of_nat fuel + 1) -> rsat (fun _ => True) (annot_loop fuel e all data off count keys).
Proof.
  intros e all data. induction fuel as [|fuel IH]; intros off count keys Hf; cbn [annot_loop].
  all: destruct (count <=? 0); [apply rsat_any|].
  all: destruct (can_read data off 12) eqn:E; [|apply rsat_err].
  - apply can_read_iff in E. lia.
  - destruct (utf8_string e all _); [|apply rsat_err].
    destruct (_ && _)%bool; [apply rsat_err|].
    apply IH. lia.
Qed.
Lemma read_simple_dictionary_rsat : forall e all size rva, rsat (fun _ => True) (read_simple_dictionary e all size rva).
Proof.
  intros. unfold read_simple_dictionary.
  destruct (location_slice all size rva) as [data|]; [|apply rsat_err].
  destruct (blen data =? 0); [apply rsat_any|]. destruct (get_u 4 e data 0); [|apply rsat_err].
  apply dict_loop_rsat. unfold fuel_of, blen. lia.
Qed.
Lemma read_annotation_objects_rsat : forall e all size rva, rsat (fun _ => True) (read_annotation_objects e all size rva).
Proof.
  intros. unfold read_annotation_objects.
  destruct (location_slice all size rva) as [data|]; [|apply rsat_err].
  destruct (blen data =? 0); [apply rsat_any|]. destruct (get_u 4 e data 0); [|apply rsat_err].
  apply annot_loop_rsat. unfold fuel_of, blen. lia.
Qed.

(* the readers whose counts are bounded by the whole file: every request is within ALLOC_FILE_C * |all| *)
Section Crashpad.
Variables (e : endian) (all : bytes) (K : Z).
Hypotheses (Hwf : wf_bytes all) (HK : ALLOC_FILE_C * blen all <= K).

(* the shape shared by the string list and the module links: a window of the file, its u32 count checked
   against the file, a vector of [msz]-byte elements, [esz] file bytes per entry *)
Lemma counted_window_sat : forall A B (f : bytes -> Z -> M A) (g : list A -> B) (zero : B) size rva esz msz,
  0 < esz -> 0 <= msz <= ALLOC_FILE_C * esz -> (forall data off, wf_bytes data -> sat K (fun _ => True) (f data off)) ->
  sat K (fun _ => True)
    (bnd data <- lift (of_opt EStreamReadFailure (location_slice all size rva)) ;;
     if blen data =? 0 then ret zero else
     bnd count <- lift (of_opt EStreamReadFailure (get_u 4 e data 0)) ;;
     bnp (n, _) <- lift (ensure_count_in_bound (blen all) count esz 0) ;;
     bnd _ <- alloc (n * msz) ;;
     bnd l <- for_entries (fuel_of all) (f data) 4 esz n ;;
     ret (g l)).
Proof.
  intros A B f g zero size rva esz msz He Hm Hf.
  apply sat_bind with (Q1 := wf_bytes).
  { apply sat_lift, rsat_of_opt. intros data Hd. eapply location_slice_wf; eassumption. }
  intros data Hwd. destruct (blen data =? 0); [apply sat_ret; exact I|].
  apply sat_bind with (Q1 := fun u => 0 <= u); [apply get_u_sat; assumption|]. intros count Hc.
  eapply sat_bind; [apply sat_lift, ensure_rsat|]. intros _ (-> & Hfit). cbv beta iota.
  eapply sat_bind; [apply sat_alloc; nia|]. intros _ _.
  eapply sat_bind; [apply for_entries_sat with (Q := fun _ => True); [intros; apply Hf; assumption | unfold fuel_of, blen in *; nia]|].
  intros; apply sat_ret; exact I.
Qed.

Lemma read_string_list_sat : forall size rva, sat K (fun _ => True) (read_string_list e all size rva).
Proof.
  intros. unfold read_string_list. apply counted_window_sat; [lia | unfold MSZ_STRING, ALLOC_FILE_C; lia|].
  intros data off _. unfold string_list_entry. apply sat_lift.
  destruct (get_u 4 e data off) as [z|]; [|apply rsat_err]. destruct (utf8_string e all z); [apply rsat_any | apply rsat_err].
Qed.
Lemma read_module_crashpad_sat : forall rva, sat K (fun _ => True) (read_module_crashpad e all rva).
Proof.
  intros. unfold read_module_crashpad.
  destruct (can_read all rva FSZ_MODULE_CRASHPAD); [|apply sat_lift, rsat_err].
  eapply sat_bind; [apply read_string_list_sat|]. intros a _.
  eapply sat_bind; [apply sat_lift, read_simple_dictionary_rsat|]. intros b _.
  eapply sat_bind; [apply sat_lift, read_annotation_objects_rsat|]. intros c _.
  apply sat_ret; exact I.
Qed.
Lemma read_crashpad_module_links_sat : forall size rva, sat K (fun _ => True) (read_crashpad_module_links e all size rva).
Proof.
  intros. unfold read_crashpad_module_links.
  apply counted_window_sat; [unfold FSZ_LINK; lia | unfold MSZ_MODULE_CRASHPAD, FSZ_LINK, ALLOC_FILE_C; lia|].
  intros data off _. unfold link_entry. destruct (can_read data off FSZ_LINK); [|apply sat_lift, rsat_err].
  apply read_module_crashpad_sat.
Qed.
Lemma read_crashpad_info_sat : forall b, sat K (fun _ => True) (read_crashpad_info e all b).
Proof.
  intros. unfold read_crashpad_info.
  destruct (can_read b 0 FSZ_CRASHPAD); [|apply sat_lift, rsat_err].
  destruct (_ =? 0); [apply sat_lift, rsat_err|].
  eapply sat_bind; [apply sat_lift, read_simple_dictionary_rsat|]. intros s _.
  eapply sat_bind; [apply read_crashpad_module_links_sat|]. intros ml _.
  apply sat_ret; exact I.
Qed.
End Crashpad.

Lemma read_assertion_rsat : forall e b, rsat (fun _ => True) (read_assertion e b).
Proof. intros; unfold read_assertion. total. Qed.
Lemma read_breakpad_info_rsat : forall e b, rsat (fun _ => True) (read_breakpad_info e b).
Proof. intros; unfold read_breakpad_info. total. Qed.
Lemma read_soft_errors_rsat : forall b, rsat (fun _ => True) (read_soft_errors b).
Proof. intros; unfold read_soft_errors. total. Qed.
Lemma chunk_array_agree : forall w, chunk_size w = array_len w.
Proof. destruct w; reflexivity. Qed.
Lemma chunk_bounds : forall w, 4 <= chunk_size w <= 8.
Proof. destruct w; cbn; lia. Qed.
