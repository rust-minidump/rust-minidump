(* C01/QProofs.v — the queries on a parsed dump never trap. *)
From Coq Require Import Lia.
From RM Require Import C01.Model C01.Proofs C01.Driver C01.Final C01.QModel.
Open Scope Z_scope.

Lemma memory_range_rsat : forall p base size, 0 <= base -> 0 <= size ->
  rsat (fun o => match o with
                 | Some (lo, hi) => lo = base /\ hi = base + size - 1 /\ lo <= hi /\ hi < T64 /\ size <> 0
                 | None => size = 0 \/ T64 <= base + size
                 end) (memory_range p base size).
Proof.
  intros p base size Hb Hs. unfold memory_range.
  destruct (Z.eqb_spec size 0) as [->|Hne]; [apply rsat_ok; left; reflexivity|].
  destruct (checked_add 64 base size) as [s|] eqn:E.
  - apply checked_add_some in E. destruct E as [-> Hlt].
    unfold chk_sub. rewrite chk_ok by lia. cbn [rbind]. apply rsat_ok. lia.
  - apply rsat_ok. right. unfold checked_add in E. change (2 ^ 64) with T64 in E.
    destruct (Z.ltb_spec (base + size) T64); [discriminate | assumption].
Qed.

Lemma linux_map_range_sound : forall lo hi r, linux_map_range lo hi = Some r -> fst r <= snd r.
Proof. intros lo hi r H. unfold linux_map_range in H. destruct (Z.gtb_spec lo hi); inversion H; subst; cbn; lia. Qed.

Lemma last_error_in_bounds : forall e teb pw base region v, last_error e teb pw base region = Some v ->
  teb + 13 * pw < T64 /\ base <= teb + 13 * pw /\ (teb + 13 * pw - base) + 4 <= blen region.
Proof.
  intros e teb pw base region v H. unfold last_error, last_error_addr in H.
  destruct (checked_mul 64 pw 13) as [off|] eqn:Em; [|discriminate]. apply checked_mul_some in Em. destruct Em as [-> _].
  destruct (checked_add 64 teb (pw * 13)) as [a|] eqn:Ea; [|discriminate]. apply checked_add_some in Ea. destruct Ea as [-> Hlt].
  apply mem_read_in_bounds in H. lia.
Qed.

Lemma crash_address_rsat : forall windows ptr32 code nparams addr info, blen info = 15 ->
  0 <= addr < T64 -> Forall (fun x => 0 <= x < T64) info ->
  rsat (fun a => 0 <= a < T64 /\ (ptr32 = true -> a < T32)) (crash_address windows ptr32 code nparams addr info).
Proof.
  intros windows ptr32 code nparams addr info Hlen Haddr Hinfo. unfold crash_address.
  eapply rsat_bind with (Q1 := fun a => 0 <= a < T64).
  - destruct (windows && _ && _); [|apply rsat_ok; exact Haddr].
    unfold nth_info. change (Z.to_nat 1) with 1%nat.
    destruct info as [|x0 [|x1 t]]; unfold blen in Hlen; cbn in Hlen; try lia.
    cbn [nth_error]. apply rsat_ok. inversion Hinfo as [|? ? _ H2]; subst. inversion H2; subst. assumption.
  - intros a Ha. apply rsat_ok. destruct ptr32.
    + pose proof (Z.mod_pos_bound a two32 ltac:(reflexivity)). unfold two32, T64, T32 in *. split; [lia|intros _; lia].
    + split; [exact Ha|discriminate].
Qed.

Lemma pad_build_id_len : forall bid, 16 <= blen (pad_build_id bid).
Proof.
  intros bid. unfold pad_build_id. destruct (Z.ltb_spec (blen bid) 16); [|assumption].
  unfold blen in *. rewrite firstn_length, app_length, repeat_length. lia.
Qed.
Lemma elf_debug_id_reads : forall bid, elf_debug_id bid <> Some false.
Proof.
  intros bid. unfold elf_debug_id. destruct (forallb _ bid); [discriminate|].
  unfold can_read. pose proof (pad_build_id_len bid). destruct (Z.leb_spec (0 + 16) (blen (pad_build_id bid))); [discriminate|lia].
Qed.

(* one value per element, each as its own result promises *)
Lemma seq_res_rsat : forall A (Q : A -> Prop) (l : list (res A)), Forall (rsat Q) l ->
  rsat (fun rs => Forall Q rs /\ blen rs = blen l) (seq_res l).
Proof.
  induction l as [|x t IH]; intros H; cbn [seq_res]; [apply rsat_ok; split; [constructor | reflexivity]|].
  inversion H; subst. eapply rsat_bind; [eassumption|]. intros a Ha.
  eapply rsat_bind; [apply IH; assumption|]. intros r (Hr & Hl). apply rsat_ok.
  split; [constructor; assumption | rewrite !blen_cons, Hl; reflexivity].
Qed.
Lemma seq_res_total : forall A (l : list (res A)), Forall (rsat (fun _ => True)) l -> rsat (fun _ => True) (seq_res l).
Proof. intros A l H. eapply rsat_weaken; [|apply seq_res_rsat, H]. intros; exact I. Qed.
Lemma seq_res_map_total : forall A B (f : A -> res B) l, (forall x, rsat (fun _ => True) (f x)) -> rsat (fun _ => True) (seq_res (map f l)).
Proof. intros A B f l H. apply seq_res_total, Forall_map_all, H. Qed.

Lemma range_bit_rsat : forall p base size, 0 <= base -> 0 <= size -> rsat (fun _ => True) (bit_range (memory_range p base size)).
Proof.
  intros. unfold bit_range. eapply rsat_bind; [apply memory_range_rsat; assumption|]. intros; apply rsat_any.
Qed.

Lemma exc_info_len : forall e s, blen (exc_info e s) = 15.
Proof. intros e s. unfold exc_info, blen. rewrite map_length, seq_length. reflexivity. Qed.
Lemma exc_info_bounds : forall e s, wf_bytes s -> Forall (fun x => 0 <= x < T64) (exc_info e s).
Proof. intros e s H. apply Forall_map_all. intros i. apply val8; assumption. Qed.
Lemma run_queries_total : forall p file, wf_bytes file -> blen file < T62 -> fields_total (run_queries p file).
Proof.
  intros p file Hwf Hlen. unfold run_queries.
  destruct (read_header file) as [[e ds]| | |]; [|apply fields_total_nil..].
  repeat apply fields_total_cons; [..|apply fields_total_nil]; eapply fld_rsat.
  - unfold q_rm. eapply rsat_bind; [apply s_mem_wf; assumption|]. intros regions Hr.
    apply seq_res_total, Forall_map. eapply Forall_impl; [|apply Forall_firstn_skipn, Hr].
    intros d Hd. apply range_bit_rsat; apply val_sub_nonneg; assumption.
  - unfold q_ri. eapply rsat_bind; [apply s_mi_sat; assumption|]. intros n _.
    eapply rsat_bind; [apply raw_stream_wf, Hwf|]. intros b Hb. apply seq_res_map_total.
    intros i. apply range_bit_rsat; apply val_sub_nonneg; assumption.
  - unfold q_ca. eapply rsat_bind; [apply s_ex_sat; assumption|]. intros x _.
    eapply rsat_bind; [apply raw_stream_wf, Hwf|]. intros b Hb.
    apply seq_res_total.
    repeat (apply Forall_cons; [eapply rsat_weaken; [|apply crash_address_rsat; [apply exc_info_len | apply val8, Hb | apply exc_info_bounds, Hb]]; intros; exact I|]).
    constructor.
  - unfold q_te. eapply rsat_bind; [apply s_tl_sat; assumption|]. intros; apply rsat_any.
Qed.
