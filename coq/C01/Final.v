(* C01/Final.v — the whole-case statements over Driver.run_case, and the concrete files that
   refute them for the code before the fix commits. *)
From Coq Require Import Lia.
From RM Require Import C01.Model C01.Proofs C01.Driver.
Open Scope Z_scope.

(* what the whole-case theorems say of one field, and of a list of tagged fields *)
Definition field_total (f : field) : Prop := (forall t, f <> FPan t) /\ f <> FNoFuel.
Definition fields_total (l : list (Z * field)) : Prop := forall tag f, In (tag, f) l -> field_total f.

Lemma fields_total_nil : fields_total [].
Proof. intros tag f []. Qed.
Lemma fields_total_cons : forall tag f l, field_total f -> fields_total l -> fields_total ((tag, f) :: l).
Proof. intros tag f l Hf Hl tag' f' [E|H]; [inversion E; subst; exact Hf | exact (Hl tag' f' H)]. Qed.

Lemma field_total_FOk : forall v, field_total (FOk v).
Proof. split; [intros t|]; discriminate. Qed.
Lemma field_total_FErr : forall e, field_total (FErr e).
Proof. split; [intros t|]; discriminate. Qed.
Lemma fld_rsat : forall A (Q : A -> Prop) (enc : A -> list Z) r, rsat Q r -> field_total (fld enc r).
Proof.
  intros A Q enc r (H1 & H2 & _). destruct r as [a|e|t|]; cbn [fld].
  - apply field_total_FOk.
  - apply field_total_FErr.
  - destruct (H1 t); reflexivity.
  - destruct H2; reflexivity.
Qed.

(* ---- the fields computed from other streams' results (fixed code) *)
Lemma f_exp_fixed : forall r, field_total (f_exp Fixed r).
Proof.
  intros [[n c]|e|t|]; cbn [f_exp]; try apply field_total_FOk.
  eapply fld_rsat, exception_print_fixed_rsat.
Qed.
Lemma f_exc_fixed : forall e file si r, field_total (f_exc Fixed e file si r).
Proof.
  intros e file si [[n c]|er|t|]; cbn [f_exc]; try apply field_total_FOk.
  apply fld_rsat with (Q := fun _ => True). unfold exception_print_ctx. total.
Qed.
Lemma f_tlp_fixed : forall e file si r, field_total (f_tlp Fixed e file si r).
Proof.
  intros e file si [raws|er|t|]; cbn [f_tlp]; try apply field_total_FOk.
  eapply fld_rsat, threads_print_fixed_rsat.
Qed.
Lemma misc_result_rsat : forall p r, rsat (fun _ => True) r -> rsat (fun _ => True) (misc_result p r).
Proof.
  intros p r H. unfold misc_result. eapply rsat_bind; [exact H|]. intros [ver en] _. cbn [fst snd].
  destruct (ver =? 5); [|apply rsat_any].
  eapply rsat_bind; [apply xstate_iter_rsat|]. intros; apply rsat_any.
Qed.

(* ---- the streams of one file *)
Section Streams.
Variables (p : profile) (e : endian) (file : bytes) (ds : list dirent).
Hypothesis Hwf : wf_bytes file.
Hypothesis Hlen : blen file < T62.
Let K := ALLOC_FILE_C * blen file.

(* a reader that allocates nothing *)
Lemma lift_stream_sat : forall A ty (r : bytes -> res A) (Q : A -> Prop),
  (forall s, wf_bytes s -> rsat Q (r s)) -> sat K Q (get_stream file ds ty (fun s => lift (r s))).
Proof. intros A ty r Q H. eapply get_stream_sat; [exact Hwf|]. intros s Hs _. apply sat_lift, H, Hs. Qed.
(* a list reader [L] bounds its requests by ALLOC_C times its own stream, a piece of the file *)
Ltac stream L :=
  eapply get_stream_sat; [exact Hwf|]; intros s Hs Hl; pose proof (blen_nonneg _ s);
  apply L; try assumption; unfold K, ALLOC_FILE_C, ALLOC_C, T62 in *; lia.

Lemma s_si_sat : sat K (fun _ => True) (s_si e file ds).
Proof.
  apply lift_stream_sat. intros s _. unfold read_system_info.
  destruct (can_read s 0 FSZ_SYSINFO); [apply rsat_any | apply rsat_err].
Qed.
Lemma s_ex_sat : sat K (fun _ => True) (s_ex e file ds).
Proof.
  apply lift_stream_sat. intros s _. unfold read_exception.
  destruct (can_read s 0 FSZ_EXCEPTION); [apply rsat_any | apply rsat_err].
Qed.
Lemma s_ms_sat : sat K (fun _ => True) (s_ms e file ds).
Proof. apply lift_stream_sat. intros; apply read_misc_info_rsat. Qed.
Lemma s_sis_sat : sat K (fun _ => True) (s_sis p e file ds).
Proof. apply lift_stream_sat. intros; apply sysinfo_strings_rsat; assumption. Qed.
Lemma s_as_sat : sat K (fun _ => True) (s_as e file ds).
Proof. apply lift_stream_sat. intros; apply read_assertion_rsat. Qed.
Lemma s_bp_sat : sat K (fun _ => True) (s_bp e file ds).
Proof. apply lift_stream_sat. intros; apply read_breakpad_info_rsat. Qed.
Lemma s_mb_sat : sat K (fun _ => True) (s_mb p e file ds).
Proof. apply lift_stream_sat. intros; apply read_mac_bootargs_rsat; assumption. Qed.
Lemma s_se_sat : sat K (fun _ => True) (s_se file ds).
Proof. apply lift_stream_sat. intros; apply read_soft_errors_rsat. Qed.
Lemma s_mc_sat : sat K (fun _ => True) (s_mc p e file ds).
Proof. apply lift_stream_sat. intros; apply read_mac_crash_info_rsat; assumption. Qed.
Lemma s_cp_sat : sat K (fun _ => True) (s_cp e file ds).
Proof. unfold s_cp. eapply get_stream_sat; [exact Hwf|]. intros. apply read_crashpad_info_sat; [exact Hwf | apply Z.le_refl]. Qed.
Lemma s_tl_sat : sat K (fun _ => True) (s_tl p e file ds).
Proof. unfold s_tl. stream read_thread_list_sat. Qed.
Lemma s_ml_sat : sat K (fun _ => True) (s_ml p e file ds).
Proof. unfold s_ml. stream read_module_list_sat. Qed.
Lemma s_um_sat : sat K (fun _ => True) (s_um p e file ds).
Proof. unfold s_um. stream read_unloaded_module_list_sat. Qed.
Lemma s_m64_sat : sat K (fun _ => True) (s_m64 p e file ds).
Proof. unfold s_m64. stream read_memory64_list_sat. Qed.
Lemma s_mi_sat : sat K (fun _ => True) (s_mi p e file ds).
Proof. unfold s_mi. stream read_memory_info_list_sat. Qed.
Lemma s_ti_sat : sat K (fun _ => True) (s_ti p e file ds).
Proof. unfold s_ti. stream read_thread_info_list_sat. Qed.
Lemma s_tn_sat : sat K (fun _ => True) (s_tn p e file ds).
Proof. unfold s_tn. stream read_thread_names_sat. Qed.
Lemma s_hd_sat : sat K (fun _ => True) (s_hd Fixed p e file ds).
Proof. unfold s_hd. stream read_handle_data_fixed_sat. Qed.
(* the memory list keeps well-formed regions, at most one per 16 bytes of the file *)
Lemma s_mem_sat : sat K (fun regions => Forall wf_bytes regions /\ blen regions * FSZ_MEMDESC + 4 <= blen file) (s_mem p e file ds).
Proof.
  unfold s_mem. eapply get_stream_sat; [exact Hwf|]. intros s Hs Hl. pose proof (blen_nonneg _ s).
  eapply sat_weaken; [apply Z.le_refl | | apply read_memory_list_sat; try assumption; unfold K, ALLOC_FILE_C, ALLOC_C, T62 in *; lia].
  cbn beta. intros regions (R0 & R1). split; [exact R0 | lia].
Qed.
Lemma s_mem_wf : rsat (Forall wf_bytes) (snd (s_mem p e file ds)).
Proof. eapply rsat_weaken; [|apply s_mem_sat]. intros regions (R0 & _). exact R0. Qed.

(* the two halves of [sat], and every lemma that closes a field of run_case, in the form eauto chains *)
Lemma sat_snd : forall A (Q : A -> Prop) (m : M A), sat K Q m -> rsat Q (snd m).
Proof. intros A Q m H. apply H. Qed.
Lemma sat_fst : forall A (Q : A -> Prop) (m : M A), sat K Q m -> Forall (fun a => 0 <= a <= K) (fst m).
Proof. intros A Q m H. apply H. Qed.
Create HintDb streams.
#[local] Hint Resolve s_si_sat s_ex_sat s_ms_sat s_sis_sat s_as_sat s_bp_sat s_mb_sat s_se_sat s_mc_sat s_cp_sat s_tl_sat
  s_ml_sat s_um_sat s_m64_sat s_mi_sat s_ti_sat s_tn_sat s_hd_sat s_mem_sat
  fld_rsat sat_snd raw_stream_rsat misc_result_rsat field_total_FOk f_exp_fixed f_exc_fixed f_tlp_fixed : streams.

(* every field of a fixed-code run is neither a panic nor out of fuel; every ledger entry is
   within ALLOC_FILE_C * |file| *)
Lemma run_case_ok_total : read_header file = Ok (e, ds) ->
  fields_total (o_fields (run_case Fixed p file)) /\
  Forall (fun a => 0 <= a <= ALLOC_FILE_C * blen file) (o_ledger (run_case Fixed p file)).
Proof.
  intros E. unfold run_case. rewrite E. cbn [o_fields o_ledger]. split.
  - unfold f_tl, f_ex, f_ms, f_kv, f_lines, f_ma.
    repeat apply fields_total_cons; [..|apply fields_total_nil]; eauto with streams.
  - repeat (apply Forall_app; split); eapply sat_fst; eauto with streams.
Qed.
End Streams.

Theorem run_case_fixed_total : forall p file, wf_bytes file -> blen file < T62 ->
  fields_total (o_fields (run_case Fixed p file)) /\
  Forall (fun a => 0 <= a <= ALLOC_FILE_C * blen file) (o_ledger (run_case Fixed p file)).
Proof.
  intros p file Hwf Hlen. pose proof (read_header_rsat file Hwf) as (Hp & Hn & _).
  destruct (read_header file) as [[e ds]|er|t|] eqn:E.
  - exact (run_case_ok_total p e file ds Hwf Hlen E).
  - unfold run_case. rewrite E. cbn [o_fields o_ledger].
    split; [apply fields_total_cons; [apply field_total_FErr | apply fields_total_nil] | constructor].
  - destruct (Hp t); reflexivity.
  - destruct Hn; reflexivity.
Qed.

Lemma terminates : forall (p : profile) (file : bytes), wf_bytes file -> blen file < T62 ->
  forall tag f, In (tag, f) (o_fields (run_case Fixed p file)) -> f <> FNoFuel.
Proof. intros p file H1 H2 tag f H. exact (proj2 (proj1 (run_case_fixed_total p file H1 H2) tag f H)). Qed.

(* ------------------------------------------------------------------ witnesses (corpus/C01/cases.txt) *)
Lemma wf_bytes_dec : forall b, forallb (fun x => (0 <=? x) && (x <? 256)) b = true -> wf_bytes b.
Proof.
  intros b H. unfold wf_bytes. apply Forall_forall. intros x Hx.
  rewrite forallb_forall in H. specialize (H x Hx). apply Bool.andb_true_iff in H. destruct H as [H1 H2].
  apply Z.leb_le in H1. apply Z.ltb_lt in H2. lia.
Qed.
Definition wit_a : bytes :=
  [77; 68; 77; 80; 147; 167; 0; 0; 1; 0; 0; 0; 32; 0; 0; 0; 0; 0; 0; 0; 0; 0; 0; 80; 0; 0; 0; 0; 0; 0; 0; 0; 12; 0; 0; 0; 56; 0; 0; 0; 56; 0; 0; 0; 0; 0; 0; 0; 119; 119; 0; 0; 0; 0; 0; 0; 16; 0; 0; 0; 40; 0; 0; 0; 1; 0; 0; 0; 0; 0; 0; 0; 4; 0; 0; 0; 0; 0; 0; 0; 0; 0; 0; 0; 0; 0; 0; 0; 1; 0; 0; 0; 2; 0; 0; 0; 3; 0; 0; 0; 4; 0; 0; 0; 44; 0; 0; 0; 0; 0; 0; 0].
Definition wit_b : bytes :=
  [77; 68; 77; 80; 147; 167; 0; 0; 1; 0; 0; 0; 32; 0; 0; 0; 0; 0; 0; 0; 0; 0; 0; 80; 0; 0; 0; 0; 0; 0; 0; 0; 12; 0; 0; 0; 56; 0; 0; 0; 56; 0; 0; 0; 44; 0; 0; 0; 1; 0; 0; 0; 0; 0; 0; 0; 16; 0; 0; 0; 40; 0; 0; 0; 1; 0; 0; 0; 0; 0; 0; 0; 4; 0; 0; 0; 0; 0; 0; 0; 0; 0; 0; 0; 0; 0; 0; 0; 1; 0; 0; 0; 2; 0; 0; 0; 3; 0; 0; 0; 4; 0; 0; 0; 44; 0; 0; 0; 0; 0; 0; 0].
Definition wit_c : bytes :=
  [77; 68; 77; 80; 147; 167; 0; 0; 1; 0; 0; 0; 32; 0; 0; 0; 0; 0; 0; 0; 0; 0; 0; 80; 0; 0; 0; 0; 0; 0; 0; 0; 6; 0; 0; 0; 168; 0; 0; 0; 44; 0; 0; 0; 1; 0; 0; 0; 0; 0; 0; 0; 5; 0; 0; 192; 0; 0; 0; 0; 0; 0; 0; 0; 0; 0; 0; 0; 0; 16; 64; 0; 0; 0; 0; 0; 16; 0; 0; 0; 0; 0; 0; 0; 1; 0; 0; 0; 0; 0; 0; 0; 16; 0; 0; 0; 0; 0; 0; 0; 0; 0; 0; 0; 0; 0; 0; 0; 0; 0; 0; 0; 0; 0; 0; 0; 0; 0; 0; 0; 0; 0; 0; 0; 0; 0; 0; 0; 0; 0; 0; 0; 0; 0; 0; 0; 0; 0; 0; 0; 0; 0; 0; 0; 0; 0; 0; 0; 0; 0; 0; 0; 0; 0; 0; 0; 0; 0; 0; 0; 0; 0; 0; 0; 0; 0; 0; 0; 0; 0; 0; 0; 0; 0; 0; 0; 0; 0; 0; 0; 0; 0; 0; 0; 0; 0; 0; 0; 0; 0; 0; 0; 0; 0; 0; 0; 0; 0; 0; 0; 0; 0; 0; 0; 0; 0; 0; 0; 0; 0; 0; 0].
Definition wit_d : bytes :=
  [77; 68; 77; 80; 147; 167; 0; 0; 1; 0; 0; 0; 32; 0; 0; 0; 0; 0; 0; 0; 0; 0; 0; 80; 0; 0; 0; 0; 0; 0; 0; 0; 12; 0; 0; 0; 16; 0; 0; 0; 44; 0; 0; 0; 16; 0; 0; 0; 0; 0; 0; 0; 255; 255; 255; 255; 0; 0; 0; 0].
Definition wit_e_ppc : bytes :=
  [77; 68; 77; 80; 147; 167; 0; 0; 2; 0; 0; 0; 32; 0; 0; 0; 0; 0; 0; 0; 0; 0; 0; 80; 0; 0; 0; 0; 0; 0; 0; 0; 7; 0; 0; 0; 56; 0; 0; 0; 36; 4; 0; 0; 6; 0; 0; 0; 168; 0; 0; 0; 92; 4; 0; 0; 63; 0; 0; 32; 85; 102; 119; 136; 153; 170; 187; 204; 221; 17; 34; 51; 68; 85; 102; 119; 136; 153; 170; 187; 204; 221; 17; 34; 51; 68; 85; 102; 119; 136; 153; 170; 187; 204; 221; 17; 34; 51; 68; 85; 102; 119; 136; 153; 170; 187; 204; 221; 17; 34; 51; 68; 85; 102; 119; 136; 153; 170; 187; 204; 221; 17; 34; 51; 68; 85; 102; 119; 136; 153; 170; 187; 204; 221; 17; 34; 51; 68; 85; 102; 119; 136; 153; 170; 187; 204; 221; 17; 34; 51; 68; 85; 102; 119; 136; 153; 170; 187; 204; 221; 17; 34; 51; 68; 85; 102; 119; 136; 153; 170; 187; 204; 221; 17; 34; 51; 68; 85; 102; 119; 136; 153; 170; 187; 204; 221; 17; 34; 51; 68; 85; 102; 119; 136; 153; 170; 187; 204; 221; 17; 34; 51; 68; 85; 102; 119; 136; 153; 170; 187; 204; 221; 17; 34; 51; 68; 85; 102; 119; 136; 153; 170; 187; 204; 221; 17; 34; 51; 68; 85; 102; 119; 136; 153; 170; 187; 204; 221; 17; 34; 51; 68; 85; 102; 119; 136; 153; 170; 187; 204; 221; 17; 34; 51; 68; 85; 102; 119; 136; 153; 170; 187; 204; 221; 17; 34; 51; 68; 85; 102; 119; 136; 153; 170; 187; 204; 221; 17; 34; 51; 68; 85; 102; 119; 136; 153; 170; 187; 204; 221; 17; 34; 51; 68; 85; 102; 119; 136; 153; 170; 187; 204; 221; 17; 34; 51; 68; 85; 102; 119; 136; 153; 170; 187; 204; 221; 17; 34; 51; 68; 85; 102; 119; 136; 153; 170; 187; 204; 221; 17; 34; 51; 68; 85; 102; 119; 136; 153; 170; 187; 204; 221; 17; 34; 51; 68; 85; 102; 119; 136; 153; 170; 187; 204; 221; 17; 34; 51; 68; 85; 102; 119; 136; 153; 170; 187; 204; 221; 17; 34; 51; 68; 85; 102; 119; 136; 153; 170; 187; 204; 221; 17; 34; 51; 68; 85; 102; 119; 136; 153; 170; 187; 204; 221; 17; 34; 51; 68; 85; 102; 119; 136; 153; 170; 187; 204; 221; 17; 34; 51; 68; 85; 102; 119; 136; 153; 170; 187; 204; 221; 17; 34; 51; 68; 85; 102; 119; 136; 153; 170; 187; 204; 221; 17; 34; 51; 68; 85; 102; 119; 136; 153; 170; 187; 204; 221; 17; 34; 51; 68; 85; 102; 119; 136; 153; 170; 187; 204; 221; 17; 34; 51; 68; 85; 102; 119; 136; 153; 170; 187; 204; 221; 17; 34; 51; 68; 85; 102; 119; 136; 153; 170; 187; 204; 221; 17; 34; 51; 68; 85; 102; 119; 136; 153; 170; 187; 204; 221; 17; 34; 51; 68; 85; 102; 119; 136; 153; 170; 187; 204; 221; 17; 34; 51; 68; 85; 102; 119; 136; 153; 170; 187; 204; 221; 17; 34; 51; 68; 85; 102; 119; 136; 153; 170; 187; 204; 221; 17; 34; 51; 68; 85; 102; 119; 136; 153; 170; 187; 204; 221; 17; 34; 51; 68; 85; 102; 119; 136; 153; 170; 187; 204; 221; 17; 34; 51; 68; 85; 102; 119; 136; 153; 170; 187; 204; 221; 17; 34; 51; 68; 85; 102; 119; 136; 153; 170; 187; 204; 221; 17; 34; 51; 68; 85; 102; 119; 136; 153; 170; 187; 204; 221; 17; 34; 51; 68; 85; 102; 119; 136; 153; 170; 187; 204; 221; 17; 34; 51; 68; 85; 102; 119; 136; 153; 170; 187; 204; 221; 17; 34; 51; 68; 85; 102; 119; 136; 153; 170; 187; 204; 221; 17; 34; 51; 68; 85; 102; 119; 136; 153; 170; 187; 204; 221; 17; 34; 51; 68; 85; 102; 119; 136; 153; 170; 187; 204; 221; 17; 34; 51; 68; 85; 102; 119; 136; 153; 170; 187; 204; 221; 17; 34; 51; 68; 85; 102; 119; 136; 153; 170; 187; 204; 221; 17; 34; 51; 68; 85; 102; 119; 136; 153; 170; 187; 204; 221; 17; 34; 51; 68; 85; 102; 119; 136; 153; 170; 187; 204; 221; 17; 34; 51; 68; 85; 102; 119; 136; 153; 170; 187; 204; 221; 17; 34; 51; 68; 85; 102; 119; 136; 153; 170; 187; 204; 221; 17; 34; 51; 68; 85; 102; 119; 136; 153; 170; 187; 204; 221; 17; 34; 51; 68; 85; 102; 119; 136; 153; 170; 187; 204; 221; 17; 34; 51; 68; 85; 102; 119; 136; 153; 170; 187; 204; 221; 17; 34; 51; 68; 85; 102; 119; 136; 153; 170; 187; 204; 221; 17; 34; 51; 68; 85; 102; 119; 136; 153; 170; 187; 204; 221; 17; 34; 51; 68; 85; 102; 119; 136; 153; 170; 187; 204; 221; 17; 34; 51; 68; 85; 102; 119; 136; 153; 170; 187; 204; 221; 17; 34; 51; 68; 85; 102; 119; 136; 153; 170; 187; 204; 221; 17; 34; 51; 68; 85; 102; 119; 136; 153; 170; 187; 204; 221; 17; 34; 51; 68; 85; 102; 119; 136; 153; 170; 187; 204; 221; 17; 34; 51; 68; 85; 102; 119; 136; 153; 170; 187; 204; 221; 17; 34; 51; 68; 85; 102; 119; 136; 153; 170; 187; 204; 221; 17; 34; 51; 68; 85; 102; 119; 136; 153; 170; 187; 204; 221; 17; 34; 51; 68; 85; 102; 119; 136; 153; 170; 187; 204; 221; 17; 34; 51; 68; 85; 102; 119; 136; 153; 170; 187; 204; 221; 17; 34; 51; 68; 85; 102; 119; 136; 153; 170; 187; 204; 221; 17; 34; 51; 68; 85; 102; 119; 136; 153; 170; 187; 204; 221; 17; 34; 51; 68; 85; 102; 119; 136; 153; 170; 187; 204; 221; 17; 34; 51; 68; 85; 102; 119; 136; 153; 170; 187; 204; 221; 17; 34; 51; 68; 85; 102; 119; 136; 153; 170; 187; 204; 221; 17; 34; 51; 68; 85; 102; 119; 136; 153; 170; 187; 204; 221; 17; 34; 51; 68; 85; 102; 119; 136; 153; 170; 187; 204; 221; 17; 34; 51; 68; 85; 102; 119; 136; 153; 170; 187; 204; 221; 17; 34; 51; 68; 85; 102; 119; 136; 153; 170; 187; 204; 221; 17; 34; 51; 3; 0; 6; 0; 2; 15; 4; 1; 10; 0; 0; 0; 0; 0; 0; 0; 97; 74; 0; 0; 2; 0; 0; 0; 0; 0; 0; 0; 0; 0; 0; 0; 71; 101; 110; 117; 105; 110; 101; 73; 110; 116; 101; 108; 195; 6; 3; 0; 255; 251; 235; 191; 0; 0; 0; 0; 1; 0; 0; 0; 0; 0; 0; 0; 5; 0; 0; 192; 0; 0; 0; 0; 0; 0; 0; 0; 0; 0; 0; 0; 0; 16; 64; 0; 0; 0; 0; 0; 0; 0; 0; 0; 0; 0; 0; 0; 1; 0; 0; 0; 0; 0; 0; 0; 16; 0; 0; 0; 0; 0; 0; 0; 0; 0; 0; 0; 0; 0; 0; 0; 0; 0; 0; 0; 0; 0; 0; 0; 0; 0; 0; 0; 0; 0; 0; 0; 0; 0; 0; 0; 0; 0; 0; 0; 0; 0; 0; 0; 0; 0; 0; 0; 0; 0; 0; 0; 0; 0; 0; 0; 0; 0; 0; 0; 0; 0; 0; 0; 0; 0; 0; 0; 0; 0; 0; 0; 0; 0; 0; 0; 0; 0; 0; 0; 0; 0; 0; 0; 0; 0; 0; 0; 0; 0; 0; 0; 0; 0; 0; 0; 0; 0; 0; 0; 0; 0; 0; 0; 0; 0; 0; 0; 0; 0; 0; 0; 236; 3; 0; 0; 56; 0; 0; 0].

(* the fields are taken by position, so that only the reader behind the field is evaluated *)
(* F-C01a: object-info record of type 0x7777 -> from_u32(..).unwrap() *)
Lemma wit_a_panics : wf_bytes wit_a /\ In (10, FPan PANIC_OBJINFO_UNWRAP) (o_fields (run_case Unfixed Debug wit_a)).
Proof. split; [apply wf_bytes_dec; vm_compute; reflexivity|]. apply (nth_error_In _ 10). lazy. reflexivity. Qed.
(* F-C01c: number_parameters = 16 -> exception_information[15] *)
Lemma wit_c_panics : wf_bytes wit_c /\ In (12, FPan PANIC_EXC_INDEX) (o_fields (run_case Unfixed Debug wit_c)).
Proof. split; [apply wf_bytes_dec; vm_compute; reflexivity|]. apply (nth_error_In _ 12). lazy. reflexivity. Qed.
(* F-C01b: next_info_rva points at the record itself *)
Lemma wit_b_no_fuel : wf_bytes wit_b /\ In (10, FNoFuel) (o_fields (run_case Unfixed Debug wit_b)).
Proof. split; [apply wf_bytes_dec; vm_compute; reflexivity|]. apply (nth_error_In _ 10). lazy. reflexivity. Qed.
(* ... and no amount of fuel helps: the walk from the self-referential record never ends *)
Lemma wit_b_diverges : forall fuel visited, info_chain Unfixed fuel LE wit_b 44 visited = NoFuel.
Proof.
  induction fuel as [|fuel IH]; intros visited.
  - reflexivity.
  - cbn [info_chain].
    change (44 =? 0) with false. cbv iota.
    replace (can_read wit_b 44 FSZ_OBJINFO) with true by (vm_compute; reflexivity).
    replace (val LE (sub wit_b 44 4)) with 44 by (vm_compute; reflexivity).
    replace (known_info_type (val LE (sub wit_b (44 + 4) 4))) with true by (vm_compute; reflexivity).
    apply IH.
Qed.
(* F-C01d: size_of_descriptor = 0, number_of_descriptors = 0xffffffff in a 60-byte file *)
Lemma wit_d_allocates : wf_bytes wit_d /\ blen wit_d = 60 /\
  In (4294967295 * MSZ_HANDLE) (o_ledger (run_case Unfixed Debug wit_d)).
Proof. split; [apply wf_bytes_dec; vm_compute; reflexivity|]. split; [reflexivity|]. vm_compute. tauto. Qed.
(* F-C01e: a PPC context under an exception: print reaches unimplemented!() *)
Lemma wit_e_panics : wf_bytes wit_e_ppc /\ In (13, FPan PANIC_CTX_UNIMPL) (o_fields (run_case Unfixed Debug wit_e_ppc)).
Proof. split; [apply wf_bytes_dec; vm_compute; reflexivity|]. apply (nth_error_In _ 13). lazy. reflexivity. Qed.
(* a well-formed dump with real work in it, for the non-vacuity examples *)
Definition nv_dump : bytes :=
  [77; 68; 77; 80; 147; 167; 0; 0; 5; 0; 0; 0; 32; 0; 0; 0; 0; 0; 0; 0; 0; 0; 0; 80; 0; 0; 0; 0; 0; 0; 0; 0; 7; 0; 0; 0; 56; 0; 0; 0; 140; 0; 0; 0; 3; 0; 0; 0; 100; 0; 0; 0; 196; 0; 0; 0; 4; 0; 0; 0; 112; 0; 0; 0; 40; 1; 0; 0; 12; 0; 0; 0; 56; 0; 0; 0; 176; 1; 0; 0; 6; 0; 0; 0; 168; 0; 0; 0; 232; 1; 0; 0; 10; 0; 0; 0; 97; 0; 46; 0; 101; 0; 120; 0; 101; 0; 0; 0; 82; 83; 68; 83; 0; 1; 2; 3; 4; 5; 6; 7; 8; 9; 10; 11; 12; 13; 14; 15; 1; 0; 0; 0; 97; 46; 112; 100; 98; 0; 0; 0; 9; 0; 6; 0; 2; 15; 4; 1; 10; 0; 0; 0; 0; 0; 0; 0; 97; 74; 0; 0; 2; 0; 0; 0; 0; 0; 0; 0; 0; 0; 0; 0; 71; 101; 110; 117; 105; 110; 101; 73; 110; 116; 101; 108; 195; 6; 3; 0; 255; 251; 235; 191; 0; 0; 0; 0; 2; 0; 0; 0; 7; 0; 0; 0; 0; 0; 0; 0; 0; 0; 0; 0; 0; 0; 0; 0; 0; 0; 0; 0; 0; 0; 0; 0; 0; 0; 0; 0; 0; 0; 0; 0; 0; 0; 0; 0; 0; 0; 0; 0; 0; 0; 0; 0; 0; 0; 0; 0; 8; 0; 0; 0; 0; 0; 0; 0; 0; 0; 0; 0; 0; 0; 0; 0; 0; 0; 0; 0; 0; 0; 0; 0; 0; 0; 0; 0; 0; 0; 0; 0; 0; 0; 0; 0; 0; 0; 0; 0; 0; 0; 0; 0; 0; 0; 0; 0; 1; 0; 0; 0; 0; 0; 64; 0; 0; 0; 0; 0; 0; 16; 0; 0; 0; 0; 0; 0; 1; 0; 0; 80; 92; 0; 0; 0; 189; 4; 239; 254; 0; 0; 1; 0; 1; 0; 0; 0; 2; 0; 0; 0; 3; 0; 0; 0; 4; 0; 0; 0; 63; 0; 0; 0; 0; 0; 0; 0; 4; 0; 0; 0; 1; 0; 0; 0; 0; 0; 0; 0; 0; 0; 0; 0; 0; 0; 0; 0; 30; 0; 0; 0; 108; 0; 0; 0; 0; 0; 0; 0; 0; 0; 0; 0; 0; 0; 0; 0; 0; 0; 0; 0; 0; 0; 0; 0; 0; 0; 0; 0; 0; 0; 0; 0; 2; 0; 0; 0; 0; 0; 0; 0; 152; 1; 0; 0; 1; 0; 0; 0; 0; 0; 0; 0; 16; 0; 0; 0; 40; 0; 0; 0; 1; 0; 0; 0; 0; 0; 0; 0; 4; 0; 0; 0; 0; 0; 0; 0; 92; 0; 0; 0; 0; 0; 0; 0; 1; 0; 0; 0; 2; 0; 0; 0; 3; 0; 0; 0; 4; 0; 0; 0; 164; 1; 0; 0; 0; 0; 0; 0; 7; 0; 0; 0; 0; 0; 0; 0; 5; 0; 0; 192; 0; 0; 0; 0; 0; 0; 0; 0; 0; 0; 0; 0; 0; 16; 64; 0; 0; 0; 0; 0; 15; 0; 0; 0; 0; 0; 0; 0; 1; 0; 0; 0; 0; 0; 0; 0; 16; 0; 0; 0; 0; 0; 0; 0; 0; 0; 0; 0; 0; 0; 0; 0; 0; 0; 0; 0; 0; 0; 0; 0; 0; 0; 0; 0; 0; 0; 0; 0; 0; 0; 0; 0; 0; 0; 0; 0; 0; 0; 0; 0; 0; 0; 0; 0; 0; 0; 0; 0; 0; 0; 0; 0; 0; 0; 0; 0; 0; 0; 0; 0; 0; 0; 0; 0; 0; 0; 0; 0; 0; 0; 0; 0; 0; 0; 0; 0; 0; 0; 0; 0; 0; 0; 0; 0; 0; 0; 0; 0; 0; 0; 0; 0; 0; 0; 0; 0; 0; 0; 0; 0; 0; 0; 0; 0; 0; 0; 0; 0; 0; 0; 0; 0; 0; 0; 0; 0].
