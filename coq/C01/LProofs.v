(* C01/LProofs.v — the address / id lookups never index out of range.
   The table facts come from C08 (build_total, lookup_sound, sorted_disjoint, rm_get_complete); what is proved here is
   that the VALUES stored in the table are positions of the list the table was built from. *)
From Coq Require Import Lia Sorting.Sorted.
From RM Require Import C01.Model C01.Proofs C01.Driver C01.Final C01.QModel C01.QProofs C01.LModel.
From RM Require C08.Model C08.Proofs C08.IndexProofs.
Open Scope Z_scope.

Definition wf_orange (o : orange) : Prop := match o with Some r => C08.Proofs.wf_range r | None => True end.

Lemma enumerate_in : forall A (l : list A) k x i, In (x, i) (C08.Model.enumerate_from k l) ->
  k <= i < k + blen l /\ nth_error l (Z.to_nat (i - k)) = Some x.
Proof.
  intros A l k x i H. apply C08.IndexProofs.enumerate_from_in in H. destruct H as (H1 & H2).
  assert (Hlt : (Z.to_nat (i - k) < length l)%nat) by (apply nth_error_Some; rewrite H2; discriminate).
  unfold blen. split; [lia|exact H2].
Qed.

Lemma enumerate_wf : forall (ranges : list orange) k, Forall wf_orange ranges ->
  C08.Proofs.wf_entries (C08.Model.enumerate_from k ranges).
Proof. exact C08.IndexProofs.wf_enumerate. Qed.

Definition the_table (ranges : list orange) := C08.Model.into_rangemap_safe Z.eqb (C08.Model.enumerate_from 0 ranges).

(* RangeMap::try_from_iter(vec).unwrap() of into_rangemap_safe never panics *)
Lemma table_of_ok : forall ranges, Forall wf_orange ranges -> table_of ranges = Ok (the_table ranges).
Proof.
  intros ranges H. unfold table_of.
  change (C08.Model.build_indexed ranges) with (C08.Model.build Z.eqb (C08.Model.enumerate_from 0 ranges)).
  rewrite (C08.Proofs.build_total Z.eqb _ (enumerate_wf ranges 0 H)). reflexivity.
Qed.

(* a lookup that answers, answers with a position of the list whose own range contains the address *)
Lemma table_get_sound : forall ranges addr i, Forall wf_orange ranges ->
  C08.Model.rm_get (the_table ranges) addr = Some i ->
  0 <= i < blen ranges /\ exists r, nth_error ranges (Z.to_nat i) = Some (Some r) /\ C08.Model.contains r addr = true.
Proof.
  intros ranges addr i H Hg.
  destruct (C08.Proofs.lookup_sound Z.eqb Z.eqb_eq _ addr i (enumerate_wf ranges 0 H) Hg) as (r & Hin & Hc).
  apply enumerate_in in Hin. destruct Hin as (Hi & Hn). rewrite Z.sub_0_r in Hn.
  split; [lia|]. exists r. split; assumption.
Qed.

(* every value stored in the table is a position of the list (by_addr): the entry is what a lookup at the
   start of its own range finds *)
Lemma table_values_in_range : forall ranges R i, Forall wf_orange ranges -> In (R, i) (the_table ranges) -> 0 <= i < blen ranges.
Proof.
  intros ranges R i H Hin.
  destruct (C08.Proofs.sorted_disjoint Z.eqb _ (enumerate_wf ranges 0 H)) as (Hs & Hw).
  assert (HR : C08.Proofs.wf_range R).
  { unfold C08.Proofs.wf_ranges in Hw. rewrite Forall_forall in Hw. exact (Hw _ Hin). }
  assert (Hc : C08.Model.contains R (fst R) = true).
  { unfold C08.Model.contains. destruct HR as (_ & H2 & _). lia. }
  pose proof (C08.Proofs.rm_get_complete _ (fst R) R i Hs Hw Hin Hc) as Hg.
  apply (table_get_sound ranges (fst R) i H Hg).
Qed.

Lemma in_range_true : forall i n, 0 <= i < n -> (0 <=? i) && (i <? n) = true.
Proof. intros. apply andb_true_intro. split; [apply Z.leb_le | apply Z.ltb_lt]; lia. Qed.

Lemma index_at_rsat : forall ranges addr, Forall wf_orange ranges ->
  rsat (fun i => i = -1 \/ (0 <= i < blen ranges /\ exists r, nth_error ranges (Z.to_nat i) = Some (Some r) /\ C08.Model.contains r addr = true))
       (index_at (the_table ranges) (blen ranges) addr).
Proof.
  intros ranges addr H. unfold index_at.
  destruct (C08.Model.rm_get (the_table ranges) addr) as [i|] eqn:Hg; [|apply rsat_ok; left; reflexivity].
  destruct (table_get_sound ranges addr i H Hg) as (Hi & Hr).
  rewrite in_range_true by exact Hi. apply rsat_ok. right. split; assumption.
Qed.

(* index_at has no graceful failure, so an answer exists *)
Lemma index_at_answers : forall ranges addr, Forall wf_orange ranges ->
  exists i, index_at (the_table ranges) (blen ranges) addr = Ok i /\
            (i = -1 \/ (0 <= i < blen ranges /\ exists r, nth_error ranges (Z.to_nat i) = Some (Some r) /\ C08.Model.contains r addr = true)).
Proof.
  intros ranges addr H. pose proof (index_at_rsat ranges addr H) as (H1 & H2 & H3).
  destruct (index_at (the_table ranges) (blen ranges) addr) as [i| | |] eqn:E.
  - exists i. split; [reflexivity | exact (H3 _ eq_refl)].
  - unfold index_at in E. destruct (C08.Model.rm_get _ _); [destruct (_ && _)|]; discriminate.
  - destruct (H1 _ eq_refl).
  - destruct (H2 eq_refl).
Qed.

Lemma by_addr_count_rsat : forall n tbl, Forall (fun rv => 0 <= snd rv < n) tbl -> rsat (fun c => c = blen tbl) (by_addr_count tbl n).
Proof.
  intros n. induction tbl as [|[R i] t IH]; intros H; cbn [by_addr_count]; [apply rsat_ok; reflexivity|].
  inversion H as [|? ? Hi Ht]; subst. rewrite in_range_true by exact Hi.
  eapply rsat_bind; [apply IH; exact Ht|]. intros c ->. apply rsat_ok. rewrite blen_cons. lia.
Qed.

Definition wf_descs (descs : list (Z * Z)) : Prop := Forall (fun d => 0 <= fst d /\ 0 <= snd d) descs.

Lemma ranges_of_rsat : forall p descs, wf_descs descs -> rsat (fun rs => Forall wf_orange rs /\ blen rs = blen descs) (ranges_of p descs).
Proof.
  intros p descs H. unfold ranges_of.
  eapply rsat_weaken; [|apply seq_res_rsat with (Q := wf_orange), Forall_map; eapply Forall_impl; [|exact H]].
  - cbn beta. intros rs (Hrs & Hl). split; [exact Hrs|]. rewrite Hl. unfold blen. rewrite map_length. reflexivity.
  - cbn beta. intros d (Hb & Hs). eapply rsat_weaken; [|apply memory_range_rsat; assumption].
    intros [[lo hi]|] Ho; cbn; [|exact I]. destruct Ho as (-> & -> & Hle & Hlt & _).
    unfold C08.Proofs.wf_range; cbn [fst snd]. unfold two64, T64 in *. lia.
Qed.

(* the table of one list, then lookups at [addrs]: every answer is -1 or a position of the list *)
Lemma index_at_all_rsat : forall ranges n addrs, Forall wf_orange ranges -> blen ranges = n ->
  rsat (fun l => Forall (fun i => -1 <= i < n) l /\ blen l = blen addrs) (seq_res (map (index_at (the_table ranges) (blen ranges)) addrs)).
Proof.
  intros ranges n addrs Hr <-. eapply rsat_weaken; [|apply seq_res_rsat with (Q := fun i => -1 <= i < blen ranges), Forall_map_all].
  - cbn beta. intros l (Hf & Hl). split; [exact Hf|]. rewrite Hl. unfold blen. rewrite map_length. reflexivity.
  - intros a. eapply rsat_weaken; [|apply index_at_rsat; exact Hr].
    intros i [->|((Hi1 & Hi2) & _)]; pose proof (blen_nonneg _ ranges); lia.
Qed.

(* the lookups of one list: no trap, every index returned is a position of the list (or -1), the by_addr walk visits
   every table entry *)
Lemma lookups_rsat : forall p descs, wf_descs descs ->
  rsat (fun l => match l with [] => False | c :: idx => 0 <= c /\ Forall (fun i => -1 <= i < blen descs) idx end) (lookups p descs).
Proof.
  intros p descs H. unfold lookups.
  eapply rsat_bind; [apply ranges_of_rsat; exact H|]. intros ranges (Hr & Hl).
  rewrite (table_of_ok ranges Hr). cbn [rbind].
  eapply rsat_bind.
  { apply by_addr_count_rsat. apply Forall_forall. intros [R i] Hin. cbn [snd]. eapply table_values_in_range; eassumption. }
  intros c ->.
  eapply rsat_bind; [apply index_at_all_rsat; eassumption|].
  intros l (Hf & _). apply rsat_ok. split; [apply blen_nonneg | exact Hf].
Qed.
Lemma lookups_total : forall p descs, wf_descs descs -> rsat (fun _ => True) (lookups p descs).
Proof. intros p descs H. eapply rsat_weaken; [|apply lookups_rsat; exact H]. intros; exact I. Qed.

Lemma last_index_bound : forall e id raws i acc, -1 <= acc < i -> -1 <= last_index e id raws i acc < i + blen raws.
Proof.
  induction raws as [|d t IH]; intros i acc H; cbn [last_index]; [unfold blen; cbn; lia|].
  rewrite blen_cons. specialize (IH (i + 1) (if val e (sub d 0 4) =? id then i else acc)).
  destruct (val e (sub d 0 4) =? id); lia.
Qed.
Lemma get_thread_index_rsat : forall e raws id, rsat (fun i => -1 <= i < blen raws) (get_thread_index e raws id).
Proof.
  intros e raws id. unfold get_thread_index.
  pose proof (last_index_bound e id raws 0 (-1) ltac:(lia)) as B.
  destruct (Z.ltb_spec (last_index e id raws 0 (-1)) (blen raws)); [|lia].
  apply rsat_ok. lia.
Qed.
(* get_thread of the ids of [some], in the id map of [raws] *)
Lemma get_threads_total : forall e raws some,
  rsat (fun _ => True) (seq_res (map (fun d => get_thread_index e raws (val e (sub d 0 4))) some)).
Proof.
  intros. apply seq_res_map_total. intros d. eapply rsat_weaken; [|apply get_thread_index_rsat]. intros; exact I.
Qed.

(* ---- descriptors read from well-formed bytes are non-negative *)
Lemma mem_descs_wf : forall e regions, Forall wf_bytes regions -> wf_descs (mem_descs e regions).
Proof.
  intros e regions H. apply Forall_map. eapply Forall_impl; [|exact H].
  intros d Hd. split; apply val_sub_nonneg; assumption.
Qed.
Lemma module_descs_wf : forall e s, wf_bytes s -> wf_descs (module_descs e s).
Proof.
  intros e s H. apply Forall_filter, Forall_map, Forall_map_all.
  intros i. split; apply val_sub_nonneg, wf_sub; assumption.
Qed.
Lemma meminfo_descs_wf : forall e s n, wf_bytes s -> wf_descs (meminfo_descs e s n).
Proof. intros e s n H. apply Forall_map_all. intros i. split; apply val_sub_nonneg; assumption. Qed.
Lemma mem64_descs_wf : forall e s n, wf_bytes s -> wf_descs (mem64_descs e s n).
Proof. intros e s n H. apply Forall_map_all. intros i. split; apply val_sub_nonneg; assumption. Qed.

Lemma run_lookups_total : forall p file, wf_bytes file -> blen file < T62 -> fields_total (run_lookups p file).
Proof.
  intros p file Hwf Hlen. unfold run_lookups.
  destruct (read_header file) as [[e ds]| | |]; [|apply fields_total_nil..].
  repeat apply fields_total_cons; [..|apply fields_total_nil]; eapply fld_rsat.
  - unfold q_am. eapply rsat_bind; [apply s_mem_wf; assumption|].
    intros regions Hr. apply lookups_total, mem_descs_wf, Hr.
  - unfold q_al. eapply rsat_bind; [apply s_ml_sat; assumption|]. intros n _.
    eapply rsat_bind; [apply raw_stream_wf, Hwf|]. intros b Hb. apply lookups_total, module_descs_wf, Hb.
  - unfold q_ai. eapply rsat_bind; [apply s_mi_sat; assumption|]. intros n _.
    eapply rsat_bind; [apply raw_stream_wf, Hwf|]. intros b Hb. apply lookups_total, meminfo_descs_wf, Hb.
  - unfold q_a6. eapply rsat_bind; [apply s_m64_sat; assumption|]. intros n _.
    eapply rsat_bind; [apply raw_stream_wf, Hwf|]. intros b Hb. apply lookups_total, mem64_descs_wf, Hb.
  - unfold q_tg. eapply rsat_bind; [apply s_tl_sat; assumption|]. intros raws _. apply get_threads_total.
Qed.
