(* C01/Properties.v — the property theorems of the reader (partial: the modelled core).  Each is given with its full
   statement, a short proof from the lemmas of the proof files (an instance, or a few lines) and its
   [Print Assumptions]; the non-vacuity examples follow.
   [run_case v p file] (C01/Driver.v) opens [file] like Minidump::read and requests every modelled stream; fields
   carry Ok/Err/Panic/OutOfFuel, the ledger every Vec::with_capacity.
   The loops that walk the file (directory, list entries, C strings, object-info chain, crashpad entries) run on fuel
   |file| + 1 ([fuel_of] of the file or of the window they read); the loops with a bound of their own run on that
   bound: the xstate iterator on 64, the exception parameters on 16, the mac strings on their number, the print
   loops of c01_print_sites_total on len + 1. *)
From RM Require C08.Model C08.Proofs.
From RM Require Import C01.Model C01.Proofs C01.Driver C01.Final C01.Agree C01.QModel C01.QProofs C01.LModel C01.LProofs C01.LayoutPins C01.ConstIndex C01.SModel C01.SProofs C01.PModel C01.PProofs C01.CpuPins Gen.C01Sites C01.Sites C01.SitesCheck.
Open Scope Z_scope.

(* No modelled site panics, for any byte string, in debug and release builds (fixed code). *)
Theorem c01_no_panic : forall (p : profile) (file : bytes), wf_bytes file -> blen file < T62 ->
  forall tag f t, In (tag, f) (o_fields (run_case Fixed p file)) -> f <> FPan t.
Proof. intros p file H1 H2 tag f t H. exact (proj1 (proj1 (run_case_fixed_total p file H1 H2) tag f H) t). Qed.
Print Assumptions c01_no_panic.

(* Fuel |file| + 1 suffices for every loop: directory walk, entry loops, C strings and the
   handle object-info chain. *)
Theorem c01_terminates : forall (p : profile) (file : bytes), wf_bytes file -> blen file < T62 ->
  forall tag f, In (tag, f) (o_fields (run_case Fixed p file)) -> f <> FNoFuel.
Proof. exact terminates. Qed.
Print Assumptions c01_terminates.

(* Every Vec::with_capacity on the modelled paths asks for at most ALLOC_FILE_C = 10 times the
   input's size, whatever counts the file declares (10 = the crashpad module-link vector, whose
   count is bounded by the whole file: 112-byte elements per 12 file bytes) ... *)
Theorem c01_alloc_backed : forall (p : profile) (file : bytes), wf_bytes file -> blen file < T62 ->
  forall a, In a (o_ledger (run_case Fixed p file)) -> 0 <= a <= ALLOC_FILE_C * blen file.
Proof. intros p file H1 H2. apply Forall_forall. exact (proj2 (run_case_fixed_total p file H1 H2)). Qed.
Print Assumptions c01_alloc_backed.

(* ... and the list readers, reader by reader, ALLOC_C = 4 times the bytes of their own stream (4 = the largest
   ratio, rounded up, of an element in memory to its bytes in the file: 56/16 memory, 120/32 handle, 128/48 thread,
   248/108 module). *)
Theorem c01_stream_list_total : forall p e b fsz msz, wf_bytes b -> blen b < T62 -> 0 < fsz -> 0 <= msz <= ALLOC_C * fsz ->
  (forall t, snd (read_stream_list p e b fsz msz) <> Pan t) /\ snd (read_stream_list p e b fsz msz) <> NoFuel /\
  (forall a, In a (fst (read_stream_list p e b fsz msz)) -> 0 <= a <= ALLOC_C * blen b) /\
  (forall raws, snd (read_stream_list p e b fsz msz) = Ok raws -> blen raws * fsz + 4 <= blen b).
Proof.
  intros p e b fsz msz Hwf Hlen Hf Hm.
  pose proof (read_stream_list_sat p e b fsz msz _ Hwf Hlen Hf Hm (Z.le_refl _)) as H.
  destruct (sat_fields _ _ _ _ H) as (H1 & H2 & H3). split; [exact H1|]. split; [exact H2|]. split; [exact H3|].
  intros raws Hr. apply (proj2 (proj2 (proj2 H)) raws Hr).
Qed.
Print Assumptions c01_stream_list_total.

Theorem c01_ex_stream_list_total : forall p e wide b fsz msz, wf_bytes b -> blen b < T62 -> 0 < fsz -> 0 <= msz <= ALLOC_C * fsz ->
  (forall t, snd (read_ex_stream_list p e wide b fsz msz) <> Pan t) /\ snd (read_ex_stream_list p e wide b fsz msz) <> NoFuel /\
  (forall a, In a (fst (read_ex_stream_list p e wide b fsz msz)) -> 0 <= a <= ALLOC_C * blen b) /\
  (forall raws, snd (read_ex_stream_list p e wide b fsz msz) = Ok raws -> blen raws * fsz <= blen b).
Proof.
  intros p e wide b fsz msz Hwf Hlen Hf Hm.
  pose proof (read_ex_stream_list_sat p e wide b fsz msz _ Hwf Hlen Hf Hm (Z.le_refl _)) as H.
  destruct (sat_fields _ _ _ _ H) as (H1 & H2 & H3). split; [exact H1|]. split; [exact H2|]. split; [exact H3|].
  intros raws Hr. apply (proj2 (proj2 (proj2 H)) raws Hr).
Qed.
Print Assumptions c01_ex_stream_list_total.

Theorem c01_memory64_total : forall p e all b, wf_bytes b -> blen b < T62 ->
  (forall t, snd (read_memory64_list p e all b) <> Pan t) /\ snd (read_memory64_list p e all b) <> NoFuel /\
  (forall a, In a (fst (read_memory64_list p e all b)) -> 0 <= a <= ALLOC_C * blen b).
Proof. intros. eapply sat_fields, read_memory64_list_sat; try assumption. apply Z.le_refl. Qed.
Print Assumptions c01_memory64_total.

Theorem c01_handle_data_total : forall p e all b, wf_bytes all -> blen all < T62 -> wf_bytes b -> blen b < T62 ->
  (forall t, snd (read_handle_data Fixed p e all b) <> Pan t) /\ snd (read_handle_data Fixed p e all b) <> NoFuel /\
  (forall a, In a (fst (read_handle_data Fixed p e all b)) -> 0 <= a <= ALLOC_C * blen b).
Proof. intros. eapply sat_fields, read_handle_data_fixed_sat; try assumption. apply Z.le_refl. Qed.
Print Assumptions c01_handle_data_total.

(* the object-info chain of one descriptor: never a panic, ends within |file|+1 steps,
   yields at most |file| / 12 records *)
Theorem c01_info_chain_bounded : forall e all rva,
  (forall t, info_chain Fixed (fuel_of all) e all rva 0 <> Pan t) /\ info_chain Fixed (fuel_of all) e all rva 0 <> NoFuel /\
  forall n, info_chain Fixed (fuel_of all) e all rva 0 = Ok n -> 0 <= n <= blen all / FSZ_OBJINFO.
Proof. exact info_chain_bounded. Qed.
Print Assumptions c01_info_chain_bounded.

(* location_slice returns exactly the requested window, inside the file *)
Theorem c01_location_slice_sound : forall b size rva s, location_slice b size rva = Some s ->
  rva <= rva + size /\ rva + size <= blen b /\ s = sub b rva size.
Proof. exact location_slice_some. Qed.
Print Assumptions c01_location_slice_sound.

(* ensure_count_in_bound: success means count * size + offset fits the buffer *)
Theorem c01_ensure_count_in_bound_sound : forall buflen n sz off,
  (forall t, ensure_count_in_bound buflen n sz off <> Pan t) /\
  forall c x, ensure_count_in_bound buflen n sz off = Ok (c, x) -> c = n /\ x = n * sz + off /\ n * sz + off <= buflen.
Proof.
  intros. destruct (ensure_rsat buflen n sz off) as (H1 & _ & H3). split; [exact H1|].
  intros c x H. destruct (H3 _ H) as (E & Hle). inversion E. auto.
Qed.
Print Assumptions c01_ensure_count_in_bound_sound.

(* string readers: total, and a UTF-16 string that is returned lies inside the buffer *)
Theorem c01_strings_total : forall p e b off, wf_bytes b -> blen b < T62 -> 0 <= off ->
  ((forall t, read_string_utf16 p e b off <> Pan t) /\ read_string_utf16 p e b off <> NoFuel) /\
  ((forall t, read_cstring_utf8 p b off <> Pan t) /\ read_cstring_utf8 p b off <> NoFuel).
Proof.
  intros p e b off Hwf Hlen Hoff.
  split; eapply rsat_total; [apply read_string_utf16_rsat | apply read_cstring_utf8_rsat]; assumption.
Qed.
Print Assumptions c01_strings_total.
Theorem c01_utf16_in_bounds : forall p e b off us endo,
  read_string_utf16 p e b off = Ok (Some (us, endo)) -> endo <= blen b.
Proof. exact utf16_in_bounds. Qed.
Print Assumptions c01_utf16_in_bounds.

(* header + directory walk: stream_count is not validated, yet the walk ends within |file|+1 steps *)
Theorem c01_header_total : forall b, wf_bytes b -> (forall t, read_header b <> Pan t) /\ read_header b <> NoFuel.
Proof. intros b H. exact (rsat_total _ _ _ (read_header_rsat b H)). Qed.
Print Assumptions c01_header_total.

Theorem c01_exception_print_total : forall n,
  (forall t, exception_print Fixed n <> Pan t) /\ exception_print Fixed n <> NoFuel.
Proof. intros n. exact (rsat_total _ _ _ (exception_print_fixed_rsat n)). Qed.
Print Assumptions c01_exception_print_total.

(* the XSTATE feature iterator behind MinidumpMiscInfo::print: no shift by >= 64, no index >= 64,
   at most 64 steps, at most 64 in-range indices — for every enabled_features mask *)
Theorem c01_xstate_iter_total : forall p enabled,
  (forall t, xstate_iter p enabled <> Pan t) /\ xstate_iter p enabled <> NoFuel /\
  forall l, xstate_iter p enabled = Ok l -> Forall (fun i => 0 <= i < XSTATE_FEATURES) l /\ blen l <= XSTATE_FEATURES.
Proof. exact xstate_iter_rsat. Qed.
Print Assumptions c01_xstate_iter_total.

Theorem c01_misc_info_total : forall p e b,
  (forall t, misc_result p (read_misc_info e b) <> Pan t) /\ misc_result p (read_misc_info e b) <> NoFuel.
Proof. intros p e b. exact (rsat_total _ _ _ (misc_result_rsat p _ (read_misc_info_rsat e b))). Qed.
Print Assumptions c01_misc_info_total.

(* printing the contexts of a thread list (any mix of CPU kinds) never panics *)
Theorem c01_thread_contexts_print_total : forall ks,
  (forall t, threads_print Fixed ks <> Pan t) /\ threads_print Fixed ks <> NoFuel.
Proof. intros ks. exact (rsat_total _ _ _ (threads_print_fixed_rsat ks)). Qed.
Print Assumptions c01_thread_contexts_print_total.

(* get_memory_at_address yields a value only from inside the region's bytes *)
Theorem c01_memory_read_in_bounds : forall n e base region addr v, mem_read n e base region addr = Some v ->
  base <= addr /\ (addr - base) + n <= blen region.
Proof. exact mem_read_in_bounds. Qed.
Print Assumptions c01_memory_read_in_bounds.

(* key/value iteration over the Linux text streams: at most one pair per line, at most |stream|+1 lines,
   trimming only ever shortens *)
Theorem c01_linux_kv_bounded : forall sep b,
  blen (linux_kv sep b) <= blen (linux_lines b) /\ blen (linux_lines b) <= blen b + 1.
Proof. exact linux_kv_bounded. Qed.
Print Assumptions c01_linux_kv_bounded.
Theorem c01_strip_quotes_shorter : forall l, blen (strip_quotes l) <= blen l.
Proof. exact strip_quotes_shorter. Qed.
Print Assumptions c01_strip_quotes_shorter.

(* crashpad info: simple dictionary, module links, per-module string lists / dictionaries / annotation
   objects (counts of the last three are not validated by the code: the loops end with the data) *)
Theorem c01_crashpad_info_total : forall e all b, wf_bytes all ->
  (forall t, snd (read_crashpad_info e all b) <> Pan t) /\ snd (read_crashpad_info e all b) <> NoFuel /\
  (forall a, In a (fst (read_crashpad_info e all b)) -> 0 <= a <= ALLOC_FILE_C * blen all).
Proof. intros e all b Hwf. eapply sat_fields, read_crashpad_info_sat; [exact Hwf | apply Z.le_refl]. Qed.
Print Assumptions c01_crashpad_info_total.

(* the model is run in profile Debug only: wherever that run shows no panic (everywhere, by
   c01_no_panic, for the fixed code) the Release model gives the identical answer *)
Theorem c01_profiles_agree : forall v file,
  (forall tag f t, In (tag, f) (o_fields (run_case v Debug file)) -> f <> FPan t) ->
  run_case v Release file = run_case v Debug file.
Proof. exact profiles_agree. Qed.
Print Assumptions c01_profiles_agree.

(* mac crash info: up to 20 records, one version, fixed part by version, C strings from
   record_start_size; set_string is never called past the string table *)
Theorem c01_mac_crash_info_total : forall p e all b, wf_bytes all -> blen all < T62 -> wf_bytes b ->
  (forall t, read_mac_crash_info p e all b <> Pan t) /\ read_mac_crash_info p e all b <> NoFuel.
Proof. intros p e all b H1 H2 H3. exact (rsat_total _ _ _ (read_mac_crash_info_rsat p e all H1 H2 b H3)). Qed.
Print Assumptions c01_mac_crash_info_total.

(* system-info strings (CSD version by RVA), mac bootargs, assertion info (fixed UTF-16 buffers),
   breakpad info, MozSoftErrors *)
Theorem c01_fixed_streams_total : forall p e all b, wf_bytes all -> blen all < T62 -> wf_bytes b ->
  ((forall t, sysinfo_strings p e all b <> Pan t) /\ sysinfo_strings p e all b <> NoFuel) /\
  ((forall t, read_mac_bootargs p e all b <> Pan t) /\ read_mac_bootargs p e all b <> NoFuel) /\
  ((forall t, read_assertion e b <> Pan t) /\ read_assertion e b <> NoFuel) /\
  ((forall t, read_breakpad_info e b <> Pan t) /\ read_breakpad_info e b <> NoFuel) /\
  ((forall t, read_soft_errors b <> Pan t) /\ read_soft_errors b <> NoFuel).
Proof.
  intros p e all b H1 H2 H3.
  exact (conj (rsat_total _ _ _ (sysinfo_strings_rsat p e all H1 H2 b H3))
        (conj (rsat_total _ _ _ (read_mac_bootargs_rsat p e all H1 H2 b H3))
        (conj (rsat_total _ _ _ (read_assertion_rsat e b))
        (conj (rsat_total _ _ _ (read_breakpad_info_rsat e b)) (rsat_total _ _ _ (read_soft_errors_rsat b)))))).
Qed.
Print Assumptions c01_fixed_streams_total.

(* print sites: the stack dump's chunks_exact / try_into().unwrap() pairing and the running
   `offset +=` of the stack and hex dumps never trap, for any pointer width and length *)
Theorem c01_print_sites_total : forall p w len, 0 <= len < T62 ->
  ((forall t, stack_print p (Z.to_nat len + 1) w len 0 <> Pan t) /\ stack_print p (Z.to_nat len + 1) w len 0 <> NoFuel) /\
  ((forall t, hexdump_print p (Z.to_nat len + 1) len 0 <> Pan t) /\ hexdump_print p (Z.to_nat len + 1) len 0 <> NoFuel) /\
  chunk_size w = array_len w.
Proof. exact print_sites_total. Qed.
Print Assumptions c01_print_sites_total.

(* ---- the queries made on a parsed dump.
   memory_range() of memory regions, memory-info entries, modules: the unchecked `- 1` after `checked_add` never traps
   (the `size == 0` guard makes the sum >= 1), and a range that exists is non-empty and below 2^64 *)
Theorem c01_memory_range_sound : forall p base size, 0 <= base -> 0 <= size ->
  (forall t, memory_range p base size <> Pan t) /\ memory_range p base size <> NoFuel /\
  forall lo hi, memory_range p base size = Ok (Some (lo, hi)) -> lo = base /\ hi = base + size - 1 /\ lo <= hi /\ hi < T64.
Proof.
  intros p base size Hb Hs. destruct (memory_range_rsat p base size Hb Hs) as (H1 & H2 & H3).
  split; [exact H1|]. split; [exact H2|]. intros lo hi H. specialize (H3 _ H). cbn in H3. tauto.
Qed.
Print Assumptions c01_memory_range_sound.
(* MinidumpThread::last_error: the address is teb + 13 * pointer width without wrapping, and the u32 read stays inside the region *)
Theorem c01_last_error_in_bounds : forall e teb pw base region v, last_error e teb pw base region = Some v ->
  teb + 13 * pw < T64 /\ base <= teb + 13 * pw /\ (teb + 13 * pw - base) + 4 <= blen region.
Proof. exact last_error_in_bounds. Qed.
Print Assumptions c01_last_error_in_bounds.
(* MinidumpException::get_crash_address: `exception_information[1]` is inside the 15-entry array whatever number_parameters
   says; the result fits the pointer width *)
Theorem c01_crash_address_total : forall windows ptr32 code nparams addr info, blen info = 15 ->
  0 <= addr < T64 -> Forall (fun x => 0 <= x < T64) info ->
  (forall t, crash_address windows ptr32 code nparams addr info <> Pan t) /\ crash_address windows ptr32 code nparams addr info <> NoFuel /\
  forall a, crash_address windows ptr32 code nparams addr info = Ok a -> 0 <= a < T64 /\ (ptr32 = true -> a < T32).
Proof. exact crash_address_rsat. Qed.
Print Assumptions c01_crash_address_total.
(* read_debug_id, ELF arm: the padded build id always holds the 16 bytes of a GUID *)
Theorem c01_elf_debug_id_reads : forall bid, 16 <= blen (pad_build_id bid) /\ elf_debug_id bid <> Some false.
Proof. intros bid. split; [apply pad_build_id_len | apply elf_debug_id_reads]. Qed.
Print Assumptions c01_elf_debug_id_reads.
(* all four query fields of the correspondence run (RM RI CA TE), any byte string, both profiles *)
Theorem c01_crash_queries_total : forall p file, wf_bytes file -> blen file < T62 ->
  forall tag f, In (tag, f) (run_queries p file) -> (forall t, f <> FPan t) /\ f <> FNoFuel.
Proof. exact run_queries_total. Qed.
Print Assumptions c01_crash_queries_total.

(* ---- the address lookups of the module list, memory list, Memory64 list, memory-info list and Linux maps
   (from_modules / from_regions + module_at_address / memory_at_address / memory_info_at_address / by_addr), over C08's model of
   into_rangemap_safe and range-map, for ANY list of optional ranges over u64 (empty, overlapping, duplicated, at the top of the
   address space): the final `RangeMap::try_from_iter(vec).unwrap()` does not panic; every index stored in the table — the ones
   `by_addr` sends through `&self.regions[index]` — is a position of the list; a lookup answers None (-1) or a position of the
   list whose own range contains the address, so `&self.regions[index]` / `&self.modules[index]` cannot be out of bounds *)
Theorem c01_address_lookup_total : forall (ranges : list (option (Z * Z))) addr, Forall wf_orange ranges ->
  table_of ranges = Ok (the_table ranges) /\
  (forall R i, In (R, i) (the_table ranges) -> 0 <= i < blen ranges) /\
  exists i, index_at (the_table ranges) (blen ranges) addr = Ok i /\
            (i = -1 \/ (0 <= i < blen ranges /\ exists r, nth_error ranges (Z.to_nat i) = Some (Some r) /\ C08.Model.contains r addr = true)).
Proof.
  intros ranges addr H.
  exact (conj (table_of_ok _ H) (conj (fun R i => table_values_in_range _ R i H) (index_at_answers _ addr H))).
Qed.
Print Assumptions c01_address_lookup_total.
(* MinidumpUnloadedModuleList::modules_at_address: every index the sorted (range, index) vector yields for an address is a
   position of the module vector, so `&self.modules[*idx]` cannot be out of bounds *)
Theorem c01_unloaded_lookup_in_range : forall (ranges : list (option (Z * Z))) x i,
  In i (C08.Model.unloaded_at (C08.Model.unloaded_build ranges) x) -> 0 <= i < blen ranges.
Proof.
  intros ranges x i H. apply C08.Proofs.unloaded_iff in H. destruct H as (r & Hin & _).
  apply enumerate_in in Hin. destruct Hin as (Hi & _). rewrite Z.add_0_l in Hi. exact Hi.
Qed.
Print Assumptions c01_unloaded_lookup_in_range.
(* MinidumpThreadList::get_thread (the id map keeps the last position inserted): the position is inside the thread vector *)
Theorem c01_get_thread_index_total : forall e raws id,
  (forall t, get_thread_index e raws id <> Pan t) /\ get_thread_index e raws id <> NoFuel /\
  forall i, get_thread_index e raws id = Ok i -> -1 <= i < blen raws.
Proof. exact get_thread_index_rsat. Qed.
Print Assumptions c01_get_thread_index_total.
(* the five lookup fields of the correspondence run (AM AL AI A6 TG: by_addr count, element found at six probe addresses of the
   first eight elements of each list, get_thread of the first eight ids), any byte string, both profiles *)
Theorem c01_lookups_total : forall p file, wf_bytes file -> blen file < T62 ->
  forall tag f, In (tag, f) (run_lookups p file) -> (forall t, f <> FPan t) /\ f <> FNoFuel.
Proof. exact run_lookups_total. Qed.
Print Assumptions c01_lookups_total.

(* Minidump::get_memory (Memory64 list if it parses, else the memory list, else none) and MinidumpThread::stack_memory (the stack read at
   parse time, else the region of that list found at stack.start_of_memory_range): the compared fields TS and TIG (get_thread_info of the first eight ids) never trap; TS names a list
   kind in 0..2 and per thread -2 / -1 / a region index; and a stack found through the fallback is a position of the list *)
Theorem c01_stack_source_total : forall p file, wf_bytes file -> blen file < T62 ->
  forall tag f, In (tag, f) (run_stacks p file) -> (forall t, f <> FPan t) /\ f <> FNoFuel.
Proof. exact run_stacks_total. Qed.
Print Assumptions c01_stack_source_total.
Theorem c01_stack_fallback_sound : forall p descs addr i, wf_descs descs ->
  lookups_at p descs [addr] = Ok [i] -> i = -1 \/ 0 <= i < blen descs.
Proof. exact stack_fallback_sound. Qed.
Print Assumptions c01_stack_fallback_sound.

(* ---- the stack words of MinidumpThread::print.
   For ANY processor_architecture value of the system info (or no system info) and any stack length: the word loop neither traps
   nor runs out of fuel, it writes len / chunk words (chunks_exact drops the remainder) of 4 or 8 bytes, and the chunk it cuts has
   the length of the array `chunk.try_into().unwrap()` must fill. The width is the CPU's pointer width, not the register size of
   the thread's context record (CONTEXT_MIPS / CONTEXT_SPARC: 64-bit registers, 32-bit pointers). *)
Theorem c01_thread_print_words_total : forall p arch len, 0 <= len < T62 ->
  let w := print_width arch in
  (exists n, stack_words p (Z.to_nat len + 1) w len 0 0 = Ok n /\ n = len / chunk_size w /\ chunk_size w * n <= len) /\
  stack_print p (Z.to_nat len + 1) w len 0 = Ok tt /\
  chunk_size w = array_len w /\ (chunk_size w = 4 \/ chunk_size w = 8).
Proof. intros p arch len H. exact (print_words_total p (print_width arch) len H). Qed.
Print Assumptions c01_thread_print_words_total.
(* the compared field TSW (per thread of the first eight: "No stack" or the number of words written and their width, the stack being
   the thread's own or the region of Minidump::get_memory found at start_of_memory_range) never traps, for every byte string *)
Theorem c01_thread_stack_words_total : forall p file, wf_bytes file -> blen file < T62 ->
  forall tag f, In (tag, f) (run_prints p file) -> (forall t, f <> FPan t) /\ f <> FNoFuel.
Proof. exact run_prints_total. Qed.
Print Assumptions c01_thread_stack_words_total.
(* the CPU tables of PModel.v and the chunk / array lengths of Model.stack_print ARE the code's: Gen/C01Cpu.v is regenerated by
   translate/c01_cpu.py from Cpu::from_processor_architecture, Cpu::pointer_width, PointerWidth::size_in_bytes and the word loop
   of MinidumpThread::print; the last conjunct is a statement about the generated tables alone *)
Theorem c01_cpu_tables_pinned : cpu_pins_ok = true /\
  (forall arch, cpu_name (cpu_of_arch arch) = gen_cpu arch) /\
  (forall arch, gen_width arch = Some (gw (print_width arch))) /\
  (forall arch, exists w n, gen_width arch = Some w /\ gen_chunk w = Some n /\ gen_array w = Some n /\ (n = 4 \/ n = 8)).
Proof. exact (conj cpu_pins (conj cpu_of_arch_pinned (conj width_pinned gen_chunk_fills_array))). Qed.
Print Assumptions c01_cpu_tables_pinned.

(* allocation ledger of the lookup table behind the stack fallback (into_rangemap_safe's `Vec::with_capacity(input.len())` in
   MinidumpMemoryList::read, 24-byte entries): at most 1.5 times the file, sized from the regions already read *)
Theorem c01_lookup_table_alloc_backed : forall p file, wf_bytes file -> blen file < T62 ->
  forall a, In a (table_ledger p file) -> 0 <= a /\ 2 * a <= 3 * blen file /\ a <= ALLOC_FILE_C * blen file.
Proof. exact table_ledger_backed. Qed.
Print Assumptions c01_lookup_table_alloc_backed.

(* ---- the file layout the models read with — 35 record sizes, 76 field offsets/widths (nested location descriptors
   included), 5 array lengths — equals what Gen/Layouts.v says, which translate/format_layouts.py regenerates from the struct
   definitions of minidump-common/src/format.rs on every run; and every row of Model.ctx_table (CONTEXT_* size, offset and width
   of context_flags) agrees with the generated layout of that context struct, for every processor_architecture value *)
Theorem c01_layout_pinned : layout_pins_ok = true /\ (forall arch, ctx_row_ok arch = true) /\
  (* the exception models use the pinned length of exception_information, not a free literal *)
  (forall n, exception_print Fixed n = exc_print_loop 16 0 (Z.min n EXC_INFO_LEN)) /\
  (forall n i limit, 0 <= i -> limit <= EXC_INFO_LEN -> exc_print_loop n i limit <> Pan PANIC_EXC_INDEX) /\
  (forall e s, blen (exc_info e s) = EXC_INFO_LEN).
Proof.
  split; [exact layout_pinned|]. split; [exact ctx_rows_ok|]. split; [reflexivity|]. split.
  - intros n i limit _ Hl. exact (proj1 (exc_print_loop_rsat n i limit Hl) _).
  - exact exc_info_len.
Qed.
Print Assumptions c01_layout_pinned.

(* ---- every index site of minidump/src and minidump-common/src whose index is an integer literal (scanned from the
   source on every run: Gen.C01Sites.const_index_sites) is below the length of the array it indexes; the lengths are those of
   the struct definitions of format.rs (Gen/Layouts.v): exception_information[k], data4[k], the register arrays of the
   CONTEXT_* structs *)
(* "constant" includes the discriminants of the fieldless *RegisterNumbers enums of format.rs used as indices
   (`self.iregs[md::MipsRegisterNumbers::StackPointer as usize]`, `raw.iregs[*reg as usize]` over a const list of such) and literal range
   bounds (`raw.iregs[..29]`, `uuid[8..]`); and a group of C01/Sites.v is classified Covered by this theorem only if ALL its index sites
   are constant (Gen.C01Sites.index_group_counts) *)
Theorem c01_const_indices_in_bounds : forallb const_index_ok const_index_sites = true /\ forallb const_index_row_ok site_table = true.
Proof. exact (conj const_indices_in_bounds covered_index_groups_constant). Qed.
Print Assumptions c01_const_indices_in_bounds.

(* ---- every trap / loop / allocation / guard site of minidump/src and minidump-common/src found by
   translate/c01_sites.py (Gen/C01Sites.v, regenerated from the source on every run) is a row of the reviewed table
   C01/Sites.v with the same count and digest, and every row is classified: covered by one of the theorems of this file
   (c01_cover_index below builds the tuple of exactly those proofs), safe for a stated reason, or searched by a named harness step *)
Theorem c01_sites_pinned : scanned_groups = pins site_table.
Proof. exact sites_pinned. Qed.
Print Assumptions c01_sites_pinned.
Theorem c01_sites_classified : forallb row_ok site_table = true.
Proof. exact sites_classified. Qed.
Print Assumptions c01_sites_classified.
(* the theorems a row of C01/Sites.v may name (SitesCheck.theorem_names), as one term: a name that does not exist fails here *)
Definition c01_cover_index :=
  (c01_no_panic, c01_terminates, c01_alloc_backed, c01_stream_list_total, c01_ex_stream_list_total, c01_memory64_total,
   c01_handle_data_total, c01_location_slice_sound, c01_ensure_count_in_bound_sound, c01_strings_total, c01_utf16_in_bounds,
   c01_header_total, c01_exception_print_total, c01_xstate_iter_total, c01_misc_info_total, c01_thread_contexts_print_total,
   c01_memory_read_in_bounds, c01_linux_kv_bounded, c01_crashpad_info_total, c01_mac_crash_info_total, c01_fixed_streams_total,
   c01_print_sites_total, c01_crash_queries_total, c01_memory_range_sound, c01_last_error_in_bounds, c01_crash_address_total,
   c01_elf_debug_id_reads, c01_address_lookup_total, c01_get_thread_index_total, c01_lookups_total, c01_layout_pinned, c01_unloaded_lookup_in_range, c01_const_indices_in_bounds, c01_stack_source_total, c01_stack_fallback_sound,
   c01_thread_print_words_total, c01_thread_stack_words_total, c01_cpu_tables_pinned, c01_lookup_table_alloc_backed).

(* ---- the code before the fix commits: each statement is false, with a concrete file
   (corpus/C01/cases.txt replays the same bytes on the real code) *)
(* F-C01a (object-info type 0x7777), F-C01c (number_parameters = 16), F-C01e (PPC context printed) *)
Theorem c01_no_panic_unfixed_refuted :
  (exists file, wf_bytes file /\ In (10, FPan PANIC_OBJINFO_UNWRAP) (o_fields (run_case Unfixed Debug file))) /\
  (exists file, wf_bytes file /\ In (12, FPan PANIC_EXC_INDEX) (o_fields (run_case Unfixed Debug file))) /\
  (exists file, wf_bytes file /\ In (13, FPan PANIC_CTX_UNIMPL) (o_fields (run_case Unfixed Debug file))).
Proof. exact (conj (ex_intro _ wit_a wit_a_panics) (conj (ex_intro _ wit_c wit_c_panics) (ex_intro _ wit_e_ppc wit_e_panics))). Qed.
Print Assumptions c01_no_panic_unfixed_refuted.

(* F-C01b: a self-referential next_info_rva; the model's fuel runs out, and no fuel is enough *)
Theorem c01_terminates_unfixed_refuted :
  (exists file, wf_bytes file /\ In (10, FNoFuel) (o_fields (run_case Unfixed Debug file))) /\
  (exists file rva, forall fuel, info_chain Unfixed fuel LE file rva 0 = NoFuel).
Proof. exact (conj (ex_intro _ wit_b wit_b_no_fuel) (ex_intro _ wit_b (ex_intro _ 44 (fun fuel => wit_b_diverges fuel 0)))). Qed.
Print Assumptions c01_terminates_unfixed_refuted.

(* F-C01d: a 60-byte file whose handle stream makes the reader ask for 2^32-1 descriptors *)
Theorem c01_alloc_backed_unfixed_refuted :
  exists file, wf_bytes file /\ blen file = 60 /\ In (4294967295 * MSZ_HANDLE) (o_ledger (run_case Unfixed Debug file)).
Proof. exact (ex_intro _ wit_d wit_d_allocates). Qed.
Print Assumptions c01_alloc_backed_unfixed_refuted.

(* ---- non-vacuity: a well-formed dump satisfies the hypotheses and produces real work *)
Example c01_nonvacuous_hyp : wf_bytes nv_dump /\ blen nv_dump < T62.
Proof. split; [apply wf_bytes_dec; vm_compute; reflexivity | vm_compute; reflexivity]. Qed.
Example c01_nonvacuous_run :
  o_fields (run_case Fixed Debug nv_dump) =
    [(0, FOk [5]); (1, FOk [9]); (2, FOk [2; 0; 0]); (3, FOk [1]); (4, FErr EStreamNotFound); (5, FErr EStreamNotFound);
     (6, FErr EStreamNotFound); (7, FErr EStreamNotFound); (8, FErr EStreamNotFound); (9, FErr EStreamNotFound);
     (10, FOk [1; 2]); (11, FOk [15; 0]); (12, FOk []); (13, FOk []); (14, FOk []); (15, FErr EStreamNotFound);
     (16, FErr EStreamNotFound); (17, FErr EStreamNotFound); (18, FErr EStreamNotFound); (19, FErr EStreamNotFound);
     (20, FErr EStreamNotFound); (21, FErr EStreamNotFound); (22, FErr EStreamNotFound); (23, FOk [0; 1]);
     (24, FErr EStreamNotFound); (25, FErr EStreamNotFound); (26, FErr EStreamNotFound); (27, FErr EStreamNotFound);
     (28, FErr EStreamNotFound)] /\
  o_ledger (run_case Fixed Debug nv_dump) = [96; 256; 112; 248; 120].
Proof. vm_compute. split; reflexivity. Qed.
(* the xstate iterator on a mask with bits 0, 1, 39 and 63 set; quoted/padded key-value text *)
Example c01_nonvacuous_xstate : xstate_iter Debug 9223372586610589699 = Ok [0; 1; 39; 63].
Proof. vm_compute. reflexivity. Qed.
Example c01_nonvacuous_kv :
  linux_kv 61 [68; 61; 34; 88; 34; 10; 32; 97; 32; 61; 32; 98; 9; 10; 110; 111; 10] = [([68], [88]); ([97], [98])].
Proof. vm_compute. reflexivity. Qed.
Example c01_nonvacuous_fixed_witnesses :
  In (10, FOk [1; 0]) (o_fields (run_case Fixed Debug wit_a)) /\
  In (10, FOk [1; 9]) (o_fields (run_case Fixed Debug wit_b)) /\
  In (12, FOk []) (o_fields (run_case Fixed Debug wit_c)) /\
  In (10, FErr EStreamReadFailure) (o_fields (run_case Fixed Debug wit_d)) /\ o_ledger (run_case Fixed Debug wit_d) = [] /\
  In (11, FOk [0; 3]) (o_fields (run_case Fixed Debug wit_e_ppc)) /\ In (13, FOk []) (o_fields (run_case Fixed Debug wit_e_ppc)).
Proof.
  (* each field by its position, so that only the reader behind it is evaluated *)
  split; [apply (nth_error_In _ 10); lazy; reflexivity|].
  split; [apply (nth_error_In _ 10); lazy; reflexivity|].
  split; [apply (nth_error_In _ 12); lazy; reflexivity|].
  split; [apply (nth_error_In _ 10); lazy; reflexivity|].
  split; [lazy; reflexivity|].
  split; [apply (nth_error_In _ 11) | apply (nth_error_In _ 13)]; lazy; reflexivity.
Qed.

Example c01_nonvacuous_queries :
  memory_range Debug 18446744073709551599 16 = Ok (Some (18446744073709551599, 18446744073709551614)) /\
  memory_range Debug 18446744073709551600 16 = Ok None /\ memory_range Debug 5 0 = Ok None /\
  chk_sub Debug 64 PANIC_RANGE_SUB 0 1 = Panic PANIC_RANGE_SUB /\
  last_error_addr 18446744073709551564 4 = None /\ last_error_addr 18446744073709551563 4 = Some 18446744073709551615 /\
  crash_address true true EXC_ACCESS_VIOLATION 2 4198400 [0; 18446744073709551615; 0; 0; 0; 0; 0; 0; 0; 0; 0; 0; 0; 0; 0] = Ok 4294967295 /\
  run_queries Debug nv_dump = [(29, FErr EStreamNotFound); (30, FErr EStreamNotFound); (31, FOk [16; 16; 4198400; 4198400]); (32, FOk [1; 1; 1; 1])] /\
  (length site_table > 300)%nat /\ (count_cls is_covered > 80)%nat.
Proof. vm_compute. repeat split; try reflexivity; apply Nat.leb_le; reflexivity. Qed.
(* a table from overlapping / empty / top-of-address-space ranges: the second range overlaps the first with another
   value and is dropped, the None is skipped; lookups answer positions of the list *)
Example c01_nonvacuous_lookups :
  let ranges := [Some (10, 19); None; Some (15, 30); Some (18446744073709551600, 18446744073709551615)] in
  Forall wf_orange ranges /\
  table_of ranges = Ok [((10, 19), 0); ((18446744073709551600, 18446744073709551615), 3)] /\
  index_at (the_table ranges) 4 12 = Ok 0 /\ index_at (the_table ranges) 4 25 = Ok (-1) /\
  index_at (the_table ranges) 4 18446744073709551615 = Ok 3 /\
  index_at [((10, 19), 7)] 4 12 = Pan PANIC_LOOKUP_INDEX /\
  lookups Debug [(4096, 256); (4200, 100); (0, 0); (18446744073709551599, 16)] =
    Ok [2; 0; 0; -1; -1; 0; 0; 0; 0; 0; 0; 0; 0; -1; -1; -1; -1; -1; 3; 3; 3; -1; -1; 3; 3] /\
  run_lookups Debug nv_dump = [(33, FErr EStreamNotFound); (34, FOk [1; 0; 0; -1; -1; 0; 0]); (35, FErr EStreamNotFound);
                               (36, FErr EStreamNotFound); (37, FOk [0; 1])] /\
  get_thread_index LE [[1; 0; 0; 0]; [2; 0; 0; 0]; [1; 0; 0; 0]] 1 = Ok 2 /\
  (length size_pins = 35 /\ length field_pins = 76 /\ length length_pins = 5)%nat /\ first_bad = [] /\
  Nat.ltb 250 const_index_site_count = true /\ bad_const_index_rejected = true.
Proof.
  cbv zeta. split.
  - repeat constructor; cbn; unfold C08.Proofs.wf_range, two64; cbn; repeat split; try discriminate; reflexivity.
  - vm_compute. repeat split; reflexivity.
Qed.

(* a MIPS dump (CONTEXT_MIPS has 64-bit registers, the CPU 32-bit pointers): thread 7 owns a 23-byte stack
   (five 4-byte words, the last three bytes are dropped), thread 8 has no stack of its own and finds the 16-byte region of the memory
   list that contains its start_of_memory_range (four words); with an architecture the reader does not know the words are 8 bytes *)
Definition nv_mips_dump : bytes := [77; 68; 77; 80; 147; 167; 0; 0; 3; 0; 0; 0; 32; 0; 0; 0; 0; 0; 0; 0; 0; 0; 0; 80; 0; 0; 0; 0; 0; 0; 0; 0; 7; 0; 0; 0; 56; 0; 0; 0; 108; 0; 0; 0; 3; 0; 0; 0; 100; 0; 0; 0; 164; 0; 0; 0; 5; 0; 0; 0; 20; 0; 0; 0; 8; 1; 0; 0; 0; 1; 2; 3; 4; 5; 6; 7; 8; 9; 10; 11; 12; 13; 14; 15; 16; 17; 18; 19; 20; 21; 22; 0; 0; 1; 2; 3; 4; 5; 6; 7; 8; 9; 10; 11; 12; 13; 14; 15; 1; 0; 6; 0; 2; 15; 4; 1; 10; 0; 0; 0; 0; 0; 0; 0; 97; 74; 0; 0; 2; 0; 0; 0; 0; 0; 0; 0; 0; 0; 0; 0; 71; 101; 110; 117; 105; 110; 101; 73; 110; 116; 101; 108; 195; 6; 3; 0; 255; 251; 235; 191; 0; 0; 0; 0; 2; 0; 0; 0; 7; 0; 0; 0; 0; 0; 0; 0; 0; 0; 0; 0; 0; 0; 0; 0; 0; 0; 0; 0; 0; 0; 0; 0; 0; 112; 0; 0; 0; 0; 0; 0; 23; 0; 0; 0; 68; 0; 0; 0; 0; 0; 0; 0; 0; 0; 0; 0; 8; 0; 0; 0; 0; 0; 0; 0; 0; 0; 0; 0; 0; 0; 0; 0; 0; 0; 0; 0; 0; 0; 0; 0; 4; 144; 0; 0; 0; 0; 0; 0; 0; 0; 0; 0; 0; 0; 0; 0; 0; 0; 0; 0; 0; 0; 0; 0; 1; 0; 0; 0; 0; 144; 0; 0; 0; 0; 0; 0; 16; 0; 0; 0; 92; 0; 0; 0].
Example c01_nonvacuous_stack_words :
  wf_bytes nv_mips_dump /\ blen nv_mips_dump < T62 /\
  run_stacks Debug nv_mips_dump = [(38, FOk [1; -2; 0]); (39, FErr EStreamNotFound)] /\
  run_prints Debug nv_mips_dump = [(40, FOk [16 * 5 + 4; 16 * 4 + 4])] /\
  table_ledger Debug nv_mips_dump = [24] /\
  stack_words Debug 100 (print_width (Some 1)) 23 0 0 = Ok 5 /\
  print_width (Some 32769) = Bits32 /\ print_width (Some 32772) = Bits64 /\ print_width (Some 12345) = BitsUnknown /\
  thread_words Debug nv_mips_dump (print_width (Some 12345)) (Some 23) = Ok (16 * 2 + 8) /\
  stack_len LE [(4096, 16)] [] 1 = Pan PANIC_LOOKUP_INDEX /\
  (* the constant-index table: 23 groups rest on it, 444 sites; a group with a variable index is not "fully constant" *)
  Nat.ltb 20 const_index_rows = true /\ Nat.ltb 420 const_index_site_count = true /\
  nv_mips_group_constant = true /\ nv_exc_print_group_constant = false /\ nv_arm_index_16_rejected = true.
Proof.
  split; [apply wf_bytes_dec; vm_compute; reflexivity|].
  vm_compute. repeat split; reflexivity.
Qed.
