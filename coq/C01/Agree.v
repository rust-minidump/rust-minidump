(* C01/Agree.v — the Debug and Release profiles of the model coincide unless Debug panics.
   Justifies running the extracted model in one profile only. *)
From RM Require Import C01.Model C01.Driver.
Open Scope Z_scope.

Definition ragree {A} (d r : res A) : Prop := d = r \/ exists t, d = Pan t.
Definition magree {A} (d r : M A) : Prop := d = r \/ exists t, snd d = Pan t.

Lemma ragree_refl : forall A (x : res A), ragree x x. Proof. left; reflexivity. Qed.
Lemma ragree_pan : forall A t (r : res A), ragree (Pan t) r. Proof. right; eexists; reflexivity. Qed.
Lemma magree_refl : forall A (x : M A), magree x x. Proof. left; reflexivity. Qed.

(* the only place where the profiles differ by themselves *)
Lemma chk_agree : forall w tag x, ragree (of_chk (chk Debug w tag x)) (of_chk (chk Release w tag x)).
Proof.
  intros. unfold chk. destruct ((0 <=? x) && (x <? 2 ^ w))%bool; [left; reflexivity|].
  right. exists tag. reflexivity.
Qed.

(* agreement is a congruence for the two binds *)
Lemma rbind_agree : forall A B (d r : res A) (f g : A -> res B),
  ragree d r -> (forall a, ragree (f a) (g a)) -> ragree (rbind d f) (rbind r g).
Proof.
  intros A B d r f g [->|[t ->]] H.
  - destruct r as [a|e|t|]; cbn [rbind]; try (left; reflexivity). apply H.
  - right. exists t. reflexivity.
Qed.
Lemma lift_agree : forall A (d r : res A), ragree d r -> magree (lift d) (lift r).
Proof. intros A d r [->|[t ->]]; [left; reflexivity | right; exists t; reflexivity]. Qed.
Lemma bind_agree : forall A B (d r : M A) (f g : A -> M B),
  magree d r -> (forall a, magree (f a) (g a)) -> magree (bind d f) (bind r g).
Proof.
  intros A B d r f g [->|[t Ht]] H.
  - destruct r as [l [a|e|t|]]; cbn [bind]; try (left; reflexivity).
    destruct (H a) as [->|[t Ht]]; [left; reflexivity|].
    right. exists t. destruct (f a) as [l2 r2]. cbn [snd] in *. exact Ht.
  - right. exists t. destruct d as [l rd]. cbn [snd] in Ht. subst rd. reflexivity.
Qed.

(* The two sides of every goal below are one program run in the two profiles.  [agree] descends through
   what they share — binds, lifts, and case distinctions on a value that does not depend on the profile —
   and closes what is left with the agreement lemmas proved so far (hint database [agree]). *)
Create HintDb agree.
#[export] Hint Resolve ragree_refl ragree_pan magree_refl chk_agree : agree.
Ltac agree :=
  repeat match goal with
  | |- ragree ?x ?x => apply ragree_refl
  | |- magree ?x ?x => apply magree_refl
  | |- ragree (rbind _ _) (rbind _ _) => apply rbind_agree; [|intros ?]
  | |- magree (bind _ _) (bind _ _) => apply bind_agree; [|intros ?]
  | |- magree (lift _) (lift _) => apply lift_agree
  | |- ragree (match ?c with _ => _ end) (match ?c with _ => _ end) => destruct c
  | |- magree (match ?c with _ => _ end) (match ?c with _ => _ end) => destruct c
  end; auto with agree.

Lemma for_entries_agree : forall A (f g : Z -> M A) esz, (forall off, magree (f off) (g off)) ->
  forall fuel off count, magree (for_entries fuel f off esz count) (for_entries fuel g off esz count).
Proof. intros A f g esz H. induction fuel as [|fuel IH]; intros off count; cbn [for_entries]; agree. Qed.

Lemma utf16_agree : forall e b off, ragree (read_string_utf16 Debug e b off) (read_string_utf16 Release e b off).
Proof. intros. unfold read_string_utf16, chk_add. agree. Qed.
Lemma cstring_agree : forall b off, ragree (read_cstring_utf8 Debug b off) (read_cstring_utf8 Release b off).
Proof. intros. unfold read_cstring_utf8, chk_sub. agree. Qed.
Lemma stream_list_agree : forall e b fsz msz, magree (read_stream_list Debug e b fsz msz) (read_stream_list Release e b fsz msz).
Proof. intros. unfold read_stream_list, chk_sub. agree. Qed.
Lemma ex_stream_list_agree : forall e w b fsz msz, magree (read_ex_stream_list Debug e w b fsz msz) (read_ex_stream_list Release e w b fsz msz).
Proof. intros. unfold read_ex_stream_list, chk_add. agree. Qed.
#[export] Hint Resolve for_entries_agree utf16_agree cstring_agree stream_list_agree ex_stream_list_agree : agree.

(* ---- the readers of run_case that take a profile (read_memory64_list ignores it) *)
Lemma read_thread_list_agree : forall e b, magree (read_thread_list Debug e b) (read_thread_list Release e b).
Proof. intros. unfold read_thread_list. agree. Qed.
Lemma read_memory_list_agree : forall e all b, magree (read_memory_list Debug e all b) (read_memory_list Release e all b).
Proof. intros. unfold read_memory_list. agree. Qed.
Lemma read_memory_info_list_agree : forall e b, magree (read_memory_info_list Debug e b) (read_memory_info_list Release e b).
Proof. intros. unfold read_memory_info_list. agree. Qed.
Lemma read_thread_info_list_agree : forall e b, magree (read_thread_info_list Debug e b) (read_thread_info_list Release e b).
Proof. intros. unfold read_thread_info_list. agree. Qed.

Lemma thread_names_agree : forall e all raws ids, ragree (thread_names Debug e all raws ids) (thread_names Release e all raws ids).
Proof. intros e all. induction raws as [|d t IH]; intros ids; cbn [thread_names]; agree. Qed.
Lemma modules_agree : forall e all raws, ragree (modules Debug e all raws) (modules Release e all raws).
Proof. intros e all. induction raws as [|d t IH]; cbn [modules]; agree. Qed.
Lemma unloaded_agree : forall e all raws, ragree (unloaded_modules Debug e all raws) (unloaded_modules Release e all raws).
Proof. intros e all. induction raws as [|d t IH]; cbn [unloaded_modules]; agree. Qed.
#[export] Hint Resolve thread_names_agree modules_agree unloaded_agree : agree.
Lemma read_thread_names_agree : forall e all b, magree (read_thread_names Debug e all b) (read_thread_names Release e all b).
Proof. intros. unfold read_thread_names. agree. Qed.
Lemma read_module_list_agree : forall e all b, magree (read_module_list Debug e all b) (read_module_list Release e all b).
Proof. intros. unfold read_module_list. agree. Qed.
Lemma read_unloaded_module_list_agree : forall e all b,
  magree (read_unloaded_module_list Debug e all b) (read_unloaded_module_list Release e all b).
Proof. intros. unfold read_unloaded_module_list. agree. Qed.

Lemma read_descriptor_agree : forall v e all b fs off,
  magree (read_descriptor v Debug e all b fs off) (read_descriptor v Release e all b fs off).
Proof. intros. unfold read_descriptor, handle_string. agree. Qed.
#[export] Hint Resolve read_descriptor_agree : agree.
Lemma read_handle_data_agree : forall v e all b, magree (read_handle_data v Debug e all b) (read_handle_data v Release e all b).
Proof. intros. unfold read_handle_data. agree. Qed.

Lemma xstate_loop_agree : forall enabled fuel idx, ragree (xstate_loop Debug fuel idx enabled) (xstate_loop Release fuel idx enabled).
Proof. intros enabled. induction fuel as [|fuel IH]; intros idx; cbn [xstate_loop]; agree. Qed.
#[export] Hint Resolve xstate_loop_agree : agree.
Lemma misc_result_agree : forall ms, ragree (misc_result Debug ms) (misc_result Release ms).
Proof. intros. unfold misc_result, xstate_iter. agree. Qed.

Lemma sysinfo_strings_agree : forall e all b, ragree (sysinfo_strings Debug e all b) (sysinfo_strings Release e all b).
Proof. intros. unfold sysinfo_strings. agree. Qed.
Lemma read_mac_bootargs_agree : forall e all b, ragree (read_mac_bootargs Debug e all b) (read_mac_bootargs Release e all b).
Proof. intros. unfold read_mac_bootargs. agree. Qed.

Lemma mac_strings_agree : forall b num n i off, ragree (mac_strings Debug n i num b off) (mac_strings Release n i num b off).
Proof. intros b num. induction n as [|n IH]; intros i off; cbn [mac_strings]; unfold mac_cstring; agree. Qed.
#[export] Hint Resolve mac_strings_agree : agree.
Lemma mac_records_agree : forall e all so locs prev acc,
  ragree (mac_records Debug e all so locs prev acc) (mac_records Release e all so locs prev acc).
Proof. intros e all so. induction locs as [|[size rva] t IH]; intros prev acc; cbn [mac_records]; agree. Qed.
#[export] Hint Resolve mac_records_agree : agree.
Lemma read_mac_crash_info_agree : forall e all b, ragree (read_mac_crash_info Debug e all b) (read_mac_crash_info Release e all b).
Proof. intros. unfold read_mac_crash_info. agree. Qed.

(* agreement, and the Debug result shown in a field that is not a panic: equality *)
Lemma ragree_field : forall A (enc : A -> list Z) (d r : res A),
  ragree d r -> (forall t, fld enc d <> FPan t) -> r = d.
Proof. intros A enc d r [->|[t ->]] H; [reflexivity | destruct (H t); reflexivity]. Qed.
Lemma stream_agree_field : forall A (enc : A -> list Z) all ds ty (f g : bytes -> M A),
  (forall s, magree (f s) (g s)) -> (forall t, fld enc (snd (get_stream all ds ty f)) <> FPan t) ->
  get_stream all ds ty g = get_stream all ds ty f.
Proof.
  intros A enc all ds ty f g Hfg H.
  assert (G : magree (get_stream all ds ty f) (get_stream all ds ty g)) by (unfold get_stream; agree).
  destruct G as [->|[t Ht]]; [reflexivity|]. destruct (H t). rewrite Ht. reflexivity.
Qed.

(* On inputs where the Debug model does not panic, the Release model gives the same answer. *)
Theorem profiles_agree : forall v file,
  (forall tag f t, In (tag, f) (o_fields (run_case v Debug file)) -> f <> FPan t) ->
  run_case v Release file = run_case v Debug file.
Proof.
  intros v file H. unfold run_case in *. destruct (read_header file) as [[e ds]|er|t|]; [|reflexivity..].
  cbn [o_fields] in H.
  unfold s_tl, s_ml, s_um, s_mem, s_m64, s_mi, s_ti, s_tn, s_hd, s_sis, s_mb, s_mc, f_ms in *.
  (* the hypothesis, with the fields addressed by position *)
  assert (N : forall n tag f, nth_error _ n = Some (tag, f) -> forall t, f <> FPan t)
    by (intros n tag f E t; exact (H tag f t (nth_error_In _ n E))).
  clear H.
  (* each reader agrees, and the field that shows its result is not a panic *)
  rewrite (stream_agree_field _ _ file ds ST_THREAD_LIST _ _ (read_thread_list_agree e) (N 2%nat _ _ eq_refl)).
  rewrite (stream_agree_field _ _ file ds ST_MODULE_LIST _ _ (read_module_list_agree e file) (N 3%nat _ _ eq_refl)).
  rewrite (stream_agree_field _ _ file ds ST_UNLOADED _ _ (read_unloaded_module_list_agree e file) (N 4%nat _ _ eq_refl)).
  rewrite (stream_agree_field _ _ file ds ST_MEMORY_LIST _ _ (read_memory_list_agree e file) (N 5%nat _ _ eq_refl)).
  rewrite (stream_agree_field _ _ file ds ST_MEMORY_INFO _ _ (read_memory_info_list_agree e) (N 7%nat _ _ eq_refl)).
  rewrite (stream_agree_field _ _ file ds ST_THREAD_INFO _ _ (read_thread_info_list_agree e) (N 8%nat _ _ eq_refl)).
  rewrite (stream_agree_field _ _ file ds ST_THREAD_NAMES _ _ (read_thread_names_agree e file) (N 9%nat _ _ eq_refl)).
  rewrite (stream_agree_field _ _ file ds ST_HANDLE_DATA _ _ (read_handle_data_agree v e file) (N 10%nat _ _ eq_refl)).
  rewrite (ragree_field _ _ _ _ (misc_result_agree _) (N 15%nat _ _ eq_refl)).
  rewrite (stream_agree_field _ _ file ds ST_SYSTEM_INFO _ _
             (fun s => lift_agree _ _ _ (sysinfo_strings_agree e file s)) (N 23%nat _ _ eq_refl)).
  rewrite (stream_agree_field _ _ file ds ST_MAC_BOOT _ _
             (fun s => lift_agree _ _ _ (read_mac_bootargs_agree e file s)) (N 26%nat _ _ eq_refl)).
  rewrite (stream_agree_field _ _ file ds ST_MAC_CRASH _ _
             (fun s => lift_agree _ _ _ (read_mac_crash_info_agree e file s)) (N 28%nat _ _ eq_refl)).
  (* what is left differs in the profile handed to read_memory64_list, which ignores it *)
  reflexivity.
Qed.
