(* C07/Proofs26.v — the CAUSE of the known finding F-C07a, as two theorems about the same model.
   (1) The names the source passes to clear_caller_register (compiled: g_clear_names = "$eip" .. "$edi") are not register
       names of the x86 walker, so clearing them changes nothing.
   (2) Counterfactual: had the bare names been passed (the reverted fix 311264d), the very same evaluation would leave
       valid exactly the outputs the program defined — the wrongly forwarded set W of Proofs22 would be empty for every
       callee validity set. *)
From Coq Require Import Lia Bool.
From RM Require Import Base.Word C06.Model C06.Proofs C07.Model C07.Proofs C07.Proofs2 C07.Proofs16 C07.Proofs22 Gen.C07WinEval.
Import ListNotations.
Open Scope Z_scope.

Lemma clear_source_names_noop : forall s, clear_all (real_ops x86) g_clear_names s = s.
Proof. intro s. reflexivity. Qed.

(* clearing bare register names on the real walker: exactly those become invalid, values untouched *)
Lemma clear_all_valid : forall names s x,
  (forall n, In n names -> memoize x86 n = Some n) ->
  r_valid (clear_all (real_ops x86) names s) x = r_valid s x && negb (mem_b x names) /\
  r_ctx (clear_all (real_ops x86) names s) x = r_ctx s x.
Proof.
  induction names as [|n r IH]; intros s x Hm.
  - cbn [clear_all mem_b negb]. rewrite andb_true_r. split; reflexivity.
  - cbn [clear_all].
    assert (Hc : o_clear (real_ops x86) s n = mkR (r_ctx s) (updb (r_valid s) n false)).
    { unfold real_ops. cbn [o_clear]. rewrite (Hm n (or_introl eq_refl)). reflexivity. }
    rewrite Hc.
    destruct (IH (mkR (r_ctx s) (updb (r_valid s) n false)) x (fun k Hk => Hm k (or_intror Hk))) as [V C].
    rewrite V, C. cbn [r_valid r_ctx mem_b]. unfold updb. split; [|reflexivity].
    destruct (beq x n); cbn [orb negb andb]; [rewrite andb_false_r; reflexivity|reflexivity].
Qed.

Lemma clear_six_valid : forall s x,
  r_valid (clear_all (real_ops x86) six s) x = r_valid s x && negb (mem_b x six) /\
  r_ctx (clear_all (real_ops x86) six s) x = r_ctx s x.
Proof. intros s x. apply clear_all_valid. exact six_memoize. Qed.

(* walk_with_stack_win_framedata with the bare names cleared (what 311264d did) *)
Definition walk_win_framedata_bare {S} (ops : wops S) (p : profile) (E : env) (i : win_info) (e : bytes) (s : S)
  : outcome (S * bool) :=
  let s0 := clear_all ops six s in
  do fv <- win_final_vars p E i e;
  match fv with
  | None => Ret (s0, false)
  | Some m => Ret (set_outputs ops win_outputs m s0)
  end.

Theorem bare_names_no_forwarding : forall p E i e ctx valid s' m,
  walk_win_framedata_bare (real_ops x86) p E i e (real_init x86 ctx valid) = Ret (s', true) ->
  win_final_vars p E i e = Ret (Some m) ->
  forall n, r_valid s' n = fd_sets m n /\
            r_ctx s' n = (if mem_b n six then match vget (dollar n) m with Some v => v | None => r_ctx (real_init x86 ctx valid) n end
                          else r_ctx (real_init x86 ctx valid) n).
Proof.
  intros p E i e ctx valid s' m H Hm n. unfold walk_win_framedata_bare in H. rewrite Hm in H. cbn [obind] in H.
  set (s0 := clear_all (real_ops x86) six (real_init x86 ctx valid)) in *.
  assert (H1 : set_outputs (real_ops x86) win_outputs m s0 = (s', true)) by congruence.
  rewrite outputs_dollar in H1.
  destruct (set_outputs_exact six m s0 s' six_nodup six_memoize H1 n) as [V C].
  destruct (clear_six_valid (real_init x86 ctx valid) n) as [V0 C0]. fold s0 in V0, C0.
  split.
  - rewrite V, V0, real_init_valid. unfold fd_sets.
    destruct (mem_b n six) eqn:M6; cbn [negb andb].
    + rewrite andb_false_r, orb_false_r. reflexivity.
    + assert (Ms : mem_b n (a_saved x86) = false).
      { destruct (mem_b n (a_saved x86)) eqn:Q; [|reflexivity]. apply mem_b_In in Q. apply saved_mem_six in Q. congruence. }
      rewrite Ms. reflexivity.
  - rewrite C, C0. reflexivity.
Qed.

(* the same evaluation, the two clear lists side by side: they differ exactly by W *)
Corollary forwarding_is_the_clear_names : forall p E i e ctx valid s1 s2 m,
  walk_win_framedata (real_ops x86) p E i e (real_init x86 ctx valid) = Ret (s1, true) ->
  walk_win_framedata_bare (real_ops x86) p E i e (real_init x86 ctx valid) = Ret (s2, true) ->
  win_final_vars p E i e = Ret (Some m) ->
  forall n, r_valid s1 n = r_valid s2 n || mem_b n (wrongly_forwarded valid (fd_sets m)) /\ r_ctx s1 n = r_ctx s2 n.
Proof.
  intros p E i e ctx valid s1 s2 m H1 H2 Hm n.
  destruct (forwarded_exact_framedata p E i e ctx valid s1 m H1 Hm) as [A _].
  destruct (bare_names_no_forwarding p E i e ctx valid s2 m H2 Hm n) as [B C].
  destruct (real_framedata_exact p E i e ctx valid s1 m H1 Hm n) as [_ C1].
  split; [rewrite A, B; reflexivity|rewrite C1, C; reflexivity].
Qed.
