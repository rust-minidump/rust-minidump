(* C07/Proofs27.v — c07_table_ascending's lookup as a selection RULE (the one the oracle's
   independent `select_ascending` implements): in an address-sorted list the record answering x is the LAST one starting
   at or before x, provided it reaches x as written; it is returned cut to end before the next record's start. *)
From Coq Require Import Lia Bool.
From RM Require Import Base.Word C06.Model C06.Proofs C07.Model C07.Proofs C07.Proofs24.
From RM Require C08.Model C08.Proofs.
Import ListNotations.
Open Scope Z_scope.

Fixpoint sel_asc (l : list win_info) (x : Z) : option win_info :=
  match l with
  | [] => None
  | r :: t =>
      match t with
      | r' :: _ =>
          if w_addr r' <=? x then sel_asc t x
          else if (w_addr r <=? x) && (x <? w_addr r + w_size r)
               then Some (set_size r (Z.min (w_size r) (w_addr r' - w_addr r))) else None
      | [] => if (w_addr r <=? x) && (x <? w_addr r + w_size r) then Some r else None
      end
  end.

Lemma leb_pred : forall x y, (x <=? y - 1) = (x <? y).
Proof. intros. destruct (x <? y) eqn:A; [apply Z.leb_le; apply Z.ltb_lt in A|apply Z.leb_gt; apply Z.ltb_ge in A]; lia. Qed.

Lemma spec_lookup_cons : forall c rest x,
  table_spec_lookup (c :: rest) x =
  match win_range c with
  | Some rg => if C08.Model.contains rg x then Some c else table_spec_lookup rest x
  | None => table_spec_lookup rest x
  end.
Proof.
  intros c rest x. unfold table_spec_lookup. rewrite keep_cons.
  destruct (win_range c) as [rg|]; [|reflexivity]. cbn [app filter fst].
  destruct (C08.Model.contains rg x); reflexivity.
Qed.

Lemma spec_lookup_none : forall l x,
  (forall e, In e (keep l) -> C08.Model.contains (fst e) x = false) -> table_spec_lookup l x = None.
Proof.
  intros l x H. unfold table_spec_lookup.
  assert (E : filter (fun e => C08.Model.contains (fst e) x) (keep l) = []).
  { induction (keep l) as [|e t IH]; [reflexivity|]. cbn [filter]. rewrite (H e (or_introl eq_refl)).
    apply IH. intros e' He'. apply H. right. exact He'. }
  rewrite E. reflexivity.
Qed.

Theorem ascending_rule : forall l x,
  Forall has_range l -> ascending l -> table_spec_lookup (clip_list l) x = sel_asc l x.
Proof.
  induction l as [|r t IH]; intros x Hl Ha; [reflexivity|].
  inversion Hl as [|? ? Hr Ht]; subst. destruct t as [|r' t'].
  - cbn [clip_list sel_asc]. rewrite spec_lookup_cons, (has_range_range r Hr).
    change (table_spec_lookup [] x) with (@None win_info).
    unfold C08.Model.contains, rng_of. cbn [fst snd].
    rewrite leb_pred. reflexivity.
  - destruct Ha as [Hlt Ha'].
    rewrite clip_list_cons2.
    change (sel_asc (r :: r' :: t') x) with
      (if w_addr r' <=? x then sel_asc (r' :: t') x
       else if (w_addr r <=? x) && (x <? w_addr r + w_size r)
            then Some (set_size r (Z.min (w_size r) (w_addr r' - w_addr r))) else None).
    pose proof (clip_head_range r r' Hr Hlt) as Hc.
    rewrite spec_lookup_cons, (has_range_range _ Hc).
    unfold C08.Model.contains, rng_of. cbn [fst snd set_size w_addr w_size].
    destruct (w_addr r' <=? x) eqn:Ex.
    + apply Z.leb_le in Ex.
      replace (x <=? w_addr r + Z.min (w_size r) (w_addr r' - w_addr r) - 1) with false by (symmetry; apply Z.leb_gt; lia).
      rewrite andb_false_r. apply IH; assumption.
    + apply Z.leb_gt in Ex.
      rewrite (spec_lookup_none (clip_list (r' :: t')) x).
      2:{ intros e He. pose proof (clip_starts t' r' e Ht Ha' He) as Hs.
          unfold C08.Model.contains. apply andb_false_iff. left. apply Z.leb_gt. lia. }
      rewrite leb_pred.
      replace (x <? w_addr r + Z.min (w_size r) (w_addr r' - w_addr r)) with (x <? w_addr r + w_size r); [reflexivity|].
      destruct (x <? w_addr r + w_size r) eqn:A; symmetry; [apply Z.ltb_lt; apply Z.ltb_lt in A|apply Z.ltb_ge; apply Z.ltb_ge in A]; lia.
Qed.
