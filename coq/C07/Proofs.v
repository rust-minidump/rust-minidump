(* C07/Proofs.v — STACK WIN: totality of evaluation and of the record table, the six outputs, the class and the witness
   of the known finding F-C07a. *)
From Coq Require Import String Lia.
From RM Require Import C06.Model C06.Proofs C07.Model.
From RM Require C08.Model C08.Proofs.
Import ListNotations.
Open Scope Z_scope.

Lemma consts7_ok :
  N_esp = bs "esp" /\ N_ebp = bs "ebp" /\ N_ebx = bs "ebx" /\ N_eip = bs "eip" /\ N_esi = bs "esi" /\ N_edi = bs "edi" /\
  D_esp = bs "$esp" /\ D_ebp = bs "$ebp" /\ D_ebx = bs "$ebx" /\ D_eip = bs "$eip" /\ D_esi = bs "$esi" /\ D_edi = bs "$edi" /\
  V_cbParams = bs ".cbParams" /\ V_cbCalleeParams = bs ".cbCalleeParams" /\ V_cbSavedRegs = bs ".cbSavedRegs" /\
  V_cbLocals = bs ".cbLocals" /\ V_raSearch = bs ".raSearch" /\ V_raSearchStart = bs ".raSearchStart" /\ T_eq = bs "=".
Proof. repeat split; reflexivity. Qed.

Lemma wbin_ok : forall m st f, (forall l r, ok (f l r)) -> ok (wbin m st f).
Proof.
  intros m st f Hf. unfold wbin. destruct st as [|r st1]; [exact I|].
  destruct (into_int m r); [|exact I]. destruct st1 as [|l st2]; [exact I|].
  destruct (into_int m l); [|exact I]. apply ok_bind; [apply Hf|]. intros; exact I.
Qed.

Lemma win_step_ok : forall p E t ms, ok (win_step p E t ms).
Proof.
  intros p E t [m st]. unfold win_step.
  destruct (beq t T_plus). { apply wbin_ok. intros; exact I. }
  destruct (beq t T_minus). { apply wbin_ok. intros; exact I. }
  destruct (beq t T_star). { apply wbin_ok. intros; exact I. }
  destruct (beq t T_slash). { apply wbin_ok. intros l r. destruct (r =? 0); exact I. }
  destruct (beq t T_pct). { apply wbin_ok. intros l r. destruct (r =? 0); exact I. }
  destruct (beq t T_at).
  { apply wbin_ok. intros l r. destruct (r =? 0) eqn:E0; cbn [orb]; [exact I|].
    destruct (is_pow2 r) eqn:Ep; cbn [negb]; [|exact I].
    apply is_pow2_pos in Ep. unfold chk_usub.
    replace (0 <=? r - 1) with true by (symmetry; apply Z.leb_le; lia). exact I. }
  destruct (beq t T_eq).
  { destruct st as [|rhs [|lhs st2]]; try exact I. destruct (into_var lhs); [|exact I].
    destruct rhs; try exact I; destruct (into_int m _); exact I. }
  destruct (beq t T_caret).
  { destruct st as [|x st1]; [exact I|]. destruct (into_int m x); [|exact I]. destruct (e_mem E z); exact I. }
  destruct (beq t T_undef). { exact I. }
  destruct (starts_var t). { exact I. }
  destruct (parse_int 64 t); exact I.
Qed.

Lemma win_loop_ok : forall p E toks ms, ok (win_loop p E toks ms).
Proof.
  induction toks as [|t r IH]; intro ms; cbn [win_loop]; [exact I|].
  apply ok_bind; [apply win_step_ok|]. intros; apply IH.
Qed.

Lemma win_final_vars_total : forall p E i e, exists r, win_final_vars p E i e = Ret r.
Proof.
  intros. unfold win_final_vars. destruct (win_initial_vars E i e) as [m|]; [|eexists; reflexivity].
  pose proof (win_loop_ok p E (win_tokens e) (m, [])) as H.
  destruct (win_loop p E (win_tokens e) (m, [])) as [[m' st]| | |]; cbn in H; try contradiction; eexists; reflexivity.
Qed.

Lemma framedata_total : forall S (ops : wops S) p E i e s,
  exists r, walk_win_framedata ops p E i e s = Ret r.
Proof.
  intros. unfold walk_win_framedata. destruct (win_final_vars_total p E i e) as [fv H]. rewrite H.
  cbn [obind]. destruct fv; eexists; reflexivity.
Qed.

(* ---- insert_win_stack_info: the unwrap cannot fail ---- *)
Definition win_wf (i : win_info) : Prop := 0 <= w_addr i < two64 /\ 0 <= w_size i < two32.
Definition acc_wf (acc : list (C08.Model.range * win_info)) : Prop :=
  Forall (fun e => win_range (snd e) = Some (fst e) /\ win_wf (snd e)) acc.

Lemma win_range_inv : forall i r, win_range i = Some r ->
  w_size i <> 0 /\ w_addr i + w_size i < 2 ^ 64 /\ r = (w_addr i, w_addr i + w_size i - 1).
Proof.
  intros i r H. unfold win_range, C08.Model.mk_range, checked_add in H.
  destruct (w_size i =? 0) eqn:E0; [discriminate|]. apply Z.eqb_neq in E0.
  destruct (w_addr i + w_size i <? 2 ^ 64) eqn:E1; [|discriminate]. apply Z.ltb_lt in E1.
  inversion H. auto.
Qed.

(* the overlap repair: a record that starts inside its predecessor cuts it to end just before itself; the difference of
   the addresses fits u32 and the cut record is again a record with a memory range *)
Lemma cut_ok : forall li lr i mr,
  win_range li = Some lr -> win_wf li -> win_range i = Some mr -> win_wf i ->
  C08.Model.intersects lr mr = true -> w_addr li < w_addr i ->
  let li' := set_size li (w_addr i - w_addr li) in
  wrap32 (w_addr i - w_addr li) = w_addr i - w_addr li /\ win_range li' = Some (w_addr li, w_addr i - 1) /\ win_wf li'.
Proof.
  intros li lr i mr Hl1 [[La1 La2] [Ls1 Ls2]] Er [[Ia1 Ia2] [Is1 Is2]] Ei Hlt.
  destruct (win_range_inv _ _ Hl1) as [A1 [A2 A3]]. destruct (win_range_inv _ _ Er) as [B1 [B2 B3]].
  subst lr mr. unfold C08.Model.intersects in Ei. cbn [fst snd] in Ei.
  apply andb_prop in Ei. destruct Ei as [Ei1 Ei2]. apply Z.leb_le in Ei1. apply Z.leb_le in Ei2.
  set (d := w_addr i - w_addr li). assert (Hd : 0 < d <= w_size li - 1) by (unfold d; lia).
  split; [unfold wrap32; apply Z.mod_small; unfold two32 in *; lia|].
  split; [|unfold win_wf, set_size; cbn [w_addr w_size]; unfold two32 in *; lia].
  unfold win_range, set_size, C08.Model.mk_range, checked_add. cbn [w_addr w_size].
  replace (d =? 0) with false by (symmetry; apply Z.eqb_neq; lia).
  replace (w_addr li + d <? 2 ^ 64) with true by (symmetry; apply Z.ltb_lt; lia).
  replace (w_addr li + d - 1) with (w_addr i - 1) by (unfold d; lia). reflexivity.
Qed.

Lemma insert_win_ok : forall acc i, acc_wf acc -> win_wf i ->
  exists acc', insert_win acc i = Ret acc' /\ acc_wf acc'.
Proof.
  intros acc i Hacc Hi. unfold insert_win.
  destruct (win_range i) as [mr|] eqn:Er; [|eexists; split; [reflexivity|exact Hacc]].
  assert (Hnew : win_range (snd (mr, i)) = Some (fst (mr, i)) /\ win_wf (snd (mr, i))) by (cbn; auto).
  destruct acc as [|[lr li] rest]; [eexists; split; [reflexivity|constructor; [exact Hnew|constructor]]|].
  inversion Hacc as [|? ? [Hl1 Hl2] Hrest]; subst. cbn [fst snd] in Hl1, Hl2.
  destruct (C08.Model.intersects lr mr) eqn:Ei;
    [|eexists; split; [reflexivity|constructor; [exact Hnew|exact Hacc]]].
  destruct (w_addr i >? w_addr li) eqn:Eg.
  - apply Z.gtb_lt in Eg. destruct (cut_ok li lr i mr Hl1 Hl2 Er Hi Ei Eg) as (Hw & Hr & Hwf).
    rewrite Hw, Hr. eexists; split; [reflexivity|]. constructor; [exact Hnew|]. constructor; [split; assumption|exact Hrest].
  - destruct (negb (range_eqb lr mr)); eexists; (split; [reflexivity|]); [exact Hacc|constructor; [exact Hnew|exact Hacc]].
Qed.

Lemma insert_all_ok : forall l acc, acc_wf acc -> Forall win_wf l ->
  exists acc', insert_all l acc = Ret acc' /\ acc_wf acc'.
Proof.
  induction l as [|i r IH]; intros acc Hacc Hl; cbn [insert_all]; [eexists; split; [reflexivity|exact Hacc]|].
  inversion Hl; subst. destruct (insert_win_ok acc i Hacc H1) as [acc1 [E1 W1]]. rewrite E1. cbn [obind].
  apply IH; assumption.
Qed.

Lemma acc_wf_ranges : forall acc, acc_wf acc -> C08.Proofs.wf_ranges (rev acc).
Proof.
  intros acc H. unfold C08.Proofs.wf_ranges. apply Forall_rev.
  eapply Forall_impl; [|exact H]. intros [r i] [H1 [[A1 A2] [S1 S2]]]. cbn [fst snd] in *.
  unfold win_range in H1. eapply C08.Proofs.mk_range_wf; [| |exact H1]; lia.
Qed.

Lemma win_table_total : forall l, Forall win_wf l -> exists t, win_table l = Ret t.
Proof.
  intros l Hl. unfold win_table. destruct (insert_all_ok l [] (Forall_nil _) Hl) as [acc [E W]].
  rewrite E. cbn [obind]. rewrite (C08.Proofs.build_total_p win_eqb (rev acc) (acc_wf_ranges acc W)).
  eexists; reflexivity.
Qed.

Definition dollar (n : bytes) : bytes := 36 :: n.
Definition is_set (n : bytes) (m : vars) : bool :=
  match vget (dollar n) m with Some _ => true | None => false end.
Definition six : list bytes := [N_eip; N_esp; N_ebp; N_ebx; N_esi; N_edi].

Lemma outputs_dollar : win_outputs = map (fun n => (dollar n, n)) six.
Proof. reflexivity. Qed.

(* clear_stack_win_caller_registers does nothing on the real walker: "$eip" ... are not registers *)
Lemma clear_all_real_noop : forall s, clear_all (real_ops x86) win_clear_names s = s.
Proof. intro s. reflexivity. Qed.

(* the class of the known finding F-C07a: a callee-saved register that is forwarded from the
   callee (valid there) and that the record does not set *)
Definition Known_C07a (ctx : list (bytes * Z)) (valid : option (list bytes)) (m : vars) : bool :=
  existsb (fun n => r_valid (real_init x86 ctx valid) n && negb (is_set n m)) (a_saved x86).

Lemma mem_b_In : forall k l, mem_b k l = true <-> In k l.
Proof.
  induction l as [|x r IH]; cbn [mem_b In]; [split; [discriminate|contradiction]|].
  rewrite Bool.orb_true_iff, IH. split; (intros [H|H]; [left|right; exact H]); [symmetry; apply beq_eq; exact H|subst; apply beq_refl].
Qed.
Lemma mem_b_notin : forall k l, ~ In k l -> mem_b k l = false.
Proof. intros k l H. destruct (mem_b k l) eqn:M; [|reflexivity]. elim H. apply mem_b_In. exact M. Qed.

Lemma six_nodup : NoDup six.
Proof. repeat constructor; cbn; intro H; repeat (destruct H as [H|H]; [discriminate|]); exact H. Qed.

Lemma saved_in_six : forall n, In n (a_saved x86) -> In n six.
Proof. intros n H. cbn in H. destruct H as [H|[H|[H|[H|[]]]]]; subst; cbn; tauto. Qed.

(* the witness of F-C07a: a frame-data record whose program `$eip $esp ^ = $esp $esp 4 + =` sets eip and esp only, unwound
   from a context (w_ctx) in which all registers are valid; esi (callee-saved, valid in the callee, not set by the record)
   is valid in the caller.  forwarding_witness_run is the fact as a `match` that evaluation decides;
   forwarding_witness is the same fact as an `exists`, the form the property theorems use. *)
Definition w_ctx : list (bytes * Z) :=
  [(N_eip, 1073741924); (N_esp, 2147483648); (N_ebp, 2147483700); (N_ebx, 11); (N_esi, 12); (N_edi, 13)].
Definition w_env : env :=
  mkEnv (real_callee x86 w_ctx None) (mem_read 4 2147483648 [0; 16; 0; 64; 0; 0; 0; 0]) 100 false 0.
Definition w_prog : bytes := bs "$eip $esp ^ = $esp $esp 4 + =".
Definition w_info : win_info := mkWin 100 16 0 0 0 0 0 0 (ProgramString w_prog).

Lemma forwarding_witness_run :
  match walk_win_framedata (real_ops x86) Debug w_env w_info w_prog (real_init x86 w_ctx None),
        win_final_vars Debug w_env w_info w_prog with
  | Ret (s', true), Ret (Some m) =>
      Known_C07a w_ctx None m = true /\
      r_valid s' N_esi = true /\ is_set N_esi m = false /\
      r_valid s' N_eip = true /\ r_ctx s' N_eip = 1073745920 /\ r_ctx s' N_esp = 2147483652
  | _, _ => False
  end.
Proof. vm_compute. repeat split; reflexivity. Qed.

Lemma forwarding_witness :
  exists s' m,
    walk_win_framedata (real_ops x86) Debug w_env w_info w_prog (real_init x86 w_ctx None) = Ret (s', true) /\
    win_final_vars Debug w_env w_info w_prog = Ret (Some m) /\
    Known_C07a w_ctx None m = true /\
    r_valid s' N_esi = true /\ is_set N_esi m = false /\
    r_valid s' N_eip = true /\ r_ctx s' N_eip = 1073745920 /\ r_ctx s' N_esp = 2147483652.
Proof.
  pose proof forwarding_witness_run as H.
  destruct (walk_win_framedata (real_ops x86) Debug w_env w_info w_prog (real_init x86 w_ctx None))
    as [[s' [|]]| | |]; try contradiction.
  destruct (win_final_vars Debug w_env w_info w_prog) as [[m|]| | |]; try contradiction.
  exists s', m. split; [reflexivity|]. split; [reflexivity|]. exact H.
Qed.
