(* C07/Proofs16.v — the caller state after a STACK WIN walk through the real x86 CfiStackWalker, EXACTLY
   (validity set and register values, both directions), with no hypothesis about the known finding F-C07a: the
   forwarded callee-saved registers appear in the statement as what they are.  Then which record SymbolFile::walk_frame
   uses (frame data > FPO > STACK CFI) and where STACK CFI takes over (cfi_fallback, record_preference). *)
From Coq Require Import Lia.
From RM Require Import Base.Word C06.Model C06.Proofs C07.Model C07.Proofs C07.Proofs2.
From RM Require C08.Model.
Open Scope Z_scope.

Lemma set_outputs_exact : forall names m s s',
  NoDup names -> (forall n, In n names -> memoize x86 n = Some n) ->
  set_outputs (real_ops x86) (map (fun n => (dollar n, n)) names) m s = (s', true) ->
  forall x,
    r_valid s' x = (mem_b x names && is_set x m) || r_valid s x /\
    r_ctx s' x = (if mem_b x names then match vget (dollar x) m with Some v => v | None => r_ctx s x end else r_ctx s x).
Proof.
  intros names m s s' ND Hmem H x.
  assert (Hset : forall s n v s1, In n names -> o_set (real_ops x86) s n v = Some s1 ->
            s1 = mkR (updz (r_ctx s) n v) (updb (r_valid s) n true)).
  { intros s0 n v s1 Hin Es. cbn [real_ops o_set] in Es. unfold real_set in Es. rewrite (Hmem n Hin) in Es.
    destruct (fits (a_width x86) v); [|discriminate]. inversion Es. reflexivity. }
  split.
  - rewrite (set_outputs_read _ (real_ops x86) _ r_valid (fun _ => true) names m s s'
               (fun s n v s1 x Hin Es => f_equal (fun t => r_valid t x) (Hset s n v s1 Hin Es)) ND H x).
    unfold is_set. destruct (mem_b x names), (vget (dollar x) m); reflexivity.
  - exact (set_outputs_read _ (real_ops x86) _ r_ctx (fun v => v) names m s s'
             (fun s n v s1 x Hin Es => f_equal (fun t => r_ctx t x) (Hset s n v s1 Hin Es)) ND H x).
Qed.

Lemma six_memoize : forall n, In n six -> memoize x86 n = Some n.
Proof.
  intros n H. unfold six, N_eip, N_esp, N_ebp, N_ebx, N_esi, N_edi in H.
  repeat (destruct H as [H|H]; [subst; reflexivity|]). contradiction.
Qed.

Theorem real_framedata_exact : forall p E i e ctx valid s' m,
  walk_win_framedata (real_ops x86) p E i e (real_init x86 ctx valid) = Ret (s', true) ->
  win_final_vars p E i e = Ret (Some m) ->
  forall n,
    r_valid s' n = (mem_b n six && is_set n m) || r_valid (real_init x86 ctx valid) n /\
    r_ctx s' n = (if mem_b n six then match vget (dollar n) m with Some v => v | None => r_ctx (real_init x86 ctx valid) n end
                  else r_ctx (real_init x86 ctx valid) n).
Proof.
  intros p E i e ctx valid s' m H Hm n. unfold walk_win_framedata in H. rewrite Hm in H. cbn [obind] in H.
  rewrite clear_all_real_noop in H.
  assert (H1 : set_outputs (real_ops x86) win_outputs m (real_init x86 ctx valid) = (s', true)) by congruence.
  rewrite outputs_dollar in H1.
  exact (set_outputs_exact six m _ s' six_nodup six_memoize H1 n).
Qed.

(* the forwarded part, spelled out: callee-saved (ebp, ebx, edi, esi) and valid in the callee *)
Lemma real_init_valid : forall ctx valid n,
  r_valid (real_init x86 ctx valid) n = mem_b n (a_saved x86) && match valid with None => true | Some which => mem_b n which end.
Proof. reflexivity. Qed.

Lemma real_set_valid_exact : forall s n v s' x,
  memoize x86 n = Some n -> real_set x86 s n v = Some s' -> r_valid s' x = beq x n || r_valid s x.
Proof.
  intros s n v s' x M H. unfold real_set in H. rewrite M in H.
  destruct (fits (a_width x86) v); [|discriminate]. inversion H; subst. cbn [r_valid]. unfold updb.
  destruct (beq x n); reflexivity.
Qed.

Theorem real_fpo_exact : forall E i abp ctx valid s',
  walk_win_fpo (real_ops x86) E i abp (real_init x86 ctx valid) = (s', true) ->
  forall n, r_valid s' n = fpo_sets E abp n || r_valid (real_init x86 ctx valid) n.
Proof.
  intros E i abp ctx valid s' H x.
  destruct (fpo_inv _ _ _ _ _ _ _ H) as (fs & esp & a & eip & cebp & s1 & s2 & s3 & _ & _ & _ & _ & _ & Hbp & S2 & S3 & S4).
  rewrite clear_all_real_noop in Hbp. cbn [real_ops o_set] in S2, S3, S4.
  rewrite (real_set_valid_exact _ _ _ _ x (six_memoize N_ebp ltac:(cbn; tauto)) S4).
  rewrite (real_set_valid_exact _ _ _ _ x (six_memoize N_esp ltac:(cbn; tauto)) S3).
  rewrite (real_set_valid_exact _ _ _ _ x (six_memoize N_eip ltac:(cbn; tauto)) S2).
  unfold fpo_sets. destruct abp.
  - destruct Hbp as [_ ->]. cbn [negb andb]. destruct (beq x N_eip), (beq x N_esp), (beq x N_ebp); reflexivity.
  - destruct Hbp as [_ Hbx]. destruct (e_callee E N_ebx) as [b|]; cbn [negb andb is_some].
    + cbn [real_ops o_set] in Hbx. rewrite (real_set_valid_exact _ _ _ _ x (six_memoize N_ebx ltac:(cbn; tauto)) Hbx).
      destruct (beq x N_eip), (beq x N_esp), (beq x N_ebp), (beq x N_ebx); reflexivity.
    + subst s1. rewrite andb_false_r. destruct (beq x N_eip), (beq x N_esp), (beq x N_ebp); reflexivity.
Qed.

Definition cfi_fallback {S} (ops : wops S) (p : profile) (E : env) (f : symfile) (s : S) : outcome (option S) :=
  match sf_cfi f with
  | Some r => walk_frame_cfi ops p E r (e_instr E) s
  | None => Ret None
  end.

Lemma record_preference : forall S (ops : wops S) p E f s fd fp,
  win_table (sf_framedata f) = Ret fd -> win_table (sf_fpo f) = Ret fp ->
  (* a frame-data record covering the address wins, whatever the FPO table holds *)
  (forall i e, C08.Model.rm_get fd (e_instr E) = Some i -> w_thing i = ProgramString e ->
     walk_frame ops p E f s =
     (do wr <- walk_win_framedata ops p E i e s;
      if snd wr then Ret (Some (fst wr)) else cfi_fallback ops p E f (fst wr))) /\
  (* otherwise the FPO record covering it *)
  (forall i b, C08.Model.rm_get fd (e_instr E) = None -> C08.Model.rm_get fp (e_instr E) = Some i ->
     w_thing i = AllocatesBasePointer b ->
     walk_frame ops p E f s =
     (let wr := walk_win_fpo ops E i b s in
      if snd wr then Ret (Some (fst wr)) else cfi_fallback ops p E f (fst wr))) /\
  (* STACK CFI is consulted exactly when no STACK WIN record applied or the one that applied failed *)
  (C08.Model.rm_get fd (e_instr E) = None -> C08.Model.rm_get fp (e_instr E) = None ->
     walk_frame ops p E f s = cfi_fallback ops p E f s).
Proof.
  intros S ops p E f s fd fp Hfd Hfp. unfold walk_frame, cfi_fallback. rewrite Hfd, Hfp. cbn [obind].
  split; [|split].
  - intros i e Hg Ht. rewrite Hg, Ht. destruct (walk_win_framedata ops p E i e s) as [[s1 ok]| | |]; reflexivity.
  - intros i b Hn Hg Ht. rewrite Hn, Hg, Ht. cbn [obind]. destruct (walk_win_fpo ops E i b s) as [s1 ok]. reflexivity.
  - intros Hn Hn2. rewrite Hn, Hn2. reflexivity.
Qed.
