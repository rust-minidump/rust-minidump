(* C07/Proofs24.v — the STACK WIN record table: the exact behaviour of insert_win_stack_info on an overlap, refinement of
   the containment spec for non-overlapping records, and the table of an ADDRESS-SORTED file, completely.  parser.rs's own
   example ("addr: 0, len: 10 / addr: 1, len: 9 / addr: 4, len: 6": each line has an accurate start, the length covers
   the rest of the function) in general: for records of one kind with strictly increasing addresses, each record ends
   where it says or just before the next one starts, whichever comes first (clip_list), nothing is dropped, and a
   lookup returns the clipped record containing the address. *)
From Coq Require Import Lia Bool.
From RM Require Import Base.Word C06.Model C06.Proofs C07.Model C07.Proofs C07.Proofs2.
From RM Require C08.Model C08.Proofs.
Import ListNotations.
Open Scope Z_scope.

Lemma intersects_sym : forall a b, C08.Model.intersects a b = C08.Model.intersects b a.
Proof. intros. unfold C08.Model.intersects. apply andb_comm. Qed.

Lemma disjoint_app : forall a b, disjoint_ranges (a ++ b) ->
  disjoint_ranges a /\ disjoint_ranges b /\
  (forall e1 e2, In e1 a -> In e2 b -> C08.Model.intersects (fst e1) (fst e2) = false).
Proof.
  induction a as [|e t IH]; intros b H; cbn [app disjoint_ranges] in *.
  - split; [exact I|]. split; [exact H|]. intros e1 e2 [].
  - destruct H as [H1 H2]. destruct (IH b H2) as [A [B C]].
    split; [split; [intros e' He'; apply H1; apply in_or_app; left; exact He'|exact A]|].
    split; [exact B|]. intros e1 e2 [He1|He1] He2; [subst; apply H1; apply in_or_app; right; exact He2|apply C; assumption].
Qed.

Lemma disjoint_split : forall l1 r v l2,
  disjoint_ranges (l1 ++ (r, v) :: l2) ->
  forall r' v', In (r', v') (l1 ++ l2) -> C08.Model.intersects r r' = false.
Proof.
  intros l1 r v l2 H r' v' Hin. destruct (disjoint_app _ _ H) as [_ [B C]].
  apply in_app_or in Hin. destruct Hin as [Hin|Hin].
  - rewrite intersects_sym. apply (C (r', v') (r, v) Hin). left; reflexivity.
  - cbn [disjoint_ranges] in B. destruct B as [B _]. apply (B (r', v') Hin).
Qed.

Theorem insert_win_cases : forall lr li rest i mr,
  acc_wf ((lr, li) :: rest) -> win_wf i -> win_range i = Some mr ->
  (C08.Model.intersects lr mr = false -> insert_win ((lr, li) :: rest) i = Ret ((mr, i) :: (lr, li) :: rest)) /\
  (C08.Model.intersects lr mr = true ->
     (* 1. the new record starts later: the previous one is cut to end just before it *)
     (w_addr li < w_addr i ->
        insert_win ((lr, li) :: rest) i =
        Ret ((mr, i) :: ((w_addr li, w_addr i - 1), set_size li (w_addr i - w_addr li)) :: rest)) /\
     (* 2. it does not start later and covers a different range: it is dropped *)
     (w_addr i <= w_addr li -> lr <> mr -> insert_win ((lr, li) :: rest) i = Ret ((lr, li) :: rest)) /\
     (* 3. the very same range: both are kept (the table builder then keeps the first of two different records) *)
     (lr = mr -> insert_win ((lr, li) :: rest) i = Ret ((mr, i) :: (lr, li) :: rest))).
Proof.
  intros lr li rest i mr Hacc Hi Er. unfold insert_win. rewrite Er.
  inversion Hacc as [|? ? [Hl1 Hl2] Hrest]; subst. cbn [fst snd] in Hl1, Hl2.
  split; [intro Ei; rewrite Ei; reflexivity|]. intro Ei. rewrite Ei.
  destruct (win_range_inv _ _ Hl1) as [A1 [A2 A3]]. destruct (win_range_inv _ _ Er) as [B1 [B2 B3]].
  split; [|split].
  - intro Hlt. rewrite (proj2 (Z.gtb_lt _ _) Hlt).
    destruct (cut_ok li lr i mr Hl1 Hl2 Er Hi Ei Hlt) as (Hw & Hr & _). rewrite Hw, Hr. reflexivity.
  - intros Hle Hne. replace (w_addr i >? w_addr li) with false by (symmetry; rewrite Z.gtb_ltb; apply Z.ltb_ge; lia).
    assert (Hq : range_eqb lr mr = false).
    { destruct (range_eqb lr mr) eqn:Eq; [|reflexivity]. exfalso. apply Hne. unfold range_eqb in Eq.
      apply andb_prop in Eq. destruct Eq as [Q1 Q2]. apply Z.eqb_eq in Q1. apply Z.eqb_eq in Q2.
      destruct lr, mr. cbn in *. congruence. }
    rewrite Hq. reflexivity.
  - intro Heq.
    assert (Haddr : w_addr i = w_addr li).
    { pose proof Heq as H0. rewrite A3, B3 in H0. inversion H0. reflexivity. }
    replace (w_addr i >? w_addr li) with false by (symmetry; rewrite Z.gtb_ltb; apply Z.ltb_ge; lia).
    assert (Hq : range_eqb lr mr = true) by (rewrite Heq; unfold range_eqb; rewrite !Z.eqb_refl; reflexivity).
    rewrite Hq. reflexivity.
Qed.

Lemma acc_wf_cons : forall mr i acc, win_range i = Some mr -> win_wf i -> acc_wf acc -> acc_wf ((mr, i) :: acc).
Proof. intros. constructor; [cbn; auto|assumption]. Qed.

Lemma insert_all_disjoint : forall l acc,
  acc_wf acc -> Forall win_wf l -> disjoint_ranges (rev acc ++ keep l) ->
  insert_all l acc = Ret (rev (keep l) ++ acc).
Proof.
  induction l as [|i r IH]; intros acc Hacc Hl Hd; cbn [insert_all]; [reflexivity|].
  inversion Hl as [|? ? Hi Hr]; subst.
  change (keep (i :: r)) with ((match win_range i with Some rg => [(rg, i)] | None => [] end) ++ keep r) in *.
  destruct (win_range i) as [mr|] eqn:Er.
  - assert (Hins : insert_win acc i = Ret ((mr, i) :: acc)).
    { destruct acc as [|[lr li] rest]; [unfold insert_win; rewrite Er; reflexivity|].
      destruct (insert_win_cases lr li rest i mr Hacc Hi Er) as [Hno _]. apply Hno.
      destruct (disjoint_app _ _ Hd) as [_ [_ C]].
      apply (C (lr, li) (mr, i)); [apply in_rev; rewrite rev_involutive; left; reflexivity|left; reflexivity]. }
    rewrite Hins. cbn [obind]. rewrite (IH ((mr, i) :: acc)); [| |exact Hr|].
    + cbn [app rev]. rewrite <- app_assoc. reflexivity.
    + apply acc_wf_cons; assumption.
    + cbn [rev]. rewrite <- app_assoc. exact Hd.
  - assert (Hins : insert_win acc i = Ret acc) by (unfold insert_win; rewrite Er; reflexivity).
    rewrite Hins. cbn [obind]. apply IH; assumption.
Qed.

Lemma keep_wf : forall l, Forall win_wf l -> acc_wf (keep l).
Proof.
  induction l as [|i r IH]; intro H; [constructor|]. inversion H; subst.
  change (keep (i :: r)) with ((match win_range i with Some rg => [(rg, i)] | None => [] end) ++ keep r).
  destruct (win_range i) eqn:Er; cbn [app]; [constructor; [cbn; auto|apply IH; assumption]|apply IH; assumption].
Qed.

Theorem table_refines_spec : forall l,
  Forall win_wf l -> disjoint_ranges (keep l) ->
  exists t, win_table l = Ret t /\ forall x, C08.Model.rm_get t x = table_spec_lookup l x.
Proof.
  intros l Hwf Hd. unfold win_table.
  rewrite (insert_all_disjoint l [] (Forall_nil _) Hwf Hd). cbn [obind]. rewrite app_nil_r, rev_involutive.
  pose proof (keep_wf l Hwf) as Hk.
  assert (Hr : C08.Proofs.wf_ranges (keep l)).
  { pose proof (acc_wf_ranges (rev (keep l))) as H. rewrite rev_involutive in H. apply H.
    unfold acc_wf. apply Forall_rev. exact Hk. }
  rewrite (C08.Proofs.build_total_p win_eqb (keep l) Hr). eexists. split; [reflexivity|].
  intro x. unfold table_spec_lookup.
  destruct (filter (fun e => C08.Model.contains (fst e) x) (keep l)) as [|[r i] tl] eqn:Ef.
  - destruct (C08.Model.rm_get (C08.Model.into_rangemap_safe_p win_eqb (keep l)) x) as [v|] eqn:Eg; [|reflexivity].
    destruct (C08.Proofs.lookup_sound_p win_eqb win_eqb_eq (keep l) x v Hr Eg) as [r [Hin Hc]].
    assert (Hf : In (r, v) (filter (fun e => C08.Model.contains (fst e) x) (keep l))) by (apply filter_In; split; assumption).
    rewrite Ef in Hf. contradiction.
  - assert (Hin : In (r, i) (keep l) /\ C08.Model.contains r x = true).
    { apply (filter_In (fun e => C08.Model.contains (fst e) x) (r, i) (keep l)). rewrite Ef. left; reflexivity. }
    destruct Hin as [Hin Hc]. destruct (in_split _ _ Hin) as [l1 [l2 Hs]].
    cbn [snd]. rewrite Hs in *.
    apply (C08.Proofs.isolated_complete_p win_eqb win_eqb_eq l1 r i l2 x Hr); [|exact Hc].
    apply (disjoint_split l1 r i l2 Hd).
Qed.

(* a record the parser can produce that has a memory range *)
Definition has_range (i : win_info) : Prop := win_wf i /\ 0 < w_size i /\ w_addr i + w_size i < 2 ^ 64.

Fixpoint clip_list (l : list win_info) : list win_info :=
  match l with
  | [] => []
  | r :: t => match t with
              | [] => [r]
              | r' :: _ => set_size r (Z.min (w_size r) (w_addr r' - w_addr r)) :: clip_list t
              end
  end.

Fixpoint ascending (l : list win_info) : Prop :=
  match l with
  | [] => True
  | r :: t => match t with [] => True | r' :: _ => w_addr r < w_addr r' end /\ ascending t
  end.

Definition rng_of (i : win_info) : C08.Model.range := (w_addr i, w_addr i + w_size i - 1).

Lemma has_range_range : forall i, has_range i -> win_range i = Some (rng_of i).
Proof.
  intros i [_ [Hs Ho]]. unfold rng_of, win_range, C08.Model.mk_range, checked_add.
  replace (w_size i =? 0) with false by (symmetry; apply Z.eqb_neq; lia).
  replace (w_addr i + w_size i <? 2 ^ 64) with true by (symmetry; apply Z.ltb_lt; lia). reflexivity.
Qed.

Lemma set_size_self : forall i, set_size i (w_size i) = i.
Proof. destruct i; reflexivity. Qed.

Lemma keep_cons : forall i r, keep (i :: r) = (match win_range i with Some rg => [(rg, i)] | None => [] end) ++ keep r.
Proof. reflexivity. Qed.

Lemma has_range_clip : forall i d, has_range i -> 0 < d <= w_size i -> has_range (set_size i d).
Proof.
  intros i d [[Ha [Hs1 Hs2]] [Hp Ho]] Hd. unfold has_range, win_wf, set_size. cbn [w_addr w_size]. repeat split; lia.
Qed.

Lemma clip_list_cons2 : forall r r' t,
  clip_list (r :: r' :: t) = set_size r (Z.min (w_size r) (w_addr r' - w_addr r)) :: clip_list (r' :: t).
Proof. reflexivity. Qed.

Lemma clip_head_range : forall r r', has_range r -> w_addr r < w_addr r' ->
  has_range (set_size r (Z.min (w_size r) (w_addr r' - w_addr r))).
Proof. intros r r' Hr Hlt. apply has_range_clip; [exact Hr|]. destruct Hr as [_ [Hp _]]. lia. Qed.

(* reading a record that starts after the last one kept: the last one ends where it says or just before the new
   record starts, whichever comes first; the new record is kept as written *)
Lemma insert_win_clip : forall r r' acc,
  acc_wf acc -> has_range r -> has_range r' -> w_addr r < w_addr r' ->
  let c := set_size r (Z.min (w_size r) (w_addr r' - w_addr r)) in
  insert_win ((rng_of r, r) :: acc) r' = Ret ((rng_of r', r') :: (rng_of c, c) :: acc).
Proof.
  intros r r' acc Hacc Hr Hr' Hlt c. pose proof (has_range_range r Hr) as Er. pose proof (has_range_range r' Hr') as Er'.
  destruct (insert_win_cases (rng_of r) r acc r' (rng_of r') (acc_wf_cons _ _ _ Er (proj1 Hr) Hacc) (proj1 Hr') Er')
    as [Hno Hyes].
  unfold c. destruct (C08.Model.intersects (rng_of r) (rng_of r')) eqn:Ei;
    unfold C08.Model.intersects, rng_of in Ei; cbn [fst snd] in Ei.
  - (* they overlap: cut *) rewrite (proj1 (Hyes eq_refl) Hlt).
    apply andb_prop in Ei. destruct Ei as [E1 E2]. apply Z.leb_le in E1, E2.
    replace (Z.min (w_size r) (w_addr r' - w_addr r)) with (w_addr r' - w_addr r) by lia.
    replace (rng_of (set_size r (w_addr r' - w_addr r))) with ((w_addr r, w_addr r' - 1) : C08.Model.range); [reflexivity|].
    unfold rng_of, set_size. cbn [w_addr w_size]. f_equal. lia.
  - (* r ends before r' starts: as written *) rewrite (Hno eq_refl).
    apply andb_false_iff in Ei. destruct Hr' as [_ [Hp' _]].
    replace (Z.min (w_size r) (w_addr r' - w_addr r)) with (w_size r)
      by (destruct Ei as [E|E]; apply Z.leb_gt in E; lia).
    rewrite set_size_self. reflexivity.
Qed.

(* the vector after the records of an ascending list have been read (head = the last record, still as written) *)
Lemma insert_all_ascending : forall t r acc,
  acc_wf acc -> has_range r -> Forall has_range t -> ascending (r :: t) ->
  insert_all t ((rng_of r, r) :: acc) = Ret (rev (keep (clip_list (r :: t))) ++ acc).
Proof.
  induction t as [|r' t' IH]; intros r acc Hacc Hr Ht Hasc.
  - cbn [insert_all clip_list]. rewrite keep_cons, (has_range_range r Hr). reflexivity.
  - inversion Ht as [|? ? Hr' Ht']; subst. destruct Hasc as [Hlt Hasc']. cbn [insert_all].
    pose proof (clip_head_range r r' Hr Hlt) as Hc.
    rewrite (insert_win_clip r r' acc Hacc Hr Hr' Hlt). cbn [obind].
    rewrite (IH r' _ (acc_wf_cons _ _ _ (has_range_range _ Hc) (proj1 Hc) Hacc) Hr' Ht' Hasc').
    rewrite clip_list_cons2, keep_cons, (has_range_range _ Hc). cbn [app rev]. rewrite <- app_assoc. reflexivity.
Qed.

Lemma clip_has_range : forall l, Forall has_range l -> ascending l -> Forall has_range (clip_list l).
Proof.
  induction l as [|r t IH]; intros Hl Ha; [constructor|].
  inversion Hl as [|? ? Hr Ht]; subst. destruct t as [|r' t']; [constructor; [exact Hr|constructor]|].
  rewrite clip_list_cons2.
  destruct Ha as [Hlt Ha']. constructor; [apply clip_head_range|apply IH]; assumption.
Qed.

Lemma has_range_wf : forall l, Forall has_range l -> Forall win_wf l.
Proof. intros l H. eapply Forall_impl; [|exact H]. intros i Hi. exact (proj1 Hi). Qed.

(* every entry of the clipped tail starts at or after the tail's first address *)
Lemma clip_starts : forall t r e, Forall has_range (r :: t) -> ascending (r :: t) ->
  In e (keep (clip_list (r :: t))) -> w_addr r <= fst (fst e).
Proof.
  induction t as [|r' t' IH]; intros r e Hl Ha Hin.
  - cbn [clip_list] in Hin. inversion Hl as [|? ? Hr _]; subst. rewrite keep_cons, (has_range_range r Hr) in Hin.
    destruct Hin as [Hin|[]]. subst e. unfold rng_of. cbn. lia.
  - inversion Hl as [|? ? Hr Ht]; subst. destruct Ha as [Hlt Ha'].
    rewrite clip_list_cons2 in Hin.
    rewrite keep_cons in Hin. apply in_app_or in Hin. destruct Hin as [Hin|Hin].
    + pose proof (clip_head_range r r' Hr Hlt) as Hc.
      rewrite (has_range_range _ Hc) in Hin. destruct Hin as [Hin|[]]. subst e. unfold rng_of. cbn. lia.
    + pose proof (IH r' e Ht Ha' Hin). lia.
Qed.

Lemma clip_disjoint : forall l, Forall has_range l -> ascending l -> disjoint_ranges (keep (clip_list l)).
Proof.
  induction l as [|r t IH]; intros Hl Ha; [exact I|].
  inversion Hl as [|? ? Hr Ht]; subst. destruct t as [|r' t'].
  - cbn [clip_list]. rewrite keep_cons, (has_range_range r Hr). cbn. split; [intros e' []|exact I].
  - destruct Ha as [Hlt Ha'].
    rewrite clip_list_cons2.
    pose proof (clip_head_range r r' Hr Hlt) as Hc.
    rewrite keep_cons, (has_range_range _ Hc). cbn [app disjoint_ranges]. split; [|apply IH; assumption].
    intros e' Hin. pose proof (clip_starts t' r' e' Ht Ha' Hin) as Hs.
    unfold C08.Model.intersects, rng_of. cbn [fst snd set_size w_addr w_size]. apply andb_false_iff. right. apply Z.leb_gt. lia.
Qed.

Theorem table_ascending : forall l,
  Forall has_range l -> ascending l ->
  win_table l = win_table (clip_list l) /\
  disjoint_ranges (keep (clip_list l)) /\
  exists t, win_table l = Ret t /\ forall x, C08.Model.rm_get t x = table_spec_lookup (clip_list l) x.
Proof.
  intros l Hl Ha.
  pose proof (clip_disjoint l Hl Ha) as Hd.
  pose proof (has_range_wf _ (clip_has_range l Hl Ha)) as Hwf.
  assert (E : win_table l = win_table (clip_list l)).
  { unfold win_table at 2. rewrite (insert_all_disjoint (clip_list l) [] (Forall_nil _) Hwf Hd). cbn [obind].
    rewrite app_nil_r. unfold win_table. destruct l as [|r t]; [reflexivity|].
    inversion Hl as [|? ? Hr Ht]; subst. cbn [insert_all]. unfold insert_win at 1. rewrite (has_range_range r Hr). cbn [obind].
    rewrite (insert_all_ascending t r [] (Forall_nil _) Hr Ht Ha). rewrite app_nil_r. reflexivity. }
  split; [exact E|]. split; [exact Hd|].
  destruct (table_refines_spec (clip_list l) Hwf Hd) as [t [Ht Hx]].
  exists t. split; [rewrite E; exact Ht|exact Hx].
Qed.
