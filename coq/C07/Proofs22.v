(* C07/Proofs22.v — the exact extent of the known finding F-C07a.  For EVERY callee validity
   set and every record, the set of registers that are valid in the caller although the record does not set them is
   W = { r in CALLEE_SAVED_REGS = [ebp; ebx; edi; esi] | r valid in the callee, r not set by the record }:
   the caller's validity set is (what the record sets) + W, disjointly, every register of W carries the callee's value,
   and W is empty exactly when the case is outside the known class. *)
From Coq Require Import Lia Bool.
From RM Require Import Base.Word C06.Model C06.Proofs C07.Model C07.Proofs C07.Proofs2 C07.Proofs16.
Open Scope Z_scope.

Definition callee_has (valid : option (list bytes)) (n : bytes) : bool :=
  match valid with None => true | Some which => mem_b n which end.

(* the registers F-C07a forwards for a record that sets [sets] *)
Definition wrongly_forwarded (valid : option (list bytes)) (sets : bytes -> bool) : list bytes :=
  filter (fun n => callee_has valid n && negb (sets n)) (a_saved x86).

Lemma mem_b_filter : forall (f : bytes -> bool) n l, mem_b n (filter f l) = mem_b n l && f n.
Proof.
  intros f n l. induction l as [|x r IH]; [reflexivity|].
  cbn [filter mem_b]. destruct (f x) eqn:Fx; cbn [mem_b]; rewrite IH.
  - destruct (beq n x) eqn:B; [|reflexivity]. apply beq_eq in B. subst x. rewrite Fx. reflexivity.
  - destruct (beq n x) eqn:B; [|reflexivity]. apply beq_eq in B. subst x. rewrite Fx. cbn [orb]. rewrite andb_false_r. reflexivity.
Qed.

Lemma filter_nil_existsb : forall A (f : A -> bool) l, filter f l = [] <-> existsb f l = false.
Proof.
  induction l as [|x r IH]; cbn [filter existsb]; [tauto|].
  destruct (f x); cbn [orb]; [split; discriminate|exact IH].
Qed.

Lemma saved_nodup : NoDup (a_saved x86).
Proof. repeat constructor; cbn; intro H; repeat (destruct H as [H|H]; [discriminate|]); exact H. Qed.

Lemma saved_mem_six : forall n, In n (a_saved x86) -> mem_b n six = true.
Proof. intros n H. apply mem_b_In. apply saved_in_six. exact H. Qed.

(* the generic shape: validity = sets || forwarded  ==>  validity = sets || (in W), W disjoint from sets *)
Lemma forwarded_split : forall valid (sets : bytes -> bool) (v : bytes -> bool) ctx,
  (forall n, v n = sets n || r_valid (real_init x86 ctx valid) n) ->
  let W := wrongly_forwarded valid sets in
  (forall n, v n = sets n || mem_b n W) /\
  (forall n, In n W <-> In n (a_saved x86) /\ callee_has valid n = true /\ sets n = false) /\
  (forall n, In n W -> v n = true) /\
  NoDup W.
Proof.
  intros valid sets v ctx H W. subst W. unfold wrongly_forwarded.
  split; [|split; [|split]].
  - intro n. rewrite H, mem_b_filter, real_init_valid. fold (callee_has valid n).
    destruct (sets n), (mem_b n (a_saved x86)), (callee_has valid n); reflexivity.
  - intro n. rewrite filter_In, andb_true_iff, negb_true_iff. tauto.
  - intros n Hn. apply filter_In in Hn. destruct Hn as [Hs Hp]. apply andb_true_iff in Hp. destruct Hp as [Hc _].
    rewrite H, real_init_valid. fold (callee_has valid n). rewrite Hc. apply mem_b_In in Hs. rewrite Hs. apply orb_true_r.
  - apply NoDup_filter. exact saved_nodup.
Qed.

(* W is empty exactly when no callee-saved register is forwarded without being set: the form of the Known_C07a classes
   (sets' = what their definitions test, equal to sets on the callee-saved registers) *)
Lemma wrongly_forwarded_nil : forall valid ctx (sets sets' : bytes -> bool),
  (forall n, In n (a_saved x86) -> sets n = sets' n) ->
  (wrongly_forwarded valid sets = [] <->
   existsb (fun n => r_valid (real_init x86 ctx valid) n && negb (sets' n)) (a_saved x86) = false).
Proof.
  intros valid ctx sets sets' H. unfold wrongly_forwarded. rewrite <- filter_nil_existsb.
  rewrite (filter_ext_in (fun n => callee_has valid n && negb (sets n))
                            (fun n => r_valid (real_init x86 ctx valid) n && negb (sets' n))); [tauto|].
  intros n Hs. rewrite real_init_valid, (H n Hs). fold (callee_has valid n). apply mem_b_In in Hs. rewrite Hs. reflexivity.
Qed.

Definition fd_sets (m : vars) (n : bytes) : bool := mem_b n six && is_set n m.

Theorem forwarded_exact_framedata : forall p E i e ctx valid s' m,
  walk_win_framedata (real_ops x86) p E i e (real_init x86 ctx valid) = Ret (s', true) ->
  win_final_vars p E i e = Ret (Some m) ->
  let W := wrongly_forwarded valid (fd_sets m) in
  (forall n, r_valid s' n = fd_sets m n || mem_b n W) /\
  (forall n, In n W <-> In n (a_saved x86) /\ callee_has valid n = true /\ is_set n m = false) /\
  (forall n, In n W -> r_valid s' n = true /\ r_ctx s' n = r_ctx (real_init x86 ctx valid) n) /\
  NoDup W /\
  (W = [] <-> Known_C07a ctx valid m = false).
Proof.
  intros p E i e ctx valid s' m H Hm W.
  pose proof (real_framedata_exact p E i e ctx valid s' m H Hm) as X.
  destruct (forwarded_split valid (fd_sets m) (r_valid s') ctx (fun n => proj1 (X n))) as [A [B [C D]]].
  fold W in A, B, C, D.
  split; [exact A|]. split; [|split; [|split; [exact D|]]].
  - intro n. rewrite B. unfold fd_sets. split.
    + intros [Hs [Hc Hf]]. rewrite (saved_mem_six n Hs) in Hf. tauto.
    + intros [Hs [Hc Hf]]. rewrite (saved_mem_six n Hs). tauto.
  - intros n Hn. split; [exact (C n Hn)|].
    destruct (X n) as [_ Xc]. rewrite Xc.
    apply B in Hn. destruct Hn as [Hs [_ Hf]]. unfold fd_sets in Hf. rewrite (saved_mem_six n Hs) in *. cbn [andb] in Hf.
    unfold is_set in Hf. destruct (vget (dollar n) m); [discriminate|reflexivity].
  - apply (wrongly_forwarded_nil valid ctx (fd_sets m) (fun n => is_set n m)). intros n Hs. unfold fd_sets. rewrite (saved_mem_six n Hs). reflexivity.
Qed.

Theorem forwarded_exact_fpo : forall E i abp ctx valid s',
  walk_win_fpo (real_ops x86) E i abp (real_init x86 ctx valid) = (s', true) ->
  let W := wrongly_forwarded valid (fpo_sets E abp) in
  (forall n, r_valid s' n = fpo_sets E abp n || mem_b n W) /\
  (forall n, In n W <-> In n (a_saved x86) /\ callee_has valid n = true /\ fpo_sets E abp n = false) /\
  (forall n, In n W -> r_valid s' n = true) /\
  NoDup W /\
  (W = [] <-> Known_C07a_fpo E abp ctx valid = false) /\
  (* register by register *)
  ~ In N_ebp W /\
  (In N_esi W <-> callee_has valid N_esi = true) /\
  (In N_edi W <-> callee_has valid N_edi = true) /\
  (In N_ebx W <-> callee_has valid N_ebx = true /\ (abp = true \/ e_callee E N_ebx = None)).
Proof.
  intros E i abp ctx valid s' H W.
  pose proof (real_fpo_exact E i abp ctx valid s' H) as X.
  destruct (forwarded_split valid (fpo_sets E abp) (r_valid s') ctx X) as [A [B [C D]]].
  fold W in A, B, C, D.
  split; [exact A|]. split; [exact B|]. split; [exact C|]. split; [exact D|].
  split.
  { apply (wrongly_forwarded_nil valid ctx (fpo_sets E abp) (fpo_sets E abp)). reflexivity. }
  split. { rewrite B. intros [_ [_ F]]. rewrite fpo_sets_ebp in F. discriminate. }
  split. { rewrite B. assert (S : In N_esi (a_saved x86)) by (cbn; tauto).
           assert (F : fpo_sets E abp N_esi = false) by (unfold fpo_sets; cbn; rewrite andb_false_r; reflexivity). tauto. }
  split. { rewrite B. assert (S : In N_edi (a_saved x86)) by (cbn; tauto).
           assert (F : fpo_sets E abp N_edi = false) by (unfold fpo_sets; cbn; rewrite andb_false_r; reflexivity). tauto. }
  rewrite B. assert (S : In N_ebx (a_saved x86)) by (cbn; tauto).
  assert (F : fpo_sets E abp N_ebx = false <-> (abp = true \/ e_callee E N_ebx = None)).
  { unfold fpo_sets. change (beq N_ebx N_eip) with false. change (beq N_ebx N_esp) with false.
    change (beq N_ebx N_ebp) with false. change (beq N_ebx N_ebx) with true. cbn [orb andb].
    destruct abp, (e_callee E N_ebx); cbn; split; intro Q; try reflexivity; try discriminate; try tauto;
      destruct Q as [Q|Q]; discriminate. }
  tauto.
Qed.

(* through the real walker's own callee registers (E as from_ctx_and_args builds it): ebx is wrongly forwarded by an
   FPO record exactly when it is valid in the callee and the record allocates a base pointer *)
Lemma real_callee_ebx : forall ctx valid,
  real_callee x86 ctx valid N_ebx = None <-> callee_has valid N_ebx = false.
Proof.
  intros. unfold real_callee. change (memoize x86 N_ebx) with (Some N_ebx). unfold callee_has.
  destruct valid as [which|]; [|split; discriminate]. destruct (mem_b N_ebx which); split; try discriminate; reflexivity.
Qed.

Corollary forwarded_fpo_ebx_real : forall E i abp ctx valid s',
  e_callee E N_ebx = real_callee x86 ctx valid N_ebx ->
  walk_win_fpo (real_ops x86) E i abp (real_init x86 ctx valid) = (s', true) ->
  (In N_ebx (wrongly_forwarded valid (fpo_sets E abp)) <-> callee_has valid N_ebx = true /\ abp = true).
Proof.
  intros E i abp ctx valid s' He H.
  destruct (forwarded_exact_fpo E i abp ctx valid s' H) as [_ [_ [_ [_ [_ [_ [_ [_ X]]]]]]]].
  rewrite X, He, real_callee_ebx. destruct (callee_has valid N_ebx); split; intros [P Q]; try discriminate;
    (split; [reflexivity|]); [destruct Q as [Q|Q]; [exact Q|discriminate]|left; exact Q].
Qed.
