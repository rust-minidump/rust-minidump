(* C07/Proofs17.v — the Gallina taken from the Rust source is the hand-written model.  stack_win_line as extracted
   from parser.rs (Gen/C07WinLine.v, translate/c07_win_line.py) is this directory's record constructor, and hence
   (Proofs5: text_record_agree) C09's byte-level line recogniser; the evaluator COMPILED from walker.rs
   (Gen/C07WinEval.v, translate/c07_win_eval.py) is, function by function and for all arguments, the model of
   C07/Model.v that every other theorem is about. *)
From RM Require Import Base.Word C06.Model C07.Model C07.Text C07.Proofs5 Gen.C07WinLine Gen.C07WinEval
                       C07.Walker C07.WalkerFd C07.Source C07.Driver.
From RM Require C09.Grammar.
Open Scope Z_scope.

Lemma g_stack_win_line_eq : forall ty a sz pro epi par sav loc mx hp rest,
  g_stack_win_line ty a sz pro epi par sav loc mx hp rest = stack_win_line ty a sz pro epi par sav loc mx hp rest.
Proof. intros. reflexivity. Qed.

(* the kinds of field C09's p_stack_win reads after the tag, in order: single_sp is_hex, hex64sp, 7 x hex32sp,
   single_sp is_dec, name_eol *)
Definition grammar_field_kinds : list Z := [0; 64; 32; 32; 32; 32; 32; 32; 32; 1; 2].

Lemma g_line_fields_kinds : map snd g_line_fields = grammar_field_kinds.
Proof. reflexivity. Qed.

Lemma g_line_agrees_with_grammar : forall ty a sz pro epi par sav loc mx hp rest,
  counts_pos rest ->
  conv_frame_type (C09.Grammar.win_of_fields ty a sz pro epi par sav loc mx hp rest) =
  g_stack_win_line ty a sz pro epi par sav loc mx hp (unrle rest).
Proof. intros. rewrite g_stack_win_line_eq. apply text_record_agree. assumption. Qed.

Lemma g_frame_size_eq : forall i g, g_win_frame_size i g = win_frame_size i g.
Proof. reflexivity. Qed.

Lemma g_clear_names_eq : g_clear_names = win_clear_names.
Proof. reflexivity. Qed.

Lemma g_outputs_eq : g_win_outputs = win_outputs.
Proof. reflexivity. Qed.

Lemma g_initial_eq : forall E i e, g_win_initial_vars E i e = win_initial_vars E i e.
Proof.
  intros. unfold g_win_initial_vars, win_initial_vars, contains_at. rewrite g_frame_size_eq.
  unfold N_esp, N_ebp, N_ebx.
  destruct (e_callee E [101; 115; 112]); [|reflexivity].
  destruct (e_callee E [101; 98; 112]); [|reflexivity].
  destruct (win_frame_size i (e_gcps E)); [|reflexivity].
  destruct (e_callee E [101; 98; 120]); destruct (existsb (fun c => c =? 64) e);
    match goal with |- context [checked_add 32 ?a ?b] => destruct (checked_add 32 a b) end; reflexivity.
Qed.

Lemma starts_var_eq : forall t, g_starts_with t 36 || g_starts_with t 46 = starts_var t.
Proof. destruct t; reflexivity. Qed.

Lemma g_step_eq : forall p E t ms, g_win_step p E t ms = win_step p E t ms.
Proof.
  intros p E t [m st]. unfold g_win_step, win_step, wbin.
  unfold T_plus, T_minus, T_star, T_slash, T_pct, T_at, T_eq, T_caret, T_undef.
  destruct (beq t [43]); [reflexivity|]. destruct (beq t [45]); [reflexivity|]. destruct (beq t [42]); [reflexivity|].
  (* the other binary operators: both sides pop the right operand r, then the left one, before they differ *)
  destruct (beq t [47]).
  { destruct st as [|x [|y st]]; try reflexivity; destruct (into_int m x) as [r|]; try reflexivity; destruct (into_int m y); try reflexivity.
    unfold g_div. destruct (r =? 0); reflexivity. }
  destruct (beq t [37]).
  { destruct st as [|x [|y st]]; try reflexivity; destruct (into_int m x) as [r|]; try reflexivity; destruct (into_int m y); try reflexivity.
    unfold g_rem. destruct (r =? 0); reflexivity. }
  destruct (beq t [64]).
  { destruct st as [|x [|y st]]; try reflexivity; destruct (into_int m x) as [r|]; try reflexivity; destruct (into_int m y); try reflexivity.
    destruct ((r =? 0) || negb (is_pow2 r)); [reflexivity|]. destruct (chk_usub p PANIC_WIN_SUB r 1); reflexivity. }
  destruct (beq t [61]).
  { destruct st as [|x [|y st]]; try reflexivity; destruct (into_var y); try reflexivity; destruct x; reflexivity. }
  destruct (beq t [94]).
  { destruct st as [|x st]; try reflexivity; destruct (into_int m x) as [a|]; try reflexivity; destruct (e_mem E a); reflexivity. }
  destruct (beq t [46; 117; 110; 100; 101; 102]); [reflexivity|].
  rewrite starts_var_eq. destruct (starts_var t); [reflexivity|]. destruct (parse_int 64 t); reflexivity.
Qed.

Lemma g_fpo_eq : forall S (ops : wops S) E i abp s, g_walk_win_fpo ops E i abp s = walk_win_fpo ops E i abp s.
Proof.
  intros. unfold g_walk_win_fpo, walk_win_fpo. rewrite g_frame_size_eq, g_clear_names_eq.
  unfold N_esp, N_ebp, N_ebx, N_eip.
  set (s0 := clear_all ops win_clear_names s).
  destruct (win_frame_size i (e_gcps E)) as [fs|]; [|reflexivity].
  destruct (e_callee E [101; 115; 112]) as [esp|]; [|reflexivity].
  destruct (checked_add 64 esp fs) as [a0|]; [|reflexivity].
  destruct (e_mem E a0) as [eip0|]; [|reflexivity].
  (* the return-address slot: a0, or a0 + 4 for a context frame whose slot a0 holds its own eip *)
  destruct (e_has_gc E); cbn [negb]; cbv iota.
  2: destruct (e_callee E [101; 105; 112]) as [ce|]; [|reflexivity];
     destruct (eip0 =? ce);
     [destruct (checked_add 64 a0 4) as [a1|]; [|reflexivity]; destruct (e_mem E a1) as [eip1|]; [|reflexivity]|].
  (* from there on the compiled function repeats one continuation in each of its three branches; the two sides read the
     same values in the same order and are equal as soon as the caller's ebp is known *)
  all: match goal with |- context [checked_add 64 ?a 4] => destruct (checked_add 64 a 4); [|reflexivity] end;
       destruct abp;
       [ destruct (checked_add 64 esp (e_gcps E)) as [b1|]; [|reflexivity];
         destruct (checked_add 64 b1 (w_saved i)) as [b2|]; [|reflexivity];
         destruct (checked_sub b2 8) as [b3|]; [|reflexivity];
         destruct (e_mem E b3); reflexivity
       | destruct (e_callee E [101; 98; 120]) as [bx|];
         [destruct (o_set ops s0 [101; 98; 120] bx); [|reflexivity]|];
         destruct (e_callee E [101; 98; 112]); reflexivity ].
Qed.

Lemma src_loop_eq : forall p E toks ms, src_win_loop p E toks ms = win_loop p E toks ms.
Proof. induction toks as [|t r IH]; intros; simpl; [reflexivity|]. rewrite g_step_eq. destruct (win_step p E t ms); simpl; auto. Qed.

Lemma src_final_vars_eq : forall p E i e, src_win_final_vars p E i e = win_final_vars p E i e.
Proof. intros. unfold src_win_final_vars, win_final_vars. rewrite g_initial_eq. destruct (win_initial_vars E i e); [|reflexivity]. rewrite src_loop_eq. reflexivity. Qed.

Lemma src_framedata_eq : forall S (ops : wops S) p E i e s, src_walk_win_framedata ops p E i e s = walk_win_framedata ops p E i e s.
Proof. intros. unfold src_walk_win_framedata, walk_win_framedata. rewrite src_final_vars_eq, g_clear_names_eq, g_outputs_eq. reflexivity. Qed.

Lemma src_walk_frame_eq : forall S (ops : wops S) p E f s, src_walk_frame ops p E f s = walk_frame ops p E f s.
Proof.
  intros. unfold src_walk_frame, walk_frame.
  destruct (win_table (sf_framedata f)) as [fd| | |]; simpl; try reflexivity.
  destruct (win_table (sf_fpo f)) as [fp| | |]; simpl; try reflexivity.
  destruct (C08.Model.rm_get fd (e_instr E)) as [i|].
  - destruct (w_thing i); [rewrite src_framedata_eq|]; reflexivity.
  - destruct (C08.Model.rm_get fp (e_instr E)) as [i|]; [|reflexivity].
    destruct (w_thing i); [reflexivity|]. rewrite g_fpo_eq. reflexivity.
Qed.

(* whole walks over the compiled evaluators (the driver's second instance of front-end G) *)
Lemma src_xstep_eq : forall mem below callee r i, src_win_xstep mem below callee r i = win_xstep mem below callee r i.
Proof.
  intros. unfold src_win_xstep, win_xstep, fpo_step.
  destruct (w_thing i) as [e|abp].
  - rewrite src_framedata_eq.
    match goal with |- context [walk_win_framedata ?o ?p ?E i e m_init] => destruct (walk_win_framedata o p E i e m_init) as [[s [|]]| | |] end; reflexivity.
  - rewrite g_fpo_eq. match goal with |- context [walk_win_fpo ?o ?E i abp m_init] => destruct (walk_win_fpo o E i abp m_init) as [s [|]] end; reflexivity.
Qed.

Lemma walk_with_src_eq : forall fuel mem in_stack lookup below r,
  walk_with src_win_xstep fuel mem in_stack lookup below r = win_walk fuel mem in_stack lookup below r.
Proof.
  induction fuel as [|k IH]; intros; [reflexivity|].
  cbn [walk_with win_walk]. destruct (match below with [] => true | _ :: _ => in_stack (x_esp r) end); [|reflexivity].
  destruct (lookup (x_eip r)) as [[i ps]|]; [|reflexivity].
  rewrite src_xstep_eq. destruct (win_xstep mem below (mkSF ps) r i) as [r'|]; [|reflexivity].
  destruct ((x_eip r' <? 4096) || (x_esp r' <=? x_esp r)); [reflexivity|]. rewrite IH. reflexivity.
Qed.
