(* C07/Proofs11.v — whole x86 walks through FPO records.  The walker's has_grand_callee / grand_callee_parameter_size as
   derived from the frame list (C07/Walker.v); one step of the walk on an FPO record; every well-formed all-FPO stack is
   walked to exactly its generated chain (any depth, from the context frame or from any later frame, functions with or
   without FUNC records, both kinds of FPO record, any recursion). *)
From Coq Require Import Lia.
From RM Require Import C06.Model C06.Proofs C07.Model C07.Walker C07.Proofs2.
Import ListNotations.
Open Scope Z_scope.

Definition is_nil {A} (l : list A) : bool := match l with [] => true | _ :: _ => false end.

Lemma gc_frame_app : forall (below : list sframe) callee,
  grand_callee_frame (below ++ [callee]) = match rev below with [] => None | g :: _ => Some g end.
Proof.
  intros below callee. unfold grand_callee_frame, grand_callee_index.
  destruct (rev below) as [|g r] eqn:Hr.
  - apply (f_equal (@rev _)) in Hr. rewrite rev_involutive in Hr. subst below. reflexivity.
  - assert (Hb : below = rev r ++ [g]) by (rewrite <- (rev_involutive below), Hr; reflexivity).
    subst below. rewrite !app_length, rev_length. cbn [length].
    replace (Nat.leb 2 (length r + 1 + 1)) with true by (symmetry; apply PeanoNat.Nat.leb_le; lia).
    cbn [opt_and_then].
    replace (length r + 1 + 1 - 2)%nat with (length (rev r) + 0)%nat by (rewrite rev_length; lia).
    rewrite <- app_assoc, nth_error_app2 by lia.
    replace (length (rev r) + 0 - length (rev r))%nat with 0%nat by lia. reflexivity.
Qed.

Lemma walker_has_gc_spec : forall below callee, walker_has_gc (below ++ [callee]) = spec_has_gc below.
Proof.
  intros. unfold walker_has_gc. rewrite gc_frame_app.
  destruct below as [|x t] using rev_ind; [reflexivity|]. rewrite rev_app_distr. destruct (t ++ [x]) eqn:E; [|reflexivity].
  destruct t; discriminate E.
Qed.

Lemma walker_gcps_spec : forall below callee, walker_gcps (below ++ [callee]) = spec_gcps below.
Proof.
  intros. unfold walker_gcps, spec_gcps. rewrite gc_frame_app.
  destruct (rev below) as [|g r]; [reflexivity|].
  unfold grand_callee_parameter_size, opt_and_then, opt_unwrap_or. destruct (parameter_size g); reflexivity.
Qed.

Lemma spec_has_gc_nil : forall below, spec_has_gc below = negb (is_nil below).
Proof. destruct below; reflexivity. Qed.

Lemma spec_gcps_snoc : forall below ps, spec_gcps (below ++ [mkSF ps]) = psz ps.
Proof. intros. unfold spec_gcps. rewrite rev_app_distr. reflexivity. Qed.

Lemma is_nil_snoc : forall A (l : list A) x, is_nil (l ++ [x]) = false.
Proof. destruct l; reflexivity. Qed.

Lemma mock_set_ok : forall s n v, starts_no n = false -> v < 2 ^ 32 ->
  o_set (mock_ops 4) s n v = Some (mkM (m_cfa s) (m_ra s) (upd (m_regs s) n (SetTo v))).
Proof.
  intros s n v Hn Hv. cbn [mock_ops o_set]. rewrite Hn. unfold fits.
  replace (v <? 2 ^ (8 * 4)) with true by (symmetry; apply Z.ltb_lt; exact Hv). reflexivity.
Qed.

(* ---- one step on an FPO record: the caller's eip is the word at esp + frame size, its esp lies 4 above that slot; its
   ebp is the callee's, or (allocates_base_pointer) the word at esp + gcps + saved - 8.  For the context frame the slot
   must not hold the frame's own eip (the leftover-return-address rule); any later frame is unwound by the plain
   formula whatever the slot holds. ---- *)
Lemma fpo_step_ok : forall mem below callee r i abp fs ra bp',
  w_thing i = AllocatesBasePointer abp ->
  (is_nil below = true -> ra <> x_eip r) ->
  win_frame_size i (spec_gcps below) = Some fs ->
  mem (x_esp r + fs) = Some ra -> ra < 2 ^ 32 -> x_esp r + fs + 4 < 2 ^ 32 ->
  (if abp then 0 <= x_esp r + spec_gcps below + w_saved i - 8 /\ x_esp r + spec_gcps below < 2 ^ 64 /\
               x_esp r + spec_gcps below + w_saved i < 2 ^ 64 /\ mem (x_esp r + spec_gcps below + w_saved i - 8) = Some bp'
   else bp' = x_ebp r) ->
  bp' < 2 ^ 32 ->
  fpo_step mem below callee r i = Some (mkX ra (x_esp r + fs + 4) bp').
Proof.
  intros mem below callee r i abp fs ra bp' Habp Hskip Hfs Hm Hra Hsp Hbp Hbp32.
  unfold fpo_step, frames_env. rewrite Habp, walker_has_gc_spec, walker_gcps_spec, spec_has_gc_nil.
  unfold walk_win_fpo. cbv zeta. cbn [e_gcps e_callee e_mem e_has_gc assoc]. rewrite Hfs.
  (* reading esp / ebp / ebx / eip in the three-register environment: the names are distinct *)
  change (beq N_esp N_eip) with false. change (beq N_ebp N_eip) with false. change (beq N_ebx N_eip) with false.
  change (beq N_ebp N_esp) with false. change (beq N_ebx N_esp) with false. change (beq N_ebx N_ebp) with false.
  change (beq N_esp N_esp) with true. change (beq N_ebp N_ebp) with true. change (beq N_eip N_eip) with true. cbv iota.
  unfold checked_add. replace (x_esp r + fs <? 2 ^ 64) with true by (symmetry; apply Z.ltb_lt; lia).
  rewrite Hm, Bool.negb_involutive.
  assert (Hsk : (if is_nil below then Some (ra =? x_eip r) else Some false) = Some false).
  { destruct (is_nil below); [|reflexivity]. rewrite (proj2 (Z.eqb_neq _ _) (Hskip eq_refl)). reflexivity. }
  rewrite Hsk. replace (x_esp r + fs + 4 <? 2 ^ 64) with true by (symmetry; apply Z.ltb_lt; lia).
  set (s0 := clear_all (mock_ops 4) win_clear_names m_init).
  destruct abp.
  - destruct Hbp as (Hslot & Hg & Hgs & Hmb).
    rewrite (proj2 (Z.ltb_lt _ _) Hg), (proj2 (Z.ltb_lt _ _) Hgs).
    unfold checked_sub. rewrite (proj2 (Z.leb_le _ _) Hslot), Hmb.
    repeat (rewrite mock_set_ok by (reflexivity || assumption); cbv beta iota). reflexivity.
  - subst bp'. repeat (rewrite mock_set_ok by (reflexivity || assumption); cbv beta iota). reflexivity.
Qed.

Lemma fpo_walk_step : forall k mem in_stack lookup below r i ps r',
  (is_nil below = false -> in_stack (x_esp r) = true) ->
  lookup (x_eip r) = Some (i, ps) ->
  fpo_step mem below (mkSF ps) r i = Some r' ->
  4096 <= x_eip r' -> x_esp r < x_esp r' ->
  fpo_walk (S k) mem in_stack lookup below r = r' :: fpo_walk k mem in_stack lookup (below ++ [mkSF ps]) r'.
Proof.
  intros k mem in_stack lookup below r i ps r' His Hl Hstep Hip Hsp. cbn [fpo_walk]. rewrite Hl, Hstep.
  replace (match below with [] => true | _ :: _ => in_stack (x_esp r) end) with true
    by (destruct below; [reflexivity|symmetry; apply His; reflexivity]).
  rewrite (proj2 (Z.ltb_ge _ _) Hip), (proj2 (Z.leb_gt _ _) Hsp). reflexivity.
Qed.

Theorem fpo_recovers_chain : forall mem in_stack lookup ebp (acts : list act) below eip esp,
  fpo_layout mem in_stack lookup (is_nil below) (spec_gcps below) eip esp acts ->
  0 <= esp -> ebp < 2 ^ 32 ->
  fpo_walk (length acts) mem in_stack lookup below (mkX eip esp ebp) = fpo_chain (spec_gcps below) esp ebp acts.
Proof.
  intros mem in_stack lookup ebp acts. induction acts as [|[[i ps] ra] rest IH]; intros below eip esp HL Hesp Hbp; [reflexivity|].
  cbn [fpo_layout] in HL. destruct HL as (Hl & Habp & His & Hfs & HF & Hm & Hra & Htop & Hctx & Hrest).
  cbn [length fpo_chain].
  rewrite (fpo_walk_step _ mem in_stack lookup below (mkX eip esp ebp) i ps
             (mkX ra (esp + (w_locals i + w_saved i + spec_gcps below) + 4) ebp) His Hl); cbn [x_eip x_esp]; try lia.
  - f_equal. rewrite <- (spec_gcps_snoc below ps). apply IH; [rewrite is_nil_snoc, spec_gcps_snoc; exact Hrest|lia|exact Hbp].
  - exact (fpo_step_ok mem below _ (mkX eip esp ebp) i false _ ra ebp Habp Hctx Hfs Hm (proj2 Hra) Htop eq_refl Hbp).
Qed.

Theorem fpo_recovers_chain_bp : forall mem in_stack lookup (acts : list act_bp) below eip esp ebp,
  fpo_layout_bp mem in_stack lookup (is_nil below) (spec_gcps below) eip esp ebp acts ->
  0 <= esp ->
  fpo_walk (length acts) mem in_stack lookup below (mkX eip esp ebp) = fpo_chain_bp (spec_gcps below) esp acts.
Proof.
  intros mem in_stack lookup acts. induction acts as [|[[[i ps] ra] bp'] rest IH]; intros below eip esp ebp HL Hesp; [reflexivity|].
  cbn [fpo_layout_bp] in HL.
  destruct HL as (Hl & His & Hfs & Hl0 & Hs0 & Hg0 & Hm & Hra & Htop & Hctx & Hthing & Hbp32 & Hrest).
  cbn [length fpo_chain_bp].
  rewrite (fpo_walk_step _ mem in_stack lookup below (mkX eip esp ebp) i ps
             (mkX ra (esp + (w_locals i + w_saved i + spec_gcps below) + 4) bp') His Hl); cbn [x_eip x_esp]; try lia.
  - f_equal. rewrite <- (spec_gcps_snoc below ps). apply IH; [rewrite is_nil_snoc, spec_gcps_snoc; exact Hrest|lia].
  - destruct (w_thing i) as [e|abp] eqn:Et; [contradiction|].
    apply (fpo_step_ok mem below _ (mkX eip esp ebp) i abp _ ra bp' Et Hctx Hfs Hm (proj2 Hra) Htop); [|exact Hbp32].
    cbn [x_esp x_ebp]. destruct abp; [repeat split; try lia; apply Hthing|exact Hthing].
Qed.

(* direct recursion from a single call site: every return-address slot holds the same address rr, which is also each
   activation's own eip; above the context frame nothing is skipped *)
Theorem fpo_recursion_chain : forall (n : nat) mem in_stack lookup i ps F rr ebp below esp0,
  let gcps := match ps with Some k => k | None => 0 end in
  below <> [] -> spec_gcps below = gcps ->
  w_thing i = AllocatesBasePointer false ->
  win_frame_size i gcps = Some F -> 0 <= F ->
  lookup rr = Some (i, ps) ->
  4096 <= rr < 2 ^ 32 -> ebp < 2 ^ 32 -> 0 <= esp0 ->
  esp0 + Z.of_nat n * (F + 4) < 2 ^ 32 ->
  (forall k, (k < n)%nat -> in_stack (esp0 + Z.of_nat k * (F + 4)) = true /\
                            mem (esp0 + Z.of_nat k * (F + 4) + F) = Some rr) ->
  fpo_walk n mem in_stack lookup below (mkX rr esp0 ebp) =
    map (fun k => mkX rr (esp0 + Z.of_nat (S k) * (F + 4)) ebp) (seq 0 n).
Proof.
  induction n as [|n IH]; intros mem in_stack lookup i ps F rr ebp below esp0 gcps Hne Hg Habp Hfs HF Hl Hrr Hbp Hesp Htop Hmem;
    [reflexivity|].
  destruct (Hmem 0%nat ltac:(lia)) as [His Hm0]. rewrite Z.add_0_r in His, Hm0.
  assert (Hnil : is_nil below = false) by (destruct below; [contradiction|reflexivity]).
  rewrite (fpo_walk_step n mem in_stack lookup below (mkX rr esp0 ebp) i ps (mkX rr (esp0 + F + 4) ebp) (fun _ => His) Hl);
    cbn [x_eip x_esp]; try lia.
  - cbn [seq map]. rewrite <- seq_shift, map_map. f_equal; [f_equal; lia|].
    rewrite (IH mem in_stack lookup i ps F rr ebp (below ++ [mkSF ps]) (esp0 + F + 4)); try assumption; try lia.
    + apply map_ext. intro k. f_equal. lia.
    + intro Hc. apply app_eq_nil in Hc. destruct Hc as [_ Hc]. discriminate Hc.
    + apply spec_gcps_snoc.
    + intros k Hk. replace (esp0 + F + 4 + Z.of_nat k * (F + 4)) with (esp0 + Z.of_nat (S k) * (F + 4)) by lia.
      apply Hmem. lia.
  - refine (fpo_step_ok mem below _ (mkX rr esp0 ebp) i false F rr ebp Habp _ _ Hm0 (proj2 Hrr) _ eq_refl Hbp); cbn [x_esp];
      [rewrite Hnil; discriminate|rewrite Hg; exact Hfs|lia].
Qed.
