(* C07/Proofs3.v — program strings refine the documented semantics [win_spec]. *)
From Coq Require Import Lia.
From RM Require Import C06.Model C06.Proofs C07.Model C07.Proofs C07.Proofs2.
From RM Require C06.Proofs3.
Import ListNotations.
Open Scope Z_scope.

Definition u32 (v : Z) : Prop := 0 <= v < two32.

Lemma vset_keys : forall k v m x, In x (map fst (vset k v m)) -> x = k \/ In x (map fst m).
Proof.
  induction m as [|[k2 v2] r IH]; cbn [vset]; intros x H.
  - cbn in H. destruct H as [H|[]]; auto.
  - destruct (beq k k2) eqn:E.
    + apply beq_eq in E. subst. cbn in *. destruct H; auto.
    + cbn in *. destruct H as [H|H]; auto. apply IH in H. destruct H; auto.
Qed.
Lemma vset_nodup : forall k v m, NoDupKeys m -> NoDupKeys (vset k v m).
Proof.
  unfold NoDupKeys. induction m as [|[k2 v2] r IH]; cbn [vset]; intro H.
  - cbn. constructor; [intros []|constructor].
  - destruct (beq k k2) eqn:E.
    + apply beq_eq in E. subst. exact H.
    + cbn in *. inversion H as [|? ? Hn Hd]; subst. constructor; [|apply IH; exact Hd].
      intro Hin. apply vset_keys in Hin. destruct Hin as [Hin|Hin]; [|contradiction].
      subst. rewrite beq_refl in E. discriminate.
Qed.
Lemma vdel_keys : forall k m x, In x (map fst (vdel k m)) -> In x (map fst m).
Proof.
  induction m as [|[k2 v2] r IH]; cbn [vdel]; intros x H; [exact H|].
  destruct (beq k k2); cbn in *; [right; exact H|]. destruct H as [H|H]; auto.
Qed.
Lemma vdel_nodup : forall k m, NoDupKeys m -> NoDupKeys (vdel k m).
Proof.
  unfold NoDupKeys. induction m as [|[k2 v2] r IH]; cbn [vdel]; intro H; [exact H|].
  cbn in H. inversion H as [|? ? Hn Hd]; subst.
  destruct (beq k k2); [exact Hd|]. cbn. constructor; [|apply IH; exact Hd].
  intro Hin. apply Hn. eapply vdel_keys; eauto.
Qed.
(* x land (ones n xor ones k) clears the k low bits of an n-bit x: it is x ldiff ones k, i.e. (x / 2^k) * 2^k *)
Lemma align_pow2_w : forall n x k, 0 <= x < 2 ^ n -> 0 <= k < n ->
  Z.land x (Z.lxor (2 ^ n - 1) (2 ^ k - 1)) = x - x mod 2 ^ k.
Proof.
  intros n x k Hx Hk.
  replace (2 ^ n - 1) with (Z.ones n) by (rewrite Z.ones_equiv; lia).
  replace (2 ^ k - 1) with (Z.ones k) by (rewrite Z.ones_equiv; lia).
  assert (E : Z.land x (Z.lxor (Z.ones n) (Z.ones k)) = Z.ldiff x (Z.ones k)).
  { apply Z.bits_inj'. intros i Hi.
    rewrite Z.land_spec, Z.lxor_spec, Z.ldiff_spec.
    destruct (Z_lt_le_dec i k) as [H1|H1].
    - rewrite (Z.ones_spec_low k i) by lia. rewrite (Z.ones_spec_low n i) by lia.
      cbn. rewrite !andb_false_r. reflexivity.
    - rewrite (Z.ones_spec_high k i) by lia.
      destruct (Z_lt_le_dec i n) as [H2|H2].
      + rewrite (Z.ones_spec_low n i) by lia. reflexivity.
      + rewrite (Z.ones_spec_high n i) by lia. cbn. rewrite andb_false_r, andb_true_r.
        symmetry. destruct (Z.eq_dec x 0) as [->|Hne]; [apply Z.bits_0|].
        apply Z.bits_above_log2; [lia|].
        assert (Z.log2 x < n) by (apply Z.log2_lt_pow2; lia). lia. }
  rewrite E. rewrite Z.ldiff_ones_r by lia.
  rewrite Z.shiftr_div_pow2, Z.shiftl_mul_pow2 by lia.
  pose proof (Z.div_mod x (2 ^ k)) as D. assert (0 < 2 ^ k) by (apply Z.pow_pos_nonneg; lia). lia.
Qed.

Definition vars_u32 (m : vars) : Prop := forall k v, vget k m = Some v -> u32 v.
Definition item_u32 (x : winval) : Prop := match x with WInt v => u32 v | _ => True end.
Definition state_inv (ms : vars * list winval) : Prop :=
  NoDupKeys (fst ms) /\ vars_u32 (fst ms) /\ Forall item_u32 (snd ms).

Lemma into_int_u32 : forall m x v, vars_u32 m -> item_u32 x -> into_int m x = Some v -> u32 v.
Proof.
  intros m x v Hm Hx H. destruct x as [n|w|]; cbn in *; [eapply Hm; eauto|inversion H; subst; exact Hx|discriminate].
Qed.
Lemma wrap32_u32 : forall v, u32 (wrap32 v).
Proof. intro v. unfold u32, wrap32. apply Z.mod_pos_bound. reflexivity. Qed.
Lemma vars_u32_vset : forall k v m, vars_u32 m -> u32 v -> vars_u32 (vset k v m).
Proof.
  intros k v m Hm Hv k2 v2 H. rewrite vget_vset in H. destruct (beq k2 k); [inversion H; subst; exact Hv|eapply Hm; eauto].
Qed.
Lemma vars_u32_vdel : forall k m, NoDupKeys m -> vars_u32 m -> vars_u32 (vdel k m).
Proof.
  intros k m Hn Hm k2 v2 H. rewrite (vget_vdel k2 k m Hn) in H. destruct (beq k2 k); [discriminate|eapply Hm; eauto].
Qed.

(* the refinement relation: same stack, the map read as a function *)
Definition state_rel (ms : vars * list winval) (fs : venv * list winval) : Prop :=
  snd ms = snd fs /\ forall k, vget k (fst ms) = fst fs k.

Definition step_agrees (r : outcome (vars * list winval)) (o : option (venv * list winval)) : Prop :=
  match r, o with
  | Ret ms', Some fs' => state_rel ms' fs' /\ state_inv ms'
  | Fail, None => True
  | _, _ => False
  end.

(* ---- how a step's two results agree: the shapes that occur ---- *)
Lemma agrees_same : forall m st, state_inv (m, st) -> step_agrees (Ret (m, st)) (Some (fun k => vget k m, st)).
Proof. intros m st H. split; [split; [reflexivity|intro; reflexivity]|exact H]. Qed.

Lemma agrees_push : forall m st x, state_inv (m, st) -> item_u32 x ->
  step_agrees (Ret (m, x :: st)) (Some (fun k => vget k m, x :: st)).
Proof. intros m st x (Hn & Hm & Hst) Hx. apply agrees_same. split; [exact Hn|]. split; [exact Hm|]. constructor; assumption. Qed.

Lemma agrees_assign : forall m n v s, state_inv (m, s) -> u32 v ->
  step_agrees (Ret (vset n v m, s)) (Some (fupd (fun k => vget k m) n (Some v), s)).
Proof.
  intros m n v s (Hn & Hm & Hs) Hv. split; [split; [reflexivity|intro k; cbn [fst]; rewrite vget_vset; reflexivity]|].
  split; [apply vset_nodup; exact Hn|]. split; [apply vars_u32_vset; assumption|exact Hs].
Qed.

Lemma agrees_undef : forall m n s, state_inv (m, s) ->
  step_agrees (Ret (vdel n m, s)) (Some (fupd (fun k => vget k m) n None, s)).
Proof.
  intros m n s (Hn & Hm & Hs). split; [split; [reflexivity|intro k; cbn [fst]; rewrite (vget_vdel k n m Hn); reflexivity]|].
  split; [apply vdel_nodup; exact Hn|]. split; [apply vars_u32_vdel; assumption|exact Hs].
Qed.

(* a binary operator: the stack handling is [wbin]'s, the arithmetic is compared on two 32-bit values *)
Lemma wbin_agrees : forall m st (f : Z -> Z -> outcome Z) (g : Z -> Z -> option Z), state_inv (m, st) ->
  (forall l r, u32 l -> u32 r -> match f l r, g l r with
                                 | Ret v, Some v' => v = v' /\ u32 v
                                 | Fail, None => True
                                 | _, _ => False end) ->
  step_agrees (wbin m st f)
    (match st with
     | y :: x :: s => match wint (fun k => vget k m) y, wint (fun k => vget k m) x with
                      | Some r, Some l => match g l r with Some v => Some (fun k => vget k m, WInt v :: s) | None => None end
                      | _, _ => None end
     | _ => None end).
Proof.
  intros m st f g (Hn & Hm & Hst) Hfg. unfold wbin.
  destruct st as [|y [|x s]]; [exact I|destruct (into_int m y); exact I|].
  inversion Hst as [|? ? Hy Hst1]; subst. inversion Hst1 as [|? ? Hx Hs]; subst.
  change (wint (fun k => vget k m) y) with (into_int m y). change (wint (fun k => vget k m) x) with (into_int m x).
  destruct (into_int m y) as [rv|] eqn:Ey; [|exact I].
  destruct (into_int m x) as [lv|] eqn:Ex; [|exact I].
  specialize (Hfg lv rv (into_int_u32 _ _ _ Hm Hx Ex) (into_int_u32 _ _ _ Hm Hy Ey)).
  destruct (f lv rv) as [v| | |], (g lv rv) as [v'|]; try contradiction; cbn [obind]; [|exact I].
  destruct Hfg as [-> Hv]. apply agrees_push; [split; [exact Hn|split; [exact Hm|exact Hs]]|exact Hv].
Qed.

Lemma wbin_refines : forall p E c m st,
  is_binop_byte c = true -> state_inv (m, st) ->
  step_agrees (win_step p E [c] (m, st)) (wspec_step E (KBin c) (fun k => vget k m, st)).
Proof.
  intros p E c m st Hc Hinv. unfold is_binop_byte in Hc.
  repeat (apply orb_prop in Hc; destruct Hc as [Hc|Hc]); apply Z.eqb_eq in Hc; subst c;
    apply (wbin_agrees m st _ (fun l r => spec_bin32 _ l r) Hinv); intros l r [Hl1 Hl2] [Hr1 Hr2].
  1-3: (* + - * *) cbn; split; [reflexivity|apply wrap32_u32].
  - (* / *) cbn. destruct (r =? 0) eqn:E0; [exact I|]. apply Z.eqb_neq in E0.
    split; [reflexivity|]. unfold u32. split; [apply Z.div_pos; lia|].
    assert (l / r <= l) by (apply Z.div_le_upper_bound; nia). lia.
  - (* % *) cbn. destruct (r =? 0) eqn:E0; [exact I|]. apply Z.eqb_neq in E0.
    split; [reflexivity|]. unfold u32. pose proof (Z.mod_pos_bound l r). lia.
  - (* @ *) unfold spec_bin32. cbn [Z.eqb Pos.eqb]. unfold is_pow2.
    destruct ((0 <? r) && (r =? 2 ^ Z.log2 r)) eqn:Ep; cbn [negb]; [|rewrite orb_true_r; exact I].
    apply andb_prop in Ep. destruct Ep as [P1 P2]. apply Z.ltb_lt in P1. apply Z.eqb_eq in P2.
    replace (r =? 0) with false by (symmetry; apply Z.eqb_neq; lia). cbn [orb].
    unfold chk_usub. replace (0 <=? r - 1) with true by (symmetry; apply Z.leb_le; lia). cbn [obind].
    assert (Hk : 0 <= Z.log2 r < 32).
    { split; [apply Z.log2_nonneg|]. apply Z.log2_lt_pow2; [lia|]. unfold two32 in Hr2. lia. }
    assert (Ha : Z.land l (Z.lxor U32MAX (r - 1)) = l - l mod r).
    { rewrite P2 at 1 2. change U32MAX with (2 ^ 32 - 1). unfold two32 in Hl2.
      rewrite (align_pow2_w 32 l (Z.log2 r)); [|change (2 ^ 32) with 4294967296; lia|exact Hk].
      rewrite <- P2. reflexivity. }
    rewrite Ha. split; [reflexivity|]. unfold u32.
    pose proof (Z.mod_pos_bound l r P1). pose proof (Z.mod_le l r). lia.
Qed.

(* `=`: the value of an integer or of a defined variable is assigned, `.undef` deletes *)
Lemma assign_refines : forall p E m st, state_inv (m, st) ->
  step_agrees (win_step p E T_eq (m, st)) (wspec_step E KAssign (fun k => vget k m, st)).
Proof.
  intros p E m st (Hn & Hm & Hst). destruct st as [|y [|x s]]; try exact I.
  inversion Hst as [|? ? Hy Hst1]; subst. inversion Hst1 as [|? ? Hx Hs]; subst.
  assert (Hinv : state_inv (m, s)) by (split; [exact Hn|split; [exact Hm|exact Hs]]).
  destruct x as [n|xv|]; try exact I.
  destruct y as [yn|yv|]; [|exact (agrees_assign m n yv s Hinv Hy)|exact (agrees_undef m n s Hinv)].
  change (win_step p E T_eq (m, WVar yn :: WVar n :: s)) with
    (match vget yn m with Some v => Ret (vset n v m, s) | None => Fail end).
  cbn [wspec_step wint]. destruct (vget yn m) as [v|] eqn:Ev; [|exact I]. apply agrees_assign; [exact Hinv|eapply Hm; eauto].
Qed.

(* `^`: the word at the address on top of the stack, wrapped to 32 bits *)
Lemma deref_refines : forall p E m st, state_inv (m, st) ->
  step_agrees (win_step p E T_caret (m, st)) (wspec_step E KDeref (fun k => vget k m, st)).
Proof.
  intros p E m st (Hn & Hm & Hst). destruct st as [|x s]; [exact I|]. inversion Hst as [|? ? Hx Hs]; subst.
  change (win_step p E T_caret (m, x :: s)) with
    (match into_int m x with
     | None => Fail
     | Some ptr => match e_mem E ptr with Some v => Ret (m, WInt (wrap32 v) :: s) | None => Fail end
     end).
  cbn [wspec_step]. change (wint (fun k => vget k m) x) with (into_int m x).
  destruct (into_int m x) as [a|]; [|exact I]. destruct (e_mem E a) as [v|]; [|exact I].
  apply agrees_push; [split; [exact Hn|split; [exact Hm|exact Hs]]|apply wrap32_u32].
Qed.

Lemma beq_singleton : forall c k, beq [c] [k] = (c =? k).
Proof. intros. cbn [beq]. apply andb_true_r. Qed.
Lemma beq_singleton_long : forall c k1 k2 r, beq [c] (k1 :: k2 :: r) = false.
Proof. intros. cbn [beq]. apply andb_false_r. Qed.
Lemma beq_long_singleton : forall c c2 r k, beq (c :: c2 :: r) [k] = false.
Proof. intros. cbn [beq]. apply andb_false_r. Qed.

(* a token that is none of the nine operators / keywords is a variable name or an integer literal *)
Lemma win_step_other : forall p E t m st,
  beq t T_plus = false -> beq t T_minus = false -> beq t T_star = false -> beq t T_slash = false ->
  beq t T_pct = false -> beq t T_at = false -> beq t T_eq = false -> beq t T_caret = false -> beq t T_undef = false ->
  win_step p E t (m, st) =
  if starts_var t then Ret (m, WVar t :: st)
  else match parse_int 64 t with Some v => Ret (m, WInt (wrap32 v) :: st) | None => Fail end.
Proof.
  intros p E t m st Hplus Hminus Hstar Hslash Hpct Hat Heq Hcaret Hundef. unfold win_step.
  rewrite Hplus, Hminus, Hstar, Hslash, Hpct, Hat, Heq, Hcaret, Hundef. reflexivity.
Qed.

Lemma win_step_refines : forall p E t m st,
  state_inv (m, st) ->
  step_agrees (win_step p E t (m, st)) (wspec_step E (win_lex t) (fun k => vget k m, st)).
Proof.
  intros p E t m st Hinv. destruct t as [|c [|c2 r]].
  - (* empty token *) cbn. exact I.
  - cbn [win_lex].
    destruct (is_binop_byte c) eqn:Eb; [apply wbin_refines; assumption|].
    unfold is_binop_byte in Eb.
    repeat match goal with H : (_ || _) = false |- _ => apply orb_false_elim in H; destruct H end.
    destruct (c =? 61) eqn:E61; [apply Z.eqb_eq in E61; subst c; exact (assign_refines p E m st Hinv)|].
    destruct (c =? 94) eqn:E94; [apply Z.eqb_eq in E94; subst c; exact (deref_refines p E m st Hinv)|].
    rewrite (win_step_other p E [c]); unfold T_plus, T_minus, T_star, T_slash, T_pct, T_at, T_eq, T_caret, T_undef;
      rewrite ?beq_singleton, ?beq_singleton_long; try assumption; try reflexivity.
    cbn [starts_var].
    destruct ((c =? 36) || (c =? 46)) eqn:Ev; [exact (agrees_push m st (WVar [c]) Hinv I)|].
    rewrite C06.Proofs3.parse_int_single.
    destruct (digit c) as [d|]; [exact (agrees_push m st (WInt (wrap32 d)) Hinv (wrap32_u32 d))|exact I].
  - set (t := c :: c2 :: r) in *.
    unfold win_lex. fold t. change (match t with [c0] => _ | _ => ?x end) with x.
    destruct (beq t T_undef) eqn:Eund.
    { apply beq_eq in Eund. rewrite Eund. exact (agrees_push m st WUndef Hinv I). }
    rewrite (win_step_other p E t); unfold t, T_plus, T_minus, T_star, T_slash, T_pct, T_at, T_eq, T_caret;
      rewrite ?beq_long_singleton; try reflexivity; [|exact Eund].
    fold t. destruct (starts_var t); [exact (agrees_push m st (WVar t) Hinv I)|].
    destruct (parse_int 64 t) as [v|]; [exact (agrees_push m st (WInt (wrap32 v)) Hinv (wrap32_u32 v))|exact I].
Qed.

(* ---- the spec only looks at the function's values ---- *)
Definition feq (f g : venv) : Prop := forall k, f k = g k.
Lemma wint_ext : forall f g x, feq f g -> wint f x = wint g x.
Proof. intros f g x H. destruct x; cbn; auto. Qed.
Lemma fupd_ext : forall f g n o, feq f g -> feq (fupd f n o) (fupd g n o).
Proof. intros f g n o H k. unfold fupd. destruct (beq k n); [reflexivity|apply H]. Qed.

Lemma wspec_step_ext : forall E k f g st,
  feq f g ->
  match wspec_step E k (f, st), wspec_step E k (g, st) with
  | Some (f', st1), Some (g', st2) => st1 = st2 /\ feq f' g'
  | None, None => True
  | _, _ => False
  end.
Proof.
  intros E k f g st H. destruct k; cbn [wspec_step].
  - destruct st as [|y [|x s]]; try exact I.
    rewrite (wint_ext f g y H), (wint_ext f g x H).
    destruct (wint g y); [|exact I]. destruct (wint g x); [|exact I].
    destruct (spec_bin32 op z0 z); [split; [reflexivity|exact H]|exact I].
  - destruct st as [|y [|x s]]; try exact I. destruct x as [n|xv|]; try exact I.
    destruct y as [yn|yv|]; cbn [wint]; [rewrite (H yn); destruct (g yn); [|exact I]| |];
      (split; [reflexivity|apply fupd_ext; exact H]).
  - destruct st as [|x s]; [exact I|]. rewrite (wint_ext f g x H).
    destruct (wint g x); [|exact I]. destruct (e_mem E z); [split; [reflexivity|exact H]|exact I].
  - split; [reflexivity|exact H].
  - split; [reflexivity|exact H].
  - split; [reflexivity|exact H].
  - exact I.
Qed.

Lemma wspec_run_ext : forall E prog f g st,
  feq f g ->
  match wspec_run E prog (f, st), wspec_run E prog (g, st) with
  | Some (f', st1), Some (g', st2) => st1 = st2 /\ feq f' g'
  | None, None => True
  | _, _ => False
  end.
Proof.
  induction prog as [|k r IH]; intros f g st H; cbn [wspec_run]; [split; [reflexivity|exact H]|].
  pose proof (wspec_step_ext E k f g st H) as Hs.
  destruct (wspec_step E k (f, st)) as [[f1 st1]|], (wspec_step E k (g, st)) as [[g1 st2]|]; try contradiction; [|exact I].
  destruct Hs as [-> Hfg]. apply IH. exact Hfg.
Qed.

Lemma win_loop_refines : forall p E toks m st f,
  state_inv (m, st) -> feq (fun k => vget k m) f ->
  match win_loop p E toks (m, st), wspec_run E (map win_lex toks) (f, st) with
  | Ret (m', st'), Some (f', st'') => st' = st'' /\ feq (fun k => vget k m') f'
  | Fail, None => True
  | _, _ => False
  end.
Proof.
  induction toks as [|t r IH]; intros m st f Hinv Hf; cbn [win_loop map wspec_run]; [split; [reflexivity|exact Hf]|].
  pose proof (win_step_refines p E t m st Hinv) as Hs.
  pose proof (wspec_step_ext E (win_lex t) (fun k => vget k m) f st Hf) as He.
  cbv beta in He. unfold venv in *.
  destruct (wspec_step E (win_lex t) (fun k => vget k m, st)) as [[f1 sst1]|] eqn:S1;
    destruct (wspec_step E (win_lex t) (f, st)) as [[g1 sst2]|] eqn:S2; try contradiction;
    destruct (win_step p E t (m, st)) as [[m1 st1]| | |] eqn:S3; cbn [step_agrees] in Hs; try contradiction;
    cbn [obind]; [|exact I].
  unfold state_rel in Hs. destruct Hs as [[Hst Hfn] Hinv1]. cbn [fst snd] in Hst, Hfn.
  destruct He as [He1 He2]. subst sst1 sst2.
  apply IH; [exact Hinv1|]. intro k. rewrite Hfn. apply He2.
Qed.

Definition info_u32 (i : win_info) : Prop := u32 (w_params i) /\ u32 (w_saved i) /\ u32 (w_locals i).

Lemma initial_refines : forall E i e,
  info_u32 i -> u32 (e_gcps E) ->
  match win_initial_vars E i e, win_spec_init E i e with
  | Some m, Some f => feq (fun k => vget k m) f /\ state_inv (m, [])
  | None, None => True
  | _, _ => False
  end.
Proof.
  intros E i e [Hp [Hs Hl]] Hg. unfold win_initial_vars, win_spec_init.
  destruct (e_callee E N_esp) as [esp|]; [|exact I].
  destruct (e_callee E N_ebp) as [ebp|]; [|exact I].
  unfold win_frame_size, checked_add. change (2 ^ 32) with two32.
  pose proof (wrap32_u32 esp) as Hesp. pose proof (wrap32_u32 ebp) as Hebp. unfold wrap32 in *.
  destruct (w_locals i + w_saved i <? two32) eqn:E1; cbn [andb]; [|exact I].
  destruct (w_locals i + w_saved i + e_gcps E <? two32) eqn:E2; cbn [andb]; [|exact I].
  set (ss := if contains_at e then ebp mod two32 + 4 else esp mod two32 + (w_locals i + w_saved i + e_gcps E)).
  assert (Hss : (if contains_at e then (if ebp mod two32 + 4 <? two32 then Some (ebp mod two32 + 4) else None)
                 else (if esp mod two32 + (w_locals i + w_saved i + e_gcps E) <? two32
                       then Some (esp mod two32 + (w_locals i + w_saved i + e_gcps E)) else None))
                = if ss <? two32 then Some ss else None).
  { unfold ss. destruct (contains_at e); reflexivity. }
  rewrite Hss. destruct (ss <? two32) eqn:E3; [|exact I].
  apply Z.ltb_lt in E1. apply Z.ltb_lt in E2. apply Z.ltb_lt in E3.
  assert (Hss0 : u32 ss).
  { unfold u32 in *. unfold ss in *. destruct (contains_at e); lia. }
  split.
  - intro k. rewrite !vget_vset.
    repeat match goal with |- (if beq k ?c then _ else _) = (if beq k ?c then _ else _) =>
             destruct (beq k c); [reflexivity|] end.
    destruct (e_callee E N_ebx) as [b|]; cbn [option_map].
    + rewrite !vget_vset. reflexivity.
    + rewrite !vget_vset. destruct (beq k D_ebx) eqn:B; [|reflexivity].
      apply beq_eq in B. subst k. reflexivity.
  - unfold state_inv. cbn [fst snd]. split; [|split; [|constructor]].
    + repeat apply vset_nodup. destruct (e_callee E N_ebx); repeat apply vset_nodup; constructor.
    + repeat (apply vars_u32_vset; [|assumption]).
      destruct (e_callee E N_ebx) as [b|]; repeat (apply vars_u32_vset; [|try assumption; try apply wrap32_u32]);
        intros k v H; discriminate H.
Qed.

Theorem win_refines_spec : forall p E i e,
  info_u32 i -> u32 (e_gcps E) ->
  match win_final_vars p E i e, win_spec E i e with
  | Ret (Some m), Some f => forall k, vget k m = f k
  | Ret None, None => True
  | _, _ => False
  end.
Proof.
  intros p E i e Hi Hg. unfold win_final_vars, win_spec.
  pose proof (initial_refines E i e Hi Hg) as H0.
  destruct (win_initial_vars E i e) as [m|], (win_spec_init E i e) as [f|]; try contradiction; [|exact I].
  destruct H0 as [Hf Hinv].
  pose proof (win_loop_refines p E (win_tokens e) m [] f Hinv Hf) as Hl.
  destruct (win_loop p E (win_tokens e) (m, [])) as [[m' st']| | |];
    destruct (wspec_run E (map win_lex (win_tokens e)) (f, [])) as [[f' st'']|]; try contradiction; [|exact I].
  destruct Hl as [_ Hl]. exact Hl.
Qed.
