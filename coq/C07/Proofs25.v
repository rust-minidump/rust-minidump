(* C07/Proofs25.v — whole x86 walks through frame-data records.  Every well-formed stack whose functions carry
   FPO records (with or without base pointer) or frame-data records with the program
   `$T0 .raSearch = $eip $T0 ^ = $esp $T0 4 + =`, in any mix and to any depth, is walked to exactly its generated chain;
   so is every stack of standard ebp frames (the docs' program); and all four kinds (FPO without / with base pointer, frame data with the .raSearch program, frame data with the
   ebp-frame program) in one stack: each
   activation must satisfy the one-activation layout of its own kind. *)
From Coq Require Import Lia.
From RM Require Import Base.Word C06.Model C06.Proofs C07.Model C07.Walker C07.WalkerFd C07.Proofs C07.Proofs2 C07.Proofs3
                       C07.Proofs11 C07.Proofs18.
Import ListNotations.
Open Scope Z_scope.

Lemma wrap32_small : forall v, 0 <= v < 2 ^ 32 -> wrap32 v = v.
Proof. intros. unfold wrap32, two32. apply Z.mod_small. lia. Qed.

(* WalkerFd.v spells the two standard programs as byte lists, Proofs18.v as strings: the same bytes *)
Lemma prog_ra_search_b_eq : prog_ra_search_b = prog_ra_search.
Proof. reflexivity. Qed.
Lemma prog_ebp_frame_b_eq : prog_ebp_frame_b = prog_ebp_frame.
Proof. reflexivity. Qed.

(* the environment win_xstep evaluates in; its instruction is 0 because evaluation never reads e_instr (only the table
   lookup does: Proofs20.v framedata_instr / fpo_instr) *)
Definition step_env (mem : Z -> option Z) (below : list sframe) (callee : sframe) (r : xregs) : env :=
  frames_env (fun n => assoc n [(N_eip, x_eip r); (N_esp, x_esp r); (N_ebp, x_ebp r)]) mem 0 below callee.

(* the program's final variables define eip, esp, ebp and leave the other outputs undefined *)
Lemma fd_xstep : forall mem below callee r i e m a b c,
  w_thing i = ProgramString e ->
  win_final_vars Debug (step_env mem below callee r) i e = Ret (Some m) ->
  vget D_eip m = Some a -> vget D_esp m = Some b -> vget D_ebp m = Some c ->
  vget D_ebx m = None -> vget D_esi m = None -> vget D_edi m = None ->
  a < 2 ^ 32 -> b < 2 ^ 32 -> c < 2 ^ 32 ->
  win_xstep mem below callee r i = Some (mkX a b c).
Proof.
  intros mem below callee r i e m a b c Hth Hf G1 G2 G3 G4 G5 G6 Ha Hb Hc.
  unfold win_xstep. rewrite Hth. fold (step_env mem below callee r). unfold walk_win_framedata. rewrite Hf. cbn [obind].
  set (s0 := clear_all (mock_ops 4) win_clear_names m_init).
  unfold win_outputs. cbn [set_outputs]. rewrite G1, G2, G3, G4, G5, G6.
  repeat (rewrite mock_set_ok by (reflexivity || assumption); cbv beta iota). reflexivity.
Qed.

(* the variables before a program without '@' runs, for 32-bit esp / ebp and a frame that fits *)
Lemma fd_initial : forall mem below callee r i e fs,
  contains_at e = false -> win_frame_size i (spec_gcps below) = Some fs ->
  0 <= x_esp r < 2 ^ 32 -> 0 <= x_ebp r < 2 ^ 32 -> x_esp r + fs < 2 ^ 32 ->
  exists m, win_initial_vars (step_env mem below callee r) i e = Some m /\
    vget D_ebp m = Some (x_ebp r) /\ vget V_raSearch m = Some (x_esp r + fs) /\
    vget D_ebx m = None /\ vget D_esi m = None /\ vget D_edi m = None.
Proof.
  intros mem below callee r i e fs He Hfs Hesp Hebp Hss. set (E := step_env mem below callee r).
  assert (Efs : win_frame_size i (e_gcps E) = Some fs)
    by (unfold E, step_env, frames_env; cbn [e_gcps]; rewrite walker_gcps_spec; exact Hfs).
  assert (Hi : exists m, win_initial_vars E i e = Some m).
  { unfold win_initial_vars. rewrite Efs, He. change (e_callee E N_esp) with (Some (x_esp r)).
    change (e_callee E N_ebp) with (Some (x_ebp r)). change (e_callee E N_ebx) with (@None Z). cbv iota.
    unfold checked_add. rewrite wrap32_small by exact Hesp. rewrite (proj2 (Z.ltb_lt _ _) Hss). eexists; reflexivity. }
  destruct Hi as [m Hi]. exists m. split; [exact Hi|].
  destruct (initial_vars_read E i e m (x_esp r) (x_ebp r) Hi eq_refl eq_refl) as (V2 & V3 & V4). specialize (V4 fs Efs).
  rewrite He, wrap32_small in V4 by exact Hesp. rewrite wrap32_small in V2 by exact Hebp.
  destruct (initial_undefined _ _ _ _ Hi) as (N1 & N2 & _ & _). auto.
Qed.

Lemma fd_step_ok : forall mem below callee r i fs ra,
  w_thing i = ProgramString prog_ra_search_b ->
  win_frame_size i (spec_gcps below) = Some fs ->
  0 <= x_esp r -> 0 <= fs ->
  mem (x_esp r + fs) = Some ra ->
  0 <= ra < 2 ^ 32 -> x_esp r + fs + 4 < 2 ^ 32 -> 0 <= x_ebp r < 2 ^ 32 ->
  win_xstep mem below callee r i = Some (mkX ra (x_esp r + fs + 4) (x_ebp r)).
Proof.
  intros mem below callee r i fs ra Hth Hfs Hesp0 Hfs0 Hm Hra Hsp Hbp.
  rewrite prog_ra_search_b_eq in Hth.
  destruct (fd_initial mem below callee r i prog_ra_search fs eq_refl Hfs) as (m & Hi & V2 & V4 & V3 & N1 & N2); try lia.
  pose proof (ra_search_vars Debug _ i m _ ra Hi V4 Hm) as Hf.
  apply (fd_xstep mem below callee r i _ _ _ _ _ Hth Hf); try lia; vget_through; try assumption;
    rewrite wrap32_small by lia; reflexivity.
Qed.

Lemma fd_step_ebp_ok : forall mem below callee r i fs ra bp',
  w_thing i = ProgramString prog_ebp_frame_b ->
  win_frame_size i (spec_gcps below) = Some fs -> 0 <= fs -> x_esp r + fs < 2 ^ 32 ->
  0 <= x_esp r < 2 ^ 32 -> 0 <= x_ebp r -> x_ebp r + 8 < 2 ^ 32 ->
  mem (x_ebp r + 4) = Some ra -> 0 <= ra < 2 ^ 32 -> mem (x_ebp r) = Some bp' -> 0 <= bp' < 2 ^ 32 ->
  win_xstep mem below callee r i = Some (mkX ra (x_ebp r + 8) bp').
Proof.
  intros mem below callee r i fs ra bp' Hth Hfs Hfs0 Hss Hesp Hbp0 Hbp8 Hra Hra32 Hold Hold32.
  rewrite prog_ebp_frame_b_eq in Hth.
  destruct (fd_initial mem below callee r i prog_ebp_frame fs eq_refl Hfs) as (m & Hi & V2 & _ & V3 & N1 & N2); try lia.
  assert (Hm1 : e_mem (step_env mem below callee r) (wrap32 (x_ebp r + 4)) = Some ra) by (rewrite wrap32_small by lia; exact Hra).
  pose proof (ebp_frame_vars Debug _ i m _ ra bp' Hi V2 Hm1 Hold) as Hf.
  apply (fd_xstep mem below callee r i _ _ _ _ _ Hth Hf); try lia; vget_through; try assumption;
    rewrite wrap32_small by lia; reflexivity.
Qed.

Lemma win_walk_step : forall k mem in_stack lookup below r i ps r',
  (is_nil below = false -> in_stack (x_esp r) = true) ->
  lookup (x_eip r) = Some (i, ps) ->
  win_xstep mem below (mkSF ps) r i = Some r' ->
  4096 <= x_eip r' -> x_esp r < x_esp r' ->
  win_walk (S k) mem in_stack lookup below r = r' :: win_walk k mem in_stack lookup (below ++ [mkSF ps]) r'.
Proof.
  intros k mem in_stack lookup below r i ps r' His Hl Hstep Hip Hsp. cbn [win_walk]. rewrite Hl, Hstep.
  replace (match below with [] => true | _ :: _ => in_stack (x_esp r) end) with true
    by (destruct below; [reflexivity|symmetry; apply His; reflexivity]).
  rewrite (proj2 (Z.ltb_ge _ _) Hip), (proj2 (Z.leb_gt _ _) Hsp). reflexivity.
Qed.

Theorem win_recovers_chain : forall mem in_stack lookup ebp (acts : list act) below eip esp,
  win_layout mem in_stack lookup (is_nil below) (spec_gcps below) eip esp acts ->
  0 <= esp -> 0 <= ebp < 2 ^ 32 ->
  win_walk (length acts) mem in_stack lookup below (mkX eip esp ebp) = fpo_chain (spec_gcps below) esp ebp acts.
Proof.
  intros mem in_stack lookup ebp acts. induction acts as [|[[i ps] ra] rest IH]; intros below eip esp HL Hesp Hbp; [reflexivity|].
  cbn [win_layout] in HL. destruct HL as (Hl & Hkind & His & Hfs & HF & Hm & Hra & Htop & Hctx & Hrest).
  cbn [length fpo_chain].
  rewrite (win_walk_step _ mem in_stack lookup below (mkX eip esp ebp) i ps
             (mkX ra (esp + (w_locals i + w_saved i + spec_gcps below) + 4) ebp) His Hl); cbn [x_eip x_esp]; try lia.
  - f_equal. rewrite <- (spec_gcps_snoc below ps). apply IH; [rewrite is_nil_snoc, spec_gcps_snoc; exact Hrest|lia|exact Hbp].
  - destruct Hkind as [Habp|Hprog].
    + unfold win_xstep. rewrite Habp.
      exact (fpo_step_ok mem below _ (mkX eip esp ebp) i false _ ra ebp Habp (fun Hn => Hctx Hn Habp) Hfs Hm (proj2 Hra) Htop
               eq_refl (proj2 Hbp)).
    + apply (fd_step_ok mem below _ (mkX eip esp ebp) i); cbn [x_eip x_esp x_ebp]; try assumption; lia.
Qed.

Theorem win_recovers_chain_bp : forall mem in_stack lookup (acts : list act_bp) below eip esp ebp,
  win_layout_bp mem in_stack lookup (is_nil below) (spec_gcps below) eip esp ebp acts ->
  0 <= esp ->
  win_walk (length acts) mem in_stack lookup below (mkX eip esp ebp) = fpo_chain_bp (spec_gcps below) esp acts.
Proof.
  intros mem in_stack lookup acts. induction acts as [|[[[i ps] ra] bp'] rest IH]; intros below eip esp ebp HL Hesp; [reflexivity|].
  cbn [win_layout_bp] in HL.
  destruct HL as (Hl & His & Hfs & Hl0 & Hs0 & Hg0 & Hm & Hra & Htop & Hthing & Hbp32 & Hrest).
  cbn [length fpo_chain_bp].
  rewrite (win_walk_step _ mem in_stack lookup below (mkX eip esp ebp) i ps
             (mkX ra (esp + (w_locals i + w_saved i + spec_gcps below) + 4) bp') His Hl); cbn [x_eip x_esp]; try lia.
  - f_equal. rewrite <- (spec_gcps_snoc below ps). apply IH; [rewrite is_nil_snoc, spec_gcps_snoc; exact Hrest|lia].
  - destruct (w_thing i) as [e|abp] eqn:Et.
    + destruct Hthing as (He & Hb & Hb0). subst e bp'.
      apply (fd_step_ok mem below _ (mkX eip esp ebp) i); cbn [x_eip x_esp x_ebp]; try assumption; lia.
    + unfold win_xstep. rewrite Et.
      apply (fpo_step_ok mem below _ (mkX eip esp ebp) i abp _ ra bp' Et); cbn [x_eip x_esp x_ebp]; try assumption; try lia.
      * (* the context frame's slot does not hold its own eip *) destruct abp; apply Hthing.
      * (* the caller's ebp *) destruct abp; [repeat split; try lia; apply Hthing|apply Hthing].
Qed.

Theorem ebp_recovers_chain : forall mem in_stack lookup (acts : list act_bp) below eip esp ebp,
  ebp_layout mem in_stack lookup (is_nil below) (spec_gcps below) eip esp ebp acts ->
  win_walk (length acts) mem in_stack lookup below (mkX eip esp ebp) = ebp_chain ebp acts.
Proof.
  intros mem in_stack lookup acts. induction acts as [|[[[i ps] ra] bp'] rest IH]; intros below eip esp ebp HL; [reflexivity|].
  cbn [ebp_layout] in HL.
  destruct HL as (Hl & Hth & His & (fs & Hfs & Hfs0 & Hss) & Hesp & Hgrow & Hbp8 & Hbp0 & Hra & Hra32 & Hold & Hold32 & Hrest).
  cbn [length ebp_chain].
  rewrite (win_walk_step _ mem in_stack lookup below (mkX eip esp ebp) i ps (mkX ra (ebp + 8) bp') His Hl); cbn [x_eip x_esp]; try lia.
  - f_equal. apply IH. rewrite is_nil_snoc, spec_gcps_snoc. exact Hrest.
  - apply (fd_step_ebp_ok mem below _ (mkX eip esp ebp) i fs); cbn [x_eip x_esp x_ebp]; try assumption; lia.
Qed.

Definition is_ebp_rec (i : win_info) : bool := thing_eqb (w_thing i) (ProgramString prog_ebp_frame_b).

(* the caller's stack pointer after one activation: ebp + 8 through an ebp frame, esp + frame size + 4 otherwise *)
Definition mix_sp (gcps esp ebp : Z) (i : win_info) : Z :=
  if is_ebp_rec i then ebp + 8 else esp + (w_locals i + w_saved i + gcps) + 4.

Fixpoint mix_chain (gcps esp ebp : Z) (acts : list act_bp) : list xregs :=
  match acts with
  | [] => []
  | (i, ps, ra, bp') :: rest => mkX ra (mix_sp gcps esp ebp i) bp' :: mix_chain (psz ps) (mix_sp gcps esp ebp i) bp' rest
  end.

Fixpoint mix_layout (mem : Z -> option Z) (in_stack : Z -> bool) (lookup : Z -> option (win_info * option Z))
                    (ctx : bool) (gcps eip esp ebp : Z) (acts : list act_bp) : Prop :=
  match acts with
  | [] => True
  | (i, ps, ra, bp') :: rest =>
      (if is_ebp_rec i
       then ebp_layout mem in_stack lookup ctx gcps eip esp ebp [(i, ps, ra, bp')]
       else win_layout_bp mem in_stack lookup ctx gcps eip esp ebp [(i, ps, ra, bp')] /\ 0 <= esp) /\
      mix_layout mem in_stack lookup false (psz ps) ra (mix_sp gcps esp ebp i) bp' rest
  end.

(* a walk of one step that produced a frame is the first step of every longer walk *)
Lemma win_walk_first : forall mem in_stack lookup below r i ps r' k,
  lookup (x_eip r) = Some (i, ps) ->
  win_walk 1 mem in_stack lookup below r = [r'] ->
  win_walk (S k) mem in_stack lookup below r = r' :: win_walk k mem in_stack lookup (below ++ [mkSF ps]) r'.
Proof.
  intros mem in_stack lookup below r i ps r' k Hl H1. cbn [win_walk] in *. rewrite Hl in *.
  destruct (match below with [] => true | _ :: _ => in_stack (x_esp r) end); [|discriminate H1].
  destruct (win_xstep mem below (mkSF ps) r i) as [r1|]; [|discriminate H1].
  destruct ((x_eip r1 <? 4096) || (x_esp r1 <=? x_esp r)); [discriminate H1|].
  inversion H1; subst. reflexivity.
Qed.

Theorem mix_recovers_chain : forall mem in_stack lookup (acts : list act_bp) below eip esp ebp,
  mix_layout mem in_stack lookup (is_nil below) (spec_gcps below) eip esp ebp acts ->
  win_walk (length acts) mem in_stack lookup below (mkX eip esp ebp) = mix_chain (spec_gcps below) esp ebp acts.
Proof.
  intros mem in_stack lookup acts. induction acts as [|[[[i ps] ra] bp'] rest IH]; intros below eip esp ebp HL.
  - reflexivity.
  - cbn [mix_layout] in HL. destruct HL as [Hone Hrest].
    cbn [length mix_chain].
    assert (Hl : lookup eip = Some (i, ps)).
    { destruct (is_ebp_rec i); [exact (proj1 Hone)|exact (proj1 (proj1 Hone))]. }
    assert (H1 : win_walk 1 mem in_stack lookup below (mkX eip esp ebp) = [mkX ra (mix_sp (spec_gcps below) esp ebp i) bp']).
    { unfold mix_sp. destruct (is_ebp_rec i).
      - exact (ebp_recovers_chain mem in_stack lookup [(i, ps, ra, bp')] below eip esp ebp Hone).
      - destruct Hone as [Hw Hesp]. exact (win_recovers_chain_bp mem in_stack lookup [(i, ps, ra, bp')] below eip esp ebp Hw Hesp). }
    rewrite (win_walk_first mem in_stack lookup below (mkX eip esp ebp) i ps _ (length rest) Hl H1).
    f_equal.
    specialize (IH (below ++ [mkSF ps]) ra (mix_sp (spec_gcps below) esp ebp i) bp').
    rewrite spec_gcps_snoc in IH.
    replace (is_nil (below ++ [mkSF ps])) with false in IH by (destruct below; reflexivity).
    apply IH. exact Hrest.
Qed.
