(* C07/Proofs18.v — the two frame-data programs MSVC emits for almost every function, evaluated symbolically
   for ALL environments: the frame-pointer-less form (return address at .raSearch) and the module docs' worked example
   (standard ebp frame). *)
From Coq Require Import String Lia.
From RM Require Import Base.Word C06.Model C06.Proofs C07.Model C07.Proofs C07.Proofs2 C07.Proofs3.
Open Scope Z_scope.

Definition D_T0 : bytes := [36; 84; 48].     (* $T0 *)
Definition prog_ra_search : bytes := bs "$T0 .raSearch = $eip $T0 ^ = $esp $T0 4 + =".
Definition prog_ebp_frame : bytes := bs "$T0 $ebp = $eip $T0 4 + ^ = $ebp $T0 ^ = $esp $T0 8 + =".

Lemma loop_cons : forall p E t r ms, win_loop p E (t :: r) ms = (do ms' <- win_step p E t ms; win_loop p E r ms').
Proof. reflexivity. Qed.

Lemma step_var : forall p E m st t, beq t T_plus = false -> beq t T_minus = false -> beq t T_star = false ->
  beq t T_slash = false -> beq t T_pct = false -> beq t T_at = false -> beq t T_eq = false -> beq t T_caret = false ->
  beq t T_undef = false -> starts_var t = true ->
  win_step p E t (m, st) = Ret (m, WVar t :: st).
Proof. intros p E m st t ? ? ? ? ? ? ? ? ? Hvar. rewrite win_step_other by assumption. rewrite Hvar. reflexivity. Qed.

Lemma step_deref_var : forall p E m st n a v, vget n m = Some a -> e_mem E a = Some v ->
  win_step p E T_caret (m, WVar n :: st) = Ret (m, WInt (wrap32 v) :: st).
Proof.
  intros. change (win_step p E T_caret (m, WVar n :: st)) with
    (match vget n m with None => Fail | Some ptr => match e_mem E ptr with Some v => Ret (m, WInt (wrap32 v) :: st) | None => Fail end end).
  rewrite H, H0. reflexivity.
Qed.

Lemma step_deref_int : forall p E m st a v, e_mem E a = Some v ->
  win_step p E T_caret (m, WInt a :: st) = Ret (m, WInt (wrap32 v) :: st).
Proof.
  intros. change (win_step p E T_caret (m, WInt a :: st)) with
    (match e_mem E a with Some v => Ret (m, WInt (wrap32 v) :: st) | None => Fail end).
  rewrite H. reflexivity.
Qed.

Lemma step_plus_var_int : forall p E m st n a k, vget n m = Some a ->
  win_step p E T_plus (m, WInt k :: WVar n :: st) = Ret (m, WInt (wrap32 (a + k)) :: st).
Proof.
  intros. change (win_step p E T_plus (m, WInt k :: WVar n :: st)) with
    (match vget n m with None => Fail | Some lv => Ret (m, WInt (wrap32 (lv + k)) :: st) end).
  rewrite H. reflexivity.
Qed.

Lemma step_lit4 : forall p E m st, win_step p E [52] (m, st) = Ret (m, WInt 4 :: st).
Proof. reflexivity. Qed.
Lemma step_lit8 : forall p E m st, win_step p E [56] (m, st) = Ret (m, WInt 8 :: st).
Proof. reflexivity. Qed.

Ltac push_var := rewrite loop_cons; rewrite step_var by reflexivity; cbn [obind].

(* $T0 .raSearch = $eip $T0 ^ = $esp $T0 4 + = *)
Lemma ra_search_vars : forall p E i m ss ra,
  win_initial_vars E i prog_ra_search = Some m -> vget V_raSearch m = Some ss -> e_mem E ss = Some ra ->
  win_final_vars p E i prog_ra_search =
  Ret (Some (vset D_esp (wrap32 (ss + 4)) (vset D_eip (wrap32 ra) (vset D_T0 ss m)))).
Proof.
  intros p E i m ss ra Hi Hs Hm. unfold win_final_vars. rewrite Hi.
  change (win_tokens prog_ra_search) with
    [D_T0; V_raSearch; T_eq; D_eip; D_T0; T_caret; T_eq; D_esp; D_T0; [52]; T_plus; T_eq].
  push_var. push_var. rewrite loop_cons, (assign_var _ _ _ _ _ _ _ Hs). cbn [obind].
  push_var. push_var.
  rewrite loop_cons, (step_deref_var _ _ _ _ _ _ _ (vget_vset_same _ _ _) Hm). cbn [obind].
  rewrite loop_cons, assign_int. cbn [obind].
  push_var. push_var. rewrite loop_cons, step_lit4. cbn [obind].
  assert (Ht : vget D_T0 (vset D_eip (wrap32 ra) (vset D_T0 ss m)) = Some ss).
  { rewrite vget_vset. change (beq D_T0 D_eip) with false. cbv iota. apply vget_vset_same. }
  rewrite loop_cons, (step_plus_var_int _ _ _ _ _ _ _ Ht). cbn [obind].
  rewrite loop_cons, assign_int. cbn [obind]. reflexivity.
Qed.

(* $T0 $ebp = $eip $T0 4 + ^ = $ebp $T0 ^ = $esp $T0 8 + = *)
Lemma ebp_frame_vars : forall p E i m bp ra old,
  win_initial_vars E i prog_ebp_frame = Some m -> vget D_ebp m = Some bp ->
  e_mem E (wrap32 (bp + 4)) = Some ra -> e_mem E bp = Some old ->
  win_final_vars p E i prog_ebp_frame =
  Ret (Some (vset D_esp (wrap32 (bp + 8)) (vset D_ebp (wrap32 old) (vset D_eip (wrap32 ra) (vset D_T0 bp m))))).
Proof.
  intros p E i m bp ra old Hi Hb Hra Hold. unfold win_final_vars. rewrite Hi.
  change (win_tokens prog_ebp_frame) with
    [D_T0; D_ebp; T_eq; D_eip; D_T0; [52]; T_plus; T_caret; T_eq; D_ebp; D_T0; T_caret; T_eq; D_esp; D_T0; [56]; T_plus; T_eq].
  push_var. push_var. rewrite loop_cons, (assign_var _ _ _ _ _ _ _ Hb). cbn [obind].
  push_var. push_var. rewrite loop_cons, step_lit4. cbn [obind].
  rewrite loop_cons, (step_plus_var_int _ _ _ _ _ _ _ (vget_vset_same _ _ _)). cbn [obind].
  rewrite loop_cons, (step_deref_int _ _ _ _ _ _ Hra). cbn [obind].
  rewrite loop_cons, assign_int. cbn [obind].
  push_var. push_var.
  assert (Ht : vget D_T0 (vset D_eip (wrap32 ra) (vset D_T0 bp m)) = Some bp).
  { rewrite vget_vset. change (beq D_T0 D_eip) with false. cbv iota. apply vget_vset_same. }
  rewrite loop_cons, (step_deref_var _ _ _ _ _ _ _ Ht Hold). cbn [obind].
  rewrite loop_cons, assign_int. cbn [obind].
  push_var. push_var. rewrite loop_cons, step_lit8. cbn [obind].
  assert (Ht2 : vget D_T0 (vset D_ebp (wrap32 old) (vset D_eip (wrap32 ra) (vset D_T0 bp m))) = Some bp).
  { rewrite vget_vset. change (beq D_T0 D_ebp) with false. cbv iota. exact Ht. }
  rewrite loop_cons, (step_plus_var_int _ _ _ _ _ _ _ Ht2). cbn [obind].
  rewrite loop_cons, assign_int. cbn [obind]. reflexivity.
Qed.

(* the three predefined variables the standard programs read, out of c07_program_string_facts' account of
   win_initial_vars *)
Lemma initial_vars_read : forall E i e m esp ebp,
  win_initial_vars E i e = Some m -> e_callee E N_esp = Some esp -> e_callee E N_ebp = Some ebp ->
  vget D_ebp m = Some (wrap32 ebp) /\ vget D_ebx m = option_map wrap32 (e_callee E N_ebx) /\
  forall fs, win_frame_size i (e_gcps E) = Some fs ->
    vget V_raSearch m = Some (if contains_at e then wrap32 ebp + 4 else wrap32 esp + fs).
Proof.
  intros E i e m esp ebp Hi Hesp Hebp.
  destruct (initial_vars_spec _ _ _ _ Hi) as (esp' & ebp' & fs' & A1 & A2 & A3 & _ & _ & _ & V2 & V3 & _ & _ & _ & _ & _ & V4 & _).
  rewrite Hesp in A1. rewrite Hebp in A2. inversion A1; inversion A2; subst esp' ebp'.
  split; [exact V2|]. split; [exact V3|]. intros fs Hfs. rewrite Hfs in A3. inversion A3; subst fs'. exact V4.
Qed.

Lemma initial_undefined : forall E i e m, win_initial_vars E i e = Some m ->
  vget D_esi m = None /\ vget D_edi m = None /\ vget D_eip m = None /\ vget D_T0 m = None.
Proof.
  intros E i e m H. unfold win_initial_vars in H.
  destruct (e_callee E N_esp); [|discriminate]. destruct (e_callee E N_ebp); [|discriminate].
  destruct (win_frame_size i (e_gcps E)); [|discriminate].
  destruct (if contains_at e then _ else _); [|discriminate]. inversion H; subst m.
  destruct (e_callee E N_ebx); repeat split; reflexivity.
Qed.

Ltac vget_through := repeat (rewrite vget_vset; match goal with |- context [beq ?a ?b] => let r := eval vm_compute in (beq a b) in change (beq a b) with r end; cbv iota).

(* the caller registers on the abstract walker.  R is mock_framedata_exact's equation for the final variables: an output
   register is read through the assignments the program made, down to the initial variables *)
Ltac mock_reg R :=
  rewrite R;
  match goal with |- context [mem_b ?n six] =>
    change (mem_b n six) with true; cbv iota;
    let d := eval cbv [dollar N_eip N_esp N_ebp N_ebx N_esi N_edi] in (dollar n) in change (dollar n) with d
  end;
  fold D_eip D_esp D_ebp D_ebx D_esi D_edi; vget_through.

Theorem ra_search_regs : forall p E i esp ebp fs ra s',
  e_callee E N_esp = Some esp -> e_callee E N_ebp = Some ebp -> win_frame_size i (e_gcps E) = Some fs ->
  e_mem E (wrap32 esp + fs) = Some ra ->
  walk_win_framedata (mock_ops 4) p E i prog_ra_search m_init = Ret (s', true) ->
  m_regs s' N_eip = SetTo (wrap32 ra) /\ m_regs s' N_esp = SetTo (wrap32 (wrap32 esp + fs + 4)) /\
  m_regs s' N_ebp = SetTo (wrap32 ebp) /\
  m_regs s' N_ebx = match e_callee E N_ebx with Some b => SetTo (wrap32 b) | None => Unset end /\
  m_regs s' N_esi = Unset /\ m_regs s' N_edi = Unset.
Proof.
  intros p E i esp ebp fs ra s' Hesp Hebp Hfs Hmem H.
  destruct (win_initial_vars E i prog_ra_search) as [m|] eqn:Hi.
  2:{ unfold walk_win_framedata, win_final_vars in H. rewrite Hi in H. cbn [obind] in H. inversion H. }
  destruct (initial_vars_read _ _ _ _ _ _ Hi Hesp Hebp) as (V2 & V3 & V4). specialize (V4 fs Hfs).
  change (contains_at prog_ra_search) with false in V4. cbv iota in V4.
  destruct (initial_undefined _ _ _ _ Hi) as (N1 & N2 & _ & _).
  pose proof (ra_search_vars p E i m _ ra Hi V4 Hmem) as Hf.
  pose proof (mock_framedata_exact _ _ _ _ _ _ H Hf) as R.
  repeat split; mock_reg R; rewrite ?V2, ?V3, ?N1, ?N2; try reflexivity. destruct (e_callee E N_ebx); reflexivity.
Qed.

Theorem ebp_frame_regs : forall p E i esp ebp ra old s',
  e_callee E N_esp = Some esp -> e_callee E N_ebp = Some ebp ->
  e_mem E (wrap32 (wrap32 ebp + 4)) = Some ra -> e_mem E (wrap32 ebp) = Some old ->
  walk_win_framedata (mock_ops 4) p E i prog_ebp_frame m_init = Ret (s', true) ->
  m_regs s' N_eip = SetTo (wrap32 ra) /\ m_regs s' N_esp = SetTo (wrap32 (wrap32 ebp + 8)) /\
  m_regs s' N_ebp = SetTo (wrap32 old) /\
  m_regs s' N_ebx = match e_callee E N_ebx with Some b => SetTo (wrap32 b) | None => Unset end /\
  m_regs s' N_esi = Unset /\ m_regs s' N_edi = Unset.
Proof.
  intros p E i esp ebp ra old s' Hesp Hebp Hra Hold H.
  destruct (win_initial_vars E i prog_ebp_frame) as [m|] eqn:Hi.
  2:{ unfold walk_win_framedata, win_final_vars in H. rewrite Hi in H. cbn [obind] in H. inversion H. }
  destruct (initial_vars_read _ _ _ _ _ _ Hi Hesp Hebp) as (V2 & V3 & _).
  destruct (initial_undefined _ _ _ _ Hi) as (N1 & N2 & _ & _).
  pose proof (ebp_frame_vars p E i m _ ra old Hi V2 Hra Hold) as Hf.
  pose proof (mock_framedata_exact _ _ _ _ _ _ H Hf) as R.
  repeat split; mock_reg R; rewrite ?V3, ?N1, ?N2; try reflexivity. destruct (e_callee E N_ebx); reflexivity.
Qed.
