(* C07/Proofs9.v — run-length encoded strings in normal form (what C09's line parsers return) are equal iff their
   bytes are equal; hence C09's record equality and this directory's agree through conv_win, C09's
   insert_win_stack_info is this directory's, and the STACK WIN tables / lookups of the text route are those of the
   record route; SymbolFile::walk_frame on the finished tables of the text route (C07/Text.v: C09's parser state ->
   finish -> walk_frame_table) equals walk_frame of the record route on the same records; and the normal-form hypothesis
   is an invariant of C09's parser state machine: every STACK WIN record the line parsers hand to
   insert_win_stack_info carries a program string that is [rle_norm] of the rest of the line. *)
From Coq Require Import Lia.
From RM Require Import Base.Word C06.Model C06.Proofs C07.Model C07.Text C07.Proofs5 C07.Proofs8.
From RM Require C08.Model C09.Grammar C11.Model.
Import ListNotations.
Open Scope Z_scope.

(* normal form: every count >= 1 and neighbouring runs carry different bytes *)
Fixpoint adj_distinct (s : C09.Grammar.rle) : Prop :=
  match s with
  | [] => True
  | (b, _) :: t => match t with [] => True | (b2, _) :: _ => b <> b2 end /\ adj_distinct t
  end.
Definition rle_nf (s : C09.Grammar.rle) : Prop := counts_pos s /\ adj_distinct s.

Lemma rep_app : forall b n m, rep b (n + m) = rep b n ++ rep b m.
Proof. intros b n m. induction n as [|n IH]; [reflexivity|]. cbn [Nat.add rep app]. rewrite IH. reflexivity. Qed.

Lemma unrle_cons : forall b c t, 1 <= c -> unrle ((b, c) :: t) = rep b (Z.to_nat c) ++ unrle t.
Proof. intros b c t H. cbn [unrle flat_map fst snd]. replace (Z.max 1 c) with c by lia. reflexivity. Qed.

Lemma unrle_head : forall b c t, 1 <= c -> exists r, unrle ((b, c) :: t) = b :: r.
Proof.
  intros b c t H. rewrite unrle_cons by exact H.
  destruct (Z.to_nat c) as [|k] eqn:E; [lia|]. eexists. reflexivity.
Qed.

(* a normal-form string whose bytes start with x does not start with a run of another byte *)
Lemma nf_starts : forall x c t r, 1 <= c -> unrle ((x, c) :: t) = r -> forall y r', r = y :: r' -> x = y.
Proof.
  intros x c t r Hc Hu y r' Hr. destruct (unrle_head x c t Hc) as [q Hq]. rewrite Hq in Hu. subst r. inversion Hr. reflexivity.
Qed.

(* a run cannot be continued by the next run of a normal form: if x^c ++ a' = x^d ++ b' with c < d, then a' starts with x *)
Lemma longer_run : forall x c d a' b', 1 <= c < d -> counts_pos a' ->
  match a' with [] => True | (x2, _) :: _ => x <> x2 end ->
  rep x (Z.to_nat c) ++ unrle a' = rep x (Z.to_nat d) ++ unrle b' -> False.
Proof.
  intros x c d a' b' Hcd Hp Hx H. replace (Z.to_nat d) with (Z.to_nat c + Z.to_nat (d - c))%nat in H by lia.
  rewrite rep_app, <- app_assoc in H. apply app_inv_head in H.
  destruct (Z.to_nat (d - c)) as [|k] eqn:Ek; [lia|]. cbn [rep app] in H.
  destruct a' as [|[x2 c2] a2]; [discriminate H|].
  inversion Hp as [|? ? Hc2 _]; subst. cbn [snd] in Hc2.
  destruct (unrle_head x2 c2 a2 Hc2) as [q Hq]. rewrite Hq in H. inversion H. subst x2. apply Hx. reflexivity.
Qed.

Lemma unrle_inj : forall a b, rle_nf a -> rle_nf b -> unrle a = unrle b -> a = b.
Proof.
  induction a as [|[x c] a' IH]; intros b [Hpa Hda] [Hpb Hdb] H.
  - destruct b as [|[y d] b']; [reflexivity|].
    inversion Hpb as [|? ? Hd _]; subst. cbn [snd] in Hd.
    destruct (unrle_head y d b' Hd) as [q Hq]. rewrite Hq in H. discriminate H.
  - inversion Hpa as [|? ? Hc Hpa']; subst. cbn [snd] in Hc.
    destruct b as [|[y d] b'].
    + destruct (unrle_head x c a' Hc) as [q Hq]. rewrite Hq in H. discriminate H.
    + inversion Hpb as [|? ? Hd Hpb']; subst. cbn [snd] in Hd.
      assert (Hxy : x = y).
      { destruct (unrle_head x c a' Hc) as [q Hq]. destruct (unrle_head y d b' Hd) as [q2 Hq2].
        rewrite Hq, Hq2 in H. inversion H. reflexivity. }
      subst y. rewrite !unrle_cons in H by assumption.
      cbn [adj_distinct] in Hda, Hdb. destruct Hda as [Hxa Hda']. destruct Hdb as [Hxb Hdb'].
      destruct (Z.lt_trichotomy c d) as [Hlt|[Heq|Hgt]].
      * destruct (longer_run x c d a' b' (conj Hc Hlt) Hpa' Hxa H).
      * subst d. apply app_inv_head in H. f_equal. apply IH; [split; assumption|split; assumption|exact H].
      * destruct (longer_run x d c b' a' (conj Hd Hgt) Hpb' Hxb (eq_sym H)).
Qed.

Lemma rle_eqb_eq : forall a b, C09.Grammar.rle_eqb a b = true <-> a = b.
Proof.
  induction a as [|[x c] a' IH]; intros [|[y d] b']; cbn [C09.Grammar.rle_eqb]; split; intro H; try reflexivity; try discriminate.
  - apply andb_prop in H. destruct H as [H1 H3]. apply andb_prop in H1. destruct H1 as [H1 H2].
    apply Z.eqb_eq in H1. apply Z.eqb_eq in H2. apply IH in H3. subst. reflexivity.
  - inversion H; subst. rewrite !Z.eqb_refl. cbn [andb]. apply IH. reflexivity.
Qed.

Theorem rle_eqb_unrle : forall a b, rle_nf a -> rle_nf b ->
  C09.Grammar.rle_eqb a b = beq (unrle a) (unrle b).
Proof.
  intros a b Ha Hb. destruct (C09.Grammar.rle_eqb a b) eqn:E.
  - apply rle_eqb_eq in E. subst b. symmetry. apply beq_refl.
  - symmetry. apply beq_neq. intro Hu. apply (unrle_inj a b Ha Hb) in Hu. subst b.
    assert (C09.Grammar.rle_eqb a a = true) by (apply rle_eqb_eq; reflexivity). congruence.
Qed.

Definition wi_nf (w : C09.Grammar.win_info) : Prop :=
  match C09.Grammar.wi_thing w with
  | C09.Grammar.ProgramString s => rle_nf s
  | C09.Grammar.AllocatesBasePointer _ => True
  end.

Lemma wi_eqb_conv : forall a b, wi_nf a -> wi_nf b ->
  win_eqb (conv_win a) (conv_win b) = C09.Grammar.wi_eqb a b.
Proof.
  intros a b Ha Hb. unfold win_eqb, C09.Grammar.wi_eqb, conv_win.
  cbn [w_addr w_size w_prolog w_epilog w_params w_saved w_locals w_maxstack w_thing]. f_equal.
  unfold wi_nf in Ha, Hb.
  destruct (C09.Grammar.wi_thing a) as [x|x], (C09.Grammar.wi_thing b) as [y|y];
    cbn [conv_thing thing_eqb C09.Grammar.thing_eqb]; try reflexivity.
  symmetry. apply rle_eqb_unrle; assumption.
Qed.

(* outcomes equal up to the tag of a panic (the two models number their panic sites independently) *)
Definition same_outcome {A} (a b : outcome A) : Prop :=
  match a, b with
  | Ret x, Ret y => x = y
  | Fail, Fail => True
  | Panic _, Panic _ => True
  | OutOfFuel, OutOfFuel => True
  | _, _ => False
  end.

Notation cmap := (mapv conv_win).

Lemma insert_conv : forall acc w,
  same_outcome (insert_win (cmap acc) (conv_win w)) (omapv conv_win (C09.Grammar.win_insert acc w)).
Proof.
  intros acc w. unfold insert_win, C09.Grammar.win_insert, win_range, C09.Grammar.wi_range.
  change (w_addr (conv_win w)) with (C09.Grammar.wi_addr w). change (w_size (conv_win w)) with (C09.Grammar.wi_size w).
  destruct (C08.Model.mk_range (C09.Grammar.wi_addr w) (C09.Grammar.wi_size w)) as [mr|]; [|reflexivity].
  destruct acc as [|[lr lw] acc']; [reflexivity|].
  cbn [mapv map fst snd]. fold (cmap acc').
  destruct (C08.Model.intersects lr mr); [|reflexivity].
  change (w_addr (conv_win lw)) with (C09.Grammar.wi_addr lw).
  destruct (C09.Grammar.wi_addr w >? C09.Grammar.wi_addr lw).
  - change (set_size (conv_win lw) (wrap32 (C09.Grammar.wi_addr w - C09.Grammar.wi_addr lw)))
      with (conv_win (C09.Grammar.wi_set_size lw (wrap32 (C09.Grammar.wi_addr w - C09.Grammar.wi_addr lw)))).
    set (lw' := C09.Grammar.wi_set_size lw _).
    change (w_addr (conv_win lw')) with (C09.Grammar.wi_addr lw'). change (w_size (conv_win lw')) with (C09.Grammar.wi_size lw').
    destruct (C08.Model.mk_range (C09.Grammar.wi_addr lw') (C09.Grammar.wi_size lw')); reflexivity.
  - (* C09's win_insert compares ranges with C11's range_eqb; same function as this directory's *)
    change (range_eqb lr mr) with (C11.Model.range_eqb lr mr).
    destruct (negb (C11.Model.range_eqb lr mr)); reflexivity.
Qed.

Lemma insert_nf : forall acc w acc', allP wi_nf acc -> wi_nf w ->
  C09.Grammar.win_insert acc w = Ret acc' -> allP wi_nf acc'.
Proof.
  intros acc w acc' Ha Hw H. unfold C09.Grammar.win_insert in H.
  destruct (C09.Grammar.wi_range w) as [mr|]; [|inversion H; subst; exact Ha].
  destruct acc as [|[lr lw] t]; [inversion H; subst; constructor; [exact Hw|constructor]|].
  inversion Ha as [|? ? Hlw Ht]; subst. cbn [snd] in Hlw.
  destruct (C08.Model.intersects lr mr).
  - destruct (C09.Grammar.wi_addr w >? C09.Grammar.wi_addr lw).
    + destruct (C09.Grammar.wi_range _) as [lr'|]; [|discriminate H]. inversion H; subst.
      constructor; [exact Hw|]. constructor; [exact Hlw|exact Ht].
    + destruct (negb _); inversion H; subst; [exact Ha|constructor; [exact Hw|exact Ha]].
  - inversion H; subst. constructor; [exact Hw|exact Ha].
Qed.

Lemma collect_conv : forall ws acc l, allP wi_nf acc -> Forall wi_nf ws ->
  C09.Grammar.win_collect acc ws = Ret l ->
  exists acc2, insert_all (map conv_win ws) (cmap acc) = Ret (cmap acc2) /\ l = rev acc2 /\ allP wi_nf acc2.
Proof.
  induction ws as [|w t IH]; intros acc l Ha Hws H.
  - cbn [C09.Grammar.win_collect] in H. inversion H; subst. exists acc. split; [reflexivity|]. split; [reflexivity|exact Ha].
  - inversion Hws as [|? ? Hw Ht]; subst.
    cbn [C09.Grammar.win_collect] in H. cbn [map insert_all].
    pose proof (insert_conv acc w) as Hi.
    destruct (C09.Grammar.win_insert acc w) as [acc1| | |] eqn:E1; try discriminate H.
    cbn [omapv] in Hi. destruct (insert_win (cmap acc) (conv_win w)) as [x| | |]; try contradiction.
    cbn [same_outcome] in Hi. subst x. cbn [obind].
    apply (IH acc1 l); [eapply insert_nf; eassumption|exact Ht|exact H].
Qed.

(* the STACK WIN table of the text route is the table of the record route *)
Theorem win_table_conv : forall ws t, Forall wi_nf ws ->
  (do l <- C09.Grammar.win_collect [] ws; C08.Model.build_p C09.Grammar.wi_eqb l) = Ret t ->
  win_table (map conv_win ws) = Ret (cmap t).
Proof.
  intros ws t Hws H. destruct (C09.Grammar.win_collect [] ws) as [l| | |] eqn:El; try discriminate H.
  cbn [obind] in H.
  destruct (collect_conv ws [] l (Forall_nil _) Hws El) as (acc2 & Hi & Hl & Hn).
  unfold win_table. change (@nil (C08.Model.range * win_info)) with (cmap []). rewrite Hi. cbn [obind].
  rewrite <- mapv_rev.
  rewrite (build_p_map C09.Grammar.wi_eqb win_eqb conv_win wi_nf).
  - subst l. rewrite H. reflexivity.
  - intros a b Pa Pb. apply wi_eqb_conv; assumption.
  - unfold allP. apply Forall_rev. exact Hn.
Qed.

Theorem win_lookup_conv : forall (t : list (C08.Model.range * C09.Grammar.win_info)) x,
  C08.Model.rm_get (cmap t) x = option_map conv_win (C08.Model.rm_get t x).
Proof. intros. apply rm_get_map. Qed.

(* what `finish` does with the STACK WIN records the line parsers collected *)
Lemma finish_win : forall p t, C09.Grammar.finish p = Ret t ->
  (do l <- C09.Grammar.win_collect [] (rev (C09.Grammar.p_win_fd p)); C08.Model.build_p C09.Grammar.wi_eqb l) = Ret (C09.Grammar.t_win_fd t) /\
  (do l <- C09.Grammar.win_collect [] (rev (C09.Grammar.p_win_fpo p)); C08.Model.build_p C09.Grammar.wi_eqb l) = Ret (C09.Grammar.t_win_fpo t).
Proof.
  intros p t H. unfold C09.Grammar.finish in H. cbv zeta in H.
  assert (Hfd : C09.Grammar.p_win_fd (C09.Grammar.close_cur p) = C09.Grammar.p_win_fd p)
    by (unfold C09.Grammar.close_cur; destruct (C09.Grammar.p_cur p); reflexivity).
  assert (Hfpo : C09.Grammar.p_win_fpo (C09.Grammar.close_cur p) = C09.Grammar.p_win_fpo p)
    by (unfold C09.Grammar.close_cur; destruct (C09.Grammar.p_cur p); reflexivity).
  rewrite Hfd, Hfpo in H.
  destruct (C09.Grammar.finish_funcs _) as [fl| | |]; try discriminate H. cbn [obind] in H.
  destruct (C08.Model.build_p C09.Grammar.sfunc_eqb fl) as [funcs| | |]; try discriminate H. cbn [obind] in H.
  destruct (C08.Model.build_p C09.Grammar.scfi_eqb _) as [cfis| | |]; try discriminate H. cbn [obind] in H.
  destruct (C09.Grammar.win_collect [] (rev (C09.Grammar.p_win_fd p))) as [wfd| | |]; try discriminate H. cbn [obind] in H.
  destruct (C08.Model.build_p C09.Grammar.wi_eqb wfd) as [tfd| | |] eqn:Efd; try discriminate H. cbn [obind] in H.
  destruct (C09.Grammar.win_collect [] (rev (C09.Grammar.p_win_fpo p))) as [wfpo| | |]; try discriminate H. cbn [obind] in H.
  destruct (C08.Model.build_p C09.Grammar.wi_eqb wfpo) as [tfpo| | |] eqn:Efpo; try discriminate H. cbn [obind] in H.
  inversion H; subst t. cbn [C09.Grammar.t_win_fd C09.Grammar.t_win_fpo obind]. split; assumption.
Qed.

Lemma thing_conv : forall w, w_thing (conv_win w) = conv_thing (C09.Grammar.wi_thing w).
Proof. reflexivity. Qed.

(* for a symbol file without STACK CFI records: the text route and the record route agree on every walker, profile,
   environment and start state *)
Theorem text_route_agrees : forall (S : Type) (ops : wops S) p E (ps : C09.Grammar.pst) (t : C09.Grammar.table) (s : S),
  C09.Grammar.finish ps = Ret t ->
  Forall wi_nf (C09.Grammar.p_win_fd ps) -> Forall wi_nf (C09.Grammar.p_win_fpo ps) ->
  C09.Grammar.t_cfi t = [] ->
  walk_frame_table ops p E t s =
  walk_frame ops p E (mkSym (map conv_win (rev (C09.Grammar.p_win_fd ps))) (map conv_win (rev (C09.Grammar.p_win_fpo ps))) None) s.
Proof.
  intros S ops p E ps t s Hfin Hfd Hfpo Hcfi.
  destruct (finish_win ps t Hfin) as [H1 H2].
  unfold walk_frame, walk_frame_table. cbn [sf_framedata sf_fpo sf_cfi].
  rewrite (win_table_conv _ _ (Forall_rev Hfd) H1). cbn [obind].
  rewrite (win_table_conv _ _ (Forall_rev Hfpo) H2). cbn [obind].
  rewrite !win_lookup_conv. rewrite Hcfi.
  destruct (C08.Model.rm_get (C09.Grammar.t_win_fd t) (e_instr E)) as [w|]; cbn [option_map].
  - rewrite thing_conv. destruct (C09.Grammar.wi_thing w) as [e|b]; cbn [conv_thing]; reflexivity.
  - destruct (C08.Model.rm_get (C09.Grammar.t_win_fpo t) (e_instr E)) as [w|]; cbn [option_map].
    + rewrite thing_conv. destruct (C09.Grammar.wi_thing w) as [e|b]; cbn [conv_thing]; reflexivity.
    + reflexivity.
Qed.

(* rle_norm returns a normal form *)
Definition head_ne (b : Z) (s : C09.Grammar.rle) : Prop := match s with [] => True | (b2, _) :: _ => b <> b2 end.
Lemma adj_cons : forall b c t, adj_distinct ((b, c) :: t) <-> head_ne b t /\ adj_distinct t.
Proof. intros b c [|[b2 c2] t]; cbn [adj_distinct head_ne]; tauto. Qed.

Lemma adj_snoc : forall s b c, adj_distinct s -> head_ne b (rev s) -> adj_distinct (s ++ [(b, c)]).
Proof.
  induction s as [|[x cx] t IH]; intros b c Ha Hh; [cbn; tauto|].
  cbn [app]. apply (proj2 (adj_cons _ _ _)). apply (proj1 (adj_cons _ _ _)) in Ha. destruct Ha as [Hx Ht]. split.
  - destruct t as [|[y cy] t']; cbn [app head_ne].
    + cbn [rev app head_ne] in Hh. intro E. apply Hh. symmetry. exact E.
    + exact Hx.
  - apply IH; [exact Ht|].
    cbn [rev] in Hh. destruct (rev t) as [|[z cz] r] eqn:Er; [|exact Hh].
    assert (t = []) by (destruct t; [reflexivity|apply (f_equal (@length _)) in Er; rewrite rev_length in Er; discriminate Er]).
    subst t. exact I.
Qed.
Lemma adj_rev : forall s, adj_distinct s -> adj_distinct (rev s).
Proof.
  induction s as [|[x cx] t IH]; intro Ha; [exact I|].
  apply (proj1 (adj_cons _ _ _)) in Ha. destruct Ha as [Hx Ht]. cbn [rev]. apply adj_snoc; [apply IH; exact Ht|].
  rewrite rev_involutive. destruct t as [|[y cy] t']; cbn [head_ne] in *; [exact I|exact Hx].
Qed.

Lemma norm_acc_adj : forall s acc, adj_distinct acc -> adj_distinct (C09.Grammar.rle_norm_acc s acc).
Proof.
  induction s as [|[b c] t IH]; intros acc Ha; cbn [C09.Grammar.rle_norm_acc].
  - rewrite rev_append_rev, app_nil_r. apply adj_rev. exact Ha.
  - destruct acc as [|[b0 c0] acc'].
    + apply IH. cbn. tauto.
    + destruct (b0 =? b) eqn:E.
      * apply IH. apply (proj1 (adj_cons _ _ _)) in Ha. apply (proj2 (adj_cons _ _ _)). exact Ha.
      * apply IH. apply (proj2 (adj_cons _ _ _)). split; [cbn [head_ne]; apply Z.eqb_neq in E; intro F; apply E; symmetry; exact F|exact Ha].
Qed.
Theorem rle_norm_nf : forall s, rle_nf (C09.Grammar.rle_norm s).
Proof. intro s. split; [apply norm_pos|apply norm_acc_adj; exact I]. Qed.

Definition ft_nf (f : C09.Grammar.win_frame_type) : Prop :=
  match f with C09.Grammar.FrameData i | C09.Grammar.Fpo i => wi_nf i | C09.Grammar.Unhandled => True end.
Definition item_nf (it : C09.Grammar.item) : Prop :=
  match it with C09.Grammar.IWin f => ft_nf f | _ => True end.

Lemma win_of_fields_nf : forall ty a sz pro epi par sav loc mx hp rest, rle_nf rest ->
  ft_nf (C09.Grammar.win_of_fields ty a sz pro epi par sav loc mx hp rest).
Proof.
  intros. unfold C09.Grammar.win_of_fields.
  destruct (negb _); [exact I|].
  destruct (ty =? 52) eqn:E4; cbn [ft_nf]; [unfold wi_nf; cbn [C09.Grammar.wi_thing]; assumption|].
  destruct (ty =? 48); cbn [ft_nf]; [unfold wi_nf; cbn [C09.Grammar.wi_thing]; exact I|exact I].
Qed.

Lemma name_eol_nf : forall s r, C09.Grammar.name_eol s = Some r -> rle_nf r.
Proof.
  intros s r H. unfold C09.Grammar.name_eol in H. destruct (C09.Grammar.span_not C09.Grammar.is_cr s) as [name rest].
  destruct (_ && _); [|discriminate H]. inversion H. apply rle_norm_nf.
Qed.

(* case analysis on every `match` of a parser's success hypothesis, failing branches discarded *)
Ltac crack_all :=
  repeat match goal with
         | H : context [match ?e with _ => _ end] |- _ => destruct e eqn:?; try discriminate
         end.

(* the only string of a STACK WIN item is what name_eol returned: rle_norm of the rest of the line *)
Lemma p_stack_win_nf : forall s it, C09.Grammar.p_stack_win s = C09.Grammar.POk it -> item_nf it.
Proof.
  intros s it H. unfold C09.Grammar.p_stack_win, C09.Grammar.cutp in H.
  crack_all. repeat match goal with X : Some _ = Some _ |- _ => inversion X; clear X end.
  inversion H; subst. cbn [item_nf]. apply win_of_fields_nf. eapply name_eol_nf; eassumption.
Qed.

(* the parsers of the other line kinds build items without a STACK WIN record *)
Ltac other p :=
  let H := fresh "H" in
  intros it H; unfold p, C09.Grammar.cutp, C09.Grammar.guard, C09.Grammar.id_name in H; crack_all;
  repeat match goal with X : Some _ = Some _ |- _ => inversion X; clear X end; inversion H; subst; exact I.

Lemma alt_nf : forall ps s it,
  Forall (fun p => forall it, p s = C09.Grammar.POk it -> item_nf it) ps -> C09.Grammar.alt ps s = Some it -> item_nf it.
Proof.
  induction ps as [|p t IH]; intros s it Hp H; cbn [C09.Grammar.alt] in H; [discriminate H|].
  inversion Hp as [|? ? Hp1 Hpt]; subst.
  destruct (p s) as [| |i] eqn:E; [exact (IH s it Hpt H)|discriminate H|inversion H; subst; exact (Hp1 it eq_refl)].
Qed.

Lemma line_top_nf : forall s it, C09.Grammar.line_top s = Some it -> item_nf it.
Proof.
  intros s it0. apply alt_nf. repeat apply Forall_cons; [..|apply Forall_nil].
  (* in the order of line_top's list of alternatives *)
  - other C09.Grammar.p_info_url.
  - other C09.Grammar.p_info.
  - other C09.Grammar.p_file.
  - other C09.Grammar.p_inline_origin.
  - other C09.Grammar.p_public.
  - other C09.Grammar.p_func.
  - apply p_stack_win_nf.
  - other C09.Grammar.p_stack_cfi_init.
  - other C09.Grammar.p_module.
Qed.

Definition pst_nf (p : C09.Grammar.pst) : Prop :=
  Forall wi_nf (C09.Grammar.p_win_fd p) /\ Forall wi_nf (C09.Grammar.p_win_fpo p).

Lemma close_cur_nf : forall p, pst_nf p -> pst_nf (C09.Grammar.close_cur p).
Proof. intros p H. unfold C09.Grammar.close_cur. destruct (C09.Grammar.p_cur p); exact H. Qed.

Lemma top_nf : forall p s p', pst_nf p -> C09.Grammar.top p s = inl p' -> pst_nf p'.
Proof.
  intros p s p' [Hfd Hfpo] H. unfold C09.Grammar.top in H.
  destruct (C09.Grammar.eol s); [inversion H; subst; split; assumption|].
  destruct (C09.Grammar.line_top s) as [it|] eqn:El; [|discriminate H].
  apply line_top_nf in El.
  destruct it as [id f|u| |id nm|id nm|pb|f|w|c]; try (inversion H; subst; split; assumption).
  - destruct (C09.Grammar.p_lines p =? 0); [inversion H; subst; split; assumption|discriminate H].
  - destruct w as [i|i|]; inversion H; subst; cbn [item_nf ft_nf] in El; split; cbn; try assumption;
      constructor; assumption.
Qed.

Lemma recog_nf : forall p s p', pst_nf p -> C09.Grammar.recog_pst p s = inl p' -> pst_nf p'.
Proof.
  intros p s p' Hp H. unfold C09.Grammar.recog_pst in H.
  destruct (C09.Grammar.p_cur p) as [|f|c] eqn:Ec.
  - eapply top_nf; eassumption.
  - destruct (C09.Grammar.sub_func s) as [[id nm|l|l]|].
    + inversion H; subst. exact Hp.
    + inversion H; subst. exact Hp.
    + inversion H; subst. exact Hp.
    + eapply top_nf; [apply close_cur_nf; exact Hp|exact H].
  - destruct (C09.Grammar.sub_cfi s).
    + inversion H; subst. exact Hp.
    + eapply top_nf; [apply close_cur_nf; exact Hp|exact H].
Qed.

Theorem parse_lines_nf : forall ls p p', pst_nf p -> parse_lines p ls = Some p' -> pst_nf p'.
Proof.
  induction ls as [|l t IH]; intros p p' Hp H; cbn [parse_lines] in H.
  - inversion H; subst. exact Hp.
  - destruct (C09.Grammar.recog_pst p l) as [p1|e] eqn:E; [|discriminate H].
    eapply IH; [eapply recog_nf; eassumption|exact H].
Qed.
