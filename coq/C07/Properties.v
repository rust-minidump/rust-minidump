(* C07/Properties.v — the property theorems of C07, each with its full statement, a short proof from the lemmas of the
   lemma files (an instance, or a few lines) and its `Print Assumptions`; and the non-vacuity examples.
   Model: C07/Model.v (the code after the fix commits e89b171, 07b228c and 1f8c3ef; with the known finding F-C07a, whose
   fix 311264d was reverted by 0819a3f). *)
From Coq Require Import String Lia.
From RM Require Import C06.Model C06.Proofs C06.Proofs5 C06.Driver C07.Model C07.Proofs C07.Proofs2 C07.Proofs3 C07.Text C07.Proofs5 C07.Walker C07.Proofs11 C07.Proofs8 C07.Proofs9 Gen.C07WinEval C07.Source C07.Proofs16 Gen.C07WinLine C07.Proofs17 C07.Proofs18 C07.WalkerFd C07.Proofs20 C07.Driver C07.Proofs22 C07.Proofs23 C07.Proofs24 C07.Proofs25 C07.Proofs26 C07.Proofs27.
From RM Require C09.Grammar Base.WordFacts.
From RM Require C08.Model C08.Proofs C08.WinModel C08.WinProofs C08.Tie.
Open Scope Z_scope.

(* No Panic and no OutOfFuel in STACK WIN evaluation: every size field, every program text
   (arbitrary bytes), every walker, environment and start state, both profiles.  Covers the
   frame-size sum (checked since e89b171), `rhs - 1` in '@', the "=tok" re-split.  The FPO walk
   [walk_win_fpo] has no trap site left after 07b228c (all address arithmetic is checked), which
   its type records: it is a total function into (state, bool). *)
Theorem c07_total :
  forall (S : Type) (ops : wops S) (p : profile) (E : env) (i : win_info) (e : bytes) (s : S),
    (exists r : S * bool, walk_win_framedata ops p E i e s = Ret r) /\
    (forall abp, exists r : S * bool, walk_win_fpo ops E i abp s = r).
Proof.
  intros S ops p E i e s. split; [apply framedata_total|]. intro abp. eexists; reflexivity.
Qed.
Print Assumptions c07_total.

(* the parser side: insert_win_stack_info's unwrap and the final RangeMap unwrap cannot fail
   for records whose fields are in range (address u64, size u32) *)
Theorem c07_table_total :
  forall l : list win_info, Forall win_wf l -> exists t, win_table l = Ret t.
Proof. exact win_table_total. Qed.
Print Assumptions c07_table_total.

(* The record table refines the independent containment spec when no two records overlap: nothing is
   repaired, dropped or merged, and a lookup returns the (unchanged) record whose range contains the
   address — for records with address in u64 and size in u32. *)
Theorem c07_table_refines_spec :
  forall l, Forall win_wf l -> disjoint_ranges (keep l) ->
    exists t, win_table l = Ret t /\ forall x, C08.Model.rm_get t x = table_spec_lookup l x.
Proof. exact table_refines_spec. Qed.
Print Assumptions c07_table_refines_spec.

(* insert_win_stack_info on an overlap with the last kept record, exactly: a record that starts later cuts
   its predecessor to end just before it; one that does not start later and covers another range is dropped;
   the identical range is kept a second time; without an overlap the record is appended. *)
Theorem c07_insert_overlap_cases :
  forall lr li rest i mr,
    acc_wf ((lr, li) :: rest) -> win_wf i -> win_range i = Some mr ->
    (C08.Model.intersects lr mr = false -> insert_win ((lr, li) :: rest) i = Ret ((mr, i) :: (lr, li) :: rest)) /\
    (C08.Model.intersects lr mr = true ->
       (w_addr li < w_addr i ->
          insert_win ((lr, li) :: rest) i =
          Ret ((mr, i) :: ((w_addr li, w_addr i - 1), set_size li (w_addr i - w_addr li)) :: rest)) /\
       (w_addr i <= w_addr li -> lr <> mr -> insert_win ((lr, li) :: rest) i = Ret ((lr, li) :: rest)) /\
       (lr = mr -> insert_win ((lr, li) :: rest) i = Ret ((mr, i) :: (lr, li) :: rest))).
Proof. exact insert_win_cases. Qed.
Print Assumptions c07_insert_overlap_cases.

(* What walk_stack receives after a STACK WIN (or CFI) walk on x86: the walker's registers and validity
   set unchanged, provided eip >= 4096 and esp grew; otherwise no frame. *)
Theorem c07_frame_handover_x86 :
  forall callee_sp s,
    match post_real 0 x86 callee_sp s with
    | Some s1 => s1 = s /\ 4096 <= r_ctx s (a_ip x86) /\ callee_sp < r_ctx s (a_sp x86)
    | None => r_ctx s (a_ip x86) < 4096 \/ r_ctx s (a_sp x86) <= callee_sp
    end.
Proof. intros. apply handover_x86. discriminate. Qed.
Print Assumptions c07_frame_handover_x86.

(* From text to records: the byte-level STACK WIN line recogniser of C09/Grammar.v (tag, space1, hex field
   limits, single type / has_program characters, rest of line) and this directory's record constructor
   build the same record, for every string field in the normal form the line parsers return ([norm_pos]).
   C07/Text.v composes C09's parser state machine and finish with walk_frame; the correspondence run
   executes BOTH routes (records given / text parsed by the grammar) on every case and requires equal answers. *)
Theorem c07_text_record_agree :
  (forall s, counts_pos (C09.Grammar.rle_norm s)) /\
  (forall ty a sz pro epi par sav loc mx hp rest,
     counts_pos rest ->
     conv_frame_type (C09.Grammar.win_of_fields ty a sz pro epi par sav loc mx hp rest) =
     stack_win_line ty a sz pro epi par sav loc mx hp (unrle rest)).
Proof. exact (conj norm_pos text_record_agree). Qed.
Print Assumptions c07_text_record_agree.

(* the whole of SymbolFile::walk_frame (framedata > fpo > STACK CFI) *)
Theorem c07_walk_frame_total :
  forall (S : Type) (ops : wops S) (p : profile) (E : env) (f : symfile) (s : S),
    Forall win_wf (sf_framedata f) -> Forall win_wf (sf_fpo f) ->
    Forall is_framedata (sf_framedata f) -> Forall is_fpo (sf_fpo f) ->
    exists r : option S, walk_frame ops p E f s = Ret r.
Proof.
  intros S ops p E f s W1 W2 P1 P2.
  assert (Hcfi : forall s1, exists r, cfi_fallback ops p E f s1 = Ret r)
    by (intro s1; unfold cfi_fallback; destruct (sf_cfi f); [apply walk_frame_total|eexists; reflexivity]).
  destruct (walk_frame_by_file_record S ops p E f s W1 W2 P1 P2) as [(i0 & e & _ & _ & _ & ->)|[(i0 & b & _ & _ & _ & ->)| ->]].
  - destruct (framedata_total S ops p E i0 e s) as [[s1 ok] ->]. cbn [obind snd fst]. destruct ok; [eexists; reflexivity|apply Hcfi].
  - cbv zeta. destruct (walk_win_fpo ops E i0 b s) as [s1 ok]. cbn [snd fst]. destruct ok; [eexists; reflexivity|apply Hcfi].
  - apply Hcfi.
Qed.
Print Assumptions c07_walk_frame_total.

(* Through the real CfiStackWalker (x86) a frame-data walk leaves valid only registers among the
   six outputs that the record's program defined — outside the class of the known finding F-C07a
   (a callee-saved register that is valid in the callee and not set by the record). *)
Theorem c07_only_six_and_no_forwarding :
  forall p E i e ctx valid s' m,
    walk_win_framedata (real_ops x86) p E i e (real_init x86 ctx valid) = Ret (s', true) ->
    win_final_vars p E i e = Ret (Some m) ->
    Known_C07a ctx valid m = false ->
    forall n, r_valid s' n = true -> In n six /\ is_set n m = true.
Proof.
  intros p E i e ctx valid s' m H Hm Hk n Hn.
  destruct (forwarded_exact_framedata p E i e ctx valid s' m H Hm) as (A & _ & _ & _ & K).
  rewrite A, (proj2 K Hk), Bool.orb_false_r in Hn. apply andb_prop in Hn. split; [apply mem_b_In|]; apply Hn.
Qed.
Print Assumptions c07_only_six_and_no_forwarding.

(* ... the same for FPO records: eip, esp, ebp, plus the documented pass-through of ebx when
   the frame does not allocate a base pointer. *)
Theorem c07_only_six_and_no_forwarding_fpo :
  forall E i abp ctx valid s',
    walk_win_fpo (real_ops x86) E i abp (real_init x86 ctx valid) = (s', true) ->
    Known_C07a_fpo E abp ctx valid = false ->
    forall n, r_valid s' n = true -> fpo_sets E abp n = true.
Proof.
  intros E i abp ctx valid s' H Hk n Hn.
  destruct (forwarded_exact_fpo E i abp ctx valid s' H) as (A & _ & _ & _ & K & _).
  rewrite A, (proj2 K Hk), Bool.orb_false_r in Hn. exact Hn.
Qed.
Print Assumptions c07_only_six_and_no_forwarding_fpo.

(* Without the hypothesis the statement is false of the faithful model (and of the code:
   corpus/C07/cases.txt, first line): the program sets eip and esp only, esi stays valid. *)
Theorem c07_no_forwarding_refuted :
  exists p E i e ctx valid s' m n,
    walk_win_framedata (real_ops x86) p E i e (real_init x86 ctx valid) = Ret (s', true) /\
    win_final_vars p E i e = Ret (Some m) /\
    r_valid s' n = true /\ is_set n m = false.
Proof.
  destruct forwarding_witness as [s' [m [H1 [H2 [_ [H4 [H5 _]]]]]]].
  exists Debug, w_env, w_info, w_prog, w_ctx, None, s', m, N_esi. auto.
Qed.
Print Assumptions c07_no_forwarding_refuted.

(* the witness of F-C07a (Proofs.v: w_env, w_info, w_prog, w_ctx), run: the record's program sets eip and esp only, esi is
   valid in the callee and stays valid in the caller although the record does not set it *)
Theorem c07_known_witness :
  exists s' m,
    walk_win_framedata (real_ops x86) Debug w_env w_info w_prog (real_init x86 w_ctx None) = Ret (s', true) /\
    win_final_vars Debug w_env w_info w_prog = Ret (Some m) /\
    Known_C07a w_ctx None m = true /\
    r_valid s' N_esi = true /\ is_set N_esi m = false /\
    r_valid s' N_eip = true /\ r_ctx s' N_eip = 1073745920 /\ r_ctx s' N_esp = 2147483652.
Proof. exact forwarding_witness. Qed.
Print Assumptions c07_known_witness.

(* On a walker without forwarding (the abstract mock walker from its initial state) the no-forwarding
   property holds outright: exactly the six outputs the program defined are set, with the program's values. *)
Theorem c07_mock_exact :
  forall p E i e s' m,
    walk_win_framedata (mock_ops 4) p E i e m_init = Ret (s', true) ->
    win_final_vars p E i e = Ret (Some m) ->
    forall n, m_regs s' n = (if mem_b n six then
                               match vget (dollar n) m with Some v => SetTo v | None => Unset end
                             else if mem_b n win_clear_names then Cleared else Unset).
Proof. exact mock_framedata_exact. Qed.
Print Assumptions c07_mock_exact.

(* Program strings refine the documented semantics: for EVERY program text (arbitrary bytes), profile,
   environment, and size fields within u32, the variables after the program are exactly those of the
   independent [win_spec] (variables as a partial function, tokens classified first, `@` = truncate to a
   multiple, "=tok" re-split, predefined constants incl. the `@` rule for .raSearch) — or both fail.
   Together with c07_mock_exact this fixes the caller registers: the six outputs that are defined. *)
Theorem c07_refines_spec :
  forall p E i e,
    info_u32 i -> u32 (e_gcps E) ->
    match win_final_vars p E i e, win_spec E i e with
    | Ret (Some m), Some f => forall k, vget k m = f k
    | Ret None, None => True
    | _, _ => False
    end.
Proof. exact win_refines_spec. Qed.
Print Assumptions c07_refines_spec.

(* Program strings, construct by construct: the initial constants (incl. the '@' rule), assignment,
   .undef, 32-bit wrap. *)
Theorem c07_program_string_facts :
  (* the predefined variables *)
  (forall E i e m, win_initial_vars E i e = Some m ->
     exists esp ebp fs,
       e_callee E N_esp = Some esp /\ e_callee E N_ebp = Some ebp /\
       win_frame_size i (e_gcps E) = Some fs /\ fs = w_locals i + w_saved i + e_gcps E /\ fs < two32 /\
       vget D_esp m = Some (wrap32 esp) /\ vget D_ebp m = Some (wrap32 ebp) /\
       vget D_ebx m = option_map wrap32 (e_callee E N_ebx) /\
       vget V_cbParams m = Some (w_params i) /\ vget V_cbCalleeParams m = Some (e_gcps E) /\
       vget V_cbSavedRegs m = Some (w_saved i) /\ vget V_cbLocals m = Some (w_locals i) /\
       vget V_raSearch m = vget V_raSearchStart m /\
       vget V_raSearch m = Some (if contains_at e then wrap32 ebp + 4 else wrap32 esp + fs) /\
       (if contains_at e then wrap32 ebp + 4 else wrap32 esp + fs) < two32) /\
  (* assignment of an integer, of a variable's value, and of .undef *)
  (forall p E m name v st,
     win_step p E T_eq (m, WInt v :: WVar name :: st) = Ret (vset name v m, st)) /\
  (forall p E m name src v st, vget src m = Some v ->
     win_step p E T_eq (m, WVar src :: WVar name :: st) = Ret (vset name v m, st)) /\
  (forall p E m name st,
     win_step p E T_eq (m, WUndef :: WVar name :: st) = Ret (vdel name m, st)) /\
  (forall k v m, vget k (vset k v m) = Some v) /\
  (forall k m, NoDupKeys m -> vget k (vdel k m) = None) /\
  (* arithmetic is 32-bit wrapping *)
  (forall p E m l r st,
     win_step p E T_plus (m, WInt r :: WInt l :: st) = Ret (m, WInt ((l + r) mod two32) :: st) /\
     win_step p E T_minus (m, WInt r :: WInt l :: st) = Ret (m, WInt ((l - r) mod two32) :: st) /\
     win_step p E T_star (m, WInt r :: WInt l :: st) = Ret (m, WInt ((l * r) mod two32) :: st)).
Proof.
  exact (conj initial_vars_spec (conj assign_int (conj assign_var (conj assign_undef
        (conj vget_vset_same (conj vget_vdel_same wrap_ops)))))).
Qed.
Print Assumptions c07_program_string_facts.

(* FPO formulae incl. the leftover-return-address skip, on the abstract walker *)
Theorem c07_fpo_formulae :
  forall E i abp s',
    walk_win_fpo (mock_ops 4) E i abp m_init = (s', true) ->
    exists fs esp a eip,
      win_frame_size i (e_gcps E) = Some fs /\ e_callee E N_esp = Some esp /\
      (* a = esp + frame_size, or 4 further when the context frame's slot holds the callee's own eip *)
      (a = esp + fs \/
       (a = esp + fs + 4 /\ e_has_gc E = false /\ e_mem E (esp + fs) = e_callee E N_eip)) /\
      (a = esp + fs -> e_has_gc E = false -> e_mem E (esp + fs) <> e_callee E N_eip) /\
      e_mem E a = Some eip /\
      m_regs s' N_eip = SetTo eip /\ m_regs s' N_esp = SetTo (a + 4) /\
      (if abp then exists v, e_mem E (esp + e_gcps E + w_saved i - 8) = Some v /\ m_regs s' N_ebp = SetTo v /\
                             m_regs s' N_ebx = Unset
       else exists v, e_callee E N_ebp = Some v /\ m_regs s' N_ebp = SetTo v /\
                      m_regs s' N_ebx = match e_callee E N_ebx with Some b => SetTo b | None => Unset end).
Proof. exact fpo_formulae. Qed.
Print Assumptions c07_fpo_formulae.

(* ---- the grand-callee facts are DERIVED from the call stack (walk_stack + CfiStackWalker::from_ctx_and_args,
   field expressions regenerated from lib.rs by translate/c07_walker_args.py) ---- *)
(* "has a grand-callee" means exactly "the frame being unwound is not the context frame", whether or not the frame
   below it has a known parameter size; the parameter size is that frame's when known, else 0 *)
Theorem c07_walker_args :
  forall (below : list sframe) (callee : sframe),
    walker_has_gc (below ++ [callee]) = spec_has_gc below /\
    walker_gcps (below ++ [callee]) = spec_gcps below.
Proof. intros. split; [apply walker_has_gc_spec|apply walker_gcps_spec]. Qed.
Print Assumptions c07_walker_args.

(* hence the FPO leftover-return-address skip can only ever touch the context frame: a frame with ANY frame below it
   (symbolicated or not — [parameter_size g] is arbitrary) is unwound by the plain documented formula
   eip = *(esp + frame_size), esp = esp + frame_size + 4, even when that word equals the frame's own eip
   (direct recursion from one call site) *)
Theorem c07_fpo_no_skip_above_context :
  forall regs mem instr below g callee i abp s',
    walk_win_fpo (mock_ops 4) (frames_env regs mem instr (g :: below) callee) i abp m_init = (s', true) ->
    exists fs esp eip,
      win_frame_size i (spec_gcps (g :: below)) = Some fs /\ regs N_esp = Some esp /\
      mem (esp + fs) = Some eip /\
      m_regs s' N_eip = SetTo eip /\ m_regs s' N_esp = SetTo (esp + fs + 4).
Proof.
  intros regs mem instr below g callee i abp s' H.
  destruct (fpo_formulae _ _ _ _ H) as (fs & esp & a & eip & Hfs & Hesp & Ha & _ & Hm & Heip & Hsp & _).
  unfold frames_env in Hfs, Hesp, Ha, Hm. cbn [e_gcps e_callee e_has_gc e_mem] in Hfs, Hesp, Ha, Hm.
  rewrite walker_gcps_spec in Hfs. rewrite walker_has_gc_spec in Ha.
  exists fs, esp, eip. destruct Ha as [->|(_ & Hgc & _)]; [auto|discriminate Hgc].
Qed.
Print Assumptions c07_fpo_no_skip_above_context.

(* A whole walk, unbounded depth (induction on the number of activations): a function unwound by an FPO record that
   called itself n times from ONE call site (every return-address slot holds the same address rr, which is also each
   activation's own eip) sits above at least one other frame.  Whatever that function's parameter size — known (Some k)
   or unknown because the function has no FUNC/PUBLIC record (None) — the first n callers the walk produces are exactly
   the n generated activations: eip = rr, esp advancing by frame size + 4, ebp passed through; nothing is skipped.
   The derivation of has_grand_callee / grand_callee_parameter_size is the translated one (Gen/C07WalkerArgs.v). *)
Theorem c07_fpo_recursion_chain :
  forall (n : nat) mem in_stack lookup i ps F rr ebp below esp0,
    let gcps := match ps with Some k => k | None => 0 end in
    below <> [] -> spec_gcps below = gcps ->
    w_thing i = AllocatesBasePointer false ->
    win_frame_size i gcps = Some F -> 0 <= F ->
    lookup rr = Some (i, ps) ->
    4096 <= rr < 2 ^ 32 -> ebp < 2 ^ 32 -> 0 <= esp0 ->
    esp0 + Z.of_nat n * (F + 4) < 2 ^ 32 ->
    (forall k, (k < n)%nat -> in_stack (esp0 + Z.of_nat k * (F + 4)) = true /\
                              mem (esp0 + Z.of_nat k * (F + 4) + F) = Some rr) ->
    fpo_walk n mem in_stack lookup below (mkX rr esp0 ebp) =
      map (fun k => mkX rr (esp0 + Z.of_nat (S k) * (F + 4)) ebp) (seq 0 n).
Proof. exact fpo_recursion_chain. Qed.
Print Assumptions c07_fpo_recursion_chain.

(* The C04 question for STACK WIN FPO records, unbounded depth (induction on the list of activations): EVERY well-formed
   all-FPO x86 stack — [fpo_layout]: each frame is [arguments for the callee][locals][saved registers][return address],
   each return address >= 4096 is covered by its caller's FPO record, the stack stays below 2^32, the context frame has no
   leftover return address on top — is walked to exactly the generated chain [fpo_chain], starting from the context frame
   (below = []) or from any later frame, for functions with a FUNC record (parameter size Some k) or without one (None),
   including direct recursion from one call site.  has_grand_callee / grand_callee_parameter_size come from the frame
   list through the translated CfiStackWalker::from_ctx_and_args. *)
Theorem c07_fpo_recovers_chain :
  forall mem in_stack lookup ebp (acts : list act) below eip esp,
    fpo_layout mem in_stack lookup (is_nil below) (spec_gcps below) eip esp acts ->
    0 <= esp -> ebp < 2 ^ 32 ->
    fpo_walk (length acts) mem in_stack lookup below (mkX eip esp ebp) = fpo_chain (spec_gcps below) esp ebp acts.
Proof. exact fpo_recovers_chain. Qed.
Print Assumptions c07_fpo_recovers_chain.

(* the same for both kinds of FPO record per function: allocates_base_pointer = false (ebp passed through) and = true (the
   caller's ebp is the word at esp + grand-callee parameter size + saved_register_size - 8, inside the frame) *)
Theorem c07_fpo_recovers_chain_bp :
  forall mem in_stack lookup (acts : list act_bp) below eip esp ebp,
    fpo_layout_bp mem in_stack lookup (is_nil below) (spec_gcps below) eip esp ebp acts ->
    0 <= esp ->
    fpo_walk (length acts) mem in_stack lookup below (mkX eip esp ebp) = fpo_chain_bp (spec_gcps below) esp acts.
Proof. exact fpo_recovers_chain_bp. Qed.
Print Assumptions c07_fpo_recovers_chain_bp.

(* ---- the text route (C09's byte-level parser state -> finish -> walk_frame_table, C07/Text.v) and the record
   route (stack_win_line on parsed fields -> win_table -> walk_frame, the object of the theorems above) ---- *)
(* the STACK WIN table C09's `finish` builds (insert_win_stack_info + into_rangemap_safe + RangeMap over C09's own record
   type with run-length encoded program strings), mapped through conv_win, IS this directory's win_table of the converted
   records, and lookups commute — for records whose program strings are in run-length normal form (counts >= 1,
   neighbouring runs differ: what the line parsers return), on which C09's record equality and this directory's coincide *)
Theorem c07_text_tables_agree :
  forall (ws : list C09.Grammar.win_info) (t : list (C08.Model.range * C09.Grammar.win_info)),
    Forall wi_nf ws ->
    (do l <- C09.Grammar.win_collect [] ws; C08.Model.build_p C09.Grammar.wi_eqb l) = Ret t ->
    win_table (map conv_win ws) = Ret (mapv conv_win t) /\
    forall x, C08.Model.rm_get (mapv conv_win t) x = option_map conv_win (C08.Model.rm_get t x).
Proof. intros ws t H1 H2. split; [exact (win_table_conv ws t H1 H2)|exact (win_lookup_conv t)]. Qed.
Print Assumptions c07_text_tables_agree.

(* hence, for every parser state whose file has no STACK CFI records: SymbolFile::walk_frame as the text route computes it
   equals walk_frame of the record route on the same records — every walker, profile, environment, start state *)
Theorem c07_text_route_agrees :
  forall (S : Type) (ops : wops S) p E (ps : C09.Grammar.pst) (t : C09.Grammar.table) (s : S),
    C09.Grammar.finish ps = Ret t ->
    Forall wi_nf (C09.Grammar.p_win_fd ps) -> Forall wi_nf (C09.Grammar.p_win_fpo ps) ->
    C09.Grammar.t_cfi t = [] ->
    walk_frame_table ops p E t s =
    walk_frame ops p E (mkSym (map conv_win (rev (C09.Grammar.p_win_fd ps))) (map conv_win (rev (C09.Grammar.p_win_fpo ps))) None) s.
Proof. exact text_route_agrees. Qed.
Print Assumptions c07_text_route_agrees.

(* the normal-form hypothesis is an invariant of the parser state machine (every string the line parsers return is
   rle_norm of a piece of the line), so from the LINES of the file: walk_frame_text = walk_frame on the parsed records *)
Theorem c07_parsed_records_normal_form :
  forall ls ps, parse_lines C09.Grammar.init_pst ls = Some ps ->
    Forall wi_nf (C09.Grammar.p_win_fd ps) /\ Forall wi_nf (C09.Grammar.p_win_fpo ps).
Proof. intros ls ps H. apply (parse_lines_nf ls C09.Grammar.init_pst ps); [split; constructor|exact H]. Qed.
Print Assumptions c07_parsed_records_normal_form.

Theorem c07_text_route_agrees_parsed :
  forall (S : Type) (ops : wops S) p E (ls : list C09.Grammar.rle) (ps : C09.Grammar.pst) (t : C09.Grammar.table) (s : S),
    parse_lines C09.Grammar.init_pst ls = Some ps ->
    C09.Grammar.finish ps = Ret t ->
    C09.Grammar.t_cfi t = [] ->
    walk_frame_text ops p E ls s =
    (do r <- walk_frame ops p E (mkSym (map conv_win (rev (C09.Grammar.p_win_fd ps)))
                                       (map conv_win (rev (C09.Grammar.p_win_fpo ps))) None) s;
     Ret (Some r)).
Proof.
  intros S ops p E ls ps t s Hp Hf Hc. unfold walk_frame_text. rewrite Hp, Hf. cbn [obind].
  destruct (c07_parsed_records_normal_form ls ps Hp) as [H1 H2].
  rewrite (text_route_agrees S ops p E ps t s Hf H1 H2 Hc). reflexivity.
Qed.
Print Assumptions c07_text_route_agrees_parsed.

Example c07_nonvacuous_doc_example :
  (* the worked example of the module docs: ebp = mem[16], esp = 24, eip = mem[20] *)
  let E := mkEnv (fun n => assoc n [(N_esp, 1600); (N_ebp, 16)])
                 (mem_read 4 0 [0;0;0;0; 0;0;0;0; 0;0;0;0; 0;0;0;0; 12;0;0;0; 2;0;0;0]) 100 true 0 in
  let e := bs "$T0 $ebp = $eip $T0 4 + ^ = $ebp $T0 ^ = $esp $T0 8 + =" in
  match walk_win_framedata (mock_ops 4) Debug E (mkWin 100 16 0 0 0 0 0 0 (ProgramString e)) e m_init with
  | Ret (s, true) => m_regs s N_ebp = SetTo 12 /\ m_regs s N_esp = SetTo 24 /\ m_regs s N_eip = SetTo 2
  | _ => False
  end.
Proof. vm_compute. repeat split; reflexivity. Qed.

Example c07_nonvacuous_known_false :
  (* a program that sets all four callee-saved registers is outside the known class *)
  let e := bs "$eip $esp ^ = $esp $esp 4 + = $ebx 1 = $esi 2 = $edi 3 =" in
  match win_final_vars Debug w_env (mkWin 100 16 0 0 0 0 0 0 (ProgramString e)) e with
  | Ret (Some m) => Known_C07a w_ctx None m = false
  | _ => False
  end.
Proof. vm_compute. reflexivity. Qed.

Example c07_nonvacuous_table :
  Forall win_wf [mkWin 0 10 0 0 0 0 0 0 (AllocatesBasePointer false); mkWin 1 9 0 0 0 0 0 0 (AllocatesBasePointer false);
                 mkWin 4 6 0 0 0 0 0 0 (AllocatesBasePointer true)] /\
  match win_table [mkWin 0 10 0 0 0 0 0 0 (AllocatesBasePointer false); mkWin 1 9 0 0 0 0 0 0 (AllocatesBasePointer false);
                   mkWin 4 6 0 0 0 0 0 0 (AllocatesBasePointer true)] with
  | Ret t => map fst t = [(0, 0); (1, 3); (4, 9)]
  | _ => False
  end.
Proof.
  split; [repeat constructor; cbn; try lia; try reflexivity|vm_compute; reflexivity].
Qed.

Example c07_nonvacuous_spec :
  let E := mkEnv (fun n => assoc n [(N_esp, 1600); (N_ebp, 16)])
                 (mem_read 4 0 [0;0;0;0; 0;0;0;0; 0;0;0;0; 0;0;0;0; 12;0;0;0; 2;0;0;0]) 100 true 4 in
  let e := bs "$T0 $ebp =$eip $T0 4 + ^ = $ebp $T0 ^ = $esp $T0 8 + = $esi .raSearch 4 @ =" in
  let i := mkWin 100 16 0 0 8 4 12 0 (ProgramString e) in
  info_u32 i /\ u32 (e_gcps E) /\
  match win_spec E i e with
  | Some f => f D_ebp = Some 12 /\ f D_esp = Some 24 /\ f D_eip = Some 2 /\ f D_esi = Some 20 /\ f D_edi = None
  | None => False
  end.
Proof. vm_compute. repeat split; try reflexivity; try (intro H; discriminate H). Qed.

Example c07_nonvacuous_disjoint :
  let l := [mkWin 0 4 0 0 0 0 0 0 (AllocatesBasePointer false); mkWin 10 0 0 0 0 0 0 0 (AllocatesBasePointer false);
            mkWin 4 6 0 0 0 0 0 0 (AllocatesBasePointer true)] in
  Forall win_wf l /\ disjoint_ranges (keep l) /\ table_spec_lookup l 5 = Some (mkWin 4 6 0 0 0 0 0 0 (AllocatesBasePointer true)).
Proof.
  split; [repeat constructor; cbn; try lia; try reflexivity|].
  split; [|vm_compute; reflexivity].
  vm_compute. split; [|split; [|exact I]]; [|intros e' []].
  intros e' [H|[]]; subst e'; reflexivity.
Qed.

Example c07_nonvacuous_recursion_above_unsymbolicated_leaf :
  (* `recurse` (FPO, 8 bytes of locals) called itself from one call site and then a leaf without FUNC record:
     its return address slot holds its own eip, the frame below it has parameter_size None — no skip *)
  let mem := mem_read 4 2147483656 [17;17;17;17; 18;18;18;18; 80;32;0;64; 34;34;0;64; 35;35;35;35; 80;32;0;64] in
  let E := frames_env (fun n => assoc n [(N_esp, 2147483656); (N_ebp, 7); (N_eip, 1073750096)]) mem 8271
                      [mkSF None] (mkSF (Some 0)) in
  e_has_gc E = true /\ e_gcps E = 0 /\ mem (2147483656 + 8) = Some 1073750096 /\
  match walk_win_fpo (mock_ops 4) E (mkWin 8192 256 0 0 0 0 8 0 (AllocatesBasePointer false)) false m_init with
  | (s, true) => m_regs s N_eip = SetTo 1073750096 /\ m_regs s N_esp = SetTo 2147483668
  | _ => False
  end.
Proof. vm_compute. repeat split; reflexivity. Qed.

Example c07_nonvacuous_recursion_walk :
  (* the scenario of the round-4 seeded change, as a whole walk: leaf (no FUNC record) <- recurse x3 <- main.
     From the context frame the FPO walk yields the three activations and main's frame, then stops (no record). *)
  let mem := mem_read 4 2147483648
     [1;1;1;1; 80;32;0;64;   17;17;17;17; 18;18;18;18; 80;32;0;64;   34;34;0;64; 35;35;35;35; 80;32;0;64;
      51;51;51;51; 52;52;52;52; 0;48;0;64;   0;0;0;0; 0;0;0;0] in
  let leaf := mkWin 4096 256 0 0 0 0 4 0 (AllocatesBasePointer false) in
  let recurse := mkWin 8192 256 0 0 0 0 8 0 (AllocatesBasePointer false) in
  let lookup := fun ip => if (1073745920 <=? ip) && (ip <? 1073746176) then Some (leaf, None)
                          else if (1073750016 <=? ip) && (ip <? 1073750272) then Some (recurse, Some 0) else None in
  fpo_walk 10 mem (fun sp => (2147483648 <=? sp) && (sp <? 2147483700)) lookup [] (mkX 1073745936 2147483648 7) =
    [mkX 1073750096 2147483656 7; mkX 1073750096 2147483668 7; mkX 1073750096 2147483680 7; mkX 1073754112 2147483692 7].
Proof. vm_compute. reflexivity. Qed.

Example c07_nonvacuous_text_route :
  (* a three-line symbol file goes through C09's line grammar; its records are in normal form and the theorem applies *)
  match parse_lines C09.Grammar.init_pst
          (map C09.Grammar.to_rle [bs "MODULE windows x86 ABCD1234 m"; bs "STACK WIN 4 64 10 0 0 8 4 c 0 1 $eip .raSearch ^ = $esp .raSearch 4 + =";
                                   bs "STACK WIN 0 100 10 0 0 0 0 8 0 0 0"]) with
  | Some ps =>
      Forall wi_nf (C09.Grammar.p_win_fd ps) /\ Forall wi_nf (C09.Grammar.p_win_fpo ps) /\
      length (C09.Grammar.p_win_fd ps) = 1%nat /\ length (C09.Grammar.p_win_fpo ps) = 1%nat /\
      match C09.Grammar.finish ps with Ret t => C09.Grammar.t_cfi t = [] | _ => False end
  | None => False
  end.
Proof.
  vm_compute. split; [|split; [|repeat split]].
  - constructor; [|constructor]. split.
    + repeat constructor; intro Hc; discriminate Hc.
    + cbn. repeat split; intro Hc; discriminate Hc.
  - constructor; [exact I|constructor].
Qed.

Example c07_nonvacuous_fpo_layout :
  (* the stack of c07_nonvacuous_recursion_walk satisfies the precondition of c07_fpo_recovers_chain from the context frame *)
  let mem := mem_read 4 2147483648
     [1;1;1;1; 80;32;0;64;   17;17;17;17; 18;18;18;18; 80;32;0;64;   34;34;0;64; 35;35;35;35; 80;32;0;64;
      51;51;51;51; 52;52;52;52; 0;48;0;64;   0;0;0;0; 0;0;0;0] in
  let leaf := mkWin 4096 256 0 0 0 0 4 0 (AllocatesBasePointer false) in
  let recurse := mkWin 8192 256 0 0 0 0 8 0 (AllocatesBasePointer false) in
  let lookup := fun ip => if (1073745920 <=? ip) && (ip <? 1073746176) then Some (leaf, None)
                          else if (1073750016 <=? ip) && (ip <? 1073750272) then Some (recurse, Some 0) else None in
  fpo_layout mem (fun sp => (2147483648 <=? sp) && (sp <? 2147483700)) lookup true 0 1073745936 2147483648
    [(leaf, None, 1073750096); (recurse, Some 0, 1073750096); (recurse, Some 0, 1073750096); (recurse, Some 0, 1073754112)].
Proof.
  vm_compute. repeat split; try discriminate; intros _; discriminate.
Qed.

Example c07_nonvacuous_fpo_layout_bp :
  (* leaf (abp = false, no FUNC) <- f (abp = true, 8 bytes of saved registers, parameter size 4: its saved ebp 0x80000040 sits
     at esp + 0 + 8 - 8) <- g (abp = false; its frame starts with the 4 bytes of arguments pushed for f) *)
  let mem := mem_read 4 2147483648
     [1;1;1;1; 80;32;0;64;   64;0;0;128; 9;9;9;9; 16;48;0;64;   4;4;4;4; 5;5;5;5; 0;64;0;64;  0;0;0;0] in
  let leaf := mkWin 4096 256 0 0 0 0 4 0 (AllocatesBasePointer false) in
  let f := mkWin 8192 256 0 0 4 8 0 0 (AllocatesBasePointer true) in
  let g := mkWin 12288 256 0 0 0 0 4 0 (AllocatesBasePointer false) in
  let lookup := fun ip => if (1073745920 <=? ip) && (ip <? 1073746176) then Some (leaf, None)
                          else if (1073750016 <=? ip) && (ip <? 1073750272) then Some (f, Some 4)
                          else if (1073754112 <=? ip) && (ip <? 1073754368) then Some (g, Some 0) else None in
  let acts := [(leaf, None, 1073750096, 7); (f, Some 4, 1073754128, 2147483712); (g, Some 0, 1073758208, 2147483712)] in
  fpo_layout_bp mem (fun sp => (2147483648 <=? sp) && (sp <? 2147483700)) lookup true 0 1073745936 2147483648 7 acts /\
  fpo_chain_bp 0 2147483648 acts =
    [mkX 1073750096 2147483656 7; mkX 1073754128 2147483668 2147483712; mkX 1073758208 2147483680 2147483712].
Proof.
  vm_compute. repeat split; try discriminate; intros _; discriminate.
Qed.

(* ---- the evaluator itself is COMPILED from the Rust source.  translate/c07_win_eval.py parses walker.rs
   (win_frame_size, clear_stack_win_caller_registers, eval_win_expr: the prologue with its `?`s, the `@` rule and the
   predefined constants, every arm of `match token`, the output register list; walk_with_stack_win_fpo statement by
   statement) into Gen/C07WinEval.v on every run and pins the glue (tokenizer closure, output loop,
   walk_with_stack_win_framedata, SymbolFile::walk_frame's framedata > fpo > STACK CFI order); C07/Source.v assembles
   the compiled pieces along that glue.  An edit to a formula, a guard, an operator, a constant's name or value, the
   order of the `?`s, a register list ... changes the Gallina below, and these theorems are re-checked against it. ---- *)

(* the compiled source IS the hand-written model all other theorems of this file are about: every function, all arguments *)
Theorem c07_source_is_model :
  (forall i g, g_win_frame_size i g = win_frame_size i g) /\
  g_clear_names = win_clear_names /\ g_win_outputs = win_outputs /\
  (forall E i e, g_win_initial_vars E i e = win_initial_vars E i e) /\
  (forall p E t ms, g_win_step p E t ms = win_step p E t ms) /\
  (forall S (ops : wops S) E i abp s, g_walk_win_fpo ops E i abp s = walk_win_fpo ops E i abp s) /\
  (forall S (ops : wops S) p E i e s, src_walk_win_framedata ops p E i e s = walk_win_framedata ops p E i e s) /\
  (forall S (ops : wops S) p E f s, src_walk_frame ops p E f s = walk_frame ops p E f s).
Proof.
  repeat split; auto using g_frame_size_eq, g_initial_eq, g_step_eq, g_fpo_eq, src_framedata_eq, src_walk_frame_eq.
Qed.
Print Assumptions c07_source_is_model.

(* c07_refines_spec for the compiled evaluator: every program text, profile, environment, size fields within u32 *)
Theorem c07_src_refines_spec :
  forall p E i e,
    info_u32 i -> u32 (e_gcps E) ->
    match src_win_final_vars p E i e, win_spec E i e with
    | Ret (Some m), Some f => forall k, vget k m = f k
    | Ret None, None => True
    | _, _ => False
    end.
Proof. intros. rewrite src_final_vars_eq. apply win_refines_spec; assumption. Qed.
Print Assumptions c07_src_refines_spec.

(* exactly the six outputs the program defined reach the (mock) walker, under the names without the `$`;
   the names cleared first are the ones the source passes *)
Theorem c07_src_mock_exact :
  forall p E i e s' m,
    src_walk_win_framedata (mock_ops 4) p E i e m_init = Ret (s', true) ->
    src_win_final_vars p E i e = Ret (Some m) ->
    forall n, m_regs s' n = (if mem_b n six then
                               match vget (dollar n) m with Some v => SetTo v | None => Unset end
                             else if mem_b n g_clear_names then Cleared else Unset).
Proof.
  intros p E i e s' m. rewrite src_framedata_eq, src_final_vars_eq, g_clear_names_eq. apply mock_framedata_exact.
Qed.
Print Assumptions c07_src_mock_exact.

(* the FPO formulae (frame size = locals + saved + grand-callee parameters, the one-word leftover-return-address skip
   for the context frame only, the saved-ebp slot, the ebx pass-through) of the compiled walk_with_stack_win_fpo *)
Theorem c07_src_fpo_formulae :
  forall E i abp s',
    g_walk_win_fpo (mock_ops 4) E i abp m_init = (s', true) ->
    exists fs esp a eip,
      g_win_frame_size i (e_gcps E) = Some fs /\ fs = w_locals i + w_saved i + e_gcps E /\ e_callee E N_esp = Some esp /\
      (a = esp + fs \/
       (a = esp + fs + 4 /\ e_has_gc E = false /\ e_mem E (esp + fs) = e_callee E N_eip)) /\
      (a = esp + fs -> e_has_gc E = false -> e_mem E (esp + fs) <> e_callee E N_eip) /\
      e_mem E a = Some eip /\
      m_regs s' N_eip = SetTo eip /\ m_regs s' N_esp = SetTo (a + 4) /\
      (if abp then exists v, e_mem E (esp + e_gcps E + w_saved i - 8) = Some v /\ m_regs s' N_ebp = SetTo v /\
                             m_regs s' N_ebx = Unset
       else exists v, e_callee E N_ebp = Some v /\ m_regs s' N_ebp = SetTo v /\
                      m_regs s' N_ebx = match e_callee E N_ebx with Some b => SetTo b | None => Unset end).
Proof.
  intros E i abp s' H. rewrite g_fpo_eq in H.
  destruct (fpo_formulae _ _ _ _ H) as (fs & esp & a & eip & Hfs & R).
  exists fs, esp, a, eip. rewrite g_frame_size_eq. split; [exact Hfs|]. split; [|exact R].
  unfold win_frame_size in Hfs. destruct (checked_add 32 (w_locals i) (w_saved i)) as [x|] eqn:Ex; [|discriminate].
  apply WordFacts.checked_add_some in Ex. apply WordFacts.checked_add_some in Hfs. lia.
Qed.
Print Assumptions c07_src_fpo_formulae.

(* no reachable panic in the compiled walk_frame: a dropped `rhs == 0` guard (g_div / g_rem), an unchecked `+`, the
   `rhs - 1` of `@` ... would leave a Panic the proof cannot discharge *)
Theorem c07_src_walk_frame_total :
  forall (S : Type) (ops : wops S) (p : profile) (E : env) (f : symfile) (s : S),
    Forall win_wf (sf_framedata f) -> Forall win_wf (sf_fpo f) ->
    Forall is_framedata (sf_framedata f) -> Forall is_fpo (sf_fpo f) ->
    exists r : option S, src_walk_frame ops p E f s = Ret r.
Proof. intros. rewrite src_walk_frame_eq. apply c07_walk_frame_total; assumption. Qed.
Print Assumptions c07_src_walk_frame_total.

Example c07_nonvacuous_src_doc_example :
  (* the worked example of the module docs through the compiled evaluator; and an FPO record with the
     leftover-return-address skip (context frame, slot holds the callee's own eip 77) *)
  let E := mkEnv (fun n => assoc n [(N_esp, 1600); (N_ebp, 16)])
                 (mem_read 4 0 [0;0;0;0; 0;0;0;0; 0;0;0;0; 0;0;0;0; 12;0;0;0; 2;0;0;0]) 100 true 0 in
  let e := bs "$T0 $ebp = $eip $T0 4 + ^ = $ebp $T0 ^ = $esp $T0 8 + =" in
  let f := mkSym [mkWin 100 16 0 0 0 0 0 0 (ProgramString e)] [] None in
  let E2 := mkEnv (fun n => assoc n [(N_esp, 8); (N_ebp, 55); (N_eip, 77)])
                  (mem_read 4 0 [0;0;0;0; 0;0;0;0; 0;0;0;0; 77;0;0;0; 9;16;0;0; 2;0;0;0]) 100 false 0 in
  match src_walk_frame (mock_ops 4) Debug E f m_init with
  | Ret (Some s) => m_regs s N_ebp = SetTo 12 /\ m_regs s N_esp = SetTo 24 /\ m_regs s N_eip = SetTo 2
  | _ => False
  end /\
  match g_walk_win_fpo (mock_ops 4) E2 (mkWin 100 16 0 0 0 0 4 0 (AllocatesBasePointer false)) false m_init with
  | (s, true) => m_regs s N_eip = SetTo 4105 /\ m_regs s N_esp = SetTo 20 /\ m_regs s N_ebp = SetTo 55
  | _ => False
  end.
Proof. vm_compute. repeat split; reflexivity. Qed.

(* ---- the caller state after a STACK WIN walk through the real x86 CfiStackWalker, EXACTLY — validity set
   and register values, both directions, no hypothesis about F-C07a.  c07_only_six_and_no_forwarding states the
   property under `Known_C07a = false`; this is the full account of the faithful model: a register is valid in the
   caller iff the record's program defined it (one of the six) OR it was forwarded by from_ctx_and_args (callee-saved
   ebp / ebx / edi / esi, valid in the callee) — the second disjunct, for a register the record does not set, is
   precisely the known finding.  Values: what the program assigned; every other register keeps the callee's value. ---- *)
Theorem c07_real_framedata_exact :
  forall p E i e ctx valid s' m,
    walk_win_framedata (real_ops x86) p E i e (real_init x86 ctx valid) = Ret (s', true) ->
    win_final_vars p E i e = Ret (Some m) ->
    forall n,
      r_valid s' n = (mem_b n six && is_set n m) ||
                     (mem_b n (a_saved x86) && match valid with None => true | Some which => mem_b n which end) /\
      r_ctx s' n = (if mem_b n six
                    then match vget (dollar n) m with Some v => v | None => r_ctx (real_init x86 ctx valid) n end
                    else r_ctx (real_init x86 ctx valid) n).
Proof. exact real_framedata_exact. Qed.
Print Assumptions c07_real_framedata_exact.

(* FPO: valid in the caller = eip, esp, ebp, ebx when passed through (no base pointer allocated and the callee has
   it), or forwarded *)
Theorem c07_real_fpo_exact :
  forall E i abp ctx valid s',
    walk_win_fpo (real_ops x86) E i abp (real_init x86 ctx valid) = (s', true) ->
    forall n, r_valid s' n = fpo_sets E abp n ||
                             (mem_b n (a_saved x86) && match valid with None => true | Some which => mem_b n which end).
Proof. exact real_fpo_exact. Qed.
Print Assumptions c07_real_fpo_exact.

(* Which record SymbolFile::walk_frame uses: a frame-data record covering the address is used whatever the FPO table
   holds; otherwise the FPO record covering it; STACK CFI is consulted exactly when no STACK WIN record applied or the
   one that applied failed, and then continues from the walker state the failed attempt left.  (The order is pinned
   in mod.rs by translate/c07_win_eval.py; c07_source_is_model carries this to the compiled functions.) *)
Theorem c07_record_preference :
  forall S (ops : wops S) p E f s fd fp,
    win_table (sf_framedata f) = Ret fd -> win_table (sf_fpo f) = Ret fp ->
    (forall i e, C08.Model.rm_get fd (e_instr E) = Some i -> w_thing i = ProgramString e ->
       walk_frame ops p E f s =
       (do wr <- walk_win_framedata ops p E i e s;
        if snd wr then Ret (Some (fst wr)) else cfi_fallback ops p E f (fst wr))) /\
    (forall i b, C08.Model.rm_get fd (e_instr E) = None -> C08.Model.rm_get fp (e_instr E) = Some i ->
       w_thing i = AllocatesBasePointer b ->
       walk_frame ops p E f s =
       (let wr := walk_win_fpo ops E i b s in
        if snd wr then Ret (Some (fst wr)) else cfi_fallback ops p E f (fst wr))) /\
    (C08.Model.rm_get fd (e_instr E) = None -> C08.Model.rm_get fp (e_instr E) = None ->
       walk_frame ops p E f s = cfi_fallback ops p E f s).
Proof. exact record_preference. Qed.
Print Assumptions c07_record_preference.

(* stack_win_line as extracted from parser.rs by translate/c07_win_line.py (the order and kind of the fields nom reads,
   type / has_program_string consistency, ProgramString vs AllocatesBasePointer(rest == "1"), which parsed field fills
   which StackInfoWin field, FrameData / Fpo / Unhandled by type): it is this directory's record constructor, its
   field kinds are the ones C09's byte-level recogniser p_stack_win reads in that order, and C09's record for a line
   is the one the extracted function builds. *)
Theorem c07_line_source :
  (forall ty a sz pro epi par sav loc mx hp rest,
     g_stack_win_line ty a sz pro epi par sav loc mx hp rest = stack_win_line ty a sz pro epi par sav loc mx hp rest) /\
  map snd g_line_fields = grammar_field_kinds /\
  (forall ty a sz pro epi par sav loc mx hp rest,
     counts_pos rest ->
     conv_frame_type (C09.Grammar.win_of_fields ty a sz pro epi par sav loc mx hp rest) =
     g_stack_win_line ty a sz pro epi par sav loc mx hp (unrle rest)).
Proof. exact (conj g_stack_win_line_eq (conj g_line_fields_kinds g_line_agrees_with_grammar)). Qed.
Print Assumptions c07_line_source.

Example c07_nonvacuous_preference :
  (* both tables hold a record covering address 100: the frame-data one is used *)
  let e := bs "$eip 4096 = $esp 9 =" in
  let f := mkSym [mkWin 96 16 0 0 0 0 0 0 (ProgramString e)] [mkWin 100 16 0 0 0 0 0 0 (AllocatesBasePointer false)] None in
  match win_table (sf_framedata f), win_table (sf_fpo f) with
  | Ret fd, Ret fp =>
      match C08.Model.rm_get fd 100, C08.Model.rm_get fp 100 with
      | Some i, Some j => w_thing i = ProgramString e /\ w_thing j = AllocatesBasePointer false
      | _, _ => False
      end
  | _, _ => False
  end.
Proof. vm_compute. split; reflexivity. Qed.

(* The two frame-data programs MSVC emits for almost every function, for ALL environments, size fields and memory
   contents (symbolic evaluation, not a run): (1) `$T0 .raSearch = $eip $T0 ^ = $esp $T0 4 + =` behaves like an FPO
   record without base pointer and without the leftover-return-address skip — eip = *(esp + frame_size),
   esp = esp + frame_size + 4, ebp and ebx are the callee's (they are predefined variables the program never
   undefines), esi / edi unknown; (2) the module docs' worked example (standard ebp frame): eip = *(ebp + 4),
   ebp = *(ebp), esp = ebp + 8.  All values 32-bit wrapped. *)
Theorem c07_standard_programs :
  (forall p E i esp ebp fs ra s',
     e_callee E N_esp = Some esp -> e_callee E N_ebp = Some ebp -> win_frame_size i (e_gcps E) = Some fs ->
     e_mem E (wrap32 esp + fs) = Some ra ->
     walk_win_framedata (mock_ops 4) p E i prog_ra_search m_init = Ret (s', true) ->
     m_regs s' N_eip = SetTo (wrap32 ra) /\ m_regs s' N_esp = SetTo (wrap32 (wrap32 esp + fs + 4)) /\
     m_regs s' N_ebp = SetTo (wrap32 ebp) /\
     m_regs s' N_ebx = match e_callee E N_ebx with Some b => SetTo (wrap32 b) | None => Unset end /\
     m_regs s' N_esi = Unset /\ m_regs s' N_edi = Unset) /\
  (forall p E i esp ebp ra old s',
     e_callee E N_esp = Some esp -> e_callee E N_ebp = Some ebp ->
     e_mem E (wrap32 (wrap32 ebp + 4)) = Some ra -> e_mem E (wrap32 ebp) = Some old ->
     walk_win_framedata (mock_ops 4) p E i prog_ebp_frame m_init = Ret (s', true) ->
     m_regs s' N_eip = SetTo (wrap32 ra) /\ m_regs s' N_esp = SetTo (wrap32 (wrap32 ebp + 8)) /\
     m_regs s' N_ebp = SetTo (wrap32 old) /\
     m_regs s' N_ebx = match e_callee E N_ebx with Some b => SetTo (wrap32 b) | None => Unset end /\
     m_regs s' N_esi = Unset /\ m_regs s' N_edi = Unset).
Proof. exact (conj ra_search_regs ebp_frame_regs). Qed.
Print Assumptions c07_standard_programs.

Example c07_nonvacuous_standard_program :
  (* frame size 4 + 4 + 4, return address 0x40001000 at esp + 12 *)
  let E := mkEnv (fun n => assoc n [(N_esp, 16); (N_ebp, 55); (N_ebx, 9)])
                 (mem_read 4 16 [1;0;0;0; 2;0;0;0; 3;0;0;0; 0;16;0;64; 5;0;0;0]) 100 true 4 in
  let i := mkWin 100 16 0 0 8 4 4 0 (ProgramString prog_ra_search) in
  e_mem E (wrap32 16 + 12) = Some 1073745920 /\ win_frame_size i (e_gcps E) = Some 12 /\
  exists s', walk_win_framedata (mock_ops 4) Debug E i prog_ra_search m_init = Ret (s', true).
Proof. split; [reflexivity|]. split; [reflexivity|]. eexists. vm_compute. reflexivity. Qed.

(* Whole walks through frame-data programs: walk_stack's loop on the abstract 32-bit
   walker with BOTH kinds of record (win_walk: a frame-data record is evaluated by walk_win_framedata — the model
   c07_source_is_model ties to walker.rs — an FPO record by walk_win_fpo).  EVERY well-formed x86 stack, of any depth,
   whose functions carry an FPO record without base pointer or a frame-data record with the program
   `$T0 .raSearch = $eip $T0 ^ = $esp $T0 4 + =`, in any mix, with or without FUNC records, with any recursion, is
   walked to exactly its generated chain; a leftover return address can only matter for an FPO record on the context
   frame (frame-data evaluation has no such rule, so the layout does not exclude it there). *)
Theorem c07_win_recovers_chain :
  forall mem in_stack lookup ebp (acts : list act) below eip esp,
    win_layout mem in_stack lookup (is_nil below) (spec_gcps below) eip esp acts ->
    0 <= esp -> 0 <= ebp < 2 ^ 32 ->
    win_walk (length acts) mem in_stack lookup below (mkX eip esp ebp) = fpo_chain (spec_gcps below) esp ebp acts.
Proof. exact win_recovers_chain. Qed.
Print Assumptions c07_win_recovers_chain.

Example c07_nonvacuous_win_layout :
  (* the recursion stack of c07_nonvacuous_fpo_layout with the leaf described by a frame-data record (its return slot
     may even hold a look-alike of its own eip) and the recursing function by alternating kinds of record *)
  let mem := mem_read 4 2147483648
     [1;1;1;1; 80;32;0;64;   17;17;17;17; 18;18;18;18; 80;32;0;64;   34;34;0;64; 35;35;35;35; 80;32;0;64;
      51;51;51;51; 52;52;52;52; 0;48;0;64;   0;0;0;0; 0;0;0;0] in
  let leaf := mkWin 4096 256 0 0 0 0 4 0 (ProgramString prog_ra_search_b) in
  let recurse := mkWin 8192 256 0 0 0 0 8 0 (AllocatesBasePointer false) in
  let lookup := fun ip => if (1073745920 <=? ip) && (ip <? 1073746176) then Some (leaf, None)
                          else if (1073750016 <=? ip) && (ip <? 1073750272) then Some (recurse, Some 0) else None in
  let acts := [(leaf, None, 1073750096); (recurse, Some 0, 1073750096); (recurse, Some 0, 1073750096); (recurse, Some 0, 1073754112)] in
  win_layout mem (fun sp => (2147483648 <=? sp) && (sp <? 2147483700)) lookup true 0 1073745936 2147483648 acts /\
  win_walk 4 mem (fun sp => (2147483648 <=? sp) && (sp <? 2147483700)) lookup [] (mkX 1073745936 2147483648 55) =
  [mkX 1073750096 2147483656 55; mkX 1073750096 2147483668 55; mkX 1073750096 2147483680 55; mkX 1073754112 2147483692 55].
Proof.
  vm_compute. repeat split; try (intros; discriminate); (left; reflexivity) || (right; reflexivity).
Qed.

(* ... and with three kinds of record in one stack: FPO without base pointer (ebp passed through), FPO with base
   pointer (the caller's ebp is the word at esp + gcps + saved - 8), frame data with the .raSearch program (ebp passed
   through, being a predefined variable).  fpo_chain_bp names each caller's eip, esp and ebp. *)
Theorem c07_win_recovers_chain_bp :
  forall mem in_stack lookup (acts : list act_bp) below eip esp ebp,
    win_layout_bp mem in_stack lookup (is_nil below) (spec_gcps below) eip esp ebp acts ->
    0 <= esp ->
    win_walk (length acts) mem in_stack lookup below (mkX eip esp ebp) = fpo_chain_bp (spec_gcps below) esp acts.
Proof. exact win_recovers_chain_bp. Qed.
Print Assumptions c07_win_recovers_chain_bp.

Example c07_nonvacuous_win_layout_bp :
  (* the stack of c07_nonvacuous_fpo_layout_bp with the leaf and g described by frame-data records, f by an FPO record
     with base pointer *)
  let mem := mem_read 4 2147483648
     [1;1;1;1; 80;32;0;64;   64;0;0;128; 9;9;9;9; 16;48;0;64;   4;4;4;4; 5;5;5;5; 0;64;0;64;  0;0;0;0] in
  let leaf := mkWin 4096 256 0 0 0 0 4 0 (ProgramString prog_ra_search_b) in
  let f := mkWin 8192 256 0 0 4 8 0 0 (AllocatesBasePointer true) in
  let g := mkWin 12288 256 0 0 0 0 4 0 (ProgramString prog_ra_search_b) in
  let lookup := fun ip => if (1073745920 <=? ip) && (ip <? 1073746176) then Some (leaf, None)
                          else if (1073750016 <=? ip) && (ip <? 1073750272) then Some (f, Some 4)
                          else if (1073754112 <=? ip) && (ip <? 1073754368) then Some (g, Some 0) else None in
  let acts := [(leaf, None, 1073750096, 7); (f, Some 4, 1073754128, 2147483712); (g, Some 0, 1073758208, 2147483712)] in
  win_layout_bp mem (fun sp => (2147483648 <=? sp) && (sp <? 2147483700)) lookup true 0 1073745936 2147483648 7 acts /\
  win_walk 3 mem (fun sp => (2147483648 <=? sp) && (sp <? 2147483700)) lookup [] (mkX 1073745936 2147483648 7) =
    [mkX 1073750096 2147483656 7; mkX 1073754128 2147483668 2147483712; mkX 1073758208 2147483680 2147483712].
Proof.
  vm_compute. repeat split; try discriminate; intros _; discriminate.
Qed.

(* What of the program TEXT matters (the class of seeded C07-8): evaluation depends on the text only through its token
   sequence after the `=tok` re-split and through whether the byte `@` occurs in it — so `... =@` and `... = @` (same
   tokens, both contain `@`) evaluate identically, including the .raSearch rule. *)
Theorem c07_program_text_dependence :
  forall p E i e e',
    win_tokens e = win_tokens e' -> contains_at e = contains_at e' ->
    win_final_vars p E i e = win_final_vars p E i e' /\
    forall S (ops : wops S) s, walk_win_framedata ops p E i e s = walk_win_framedata ops p E i e' s.
Proof.
  intros p E i e e' Ht Ha.
  assert (Hf : win_final_vars p E i e = win_final_vars p E i e') by (unfold win_final_vars, win_initial_vars; rewrite Ha, Ht; reflexivity).
  split; [exact Hf|]. intros. unfold walk_win_framedata. rewrite Hf. reflexivity.
Qed.
Print Assumptions c07_program_text_dependence.

Example c07_nonvacuous_glued_align :
  let a := bs "$T1 $esp 16 $T0 1 =@ = $eip .raSearch ^ =" in
  let b := bs "$T1 $esp 16 $T0 1 = @ = $eip   .raSearch ^ =" in
  win_tokens a = win_tokens b /\ contains_at a = contains_at b /\ contains_at a = true.
Proof. vm_compute. repeat split; reflexivity. Qed.

(* One step of win_walk (and of fpo_walk, which it contains) IS SymbolFile::walk_frame on the abstract walker: for a file
   without STACK CFI records, whichever record the tables return at the lookup address `a` — the frame-data one, or the
   FPO one when no frame-data record covers `a` — the step's caller registers are those walk_frame leaves in the walker
   (eip, esp, ebp all set), and there is no step iff walk_frame fails.  So c07_win_recovers_chain(_bp) are statements about
   iterating walk_frame, the function c07_source_is_model ties to the Rust source.  (Hypotheses met: c07_nonvacuous_preference.) *)
Theorem c07_walk_step_is_walk_frame :
  forall f fd fp mem below callee r a i,
    win_table (sf_framedata f) = Ret fd -> win_table (sf_fpo f) = Ret fp -> sf_cfi f = None ->
    ((C08.Model.rm_get fd a = Some i /\ exists e, w_thing i = ProgramString e) \/
     (C08.Model.rm_get fd a = None /\ C08.Model.rm_get fp a = Some i /\ exists b, w_thing i = AllocatesBasePointer b)) ->
    let regs := fun n => assoc n [(N_eip, x_eip r); (N_esp, x_esp r); (N_ebp, x_ebp r)] in
    win_xstep mem below callee r i =
    match walk_frame (mock_ops 4) Debug (frames_env regs mem a below callee) f m_init with
    | Ret (Some s) => xregs_of s
    | _ => None
    end.
Proof. exact xstep_is_walk_frame. Qed.
Print Assumptions c07_walk_step_is_walk_frame.

(* ... and whole walks through standard ebp frames (the module docs' worked example as every function's frame-data
   program): any depth, eip = *(ebp + 4), esp = ebp + 8, ebp = *ebp at every step — the classic frame-pointer chain,
   here produced by STACK WIN evaluation.  The layout must let the predefined .raSearch be computed (esp + frame_size
   within 32 bits) although the program never uses it: otherwise evaluation fails before the first token. *)
Theorem c07_ebp_recovers_chain :
  forall mem in_stack lookup (acts : list act_bp) below eip esp ebp,
    ebp_layout mem in_stack lookup (is_nil below) (spec_gcps below) eip esp ebp acts ->
    win_walk (length acts) mem in_stack lookup below (mkX eip esp ebp) = ebp_chain ebp acts.
Proof. exact ebp_recovers_chain. Qed.
Print Assumptions c07_ebp_recovers_chain.

Example c07_nonvacuous_ebp_layout :
  let mem := mem_read 4 2147483648
     [1;1;1;1; 2;2;2;2;   24;0;0;128; 80;32;0;64;   3;3;3;3; 4;4;4;4;   0;1;0;128; 16;48;0;64;  0;0;0;0] in
  let f := mkWin 4096 256 0 0 0 0 4 0 (ProgramString prog_ebp_frame_b) in
  let g := mkWin 8192 256 0 0 0 0 4 0 (ProgramString prog_ebp_frame_b) in
  let lookup := fun ip => if (1073745920 <=? ip) && (ip <? 1073746176) then Some (f, None)
                          else if (1073750016 <=? ip) && (ip <? 1073750272) then Some (g, Some 0) else None in
  let acts := [(f, None, 1073750096, 2147483672); (g, Some 0, 1073754128, 2147483904)] in
  ebp_layout mem (fun sp => (2147483648 <=? sp) && (sp <? 2147483700)) lookup true 0 1073745936 2147483648 2147483656 acts /\
  win_walk 2 mem (fun sp => (2147483648 <=? sp) && (sp <? 2147483700)) lookup [] (mkX 1073745936 2147483648 2147483656) =
    [mkX 1073750096 2147483664 2147483672; mkX 1073754128 2147483680 2147483904].
Proof.
  split; [|vm_compute; reflexivity].
  cbn [ebp_layout]. cbv zeta.
  repeat match goal with |- _ /\ _ => split end;
    try (exists 4; repeat match goal with |- _ /\ _ => split end);
    try exact I; try (vm_compute; reflexivity); try (vm_compute; intro Hc; discriminate Hc).
Qed.

(* The correspondence run evaluates every generated case with the hand-written model AND with
   the model compiled from walker.rs / mod.rs on that run (Driver.run_*7_src: Source.src_walk_frame, and win_walk over
   the compiled evaluators for whole walks); ocaml/c07/main.ml reports a case on which they differ.  Here: the two
   instances of each extracted entry point are the same function of the case line, for all inputs — so on the
   unchanged tree the three-way comparison can only ever differ from the real code, and after an edit of the source
   the compiled instance follows the code while this theorem (through c07_source_is_model) stops proving. *)
Theorem c07_driver_source_agrees :
  (forall lookup gcps hasgc regs membase mem recs names,
     run_mock7_src lookup gcps hasgc regs membase mem recs names = run_mock7 lookup gcps hasgc regs membase mem recs names) /\
  (forall ctx valid stackbase stack recs,
     run_real7_src ctx valid stackbase stack recs = run_real7 ctx valid stackbase stack recs) /\
  (forall below ctx valid stackbase stack recs,
     run_frames7_src below ctx valid stackbase stack recs = run_frames7 below ctx valid stackbase stack recs) /\
  (forall ctx stackbase stack funcs recs,
     run_walk7_src ctx stackbase stack funcs recs = run_walk7 ctx stackbase stack funcs recs).
Proof.
  split; [|split; [|split]]; intros.
  - unfold run_mock7_src, run_mock7, run_mock7_with. rewrite src_walk_frame_eq. reflexivity.
  - unfold run_real7_src, run_real7, run_real7_with. rewrite src_walk_frame_eq. reflexivity.
  - unfold run_frames7_src, run_frames7, run_frames7_with. destruct (frames_pre _ _ _ _ _) as [[l sp]|]; [|reflexivity].
    rewrite src_walk_frame_eq. reflexivity.
  - unfold run_walk7_src, run_walk7, run_walk7_with. rewrite walk_with_src_eq. reflexivity.
Qed.
Print Assumptions c07_driver_source_agrees.

(* The exact extent of the known finding F-C07a, for EVERY callee validity set.
   W = wrongly_forwarded valid sets = the registers of CALLEE_SAVED_REGS = [ebp; ebx; edi; esi] that are valid in the
   callee and that the record does not set.  After a successful frame-data walk through the real x86 CfiStackWalker the
   caller's validity set is (the outputs the program defined) + W — disjointly, nothing else —, every register of W
   carries the callee's value unchanged, and W is empty exactly when the case is outside the known class
   (Known_C07a = false, the hypothesis of c07_only_six_and_no_forwarding).  So the finding never makes a register
   outside those four valid, never changes a value the record sets, and is exactly as large as the callee's validity
   set allows: W = ([ebp; ebx; edi; esi] ∩ valid) \ defined. *)
Theorem c07_forwarded_set_exact :
  forall p E i e ctx valid s' m,
    walk_win_framedata (real_ops x86) p E i e (real_init x86 ctx valid) = Ret (s', true) ->
    win_final_vars p E i e = Ret (Some m) ->
    let W := wrongly_forwarded valid (fd_sets m) in
    (forall n, r_valid s' n = fd_sets m n || mem_b n W) /\
    (forall n, In n W <-> In n (a_saved x86) /\ callee_has valid n = true /\ is_set n m = false) /\
    (forall n, In n W -> r_valid s' n = true /\ r_ctx s' n = r_ctx (real_init x86 ctx valid) n) /\
    NoDup W /\
    (W = [] <-> Known_C07a ctx valid m = false).
Proof. exact forwarded_exact_framedata. Qed.
Print Assumptions c07_forwarded_set_exact.

(* ... and for FPO records, register by register: %ebp is never wrongly forwarded (the record always sets it), %esi and
   %edi whenever they are valid in the callee, %ebx when it is valid in the callee and not passed through (the record
   allocates a base pointer, or the walker does not report it). *)
Theorem c07_forwarded_set_exact_fpo :
  forall E i abp ctx valid s',
    walk_win_fpo (real_ops x86) E i abp (real_init x86 ctx valid) = (s', true) ->
    let W := wrongly_forwarded valid (fpo_sets E abp) in
    (forall n, r_valid s' n = fpo_sets E abp n || mem_b n W) /\
    (forall n, In n W <-> In n (a_saved x86) /\ callee_has valid n = true /\ fpo_sets E abp n = false) /\
    (forall n, In n W -> r_valid s' n = true) /\
    NoDup W /\
    (W = [] <-> Known_C07a_fpo E abp ctx valid = false) /\
    ~ In N_ebp W /\
    (In N_esi W <-> callee_has valid N_esi = true) /\
    (In N_edi W <-> callee_has valid N_edi = true) /\
    (In N_ebx W <-> callee_has valid N_ebx = true /\ (abp = true \/ e_callee E N_ebx = None)).
Proof. exact forwarded_exact_fpo. Qed.
Print Assumptions c07_forwarded_set_exact_fpo.

(* W as a closed formula: one conditional per callee-saved register, in CALLEE_SAVED_REGS order *)
Theorem c07_forwarded_set_formula :
  forall valid sets,
    wrongly_forwarded valid sets =
    (if callee_has valid N_ebp && negb (sets N_ebp) then [N_ebp] else []) ++
    (if callee_has valid N_ebx && negb (sets N_ebx) then [N_ebx] else []) ++
    (if callee_has valid N_edi && negb (sets N_edi) then [N_edi] else []) ++
    (if callee_has valid N_esi && negb (sets N_esi) then [N_esi] else []).
Proof.
  intros. unfold wrongly_forwarded. change (a_saved x86) with [N_ebp; N_ebx; N_edi; N_esi]. cbn [filter].
  destruct (callee_has valid N_ebp && negb (sets N_ebp)), (callee_has valid N_ebx && negb (sets N_ebx)),
           (callee_has valid N_edi && negb (sets N_edi)), (callee_has valid N_esi && negb (sets N_esi)); reflexivity.
Qed.
Print Assumptions c07_forwarded_set_formula.

(* the witness of F-C07a (`$eip $esp ^ = $esp $esp 4 + =`; $ebp and $ebx are predefined, hence defined outputs):
   all registers valid in the callee -> W = [edi; esi]; only eip, esp, ebp, esi valid -> W = [esi]; none of the
   callee-saved ones valid -> W = [] *)
Example c07_nonvacuous_forwarded_set :
  match walk_win_framedata (real_ops x86) Debug w_env w_info w_prog (real_init x86 w_ctx None),
        win_final_vars Debug w_env w_info w_prog with
  | Ret (s', true), Ret (Some m) =>
      wrongly_forwarded None (fd_sets m) = [N_edi; N_esi] /\
      wrongly_forwarded (Some [N_eip; N_esp; N_ebp; N_esi]) (fd_sets m) = [N_esi] /\
      wrongly_forwarded (Some [N_eip; N_esp]) (fd_sets m) = [] /\
      r_valid s' N_edi = true /\ r_valid s' N_esi = true /\ r_ctx s' N_esi = 12
  | _, _ => False
  end.
Proof. vm_compute. repeat split; reflexivity. Qed.

(* ---- WHICH record SymbolFile::walk_frame sees when several STACK WIN records of one kind
   cover an address.  The STACK WIN table theorems of C08 (c08_win_build_total / _sorted_disjoint / _lookup_sound /
   _isolated_complete, stated there for records (address, size, tag)) are imported for this directory's full
   StackInfoWin records through a map that preserves the derived equality (C07/Proofs23.v, Proofs8's parametricity of
   the range-map builder); no hypothesis on overlaps, duplicates or zero-sized records. ---- *)

(* whatever the overlaps: a lookup returns a record OF THE FILE — same address, same every other field, a size never
   larger than written (the overlap repair only ever shortens) — filed under its own range, which contains the address *)
Theorem c07_table_lookup_sound :
  forall l t x i,
    Forall win_wf l -> win_table l = Ret t -> C08.Model.rm_get t x = Some i ->
    exists i0, In i0 l /\ i = set_size i0 (w_size i) /\ 0 < w_size i <= w_size i0 /\
               w_addr i0 <= x <= w_addr i0 + w_size i - 1 /\
               win_range i = Some (w_addr i0, w_addr i0 + w_size i - 1).
Proof. exact table_lookup_sound. Qed.
Print Assumptions c07_table_lookup_sound.

(* the finished table is sorted by address with pairwise disjoint ranges, every entry filed under its record's own
   range: at most one entry can answer a lookup *)
Theorem c07_table_sorted_disjoint :
  forall l t, Forall win_wf l -> win_table l = Ret t ->
    Sorting.Sorted.StronglySorted (fun a b => snd (fst a) < fst (fst b)) t /\
    Forall (fun e => win_range (snd e) = Some (fst e)) t.
Proof. exact table_sorted_disjoint. Qed.
Print Assumptions c07_table_sorted_disjoint.

(* a record that intersects no other record of its kind is returned exactly as written for every address inside it,
   whatever overlaps the OTHER records have among themselves (c07_table_refines_spec needed all of them disjoint) *)
Theorem c07_table_isolated_complete :
  forall la w lb r t x,
    Forall win_wf (la ++ w :: lb) -> win_range w = Some r ->
    (forall w' r', In w' (la ++ lb) -> win_range w' = Some r' -> C08.Model.intersects r r' = false) ->
    win_table (la ++ w :: lb) = Ret t -> C08.Model.contains r x = true -> C08.Model.rm_get t x = Some w.
Proof. exact table_isolated_complete. Qed.
Print Assumptions c07_table_isolated_complete.

(* SymbolFile::walk_frame in terms of the records of the file: exactly one of three things happens — (1) a frame-data
   record of the file whose WRITTEN range covers the address is evaluated as written (evaluation never reads address or
   size, so the shortened copy in the table evaluates like the original), whatever the FPO list holds; (2) no frame-data
   entry answers and an FPO record of the file covering the address is evaluated as written; (3) STACK CFI alone.
   After (1)/(2) STACK CFI continues from the state the failed attempt left (cfi_fallback). *)
Theorem c07_walk_frame_by_file_record :
  forall S (ops : wops S) p E f s,
    Forall win_wf (sf_framedata f) -> Forall win_wf (sf_fpo f) ->
    Forall is_framedata (sf_framedata f) -> Forall is_fpo (sf_fpo f) ->
    (exists i0 e, In i0 (sf_framedata f) /\ covers i0 (e_instr E) /\ w_thing i0 = ProgramString e /\
       walk_frame ops p E f s =
       (do wr <- walk_win_framedata ops p E i0 e s;
        if snd wr then Ret (Some (fst wr)) else cfi_fallback ops p E f (fst wr))) \/
    (exists i0 b, In i0 (sf_fpo f) /\ covers i0 (e_instr E) /\ w_thing i0 = AllocatesBasePointer b /\
       walk_frame ops p E f s =
       (let wr := walk_win_fpo ops E i0 b s in
        if snd wr then Ret (Some (fst wr)) else cfi_fallback ops p E f (fst wr))) \/
    walk_frame ops p E f s = cfi_fallback ops p E f s.
Proof. exact walk_frame_by_file_record. Qed.
Print Assumptions c07_walk_frame_by_file_record.

(* three frame-data records: A = [100, 149], B = [120, 169] (starts inside A: A is cut to [100, 119]),
   C = [110, 129] (read after B, starts before it and is not the same range: dropped).  Address 115 gets A (size 20),
   125 gets B although A and C as written cover it too, 160 gets B; and a frame-data record beats an FPO record
   covering the same address. *)
Example c07_nonvacuous_table_overlap :
  let A := mkWin 100 50 0 0 0 0 4 0 (ProgramString [65]) in
  let B := mkWin 120 50 0 0 0 0 8 0 (ProgramString [66]) in
  let C := mkWin 110 20 0 0 0 0 12 0 (ProgramString [67]) in
  Forall win_wf [A; B; C] /\
  win_table [A; B; C] = Ret [((100, 119), set_size A 20); ((120, 169), B)] /\
  (forall t, win_table [A; B; C] = Ret t ->
     C08.Model.rm_get t 115 = Some (set_size A 20) /\ C08.Model.rm_get t 125 = Some B /\
     C08.Model.rm_get t 160 = Some B /\ C08.Model.rm_get t 170 = None).
Proof.
  cbv zeta. split; [repeat constructor; vm_compute; congruence|].
  split; [vm_compute; reflexivity|].
  intros t H. vm_compute in H. inversion H; subst t. vm_compute. repeat split; reflexivity.
Qed.

(* the table and the SOURCE: insert_win_stack_info, the parser-local into_rangemap_safe and StackInfoWin::memory_range as
   regenerated from parser.rs / types.rs by C08's translator (Gen/C08Tables.v; C08/Tie.v g_win_table) build, on the image
   of the records under Proofs23.g (address, size, index of the first record of the file with the same other fields),
   exactly the image of this directory's table — both build profiles — and lookups commute.  An edit of the overlap
   repair (comparison, subtraction, cast) changes the generated function and this stops proving (through C08/Tie.v). *)
Theorem c07_table_is_source_table :
  forall p l t, Forall win_wf l -> win_table l = Ret t ->
    C08.Tie.g_win_table p (map (Proofs23.g l) l) = Ret (mapv (Proofs23.g l) t) /\
    forall x, C08.Model.rm_get (mapv (Proofs23.g l) t) x = option_map (Proofs23.g l) (C08.Model.rm_get t x).
Proof.
  intros p l t Hwf Ht. split; [rewrite C08.Tie.g_win_table_eq; apply win_table_map; assumption|intro x; apply rm_get_map].
Qed.
Print Assumptions c07_table_is_source_table.

(* The table of an ADDRESS-SORTED file, completely (parser.rs's own example in general): records of one kind with strictly
   increasing addresses, each with a memory range, any overlaps between neighbours or further — every record ends where
   it says or just before the next one starts, whichever comes first (clip_list); nothing is dropped; the clipped
   records are pairwise disjoint; the table is the table of the clipped list, and a lookup returns the clipped record
   whose range contains the address (table_spec_lookup: containment), else nothing. *)
Theorem c07_table_ascending :
  forall l,
    Forall has_range l -> ascending l ->
    win_table l = win_table (clip_list l) /\
    disjoint_ranges (keep (clip_list l)) /\
    exists t, win_table l = Ret t /\ forall x, C08.Model.rm_get t x = table_spec_lookup (clip_list l) x.
Proof. exact table_ascending. Qed.
Print Assumptions c07_table_ascending.

(* parser.rs: "addr: 0, len: 10 / addr: 1, len: 9 / addr: 4, len: 6 ... we need to fixup the lengths like so:
   addr: 0, len: 1 / addr: 1, len: 3 / addr: 4, len: 6" *)
Example c07_nonvacuous_table_ascending :
  let A := mkWin 0 10 0 0 0 0 4 0 (AllocatesBasePointer false) in
  let B := mkWin 1 9 0 0 0 0 8 0 (AllocatesBasePointer false) in
  let C := mkWin 4 6 0 0 0 0 12 0 (AllocatesBasePointer true) in
  Forall has_range [A; B; C] /\ ascending [A; B; C] /\
  clip_list [A; B; C] = [set_size A 1; set_size B 3; C] /\
  table_spec_lookup (clip_list [A; B; C]) 0 = Some (set_size A 1) /\
  table_spec_lookup (clip_list [A; B; C]) 3 = Some (set_size B 3) /\
  table_spec_lookup (clip_list [A; B; C]) 9 = Some C /\
  table_spec_lookup (clip_list [A; B; C]) 10 = None.
Proof.
  cbv zeta. split.
  { repeat constructor; cbn; lia. }
  split; [cbn; lia|]. split; [reflexivity|]. vm_compute. repeat split; reflexivity.
Qed.

(* Whole walks through all four kinds of record in one stack: FPO without / with base pointer and frame data with the .raSearch program (the caller's esp
   is esp + frame size + 4) mixed in any order with frame data carrying the docs' standard ebp-frame program (the caller's
   esp is ebp + 8), any depth, with or without FUNC records, any recursion: if every activation satisfies the
   one-activation layout of its own kind (win_layout_bp / ebp_layout on a one-element list), walk_stack's loop yields
   exactly the generated chain. *)
Theorem c07_mixed_recovers_chain :
  forall mem in_stack lookup (acts : list act_bp) below eip esp ebp,
    mix_layout mem in_stack lookup (is_nil below) (spec_gcps below) eip esp ebp acts ->
    win_walk (length acts) mem in_stack lookup below (mkX eip esp ebp) = mix_chain (spec_gcps below) esp ebp acts.
Proof. exact mix_recovers_chain. Qed.
Print Assumptions c07_mixed_recovers_chain.

(* an FPO function (no base pointer, 4 bytes of locals) called from a standard ebp-frame function (4 bytes of locals
   below its saved ebp) called from a function with the .raSearch frame-data program *)
Example c07_nonvacuous_mixed_layout :
  let mem := mem_read 4 2147483648
     [1;1;1;1; 80;32;0;64;   2;2;2;2; 0;1;0;128; 16;48;0;64;   16;64;0;64;  0;0;0;0] in
  let f := mkWin 4096 256 0 0 0 0 4 0 (AllocatesBasePointer false) in
  let g := mkWin 8192 256 0 0 0 0 4 0 (ProgramString prog_ebp_frame_b) in
  let h := mkWin 12288 256 0 0 0 0 0 0 (ProgramString prog_ra_search_b) in
  let lookup := fun ip => if (1073745920 <=? ip) && (ip <? 1073746176) then Some (f, None)
                          else if (1073750016 <=? ip) && (ip <? 1073750272) then Some (g, Some 0)
                          else if (1073754112 <=? ip) && (ip <? 1073754368) then Some (h, Some 4) else None in
  let in_stack := fun sp => (2147483648 <=? sp) && (sp <? 2147483676) in
  let acts := [(f, None, 1073750096, 2147483660); (g, Some 0, 1073754128, 2147483904); (h, Some 4, 1073758224, 2147483904)] in
  mix_layout mem in_stack lookup true 0 1073745936 2147483648 2147483660 acts /\
  win_walk 3 mem in_stack lookup [] (mkX 1073745936 2147483648 2147483660) =
    [mkX 1073750096 2147483656 2147483660; mkX 1073754128 2147483668 2147483904; mkX 1073758224 2147483672 2147483904].
Proof.
  cbv zeta. split; [|vm_compute; reflexivity].
  cbn [mix_layout].
  split; [|split; [|split; [|exact I]]].
  - (* f: FPO on the context frame *)
    change (is_ebp_rec _) with false. cbv iota. split; [|lia].
    cbn [win_layout_bp w_thing]. cbv zeta.
    repeat match goal with |- _ /\ _ => split end;
      try exact I; try (vm_compute; reflexivity); try (vm_compute; intro Hc; discriminate Hc);
      try (intros _; vm_compute; intro Hc; discriminate Hc).
  - (* g: ebp frame *)
    change (is_ebp_rec _) with true. cbv iota.
    cbn [ebp_layout].
    repeat match goal with |- _ /\ _ => split end;
      try (exists 4; repeat match goal with |- _ /\ _ => split end);
      try exact I; try (vm_compute; reflexivity); try (vm_compute; intro Hc; discriminate Hc).
  - (* h: frame data, .raSearch *)
    change (is_ebp_rec _) with false. cbv iota. split; [|vm_compute; intro Hc; discriminate Hc].
    cbn [win_layout_bp w_thing]. cbv zeta.
    repeat match goal with |- _ /\ _ => split end;
      try exact I; try reflexivity; try (vm_compute; reflexivity); try (vm_compute; intro Hc; discriminate Hc);
      try (intros _; vm_compute; reflexivity).
Qed.

(* The CAUSE of F-C07a, on the same model.  (1) The names the source passes to clear_caller_register (compiled from
   clear_stack_win_caller_registers: "$eip" .. "$edi") are not register names of the x86 walker: clearing them changes
   nothing.  (2) Counterfactual — the bare names (what the reverted fix 311264d passed): the same evaluation leaves valid
   exactly the outputs the program defined, with the same values, for every callee validity set.  (3) Side by side: the
   two caller states have the same register values and their validity sets differ exactly by the wrongly forwarded set
   W of c07_forwarded_set_exact. *)
Theorem c07_forwarding_cause :
  (forall s, clear_all (real_ops x86) g_clear_names s = s) /\
  (forall p E i e ctx valid s' m,
     walk_win_framedata_bare (real_ops x86) p E i e (real_init x86 ctx valid) = Ret (s', true) ->
     win_final_vars p E i e = Ret (Some m) ->
     forall n, r_valid s' n = fd_sets m n /\
               r_ctx s' n = (if mem_b n six then match vget (dollar n) m with Some v => v | None => r_ctx (real_init x86 ctx valid) n end
                             else r_ctx (real_init x86 ctx valid) n)) /\
  (forall p E i e ctx valid s1 s2 m,
     walk_win_framedata (real_ops x86) p E i e (real_init x86 ctx valid) = Ret (s1, true) ->
     walk_win_framedata_bare (real_ops x86) p E i e (real_init x86 ctx valid) = Ret (s2, true) ->
     win_final_vars p E i e = Ret (Some m) ->
     forall n, r_valid s1 n = r_valid s2 n || mem_b n (wrongly_forwarded valid (fd_sets m)) /\ r_ctx s1 n = r_ctx s2 n).
Proof. exact (conj clear_source_names_noop (conj bare_names_no_forwarding forwarding_is_the_clear_names)). Qed.
Print Assumptions c07_forwarding_cause.

(* on the F-C07a witness the bare-name variant leaves esi / edi invalid *)
Example c07_nonvacuous_forwarding_cause :
  match walk_win_framedata_bare (real_ops x86) Debug w_env w_info w_prog (real_init x86 w_ctx None) with
  | Ret (s', true) => r_valid s' N_esi = false /\ r_valid s' N_edi = false /\ r_valid s' N_eip = true /\ r_ctx s' N_eip = 1073745920
  | _ => False
  end.
Proof. vm_compute. repeat split; reflexivity. Qed.

(* c07_walk_frame_by_file_record for the functions compiled from walker.rs / mod.rs *)
Theorem c07_src_walk_frame_by_file_record :
  forall S (ops : wops S) p E f s,
    Forall win_wf (sf_framedata f) -> Forall win_wf (sf_fpo f) ->
    Forall is_framedata (sf_framedata f) -> Forall is_fpo (sf_fpo f) ->
    (exists i0 e, In i0 (sf_framedata f) /\ covers i0 (e_instr E) /\ w_thing i0 = ProgramString e /\
       src_walk_frame ops p E f s =
       (do wr <- src_walk_win_framedata ops p E i0 e s;
        if snd wr then Ret (Some (fst wr)) else cfi_fallback ops p E f (fst wr))) \/
    (exists i0 b, In i0 (sf_fpo f) /\ covers i0 (e_instr E) /\ w_thing i0 = AllocatesBasePointer b /\
       src_walk_frame ops p E f s =
       (let wr := g_walk_win_fpo ops E i0 b s in
        if snd wr then Ret (Some (fst wr)) else cfi_fallback ops p E f (fst wr))) \/
    src_walk_frame ops p E f s = cfi_fallback ops p E f s.
Proof.
  intros S ops p E f s A B C D. rewrite src_walk_frame_eq.
  destruct (walk_frame_by_file_record S ops p E f s A B C D) as [[i0 [e H]]|[[i0 [b H]]|H]].
  - left. exists i0, e. rewrite src_framedata_eq. exact H.
  - right. left. exists i0, b. rewrite g_fpo_eq. exact H.
  - right. right. exact H.
Qed.
Print Assumptions c07_src_walk_frame_by_file_record.

(* c07_table_ascending's lookup as a selection RULE (the one the oracle's independent `select_ascending` implements): in
   an address-sorted list of one kind the record answering x is the LAST one starting at or before x, provided it reaches
   x as written; it is returned cut to end just before the next record's start (sel_asc). *)
Theorem c07_table_ascending_rule :
  forall l, Forall has_range l -> ascending l ->
    exists t, win_table l = Ret t /\ forall x, C08.Model.rm_get t x = sel_asc l x.
Proof.
  intros l Hl Ha. destruct (table_ascending l Hl Ha) as [_ [_ [t [Ht Hx]]]].
  exists t. split; [exact Ht|]. intro x. rewrite Hx. apply ascending_rule; assumption.
Qed.
Print Assumptions c07_table_ascending_rule.

Example c07_nonvacuous_table_ascending_rule :
  let A := mkWin 0 10 0 0 0 0 4 0 (AllocatesBasePointer false) in
  let B := mkWin 1 9 0 0 0 0 8 0 (AllocatesBasePointer false) in
  let C := mkWin 4 2 0 0 0 0 12 0 (AllocatesBasePointer true) in
  sel_asc [A; B; C] 0 = Some (set_size A 1) /\ sel_asc [A; B; C] 3 = Some (set_size B 3) /\
  sel_asc [A; B; C] 5 = Some C /\ sel_asc [A; B; C] 6 = None (* C stops short although A and B as written reach 6 *).
Proof. vm_compute. repeat split; reflexivity. Qed.
