(* C07/Proofs2.v — equality of records, FPO on any walker and on the mock walker, the output loop, program-string facts. *)
From Coq Require Import String Lia.
From RM Require Import Base.WordFacts C06.Model C06.Proofs C07.Model C07.Proofs.
From RM Require C08.Model C08.Proofs.
Import ListNotations.
Open Scope Z_scope.

Lemma thing_eqb_eq : forall a b, thing_eqb a b = true <-> a = b.
Proof.
  destruct a as [x|x], b as [y|y]; cbn [thing_eqb]; split; intro H; try discriminate.
  - apply beq_eq in H. congruence.
  - inversion H. apply beq_refl.
  - apply Bool.eqb_prop in H. congruence.
  - inversion H. apply Bool.eqb_reflx.
Qed.
Lemma win_eqb_eq : forall a b, win_eqb a b = true <-> a = b.
Proof.
  intros [a1 a2 a3 a4 a5 a6 a7 a8 a9] [b1 b2 b3 b4 b5 b6 b7 b8 b9]. unfold win_eqb.
  cbn [w_addr w_size w_prolog w_epilog w_params w_saved w_locals w_maxstack w_thing]. split; intro H.
  - repeat (apply andb_prop in H; destruct H as [H ?H]).
    repeat match goal with X : (_ =? _) = true |- _ => apply Z.eqb_eq in X end.
    match goal with X : thing_eqb _ _ = true |- _ => apply thing_eqb_eq in X end. congruence.
  - inversion H; subst. rewrite !Z.eqb_refl. cbn [andb]. apply thing_eqb_eq. reflexivity.
Qed.

Definition is_framedata (i : win_info) : Prop := match w_thing i with ProgramString _ => True | _ => False end.
Definition is_fpo (i : win_info) : Prop := match w_thing i with AllocatesBasePointer _ => True | _ => False end.

Definition is_some {A} (o : option A) : bool := match o with Some _ => true | None => false end.
(* what an FPO record sets: eip, esp, ebp, and (documented pass-through) ebx when no base pointer is allocated *)
Definition fpo_sets (E : env) (abp : bool) (n : bytes) : bool :=
  beq n N_eip || beq n N_esp || beq n N_ebp || (negb abp && beq n N_ebx && is_some (e_callee E N_ebx)).
Definition Known_C07a_fpo (E : env) (abp : bool) (ctx : list (bytes * Z)) (valid : option (list bytes)) : bool :=
  existsb (fun n => r_valid (real_init x86 ctx valid) n && negb (fpo_sets E abp n)) (a_saved x86).

Lemma fpo_sets_ebp : forall E abp, fpo_sets E abp N_ebp = true. Proof. reflexivity. Qed.

(* the output loop on any walker, seen through a projection P of its state that a successful set_caller_register
   changes at the register written only (there to u of the value) *)
Lemma set_outputs_read : forall S (ops : wops S) A (P : S -> bytes -> A) (u : Z -> A) names m s s',
  (forall s n v s' x, In n names -> o_set ops s n v = Some s' -> P s' x = if beq x n then u v else P s x) ->
  NoDup names ->
  set_outputs ops (map (fun n => (dollar n, n)) names) m s = (s', true) ->
  forall x, P s' x = if mem_b x names then match vget (dollar x) m with Some v => u v | None => P s x end else P s x.
Proof.
  induction names as [|n r IH]; intros m s s' Hset Hnd H x; cbn [map set_outputs] in H; [inversion H; reflexivity|].
  inversion Hnd as [|? ? Hnin Hd]; subst. cbn [mem_b].
  assert (Hr : forall s n v s' x, In n r -> o_set ops s n v = Some s' -> P s' x = if beq x n then u v else P s x)
    by (intros; apply Hset; [right|]; assumption).
  destruct (vget (dollar n) m) as [v|] eqn:Ev.
  - destruct (o_set ops s n v) as [s1|] eqn:Es; [|inversion H].
    rewrite (IH m s1 s' Hr Hd H x), (Hset s n v s1 x (or_introl eq_refl) Es).
    destruct (beq x n) eqn:B; [|reflexivity]. apply beq_eq in B. subst x. rewrite (mem_b_notin n r Hnin), Ev. reflexivity.
  - rewrite (IH m s s' Hr Hd H x). destruct (beq x n) eqn:B; [|reflexivity].
    apply beq_eq in B. subst x. rewrite (mem_b_notin n r Hnin), Ev. reflexivity.
Qed.

Lemma mock_set_some : forall s n v s', o_set (mock_ops 4) s n v = Some s' ->
  m_regs s' = upd (m_regs s) n (SetTo v).
Proof.
  intros s n v s' H. cbn [mock_ops o_set] in H. destruct (starts_no n || negb (fits 4 v)); [discriminate|].
  inversion H. reflexivity.
Qed.

Lemma mock_clear_all : forall names s x,
  m_regs (clear_all (mock_ops 4) names s) x = if mem_b x names then Cleared else m_regs s x.
Proof.
  induction names as [|n r IH]; intros s x; cbn [clear_all mem_b]; [reflexivity|].
  rewrite IH. cbn [mock_ops o_clear m_regs]. unfold upd.
  destruct (beq x n); cbn [orb]; [destruct (mem_b x r); reflexivity|reflexivity].
Qed.

Theorem mock_framedata_exact : forall p E i e s' m,
  walk_win_framedata (mock_ops 4) p E i e m_init = Ret (s', true) ->
  win_final_vars p E i e = Ret (Some m) ->
  forall n, m_regs s' n = (if mem_b n six then
                             match vget (dollar n) m with Some v => SetTo v | None => Unset end
                           else if mem_b n win_clear_names then Cleared else Unset).
Proof.
  intros p E i e s' m H Hm n. unfold walk_win_framedata in H. rewrite Hm in H. cbn [obind] in H.
  assert (H1 : set_outputs (mock_ops 4) win_outputs m (clear_all (mock_ops 4) win_clear_names m_init) = (s', true))
    by congruence.
  rewrite outputs_dollar in H1.
  rewrite (set_outputs_read _ (mock_ops 4) _ m_regs SetTo six m _ s'
             (fun s n v s1 x _ Es => f_equal (fun f => f x) (mock_set_some s n v s1 Es)) six_nodup H1 n).
  rewrite mock_clear_all. cbn [m_init m_regs].
  destruct (mem_b n six) eqn:M6; [|reflexivity].
  destruct (vget (dollar n) m); [reflexivity|].
  apply mem_b_In in M6. unfold six in M6. cbn [In] in M6.
  repeat match goal with X : _ \/ _ |- _ => destruct X as [X|X] end; try contradiction; subst n; reflexivity.
Qed.

Definition NoDupKeys (m : vars) : Prop := NoDup (map fst m).

Lemma vget_vset : forall k k' v m, vget k (vset k' v m) = if beq k k' then Some v else vget k m.
Proof.
  induction m as [|[k2 v2] r IH]; cbn [vset vget]; [reflexivity|].
  destruct (beq k' k2) eqn:E2.
  - apply beq_eq in E2. subst k2. cbn [vget]. destruct (beq k k'); reflexivity.
  - cbn [vget]. rewrite IH. destruct (beq k k2) eqn:E3; [|reflexivity].
    apply beq_eq in E3. subst k2. destruct (beq k k') eqn:E4; [|reflexivity].
    apply beq_eq in E4. subst k'. rewrite beq_refl in E2. discriminate.
Qed.
Lemma vget_notin : forall k m, ~ In k (map fst m) -> vget k m = None.
Proof.
  induction m as [|[k' v'] r IH]; cbn [vget map fst]; intro H; [reflexivity|].
  destruct (beq k k') eqn:B; [apply beq_eq in B; subst; exfalso; apply H; left; reflexivity|].
  apply IH. intro; apply H; right; assumption.
Qed.
Lemma vget_vdel : forall k k' m, NoDupKeys m -> vget k (vdel k' m) = if beq k k' then None else vget k m.
Proof.
  induction m as [|[k2 v2] r IH]; intro Hn; cbn [vdel vget]; [destruct (beq k k'); reflexivity|].
  unfold NoDupKeys in Hn. cbn in Hn. inversion Hn as [|? ? Hnin Hd]; subst.
  destruct (beq k' k2) eqn:E2.
  - apply beq_eq in E2. subst k2. destruct (beq k k') eqn:E; [|reflexivity].
    apply beq_eq in E. subst k'. apply vget_notin. exact Hnin.
  - cbn [vget]. rewrite (IH Hd). destruct (beq k k2) eqn:E3; [|reflexivity].
    apply beq_eq in E3. subst k2. destruct (beq k k') eqn:E4; [|reflexivity].
    apply beq_eq in E4. subst k'. rewrite beq_refl in E2. discriminate.
Qed.

Lemma vget_vset_same : forall k v m, vget k (vset k v m) = Some v.
Proof. intros. rewrite vget_vset, beq_refl. reflexivity. Qed.
Lemma vget_vdel_same : forall k m, NoDupKeys m -> vget k (vdel k m) = None.
Proof. intros k m H. rewrite (vget_vdel k k m H), beq_refl. reflexivity. Qed.

Lemma assign_int : forall p E m name v st,
  win_step p E T_eq (m, WInt v :: WVar name :: st) = Ret (vset name v m, st).
Proof. reflexivity. Qed.
Lemma assign_var : forall p E m name src v st, vget src m = Some v ->
  win_step p E T_eq (m, WVar src :: WVar name :: st) = Ret (vset name v m, st).
Proof.
  intros p E m name src v st H.
  change (win_step p E T_eq (m, WVar src :: WVar name :: st)) with
    (match vget src m with Some v0 => Ret (vset name v0 m, st) | None => Fail end).
  rewrite H. reflexivity.
Qed.
Lemma assign_undef : forall p E m name st,
  win_step p E T_eq (m, WUndef :: WVar name :: st) = Ret (vdel name m, st).
Proof. reflexivity. Qed.
Lemma wrap_ops : forall p E m l r st,
  win_step p E T_plus (m, WInt r :: WInt l :: st) = Ret (m, WInt ((l + r) mod two32) :: st) /\
  win_step p E T_minus (m, WInt r :: WInt l :: st) = Ret (m, WInt ((l - r) mod two32) :: st) /\
  win_step p E T_star (m, WInt r :: WInt l :: st) = Ret (m, WInt ((l * r) mod two32) :: st).
Proof. intros. repeat split; reflexivity. Qed.

Lemma initial_vars_spec : forall E i e m, win_initial_vars E i e = Some m ->
  exists esp ebp fs,
    e_callee E N_esp = Some esp /\ e_callee E N_ebp = Some ebp /\
    win_frame_size i (e_gcps E) = Some fs /\ fs = w_locals i + w_saved i + e_gcps E /\ fs < two32 /\
    vget D_esp m = Some (wrap32 esp) /\ vget D_ebp m = Some (wrap32 ebp) /\
    vget D_ebx m = option_map wrap32 (e_callee E N_ebx) /\
    vget V_cbParams m = Some (w_params i) /\ vget V_cbCalleeParams m = Some (e_gcps E) /\
    vget V_cbSavedRegs m = Some (w_saved i) /\ vget V_cbLocals m = Some (w_locals i) /\
    vget V_raSearch m = vget V_raSearchStart m /\
    vget V_raSearch m = Some (if contains_at e then wrap32 ebp + 4 else wrap32 esp + fs) /\
    (if contains_at e then wrap32 ebp + 4 else wrap32 esp + fs) < two32.
Proof.
  intros E i e m H. unfold win_initial_vars in H.
  destruct (e_callee E N_esp) as [esp|] eqn:Eesp; [|discriminate].
  destruct (e_callee E N_ebp) as [ebp|] eqn:Eebp; [|discriminate].
  destruct (win_frame_size i (e_gcps E)) as [fs|] eqn:Efs; [|discriminate].
  destruct (if contains_at e then checked_add 32 (wrap32 ebp) 4 else checked_add 32 (wrap32 esp) fs) as [ss|] eqn:Ess;
    [|discriminate].
  exists esp, ebp, fs.
  assert (Hfs : fs = w_locals i + w_saved i + e_gcps E /\ fs < two32).
  { unfold win_frame_size in Efs. destruct (checked_add 32 (w_locals i) (w_saved i)) as [a|] eqn:Ea; [|discriminate].
    apply checked_add_some in Ea. apply checked_add_some in Efs. unfold two32. destruct Ea, Efs. split; lia. }
  assert (Hss : ss = (if contains_at e then wrap32 ebp + 4 else wrap32 esp + fs) /\ ss < two32).
  { destruct (contains_at e); apply checked_add_some in Ess; unfold two32; destruct Ess; split; lia. }
  destruct Hfs as [Hfs1 Hfs2]. destruct Hss as [Hss1 Hss2]. rewrite <- Hss1.
  inversion H as [Hm]. clear H.
  destruct (e_callee E N_ebx) as [b|]; cbn [option_map];
    repeat split; auto; vm_compute; reflexivity.
Qed.

(* what a successful walk_with_stack_win_fpo read and set, on any walker: the slot a of the return address (one word
   further for a context frame whose first slot holds its own eip), the caller's ebp, and the chain of register writes *)
Lemma fpo_inv : forall S (ops : wops S) E i abp s s',
  walk_win_fpo ops E i abp s = (s', true) ->
  exists fs esp a eip cebp s1 s2 s3,
    win_frame_size i (e_gcps E) = Some fs /\ e_callee E N_esp = Some esp /\
    (a = esp + fs \/ (a = esp + fs + 4 /\ e_has_gc E = false /\ e_mem E (esp + fs) = e_callee E N_eip)) /\
    (a = esp + fs -> e_has_gc E = false -> e_mem E (esp + fs) <> e_callee E N_eip) /\
    e_mem E a = Some eip /\
    (if abp then e_mem E (esp + e_gcps E + w_saved i - 8) = Some cebp /\ s1 = clear_all ops win_clear_names s
     else e_callee E N_ebp = Some cebp /\
          match e_callee E N_ebx with
          | Some b => o_set ops (clear_all ops win_clear_names s) N_ebx b = Some s1
          | None => s1 = clear_all ops win_clear_names s
          end) /\
    o_set ops s1 N_eip eip = Some s2 /\ o_set ops s2 N_esp (a + 4) = Some s3 /\ o_set ops s3 N_ebp cebp = Some s'.
Proof.
  intros S ops E i abp s s' H. unfold walk_win_fpo in H. cbv zeta in H.
  set (s0 := clear_all ops win_clear_names s) in *.
  destruct (win_frame_size i (e_gcps E)) as [fs|] eqn:Efs; [|discriminate].
  destruct (e_callee E N_esp) as [esp|] eqn:Eesp; [|discriminate].
  destruct (checked_add 64 esp fs) as [a0|] eqn:Ea0; [|discriminate].
  apply checked_add_some in Ea0. destruct Ea0 as [Ea0 _]. subst a0.
  destruct (e_mem E (esp + fs)) as [eip0|] eqn:Em0; [|discriminate].
  match type of H with match ?x with _ => _ end = _ => destruct x as [sk|] eqn:Esk; [|discriminate] end.
  match type of H with match ?x with _ => _ end = _ => destruct x as [[a1 ceip]|] eqn:Er1; [|discriminate] end.
  destruct (checked_add 64 a1 4) as [cesp|] eqn:Ecesp; [|discriminate].
  apply checked_add_some in Ecesp. destruct Ecesp as [Ecesp _]. subst cesp.
  assert (Ha1 : (a1 = esp + fs \/ (a1 = esp + fs + 4 /\ e_has_gc E = false /\ e_mem E (esp + fs) = e_callee E N_eip)) /\
                (a1 = esp + fs -> e_has_gc E = false -> e_mem E (esp + fs) <> e_callee E N_eip) /\
                e_mem E a1 = Some ceip).
  { destruct sk.
    - destruct (checked_add 64 (esp + fs) 4) as [a2|] eqn:Ea2; [|discriminate].
      apply checked_add_some in Ea2. destruct Ea2 as [Ea2 _]. subst a2.
      destruct (e_mem E (esp + fs + 4)) as [v|] eqn:Em1; [|discriminate]. inversion Er1; subst.
      destruct (e_has_gc E) eqn:Eg; cbn [negb] in Esk; [discriminate|].
      destruct (e_callee E N_eip) as [ce|] eqn:Ece; [|discriminate]. inversion Esk as [Hq].
      apply Z.eqb_eq in Hq. subst ce.
      split; [right; split; [reflexivity|split; [reflexivity|exact Em0]]|]. split; [intro; lia|exact Em1].
    - inversion Er1; subst. split; [left; reflexivity|]. split; [|exact Em0].
      intros _ Hg. rewrite Hg in Esk. cbn [negb] in Esk.
      destruct (e_callee E N_eip) as [ce|] eqn:Ece; [|discriminate]. inversion Esk as [Hq].
      apply Z.eqb_neq in Hq. rewrite Em0. intro Hc. inversion Hc. contradiction. }
  destruct Ha1 as [Ha1 [Ha2 Ha3]]. clear Esk Er1.
  match type of H with match ?x with _ => _ end = _ => destruct x as [[s1 cebp]|] eqn:R2; [|discriminate] end.
  destruct (o_set ops s1 N_eip ceip) as [s2|] eqn:S2; [|discriminate].
  destruct (o_set ops s2 N_esp (a1 + 4)) as [s3|] eqn:S3; [|discriminate].
  destruct (o_set ops s3 N_ebp cebp) as [s4|] eqn:S4; inversion H; subst s4.
  exists fs, esp, a1, ceip, cebp, s1, s2, s3. repeat (split; [assumption || reflexivity|]).
  split; [|auto]. destruct abp.
  - destruct (checked_add 64 esp (e_gcps E)) as [b1|] eqn:Eb1; [|discriminate R2].
    apply checked_add_some in Eb1. destruct Eb1 as [Eb1 _]. subst b1.
    destruct (checked_add 64 (esp + e_gcps E) (w_saved i)) as [b2|] eqn:Eb2; [|discriminate R2].
    apply checked_add_some in Eb2. destruct Eb2 as [Eb2 _]. subst b2.
    unfold checked_sub in R2. destruct (0 <=? esp + e_gcps E + w_saved i - 8); [|discriminate R2].
    destruct (e_mem E (esp + e_gcps E + w_saved i - 8)); inversion R2; subst. auto.
  - destruct (e_callee E N_ebx) as [b|]; [destruct (o_set ops s0 N_ebx b) as [s1'|]; [|discriminate R2]|];
      (destruct (e_callee E N_ebp); inversion R2; subst; auto).
Qed.

Theorem fpo_formulae : forall E i abp s',
  walk_win_fpo (mock_ops 4) E i abp m_init = (s', true) ->
  exists fs esp a eip,
    win_frame_size i (e_gcps E) = Some fs /\ e_callee E N_esp = Some esp /\
    (a = esp + fs \/
     (a = esp + fs + 4 /\ e_has_gc E = false /\ e_mem E (esp + fs) = e_callee E N_eip)) /\
    (a = esp + fs -> e_has_gc E = false -> e_mem E (esp + fs) <> e_callee E N_eip) /\
    e_mem E a = Some eip /\
    m_regs s' N_eip = SetTo eip /\ m_regs s' N_esp = SetTo (a + 4) /\
    (if abp then exists v, e_mem E (esp + e_gcps E + w_saved i - 8) = Some v /\ m_regs s' N_ebp = SetTo v /\
                           m_regs s' N_ebx = Unset
     else exists v, e_callee E N_ebp = Some v /\ m_regs s' N_ebp = SetTo v /\
                    m_regs s' N_ebx = match e_callee E N_ebx with Some b => SetTo b | None => Unset end).
Proof.
  intros E i abp s' H.
  destruct (fpo_inv _ _ _ _ _ _ _ H) as (fs & esp & a & eip & cebp & s1 & s2 & s3 & Hfs & Hesp & Ha1 & Ha2 & Hm & Hbp & S2 & S3 & S4).
  exists fs, esp, a, eip. repeat (split; [assumption|]).
  apply mock_set_some in S2, S3, S4. rewrite S4, S3, S2. unfold upd. split; [reflexivity|]. split; [reflexivity|].
  assert (Hs0 : m_regs (clear_all (mock_ops 4) win_clear_names m_init) N_ebx = Unset) by reflexivity.
  destruct abp.
  - destruct Hbp as [Hv ->]. exists cebp. auto.
  - destruct Hbp as [Hv Hbx]. exists cebp. split; [exact Hv|]. split; [reflexivity|].
    change (m_regs s1 N_ebx = match e_callee E N_ebx with Some b => SetTo b | None => Unset end).
    destruct (e_callee E N_ebx) as [b|]; [|subst s1; exact Hs0].
    apply mock_set_some in Hbx. rewrite Hbx. unfold upd. rewrite beq_refl. reflexivity.
Qed.
