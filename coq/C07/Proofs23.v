(* C07/Proofs23.v — which record SymbolFile::walk_frame sees when SEVERAL STACK WIN records of one
   kind cover an address (overlap repair in insert_win_stack_info, then the parser-local RangeMap builder).  The table
   theorems of C08 (C08/WinProofs.v, the lemmas behind c08_win_build_total / _sorted_disjoint / _lookup_sound /
   _isolated_complete; records there are (address, size, tag)) are IMPORTED through a map that sends a StackInfoWin to
   (address, size, index of the first record of the file with the same remaining fields) — C08's derived equality on
   the image is this directory's win_eqb (Proofs8's parametricity of the range-map builder does the rest_fields). *)
From Coq Require Import Lia Bool Sorting.Sorted.
From RM Require Import Base.Word C06.Model C06.Proofs C07.Model C07.Proofs C07.Proofs2 C07.Proofs8 C07.Proofs16.
From RM Require C08.Model C08.Proofs C08.WinModel C08.WinProofs C08.Tie.
Import ListNotations.
Open Scope Z_scope.

Module W8 := C08.WinModel.
Module P8 := C08.WinProofs.

(* every field but address and size *)
Definition rest_fields (i : win_info) := (w_prolog i, w_epilog i, w_params i, w_saved i, w_locals i, w_maxstack i, w_thing i).
Definition rest_eqb (a b : win_info) : bool :=
  (w_prolog a =? w_prolog b) && (w_epilog a =? w_epilog b) && (w_params a =? w_params b) && (w_saved a =? w_saved b) &&
  (w_locals a =? w_locals b) && (w_maxstack a =? w_maxstack b) && thing_eqb (w_thing a) (w_thing b).

Lemma rest_eqb_eq : forall a b, rest_eqb a b = true <-> rest_fields a = rest_fields b.
Proof.
  intros a b. unfold rest_eqb, rest_fields. rewrite !andb_true_iff, !Z.eqb_eq, thing_eqb_eq. split.
  - intros [[[[[[H1 H2] H3] H4] H5] H6] H7]. congruence.
  - intro H. inversion H. tauto.
Qed.

Lemma win_eqb_split : forall a b,
  win_eqb a b = (w_addr a =? w_addr b) && (w_size a =? w_size b) && rest_eqb a b.
Proof. intros. unfold win_eqb, rest_eqb. rewrite !andb_assoc. reflexivity. Qed.

Lemma same_but_size : forall a b, w_addr a = w_addr b -> rest_fields a = rest_fields b -> a = set_size b (w_size a).
Proof. intros [] []; unfold rest_fields, set_size; cbn. intros H1 H2. inversion H2. subst. reflexivity. Qed.

Lemma rest_set_size : forall i d, rest_fields (set_size i d) = rest_fields i.
Proof. reflexivity. Qed.

(* the tag: index of the first record of the reference list with the same remaining fields *)
Fixpoint tag_in (l : list win_info) (a : win_info) : Z :=
  match l with
  | [] => 0
  | j :: r => if rest_eqb a j then 0 else 1 + tag_in r a
  end.

Lemma tag_in_nonneg : forall l a, 0 <= tag_in l a.
Proof. induction l as [|j r IH]; intro a; cbn [tag_in]; [lia|]. destruct (rest_eqb a j); [lia|]. specialize (IH a). lia. Qed.

Lemma tag_in_rest : forall l a b, rest_fields a = rest_fields b -> tag_in l a = tag_in l b.
Proof.
  induction l as [|j r IH]; intros a b H; cbn [tag_in]; [reflexivity|].
  assert (E : rest_eqb a j = rest_eqb b j).
  { destruct (rest_eqb a j) eqn:A; destruct (rest_eqb b j) eqn:B; try reflexivity.
    - apply rest_eqb_eq in A. assert (Q : rest_eqb b j = true) by (apply rest_eqb_eq; congruence). congruence.
    - apply rest_eqb_eq in B. assert (Q : rest_eqb a j = true) by (apply rest_eqb_eq; congruence). congruence. }
  rewrite E. rewrite (IH a b H). reflexivity.
Qed.

(* equal tags and one of the two records is in the list: same remaining fields *)
Lemma tag_in_inj : forall l a b, In b l -> tag_in l a = tag_in l b -> rest_fields a = rest_fields b.
Proof.
  induction l as [|j r IH]; intros a b Hin H; [contradiction|].
  cbn [tag_in] in H.
  destruct (rest_eqb a j) eqn:A; destruct (rest_eqb b j) eqn:B.
  - apply rest_eqb_eq in A, B. congruence.
  - pose proof (tag_in_nonneg r b). lia.
  - pose proof (tag_in_nonneg r a). lia.
  - destruct Hin as [Hin|Hin].
    + subst j. assert (Q : rest_eqb b b = true) by (apply rest_eqb_eq; reflexivity). congruence.
    + apply IH; [exact Hin|lia].
Qed.

Section WithList.
Variable l0 : list win_info.

Definition g (i : win_info) : W8.winrec := W8.mkW (w_addr i) (w_size i) (tag_in l0 i).
(* the records the vector / the table can hold: a record of the file, possibly with another size *)
Definition in_file (a : win_info) : Prop := exists j, In j l0 /\ rest_fields a = rest_fields j.

Lemma g_eqb : forall a b, in_file a -> in_file b -> W8.win_eqb (g a) (g b) = win_eqb a b.
Proof.
  intros a b _ [j [Hj Rb]]. rewrite win_eqb_split. unfold W8.win_eqb, g. cbn [W8.wa W8.ws W8.wt].
  f_equal. destruct (rest_eqb a b) eqn:R.
  - apply rest_eqb_eq in R. rewrite (tag_in_rest l0 a b R). apply Z.eqb_refl.
  - apply Z.eqb_neq. intro T. rewrite (tag_in_rest l0 b j Rb) in T.
    pose proof (tag_in_inj l0 a j Hj T) as Q. assert (X : rest_eqb a b = true) by (apply rest_eqb_eq; congruence). congruence.
Qed.

Lemma g_range : forall i, W8.win_range (g i) = win_range i.
Proof. reflexivity. Qed.
Lemma g_set_size : forall i d, g (set_size i d) = W8.set_size (g i) d.
Proof. intros. unfold g, W8.set_size. cbn [W8.wa W8.ws W8.wt]. rewrite (tag_in_rest l0 (set_size i d) i (rest_set_size i d)). reflexivity. Qed.
Lemma g_wf : forall i, win_wf i -> P8.wf_rec (g i).
Proof. intros i H. exact H. Qed.
Lemma P_set_size : forall i d, in_file i -> in_file (set_size i d).
Proof. intros i d [j [Hj R]]. exists j. split; [exact Hj|]. rewrite rest_set_size. exact R. Qed.
Lemma P_in : forall i, In i l0 -> in_file i.
Proof. intros i H. exists i. split; [exact H|reflexivity]. Qed.

Notation mapg := (mapv g).
Notation allPg := (allP in_file).

(* one call of insert_win_stack_info, seen through the map (either build profile on C08's side) *)
Lemma insert_win_map : forall p acc i acc',
  acc_wf acc -> win_wf i -> allPg acc -> in_file i ->
  insert_win acc i = Ret acc' ->
  W8.insert_win p (mapg acc) (g i) = Ret (mapg acc') /\ allPg acc'.
Proof.
  intros p acc i acc' Hacc Hi HP Pi H. unfold insert_win in H. unfold W8.insert_win. rewrite g_range.
  destruct (win_range i) as [mr|] eqn:Er; [|inversion H; subst; split; [reflexivity|exact HP]].
  destruct acc as [|[lr li] rest0].
  { inversion H; subst. split; [reflexivity|]. constructor; [exact Pi|constructor]. }
  cbn [mapv map fst snd]. fold (mapg rest0).
  inversion HP as [|? ? Pli Prest]; subst. cbn [snd] in Pli.
  destruct (C08.Model.intersects lr mr) eqn:Ei.
  2:{ inversion H; subst. split; [reflexivity|]. constructor; [exact Pi|exact HP]. }
  assert (Eq : (W8.wa (g i) >? W8.wa (g li)) = (w_addr i >? w_addr li)) by reflexivity. rewrite Eq. clear Eq.
  destruct (w_addr i >? w_addr li) eqn:Eg.
  - inversion Hacc as [|? ? [Hl1 Hl2] Hrest]; subst. cbn [fst snd] in Hl1, Hl2.
    apply Z.gtb_lt in Eg. destruct Hl2 as [[La1 La2] _]. destruct Hi as [[Ia1 Ia2] _].
    assert (Hd64 : (0 <=? W8.wa (g i) - W8.wa (g li)) && (W8.wa (g i) - W8.wa (g li) <? 2 ^ 64) = true).
    { cbn [g W8.wa]. apply andb_true_intro. split; [apply Z.leb_le; lia|apply Z.ltb_lt; unfold two64 in *; lia]. }
    unfold chk_sub, chk. rewrite Hd64. cbn [obind].
    assert (Eq : W8.wa (g i) - W8.wa (g li) = w_addr i - w_addr li) by reflexivity. rewrite Eq. clear Eq.
    rewrite <- g_set_size, g_range.
    destruct (win_range (set_size li (wrap32 (w_addr i - w_addr li)))) as [lr'|]; [|discriminate H].
    inversion H; subst. split; [reflexivity|].
    constructor; [exact Pi|]. constructor; [apply P_set_size; exact Pli|exact Prest].
  - unfold W8.range_eqb. fold (range_eqb lr mr).
    destruct (negb (range_eqb lr mr)); inversion H; subst; (split; [reflexivity|]); [exact HP|constructor; [exact Pi|exact HP]].
Qed.

Lemma insert_all_map : forall p l acc acc',
  (forall i, In i l -> In i l0) -> Forall win_wf l -> acc_wf acc -> allPg acc ->
  insert_all l acc = Ret acc' ->
  W8.insert_all p (map g l) (mapg acc) = Ret (mapg acc') /\ allPg acc'.
Proof.
  induction l as [|i r IH]; intros acc acc' Hsub Hwf Hacc HP H; cbn [insert_all map W8.insert_all] in *.
  - inversion H; subst. split; [reflexivity|exact HP].
  - inversion Hwf as [|? ? Hi Hr]; subst.
    destruct (insert_win_ok acc i Hacc Hi) as [acc1 [E1 W1]]. rewrite E1 in H. cbn [obind] in H.
    destruct (insert_win_map p acc i acc1 Hacc Hi HP (P_in i (Hsub i (or_introl eq_refl))) E1) as [M1 P1].
    rewrite M1. cbn [obind]. apply IH; auto. intros; apply Hsub; right; assumption.
Qed.

End WithList.

(* the finished table through the map *)
Lemma win_table_map : forall p l t, Forall win_wf l -> win_table l = Ret t ->
  W8.win_table p (map (g l) l) = Ret (mapv (g l) t).
Proof.
  intros p l t Hwf H. unfold win_table in H. unfold W8.win_table.
  destruct (insert_all_ok l [] (Forall_nil _) Hwf) as [acc [E W]]. rewrite E in H. cbn [obind] in H.
  destruct (insert_all_map l p l [] acc (fun i H => H) Hwf (Forall_nil _) (Forall_nil _) E) as [M A].
  change (mapv (g l) []) with (@nil (C08.Model.range * W8.winrec)) in M. rewrite M. cbn [obind].
  rewrite <- (mapv_rev (g l)).
  rewrite (build_p_map win_eqb W8.win_eqb (g l) (in_file l) (g_eqb l) (rev acc)); [|apply Forall_rev; exact A].
  rewrite H. reflexivity.
Qed.

Lemma wf_recs_map : forall l0 l, Forall win_wf l -> P8.wf_recs (map (g l0) l).
Proof. intros l0 l H. unfold P8.wf_recs. apply Forall_map. eapply Forall_impl; [|exact H]. intros i Hi. exact Hi. Qed.

(* ---- c08_win_lookup_sound, imported: whatever the overlaps, a lookup returns a record of the file — same address,
   same remaining fields, never longer than written — whose own (possibly shortened) range contains the address ---- *)
Theorem table_lookup_sound : forall l t x i,
  Forall win_wf l -> win_table l = Ret t -> C08.Model.rm_get t x = Some i ->
  exists i0, In i0 l /\ i = set_size i0 (w_size i) /\ 0 < w_size i <= w_size i0 /\
             w_addr i0 <= x <= w_addr i0 + w_size i - 1 /\ win_range i = Some (w_addr i0, w_addr i0 + w_size i - 1).
Proof.
  intros l t x i Hwf Ht Hget.
  pose proof (win_table_map Debug l t Hwf Ht) as T8.
  assert (G8 : C08.Model.rm_get (mapv (g l) t) x = Some (g l i)) by (rewrite rm_get_map, Hget; reflexivity).
  destruct (P8.win_lookup_sound Debug (map (g l) l) (mapv (g l) t) x (g l i) (wf_recs_map l l Hwf) T8 G8)
    as [R [C [w0 [Hin [Ha [Htag [Hs _]]]]]]].
  apply in_map_iff in Hin. destruct Hin as [i0 [E0 Hin]]. subst w0.
  cbn [g W8.wa W8.ws W8.wt] in *.
  assert (Rr : rest_fields i = rest_fields i0) by (apply (tag_in_inj l i i0 Hin); congruence).
  exists i0. split; [exact Hin|]. split; [apply same_but_size; congruence|]. split; [lia|].
  unfold C08.Model.contains in C. cbn [fst snd] in C. apply andb_prop in C. destruct C as [C1 C2].
  apply Z.leb_le in C1, C2. split; [lia|]. rewrite Ha. exact R.
Qed.

(* ---- c08_win_sorted_disjoint, imported ---- *)
Lemma sorted_unmap : forall (h : win_info -> W8.winrec) t,
  StronglySorted (fun a b : C08.Model.range * W8.winrec => snd (fst a) < fst (fst b)) (mapv h t) ->
  StronglySorted (fun a b : C08.Model.range * win_info => snd (fst a) < fst (fst b)) t.
Proof.
  intros h t. induction t as [|e r IH]; intro S; [constructor|].
  cbn [mapv map] in S. inversion S as [|? ? S1 S2]; subst.
  constructor; [apply IH; exact S1|]. clear IH S S1.
  induction r as [|e' r' IH']; [constructor|].
  cbn [map] in S2. inversion S2; subst. constructor; [assumption|apply IH'; assumption].
Qed.

Theorem table_sorted_disjoint : forall l t, Forall win_wf l -> win_table l = Ret t ->
  StronglySorted (fun a b => snd (fst a) < fst (fst b)) t /\ Forall (fun e => win_range (snd e) = Some (fst e)) t.
Proof.
  intros l t Hwf Ht.
  destruct (P8.win_sorted_disjoint Debug (map (g l) l) (mapv (g l) t) (wf_recs_map l l Hwf) (win_table_map Debug l t Hwf Ht))
    as [S [_ K]].
  split; [exact (sorted_unmap (g l) t S)|].
  unfold mapv in K. rewrite Forall_map in K. eapply Forall_impl; [|exact K]. intros e He. exact He.
Qed.

(* ---- c08_win_isolated_complete, imported: a record that intersects no other record of its kind is returned as written
   for every address inside it, whatever the overlaps among the others ---- *)
Theorem table_isolated_complete : forall la w lb r t x,
  Forall win_wf (la ++ w :: lb) -> win_range w = Some r ->
  (forall w' r', In w' (la ++ lb) -> win_range w' = Some r' -> C08.Model.intersects r r' = false) ->
  win_table (la ++ w :: lb) = Ret t -> C08.Model.contains r x = true -> C08.Model.rm_get t x = Some w.
Proof.
  intros la w lb r t x Hwf Hr Hiso Ht Hc. set (l := la ++ w :: lb) in *.
  pose proof (win_table_map Debug l t Hwf Ht) as T8. unfold l in T8 at 2. rewrite map_app in T8. cbn [map] in T8.
  assert (Hwf8 : P8.wf_recs (map (g l) la ++ g l w :: map (g l) lb)).
  { pose proof (wf_recs_map l l Hwf) as Q. unfold l in Q at 2. rewrite map_app in Q. exact Q. }
  assert (Hiso8 : forall w' r', In w' (map (g l) la ++ map (g l) lb) -> W8.win_range w' = Some r' -> C08.Model.intersects r r' = false).
  { intros w' r' Hin Hr'. rewrite <- map_app in Hin. apply in_map_iff in Hin. destruct Hin as [i' [E' Hin']]. subst w'.
    exact (Hiso i' r' Hin' Hr'). }
  pose proof (P8.win_isolated_complete Debug (map (g l) la) (g l w) (map (g l) lb) r (mapv (g l) t) x Hwf8 Hr Hiso8 T8 Hc) as G8.
  rewrite rm_get_map in G8. destruct (C08.Model.rm_get t x) as [i'|]; [|discriminate G8].
  cbn [option_map] in G8. inversion G8 as [[Ha Hs Htag]].
  assert (Hin : In w l) by (unfold l; apply in_or_app; right; left; reflexivity).
  pose proof (tag_in_inj l i' w Hin Htag) as Rr.
  rewrite (same_but_size i' w Ha Rr). rewrite Hs. destruct w; reflexivity.
Qed.

(* the record walk_frame evaluates, in terms of the FILE: *)
Definition covers (i : win_info) (x : Z) : Prop := w_addr i <= x <= w_addr i + w_size i - 1.

(* a table entry is a record of the file whose written range covers the address; evaluation never reads a record's
   address or size, so the shortened copy evaluates like the written one *)
Lemma table_entry_of_file : forall l t x i, Forall win_wf l -> win_table l = Ret t -> C08.Model.rm_get t x = Some i ->
  exists i0 d, In i0 l /\ covers i0 x /\ i = set_size i0 d.
Proof.
  intros l t x i Hwf Ht Hget. destruct (table_lookup_sound _ _ _ _ Hwf Ht Hget) as [i0 [Hin [Ei [Hs [Hc _]]]]].
  exists i0, (w_size i). split; [exact Hin|]. split; [unfold covers; lia|exact Ei].
Qed.

(* ---- SymbolFile::walk_frame in terms of the records of the FILE (composition with record_preference): whatever
   overlaps, duplicates and zero-sized records the two lists contain, exactly one of three things happens ---- *)
Theorem walk_frame_by_file_record : forall S (ops : wops S) p E f s,
  Forall win_wf (sf_framedata f) -> Forall win_wf (sf_fpo f) ->
  Forall is_framedata (sf_framedata f) -> Forall is_fpo (sf_fpo f) ->
  (exists i0 e, In i0 (sf_framedata f) /\ covers i0 (e_instr E) /\ w_thing i0 = ProgramString e /\
     walk_frame ops p E f s =
     (do wr <- walk_win_framedata ops p E i0 e s;
      if snd wr then Ret (Some (fst wr)) else cfi_fallback ops p E f (fst wr))) \/
  (exists i0 b, In i0 (sf_fpo f) /\ covers i0 (e_instr E) /\ w_thing i0 = AllocatesBasePointer b /\
     walk_frame ops p E f s =
     (let wr := walk_win_fpo ops E i0 b s in
      if snd wr then Ret (Some (fst wr)) else cfi_fallback ops p E f (fst wr))) \/
  walk_frame ops p E f s = cfi_fallback ops p E f s.
Proof.
  intros S ops p E f s Wfd Wfp Tfd Tfp.
  destruct (win_table_total _ Wfd) as [fd Hfd]. destruct (win_table_total _ Wfp) as [fp Hfp].
  destruct (record_preference S ops p E f s fd fp Hfd Hfp) as [R1 [R2 R3]].
  destruct (C08.Model.rm_get fd (e_instr E)) as [i|] eqn:G1.
  - destruct (table_entry_of_file _ _ _ _ Wfd Hfd G1) as (i0 & d & Hin & Hc & Ei).
    pose proof (proj1 (Forall_forall _ _) Tfd i0 Hin) as Hi0. unfold is_framedata in Hi0.
    destruct (w_thing i0) as [e|b] eqn:Et; [|contradiction].
    left. exists i0, e. split; [exact Hin|]. split; [exact Hc|]. split; [exact Et|].
    rewrite (R1 i e eq_refl); subst i; [reflexivity|exact Et].
  - destruct (C08.Model.rm_get fp (e_instr E)) as [i|] eqn:G2.
    + destruct (table_entry_of_file _ _ _ _ Wfp Hfp G2) as (i0 & d & Hin & Hc & Ei).
      pose proof (proj1 (Forall_forall _ _) Tfp i0 Hin) as Hi0. unfold is_fpo in Hi0.
      destruct (w_thing i0) as [e|b] eqn:Et; [contradiction|].
      right. left. exists i0, b. split; [exact Hin|]. split; [exact Hc|]. split; [exact Et|].
      rewrite (R2 i b eq_refl eq_refl); subst i; [reflexivity|exact Et].
    + right. right. apply R3; reflexivity.
Qed.
