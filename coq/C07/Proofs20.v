(* C07/Proofs20.v — one step of win_walk / fpo_walk IS SymbolFile::walk_frame on the abstract walker, for the record
   the tables return at the lookup address (frame data preferred over FPO), in a file without STACK CFI records. *)
From RM Require Import Base.Word C06.Model C06.Proofs C07.Model C07.Walker C07.WalkerFd C07.Proofs16.
From RM Require C08.Model.
Import ListNotations.
Open Scope Z_scope.

(* STACK WIN evaluation never looks at the walker's instruction: only the table lookup does *)
Definition same_but_instr (E E' : env) : Prop :=
  e_callee E = e_callee E' /\ e_mem E = e_mem E' /\ e_has_gc E = e_has_gc E' /\ e_gcps E = e_gcps E'.

Lemma step_instr : forall p E E' t ms, same_but_instr E E' -> win_step p E t ms = win_step p E' t ms.
Proof. intros p E E' t [m st] (_ & Hm & _ & _). unfold win_step. rewrite Hm. reflexivity. Qed.

Lemma loop_instr : forall p E E' toks ms, same_but_instr E E' -> win_loop p E toks ms = win_loop p E' toks ms.
Proof.
  induction toks as [|t r IH]; intros ms H; cbn [win_loop]; [reflexivity|].
  rewrite (step_instr p E E' t ms H). destruct (win_step p E' t ms); cbn [obind]; auto.
Qed.

Lemma framedata_instr : forall S (ops : wops S) p E E' i e s, same_but_instr E E' ->
  walk_win_framedata ops p E i e s = walk_win_framedata ops p E' i e s.
Proof.
  intros S ops p E E' i e s H. pose proof H as (Hc & Hm & Hh & Hg).
  unfold walk_win_framedata, win_final_vars, win_initial_vars. rewrite Hc, Hg.
  destruct (e_callee E' N_esp); [|reflexivity]. destruct (e_callee E' N_ebp); [|reflexivity].
  destruct (win_frame_size i (e_gcps E')); [|reflexivity].
  destruct (if contains_at e then _ else _); [|reflexivity].
  rewrite (loop_instr p E E' _ _ H). reflexivity.
Qed.

Lemma fpo_instr : forall S (ops : wops S) E E' i abp s, same_but_instr E E' ->
  walk_win_fpo ops E i abp s = walk_win_fpo ops E' i abp s.
Proof. intros S ops E E' i abp s (Hc & Hm & Hh & Hg). unfold walk_win_fpo. rewrite Hc, Hm, Hh, Hg. reflexivity. Qed.

Definition xregs_of (s : mstate) : option xregs :=
  match m_regs s N_eip, m_regs s N_esp, m_regs s N_ebp with
  | SetTo a, SetTo b, SetTo c => Some (mkX a b c)
  | _, _, _ => None
  end.

Theorem xstep_is_walk_frame : forall f fd fp mem below callee r a i,
  win_table (sf_framedata f) = Ret fd -> win_table (sf_fpo f) = Ret fp -> sf_cfi f = None ->
  ((C08.Model.rm_get fd a = Some i /\ exists e, w_thing i = ProgramString e) \/
   (C08.Model.rm_get fd a = None /\ C08.Model.rm_get fp a = Some i /\ exists b, w_thing i = AllocatesBasePointer b)) ->
  let regs := fun n => assoc n [(N_eip, x_eip r); (N_esp, x_esp r); (N_ebp, x_ebp r)] in
  win_xstep mem below callee r i =
  match walk_frame (mock_ops 4) Debug (frames_env regs mem a below callee) f m_init with
  | Ret (Some s) => xregs_of s
  | _ => None
  end.
Proof.
  intros f fd fp mem below callee r a i Hfd Hfp Hcfi Hsel regs.
  set (E := frames_env regs mem a below callee).
  set (E0 := frames_env regs mem 0 below callee).
  assert (HE : same_but_instr E0 E) by (repeat split; reflexivity).
  destruct (record_preference mstate (mock_ops 4) Debug E f m_init fd fp Hfd Hfp) as (P1 & P2 & _).
  unfold cfi_fallback in P1, P2. rewrite Hcfi in P1, P2.
  change (e_instr E) with a in P1, P2.
  destruct Hsel as [(Hg & e & Ht)|(Hn & Hg & b & Ht)].
  - rewrite (P1 i e Hg Ht). unfold win_xstep. rewrite Ht. fold regs. fold E0.
    rewrite (framedata_instr _ (mock_ops 4) Debug E0 E i e m_init HE).
    destruct (walk_win_framedata (mock_ops 4) Debug E i e m_init) as [[s ok]| | |]; cbn [obind fst snd]; try reflexivity.
    destruct ok; reflexivity.
  - rewrite (P2 i b Hn Hg Ht). unfold win_xstep, fpo_step. rewrite Ht. fold regs. fold E0.
    rewrite (fpo_instr _ (mock_ops 4) E0 E i b m_init HE). cbv zeta.
    destruct (walk_win_fpo (mock_ops 4) E i b m_init) as [s ok]. cbn [fst snd]. destruct ok; reflexivity.
Qed.
