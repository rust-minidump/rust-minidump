(* C12/JoinProofs.v — join_all with a shared waker: every parent poll is one round-robin round of
   the plain model, the parent's bit is set whenever a child is unfinished, and the parent is
   polled at most work c times. *)
From Coq Require Import List Arith Bool Lia.
From RM Require Import C12.Model C12.WakeModel C12.JoinModel C12.Proofs C12.Progress C12.WakeProofs.
Import ListNotations.

(* x2 has at least the bits of x1 among tasks below m; same waiter entries *)
Definition le_upto (m : nat) (x1 x2 : wext) : Prop :=
  (forall u, wk x1 u = wk x2 u) /\ (forall k, slen x1 k = slen x2 k) /\
  (forall u, u < m -> flag x1 u = true -> flag x2 u = true).

Lemma first_waiter_ext : forall x1 x2 k ts best, (forall u, wk x1 u = wk x2 u) ->
  first_waiter x1 k ts best = first_waiter x2 k ts best.
Proof.
  intros x1 x2 k ts. induction ts as [|a ts IH]; intros best H; [reflexivity|].
  cbn [first_waiter]. rewrite (H a). now apply IH.
Qed.

Lemma le_wake : forall m n k x1 x2, le_upto m x1 x2 -> le_upto m (wake n k x1) (wake n k x2).
Proof.
  intros m n k x1 x2 (Hw & Hs & Hf). unfold wake.
  rewrite (first_waiter_ext x1 x2 k (seq 0 n) None Hw).
  destruct (first_waiter x2 k (seq 0 n) None) as [[u j]|]; [|now repeat split].
  rewrite (Hw u). destruct (wk x2 u) as [[[k' i] [|]]|]; try (now repeat split).
  split; [|split]; cbn [wk slen flag].
  - intros v. unfold upd. destruct (Nat.eqb v u); auto.
  - assumption.
  - intros v Hv. unfold upd. destruct (Nat.eqb v u); auto.
Qed.

Lemma le_set : forall m x1 x2 t b, le_upto m x1 x2 -> le_upto m (set_flag x1 t b) (set_flag x2 t b).
Proof.
  intros m x1 x2 t b (Hw & Hs & Hf). split; [|split]; cbn [set_flag wk slen flag]; auto.
  intros v Hv. unfold upd. destruct (Nat.eqb v t); auto.
Qed.

Lemma le_register : forall m x1 x2 t k, le_upto m x1 x2 -> le_upto m (register t k x1) (register t k x2).
Proof.
  intros m x1 x2 t k (Hw & Hs & Hf). unfold register. rewrite (Hw t).
  destruct (wk x2 t) as [[[k' i] w]|].
  - split; [|split]; cbn [wk slen flag]; auto. intros v. unfold upd. destruct (Nat.eqb v t); auto.
  - split; [|split]; cbn [wk slen flag]; auto.
    + intros v. unfold upd. rewrite (Hs k). destruct (Nat.eqb v t); auto.
    + intros v. unfold upd. rewrite (Hs k). destruct (Nat.eqb v k); auto.
Qed.

Lemma le_unregister : forall m x1 x2 t, le_upto m x1 x2 -> le_upto m (unregister t x1) (unregister t x2).
Proof.
  intros m x1 x2 t (Hw & Hs & Hf). split; [|split]; cbn [unregister wk slen flag]; auto.
  - intros v. unfold upd. destruct (Nat.eqb v t); auto.
  - intros k0. rewrite (Hw t). destruct (wk x2 t) as [[[k i] w]|]; auto.
    unfold upd. rewrite (Hs k). destruct (Nat.eqb k0 k); auto.
Qed.

Lemma le_wadvance : forall c n m t rem ph s x1 x2,
  le_upto m x1 x2 ->
  le_upto m (snd (wadvance c n t rem ph s x1)) (snd (wadvance c n t rem ph s x2)).
Proof.
  intros c n m t rem. induction rem as [|k rest IH]; intros ph s x1 x2 H; [assumption|].
  cbn [wadvance].
  destruct ph as [| |[|mm]];
    try (destruct (lock s k); [cbn [snd]; now apply le_register|];
         destruct (value s k); [apply IH; now apply le_wake, le_unregister|];
         destruct (susp c k); [apply IH; now apply le_wake, le_unregister|
                               cbn [snd]; now apply le_set, le_unregister]).
  - apply IH. now apply le_wake.
  - cbn [snd]. now apply le_set.
Qed.

(* the base part of a child poll does not depend on the bits, and is one poll of the plain model *)
Lemma jchild_base : forall c t w, base (jchild c t w) = poll c t (base w).
Proof.
  intros c t w. unfold jchild, poll. destruct (pcs (base w) t) as [rem ph].
  pose proof (wadvance_base c (ntasks c) t rem ph (sh (base w)) (ext w)) as H.
  destruct (wadvance c (ntasks c) t rem ph (sh (base w)) (ext w)) as [[[rem' ph'] s'] x'].
  cbn [fst] in H. rewrite <- H. reflexivity.
Qed.

Lemma jround_base : forall c ts w, base (jround c w ts) = run_from c (base w) ts.
Proof.
  intros c ts. induction ts as [|t ts IH]; intros w; [reflexivity|].
  cbn [jround run_from fold_left]. fold (jround c (jchild c t w) ts).
  fold (run_from c (poll c t (base w)) ts). now rewrite IH, jchild_base.
Qed.

(* one child: per-task executor (clears the child's bit) vs shared waker (does not) *)
Lemma child_sim : forall c j w1 w2,
  base w1 = base w2 -> le_upto j (ext w1) (ext w2) ->
  base (wpoll c j w1) = base (jchild c j w2) /\ le_upto (S j) (ext (wpoll c j w1)) (ext (jchild c j w2)).
Proof.
  intros c j w1 w2 Hb Hle. split; [now rewrite wpoll_base, jchild_base, Hb|].
  unfold wpoll, jchild. rewrite <- Hb. destruct (pcs (base w1) j) as [rem ph].
  assert (Hle' : le_upto (S j) (set_flag (ext w1) j false) (ext w2)).
  { destruct Hle as (Hw & Hs & Hf). split; [|split]; cbn [set_flag wk slen flag]; auto.
    intros u Hu. destruct (Nat.eq_dec u j) as [E|N].
    - subst u. rewrite upd_same. discriminate.
    - rewrite upd_other by assumption. apply Hf. lia. }
  pose proof (le_wadvance c (ntasks c) (S j) j rem ph (sh (base w1)) _ _ Hle') as H.
  destruct (wadvance c (ntasks c) j rem ph (sh (base w1)) (set_flag (ext w1) j false)) as [[[r1 p1] s1] x1'].
  destruct (wadvance c (ntasks c) j rem ph (sh (base w1)) (ext w2)) as [[[r2 p2] s2] x2'].
  cbn [ext]. exact H.
Qed.

Lemma round_sim : forall c m w1 w2,
  base w1 = base w2 -> le_upto 0 (ext w1) (ext w2) ->
  base (wrun_from c w1 (seq 0 m)) = base (jround c w2 (seq 0 m)) /\
  le_upto m (ext (wrun_from c w1 (seq 0 m))) (ext (jround c w2 (seq 0 m))).
Proof.
  intros c m. induction m as [|m IH]; intros w1 w2 Hb Hle; [now split|].
  rewrite seq_S. cbn [plus]. unfold wrun_from, jround. rewrite !fold_left_app. cbn [fold_left].
  destruct (IH w1 w2 Hb Hle) as (Hb' & Hle'). now apply child_sim.
Qed.

Lemma clear_all_le : forall x1, le_upto 0 x1 (clear_all x1).
Proof. intros. split; [|split]; cbn [clear_all wk slen]; auto. intros u Hu. lia. Qed.

Lemma round_robin_S : forall c r, round_robin c (S r) = round_robin c r ++ seq 0 (ntasks c).
Proof.
  intros c r. unfold round_robin. induction r as [|r IH]; [cbn; now rewrite app_nil_r|].
  cbn [repeat concat] in *. rewrite IH at 1. now rewrite app_assoc.
Qed.

Section Join.
Variable c : config.

(* [w2] is the shared-waker state after r parent polls; the per-task-waker run of the same r
   rounds has the same base and at most its bits *)
Definition JRel (r : nat) (w2 : wstate) : Prop :=
  base w2 = base (wrun c (round_robin c r)) /\
  (forall u, wk (ext (wrun c (round_robin c r))) u = wk (ext w2) u) /\
  (forall k, slen (ext (wrun c (round_robin c r))) k = slen (ext w2) k) /\
  (forall u, u < ntasks c -> flag (ext (wrun c (round_robin c r))) u = true -> flag (ext w2) u = true).

Lemma jrel_init : JRel 0 (winit c).
Proof. unfold JRel, round_robin. cbn [repeat concat]. unfold wrun. cbn [wrun_from fold_left]. auto. Qed.

Lemma jrel_step : forall r w2, JRel r w2 -> JRel (S r) (jparent c w2).
Proof.
  intros r w2 (Hb & Hw & Hs & _). unfold JRel. rewrite round_robin_S.
  unfold wrun. unfold wrun_from at 1 2 3 4. rewrite !fold_left_app.
  fold (wrun_from c (winit c) (round_robin c r)). fold (wrun c (round_robin c r)).
  set (w1 := wrun c (round_robin c r)) in *.
  fold (wrun_from c w1 (seq 0 (ntasks c))).
  unfold jparent.
  destruct (round_sim c (ntasks c) w1 {| base := base w2; ext := clear_all (ext w2) |}) as (Hb' & Hw' & Hs' & Hf').
  - cbn [base]. now symmetry.
  - split; [|split]; cbn [ext clear_all wk slen]; auto. intros u Hu. lia.
  - split; [now symmetry|]. split; [assumption|]. split; assumption.
Qed.

Lemma jrel_base : forall r w2, JRel r w2 -> base w2 = run c (round_robin c r).
Proof. intros r w2 (Hb & _). rewrite Hb. apply wrun_base. Qed.

(* the parent's bit is set whenever a child is unfinished *)
Lemma jrel_pbit : forall r w2, JRel r w2 -> all_done c (base w2) = false -> pbit c w2 = true.
Proof.
  intros r w2 HR Hd. pose proof (jrel_base r w2 HR) as Hbase.
  destruct HR as (Hb & Hw & Hs & Hf).
  unfold pbit. apply existsb_exists. rewrite Hbase in Hd.
  pose proof (no_lost_wakeup c (round_robin c r) Hd) as Hne.
  destruct (runnable c (wrun c (round_robin c r))) as [|t rs] eqn:Hr; [contradiction|].
  assert (Hin : In t (runnable c (wrun c (round_robin c r)))) by (rewrite Hr; now left).
  unfold runnable in Hin. apply filter_In in Hin. destruct Hin as [Hseq Hp].
  apply andb_prop in Hp. destruct Hp as [Hflag _].
  exists t. split; [assumption|]. apply Hf; [apply in_seq in Hseq; lia|assumption].
Qed.

Lemma covers_seq : forall n, covers n (seq 0 n).
Proof. intros n t Ht. apply in_seq. lia. Qed.

Lemma round_robin_done : forall r, work c <= r -> all_done c (run c (round_robin c r)) = true.
Proof.
  intros r Hr. unfold round_robin. apply finish_in_rounds.
  - apply Forall_forall. intros x Hx. apply repeat_spec in Hx. subst x. apply covers_seq.
  - now rewrite repeat_length.
Qed.

Lemma jexec_finishes : forall fuel r w2, JRel r w2 -> r <= work c -> work c <= r + fuel ->
  exists w' r', jexec c fuel w2 r = (w', r', WDone) /\ r' <= work c /\
                base w' = run c (round_robin c r') /\ all_done c (base w') = true.
Proof.
  induction fuel as [|f IH]; intros r w2 HR Hle Hf.
  - assert (Hd : all_done c (base w2) = true) by (rewrite (jrel_base r w2 HR); apply round_robin_done; lia).
    cbn [jexec]. rewrite Hd. exists w2, r. repeat split; auto. now apply jrel_base.
  - cbn [jexec]. destruct (all_done c (base w2)) eqn:Hd.
    + exists w2, r. repeat split; auto. now apply jrel_base.
    + assert (Hlt : r < work c).
      { destruct (Nat.lt_ge_cases r (work c)) as [H|H]; [assumption|].
        rewrite (jrel_base r w2 HR), (round_robin_done r H) in Hd. discriminate. }
      rewrite (jrel_pbit r w2 HR Hd).
      apply (IH (S r) (jparent c w2)); [now apply jrel_step|lia|lia].
Qed.

Lemma join_all_ok : forall fuel, work c <= fuel ->
  exists w r, jexec c fuel (winit c) 0 = (w, r, WDone) /\ r <= work c /\
              base w = run c (round_robin c r) /\ all_done c (run c (round_robin c r)) = true.
Proof.
  intros fuel Hf. destruct (jexec_finishes fuel 0 (winit c) jrel_init) as (w & r & He & Hr & Hb & Hd); [lia|lia|].
  exists w, r. repeat split; auto. now rewrite <- Hb.
Qed.

End Join.
