(* C12/StatsProofs.v — the `stats` map (Symbolizer::stats, what the processor copies into ProcessState.symbol_stats)
   in every reachable state of the poll-level model:
   an entry of the map is the classification of the supplier's single answer for SOME module with that leaf name whose
   lookup has completed, and every module whose lookup has completed has an entry under its leaf name.  (Which module
   of a shared leaf name wins depends on the schedule — last finisher — and is C13's subject.) *)
From RM Require Import C12.Model C12.Proofs.
From Coq Require Import Lia.

Section Stats.
Variable c : config.

Record StInv (s : shared) : Prop := {
  st_sound : forall lf o, stats s lf = Some o ->
               exists k, leaf c k = lf /\ value s k <> None /\ o = outc c k;
  st_complete : forall k, value s k <> None -> stats s (leaf c k) <> None
}.

Lemma st_hit : forall t k o s, StInv s -> StInv (hit t k o s).
Proof. intros t k o s [A B]. constructor; cbn; assumption. Qed.

Lemma st_begin : forall t k s, StInv s -> StInv (begin_call t k s).
Proof. intros t k s [A B]. constructor; cbn; assumption. Qed.

Lemma st_complete_step : forall t k s, StInv s -> StInv (complete c t k s).
Proof.
  intros t k s [A B]. constructor; cbn [complete stats value].
  - intros lf o H. unfold upd in H. destruct (Nat.eqb lf (leaf c k)) eqn:E.
    + apply Nat.eqb_eq in E. inversion H; subst. exists k. split; [reflexivity|]. split; [|reflexivity].
      rewrite upd_same. discriminate.
    + destruct (A lf o H) as (k' & L & V & O). exists k'. split; [exact L|]. split; [|exact O].
      unfold upd. destruct (Nat.eqb k' k); [discriminate|exact V].
  - intros k' V. unfold upd. destruct (Nat.eqb (leaf c k') (leaf c k)) eqn:E; [discriminate|].
    apply B. unfold upd in V. destruct (Nat.eqb k' k) eqn:E2; [|exact V].
    apply Nat.eqb_eq in E2. subst. rewrite Nat.eqb_refl in E. discriminate.
Qed.

Lemma advance_st : forall t rem ph s, StInv s -> StInv (snd (advance c t rem ph s)).
Proof.
  intros t rem ph s. induction (advance_adv c t rem ph s); intro St; cbn [snd] in *; auto.
  - apply IHa. apply st_complete_step. exact St.
  - apply IHa. apply st_hit. exact St.
  - apply IHa. apply st_complete_step. apply st_begin. exact St.
  - apply st_begin. exact St.
Qed.

Lemma poll_st : forall t s, StInv (sh s) -> StInv (sh (poll c t s)).
Proof.
  intros t s H. unfold poll. destruct (pcs s t) as [rem ph].
  pose proof (advance_st t rem ph (sh s) H) as X.
  destruct (advance c t rem ph (sh s)) as [[rem' ph'] s']. exact X.
Qed.

Lemma run_st : forall sched, StInv (sh (run c sched)).
Proof.
  intro sched. unfold run.
  assert (G : forall s, StInv (sh s) -> StInv (sh (run_from c s sched))).
  { induction sched as [|t r IH]; intros s H; [exact H|]. cbn [run_from fold_left]. apply IH. apply poll_st. exact H. }
  apply G. constructor; cbn; [intros; discriminate|intros k V; contradiction].
Qed.

(* every entry of the stats map classifies the supplier's single answer for a REQUESTED module with that leaf name
   whose lookup has completed *)
Lemma stats_sound : forall sched lf o, stats (sh (run c sched)) lf = Some o ->
  exists k, In k (concat (tasks c)) /\ leaf c k = lf /\ o = outc c k /\ value (sh (run c sched)) k = Some o.
Proof.
  intros sched lf o H. destruct (st_sound _ (run_st sched) lf o H) as (k & L & V & O).
  pose proof (run_inv c sched) as I. unfold SInv in I.
  destruct (value (sh (run c sched)) k) as [o'|] eqn:E; [|contradiction].
  exists k. split; [|split; [exact L|split; [exact O|]]].
  - apply (inv_creq c _ _ I). apply (inv_calls c _ _ I). right. rewrite E. discriminate.
  - rewrite O, E. f_equal. apply (inv_val c _ _ I k o' E).
Qed.

(* at quiescence every requested module has an entry under its leaf name *)
Lemma stats_complete_quiescent : forall sched k, all_done c (run c sched) = true -> In k (concat (tasks c)) ->
  stats (sh (run c sched)) (leaf c k) <> None.
Proof.
  intros sched k Hd Hk. apply (st_complete _ (run_st sched)).
  pose proof (run_inv c sched) as I.
  pose proof (requested_called c _ I Hd k Hk) as Hc.
  apply (inv_calls c _ _ I) in Hc. destruct Hc as [Hc|Hc]; [|exact Hc].
  exfalso. apply Hc. apply (quiescent_unlocked c _ I Hd).
Qed.
End Stats.
