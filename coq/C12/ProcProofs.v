(* C12/ProcProofs.v — the processor walks every thread through one symbolizer: each module once, one answer for every
   frame, counters = distinct modules, and the stats map it copies into the ProcessState afterwards is the quiescent one;
   the same safety facts under every instruction-level interleaving of the thread walks ([processor_instr]). *)
From RM Require Import C12.Model C12.Proofs C12.StatsProofs C12.ProgModel C12.ProgProofs C12.ProgSource C12.ProgExec
                       C12.JoinModel C12.ProcModel Gen.C12Program Gen.C12Processor
                       C12.ProgFine C12.ProgCountMix C12.ProgMeasure C12.ProgFair C12.ProgStatsMix.
From Coq Require Import Lia.

Lemma src_walker_is_canon : src_walker = canon_walker.
Proof. reflexivity. Qed.

Lemma canon_tasks : forall d, process_tasks canon_walker d = map canon_thread d.
Proof.
  intro d. unfold process_tasks. cbn [canon_walker w_process flat_map app]. rewrite app_nil_r.
  apply map_ext. intro th. unfold future_lookups. cbn [flat_map]. rewrite app_nil_r.
  unfold thread_lookups. cbn [canon_walker w_walk_stack flat_map]. rewrite app_nil_r.
  unfold canon_thread. apply flat_map_ext. intro f.
  unfold frame_lookups. cbn [flat_map]. rewrite app_nil_r.
  unfold fill_source_lookups. cbn [canon_walker w_fill_source flat_map]. rewrite app_nil_r.
  destruct (f_module f); [cbn [flat_map app]|]; reflexivity.
Qed.

Lemma canon_sym_only : forall d base, walk_ok d -> sym_only (proc_pc canon_walker d base).
Proof.
  intros d base H. unfold sym_only, proc_pc. cbn [ptasks]. rewrite canon_tasks.
  apply Forall_forall. intros l Hl. apply in_map_iff in Hl. destruct Hl as (th & <- & Hth).
  unfold walk_ok in H. rewrite Forall_forall in H. specialize (H th Hth). rewrite Forall_forall in H.
  apply Forall_forall. intros [e k] Hin. unfold canon_thread in Hin. apply in_flat_map in Hin.
  destruct Hin as (f & Hf & Hin). apply in_app_or in Hin. destruct Hin as [Hin|Hin].
  - destruct (f_module f); [|contradiction]. destruct Hin as [E|[]]. inversion E; subst. reflexivity.
  - specialize (H f Hf). rewrite Forall_forall in H. specialize (H _ Hin). cbn in H. cbn. destruct e; try reflexivity; contradiction.
Qed.

(* the module of every frame is looked up (fill_symbol) *)
Lemma canon_frame_module_requested : forall d base th f k, In th d -> In f th -> f_module f = Some k ->
  In k (concat (tasks (cfg (proc_pc canon_walker d base)))).
Proof.
  intros d base th f k Hth Hf Hm. unfold cfg, proc_pc. cbn [tasks ptasks]. rewrite canon_tasks.
  apply in_concat. exists (map snd (canon_thread th)). split.
  - apply in_map. apply in_map. exact Hth.
  - apply in_map_iff. exists (EFill, k). split; [reflexivity|]. unfold canon_thread. apply in_flat_map.
    exists f. split; [exact Hf|]. rewrite Hm. left. reflexivity.
Qed.

Section Processor.
Variable d : dump.
Variable base : config.
Variable fuel : nat.
Hypothesis Hok : walk_ok d.
Local Notation pc := (proc_pc src_walker d base).
Hypothesis Hfuel : work (cfg pc) <= fuel.

Lemma processor_once_per_module :
  exists (s : pstate) (r : nat) (after : snapshot),
    process src_program src_walker d base fuel = Some (s, [(fun _ => None); after]) /\
    after = stats (psh s) /\ s = prun src_program pc (round_robin (cfg pc) r) /\ r <= work (cfg pc) /\
    pall_done pc s = true /\
    (forall th f k, In th d -> In f th -> f_module f = Some k -> psupplier_calls s k = 1) /\
    (forall k, In k (concat (tasks (cfg pc))) -> psupplier_calls s k = 1) /\
    (forall k, psupplier_calls s k <= 1) /\
    (forall t, map fst (results (psh s) t) = map snd (nth t (ptasks pc) [])) /\
    (forall t i k o, ptask_result s t i = Some (k, o) -> o = outc base k) /\
    req (psh s) = distinct_keys (cfg pc) /\ proc (psh s) = distinct_keys (cfg pc) /\
    (forall lf o, after lf = Some o -> exists k, In k (concat (tasks (cfg pc))) /\ leaf base k = lf /\ o = outc base k) /\
    (forall k, In k (concat (tasks (cfg pc))) -> after (leaf base k) <> None).
Proof.
  pose proof (src_join_all pc fuel Hfuel) as J. rewrite src_is_canon in J |- *.
  destruct J as (w & r & He & Hr & Hd).
  assert (Hsym : sym_only pc) by (rewrite src_walker_is_canon; apply canon_sym_only; exact Hok).
  exists (prun canon pc (round_robin (cfg pc) r)), r, (stats (psh (prun canon pc (round_robin (cfg pc) r)))).
  pose proof (prun_refines true pc (round_robin (cfg pc) r) (fun _ => Hsym)) as Sim.
  destruct Sim as (_ & _ & _ & (_ & _ & _ & _ & Hfull)). destruct (Hfull eq_refl) as (_ & _ & Hst).
  assert (Hdm : all_done (cfg pc) (run (cfg pc) (round_robin (cfg pc) r)) = true).
  { rewrite <- (pall_done_abs true pc _ _ (prun_refines true pc (round_robin (cfg pc) r) (fun _ => Hsym))). exact Hd. }
  split; [|repeat split].
  - unfold process. rewrite src_walker_is_canon at 1. cbn [canon_walker w_process fold_left].
    rewrite He. cbn [app pinit psh stats]. reflexivity.
  - exact Hr.
  - exact Hd.
  - intros th f k Hth Hf Hm. apply p_exactly_once; [exact Hd|].
    rewrite src_walker_is_canon. apply (canon_frame_module_requested d base th f k Hth Hf Hm).
  - intros k Hk. apply p_exactly_once; assumption.
  - intro k. apply p_at_most_once.
  - intro t. apply p_results_complete. exact Hd.
  - intros t i k o H. apply (p_same_outcome pc _ t i k o H).
  - apply (p_counters pc _ Hsym Hd).
  - apply (p_counters pc _ Hsym Hd).
  - intros lf o H. rewrite Hst in H.
    destruct (stats_sound (cfg pc) _ lf o H) as (k & K1 & K2 & K3 & _). exists k. repeat split; assumption.
  - intros k Hk. rewrite Hst. apply (stats_complete_quiescent (cfg pc) _ k Hdm Hk).
Qed.
End Processor.

(* non-vacuity: three threads over three modules (module 1's symbol file is corrupt; modules 0 and 1 share a leaf name: the
   last finisher's classification is what the ProcessState gets), a frame without a module, a scan that asks for a third
   module; suppliers that suspend *)
Definition ex_dump : dump :=
  [ [ {| f_module := Some 0; f_caller := [(EWalk, 0)] |}; {| f_module := Some 1; f_caller := [(EWalk, 1)] |};
      {| f_module := None; f_caller := [] |} ];
    [ {| f_module := Some 1; f_caller := [(EWalk, 1); (EFill, 2); (EFill, 0)] |}; {| f_module := Some 0; f_caller := [] |} ];
    [ {| f_module := Some 0; f_caller := [(EWalk, 0)] |} ] ].
Definition ex_base : config :=
  {| tasks := []; susp := fun k => S k; outc := fun k => if Nat.eqb k 1 then OParse else OOk; leaf := fun k => k / 2 |}.
Lemma ex_dump_ok : walk_ok ex_dump.
Proof. repeat constructor. Qed.
Lemma ex_process :
  work (cfg (proc_pc src_walker ex_dump ex_base)) = 28 /\
  match process src_program src_walker ex_dump ex_base 28 with
  | Some (s, [before; after]) =>
      before 0 = None /\ after 0 = Some OParse /\ after 1 = Some OOk /\ after 2 = None /\
      calls (psh s) = [0; 1; 2] /\ req (psh s) = 3 /\ proc (psh s) = 3 /\
      results (psh s) 1 = [(1, OParse); (1, OParse); (2, OOk); (0, OOk); (0, OOk)]
  | _ => False
  end.
Proof. vm_compute. repeat split. Qed.

(* the thread walks on a multi-threaded executor: any instruction-level interleaving of the per-thread futures
   (minidump-stackwalk runs process_minidump on tokio's multi-threaded runtime; two processings of dumps on one symbolizer
   are polled by different workers).  The instruction-level theorems (ProgFine, ProgCountMix, ProgFair, ProgStatsMix)
   for the configuration the walker derives from a dump. *)
Lemma processor_instr : forall (d : dump) (base : config) (ms : list task), walk_ok d ->
  (forall k, psupplier_calls (pmrun src_program (proc_pc src_walker d base) ms) k <= 1) /\
  (forall t i k o, ptask_result (pmrun src_program (proc_pc src_walker d base) ms) t i = Some (k, o) -> o = outc base k) /\
  proc (psh (pmrun src_program (proc_pc src_walker d base) ms)) <= req (psh (pmrun src_program (proc_pc src_walker d base) ms)) /\
  req (psh (pmrun src_program (proc_pc src_walker d base) ms)) <= distinct_keys (cfg (proc_pc src_walker d base)) /\
  (forall lf o, stats (psh (pmrun src_program (proc_pc src_walker d base) ms)) lf = Some o ->
     exists k, leaf base k = lf /\ o = outc base k /\ psupplier_calls (pmrun src_program (proc_pc src_walker d base) ms) k = 1) /\
  (pall_done (proc_pc src_walker d base) (pmrun src_program (proc_pc src_walker d base) ms) = true ->
     (forall th f k, In th d -> In f th -> f_module f = Some k ->
        psupplier_calls (pmrun src_program (proc_pc src_walker d base) ms) k = 1) /\
     (forall t, map fst (results (psh (pmrun src_program (proc_pc src_walker d base) ms)) t) =
                map snd (nth t (ptasks (proc_pc src_walker d base)) [])) /\
     req (psh (pmrun src_program (proc_pc src_walker d base) ms)) = distinct_keys (cfg (proc_pc src_walker d base)) /\
     proc (psh (pmrun src_program (proc_pc src_walker d base) ms)) = distinct_keys (cfg (proc_pc src_walker d base))) /\
  (forall T, fair (length (ptasks (proc_pc src_walker d base))) T ms ->
     T * imu (cfg (proc_pc src_walker d base)) (length (ptasks (proc_pc src_walker d base))) (pinit (proc_pc src_walker d base)) <= length ms ->
     pall_done (proc_pc src_walker d base) (pmrun src_program (proc_pc src_walker d base) ms) = true).
Proof.
  intros d base ms Hok.
  assert (Hsym : sym_only (proc_pc src_walker d base)) by (rewrite src_walker_is_canon; apply canon_sym_only; exact Hok).
  rewrite src_is_canon.
  split; [intro k; apply pm_at_most_once|].
  split; [intros t i k o H; apply (pm_same_outcome (proc_pc src_walker d base) ms t i k o H)|].
  split; [apply (pm_counters_bounded _ ms Hsym)|].
  split; [apply (pm_counters_bounded _ ms Hsym)|].
  split; [intros lf o H; apply (pm_stats_sound (proc_pc src_walker d base) ms lf o H)|].
  split.
  - intro Hd. split; [|split].
    + intros th f k Hth Hf Hm. apply pm_exactly_once; [exact Hd|].
      rewrite src_walker_is_canon. apply (canon_frame_module_requested d base th f k Hth Hf Hm).
    + intro t. apply pm_results_complete. exact Hd.
    + apply (pm_counters_quiescent _ ms Hsym Hd).
  - intros T Hf Hl. apply (pm_fair_finishes _ T ms Hf Hl).
Qed.
