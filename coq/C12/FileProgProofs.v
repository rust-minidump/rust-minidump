(* C12/FileProgProofs.v — the regenerated body of locate_file_internal's closure means FileModel.file_script. *)
From RM Require Import C12.Model C12.FileModel C12.FileProg C12.ProgModel C12.ProgProofs C12.ProgSource Gen.C12Program.
From Coq Require Import Lia.

Lemma servers_loop : forall (fk : fkey) (run : (fkey -> nat * bool) -> fst8 -> fres),
  (forall u n0, run u (n0, false) =
                if snd (u fk) then inl (n0 + fst (u fk), OOk) else inr (n0 + fst (u fk), false)) ->
  forall us n0,
  for_servers run us (n0, false) =
  (if snd (fetch_all us fk) then inl (n0 + fst (fetch_all us fk), OOk) else inr (n0 + fst (fetch_all us fk), false)).
Proof.
  intros fk run Hrun us. induction us as [|u r IH]; intro n0.
  - cbn. rewrite Nat.add_0_r. reflexivity.
  - cbn [for_servers fetch_all]. rewrite Hrun. destruct (u fk) as [n ok]. cbn [fst snd].
    destruct ok; [reflexivity|].
    fold (for_servers run). rewrite IH. destruct (fetch_all r fk) as [n' ok']. cbn [fst snd].
    rewrite Nat.add_assoc. reflexivity.
Qed.

Lemma canon_file_meaning : forall fc fk, file_meaning canon_file_body fc fk = Some (file_script fc fk).
Proof.
  intros fc fk. unfold file_meaning, canon_file_body, fexec_list, file_script.
  cbn [seqf fexec fst snd]. destruct (local_hit fc fk); [reflexivity|].
  destruct (has_lookup fc fk); [|reflexivity].
  rewrite (servers_loop fk).
  - destruct (fetch_all (servers fc) fk) as [n ok]. cbn [fst snd]. destruct ok; reflexivity.
  - intros u n0. cbn [fst snd]. destruct (u fk) as [n ok]. cbn [fst snd]. destruct ok; reflexivity.
Qed.

(* the regenerated statements (Gen/C12Program.src_file_body, translate/c12_program.py) *)
Lemma src_file_body_is_canon : src_file_body = canon_file_body.
Proof. reflexivity. Qed.

Lemma src_file_meaning : forall fc fk, file_meaning src_file_body fc fk = Some (file_script fc fk).
Proof. rewrite src_file_body_is_canon. exact canon_file_meaning. Qed.

(* a body without the early return of the fetch loop, and a configuration on which its answer differs from the
   source's (C12/Properties.v, c12_nonvacuous_file_closure) *)
Definition noreturn_body : list fins :=
  [FLocalLookupReturn; FIfLookup [FForServers [FFetchAwait]; FCabCompiledOut]; FNotFound].
Definition one_server : fconfig :=
  {| ftasks := [[(0, KSym)]]; local_hit := fun _ => false; has_lookup := fun _ => true; servers := [fun _ => (2, true)] |}.
