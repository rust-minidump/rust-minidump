(* C12/FileProofs.v — file keys are keys: the encoding is injective, and the closure of
   locate_file_internal only ever answers Ok or NotFound. *)
From Coq Require Import List Arith Bool Lia.
From RM Require Import C12.Model C12.FileModel C12.Proofs.
Import ListNotations.

Lemma dec_enc : forall fk, dec (enc fk) = fk.
Proof.
  intros [k kd]. unfold enc, dec. cbn [fst snd].
  assert (Hc : fkind_code kd < 3) by (destruct kd; cbn; lia).
  rewrite (Nat.mul_comm 3 k).
  rewrite Nat.div_add_l by lia. rewrite (Nat.div_small _ 3 Hc). rewrite Nat.add_0_r.
  rewrite Nat.add_comm, Nat.mod_add by lia. rewrite (Nat.mod_small _ 3 Hc).
  destruct kd; reflexivity.
Qed.

Lemma enc_inj : forall a b, enc a = enc b -> a = b.
Proof. intros a b H. rewrite <- (dec_enc a), <- (dec_enc b). now rewrite H. Qed.

Lemma file_script_answers : forall fc fk, snd (file_script fc fk) = OOk \/ snd (file_script fc fk) = ONotFound.
Proof.
  intros fc fk. unfold file_script. destruct (local_hit fc fk); [now left|].
  destruct (has_lookup fc fk); [|now right].
  destruct (fetch_all (servers fc) fk) as [n [|]]; [now left|now right].
Qed.

Lemma files_at_most_once : forall fc sched fk,
  supplier_calls (run (to_config fc) sched) (enc fk) <= 1.
Proof. intros. apply at_most_once. Qed.

