(* C12/ProgSource.v — the theorems of C12 for the interpreter running the program that translate/c12_program.py
   regenerates from the Rust source on every run (Gen/C12Program.v).  [src_is_canon] is the only place where the
   generated program meets the hand-written one: when an edit of CachedAsyncResult::get, of a closure or of an entry
   point changes the generated instruction lists, it fails and with it every lemma below (and the theorems of
   C12/Properties.v that are stated about [prun src_program]).
   The second half defines two programs the unchanged code does NOT have as its meaning (a retry inside the closure; a
   non-waiting probe in walk_frame); C12/Properties.v shows that the interpreter refutes the property on them. *)
From RM Require Import C12.Model C12.FileModel C12.FileProofs C12.ProgModel C12.ProgProofs Gen.C12Program.

Lemma src_is_canon : src_program = canon.
Proof. reflexivity. Qed.

Lemma src_refines : forall (full : bool) (pc : pconfig) (sched : list task),
  (full = true -> sym_only pc) -> psim full (prun src_program pc sched) (run (cfg pc) sched).
Proof. rewrite src_is_canon. exact prun_refines. Qed.

(* ---- HttpSymbolSupplier::locate_file as configurations of the same program ---- *)
Definition pc_of_fc (fc : fconfig) : pconfig :=
  {| ptasks := map (map (fun fk => (EFile, enc fk))) (ftasks fc); pbase := to_config fc |}.

Lemma src_files_same_outcome : forall (fc : fconfig) (sched : list task) (t : task) (i : nat) (k : key) (o : outcome),
  ptask_result (prun src_program (pc_of_fc fc) sched) t i = Some (k, o) ->
  o = snd (file_script fc (dec k)) /\ (o = OOk \/ o = ONotFound).
Proof.
  rewrite src_is_canon. intros fc sched t i k o H. destruct (p_same_outcome _ _ _ _ _ _ H) as [A _].
  cbn in A. split; [exact A|]. rewrite A. apply file_script_answers.
Qed.

(* ---- the ways into the slots ---- *)
From Coq Require Import String.
Open Scope string_scope.
(* get_symbols is reached from fill_symbol and walk_frame only, fill_symbol from get_symbol_at_address, the file slots
   from HttpSymbolSupplier::locate_file only (its locate_symbols does not go through them: no nested slot locks);
   nobody looks at an async mutex without waiting *)
Definition canon_ways : list (string * string * list string) := [
  ("lib.rs", "get_symbol_at_address", ["fill_symbol("]);
  ("lib.rs", "fill_symbol", ["get_symbols("; "fill_symbol("]);
  ("lib.rs", "walk_frame", ["get_symbols("]);
  ("lib.rs", "get_symbols", ["cache_default("]);
  ("http.rs", "locate_file_internal", ["cache_default("]);
  ("http.rs", "locate_file", ["locate_file_internal("])
].
(* ---- programs the unchanged code does not have ---- *)
(* a ParseError answer makes the closure ask the supplier again before the result is stored *)
Definition retry_program : program :=
  {| p_get := canon_get;
     p_sym_closure := [IRequestedInc; ISupplierAwait; IRetryIf OParse; IProcessedInc; IStatsNew; IStatsClassify;
                       ILeafKey; IStatsInsert; IReturnResult];
     p_file_closure := canon_file_closure; p_entry := canon_entry |}.
(* walk_frame looks at the slot with try_lock and gives up when it is locked *)
Definition probe_program : program :=
  {| p_get := canon_get; p_sym_closure := canon_sym_closure; p_file_closure := canon_file_closure;
     p_entry := fun e => match e with EWalk => [IProbeElseGet; IUseResult] | _ => canon_entry e end |}.
Definition one_parse : pconfig :=
  {| ptasks := [[(EFill, 0)]];
     pbase := {| tasks := []; susp := fun _ => 0; outc := fun _ => OParse; leaf := fun k => k |} |}.
Definition two_on_one : pconfig :=
  {| ptasks := [[(EFill, 0)]; [(EWalk, 0)]];
     pbase := {| tasks := []; susp := fun _ => 1; outc := fun _ => OOk; leaf := fun k => k |} |}.

(* the same schedule on the program of the source: both requesters get the supplier's single answer *)
Lemma probe_refuted_needs_the_probe :
  let s := prun src_program two_on_one [0; 1; 0; 1] in
  pall_done two_on_one s = true /\ psupplier_calls s 0 = 1 /\
  ptask_result s 0 0 = Some (0, OOk) /\ ptask_result s 1 0 = Some (0, OOk).
Proof. vm_compute. repeat split. Qed.
