(* C12/Proofs.v — safety: the invariant of the lookup cache and what follows from it. *)
From Coq Require Import List Arith Bool Lia Permutation.
From RM Require Import Base.ListFacts C12.Model.
Import ListNotations.

Lemma upd_same : forall A (f : nat -> A) i v, upd f i v i = v.
Proof. intros. unfold upd. now rewrite Nat.eqb_refl. Qed.

Lemma upd_other : forall A (f : nat -> A) i v j, j <> i -> upd f i v j = f j.
Proof. intros A f i v j Hne. unfold upd. destruct (Nat.eqb_spec j i); [contradiction|reflexivity]. Qed.

Lemma upd_cases : forall A (f : nat -> A) i v j,
  (j = i /\ upd f i v j = v) \/ (j <> i /\ upd f i v j = f j).
Proof.
  intros A f i v j. destruct (Nat.eq_dec j i) as [E|N].
  - left. subst. split; [reflexivity|apply upd_same].
  - right. split; [assumption|now apply upd_other].
Qed.

Lemma upd_upd : forall A (f : nat -> A) i v w x, upd (upd f i v) i w x = upd f i w x.
Proof. intros. unfold upd. destruct (Nat.eqb x i); reflexivity. Qed.

Lemma upd_id : forall A (f : nat -> A) i x, upd f i (f i) x = f x.
Proof. intros. unfold upd. destruct (Nat.eqb_spec x i); [now subst|reflexivity]. Qed.

Lemma upd_ext : forall A (f g : nat -> A) i v, (forall x, f x = g x) -> forall x, upd f i v x = upd g i v x.
Proof. intros A f g i v H x. unfold upd. destruct (Nat.eqb x i); [reflexivity|apply H]. Qed.

Definition is_some {A} (o : option A) : bool := match o with Some _ => true | None => false end.

Lemma filter_flip : forall (l : list nat) (f g : nat -> bool) k,
  NoDup l -> In k l -> f k = false -> g k = true -> (forall x, x <> k -> g x = f x) ->
  length (filter g l) = S (length (filter f l)).
Proof.
  induction l as [|a l IH]; intros f g k Hnd Hin Hf Hg Hext; [destruct Hin|].
  inversion Hnd as [|a' l' Hnotin Hnd']; subst.
  destruct (Nat.eq_dec a k) as [E|N].
  - subst a. cbn [filter]. rewrite Hf, Hg. cbn [length]. f_equal.
    f_equal. apply filter_ext_in. intros x Hx. apply Hext. intro E; subst; contradiction.
  - destruct Hin as [E|Hin]; [contradiction|].
    cbn [filter]. rewrite (Hext a N).
    destruct (f a); cbn [length]; [f_equal|]; now apply (IH f g k).
Qed.

Lemma NoDup_app_disjoint : forall (l1 l2 : list nat),
  NoDup l1 -> NoDup l2 -> (forall k, In k l1 -> In k l2 -> False) -> NoDup (l1 ++ l2).
Proof.
  induction l1 as [|x r IH]; intros l2 H1 H2 D; cbn; [exact H2|].
  inversion H1; subst. constructor.
  - intro X. apply in_app_or in X. destruct X as [X|X]; [contradiction|]. apply (D x); [left; reflexivity|exact X].
  - apply IH; auto. intros k A B. apply (D k); [right; exact A|exact B].
Qed.

Lemma NoDup_snoc : forall (l : list nat) x, NoDup l -> ~ In x l -> NoDup (l ++ [x]).
Proof.
  intros l x Hnd Hx. apply NoDup_app_disjoint; [exact Hnd|repeat constructor; intros []|].
  intros k A [<-|[]]. exact (Hx A).
Qed.

Lemma in_nth_concat : forall (l : list (list key)) t (k : key), In k (nth t l []) -> In k (concat l).
Proof.
  intros l t k H. destruct (Nat.lt_ge_cases t (length l)) as [Hlt|Hge].
  - apply in_concat. exists (nth t l []). split; [now apply nth_In|assumption].
  - rewrite nth_overflow in H by assumption. destruct H.
Qed.

Section WithConfig.
Variable c : config.

(* task h is inside the supplier call for key k (and therefore holds k's guard) *)
Definition holds (p : task -> list key * phase) (h : task) (k : key) : Prop :=
  exists rest m, p h = (k :: rest, Sup m).

Record Inv (p : task -> list key * phase) (s : shared) : Prop := {
  inv_lock    : forall k h, lock s k = Some h <-> holds p h k;
  inv_noval   : forall k h, lock s k = Some h -> value s k = None;
  inv_val     : forall k o, value s k = Some o -> o = outc c k;
  inv_calls   : forall k, In k (calls s) <-> (lock s k <> None \/ value s k <> None);
  inv_nodup   : NoDup (calls s);
  inv_caller  : forall k, In k (calls s) ->
                  (exists h, holds p h k) \/ (exists u o, In (k, o) (results s u));
  inv_res     : forall t k o, In (k, o) (results s t) -> value s k = Some o;
  inv_pos     : forall t, map fst (results s t) ++ fst (p t) = nth t (tasks c) [];
  inv_req     : req s = length (calls s);
  inv_proc    : proc s = length (filter (fun k => is_some (value s k)) (calls s))
}.

Lemma inv_creq : forall p s, Inv p s -> forall k, In k (calls s) -> In k (concat (tasks c)).
Proof.
  intros p s HI k Hk. destruct (inv_caller _ _ HI k Hk) as [(h & rest & m & Hh)|(u & o & R)].
  - apply (in_nth_concat _ h). rewrite <- (inv_pos _ _ HI h), Hh. apply in_or_app. right. now left.
  - apply (in_nth_concat _ u). rewrite <- (inv_pos _ _ HI u). apply in_or_app. left.
    apply in_map_iff. now exists (k, o).
Qed.

Lemma holds_ext : forall p p' h k, (forall x, p x = p' x) -> holds p h k -> holds p' h k.
Proof. intros p p' h k E (rest & m & H). exists rest, m. now rewrite <- E. Qed.

Lemma Inv_ext : forall p p' s, (forall x, p x = p' x) -> Inv p s -> Inv p' s.
Proof.
  intros p p' s E [H1 H2 H3 H4 H5 Hq H6 H7 H8 H9].
  assert (Hc : forall k, In k (calls s) -> (exists h, holds p' h k) \/ (exists u o, In (k, o) (results s u))).
  { intros k Hk. destruct (Hq k Hk) as [(h & Hh)|R]; [left; exists h; now apply (holds_ext p p')|now right]. }
  split; try assumption.
  - intros k h. rewrite H1. split; apply holds_ext; [assumption|]. intro x; symmetry; apply E.
  - intros t. rewrite <- E. apply H7.
Qed.

Lemma holds_upd : forall p t x h k,
  holds (upd p t x) h k <-> ((h = t /\ exists rest m, x = (k :: rest, Sup m)) \/ (h <> t /\ holds p h k)).
Proof.
  intros p t x h k. unfold holds.
  destruct (upd_cases _ p t x h) as [[E1 E2]|[E1 E2]]; rewrite E2; split.
  - intros H. left. now split.
  - intros [[_ H]|[N _]]; [assumption|contradiction].
  - intros H. right. now split.
  - intros [[E _]|[_ H]]; [contradiction|assumption].
Qed.

Definition not_sup (ph : phase) : Prop := match ph with Sup _ => False | _ => True end.

(* a task outside the supplier holds nothing; changing its non-Sup phase or its list is
   invisible to the lock part of the invariant *)
Lemma holds_upd_nosup : forall p t rem ph rem' ph' h k,
  p t = (rem, ph) -> not_sup ph -> not_sup ph' ->
  (holds (upd p t (rem', ph')) h k <-> holds p h k).
Proof.
  intros p t rem ph rem' ph' h k Hp Hn Hn'. rewrite holds_upd. split.
  - intros [[_ (rest & m & E)]|[_ H]]; [|assumption].
    inversion E; subst. destruct Hn'.
  - intros H. destruct (Nat.eq_dec h t) as [E|N]; [|right; now split].
    subst h. destruct H as (rest & m & E). rewrite Hp in E. inversion E; subst. destruct Hn.
Qed.

(* a step that changes only the phase of t and nobody's hold *)
Lemma step_same : forall p s t rem ph ph',
  p t = (rem, ph) -> (forall h k, holds (upd p t (rem, ph')) h k <-> holds p h k) ->
  Inv p s -> Inv (upd p t (rem, ph')) s.
Proof.
  intros p s t rem ph ph' Hp Hh [H1 H2 H3 H4 H5 Hq H6 H7 H8 H9].
  split; try assumption.
  - intros k h. rewrite H1. symmetry. apply Hh.
  - intros k Hk. destruct (Hq k Hk) as [(h & H)|R]; [left; exists h; now apply Hh|now right].
  - intros t'. destruct (upd_cases _ p t (rem, ph') t') as [[E1 E2]|[E1 E2]]; rewrite E2; [|apply H7].
    subst t'. specialize (H7 t). now rewrite Hp in H7.
Qed.

(* the supplier answers Pending once more *)
Lemma step_tick : forall p s t k rest m m',
  p t = (k :: rest, Sup m) -> Inv p s -> Inv (upd p t (k :: rest, Sup m')) s.
Proof.
  intros p s t k rest m m' Hp. apply (step_same p s t _ _ _ Hp). intros h k'. rewrite holds_upd. split.
  - intros [[E (r & m0 & X)]|[_ H]]; [|assumption]. inversion X; subst. now exists r, m.
  - intros H. destruct (Nat.eq_dec h t) as [E|N]; [|right; now split].
    left. split; [assumption|]. subst h. destruct H as (r & m0 & E). rewrite Hp in E. inversion E; subst. now exists r, m'.
Qed.

(* blocked on a held lock *)
Lemma step_wait : forall p s t k rest ph,
  p t = (k :: rest, ph) -> not_sup ph -> Inv p s -> Inv (upd p t (k :: rest, Wait)) s.
Proof.
  intros p s t k rest ph Hp Hn. apply (step_same p s t _ _ _ Hp). intros h k'.
  now apply (holds_upd_nosup p t (k :: rest) ph).
Qed.

(* the value is already there *)
Lemma step_hit : forall p s t k rest ph o,
  p t = (k :: rest, ph) -> not_sup ph -> value s k = Some o ->
  Inv p s -> Inv (upd p t (rest, Start)) (hit t k o s).
Proof.
  intros p s t k rest ph o Hp Hn Hv [H1 H2 H3 H4 H5 Hq H6 H7 H8 H9].
  assert (Hc : forall k0, In k0 (calls s) ->
            (exists h, holds (upd p t (rest, Start)) h k0) \/
            (exists u o0, In (k0, o0) (upd (results s) t (results s t ++ [(k, o)]) u))).
  { intros k0 Hk. destruct (Hq k0 Hk) as [(h & Hh)|(u & o0 & R)].
    - left. exists h. now apply (holds_upd_nosup p t (k :: rest) ph).
    - right. exists u, o0. destruct (upd_cases _ (results s) t (results s t ++ [(k, o)]) u) as [[E1 E2]|[E1 E2]]; rewrite E2.
      + subst u. apply in_or_app. now left.
      + assumption. }
  split; cbn [hit lock value calls req proc stats results]; try assumption.
  - intros k' h. rewrite H1. symmetry. now apply (holds_upd_nosup p t (k :: rest) ph).
  - intros t' k' o'. destruct (upd_cases _ (results s) t (results s t ++ [(k, o)]) t') as [[E1 E2]|[E1 E2]]; rewrite E2.
    + intros Hin. apply in_app_or in Hin. destruct Hin as [Hin|[Hin|[]]].
      * subst t'. now apply (H6 t).
      * inversion Hin; subst. assumption.
    + apply H6.
  - intros t'.
    destruct (upd_cases _ (results s) t (results s t ++ [(k, o)]) t') as [[E1 E2]|[E1 E2]]; rewrite E2;
    destruct (upd_cases _ p t (rest, Start) t') as [[F1 F2]|[F1 F2]]; rewrite F2; try contradiction.
    + subst t'. cbn [fst]. rewrite map_app. cbn [map fst]. rewrite <- app_assoc.
      specialize (H7 t). now rewrite Hp in H7.
    + apply H7.
Qed.

(* guard acquired, nothing cached: the supplier is called *)
Lemma step_begin : forall p s t k rest ph m,
  p t = (k :: rest, ph) -> not_sup ph -> lock s k = None -> value s k = None ->
  Inv p s -> Inv (upd p t (k :: rest, Sup m)) (begin_call t k s).
Proof.
  intros p s t k rest ph m Hp Hn Hl Hv [H1 H2 H3 H4 H5 Hq H6 H7 H8 H9].
  assert (Hc : forall k0, In k0 (calls s ++ [k]) ->
            (exists h, holds (upd p t (k :: rest, Sup m)) h k0) \/ (exists u o, In (k0, o) (results s u))).
  { intros k0 Hk. apply in_app_or in Hk. destruct Hk as [Hk|[E|[]]].
    - destruct (Hq k0 Hk) as [(h & Hh)|R]; [left|now right].
      exists h. apply holds_upd. right. split; [|assumption].
      intro; subst h. destruct Hh as (r & m0 & E). rewrite Hp in E. inversion E; subst. destruct Hn.
    - subst k0. left. exists t. apply holds_upd. left. split; [reflexivity|]. now exists rest, m. }
  split; cbn [begin_call lock value calls req proc stats results]; try assumption.
  - intros k' h. rewrite holds_upd.
    destruct (upd_cases _ (lock s) k (Some t) k') as [[E1 E2]|[E1 E2]]; rewrite E2.
    + subst k'. split.
      * intros E. inversion E; subst. left. split; [reflexivity|]. now exists rest, m.
      * intros [[E _]|[N H]]; [now subst|].
        apply H1 in H. rewrite Hl in H. discriminate.
    + rewrite H1. split.
      * intros H. destruct (Nat.eq_dec h t) as [E|N]; [|right; now split].
        subst h. destruct H as (r & m0 & E). rewrite Hp in E. inversion E; subst. destruct Hn.
      * intros [[_ (r & m0 & E)]|[_ H]]; [|assumption]. inversion E; subst. contradiction.
  - intros k' h. destruct (upd_cases _ (lock s) k (Some t) k') as [[E1 E2]|[E1 E2]]; rewrite E2.
    + subst k'. intros _. assumption.
    + apply H2.
  - intros k'. rewrite in_app_iff, H4. cbn [In].
    destruct (upd_cases _ (lock s) k (Some t) k') as [[E1 E2]|[E1 E2]]; rewrite E2.
    + subst k'. split; [intros _; left; discriminate|intros _; right; now left].
    + split.
      * intros [H|[E|[]]]; [assumption|]. now subst.
      * intros H. now left.
  - apply NoDup_snoc; [assumption|].
    intros Hx. apply H4 in Hx. rewrite Hl, Hv in Hx. destruct Hx as [X|X]; now apply X.
  - intros t'. destruct (upd_cases _ p t (k :: rest, Sup m) t') as [[E1 E2]|[E1 E2]]; rewrite E2.
    + subst t'. specialize (H7 t). now rewrite Hp in H7.
    + apply H7.
  - rewrite app_length. cbn [length]. lia.
  - rewrite filter_app, app_length. cbn [filter]. rewrite Hv. cbn [is_some length]. lia.
Qed.

(* the supplier answers: value stored, guard released, result returned *)
Lemma step_complete : forall p s t k rest m,
  p t = (k :: rest, Sup m) -> Inv p s -> Inv (upd p t (rest, Start)) (complete c t k s).
Proof.
  intros p s t k rest m Hp [H1 H2 H3 H4 H5 Hq H6 H7 H8 H9].
  assert (Hl : lock s k = Some t) by (apply H1; now exists rest, m).
  assert (Hv : value s k = None) by (now apply (H2 k t)).
  assert (Hc : forall k0, In k0 (calls s) ->
            (exists h, holds (upd p t (rest, Start)) h k0) \/
            (exists u o, In (k0, o) (upd (results s) t (results s t ++ [(k, outc c k)]) u))).
  { assert (Hmono : forall u k0 o, In (k0, o) (results s u) ->
                      In (k0, o) (upd (results s) t (results s t ++ [(k, outc c k)]) u)).
    { intros u k0 o R. destruct (upd_cases _ (results s) t (results s t ++ [(k, outc c k)]) u) as [[E1 E2]|[E1 E2]]; rewrite E2.
      - subst u. apply in_or_app. now left.
      - assumption. }
    intros k0 Hk. destruct (Hq k0 Hk) as [(h & Hh)|(u & o & R)].
    - destruct (Nat.eq_dec h t) as [E|N].
      + subst h. destruct Hh as (r & m0 & E). rewrite Hp in E. inversion E; subst.
        right. exists t, (outc c k0). rewrite upd_same. apply in_or_app. right. now left.
      + left. exists h. apply holds_upd. right. now split.
    - right. exists u, o. now apply Hmono. }
  split; cbn [complete lock value calls req proc stats results]; try assumption.
  - intros k' h. rewrite holds_upd.
    destruct (upd_cases _ (lock s) k None k') as [[E1 E2]|[E1 E2]]; rewrite E2.
    + subst k'. split; [discriminate|].
      intros [[_ (r & m0 & E)]|[N H]]; [inversion E|].
      apply H1 in H. rewrite Hl in H. inversion H; subst. contradiction.
    + rewrite H1. split.
      * intros H. destruct (Nat.eq_dec h t) as [E|N]; [|right; now split].
        subst h. destruct H as (r & m0 & E). rewrite Hp in E. inversion E; subst. contradiction.
      * intros [[_ (r & m0 & E)]|[_ H]]; [inversion E|assumption].
  - intros k' h. destruct (upd_cases _ (lock s) k None k') as [[E1 E2]|[E1 E2]]; rewrite E2; [discriminate|].
    intros H. rewrite upd_other by assumption. now apply (H2 k' h).
  - intros k' o. destruct (upd_cases _ (value s) k (Some (outc c k)) k') as [[E1 E2]|[E1 E2]]; rewrite E2.
    + subst k'. intros E. now inversion E.
    + apply H3.
  - intros k'. rewrite H4.
    destruct (upd_cases _ (lock s) k None k') as [[E1 E2]|[E1 E2]]; rewrite E2.
    + subst k'. rewrite upd_same. split; [intros _; right; discriminate|intros _; left; rewrite Hl; discriminate].
    + now rewrite upd_other by assumption.
  - intros t' k' o.
    destruct (upd_cases _ (results s) t (results s t ++ [(k, outc c k)]) t') as [[E1 E2]|[E1 E2]]; rewrite E2.
    + intros Hin. apply in_app_or in Hin. destruct Hin as [Hin|[Hin|[]]].
      * subst t'. apply H6 in Hin. destruct (Nat.eq_dec k' k) as [E|N].
        -- subst k'. rewrite Hv in Hin. discriminate.
        -- now rewrite upd_other.
      * inversion Hin; subst. apply upd_same.
    + intros Hin. apply H6 in Hin. destruct (Nat.eq_dec k' k) as [E|N].
      * subst k'. rewrite Hv in Hin. discriminate.
      * now rewrite upd_other.
  - intros t'.
    destruct (upd_cases _ (results s) t (results s t ++ [(k, outc c k)]) t') as [[E1 E2]|[E1 E2]]; rewrite E2;
    destruct (upd_cases _ p t (rest, Start) t') as [[F1 F2]|[F1 F2]]; rewrite F2; try contradiction.
    + subst t'. cbn [fst]. rewrite map_app. cbn [map fst]. rewrite <- app_assoc.
      specialize (H7 t). now rewrite Hp in H7.
    + apply H7.
  - rewrite H9. symmetry.
    apply (filter_flip (calls s) (fun k0 => is_some (value s k0))
                       (fun k0 => is_some (upd (value s) k (Some (outc c k)) k0)) k).
    + assumption.
    + apply H4. left. rewrite Hl. discriminate.
    + now rewrite Hv.
    + now rewrite upd_same.
    + intros x Hx. now rewrite upd_other.
Qed.

(* the graph of [advance]: the shape of every induction over one poll *)
Inductive adv (t : task) : list key -> phase -> shared -> list key * phase * shared -> Prop :=
| A_done : forall ph s, adv t [] ph s ([], ph, s)
| A_tick : forall k rest m s, adv t (k :: rest) (Sup (S m)) s (k :: rest, Sup m, s)
| A_complete : forall k rest s r, adv t rest Start (complete c t k s) r -> adv t (k :: rest) (Sup 0) s r
| A_wait : forall k rest ph s h, not_sup ph -> lock s k = Some h -> adv t (k :: rest) ph s (k :: rest, Wait, s)
| A_hit : forall k rest ph s o r, not_sup ph -> lock s k = None -> value s k = Some o ->
    adv t rest Start (hit t k o s) r -> adv t (k :: rest) ph s r
| A_call : forall k rest ph s r, not_sup ph -> lock s k = None -> value s k = None -> susp c k = 0 ->
    adv t rest Start (complete c t k (begin_call t k s)) r -> adv t (k :: rest) ph s r
| A_begin : forall k rest ph s m, not_sup ph -> lock s k = None -> value s k = None -> susp c k = S m ->
    adv t (k :: rest) ph s (k :: rest, Sup m, begin_call t k s).

Lemma advance_adv : forall t rem ph s, adv t rem ph s (advance c t rem ph s).
Proof.
  intros t rem. induction rem as [|k rest IH]; intros ph s; [constructor|]. cbn [advance].
  destruct ph as [| |[|m]]; try (constructor; apply IH);
    (destruct (lock s k) eqn:Hl; [econstructor; [exact I|exact Hl]|]; destruct (value s k) eqn:Hv;
     [eapply A_hit; eauto; exact I|]; destruct (susp c k) eqn:Hs; [apply A_call|apply A_begin]; auto; exact I).
Qed.

Lemma advance_inv : forall t rem ph s p rem' ph' s',
  p t = (rem, ph) -> Inv p s -> advance c t rem ph s = (rem', ph', s') ->
  Inv (upd p t (rem', ph')) s'.
Proof.
  intros t rem ph s p rem' ph' s' Hp HI Ha. pose proof (advance_adv t rem ph s) as A. rewrite Ha in A. clear Ha.
  revert p Hp HI. remember (rem', ph', s') as r eqn:Er.
  induction A; intros p Hp HI; try (injection Er as <- <- <-).
  - apply (Inv_ext p); [|assumption]. intro x. rewrite <- Hp. symmetry. apply upd_id.
  - now apply (step_tick p s t k rest (S m) m).
  - apply (Inv_ext (upd (upd p t (rest, Start)) t (rem', ph'))); [intro x; apply upd_upd|].
    apply (IHA Er); [apply upd_same|now apply (step_complete p s t k rest 0)].
  - now apply (step_wait p s t k rest ph).
  - apply (Inv_ext (upd (upd p t (rest, Start)) t (rem', ph'))); [intro x; apply upd_upd|].
    apply (IHA Er); [apply upd_same|now apply (step_hit p s t k rest ph o)].
  - apply (Inv_ext (upd (upd p t (rest, Start)) t (rem', ph'))); [intro x; apply upd_upd|].
    apply (IHA Er); [apply upd_same|].
    apply (Inv_ext (upd (upd p t (k :: rest, Sup 0)) t (rest, Start))); [intro x; apply upd_upd|].
    apply (step_complete _ _ t k rest 0); [apply upd_same|now apply (step_begin p s t k rest ph 0)].
  - now apply (step_begin p s t k rest ph m).
Qed.

Definition SInv (s : state) : Prop := Inv (pcs s) (sh s).

Lemma poll_inv : forall t s, SInv s -> SInv (poll c t s).
Proof.
  intros t s HI. unfold poll, SInv.
  destruct (pcs s t) as [rem ph] eqn:Hp.
  destruct (advance c t rem ph (sh s)) as [[rem' ph'] s'] eqn:Ha.
  cbn [pcs sh]. now apply (advance_inv t rem ph (sh s)).
Qed.

Lemma init_inv : SInv (init c).
Proof.
  unfold SInv, init. cbn [pcs sh].
  split; cbn [lock value calls req proc stats results]; try (intros; discriminate); try reflexivity.
  - intros k h. split; [discriminate|]. intros (rest & m & E). inversion E.
  - intros k. split; [intros []|]. intros [H|H]; now apply H.
  - constructor.
  - intros k [].
  - intros t k o [].
Qed.

Lemma run_from_inv : forall sched s, SInv s -> SInv (run_from c s sched).
Proof.
  induction sched as [|t sched IH]; intros s HI; [assumption|].
  cbn [run_from fold_left]. apply IH. now apply poll_inv.
Qed.

Lemma run_inv : forall sched, SInv (run c sched).
Proof. intros. apply run_from_inv, init_inv. Qed.

(* ---------- consequences, for any state that satisfies the invariant ---------- *)
Lemma inv_at_most_once : forall s k, SInv s -> supplier_calls s k <= 1.
Proof.
  intros s k HI. unfold supplier_calls.
  pose proof (inv_nodup _ _ HI) as H.
  rewrite (NoDup_count_occ Nat.eq_dec) in H. apply H.
Qed.

Lemma inv_same_outcome : forall s t i k o, SInv s ->
  task_result s t i = Some (k, o) ->
  o = outc c k /\ nth_error (nth t (tasks c) []) i = Some k.
Proof.
  intros s t i k o HI H. unfold task_result in H. split.
  - apply (inv_val _ _ HI). apply (inv_res _ _ HI t). now apply nth_error_In with i.
  - rewrite <- (inv_pos _ _ HI t).
    assert (Hm : nth_error (map fst (results (sh s) t)) i = Some k).
    { rewrite nth_error_map, H. reflexivity. }
    rewrite nth_error_app1; [assumption|]. apply nth_error_Some. rewrite Hm. discriminate.
Qed.

Lemma all_done_rem : forall s, all_done c s = true -> forall t, t < ntasks c -> fst (pcs s t) = [].
Proof.
  intros s H t Ht. unfold all_done in H. rewrite forallb_forall in H.
  specialize (H t). unfold task_done in H. destruct (fst (pcs s t)); [reflexivity|].
  assert (In t (seq 0 (ntasks c))) by (apply in_seq; lia). now apply H in H0.
Qed.

Lemma rem_nil_beyond : forall s t, SInv s -> ntasks c <= t -> fst (pcs s t) = [].
Proof.
  intros s t HI Ht. pose proof (inv_pos _ _ HI t) as H.
  rewrite (nth_overflow (tasks c) []) in H by assumption.
  now apply app_eq_nil in H.
Qed.

Lemma inv_rem_nil : forall s t, SInv s -> all_done c s = true -> fst (pcs s t) = [].
Proof.
  intros s t HI Hd.
  destruct (Nat.lt_ge_cases t (ntasks c)); [now apply all_done_rem|now apply rem_nil_beyond].
Qed.

Lemma inv_results_complete : forall s t, SInv s -> all_done c s = true ->
  map fst (results (sh s) t) = nth t (tasks c) [].
Proof.
  intros s t HI Hd. rewrite <- (inv_pos _ _ HI t).
  rewrite (inv_rem_nil s t HI Hd). now rewrite app_nil_r.
Qed.

(* at quiescence nobody is inside the supplier, hence no lock is held *)
Lemma quiescent_unlocked : forall s, SInv s -> all_done c s = true -> forall k, lock (sh s) k = None.
Proof.
  intros s HI Hd k. destruct (lock (sh s) k) as [h|] eqn:E; [|reflexivity].
  apply (inv_lock _ _ HI) in E. destruct E as (rest & m & E).
  pose proof (inv_rem_nil s h HI Hd) as X. rewrite E in X. discriminate.
Qed.

Lemma requested_called : forall s, SInv s -> all_done c s = true ->
  forall k, In k (concat (tasks c)) -> In k (calls (sh s)).
Proof.
  intros s HI Hd k Hk. apply in_concat in Hk. destruct Hk as (l & Hl & Hkl).
  destruct (In_nth _ _ [] Hl) as (t & Ht & Hnth).
  pose proof (inv_results_complete s t HI Hd) as E. rewrite Hnth in E. rewrite <- E in Hkl. apply in_map_iff in Hkl.
  destruct Hkl as ([k' o] & Ek & Hin). cbn [fst] in Ek. subst k'.
  apply (inv_calls _ _ HI). right. rewrite (inv_res _ _ HI t k o Hin). discriminate.
Qed.

Lemma inv_counters_bounded : forall s, SInv s ->
  processed s <= requested s /\ requested s <= distinct_keys c.
Proof.
  intros s HI. unfold processed, requested, distinct_keys.
  rewrite (inv_proc _ _ HI), (inv_req _ _ HI). split.
  - apply filter_length_le.
  - apply NoDup_incl_length; [apply (inv_nodup _ _ HI)|].
    intros k Hk. apply nodup_In. now apply (inv_creq _ _ HI).
Qed.

Lemma inv_calls_perm : forall s, SInv s -> all_done c s = true ->
  Permutation (calls (sh s)) (nodup Nat.eq_dec (concat (tasks c))).
Proof.
  intros s HI Hd. apply NoDup_Permutation.
  - apply (inv_nodup _ _ HI).
  - apply NoDup_nodup.
  - intros k. rewrite nodup_In. split; [apply (inv_creq _ _ HI)|now apply requested_called].
Qed.

Lemma inv_counters_quiescent : forall s, SInv s -> all_done c s = true ->
  requested s = distinct_keys c /\ processed s = distinct_keys c.
Proof.
  intros s HI Hd. unfold processed, requested, distinct_keys.
  pose proof (Permutation_length (inv_calls_perm s HI Hd)) as Hlen.
  rewrite (inv_proc _ _ HI), (inv_req _ _ HI). split; [assumption|].
  rewrite filter_all; [assumption|].
  intros k Hk. apply (inv_calls _ _ HI) in Hk.
  rewrite (quiescent_unlocked _ HI Hd k) in Hk.
  destruct Hk as [X|X]; [now elim X|]. destruct (value (sh s) k); [reflexivity|now elim X].
Qed.

(* at quiescence every requested key was fetched exactly once *)
Lemma inv_exactly_once : forall s k, SInv s -> all_done c s = true ->
  In k (concat (tasks c)) -> supplier_calls s k = 1.
Proof.
  intros s k HI Hd Hk. unfold supplier_calls.
  apply NoDup_count_occ'; [apply (inv_nodup _ _ HI)|now apply requested_called].
Qed.

(* ---------- for the states of runs ---------- *)
Lemma at_most_once : forall sched k, supplier_calls (run c sched) k <= 1.
Proof. intros. apply inv_at_most_once, run_inv. Qed.

Lemma same_outcome : forall sched t i k o,
  task_result (run c sched) t i = Some (k, o) ->
  o = outc c k /\ nth_error (nth t (tasks c) []) i = Some k.
Proof. intros sched t i k o. apply inv_same_outcome, run_inv. Qed.

Lemma results_complete : forall sched t,
  all_done c (run c sched) = true -> map fst (results (sh (run c sched)) t) = nth t (tasks c) [].
Proof. intros sched t. apply inv_results_complete, run_inv. Qed.

Lemma counters_bounded : forall sched,
  processed (run c sched) <= requested (run c sched) /\ requested (run c sched) <= distinct_keys c.
Proof. intros. apply inv_counters_bounded, run_inv. Qed.

Lemma counters_quiescent : forall sched, all_done c (run c sched) = true ->
  requested (run c sched) = distinct_keys c /\ processed (run c sched) = distinct_keys c.
Proof. intros sched. apply inv_counters_quiescent, run_inv. Qed.

Lemma exactly_once_quiescent : forall sched k, all_done c (run c sched) = true ->
  In k (concat (tasks c)) -> supplier_calls (run c sched) k = 1.
Proof. intros sched k. apply inv_exactly_once, run_inv. Qed.

End WithConfig.
