(* C12/ProgFair.v — fairness implies termination at INSTRUCTION granularity: if every window of T
   consecutive instruction steps of the schedule contains every task, all tasks of the canonical program have finished
   after T * imu(initial state) steps.  (A window in which nobody progresses leaves the shared state unchanged, so the
   task that was not waiting for a held lock at its beginning is still not waiting when its turn comes.) *)
From RM Require Import C12.Model C12.Proofs C12.Progress C12.ProgModel C12.ProgProofs C12.ProgFine C12.ProgMeasure.
From Coq Require Import Lia.

Section Fair.
Variable pc : pconfig.
Local Notation c := (cfg pc).
Local Notation n := (length (ptasks pc)).

(* what the steps keep: the invariant, and that ids beyond the configuration have nothing to do *)
Definition RS (s : pstate) : Prop := GI c (allkeys pc) s /\ (forall u, n <= u -> fst (fst (ppcs s u)) = []).
Definition prun_steps (s : pstate) (ms : list task) : pstate := fold_left (fun s t => pmstep canon c t s) ms s.

Lemma rs_step : forall s t, RS s -> RS (pmstep canon c t s).
Proof. intros s t [G R]. split; [apply gi_pmstep; exact G|apply pmstep_range; exact R]. Qed.
Lemma rs_steps : forall ms s, RS s -> RS (prun_steps s ms).
Proof. induction ms as [|t r IH]; intros s H; cbn; [exact H|]. apply IH. apply rs_step. exact H. Qed.
Lemma rs_init : RS (pinit pc).
Proof. split; [apply gi_init|]. intros u Hu. cbn. apply nth_overflow. exact Hu. Qed.

(* a task is enabled when it is unfinished and not waiting for a held lock; it stays so while the steps of the others
   leave the measure, hence the shared state, as it is *)
Definition enabled (s : pstate) (t : task) : Prop := blocked s t = false /\ ptask_done s t = false.

Lemma enabled_keep : forall t t' s, RS s -> enabled s t -> t' <> t ->
  imu c n (pmstep canon c t' s) = imu c n s -> enabled (pmstep canon c t' s) t.
Proof.
  intros t t' s [G R] Hen Hne Heq.
  assert (Sh : psh (pmstep canon c t' s) = psh s).
  { destruct (blocked s t') eqn:B; [apply (blocked_step pc s G R t' B)|].
    destruct (ptask_done s t') eqn:D; [rewrite (done_step pc s t' D); reflexivity|].
    pose proof (progress_step pc s G R t' B D). lia. }
  unfold enabled, blocked, ptask_done in *. rewrite pmstep_other, Sh by auto. exact Hen.
Qed.

Lemma wi_pos : forall k f i, 1 <= wi c k f i.
Proof. intros k f i. destruct i; cbn; try lia. destruct e; lia. Qed.

Lemma imu_zero_done : forall s, RS s -> imu c n s = 0 -> pall_done pc s = true.
Proof.
  intros s [G R] H. unfold pall_done. apply forallb_forall. intros t Hin. apply in_seq in Hin.
  unfold ptask_done. destruct (fst (fst (ppcs s t))) eqn:E; [reflexivity|]. exfalso.
  assert (Z : tmu c (ppcs s t) = 0) by (apply (proj1 (sum_upto_zero n (fun u => tmu c (ppcs s u))) H); lia).
  pose proof (gi_local G t) as L. destruct (ppcs s t) as [[rem kont] ll]. cbn in E. subst rem.
  destruct l as [e k]. cbn in L, Z. destruct L as [->|(Hin2 & _)].
  - cbn in Z. unfold w0 in Z. destruct e; cbn in Z; lia.
  - destruct kont as [|i more]; [destruct (is_file e); cbn in Hin2; intuition discriminate|].
    cbn in Z. unfold wt, wl in Z. cbn in Z. pose proof (wi_pos k (fcls ll) i). lia.
Qed.

Lemma done_imu_zero : forall s, RS s -> pall_done pc s = true -> imu c n s = 0.
Proof.
  intros s [G R] H. unfold imu. apply sum_upto_zero. intros u _. pose proof (pall_done_rem pc s R H u) as Ru.
  destruct (ppcs s u) as [[rem kont] l]. cbn in Ru. subst rem. reflexivity.
Qed.

Theorem pm_fair_finishes : forall T ms,
  fair n T ms -> T * imu c n (pinit pc) <= length ms -> pall_done pc (pmrun canon pc ms) = true.
Proof.
  intros T ms Hfair Hlen. apply imu_zero_done; [apply rs_steps, rs_init|].
  refine (fair_terminates pstate (pmstep canon c) RS (imu c n) enabled n (fun t s => rs_step s t) _ _ enabled_keep _
            T ms (pinit pc) rs_init Hfair Hlen).
  - intros t s [G R]. apply (measure_monotone pc s G R).
  - intros t s [G R] [B D]. apply (progress_step pc s G R t B D).
  - intros s H NZ. destruct (pall_done pc s) eqn:Hd; [elim NZ; apply (done_imu_zero s H Hd)|].
    destruct (no_deadlock_gen _ _ pc s (proj1 H) (proj2 H) Hd) as (t & Ht & Hnd & Hnb). exists t. split; [exact Ht|split; assumption].
Qed.
End Fair.

(* the bound is the measure of the initial state: 17 / 17 / 18 / 10 instructions per fill_symbol / walk_frame /
   get_symbol_at_address / locate_file lookup plus the scripted suspensions of its key *)
Lemma imu_two_fill : imu (cfg two_fill) 2 (pinit two_fill) = 34.
Proof. reflexivity. Qed.
