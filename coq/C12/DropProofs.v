(* C12/DropProofs.v — dropping a requester that waits for a lock loses no wake-up and no
   request of the remaining tasks.  Goes beyond C12's quantifier (cancellation is excluded there). *)
From Coq Require Import List Arith Bool Lia.
From RM Require Import C12.Model C12.WakeModel C12.DropModel C12.Proofs C12.Progress C12.WakeProofs C12.WakeBound.
Import ListNotations.

Lemma set_nth_length : forall A (l : list A) i v, length (set_nth l i v) = length l.
Proof. induction l as [|a l IH]; intros [|i] v; cbn [set_nth length]; auto. Qed.

Lemma set_nth_same : forall A (l : list A) i v d, i < length l -> nth i (set_nth l i v) d = v.
Proof.
  induction l as [|a l IH]; intros i v d H; [cbn in H; lia|].
  destruct i as [|i]; cbn [set_nth nth]; [reflexivity|]. apply IH. cbn [length] in H. lia.
Qed.

Lemma set_nth_other : forall A (l : list A) i j v d, j <> i -> nth j (set_nth l i v) d = nth j l d.
Proof.
  induction l as [|a l IH]; intros i j v d H; [destruct i; reflexivity|].
  destruct i as [|i], j as [|j]; cbn [set_nth nth]; try reflexivity; try contradiction.
  apply IH. lia.
Qed.

Lemma ntasks_truncate : forall c t d, ntasks (truncate c t d) = ntasks c.
Proof. intros. unfold ntasks, truncate. cbn [tasks]. apply set_nth_length. Qed.

Lemma cost_truncate : forall c t d rem, cost (truncate c t d) rem = cost c rem.
Proof. intros c t d rem. induction rem as [|k rest IH]; cbn [cost]; [reflexivity|]. now rewrite IH. Qed.

Lemma tcost_truncate : forall c t d p, tcost (truncate c t d) p = tcost c p.
Proof.
  intros c t d [[|k rest] ph]; unfold tcost.
  - destruct ph; apply cost_truncate.
  - destruct ph; try apply cost_truncate. now rewrite cost_truncate.
Qed.

Lemma potential_truncate : forall c t d s, potential (truncate c t d) s = potential c s.
Proof.
  intros. unfold potential. rewrite ntasks_truncate. apply sum_upto_ext. intros u _. apply tcost_truncate.
Qed.

(* ---------- the plain invariant survives a drop (with the truncated configuration) ---------- *)
Lemma drop_sinv : forall c s t k rest,
  SInv c s -> pcs s t = (k :: rest, Wait) ->
  SInv (truncate c t (map fst (results (sh s) t)))
       {| pcs := upd (pcs s) t ([], Start); sh := sh s |}.
Proof.
  intros c s t k rest HI Hp. pose proof (pending_lt c s t k rest Wait HI Hp) as Hlt.
  destruct HI as [H1 H2 H3 H4 H5 Hq H6 H7 H8 H9]. unfold SInv. cbn [pcs sh].
  assert (Hh : forall h k0, holds (upd (pcs s) t ([], Start)) h k0 <-> holds (pcs s) h k0).
  { intros h k0. apply (holds_upd_nosup (pcs s) t (k :: rest) Wait); cbn; auto. }
  split; try assumption.
  - intros k0 h. now rewrite H1, Hh.
  - intros k0 Hk. destruct (Hq k0 Hk) as [(h & X)|R]; [left; exists h; now apply Hh|now right].
  - intros u. unfold truncate. cbn [tasks].
    destruct (Nat.eq_dec u t) as [E|N].
    + subst u. rewrite upd_same. cbn [fst]. rewrite app_nil_r. symmetry. now apply set_nth_same.
    + rewrite upd_other by assumption. rewrite set_nth_other by assumption. apply H7.
Qed.

(* ---------- the wake-up invariant survives a drop ---------- *)
Lemma winv_weaken_ex : forall t rk p s x, WInv None rk p s x -> WInv (Some t) rk p s x.
Proof.
  intros t rk p s x [W1 W2 W3 W4 W5]. split; auto.
  - intros u k i E _. apply (W3 u k i E). discriminate.
  - intros u k r ph Hp Hph _. apply (W5 u k r ph Hp Hph). discriminate.
Qed.

Lemma winv_fill : forall ex k p s x,
  WInv ex (Some k) p s x ->
  (lock s k = None -> (exists u i w, wk x u = Some (k, i, w)) -> exists u i, wk x u = Some (k, i, true)) ->
  WInv ex None p s x.
Proof.
  intros ex k p s x [W1 W2 W3 W4 W5] Hk. split; auto.
  intros k0 Hl _ Hex. destruct (Nat.eq_dec k0 k) as [E|N].
  - subst k0. now apply Hk.
  - apply W4; auto. intro X; inversion X; contradiction.
Qed.

Lemma drop_winv : forall c p s x t k rest,
  Inv c (upd p t ([], Start)) s ->
  WInv None None p s x -> p t = (k :: rest, Wait) ->
  WInv None None (upd p t ([], Start)) s
       (match wk x t with
        | Some (_, _, true) => wake (ntasks c) k (unregister t x)
        | _ => unregister t x
        end).
Proof.
  intros c p s x t k rest HI' HW Hp.
  destruct (unregister_spec t x) as (Hu1 & Hu2 & Hu3).
  assert (Hrel : WInv None (Some k) (upd p t ([], Start)) s (unregister t x)).
  { apply (winv_done_ex t (Some k) _ s _ Start); [|apply upd_same|assumption].
    apply (leave_lookup p s s x (unregister t x) t k rest Wait []); auto.
    now apply winv_weaken_ex. }
  assert (Hplain : (forall k' i, wk x t <> Some (k', i, true)) ->
                   WInv None None (upd p t ([], Start)) s (unregister t x)).
  { intros Hnw. apply (winv_fill None k); [assumption|].
    intros Hl (u & i & w & E).
    assert (N : u <> t) by (intro; subst; rewrite Hu2 in E; discriminate).
    rewrite Hu1 in E by assumption.
    destruct (w_free _ _ _ _ _ HW k Hl) as (u' & i' & E'); [discriminate|now exists u, i, w|].
    assert (N' : u' <> t) by (intro; subst u'; now apply (Hnw k i')).
    exists u', i'. now rewrite Hu1. }
  destruct (wk x t) as [[[k' i] [|]]|] eqn:Et.
  - destruct (w_wait _ _ _ _ _ HW t k' i true Et) as (r & X). rewrite Hp in X. inversion X; subst k'.
    now apply wake_restores.
  - apply Hplain. intros k0 i0 X. discriminate.
  - apply Hplain. intros k0 i0 X. discriminate.
Qed.

Lemma wdrop_inv : forall c t w, WSInv c w -> WSInv (fst (wdrop c t w)) (snd (wdrop c t w)).
Proof.
  intros c t w [HI HW]. unfold wdrop.
  destruct (pcs (base w) t) as [[|k rest] ph] eqn:Hp; [now split|].
  destruct ph; try now split.
  cbn [fst snd]. pose proof (drop_sinv c (base w) t k rest HI Hp) as HI'.
  split; [exact HI'|]. cbn [base ext pcs sh].
  rewrite <- (ntasks_truncate c t (map fst (results (sh (base w)) t))).
  apply (drop_winv _ (pcs (base w)) (sh (base w)) (ext w) t k rest); auto.
Qed.

(* ---------- runs with drops ---------- *)
Definition EInv (c0 : config) (cw : config * wstate) : Prop :=
  WSInv (fst cw) (snd cw) /\ ntasks (fst cw) = ntasks c0 /\ outc (fst cw) = outc c0 /\
  potential (fst cw) (base (snd cw)) <= work c0.

Lemma wdrop_potential : forall c t w, WSInv c w ->
  potential (fst (wdrop c t w)) (base (snd (wdrop c t w))) <= potential c (base w).
Proof.
  intros c t w [HI _]. unfold wdrop.
  destruct (pcs (base w) t) as [[|k rest] ph] eqn:Hp; [cbn; lia|].
  destruct ph; try (cbn [fst snd]; lia).
  cbn [fst snd base]. rewrite potential_truncate. unfold potential. cbn [pcs].
  pose proof (pending_lt c (base w) t k rest Wait HI Hp) as Hlt.
  pose proof (sum_upto_upd_lt _ (tcost c) (pcs (base w)) t ([], Start) (ntasks c) Hlt) as Hs.
  rewrite (tcost_nil c Start) in Hs. lia.
Qed.

Lemma estep_inv : forall c0 cw e, EInv c0 cw -> EInv c0 (estep cw e).
Proof.
  intros c0 [c w] e (HW & Hn & Ho & Hpot). cbn [fst snd] in *. destruct e as [t|t]; unfold EInv, estep; cbn [fst snd].
  - split; [now apply wpoll_winv|]. split; [assumption|]. split; [assumption|].
    rewrite wpoll_base. destruct HW as [HI _]. pose proof (poll_potential_le c t (base w) HI). lia.
  - split; [now apply wdrop_inv|]. split; [|split].
    + unfold wdrop. destruct (pcs (base w) t) as [[|k rest] [| |m]]; cbn [fst]; auto.
      now rewrite ntasks_truncate.
    + unfold wdrop. destruct (pcs (base w) t) as [[|k rest] [| |m]]; cbn [fst]; auto.
    + pose proof (wdrop_potential c t w HW). lia.
Qed.

Lemma erun_inv : forall c evs, EInv c (erun c evs).
Proof.
  intros c evs. unfold erun.
  assert (H0 : EInv c (c, winit c)).
  { split; [apply winit_winv|]. split; [reflexivity|]. split; [reflexivity|].
    cbn [fst snd winit base]. rewrite potential_init. lia. }
  revert H0. generalize (c, winit c). induction evs as [|e evs IH]; intros cw H; [assumption|].
  cbn [fold_left]. apply IH. now apply estep_inv.
Qed.

(* the executor with drops used by the correspondence run never reports a lost wake-up *)
Lemma dexec_not_lost : forall fuel picks c w trace, WSInv c w ->
  snd (dexec c fuel picks w trace) <> WLost.
Proof.
  induction fuel as [|f IH]; intros picks c w trace HW; cbn [dexec].
  - destruct (all_done c (base w)); cbn [snd]; discriminate.
  - (* whichever runnable task the executor picks: an unfinished state has a runnable task, and the poll keeps WSInv *)
    assert (Hstep : forall (pick : task -> list task -> task) ps tr,
              snd (if all_done c (base w) then (c, w, tr, WDone)
                   else match runnable c w with
                        | [] => (c, w, tr, WLost)
                        | r :: rs => dexec c f ps (wpoll c (pick r rs) w) (tr ++ [pick r rs])
                        end) <> WLost).
    { intros pick ps tr. destruct (all_done c (base w)) eqn:Hd; [cbn [snd]; discriminate|].
      pose proof (runnable_exists c w HW Hd) as Hne.
      destruct (runnable c w) as [|r rs]; [contradiction|]. apply IH. now apply wpoll_winv. }
    destruct picks as [|p ps]; [exact (Hstep (fun r _ => r) [] trace)|].
    destruct (Nat.leb 100 p); [|exact (Hstep (fun r rs => nth (Nat.modulo p (length (r :: rs))) (r :: rs) r) ps trace)].
    destruct (pcs (base w) (p - 100)) as [[|k rest] ph] eqn:Hp; [now apply IH|].
    destruct ph; try now apply IH.
    pose proof (wdrop_inv c (p - 100) w HW) as HW'.
    destruct (wdrop c (p - 100) w) as [c' w']. now apply IH.
Qed.
