(* C12/ProgSteps.v — every poll of the interpreter is a sequence of instruction steps of the same task:
   the poll schedules of [prun] are a subset of the instruction schedules of [pmrun], so the instruction-level
   theorems of C12/ProgFine.v speak about every run the poll-level theorems speak about.  Generic in the program, for
   polls that do not get stuck (the canonical program never does: ProgProofs.p_never_stuck). *)
From RM Require Import C12.Model C12.Proofs C12.Progress C12.ProgModel C12.ProgProofs.
From Coq Require Import Lia.

Definition pstate_eq (a b : pstate) : Prop := (forall t, ppcs a t = ppcs b t) /\ psh a = psh b.

Lemma pstate_eq_refl : forall s, pstate_eq s s.
Proof. intro s. split; [intro; reflexivity|reflexivity]. Qed.
Lemma pstate_eq_trans : forall a b d, pstate_eq a b -> pstate_eq b d -> pstate_eq a d.
Proof. intros a b d [A1 A2] [B1 B2]. split; [intro t; rewrite A1; apply B1|congruence]. Qed.

Section Steps.
Variable P : program.
Variable c : config.

Lemma pmstep_eq : forall t a b, pstate_eq a b -> pstate_eq (pmstep P c t a) (pmstep P c t b).
Proof.
  intros t a b [H1 H2]. unfold pmstep. rewrite <- (H1 t), <- H2.
  destruct (ppcs a t) as [[rem kont] l]. destruct rem as [|[e k] rest]; [split; assumption|].
  destruct (match kont with [] => (p_entry P e, l0) | _ :: _ => (kont, l) end) as [[|i more] li].
  - split; cbn; [apply upd_ext; exact H1|reflexivity].
  - destruct (istep P c t k i more li (psh a)) as [[|x y] l' s'|kont' l' s'|]; split; cbn;
      try (apply upd_ext; exact H1); try reflexivity.
Qed.

Local Notation piter := (siter pstate (pmstep P c)).
Definition piter_eq := siter_eq pstate pstate_eq (pmstep P c) pmstep_eq.

Lemma pstate_upd2 : forall pc0 t a b s,
  pstate_eq {| ppcs := upd (upd pc0 t a) t b; psh := s |} {| ppcs := upd pc0 t b; psh := s |}.
Proof. intros. split; [intro u; apply upd_upd|reflexivity]. Qed.

Lemma run_instrs_nil : forall fuel t k l s, run_instrs fuel P c t k [] l s = RDone l s.
Proof. destruct fuel; reflexivity. Qed.

(* the instructions of one lookup executed in one poll; (kst, lst) is what the task has stored, (kont, l) what it
   executes ([] stored = the lookup has not begun: the entry point's program with fresh locals) *)
Definition eff (e : entry) (kst : list instr) (lst : local) : list instr * local :=
  match kst with [] => (p_entry P e, l0) | _ :: _ => (kst, lst) end.

Lemma run_instrs_steps : forall fuel t e k rest kst lst kont l pc0 s,
  eff e kst lst = (kont, l) -> kont <> [] ->
  match run_instrs fuel P c t k kont l s with
  | RDone _ s' =>
      exists n, pstate_eq (piter n t {| ppcs := upd pc0 t ((e, k) :: rest, kst, lst); psh := s |})
                          {| ppcs := upd pc0 t (rest, [], l0); psh := s' |}
  | RPend kont' l' s' =>
      exists n, pstate_eq (piter n t {| ppcs := upd pc0 t ((e, k) :: rest, kst, lst); psh := s |})
                          {| ppcs := upd pc0 t ((e, k) :: rest, kont', l'); psh := s' |}
  | RStuck => True
  end.
Proof.
  induction fuel as [|f IH]; intros t e k rest kst lst kont l pc0 s Heff Hne.
  - destruct kont; [contradiction|]. cbn. exact I.
  - destruct kont as [|i more]; [contradiction|]. cbn [run_instrs].
    assert (Step : pmstep P c t {| ppcs := upd pc0 t ((e, k) :: rest, kst, lst); psh := s |} =
                   match istep P c t k i more l s with
                   | SNext [] _ s' => {| ppcs := upd (upd pc0 t ((e, k) :: rest, kst, lst)) t (rest, [], l0); psh := s' |}
                   | SNext kont' l' s' | SPend kont' l' s' =>
                       {| ppcs := upd (upd pc0 t ((e, k) :: rest, kst, lst)) t ((e, k) :: rest, kont', l'); psh := s' |}
                   | SStuck => {| ppcs := upd (upd pc0 t ((e, k) :: rest, kst, lst)) t ((e, k) :: rest, [IAbort], l0); psh := s |}
                   end).
    { unfold pmstep. cbn [ppcs psh]. rewrite upd_same. unfold eff in Heff. rewrite Heff. reflexivity. }
    destruct (istep P c t k i more l s) as [kont' l' s'|kont' l' s'|] eqn:Ei.
    + destruct kont' as [|i' more'].
      * rewrite run_instrs_nil. exists 1. cbn [siter repeat steps fold_left]. rewrite Step. apply pstate_upd2.
      * specialize (IH t e k rest (i' :: more') l' (i' :: more') l' pc0 s' eq_refl ltac:(discriminate)).
        destruct (run_instrs f P c t k (i' :: more') l' s') as [l2 s2|k2 l2 s2|]; [| |exact I];
          destruct IH as [n Hn]; exists (S n); cbn [siter repeat steps fold_left]; rewrite Step;
          (eapply pstate_eq_trans; [apply piter_eq, pstate_upd2|exact Hn]).
    + exists 1. cbn [siter repeat steps fold_left]. rewrite Step. destruct kont'; apply pstate_upd2.
    + exact I.
Qed.

(* one poll = some number of instruction steps of the polled task *)
Lemma padvance_steps : forall rem t kst lst pc0 s p' s',
  (rem = [] -> kst = [] /\ lst = l0) ->
  padvance P c t rem kst lst s = (p', s') -> snd (fst p') <> [IAbort] ->
  exists n, pstate_eq (piter n t {| ppcs := upd pc0 t (rem, kst, lst); psh := s |}) {| ppcs := upd pc0 t p'; psh := s' |}.
Proof.
  induction rem as [|[e k] rest IH]; intros t kst lst pc0 s p' s' Hnil Hp Hns.
  - cbn in Hp. inversion Hp; subst. destruct (Hnil eq_refl) as [-> ->]. exists 0. apply pstate_eq_refl.
  - cbn [padvance] in Hp.
    destruct (match kst with [] => (p_entry P e, l0) | _ :: _ => (kst, lst) end) as [kont l] eqn:Heff.
    destruct kont as [|i more].
    + (* an empty entry program *)
      rewrite run_instrs_nil in Hp.
      destruct (IH t [] l0 pc0 s p' s' (fun _ => conj eq_refl eq_refl) Hp Hns) as [n Hn].
      exists (S n). cbn [siter repeat steps fold_left].
      assert (Step : pmstep P c t {| ppcs := upd pc0 t (@cons lookup (e, k) rest, kst, lst); psh := s |} =
                     {| ppcs := upd (upd pc0 t (@cons lookup (e, k) rest, kst, lst)) t (rest, [], l0); psh := s |}).
      { unfold pmstep. cbn [ppcs psh]. rewrite upd_same. rewrite Heff. reflexivity. }
      rewrite Step. eapply pstate_eq_trans; [apply piter_eq, pstate_upd2|exact Hn].
    + pose proof (run_instrs_steps (pfuel P) t e k rest kst lst (i :: more) l pc0 s Heff ltac:(discriminate)) as R.
      destruct (run_instrs (pfuel P) P c t k (i :: more) l s) as [l2 s2|k2 l2 s2|].
      * destruct R as [n1 H1].
        destruct (IH t [] l0 pc0 s2 p' s' (fun _ => conj eq_refl eq_refl) Hp Hns) as [n2 H2].
        exists (n1 + n2). rewrite siter_add. eapply pstate_eq_trans; [apply piter_eq, H1|exact H2].
      * inversion Hp; subst. exact R.
      * inversion Hp; subst. cbn in Hns. contradiction.
Qed.

Lemma ppoll_steps : forall t s,
  (forall u, fst (fst (ppcs s u)) = [] -> ppcs s u = ([], [], l0)) ->
  snd (fst (ppcs (ppoll P c t s) t)) <> [IAbort] ->
  exists n, pstate_eq (piter n t s) (ppoll P c t s).
Proof.
  intros t s Hn Hns. unfold ppoll in *.
  destruct (ppcs s t) as [[rem kst] lst] eqn:E.
  destruct (padvance P c t rem kst lst (psh s)) as [p' s'] eqn:Ep.
  cbn [ppcs] in Hns. rewrite upd_same in Hns.
  destruct (padvance_steps rem t kst lst (ppcs s) (psh s) p' s') as [n H]; auto.
  - intros ->. specialize (Hn t). rewrite E in Hn. specialize (Hn eq_refl). inversion Hn. auto.
  - exists n. eapply pstate_eq_trans; [apply piter_eq|exact H].
    split; [|reflexivity]. intro u. cbn. unfold upd. destruct (Nat.eqb u t) eqn:Eq; [|reflexivity].
    apply Nat.eqb_eq in Eq. subst u. exact E.
Qed.
End Steps.

(* ---- whole runs of the canonical program ---- *)
Lemma prun_snoc : forall P pc sched t, prun P pc (sched ++ [t]) = ppoll P (cfg pc) t (prun P pc sched).
Proof. intros. unfold prun, prun_from. rewrite fold_left_app. reflexivity. Qed.

Theorem polls_are_instruction_schedules : forall pc sched,
  exists ms, pstate_eq (pmrun canon pc ms) (prun canon pc sched).
Proof.
  intros pc sched. induction sched as [|t pre IH] using rev_ind.
  - exists []. apply pstate_eq_refl.
  - destruct IH as [ms Hms]. rewrite prun_snoc.
    destruct (ppoll_steps canon (cfg pc) t (prun canon pc pre)) as [n Hn].
    + intros u Hu. destruct (prun_refines false pc pre ltac:(discriminate)) as (_ & Hb & _).
      specialize (Hb u). destruct (ppcs (prun canon pc pre) u) as [[rem kont] l]. cbn in Hu. subst rem.
      cbn in Hb. inversion Hb. reflexivity.
    + rewrite <- prun_snoc. apply p_never_stuck.
    + exists (ms ++ repeat t n). unfold pmrun. rewrite fold_left_app.
      eapply pstate_eq_trans; [apply piter_eq; exact Hms|exact Hn].
Qed.
