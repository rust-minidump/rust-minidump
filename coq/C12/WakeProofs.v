(* C12/WakeProofs.v — the wake-up instrumentation refines the plain model, and no wake-up
   is ever lost: while some task is unfinished, some unfinished task has its waker fired. *)
From Coq Require Import List Arith Bool Lia.
From RM Require Import C12.Model C12.WakeModel C12.Proofs C12.Progress.
Import ListNotations.

(* ---------- refinement: forgetting the wakers gives the plain model ---------- *)
Lemma wadvance_base : forall c n t rem ph s x,
  fst (wadvance c n t rem ph s x) = advance c t rem ph s.
Proof.
  intros c n t rem. induction rem as [|k rest IH]; intros ph s x; [reflexivity|].
  cbn [wadvance advance].
  destruct ph as [| |[|m]]; try reflexivity; try apply IH;
    (destruct (lock s k); [reflexivity|]; destruct (value s k); [apply IH|];
     destruct (susp c k); [apply IH|reflexivity]).
Qed.

(* the body of [wadvance] shared by the phases Start and Wait *)
Lemma wadvance_nosup : forall c n t k rest ph s x, not_sup ph ->
  wadvance c n t (k :: rest) ph s x =
  match lock s k with
  | Some _ => (k :: rest, Wait, s, register t k x)
  | None =>
      match value s k with
      | Some o => wadvance c n t rest Start (hit t k o s) (wake n k (unregister t x))
      | None =>
          match susp c k with
          | 0 => wadvance c n t rest Start (complete c t k (begin_call t k s)) (wake n k (unregister t x))
          | S m => (k :: rest, Sup m, begin_call t k s, set_flag (unregister t x) t true)
          end
      end
  end.
Proof. intros c n t k rest ph s x Hn. destruct ph; [reflexivity..|now elim Hn]. Qed.

Lemma wpoll_base : forall c t w, base (wpoll c t w) = poll c t (base w).
Proof.
  intros c t w. unfold wpoll, poll. destruct (pcs (base w) t) as [rem ph].
  pose proof (wadvance_base c (ntasks c) t rem ph (sh (base w)) (set_flag (ext w) t false)) as H.
  destruct (wadvance c (ntasks c) t rem ph (sh (base w)) (set_flag (ext w) t false)) as [[[rem' ph'] s'] x'].
  cbn [fst] in H. rewrite <- H. reflexivity.
Qed.

Lemma wrun_from_base : forall c sched w, base (wrun_from c w sched) = run_from c (base w) sched.
Proof.
  intros c sched. induction sched as [|t sched IH]; intros w; [reflexivity|].
  cbn [wrun_from run_from fold_left]. fold (wrun_from c (wpoll c t w) sched).
  fold (run_from c (poll c t (base w)) sched). rewrite IH, wpoll_base. reflexivity.
Qed.

Lemma wrun_base : forall c sched, base (wrun c sched) = run c sched.
Proof. intros. unfold wrun, run. now rewrite wrun_from_base. Qed.

Lemma first_waiter_sound : forall x k ts best u i,
  first_waiter x k ts best = Some (u, i) ->
  best = Some (u, i) \/ (In u ts /\ exists w, wk x u = Some (k, i, w)).
Proof.
  intros x k ts. induction ts as [|a ts IH]; intros best u i H; cbn [first_waiter] in H.
  - now left.
  - apply IH in H. destruct H as [H|[Hin Hw]]; [|right; split; [now right|assumption]].
    destruct (wk x a) as [[[k' j] w]|] eqn:Ea; [|now left].
    destruct (Nat.eqb_spec k' k) as [Ek|Nk]; [|now left]. subst k'.
    destruct best as [[b jb]|].
    + destruct (Nat.ltb j jb); [|now left].
      inversion H; subst. right. split; [now left|]. now exists w.
    + inversion H; subst. right. split; [now left|]. now exists w.
Qed.

Lemma first_waiter_some : forall x k ts best,
  best <> None \/ (exists u i w, In u ts /\ wk x u = Some (k, i, w)) ->
  first_waiter x k ts best <> None.
Proof.
  intros x k ts. induction ts as [|a ts IH]; intros best H; cbn [first_waiter].
  - destruct H as [H|(u & i & w & [] & _)]. assumption.
  - apply IH. destruct H as [H|(u & i & w & [E|Hin] & Hw)].
    + left. destruct (wk x a) as [[[k' j] w]|]; [|assumption].
      destruct (Nat.eqb k' k); [|assumption].
      destruct best as [[b jb]|]; [|discriminate]. destruct (Nat.ltb j jb); discriminate.
    + subst a. left. rewrite Hw, Nat.eqb_refl.
      destruct best as [[b jb]|]; [|discriminate]. destruct (Nat.ltb i jb); discriminate.
    + right. now exists u, i, w.
Qed.

(* what Mutex::unlock does to the waiters *)
Lemma wake_spec : forall n k x,
  (forall u i w, wk x u = Some (k, i, w) -> u < n) ->
  let x' := wake n k x in
  (forall u, wk x' u = wk x u \/
             exists i, wk x u = Some (k, i, false) /\ wk x' u = Some (k, i, true) /\ flag x' u = true) /\
  (forall u, flag x u = true -> flag x' u = true) /\
  ((exists u i w, wk x u = Some (k, i, w)) -> exists u i, wk x' u = Some (k, i, true)).
Proof.
  intros n k x Hlt. cbv zeta. unfold wake.
  destruct (first_waiter x k (seq 0 n) None) as [[u j]|] eqn:Hf.
  - destruct (first_waiter_sound _ _ _ _ _ _ Hf) as [H|[_ (w & Hw)]]; [discriminate|].
    rewrite Hw. destruct w.
    + repeat split; auto. intros _. now exists u, j.
    + cbn [wk flag]. repeat split.
      * intros v. destruct (upd_cases _ (wk x) u (Some (k, j, true)) v) as [[E1 E2]|[E1 E2]]; rewrite E2.
        -- subst v. right. exists j. repeat split; auto. apply upd_same.
        -- now left.
      * intros v Hv. destruct (upd_cases _ (flag x) u true v) as [[E1 E2]|[E1 E2]]; rewrite E2; auto.
      * intros _. exists u, j. apply upd_same.
  - repeat split; auto. intros (u & i & w & Hw). exfalso.
    apply (first_waiter_some x k (seq 0 n) None); [|assumption].
    right. exists u, i, w. split; [|assumption]. apply in_seq. specialize (Hlt u i w Hw). lia.
Qed.

Lemma unregister_spec : forall t x,
  (forall u, u <> t -> wk (unregister t x) u = wk x u) /\ wk (unregister t x) t = None /\
  (forall u, flag (unregister t x) u = flag x u).
Proof. intros. cbn [unregister wk flag]. repeat split; auto; [intros u N; now apply upd_other|apply upd_same]. Qed.

Section Wake.
Variable c : config.

Definition waiting (p : task -> list key * phase) (u : task) (k : key) : Prop :=
  exists rest, p u = (k :: rest, Wait).

(* [ex] = the task being polled right now (its bit was cleared by the executor);
   [rk] = a key whose guard was just dropped without the wake having been done yet.
   The field that carries the proof is [w_free]: when a slot's lock is free and somebody is registered for it, one of
   the registered waiters has been woken (so its bit is set, [w_woken]) *)
Record WInv (ex : option task) (rk : option key) (p : task -> list key * phase) (s : shared) (x : wext) : Prop := {
  w_reg   : forall u k, waiting p u k -> exists i w, wk x u = Some (k, i, w);
  w_wait  : forall u k i w, wk x u = Some (k, i, w) -> waiting p u k;
  w_woken : forall u k i, wk x u = Some (k, i, true) -> Some u <> ex -> flag x u = true;
  w_free  : forall k, lock s k = None -> Some k <> rk -> (exists u i w, wk x u = Some (k, i, w)) ->
                      exists u i, wk x u = Some (k, i, true);
  w_ready : forall u k rest ph, p u = (k :: rest, ph) -> ph <> Wait -> Some u <> ex -> flag x u = true
}.

Lemma waiting_upd_other : forall p t v u k, u <> t -> (waiting (upd p t v) u k <-> waiting p u k).
Proof. intros p t v u k N. unfold waiting. now rewrite upd_other. Qed.

Lemma waiter_lt : forall ex rk p s x u k i w,
  Inv c p s -> WInv ex rk p s x -> wk x u = Some (k, i, w) -> u < ntasks c.
Proof.
  intros ex rk p s x u k i w HI HW Hw. destruct (w_wait _ _ _ _ _ HW u k i w Hw) as (rest & Hp).
  exact (pending_lt c {| pcs := p; sh := s |} u k rest Wait HI Hp).
Qed.

(* the wake performed by unlock re-establishes the invariant for the released key *)
Lemma wake_restores : forall ex k p s x,
  Inv c p s -> WInv ex (Some k) p s x -> WInv ex None p s (wake (ntasks c) k x).
Proof.
  intros ex k p s x HI HW.
  assert (Hlt : forall u i w, wk x u = Some (k, i, w) -> u < ntasks c).
  { intros u i w. apply (waiter_lt ex (Some k) p s x u k i w HI HW). }
  destruct (wake_spec (ntasks c) k x Hlt) as (Hwk & Hfl & Hsome).
  set (x' := wake (ntasks c) k x) in *.
  destruct HW as [W1 W2 W3 W4 W5]. split.
  - intros u k0 Hwt. destruct (W1 u k0 Hwt) as (i & w & E).
    destruct (Hwk u) as [H|(j & H1 & H2 & _)].
    + exists i, w. now rewrite H.
    + rewrite E in H1. inversion H1; subst. now exists j, true.
  - intros u k0 i w E. destruct (Hwk u) as [H|(j & H1 & H2 & _)].
    + rewrite H in E. now apply (W2 u k0 i w).
    + rewrite H2 in E. inversion E; subst. now apply (W2 u k0 i false).
  - intros u k0 i E Hex. destruct (Hwk u) as [H|(j & H1 & H2 & H3)]; [|assumption].
    rewrite H in E. apply Hfl. now apply (W3 u k0 i).
  - intros k0 Hl _ (u & i & w & E).
    assert (Hold : exists u i w, wk x u = Some (k0, i, w)).
    { destruct (Hwk u) as [H|(j & H1 & H2 & _)].
      - rewrite H in E. now exists u, i, w.
      - rewrite H2 in E. inversion E; subst. do 3 eexists. exact H1. }
    destruct (Nat.eq_dec k0 k) as [Ek|Nk].
    + subst k0. now apply Hsome.
    + destruct (W4 k0 Hl) as (u' & i' & E'); [intro X; inversion X; contradiction|assumption|].
      exists u', i'. destruct (Hwk u') as [H|(j & H1 & _)]; [now rewrite H|].
      rewrite E' in H1. discriminate.
  - intros u k0 rest ph Hp Hph Hex. apply Hfl. now apply (W5 u k0 rest ph).
Qed.

(* the polled task leaves its current lookup (hit, or supplier answered): its waiter entry is
   gone, the lock of k is released, the wake is still to be done *)
Lemma leave_lookup : forall p s s' x x0 t k rest ph rest',
  p t = (k :: rest, ph) -> WInv (Some t) None p s x ->
  (forall k0, k0 <> k -> lock s' k0 = lock s k0) ->
  (forall u, u <> t -> wk x0 u = wk x u) -> wk x0 t = None -> (forall u, flag x0 u = flag x u) ->
  WInv (Some t) (Some k) (upd p t (rest', Start)) s' x0.
Proof.
  intros p s s' x x0 t k rest ph rest' Hp [W1 W2 W3 W4 W5] Hlock Hwk Hwt Hfl. split.
  - intros u k0 Hw. destruct (Nat.eq_dec u t) as [E|N].
    + subst u. destruct Hw as (r & Hw). rewrite upd_same in Hw.
      destruct rest'; inversion Hw.
    + rewrite Hwk by assumption. apply W1. now apply (waiting_upd_other p t (rest', Start)).
  - intros u k0 i w E. destruct (Nat.eq_dec u t) as [Eu|N].
    + subst u. rewrite Hwt in E. discriminate.
    + rewrite Hwk in E by assumption. apply waiting_upd_other; [assumption|]. now apply (W2 u k0 i w).
  - intros u k0 i E Hex. assert (N : u <> t) by (intro; subst; now apply Hex).
    rewrite Hwk in E by assumption. rewrite Hfl. now apply (W3 u k0 i).
  - intros k0 Hl Hrk (u & i & w & E).
    assert (Nk : k0 <> k) by (intro; subst; now apply Hrk).
    assert (N : u <> t) by (intro; subst; rewrite Hwt in E; discriminate).
    rewrite Hwk in E by assumption. rewrite Hlock in Hl by assumption.
    destruct (W4 k0 Hl) as (u' & i' & E'); [discriminate|now exists u, i, w|].
    assert (N' : u' <> t).
    { intro; subst u'. destruct (W2 t k0 i' true E') as (r & X). rewrite Hp in X. congruence. }
    exists u', i'. now rewrite Hwk.
  - intros u k0 r ph0 Hpu Hph Hex. assert (N : u <> t) by (intro; subst; now apply Hex).
    rewrite upd_other in Hpu by assumption. rewrite Hfl. now apply (W5 u k0 r ph0).
Qed.

(* a task that is not in phase Wait owns no waiter entry *)
Lemma not_waiting_no_entry : forall ex rk p s x t rem ph,
  WInv ex rk p s x -> p t = (rem, ph) -> ph <> Wait -> wk x t = None.
Proof.
  intros ex rk p s x t rem ph HW Hp Hph. destruct (wk x t) as [[[k i] w]|] eqn:E; [|reflexivity].
  destruct (w_wait _ _ _ _ _ HW t k i w E) as (r & X). rewrite Hp in X. inversion X. contradiction.
Qed.

(* ---------- terminal steps of a poll: the task returns Pending ----------
   The polled task t goes to phase ph' of the same lookup; the entries and bits of the others stay, no lock is released,
   the slot's lock is held if t waits for it, t has an entry (not yet woken) exactly when it waits, and its bit is set
   when it does not wait. *)
Lemma wstep_pending : forall p s s' x x' t k rest ph ph',
  p t = (k :: rest, ph) -> WInv (Some t) None p s x ->
  (forall u, u <> t -> wk x' u = wk x u) -> (forall u, u <> t -> flag x' u = flag x u) ->
  (forall k0, lock s' k0 = None -> lock s k0 = None) -> (ph = Wait \/ ph' = Wait -> lock s' k <> None) ->
  (forall k0 i w, wk x' t = Some (k0, i, w) -> k0 = k /\ ph' = Wait /\ w = false) ->
  (ph' = Wait -> exists i w, wk x' t = Some (k, i, w)) -> (ph' <> Wait -> flag x' t = true) ->
  WInv None None (upd p t (k :: rest, ph')) s' x'.
Proof.
  intros p s s' x x' t k rest ph ph' Hp [W1 W2 W3 W4 W5] Hwk Hfl Hlock Hheld Hent Hreg Hflag. split.
  - intros u k0 Hw. destruct (Nat.eq_dec u t) as [->|N].
    + destruct Hw as (r & Hw). rewrite upd_same in Hw. inversion Hw; subst. now apply Hreg.
    + rewrite Hwk by assumption. apply W1. now apply (waiting_upd_other p t (k :: rest, ph')).
  - intros u k0 i w E. destruct (Nat.eq_dec u t) as [->|N].
    + destruct (Hent k0 i w E) as (-> & -> & _). exists rest. apply upd_same.
    + rewrite Hwk in E by assumption. apply waiting_upd_other; [assumption|]. now apply (W2 u k0 i w).
  - intros u k0 i E _. destruct (Nat.eq_dec u t) as [->|N].
    + destruct (Hent k0 i true E) as (_ & _ & X). discriminate.
    + rewrite Hwk in E by assumption. rewrite Hfl by assumption. apply (W3 u k0 i E). intro X; inversion X; contradiction.
  - intros k0 Hl0 _ (u & i & w & E).
    assert (N : u <> t).
    { intro; subst u. destruct (Hent k0 i w E) as (-> & Hw & _). now apply (Hheld (or_intror Hw)). }
    rewrite Hwk in E by assumption.
    destruct (W4 k0 (Hlock k0 Hl0)) as (u' & i' & E'); [discriminate|now exists u, i, w|].
    assert (N' : u' <> t).
    { intro; subst u'. destruct (W2 t k0 i' true E') as (r & X). rewrite Hp in X. inversion X; subst.
      now apply (Hheld (or_introl eq_refl)). }
    exists u', i'. now rewrite Hwk.
  - intros u k0 r ph0 Hpu Hph _. destruct (Nat.eq_dec u t) as [->|N].
    + rewrite upd_same in Hpu. inversion Hpu; subst. now apply Hflag.
    + rewrite upd_other in Hpu by assumption. rewrite Hfl by assumption.
      apply (W5 u k0 r ph0 Hpu Hph). intro X; inversion X; contradiction.
Qed.

Lemma wstep_tick : forall p s x t k rest m m',
  p t = (k :: rest, Sup m) -> WInv (Some t) None p s x ->
  WInv None None (upd p t (k :: rest, Sup m')) s (set_flag x t true).
Proof.
  intros p s x t k rest m m' Hp HW.
  assert (Hnone : wk x t = None) by (apply (not_waiting_no_entry (Some t) None p s x t (k :: rest) (Sup m) HW Hp); discriminate).
  apply (wstep_pending p s s x _ t k rest (Sup m) (Sup m') Hp HW); cbn [set_flag wk flag]; auto;
    try (intros [X|X]; discriminate); try discriminate.
  - intros u N. now apply upd_other.
  - intros k0 i w E. rewrite Hnone in E. discriminate.
  - intros _. apply upd_same.
Qed.

Lemma wstep_wait : forall p s x t k rest ph h,
  p t = (k :: rest, ph) -> lock s k = Some h -> WInv (Some t) None p s x ->
  WInv None None (upd p t (k :: rest, Wait)) s (register t k x).
Proof.
  intros p s x t k rest ph h Hp Hl HW.
  assert (Hreg : exists i, wk (register t k x) t = Some (k, i, false) /\
                 (forall u, u <> t -> wk (register t k x) u = wk x u) /\
                 (forall u, flag (register t k x) u = flag x u)).
  { unfold register. destruct (wk x t) as [[[k' i] w]|] eqn:E.
    - destruct (w_wait _ _ _ _ _ HW t k' i w E) as (r & X). rewrite Hp in X. inversion X; subst.
      exists i. cbn [wk flag]. repeat split; auto; [apply upd_same|intros u N; now apply upd_other].
    - eexists. cbn [wk flag]. repeat split; auto; [apply upd_same|intros u N; now apply upd_other]. }
  destruct Hreg as (i0 & Ht & Hother & Hflag).
  apply (wstep_pending p s s x _ t k rest ph Wait Hp HW); auto.
  - intros _. rewrite Hl. discriminate.
  - intros k0 i w E. rewrite Ht in E. inversion E. auto.
  - intros _. now exists i0, false.
Qed.

Lemma wstep_begin : forall p s x t k rest ph m,
  p t = (k :: rest, ph) -> lock s k = None -> WInv (Some t) None p s x ->
  WInv None None (upd p t (k :: rest, Sup m)) (begin_call t k s) (set_flag (unregister t x) t true).
Proof.
  intros p s x t k rest ph m Hp Hl HW.
  apply (wstep_pending p s _ x _ t k rest ph (Sup m) Hp HW); cbn [set_flag unregister begin_call wk flag lock];
    try discriminate.
  - intros u N. now apply upd_other.
  - intros u N. now apply upd_other.
  - intros k0 H0. destruct (Nat.eq_dec k0 k) as [->|N]; [rewrite upd_same in H0; discriminate|now rewrite upd_other in H0].
  - intros _. rewrite upd_same. discriminate.
  - intros k0 i w E. rewrite upd_same in E. discriminate.
  - intros _. apply upd_same.
Qed.

Lemma WInv_ext : forall ex rk p p' s x, (forall u, p u = p' u) -> WInv ex rk p s x -> WInv ex rk p' s x.
Proof.
  intros ex rk p p' s x E [W1 W2 W3 W4 W5]. split; auto.
  - intros u k (r & H). rewrite <- E in H. apply W1. now exists r.
  - intros u k i w H. destruct (W2 u k i w H) as (r & X). exists r. now rewrite <- E.
  - intros u k r ph H. rewrite <- E in H. now apply (W5 u k r ph).
Qed.

(* a finished (or just finishing) task needs no wake-up *)
Lemma winv_done_ex : forall t rk p s x ph,
  WInv (Some t) rk p s x -> p t = ([], ph) -> wk x t = None -> WInv None rk p s x.
Proof.
  intros t rk p s x ph [W1 W2 W3 W4 W5] Hp Hnone. split; auto.
  - intros u k i E _. apply (W3 u k i E). intro X; inversion X; subst. rewrite Hnone in E. discriminate.
  - intros u k r ph0 Hpu Hph _. apply (W5 u k r ph0 Hpu Hph).
    intro X; inversion X; subst. rewrite Hp in Hpu. discriminate.
Qed.

Lemma wstep_done : forall p s x t ph,
  p t = ([], ph) -> WInv (Some t) None p s x -> WInv None None p s x.
Proof.
  intros p s x t ph Hp HW. apply (winv_done_ex t None p s x ph HW Hp).
  destruct (wk x t) as [[[k i] w]|] eqn:E; [|reflexivity].
  destruct (w_wait _ _ _ _ _ HW t k i w E) as (r & X). rewrite Hp in X. inversion X.
Qed.

Lemma wadvance_winv : forall t rem ph s x p rem' ph' s' x',
  p t = (rem, ph) -> Inv c p s -> WInv (Some t) None p s x ->
  wadvance c (ntasks c) t rem ph s x = (rem', ph', s', x') ->
  WInv None None (upd p t (rem', ph')) s' x'.
Proof.
  intros t rem. induction rem as [|k rest IH]; intros ph s x p rem' ph' s' x' Hp HI HW Ha.
  - cbn [wadvance] in Ha. inversion Ha; subst.
    apply (WInv_ext _ _ p); [intro u; rewrite <- Hp; symmetry; apply upd_id|].
    now apply (wstep_done p s' x' t ph').
  - (* continuing with the next lookup after k's guard has been dropped *)
    assert (Hcont : forall s0 x0,
              Inv c (upd p t (rest, Start)) s0 ->
              WInv (Some t) (Some k) (upd p t (rest, Start)) s0 x0 ->
              wadvance c (ntasks c) t rest Start s0 (wake (ntasks c) k x0) = (rem', ph', s', x') ->
              WInv None None (upd p t (rem', ph')) s' x').
    { intros s0 x0 HI0 HW0 Ha0.
      apply (WInv_ext _ _ (upd (upd p t (rest, Start)) t (rem', ph'))); [intro u; apply upd_upd|].
      apply (IH Start s0 (wake (ntasks c) k x0) (upd p t (rest, Start))); auto.
      - apply upd_same.
      - now apply wake_restores. }
    assert (Hnosup : not_sup ph -> WInv None None (upd p t (rem', ph')) s' x').
    { intros Hn. pose proof Ha as H0. rewrite (wadvance_nosup c (ntasks c) t k rest ph s x Hn) in H0.
      destruct (unregister_spec t x) as (Hu1 & Hu2 & Hu3).
      destruct (lock s k) as [h|] eqn:Hl.
      - inversion H0; subst. now apply (wstep_wait p s' x t k rest ph h).
      - destruct (value s k) as [o|] eqn:Hv.
        + apply (Hcont (hit t k o s) (unregister t x)); auto.
          * now apply (step_hit c p s t k rest ph o).
          * apply (leave_lookup p s (hit t k o s) x (unregister t x) t k rest ph); auto.
        + destruct (susp c k) as [|m] eqn:Hs.
          * apply (Hcont (complete c t k (begin_call t k s)) (unregister t x)); auto.
            -- pose proof (step_begin c p s t k rest ph 0 Hp Hn Hl Hv HI) as HI1.
               apply (Inv_ext c (upd (upd p t (k :: rest, Sup 0)) t (rest, Start))); [intro u; apply upd_upd|].
               apply (step_complete c _ _ t k rest 0); [apply upd_same|assumption].
            -- apply (leave_lookup p s _ x (unregister t x) t k rest ph); auto.
               intros k0 Nk. cbn [complete begin_call lock]. now rewrite !upd_other.
          * inversion H0; subst. now apply (wstep_begin p s x t k rest ph m). }
    destruct ph as [| |[|m]]; [now apply Hnosup..| |]; cbn [wadvance] in Ha.
    + assert (Hnone : wk x t = None)
        by (apply (not_waiting_no_entry (Some t) None p s x t (k :: rest) (Sup 0) HW Hp); discriminate).
      apply (Hcont (complete c t k s) x); auto.
      * now apply (step_complete c p s t k rest 0).
      * apply (leave_lookup p s (complete c t k s) x x t k rest (Sup 0)); auto.
        intros k0 Nk. cbn [complete lock]. now rewrite upd_other.
    + inversion Ha; subst. now apply (wstep_tick p s' x t k rest (S m) m).
Qed.

Definition WSInv (w : wstate) : Prop :=
  SInv c (base w) /\ WInv None None (pcs (base w)) (sh (base w)) (ext w).

(* the executor clears the polled task's bit *)
Lemma clear_flag_winv : forall p s x t,
  WInv None None p s x -> WInv (Some t) None p s (set_flag x t false).
Proof.
  intros p s x t [W1 W2 W3 W4 W5]. split; cbn [set_flag wk flag]; auto.
  - intros u k i E Hex. assert (N : u <> t) by (intro; subst; now apply Hex).
    rewrite upd_other by assumption. apply (W3 u k i E). discriminate.
  - intros u k r ph Hp Hph Hex. assert (N : u <> t) by (intro; subst; now apply Hex).
    rewrite upd_other by assumption. apply (W5 u k r ph Hp Hph). discriminate.
Qed.

Lemma wpoll_winv : forall t w, WSInv w -> WSInv (wpoll c t w).
Proof.
  intros t w [HI HW]. split.
  - rewrite wpoll_base. now apply poll_inv.
  - unfold wpoll. destruct (pcs (base w) t) as [rem ph] eqn:Hp.
    destruct (wadvance c (ntasks c) t rem ph (sh (base w)) (set_flag (ext w) t false)) as [[[rem' ph'] s'] x'] eqn:Ha.
    cbn [base ext pcs sh].
    apply (wadvance_winv t rem ph (sh (base w)) (set_flag (ext w) t false) (pcs (base w))); auto.
    now apply clear_flag_winv.
Qed.

Lemma winit_winv : WSInv (winit c).
Proof.
  split; [apply init_inv|]. unfold winit, init. cbn [base ext pcs sh].
  split; cbn [wk flag lock]; try (intros; discriminate); auto.
  - intros u k (r & H). inversion H.
  - intros k _ _ (u & i & w & H). discriminate.
Qed.

Lemma wrun_from_winv : forall sched w, WSInv w -> WSInv (wrun_from c w sched).
Proof.
  induction sched as [|t sched IH]; intros w H; [assumption|].
  cbn [wrun_from fold_left]. apply IH. now apply wpoll_winv.
Qed.

Lemma runnable_exists : forall w, WSInv w -> all_done c (base w) = false -> runnable c w <> [].
Proof.
  intros w [HI HW] Hd.
  assert (Hgoal : exists t, In t (runnable c w)); [|destruct Hgoal as (t & Ht); intro E; rewrite E in Ht; destruct Ht].
  assert (Hrun : forall u k rest ph, pcs (base w) u = (k :: rest, ph) -> flag (ext w) u = true -> In u (runnable c w)).
  { intros u k rest ph Hp Hf. unfold runnable. apply filter_In. split.
    - apply in_seq. pose proof (pending_lt c (base w) u k rest ph HI Hp). lia.
    - rewrite Hf. unfold task_done. now rewrite Hp. }
  unfold all_done in Hd. apply forallb_false in Hd. destruct Hd as (t & Hin & Hf).
  unfold task_done in Hf. destruct (pcs (base w) t) as [[|k rest] ph] eqn:Hp; cbn [fst] in Hf; [discriminate|].
  assert (Hnw : ph <> Wait -> exists t0, In t0 (runnable c w)).
  { intros Hph. exists t. apply (Hrun t k rest ph Hp). apply (w_ready _ _ _ _ _ HW t k rest ph Hp Hph). discriminate. }
  destruct ph as [| |m]; [apply Hnw; discriminate| |apply Hnw; discriminate].
  destruct (lock (sh (base w)) k) as [h|] eqn:Hl.
  - apply (inv_lock _ _ _ HI) in Hl. destruct Hl as (r & m & Hh).
    exists h. apply (Hrun h k r (Sup m) Hh). apply (w_ready _ _ _ _ _ HW h k r (Sup m) Hh); discriminate.
  - destruct (w_reg _ _ _ _ _ HW t k) as (i & b & E); [now exists rest|].
    destruct (w_free _ _ _ _ _ HW k Hl) as (u & j & Eu); [discriminate|now exists t, i, b|].
    destruct (w_wait _ _ _ _ _ HW u k j true Eu) as (r & Hu).
    exists u. apply (Hrun u k r Wait Hu). apply (w_woken _ _ _ _ _ HW u k j Eu). discriminate.
Qed.

Lemma no_lost_wakeup : forall sched,
  all_done c (run c sched) = false -> runnable c (wrun c sched) <> [].
Proof.
  intros sched Hd. apply runnable_exists.
  - apply wrun_from_winv, winit_winv.
  - now rewrite wrun_base.
Qed.

End Wake.
