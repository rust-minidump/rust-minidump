(* C12/WakeBound.v — a wake-driven executor finishes every task within 2*work + ntasks polls:
   each poll of a runnable task lowers  2 * potential + #runnable. *)
From Coq Require Import List Arith Bool Lia.
From RM Require Import Base.ListFacts C12.Model C12.WakeModel C12.Proofs C12.Progress C12.WakeProofs.
Import ListNotations.

Lemma filter_le_one : forall (l : list nat) (f g : nat -> bool) k,
  NoDup l -> (forall x, x <> k -> g x = f x) -> length (filter g l) <= S (length (filter f l)).
Proof.
  induction l as [|a l IH]; intros f g k Hnd Hext; [cbn; lia|].
  inversion Hnd as [|a' l' Hnotin Hnd']; subst. cbn [filter].
  destruct (Nat.eq_dec a k) as [E|N].
  - subst a. assert (Hsame : filter g l = filter f l).
    { apply filter_ext_in. intros x Hx. apply Hext. intro; subst; contradiction. }
    rewrite Hsame. destruct (g k), (f k); cbn [length]; lia.
  - rewrite (Hext a N). specialize (IH f g k Hnd' Hext). destruct (f a); cbn [length]; lia.
Qed.

Lemma filter_len_mono : forall (l : list nat) (f g : nat -> bool),
  (forall x, In x l -> f x = true -> g x = true) -> length (filter f l) <= length (filter g l).
Proof.
  induction l as [|a l IH]; intros f g H; [cbn; lia|]. cbn [filter].
  assert (IH' : length (filter f l) <= length (filter g l)) by (apply IH; intros x Hx; apply H; now right).
  destruct (f a) eqn:Ef.
  - rewrite (H a (or_introl eq_refl) Ef). cbn [length]. lia.
  - destruct (g a); cbn [length]; lia.
Qed.

(* unlock sets at most one bit *)
Lemma wake_flag_one : forall n k x, exists u0, forall u, u <> u0 -> flag (wake n k x) u = flag x u.
Proof.
  intros n k x. unfold wake. destruct (first_waiter x k (seq 0 n) None) as [[u j]|]; [|now exists 0].
  destruct (wk x u) as [[[k' i] [|]]|]; try (now exists 0).
  exists u. intros v N. cbn [flag]. now apply upd_other.
Qed.

Section Bound.
Variable c : config.

(* flagged tasks among those that can still matter: [t] itself, or unfinished ones ([unf]) *)
Definition hcount (t : task) (unf : task -> bool) (x : wext) : nat :=
  length (filter (fun u => flag x u && (Nat.eqb u t || unf u)) (seq 0 (ntasks c))).

Lemma hcount_one : forall t unf x x' u0,
  (forall u, u <> u0 -> flag x' u = flag x u) -> hcount t unf x' <= S (hcount t unf x).
Proof.
  intros t unf x x' u0 H. unfold hcount. apply (filter_le_one _ _ _ u0); [apply seq_NoDup|].
  intros u N. now rewrite H.
Qed.

Lemma hcount_same : forall t unf x x',
  (forall u, flag x' u = flag x u) -> hcount t unf x' = hcount t unf x.
Proof. intros t unf x x' H. unfold hcount. f_equal. apply filter_ext_in. intros u _. now rewrite H. Qed.

Lemma hcount_wake : forall t unf k x, hcount t unf (wake (ntasks c) k x) <= S (hcount t unf x).
Proof. intros. destruct (wake_flag_one (ntasks c) k x) as (u0 & H). now apply (hcount_one _ _ _ _ u0). Qed.

Lemma hcount_set : forall t unf x b, hcount t unf (set_flag x t b) <= S (hcount t unf x).
Proof. intros. apply (hcount_one _ _ _ _ t). intros u N. cbn [set_flag flag]. now apply upd_other. Qed.

(* accounting over one poll: twice the task's cost plus the bits never grows *)
Lemma wadvance_count : forall t unf rem ph s x rem' ph' s' x',
  wadvance c (ntasks c) t rem ph s x = (rem', ph', s', x') ->
  2 * tcost c (rem', ph') + hcount t unf x' <= 2 * tcost c (rem, ph) + hcount t unf x.
Proof.
  intros t unf rem. induction rem as [|k rest IH]; intros ph s x rem' ph' s' x' Ha.
  - cbn [wadvance] in Ha. inversion Ha; subst. lia.
  - assert (Hcont : forall s0 x0, wadvance c (ntasks c) t rest Start s0 (wake (ntasks c) k x0) = (rem', ph', s', x') ->
                    (forall u, flag x0 u = flag x u) ->
                    2 * tcost c (rem', ph') + hcount t unf x' <= 2 * cost c rest + S (hcount t unf x)).
    { intros s0 x0 H0 Hfl. apply IH in H0. rewrite (tcost_nosup c rest Start I) in H0.
      pose proof (hcount_wake t unf k x0). rewrite (hcount_same t unf x x0 Hfl) in H. lia. }
    assert (Hnosup : not_sup ph ->
      2 * tcost c (rem', ph') + hcount t unf x' <= 2 * tcost c (k :: rest, ph) + hcount t unf x).
    { intros Hn. pose proof Ha as H0. rewrite (wadvance_nosup c (ntasks c) t k rest ph s x Hn) in H0.
      rewrite (tcost_nosup c (k :: rest) ph Hn). cbn [cost].
      destruct (lock s k) as [h|].
      - inversion H0; subst. rewrite (tcost_nosup c (k :: rest) Wait I). cbn [cost].
        rewrite (hcount_same t unf x (register t k x)); [lia|].
        intros u. unfold register. destruct (wk x t) as [[[k' i] w]|]; reflexivity.
      - destruct (value s k) as [o|].
        + apply Hcont in H0; [lia|reflexivity].
        + destruct (susp c k) as [|m].
          * apply Hcont in H0; [lia|reflexivity].
          * inversion H0; subst. rewrite tcost_sup.
            pose proof (hcount_set t unf (unregister t x) true) as H.
            rewrite (hcount_same t unf x (unregister t x)) in H by reflexivity. lia. }
    destruct ph as [| |[|m]]; [now apply Hnosup..| |]; cbn [wadvance] in Ha.
    + apply Hcont in Ha; [|reflexivity]. rewrite tcost_sup. lia.
    + inversion Ha; subst. rewrite !tcost_sup. pose proof (hcount_set t unf x true). lia.
Qed.

Definition measure (w : wstate) : nat := 2 * potential c (base w) + length (runnable c w).

Lemma wpoll_measure : forall t w, WSInv c w -> In t (runnable c w) -> measure (wpoll c t w) < measure w.
Proof.
  intros t w [HI HW] Hin. unfold runnable in Hin. apply filter_In in Hin. destruct Hin as [Hseq Hpred].
  apply in_seq in Hseq. assert (Hlt : t < ntasks c) by lia.
  apply andb_prop in Hpred. destruct Hpred as [Hflag Hunf].
  set (unf := fun u => negb (task_done (base w) u)).
  set (x0 := set_flag (ext w) t false).
  (* clearing t's bit removes exactly t from the runnable set *)
  assert (H0 : length (runnable c w) = S (hcount t unf x0)).
  { unfold runnable, hcount. apply (filter_flip _ _ _ t).
    - apply seq_NoDup.
    - apply in_seq. lia.
    - unfold x0. cbn [set_flag flag]. now rewrite upd_same.
    - now rewrite Hflag, Hunf.
    - intros u N. unfold x0. cbn [set_flag flag]. rewrite upd_other by assumption.
      destruct (Nat.eqb_spec u t) as [E|_]; [contradiction|]. reflexivity. }
  unfold measure. rewrite H0. unfold wpoll, potential.
  destruct (pcs (base w) t) as [rem ph] eqn:Hp.
  fold x0.
  destruct (wadvance c (ntasks c) t rem ph (sh (base w)) x0) as [[[rem' ph'] s'] x'] eqn:Ha.
  cbn [base pcs].
  pose proof (wadvance_count t unf rem ph (sh (base w)) x0 rem' ph' s' x' Ha) as Hcnt.
  pose proof (sum_upto_upd_lt _ (tcost c) (pcs (base w)) t (rem', ph') (ntasks c) Hlt) as Hsum.
  rewrite Hp in Hsum.
  (* whoever is runnable afterwards is counted by hcount *)
  assert (H1 : length (runnable c {| base := {| pcs := upd (pcs (base w)) t (rem', ph'); sh := s' |}; ext := x' |})
               <= hcount t unf x').
  { unfold runnable, hcount. cbn [base ext]. apply filter_len_mono. intros u _ Hu.
    apply andb_prop in Hu. destruct Hu as [Hf Hd]. rewrite Hf. cbn [andb].
    destruct (Nat.eqb_spec u t) as [E|N]; [reflexivity|]. cbn [orb].
    unfold unf, task_done in *. cbn [pcs] in Hd. now rewrite upd_other in Hd. }
  lia.
Qed.

Lemma wexec_finishes : forall fuel picks w trace,
  WSInv c w -> measure w < fuel ->
  exists w' sched, wexec c fuel picks w trace = (w', trace ++ sched, WDone) /\
                   w' = wrun_from c w sched /\ all_done c (base w') = true.
Proof.
  induction fuel as [|f IH]; intros picks w trace HW Hm; [lia|].
  cbn [wexec]. destruct (all_done c (base w)) eqn:Hd.
  - exists w, []. rewrite app_nil_r. repeat split; auto.
  - pose proof (runnable_exists c w HW Hd) as Hne.
    destruct (runnable c w) as [|r rs] eqn:Hr; [contradiction|].
    set (t := nth (Nat.modulo (hd 0 picks) (length (r :: rs))) (r :: rs) r).
    assert (Hin : In t (runnable c w)).
    { rewrite Hr. apply nth_In. apply Nat.mod_upper_bound. cbn [length]. lia. }
    pose proof (wpoll_measure t w HW Hin) as Hdec.
    destruct (IH (tl picks) (wpoll c t w) (trace ++ [t]) (wpoll_winv c t w HW)) as (w' & sched & He & Hw & Hdone); [lia|].
    exists w', (t :: sched). rewrite He. rewrite <- app_assoc. cbn [app]. repeat split; auto.
Qed.

Lemma measure_init : measure (winit c) <= 2 * work c + ntasks c.
Proof.
  unfold measure. cbn [winit base]. rewrite potential_init.
  assert (length (runnable c (winit c)) <= ntasks c).
  { unfold runnable. rewrite <- (seq_length (ntasks c) 0) at 2. apply filter_length_le. }
  lia.
Qed.

Lemma wake_driven_finishes : forall fuel picks,
  2 * work c + ntasks c < fuel ->
  exists w sched, wexec c fuel picks (winit c) [] = (w, sched, WDone) /\
                  base w = run c sched /\ all_done c (run c sched) = true.
Proof.
  intros fuel picks Hf.
  destruct (wexec_finishes fuel picks (winit c) [] (winit_winv c)) as (w & sched & He & Hw & Hd).
  - pose proof measure_init. lia.
  - exists w, sched. cbn [app] in He. repeat split; auto.
    + rewrite Hw. apply wrun_base.
    + subst w. change (wrun_from c (winit c) sched) with (wrun c sched) in Hd. now rewrite wrun_base in Hd.
Qed.

End Bound.
