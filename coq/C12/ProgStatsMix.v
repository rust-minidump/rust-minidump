(* C12/ProgStatsMix.v — the stats map under INSTRUCTION-level interleavings of the canonical program, any mix of symbol
   and file lookups.
   `let mut stats = SymbolStats::default(); match &result {..}; let key = leafname(..); self.stats.lock().unwrap().insert(key, stats)`
   are four instructions between which other tasks run.  Soundness ([SI]): a task standing after the classification
   carries lstat = the classification of its slot's scripted answer, a task standing at the insert also lkey = its module's
   leaf name; every entry of the shared map classifies the single answer of a module with that leaf name that is in the
   supplier log.  Completeness ([SC]): a symbol slot that holds a remembered answer has an entry under its module's leaf
   name — the insert into the stats map precedes the store into the slot (mid-run an entry may be there while the slot is
   still empty, a state no poll schedule has), and entries are never removed.  File slots have no stats: the closure of
   locate_file_internal does not touch the map. *)
From RM Require Import C12.Model C12.Proofs C12.ProgModel C12.ProgProofs C12.ProgFine C12.ProgCountMix.

(* ---- soundness ---- *)
Definition lstat_ok (c : config) (k : key) (kont : list instr) (l : local) : Prop :=
  match kont with
  | ILeafKey :: _ => lstat l = Some (outc c k)
  | IStatsInsert :: _ => lstat l = Some (outc c k) /\ lkey l = Some (leaf c k)
  | _ => True
  end.

Record SI (c : config) (s : pstate) : Prop := {
  si_local : forall t e k rest kont l, ppcs s t = ((e, k) :: rest, kont, l) -> lstat_ok c k kont l;
  si_sound : forall lf o, stats (psh s) lf = Some o -> exists k, leaf c k = lf /\ o = outc c k /\ In k (calls (psh s))
}.

(* one instruction: the locals stay classified, the log grows, a new entry of the map is the classified answer of the
   task's slot under its leaf name *)
Lemma cstep_stats : forall c t k e kont l s kont' l' s', cstep c t k e kont l s kont' l' s' -> lstat_ok c k kont l ->
  lstat_ok c k kont' l' /\ (forall x, In x (calls s) -> In x (calls s')) /\
  forall lf o, stats s' lf = Some o -> stats s lf = Some o \/ (leaf c k = lf /\ o = outc c k /\ cls_of kont = CMid).
Proof.
  intros c t k e kont l s kont' l' s' H Hl.
  destruct H; cbn in *; try (split; [|split; [auto using in_or_app|auto]]; auto; fail).
  - subst r. destruct (fcls l); cbn; auto.
  - destruct Hl as [Hs Hk]. rewrite H in Hk. injection Hk as ->. rewrite Hs. split; [exact I|]. split; [auto|].
    intros lf0 o. unfold upd. destruct (Nat.eqb lf0 (leaf c k)) eqn:Q; [|auto].
    apply Nat.eqb_eq in Q. intro X. injection X as <-. auto.
Qed.

Lemma si_pmstep : forall pc s t,
  GI (cfg pc) (allkeys pc) s -> SI (cfg pc) s -> SI (cfg pc) (pmstep canon (cfg pc) t s).
Proof.
  intros pc s t G [SL SS].
  destruct (ppcs s t) as [[[|[e k] rest] kont] l] eqn:E; [unfold pmstep; rewrite E; split; assumption|].
  destruct (gi_step _ _ s t e k rest kont l G E) as (kont' & l' & s' & Hstep & _ & ->).
  destruct (cstep_stats _ _ _ _ _ _ _ _ _ _ Hstep (SL _ _ _ _ _ _ E)) as (Hl & Hc & Hs).
  constructor; cbn [ppcs psh].
  - intros u e0 k0 rest0 kont0 l1. destruct (Nat.eq_dec u t) as [->|Hu].
    + rewrite upd_same. destruct kont'; cbn; [intro X; injection X as _ <- _; exact I|].
      intro X. injection X as <- <- <- <- <-. exact Hl.
    + rewrite upd_other by exact Hu. apply SL.
  - intros lf o H. destruct (Hs lf o H) as [H0|(A & B & Hm)].
    + destruct (SS lf o H0) as (k0 & A & B & C0). exists k0. auto.
    + exists k. split; [exact A|]. split; [exact B|]. apply Hc.
      pose proof (gi_cls G t k) as F. rewrite E in F. unfold tcls in F. cbn [fst snd] in F. rewrite Hm in F. apply F. reflexivity.
Qed.

Lemma si_init : forall pc, SI (cfg pc) (pinit pc).
Proof.
  intro pc. constructor; cbn.
  - intros t e k rest kont l H. injection H as _ <- _. exact I.
  - intros; discriminate.
Qed.

Lemma pmrun_si : forall pc ms, SI (cfg pc) (pmrun canon pc ms).
Proof.
  intros pc ms. apply (pmrun_ind canon pc (fun s => GI (cfg pc) (allkeys pc) s /\ SI (cfg pc) s)).
  - split; [apply gi_init|apply si_init].
  - intros s t [G C]. split; [apply gi_pmstep; exact G|apply si_pmstep; assumption].
Qed.

(* every entry of the stats map classifies the supplier's single answer for a module with that leaf name that the
   supplier has been asked for (exactly once: c12_source_instr_at_most_once) — whatever the instruction-level interleaving *)
Lemma pm_stats_sound : forall pc ms lf o, stats (psh (pmrun canon pc ms)) lf = Some o ->
  exists k, leaf (pbase pc) k = lf /\ o = outc (pbase pc) k /\ psupplier_calls (pmrun canon pc ms) k = 1.
Proof.
  intros pc ms lf o H. destruct (si_sound _ _ (pmrun_si pc ms) lf o H) as (k & A & B & C).
  exists k. split; [exact A|]. split; [exact B|]. apply NoDup_count_occ'; [exact (gi_nodup (pmrun_gi pc ms))|exact C].
Qed.

(* ---- completeness ---- *)
Definition after_insert (p : ptask) : option key :=
  match p with
  | ((e, k) :: _, IReturnResult :: _, _) => Some k
  | ((e, k) :: _, IStore :: _, _) => if is_file e then None else Some k
  | _ => None
  end.

Record SC (sk : key -> bool) (c : config) (s : pstate) : Prop := {
  sc_val : forall k, sk k = true -> value (psh s) k <> None -> stats (psh s) (leaf c k) <> None;
  sc_task : forall t k, after_insert (ppcs s t) = Some k -> stats (psh s) (leaf c k) <> None
}.

Lemma sc_update : forall sk c s t p' sh',
  SC sk c s ->
  (forall lf, stats (psh s) lf <> None -> stats sh' lf <> None) ->
  (forall k, sk k = true -> value sh' k <> None -> value (psh s) k <> None \/ stats sh' (leaf c k) <> None) ->
  (forall k, after_insert p' = Some k -> stats sh' (leaf c k) <> None) ->
  SC sk c {| ppcs := upd (ppcs s) t p'; psh := sh' |}.
Proof.
  intros sk c s t p' sh' [A B] Mono Val Loc. constructor; cbn [ppcs psh].
  - intros k Hk Hv. destruct (Val k Hk Hv) as [X|X]; [apply Mono; apply A; assumption|exact X].
  - intros u k H. unfold upd in H. destruct (Nat.eqb u t); [apply Loc; exact H|apply Mono; apply (B u k H)].
Qed.

Lemma sc_pmstep : forall sk pc s t,
  GI (cfg pc) (allkeys pc) s -> SI (cfg pc) s -> (forall u, Forall (okl sk) (fst (fst (ppcs s u)))) ->
  SC sk (cfg pc) s -> SC sk (cfg pc) (pmstep canon (cfg pc) t s).
Proof.
  intros sk pc s t G Si Hcl C.
  destruct (ppcs s t) as [[[|[e k] rest] kont] l] eqn:E; [unfold pmstep; rewrite E; exact C|].
  pose proof (sc_task _ _ _ C t) as Ct. pose proof (si_local _ _ Si t _ _ _ _ _ E) as SLt. rewrite E in Ct.
  assert (Hsk : sk k = negb (is_file e)) by (pose proof (Hcl t) as R; rewrite E in R; inversion R; assumption).
  assert (Hf : kont <> [] -> fcls l = is_file e).
  { pose proof (gi_local G t) as L. rewrite E in L. destruct L as [->|L]; [contradiction|]. intros _. apply L. }
  destruct (gi_step _ _ s t e k rest kont l G E) as (kont' & l' & s' & Hstep & _ & ->).
  remember (psh s) as sh0 eqn:Es in Hstep.
  destruct Hstep; subst; cbn in Ct, SLt |- *; try (apply sc_update; cbn; auto; intros; discriminate).
  - (* the supplier has answered *)
    rewrite (Hf ltac:(discriminate)). apply sc_update; cbn; auto.
    destruct (is_file e) eqn:Ef; cbn; rewrite ?Ef; intros; discriminate.
  - (* the insert into the stats map *)
    destruct SLt as [_ SLk]. rewrite H in SLk. injection SLk as ->. apply sc_update; cbn; auto.
    + intros lf0 H0. unfold upd. destruct (Nat.eqb lf0 (leaf (pbase pc) k)); [discriminate|exact H0].
    + intros k0 H0. injection H0 as <-. rewrite upd_same. discriminate.
  - apply sc_update; cbn; auto. intros k0 H0. apply Ct. destruct (is_file e); [discriminate|exact H0].
  - (* the store into the slot *)
    apply sc_update; cbn; auto; try (intros; discriminate).
    intros k0 Hk0 Hv0. unfold upd in Hv0. destruct (Nat.eqb k0 k) eqn:Q; [|left; exact Hv0].
    apply Nat.eqb_eq in Q. subst k0. rewrite Hk0 in Hsk. destruct (is_file e); [discriminate|]. right. apply Ct. reflexivity.
  - (* the lookup finishes *)
    apply sc_update; cbn; auto. destruct rest as [|[? ?] ?]; intros; discriminate.
Qed.

Lemma sc_init : forall sk pc, SC sk (cfg pc) (pinit pc).
Proof.
  intros sk pc. constructor; cbn.
  - intros k _ H. contradiction.
  - intros t k H. destruct (nth t (ptasks pc) []) as [|[? ?] ?]; discriminate.
Qed.

Lemma pmrun_sc : forall sk pc ms, classified sk pc -> SC sk (cfg pc) (pmrun canon pc ms).
Proof.
  intros sk pc ms Hc.
  apply (pmrun_ind canon pc (fun s => (GI (cfg pc) (allkeys pc) s /\ SI (cfg pc) s) /\
                                      (forall u, Forall (okl sk) (fst (fst (ppcs s u)))) /\ SC sk (cfg pc) s)).
  - split; [split; [apply gi_init|apply si_init]|split; [exact (mi_cls (mi_init sk pc Hc))|apply sc_init]].
  - intros s t [[G Si] [Cl C]]. split; [split; [apply gi_pmstep; exact G|apply si_pmstep; assumption]|].
    split; [apply pmstep_forall; exact Cl|apply sc_pmstep; assumption].
Qed.

(* a symbol slot with a remembered answer has its stats entry; in particular every finished symbol lookup *)
Lemma pm_stats_complete : forall sk pc ms k, classified sk pc -> sk k = true ->
  value (psh (pmrun canon pc ms)) k <> None -> stats (psh (pmrun canon pc ms)) (leaf (pbase pc) k) <> None.
Proof. intros sk pc ms k Hc Hk Hv. apply (sc_val _ _ _ (pmrun_sc sk pc ms Hc) k Hk Hv). Qed.
