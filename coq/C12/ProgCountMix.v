(* C12/ProgCountMix.v — the pending counters under INSTRUCTION-level interleavings for ANY MIX of symbol lookups
   (fill_symbol / walk_frame / get_symbol_at_address) and file lookups (HttpSymbolSupplier::locate_file) in one
   configuration.  [sk] classifies the slot keys: a configuration is [classified] when symbol lookups use keys with
   sk = true and file lookups keys with sk = false (Symbolizer.symbols and HttpSymbolSupplier.cached_file_paths are
   different maps).  The file closure touches neither counter, so with a t = 1 iff task t stands between
   `symbols_requested += 1` and the supplier call and b t = 1 iff it stands between the call of locate_symbols and
   `symbols_processed += 1`,
       requested = |symbol keys in the log| + sum a        processed + sum b = |symbol keys in the log|
   hence processed <= requested <= distinct symbol keys always, and all equal at quiescence.  A configuration of symbol
   lookups only is the case sk = fun _ => true. *)
From RM Require Import C12.Model C12.Proofs C12.Progress C12.ProgModel C12.ProgProofs C12.ProgFine C12.ProgSteps
  C12.ProgSource Gen.C12Program.
From Coq Require Import Lia Permutation.

Definition wa (kont : list instr) : nat := match kont with ISupplierAwait :: _ => 1 | _ => 0 end.
Definition wb (kont : list instr) : nat :=
  match kont with ISupPoll :: IProcessedInc :: _ | IProcessedInc :: _ => 1 | _ => 0 end.
Definition okl (sk : key -> bool) (l : lookup) : Prop := sk (snd l) = negb (is_file (fst l)).
Definition classified (sk : key -> bool) (pc : pconfig) : Prop := Forall (Forall (okl sk)) (ptasks pc).
Definition symlog (sk : key -> bool) (s : shared) : list key := filter sk (calls s).
Definition distinct_sym_keys (sk : key -> bool) (pc : pconfig) : nat :=
  length (nodup Nat.eq_dec (filter sk (concat (tasks (cfg pc))))).
Definition kont_of (p : ptask) : list instr := snd (fst p).

Record MI (sk : key -> bool) (c : config) (n : nat) (s : pstate) : Prop := {
  mi_range : forall u, n <= u -> fst (fst (ppcs s u)) = [];
  mi_cls : forall u, Forall (okl sk) (fst (fst (ppcs s u)));
  mi_sub : forall k, In k (calls (psh s)) -> In k (concat (tasks c));
  mi_req : req (psh s) = length (symlog sk (psh s)) + sum_upto n (fun u => wa (kont_of (ppcs s u)));
  mi_proc : proc (psh s) + sum_upto n (fun u => wb (kont_of (ppcs s u))) = length (symlog sk (psh s))
}.
Arguments mi_range {sk c n s}. Arguments mi_cls {sk c n s}. Arguments mi_sub {sk c n s}.
Arguments mi_req {sk c n s}. Arguments mi_proc {sk c n s}.

(* what one instruction does to the counters, the symbol keys in the log and the weights of its task *)
Lemma cstep_count : forall sk c t k e kont l s kont' l' s', cstep c t k e kont l s kont' l' s' ->
  (kont <> [] -> fcls l = is_file e) -> sk k = negb (is_file e) ->
  req s' + wa kont + length (symlog sk s) = req s + wa kont' + length (symlog sk s') /\
  proc s' + wb kont' + length (symlog sk s) = proc s + wb kont + length (symlog sk s') /\
  (forall x, In x (calls s') -> In x (calls s) \/ x = k).
Proof.
  intros sk c t k e kont l s kont' l' s' H Hf Hsk. unfold symlog.
  destruct H; cbn; rewrite ?filter_app, ?app_length; cbn; try (split; [|split]; auto; lia).
  - rewrite <- (Hf ltac:(discriminate)), H in Hsk. rewrite Hsk. cbn.
    split; [|split]; [lia..|]. intros x Hx. apply in_app_or in Hx. destruct Hx as [Hx|[<-|[]]]; auto.
  - rewrite <- (Hf ltac:(discriminate)), H in Hsk. rewrite Hsk. cbn.
    split; [|split]; [lia..|]. intros x Hx. apply in_app_or in Hx. destruct Hx as [Hx|[<-|[]]]; auto.
  - subst r. destruct (fcls l); cbn; auto.
Qed.

Lemma key_requested : forall pc s t e k rest kont l,
  GI (cfg pc) (allkeys pc) s -> ppcs s t = ((e, k) :: rest, kont, l) -> t < length (ptasks pc) ->
  In k (concat (tasks (cfg pc))).
Proof.
  intros pc s t e k rest kont l G E Ht.
  pose proof (gi_complete G t) as X. rewrite E in X. cbn in X. unfold allkeys in X.
  assert (A : In k (map snd (nth t (ptasks pc) []))).
  { rewrite <- X. apply in_or_app. right. left. reflexivity. }
  apply in_concat. exists (map snd (nth t (ptasks pc) [])). split; [|exact A].
  cbn [cfg tasks]. apply in_map. apply nth_In. exact Ht.
Qed.

Lemma mi_pmstep : forall sk pc s t,
  GI (cfg pc) (allkeys pc) s -> MI sk (cfg pc) (length (ptasks pc)) s ->
  MI sk (cfg pc) (length (ptasks pc)) (pmstep canon (cfg pc) t s).
Proof.
  intros sk pc s t G C.
  assert (Hrange := pmstep_range canon (cfg pc) _ t s (mi_range C)).
  assert (Hcls := pmstep_forall (okl sk) canon (cfg pc) t s (mi_cls C)).
  destruct (ppcs s t) as [[[|[e k] rest] kont] l] eqn:E; [unfold pmstep; rewrite E; exact C|].
  assert (Hlt : t < length (ptasks pc)).
  { destruct (Nat.lt_ge_cases t (length (ptasks pc))) as [A|A]; [exact A|].
    pose proof (mi_range C t A) as R. rewrite E in R. discriminate. }
  assert (Hsk : sk k = negb (is_file e)) by (pose proof (mi_cls C t) as R; rewrite E in R; inversion R; assumption).
  assert (Hf : kont <> [] -> fcls l = is_file e).
  { pose proof (gi_local G t) as L. rewrite E in L. destruct L as [->|L]; [contradiction|]. intros _. apply L. }
  destruct (gi_step _ _ s t e k rest kont l G E) as (kont' & l' & s' & Hstep & _ & Heq).
  destruct (cstep_count sk _ _ _ _ _ _ _ _ _ _ Hstep Hf Hsk) as (Hreq & Hproc & Hcalls).
  pose proof (sum_upto_upd_lt _ (fun p => wa (kont_of p)) (ppcs s) t (after e k rest kont' l') _ Hlt) as Sa.
  pose proof (sum_upto_upd_lt _ (fun p => wb (kont_of p)) (ppcs s) t (after e k rest kont' l') _ Hlt) as Sb.
  assert (Ek : kont_of (after e k rest kont' l') = kont') by (destruct kont'; reflexivity).
  rewrite E, Ek in Sa, Sb. cbn [kont_of fst snd] in Sa, Sb.
  pose proof (mi_req C) as R. pose proof (mi_proc C) as Q.
  constructor; [exact Hrange|exact Hcls|..]; rewrite Heq; cbn [ppcs psh]; [|lia..].
  intros x Hx. destruct (Hcalls x Hx) as [Hx'| ->]; [exact (mi_sub C x Hx')|exact (key_requested pc s t e k rest kont l G E Hlt)].
Qed.

Lemma mi_init : forall sk pc, classified sk pc -> MI sk (cfg pc) (length (ptasks pc)) (pinit pc).
Proof.
  intros sk pc Hs. constructor; cbn.
  - intros u Hu. apply nth_overflow. exact Hu.
  - intro u. destruct (Nat.lt_ge_cases u (length (ptasks pc))) as [A|A].
    + unfold classified in Hs. rewrite Forall_forall in Hs. apply Hs. apply nth_In. exact A.
    + rewrite nth_overflow by exact A. constructor.
  - intros k [].
  - symmetry. apply sum_upto_zero. reflexivity.
  - apply sum_upto_zero. reflexivity.
Qed.

Lemma pmrun_mi : forall sk pc ms, classified sk pc -> MI sk (cfg pc) (length (ptasks pc)) (pmrun canon pc ms).
Proof.
  intros sk pc ms Hs.
  apply (pmrun_ind canon pc (fun s => GI (cfg pc) (allkeys pc) s /\ MI sk (cfg pc) (length (ptasks pc)) s)).
  - split; [apply gi_init|apply mi_init; exact Hs].
  - intros s t [G C]. split; [apply gi_pmstep; exact G|apply mi_pmstep; assumption].
Qed.

(* requested <= distinct symbol keys in every reachable state: the symbol keys in the log and the keys of the tasks
   standing between `symbols_requested += 1` and the supplier call are pairwise different requested symbol keys *)
Definition akey (p : ptask) : list key :=
  match p with ((_, k) :: _, ISupplierAwait :: _, _) => [k] | _ => [] end.
Definition akeys (s : pstate) (n : nat) : list key := flat_map (fun u => akey (ppcs s u)) (seq 0 n).

Lemma akeys_len : forall c ks s n, GI c ks s -> length (akeys s n) = sum_upto n (fun u => wa (kont_of (ppcs s u))).
Proof.
  intros c ks s n G. unfold akeys. induction n as [|m IH]; [reflexivity|].
  rewrite seq_S, flat_map_app, app_length. cbn [sum_upto]. f_equal; [exact IH|].
  cbn. rewrite app_nil_r. pose proof (gi_local G m) as L.
  destruct (ppcs s m) as [[[|[e k] r] kont] l]; cbn in *; [subst; reflexivity|].
  destruct kont as [|[] ?]; reflexivity.
Qed.

Lemma akeys_in : forall s n k, In k (akeys s n) ->
  exists u e rest more l, u < n /\ ppcs s u = ((e, k) :: rest, ISupplierAwait :: more, l).
Proof.
  intros s n k H. apply in_flat_map in H. destruct H as (u & Hu & Hk). apply in_seq in Hu.
  destruct (ppcs s u) as [[[|[e k'] r] [|[] m]] l] eqn:E; try contradiction. destruct Hk as [<-|[]].
  exists u, e, r, m, l. split; [lia|exact E].
Qed.

(* such a task holds the lock of its slot, and the supplier has not been asked for that slot *)
Lemma akeys_pre : forall c ks s u e k rest more l, GI c ks s -> ppcs s u = ((e, k) :: rest, ISupplierAwait :: more, l) ->
  lock (psh s) k = Some u /\ ~ In k (calls (psh s)).
Proof.
  intros c ks s u e k rest more l G E. split.
  - apply (gi_lock G). rewrite E. split; reflexivity.
  - pose proof (gi_cls G u k) as F. rewrite E in F. apply (F eq_refl).
Qed.

Lemma akeys_nodup : forall c ks s n, GI c ks s -> NoDup (akeys s n).
Proof.
  intros c ks s n G. unfold akeys. induction n as [|m IH]; [constructor|].
  rewrite seq_S, flat_map_app. cbn. rewrite app_nil_r.
  destruct (ppcs s m) as [[[|[e k] r] [|[] mm]] l] eqn:E; cbn; rewrite ?app_nil_r; try exact IH.
  apply NoDup_snoc; [exact IH|]. intro Hin.
  destruct (akeys_in s m k Hin) as (u & e' & r' & m' & l' & Hu & E').
  destruct (akeys_pre _ _ _ _ _ _ _ _ _ G E) as [A _]. destruct (akeys_pre _ _ _ _ _ _ _ _ _ G E') as [B _].
  assert (u = m) by congruence. lia.
Qed.

Section MixTheorems.
Variable sk : key -> bool.
Variable pc : pconfig.
Variable ms : list task.
Hypothesis Hcl : classified sk pc.
Local Notation s := (pmrun canon pc ms).
Local Notation n := (length (ptasks pc)).
Local Notation G := (pmrun_gi pc ms).
Local Notation C := (pmrun_mi sk pc ms Hcl).

Lemma mix_processed_le_requested : proc (psh s) <= req (psh s).
Proof. pose proof (mi_req C). pose proof (mi_proc C). lia. Qed.

Lemma mix_requested_le_distinct : req (psh s) <= distinct_sym_keys sk pc.
Proof.
  rewrite (mi_req C), <- (akeys_len _ _ _ _ G), <- app_length.
  unfold distinct_sym_keys. apply NoDup_incl_length.
  - apply NoDup_app_disjoint; [apply NoDup_filter; exact (gi_nodup G)|exact (akeys_nodup _ _ _ _ G)|].
    intros k H1 H2. apply filter_In in H1. destruct (akeys_in _ _ _ H2) as (u & e & r & m & l & _ & E).
    apply (akeys_pre _ _ _ _ _ _ _ _ _ G E). apply H1.
  - intros k Hk. apply nodup_In. apply filter_In. apply in_app_or in Hk. destruct Hk as [Hk|Hk].
    + apply filter_In in Hk. split; [apply (mi_sub C); apply Hk|apply Hk].
    + destruct (akeys_in _ _ _ Hk) as (u & e & r & m & l & Hu & E).
      split; [exact (key_requested pc s u e k r _ l G E Hu)|].
      (* the supplier call of the symbol closure is inside a symbol lookup *)
      pose proof (mi_cls C u) as Q. rewrite E in Q. inversion Q as [|x y Q1 _]; subst. unfold okl in Q1. cbn in Q1.
      rewrite Q1. pose proof (gi_local G u) as L. rewrite E in L. destruct L as [L|(Hin & _)]; [discriminate|].
      destruct (is_file e); [cbn in Hin; intuition discriminate|reflexivity].
Qed.

Lemma mix_counters_quiescent :
  pall_done pc s = true -> req (psh s) = distinct_sym_keys sk pc /\ proc (psh s) = distinct_sym_keys sk pc.
Proof.
  intro Hd.
  assert (Hk : forall u, kont_of (ppcs s u) = []).
  { intro u. pose proof (pall_done_rem pc s (pmrun_range canon pc ms) Hd u) as R. pose proof (gi_local G u) as L.
    destruct (ppcs s u) as [[rem kont] l]. cbn in *. subst rem. exact L. }
  pose proof (mi_req C) as R. pose proof (mi_proc C) as Q.
  rewrite (proj2 (sum_upto_zero _ _)) in R by (intros u _; rewrite Hk; reflexivity).
  rewrite (proj2 (sum_upto_zero _ _)) in Q by (intros u _; rewrite Hk; reflexivity).
  assert (L : length (symlog sk (psh s)) = distinct_sym_keys sk pc).
  { apply Permutation_length. apply NoDup_Permutation.
    - apply NoDup_filter. exact (gi_nodup G).
    - apply NoDup_nodup.
    - intro k. rewrite nodup_In. unfold symlog. rewrite !filter_In. split; intros [A B]; (split; [|exact B]).
      + exact (mi_sub C k A).
      + apply (count_occ_In Nat.eq_dec). pose proof (pm_exactly_once pc ms k Hd A) as X. unfold psupplier_calls in X. lia. }
  lia.
Qed.
End MixTheorems.

(* symbol lookups only *)
Lemma sym_only_counters : forall pc, sym_only pc ->
  classified (fun _ => true) pc /\ distinct_sym_keys (fun _ => true) pc = distinct_keys (cfg pc).
Proof.
  intros pc H. split.
  - refine (Forall_impl _ _ H). intro l. apply Forall_impl. intros [e k] Hl. unfold okl. cbn in *. rewrite Hl. reflexivity.
  - unfold distinct_sym_keys, distinct_keys. f_equal. f_equal.
    induction (concat (tasks (cfg pc))) as [|x r IH]; cbn; [reflexivity|]. rewrite IH. reflexivity.
Qed.

Lemma pm_counters_bounded : forall pc ms, sym_only pc ->
  proc (psh (pmrun canon pc ms)) <= req (psh (pmrun canon pc ms)) /\ req (psh (pmrun canon pc ms)) <= distinct_keys (cfg pc).
Proof.
  intros pc ms H. destruct (sym_only_counters pc H) as [Hc <-].
  split; [exact (mix_processed_le_requested _ pc ms Hc)|exact (mix_requested_le_distinct _ pc ms Hc)].
Qed.

Lemma pm_counters_quiescent : forall pc ms, sym_only pc -> pall_done pc (pmrun canon pc ms) = true ->
  req (psh (pmrun canon pc ms)) = distinct_keys (cfg pc) /\ proc (psh (pmrun canon pc ms)) = distinct_keys (cfg pc).
Proof. intros pc ms H. destruct (sym_only_counters pc H) as [Hc <-]. exact (mix_counters_quiescent _ pc ms Hc). Qed.

(* poll-level runs are instruction-level runs (C12/ProgSteps.v): the same for whole polls *)
Lemma pall_done_eq : forall pc a b, (forall t, ppcs a t = ppcs b t) -> pall_done pc a = pall_done pc b.
Proof.
  intros pc a b H. unfold pall_done. induction (seq 0 (length (ptasks pc))) as [|t r IH]; [reflexivity|].
  cbn [forallb]. rewrite IH. unfold ptask_done. rewrite H. reflexivity.
Qed.

Lemma mix_poll_counters : forall (sk : key -> bool) (pc : pconfig) (sched : list task), classified sk pc ->
  proc (psh (prun canon pc sched)) <= req (psh (prun canon pc sched)) /\
  req (psh (prun canon pc sched)) <= distinct_sym_keys sk pc /\
  (pall_done pc (prun canon pc sched) = true ->
   req (psh (prun canon pc sched)) = distinct_sym_keys sk pc /\
   proc (psh (prun canon pc sched)) = distinct_sym_keys sk pc).
Proof.
  intros sk pc sched H. destruct (polls_are_instruction_schedules pc sched) as (ms & Ht & Hs).
  rewrite <- Hs, <- (pall_done_eq pc _ _ Ht).
  split; [exact (mix_processed_le_requested sk pc ms H)|]. split; [exact (mix_requested_le_distinct sk pc ms H)|].
  exact (mix_counters_quiescent sk pc ms H).
Qed.

(* non-vacuity: the mixed workload of C12/Properties.v (symbol slots 0 and 1, file slot 2) *)
Definition mix_pc : pconfig :=
  {| ptasks := [[(EFill, 0); (EFile, 2)]; [(EWalk, 0); (EAddr, 1)]; [(EFile, 2); (EFill, 1)]];
     pbase := {| tasks := []; susp := fun k => S k; outc := fun k => if Nat.eqb k 1 then OParse else OOk;
                 leaf := fun k => k |} |}.
Definition mix_sk (k : key) : bool := Nat.ltb k 2.
Lemma mix_classified : classified mix_sk mix_pc.
Proof. repeat constructor. Qed.
Lemma mix_example :
  distinct_sym_keys mix_sk mix_pc = 2 /\ distinct_keys (cfg mix_pc) = 3 /\
  let s := pmrun src_program mix_pc (concat (repeat [0; 1; 2] 40)) in
  pall_done mix_pc s = true /\ req (psh s) = 2 /\ proc (psh s) = 2 /\ length (calls (psh s)) = 3.
Proof. vm_compute. repeat split. Qed.
