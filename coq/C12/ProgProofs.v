(* C12/ProgProofs.v — the interpreter of C12/ProgModel.v running the canonical program refines C12/Model.v:
   poll for poll, for every configuration and every schedule.  Symbol lookups (fill_symbol,
   walk_frame, get_symbol_at_address) refine the model completely (slot state, supplier log, results, counters,
   stats); runs that contain file lookups (locate_file -> locate_file_internal) refine its slot part (lock,
   value, log, results) — the file closure has no counters and no stats. *)
From RM Require Import C12.Model C12.Proofs C12.Progress C12.ProgModel.
From Coq Require Import Lia.

Definition is_file (e : entry) : bool := match e with EFile => true | _ => false end.

(* equality of shared states, pointwise in the maps; counters and stats only when [full] *)
Definition sh_eq (full : bool) (a b : shared) : Prop :=
  (forall k, lock a k = lock b k) /\ (forall k, value a k = value b k) /\ calls a = calls b /\
  (forall t, results a t = results b t) /\
  (full = true -> req a = req b /\ proc a = proc b /\ forall l, stats a l = stats b l).

Definition okfull (full : bool) (rem : list lookup) : Prop :=
  full = true -> Forall (fun l => is_file (fst l) = false) rem.

Lemma okfull_tail : forall full x rem, okfull full (x :: rem) -> okfull full rem.
Proof. intros full x rem H F. specialize (H F). inversion H; assumption. Qed.

(* where a task of the canonical program can stand between two polls *)
Definition tail_get : list instr := [IIfNone [IStoreCallAwait]; IReturnClone; IEndGet; IUseResult].
Definition tail_sup (f : bool) : list instr :=
  (if f then [] else [IProcessedInc; IStatsNew; IStatsClassify; ILeafKey; IStatsInsert; IReturnResult])
  ++ [IStore; IReturnClone; IEndGet; IUseResult].

Inductive bnd : list lookup -> list instr -> local -> Prop :=
| BStart : forall rem, bnd rem [] l0
| BWait : forall e k rest, bnd ((e, k) :: rest) (ILockAwait :: tail_get) (set_guard (set_fcls l0 (is_file e)) false true)
| BSup : forall e k rest l, guard l = true -> fcls l = is_file e ->
                            bnd ((e, k) :: rest) (ISupPoll :: tail_sup (is_file e)) l.

Definition bnd_task (p : ptask) : Prop := let '(r, k, l) := p in bnd r k l.

(* the fuel of one poll.  One lookup of the canonical program executes fewer than 20 instructions in a poll, so the
   lemmas about one lookup are stated for fuel 20 + n; a poll enters the lookup after 1 instruction (2 through
   get_symbol_at_address), hence 112 = 1 + (20 + 91) = 2 + (20 + 90), and 20 + 92 when it resumes inside it *)
Lemma pfuel_canon : pfuel canon = 112.
Proof. reflexivity. Qed.

(* pointwise comparison of two chains of [upd] *)
Ltac pw H1 H2 H4 :=
  unfold upd;
  repeat match goal with |- context [Nat.eqb ?a ?b] =>
           let E := fresh "E" in destruct (Nat.eqb a b) eqn:E; [apply Nat.eqb_eq in E; subst | ] end;
  rewrite ?H1, ?H2, ?H4; try reflexivity; try congruence.

(* [sh_eq] of two states built from [sh_eq] states by record updates; the counters and stats of a file lookup are not
   compared ([full] is false then) *)
Ltac sheq :=
  match goal with
  | H : sh_eq _ _ _ |- sh_eq _ _ _ =>
      let H1 := fresh in let H2 := fresh in let H3 := fresh in let H4 := fresh in let H5 := fresh in
      destruct H as (H1 & H2 & H3 & H4 & H5);
      unfold sh_eq; cbn;
      refine (conj _ (conj _ (conj _ (conj _ _))));
      [ intros; pw H1 H2 H4 | intros; pw H1 H2 H4 | congruence | intros; pw H1 H2 H4
      | let F := fresh in let R := fresh in let Q := fresh in let S := fresh in
        intro F;
        first [ exfalso; match goal with Hf : _ = true -> true = false |- _ => specialize (Hf F); discriminate end
              | destruct (H5 F) as (R & Q & S);
                refine (conj _ (conj _ _)); [congruence | congruence | intros; pw S S S] ] ]
  end.

(* the head lookup of [advance]: the phase it is left in (None = it has finished) and the shared state *)
Definition lookup_step (c : config) (t : task) (k : key) (ph : phase) (s : shared) : option phase * shared :=
  match ph with
  | Sup (S m) => (Some (Sup m), s)
  | Sup O => (None, complete c t k s)
  | _ =>
      match lock s k with
      | Some _ => (Some Wait, s)
      | None =>
          match value s k with
          | Some o => (None, hit t k o s)
          | None =>
              match susp c k with
              | O => (None, complete c t k (begin_call t k s))
              | S m => (Some (Sup m), begin_call t k s)
              end
          end
      end
  end.

Lemma advance_cons : forall c t k rest ph s,
  advance c t (k :: rest) ph s =
  match lookup_step c t k ph s with
  | (None, s1) => advance c t rest Start s1
  | (Some ph', s1) => (k :: rest, ph', s1)
  end.
Proof.
  intros. unfold lookup_step. cbn [advance]. destruct ph as [| |[|m]]; try reflexivity;
    (destruct (lock s k); [reflexivity|]; destruct (value s k); [reflexivity|]; destruct (susp c k); reflexivity).
Qed.

Section Sim.
Variable full : bool.
Variable c : config.
Variable t : task.

(* one poll of the interpreter inside one lookup against the head lookup of the model.  [sim_get] / [sim_sup] run the
   instructions of get (resp. of the rest of the closure) symbolically, one case per way the lookup can go, and [sheq]
   compares the interpreter's shared record with the model's field by field *)
Definition sim_res (lk : lookup) (rest : list lookup) (r : rres) (m : option phase * shared) : Prop :=
  match r, m with
  | RDone _ s1, (None, s2) => sh_eq full s1 s2
  | RPend kont l s1, (Some ph, s2) => phase_of kont l = ph /\ bnd (lk :: rest) kont l /\ sh_eq full s1 s2
  | _, _ => False
  end.

Lemma sim_get : forall e k rest g w n s s', sh_eq full s s' -> (full = true -> is_file e = false) ->
  sim_res (e, k) rest
    (run_instrs (20 + n) canon c t k (ILockAwait :: tail_get) (set_guard (set_fcls l0 (is_file e)) g w) s)
    (lookup_step c t k (if w then Wait else Start) s').
Proof.
  intros e k rest g w n s s' He Hfile.
  assert (Hl : lock s k = lock s' k) by apply He. assert (Hv : value s k = value s' k) by apply He.
  assert (Hm : lookup_step c t k (if w then Wait else Start) s' = lookup_step c t k Start s') by (destruct w; reflexivity).
  rewrite Hm. unfold lookup_step. rewrite <- Hl, <- Hv. clear Hm Hl Hv.
  cbn [Nat.add run_instrs istep]. destruct (lock s k) eqn:Hlk.
  - refine (conj eq_refl (conj _ He)). apply BWait.
  - cbn. destruct (value s k) eqn:Hvk.
    + repeat (progress (cbn; rewrite ?Hvk, ?upd_same)). sheq.
    + destruct (is_file e) eqn:Ef; destruct (susp c k) eqn:Hs; repeat (progress (cbn; rewrite ?Hs, ?upd_same));
        try (refine (conj eq_refl (conj _ _));
             [match goal with |- bnd _ _ ?l1 => pose proof (BSup e k rest l1) as B end; rewrite Ef in B; apply B; reflexivity|]);
        sheq.
Qed.

Lemma sim_sup : forall e k rest l n s s', guard l = true -> fcls l = is_file e ->
  sh_eq full s s' -> (full = true -> is_file e = false) ->
  sim_res (e, k) rest (run_instrs (20 + n) canon c t k (ISupPoll :: tail_sup (is_file e)) l s)
    (lookup_step c t k (Sup (ticks l)) s').
Proof.
  intros e k rest l n s s' Hg Hf He Hfile. unfold lookup_step. cbn [Nat.add run_instrs istep].
  destruct (ticks l) eqn:Ht.
  - destruct (is_file e) eqn:Ef; repeat (progress (cbn; rewrite ?Hg, ?upd_same)); sheq.
  - refine (conj _ (conj _ He)); [cbn; reflexivity|]. apply BSup; assumption.
Qed.

Lemma sim_advance : forall rem kont l s s',
  okfull full rem -> bnd rem kont l -> sh_eq full s s' ->
  forall p1 s1, padvance canon c t rem kont l s = (p1, s1) ->
  forall rem2 ph2 s2, advance c t (map snd rem) (phase_of kont l) s' = (rem2, ph2, s2) ->
  abs_task p1 = (rem2, ph2) /\ bnd_task p1 /\ sh_eq full s1 s2.
Proof.
  induction rem as [|[e k] rest IH]; intros kont l s s' Hok Hb He p1 s1 Hp rem2 ph2 s2 Ha.
  - cbn in Hp, Ha. inversion Hp; subst. inversion Hb; subst. cbn in Ha. inversion Ha; subst.
    refine (conj _ (conj _ _)); [reflexivity | constructor | exact He].
  - assert (Hfile : full = true -> is_file e = false).
    { intro F. specialize (Hok F). inversion Hok; assumption. }
    cbn [padvance] in Hp. rewrite pfuel_canon in Hp. cbn [map snd] in Ha. rewrite advance_cons in Ha.
    change (p_entry canon e) with (canon_entry e) in Hp.
    destruct (match kont with [] => (canon_entry e, l0) | _ :: _ => (kont, l) end) as [kont0 li] eqn:Ek.
    assert (R : sim_res (e, k) rest (run_instrs 112 canon c t k kont0 li s) (lookup_step c t k (phase_of kont l) s')).
    { inversion Hb; subst; injection Ek as <- <-.
      - destruct e; [exact (sim_get EFill k rest false false 91 s s' He Hfile)
                    |exact (sim_get EWalk k rest false false 91 s s' He Hfile)
                    |exact (sim_get EAddr k rest false false 90 s s' He Hfile)
                    |exact (sim_get EFile k rest false false 91 s s' He Hfile)].
      - exact (sim_get e k rest false true 92 s s' He Hfile).
      - apply (sim_sup e k rest l 92); assumption. }
    destruct (run_instrs 112 canon c t k kont0 li s) as [l1 s1'|kont' l' s1'|];
      destruct (lookup_step c t k (phase_of kont l) s') as [[ph'|] s2']; try contradiction.
    + eapply IH; [exact (okfull_tail _ _ _ Hok) | apply BStart | exact R | exact Hp | exact Ha].
    + destruct R as (R1 & R2 & R3). inversion Hp; inversion Ha; subst. auto.
Qed.
End Sim.

(* ---- from one poll to whole schedules ---- *)
Lemma padvance_suffix : forall P c t rem kont l s,
  exists pre, rem = pre ++ fst (fst (fst (padvance P c t rem kont l s))).
Proof.
  induction rem as [|[e k] rest IH]; intros kont l s.
  - exists []. reflexivity.
  - cbn [padvance].
    destruct (match kont with [] => (p_entry P e, l0) | _ :: _ => (kont, l) end) as [kont0 li].
    destruct (run_instrs (pfuel P) P c t k kont0 li s) as [l' s'|kont' l' s'|].
    + destruct (IH [] l0 s') as [pre H]. exists ((e, k) :: pre). cbn. f_equal. exact H.
    + exists []. reflexivity.
    + exists []. reflexivity.
Qed.

Lemma okfull_suffix : forall full pre rem, okfull full (pre ++ rem) -> okfull full rem.
Proof. intros full pre rem H F. specialize (H F). apply Forall_app in H. apply H. Qed.

Definition psim (full : bool) (ps : pstate) (ms : state) : Prop :=
  (forall t, abs_task (ppcs ps t) = pcs ms t) /\ (forall t, bnd_task (ppcs ps t)) /\
  (forall t, okfull full (fst (fst (ppcs ps t)))) /\ sh_eq full (psh ps) (sh ms).

Lemma psim_poll : forall full c t ps ms,
  psim full ps ms -> psim full (ppoll canon c t ps) (poll c t ms).
Proof.
  intros full c t ps ms (Hpc & Hb & Hok & He).
  unfold ppoll, poll.
  destruct (ppcs ps t) as [[rem kont] l] eqn:Ept.
  assert (Hm : pcs ms t = (map snd rem, phase_of kont l)).
  { rewrite <- Hpc, Ept. reflexivity. }
  rewrite Hm.
  destruct (padvance canon c t rem kont l (psh ps)) as [p1 s1] eqn:Ep.
  destruct (advance c t (map snd rem) (phase_of kont l) (sh ms)) as [[rem2 ph2] s2] eqn:Ea.
  assert (Hb0 : bnd rem kont l). { specialize (Hb t). rewrite Ept in Hb. exact Hb. }
  assert (Hok0 : okfull full rem). { specialize (Hok t). rewrite Ept in Hok. exact Hok. }
  destruct (sim_advance full c t rem kont l (psh ps) (sh ms) Hok0 Hb0 He p1 s1 Ep rem2 ph2 s2 Ea)
    as (A & B & C).
  assert (Hsuf : okfull full (fst (fst p1))).
  { destruct (padvance_suffix canon c t rem kont l (psh ps)) as [pre Hpre]. rewrite Ep in Hpre. cbn in Hpre.
    apply (okfull_suffix full pre). rewrite <- Hpre. exact Hok0. }
  unfold psim. cbn [ppcs psh pcs sh].
  refine (conj _ (conj _ (conj _ C))); intro u; unfold upd; destruct (Nat.eqb u t); auto.
Qed.

Lemma psim_run_from : forall full c sched ps ms,
  psim full ps ms ->
  psim full (fold_left (fun s t => ppoll canon c t s) sched ps) (run_from c ms sched).
Proof.
  induction sched as [|t r IH]; intros ps ms H; cbn.
  - exact H.
  - apply IH. apply psim_poll. exact H.
Qed.

Definition sym_only (pc : pconfig) : Prop :=
  Forall (Forall (fun l : lookup => is_file (fst l) = false)) (ptasks pc).

Lemma psim_init : forall full pc, (full = true -> sym_only pc) -> psim full (pinit pc) (init (cfg pc)).
Proof.
  intros full pc Hs. unfold psim, pinit, init. cbn.
  refine (conj _ (conj _ (conj _ _))).
  - intro t. f_equal. exact (eq_sym (map_nth (map (@snd entry key)) (ptasks pc) [] t)).
  - intro t. apply BStart.
  - intros t F. specialize (Hs F). unfold sym_only in Hs.
    destruct (Nat.lt_ge_cases t (length (ptasks pc))) as [Hlt|Hge].
    + rewrite Forall_forall in Hs. apply Hs. apply nth_In. exact Hlt.
    + rewrite nth_overflow by exact Hge. constructor.
  - unfold sh_eq. cbn. repeat split; reflexivity.
Qed.

(* the interpreter running the canonical program is the model, poll for poll *)
Theorem prun_refines : forall full pc sched,
  (full = true -> sym_only pc) -> psim full (prun canon pc sched) (run (cfg pc) sched).
Proof. intros. unfold prun, prun_from, run. apply psim_run_from. apply psim_init. assumption. Qed.

(* ---- the property-level statements, transported ---- *)

Lemma ptask_done_abs : forall full ps ms t, psim full ps ms -> ptask_done ps t = task_done ms t.
Proof.
  intros full ps ms t (Hpc & _). unfold ptask_done, task_done. rewrite <- Hpc.
  destruct (ppcs ps t) as [[rem kont] l]. cbn. destruct rem; reflexivity.
Qed.

Lemma pall_done_abs : forall full pc ps ms, psim full ps ms -> pall_done pc ps = all_done (cfg pc) ms.
Proof.
  intros full pc ps ms H. unfold pall_done, all_done, ntasks.
  replace (length (tasks (cfg pc))) with (length (ptasks pc)) by (symmetry; apply map_length).
  generalize (seq 0 (length (ptasks pc))). induction l as [|t r IH]; cbn; [reflexivity|].
  rewrite (ptask_done_abs full ps ms t H), IH. reflexivity.
Qed.

Section Transport.
Variable pc : pconfig.
Variable sched : list task.
Local Notation ps := (prun canon pc sched).
Local Notation ms := (run (cfg pc) sched).

Lemma sim_slots : psim false ps ms.
Proof. apply prun_refines. discriminate. Qed.

(* the supplier (locate_symbols / the file closure's fetch) is entered at most once per slot, whatever mix of
   fill_symbol / walk_frame / get_symbol_at_address / locate_file calls the tasks make *)
Lemma p_at_most_once : forall k, psupplier_calls ps k <= 1.
Proof.
  intro k. destruct sim_slots as (_ & _ & _ & He). destruct He as (_ & _ & Hc & _).
  unfold psupplier_calls. rewrite Hc. apply (at_most_once (cfg pc)).
Qed.

Lemma p_same_outcome : forall t i k o,
  ptask_result ps t i = Some (k, o) ->
  o = outc (pbase pc) k /\ exists e, nth_error (nth t (ptasks pc) []) i = Some (e, k).
Proof.
  intros t i k o H. destruct sim_slots as (_ & _ & _ & He). destruct He as (_ & _ & _ & Hr & _).
  unfold ptask_result in H. rewrite Hr in H.
  destruct (same_outcome (cfg pc) sched t i k o H) as [A B]. split; [exact A|].
  cbn [cfg tasks] in B.
  assert (E : nth t (map (map (@snd entry key)) (ptasks pc)) [] = map (@snd entry key) (nth t (ptasks pc) []))
    by exact (map_nth (map (@snd entry key)) (ptasks pc) [] t).
  rewrite E in B.
  rewrite nth_error_map in B.
  match type of B with option_map _ ?x = _ => destruct x as [[e k']|] eqn:Ex end; cbn in B; [|discriminate].
  inversion B; subst. exists e. exact Ex.
Qed.

Lemma p_results_complete : forall t,
  pall_done pc ps = true -> map fst (results (psh ps) t) = map snd (nth t (ptasks pc) []).
Proof.
  intros t Hd. rewrite (pall_done_abs false pc ps ms sim_slots) in Hd.
  destruct sim_slots as (_ & _ & _ & He). destruct He as (_ & _ & _ & Hr & _).
  rewrite Hr. rewrite (results_complete (cfg pc) sched t Hd). cbn [cfg tasks].
  exact (map_nth (map (@snd entry key)) (ptasks pc) [] t).
Qed.

Lemma p_exactly_once : forall k,
  pall_done pc ps = true -> In k (concat (tasks (cfg pc))) -> psupplier_calls ps k = 1.
Proof.
  intros k Hd Hk. rewrite (pall_done_abs false pc ps ms sim_slots) in Hd.
  destruct sim_slots as (_ & _ & _ & He). destruct He as (_ & _ & Hc & _).
  unfold psupplier_calls. rewrite Hc. apply (exactly_once_quiescent (cfg pc)); assumption.
Qed.

Lemma p_fair_finishes : forall T,
  fair (length (ptasks pc)) T sched -> T * work (cfg pc) <= length sched -> pall_done pc ps = true.
Proof.
  intros T Hf Hl. rewrite (pall_done_abs false pc ps ms sim_slots).
  apply (finish_fair (cfg pc) T); [|exact Hl].
  unfold ntasks. cbn [cfg tasks]. rewrite map_length. exact Hf.
Qed.

(* a task of the canonical program is never stuck (no unwrap of None, no ill-formed continuation, fuel suffices) *)
Lemma p_never_stuck : forall t, snd (fst (ppcs ps t)) <> [IAbort].
Proof.
  intro t. destruct sim_slots as (_ & Hb & _). specialize (Hb t).
  destruct (ppcs ps t) as [[rem kont] l]. cbn in *. inversion Hb; discriminate.
Qed.

(* symbol lookups only: the pending counters *)
Hypothesis Hsym : sym_only pc.

Lemma sim_full : psim true ps ms.
Proof. apply prun_refines. intros _. exact Hsym. Qed.

Lemma p_counters_bounded :
  proc (psh ps) <= req (psh ps) /\ req (psh ps) <= distinct_keys (cfg pc).
Proof.
  destruct sim_full as (_ & _ & _ & He). destruct He as (_ & _ & _ & _ & H5).
  destruct (H5 eq_refl) as (R & Q & _). rewrite R, Q. apply (counters_bounded (cfg pc)).
Qed.

Lemma p_counters :
  pall_done pc ps = true -> req (psh ps) = distinct_keys (cfg pc) /\ proc (psh ps) = distinct_keys (cfg pc).
Proof.
  intro Hd. rewrite (pall_done_abs true pc ps ms sim_full) in Hd.
  destruct sim_full as (_ & _ & _ & He). destruct He as (_ & _ & _ & _ & H5).
  destruct (H5 eq_refl) as (R & Q & _). rewrite R, Q. apply (counters_quiescent (cfg pc)). exact Hd.
Qed.

Lemma p_stats : forall lf, stats (psh ps) lf = stats (sh ms) lf.
Proof.
  destruct sim_full as (_ & _ & _ & He). destruct He as (_ & _ & _ & _ & H5).
  destruct (H5 eq_refl) as (_ & _ & S). exact S.
Qed.
End Transport.
