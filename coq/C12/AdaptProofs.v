(* C12/AdaptProofs.v — an adaptive run is the run of the unfolded fixed lists, poll for poll. *)
From RM Require Import C12.Model C12.Proofs C12.AdaptModel.
From Coq Require Import Lia.

Definition valok (c : config) (s : shared) : Prop := forall k o, value s k = Some o -> o = outc c k.

Lemma valok_complete : forall c t k s, valok c s -> valok c (complete c t k s).
Proof.
  intros c t k s H k' o E. cbn [complete value] in E. unfold upd in E.
  destruct (Nat.eqb k' k) eqn:Q; [apply Nat.eqb_eq in Q; subst; inversion E; reflexivity|apply H; exact E].
Qed.

Lemma res_hit : forall t k o s, results (hit t k o s) t = results s t ++ [(k, o)].
Proof. intros. cbn [hit results]. apply upd_same. Qed.
Lemma res_begin : forall t k s, results (begin_call t k s) t = results s t.
Proof. reflexivity. Qed.
Lemma res_complete : forall c t k s, results (complete c t k s) t = results s t ++ [(k, outc c k)].
Proof. intros. cbn [complete results]. apply upd_same. Qed.

Lemma ends_none : forall n oc sg acc, sg acc = None -> ends n oc sg acc = true.
Proof. intros n oc sg acc H. destruct n; cbn; rewrite H; reflexivity. Qed.
Lemma unfold_none : forall n oc sg acc, sg acc = None -> unfold_strat n oc sg acc = [].
Proof. intros n oc sg acc H. destruct n; cbn; [|rewrite H]; reflexivity. Qed.

(* one poll.  [adv_ok ... n' r]: the adaptive poll gives the phase and shared state of r = the fixed-list poll, the
   values stay the scripted ones, and what the fixed-list poll leaves to do is the strategy unfolded from the results
   so far, ending within n' lookups *)
Definition adv_ok (c : config) (t : task) (sg : strat) (fuel : nat) (ph : phase) (s : shared) (n' : nat)
           (r : list key * phase * shared) : Prop :=
  aadvance fuel c t sg ph s = (snd (fst r), snd r) /\ valok c (snd r) /\
  ends n' (outc c) sg (results (snd r) t) = true /\ fst (fst r) = unfold_strat n' (outc c) sg (results (snd r) t).

Lemma adv_sim : forall c t sg n fuel ph s,
  n < fuel -> ends n (outc c) sg (results s t) = true -> valok c s ->
  exists n', n' <= n /\ adv_ok c t sg fuel ph s n' (advance c t (unfold_strat n (outc c) sg (results s t)) ph s).
Proof.
  intros c t sg n. induction n as [|m IH]; intros fuel ph s Hf He Hv.
  - cbn [ends] in He. destruct (sg (results s t)) eqn:E; [discriminate|].
    exists 0. unfold adv_ok. cbn [unfold_strat advance fst snd]. destruct fuel; [lia|]. cbn [aadvance]. rewrite E.
    split; [lia|]. split; [reflexivity|]. split; [exact Hv|]. split; [apply ends_none; exact E|reflexivity].
  - destruct fuel as [|f]; [lia|]. cbn [ends] in He. unfold adv_ok. cbn [unfold_strat aadvance].
    destruct (sg (results s t)) as [k|] eqn:E.
    2:{ exists 0. cbn [advance fst snd]. split; [lia|]. split; [reflexivity|]. split; [exact Hv|].
        split; [apply ends_none; exact E|reflexivity]. }
    assert (Stay : exists n', n' <= S m /\ ends n' (outc c) sg (results s t) = true /\
               k :: unfold_strat m (outc c) sg (results s t ++ [(k, outc c k)]) = unfold_strat n' (outc c) sg (results s t)).
    { exists (S m). split; [lia|]. split; [cbn [ends]; rewrite E; exact He|]. cbn [unfold_strat]. rewrite E. reflexivity. }
    assert (Go : forall s1, valok c s1 -> results s1 t = results s t ++ [(k, outc c k)] ->
               exists n', n' <= S m /\
                 adv_ok c t sg f Start s1 n' (advance c t (unfold_strat m (outc c) sg (results s t ++ [(k, outc c k)])) Start s1)).
    { intros s1 Hv1 Hr. rewrite <- Hr in *.
      destruct (IH f Start s1 ltac:(lia) He Hv1) as (n' & Hn & A & B & C & D).
      exists n'. split; [lia|]. repeat split; assumption. }
    cbn [advance].
    destruct ph as [| |[|j]].
    1, 2: destruct (lock s k) eqn:Hl;
      [destruct Stay as (n' & Hn & A & B); exists n'; cbn [fst snd]; repeat split; auto|];
      destruct (value s k) as [o|] eqn:Hval;
      [assert (o = outc c k) by (apply Hv; exact Hval); subst o; apply Go; [exact Hv|apply res_hit]|];
      cbv zeta; destruct (susp c k) eqn:Hs;
      [apply Go; [apply valok_complete; exact Hv|rewrite res_complete, res_begin; reflexivity]|];
      destruct Stay as (n' & Hn & A & B); exists n'; cbn [fst snd]; rewrite res_begin;
      repeat split; auto; try exact Hv.
    + apply Go; [apply valok_complete; exact Hv|apply res_complete].
    + destruct Stay as (n' & Hn & A & B). exists n'. cbn [fst snd]. repeat split; auto.
Qed.

Lemma complete_ext : forall c c' t k s, outc c k = outc c' k -> leaf c k = leaf c' k -> complete c t k s = complete c' t k s.
Proof. intros c c' t k s A B. unfold complete. rewrite A, B. reflexivity. Qed.

Lemma advance_ext : forall c c', (forall k, susp c k = susp c' k) -> (forall k, outc c k = outc c' k) ->
  (forall k, leaf c k = leaf c' k) -> forall t rem ph s, advance c t rem ph s = advance c' t rem ph s.
Proof.
  intros c c' A B C t rem. induction rem as [|k rest IH]; intros ph s; [reflexivity|].
  cbn [advance]. rewrite <- A. rewrite !(complete_ext c c' t k) by auto. rewrite !IH.
  destruct ph as [| |[|j]]; try reflexivity;
    (destruct (lock s k); [reflexivity|]; destruct (value s k); [apply IH|]; destruct (susp c k); reflexivity).
Qed.

(* a poll of task t leaves the results of the other tasks alone *)
Lemma advance_results_other : forall c t u rem ph s, u <> t -> results (snd (advance c t rem ph s)) u = results s u.
Proof.
  intros c t u rem ph s Hu. induction (advance_adv c t rem ph s); cbn [snd] in *; try reflexivity;
    rewrite IHa; cbn [complete hit begin_call results]; apply upd_other; exact Hu.
Qed.

Section Refine.
Variable N : nat.
Variable ac : aconfig.
Variable fuel : nat.
Hypothesis Hfuel : N < fuel.
Hypothesis Hends : Forall (fun sg => ends N (outc (abase ac)) sg [] = true) (astrats ac).
Local Notation base := (abase ac).
Local Notation c' := (fixed_config N ac).

Record R (a : astate) (m : state) : Prop := {
  r_sh : ash a = sh m;
  r_val : valok base (sh m);
  r_task : forall t, exists n, n <= N /\ ends n (outc base) (astrat ac t) (results (sh m) t) = true /\
                     pcs m t = (unfold_strat n (outc base) (astrat ac t) (results (sh m) t), aph a t)
}.

Lemma adv_fixed : forall t rem ph s, advance c' t rem ph s = advance base t rem ph s.
Proof. intros. apply advance_ext; reflexivity. Qed.

Lemma nth_fixed : forall t, nth t (tasks c') [] = unfold_strat N (outc base) (astrat ac t) [].
Proof.
  intro t. cbn [fixed_config tasks]. unfold astrat. generalize (astrats ac). intro l. revert t.
  induction l as [|x r IH]; intro t.
  - destruct t; cbn [map nth]; symmetry; apply unfold_none; reflexivity.
  - destruct t; cbn [map nth]; [reflexivity|apply IH].
Qed.

Lemma ends_strat : forall t, ends N (outc base) (astrat ac t) [] = true.
Proof.
  intro t. unfold astrat. destruct (Nat.lt_ge_cases t (length (astrats ac))) as [A|A].
  - rewrite Forall_forall in Hends. apply Hends. apply nth_In. exact A.
  - rewrite nth_overflow by exact A. apply ends_none. reflexivity.
Qed.

Lemma R_init : R ainit (init c').
Proof.
  constructor.
  - reflexivity.
  - intros k o H. discriminate.
  - intro t. exists N. split; [lia|]. cbn [init sh pcs results ainit aph]. split; [apply ends_strat|].
    rewrite nth_fixed. reflexivity.
Qed.

Lemma R_poll : forall t a m, R a m -> R (apoll fuel ac t a) (poll c' t m).
Proof.
  intros t a m [Hs Hv Ht]. unfold apoll, poll.
  destruct (Ht t) as (n & Hn & He & Hp). rewrite Hp. rewrite adv_fixed. rewrite Hs.
  destruct (adv_sim base t (astrat ac t) n fuel (aph a t) (sh m) ltac:(lia) He Hv) as (n' & Hn' & A & B & C & D).
  rewrite A.
  destruct (advance base t (unfold_strat n (outc base) (astrat ac t) (results (sh m) t)) (aph a t) (sh m))
    as [[rem' ph'] s'] eqn:Eadv.
  cbn [fst snd] in *. constructor; cbn [ash sh aph pcs].
  - reflexivity.
  - exact B.
  - intro u. destruct (Nat.eq_dec u t) as [->|Hne].
    + exists n'. split; [lia|]. split; [exact C|]. rewrite !upd_same. rewrite D. reflexivity.
    + destruct (Ht u) as (nu & Hnu & Heu & Hpu). exists nu.
      assert (Hru : results s' u = results (sh m) u).
      { pose proof (advance_results_other base t u (unfold_strat n (outc base) (astrat ac t) (results (sh m) t)) (aph a t) (sh m) Hne) as X.
        rewrite Eadv in X. exact X. }
      rewrite Hru. split; [exact Hnu|]. split; [exact Heu|].
      unfold upd. destruct (Nat.eqb u t) eqn:Q; [apply Nat.eqb_eq in Q; contradiction|]. exact Hpu.
Qed.

Lemma R_run : forall sched, R (arun fuel ac sched) (run c' sched).
Proof.
  intro sched. unfold arun, run, run_from.
  assert (G : forall a m, R a m -> R (fold_left (fun s t => apoll fuel ac t s) sched a) (fold_left (fun s t => poll c' t s) sched m)).
  { induction sched as [|t r IH]; intros a m H; [exact H|]. cbn [fold_left]. apply IH. apply R_poll. exact H. }
  apply G. apply R_init.
Qed.

Lemma R_done : forall a m t, R a m -> atask_done ac a t = task_done m t.
Proof.
  intros a m t [Hs Hv Ht]. unfold atask_done, task_done. rewrite Hs.
  destruct (Ht t) as (n & _ & He & Hp). rewrite Hp. cbn [fst].
  destruct (astrat ac t (results (sh m) t)) as [k|] eqn:E.
  - destruct n; cbn [ends] in He; rewrite E in He; [discriminate|]. cbn [unfold_strat]. rewrite E. reflexivity.
  - rewrite unfold_none by exact E. reflexivity.
Qed.

(* an adaptive run is the run of the fixed lists obtained by unfolding the strategies along the scripted answers *)
Lemma adaptive_refines : forall sched,
  ash (arun fuel ac sched) = sh (run c' sched) /\
  (forall t, aph (arun fuel ac sched) t = snd (pcs (run c' sched) t)) /\
  (forall t, atask_done ac (arun fuel ac sched) t = task_done (run c' sched) t) /\
  aall_done ac (arun fuel ac sched) = all_done c' (run c' sched).
Proof.
  intro sched. pose proof (R_run sched) as H. split; [apply (r_sh _ _ H)|]. split; [|split].
  - intro t. destruct (r_task _ _ H t) as (n & _ & _ & Hp). rewrite Hp. reflexivity.
  - intro t. apply R_done. exact H.
  - unfold aall_done, all_done, ntasks. cbn [fixed_config tasks]. rewrite map_length.
    induction (seq 0 (length (astrats ac))) as [|t r IH]; [reflexivity|]. cbn [forallb]. rewrite IH.
    rewrite (R_done _ _ t H). reflexivity.
Qed.

Lemma adaptive_at_most_once : forall sched k, count_occ Nat.eq_dec (calls (ash (arun fuel ac sched))) k <= 1.
Proof. intros sched k. destruct (adaptive_refines sched) as (E & _). rewrite E. apply (at_most_once c' sched k). Qed.

Lemma adaptive_same_outcome : forall sched t i k o,
  nth_error (results (ash (arun fuel ac sched)) t) i = Some (k, o) -> o = outc base k.
Proof.
  intros sched t i k o H. destruct (adaptive_refines sched) as (E & _). rewrite E in H.
  destruct (same_outcome c' sched t i k o H) as [A _]. exact A.
Qed.

Lemma adaptive_counters : forall sched, aall_done ac (arun fuel ac sched) = true ->
  req (ash (arun fuel ac sched)) = distinct_keys c' /\ proc (ash (arun fuel ac sched)) = distinct_keys c' /\
  forall k, In k (concat (tasks c')) -> count_occ Nat.eq_dec (calls (ash (arun fuel ac sched))) k = 1.
Proof.
  intros sched Hd. destruct (adaptive_refines sched) as (E & _ & _ & D). rewrite D in Hd. rewrite E.
  destruct (counters_quiescent c' sched Hd) as [A B]. split; [exact A|]. split; [exact B|].
  intros k Hk. apply (exactly_once_quiescent c' sched k Hd Hk).
Qed.
End Refine.
