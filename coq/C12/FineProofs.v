(* C12/FineProofs.v — the invariant of Proofs.v is preserved by every micro step, so the safety half of C12 holds
   for interleavings finer than polls (multi-threaded executors); a poll is a sequence of micro steps; the
   observables at quiescence do not depend on the schedule; the micro measure [mpotential] never increases and an
   enabled task's step lowers it. *)
From Coq Require Import List Arith Bool Lia Permutation.
From RM Require Import C12.Model C12.Proofs C12.Progress C12.FineModel.
Import ListNotations.

Section Fine.
Variable c : config.

(* the micro step of a task that is not inside the supplier *)
Lemma mstep_nosup : forall t p s k rest ph, p t = (k :: rest, ph) -> not_sup ph ->
  mstep c t {| pcs := p; sh := s |} =
  match lock s k with
  | Some _ => {| pcs := upd p t (k :: rest, Wait); sh := s |}
  | None => match value s k with
            | Some o => {| pcs := upd p t (rest, Start); sh := hit t k o s |}
            | None => {| pcs := upd p t (k :: rest, Sup (susp c k)); sh := begin_call t k s |}
            end
  end.
Proof. intros t p s k rest ph Hp Hn. unfold mstep. cbn [pcs sh]. rewrite Hp. destruct ph; [reflexivity..|now elim Hn]. Qed.

Lemma mstep_inv : forall t s, SInv c s -> SInv c (mstep c t s).
Proof.
  intros t [p s] HI. unfold SInv in *. cbn [pcs sh] in HI.
  destruct (p t) as [[|k rest] ph] eqn:Hp; [unfold mstep; cbn [pcs]; rewrite Hp; exact HI|].
  destruct ph as [| |[|m]].
  1, 2: rewrite (mstep_nosup t p s k rest _ Hp I); destruct (lock s k) eqn:Hl; [|destruct (value s k) eqn:Hv]; cbn [pcs sh];
    [eapply step_wait|eapply step_hit|eapply step_begin]; eauto; exact I.
  - unfold mstep. cbn [pcs sh]. rewrite Hp. now apply (step_complete c p s t k rest 0).
  - unfold mstep. cbn [pcs sh]. rewrite Hp. now apply (step_tick c p s t k rest (S m) m).
Qed.

Lemma mrun_from_inv : forall ms s, SInv c s -> SInv c (mrun_from c s ms).
Proof. exact (steps_inv state (mstep c) (SInv c) mstep_inv). Qed.

Lemma mrun_inv : forall ms, SInv c (mrun c ms).
Proof. intros. apply mrun_from_inv, init_inv. Qed.

Lemma pairs_explicit : forall (f : key -> outcome) (l : list (key * outcome)),
  (forall k o, In (k, o) l -> o = f k) -> l = map (fun k => (k, f k)) (map fst l).
Proof.
  induction l as [|[k o] l IH]; intros H; [reflexivity|].
  cbn [map fst]. rewrite (H k o (or_introl eq_refl)). f_equal.
  apply IH. intros k' o' Hin. apply H. now right.
Qed.

(* at quiescence each task holds exactly: for each of its lookups, in order, the scripted answer of the key *)
Lemma inv_results_explicit : forall s t, SInv c s -> all_done c s = true ->
  results (sh s) t = map (fun k => (k, outc c k)) (nth t (tasks c) []).
Proof.
  intros s t HI Hd. rewrite <- (inv_results_complete c s t HI Hd).
  apply pairs_explicit. intros k o Hin.
  apply (inv_val _ _ _ HI). now apply (inv_res _ _ _ HI t).
Qed.

Lemma inv_value_quiescent : forall s k, SInv c s -> all_done c s = true ->
  value (sh s) k = if in_dec Nat.eq_dec k (concat (tasks c)) then Some (outc c k) else None.
Proof.
  intros s k HI Hd. destruct (in_dec Nat.eq_dec k (concat (tasks c))) as [Hin|Hn].
  - pose proof (requested_called c s HI Hd k Hin) as Hc.
    apply (inv_calls _ _ _ HI) in Hc. rewrite (quiescent_unlocked c _ HI Hd k) in Hc.
    destruct Hc as [X|X]; [now elim X|].
    destruct (value (sh s) k) as [o|] eqn:E; [|now elim X].
    now rewrite (inv_val _ _ _ HI k o E).
  - destruct (value (sh s) k) as [o|] eqn:E; [|reflexivity].
    exfalso. apply Hn. apply (inv_creq c _ _ HI). apply (inv_calls _ _ _ HI). right. rewrite E. discriminate.
Qed.

(* ---------- schedule independence of everything a requester can observe at the end ---------- *)
Lemma quiescent_independent : forall s1 s2,
  SInv c s1 -> SInv c s2 -> all_done c s1 = true -> all_done c s2 = true ->
  (forall t, results (sh s1) t = results (sh s2) t) /\
  Permutation (calls (sh s1)) (calls (sh s2)) /\
  (forall k, value (sh s1) k = value (sh s2) k) /\
  requested s1 = requested s2 /\ processed s1 = processed s2.
Proof.
  intros s1 s2 H1 H2 D1 D2. repeat split.
  - intros t. now rewrite (inv_results_explicit s1 t H1 D1), (inv_results_explicit s2 t H2 D2).
  - eapply Permutation_trans; [apply (inv_calls_perm c s1 H1 D1)|].
    apply Permutation_sym, (inv_calls_perm c s2 H2 D2).
  - intros k. now rewrite (inv_value_quiescent s1 k H1 D1), (inv_value_quiescent s2 k H2 D2).
  - destruct (inv_counters_quiescent c s1 H1 D1), (inv_counters_quiescent c s2 H2 D2). congruence.
  - destruct (inv_counters_quiescent c s1 H1 D1), (inv_counters_quiescent c s2 H2 D2). congruence.
Qed.

(* ---------- a poll is a sequence of micro steps of the same task ---------- *)
Local Notation iter := (siter state (mstep c)).

Lemma state_eq_refl : forall s, state_eq s s.
Proof. intros s. split; [intro; reflexivity|reflexivity]. Qed.

Lemma state_eq_trans : forall a b d, state_eq a b -> state_eq b d -> state_eq a d.
Proof. intros a b d [H1 H2] [H3 H4]. split; [intro t; now rewrite H1|congruence]. Qed.

Lemma mstep_eq : forall t a b, state_eq a b -> state_eq (mstep c t a) (mstep c t b).
Proof.
  intros t a b [Hp Hs]. unfold mstep. rewrite <- (Hp t), <- Hs.
  destruct (pcs a t) as [[|k rest] ph]; [now split|].
  assert (X : forall v sh', state_eq {| pcs := upd (pcs a) t v; sh := sh' |} {| pcs := upd (pcs b) t v; sh := sh' |}).
  { intros v sh'. split; cbn [pcs sh]; [now apply upd_ext|reflexivity]. }
  destruct ph as [| |[|m]]; try apply X;
    (destruct (lock (sh a) k); [apply X|]; destruct (value (sh a) k); apply X).
Qed.

Lemma advance_msteps : forall t rem ph p s rem' ph' s',
  p t = (rem, ph) -> advance c t rem ph s = (rem', ph', s') ->
  exists n, state_eq (iter n t {| pcs := p; sh := s |}) {| pcs := upd p t (rem', ph'); sh := s' |}.
Proof.
  intros t rem ph p s rem' ph' s' Hp Ha. pose proof (advance_adv c t rem ph s) as A. rewrite Ha in A. clear Ha.
  revert p Hp. remember (rem', ph', s') as r eqn:Er.
  (* after n0 micro steps the task stands at (rest, Start); the rest of the poll by induction *)
  assert (Hcont : forall p s rest n0 s0,
    state_eq (iter n0 t {| pcs := p; sh := s |}) {| pcs := upd p t (rest, Start); sh := s0 |} ->
    (exists n1, state_eq (iter n1 t {| pcs := upd p t (rest, Start); sh := s0 |})
                         {| pcs := upd (upd p t (rest, Start)) t (rem', ph'); sh := s' |}) ->
    exists n, state_eq (iter n t {| pcs := p; sh := s |}) {| pcs := upd p t (rem', ph'); sh := s' |}).
  { intros p0 s1 rest n0 s0 He (n1 & Hn1). exists (n0 + n1). rewrite siter_add.
    eapply state_eq_trans; [apply (siter_eq state state_eq (mstep c) mstep_eq), He|]. eapply state_eq_trans; [apply Hn1|].
    split; cbn [pcs sh]; [intro x; apply upd_upd|reflexivity]. }
  induction A; intros p Hp; try (injection Er as <- <- <-); try specialize (IHA Er (upd p t (rest, Start)) (upd_same _ _ _ _)).
  - exists 0. split; cbn [siter repeat steps fold_left pcs sh]; [|reflexivity]. intro x. rewrite <- Hp. symmetry. apply upd_id.
  - exists 1. cbn [siter repeat steps fold_left]. unfold mstep. cbn [pcs sh]. rewrite Hp. apply state_eq_refl.
  - apply (Hcont p s rest 1 (complete c t k s)); [|exact IHA]. cbn [siter repeat steps fold_left]. unfold mstep. cbn [pcs sh]. rewrite Hp. apply state_eq_refl.
  - exists 1. cbn [siter repeat steps fold_left]. rewrite (mstep_nosup t p s k rest ph Hp H), H0. apply state_eq_refl.
  - apply (Hcont p s rest 1 (hit t k o s)); [|exact IHA]. cbn [siter repeat steps fold_left]. rewrite (mstep_nosup t p s k rest ph Hp H), H0, H1. apply state_eq_refl.
  - apply (Hcont p s rest 2 (complete c t k (begin_call t k s))); [|exact IHA]. cbn [siter repeat steps fold_left]. rewrite (mstep_nosup t p s k rest ph Hp H), H0, H1, H2.
    unfold mstep. cbn [pcs sh]. rewrite upd_same. split; cbn [pcs sh]; [intro x; apply upd_upd|reflexivity].
  - exists 2. cbn [siter repeat steps fold_left]. rewrite (mstep_nosup t p s k rest ph Hp H), H0, H1, H2.
    unfold mstep. cbn [pcs sh]. rewrite upd_same. split; cbn [pcs sh]; [intro x; apply upd_upd|reflexivity].
Qed.

Lemma poll_msteps : forall t s, exists n, state_eq (mrun_from c s (repeat t n)) (poll c t s).
Proof.
  intros t s. unfold poll.
  destruct (pcs s t) as [rem ph] eqn:Hp.
  destruct (advance c t rem ph (sh s)) as [[rem' ph'] s'] eqn:Ha.
  destruct (advance_msteps t rem ph (pcs s) (sh s) rem' ph' s' Hp Ha) as (n & Hn).
  exists n. destruct s as [p0 s0]. exact Hn.
Qed.

Lemma mrun_from_app : forall m1 m2 s, mrun_from c s (m1 ++ m2) = mrun_from c (mrun_from c s m1) m2.
Proof. exact (steps_app state (mstep c)). Qed.

(* every poll schedule is (up to the writing of the per-task function) a micro schedule *)
Lemma run_from_refines : forall sched s, exists ms, state_eq (mrun_from c s ms) (run_from c s sched).
Proof.
  induction sched as [|t sched IH]; intros s.
  - exists []. apply state_eq_refl.
  - cbn [run_from fold_left].
    destruct (poll_msteps t s) as (n & Hn).
    destruct (IH (poll c t s)) as (ms & Hms).
    exists (repeat t n ++ ms). rewrite mrun_from_app.
    eapply state_eq_trans; [apply (steps_eqv state state_eq (mstep c) mstep_eq), Hn|exact Hms].
Qed.

(* ---------- liveness over micro schedules: the measure never increases, an enabled task lowers it, and an
   enabled task exists while anybody is unfinished (Progress.en_exists holds in every invariant state) ---------- *)
Lemma mcost_nosup : forall rem ph, not_sup ph -> mcost c (rem, ph) = cost c rem + length rem.
Proof. intros [|k r] [| |m] H; try reflexivity; now elim H. Qed.

Lemma mstep_measure : forall t s, t < ntasks c ->
  mpotential c (mstep c t s) <= mpotential c s /\ (en c s t -> mpotential c (mstep c t s) < mpotential c s).
Proof.
  intros t s Hlt. unfold mpotential.
  assert (G : forall (v : list key * phase) (shx : shared),
    ((mcost c v <= mcost c (pcs s t))%nat ->
      (sum_upto (ntasks c) (fun x => mcost c (pcs {| pcs := upd (pcs s) t v; sh := shx |} x)) <=
       sum_upto (ntasks c) (fun x => mcost c (pcs s x)))%nat) /\
    ((mcost c v < mcost c (pcs s t))%nat ->
      (sum_upto (ntasks c) (fun x => mcost c (pcs {| pcs := upd (pcs s) t v; sh := shx |} x)) <
       sum_upto (ntasks c) (fun x => mcost c (pcs s x)))%nat)).
  { intros v shx. cbn [pcs].
    pose proof (sum_upto_upd_lt _ (mcost c) (pcs s) t v (ntasks c) Hlt) as Hsum. split; intro; lia. }
  (* G turns a comparison of the task's own cost into one of the sums; then one case per micro step: a wait on a held
     lock keeps the cost (and the task is not enabled), every other step lowers it *)
  unfold mstep. destruct (pcs s t) as [[|k rest] ph] eqn:Hp; rewrite ?Hp in G.
  - split; [lia|]. intros (_ & k & r & ph' & E & _). rewrite Hp in E. discriminate.
  - assert (Hen : en c s t -> (exists m, ph = Sup m) \/ lock (sh s) k = None).
    { intros (_ & k' & r' & ph' & E & H). rewrite Hp in E. inversion E; subst. exact H. }
    destruct ph as [| |[|m]].
    1, 2: destruct (lock (sh s) k) eqn:Hl;
      [split; [apply G; rewrite ?(mcost_nosup rest Start I); cbn [mcost cost length]; lia|];
       intros He; destruct (Hen He) as [(m & X)|X]; discriminate|];
      destruct (value (sh s) k); split; try (intros _); apply G; rewrite ?(mcost_nosup rest Start I); cbn [mcost cost length]; lia.
    all: split; try (intros _); apply G; rewrite ?(mcost_nosup rest Start I); cbn [mcost cost length]; lia.
Qed.

Lemma mstep_beyond : forall t s, SInv c s -> ntasks c <= t -> mstep c t s = s.
Proof.
  intros t s HI Ht. unfold mstep. pose proof (rem_nil_beyond c s t HI Ht) as E.
  destruct (pcs s t) as [[|k r] ph]; [reflexivity|discriminate].
Qed.

Lemma mstep_le : forall t s, SInv c s -> mpotential c (mstep c t s) <= mpotential c s.
Proof.
  intros t s HI. destruct (Nat.lt_ge_cases t (ntasks c)) as [H|H].
  - now apply mstep_measure.
  - rewrite mstep_beyond by assumption. lia.
Qed.

Lemma mpotential_init : mpotential c (init c) = work c + length (concat (tasks c)).
Proof.
  unfold mpotential, work, init, ntasks. cbn [pcs].
  assert (H : forall (l : list (list key)) n, n <= length l ->
    sum_upto n (fun t => mcost c (nth t l [], Start)) =
    sum_upto n (fun t => cost c (nth t l [])) + length (concat (firstn n l))).
  { intros l n. induction n as [|n IH]; intros Hn; [reflexivity|].
    cbn [sum_upto]. rewrite IH by lia.
    assert (E : firstn (S n) l = firstn n l ++ [nth n l []]).
    { clear IH. revert l Hn. induction n as [|n IHn]; intros [|a l] Hl; cbn [length] in Hl; try lia; [reflexivity|].
      cbn [firstn nth app]. f_equal. apply IHn. lia. }
    rewrite E, concat_app, app_length. cbn [concat]. rewrite app_nil_r.
    assert (M : mcost c (nth n l [], Start) = cost c (nth n l []) + length (nth n l [])).
    { destruct (nth n l []); reflexivity. }
    rewrite M. lia. }
  rewrite (H (tasks c) (length (tasks c)) (le_n _)). now rewrite firstn_all.
Qed.

Lemma mrun_from_le : forall ms s, SInv c s -> mpotential c (mrun_from c s ms) <= mpotential c s.
Proof. exact (steps_le state (mstep c) (SInv c) (mpotential c) mstep_inv mstep_le). Qed.

End Fine.
