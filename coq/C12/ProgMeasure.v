(* C12/ProgMeasure.v — progress measure at INSTRUCTION granularity: [imu] = an upper bound on the instruction
   steps the tasks still need.  A step of a task that is waiting for a held lock changes neither the measure nor the
   shared state; every other step of an unfinished task lowers the measure by at least one; while some task is
   unfinished, some unfinished task is not waiting for a held lock (ProgFine.pm_no_deadlock).  Hence no stuck state
   and no livelock: at most [imu (pinit pc)] progressing steps exist in any run (C12/ProgFair.v: fair schedules finish
   within T * imu steps). *)
From RM Require Import C12.Model C12.Proofs C12.Progress C12.ProgModel C12.ProgProofs C12.ProgFine.
From Coq Require Import Lia.

Section Measure.
Variable c : config.

(* instructions still to execute, counted generously: the file closure is 2 (the call and its poll) + the suspensions,
   the symbol closure 9 (8 instructions and the supplier's poll); get adds 5 (lock, test, store-call, store, return);
   an await on get adds 2 (the call and the end of get), a call of another entry point 1 + that entry's 3 *)
Definition wclosure (k : key) (f : bool) : nat := if f then 2 + susp c k else 9 + susp c k.
Definition wget (k : key) (f : bool) : nat := 5 + wclosure k f.

Fixpoint wi (k : key) (f : bool) (i : instr) : nat :=
  match i with
  | IIfNone body => 1 + (fix go (b : list instr) := match b with [] => 0 | x :: r => wi k f x + go r end) body
  | IStoreCallAwait => 2 + wclosure k f
  | ISupplierAwait | IFileClosure => 2 + susp c k
  | IGetSymbolsAwait => 2 + wget k false
  | ILocateFileInternalAwait => 2 + wget k true
  | ICall EFile => 1 + (3 + wget k true)
  | ICall _ => 1 + (3 + wget k false)
  | _ => 1
  end.
Definition wl (k : key) (f : bool) (p : list instr) : nat := fold_right (fun i n => wi k f i + n) 0 p.

Definition w0 (lk : lookup) : nat := wl (snd lk) false (canon_entry (fst lk)).
Definition wt (k : key) (kont : list instr) (l : local) : nat :=
  wl k (fcls l) kont + match kont with ISupPoll :: _ => ticks l | _ => 0 end.
Definition tmu (p : ptask) : nat :=
  match p with
  | ([], _, _) => 0
  | (lk :: rest, [], _) => w0 lk + fold_right (fun x n => w0 x + n) 0 rest
  | ((_, k) :: rest, kont, l) => wt k kont l + fold_right (fun x n => w0 x + n) 0 rest
  end.
Definition imu (n : nat) (s : pstate) : nat := sum_upto n (fun t => tmu (ppcs s t)).

(* a task waits for a held lock *)
Definition kblocked (kont : list instr) (s : shared) (k : key) : bool :=
  match kont with ILockAwait :: _ => match lock s k with Some _ => true | None => false end | _ => false end.

Definition rest_mu (rest : list lookup) : nat := fold_right (fun x n => w0 x + n) 0 rest.

Lemma tmu_cons : forall e k rest kont l,
  tmu ((e, k) :: rest, kont, l) = match kont with [] => w0 (e, k) | _ => wt k kont l end + rest_mu rest.
Proof. intros. destruct kont; reflexivity. Qed.

Lemma tmu_after : forall e k rest kont l,
  tmu (after e k rest kont l) = match kont with [] => 0 | _ => wt k kont l end + rest_mu rest.
Proof. intros. destruct kont; [destruct rest as [|[? ?] ?]|]; reflexivity. Qed.

(* one instruction: waiting for a held lock changes nothing, everything else lowers the task's measure *)
Lemma cstep_measure : forall t k e kont l s kont' l' s' rest, cstep c t k e kont l s kont' l' s' ->
  if kblocked kont s k then tmu (after e k rest kont' l') = tmu ((e, k) :: rest, kont, l) /\ s' = s
  else tmu (after e k rest kont' l') < tmu ((e, k) :: rest, kont, l).
Proof.
  intros t k e kont l s kont' l' s' rest H. rewrite tmu_after, tmu_cons. generalize (rest_mu rest). intro R.
  destruct H; cbn [kblocked]; rewrite ?H; try (split; reflexivity); cbn; unfold w0, wget, wclosure; cbn; rewrite ?H; try lia.
  - destruct H as [<-|[<-|[]]]; cbn; unfold wget, wclosure; lia.
  - subst r. destruct (fcls l); cbn; lia.
Qed.

Lemma tmu_step : forall ks s t, GI c ks s ->
  (blocked s t = true -> tmu (ppcs (pmstep canon c t s) t) = tmu (ppcs s t) /\ psh (pmstep canon c t s) = psh s) /\
  (blocked s t = false -> ptask_done s t = false -> tmu (ppcs (pmstep canon c t s) t) < tmu (ppcs s t)).
Proof.
  intros ks s t G. unfold blocked, ptask_done.
  destruct (ppcs s t) as [[[|[e k] rest] kont] l] eqn:E; [split; [discriminate|intros _ X; discriminate]|].
  destruct (gi_step _ _ s t e k rest kont l G E) as (kont' & l' & s' & Hstep & _ & ->). cbn [ppcs psh]. rewrite upd_same.
  pose proof (cstep_measure _ _ _ _ _ _ _ _ _ rest Hstep) as M. unfold kblocked in M.
  split; [intro B|intros B _]; rewrite B in M; exact M.
Qed.
End Measure.

Lemma imu_split : forall c n t s, t < n ->
  imu c n (pmstep canon c t s) + tmu c (ppcs s t) = imu c n s + tmu c (ppcs (pmstep canon c t s) t).
Proof.
  intros c n t s Ht. unfold imu.
  rewrite <- (sum_upto_upd_lt _ (tmu c) (ppcs s) t (ppcs (pmstep canon c t s) t) n Ht). f_equal.
  apply sum_upto_ext. intros u _. unfold upd. destruct (Nat.eqb u t) eqn:E.
  - apply Nat.eqb_eq in E. subst. reflexivity.
  - apply Nat.eqb_neq in E. rewrite pmstep_other by exact E. reflexivity.
Qed.

(* in a state of an instruction-level run: *)
Section MeasureTheorems.
Variable pc : pconfig.
Variable s : pstate.
Hypothesis G : GI (cfg pc) (allkeys pc) s.
Hypothesis R : forall u, length (ptasks pc) <= u -> fst (fst (ppcs s u)) = [].
Local Notation n := (length (ptasks pc)).
Local Notation c := (cfg pc).

(* a step of a task waiting for a held lock changes neither the measure nor the shared state *)
Lemma blocked_step : forall t, blocked s t = true ->
  imu c n (pmstep canon c t s) = imu c n s /\ psh (pmstep canon c t s) = psh s.
Proof.
  intros t Hb. destruct (tmu_step c _ s t G) as [A _]. destruct (A Hb) as [A1 A2]. split; [|exact A2].
  destruct (Nat.lt_ge_cases t n) as [Ht|Ht]; [pose proof (imu_split c n t s Ht); lia|].
  unfold blocked in Hb. specialize (R t Ht). destruct (ppcs s t) as [[rem kont] l]. cbn in R. subst rem. discriminate.
Qed.

(* every other step of an unfinished task lowers the measure *)
Lemma progress_step : forall t, blocked s t = false -> ptask_done s t = false ->
  imu c n (pmstep canon c t s) < imu c n s.
Proof.
  intros t Hb Hd. destruct (tmu_step c _ s t G) as [_ A]. specialize (A Hb Hd).
  destruct (Nat.lt_ge_cases t n) as [Ht|Ht]; [pose proof (imu_split c n t s Ht); lia|].
  unfold ptask_done in Hd. rewrite (R t Ht) in Hd. discriminate.
Qed.

(* a step of a finished task changes nothing *)
Lemma done_step : forall t, ptask_done s t = true -> pmstep canon c t s = s.
Proof.
  intros t Hd. unfold ptask_done in Hd. unfold pmstep. destruct (ppcs s t) as [[[|? ?] kont] l]; [reflexivity|discriminate].
Qed.

(* so no step of any task increases the measure *)
Lemma measure_monotone : forall t, imu c n (pmstep canon c t s) <= imu c n s.
Proof.
  intro t. destruct (blocked s t) eqn:Hb; [destruct (blocked_step t Hb); lia|].
  destruct (ptask_done s t) eqn:Hd; [rewrite (done_step t Hd); lia|pose proof (progress_step t Hb Hd); lia].
Qed.
End MeasureTheorems.

(* the measure of the initial state: per lookup the instructions of a miss (17 for fill_symbol / walk_frame, 18
   through get_symbol_at_address, 10 for locate_file) plus the supplier's suspensions *)
Lemma w0_value : forall c k,
  w0 c (EFill, k) = 17 + susp c k /\ w0 c (EWalk, k) = 17 + susp c k /\ w0 c (EAddr, k) = 18 + susp c k /\
  w0 c (EFile, k) = 10 + susp c k.
Proof. intros. unfold w0, wl, wget, wclosure. cbn. repeat split; lia. Qed.
