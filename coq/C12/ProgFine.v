(* C12/ProgFine.v — the canonical program under INSTRUCTION-level interleavings.
   [pmstep] executes ONE instruction of one task; [pmrun] folds it over any list of task ids: between any two
   instructions of a task — between the lock acquisition and the test of the slot, between
   `symbols_requested += 1` and the supplier call, between the store and the unlock — any other task may execute any
   number of instructions (a multi-threaded executor; each instruction touches one mutex-protected object or only
   the task's locals).  Invariant [GI]: mutual exclusion per slot, the supplier log is duplicate-free, a stored value is
   the scripted answer of its key, per-class facts of the lock holder, recorded results = remembered values, results ++
   remaining lookups = the task's lookups, no stuck task.  The counters at this granularity: C12/ProgCountMix.v. *)
From RM Require Import C12.Model C12.Proofs C12.Progress C12.ProgModel C12.ProgProofs.
From Coq Require Import Lia.

(* where a task stands relative to the critical section of its slot, read off the head of its continuation:
   COut  outside get (lookup not begun, entry point, waiting at lock().await)
   CHold guard acquired, slot not yet inspected (at `if guard.is_none()`)
   CPre  slot found empty, supplier not yet asked          CMid  supplier asked, answer not yet stored
   CPost answer in the slot, guard still held              CUse  guard dropped, result not yet handed to the caller *)
Inductive cls := COut | CHold | CPre | CMid | CPost | CUse.
Definition cls_of (kont : list instr) : cls :=
  match kont with
  | IIfNone _ :: _ => CHold
  | IStoreCallAwait :: _ | IRequestedInc :: _ | ISupplierAwait :: _ | IFileClosure :: _ => CPre
  | ISupPoll :: _ | IProcessedInc :: _ | IStatsNew :: _ | IStatsClassify :: _ | ILeafKey :: _ | IStatsInsert :: _
  | IReturnResult :: _ | IStore :: _ => CMid
  | IReturnClone :: _ | IEndGet :: _ => CPost
  | IUseResult :: _ => CUse
  | _ => COut
  end.
Definition holds (x : cls) : bool := match x with COut | CUse => false | _ => true end.
Definition tkey (p : ptask) : option key := match fst (fst p) with (_, k) :: _ => Some k | [] => None end.
Definition tcls (p : ptask) : cls := cls_of (snd (fst p)).

(* tails of get and of the symbol closure as they stand in continuations: TR = from the return of get on,
   TGU = from the test of the slot on, C2 = the symbol closure after the supplier's answer, then the store and TR *)
Definition TR : list instr := [IReturnClone; IEndGet; IUseResult].
Definition TGU : list instr := IIfNone [IStoreCallAwait] :: TR.
Definition C2 : list instr :=
  [IProcessedInc; IStatsNew; IStatsClassify; ILeafKey; IStatsInsert; IReturnResult; IStore; IReturnClone; IEndGet; IUseResult].
Fixpoint suffixes (l : list instr) : list (list instr) :=
  match l with [] => [] | x :: r => (x :: r) :: suffixes r end.
(* every continuation a task of the canonical program can have (f: the slot is a file slot) *)
Definition allk (f : bool) : list (list instr) :=
  [ILockAwait :: TGU; TGU; IStoreCallAwait :: TR] ++
  (if f then [IFileClosure :: IStore :: TR; ISupPoll :: IStore :: TR] ++ suffixes (IStore :: TR)
   else [[IGetSymbolsAwait; IUseResult]; IRequestedInc :: ISupplierAwait :: C2; ISupplierAwait :: C2; ISupPoll :: C2]
        ++ suffixes C2).

Definition needs_res (kont : list instr) : bool :=
  match kont with
  | IProcessedInc :: _ | IStatsNew :: _ | IStatsClassify :: _ | ILeafKey :: _ | IStatsInsert :: _ | IReturnResult :: _
  | IStore :: _ | IEndGet :: _ | IUseResult :: _ => true
  | _ => false
  end.
Definition needs_lkey (kont : list instr) : bool := match kont with IStatsInsert :: _ => true | _ => false end.

Definition linv (c : config) (k : key) (f : bool) (kont : list instr) (l : local) : Prop :=
  In kont (allk f) /\ fcls l = f /\ guard l = holds (cls_of kont) /\
  (needs_res kont = true -> res l = Some (outc c k)) /\ (needs_lkey kont = true -> lkey l <> None).

Definition local_ok (c : config) (p : ptask) : Prop :=
  match p with
  | ([], kont, _) => kont = []
  | ((e, k) :: _, kont, l) => kont = [] \/ linv c k (is_file e) kont l
  end.

(* ---- one instruction of one lookup of the canonical program: a rule per instruction and branch.
        [cstep c t k e kont l s kont' l' s']: task t, inside a lookup of slot k through entry point e, with the
        continuation kont ([] = not begun), locals l and shared state s, goes on with kont' ([] = the lookup has
        finished), l' and s'. ---- *)
Inductive cstep (c : config) (t : task) (k : key) :
  entry -> list instr -> local -> shared -> list instr -> local -> shared -> Prop :=
| S_begin : forall e l s, In e [EFill; EWalk] -> cstep c t k e [] l s (ILockAwait :: TGU) l0 s
| S_begin_addr : forall l s, cstep c t k EAddr [] l s [IGetSymbolsAwait; IUseResult] l0 s
| S_begin_file : forall l s, cstep c t k EFile [] l s (ILockAwait :: TGU) (set_fcls l0 true) s
| S_get : forall e l s, cstep c t k e [IGetSymbolsAwait; IUseResult] l s (ILockAwait :: TGU) (set_fcls l false) s
| S_lock_held : forall e l s u, lock s k = Some u ->
    cstep c t k e (ILockAwait :: TGU) l s (ILockAwait :: TGU) (set_guard l false true) s
| S_lock_free : forall e l s, lock s k = None ->
    cstep c t k e (ILockAwait :: TGU) l s TGU (set_guard l true false) (sh_lock s (upd (lock s) k (Some t)))
| S_if_none : forall e l s, value s k = None -> cstep c t k e TGU l s (IStoreCallAwait :: TR) l s
| S_if_some : forall e l s o, value s k = Some o -> cstep c t k e TGU l s TR l s
| S_closure_sym : forall e l s, fcls l = false ->
    cstep c t k e (IStoreCallAwait :: TR) l s (IRequestedInc :: ISupplierAwait :: C2) l s
| S_closure_file : forall e l s, fcls l = true ->
    cstep c t k e (IStoreCallAwait :: TR) l s (IFileClosure :: IStore :: TR) l s
| S_requested : forall e l s,
    cstep c t k e (IRequestedInc :: ISupplierAwait :: C2) l s (ISupplierAwait :: C2) l (sh_req s (S (req s)))
| S_supplier : forall e l s, fcls l = false ->
    cstep c t k e (ISupplierAwait :: C2) l s (ISupPoll :: C2) (set_ticks l (susp c k)) (sh_calls s (calls s ++ [k]))
| S_file : forall e l s, fcls l = true ->
    cstep c t k e (IFileClosure :: IStore :: TR) l s (ISupPoll :: IStore :: TR) (set_ticks l (susp c k))
          (sh_calls s (calls s ++ [k]))
| S_poll_pending : forall e l s r m, ticks l = S m -> cstep c t k e (ISupPoll :: r) l s (ISupPoll :: r) (set_ticks l m) s
| S_poll_ready : forall e l s r, ticks l = 0 -> r = (if fcls l then IStore :: TR else C2) ->
    cstep c t k e (ISupPoll :: r) l s r (set_res l (Some (outc c k))) s
| S_processed : forall e l s, cstep c t k e C2 l s (tl C2) l (sh_proc s (S (proc s)))
| S_stats_new : forall e l s, cstep c t k e (tl C2) l s (tl (tl C2)) (set_lstat l None) s
| S_classify : forall e l s, res l = Some (outc c k) ->
    cstep c t k e (IStatsClassify :: ILeafKey :: IStatsInsert :: IReturnResult :: IStore :: TR) l s
          (ILeafKey :: IStatsInsert :: IReturnResult :: IStore :: TR) (set_lstat l (Some (outc c k))) s
| S_leaf : forall e l s,
    cstep c t k e (ILeafKey :: IStatsInsert :: IReturnResult :: IStore :: TR) l s
          (IStatsInsert :: IReturnResult :: IStore :: TR) (set_lkey l (Some (leaf c k))) s
| S_insert : forall e l s lf, lkey l = Some lf ->
    cstep c t k e (IStatsInsert :: IReturnResult :: IStore :: TR) l s (IReturnResult :: IStore :: TR) l
          (sh_stats s (upd (stats s) lf (Some (match lstat l with Some o => o | None => ONotFound end))))
| S_result : forall e l s, cstep c t k e (IReturnResult :: IStore :: TR) l s (IStore :: TR) l s
| S_store : forall e l s, res l = Some (outc c k) ->
    cstep c t k e (IStore :: TR) l s TR l (sh_value s (upd (value s) k (Some (outc c k))))
| S_clone : forall e l s, value s k = Some (outc c k) ->
    cstep c t k e TR l s [IEndGet; IUseResult] (set_res l (Some (outc c k))) s
| S_end : forall e l s, guard l = true ->
    cstep c t k e [IEndGet; IUseResult] l s [IUseResult] (set_guard l false false) (sh_lock s (upd (lock s) k None))
| S_use : forall e l s, res l = Some (outc c k) ->
    cstep c t k e [IUseResult] l s [] l (sh_results s (upd (results s) t (results s t ++ [(k, outc c k)]))).

Definition after (e : entry) (k : key) (rest : list lookup) (kont : list instr) (l : local) : ptask :=
  match kont with [] => (rest, [], l0) | _ => ((e, k) :: rest, kont, l) end.

Ltac in_list := cbn; repeat (first [left; reflexivity | right]).
(* [pmstep] on the canonical program is [cstep]; the holder of a slot's lock that has passed the store sees the
   scripted answer in the slot (CPost: an invariant of the shared state, [GI] below) *)
Lemma pmstep_canon : forall c t s e k rest kont l,
  ppcs s t = ((e, k) :: rest, kont, l) -> local_ok c (ppcs s t) ->
  (cls_of kont = CPost -> value (psh s) k = Some (outc c k)) ->
  exists kont' l' s', cstep c t k e kont l (psh s) kont' l' s' /\ local_ok c (after e k rest kont' l') /\
    pmstep canon c t s = {| ppcs := upd (ppcs s) t (after e k rest kont' l'); psh := s' |}.
Proof.
  intros c t s e k rest kont l E L V. unfold pmstep. rewrite E in *. cbn in L.
  destruct L as [->|(Hin & Hf & Hg & Hr & Hlk)].
  - (* not begun: the first instruction of the entry point *)
    destruct e; cbn; do 3 eexists; (split; [econstructor; in_list | split; [|reflexivity]]);
      right; repeat split; cbn; intros; try discriminate; in_list.
  - (* begun: the continuation is one of [allk].  For each: put in what [linv] says of the locals the instruction
       reads (res, lkey, the value seen after the store), split on what it reads of the shared state (lock, value) and
       on the supplier's ticks, evaluate [istep]; the rule of that instruction and branch applies, and the new
       continuation is again in [allk] with its local facts *)
    destruct (is_file e) eqn:Ef; cbn in Hin; repeat (destruct Hin as [<-|Hin]; [|]); try contradiction;
      cbn in Hg, Hr, Hlk, V |- *; rewrite ?Hf, ?Hg.
    all: try (specialize (Hr eq_refl); rewrite Hr).
    all: try (destruct (lkey l) as [lf|] eqn:Hlf; [|exfalso; exact (Hlk eq_refl eq_refl)]).
    all: try (specialize (V eq_refl); rewrite V).
    all: try (match goal with |- context [lock ?s0 ?k0] => destruct (lock s0 k0) eqn:Hlock end).
    all: try (match goal with |- context [value ?s0 ?k0] => destruct (value s0 k0) eqn:Hval end).
    all: try (match goal with |- context [ticks ?l1] => destruct (ticks l1) eqn:Htk end).
    all: cbn; do 3 eexists; (split; [econstructor; first [eassumption | rewrite Hf; reflexivity] | split; [|reflexivity]]).
    all: try (destruct rest as [|[? ?] ?]; [reflexivity | left; reflexivity]).
    all: right; unfold linv; rewrite Ef; repeat split; cbn; intros; try discriminate; auto; in_list.
Qed.

(* what the class of a task inside a lookup of slot k says about the slot *)
Definition cls_fact (c : config) (s : shared) (k : key) (x : cls) : Prop :=
  match x with
  | COut => True
  | CHold => In k (calls s) -> value s k <> None
  | CPre => value s k = None /\ ~ In k (calls s)
  | CMid => value s k = None /\ In k (calls s)
  | CPost | CUse => value s k = Some (outc c k)
  end.

Record GI (c : config) (ks : task -> list key) (s : pstate) : Prop := {
  gi_local : forall t, local_ok c (ppcs s t);
  gi_lock : forall k t, lock (psh s) k = Some t <-> (tkey (ppcs s t) = Some k /\ holds (tcls (ppcs s t)) = true);
  gi_value : forall k o, value (psh s) k = Some o -> o = outc c k /\ In k (calls (psh s));
  gi_nodup : NoDup (calls (psh s));
  gi_cls : forall t k, tkey (ppcs s t) = Some k -> cls_fact c (psh s) k (tcls (ppcs s t));
  gi_free : forall k, lock (psh s) k = None -> In k (calls (psh s)) -> value (psh s) k <> None;
  gi_results : forall t k o, In (k, o) (results (psh s) t) -> o = outc c k /\ value (psh s) k = Some o;
  gi_complete : forall t, map fst (results (psh s) t) ++ map snd (fst (fst (ppcs s t))) = ks t
}.
Arguments gi_local {c ks s}. Arguments gi_lock {c ks s}. Arguments gi_value {c ks s}. Arguments gi_nodup {c ks s}.
Arguments gi_cls {c ks s}. Arguments gi_free {c ks s}. Arguments gi_results {c ks s}. Arguments gi_complete {c ks s}.

(* the part of the shared state the invariant talks about *)
Definition core_eq (a b : shared) : Prop :=
  lock a = lock b /\ value a = value b /\ calls a = calls b /\ results a = results b.

(* what one instruction that does not finish the lookup does to the class of its task and to that part *)
Inductive trans (c : config) (t : task) (k : key) (s : shared) : cls -> cls -> shared -> Prop :=
| T_stay : forall x s', core_eq s' s -> trans c t k s x x s'
| T_acq : forall s', lock s k = None -> lock s' = upd (lock s) k (Some t) -> value s' = value s ->
    calls s' = calls s -> results s' = results s -> trans c t k s COut CHold s'
| T_hold_pre : forall s', value s k = None -> core_eq s' s -> trans c t k s CHold CPre s'
| T_hold_post : forall s' o, value s k = Some o -> core_eq s' s -> trans c t k s CHold CPost s'
| T_call : forall s', lock s' = lock s -> value s' = value s -> calls s' = calls s ++ [k] ->
    results s' = results s -> trans c t k s CPre CMid s'
| T_store : forall s', lock s' = lock s -> value s' = upd (value s) k (Some (outc c k)) -> calls s' = calls s ->
    results s' = results s -> trans c t k s CMid CPost s'
| T_release : forall s', lock s' = upd (lock s) k None -> value s' = value s -> calls s' = calls s ->
    results s' = results s -> trans c t k s CPost CUse s'.

Lemma tkey_rest_cls : forall (rest : list lookup), tcls (rest, [], l0) = COut.
Proof. reflexivity. Qed.

Lemma cls_fact_ext : forall c s s' k x,
  value s' k = value s k -> (In k (calls s') <-> In k (calls s)) -> cls_fact c s k x -> cls_fact c s' k x.
Proof. intros c s s' k x Hv Hc. destruct x; cbn; rewrite ?Hv; tauto. Qed.

Ltac tsplit u t := destruct (Nat.eq_dec u t) as [->|?Hne]; [rewrite ?upd_same | rewrite ?(upd_other _ _ t _ u) by assumption].
Ltac ksplit kk k := destruct (Nat.eq_dec kk k) as [->|?Hnk]; [rewrite ?upd_same | rewrite ?(upd_other _ _ k _ kk) by assumption].

Section Step.
Variable c : config.
Variable ks : task -> list key.
Variables (s : pstate) (t : task) (e : entry) (k : key) (rest : list lookup) (kont : list instr) (l : local).
Hypothesis G : GI c ks s.
Hypothesis E : ppcs s t = ((e, k) :: rest, kont, l).

Let Hk : tkey (ppcs s t) = Some k.
Proof. rewrite E. reflexivity. Qed.
Let Hc : tcls (ppcs s t) = cls_of kont.
Proof. rewrite E. reflexivity. Qed.

(* while t holds the lock of slot k, or nobody does, no other task is inside the critical section of k *)
Lemma others_out : forall u, u <> t -> holds (cls_of kont) = true \/ lock (psh s) k = None ->
  tkey (ppcs s u) = Some k -> holds (tcls (ppcs s u)) = false.
Proof.
  intros u Hu Hown Hku. destruct (holds (tcls (ppcs s u))) eqn:Hh; [exfalso|reflexivity].
  assert (A : lock (psh s) k = Some u) by (apply (gi_lock G); auto).
  destruct Hown as [Hown|Hown]; [|congruence].
  assert (B : lock (psh s) k = Some t) by (apply (gi_lock G); rewrite Hk, Hc; auto). congruence.
Qed.

(* the facts of the other tasks survive a step of t that leaves the other slots alone and forgets no value *)
Lemma cls_other : forall s' u kk, u <> t -> holds (cls_of kont) = true \/ lock (psh s) k = None ->
  (forall k0, k0 <> k -> value s' k0 = value (psh s) k0 /\ (In k0 (calls s') <-> In k0 (calls (psh s)))) ->
  (forall o, value (psh s) k = Some o -> value s' k = Some o) ->
  tkey (ppcs s u) = Some kk -> cls_fact c s' kk (tcls (ppcs s u)).
Proof.
  intros s' u kk Hu Hown Hframe Hmono Hku. pose proof (gi_cls G u kk Hku) as F.
  destruct (Nat.eq_dec kk k) as [->|Hkk].
  - pose proof (others_out u Hu Hown Hku) as Hh.
    destruct (tcls (ppcs s u)); try discriminate Hh; [exact I|apply Hmono; exact F].
  - destruct (Hframe kk Hkk) as [A B]. exact (cls_fact_ext c _ _ kk _ A B F).
Qed.

Section To.
Variables (kont' : list instr) (l' : local) (s' : shared).
Hypothesis L : local_ok c ((e, k) :: rest, kont', l').
Hypothesis Hr : results s' = results (psh s).
Local Notation N := {| ppcs := upd (ppcs s) t ((e, k) :: rest, kont', l'); psh := s' |}.

Lemma local_upd : forall u, local_ok c (ppcs N u).
Proof. intro u. cbn. tsplit u t; [exact L|apply (gi_local G)]. Qed.

Lemma complete_upd : forall u, map fst (results (psh N) u) ++ map snd (fst (fst (ppcs N u))) = ks u.
Proof. intro u. cbn. rewrite Hr. tsplit u t; [|apply (gi_complete G)]. rewrite <- (gi_complete G t), E. reflexivity. Qed.

Lemma lock_same : lock s' = lock (psh s) -> holds (cls_of kont') = holds (cls_of kont) ->
  forall kk u, lock (psh N) kk = Some u <-> tkey (ppcs N u) = Some kk /\ holds (tcls (ppcs N u)) = true.
Proof.
  intros Hl Hh kk u. cbn. rewrite Hl, (gi_lock G kk u). tsplit u t; [|reflexivity].
  rewrite E. unfold tkey, tcls. cbn [fst snd]. rewrite Hh. reflexivity.
Qed.

Lemma lock_upd : lock s' = upd (lock (psh s)) k (if holds (cls_of kont') then Some t else None) ->
  holds (cls_of kont) = true \/ lock (psh s) k = None ->
  forall kk u, lock (psh N) kk = Some u <-> tkey (ppcs N u) = Some kk /\ holds (tcls (ppcs N u)) = true.
Proof.
  intros Hl Hown kk u. cbn. rewrite Hl. tsplit u t; [unfold tkey, tcls; cbn [fst snd]|]; ksplit kk k.
  - destruct (holds (cls_of kont')); split; try tauto; [discriminate | intros [_ X]; discriminate].
  - rewrite (gi_lock G kk t), Hk. split; intros [X _]; congruence.
  - split; [destruct (holds (cls_of kont')); congruence|].
    intros [A B]. rewrite (others_out u Hne Hown A) in B. discriminate.
  - apply (gi_lock G).
Qed.

Lemma cls_same : value s' = value (psh s) -> calls s' = calls (psh s) -> cls_fact c (psh s) k (cls_of kont') ->
  forall u kk, tkey (ppcs N u) = Some kk -> cls_fact c (psh N) kk (tcls (ppcs N u)).
Proof.
  intros Hv Hcl F u kk. cbn. tsplit u t.
  - unfold tkey, tcls. cbn [fst snd]. intro X. injection X as <-. apply (cls_fact_ext c (psh s)); [rewrite Hv|rewrite Hcl|]; easy.
  - intro Hu. apply (cls_fact_ext c (psh s)); [rewrite Hv|rewrite Hcl|apply (gi_cls G u kk Hu)]; easy.
Qed.

Lemma cls_upd : cls_fact c s' k (cls_of kont') -> holds (cls_of kont) = true ->
  (forall k0, k0 <> k -> value s' k0 = value (psh s) k0 /\ (In k0 (calls s') <-> In k0 (calls (psh s)))) ->
  (forall o, value (psh s) k = Some o -> value s' k = Some o) ->
  forall u kk, tkey (ppcs N u) = Some kk -> cls_fact c (psh N) kk (tcls (ppcs N u)).
Proof.
  intros F Hown Hframe Hmono u kk. cbn. tsplit u t.
  - unfold tkey, tcls. cbn [fst snd]. intro X. injection X as <-. exact F.
  - apply cls_other; auto.
Qed.

(* a step that changes only the class of t: the new class says something true about the slot *)
Lemma gi_move : core_eq s' (psh s) -> holds (cls_of kont') = holds (cls_of kont) ->
  cls_fact c (psh s) k (cls_of kont') -> GI c ks N.
Proof.
  intros (Hl & Hv & Hcl & _) Hh F. constructor; cbn [psh].
  - exact local_upd.
  - apply lock_same; assumption.
  - rewrite Hv, Hcl. exact (gi_value G).
  - rewrite Hcl. exact (gi_nodup G).
  - apply cls_same; assumption.
  - rewrite Hl, Hv, Hcl. exact (gi_free G).
  - rewrite Hv, Hr. exact (gi_results G).
  - exact complete_upd.
Qed.
End To.

Lemma gi_trans : forall kont' l' s',
  trans c t k (psh s) (cls_of kont) (cls_of kont') s' -> local_ok c ((e, k) :: rest, kont', l') ->
  GI c ks {| ppcs := upd (ppcs s) t ((e, k) :: rest, kont', l'); psh := s' |}.
Proof.
  intros kont' l' s' T L.
  pose proof (gi_cls G t k Hk) as Ft. rewrite Hc in Ft.
  remember (cls_of kont) as x eqn:Ex in T, Ft. remember (cls_of kont') as x' eqn:Ex' in T.
  destruct T as [x s' Hcore|s' Hfree Hl Hv Hcl Hr|s' Hnone Hcore|s' o Hsome Hcore|s' Hl Hv Hcl Hr|s' Hl Hv Hcl Hr|s' Hl Hv Hcl Hr].
  - apply gi_move; [exact L|apply Hcore|exact Hcore|rewrite <- Ex, <- Ex'; reflexivity|rewrite <- Ex'; exact Ft].
  - (* the acquisition *)
    constructor; cbn [psh].
    + apply local_upd; assumption.
    + apply lock_upd; [assumption..|rewrite <- Ex'; exact Hl|right; exact Hfree].
    + rewrite Hv, Hcl. exact (gi_value G).
    + rewrite Hcl. exact (gi_nodup G).
    + apply cls_same; try assumption. rewrite <- Ex'. exact (gi_free G k Hfree).
    + intro kk. rewrite Hl, Hv, Hcl. ksplit kk k; [discriminate|apply (gi_free G)].
    + rewrite Hv, Hr. exact (gi_results G).
    + apply complete_upd; assumption.
  - (* the slot is empty: the supplier has not been asked *)
    apply gi_move; [exact L|apply Hcore|exact Hcore|rewrite <- Ex, <- Ex'; reflexivity|rewrite <- Ex'].
    split; [exact Hnone|]. intro X. apply (Ft X). exact Hnone.
  - (* the slot is full: with the scripted answer *)
    apply gi_move; [exact L|apply Hcore|exact Hcore|rewrite <- Ex, <- Ex'; reflexivity|rewrite <- Ex'].
    destruct (gi_value G k o Hsome) as [-> _]. exact Hsome.
  - (* the supplier call *)
    assert (Hown : holds (cls_of kont) = true) by (rewrite <- Ex; reflexivity).
    constructor; cbn [psh].
    + apply local_upd; assumption.
    + apply lock_same; [assumption..|rewrite <- Ex, <- Ex'; reflexivity].
    + rewrite Hv, Hcl. intros kk o V. destruct (gi_value G kk o V) as [A B]. split; [exact A|apply in_or_app; left; exact B].
    + rewrite Hcl. apply NoDup_snoc; [exact (gi_nodup G)|apply Ft].
    + apply cls_upd; try assumption.
      * rewrite <- Ex'. cbn. rewrite Hv, Hcl. split; [apply Ft|apply in_or_app; right; left; reflexivity].
      * intros k0 Hk0. rewrite Hv, Hcl. split; [reflexivity|]. rewrite in_app_iff. cbn. intuition congruence.
      * rewrite Hv. auto.
    + rewrite Hl, Hv, Hcl. intros kk Hkk Hin. apply in_app_or in Hin. destruct Hin as [Hin|[<-|[]]]; [exact (gi_free G kk Hkk Hin)|].
      assert (B : lock (psh s) k = Some t) by (apply (gi_lock G); rewrite Hk, Hc; auto). congruence.
    + rewrite Hv, Hr. exact (gi_results G).
    + apply complete_upd; assumption.
  - (* the store *)
    assert (Hown : holds (cls_of kont) = true) by (rewrite <- Ex; reflexivity).
    constructor; cbn [psh].
    + apply local_upd; assumption.
    + apply lock_same; [assumption..|rewrite <- Ex, <- Ex'; reflexivity].
    + rewrite Hv, Hcl. intros kk o. ksplit kk k; [|apply (gi_value G)]. intro X. injection X as <-. split; [reflexivity|apply Ft].
    + rewrite Hcl. exact (gi_nodup G).
    + apply cls_upd; try assumption.
      * rewrite <- Ex'. cbn. rewrite Hv. apply upd_same.
      * intros k0 Hk0. rewrite Hv, Hcl, upd_other by assumption. split; reflexivity.
      * intros o X. destruct Ft as [Y _]. congruence.
    + rewrite Hl, Hv, Hcl. intros kk. ksplit kk k; [discriminate|apply (gi_free G)].
    + rewrite Hv, Hr. intros u kk o Hin. destruct (gi_results G u kk o Hin) as [-> B]. split; [reflexivity|].
      ksplit kk k; [reflexivity|exact B].
    + apply complete_upd; assumption.
  - (* the release *)
    constructor; cbn [psh].
    + apply local_upd; assumption.
    + apply lock_upd; [assumption..|rewrite <- Ex'; exact Hl|left; rewrite <- Ex; reflexivity].
    + rewrite Hv, Hcl. exact (gi_value G).
    + rewrite Hcl. exact (gi_nodup G).
    + apply cls_same; try assumption. rewrite <- Ex'. exact Ft.
    + intro kk. rewrite Hl, Hv, Hcl. ksplit kk k; [|apply (gi_free G)]. intros _ _. cbn in Ft. congruence.
    + rewrite Hv, Hr. exact (gi_results G).
    + apply complete_upd; assumption.
Qed.

(* the last instruction of a lookup hands the remembered answer to the requester *)
Lemma gi_finish : cls_of kont = CUse ->
  GI c ks {| ppcs := upd (ppcs s) t (rest, [], l0);
             psh := sh_results (psh s) (upd (results (psh s)) t (results (psh s) t ++ [(k, outc c k)])) |}.
Proof.
  intro Ex. pose proof (gi_cls G t k Hk) as Ft. rewrite Hc, Ex in Ft. cbn in Ft.
  constructor; cbn [ppcs psh sh_results lock value calls results].
  - intro u. tsplit u t; [|apply (gi_local G)]. destruct rest as [|[? ?] ?]; [reflexivity|left; reflexivity].
  - intros kk u. rewrite (gi_lock G kk u). tsplit u t; [|reflexivity].
    rewrite Hc, Ex. split; intros [_ X]; discriminate.
  - exact (gi_value G).
  - exact (gi_nodup G).
  - intros u kk. tsplit u t; [intros _; exact I|apply (gi_cls G)].
  - exact (gi_free G).
  - intros u kk o. tsplit u t; [|apply (gi_results G)].
    intro Hin. apply in_app_or in Hin. destruct Hin as [Hin|[Hin|[]]]; [exact (gi_results G t kk o Hin)|].
    injection Hin as <- <-. split; [reflexivity|exact Ft].
  - intro u. tsplit u t; [|apply (gi_complete G)].
    rewrite <- (gi_complete G t), E, map_app, <- app_assoc. reflexivity.
Qed.
End Step.

Lemma cstep_trans : forall c t k e kont l s kont' l' s',
  cstep c t k e kont l s kont' l' s' -> kont' <> [] -> trans c t k s (cls_of kont) (cls_of kont') s'.
Proof.
  intros c t k e kont l s kont' l' s' H Hne.
  destruct H; try contradiction; try (econstructor; first [eassumption|reflexivity|repeat split]).
  subst r. destruct (fcls l); constructor; repeat split.
Qed.

Lemma cstep_finish : forall c t k e kont l s l' s', cstep c t k e kont l s [] l' s' ->
  kont = [IUseResult] /\ s' = sh_results s (upd (results s) t (results s t ++ [(k, outc c k)])).
Proof. intros c t k e kont l s l' s' H. inversion H; subst; [|split; reflexivity]. destruct (fcls l); discriminate. Qed.

(* in a state of an instruction-level run, a step of a task inside a lookup is a [cstep] *)
Lemma gi_step : forall c ks s t e k rest kont l, GI c ks s -> ppcs s t = ((e, k) :: rest, kont, l) ->
  exists kont' l' s', cstep c t k e kont l (psh s) kont' l' s' /\ local_ok c (after e k rest kont' l') /\
    pmstep canon c t s = {| ppcs := upd (ppcs s) t (after e k rest kont' l'); psh := s' |}.
Proof.
  intros c ks s t e k rest kont l G E. apply (pmstep_canon c t s e k rest kont l E (gi_local G t)).
  intro X. pose proof (gi_cls G t k) as F. rewrite E in F. unfold tcls in F. cbn [fst snd] in F. rewrite X in F.
  exact (F eq_refl).
Qed.

Lemma gi_pmstep : forall c ks s t, GI c ks s -> GI c ks (pmstep canon c t s).
Proof.
  intros c ks s t G. destruct (ppcs s t) as [[[|[e k] rest] kont] l] eqn:E; [unfold pmstep; rewrite E; exact G|].
  destruct (gi_step c ks s t e k rest kont l G E) as (kont' & l' & s' & Hstep & L & ->).
  destruct kont' as [|i more].
  - destruct (cstep_finish _ _ _ _ _ _ _ _ _ Hstep) as [-> ->]. apply (gi_finish c ks s t e k rest _ l G E). reflexivity.
  - apply (gi_trans c ks s t e k rest kont l G E); [apply (cstep_trans _ _ _ _ _ _ _ _ _ _ Hstep); discriminate|exact L].
Qed.

Definition allkeys (pc : pconfig) (t : task) : list key := map snd (nth t (ptasks pc) []).

Lemma gi_init : forall pc, GI (cfg pc) (allkeys pc) (pinit pc).
Proof.
  intro pc. constructor; cbn.
  - intro t. unfold local_ok. destruct (nth t (ptasks pc) []) as [|[e k] r]; [reflexivity|left; reflexivity].
  - intros k t. split; [discriminate|]. intros [_ H]. discriminate.
  - discriminate.
  - constructor.
  - intros t k _. exact I.
  - intros k _ [].
  - intros t k o [].
  - intro t. reflexivity.
Qed.

(* what the initial state has and every step keeps, every instruction-level run has *)
Lemma pmrun_ind : forall P pc (Q : pstate -> Prop),
  Q (pinit pc) -> (forall s t, Q s -> Q (pmstep P (cfg pc) t s)) -> forall ms, Q (pmrun P pc ms).
Proof.
  intros P pc Q H0 Hs ms. unfold pmrun. generalize (pinit pc) H0.
  induction ms as [|t r IH]; intros s H; cbn; [exact H|]. apply IH, Hs, H.
Qed.

Lemma pmrun_gi : forall pc ms, GI (cfg pc) (allkeys pc) (pmrun canon pc ms).
Proof. intro pc. apply pmrun_ind; [apply gi_init|]. intros s t. apply gi_pmstep. Qed.

Lemma pmstep_other : forall P c t s u, u <> t -> ppcs (pmstep P c t s) u = ppcs s u.
Proof.
  intros P c t s u Hne. unfold pmstep.
  destruct (ppcs s t) as [[rem kont] l]. destruct rem as [|[e k] rest]; [reflexivity|].
  destruct (match kont with [] => (p_entry P e, l0) | _ :: _ => (kont, l) end) as [[|i more] li]; cbn [ppcs].
  - apply upd_other. exact Hne.
  - destruct (istep P c t k i more li (psh s)) as [[|x y] ? ?| ? ? ?|]; cbn [ppcs]; apply upd_other; exact Hne.
Qed.

(* a step of task t removes at most the first of t's remaining lookups *)
Lemma pmstep_rem : forall P c t s,
  fst (fst (ppcs (pmstep P c t s) t)) = fst (fst (ppcs s t)) \/ fst (fst (ppcs (pmstep P c t s) t)) = tl (fst (fst (ppcs s t))).
Proof.
  intros P c t s. unfold pmstep.
  destruct (ppcs s t) as [[rem kont] l] eqn:E. destruct rem as [|[e k] rest]; [left; rewrite E; reflexivity|].
  destruct (match kont with [] => (p_entry P e, l0) | _ :: _ => (kont, l) end) as [[|i more] li]; cbn [ppcs].
  - right. rewrite upd_same. reflexivity.
  - destruct (istep P c t k i more li (psh s)) as [[|x y] ? ?| ? ? ?|]; cbn [ppcs]; rewrite upd_same; auto.
Qed.

(* hence a property of every lookup of every task is kept *)
Lemma pmstep_forall : forall (Q : lookup -> Prop) P c t s,
  (forall u, Forall Q (fst (fst (ppcs s u)))) -> forall u, Forall Q (fst (fst (ppcs (pmstep P c t s) u))).
Proof.
  intros Q P c t s H u. destruct (Nat.eq_dec u t) as [->|Hne]; [|rewrite pmstep_other by exact Hne; apply H].
  destruct (pmstep_rem P c t s) as [-> | ->]; [apply H|].
  specialize (H t). destruct (fst (fst (ppcs s t))); [exact H|]. inversion H; assumption.
Qed.

Lemma pmstep_range : forall P c n t s,
  (forall u, n <= u -> fst (fst (ppcs s u)) = []) -> (forall u, n <= u -> fst (fst (ppcs (pmstep P c t s) u)) = []).
Proof.
  intros P c n t s H u Hu. destruct (Nat.eq_dec u t) as [->|Hne]; [|rewrite pmstep_other by exact Hne; apply H; exact Hu].
  destruct (pmstep_rem P c t s) as [-> | ->]; rewrite (H t Hu); reflexivity.
Qed.

Lemma pmrun_range : forall P pc ms u, length (ptasks pc) <= u -> fst (fst (ppcs (pmrun P pc ms) u)) = [].
Proof.
  intros P pc. apply (pmrun_ind P pc (fun s => forall u, length (ptasks pc) <= u -> fst (fst (ppcs s u)) = [])).
  - intros u Hu. apply nth_overflow. exact Hu.
  - intros s t. apply pmstep_range.
Qed.

(* when every task has finished, none has a lookup left, whatever its id *)
Lemma pall_done_rem : forall pc s, (forall u, length (ptasks pc) <= u -> fst (fst (ppcs s u)) = []) ->
  pall_done pc s = true -> forall t, fst (fst (ppcs s t)) = [].
Proof.
  intros pc s R Hd t. destruct (Nat.lt_ge_cases t (length (ptasks pc))) as [A|A]; [|exact (R t A)].
  unfold pall_done in Hd. rewrite forallb_forall in Hd. specialize (Hd t ltac:(apply in_seq; lia)).
  unfold ptask_done in Hd. destruct (fst (fst (ppcs s t))); [reflexivity|discriminate].
Qed.

(* ---- no deadlock at instruction granularity: the only instruction that can fail to make progress is a
        lock().await on a held lock; while some task is unfinished, some unfinished task is not in that situation ---- *)
Definition blocked (s : pstate) (t : task) : bool :=
  match ppcs s t with
  | ((_, k) :: _, ILockAwait :: _, _) => match lock (psh s) k with Some _ => true | None => false end
  | _ => false
  end.

(* a task that waits for a held lock waits for an unfinished task that is past its own lock().await *)
Lemma no_deadlock_gen : forall c ks pc s, GI c ks s -> (forall u, length (ptasks pc) <= u -> fst (fst (ppcs s u)) = []) ->
  pall_done pc s = false ->
  exists t, t < length (ptasks pc) /\ ptask_done s t = false /\ blocked s t = false.
Proof.
  intros c ks pc s G R Hd. unfold pall_done in Hd.
  destruct (forallb_false _ _ _ Hd) as (t0 & Hin & Hnd).
  assert (Hlt : t0 < length (ptasks pc)) by (apply in_seq in Hin; lia).
  destruct (blocked s t0) eqn:Hb; [|exists t0; auto].
  unfold blocked in Hb. destruct (ppcs s t0) as [[rem kont] l] eqn:E.
  destruct rem as [|[e k] rest]; [discriminate|]. destruct kont as [|i more]; [discriminate|].
  destruct i; try discriminate. destruct (lock (psh s) k) as [u|] eqn:Hl; [|discriminate].
  apply (gi_lock G) in Hl. destruct Hl as [U1 U2]. unfold tkey in U1.
  exists u. split; [|split].
  - destruct (Nat.lt_ge_cases u (length (ptasks pc))) as [A|A]; [exact A|]. rewrite (R u A) in U1. discriminate.
  - unfold ptask_done. destruct (fst (fst (ppcs s u))); [discriminate|reflexivity].
  - unfold blocked. destruct (ppcs s u) as [[rem' kont'] l']. unfold tcls in U2. cbn in U2.
    destruct rem' as [|[e' k'] r']; [reflexivity|]. destruct kont' as [|i' m']; [reflexivity|].
    destruct i'; try reflexivity. cbn in U2. discriminate.
Qed.

Section FineTheorems.
Variable pc : pconfig.
Variable ms : list task.
Local Notation s := (pmrun canon pc ms).
Local Notation G := (pmrun_gi pc ms).

Lemma pm_at_most_once : forall k, psupplier_calls s k <= 1.
Proof. intro k. apply (proj1 (NoDup_count_occ Nat.eq_dec _) (gi_nodup G)). Qed.

Lemma pm_same_outcome : forall t i k o, ptask_result s t i = Some (k, o) -> o = outc (pbase pc) k.
Proof. intros t i k o H. apply nth_error_In in H. apply (gi_results G t k o H). Qed.

(* the slot's lock is held by t exactly when t is inside get for that slot, between the acquisition and the end of
   get; hence two tasks are never inside the critical section of one slot *)
Lemma pm_lock_iff : forall k t,
  lock (psh s) k = Some t <-> (tkey (ppcs s t) = Some k /\ holds (tcls (ppcs s t)) = true).
Proof. intros. apply (gi_lock G). Qed.

Lemma pm_mutual_exclusion : forall k t u,
  lock (psh s) k = Some t ->
  tkey (ppcs s u) = Some k -> holds (tcls (ppcs s u)) = true -> u = t.
Proof. intros k t u Ht Hu1 Hu2. assert (B : lock (psh s) k = Some u) by (apply pm_lock_iff; auto). congruence. Qed.

(* a remembered value is the supplier's scripted answer, and the supplier was asked for it *)
Lemma pm_value : forall k o, value (psh s) k = Some o -> o = outc (pbase pc) k /\ psupplier_calls s k = 1.
Proof.
  intros k o H. destruct (gi_value G k o H) as [A B]. split; [exact A|].
  apply NoDup_count_occ'; [exact (gi_nodup G)|exact B].
Qed.

(* no request is lost: when every task has finished, each has one result per lookup, in order *)
Lemma pm_results_complete : forall t,
  pall_done pc s = true -> map fst (results (psh s) t) = map snd (nth t (ptasks pc) []).
Proof.
  intros t Hd. pose proof (gi_complete G t) as X.
  rewrite (pall_done_rem pc s (pmrun_range canon pc ms) Hd t), app_nil_r in X. exact X.
Qed.

(* ... and every requested slot was fetched exactly once *)
Lemma pm_exactly_once : forall k,
  pall_done pc s = true -> In k (concat (tasks (cfg pc))) -> psupplier_calls s k = 1.
Proof.
  intros k Hd Hk. cbn [cfg tasks] in Hk. apply in_concat in Hk. destruct Hk as (l & Hl & Hkl).
  apply in_map_iff in Hl. destruct Hl as (lk & <- & Hlk).
  apply (In_nth _ _ []) in Hlk. destruct Hlk as (t & _ & <-).
  assert (Hr : In k (map fst (results (psh s) t))) by (rewrite (pm_results_complete t Hd); exact Hkl).
  apply in_map_iff in Hr. destruct Hr as ([k' o] & Hf & Hin).
  cbn in Hf. subst k'. destruct (gi_results G t k o Hin) as [_ V]. apply (pm_value k o V).
Qed.

(* no task panics (unwrap of an empty slot), none is left with an ill-formed continuation *)
Lemma pm_never_stuck : forall t, snd (fst (ppcs s t)) <> [IAbort].
Proof.
  intro t. pose proof (gi_local G t) as L. unfold local_ok in L.
  destruct (ppcs s t) as [[rem kont] l]. cbn. destruct rem as [|[e k] r].
  - subst. discriminate.
  - destruct L as [->|(Hin & _)]; [discriminate|].
    intro X. subst kont. destruct (is_file e); cbn in Hin; intuition discriminate.
Qed.

Lemma pm_no_deadlock : pall_done pc s = false ->
  exists t, t < length (ptasks pc) /\ ptask_done s t = false /\ blocked s t = false.
Proof. apply (no_deadlock_gen _ _ pc s G (pmrun_range canon pc ms)). Qed.
End FineTheorems.

(* an interleaving no poll schedule has: task 1 finds the slot locked while task 0 stands between
   `symbols_requested += 1` and the supplier call (requested = 1, log still empty) *)
Definition two_fill : pconfig :=
  {| ptasks := [[(EFill, 0)]; [(EWalk, 0)]];
     pbase := {| tasks := []; susp := fun _ => 0; outc := fun _ => OLoad; leaf := fun k => k |} |}.
