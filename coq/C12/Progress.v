(* C12/Progress.v — liveness: no state is stuck, and fair schedules finish within a bound. *)
From Coq Require Import List Arith Bool Lia.
From RM Require Import C12.Model C12.Proofs.
Import ListNotations.

Lemma sum_upto_ext : forall n f g, (forall t, t < n -> f t = g t) -> sum_upto n f = sum_upto n g.
Proof.
  induction n as [|n IH]; intros f g H; [reflexivity|].
  cbn [sum_upto]. rewrite (IH f g), (H n); auto.
Qed.

Lemma sum_upto_zero : forall n f, sum_upto n f = 0 <-> (forall t, t < n -> f t = 0).
Proof.
  induction n as [|n IH]; intros f; cbn [sum_upto].
  - split; [intros _ t Ht; lia|reflexivity].
  - split.
    + intros H t Ht. assert (H1 : sum_upto n f = 0) by lia. assert (H2 : f n = 0) by lia.
      destruct (Nat.eq_dec t n) as [E|N]; [now subst|]. apply (proj1 (IH f) H1). lia.
    + intros H. rewrite (proj2 (IH f)), (H n); auto.
Qed.

Lemma sum_upto_upd_ge : forall A (g : A -> nat) (p : nat -> A) t v n, n <= t ->
  sum_upto n (fun x => g (upd p t v x)) = sum_upto n (fun x => g (p x)).
Proof.
  intros A g p t v n Hn. apply sum_upto_ext. intros x Hx. rewrite upd_other; [reflexivity|lia].
Qed.

Lemma sum_upto_upd_lt : forall A (g : A -> nat) (p : nat -> A) t v n, t < n ->
  sum_upto n (fun x => g (upd p t v x)) + g (p t) = sum_upto n (fun x => g (p x)) + g v.
Proof.
  intros A g p t v. induction n as [|n IH]; intros Ht; [lia|].
  cbn [sum_upto]. destruct (Nat.eq_dec t n) as [E|N].
  - subst t. rewrite upd_same. rewrite (sum_upto_upd_ge A g p n v n) by lia. lia.
  - rewrite (upd_other _ p t v n) by (intro; subst; contradiction).
    assert (Hlt : t < n) by lia. specialize (IH Hlt). lia.
Qed.

Lemma forallb_false : forall A (f : A -> bool) l, forallb f l = false -> exists x, In x l /\ f x = false.
Proof.
  induction l as [|a l IH]; cbn [forallb]; intros H; [discriminate|].
  destruct (f a) eqn:E.
  - destruct (IH H) as (x & Hx & Hf). exists x. split; [now right|assumption].
  - exists a. split; [now left|assumption].
Qed.

Lemma firstn_plus : forall A n m (l : list A), firstn (n + m) l = firstn n l ++ firstn m (skipn n l).
Proof.
  induction n as [|n IH]; intros m l; [reflexivity|].
  destruct l as [|a l]; cbn [plus firstn skipn app].
  - now rewrite firstn_nil.
  - now rewrite IH.
Qed.

Lemma skipn_plus : forall A n m (l : list A), skipn m (skipn n l) = skipn (n + m) l.
Proof.
  induction n as [|n IH]; intros m l; [reflexivity|].
  destruct l as [|a l]; cbn [plus skipn]; [now rewrite skipn_nil|apply IH].
Qed.

(* a fair schedule of length T * W splits into W rounds that each poll every task *)
Lemma fair_rounds : forall n T W sched, fair n T sched -> T * W <= length sched ->
  exists rounds, concat rounds = firstn (T * W) sched /\ length rounds = W /\ Forall (covers n) rounds.
Proof.
  intros n T W. induction W as [|W IH]; intros sched Hfair Hlen.
  - exists []. rewrite Nat.mul_0_r. repeat split; constructor.
  - rewrite Nat.mul_succ_r in *. rewrite (Nat.add_comm (T * W) T) in *.
    assert (Hfair' : fair n T (skipn T sched)).
    { intros i Hi. rewrite skipn_length in Hi. rewrite skipn_plus. apply Hfair. lia. }
    assert (Hlen' : T * W <= length (skipn T sched)) by (rewrite skipn_length; lia).
    destruct (IH (skipn T sched) Hfair' Hlen') as (rounds & Hc & Hl & Hf).
    exists (firstn T sched :: rounds). repeat split.
    + cbn [concat]. rewrite Hc. symmetry. apply firstn_plus.
    + cbn [length]. now rewrite Hl.
    + constructor; [|assumption]. apply (Hfair 0). lia.
Qed.

(* Fairness implies termination, for any step function with a measure.  Tasks are polled by [step]; [mu] never increases; a task that is [en]abled lowers it when it is polled and stays
   enabled while the others leave [mu] alone; while [mu] is not 0 some task below n is enabled.  Then every round that
   polls all tasks below n lowers [mu], and a schedule in which every window of T polls contains all of them brings it
   to 0 within T * mu polls. *)
Section FairTermination.
Variables (St : Type) (step : task -> St -> St) (I : St -> Prop) (mu : St -> nat) (en : St -> task -> Prop) (n : nat).
Hypothesis I_step : forall t s, I s -> I (step t s).
Hypothesis mu_le : forall t s, I s -> mu (step t s) <= mu s.
Hypothesis en_lt : forall t s, I s -> en s t -> mu (step t s) < mu s.
Hypothesis en_keep : forall t t' s, I s -> en s t -> t' <> t -> mu (step t' s) = mu s -> en (step t' s) t.
Hypothesis en_ex : forall s, I s -> mu s <> 0 -> exists t, t < n /\ en s t.
Definition steps (s : St) (l : list task) : St := fold_left (fun s t => step t s) l s.

Lemma steps_inv : forall l s, I s -> I (steps s l).
Proof. induction l as [|t l IH]; intros s H; [exact H|]. apply (IH (step t s)). now apply I_step. Qed.

Lemma steps_le : forall l s, I s -> mu (steps s l) <= mu s.
Proof.
  induction l as [|t l IH]; intros s H; [cbn; lia|].
  change (steps s (t :: l)) with (steps (step t s) l).
  pose proof (IH (step t s) (I_step t s H)). pose proof (mu_le t s H). lia.
Qed.

Lemma round_lt : forall r s t, I s -> en s t -> In t r -> mu (steps s r) < mu s.
Proof.
  induction r as [|a r IH]; intros s t H Hen Hin; [destruct Hin|].
  change (steps s (a :: r)) with (steps (step a s) r). pose proof (steps_le r (step a s) (I_step a s H)) as Hle.
  destruct (Nat.eq_dec a t) as [->|N]; [pose proof (en_lt t s H Hen); lia|].
  destruct Hin as [E|Hin]; [contradiction|]. pose proof (mu_le a s H).
  destruct (Nat.eq_dec (mu (step a s)) (mu s)) as [Heq|]; [|lia].
  pose proof (IH (step a s) t (I_step a s H) (en_keep t a s H Hen N Heq) Hin). lia.
Qed.

Lemma rounds_le : forall rounds s, I s -> Forall (covers n) rounds -> mu (steps s (concat rounds)) <= mu s - length rounds.
Proof.
  induction rounds as [|r rs IH]; intros s H Hf; [cbn; lia|].
  inversion Hf as [|r' rs' Hr Hrs]; subst. cbn [concat length]. unfold steps. rewrite fold_left_app. fold (steps s r).
  specialize (IH (steps s r) (steps_inv r s H) Hrs). fold (steps (steps s r) (concat rs)). pose proof (steps_le r s H).
  destruct (Nat.eq_dec (mu s) 0) as [Z|NZ]; [lia|].
  destruct (en_ex s H NZ) as (t & Ht & Hen). pose proof (round_lt r s t H Hen (Hr t Ht)). lia.
Qed.

Theorem fair_terminates : forall T sched s, I s -> fair n T sched -> T * mu s <= length sched -> mu (steps s sched) = 0.
Proof.
  intros T sched s H Hfair Hlen. destruct (fair_rounds n T (mu s) sched Hfair Hlen) as (rounds & Hc & Hl & Hf).
  pose proof (rounds_le rounds s H Hf) as R. rewrite Hc, Hl in R.
  rewrite <- (firstn_skipn (T * mu s) sched). unfold steps. rewrite fold_left_app.
  pose proof (steps_le (skipn (T * mu s) sched) _ (steps_inv (firstn (T * mu s) sched) s H)). unfold steps in *. lia.
Qed.
End FairTermination.

(* a step function that respects an equivalence of states; [siter n t] = n steps of task t *)
Section StepEquiv.
Variables (St : Type) (eqv : St -> St -> Prop) (step : task -> St -> St).
Hypothesis step_eqv : forall t a b, eqv a b -> eqv (step t a) (step t b).
Definition siter (n : nat) (t : task) (s : St) : St := steps St step s (repeat t n).

Lemma steps_eqv : forall l a b, eqv a b -> eqv (steps St step a l) (steps St step b l).
Proof. induction l as [|t l IH]; intros a b H; [exact H|]. apply (IH (step t a) (step t b)). now apply step_eqv. Qed.

Lemma steps_app : forall l1 l2 s, steps St step s (l1 ++ l2) = steps St step (steps St step s l1) l2.
Proof. intros. apply fold_left_app. Qed.

Lemma siter_eq : forall n t a b, eqv a b -> eqv (siter n t a) (siter n t b).
Proof. intros n t. apply steps_eqv. Qed.

Lemma siter_add : forall n m t s, siter (n + m) t s = siter m t (siter n t s).
Proof. intros. unfold siter. rewrite repeat_app. apply steps_app. Qed.
End StepEquiv.

Section Progress.
Variable c : config.

Lemma tcost_nosup : forall rem ph, not_sup ph -> tcost c (rem, ph) = cost c rem.
Proof. intros [|k rest] [| |m] H; try reflexivity; destruct H. Qed.

Lemma tcost_sup : forall k rest m, tcost c (k :: rest, Sup m) = S m + cost c rest.
Proof. reflexivity. Qed.

Lemma tcost_nil : forall ph, tcost c ([], ph) = 0.
Proof. intros [| |m]; reflexivity. Qed.

(* a poll of a task either strictly lowers that task's cost, or it changes nothing
   shared — and then the task has finished or is blocked on a lock somebody holds *)
Lemma advance_progress : forall t rem ph s rem' ph' s',
  advance c t rem ph s = (rem', ph', s') ->
  tcost c (rem', ph') < tcost c (rem, ph) \/
  (s' = s /\ tcost c (rem', ph') = tcost c (rem, ph) /\
   (rem = [] \/ exists k rest h, rem = k :: rest /\ not_sup ph /\ lock s k = Some h)).
Proof.
  intros t rem ph s rem' ph' s' Ha. pose proof (advance_adv c t rem ph s) as A. rewrite Ha in A. clear Ha.
  remember (rem', ph', s') as r eqn:Er.
  induction A; try (injection Er as <- <- <-); try specialize (IHA Er); try rewrite (tcost_nosup rest Start I) in IHA;
    try assert (Hle : tcost c (rem', ph') <= cost c rest) by (destruct IHA as [?|(_ & ? & _)]; lia).
  - right. repeat split; auto.
  - left. rewrite !tcost_sup. lia.
  - left. rewrite tcost_sup. lia.
  - right. rewrite (tcost_nosup _ ph H), (tcost_nosup (k :: rest) Wait I). repeat split; auto. right. exists k, rest, h. auto.
  - left. rewrite (tcost_nosup _ ph H). cbn [cost]. lia.
  - left. rewrite (tcost_nosup _ ph H). cbn [cost]. lia.
  - left. rewrite (tcost_nosup _ ph H), tcost_sup. cbn [cost]. lia.
Qed.

Lemma advance_enabled : forall t k rest ph s rem' ph' s',
  advance c t (k :: rest) ph s = (rem', ph', s') ->
  (exists m, ph = Sup m) \/ lock s k = None ->
  tcost c (rem', ph') < tcost c (k :: rest, ph).
Proof.
  intros t k rest ph s rem' ph' s' Ha Hen.
  destruct (advance_progress _ _ _ _ _ _ _ Ha) as [H|(_ & _ & [H|(k0 & rest0 & h & E & Hn & Hl)])];
    [assumption|discriminate|].
  inversion E; subst. destruct Hen as [(m & Em)|Hfree].
  - subst ph. destruct Hn.
  - rewrite Hl in Hfree. discriminate.
Qed.

Lemma poll_pcs_other : forall t t' s, t <> t' -> pcs (poll c t' s) t = pcs s t.
Proof.
  intros t t' s Hne. unfold poll. destruct (pcs s t') as [rem ph].
  destruct (advance c t' rem ph (sh s)) as [[rem' ph'] s']. cbn [pcs]. now apply upd_other.
Qed.

Lemma poll_potential : forall t s, SInv c s ->
  potential c (poll c t s) < potential c s \/
  (potential c (poll c t s) = potential c s /\ sh (poll c t s) = sh s).
Proof.
  intros t s HI. unfold poll, potential.
  destruct (pcs s t) as [rem ph] eqn:Hp.
  destruct (advance c t rem ph (sh s)) as [[rem' ph'] s'] eqn:Ha. cbn [pcs sh].
  destruct (Nat.lt_ge_cases t (ntasks c)) as [Hlt|Hge].
  - pose proof (sum_upto_upd_lt _ (tcost c) (pcs s) t (rem', ph') (ntasks c) Hlt) as Hsum.
    rewrite Hp in Hsum.
    destruct (advance_progress _ _ _ _ _ _ _ Ha) as [H|(Es & Ec & _)].
    + left. lia.
    + right. split; [lia|assumption].
  - right. rewrite (sum_upto_upd_ge _ (tcost c) (pcs s) t (rem', ph') (ntasks c) Hge).
    split; [reflexivity|].
    pose proof (rem_nil_beyond c s t HI Hge) as E. rewrite Hp in E. cbn [fst] in E. subst rem.
    cbn [advance] in Ha. now inversion Ha.
Qed.

Lemma poll_potential_le : forall t s, SInv c s -> potential c (poll c t s) <= potential c s.
Proof. intros t s HI. destruct (poll_potential t s HI) as [H|[H _]]; lia. Qed.

(* task t would make progress if polled now *)
Definition en (s : state) (t : task) : Prop :=
  t < ntasks c /\ exists k rest ph, pcs s t = (k :: rest, ph) /\
                    ((exists m, ph = Sup m) \/ lock (sh s) k = None).

Lemma en_decreases : forall s t, en s t -> potential c (poll c t s) < potential c s.
Proof.
  intros s t (Hlt & k & rest & ph & Hp & Hen). unfold poll, potential. rewrite Hp.
  destruct (advance c t (k :: rest) ph (sh s)) as [[rem' ph'] s'] eqn:Ha. cbn [pcs].
  pose proof (sum_upto_upd_lt _ (tcost c) (pcs s) t (rem', ph') (ntasks c) Hlt) as Hsum.
  rewrite Hp in Hsum. pose proof (advance_enabled _ _ _ _ _ _ _ _ Ha Hen). lia.
Qed.

Lemma en_persist : forall s t t', SInv c s -> en s t -> t' <> t ->
  potential c (poll c t' s) = potential c s -> en (poll c t' s) t.
Proof.
  intros s t t' HI (Hlt & k & rest & ph & Hp & Hen) Hne Heq.
  destruct (poll_potential t' s HI) as [H|[_ Hsh]]; [lia|].
  split; [assumption|]. exists k, rest, ph. rewrite poll_pcs_other by auto. rewrite Hsh. auto.
Qed.

Lemma pending_lt : forall s t k rest ph, SInv c s -> pcs s t = (k :: rest, ph) -> t < ntasks c.
Proof.
  intros s t k rest ph HI Hp. destruct (Nat.lt_ge_cases t (ntasks c)) as [H|H]; [assumption|].
  pose proof (rem_nil_beyond c s t HI H) as E. rewrite Hp in E. discriminate.
Qed.

(* no state is stuck: unless everybody has finished, somebody can move *)
Lemma en_exists : forall s, SInv c s -> all_done c s = false -> exists t, en s t.
Proof.
  intros s HI Hd. unfold all_done in Hd. apply forallb_false in Hd.
  destruct Hd as (t & Hin & Hf). apply in_seq in Hin. unfold task_done in Hf.
  destruct (pcs s t) as [[|k rest] ph] eqn:Hp; cbn [fst] in Hf; [discriminate|].
  destruct ph as [| |m].
  1, 2: destruct (lock (sh s) k) as [h|] eqn:Hl; [|exists t; split; [lia|]; do 3 eexists; split; [exact Hp|right; exact Hl]];
    apply (inv_lock _ _ _ HI) in Hl; destruct Hl as (r & m & Hh); exists h;
    split; [now apply (pending_lt s h k r (Sup m))|]; exists k, r, (Sup m); split; [assumption|left; now exists m].
  exists t. split; [lia|]. exists k, rest, (Sup m). split; [assumption|left; now exists m].
Qed.

Lemma potential_zero_done : forall s, potential c s = 0 -> all_done c s = true.
Proof.
  intros s H. unfold potential in H. rewrite sum_upto_zero in H.
  unfold all_done. apply forallb_forall. intros t Hin. apply in_seq in Hin.
  assert (Ht : t < ntasks c) by lia. specialize (H t Ht). unfold task_done.
  destruct (pcs s t) as [[|k rest] ph]; cbn [fst]; [reflexivity|].
  destruct ph as [| |m]; cbn in H; lia.
Qed.

Lemma done_potential_zero : forall s, all_done c s = true -> potential c s = 0.
Proof.
  intros s H. unfold potential. apply sum_upto_zero. intros t Ht.
  pose proof (all_done_rem c s H t Ht) as E. destruct (pcs s t) as [rem ph]. cbn [fst] in E. subst rem.
  apply tcost_nil.
Qed.

Lemma run_from_le : forall l s, SInv c s -> potential c (run_from c s l) <= potential c s.
Proof. exact (steps_le state (poll c) (SInv c) (potential c) (poll_inv c) poll_potential_le). Qed.

(* while the potential is not 0 some task below ntasks is enabled *)
Lemma en_nonzero : forall s, SInv c s -> potential c s <> 0 -> exists t, t < ntasks c /\ en s t.
Proof.
  intros s HI NZ. destruct (all_done c s) eqn:Hd; [elim NZ; now apply done_potential_zero|].
  destruct (en_exists s HI Hd) as (t & Hen). exists t. split; [apply Hen|exact Hen].
Qed.

(* polls are an instance of section FairTermination: every round that polls all tasks lowers the potential *)
Lemma rounds_potential : forall rounds s, SInv c s -> Forall (covers (ntasks c)) rounds ->
  potential c (run_from c s (concat rounds)) <= potential c s - length rounds.
Proof.
  exact (rounds_le state (poll c) (SInv c) (potential c) en (ntasks c) (poll_inv c) poll_potential_le
           (fun t s _ => en_decreases s t) (fun t t' s => en_persist s t t') en_nonzero).
Qed.

Lemma run_from_app : forall s l1 l2, run_from c s (l1 ++ l2) = run_from c (run_from c s l1) l2.
Proof. intros. unfold run_from. apply fold_left_app. Qed.

Lemma potential_init : potential c (init c) = work c.
Proof.
  unfold potential, work, init. cbn [pcs]. apply sum_upto_ext. intros t _.
  apply (tcost_nosup _ Start I).
Qed.

Lemma finish_in_rounds : forall rounds, Forall (covers (ntasks c)) rounds -> work c <= length rounds ->
  all_done c (run c (concat rounds)) = true.
Proof.
  intros rounds Hf Hlen. apply potential_zero_done.
  pose proof (rounds_potential rounds (init c) (init_inv c) Hf) as H.
  rewrite potential_init in H. unfold run. lia.
Qed.

Lemma finish_fair_prefix : forall T sched, fair (ntasks c) T sched -> T * work c <= length sched ->
  all_done c (run c (firstn (T * work c) sched)) = true.
Proof.
  intros T sched Hfair Hlen.
  destruct (fair_rounds (ntasks c) T (work c) sched Hfair Hlen) as (rounds & Hc & Hl & Hf).
  rewrite <- Hc. apply finish_in_rounds; [assumption|lia].
Qed.

Lemma finish_fair : forall T sched, fair (ntasks c) T sched -> T * work c <= length sched ->
  all_done c (run c sched) = true.
Proof.
  intros T sched Hfair Hlen. apply potential_zero_done. rewrite <- potential_init in Hlen.
  exact (fair_terminates state (poll c) (SInv c) (potential c) en (ntasks c) (poll_inv c) poll_potential_le
           (fun t s _ => en_decreases s t) (fun t t' s => en_persist s t t') en_nonzero T sched (init c) (init_inv c) Hfair Hlen).
Qed.

End Progress.
