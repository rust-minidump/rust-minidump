(* C12/ProgExec.v — join_all (JoinModel) driving the interpreter of the regenerated program.  The wake-up / join_all
   layers are instrumentation on top of [run]; their traces are poll schedules, and the interpreter on the source's
   program is [run] poll for poll (ProgSource.src_refines). *)
From RM Require Import C12.Model C12.Proofs C12.WakeModel C12.JoinModel C12.JoinProofs
  C12.ProgModel C12.ProgProofs C12.ProgSource Gen.C12Program.

Lemma ntasks_cfg : forall pc, ntasks (cfg pc) = length (ptasks pc).
Proof. intro pc. unfold ntasks. cbn. apply map_length. Qed.

Lemma src_done_iff : forall pc sched,
  pall_done pc (prun src_program pc sched) = all_done (cfg pc) (run (cfg pc) sched).
Proof. intros. apply (pall_done_abs false). apply src_refines. discriminate. Qed.

(* join_all (one shared waker): at most [work] parent polls, each a round-robin round of the program *)
Lemma src_join_all : forall (pc : pconfig) (fuel : nat),
  work (cfg pc) <= fuel ->
  exists w r, jexec (cfg pc) fuel (winit (cfg pc)) 0 = (w, r, WDone) /\ r <= work (cfg pc) /\
              pall_done pc (prun src_program pc (round_robin (cfg pc) r)) = true.
Proof.
  intros pc fuel Hf. destruct (join_all_ok (cfg pc) fuel Hf) as (w & r & He & Hr & _ & Hd).
  exists w, r. repeat split; auto. rewrite src_done_iff. exact Hd.
Qed.
