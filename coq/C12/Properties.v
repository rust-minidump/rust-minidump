(* C12/Properties.v — the property theorems of C12: each with its full statement, a short proof from the lemmas of the
   lemma files (an instance, or a few lines) and its [Print Assumptions]; between them the non-vacuity examples and
   the configurations they use.  All statements quantify over every configuration (any number of tasks, lookups,
   keys, any suspension counts and answers) and every schedule (any list of task ids: repeated, spurious and
   unknown ids included). *)
From Coq Require Import Lia.
From RM Require Import Base.ListFacts C12.Model C12.Proofs.

(* the supplier is asked at most once per distinct module key, in every reachable state *)
Theorem c12_at_most_once : forall (c : config) (sched : list task) (k : key),
  supplier_calls (run c sched) k <= 1.
Proof. exact at_most_once. Qed.
Print Assumptions c12_at_most_once.

(* every finished lookup returned the single scripted answer of its key (failures included),
   and it is the lookup the task issued at that position *)
Theorem c12_same_outcome : forall (c : config) (sched : list task) (t : task) (i : nat) (k : key) (o : outcome),
  task_result (run c sched) t i = Some (k, o) ->
  o = outc c k /\ nth_error (nth t (tasks c) []) i = Some k.
Proof. exact same_outcome. Qed.
Print Assumptions c12_same_outcome.

(* no request is lost: when every task has finished, each task has one result per lookup, in order *)
Theorem c12_results_complete : forall (c : config) (sched : list task) (t : task),
  all_done c (run c sched) = true ->
  map fst (results (sh (run c sched)) t) = nth t (tasks c) [].
Proof. exact results_complete. Qed.
Print Assumptions c12_results_complete.

(* pending counters: never ahead of the number of distinct modules ... *)
Theorem c12_counters_bounded : forall (c : config) (sched : list task),
  processed (run c sched) <= requested (run c sched) /\ requested (run c sched) <= distinct_keys c.
Proof. exact counters_bounded. Qed.
Print Assumptions c12_counters_bounded.

(* ... and at quiescence requested = processed = number of distinct modules asked for *)
Theorem c12_counters : forall (c : config) (sched : list task),
  all_done c (run c sched) = true ->
  requested (run c sched) = distinct_keys c /\ processed (run c sched) = distinct_keys c.
Proof. exact counters_quiescent. Qed.
Print Assumptions c12_counters.

Theorem c12_exactly_once_at_quiescence : forall (c : config) (sched : list task) (k : key),
  all_done c (run c sched) = true -> In k (concat (tasks c)) ->
  supplier_calls (run c sched) k = 1.
Proof. exact exactly_once_quiescent. Qed.
Print Assumptions c12_exactly_once_at_quiescence.

(* ---- liveness ---- *)
From RM Require Import C12.Progress.

(* no deadlock: in every reachable state in which some task is unfinished there is a task
   whose poll strictly lowers the progress measure (it completes a lookup, starts the
   supplier call, or consumes one of the supplier's suspensions) *)
Theorem c12_no_deadlock : forall (c : config) (sched : list task),
  all_done c (run c sched) = false ->
  exists t, t < ntasks c /\ potential c (poll c t (run c sched)) < potential c (run c sched).
Proof.
  intros c sched Hd. destruct (en_exists c _ (run_inv c sched) Hd) as (t & Hen).
  exists t. split; [apply Hen|now apply en_decreases].
Qed.
Print Assumptions c12_no_deadlock.

(* the measure never increases (a poll that cannot progress changes nothing) and starts at
   work c = number of lookups + their scripted suspensions *)
Theorem c12_progress_measure : forall (c : config) (sched : list task) (t : task),
  potential c (run c (sched ++ [t])) <= potential c (run c sched) /\ potential c (run c sched) <= work c.
Proof.
  intros c sched t. unfold run. rewrite run_from_app. split.
  - apply run_from_le. apply run_from_inv, init_inv.
  - rewrite <- potential_init. apply run_from_le, init_inv.
Qed.
Print Assumptions c12_progress_measure.

(* rounds: if each round polls every task at least once (any order, any extra polls),
   everything has finished after at most [work c] rounds *)
Theorem c12_no_lost_request_rounds : forall (c : config) (rounds : list (list task)),
  Forall (covers (ntasks c)) rounds -> work c <= length rounds ->
  all_done c (run c (concat rounds)) = true.
Proof. exact finish_in_rounds. Qed.
Print Assumptions c12_no_lost_request_rounds.

(* fair schedules: every window of T polls contains every task; then the first T * work c
   polls already finish every task (and so does the whole schedule) *)
Theorem c12_no_lost_request : forall (c : config) (T : nat) (sched : list task),
  fair (ntasks c) T sched -> T * work c <= length sched ->
  all_done c (run c (firstn (T * work c) sched)) = true.
Proof. exact finish_fair_prefix. Qed.
Print Assumptions c12_no_lost_request.

Theorem c12_fair_schedule_finishes : forall (c : config) (T : nat) (sched : list task),
  fair (ntasks c) T sched -> T * work c <= length sched ->
  all_done c (run c sched) = true.
Proof. exact finish_fair. Qed.
Print Assumptions c12_fair_schedule_finishes.

(* ---- non-vacuity: concrete configurations reach the states the theorems talk about ---- *)
Definition ex_cfg : config :=
  {| tasks := [[0; 1]; [1; 0]; [0]];
     susp := fun k => match k with 0 => 2 | _ => 1 end;
     outc := fun k => match k with 0 => OOk | _ => ONotFound end;
     leaf := fun k => k |}.

(* contention really happens: after polling 0,1,2 once, task 0 is inside the supplier for
   key 0, task 1 inside the supplier for key 1 and task 2 waits for key 0's lock *)
Example c12_nonvacuous_contention :
  let s := run ex_cfg [0; 1; 2] in
  pcs s 0 = ([0; 1], Sup 1) /\ pcs s 1 = ([1; 0], Sup 0) /\ pcs s 2 = ([0], Wait) /\
  lock (sh s) 0 = Some 0 /\ calls (sh s) = [0; 1] /\ requested s = 2 /\ processed s = 0 /\
  all_done ex_cfg s = false.
Proof. vm_compute. repeat split. Qed.

(* a 3-task, 2-key run with suspensions, spurious polls and an unknown task id reaches
   quiescence with one supplier call per key and every requester seeing the same answer *)
Example c12_nonvacuous_quiescence :
  let s := run ex_cfg [0; 1; 1; 2; 7; 2; 0; 2; 1; 0; 0; 2; 1; 0; 1; 2] in
  all_done ex_cfg s = true /\ calls (sh s) = [0; 1] /\ requested s = 2 /\ processed s = 2 /\
  distinct_keys ex_cfg = 2 /\
  results (sh s) 0 = [(0, OOk); (1, ONotFound)] /\ results (sh s) 1 = [(1, ONotFound); (0, OOk)] /\
  results (sh s) 2 = [(0, OOk)].
Proof. vm_compute. repeat split. Qed.

Example c12_nonvacuous_rounds :
  work ex_cfg = 13 /\ Forall (covers (ntasks ex_cfg)) (repeat [0; 1; 2] 13) /\
  all_done ex_cfg (run ex_cfg (concat (repeat [0; 1; 2] 5))) = true.
Proof.
  split; [reflexivity|]. split; [|vm_compute; reflexivity].
  apply Forall_forall. intros r Hr. apply repeat_spec in Hr. subst r.
  intros t Ht. cbn in Ht. destruct t as [|[|[|t]]]; cbn; auto. exfalso. apply (Nat.lt_irrefl 3).
  apply Nat.le_lt_trans with (S (S (S t))); [apply le_n_S, le_n_S, le_n_S, Nat.le_0_l|exact Ht].
Qed.

Definition ex_cfg2 : config :=
  {| tasks := [[0]; [0]]; susp := fun _ => 1; outc := fun _ => OParse; leaf := fun _ => 0 |}.

Example c12_nonvacuous_fair :
  work ex_cfg2 = 4 /\ fair (ntasks ex_cfg2) 2 [0; 1; 0; 1; 0; 1; 0; 1] /\
  2 * work ex_cfg2 <= length [0; 1; 0; 1; 0; 1; 0; 1].
Proof.
  split; [reflexivity|]. split; [|cbn; apply le_n].
  intros i Hi t Ht. cbn in Ht.
  assert (Hc : forall j, In 0 (firstn 2 (skipn j [0; 1; 0; 1; 0; 1; 0; 1])) /\
                         In 1 (firstn 2 (skipn j [0; 1; 0; 1; 0; 1; 0; 1])) \/ 7 <= j).
  { intros j. do 7 (destruct j as [|j]; [left; cbn; auto|]). right.
    do 7 apply le_n_S. apply Nat.le_0_l. }
  destruct (Hc i) as [[H0 H1]|Hbig].
  - destruct t as [|[|t]]; [exact H0|exact H1|].
    exfalso. apply (Nat.lt_irrefl 2). apply Nat.le_lt_trans with (S (S t)); [apply le_n_S, le_n_S, Nat.le_0_l|exact Ht].
  - exfalso. cbn [length] in Hi. apply (Nat.lt_irrefl 8).
    apply Nat.lt_le_trans with (i + 2); [|exact Hi].
    rewrite Nat.add_comm. cbn. apply le_n_S, le_n_S. exact Hbig.
Qed.

(* ---- wake-driven executors (tokio, FuturesUnordered): tasks are polled only after their
        waker fired.  C12/WakeModel.v adds the futures-util Mutex's waiter slab, the wait_key of
        each lock future and the executor's per-task "woken" bit to the model above. ---- *)
From RM Require Import C12.WakeModel C12.WakeProofs C12.WakeBound.

(* the instrumentation does not change behaviour: all theorems above apply to wake-driven runs *)
Theorem c12_wake_refines : forall (c : config) (sched : list task),
  base (wrun c sched) = run c sched.
Proof. exact wrun_base. Qed.
Print Assumptions c12_wake_refines.

(* no lost wake-up: in every reachable state (after any polls, spurious ones included) with an
   unfinished task, some unfinished task has been woken and not yet polled *)
Theorem c12_no_lost_wakeup : forall (c : config) (sched : list task),
  all_done c (run c sched) = false -> runnable c (wrun c sched) <> [].
Proof. exact no_lost_wakeup. Qed.
Print Assumptions c12_no_lost_wakeup.

(* an executor that polls only woken tasks — whichever it picks — never runs dry and has
   finished every task after at most 2 * work c + ntasks c polls; the run it performed is a
   schedule of the plain model *)
Theorem c12_wake_driven_finishes : forall (c : config) (fuel : nat) (picks : list nat),
  2 * work c + ntasks c < fuel ->
  exists w sched, wexec c fuel picks (winit c) [] = (w, sched, WDone) /\
                  base w = run c sched /\ all_done c (run c sched) = true.
Proof. exact wake_driven_finishes. Qed.
Print Assumptions c12_wake_driven_finishes.

(* after polling 0,1,2: task 2 sits in k0's waiter slab (index 0, Waiting), its bit is clear, and
   only tasks 0 and 1 are runnable — wake-ups matter in this state *)
Example c12_nonvacuous_waiter :
  let w := wrun ex_cfg [0; 1; 2] in
  wk (ext w) 2 = Some (0, 0, false) /\ flag (ext w) 2 = false /\ runnable ex_cfg w = [0; 1].
Proof. vm_compute. repeat split. Qed.

Example c12_nonvacuous_wake_driven :
  let '(w, trace, st) := wexec ex_cfg 30 [2; 0; 1; 1; 0; 2; 1] (winit ex_cfg) [] in
  st = WDone /\ trace = [2; 0; 2; 2; 0; 0; 1] /\ calls (sh (base w)) = [0; 1] /\
  results (sh (base w)) 2 = [(0, OOk)].
Proof. vm_compute. repeat split. Qed.

(* ---- join_all with a shared waker (JoinAll::Small, <= 30 children; processor.rs): every poll of
        the parent polls all unfinished children in order; the executor polls the parent only after
        the one shared waker fired (C12/JoinModel.v) ---- *)
From RM Require Import C12.JoinModel C12.JoinProofs.

(* the executor never finds the parent unwoken while a child is unfinished (no WLost), it polls the
   parent at most work c times, and what happened is the explicit schedule "r round-robin rounds"
   of the plain model — so every safety theorem above applies to it *)
Theorem c12_join_all_spurious_ok : forall (c : config) (fuel : nat),
  work c <= fuel ->
  exists w r, jexec c fuel (winit c) 0 = (w, r, WDone) /\ r <= work c /\
              base w = run c (round_robin c r) /\ all_done c (run c (round_robin c r)) = true.
Proof. exact join_all_ok. Qed.
Print Assumptions c12_join_all_spurious_ok.

(* one parent poll is one round of the plain model, whatever the bits are *)
Theorem c12_join_all_round : forall (c : config) (w : wstate),
  base (jparent c w) = run_from c (base w) (seq 0 (ntasks c)).
Proof. intros. unfold jparent. now rewrite jround_base. Qed.
Print Assumptions c12_join_all_round.

Example c12_nonvacuous_join_all :
  let '(w, r, st) := jexec ex_cfg 13 (winit ex_cfg) 0 in
  st = WDone /\ r = 3 /\ calls (sh (base w)) = [0; 1] /\ all_done ex_cfg (base w) = true.
Proof. vm_compute. repeat split. Qed.

(* ---- HttpSymbolSupplier::locate_file_internal is an instance (C12/FileModel.v): the same
        cache_default + CachedAsyncResult::get over FileKey = (ModuleKey, FileKind) ---- *)
From RM Require Import C12.FileModel C12.FileProofs.

(* distinct (module, kind) pairs never share a slot *)
Theorem c12_files_distinct_slots : forall a b : fkey, enc a = enc b -> a = b.
Proof. exact enc_inj. Qed.
Print Assumptions c12_files_distinct_slots.

(* the fetch closure runs at most once per file key, under every schedule *)
Theorem c12_files_at_most_once : forall (fc : fconfig) (sched : list task) (fk : fkey),
  supplier_calls (run (to_config fc) sched) (enc fk) <= 1.
Proof. exact files_at_most_once. Qed.
Print Assumptions c12_files_at_most_once.

(* every requester of a file key gets the closure's single answer, which is Ok or NotFound *)
Theorem c12_files_same_outcome : forall (fc : fconfig) (sched : list task) (t : task) (i : nat) (fk : fkey) (o : outcome),
  task_result (run (to_config fc) sched) t i = Some (enc fk, o) ->
  o = snd (file_script fc fk) /\ (o = OOk \/ o = ONotFound) /\
  nth_error (nth t (ftasks fc) []) i = Some fk.
Proof.
  intros fc sched t i fk o H. destruct (same_outcome (to_config fc) sched t i (enc fk) o H) as [Ho Hn].
  cbn [to_config outc tasks] in Ho, Hn. rewrite dec_enc in Ho. split; [assumption|]. split.
  - rewrite Ho. apply file_script_answers.
  - change (@nil key) with (map enc []) in Hn. rewrite map_nth in Hn.
    rewrite nth_error_map in Hn. destruct (nth_error (nth t (ftasks fc) []) i) as [fk'|]; [|discriminate].
    cbn [option_map] in Hn. inversion Hn as [E]. apply enc_inj in E. now subst.
Qed.
Print Assumptions c12_files_same_outcome.

Theorem c12_files_total_fetches : forall (fc : fconfig) (sched : list task),
  length (calls (sh (run (to_config fc) sched))) <= distinct_keys (to_config fc).
Proof.
  intros fc sched. rewrite <- (inv_req _ _ _ (run_inv (to_config fc) sched)).
  apply (counters_bounded (to_config fc) sched).
Qed.
Print Assumptions c12_files_total_fetches.

Example c12_nonvacuous_files :
  let fc := {| ftasks := [[(0, KBin); (0, KDbg)]; [(0, KDbg); (1, KBin)]; [(0, KBin)]];
               local_hit := fun _ => false;
               has_lookup := fun fk => match fk with (1, KBin) => false | _ => true end;
               servers := [fun fk => (1, match fk with (0, KDbg) => true | _ => false end);
                           fun fk => (2, match fk with (0, KBin) => true | _ => false end)] |} in
  let s := run (to_config fc) [0; 1; 2; 2; 1; 0; 0; 1; 2; 0; 1; 2; 0] in
  all_done (to_config fc) s = true /\ calls (sh s) = [enc (0, KBin); enc (0, KDbg); enc (1, KBin)] /\
  results (sh s) 1 = [(enc (0, KDbg), OOk); (enc (1, KBin), ONotFound)] /\
  results (sh s) 2 = [(enc (0, KBin), OOk)].
Proof. vm_compute. repeat split. Qed.

(* ---- BEYOND THE PROPERTY'S QUANTIFIER (C12 excludes cancellation): a requester that is waiting
        for a slot's lock is dropped (C12/DropModel.v: MutexLockFuture::drop = remove_waker(key, true),
        which passes a wake-up the dropped waiter had already received on to the next waiter).
        [erun c evs] = any sequence of polls and such drops; it returns the configuration
        truncated to what the dropped tasks had completed, and the state. ---- *)
From RM Require Import C12.DropModel C12.DropProofs.

(* no wake-up is lost: while a surviving task is unfinished, some unfinished task is woken *)
Theorem c12_drop_waiter_no_lost_wakeup : forall (c : config) (evs : list event),
  all_done (fst (erun c evs)) (base (snd (erun c evs))) = false ->
  runnable (fst (erun c evs)) (snd (erun c evs)) <> [].
Proof.
  intros c evs Hd. destruct (erun_inv c evs) as (HW & _). now apply runnable_exists.
Qed.
Print Assumptions c12_drop_waiter_no_lost_wakeup.

(* ... and a wake-driven executor then finishes all surviving tasks within the same bound *)
Theorem c12_drop_waiter_still_finishes : forall (c : config) (evs : list event) (fuel : nat) (picks : list nat),
  2 * work c + ntasks c < fuel ->
  exists w' sched,
    wexec (fst (erun c evs)) fuel picks (snd (erun c evs)) [] = (w', sched, WDone) /\
    all_done (fst (erun c evs)) (base w') = true.
Proof.
  intros c evs fuel picks Hf. destruct (erun_inv c evs) as (HW & Hn & _ & Hpot).
  destruct (wexec_finishes (fst (erun c evs)) fuel picks (snd (erun c evs)) [] HW) as (w' & sched & He & _ & Hd).
  - unfold measure.
    assert (length (runnable (fst (erun c evs)) (snd (erun c evs))) <= ntasks (fst (erun c evs))).
    { unfold runnable. rewrite <- (seq_length (ntasks (fst (erun c evs))) 0) at 2. apply filter_length_le. }
    lia.
  - exists w', sched. cbn [app] in He. now split.
Qed.
Print Assumptions c12_drop_waiter_still_finishes.

(* safety is unaffected: still at most one supplier call per key, one answer per key *)
Theorem c12_drop_waiter_safety : forall (c : config) (evs : list event) (k : key),
  supplier_calls (base (snd (erun c evs))) k <= 1 /\
  (forall t o, In (k, o) (results (sh (base (snd (erun c evs)))) t) -> o = outc c k).
Proof.
  intros c evs k. destruct (erun_inv c evs) as ((HI & _) & _ & Ho & _). split.
  - unfold supplier_calls. pose proof (inv_nodup _ _ _ HI) as H.
    rewrite (NoDup_count_occ Nat.eq_dec) in H. apply H.
  - intros t o Hin. rewrite <- Ho. apply (inv_val _ _ _ HI). now apply (inv_res _ _ _ HI t).
Qed.
Print Assumptions c12_drop_waiter_safety.

(* the woken waiter is dropped before it runs: the wake-up moves on to the other waiter *)
Example c12_nonvacuous_drop :
  let c := {| tasks := [[0]; [0]; [0]]; susp := fun _ => 1; outc := fun _ => OOk; leaf := fun _ => 0 |} in
  let cw := erun c [EPoll 0; EPoll 1; EPoll 2; EPoll 0] in
  wk (ext (snd cw)) 1 = Some (0, 0, true) /\ wk (ext (snd cw)) 2 = Some (0, 1, false) /\
  runnable (fst cw) (snd cw) = [1] /\
  let cw' := erun c [EPoll 0; EPoll 1; EPoll 2; EPoll 0; EDrop 1] in
  runnable (fst cw') (snd cw') = [2] /\ tasks (fst cw') = [[0]; []; [0]] /\
  wk (ext (snd cw')) 2 = Some (0, 1, true).
Proof. vm_compute. repeat split. Qed.

(* ==== interleavings finer than polls (multi-threaded executors) and schedule independence ====
   [mrun c ms] (C12/FineModel.v) folds ONE atomic action of a task (wait / hit / begin / tick / complete) over ANY
   list of task ids: between two lookups of one poll, and between the start of the supplier call and its first
   answer, any other task may take any number of steps — what two worker threads polling two tasks at the same
   time can produce.  Unbounded tasks, lookups, keys, suspensions, as everywhere above. *)
From Coq Require Import Permutation.
From RM Require Import C12.FineModel C12.FineProofs.

(* every poll schedule of the model above is a micro schedule (so the fine theorems subsume the coarse ones) *)
Theorem c12_polls_are_micro_schedules : forall (c : config) (sched : list task),
  exists ms, state_eq (mrun c ms) (run c sched).
Proof. intros. apply run_from_refines. Qed.
Print Assumptions c12_polls_are_micro_schedules.

(* safety under every micro schedule: supplier asked at most once per key; every finished lookup carries the
   key's single scripted answer (failures included) and is the lookup issued at that position;
   processed <= requested <= distinct keys *)
Theorem c12_fine_safety : forall (c : config) (ms : list task),
  (forall k, supplier_calls (mrun c ms) k <= 1) /\
  (forall t i k o, task_result (mrun c ms) t i = Some (k, o) ->
     o = outc c k /\ nth_error (nth t (tasks c) []) i = Some k) /\
  processed (mrun c ms) <= requested (mrun c ms) /\ requested (mrun c ms) <= distinct_keys c.
Proof.
  intros c ms. pose proof (mrun_inv c ms) as HI. split; [|split].
  - intro k. now apply (inv_at_most_once c).
  - intros t i k o. now apply (inv_same_outcome c).
  - now apply (inv_counters_bounded c).
Qed.
Print Assumptions c12_fine_safety.

(* at quiescence, however it was reached: each task holds exactly the scripted answers of its lookups in order,
   every requested key was fetched exactly once, requested = processed = distinct keys *)
Theorem c12_fine_quiescent : forall (c : config) (ms : list task),
  all_done c (mrun c ms) = true ->
  (forall t, results (sh (mrun c ms)) t = map (fun k => (k, outc c k)) (nth t (tasks c) [])) /\
  (forall k, In k (concat (tasks c)) -> supplier_calls (mrun c ms) k = 1) /\
  requested (mrun c ms) = distinct_keys c /\ processed (mrun c ms) = distinct_keys c.
Proof.
  intros c ms Hd. pose proof (mrun_inv c ms) as HI. split; [|split].
  - intro t. now apply inv_results_explicit.
  - intros k Hk. now apply (inv_exactly_once c).
  - now apply (inv_counters_quiescent c).
Qed.
Print Assumptions c12_fine_quiescent.

(* no stuck state and bounded work under micro schedules: the measure (micro steps still needed) starts at
   work + number of lookups, no step of any task (spurious ones included) increases it, and while some task is
   unfinished some task's next step strictly lowers it — so every schedule that keeps stepping a task whose step
   is not a no-op ends after at most that many effective steps *)
Theorem c12_fine_progress : forall (c : config) (ms : list task),
  (mpotential c (mrun c ms) <= work c + length (concat (tasks c))) /\
  (forall t, mpotential c (mstep c t (mrun c ms)) <= mpotential c (mrun c ms)) /\
  (all_done c (mrun c ms) = false ->
     exists t, t < ntasks c /\ mpotential c (mstep c t (mrun c ms)) < mpotential c (mrun c ms)).
Proof.
  intros c ms. pose proof (mrun_inv c ms) as HI. split; [|split].
  - rewrite <- mpotential_init. apply mrun_from_le, init_inv.
  - intro t. now apply mstep_le.
  - intros Hd. destruct (en_exists c _ HI Hd) as (t & Hen). exists t.
    split; [apply Hen|]. apply mstep_measure; [apply Hen|exact Hen].
Qed.
Print Assumptions c12_fine_progress.

(* everything a requester or the CLI can observe at the end is independent of the schedule: per-task results,
   the set of supplier calls (the log is a permutation), the remembered value per key, both counters.  This is
   what justifies comparing runs whose schedule the harness does not control (tokio multi-thread, FuturesUnordered)
   with ANY complete run of the model. *)
Theorem c12_quiescent_observables_schedule_independent : forall (c : config) (m1 m2 : list task),
  all_done c (mrun c m1) = true -> all_done c (mrun c m2) = true ->
  (forall t, results (sh (mrun c m1)) t = results (sh (mrun c m2)) t) /\
  Permutation (calls (sh (mrun c m1))) (calls (sh (mrun c m2))) /\
  (forall k, value (sh (mrun c m1)) k = value (sh (mrun c m2)) k) /\
  requested (mrun c m1) = requested (mrun c m2) /\ processed (mrun c m1) = processed (mrun c m2).
Proof. intros c m1 m2 D1 D2. apply (quiescent_independent c); auto using mrun_inv. Qed.
Print Assumptions c12_quiescent_observables_schedule_independent.

(* ... the same for poll schedules *)
Theorem c12_poll_schedule_independent : forall (c : config) (s1 s2 : list task),
  all_done c (run c s1) = true -> all_done c (run c s2) = true ->
  (forall t, results (sh (run c s1)) t = results (sh (run c s2)) t) /\
  Permutation (calls (sh (run c s1))) (calls (sh (run c s2))) /\
  (forall k, value (sh (run c s1)) k = value (sh (run c s2)) k) /\
  requested (run c s1) = requested (run c s2) /\ processed (run c s1) = processed (run c s2).
Proof. intros c s1 s2 D1 D2. apply (quiescent_independent c); auto using (run_inv c). Qed.
Print Assumptions c12_poll_schedule_independent.

(* a micro schedule no poll schedule can produce: the supplier never suspends (susp = 0), yet task 1 observes
   the slot locked between task 0's begin and complete (a poll would run both in one go); then both finish,
   two different orders of completion give the same observables; the failure (OLoad) is remembered *)
Example c12_nonvacuous_fine :
  let c := {| tasks := [[0; 1]; [0]; [1; 0]]; susp := fun _ => 0; outc := fun k => if Nat.eqb k 0 then OLoad else OOk;
              leaf := fun _ => 0 |} in
  lock (sh (mrun c [0; 1])) 0 = Some 0 /\ snd (pcs (mrun c [0; 1]) 1) = Wait /\
  requested (mrun c [0; 1; 2]) = 2 /\ processed (mrun c [0; 1; 2]) = 0 /\
  all_done c (mrun c [0; 1; 2; 2; 0; 0; 1; 2; 0; 2]) = true /\
  all_done c (mrun c [2; 2; 2; 1; 0; 2; 0; 0; 1]) = true /\
  calls (sh (mrun c [0; 1; 2; 2; 0; 0; 1; 2; 0; 2])) = [0; 1] /\
  calls (sh (mrun c [2; 2; 2; 1; 0; 2; 0; 0; 1])) = [1; 0] /\
  results (sh (mrun c [2; 2; 2; 1; 0; 2; 0; 0; 1])) 1 = [(0, OLoad)] /\
  mpotential c (init c) = 10.
Proof. vm_compute. repeat split. Qed.

(* ==== the source has the structure the model was written from (Gen/C12Structure.v is regenerated
   from breakpad-symbols/src/{lib,http}.rs on every run; C12/Structure.v says what each operation is in the model):
   FutMutex is the futures-util async mutex; get = lock().await, `if none { store(f().await) }` with the guard held
   across the await, clone; module_key has its four components, unnormalised; get_symbols goes through
   cache_default(module_key(module)).get(closure); the closure bumps requested before and processed after the
   supplier await, classifies the answer as Model.stat_loaded/stat_corrupt do, inserts into stats; nobody else
   writes the counters, the stats map or the slot maps; locate_file_internal has the same shape over FileKey. *)
From RM Require Import C12.Structure.
Theorem c12_source_structure_modelled : structure_matches.
Proof. unfold structure_matches. repeat split; vm_compute; reflexivity. Qed.
Print Assumptions c12_source_structure_modelled.

(* ==== the theorems for the PROGRAM regenerated from the Rust bodies.
   Gen/C12Program.v (translate/c12_program.py, every run) holds CachedAsyncResult::get, the closure of
   Symbolizer::get_symbols, the closure of HttpSymbolSupplier::locate_file_internal and the entry points fill_symbol /
   walk_frame / get_symbol_at_address / HttpSymbolSupplier::locate_file (= what Symbolizer::get_file_path delegates
   to) as instruction lists; C12/ProgModel.v interprets them on the shared state of C12/Model.v ([prun] = whole polls in
   any order, spurious and unknown ids included).  The statements below are about [prun src_program]: an edit of those
   bodies (instruction moved / dropped / doubled, retry, non-waiting probe, early unlock) changes the program they are
   about.  ONE configuration type covers every mix of the four entry points; a lookup (e, k) addresses slot k (symbols:
   a module key; files: FileModel.enc (module key, kind)); a configuration that mixes the two maps gives them
   disjoint key ranges (Symbolizer.symbols and HttpSymbolSupplier.cached_file_paths are different maps). *)
From RM Require Import C12.ProgModel C12.ProgProofs C12.ProgSource Gen.C12Program C12.FileModel.

(* poll for poll the interpreter on the source's program is C12/Model.v: same phase and remaining lookups per task,
   same lock / value per slot, same supplier log, same per-task results; with symbol lookups only also the same
   counters and stats (the file closure has neither) — so every theorem above holds for it *)
Theorem c12_source_program_refines_model : forall (full : bool) (pc : pconfig) (sched : list task),
  (full = true -> sym_only pc) -> psim full (prun src_program pc sched) (run (cfg pc) sched).
Proof. exact src_refines. Qed.
Print Assumptions c12_source_program_refines_model.

(* at most one supplier call (locate_symbols, resp. the file closure's fetch sequence) per slot, whatever the mix
   of entry points and the schedule *)
Theorem c12_source_at_most_once : forall (pc : pconfig) (sched : list task) (k : key),
  psupplier_calls (prun src_program pc sched) k <= 1.
Proof. rewrite src_is_canon. exact p_at_most_once. Qed.
Print Assumptions c12_source_at_most_once.

(* every requester — through whichever entry point — observes the slot's single scripted answer, failures included *)
Theorem c12_source_same_outcome : forall (pc : pconfig) (sched : list task) (t : task) (i : nat) (k : key) (o : outcome),
  ptask_result (prun src_program pc sched) t i = Some (k, o) ->
  o = outc (pbase pc) k /\ exists e, nth_error (nth t (ptasks pc) []) i = Some (e, k).
Proof. rewrite src_is_canon. exact p_same_outcome. Qed.
Print Assumptions c12_source_same_outcome.

Theorem c12_source_results_complete : forall (pc : pconfig) (sched : list task) (t : task),
  pall_done pc (prun src_program pc sched) = true ->
  map fst (results (psh (prun src_program pc sched)) t) = map snd (nth t (ptasks pc) []).
Proof. rewrite src_is_canon. exact p_results_complete. Qed.
Print Assumptions c12_source_results_complete.

Theorem c12_source_exactly_once_at_quiescence : forall (pc : pconfig) (sched : list task) (k : key),
  pall_done pc (prun src_program pc sched) = true -> In k (concat (tasks (cfg pc))) ->
  psupplier_calls (prun src_program pc sched) k = 1.
Proof. rewrite src_is_canon. exact p_exactly_once. Qed.
Print Assumptions c12_source_exactly_once_at_quiescence.

(* no request is lost, nothing deadlocks, no task of the program panics (unwrap of an empty slot) or is left with an
   ill-formed continuation *)
Theorem c12_source_fair_schedule_finishes : forall (pc : pconfig) (sched : list task) (T : nat),
  fair (length (ptasks pc)) T sched -> T * work (cfg pc) <= length sched ->
  pall_done pc (prun src_program pc sched) = true.
Proof. rewrite src_is_canon. exact p_fair_finishes. Qed.
Print Assumptions c12_source_fair_schedule_finishes.

Theorem c12_source_never_stuck : forall (pc : pconfig) (sched : list task) (t : task),
  snd (fst (ppcs (prun src_program pc sched) t)) <> [IAbort].
Proof. rewrite src_is_canon. exact p_never_stuck. Qed.
Print Assumptions c12_source_never_stuck.

(* the pending counters (symbol lookups: fill_symbol / walk_frame / get_symbol_at_address) *)
Theorem c12_source_counters_bounded : forall (pc : pconfig) (sched : list task), sym_only pc ->
  proc (psh (prun src_program pc sched)) <= req (psh (prun src_program pc sched)) /\
  req (psh (prun src_program pc sched)) <= distinct_keys (cfg pc).
Proof. rewrite src_is_canon. exact p_counters_bounded. Qed.
Print Assumptions c12_source_counters_bounded.

Theorem c12_source_counters : forall (pc : pconfig) (sched : list task), sym_only pc ->
  pall_done pc (prun src_program pc sched) = true ->
  req (psh (prun src_program pc sched)) = distinct_keys (cfg pc) /\
  proc (psh (prun src_program pc sched)) = distinct_keys (cfg pc).
Proof. rewrite src_is_canon. exact p_counters. Qed.
Print Assumptions c12_source_counters.

(* HttpSymbolSupplier::locate_file: file configurations are configurations of the same program *)
Theorem c12_source_files_at_most_once : forall (fc : fconfig) (sched : list task) (fk : fkey),
  psupplier_calls (prun src_program (pc_of_fc fc) sched) (enc fk) <= 1.
Proof. intros. apply c12_source_at_most_once. Qed.
Print Assumptions c12_source_files_at_most_once.

Theorem c12_source_files_same_outcome : forall (fc : fconfig) (sched : list task) (t : task) (i : nat) (k : key) (o : outcome),
  ptask_result (prun src_program (pc_of_fc fc) sched) t i = Some (k, o) ->
  o = snd (file_script fc (dec k)) /\ (o = OOk \/ o = ONotFound).
Proof. exact src_files_same_outcome. Qed.
Print Assumptions c12_source_files_same_outcome.

(* the slots are reached through these entry points only (regenerated list of callers) *)
Theorem c12_source_ways_into_the_slots : src_ways = canon_ways.
Proof. reflexivity. Qed.
Print Assumptions c12_source_ways_into_the_slots.

(* the instruction set means something: the two seeded shapes are programs too, and the interpreter refutes the
   property on them — a retry after ParseError asks the supplier twice (counters still 1); with a non-waiting probe in
   walk_frame a requester polled while the other's lookup is suspended observes a failure although the supplier's
   single answer is Ok *)
Theorem c12_retry_program_refuted :
  psupplier_calls (prun retry_program one_parse [0]) 0 = 2 /\
  pall_done one_parse (prun retry_program one_parse [0]) = true /\
  req (psh (prun retry_program one_parse [0])) = 1.
Proof. vm_compute. repeat split. Qed.
Print Assumptions c12_retry_program_refuted.

Theorem c12_probe_program_refuted :
  let s := prun probe_program two_on_one [0; 1; 0] in
  pall_done two_on_one s = true /\ psupplier_calls s 0 = 1 /\
  ptask_result s 0 0 = Some (0, OOk) /\ ptask_result s 1 0 = Some (0, OMissing) /\ outc (pbase two_on_one) 0 = OOk.
Proof. vm_compute. repeat split. Qed.
Print Assumptions c12_probe_program_refuted.

(* non-vacuity: a mixed workload (all four entry points; symbol slots 0 and 1, file slot 2; a remembered failure)
   under a schedule with spurious polls and an unknown id: contention mid-run, quiescence at the end *)
Definition ex_pc : pconfig :=
  {| ptasks := [[(EFill, 0); (EFile, 2)]; [(EWalk, 0); (EAddr, 1)]; [(EFile, 2); (EFill, 1)]];
     pbase := {| tasks := []; susp := fun k => S k; outc := fun k => if Nat.eqb k 1 then OParse else OOk;
                 leaf := fun k => k |} |}.
Example c12_nonvacuous_source_program :
  let s := prun src_program ex_pc [0; 1; 1] in
  let s' := prun src_program ex_pc ([0; 1; 1; 2; 7] ++ concat (repeat [0; 1; 2] 8)) in
  phase_of (snd (fst (ppcs s 0))) (snd (ppcs s 0)) = Sup 0 /\ phase_of (snd (fst (ppcs s 1))) (snd (ppcs s 1)) = Wait /\
  lock (psh s) 0 = Some 0 /\ req (psh s) = 1 /\ proc (psh s) = 0 /\
  pall_done ex_pc s' = true /\
  results (psh s') 1 = [(0, OOk); (1, OParse)] /\ results (psh s') 2 = [(2, OOk); (1, OParse)] /\
  calls (psh s') = [0; 2; 1] /\ req (psh s') = 2 /\ proc (psh s') = 2 /\
  src_program = canon.
Proof. vm_compute. repeat split. Qed.

(* ---- the wake-driven executor and join_all driving the program of the source (C12/ProgExec.v) ---- *)
From RM Require Import C12.WakeModel C12.JoinModel C12.ProgExec.
From Coq Require Import Permutation.

(* a wake-driven executor (polls only tasks whose waker fired, whichever it picks) finishes every task of the program
   within 2 * work + ntasks polls and never finds nobody woken; the interpreter's final state is the executor's *)
Theorem c12_source_wake_driven_finishes : forall (pc : pconfig) (fuel : nat) (picks : list nat),
  2 * work (cfg pc) + length (ptasks pc) < fuel ->
  exists w sched, wexec (cfg pc) fuel picks (winit (cfg pc)) [] = (w, sched, WDone) /\
                  pall_done pc (prun src_program pc sched) = true /\
                  psim false (prun src_program pc sched) (base w).
Proof.
  intros pc fuel picks Hf. rewrite <- ntasks_cfg in Hf.
  destruct (wake_driven_finishes (cfg pc) fuel picks Hf) as (w & sched & He & Hb & Hd).
  exists w, sched. split; [exact He|]. split.
  - rewrite src_done_iff. exact Hd.
  - rewrite Hb. apply src_refines. discriminate.
Qed.
Print Assumptions c12_source_wake_driven_finishes.

Theorem c12_source_no_lost_wakeup : forall (pc : pconfig) (sched : list task),
  pall_done pc (prun src_program pc sched) = false -> runnable (cfg pc) (wrun (cfg pc) sched) <> [].
Proof. intros pc sched H. rewrite src_done_iff in H. apply no_lost_wakeup. exact H. Qed.
Print Assumptions c12_source_no_lost_wakeup.

(* join_all (shared waker, children re-polled spuriously): at most [work] parent polls *)
Theorem c12_source_join_all : forall (pc : pconfig) (fuel : nat),
  work (cfg pc) <= fuel ->
  exists w r, jexec (cfg pc) fuel (winit (cfg pc)) 0 = (w, r, WDone) /\ r <= work (cfg pc) /\
              pall_done pc (prun src_program pc (round_robin (cfg pc) r)) = true.
Proof. exact src_join_all. Qed.
Print Assumptions c12_source_join_all.

(* per-task results, the set of supplier calls and the remembered values do not depend on the schedule *)
Theorem c12_source_schedule_independent : forall (pc : pconfig) (s1 s2 : list task),
  pall_done pc (prun src_program pc s1) = true -> pall_done pc (prun src_program pc s2) = true ->
  (forall t, results (psh (prun src_program pc s1)) t = results (psh (prun src_program pc s2)) t) /\
  Permutation (calls (psh (prun src_program pc s1))) (calls (psh (prun src_program pc s2))) /\
  (forall k, value (psh (prun src_program pc s1)) k = value (psh (prun src_program pc s2)) k).
Proof.
  intros pc s1 s2 D1 D2. rewrite src_done_iff in D1, D2.
  destruct (c12_poll_schedule_independent (cfg pc) s1 s2 D1 D2) as (R & C & V & _).
  destruct (src_refines false pc s1 ltac:(discriminate)) as (_ & _ & _ & (L1 & V1 & C1 & R1 & _)).
  destruct (src_refines false pc s2 ltac:(discriminate)) as (_ & _ & _ & (L2 & V2 & C2 & R2 & _)).
  repeat split.
  - intro t. rewrite R1, R2. apply R.
  - rewrite C1, C2. exact C.
  - intro k. rewrite V1, V2. apply V.
Qed.
Print Assumptions c12_source_schedule_independent.

(* ---- INSTRUCTION-level interleavings of the program of the source (C12/ProgFine.v): [pmrun] executes one
   instruction of one task per step, in any order — between `lock().await` and the test of the slot, between
   `symbols_requested += 1` and the supplier call, between the store and the end of get any other task may run
   (multi-threaded executors).  Finer than C12/FineModel.v's five atomic blocks. ---- *)
From RM Require Import C12.ProgFine.

Theorem c12_source_instr_at_most_once : forall (pc : pconfig) (ms : list task) (k : key),
  psupplier_calls (pmrun src_program pc ms) k <= 1.
Proof. rewrite src_is_canon. exact pm_at_most_once. Qed.
Print Assumptions c12_source_instr_at_most_once.

Theorem c12_source_instr_same_outcome : forall (pc : pconfig) (ms : list task) (t : task) (i : nat) (k : key) (o : outcome),
  ptask_result (pmrun src_program pc ms) t i = Some (k, o) -> o = outc (pbase pc) k.
Proof. rewrite src_is_canon. exact pm_same_outcome. Qed.
Print Assumptions c12_source_instr_same_outcome.

(* two tasks are never between the acquisition of a slot's lock and the end of get for the same slot *)
Theorem c12_source_instr_mutual_exclusion : forall (pc : pconfig) (ms : list task) (k : key) (t u : task),
  lock (psh (pmrun src_program pc ms)) k = Some t ->
  tkey (ppcs (pmrun src_program pc ms) u) = Some k -> holds (tcls (ppcs (pmrun src_program pc ms) u)) = true -> u = t.
Proof. rewrite src_is_canon. exact pm_mutual_exclusion. Qed.
Print Assumptions c12_source_instr_mutual_exclusion.

(* a remembered value is the supplier's single answer for that slot *)
Theorem c12_source_instr_value : forall (pc : pconfig) (ms : list task) (k : key) (o : outcome),
  value (psh (pmrun src_program pc ms)) k = Some o ->
  o = outc (pbase pc) k /\ psupplier_calls (pmrun src_program pc ms) k = 1.
Proof. rewrite src_is_canon. exact pm_value. Qed.
Print Assumptions c12_source_instr_value.

Theorem c12_source_instr_never_stuck : forall (pc : pconfig) (ms : list task) (t : task),
  snd (fst (ppcs (pmrun src_program pc ms) t)) <> [IAbort].
Proof. rewrite src_is_canon. exact pm_never_stuck. Qed.
Print Assumptions c12_source_instr_never_stuck.

(* no deadlock at instruction granularity: the only instruction that can fail to progress is lock().await on a held
   lock; while some task is unfinished, some unfinished task is not waiting for a held lock *)
Theorem c12_source_instr_no_deadlock : forall (pc : pconfig) (ms : list task),
  pall_done pc (pmrun src_program pc ms) = false ->
  exists t, t < length (ptasks pc) /\ ptask_done (pmrun src_program pc ms) t = false /\
            blocked (pmrun src_program pc ms) t = false.
Proof. rewrite src_is_canon. exact pm_no_deadlock. Qed.
Print Assumptions c12_source_instr_no_deadlock.

(* no request is lost: when every task has finished, each has one result per lookup, in order, and every requested
   slot was fetched exactly once — whatever the instruction-level interleaving was *)
Theorem c12_source_instr_results_complete : forall (pc : pconfig) (ms : list task) (t : task),
  pall_done pc (pmrun src_program pc ms) = true ->
  map fst (results (psh (pmrun src_program pc ms)) t) = map snd (nth t (ptasks pc) []).
Proof. rewrite src_is_canon. exact pm_results_complete. Qed.
Print Assumptions c12_source_instr_results_complete.

Theorem c12_source_instr_exactly_once_at_quiescence : forall (pc : pconfig) (ms : list task) (k : key),
  pall_done pc (pmrun src_program pc ms) = true -> In k (concat (tasks (cfg pc))) ->
  psupplier_calls (pmrun src_program pc ms) k = 1.
Proof. rewrite src_is_canon. exact pm_exactly_once. Qed.
Print Assumptions c12_source_instr_exactly_once_at_quiescence.

(* every poll schedule is an instruction schedule: a poll of a task is some number of its instructions in a row
   ([pstate_eq]: the same per-task state pointwise, the same shared state), so the instruction-level theorems speak
   about every run the poll-level ones speak about *)
From RM Require Import C12.ProgSteps.
Theorem c12_source_polls_are_instruction_schedules : forall (pc : pconfig) (sched : list task),
  exists ms, pstate_eq (pmrun src_program pc ms) (prun src_program pc sched).
Proof. rewrite src_is_canon. exact polls_are_instruction_schedules. Qed.
Print Assumptions c12_source_polls_are_instruction_schedules.

(* the pending counters at instruction granularity (symbol lookups): `symbols_requested += 1`, the supplier call,
   `symbols_processed += 1`, the stats insert and the store are separate steps between which other tasks run *)
From RM Require Import C12.ProgCountMix.
Theorem c12_source_instr_counters_bounded : forall (pc : pconfig) (ms : list task), sym_only pc ->
  proc (psh (pmrun src_program pc ms)) <= req (psh (pmrun src_program pc ms)) /\
  req (psh (pmrun src_program pc ms)) <= distinct_keys (cfg pc).
Proof. rewrite src_is_canon. exact pm_counters_bounded. Qed.
Print Assumptions c12_source_instr_counters_bounded.

Theorem c12_source_instr_counters : forall (pc : pconfig) (ms : list task), sym_only pc ->
  pall_done pc (pmrun src_program pc ms) = true ->
  req (psh (pmrun src_program pc ms)) = distinct_keys (cfg pc) /\ proc (psh (pmrun src_program pc ms)) = distinct_keys (cfg pc).
Proof. rewrite src_is_canon. exact pm_counters_quiescent. Qed.
Print Assumptions c12_source_instr_counters.

(* progress measure at instruction granularity ([imu] = an upper bound on the instruction steps still needed: per
   lookup not begun 17 / 18 / 10 + the supplier's suspensions): no step increases it, a step of a task waiting for a
   held lock leaves the shared state alone, every other step of an unfinished task lowers it — and by
   c12_source_instr_no_deadlock such a task exists while anything is unfinished: no stuck state, no livelock *)
From RM Require Import C12.ProgMeasure.
Theorem c12_source_instr_progress : forall (pc : pconfig) (ms : list task) (t : task),
  imu (cfg pc) (length (ptasks pc)) (pmstep src_program (cfg pc) t (pmrun src_program pc ms))
    <= imu (cfg pc) (length (ptasks pc)) (pmrun src_program pc ms) /\
  (blocked (pmrun src_program pc ms) t = true ->
     psh (pmstep src_program (cfg pc) t (pmrun src_program pc ms)) = psh (pmrun src_program pc ms)) /\
  (blocked (pmrun src_program pc ms) t = false -> ptask_done (pmrun src_program pc ms) t = false ->
     imu (cfg pc) (length (ptasks pc)) (pmstep src_program (cfg pc) t (pmrun src_program pc ms))
       < imu (cfg pc) (length (ptasks pc)) (pmrun src_program pc ms)).
Proof.
  rewrite src_is_canon. intros pc ms t. pose proof (pmrun_gi pc ms) as G. pose proof (pmrun_range canon pc ms) as R.
  split; [exact (measure_monotone pc _ G R t)|]. split; [apply (blocked_step pc _ G R)|exact (progress_step pc _ G R t)].
Qed.
Print Assumptions c12_source_instr_progress.

(* fairness implies termination at instruction granularity: if every window of T consecutive instruction steps
   contains every task, everything has finished after T * imu(initial state) steps — no request is lost, whatever
   the (fair) interleaving of single instructions *)
From RM Require Import C12.ProgFair.
Theorem c12_source_instr_fair_schedule_finishes : forall (pc : pconfig) (T : nat) (ms : list task),
  fair (length (ptasks pc)) T ms -> T * imu (cfg pc) (length (ptasks pc)) (pinit pc) <= length ms ->
  pall_done pc (pmrun src_program pc ms) = true.
Proof. rewrite src_is_canon. exact pm_fair_finishes. Qed.
Print Assumptions c12_source_instr_fair_schedule_finishes.

Example c12_nonvacuous_instr_fair :
  imu (cfg two_fill) 2 (pinit two_fill) = 34 /\
  pall_done two_fill (pmrun src_program two_fill (concat (repeat [0; 1] 20))) = true.
Proof. split; [exact imu_two_fill|vm_compute; reflexivity]. Qed.

Example c12_nonvacuous_instr :
  let s1 := pmrun src_program two_fill [0; 0; 0; 0; 0; 1; 1] in
  req (psh s1) = 1 /\ calls (psh s1) = [] /\ lock (psh s1) 0 = Some 0 /\ waiting (snd (ppcs s1 1)) = true /\
  tcls (ppcs s1 0) = CPre /\
  let s2 := pmrun src_program two_fill ([0; 0; 0; 0; 0; 1; 1] ++ repeat 0 14 ++ repeat 1 8) in
  ptask_done s2 0 = true /\ ptask_done s2 1 = true /\ calls (psh s2) = [0] /\
  results (psh s2) 0 = [(0, OLoad)] /\ results (psh s2) 1 = [(0, OLoad)] /\ req (psh s2) = 1 /\ proc (psh s2) = 1.
Proof. vm_compute. repeat split. Qed.

(* ---- the `stats` map (Symbolizer::stats; C12/StatsProofs.v): in EVERY reachable state an entry is the
   classification of the supplier's single answer for a requested module with that leaf name whose lookup has
   completed (remembered failures included), a finished lookup's module has an entry under its leaf name, and at
   quiescence every requested module has one.  Which module of a shared leaf name wins is schedule dependent (C13). ---- *)
From RM Require Import C12.StatsProofs.
Theorem c12_stats_sound : forall (c : config) (sched : list task) (lf : nat) (o : outcome),
  stats (sh (run c sched)) lf = Some o ->
  exists k, In k (concat (tasks c)) /\ leaf c k = lf /\ o = outc c k /\ value (sh (run c sched)) k = Some o.
Proof. exact stats_sound. Qed.
Print Assumptions c12_stats_sound.

Theorem c12_stats_has_finished : forall (c : config) (sched : list task) (t : task) (i : nat) (k : key) (o : outcome),
  task_result (run c sched) t i = Some (k, o) -> stats (sh (run c sched)) (leaf c k) <> None.
Proof.
  intros c sched t i k o H. apply (st_complete c _ (run_st c sched)).
  pose proof (run_inv c sched) as I. unfold SInv in I.
  rewrite (inv_res c _ _ I t k o); [discriminate|]. unfold task_result in H. apply nth_error_In with i. exact H.
Qed.
Print Assumptions c12_stats_has_finished.

Theorem c12_stats_complete_at_quiescence : forall (c : config) (sched : list task) (k : key),
  all_done c (run c sched) = true -> In k (concat (tasks c)) -> stats (sh (run c sched)) (leaf c k) <> None.
Proof. exact stats_complete_quiescent. Qed.
Print Assumptions c12_stats_complete_at_quiescence.

Example c12_nonvacuous_stats :
  let c := {| tasks := [[0; 1]; [1; 2]]; susp := fun k => k; outc := fun k => if Nat.eqb k 1 then OParse else OOk;
              leaf := fun k => k / 2 |} in
  let mid := run c [0; 1] in let fin := run c [0; 1; 0; 1; 0; 1; 0; 1] in
  task_result mid 0 0 = Some (0, OOk) /\ stats (sh mid) 0 = Some OOk /\ stats (sh mid) 1 = None /\
  all_done c fin = true /\ stats (sh fin) 0 = Some OParse /\ stats (sh fin) 1 = Some OOk.
Proof. vm_compute. repeat split. Qed.

(* ---- the processor (C12/ProcModel.v, C12/ProcProofs.v, Gen/C12Processor.v regenerated by
   translate/c12_processor.py from processor.rs / minidump-unwind): into_process_state reads the stats, walks ALL threads
   by one join_all whose per-thread future awaits walk_stack once, reads the stats again; walk_stack asks
   fill_symbol for the module of every frame and then lets get_caller_frame make its lookups; the provider methods of
   Symbolizer are plain delegations. ---- *)
From RM Require Import C12.ProcModel C12.ProcProofs Gen.C12Processor.

Theorem c12_source_processor_shape : src_walker = canon_walker.
Proof. exact src_walker_is_canon. Qed.
Print Assumptions c12_source_processor_shape.

Theorem c12_source_provider_users : src_provider_users = canon_provider_users.
Proof. reflexivity. Qed.
Print Assumptions c12_source_provider_users.

(* the CFI attempt of get_caller_frame, every architecture: one provider call — walk_frame on the module covering the callee
   frame's instruction (nothing is asked when no module covers it) *)
Theorem c12_source_cfi_calls : src_cfi = canon_cfi /\ src_cfi_x86 = cfi_of x86_name src_cfi /\ src_cfi_module = CfiModuleOfCalleeInstruction /\
  forall a ops k, In (a, ops) src_cfi -> cfi_lookups ops src_cfi_module (Some k) = [(EWalk, k)] /\
                                         cfi_lookups ops src_cfi_module None = [].
Proof.
  split; [reflexivity|]. split; [reflexivity|]. split; [reflexivity|]. intros a ops k H.
  cbn in H. repeat (destruct H as [H|H]; [inversion H; subst; split; reflexivity|]). contradiction.
Qed.
Print Assumptions c12_source_cfi_calls.

(* for EVERY dump shape (any number of threads, frames, modules; any lookups of the unwinder, symbol lookups only), every
   supplier script and enough fuel: the executor that polls the join_all only when its waker fired finishes (never
   "nobody woken") after at most [work] root polls; the first stats read is empty; every module of every frame — and
   every module the unwinder asked about — was located exactly once, nothing more than once; every thread has all its
   answers and each is the supplier's single answer for that module; requested = processed = distinct modules; the
   stats map copied into the ProcessState has an entry for the leaf name of every such module and each entry
   classifies the answer of one of the requested modules with that leaf name *)
Theorem c12_processor_once_per_module : forall (d : dump) (base : config) (fuel : nat),
  walk_ok d -> work (cfg (proc_pc src_walker d base)) <= fuel ->
  exists (s : pstate) (r : nat) (after : snapshot),
    process src_program src_walker d base fuel = Some (s, [(fun _ => None); after]) /\
    after = stats (psh s) /\
    s = prun src_program (proc_pc src_walker d base) (round_robin (cfg (proc_pc src_walker d base)) r) /\
    r <= work (cfg (proc_pc src_walker d base)) /\
    pall_done (proc_pc src_walker d base) s = true /\
    (forall th f k, In th d -> In f th -> f_module f = Some k -> psupplier_calls s k = 1) /\
    (forall k, In k (concat (tasks (cfg (proc_pc src_walker d base)))) -> psupplier_calls s k = 1) /\
    (forall k, psupplier_calls s k <= 1) /\
    (forall t, map fst (results (psh s) t) = map snd (nth t (ptasks (proc_pc src_walker d base)) [])) /\
    (forall t i k o, ptask_result s t i = Some (k, o) -> o = outc base k) /\
    req (psh s) = distinct_keys (cfg (proc_pc src_walker d base)) /\
    proc (psh s) = distinct_keys (cfg (proc_pc src_walker d base)) /\
    (forall lf o, after lf = Some o ->
       exists k, In k (concat (tasks (cfg (proc_pc src_walker d base)))) /\ leaf base k = lf /\ o = outc base k) /\
    (forall k, In k (concat (tasks (cfg (proc_pc src_walker d base)))) -> after (leaf base k) <> None).
Proof. exact processor_once_per_module. Qed.
Print Assumptions c12_processor_once_per_module.

Example c12_nonvacuous_processor :
  walk_ok ex_dump /\ work (cfg (proc_pc src_walker ex_dump ex_base)) = 28 /\
  match process src_program src_walker ex_dump ex_base 28 with
  | Some (s, [before; after]) =>
      before 0 = None /\ after 0 = Some OParse /\ after 1 = Some OOk /\ after 2 = None /\
      calls (psh s) = [0; 1; 2] /\ req (psh s) = 3 /\ proc (psh s) = 3 /\
      results (psh s) 1 = [(1, OParse); (1, OParse); (2, OOk); (0, OOk); (0, OOk)]
  | _ => False
  end.
Proof. split; [exact ex_dump_ok|exact ex_process]. Qed.

(* ---- the pending counters of a run that MIXES symbol lookups and file lookups (
   C12/ProgCountMix.v): [sk] tells symbol slots from file slots (different maps in the code).  The closure of
   locate_file_internal touches neither counter; whatever the instruction-level interleaving,
   processed <= requested <= number of distinct MODULE keys asked for, and at quiescence all three are equal — the
   file lookups of the same run (each fetched once, c12_source_instr_at_most_once) do not count.  With
   sk = fun _ => true this is c12_source_instr_counters. ---- *)
From RM Require Import C12.ProgCountMix.
Theorem c12_source_instr_mixed_counters_bounded : forall (sk : key -> bool) (pc : pconfig) (ms : list task),
  classified sk pc ->
  proc (psh (pmrun src_program pc ms)) <= req (psh (pmrun src_program pc ms)) /\
  req (psh (pmrun src_program pc ms)) <= distinct_sym_keys sk pc.
Proof.
  rewrite src_is_canon. intros sk pc ms H. split; [exact (mix_processed_le_requested sk pc ms H)|exact (mix_requested_le_distinct sk pc ms H)].
Qed.
Print Assumptions c12_source_instr_mixed_counters_bounded.

Theorem c12_source_instr_mixed_counters : forall (sk : key -> bool) (pc : pconfig) (ms : list task),
  classified sk pc -> pall_done pc (pmrun src_program pc ms) = true ->
  req (psh (pmrun src_program pc ms)) = distinct_sym_keys sk pc /\
  proc (psh (pmrun src_program pc ms)) = distinct_sym_keys sk pc.
Proof. rewrite src_is_canon. exact mix_counters_quiescent. Qed.
Print Assumptions c12_source_instr_mixed_counters.

(* the same for whole polls in any order (every poll schedule is an instruction schedule) *)
Theorem c12_source_mixed_counters : forall (sk : key -> bool) (pc : pconfig) (sched : list task), classified sk pc ->
  proc (psh (prun src_program pc sched)) <= req (psh (prun src_program pc sched)) /\
  req (psh (prun src_program pc sched)) <= distinct_sym_keys sk pc /\
  (pall_done pc (prun src_program pc sched) = true ->
   req (psh (prun src_program pc sched)) = distinct_sym_keys sk pc /\
   proc (psh (prun src_program pc sched)) = distinct_sym_keys sk pc).
Proof. rewrite src_is_canon. exact mix_poll_counters. Qed.
Print Assumptions c12_source_mixed_counters.

Example c12_nonvacuous_mixed_counters :
  classified mix_sk mix_pc /\ distinct_sym_keys mix_sk mix_pc = 2 /\ distinct_keys (cfg mix_pc) = 3 /\
  let s := pmrun src_program mix_pc (concat (repeat [0; 1; 2] 40)) in
  pall_done mix_pc s = true /\ req (psh s) = 2 /\ proc (psh s) = 2 /\ length (calls (psh s)) = 3.
Proof. split; [exact mix_classified|exact mix_example]. Qed.

(* ---- ADAPTIVE requesters (C12/AdaptModel.v, C12/AdaptProofs.v): a task is a strategy — its next
   lookup is a function of the answers it has received so far (the unwinder: which module the caller's frame lies in
   depends on what the callee's module's symbols gave).  For every configuration of strategies that stop within N
   lookups when they are given the supplier's scripted answers, every schedule and every per-poll fuel > N, the
   adaptive run is, poll for poll, the run of C12/Model.v on the fixed lists [fixed_config N ac] (same shared state:
   locks, remembered values, supplier log, counters, stats, results; same phase and the same finished tasks) — so
   every theorem of C12 speaks about adaptive requesters. ---- *)
From RM Require Import C12.AdaptModel C12.AdaptProofs.
Theorem c12_adaptive_refines : forall (N : nat) (ac : aconfig) (fuel : nat) (sched : list task),
  N < fuel -> Forall (fun sg => ends N (outc (abase ac)) sg [] = true) (astrats ac) ->
  ash (arun fuel ac sched) = sh (run (fixed_config N ac) sched) /\
  (forall t, aph (arun fuel ac sched) t = snd (pcs (run (fixed_config N ac) sched) t)) /\
  (forall t, atask_done ac (arun fuel ac sched) t = task_done (run (fixed_config N ac) sched) t) /\
  aall_done ac (arun fuel ac sched) = all_done (fixed_config N ac) (run (fixed_config N ac) sched).
Proof. intros N ac fuel sched H1 H2. exact (adaptive_refines N ac fuel H1 H2 sched). Qed.
Print Assumptions c12_adaptive_refines.

Theorem c12_adaptive_at_most_once : forall (N : nat) (ac : aconfig) (fuel : nat) (sched : list task) (k : key),
  N < fuel -> Forall (fun sg => ends N (outc (abase ac)) sg [] = true) (astrats ac) ->
  count_occ Nat.eq_dec (calls (ash (arun fuel ac sched))) k <= 1.
Proof. intros N ac fuel sched k H1 H2. exact (adaptive_at_most_once N ac fuel H1 H2 sched k). Qed.
Print Assumptions c12_adaptive_at_most_once.

Theorem c12_adaptive_same_outcome : forall (N : nat) (ac : aconfig) (fuel : nat) (sched : list task) (t : task) (i : nat)
  (k : key) (o : outcome),
  N < fuel -> Forall (fun sg => ends N (outc (abase ac)) sg [] = true) (astrats ac) ->
  nth_error (results (ash (arun fuel ac sched)) t) i = Some (k, o) -> o = outc (abase ac) k.
Proof. intros N ac fuel sched t i k o H1 H2. exact (adaptive_same_outcome N ac fuel H1 H2 sched t i k o). Qed.
Print Assumptions c12_adaptive_same_outcome.

Theorem c12_adaptive_counters : forall (N : nat) (ac : aconfig) (fuel : nat) (sched : list task),
  N < fuel -> Forall (fun sg => ends N (outc (abase ac)) sg [] = true) (astrats ac) ->
  aall_done ac (arun fuel ac sched) = true ->
  req (ash (arun fuel ac sched)) = distinct_keys (fixed_config N ac) /\
  proc (ash (arun fuel ac sched)) = distinct_keys (fixed_config N ac) /\
  forall k, In k (concat (tasks (fixed_config N ac))) -> count_occ Nat.eq_dec (calls (ash (arun fuel ac sched))) k = 1.
Proof. intros N ac fuel sched H1 H2. exact (adaptive_counters N ac fuel H1 H2 sched). Qed.
Print Assumptions c12_adaptive_counters.

(* non-vacuity: two requesters that ask for module 0 and then, depending on what they got, for module 1 (symbols) or
   module 2 (none); module 0's symbol file is corrupt, so both go on to module 2 and module 1 is never asked for *)
Definition ex_strat : strat :=
  fun acc => match acc with
             | [] => Some 0
             | [(_, OOk)] => Some 1
             | [_] => Some 2
             | _ => None
             end.
Definition ex_ac : aconfig :=
  {| astrats := [ex_strat; ex_strat];
     abase := {| tasks := []; susp := fun k => 1; outc := fun k => if Nat.eqb k 0 then OParse else OOk; leaf := fun k => k |} |}.
Example c12_nonvacuous_adaptive :
  Forall (fun sg => ends 2 (outc (abase ex_ac)) sg [] = true) (astrats ex_ac) /\
  tasks (fixed_config 2 ex_ac) = [[0; 2]; [0; 2]] /\
  let s := arun 3 ex_ac [0; 1; 0; 1; 1; 0; 0; 1] in
  aall_done ex_ac s = true /\ calls (ash s) = [0; 2] /\ req (ash s) = 2 /\ proc (ash s) = 2 /\
  results (ash s) 0 = [(0, OParse); (2, OOk)] /\ results (ash s) 1 = [(0, OParse); (2, OOk)].
Proof. split; [repeat constructor|]. vm_compute. repeat split. Qed.

(* adaptive requesters and the program regenerated from the source: the interpreter on the unfolded lists (every lookup
   through fill_symbol) has, poll for poll, the shared state of the adaptive run — locks, remembered values, supplier log,
   results, both counters, stats — and finishes exactly when it does *)
From RM Require Import C12.AdaptSource.
Theorem c12_adaptive_source_program : forall (N : nat) (ac : aconfig) (fuel : nat) (sched : list task),
  N < fuel -> Forall (fun sg => ends N (outc (abase ac)) sg [] = true) (astrats ac) ->
  sh_eq true (psh (prun src_program (fill_pc N ac) sched)) (ash (arun fuel ac sched)) /\
  pall_done (fill_pc N ac) (prun src_program (fill_pc N ac) sched) = aall_done ac (arun fuel ac sched).
Proof.
  intros N ac fuel sched H1 H2.
  exact (adaptive_source_any_entry N ac fuel _ sched H1 H2 (fill_pc_sym N ac) (fill_pc_cfg N ac)).
Qed.
Print Assumptions c12_adaptive_source_program.

(* the stats map for the interpreter on the regenerated program (symbol lookups through any entry point) *)
Theorem c12_source_stats_sound : forall (pc : pconfig) (sched : list task) (lf : nat) (o : outcome), sym_only pc ->
  stats (psh (prun src_program pc sched)) lf = Some o ->
  exists k, In k (concat (tasks (cfg pc))) /\ leaf (pbase pc) k = lf /\ o = outc (pbase pc) k /\
            value (psh (prun src_program pc sched)) k = Some o.
Proof.
  intros pc sched lf o Hs H.
  destruct (src_refines true pc sched (fun _ => Hs)) as (_ & _ & _ & (_ & Hv & _ & _ & Hfull)).
  destruct (Hfull eq_refl) as (_ & _ & Hst). rewrite Hst in H.
  destruct (stats_sound (cfg pc) sched lf o H) as (k & A & B & C & D).
  exists k. rewrite Hv. repeat split; assumption.
Qed.
Print Assumptions c12_source_stats_sound.

Theorem c12_source_stats_complete : forall (pc : pconfig) (sched : list task) (k : key), sym_only pc ->
  pall_done pc (prun src_program pc sched) = true -> In k (concat (tasks (cfg pc))) ->
  stats (psh (prun src_program pc sched)) (leaf (pbase pc) k) <> None.
Proof.
  intros pc sched k Hs Hd Hk.
  pose proof (src_refines true pc sched (fun _ => Hs)) as Sim.
  rewrite (pall_done_abs true _ _ _ Sim) in Hd.
  destruct Sim as (_ & _ & _ & (_ & _ & _ & _ & Hfull)). destruct (Hfull eq_refl) as (_ & _ & Hst). rewrite Hst.
  apply (stats_complete_quiescent (cfg pc) sched k Hd Hk).
Qed.
Print Assumptions c12_source_stats_complete.

(* the stats map at INSTRUCTION granularity (C12/ProgStatsMix.v): `SymbolStats::default()`, the classification, the leaf name
   and the insert are separate steps between which other tasks run (and the insert precedes the store into the slot);
   every entry classifies the single answer of a module with that leaf name which the supplier was asked for exactly once *)
From RM Require Import C12.ProgStatsMix.
Theorem c12_source_instr_stats_sound : forall (pc : pconfig) (ms : list task) (lf : nat) (o : outcome),
  stats (psh (pmrun src_program pc ms)) lf = Some o ->
  exists k, leaf (pbase pc) k = lf /\ o = outc (pbase pc) k /\ psupplier_calls (pmrun src_program pc ms) k = 1.
Proof. rewrite src_is_canon. exact pm_stats_sound. Qed.
Print Assumptions c12_source_instr_stats_sound.

(* a state no poll schedule has: the entry is there, the slot is still empty *)
Example c12_nonvacuous_instr_stats :
  let s := pmrun src_program two_fill (repeat 0 12) in
  stats (psh s) 0 <> None /\ value (psh s) 0 = None /\ calls (psh s) = [0].
Proof. vm_compute. repeat split; discriminate. Qed.

(* the thread walks of the processor on a MULTI-THREADED executor: under EVERY instruction-level interleaving of the
   per-thread futures (one instruction of the regenerated program of one thread at a time, any order) each module is
   located at most once, every answer is the module's single one, processed <= requested <= distinct modules, every
   stats entry classifies the answer of a module located exactly once; when all threads have finished: every module of
   every frame located exactly once, every thread has all its answers, requested = processed = distinct modules; and under
   any fair instruction schedule of sufficient length all threads finish *)
From RM Require Import C12.ProgMeasure C12.ProgFair.
Theorem c12_processor_threads_instr : forall (d : dump) (base : config) (ms : list task), walk_ok d ->
  (forall k, psupplier_calls (pmrun src_program (proc_pc src_walker d base) ms) k <= 1) /\
  (forall t i k o, ptask_result (pmrun src_program (proc_pc src_walker d base) ms) t i = Some (k, o) -> o = outc base k) /\
  proc (psh (pmrun src_program (proc_pc src_walker d base) ms)) <= req (psh (pmrun src_program (proc_pc src_walker d base) ms)) /\
  req (psh (pmrun src_program (proc_pc src_walker d base) ms)) <= distinct_keys (cfg (proc_pc src_walker d base)) /\
  (forall lf o, stats (psh (pmrun src_program (proc_pc src_walker d base) ms)) lf = Some o ->
     exists k, leaf base k = lf /\ o = outc base k /\ psupplier_calls (pmrun src_program (proc_pc src_walker d base) ms) k = 1) /\
  (pall_done (proc_pc src_walker d base) (pmrun src_program (proc_pc src_walker d base) ms) = true ->
     (forall th f k, In th d -> In f th -> f_module f = Some k ->
        psupplier_calls (pmrun src_program (proc_pc src_walker d base) ms) k = 1) /\
     (forall t, map fst (results (psh (pmrun src_program (proc_pc src_walker d base) ms)) t) =
                map snd (nth t (ptasks (proc_pc src_walker d base)) [])) /\
     req (psh (pmrun src_program (proc_pc src_walker d base) ms)) = distinct_keys (cfg (proc_pc src_walker d base)) /\
     proc (psh (pmrun src_program (proc_pc src_walker d base) ms)) = distinct_keys (cfg (proc_pc src_walker d base))) /\
  (forall T, fair (length (ptasks (proc_pc src_walker d base))) T ms ->
     T * imu (cfg (proc_pc src_walker d base)) (length (ptasks (proc_pc src_walker d base))) (pinit (proc_pc src_walker d base)) <= length ms ->
     pall_done (proc_pc src_walker d base) (pmrun src_program (proc_pc src_walker d base) ms) = true).
Proof. exact processor_instr. Qed.
Print Assumptions c12_processor_threads_instr.

(* ---- the closure of HttpSymbolSupplier::locate_file_internal as statements (C12/FileProg.v,
   C12/FileProgProofs.v): translate/c12_program.py regenerates its body as instructions (local lookup with early return;
   if a lookup path exists: per server fetch_lookup().await with early return on success; the cab branch compiled out;
   Err(NotFound)) and [fexec] gives them their meaning — total suspensions and answer.  For every file configuration and
   file key the regenerated body means FileModel.file_script, the script the once-per-key theorems assume for a file slot,
   and what a locate_file requester observes is that meaning. ---- *)
From RM Require Import C12.FileProg C12.FileProgProofs.
Theorem c12_source_file_closure_meaning : forall (fc : fconfig) (fk : fkey),
  file_meaning src_file_body fc fk = Some (file_script fc fk).
Proof. exact src_file_meaning. Qed.
Print Assumptions c12_source_file_closure_meaning.

Theorem c12_source_files_outcome_is_closure_meaning : forall (fc : fconfig) (sched : list task) (t : task) (i : nat)
  (k : key) (o : outcome),
  ptask_result (prun src_program (pc_of_fc fc) sched) t i = Some (k, o) ->
  exists n, file_meaning src_file_body fc (dec k) = Some (n, o).
Proof.
  intros fc sched t i k o H. destruct (src_files_same_outcome fc sched t i k o H) as [E _].
  exists (fst (file_script fc (dec k))). rewrite src_file_meaning. rewrite E.
  destruct (file_script fc (dec k)); reflexivity.
Qed.
Print Assumptions c12_source_files_outcome_is_closure_meaning.

Example c12_nonvacuous_file_closure :
  file_meaning noreturn_body one_server (0, KSym) = Some (2, ONotFound) /\
  file_meaning src_file_body one_server (0, KSym) = Some (2, OOk).
Proof. split; reflexivity. Qed.

(* adaptive requesters through ANY symbol entry point, and through the processor: when the lookups of the thread walks
   are what the unwinder's decisions (functions of the answers it got) unfold to, the processor's run on the regenerated
   program and walker has the adaptive run's shared state, whatever the schedule *)
Theorem c12_adaptive_source_program_any_entry : forall (N : nat) (ac : aconfig) (fuel : nat) (pc : pconfig) (sched : list task),
  N < fuel -> Forall (fun sg => ends N (outc (abase ac)) sg [] = true) (astrats ac) ->
  sym_only pc -> cfg pc = fixed_config N ac ->
  sh_eq true (psh (prun src_program pc sched)) (ash (arun fuel ac sched)) /\
  pall_done pc (prun src_program pc sched) = aall_done ac (arun fuel ac sched).
Proof. exact adaptive_source_any_entry. Qed.
Print Assumptions c12_adaptive_source_program_any_entry.

Theorem c12_adaptive_processor : forall (N : nat) (ac : aconfig) (fuel : nat) (d : dump) (sched : list task),
  N < fuel -> Forall (fun sg => ends N (outc (abase ac)) sg [] = true) (astrats ac) ->
  walk_ok d -> cfg (proc_pc src_walker d (abase ac)) = fixed_config N ac ->
  sh_eq true (psh (prun src_program (proc_pc src_walker d (abase ac)) sched)) (ash (arun fuel ac sched)) /\
  pall_done (proc_pc src_walker d (abase ac)) (prun src_program (proc_pc src_walker d (abase ac)) sched) =
    aall_done ac (arun fuel ac sched).
Proof.
  intros N ac fuel d sched H1 H2 Hok Hc.
  apply (adaptive_source_any_entry N ac fuel _ sched H1 H2); [|exact Hc].
  rewrite src_walker_is_canon. apply canon_sym_only. exact Hok.
Qed.
Print Assumptions c12_adaptive_processor.

Example c12_nonvacuous_adaptive_processor :
  Forall (fun sg => ends 4 (outc (abase ex_ac2)) sg [] = true) (astrats ex_ac2) /\ walk_ok ex_dump2 /\
  cfg (proc_pc src_walker ex_dump2 (abase ex_ac2)) = fixed_config 4 ex_ac2.
Proof. split; [repeat constructor|]. split; [repeat constructor|]. reflexivity. Qed.

(* completeness of the stats map at instruction granularity, any mix of symbol and file lookups (C12/ProgStatsMix.v): a
   module slot that holds a remembered answer has an entry under the module's leaf name — the insert precedes the store and
   entries are never removed; file slots have none *)
From RM Require Import C12.ProgStatsMix.
Theorem c12_source_instr_stats_complete : forall (sk : key -> bool) (pc : pconfig) (ms : list task) (k : key),
  classified sk pc -> sk k = true ->
  value (psh (pmrun src_program pc ms)) k <> None -> stats (psh (pmrun src_program pc ms)) (leaf (pbase pc) k) <> None.
Proof. rewrite src_is_canon. exact pm_stats_complete. Qed.
Print Assumptions c12_source_instr_stats_complete.
