(* C15/Properties.v — the property theorems of the JSON report, each with its full statement, a short proof from the lemmas of the
   Proofs files and its Print Assumptions; the non-vacuity examples with the small documents and the example state they use.
   serde_json's writer is modelled by [serialise] / [pretty] (compared with the real bytes by the correspondence run, not verified). *)
From Coq Require Import Lia Permutation Sorted.
From RM Require Import Gen.C15Fmt.
From RM Require Import C15.Model C15.Schema C15.Widths C15.Utf8 C15.Pretty C15.Proofs C15.Proofs2 C15.Proofs3 C15.Proofs4 C15.Proofs5 C15.Proofs6 C15.Proofs7 C15.Scalar C15.Proofs8 C15.Proofs9 C15.Regs C15.Consistent C15.Proofs11 C15.Proofs12 C15.Offsets C15.KeyOrder C15.Proofs15 C15.Float C15.FnOffsets C15.FloatQ C15.Proofs19 C15.Version C15.Proofs20.
From RM Require C19.Model.
From Flocq Require IEEE754.Binary IEEE754.Bits.
Open Scope Z_scope.

(* Escaping is total and correct: every JSON value — arbitrary nesting, arbitrary integers,
   strings over arbitrary code points (quotes, backslashes, control characters, non-BMP) —
   serialises to a document that parses back to exactly that value. *)
Theorem c15_serialise_parse : forall v : json, parse (serialise v) = Some v.
Proof. exact serialise_parse. Qed.
Print Assumptions c15_serialise_parse.

(* no raw control character ever appears inside a serialised string *)
Theorem c15_escape_no_raw_control : forall c x, In x (esc_char c) -> ~ (0 <= x < 32).
Proof. exact esc_char_no_control. Qed.
Print Assumptions c15_escape_no_raw_control.

(* the hypotheses under which print_json's arithmetic cannot trap: C08 / C11 soundness (a frame's
   module and function start at or below its instruction) and C14 c14_modules_of_stream (a listed
   module's base + size fits in u64) *)
Definition c15_state_ok := state_ok.

(* thread_count = |threads|; per thread frame_count = |frames| = number of frames of the state *)
Theorem c15_counts : forall p s, state_ok s ->
  exists j ts, json_of_state p s = Ret j /\
    jget k_threads j = Some (JArr ts) /\
    jget k_thread_count j = Some (JNum (Z.of_nat (length ts))) /\
    length ts = length (s_threads s) /\
    forall i t, nth_error (s_threads s) i = Some t ->
      exists tj fs, nth_error ts i = Some tj /\ jget k_frames tj = Some (JArr fs) /\
                    jget k_frame_count tj = Some (JNum (Z.of_nat (length fs))) /\
                    length fs = length (th_frames t) /\ jget k_thread_id tj = Some (JNum (th_id t)).
Proof.
  intros p s Hok. exists (report_obj s), (map (thread_obj (s_width s)) (s_threads s)).
  split; [exact (report_pure_ok p s Hok)|]. rewrite !report_get by (reflexivity || exact Hok).
  split; [reflexivity|]. split; [rewrite map_length; reflexivity|]. split; [apply map_length|].
  intros i t Hn. exists (thread_obj (s_width s) t). eexists.
  split; [exact (map_nth_error _ _ _ Hn)|]. split; [reflexivity|]. rewrite frames_len. repeat split; reflexivity.
Qed.
Print Assumptions c15_counts.

(* "frame" is the position in the frames array *)
Theorem c15_frame_numbers : forall p w t tj fs,
  json_of_thread p w t = Ret tj -> jget k_frames tj = Some (JArr fs) ->
  forall i fj, nth_error fs i = Some fj -> jget k_frame fj = Some (JNum (Z.of_nat i)).
Proof.
  intros p w t tj fs H Hf. destruct (thread_counts p w t tj H) as (fs' & H1 & _ & _ & _ & Hn).
  rewrite H1 in Hf. inversion Hf; subst. exact Hn.
Qed.
Print Assumptions c15_frame_numbers.

(* module_offset = offset - module base, function_offset = offset - function base, in both build
   profiles, no trap, given the soundness hypotheses *)
Theorem c15_offsets : forall p w idx f, frame_ok f ->
  exists j, json_of_frame p w idx f = Ret j /\
    jget k_frame j = Some (JNum (Z.of_nat idx)) /\
    jget k_offset j = Some (JStr (address_str w (fr_instr f))) /\
    jget k_module_offset j =
      Some (match fr_module f with Some (_, base) => JStr (address_str w (fr_instr f - base)) | None => JNull end) /\
    jget k_function_offset j =
      Some (match fr_function_base f with Some base => JStr (address_str w (fr_instr f - base)) | None => JNull end) /\
    jget k_missing_symbols j = Some (JBool (match fr_function f with Some _ => false | None => true end)) /\
    jget k_trust j = Some (JStr (trust_name (fr_trust f))) /\
    jget k_module j = Some (match fr_module f with Some (name, _) => JStr (basename name) | None => JNull end).
Proof.
  intros p w idx f H. exists (frame_obj w idx f). split; [exact (frame_pure p w idx f H)|].
  unfold frame_obj, frame_members. repeat split; try reflexivity. destruct (fr_module f) as [[nm b]|]; reflexivity.
Qed.
Print Assumptions c15_offsets.

(* the modules / unloaded_modules arrays mirror the module lists, in order: element i describes module i with
   filename = basename of its code file (the unloaded module's name as it is), base_addr = its base,
   end_addr = base + size, cert_subject = cert_info[filename], loaded / missing symbols from symbol_stats[filename];
   pid is the state's *)
Theorem c15_modules_mirror : forall p s, state_ok s ->
  exists j ms us, json_of_state p s = Ret j /\
    jget k_modules j = Some (JArr ms) /\ jget k_unloaded_modules j = Some (JArr us) /\
    length ms = length (s_modules s) /\ length us = length (s_unloaded s) /\
    (forall i m, nth_error (s_modules s) i = Some m ->
       exists mj, nth_error ms i = Some mj /\
         jget k_filename mj = Some (JStr (basename (m_file m))) /\
         jget k_base_addr mj = Some (JStr (address_str (s_width s) (m_base m))) /\
         jget k_end_addr mj = Some (JStr (address_str (s_width s) (m_base m + m_size m))) /\
         jget k_code_id mj = Some (JStr (m_code_id m)) /\
         jget k_cert_subject mj = Some (jopt JStr (lookup (basename (m_file m)) (s_certinfo s))) /\
         jget k_missing_symbols mj =
           Some (JBool (match lookup (basename (m_file m)) (s_symstats s) with Some st => negb (ss_loaded st) | None => false end))) /\
    (forall i m, nth_error (s_unloaded s) i = Some m ->
       exists mj, nth_error us i = Some mj /\
         jget k_filename mj = Some (JStr (m_file m)) /\
         jget k_base_addr mj = Some (JStr (address_str (s_width s) (m_base m))) /\
         jget k_end_addr mj = Some (JStr (address_str (s_width s) (m_base m + m_size m))) /\
         jget k_cert_subject mj = Some (jopt JStr (lookup (m_file m) (s_certinfo s)))) /\
    jget k_pid j = Some (match s_pid s with Some n => JNum n | None => JNull end).
Proof.
  intros p s Hok. exists (report_obj s). eexists. eexists. split; [exact (report_pure_ok p s Hok)|].
  rewrite !report_get by (reflexivity || exact Hok). split; [reflexivity|]. split; [reflexivity|].
  split; [apply map_length|]. split; [apply map_length|]. split; [|split].
  - intros i m Hn. eexists. split; [apply map_nth_error; exact Hn|]. unfold mod_obj. cbv zeta.
    repeat split; try reflexivity. cbn [jget assoc]. destruct (lookup (basename (m_file m)) (s_symstats s)); reflexivity.
  - intros i m Hn. eexists. split; [apply map_nth_error; exact Hn|]. repeat split; reflexivity.
  - cbn [assoc tail_obj list_eqb]. destruct (s_pid s); reflexivity.
Qed.
Print Assumptions c15_modules_mirror.

(* the crashing_thread copy exists exactly when the requesting thread has a frame; it is
   threads[threads_index] with threads_index appended and registers inserted into frame 0 *)
Theorem c15_crashing_thread_copy : forall p s, state_ok s ->
  exists j ts, json_of_state p s = Ret j /\ jget k_threads j = Some (JArr ts) /\
    (s_requesting s = None -> jget k_crashing_thread j = None) /\
    forall i t, s_requesting s = Some i -> nth_error (s_threads s) i = Some t ->
      (th_frames t = [] -> jget k_crashing_thread j = None) /\
      (th_frames t <> [] ->
         exists tj cc f0 fs, nth_error ts i = Some tj /\ jget k_crashing_thread j = Some cc /\
           jget k_frames tj = Some (JArr (f0 :: fs)) /\
           jget k_threads_index cc = Some (JNum (Z.of_nat i)) /\
           jget k_frame_count cc = jget k_frame_count tj /\
           jget k_thread_id cc = jget k_thread_id tj /\
           jget k_thread_name cc = jget k_thread_name tj /\
           jget k_last_error_value cc = jget k_last_error_value tj /\
           jget k_frames cc = Some (JArr (add_registers (json_registers (s_registers s)) f0 :: fs)) /\
           jget k_registers (add_registers (json_registers (s_registers s)) f0) = Some (json_registers (s_registers s)) /\
           forall k, k <> k_registers ->
             jget k (add_registers (json_registers (s_registers s)) f0) = jget k f0).
Proof.
  intros p s Hok. exists (report_obj s), (map (thread_obj (s_width s)) (s_threads s)).
  split; [exact (report_pure_ok p s Hok)|]. split; [rewrite report_get by (reflexivity || exact Hok); reflexivity|].
  destruct (report_cases_ok s Hok) as [[-> N]|(i0 & t0 & Er & Et & Ef & ->)].
  - (* no crashing_thread copy *) split; [reflexivity|]. intros i t Hr Hn. rewrite Hr in N. destruct N as (t' & Et' & Ef'). rewrite Hn in Et'. inversion Et'; subst t'.
    split; [reflexivity|]. intro H. contradiction.
  - (* with the copy of thread i0 *) split; [intro H; rewrite H in Er; discriminate|]. intros i t Hr Hn. rewrite Hr in Er. inversion Er; subst i0.
    rewrite Hn in Et. inversion Et; subst t0. split; [intro H; contradiction|]. intros _.
    destruct (th_frames t) as [|f0 fs] eqn:Eft; [contradiction|].
    exists (thread_obj (s_width s) t), (snd (copy_member s i t)), (frame_obj (s_width s) 0 f0). eexists.
    split; [exact (map_nth_error _ _ _ Hn)|]. split; [reflexivity|].
    unfold copy_member, thread_obj. rewrite Eft. cbn [frames_obj crashing_copy].
    repeat split; try reflexivity. intros k Hk. apply add_registers_other. exact Hk.
Qed.
Print Assumptions c15_crashing_thread_copy.

(* Address display: "0x" + lower-case hex; exactly 18 characters for 64-bit and unknown pointer
   widths, exactly 10 for a 32-bit width when the value fits in 32 bits (a wider value is not
   truncated: `{:#010x}` is a minimum width), and the digits denote the value *)
Theorem c15_hex_width : forall w x, 0 <= x < two64 ->
  (w <> W32 -> length (address_str w x) = 18%nat) /\
  (w = W32 -> x < two32 -> length (address_str w x) = 10%nat) /\
  (w = W32 -> two32 <= x -> (3 <= length (address_str w x) <= 18)%nat) /\
  (exists digits, address_str w x = 48 :: 120 :: digits /\ Forall is_lower_hex digits) /\
  ((w <> W32 \/ x < two32) -> hex_value (skipn 2 (address_str w x)) = x).
Proof. exact address_width. Qed.
Print Assumptions c15_hex_width.

(* Every enumeration-valued string the report can carry is one of the values json-schema.md lists for that
   member.  FINITE CHECK (vm_compute over the name tables that translate/c15_enums.py regenerates from the source and
   from json-schema.md on every run), not an induction: trust (every FrameTrust variant except the unreachable
   `None`, whose as_str() is the typo "non"), access_type (Read / Write / ReadWrite; Underivable emits no member),
   crash_inconsistencies, cpu_arch (all ten), os (the eight named systems; Unknown(id) is finding F-C15a). *)
Theorem c15_enumerations :
  (forall n, In n (skipn 1 TRUST_NAMES) -> In n DOC_TRUST) /\
  (forall n, In n (firstn 3 ACCESS_NAMES) -> In n DOC_ACCESS_TYPE) /\
  (forall n, In n INCONSISTENCY_NAMES -> In n DOC_INCONSISTENCIES) /\
  (forall n, In n CPU_NAMES -> In n DOC_CPU_ARCH) /\
  (forall n, In n OS_NAMES -> In n DOC_OS) /\
  (length TRUST_NAMES = 7 /\ length ACCESS_NAMES = 4 /\ length INCONSISTENCY_NAMES = 5 /\
   length CPU_NAMES = 10 /\ length OS_NAMES = 8)%nat.
Proof.
  repeat split; try (apply subset_In; vm_compute; reflexivity); reflexivity.
Qed.
Print Assumptions c15_enumerations.

(* the two strings that are NOT in the documented sets: F-C15a (known) and the unreachable trust typo *)
Theorem c15_os_unknown_known_witness :
  os_name 8 32768 = [48; 120; 48; 120; 48; 48; 56; 48; 48; 48] /\ ~ In (os_name 8 32768) DOC_OS /\
  ~ In (trust_name 0) DOC_TRUST.
Proof.
  split; [vm_compute; reflexivity|]. split; intro H; vm_compute in H; repeat (destruct H as [H|H]; [discriminate H|]); exact H.
Qed.
Print Assumptions c15_os_unknown_known_witness.

(* SCHEMA CONFORMANCE, every process state.  DOC_SCHEMA is the schema tree that translate/c15_schema.py regenerates
   from the ```rust,ignore block of minidump-processor/json-schema.md on every run (field names, leaf types <u32> <u64>
   <bool> <string> <hexstring>, enumerations, arrays, the register map).  For every state satisfying the executable
   well-formedness conditions [wf_state] (evaluated on every real state by the correspondence run: numeric members within
   the documented integer types, enumeration indices in range, frame / module arithmetic does not wrap — the C08 / C11 /
   C14 conclusions —, the requesting thread exists, distinct register names; Os::Unknown is excluded: finding F-C15a) and
   in BOTH build profiles the report is produced without trap, is a JSON value whose serialisation parses back to it, and
   conforms to the documented schema: every member name at every level is documented and occurs once, every value has the
   documented type or is null, every enumeration-valued string is a documented value, every Address / register / microcode
   string is "0x" + 1..16 lower-case hex digits.  "soft_errors" is inside the model (for EVERY content of the
   dump's soft-errors stream: see c15_soft_errors).  Outside the model (so outside this theorem):
   possible_bit_flips[].confidence (the model's document has every other member of print_json's). *)
Theorem c15_schema_conformance : forall p s, wf_state s = true ->
  exists j, json_of_state p s = Ret j /\ conforms DOC_SCHEMA j = true /\ parse (serialise j) = Some j.
Proof.
  intros p s H. exists (report_obj s). split; [exact (report_pure p s H)|]. split; [exact (report_conforms s H)|apply serialise_parse].
Qed.
Print Assumptions c15_schema_conformance.

(* the report does not depend on the build profile when the state is well-formed *)
Theorem c15_profile_independent : forall s, wf_state s = true -> json_of_state Debug s = json_of_state Release s.
Proof. intros s H. rewrite (report_pure Debug s H), (report_pure Release s H). reflexivity. Qed.
Print Assumptions c15_profile_independent.

(* [conforms] is not vacuous: it rejects an undocumented member, a duplicated member, a number where a hex string is
   documented, an upper-case / unprefixed / 17-digit hex string, an undocumented enumeration value and a too large <u32> *)
Theorem c15_conforms_rejects :
  conforms DOC_SCHEMA (JObj [([120], JNum 1)]) = false /\
  conforms DOC_SCHEMA (JObj [(k_pid, JNum 1); (k_pid, JNum 1)]) = false /\
  conforms DOC_SCHEMA (JObj [(k_pid, JNum 4294967296)]) = false /\
  conforms DOC_SCHEMA (JObj [(k_crash_info, JObj [(k_address, JNum 16)])]) = false /\
  conforms DOC_SCHEMA (JObj [(k_crash_info, JObj [(k_address, JStr [48; 120; 65])])]) = false /\
  conforms DOC_SCHEMA (JObj [(k_crash_info, JObj [(k_address, JStr [49; 48])])]) = false /\
  conforms DOC_SCHEMA (JObj [(k_crash_info, JObj [(k_address, JStr (48 :: 120 :: repeat 48 17))])]) = false /\
  conforms DOC_SCHEMA (JObj [(k_system_info, JObj [(k_os, JStr (os_name 8 32768))])]) = false /\
  conforms DOC_SCHEMA (JObj [(k_threads, JArr [JObj [(k_frames, JArr [JObj [(k_trust, JStr (trust_name 0))]])]])]) = false /\
  conforms DOC_SCHEMA (JObj [(k_threads, JArr [JObj [(k_frames, JArr [JObj [(k_trust, JStr (trust_name 2))]])]])]) = true.
Proof. vm_compute. repeat split; reflexivity. Qed.
Print Assumptions c15_conforms_rejects.

(* POINTER WIDTH, whole document.  In the report of every well-formed state every Address-valued member — crash_info.address,
   adjusted_address.address / offset, memory_accesses[].address, instruction_pointer_update.address,
   possible_bit_flips[].address, every frame's offset / module_offset / function_offset and unloaded_modules[].offsets[] (in
   threads and in the crashing_thread copy), modules / unloaded_modules base_addr / end_addr, mac_crash_info thread /
   dialog_mode / abort_cause — is "0x" + lower-case hex digits: exactly 16 digits for 64-bit and unknown pointer widths, at least
   8 for a 32-bit width (exactly 8 when the value is below 2^32: c15_hex_width).  [widths] walks the document and judges
   every string under one of those member names; the driver evaluates it on the real output as well.
   regs_named_ok: no register is called like an Address member (true of every register file in minidump-common). *)
Theorem c15_address_widths : forall p s, wf_state s = true -> regs_named_ok (s_registers s) = true ->
  exists j, json_of_state p s = Ret j /\ widths (s_width s) [] j = true.
Proof.
  intros p s H Hr. exists (report_obj s). split; [exact (report_pure p s H)|exact (report_widths s H Hr)].
Qed.
Print Assumptions c15_address_widths.

(* [widths] is not vacuous: a 32-bit-padded address in a 64-bit report, an unpadded address and an upper-case one are rejected *)
Theorem c15_widths_rejects :
  widths W64 [] (JObj [(k_crash_info, JObj [(k_address, JStr (address_str W32 4096))])]) = false /\
  widths WUnknown [] (JObj [(k_modules, JArr [JObj [(k_base_addr, JStr [48; 120; 49; 48])]])]) = false /\
  widths W32 [] (JObj [(k_threads, JArr [JObj [(k_frames, JArr [JObj [(k_offset, JStr [48; 120; 49; 48])]])]])]) = false /\
  widths W32 [] (JObj [(k_crash_info, JObj [(k_address, JStr (address_str W32 4096))])]) = true /\
  widths W32 [] (JObj [(k_crash_info, JObj [(k_address, JStr (address_str W32 (two32 + 5)))])]) = true /\
  length (address_str W32 (two32 + 5)) = 11%nat.
Proof. vm_compute. repeat split; reflexivity. Qed.
Print Assumptions c15_widths_rejects.

(* VALID UTF-8.  The bytes of the report are the UTF-8 encoding [utf8] of the serialised code points.  For every JSON value whose
   strings (member names and values) consist of Unicode scalar values — which is what Rust `String`s hold: control characters,
   quotes, backslashes, U+2028, U+FFFD from lossy decoding, non-BMP — those bytes are accepted by the STRICT decoder (no overlong
   forms, no surrogates, nothing above U+10FFFF, no stray continuation byte) and decode to exactly the serialised code points, which
   parse back to the value: bytes -> code points -> value is total and lossless. *)
Theorem c15_utf8 : forall v, jscalar v = true ->
  utf8_decode (length (utf8 (serialise v))) (utf8 (serialise v)) = Some (serialise v) /\
  parse (serialise v) = Some v /\ forallb scalar (serialise v) = true.
Proof. intros v H. split; [exact (report_bytes_utf8 v H)|]. split; [apply serialise_parse|exact (serialise_scalar v H)]. Qed.
Print Assumptions c15_utf8.

(* the decoder is strict, and the encoder is the standard one on U+00E9, U+2028, U+FFFD, U+1F600 *)
Theorem c15_utf8_rejects :
  utf8_decode 2 [192; 128] = None /\ utf8_decode 3 [237; 160; 128] = None /\ utf8_decode 4 [244; 144; 128; 128] = None /\
  utf8_decode 1 [128] = None /\ utf8_decode 3 [224; 128; 128] = None /\ utf8_decode 2 [226; 128] = None /\
  utf8 [233; 8232; 65533; 128512] = [195; 169; 226; 128; 168; 239; 191; 189; 240; 159; 152; 128] /\
  utf8_decode 12 (utf8 [233; 8232; 65533; 128512]) = Some [233; 8232; 65533; 128512].
Proof. vm_compute. repeat split; reflexivity. Qed.
Print Assumptions c15_utf8_rejects.

(* Every member name print_json can emit — read off the source by translate/c15_keys.py on every run: the keys of its
   json! literals, map["..."] assignments and insert(String::from("...")) calls, plus the fields of the serde-derived
   PossibleBitFlip / BitFlipDetails — is a member name of the documented schema (FINITE CHECK by vm_compute over the two
   regenerated tables), and soft_errors and possible_bit_flips[].confidence (the member outside the integer-only JSON type) have the documented types
   the oracle checks them against. *)
Theorem c15_source_keys_documented :
  (forall k, In k SOURCE_KEYS -> In k (all_keys DOC_SCHEMA)) /\
  sub1 DOC_SCHEMA k_soft_errors = SArr SAnyObj /\
  sub1 (item (sub1 (sub1 DOC_SCHEMA k_crash_info) k_possible_bit_flips)) k_confidence = SF32.
Proof. split; [apply subset_In; vm_compute; reflexivity|split; reflexivity]. Qed.
Print Assumptions c15_source_keys_documented.

(* SOFT ERRORS.  The MozSoftErrors stream is free-form JSON text, so the state's soft_errors value is ANY JSON value (s_soft is
   unconstrained by wf_state).  In the report of every well-formed state the member is that value when it is an array of objects and
   null otherwise, and it conforms to the documented type ([ <object> ], read from json-schema.md) — for every stream content. *)
Theorem c15_soft_errors : forall p s, wf_state s = true ->
  exists j, json_of_state p s = Ret j /\
    jget k_soft_errors j = Some (soft_value (s_soft s)) /\
    conforms (sub1 DOC_SCHEMA k_soft_errors) (soft_value (s_soft s)) = true /\
    (forall v, s_soft s = Some v -> soft_ok v = true -> jget k_soft_errors j = Some v) /\
    (forall v, s_soft s = Some v -> soft_ok v = false -> jget k_soft_errors j = Some JNull).
Proof.
  intros p s H. exists (report_obj s). split; [exact (report_pure p s H)|].
  assert (G : jget k_soft_errors (report_obj s) = Some (soft_value (s_soft s))).
  { rewrite report_get by (reflexivity || exact (wf_state_ok s H)). reflexivity. }
  split; [exact G|]. split; [apply soft_conforms|]. split; intros v Hv Hok; rewrite G, Hv; unfold soft_value; rewrite Hok; reflexivity.
Qed.
Print Assumptions c15_soft_errors.

(* finding F-C15d: passing the stream's value through would violate the documented type - a number, a string, an object, an array with
   a non-object element do not conform to it.  print_json reports null for each of them; an array of objects (also the empty one) is
   reported as it is. *)
Theorem c15_soft_errors_passthrough_refuted :
  let t := sub1 DOC_SCHEMA k_soft_errors in
  conforms t (JNum 7) = false /\ conforms t (JStr [115]) = false /\ conforms t (JObj [([97], JNum 1)]) = false /\
  conforms t (JArr [JObj []; JStr [120]]) = false /\
  soft_value (Some (JNum 7)) = JNull /\ soft_value (Some (JStr [115])) = JNull /\ soft_value (Some (JObj [([97], JNum 1)])) = JNull /\
  soft_value (Some (JArr [JObj []; JStr [120]])) = JNull /\
  soft_value (Some (JArr [])) = JArr [] /\ soft_value (Some (JArr [JObj [([97], JNum 1)]])) = JArr [JObj [([97], JNum 1)]].
Proof. vm_compute. repeat split; reflexivity. Qed.
Print Assumptions c15_soft_errors_passthrough_refuted.

(* PRETTY OUTPUT.  print_json(pretty = true) writes [pretty v] (serde_json's PrettyFormatter: two-space indent, ": " after a member
   name, "[]" / "{}" for empty containers; compared byte for byte with the real pretty output on every case).  For every JSON value
   the pretty rendering AND the compact one are accepted by [parse_ws] — the RFC 8259 grammar with insignificant whitespace (space,
   tab, LF, CR) around every value and structural character, raw control characters in strings rejected, numbers in normal form, no
   trailing text — and parse back to exactly that value, so both outputs are valid JSON denoting the same value; the compact layout of
   the parametrised serialiser is [serialise]. *)
Theorem c15_pretty_parse : forall v,
  parse_ws (pretty v) = Some v /\ parse_ws (serialise v) = Some v /\ ser_lo COMPACT 0 v = serialise v.
Proof. intro v. split; [apply pretty_parse_ws|]. split; [apply compact_parse_ws|apply ser_lo_compact]. Qed.
Print Assumptions c15_pretty_parse.

(* the round trip does not depend on the particular layout: ANY whitespace-only layout (another indent width, CR LF line ends, spaces before
   commas ...) of any value at any nesting depth parses back to the value *)
Theorem c15_any_layout : forall L, ws_layout L -> forall v d, parse_ws (ser_lo L d v) = Some v.
Proof. exact ser_lo_parse_ws. Qed.
Print Assumptions c15_any_layout.

(* [parse_ws] is a conservative extension of the whitespace-free parser [parse] (the one the driver uses to read the real compact output before
   [conforms], [widths] and [consistent] judge it): whatever [parse] accepts, [parse_ws] accepts with the same value *)
Theorem c15_parse_ws_extends : forall s v, parse s = Some v -> parse_ws s = Some v.
Proof. exact parse_ws_extends. Qed.
Print Assumptions c15_parse_ws_extends.

(* the pretty bytes are valid UTF-8 as well: strict decoding returns the pretty code points *)
Theorem c15_pretty_utf8 : forall v, jscalar v = true ->
  utf8_decode (length (utf8 (pretty v))) (utf8 (pretty v)) = Some (pretty v) /\ forallb scalar (pretty v) = true.
Proof. intros v H. split; [exact (pretty_bytes_utf8 v H)|exact (pretty_scalar v H)]. Qed.
Print Assumptions c15_pretty_utf8.

(* [parse_ws] is not vacuous: two values, a trailing comma, a missing colon, a leading zero, a raw LF inside a string, an unclosed
   array, a vertical tab as whitespace and trailing text are rejected; whitespace in every legal position is accepted; and the pretty
   layout of a small document is the expected text *)
Theorem c15_parse_ws_rejects :
  parse_ws [49; 32; 50] = None /\ parse_ws [91; 49; 44; 93] = None /\ parse_ws [123; 34; 97; 34; 32; 49; 125] = None /\
  parse_ws [48; 49] = None /\ parse_ws [34; 10; 34] = None /\ parse_ws [91; 49] = None /\ parse_ws [11; 49] = None /\
  parse_ws [110; 117; 108; 108; 120] = None /\ parse_ws [] = None /\
  parse_ws [32; 91; 10; 49; 9; 44; 13; 123; 32; 34; 97; 34; 32; 58; 32; 110; 117; 108; 108; 32; 125; 32; 93; 10]
    = Some (JArr [JNum 1; JObj [([97], JNull)]]) /\
  pretty (JObj [([97], JArr [JNum 1; JObj []; JArr []]); ([98], JObj [([99], JNull)])]) =
    [123; 10; 32; 32; 34; 97; 34; 58; 32; 91; 10; 32; 32; 32; 32; 49; 44; 10; 32; 32; 32; 32; 123; 125; 44; 10; 32; 32; 32; 32; 91; 93;
     10; 32; 32; 93; 44; 10; 32; 32; 34; 98; 34; 58; 32; 123; 10; 32; 32; 32; 32; 34; 99; 34; 58; 32; 110; 117; 108; 108; 10; 32; 32;
     125; 10; 125].
Proof. vm_compute. repeat split; reflexivity. Qed.
Print Assumptions c15_parse_ws_rejects.

(* ADDRESSES DENOTE THE FULL VALUE.  For every pointer width — also a 32-bit one with a value of 2^32 or more (a module ending at
   0x1_0000_0000, a 64-bit register of a MIPS / SPARC context, a corrupt module base) — the digits after "0x" denote the whole
   64-bit value: the 32-bit format is a minimum padding, never a truncation; hence two different values never print alike. *)
Theorem c15_address_denotes : forall w x, 0 <= x < two64 -> hex_value (skipn 2 (address_str w x)) = x.
Proof. exact address_denotes. Qed.
Print Assumptions c15_address_denotes.

Theorem c15_address_injective : forall w x y, 0 <= x < two64 -> 0 <= y < two64 -> address_str w x = address_str w y -> x = y.
Proof. exact address_injective. Qed.
Print Assumptions c15_address_injective.

(* the modules / unloaded_modules arrays mirror the module lists BY VALUE for every pointer width: the hex strings of element i decode
   to module i's base and base + size *)
Theorem c15_modules_denote : forall p s, wf_state s = true ->
  exists j ms us, json_of_state p s = Ret j /\
    jget k_modules j = Some (JArr ms) /\ jget k_unloaded_modules j = Some (JArr us) /\
    (forall i m, nth_error (s_modules s) i = Some m ->
       exists mj b e, nth_error ms i = Some mj /\ jget k_base_addr mj = Some (JStr b) /\ jget k_end_addr mj = Some (JStr e) /\
         hex_value (skipn 2 b) = m_base m /\ hex_value (skipn 2 e) = m_base m + m_size m) /\
    (forall i m, nth_error (s_unloaded s) i = Some m ->
       exists mj b e, nth_error us i = Some mj /\ jget k_base_addr mj = Some (JStr b) /\ jget k_end_addr mj = Some (JStr e) /\
         hex_value (skipn 2 b) = m_base m /\ hex_value (skipn 2 e) = m_base m + m_size m).
Proof.
  intros p s Hw. pose proof (wf_state_ok s Hw) as Hok. pose proof Hok as (_ & Hm & Hu & _).
  destruct (c15_modules_mirror p s Hok) as (j & ms & us & Hj & Hms & Hus & _ & _ & Hmod & Hunl & _).
  exists j, ms, us. split; [exact Hj|]. split; [exact Hms|]. split; [exact Hus|]. split.
  - intros i m Hn. destruct (Hmod i m Hn) as (mj & A & _ & B & C & _). exists mj. eexists. eexists.
    split; [exact A|]. split; [exact B|]. split; [exact C|].
    rewrite Forall_forall in Hm. destruct (Hm m (nth_error_In _ _ Hn)) as (M1 & M2 & M3).
    split; apply address_denotes; lia.
  - intros i m Hn. destruct (Hunl i m Hn) as (mj & A & _ & B & C & _). exists mj. eexists. eexists.
    split; [exact A|]. split; [exact B|]. split; [exact C|].
    rewrite Forall_forall in Hu. destruct (Hu m (nth_error_In _ _ Hn)) as (M1 & M2 & M3).
    split; apply address_denotes; lia.
Qed.
Print Assumptions c15_modules_denote.

(* THE FORMAT STRINGS OF THE SOURCE.  translate/c15_fmt.py reads the match arms of `impl Display for Address` (pointer-width pattern,
   the N of `{:#0Nx}`, the formatted expression incl. a truncating `as uK` cast), the default of the thread-local pointer width and the
   arms of `impl Serialize for Limit` off process_state.rs on every run (and aborts unless every Address reaches the document through that
   Display impl: serde(into = "String"), From<Address> for String, json_hex, set_print_context).  [fmt_alt_hex] models Rust's `{:#0Nx}`
   (minimal digits, zero-padded to N characters in all).  For every pointer width and every 64-bit value the model's address_str is
   exactly what the translated arms write, and json_of_lim is what the translated Limit arms write: an edit of a width, a cast of the
   formatted value, a guard or another serializer call in Limit breaks this theorem (or aborts the translator) without any test input. *)
Theorem c15_format_semantics :
  (forall w x, 0 <= x < two64 -> address_str w x = address_display w x) /\
  (forall l, json_of_lim l = lim_display l) /\
  ADDRESS_DEFAULT_WIDTH = width_index WUnknown.
Proof. split; [exact address_str_display|]. split; [exact json_of_lim_display|reflexivity]. Qed.
Print Assumptions c15_format_semantics.

(* FINITE CHECK: the translated arms are the ones the model was written for; the formatter model on concrete values *)
Theorem c15_format_pinned :
  ADDRESS_ARMS = [(0, 10, 0); (-1, 18, 0)] /\ ADDRESS_DEFAULT_WIDTH = 2 /\
  LIMIT_ARMS = [(0, Some s_err); (1, Some s_unlimited); (2, None)] /\
  fmt_alt_hex 10 255 = [48; 120; 48; 48; 48; 48; 48; 48; 102; 102] /\
  fmt_alt_hex 10 4294967296 = [48; 120; 49; 48; 48; 48; 48; 48; 48; 48; 48] /\
  cast_arg 32 4294967296 = 0 /\
  CONFIDENCE_FLOAT_BITS = 32.    (* PossibleBitFlip.confidence: Option<f32>, derived Serialize, no attribute - what C15/Float.v renders *)
Proof. vm_compute. repeat split; reflexivity. Qed.
Print Assumptions c15_format_pinned.

(* non-vacuity of the 32-bit case: a module ending exactly at 2^32 on a 32-bit platform *)
Example c15_nonvacuous_wide32 :
  address_str W32 4294967296 = [48; 120; 49; 48; 48; 48; 48; 48; 48; 48; 48] /\
  address_str W32 4294901760 = [48; 120; 102; 102; 102; 102; 48; 48; 48; 48] /\
  hex_value (skipn 2 (address_str W32 18446744073709551615)) = 18446744073709551615.
Proof. vm_compute. repeat split; reflexivity. Qed.

(* THE PROPERTY, every process state.  For every state satisfying the executable hypotheses [wf_state] (numeric ranges, enumeration
   indices, the C08 / C11 / C14 arithmetic conclusions) and [state_scalar] (every string of the state consists of Unicode scalar values —
   true of every Rust `String`: names with quotes, control characters, non-BMP and lossily decoded text), in both build profiles:
   print_json produces a report j without trap; j conforms to the schema regenerated from json-schema.md; and for BOTH renderings — the
   compact [serialise j] and the pretty [pretty j] — the UTF-8 bytes are accepted by the strict decoder and decode to the rendering, and the
   rendering is accepted by the RFC 8259 parser with insignificant whitespace and denotes exactly j (so the two outputs are valid UTF-8,
   valid JSON and equal as values); j passes the self-consistency checker [consistent] (counts, frame numbers, the crashing_thread copy), the
   module-offset checker [offsets_ok] when the frame modules are members of the module list, and the pointer-width walker [widths] when the registers
   come from a register file of the source; j passes the function-offset judgement [fn_offsets_ok] against the function bases of s (the document does
   not print them).  The one member outside the integer-only JSON type, possible_bit_flips[].confidence, is covered by c15_report_confidences
   below (kept apart: it rests on Flocq, i.e. on the classical-reals axioms of the standard library; this theorem has no axioms).  All hypotheses are evaluated on every real state of the run, all checkers on every real output. *)
Theorem c15_report_valid : forall p s, wf_state s = true -> state_scalar s = true ->
  exists j, json_of_state p s = Ret j /\ conforms DOC_SCHEMA j = true /\
    utf8_decode (length (utf8 (serialise j))) (utf8 (serialise j)) = Some (serialise j) /\
    parse_ws (serialise j) = Some j /\ parse (serialise j) = Some j /\
    utf8_decode (length (utf8 (pretty j))) (utf8 (pretty j)) = Some (pretty j) /\
    parse_ws (pretty j) = Some j /\
    consistent j = true /\
    (frames_in_modules s = true -> offsets_ok j = true) /\
    (forall kind, regs_from_table kind (s_registers s) = true -> widths (s_width s) [] j = true) /\
    fn_offsets_ok s j = true.
Proof.
  intros p s Hw Hs. exists (report_obj s). pose proof (report_scalar s Hs) as J.
  split; [exact (report_pure p s Hw)|]. split; [exact (report_conforms s Hw)|].
  split; [exact (report_bytes_utf8 _ J)|]. split; [apply compact_parse_ws|]. split; [apply serialise_parse|].
  split; [exact (pretty_bytes_utf8 _ J)|]. split; [apply pretty_parse_ws|].
  split; [exact (report_consistent s Hw)|]. split; [exact (report_offsets s (wf_state_ok s Hw))|].
  split; [intros kind Hr; apply (report_widths s Hw); exact (proj1 (regs_from_table_ok kind _ Hr))|].
  exact (report_fn_offsets s (wf_state_ok s Hw)).
Qed.
Print Assumptions c15_report_valid.

(* [state_scalar] is not vacuous: a lone surrogate in a thread name, a module file or inside the soft-errors value is rejected *)
Theorem c15_state_scalar_rejects :
  sc_thread {| th_id := 1; th_name := Some [55296]; th_last_error := None; th_frames := [] |} = false /\
  sc_module {| m_base := 0; m_size := 1; m_file := [97; 57343]; m_debug_file := []; m_debug_id := []; m_code_id := []; m_version := None |} = false /\
  jscalar (JArr [JObj [([1114112], JNull)]]) = false /\
  sc_thread {| th_id := 1; th_name := Some [34; 92; 0; 31; 65533; 128512; 1114111]; th_last_error := None; th_frames := [] |} = true.
Proof. vm_compute. repeat split; reflexivity. Qed.
Print Assumptions c15_state_scalar_rejects.

(* PROC_LIMITS.  For every well-formed state with a limits table (the HashMap's entries in ANY iteration order l): the report's
   proc_limits.limits is [sort_limits l] rendered element by element — a permutation of the table, in non-decreasing code-point (= UTF-8
   byte) order of the names; each element carries its name, unit and the two limits, where a numeric limit is the JSON NUMBER with exactly
   that value for EVERY u64 (also above 2^53: no string, no rounding — the number's text is its decimal digits and parses back to it),
   `unlimited` and `err` are those two strings. *)
Theorem c15_proc_limits : forall p s l, wf_state s = true -> s_limits s = Some l ->
  exists j, json_of_state p s = Ret j /\
    jget k_proc_limits j = Some (JObj [(k_limits, JArr (map json_of_limit (sort_limits l)))]) /\
    Permutation (sort_limits l) l /\
    StronglySorted (fun a b => str_leb (li_name a) (li_name b) = true) (sort_limits l) /\
    (forall x, jget k_name (json_of_limit x) = Some (JStr (li_name x)) /\ jget k_unit (json_of_limit x) = Some (JStr (li_unit x)) /\
       jget k_soft (json_of_limit x) =
         Some (match li_soft x with LLimited n => JNum n | LUnlimited => JStr s_unlimited | LErr => JStr s_err end) /\
       jget k_hard (json_of_limit x) =
         Some (match li_hard x with LLimited n => JNum n | LUnlimited => JStr s_unlimited | LErr => JStr s_err end)) /\
    (forall n, 0 <= n -> serialise (JNum n) = dec_digits n /\ parse (serialise (JNum n)) = Some (JNum n)).
Proof.
  intros p s l Hw Hl. destruct (limits_json p s l Hw Hl) as (j & Hj & Hp). exists j.
  split; [exact Hj|]. split; [exact Hp|]. split; [apply sort_perm|]. split; [apply sort_sorted|]. split.
  - intro x. unfold json_of_limit. cbn [jget assoc list_eqb]. repeat split; reflexivity.
  - intros n Hn. split; [|apply serialise_parse]. cbn [serialise]. unfold ser_num.
    assert (E : (n <? 0) = false) by (apply Z.ltb_ge; lia). rewrite E. reflexivity.
Qed.
Print Assumptions c15_proc_limits.

(* non-vacuity: limits above 2^53 are numbers with all their digits; the sort is by code points *)
Example c15_nonvacuous_limits :
  serialise (json_of_lim (LLimited 18446744073709551615)) = [49;56;52;52;54;55;52;52;48;55;51;55;48;57;53;53;49;54;49;53] /\
  serialise (json_of_lim (LLimited 9007199254740993)) = [57;48;48;55;49;57;57;50;53;52;55;52;48;57;57;51] /\
  map li_name (sort_limits [ {| li_name := [98]; li_soft := LErr; li_hard := LErr; li_unit := [] |};
                             {| li_name := [233]; li_soft := LErr; li_hard := LErr; li_unit := [] |};
                             {| li_name := [65; 98]; li_soft := LErr; li_hard := LErr; li_unit := [] |};
                             {| li_name := [65]; li_soft := LErr; li_hard := LErr; li_unit := [] |} ]) = [[65]; [65; 98]; [98]; [233]].
Proof. vm_compute. repeat split; reflexivity. Qed.

(* REGISTER FILES OF THE SOURCE.  REGISTER_TABLES is regenerated by translate/c15_regs.py from minidump/src/context.rs on every run: per raw
   context kind the general-purpose register names json_registers walks and size_of::<Register>() (format_register prints 2 digits per byte).
   FINITE CHECK: in every table no register is named like an Address member, the names are distinct and the size is 4 or 8.  Hence for
   registers taken from the table of a context kind ([regs_from_table], evaluated on every real state of the run) the hypothesis
   regs_named_ok of c15_address_widths and the digit-count clause of wf_state hold, and the whole-document pointer-width theorem needs no
   hypothesis about register names. *)
Theorem c15_register_tables :
  forallb table_ok REGISTER_TABLES = true /\ length REGISTER_TABLES = 9%nat /\
  (forall kind regs, regs_from_table kind regs = true ->
     regs_named_ok regs = true /\ forallb (fun r : list Z * Z * nat => (snd r <=? 16)%nat && (1 <=? snd r)%nat) regs = true) /\
  (forall p s kind, wf_state s = true -> regs_from_table kind (s_registers s) = true ->
     exists j, json_of_state p s = Ret j /\ widths (s_width s) [] j = true).
Proof.
  split; [exact tables_ok|]. split; [reflexivity|]. split; [exact regs_from_table_ok|].
  intros p s kind Hw Hr. apply c15_address_widths; [exact Hw|exact (proj1 (regs_from_table_ok kind _ Hr))].
Qed.
Print Assumptions c15_register_tables.

(* SELF-CONSISTENCY AS A CHECKER.  [consistent] judges a JSON value alone: thread_count = |threads|; per thread frame_count = |frames|, every
   frame's "frame" is its position and missing_symbols <=> function is null; the crashing_thread copy is present exactly when
   crash_info.crashing_thread names a thread that has frames, and then it is that thread with threads_index = the index appended and "registers"
   inserted into frame 0 and nowhere else, every other member and every other frame equal; mac_crash_info.num_records = |records|.  The report of
   every well-formed state passes it, in both build profiles; the driver runs the same checker on the REAL print_json output of every case. *)
Theorem c15_consistent : forall p s, wf_state s = true -> exists j, json_of_state p s = Ret j /\ consistent j = true.
Proof. intros p s H. exists (report_obj s). split; [exact (report_pure p s H)|exact (report_consistent s H)]. Qed.
Print Assumptions c15_consistent.

Definition ex_fr (i : Z) (fn : json) (ms : bool) : json := JObj [(k_frame, JNum i); (k_function, fn); (k_missing_symbols, JBool ms)].
Definition ex_th (n : Z) (fs : list json) : json := JObj [(k_frame_count, JNum n); (k_frames, JArr fs); (k_thread_id, JNum 7)].
Definition ex_doc (n : Z) (ts : list json) (ci : json) (extra : list (list Z * json)) : json :=
  JObj ((k_crash_info, JObj [(k_crashing_thread, ci)]) :: extra ++ [(k_thread_count, JNum n); (k_threads, JArr ts)]).
Definition ex_fr_regs (f : json) : json := match f with JObj l => JObj (l ++ [(k_registers, JObj [])]) | x => x end.
Definition ex_copy (i : Z) (n : Z) (fs : list json) (id : Z) : json :=
  JObj [(k_frame_count, JNum n); (k_frames, JArr fs); (k_thread_id, JNum id); (k_threads_index, JNum i)].

Theorem c15_consistent_rejects :
  let f0 := ex_fr 0 (JStr [102]) false in let f1 := ex_fr 1 JNull true in
  let t := ex_th 2 [f0; f1] in let t0 := ex_th 0 [] in
  (* accepted: no requesting thread; a requesting thread without frames; a proper copy *)
  consistent (ex_doc 2 [t; t0] JNull []) = true /\
  consistent (ex_doc 2 [t; t0] (JNum 1) []) = true /\
  consistent (ex_doc 2 [t; t0] (JNum 0) [(k_crashing_thread, ex_copy 0 2 [ex_fr_regs f0; f1] 7)]) = true /\
  (* rejected: wrong thread_count / frame_count / frame number / missing_symbols *)
  consistent (ex_doc 3 [t; t0] JNull []) = false /\
  consistent (ex_doc 1 [ex_th 1 [f0; f1]] JNull []) = false /\
  consistent (ex_doc 1 [ex_th 2 [f0; ex_fr 2 JNull true]] JNull []) = false /\
  consistent (ex_doc 1 [ex_th 2 [f0; ex_fr 1 JNull false]] JNull []) = false /\
  (* rejected: no copy although thread 0 has frames; a copy without a requesting thread; a copy for a thread without frames *)
  consistent (ex_doc 2 [t; t0] (JNum 0) []) = false /\
  consistent (ex_doc 2 [t; t0] JNull [(k_crashing_thread, ex_copy 0 2 [ex_fr_regs f0; f1] 7)]) = false /\
  consistent (ex_doc 2 [t; t0] (JNum 1) [(k_crashing_thread, ex_copy 1 0 [] 7)]) = false /\
  (* rejected: wrong threads_index; another thread_id; no registers; registers in frame 1 as well; a frame changed; index out of range *)
  consistent (ex_doc 2 [t; t0] (JNum 0) [(k_crashing_thread, ex_copy 1 2 [ex_fr_regs f0; f1] 7)]) = false /\
  consistent (ex_doc 2 [t; t0] (JNum 0) [(k_crashing_thread, ex_copy 0 2 [ex_fr_regs f0; f1] 8)]) = false /\
  consistent (ex_doc 2 [t; t0] (JNum 0) [(k_crashing_thread, ex_copy 0 2 [f0; f1] 7)]) = false /\
  consistent (ex_doc 2 [t; t0] (JNum 0) [(k_crashing_thread, ex_copy 0 2 [ex_fr_regs f0; ex_fr_regs f1] 7)]) = false /\
  consistent (ex_doc 2 [t; t0] (JNum 0) [(k_crashing_thread, ex_copy 0 2 [ex_fr_regs (ex_fr 0 (JStr [103]) false); f1] 7)]) = false /\
  consistent (ex_doc 2 [t; t0] (JNum 2) []) = false /\ consistent (ex_doc 2 [t; t0] (JNum (-1)) []) = false /\
  (* mac_crash_info.num_records *)
  consistent (ex_doc 0 [] JNull [(k_mac_crash_info, JObj [(k_num_records, JNum 2); (k_records, JArr [JObj []])])]) = false /\
  consistent (ex_doc 0 [] JNull [(k_mac_crash_info, JObj [(k_num_records, JNum 1); (k_records, JArr [JObj []])])]) = true.
Proof. vm_compute. repeat split; reflexivity. Qed.
Print Assumptions c15_consistent_rejects.

(* BASENAME (module filename, frame module, debug_file).  translate/c15_fmt.py pins minidump_common::utils::basename
   (`match f.rfind([separators]) { None => f, Some(index) => &f[(index + 1)..] }`) and reads the separators off the source.  The model's
   [basename] is exactly that function: a string without separator is returned as it is, otherwise the text after the LAST separator — and every
   string is of one of the two forms, so the two equations determine it. *)
Theorem c15_basename :
  (forall c, is_sep c = true <-> In c BASENAME_SEPARATORS) /\
  (forall s, (forall c, In c s -> is_sep c = false) -> basename s = s) /\
  (forall a c b, is_sep c = true -> (forall x, In x b -> is_sep x = false) -> basename (a ++ c :: b) = b) /\
  (forall s, (forall c, In c s -> is_sep c = false) \/
             exists a c b, s = a ++ c :: b /\ is_sep c = true /\ (forall x, In x b -> is_sep x = false)).
Proof. split; [exact is_sep_table|]. split; [exact basename_nosep|]. split; [exact basename_last_sep|exact last_sep_split]. Qed.
Print Assumptions c15_basename.

Example c15_nonvacuous_basename :
  basename [67; 58; 92; 97; 47; 98; 92; 109; 46; 100] = [109; 46; 100] /\ basename [109] = [109] /\ basename [97; 47] = [] /\ basename [] = [].
Proof. vm_compute. repeat split; reflexivity. Qed.

(* MODULE OFFSETS AS A CHECKER.  [offsets_ok] judges a JSON value alone: every frame that names a module has a module_offset, and some element of
   "modules" with that filename has base_addr <= offset and module_offset = offset - base_addr as NUMBERS (the hex strings are decoded, so the pointer
   width plays no role); a frame without module has no module_offset.  The report of every well-formed state whose frame modules are members of the
   module list ([frames_in_modules]: what module_at_address().cloned() in the stack walker yields; evaluated on every real state) passes it, in both
   build profiles; the driver runs the same checker on the REAL print_json output of every case. *)
Theorem c15_offsets_checker : forall p s, wf_state s = true -> frames_in_modules s = true ->
  exists j, json_of_state p s = Ret j /\ offsets_ok j = true.
Proof. intros p s H Hi. exists (report_obj s). split; [exact (report_pure p s H)|exact (report_offsets s (wf_state_ok s H) Hi)]. Qed.
Print Assumptions c15_offsets_checker.

Definition ex_mod (name : list Z) (base : Z) : json := JObj [(k_base_addr, jhex W64 base); (k_filename, JStr name)].
Definition ex_ofr (m : json) (off : Z) (moff : json) : json := JObj [(k_module, m); (k_module_offset, moff); (k_offset, jhex W64 off)].
Definition ex_odoc (ms fs : list json) : json := JObj [(k_modules, JArr ms); (k_threads, JArr [JObj [(k_frames, JArr fs)]])].
(* [offsets_ok] is not vacuous: a wrong offset, an offset relative to another module's base, a module name that is not in the list, a base above
   the instruction, a missing module_offset and a module_offset without module are rejected; equal names at different bases are told apart; the
   32-bit and the 64-bit rendering of the same numbers are both accepted *)
Theorem c15_offsets_rejects :
  let ms := [ex_mod [97] 4096; ex_mod [98] 8192; ex_mod [97] 65536] in
  offsets_ok (ex_odoc ms [ex_ofr (JStr [97]) 4100 (jhex W64 4); ex_ofr (JStr [97]) 65540 (jhex W32 4); ex_ofr JNull 5 JNull]) = true /\
  offsets_ok (ex_odoc ms [ex_ofr (JStr [97]) 4100 (jhex W64 5)]) = false /\
  offsets_ok (ex_odoc ms [ex_ofr (JStr [98]) 8200 (jhex W64 4104)]) = false /\
  offsets_ok (ex_odoc ms [ex_ofr (JStr [99]) 4100 (jhex W64 4)]) = false /\
  offsets_ok (ex_odoc [ex_mod [97] 4096] [ex_ofr (JStr [97]) 4000 (jhex W64 18446744073709551520)]) = false /\
  offsets_ok (ex_odoc ms [ex_ofr (JStr [97]) 4100 JNull]) = false /\
  offsets_ok (ex_odoc ms [ex_ofr JNull 4100 (jhex W64 4)]) = false.
Proof. vm_compute. repeat split; reflexivity. Qed.
Print Assumptions c15_offsets_rejects.

(* MEMBER ORDER.  serde_json's Map is a BTreeMap, so every object of the real output lists its members in strictly increasing byte order of
   the names (= code-point order; strict = no duplicate).  The model writes its objects in that order by hand — optional members of memory accesses,
   `registers` inserted into frame 0 of the copy, `threads_index` appended, `crashing_thread` after `crash_info`.  For every state (well-formedness serves only to
   name the report: the sortedness itself needs none) whose register names arrive sorted and whose soft_errors value has sorted objects ([keys_hyp], evaluated on every real state) every object
   of the model's report is strictly sorted; the driver runs [keys_sorted] on every real output as well. *)
Theorem c15_keys_sorted : forall p s j, keys_hyp s = true -> json_of_state p s = Ret j -> wf_state s = true -> keys_sorted j = true.
Proof.
  intros p s j Hk Hj Hw. rewrite (report_pure p s Hw) in Hj. inversion Hj; subst j. exact (report_keys_sorted s Hk).
Qed.
Print Assumptions c15_keys_sorted.

(* strictly sorted names are pairwise distinct: c15_keys_sorted therefore also says that NO object of the report — at any depth, also inside the
   free-form soft_errors value — repeats a member name, and [keys_hyp] implies the register-name clause of wf_state *)
Theorem c15_sorted_unique :
  (forall l, sorted_strict l = true -> nodupb l = true) /\
  (forall s, keys_hyp s = true -> nodupb (map (fun r : list Z * Z * nat => fst (fst r)) (s_registers s)) = true).
Proof.
  split; [exact sorted_nodup|]. intros s H. unfold keys_hyp in H. apply andb_prop in H. apply sorted_nodup. exact (proj1 H).
Qed.
Print Assumptions c15_sorted_unique.

Theorem c15_keys_sorted_rejects :
  keys_sorted (JObj [([98], JNull); ([97], JNull)]) = false /\ keys_sorted (JObj [([97], JNull); ([97], JNull)]) = false /\
  keys_sorted (JArr [JObj [([97], JObj [([97; 98], JNull); ([97], JNull)])]]) = false /\
  keys_sorted (JObj [([65], JNull); ([97], JNull); ([97; 0], JNull); ([98], JArr [JObj []]); ([233], JNull); ([128512], JNull)]) = true.
Proof. vm_compute. repeat split; reflexivity. Qed.
Print Assumptions c15_keys_sorted_rejects.

Example c15_nonvacuous_roundtrip :
  let v := JObj [([97; 34; 92; 10; 1; 128512], JArr [JNum (-42); JNum 0; JNull; JBool true; JStr [31; 127; 8]; JObj []; JArr []])] in
  serialise v = [123; 34; 97; 92; 34; 92; 92; 92; 110; 92; 117; 48; 48; 48; 49; 128512; 34; 58; 91; 45; 52; 50; 44; 48; 44;
                 110; 117; 108; 108; 44; 116; 114; 117; 101; 44; 34; 92; 117; 48; 48; 49; 102; 127; 92; 98; 34; 44; 123; 125; 44; 91; 93; 93; 125]
  /\ parse (serialise v) = Some v.
Proof. vm_compute. split; reflexivity. Qed.

Definition ex_state : state :=
  {| s_width := W32; s_pid := Some 7;
     s_threads := [ {| th_id := 1; th_name := Some [110; 34]; th_last_error := Some [69];
                       th_frames :=
                        [ {| fr_instr := 4198400; fr_module := Some ([47; 109], 4194304); fr_function := Some [102];
                             fr_function_base := Some 4198144; fr_file := None; fr_line := Some 3;
                             fr_trust := 4; fr_unloaded := [];
                             fr_inlines := [ {| in_function := [105]; in_file := None; in_line := Some 9 |} ] |};
                          {| fr_instr := 16; fr_module := None; fr_function := None; fr_function_base := None;
                             fr_file := None; fr_line := None; fr_trust := 1; fr_unloaded := [([117], [16; 32])];
                             fr_inlines := [] |} ] |};
                    {| th_id := 2; th_name := None; th_last_error := None; th_frames := [] |} ];
     s_requesting := Some 0%nat; s_registers := [([101; 105; 112], 4198400, 8%nat)];
     s_modules := [ {| m_base := 4194304; m_size := 65536; m_file := [47; 109]; m_debug_file := [100]; m_debug_id := [48];
                       m_code_id := []; m_version := None |};
                    {| m_base := 8388608; m_size := 4096; m_file := [120; 92; 109]; m_debug_file := []; m_debug_id := [];
                       m_code_id := [65]; m_version := Some [49] |} ];
     s_unloaded := [ {| m_base := 12582912; m_size := 1; m_file := [117]; m_debug_file := []; m_debug_id := [];
                        m_code_id := []; m_version := None |} ];
     s_crash := Some {| cr_reason := [83]; cr_addr := 16; cr_adjusted := Some (AdjNull 16); cr_instr := Some [97; 100; 100];
                        cr_accesses := Some [ {| a_addr := 16; a_size := Some 4; a_guard := true; a_type := 2 |} ];
                        cr_ipu := Some IpuNone;
                        cr_flips := [ {| bf_addr := 0; bf_reg := Some [114]; bf_nc := false; bf_null := true; bf_low := true;
                                         bf_nearby := 0; bf_poison := false |} ];
                        cr_incons := [4] |};
     s_sys := {| sy_os := 3; sy_os_raw := 0; sy_os_ver := None; sy_cpu := 0; sy_cpu_info := None; sy_cpu_count := 1;
                 sy_microcode := Some 26 |};
     s_lsb := Some ([105], [114], [99], [100]); s_mapcount := Some 3;
     s_certinfo := [([109], [77; 111; 122])];
     s_symstats := [([109], {| ss_url := None; ss_loaded := false; ss_corrupt := true; ss_extra := Some ([47; 120; 47; 121], [65]) |})];
     s_assertion := Some [33];
     s_limits := Some [ {| li_name := [98]; li_soft := LLimited 5; li_hard := LUnlimited; li_unit := [] |};
                        {| li_name := [97]; li_soft := LErr; li_hard := LLimited 18446744073709551615; li_unit := [117] |} ];
     s_mac_crash := Some [ {| mc_thread := Some 1; mc_dialog := None; mc_abort := Some 4294967296; mc_module := Some [109];
                              mc_message := None; mc_signature := None; mc_backtrace := None; mc_message2 := Some [34] |} ];
     s_bootargs := Some [45; 118];
     s_handles := Some [ {| h_handle := Some 18446744073709551615; h_type := Some [70]; h_object := None |} ];
     s_soft := Some (JArr [JObj [([97; 100; 100; 114; 101; 115; 115], JStr [63]); ([110], JArr [JNum (-1); JNull])]; JObj []]) |}.
Example c15_nonvacuous_state : state_ok ex_state /\ wf_state ex_state = true /\ state_scalar ex_state = true /\ regs_named_ok (s_registers ex_state) = true /\
  exists j, json_of_state Debug ex_state = Ret j /\ parse (serialise j) = Some j /\ conforms DOC_SCHEMA j = true /\ consistent j = true /\ offsets_ok j = true /\ frames_in_modules ex_state = true /\ keys_hyp ex_state = true /\ keys_sorted j = true /\
            jget k_thread_count j = Some (JNum 2) /\ (1400 < length (serialise j))%nat.
Proof.
  assert (W : wf_state ex_state = true) by (vm_compute; reflexivity).
  assert (M : frames_in_modules ex_state = true) by (vm_compute; reflexivity).
  assert (K : keys_hyp ex_state = true) by (vm_compute; reflexivity).
  split; [apply wf_state_ok; exact W|]. split; [exact W|]. split; [vm_compute; reflexivity|]. split; [reflexivity|].
  exists (report_obj ex_state). split; [exact (report_pure Debug _ W)|]. split; [apply serialise_parse|].
  split; [exact (report_conforms _ W)|]. split; [exact (report_consistent _ W)|]. split; [exact (report_offsets _ (wf_state_ok _ W) M)|].
  split; [exact M|]. split; [exact K|]. split; [exact (report_keys_sorted _ K)|].
  split; [reflexivity|vm_compute; lia].
Qed.

(* the registers of the example state come from the x86 register file of the source; a name of another file or a wrong digit count is rejected *)
Example c15_nonvacuous_regs :
  regs_from_table 0 (s_registers ex_state) = true /\ regs_from_table 1 (s_registers ex_state) = false /\
  regs_from_table 0 [([101; 105; 112], 4198400, 16%nat)] = false /\ regs_from_table 1 [([114; 105; 112], 1, 16%nat); ([114; 56], 2, 16%nat)] = true.
Proof. vm_compute. repeat split; reflexivity. Qed.

(* possible_bit_flips[].confidence (binary32)
   print_json writes the member through `json!`: the f32 is widened to f64 and serde_json prints the shortest decimal that reads
   back as that f64 (ryu), in ryu's layout.  [render_f32] is that text as a function of the bit pattern, [conf_text_ok bits text]
   the judgement "text is an RFC 8259 number, it lies in the round-to-nearest-even interval of the widened value (so a correctly
   rounding reader gets exactly the binary32 back), it is within [0,1], no decimal with fewer digits reads back" - exact integer
   arithmetic, independent of [render_f32].
   For EVERY details value (any register count; C19's exact Flocq model of BitFlipDetails::confidence, whose statement list is
   regenerated from the source) the text the model renders for the confidence is accepted by that judgement.
   FINITE CHECK (vm_compute) over the 80 classes of details values, extended to all values by C19's confidence_clamp. *)
Theorem c15_confidence_text : forall d : C19.Model.details,
  conf_text_ok (C19.Model.confidence_bits d) (render_f32 (C19.Model.confidence_bits d)) = true.
Proof. exact conf_render_ok. Qed.
Print Assumptions c15_confidence_text.

(* what the judgement says about an accepted text, for every bit pattern and every text *)
Theorem c15_confidence_judgement : forall bits t, conf_text_ok bits t = true ->
  exists m e c k, b32_decode bits = Some (false, m, e) /\ num_value t = Some (false, c, k) /\ json_number t = true /\
    ((m = 0 /\ c = 0) \/
     (m <> 0 /\ in_interval m e c k = true /\ scale_cmp c k 1 0 <> Gt /\ no_shorter m e c k = true)).
Proof. exact conf_text_ok_meaning. Qed.
Print Assumptions c15_confidence_judgement.

(* the bit-pattern decoder of the judgement reads the same sign, mantissa and exponent as Flocq's b32_of_bits - every 32-bit pattern *)
Theorem c15_b32_decode : forall bits, 0 <= bits < 4294967296 ->
  match Binary.B2FF _ _ (Bits.b32_of_bits bits) with
  | Binary.F754_zero s => b32_decode bits = Some (s, 0, -149)
  | Binary.F754_finite s m e => b32_decode bits = Some (s, Zpos m, e)
  | _ => b32_decode bits = None
  end.
Proof. exact b32_decode_flocq. Qed.
Print Assumptions c15_b32_decode.

(* non-vacuity / rejection: the rendering of concrete binary32 values (0.36874998 = 0x3ebccccc prints as the widened double, a power of
   two, one, zero, the smallest subnormal, a value printed with an exponent, a large one); the judgement rejects a text that denotes
   another binary32, a longer-than-shortest text, a value above 1, a negative one and five texts that are not RFC 8259 numbers *)
Example c15_nonvacuous_confidence :
  render_f32 1052560588 = [48; 46; 51; 54; 56; 55; 52; 57; 57; 55; 54; 49; 53; 56; 49; 52; 50; 49] /\   (* 0.3687499761581421 *)
  render_f32 1056964608 = [48; 46; 53] /\ render_f32 1065353216 = [49; 46; 48] /\ render_f32 0 = [48; 46; 48] /\
  render_f32 1 = [49; 46; 52; 48; 49; 50; 57; 56; 52; 54; 52; 51; 50; 52; 56; 49; 55; 101; 45; 52; 53] /\  (* 1.401298464324817e-45 *)
  render_f32 1266679808 = [49; 54; 55; 55; 55; 50; 49; 54; 46; 48] /\                                     (* 16777216.0 *)
  render_f32 2139095040 = [110; 117; 108; 108] /\
  conf_text_ok 1052560588 [48; 46; 51; 54; 56; 55; 52; 57; 57; 55; 54; 49; 53; 56; 49; 52; 50; 49] = true /\
  conf_text_ok 1052560588 [48; 46; 51; 54; 56; 55; 53] = false /\                                          (* 0.36875: another binary32 *)
  conf_text_ok 1052560588 [48; 46; 51; 54; 56; 55; 52; 57; 57; 55; 54; 49; 53; 56; 49; 52; 50; 49; 48; 49] = false /\  (* two more digits *)
  conf_text_ok 1056964608 [53; 101; 45; 49] = true /\ conf_text_ok 1056964608 [48; 46; 53; 48] = true /\   (* 5e-1, 0.50: same digits *)
  conf_text_ok 1069547520 [49; 46; 53] = false /\ conf_text_ok 3204448256 [45; 48; 46; 53] = false /\       (* 1.5, -0.5 *)
  json_number [46; 53] = false /\ json_number [48; 46] = false /\ json_number [48; 49; 46; 53] = false /\
  json_number [49; 101] = false /\ json_number [48; 46; 53; 32] = false /\
  num_value [45; 49; 50; 46; 53; 48; 69; 43; 48; 51] = Some (true, 1250, 1) /\
  exists d, C19.Model.confidence_bits d = 1048576000 /\ render_f32 (C19.Model.confidence_bits d) = [48; 46; 50; 53].
Proof.
  repeat (split; [vm_compute; reflexivity|]).
  exists {| C19.Model.d_nc := false; C19.Model.d_null := false; C19.Model.d_low := false; C19.Model.d_nearby := 0; C19.Model.d_poison := false |}.
  vm_compute. split; reflexivity.
Qed.

(* function offsets, judged on the document
   "function offsets equal address minus base": the document does not print the function base, so the judgement [fn_offsets_ok] walks
   the threads / frames of the document in step with the process state and takes the base from the state's frame: fb <= offset and
   function_offset = offset - fb on the DECODED hex strings of the document; no function base, no function_offset.  For every
   well-formed state, both build profiles, the report passes; the driver runs the same judgement on every REAL print_json output with
   the function bases of the real state. *)
Theorem c15_function_offsets : forall p s, wf_state s = true ->
  exists j, json_of_state p s = Ret j /\ fn_offsets_ok s j = true.
Proof. intros p s H. exists (report_obj s). split; [apply report_pure; exact H|apply report_fn_offsets, wf_state_ok; exact H]. Qed.
Print Assumptions c15_function_offsets.

Definition fo_doc (frames1 : list json) (more : list json) : json :=
  JObj [(k_threads, JArr (JObj [(k_frames, JArr frames1)] :: JObj [(k_frames, JArr [])] :: more))].
Definition fo_frame (off : list Z) (fo : option (list Z)) : json :=
  JObj ((k_offset, JStr off) :: match fo with Some x => [(k_function_offset, JStr x)] | None => [] end).
(* ex_state: thread 0 has a frame at 0x401000 in a function based at 0x400f00 and a frame without function, thread 1 has no frames *)
Theorem c15_function_offsets_rejects :
  fn_offsets_ok ex_state (fo_doc [fo_frame [48; 120; 48; 48; 52; 48; 49; 48; 48; 48] (Some [48; 120; 48; 48; 48; 48; 48; 49; 48; 48]); fo_frame [48; 120; 48; 48; 48; 48; 48; 48; 49; 48] None] []) = true /\
  fn_offsets_ok ex_state (fo_doc [fo_frame [48; 120; 48; 48; 52; 48; 49; 48; 48; 48] (Some [48; 120; 48; 48; 48; 48; 48; 49; 48; 49]); fo_frame [48; 120; 48; 48; 48; 48; 48; 48; 49; 48] None] []) = false /\   (* 0x101 *)
  fn_offsets_ok ex_state (fo_doc [fo_frame [48; 120; 48; 48; 52; 48; 49; 48; 48; 48] (Some [48; 120; 48; 48; 52; 48; 49; 48; 48; 48]); fo_frame [48; 120; 48; 48; 48; 48; 48; 48; 49; 48] None] []) = false /\   (* the address itself *)
  fn_offsets_ok ex_state (fo_doc [fo_frame [48; 120; 48; 48; 52; 48; 49; 48; 48; 48] None; fo_frame [48; 120; 48; 48; 48; 48; 48; 48; 49; 48] None] []) = false /\           (* function_offset missing *)
  fn_offsets_ok ex_state (fo_doc [fo_frame [48; 120; 48; 48; 52; 48; 49; 48; 48; 48] (Some [48; 120; 48; 48; 48; 48; 48; 49; 48; 48]); fo_frame [48; 120; 48; 48; 48; 48; 48; 48; 49; 48] (Some [48; 120; 48; 48; 48; 48; 48; 48; 49; 48])] []) = false /\ (* offset without a function base *)
  fn_offsets_ok ex_state (fo_doc [fo_frame [48; 120; 48; 48; 52; 48; 49; 48; 48; 48] (Some [48; 120; 48; 48; 48; 48; 48; 49; 48; 48])] []) = false /\                        (* a frame missing *)
  fn_offsets_ok ex_state (fo_doc [fo_frame [48; 120; 48; 48; 52; 48; 49; 48; 48; 48] (Some [48; 120; 48; 48; 48; 48; 48; 49; 48; 48]); fo_frame [48; 120; 48; 48; 48; 48; 48; 48; 49; 48] None] [JObj [(k_frames, JArr [])]]) = false /\  (* a thread too many *)
  fn_offsets_ok ex_state (fo_doc [fo_frame [48; 120; 48; 48; 52; 48; 48; 48; 48; 48] (Some [48; 120; 48; 48; 48; 48; 48; 49; 48; 48]); fo_frame [48; 120; 48; 48; 48; 48; 48; 48; 49; 48] None] []) = false /\   (* offset below the function base + offset *)
  fn_offsets_ok ex_state (JObj []) = false /\
  exists j, json_of_state Release ex_state = Ret j /\ fn_offsets_ok ex_state j = true.
Proof.
  repeat (split; [vm_compute; reflexivity|]). exists (report_obj ex_state).
  split; [apply report_pure; vm_compute; reflexivity|vm_compute; reflexivity].
Qed.
Print Assumptions c15_function_offsets_rejects.

(* what the integer tests of the confidence judgement mean
   [scale_cmp c k w q] is the comparison of c * 10^k with w * 2^q as RATIONAL numbers (all integers c k w q); hence [in_interval m e c k]
   is the two-sided inequality [interval_Q] around the widened value, whose frame [b64_frame] is, for every mantissa below 2^53, a
   53-bit mantissa (times 4: quarter ulps) denoting the same number, the lower half-gap halved only below a power of two [frame_Q]
   (definitions in C15/FloatQ.v). *)
Theorem c15_confidence_interval : forall m e c k w q,
  scale_cmp c k w q = cmp_Q c k w q /\ (in_interval m e c k = true <-> interval_Q m e c k) /\
  (0 < m < 9007199254740992 -> frame_Q m e).
Proof. intros. split; [apply scale_cmp_spec|]. split; [apply in_interval_spec|apply b64_frame_spec]. Qed.
Print Assumptions c15_confidence_interval.

(* Flocq's own normalisation of the decoded m * 2^e to binary64 (round to nearest even - exact here) has the mantissa and the exponent
   of [b64_frame], for the confidence of EVERY details value.  FINITE CHECK (vm_compute) over the 80 classes of details values, extended
   to all values by C19's confidence_clamp. *)
Theorem c15_widening_flocq : forall d : C19.Model.details, widen_agrees (C19.Model.confidence_bits d) = true.
Proof. exact widen_ok. Qed.
Print Assumptions c15_widening_flocq.
(* the same on the smallest subnormal, the largest subnormal, the smallest normal, 0.5, 1.0, 0.36874998 and the largest finite binary32 *)
Theorem c15_widening_samples : forallb widen_agrees [1; 8388607; 8388608; 1056964608; 1065353216; 1052560588; 2139095039] = true.
Proof. exact widen_samples. Qed.
Print Assumptions c15_widening_samples.

(* on the confidences the heuristics can produce the judgement separates the values: a text rendered for one details value is accepted for
   another details value only if both have the same binary32 confidence (an accepted number lies within a relative 2^-53 of its pattern's
   value, two distinct binary32 values are a relative 2^-24 apart, so a text is accepted for at most one non-negative pattern:
   Proofs19.accepted_for_one; the confidences are non-negative by the finite check over the 80 classes, extended to all details values
   by C19's confidence_clamp) - so a report that prints the confidence of another flip, or a rounded one, is rejected *)
Theorem c15_confidence_discriminates : forall d1 d2 : C19.Model.details,
  conf_text_ok (C19.Model.confidence_bits d2) (render_f32 (C19.Model.confidence_bits d1)) = true ->
  C19.Model.confidence_bits d1 = C19.Model.confidence_bits d2.
Proof. exact conf_discriminates. Qed.
Print Assumptions c15_confidence_discriminates.

(* every reported bit flip of every process state: the text print_json writes for its binary32 confidence ([flip_conf_text]: the confidence
   recomputed from the details the report prints - C19's exact Flocq model -, widened, shortest decimal, ryu's layout) is accepted by the
   judgement [conf_text_ok]: an RFC 8259 number that reads back as exactly that binary32, within [0,1], with no shorter equivalent *)
Theorem c15_report_confidences : forall (s : state) c b, s_crash s = Some c -> In b (cr_flips c) ->
  conf_text_ok (flip_conf_bits b) (flip_conf_text b) = true.
Proof. intros s c b _ _. apply flip_conf_ok. Qed.
Print Assumptions c15_report_confidences.

(* modules[].version
   MinidumpModule::version (minidump/src/minidump.rs) is interpreted from what translate/c15_fmt.py reads off its source on every run: the two
   VS_FIXEDFILEINFO constants, the Os variants of the matches!, the four format! arguments of each arm.  For EVERY version_info and OS:
   the member is null exactly when signature / struct_version differ from the constants; otherwise it is a text of decimal digits and dots
   (hence of Unicode scalar values: the [state_scalar] clause of the member) - for Windows / Mac OS X / iOS the 16-bit halves of the file
   version, else file / product version words.  c15_module_version_pinned (FINITE CHECK): the translated tables are the ones the arms
   lemma was proved for; concrete texts.  The driver computes the member of every real module from the raw fields, so the byte-for-byte
   comparison of the whole document checks it against the real code. *)
Theorem c15_module_version : forall os v,
  (module_version os v = None <-> ~ (vi_sig v = VERSION_SIGNATURE /\ vi_struct v = VERSION_STRUCVERSION)) /\
  (forall t, module_version os v = Some t -> Forall ver_char t) /\
  (0 <= vi_fhi v -> 0 <= vi_flo v -> vi_sig v = VERSION_SIGNATURE -> vi_struct v = VERSION_STRUCVERSION ->
   module_version os v =
   Some (if (os =? 0) || (os =? 1) || (os =? 2)
         then dot4 (vi_fhi v / 65536) (vi_fhi v mod 65536) (vi_flo v / 65536) (vi_flo v mod 65536)
         else dot4 (vi_fhi v) (vi_flo v) (vi_phi v) (vi_plo v))).
Proof.
  intros os v. split; [apply module_version_none|]. split; [intros t; apply module_version_chars|apply module_version_arms].
Qed.
Print Assumptions c15_module_version.

Theorem c15_module_version_pinned :
  VERSION_SIGNATURE = 4277077181 /\ VERSION_STRUCVERSION = 65536 /\ VERSION_SPLIT_OS = [1; 2; 0] /\
  VERSION_ARM_SPLIT = [(0, 1, 16); (0, 2, 65535); (1, 1, 16); (1, 2, 65535)] /\ VERSION_ARM_ELSE = [(0, 0, 0); (1, 0, 0); (2, 0, 0); (3, 0, 0)] /\
  module_version 0 {| vi_sig := 4277077181; vi_struct := 65536; vi_fhi := 65538; vi_flo := 4294967295; vi_phi := 7; vi_plo := 8 |}
    = Some [49; 46; 50; 46; 54; 53; 53; 51; 53; 46; 54; 53; 53; 51; 53] /\                                 (* Windows: 1.2.65535.65535 *)
  module_version 3 {| vi_sig := 4277077181; vi_struct := 65536; vi_fhi := 65538; vi_flo := 0; vi_phi := 7; vi_plo := 4294967295 |}
    = Some [54; 53; 53; 51; 56; 46; 48; 46; 55; 46; 52; 50; 57; 52; 57; 54; 55; 50; 57; 53] /\              (* Linux: 65538.0.7.4294967295 *)
  module_version 0 {| vi_sig := 0; vi_struct := 65536; vi_fhi := 1; vi_flo := 2; vi_phi := 3; vi_plo := 4 |} = None /\
  module_version 3 {| vi_sig := 4277077181; vi_struct := 0; vi_fhi := 1; vi_flo := 2; vi_phi := 3; vi_plo := 4 |} = None.
Proof. vm_compute. repeat split; reflexivity. Qed.
Print Assumptions c15_module_version_pinned.
