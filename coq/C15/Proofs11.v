(* C15/Proofs11.v — the report of every well-formed state passes the judgements made on the document alone: the
   self-consistency checker [consistent], the module-offset checker [offsets_ok] (frame modules members of the module list) and
   the function-offset judgement [fn_offsets_ok] against the state's function bases. *)
From Coq Require Import Lia.
From RM Require Import C15.Model C15.Schema C15.Consistent C15.Offsets C15.FnOffsets C15.Proofs C15.Proofs2 C15.Proofs3.
Open Scope Z_scope.

Lemma json_eqb_refl : forall v, json_eqb v v = true.
Proof.
  apply json_ind'.
  - reflexivity.
  - intros []; reflexivity.
  - intro n. apply Z.eqb_refl.
  - intro s. apply list_eqb_refl.
  - intros l H. cbn [json_eqb]. induction H as [|x t Hx _ IH]; [reflexivity|]. rewrite Hx. exact IH.
  - intros l H. cbn [json_eqb]. induction H as [|[k x] t Hx _ IH]; [reflexivity|]. cbn [snd] in Hx. rewrite list_eqb_refl, Hx. exact IH.
Qed.

Lemma num_is_nat n : num_is (JNum (Z.of_nat n)) n = true.
Proof. apply Z.eqb_refl. Qed.

(* members of the pure objects are read with [change]: the objects are literals, so the member is known by conversion, and
   [cbn] would compare the member names character by character at every step *)
Lemma frames_checked w : forall l idx, frames_ok idx (frames_obj w idx l) = true.
Proof.
  induction l as [|f t IH]; intro idx; [reflexivity|]. cbn [frames_obj frames_ok]. rewrite IH, andb_true_r.
  change (jmem k_frame (frame_obj w idx f)) with (JNum (Z.of_nat idx)). rewrite num_is_nat.
  change (jmem k_missing_symbols (frame_obj w idx f)) with (JBool (match fr_function f with Some _ => false | None => true end)).
  change (jmem k_function (frame_obj w idx f)) with (jopt JStr (fr_function f)).
  destruct (fr_function f); reflexivity.
Qed.

Lemma thread_checked w t : thread_ok (thread_obj w t) = true.
Proof.
  unfold thread_ok.
  change (jmem k_frames (thread_obj w t)) with (JArr (frames_obj w 0 (th_frames t))).
  change (jmem k_frame_count (thread_obj w t)) with (JNum (Z.of_nat (length (th_frames t)))).
  cbv beta iota. rewrite frames_len, num_is_nat, frames_checked. reflexivity.
Qed.

Lemma copy_checked w t i regs f0 fs : th_frames t = f0 :: fs ->
  copy_ok i (thread_obj w t) (crashing_copy regs i (thread_obj w t)) = true.
Proof.
  intro E. unfold thread_obj. rewrite E. cbn [frames_obj crashing_copy].
  unfold copy_ok.
  match goal with |- num_is ?a i && _ = true => change a with (JNum (Z.of_nat i)) end. rewrite num_is_nat. cbn [andb].
  cbn [jmem jassoc list_eqb k_frames k_frame_count Z.eqb Pos.eqb andb].
  assert (R : jremove k_registers (add_registers regs (frame_obj w 0 f0)) = frame_obj w 0 f0) by reflexivity.
  assert (H1 : jhas k_registers (add_registers regs (frame_obj w 0 f0)) = true) by reflexivity.
  assert (H2 : jhas k_registers (frame_obj w 0 f0) = false) by reflexivity.
  rewrite H1, H2, R, !json_eqb_refl. reflexivity.
Qed.

Lemma threads_checked w l : forallb thread_ok (map (thread_obj w) l) = true.
Proof. apply forallb_forall. intros x Hx. apply in_map_iff in Hx. destruct Hx as (t & <- & _). apply thread_checked. Qed.

Lemma mac_checked w o :
  match jopt (fun l => JObj [(k_num_records, JNum (Z.of_nat (length l))); (k_records, JArr (map (json_of_macrec w) l))]) o with
  | JNull => true
  | m => match jmem k_records m with JArr rs => num_is (jmem k_num_records m) (length rs) | _ => false end
  end = true.
Proof.
  destruct o as [l|]; [|reflexivity]. cbn [jopt].
  change (jmem k_records (JObj [(k_num_records, JNum (Z.of_nat (length l))); (k_records, JArr (map (json_of_macrec w) l))]))
    with (JArr (map (json_of_macrec w) l)).
  change (jmem k_num_records (JObj [(k_num_records, JNum (Z.of_nat (length l))); (k_records, JArr (map (json_of_macrec w) l))]))
    with (JNum (Z.of_nat (length l))).
  cbv beta iota. rewrite map_length. apply num_is_nat.
Qed.

Lemma jmem_jget k j : jmem k j = match jget k j with Some v => v | None => JNull end.
Proof. destruct j; reflexivity. Qed.
Lemma report_mem s k : state_ok s -> list_eqb k k_crash_info = false -> list_eqb k k_crashing_thread = false ->
  jmem k (report_obj s) = jmem k (JObj (tail_obj s)).
Proof. intros. rewrite !jmem_jget, report_get by assumption. reflexivity. Qed.
Lemma report_threads s : state_ok s -> jmem k_threads (report_obj s) = JArr (map (thread_obj (s_width s)) (s_threads s)).
Proof. intro H. rewrite report_mem by (exact H || reflexivity). reflexivity. Qed.
Lemma requesting_member s l :
  jmem k_crashing_thread (jmem k_crash_info (JObj (crash_member s :: l))) = jopt (fun i => JNum (Z.of_nat i)) (s_requesting s).
Proof. reflexivity. Qed.

Lemma report_consistent s : wf_state s = true -> consistent (report_obj s) = true.
Proof.
  intro Hw. pose proof (wf_state_ok s Hw) as Hok. unfold consistent.
  rewrite (report_threads s Hok), (report_mem s k_thread_count), (report_mem s k_mac_crash_info) by (exact Hok || reflexivity).
  change (jmem k_thread_count (JObj (tail_obj s))) with (JNum (Z.of_nat (length (s_threads s)))).
  change (jmem k_mac_crash_info (JObj (tail_obj s)))
    with (jopt (fun l => JObj [(k_num_records, JNum (Z.of_nat (length l))); (k_records, JArr (map (json_of_macrec (s_width s)) l))]) (s_mac_crash s)).
  rewrite map_length, num_is_nat, threads_checked, mac_checked, andb_true_r. cbn [andb].
  (* the requesting thread, when there is one, is found in the array *)
  assert (Hth : forall i t, nth_error (s_threads s) i = Some t ->
            nth_error (map (thread_obj (s_width s)) (s_threads s)) (Z.to_nat (Z.of_nat i)) = Some (thread_obj (s_width s) t) /\
            (0 <=? Z.of_nat i) = true).
  { intros i t Et. rewrite Nat2Z.id. split; [exact (map_nth_error _ _ _ Et)|apply Z.leb_le; lia]. }
  destruct (report_cases_ok s Hok) as [[-> N]|(i & t & Er & Et & Ef & ->)]; rewrite requesting_member.
  - (* no crashing_thread copy: no requesting thread, or one without frames *)
    assert (J : jhas k_crashing_thread (JObj (crash_member s :: tail_obj s)) = false) by reflexivity. rewrite J.
    destruct (s_requesting s) as [i|]; [|reflexivity]. destruct N as (t & Et & Ef). cbn [jopt].
    destruct (Hth i t Et) as [-> ->]. unfold thread_obj. rewrite Ef. reflexivity.
  - (* with the copy of thread i *)
    assert (J : jhas k_crashing_thread (JObj (crash_member s :: copy_member s i t :: tail_obj s)) = true) by reflexivity.
    assert (M : jmem k_crashing_thread (JObj (crash_member s :: copy_member s i t :: tail_obj s)) = snd (copy_member s i t)) by reflexivity.
    rewrite J, M, Er. cbn [jopt]. destruct (Hth i t Et) as [-> ->]. destruct (th_frames t) as [|f0 fs] eqn:Ef'; [contradiction|].
    unfold copy_member. cbn [snd]. rewrite Nat2Z.id, (copy_checked (s_width s) t i _ f0 fs Ef'). unfold thread_obj. rewrite Ef'. reflexivity.
Qed.

Lemma hexval_addr w x : 0 <= x < two64 -> exists d, address_str w x = 48 :: 120 :: d /\ hexval d = x.
Proof.
  intro H. pose proof (address_denotes w x H) as D. unfold address_str in *. eexists. split; [reflexivity|]. exact D.
Qed.

Lemma frame_offsets_checked w certs stats mods i f : frame_ok f -> Forall module_ok mods -> frame_in_modules mods f = true ->
  frame_offsets_ok (map (mod_obj w certs stats) mods) (frame_obj w i f) = true.
Proof.
  intros (Hi & Hb & _) Hm Hin. unfold frame_offsets_ok.
  change (jmem k_module (frame_obj w i f)) with (jopt (fun m => JStr (basename (fst m))) (fr_module f)).
  change (jmem k_offset (frame_obj w i f)) with (jhex w (fr_instr f)).
  change (jmem k_module_offset (frame_obj w i f))
    with (match fr_module f with Some (_, base) => jhex w (fr_instr f - base) | None => JNull end).
  unfold frame_in_modules in Hin.
  destruct (fr_module f) as [[nm base]|]; [|reflexivity]. cbn [jopt fst]. specialize (Hb nm base eq_refl).
  destruct (hexval_addr w (fr_instr f) Hi) as (o & Eo & Vo).
  destruct (hexval_addr w (fr_instr f - base) ltac:(lia)) as (mo & Emo & Vmo).
  unfold jhex. rewrite Eo, Emo, Vo, Vmo.
  apply existsb_exists in Hin. destruct Hin as (m & Hmin & Hc). apply andb_prop in Hc. destruct Hc as [Hn He]. apply Z.eqb_eq in He.
  apply existsb_exists. exists (mod_obj w certs stats m). split; [apply in_map; exact Hmin|].
  unfold module_covers.
  change (jmem k_filename (mod_obj w certs stats m)) with (JStr (basename (m_file m))).
  change (jmem k_base_addr (mod_obj w certs stats m)) with (jhex w (m_base m)).
  rewrite Forall_forall in Hm. destruct (Hm m Hmin) as (M1 & M2 & M3).
  destruct (hexval_addr w (m_base m) ltac:(lia)) as (b & Eb & Vb). unfold jhex. rewrite Eb, Vb, Hn, He.
  assert (L : (base <=? fr_instr f) = true) by (apply Z.leb_le; lia). rewrite L, Z.eqb_refl. reflexivity.
Qed.

Lemma report_offsets s : state_ok s -> frames_in_modules s = true -> offsets_ok (report_obj s) = true.
Proof.
  intros Hok Hin. pose proof Hok as (Ht & Hm & _).
  unfold offsets_ok. rewrite (report_threads s Hok), (report_mem s k_modules) by (exact Hok || reflexivity).
  change (jmem k_modules (JObj (tail_obj s))) with (JArr (map (mod_obj (s_width s) (s_certinfo s) (s_symstats s)) (s_modules s))).
  apply forallb_forall. intros tj Htj. apply in_map_iff in Htj. destruct Htj as (t & <- & Hti).
  change (jmem k_frames (thread_obj (s_width s) t)) with (JArr (frames_obj (s_width s) 0 (th_frames t))).
  apply forallb_forall. intros fj Hfj. apply In_frames_obj in Hfj. destruct Hfj as (i & f & Hq & ->).
  rewrite Forall_forall in Ht. specialize (Ht t Hti). rewrite Forall_forall in Ht.
  unfold frames_in_modules in Hin. eapply forallb_In in Hti; [|exact Hin]. eapply forallb_In in Hti; [|exact Hq].
  apply frame_offsets_checked; [exact (Ht f Hq)|exact Hm|exact Hti].
Qed.

Lemma forall2b_map {A B : Type} (p : A -> B -> bool) (g : A -> B) l :
  (forall a, In a l -> p a (g a) = true) -> forall2b p l (map g l) = true.
Proof.
  induction l as [|a l IH]; intro H; [reflexivity|]. cbn [map forall2b].
  rewrite (H a (or_introl eq_refl)), IH; [reflexivity|]. intros b Hb. apply H. right. exact Hb.
Qed.

Lemma forall2b_frames (p : frame -> json -> bool) w l : forall n,
  (forall i f, In f l -> p f (frame_obj w i f) = true) -> forall2b p l (frames_obj w n l) = true.
Proof.
  induction l as [|a l IH]; intros n H; [reflexivity|]. cbn [frames_obj forall2b].
  rewrite (H n a (or_introl eq_refl)), IH; [reflexivity|]. intros i b Hb. apply H. right. exact Hb.
Qed.

Lemma frame_fn_checked w i f : frame_ok f -> frame_fn_ok f (frame_obj w i f) = true.
Proof.
  intros (Hi & _ & Hf). unfold frame_fn_ok.
  change (jmem k_offset (frame_obj w i f)) with (jhex w (fr_instr f)).
  change (jmem k_function_offset (frame_obj w i f))
    with (match fr_function_base f with Some base => jhex w (fr_instr f - base) | None => JNull end).
  destruct (fr_function_base f) as [fb|]; [|reflexivity]. specialize (Hf fb eq_refl).
  destruct (hexval_addr w (fr_instr f) Hi) as (o & Eo & Vo).
  destruct (hexval_addr w (fr_instr f - fb) ltac:(lia)) as (fo & Efo & Vfo).
  unfold jhex. rewrite Eo, Efo, Vo, Vfo.
  assert (L : (fb <=? fr_instr f) = true) by (apply Z.leb_le; lia). rewrite L, Z.eqb_refl. reflexivity.
Qed.

Lemma report_fn_offsets s : state_ok s -> fn_offsets_ok s (report_obj s) = true.
Proof.
  intros Hok. pose proof Hok as (Ht & _). unfold fn_offsets_ok. rewrite (report_threads s Hok).
  apply forall2b_map. intros t Hti. unfold thread_fn_ok.
  change (jmem k_frames (thread_obj (s_width s) t)) with (JArr (frames_obj (s_width s) 0 (th_frames t))).
  apply forall2b_frames. intros i f Hf. apply frame_fn_checked.
  rewrite Forall_forall in Ht. specialize (Ht t Hti). rewrite Forall_forall in Ht. exact (Ht f Hf).
Qed.
