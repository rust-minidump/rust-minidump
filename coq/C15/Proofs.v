(* C15/Proofs.v — serialise / parse round trip; hex digits: widths of an Address and the value its digits denote. *)
From Coq Require Import Lia DecimalN.
From RM Require Import C15.Model.
Open Scope Z_scope.

(* the induction principle of the nested type: the hypothesis for an array / object is about every element / member value *)
Section JsonInd.
  Variable P : json -> Prop.
  Hypothesis Hnull : P JNull.
  Hypothesis Hbool : forall b, P (JBool b).
  Hypothesis Hnum : forall n, P (JNum n).
  Hypothesis Hstr : forall s, P (JStr s).
  Hypothesis Harr : forall l, Forall P l -> P (JArr l).
  Hypothesis Hobj : forall l, Forall (fun kv => P (snd kv)) l -> P (JObj l).
  Fixpoint json_ind' (v : json) : P v :=
    match v with
    | JNull => Hnull
    | JBool b => Hbool b
    | JNum n => Hnum n
    | JStr s => Hstr s
    | JArr l => Harr l ((fix go (l : list json) : Forall P l :=
                           match l with
                           | [] => Forall_nil P
                           | x :: t => Forall_cons x (json_ind' x) (go t)
                           end) l)
    | JObj l => Hobj l ((fix go (l : list (list Z * json)) : Forall (fun kv => P (snd kv)) l :=
                           match l with
                           | [] => Forall_nil _
                           | kv :: t => Forall_cons kv (json_ind' (snd kv)) (go t)
                           end) l)
    end.
End JsonInd.

Lemma parse_esc_char c tail :
  parse_str (esc_char c ++ tail) =
  match parse_str tail with Some (t, rest) => Some (c :: t, rest) | None => None end.
Proof.
  unfold esc_char.
  destruct (c =? 34) eqn:E34; [apply Z.eqb_eq in E34; subst c; reflexivity|].
  destruct (c =? 92) eqn:E92; [apply Z.eqb_eq in E92; subst c; reflexivity|].
  destruct (c =? 8) eqn:E8; [apply Z.eqb_eq in E8; subst c; reflexivity|].
  destruct (c =? 12) eqn:E12; [apply Z.eqb_eq in E12; subst c; reflexivity|].
  destruct (c =? 10) eqn:E10; [apply Z.eqb_eq in E10; subst c; reflexivity|].
  destruct (c =? 13) eqn:E13; [apply Z.eqb_eq in E13; subst c; reflexivity|].
  destruct (c =? 9) eqn:E9; [apply Z.eqb_eq in E9; subst c; reflexivity|].
  destruct ((0 <=? c) && (c <? 32)) eqn:Ectl.
  - (* the 32 control characters, one by one: \u00XX reads back as c *)
    apply andb_true_iff in Ectl. destruct Ectl as [H0 H1]. apply Z.leb_le in H0. apply Z.ltb_lt in H1.
    destruct c as [|p|p]; [reflexivity| |lia]. do 5 (try destruct p as [p|p|]; try lia); reflexivity.
  - cbn [app parse_str]. rewrite E34, E92, Ectl. reflexivity.
Qed.

Lemma parse_ser_str s : forall rest, parse_str (esc_str s ++ [34] ++ rest) = Some (s, rest).
Proof.
  induction s as [|c s IH]; intro rest; [reflexivity|].
  unfold esc_str. cbn [flat_map]. fold (esc_str s). rewrite <- app_assoc, parse_esc_char, IH. reflexivity.
Qed.

(* [parse_nat] takes the maximal run of digits, so a rendered number parses back only when what follows it does not begin
   with a digit.  This is the one condition on the continuation that the round trip carries through every case: after a
   value comes a comma, a bracket, whitespace or nothing *)
Definition nodigit (rest : list Z) : Prop :=
  match rest with [] => True | c :: _ => (c <? 48) || (57 <? c) = true end.

Lemma uint_chars_rt u : forall rest, nodigit rest -> uint_of_chars (chars_of_uint u ++ rest) = (u, rest).
Proof.
  induction u as [|u IH|u IH|u IH|u IH|u IH|u IH|u IH|u IH|u IH|u IH]; intros rest Hr;
    try (cbn [chars_of_uint app uint_of_chars]; rewrite (IH rest Hr); reflexivity).
  cbn [chars_of_uint app]. destruct rest as [|c r]; [reflexivity|].
  cbn [uint_of_chars]. cbn [nodigit] in Hr. rewrite Hr. reflexivity.
Qed.

Lemma list_eqb_refl l : list_eqb l l = true.
Proof. induction l as [|x t IH]; [reflexivity|]. cbn [list_eqb]. rewrite Z.eqb_refl, IH. reflexivity. Qed.

Lemma to_uint_not_nil n : N.to_uint n <> Decimal.Nil.
Proof.
  intro H. pose proof (DecimalN.Unsigned.of_to n) as Hn. rewrite H in Hn. cbn in Hn. subst n. discriminate H.
Qed.

Lemma dec_head n : exists c t, dec_digits n = c :: t /\ 48 <= c <= 57.
Proof.
  unfold dec_digits. pose proof (to_uint_not_nil (Z.to_N n)) as H.
  destruct (N.to_uint (Z.to_N n)); [contradiction| | | | | | | | | |]; cbn [chars_of_uint]; eexists; eexists; (split; [reflexivity|lia]).
Qed.

(* a digit is none of the characters [parse_val] dispatches on before it tries a number *)
Lemma digit_dispatch c : 48 <= c <= 57 ->
  (c =? 110) = false /\ (c =? 116) = false /\ (c =? 102) = false /\ (c =? 34) = false /\ (c =? 91) = false /\
  (c =? 123) = false /\ (c =? 45) = false.
Proof. intro H. repeat split; apply Z.eqb_neq; lia. Qed.

Lemma parse_nat_rt n rest : 0 <= n -> nodigit rest -> parse_nat (dec_digits n ++ rest) = Some (n, rest).
Proof.
  intros Hn Hr. unfold parse_nat, dec_digits. rewrite (uint_chars_rt _ rest Hr).
  pose proof (to_uint_not_nil (Z.to_N n)) as Hnil.
  assert (E : N.of_uint (N.to_uint (Z.to_N n)) = Z.to_N n) by apply DecimalN.Unsigned.of_to.
  destruct (N.to_uint (Z.to_N n)) eqn:U; [contradiction| | | | | | | | | |];
    rewrite E, <- U, list_eqb_refl, Z2N.id by exact Hn; reflexivity.
Qed.

Lemma ser_head v : exists c t, serialise v = c :: t /\ c <> 93.
Proof.
  destruct v as [|[|]|n|s|l|l]; cbn [serialise]; try (eexists; eexists; split; [reflexivity|discriminate]).
  - unfold ser_num. destruct (n <? 0); [eexists; eexists; split; [reflexivity|discriminate]|].
    destruct (dec_head n) as (c & t & H & Hc). rewrite H. exists c, t. split; [reflexivity|lia].
Qed.

(* the fuel a rendering needs is its length: every call of the parser consumes a character *)
Definition parses_back (v : json) : Prop :=
  forall fuel rest, (length (serialise v) <= fuel)%nat -> nodigit rest -> parse_val fuel (serialise v ++ rest) = Some (v, rest).

Lemma fuel_pos v fuel : (length (serialise v) <= fuel)%nat -> exists f, fuel = S f.
Proof. destruct (ser_head v) as (c & t & E & _). rewrite E. destruct fuel; [cbn [length]; lia|eauto]. Qed.

Lemma elems_rt l : Forall parses_back l -> l <> [] ->
  forall fuel rest, (length (ser_elems serialise l) <= fuel)%nat ->
  parse_elems fuel (ser_elems serialise l ++ rest) = Some (l, rest).
Proof.
  induction l as [|x t IH]; intros HF Hne fuel rest Hfuel; [contradiction|].
  inversion HF as [|? ? Hx Ht]; subst. cbn [ser_elems] in *. rewrite app_length in Hfuel.
  destruct t as [|y t']; cbn [length] in Hfuel; (destruct fuel as [|f]; [lia|]); rewrite <- app_assoc; cbn [parse_elems].
  - rewrite (Hx f ([93] ++ rest)); [|lia|reflexivity]. reflexivity.
  - rewrite (Hx f ((44 :: ser_elems serialise (y :: t')) ++ rest)); [|lia|reflexivity].
    cbn [app]. cbn [Z.eqb Pos.eqb]. rewrite (IH Ht ltac:(discriminate) f rest); [reflexivity|lia].
Qed.

Lemma members_rt l : Forall (fun kv => parses_back (snd kv)) l -> l <> [] ->
  forall fuel rest, (length (ser_members serialise l) <= fuel)%nat ->
  parse_members fuel (ser_members serialise l ++ rest) = Some (l, rest).
Proof.
  induction l as [|[k x] t IH]; intros HF Hne fuel rest Hfuel; [contradiction|].
  inversion HF as [|? ? Hx Ht]; subst. cbn [snd] in Hx. cbn [ser_members] in *. unfold ser_str at 1. unfold ser_str in Hfuel at 1.
  cbn [app length] in Hfuel. rewrite !app_length in Hfuel. cbn [length] in Hfuel. rewrite app_length in Hfuel.
  destruct t as [|y t']; cbn [length] in Hfuel; (destruct fuel as [|f]; [lia|]); cbn [app parse_members]; cbn [Z.eqb Pos.eqb];
    rewrite <- !app_assoc, parse_ser_str; cbn [app]; cbn [Z.eqb Pos.eqb]; rewrite <- app_assoc.
  - rewrite (Hx f ([125] ++ rest)); [|lia|reflexivity]. reflexivity.
  - rewrite (Hx f ((44 :: ser_members serialise (y :: t')) ++ rest)); [|lia|reflexivity].
    cbn [app]. cbn [Z.eqb Pos.eqb]. rewrite (IH Ht ltac:(discriminate) f rest); [reflexivity|lia].
Qed.

Lemma parse_val_rt : forall v, parses_back v.
Proof.
  apply json_ind'; unfold parses_back.
  - intros fuel rest Hf _. destruct (fuel_pos _ _ Hf) as [f ->]. reflexivity.
  - intros b fuel rest Hf _. destruct (fuel_pos _ _ Hf) as [f ->]. destruct b; reflexivity.
  - intros n fuel rest Hf Hr. destruct (fuel_pos _ _ Hf) as [f ->]. cbn [serialise]. unfold ser_num.
    destruct (n <? 0) eqn:En.
    + apply Z.ltb_lt in En. cbn [app parse_val]. cbn [Z.eqb Pos.eqb].
      rewrite parse_nat_rt by (try lia; exact Hr).
      assert (E : (- n =? 0) = false) by (apply Z.eqb_neq; lia). rewrite E, Z.opp_involutive. reflexivity.
    + apply Z.ltb_ge in En. destruct (dec_head n) as (c & t & Hd & Hc).
      pose proof (parse_nat_rt n rest En Hr) as Hp. rewrite Hd in *. cbn [app] in *. cbn [parse_val].
      destruct (digit_dispatch c Hc) as (E1 & E2 & E3 & E4 & E5 & E6 & E7).
      rewrite E1, E2, E3, E4, E5, E6, E7, Hp. reflexivity.
  - intros s fuel rest Hf _. destruct (fuel_pos _ _ Hf) as [f ->]. cbn [serialise]. unfold ser_str.
    cbn [app parse_val]. cbn [Z.eqb Pos.eqb].
    rewrite <- app_assoc, parse_ser_str. reflexivity.
  - intros l HF fuel rest Hf _. destruct (fuel_pos _ _ Hf) as [f ->]. cbn [serialise length] in *. apply le_S_n in Hf.
    destruct l as [|x t]; [reflexivity|].
    assert (Hh : exists c2 r', ser_elems serialise (x :: t) ++ rest = c2 :: r' /\ c2 <> 93).
    { cbn [ser_elems]. destruct (ser_head x) as (c & tl & Hs & Hne). rewrite Hs. cbn [app]. eauto. }
    destruct Hh as (c2 & r' & Hr & Hne).
    cbn [app parse_val]. cbn [Z.eqb Pos.eqb].
    rewrite Hr. apply Z.eqb_neq in Hne. rewrite Hne. rewrite <- Hr.
    rewrite (elems_rt (x :: t) HF ltac:(discriminate) f rest Hf). reflexivity.
  - intros l HF fuel rest Hf _. destruct (fuel_pos _ _ Hf) as [f ->]. cbn [serialise length] in *. apply le_S_n in Hf.
    destruct l as [|[k x] t]; [reflexivity|].
    assert (Hh : exists r', ser_members serialise ((k, x) :: t) ++ rest = 34 :: r').
    { cbn [ser_members]. unfold ser_str. cbn [app]. eauto. }
    destruct Hh as (r' & Hr).
    cbn [app parse_val]. cbn [Z.eqb Pos.eqb].
    rewrite Hr. cbn [Z.eqb Pos.eqb]. rewrite <- Hr.
    rewrite (members_rt ((k, x) :: t) HF ltac:(discriminate) f rest Hf). reflexivity.
Qed.

Lemma serialise_parse v : parse (serialise v) = Some v.
Proof.
  unfold parse. pose proof (parse_val_rt v (S (length (serialise v))) []) as H.
  rewrite app_nil_r in H. rewrite H; [reflexivity|lia|exact I].
Qed.

(* the escaped form of a character contains no raw control character *)
Lemma esc_char_no_control c x : In x (esc_char c) -> ~ (0 <= x < 32).
Proof.
  unfold esc_char.
  destruct (c =? 34); [intros [<-|[<-|[]]]; lia|].
  destruct (c =? 92); [intros [<-|[<-|[]]]; lia|].
  destruct (c =? 8); [intros [<-|[<-|[]]]; lia|].
  destruct (c =? 12); [intros [<-|[<-|[]]]; lia|].
  destruct (c =? 10); [intros [<-|[<-|[]]]; lia|].
  destruct (c =? 13); [intros [<-|[<-|[]]]; lia|].
  destruct (c =? 9); [intros [<-|[<-|[]]]; lia|].
  destruct ((0 <=? c) && (c <? 32)) eqn:E.
  - cbn [hex_fixed app]. unfold hex_digit.
    intros [<-|[<-|[<-|[<-|[<-|[<-|[]]]]]]]; try lia;
      match goal with |- context [if ?b then _ else _] => destruct b end;
      try (pose proof (Z.mod_pos_bound (c / 16) 16 ltac:(lia)); lia);
      try (pose proof (Z.mod_pos_bound c 16 ltac:(lia)); lia).
  - intros [<-|[]]. apply andb_false_iff in E. rewrite Z.leb_gt, Z.ltb_ge in E. lia.
Qed.

Lemma hex_fixed_length n : forall x, length (hex_fixed n x) = n.
Proof. induction n as [|n IH]; intro x; [reflexivity|]. cbn [hex_fixed]. rewrite app_length, IH. cbn. lia. Qed.

Definition is_lower_hex (c : Z) : Prop := 48 <= c <= 57 \/ 97 <= c <= 102.

Lemma hex_digit_lower d : 0 <= d < 16 -> is_lower_hex (hex_digit d).
Proof. intro H. unfold hex_digit, is_lower_hex. destruct (d <? 10) eqn:E; [apply Z.ltb_lt in E|apply Z.ltb_ge in E]; lia. Qed.

Lemma hex_fixed_lower n : forall x, Forall is_lower_hex (hex_fixed n x).
Proof.
  induction n as [|n IH]; intro x; [constructor|]. cbn [hex_fixed]. apply Forall_app. split; [apply IH|].
  constructor; [|constructor]. apply hex_digit_lower. apply Z.mod_pos_bound. lia.
Qed.

(* [strip0] removes leading zeros and keeps the last digit *)
Lemma strip0_single c : strip0 [c] = [c].
Proof. destruct c as [|q|q]; try reflexivity. repeat (destruct q as [q|q|]; try reflexivity). Qed.
Lemma strip0_unfold c c2 t2 : strip0 (c :: c2 :: t2) = (if c =? 48 then strip0 (c2 :: t2) else c :: c2 :: t2).
Proof.
  destruct (c =? 48) eqn:E0; [apply Z.eqb_eq in E0; subst c; reflexivity|].
  cbn [strip0]. destruct c as [|q|q]; try reflexivity. repeat (destruct q as [q|q|]; try reflexivity). discriminate E0.
Qed.
Lemma strip0_suffix l : exists n, l = repeat 48 n ++ strip0 l.
Proof.
  induction l as [|c t [n IH]]; [exists 0%nat; reflexivity|]. destruct t as [|c2 t2]; [exists 0%nat; rewrite strip0_single; reflexivity|].
  rewrite strip0_unfold. destruct (c =? 48) eqn:E; [|exists 0%nat; reflexivity].
  apply Z.eqb_eq in E. subst c. exists (S n). cbn [repeat app]. rewrite <- IH. reflexivity.
Qed.
Lemma strip0_In l x : In x (strip0 l) -> In x l.
Proof. destruct (strip0_suffix l) as [n E]. intro H. rewrite E. apply in_or_app. right. exact H. Qed.
Lemma strip0_len l : (length (strip0 l) <= length l)%nat.
Proof. destruct (strip0_suffix l) as [n E]. rewrite E at 2. rewrite app_length. lia. Qed.
Lemma strip0_nonnil l : l <> [] -> strip0 l <> [].
Proof.
  induction l as [|c t IH]; intro H; [contradiction|]. destruct t as [|c2 t2]; [rewrite strip0_single; discriminate|].
  rewrite strip0_unfold. destruct (c =? 48); [apply IH|]; discriminate.
Qed.
Lemma strip0_lower l : Forall is_lower_hex l -> Forall is_lower_hex (strip0 l).
Proof. rewrite !Forall_forall. intros H x Hx. apply H, strip0_In, Hx. Qed.
Lemma strip0_hex_length n x : (1 <= length (strip0 (hex_fixed (S n) x)) <= S n)%nat.
Proof.
  pose proof (hex_fixed_length (S n) x) as L. pose proof (strip0_len (hex_fixed (S n) x)) as S2.
  assert (S3 : strip0 (hex_fixed (S n) x) <> []) by (apply strip0_nonnil; intro E; rewrite E in L; discriminate L).
  destruct (strip0 (hex_fixed (S n) x)); [congruence|cbn [length] in *; lia].
Qed.

Definition hex_value (l : list Z) : Z :=
  fold_left (fun a c => a * 16 + (if c <? 58 then c - 48 else c - 87)) l 0.

Lemma hex_value_app l c : hex_value (l ++ [c]) = hex_value l * 16 + (if c <? 58 then c - 48 else c - 87).
Proof. unfold hex_value. rewrite fold_left_app. reflexivity. Qed.

Lemma hex_digit_value d : 0 <= d < 16 -> (if hex_digit d <? 58 then hex_digit d - 48 else hex_digit d - 87) = d.
Proof.
  intro H. unfold hex_digit. destruct (d <? 10) eqn:E; [apply Z.ltb_lt in E|apply Z.ltb_ge in E].
  - assert (E2 : (48 + d <? 58) = true) by (apply Z.ltb_lt; lia). rewrite E2. lia.
  - assert (E2 : (87 + d <? 58) = false) by (apply Z.ltb_ge; lia). rewrite E2. lia.
Qed.

Lemma hex_fixed_value n : forall x, 0 <= x -> hex_value (hex_fixed n x) = x mod 16 ^ Z.of_nat n.
Proof.
  induction n as [|n IH]; intros x Hx.
  - cbn. rewrite Z.mod_1_r. reflexivity.
  - cbn [hex_fixed]. rewrite hex_value_app, IH by (apply Z.div_pos; lia).
    rewrite hex_digit_value by (apply Z.mod_pos_bound; lia).
    rewrite Nat2Z.inj_succ, Z.pow_succ_r by lia.
    assert (Hp : 0 < 16 ^ Z.of_nat n) by (apply Z.pow_pos_nonneg; lia).
    rewrite Z.rem_mul_r by lia. lia.
Qed.

Lemma strip0_value l : hex_value (strip0 l) = hex_value l.
Proof.
  destruct (strip0_suffix l) as [n E]. rewrite E at 2. clear E. induction n as [|n IH]; [reflexivity|].
  cbn [repeat app]. rewrite IH. unfold hex_value. cbn [fold_left]. reflexivity.
Qed.
Lemma hex_value_bound l : Forall is_lower_hex l -> 0 <= hex_value l < 16 ^ Z.of_nat (length l).
Proof.
  induction l as [|c t IH] using rev_ind; intro F; [cbn; lia|].
  apply Forall_app in F. destruct F as [Ft Fc]. inversion Fc as [|? ? Hc _]; subst.
  rewrite hex_value_app, app_length. cbn [length]. rewrite Nat.add_1_r, Nat2Z.inj_succ, Z.pow_succ_r by lia.
  specialize (IH Ft). unfold is_lower_hex in Hc.
  assert (0 <= (if c <? 58 then c - 48 else c - 87) < 16) by (destruct (c <? 58) eqn:E5; [apply Z.ltb_lt in E5|apply Z.ltb_ge in E5]; lia).
  nia.
Qed.
Lemma hex_fixed16_value x : 0 <= x < two64 -> hex_value (hex_fixed 16 x) = x.
Proof. intro H. rewrite hex_fixed_value by lia. apply Z.mod_small. change (16 ^ Z.of_nat 16) with two64. lia. Qed.

Lemma strip0_wide x : two32 <= x < two64 -> (9 <= length (strip0 (hex_fixed 16 x)))%nat.
Proof.
  intro H. pose proof (hex_value_bound _ (strip0_lower _ (hex_fixed_lower 16 x))) as B.
  rewrite strip0_value, hex_fixed16_value in B by (unfold two32 in H; lia).
  destruct (le_lt_dec 9 (length (strip0 (hex_fixed 16 x)))) as [Ok|Bad]; [exact Ok|exfalso].
  assert (16 ^ Z.of_nat (length (strip0 (hex_fixed 16 x))) <= 16 ^ 8) by (apply Z.pow_le_mono_r; lia).
  change (16 ^ 8) with two32 in *. lia.
Qed.

(* the digits after "0x" denote the FULL value for every pointer width (a 32-bit width is a minimum padding, never a
   truncation), so distinct values never print alike *)
Lemma address_denotes w x : 0 <= x < two64 -> hex_value (skipn 2 (address_str w x)) = x.
Proof.
  intro Hx. pose proof (hex_fixed16_value x Hx) as V16.
  assert (Sk : forall d, skipn 2 (48 :: 120 :: d) = d) by reflexivity.
  unfold address_str. rewrite Sk. destruct w; try exact V16.
  destruct (x <? two32) eqn:E.
  - apply Z.ltb_lt in E. rewrite hex_fixed_value by lia. apply Z.mod_small. change (16 ^ Z.of_nat 8) with two32. lia.
  - rewrite strip0_value. exact V16.
Qed.
Lemma address_injective w x y : 0 <= x < two64 -> 0 <= y < two64 -> address_str w x = address_str w y -> x = y.
Proof.
  intros Hx Hy E. rewrite <- (address_denotes w x Hx), <- (address_denotes w y Hy), E. reflexivity.
Qed.

(* rewriting with this instead of evaluating [length] keeps the checker from comparing the digit strings below it *)
Lemma length_0x (l : list Z) : length (48 :: 120 :: l) = S (S (length l)).
Proof. reflexivity. Qed.

Lemma address_width w x : 0 <= x < two64 ->
  (w <> W32 -> length (address_str w x) = 18%nat) /\
  (w = W32 -> x < two32 -> length (address_str w x) = 10%nat) /\
  (w = W32 -> two32 <= x -> (3 <= length (address_str w x) <= 18)%nat) /\
  (exists digits, address_str w x = 48 :: 120 :: digits /\ Forall is_lower_hex digits) /\
  ((w <> W32 \/ x < two32) -> hex_value (skipn 2 (address_str w x)) = x).
Proof.
  intro Hx. pose proof (hex_fixed_length 16 x) as L16. pose proof (hex_fixed_length 8 x) as L8.
  pose proof (strip0_hex_length 15 x) as S2.
  split; [|split; [|split; [|split; [|intros _; apply address_denotes; exact Hx]]]]; unfold address_str.
  - intro Hw. destruct w; try congruence; rewrite length_0x, L16; reflexivity.
  - intros -> Hlt. apply Z.ltb_lt in Hlt. rewrite Hlt, length_0x, L8. reflexivity.
  - intros -> Hge. apply Z.ltb_ge in Hge. rewrite Hge, length_0x. lia.
  - destruct w; [destruct (x <? two32)|..]; eexists; (split; [reflexivity|]);
      try apply hex_fixed_lower; apply strip0_lower, hex_fixed_lower.
Qed.
