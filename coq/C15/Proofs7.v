(* C15/Proofs7.v — the format strings of the source: address_str and json_of_lim are what the translated match arms write. *)
From Coq Require Import Lia.
From RM Require Import C15.Model C15.Proofs Gen.C15Fmt.
Open Scope Z_scope.

(* Rust's `{:#0Nx}` on an unsigned integer: "0x", then the minimal hex digits of the value padded with zeros on the left so
   that the whole text has at least N characters *)
Definition min_hex (x : Z) : list Z := strip0 (hex_fixed 16 x).
Definition fmt_alt_hex (n x : Z) : list Z :=
  48 :: 120 :: repeat 48 (Z.to_nat (n - 2) - length (min_hex x)) ++ min_hex x.
(* `e as uK` truncates; K = 0 stands for the plain expression *)
Definition cast_arg (k x : Z) : Z := if k =? 0 then x else x mod 2 ^ k.
Fixpoint select_arm {A} (arms : list (Z * A)) (i : Z) : option A :=
  match arms with
  | [] => None
  | (p, a) :: t => if (p =? i) || (p =? -1) then Some a else select_arm t i
  end.
Definition width_index (w : pwidth) : Z := match w with W32 => 0 | W64 => 1 | WUnknown => 2 end.
(* what the match of `Display for Address`, as translated, writes *)
Definition address_display (w : pwidth) (x : Z) : list Z :=
  match select_arm (map (fun a => (fst (fst a), (snd (fst a), snd a))) ADDRESS_ARMS) (width_index w) with
  | Some (n, k) => fmt_alt_hex n (cast_arg k x)
  | None => []
  end.
Definition lim_index (l : lim) : Z := match l with LErr => 0 | LUnlimited => 1 | LLimited _ => 2 end.
(* what the match of `Serialize for Limit`, as translated, writes *)
Definition lim_display (l : lim) : json :=
  match select_arm LIMIT_ARMS (lim_index l) with
  | Some (Some text) => JStr text
  | Some None => match l with LLimited n => JNum n | _ => JNull end
  | None => JNull
  end.

Lemma pad_strip0 l : repeat 48 (length l - length (strip0 l)) ++ strip0 l = l.
Proof.
  destruct (strip0_suffix l) as [n E]. rewrite E at 1 4. rewrite app_length, repeat_length, Nat.add_sub. reflexivity.
Qed.

Lemma hex_fixed_zero n : hex_fixed n 0 = repeat 48 n.
Proof.
  induction n as [|n IH]; [reflexivity|]. cbn [hex_fixed]. change (0 / 16) with 0. rewrite IH. change (hex_digit (0 mod 16)) with 48.
  clear IH. induction n as [|n IH]; [reflexivity|]. cbn [repeat app]. rewrite IH. reflexivity.
Qed.
Lemma hex_fixed_high n : forall m x, 0 <= x < 16 ^ Z.of_nat m -> hex_fixed (n + m) x = repeat 48 n ++ hex_fixed m x.
Proof.
  induction m as [|m IH]; intros x Hx.
  - cbn in Hx. assert (x = 0) by lia. subst x. rewrite Nat.add_0_r, hex_fixed_zero, app_nil_r. reflexivity.
  - rewrite Nat.add_succ_r. cbn [hex_fixed]. rewrite IH; [rewrite app_assoc; reflexivity|].
    rewrite Nat2Z.inj_succ, Z.pow_succ_r in Hx by lia. split; [apply Z.div_pos; lia|apply Z.div_lt_upper_bound; lia].
Qed.
Lemma strip0_zeros n : forall l, l <> [] -> strip0 (repeat 48 n ++ l) = strip0 l.
Proof.
  induction n as [|n IH]; intros l Hl; [reflexivity|]. cbn [repeat app].
  destruct (repeat 48 n ++ l) as [|c2 t2] eqn:E.
  - exfalso. destruct n; cbn in E; [contradiction|discriminate E].
  - rewrite strip0_unfold. change (48 =? 48) with true. cbn iota. rewrite <- E. apply IH. exact Hl.
Qed.

Lemma address_str_display w x : 0 <= x < two64 -> address_str w x = address_display w x.
Proof.
  intro Hx. pose proof (hex_fixed_length 16 x) as L16.
  assert (Hne16 : hex_fixed 16 x <> []) by (intro E; rewrite E in L16; discriminate L16).
  assert (F18 : fmt_alt_hex 18 x = 48 :: 120 :: hex_fixed 16 x).
  { unfold fmt_alt_hex, min_hex. change (Z.to_nat (18 - 2)) with 16%nat.
    pose proof (pad_strip0 (hex_fixed 16 x)) as P. rewrite L16 in P. rewrite P. reflexivity. }
  (* the translated arms of Gen/C15Fmt.v are evaluated here: an edit of a width or a cast in the source stops this proof *)
  unfold address_display. destruct w; cbn [width_index]; change (ADDRESS_ARMS) with [(0, 10, 0); (-1, 18, 0)]; cbn [map fst snd select_arm];
    cbn [Z.eqb Pos.eqb orb]; unfold cast_arg; cbn [Z.eqb]; try (rewrite F18; reflexivity).
  unfold address_str. destruct (x <? two32) eqn:E.
  - apply Z.ltb_lt in E. unfold fmt_alt_hex, min_hex. change (Z.to_nat (10 - 2)) with 8%nat.
    pose proof (hex_fixed_length 8 x) as L8.
    assert (Hne8 : hex_fixed 8 x <> []) by (intro E8; rewrite E8 in L8; discriminate L8).
    change 16%nat with (8 + 8)%nat. rewrite (hex_fixed_high 8 8 x) by (change (16 ^ Z.of_nat 8) with two32; lia).
    rewrite strip0_zeros by exact Hne8. pose proof (pad_strip0 (hex_fixed 8 x)) as P. rewrite L8 in P. rewrite P. reflexivity.
  - apply Z.ltb_ge in E. unfold fmt_alt_hex. change (Z.to_nat (10 - 2)) with 8%nat.
    pose proof (strip0_wide x ltac:(lia)) as Wd. unfold min_hex.
    replace (8 - length (strip0 (hex_fixed 16 x)))%nat with 0%nat by lia. cbn [repeat app]. reflexivity.
Qed.

Lemma json_of_lim_display l : json_of_lim l = lim_display l.
Proof. destruct l; reflexivity. Qed.

(* Rust's formatter on concrete values, as [fmt_alt_hex] models it *)
Lemma fmt_alt_hex_examples :
  fmt_alt_hex 10 255 = [48; 120; 48; 48; 48; 48; 48; 48; 102; 102] /\
  fmt_alt_hex 10 4294967296 = [48; 120; 49; 48; 48; 48; 48; 48; 48; 48; 48] /\
  fmt_alt_hex 18 0 = 48 :: 120 :: repeat 48 16 /\ fmt_alt_hex 4 0 = [48; 120; 48; 48] /\
  cast_arg 32 4294967296 = 0 /\ cast_arg 0 4294967296 = 4294967296.
Proof. vm_compute. repeat split; reflexivity. Qed.
