(* C15/Proofs2.v — members and hypotheses.  Reading a member of a JSON object ([assoc], [jget]; list_eqb decides equality of names;
   add_registers leaves the other members alone); the arithmetic hypotheses [frame_ok], [module_ok], [state_ok] under which print_json does
   not trap; frame numbers and counts of whatever json_of_thread returns; the pure objects [mod_obj] / [unl_obj] of modules; [subset], the
   executable inclusion of name tables. *)
From Coq Require Import Lia.
From RM Require Import Base.WordFacts C15.Model C15.Proofs.
Open Scope Z_scope.

Fixpoint assoc (k : list Z) (l : list (list Z * json)) : option json :=
  match l with
  | [] => None
  | (k', v) :: t => if list_eqb k k' then Some v else assoc k t
  end.
Definition jget (k : list Z) (j : json) : option json :=
  match j with JObj l => assoc k l | _ => None end.

Lemma list_eqb_eq a : forall b, list_eqb a b = true <-> a = b.
Proof.
  induction a as [|x a IH]; intros [|y b]; cbn [list_eqb]; try (split; [discriminate|discriminate]); [tauto|].
  rewrite andb_true_iff, Z.eqb_eq, IH. split; [intros [-> ->]; reflexivity|intro H; inversion H; auto].
Qed.

Definition frame_ok (f : frame) : Prop :=
  0 <= fr_instr f < two64 /\
  (forall nm base, fr_module f = Some (nm, base) -> 0 <= base <= fr_instr f) /\
  (forall base, fr_function_base f = Some base -> 0 <= base <= fr_instr f).

Lemma frames_spec p w l : forall idx js, json_of_frames p w idx l = Ret js ->
  length js = length l /\
  forall i j, nth_error js i = Some j -> jget k_frame j = Some (JNum (Z.of_nat (idx + i))).
Proof.
  induction l as [|f t IH]; intros idx js H; cbn [json_of_frames] in H.
  - inversion H. split; [reflexivity|]. intros i j Hn. destruct i; discriminate Hn.
  - apply obind_ret in H. destruct H as (j0 & Hj0 & H). apply obind_ret in H. destruct H as (js' & Hjs & H).
    inversion H; subst. destruct (IH (S idx) js' Hjs) as [Hl Hn]. split; [cbn [length]; lia|].
    intros i j Hi. destruct i as [|i]; cbn [nth_error] in Hi.
    + inversion Hi; subst. rewrite Nat.add_0_r. unfold json_of_frame in Hj0. apply obind_ret in Hj0. destruct Hj0 as (a & _ & Hj0).
      apply obind_ret in Hj0. destruct Hj0 as (b & _ & Hj0). inversion Hj0. reflexivity.
    + replace (idx + S i)%nat with (S idx + i)%nat by lia. exact (Hn i j Hi).
Qed.

Lemma thread_counts p w t tj : json_of_thread p w t = Ret tj ->
  exists fs, jget k_frames tj = Some (JArr fs) /\
             jget k_frame_count tj = Some (JNum (Z.of_nat (length fs))) /\
             length fs = length (th_frames t) /\
             jget k_thread_id tj = Some (JNum (th_id t)) /\
             forall i fj, nth_error fs i = Some fj -> jget k_frame fj = Some (JNum (Z.of_nat i)).
Proof.
  unfold json_of_thread. intro H. apply obind_ret in H. destruct H as (fs & Hfs & H). inversion H.
  destruct (frames_spec p w _ _ _ Hfs) as [Hl Hn]. exists fs.
  split; [reflexivity|]. split; [cbn [jget assoc list_eqb]; rewrite Hl; reflexivity|]. split; [exact Hl|]. split; [reflexivity|exact Hn].
Qed.

Definition module_ok (m : modul) : Prop := 0 <= m_base m /\ 0 <= m_size m /\ m_base m + m_size m < two64.

(* the element of "modules" for a module whose end address does not overflow *)
Definition mod_obj (w : pwidth) (certs : list (list Z * list Z)) (stats : list (list Z * symstat)) (m : modul) : json :=
  let name := basename (m_file m) in
  let st := lookup name stats in
  let had := match st with Some _ => true | None => false end in
  let s := match st with Some s => s | None => default_stat end in
  JObj [(k_base_addr, jhex w (m_base m));
        (k_cert_subject, jopt JStr (lookup name certs));
        (k_code_id, JStr (m_code_id m));
        (k_corrupt_symbols, JBool (ss_corrupt s));
        (k_debug_file, JStr (basename (match ss_extra s with Some e => fst e | None => m_debug_file m end)));
        (k_debug_id, JStr (match ss_extra s with Some e => snd e | None => m_debug_id m end));
        (k_end_addr, jhex w (m_base m + m_size m));
        (k_filename, JStr name);
        (k_loaded_symbols, JBool (ss_loaded s));
        (k_missing_symbols, JBool (had && negb (ss_loaded s)));
        (k_symbol_url, jopt JStr (ss_url s));
        (k_version, jopt JStr (m_version m))].
Definition unl_obj (w : pwidth) (certs : list (list Z * list Z)) (m : modul) : json :=
  JObj [(k_base_addr, jhex w (m_base m));
        (k_cert_subject, jopt JStr (lookup (m_file m) certs));
        (k_code_id, JStr (m_code_id m));
        (k_end_addr, jhex w (m_base m + m_size m));
        (k_filename, JStr (m_file m))].

Lemma module_json p w certs stats m : module_ok m -> json_of_module p w certs stats m = Ret (mod_obj w certs stats m).
Proof. intros (H1 & H2 & H3). unfold json_of_module. rewrite chk_add64_ok by lia. reflexivity. Qed.
Lemma unloaded_json p w certs m : module_ok m -> json_of_unloaded p w certs m = Ret (unl_obj w certs m).
Proof. intros (H1 & H2 & H3). unfold json_of_unloaded. rewrite chk_add64_ok by lia. reflexivity. Qed.

Lemma assoc_insert k kr v l1 l2 : k <> kr -> assoc k (l1 ++ (kr, v) :: l2) = assoc k (l1 ++ l2).
Proof.
  intro Hne. induction l1 as [|[k' v'] t IH]; cbn [app assoc].
  - destruct (list_eqb k kr) eqn:E; [apply list_eqb_eq in E; contradiction|reflexivity].
  - rewrite IH. reflexivity.
Qed.

Lemma add_registers_other regs l k : k <> k_registers ->
  jget k (add_registers regs (JObj l)) = jget k (JObj l).
Proof.
  intro Hne. cbn [add_registers jget]. rewrite assoc_insert by exact Hne. rewrite firstn_skipn. reflexivity.
Qed.

(* the hypotheses under which print_json's arithmetic cannot trap: a frame's module and function start at or below its
   instruction (C08 / C11 soundness), a listed module's base + size fits in u64 (C14 c14_modules_of_stream), the requesting
   thread exists.  [wf_state] (Schema.v) is the executable condition the driver evaluates; it implies this one (wf_state_ok) *)
Definition state_ok (s : state) : Prop :=
  Forall (fun t => Forall frame_ok (th_frames t)) (s_threads s) /\
  Forall module_ok (s_modules s) /\ Forall module_ok (s_unloaded s) /\
  match s_requesting s with Some i => (i < length (s_threads s))%nat | None => True end.

Definition subset (a b : list (list Z)) : bool := forallb (fun x => existsb (list_eqb x) b) a.
Lemma subset_In a b : subset a b = true -> forall x, In x a -> In x b.
Proof.
  unfold subset. rewrite forallb_forall. intros H x Hx. specialize (H x Hx).
  apply existsb_exists in H. destruct H as (y & Hy & E). apply list_eqb_eq in E. subst y. exact Hy.
Qed.
