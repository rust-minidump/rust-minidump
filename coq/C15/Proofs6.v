(* C15/Proofs6.v — print_json(pretty = true): the pretty rendering (and the compact one) of every JSON value is accepted by
   the whitespace-tolerant RFC 8259 parser [parse_ws] and parses back to exactly that value; the compact layout of the
   parametrised serialiser is [serialise]; both renderings consist of scalar values when the value does; [parse_ws] accepts whatever the
   whitespace-free parser [parse] accepts, with the same value. *)
From Coq Require Import Lia.
From RM Require Import C15.Model C15.Pretty C15.Utf8 C15.Proofs C15.Proofs5.
Open Scope Z_scope.

Definition ws_layout (L : layout) : Prop :=
  (forall d, forallb is_ws (lo_open L d) = true) /\ (forall d, forallb is_ws (lo_comma L d) = true) /\
  (forall d, forallb is_ws (lo_close L d) = true) /\ forallb is_ws (lo_colon L) = true.

Lemma skip_ws_app w s : forallb is_ws w = true -> skip_ws (w ++ s) = skip_ws s.
Proof.
  induction w as [|c t IH]; intro H; [reflexivity|]. cbn [forallb] in H. apply andb_prop in H. destruct H as [Hc Ht].
  cbn [app skip_ws]. rewrite Hc. apply IH. exact Ht.
Qed.
Lemma skip_ws_head c r : is_ws c = false -> skip_ws (c :: r) = c :: r.
Proof. intro H. cbn [skip_ws]. rewrite H. reflexivity. Qed.

Lemma is_ws_small c : is_ws c = true -> c < 48.
Proof.
  unfold is_ws. intro H. repeat (apply orb_prop in H; destruct H as [H|H]); apply Z.eqb_eq in H; lia.
Qed.
Lemma not_ws c : c <> 32 -> c <> 10 -> c <> 13 -> c <> 9 -> is_ws c = false.
Proof. intros A B C D. unfold is_ws. apply Z.eqb_neq in A, B, C, D. rewrite A, B, C, D. reflexivity. Qed.

Lemma nodigit_ws w c r : forallb is_ws w = true -> (c <? 48) || (57 <? c) = true -> nodigit (w ++ c :: r).
Proof.
  destruct w as [|x t]; intros Hw Hc; [exact Hc|]. cbn [forallb] in Hw. apply andb_prop in Hw. destruct Hw as [Hx _].
  cbn [app nodigit]. apply is_ws_small in Hx. apply orb_true_iff. left. apply Z.ltb_lt. exact Hx.
Qed.

Lemma pw_val_ws fuel w s : forallb is_ws w = true -> pw_val fuel (w ++ s) = pw_val fuel s.
Proof. intro H. destruct fuel as [|f]; [reflexivity|]. cbn [pw_val]. rewrite (skip_ws_app w s H). reflexivity. Qed.
Lemma pw_elems_ws fuel w s : forallb is_ws w = true -> pw_elems fuel (w ++ s) = pw_elems fuel s.
Proof. intro H. destruct fuel as [|f]; [reflexivity|]. cbn [pw_elems]. rewrite (pw_val_ws f w s H). reflexivity. Qed.
Lemma pw_members_ws fuel w s : forallb is_ws w = true -> pw_members fuel (w ++ s) = pw_members fuel s.
Proof. intro H. destruct fuel as [|f]; [reflexivity|]. cbn [pw_members]. rewrite (skip_ws_app w s H). reflexivity. Qed.

Lemma ser_lo_head L d v : exists c t, ser_lo L d v = c :: t /\ is_ws c = false /\ c <> 93 /\ c <> 125.
Proof.
  destruct v as [|[|]|n|s|l|l]; cbn [ser_lo serialise];
    try (eexists; eexists; split; [reflexivity|split; [reflexivity|split; discriminate]]).
  - unfold ser_num. destruct (n <? 0); [eexists; eexists; split; [reflexivity|split; [reflexivity|split; discriminate]]|].
    destruct (dec_head n) as (c & t & H & Hc). rewrite H. exists c, t. split; [reflexivity|].
    split; [apply not_ws; lia|split; lia].
  - destruct l; eexists; eexists; (split; [reflexivity|split; [reflexivity|split; discriminate]]).
  - destruct l; eexists; eexists; (split; [reflexivity|split; [reflexivity|split; discriminate]]).
Qed.

Section RoundTrip.
  Variable L : layout.
  Hypothesis HL : ws_layout L.

  Definition parses_back_lo (v : json) : Prop :=
    forall d fuel rest, (length (ser_lo L d v) <= fuel)%nat -> nodigit rest -> pw_val fuel (ser_lo L d v ++ rest) = Some (v, rest).

  Lemma fuel_pos_lo d v fuel : (length (ser_lo L d v) <= fuel)%nat -> exists f, fuel = S f.
  Proof. destruct (ser_lo_head L d v) as (c & t & E & _). rewrite E. destruct fuel; [cbn [length]; lia|eauto]. Qed.

  Lemma elems_rtw l : Forall parses_back_lo l -> l <> [] ->
    forall d fuel rest, (length (lo_elems L (ser_lo L (S d)) d l) <= fuel)%nat ->
    pw_elems fuel (lo_elems L (ser_lo L (S d)) d l ++ rest) = Some (l, rest).
  Proof.
    destruct HL as (_ & Hcomma & Hclose & _).
    induction l as [|x t IH]; intros HF Hne d fuel rest Hfuel; [contradiction|].
    inversion HF as [|? ? Hx Ht]; subst. cbn [lo_elems] in *. rewrite app_length in Hfuel.
    destruct t as [|y t']; cbn [length] in Hfuel; rewrite app_length in Hfuel; (destruct fuel as [|f]; [cbn [length] in Hfuel; lia|]);
      rewrite <- app_assoc; cbn [pw_elems].
    - rewrite <- ?app_assoc. rewrite (Hx (S d) f (lo_close L d ++ [93] ++ rest)); [|cbn [length] in Hfuel; lia|apply nodigit_ws; [apply Hclose|reflexivity]].
      rewrite skip_ws_app by apply Hclose. cbn [app]. rewrite skip_ws_head by reflexivity. reflexivity.
    - cbn [app]. rewrite (Hx (S d) f (44 :: (lo_comma L d ++ lo_elems L (ser_lo L (S d)) d (y :: t')) ++ rest));
        [|lia|reflexivity].
      rewrite skip_ws_head by reflexivity. cbn [Z.eqb Pos.eqb].
      rewrite <- app_assoc. rewrite pw_elems_ws by apply Hcomma.
      rewrite (IH Ht ltac:(discriminate) d f rest); [reflexivity|lia].
  Qed.

  Lemma members_rtw l : Forall (fun kv => parses_back_lo (snd kv)) l -> l <> [] ->
    forall d fuel rest, (length (lo_members L (ser_lo L (S d)) d l) <= fuel)%nat ->
    pw_members fuel (lo_members L (ser_lo L (S d)) d l ++ rest) = Some (l, rest).
  Proof.
    destruct HL as (_ & Hcomma & Hclose & Hcolon).
    induction l as [|[k x] t IH]; intros HF Hne d fuel rest Hfuel; [contradiction|].
    inversion HF as [|? ? Hx Ht]; subst. cbn [snd] in Hx. cbn [lo_members] in *. unfold ser_str at 1. unfold ser_str in Hfuel at 1.
    cbn [app length] in Hfuel. rewrite !app_length in Hfuel. cbn [length] in Hfuel. rewrite !app_length in Hfuel.
    destruct t as [|y t']; cbn [length] in Hfuel; rewrite ?app_length in Hfuel; (destruct fuel as [|f]; [lia|]);
      cbn [app pw_members]; rewrite skip_ws_head by reflexivity; cbn [Z.eqb Pos.eqb];
      rewrite <- !app_assoc, parse_ser_str; cbn [app]; rewrite skip_ws_head by reflexivity; cbn [Z.eqb Pos.eqb];
      rewrite <- !app_assoc, pw_val_ws by exact Hcolon.
    - rewrite <- ?app_assoc. rewrite (Hx (S d) f (lo_close L d ++ [125] ++ rest)); [|cbn [length] in Hfuel; lia|apply nodigit_ws; [apply Hclose|reflexivity]].
      rewrite skip_ws_app by apply Hclose. cbn [app]. rewrite skip_ws_head by reflexivity. reflexivity.
    - cbn [app]. rewrite (Hx (S d) f (44 :: (lo_comma L d ++ lo_members L (ser_lo L (S d)) d (y :: t')) ++ rest));
        [|lia|reflexivity].
      rewrite skip_ws_head by reflexivity. cbn [Z.eqb Pos.eqb].
      rewrite <- app_assoc. rewrite pw_members_ws by apply Hcomma.
      rewrite (IH Ht ltac:(discriminate) d f rest); [reflexivity|lia].
  Qed.

  Lemma pw_val_rt : forall v, parses_back_lo v.
  Proof.
    destruct HL as (Hopen & _ & _ & _).
    apply json_ind'; unfold parses_back_lo.
    - intros d fuel rest Hf _. destruct (fuel_pos_lo _ _ _ Hf) as [f ->]. reflexivity.
    - intros b d fuel rest Hf _. destruct (fuel_pos_lo _ _ _ Hf) as [f ->]. destruct b; reflexivity.
    - intros n d fuel rest Hf Hr. destruct (fuel_pos_lo _ _ _ Hf) as [f ->]. cbn [ser_lo serialise]. unfold ser_num.
      destruct (n <? 0) eqn:En.
      + apply Z.ltb_lt in En. cbn [app pw_val]. rewrite skip_ws_head by reflexivity.
        cbn [Z.eqb Pos.eqb].
        rewrite parse_nat_rt by (try lia; exact Hr).
        assert (E : (- n =? 0) = false) by (apply Z.eqb_neq; lia). rewrite E, Z.opp_involutive. reflexivity.
      + apply Z.ltb_ge in En. destruct (dec_head n) as (c & t & Hd & Hc).
        pose proof (parse_nat_rt n rest En Hr) as Hp. rewrite Hd in *. cbn [app] in *. cbn [pw_val].
        rewrite skip_ws_head by (apply not_ws; lia).
        destruct (digit_dispatch c Hc) as (E1 & E2 & E3 & E4 & E5 & E6 & E7).
        rewrite E1, E2, E3, E4, E5, E6, E7, Hp. reflexivity.
    - intros s d fuel rest Hf _. destruct (fuel_pos_lo _ _ _ Hf) as [f ->]. cbn [ser_lo serialise]. unfold ser_str.
      cbn [app pw_val]. rewrite skip_ws_head by reflexivity.
      cbn [Z.eqb Pos.eqb].
      rewrite <- app_assoc, parse_ser_str. reflexivity.
    - intros l HF d fuel rest Hf _. destruct (fuel_pos_lo _ _ _ Hf) as [f ->].
      destruct l as [|x t]; [reflexivity|].
      cbn [ser_lo length] in *. rewrite app_length in Hf.
      assert (Hh : exists c2 r', lo_elems L (ser_lo L (S d)) d (x :: t) ++ rest = c2 :: r' /\ is_ws c2 = false /\ c2 <> 93).
      { cbn [lo_elems]. destruct (ser_lo_head L (S d) x) as (c & tl & Hs & Hw & Hne & _). rewrite Hs. cbn [app]. eauto. }
      destruct Hh as (c2 & r' & Hr & Hw & Hne).
      cbn [app pw_val]. rewrite skip_ws_head by reflexivity.
      cbn [Z.eqb Pos.eqb].
      rewrite <- app_assoc. rewrite skip_ws_app by apply Hopen. rewrite Hr, (skip_ws_head c2 r' Hw).
      apply Z.eqb_neq in Hne. rewrite Hne. rewrite <- Hr. rewrite pw_elems_ws by apply Hopen.
      rewrite (elems_rtw (x :: t) HF ltac:(discriminate) d f rest); [reflexivity|lia].
    - intros l HF d fuel rest Hf _. destruct (fuel_pos_lo _ _ _ Hf) as [f ->].
      destruct l as [|[k x] t]; [reflexivity|].
      cbn [ser_lo length] in *. rewrite app_length in Hf.
      assert (Hh : exists r', lo_members L (ser_lo L (S d)) d ((k, x) :: t) ++ rest = 34 :: r').
      { cbn [lo_members]. unfold ser_str. cbn [app]. eauto. }
      destruct Hh as (r' & Hr).
      cbn [app pw_val]. rewrite skip_ws_head by reflexivity.
      cbn [Z.eqb Pos.eqb].
      rewrite <- app_assoc. rewrite skip_ws_app by apply Hopen. rewrite Hr, (skip_ws_head 34 r') by reflexivity.
      cbn [Z.eqb Pos.eqb]. rewrite <- Hr. rewrite pw_members_ws by apply Hopen.
      rewrite (members_rtw ((k, x) :: t) HF ltac:(discriminate) d f rest); [reflexivity|lia].
  Qed.

  Lemma ser_lo_parse_ws v d : parse_ws (ser_lo L d v) = Some v.
  Proof.
    unfold parse_ws. pose proof (pw_val_rt v d (S (length (ser_lo L d v))) []) as H.
    rewrite app_nil_r in H. rewrite H; [reflexivity|lia|exact I].
  Qed.
End RoundTrip.

Lemma repeat_ws n : forallb is_ws (repeat 32 n) = true.
Proof. induction n; [reflexivity|]. cbn [repeat forallb]. rewrite IHn. reflexivity. Qed.
Lemma nl_indent_ws d : forallb is_ws (nl_indent d) = true.
Proof. unfold nl_indent. cbn [forallb]. rewrite repeat_ws. reflexivity. Qed.
Lemma pretty_ws_layout : ws_layout PRETTY.
Proof. repeat split; intros; try apply nl_indent_ws; reflexivity. Qed.
Lemma compact_ws_layout : ws_layout COMPACT.
Proof. repeat split; intros; reflexivity. Qed.

Lemma ser_lo_compact v : forall d, ser_lo COMPACT d v = serialise v.
Proof.
  induction v using json_ind'; intro d; try reflexivity.
  - cbn [ser_lo serialise]. destruct l as [|x t]; [reflexivity|]. cbn [COMPACT lo_open app]. f_equal.
    induction H as [|y t' Hy Ht IH]; [reflexivity|]. cbn [lo_elems ser_elems]. rewrite (Hy (S d)). f_equal.
    destruct t' as [|z t'']; [reflexivity|]. cbn [COMPACT lo_comma app]. f_equal. apply IH.
  - cbn [ser_lo serialise]. destruct l as [|[k x] t]; [reflexivity|]. cbn [COMPACT lo_open app]. f_equal.
    induction H as [|[k' y] t' Hy Ht IH]; [reflexivity|]. cbn [lo_members ser_members snd] in *. rewrite (Hy (S d)).
    cbn [COMPACT lo_colon app]. do 3 f_equal.
    destruct t' as [|z t'']; [reflexivity|]. cbn [COMPACT lo_comma app]. f_equal. apply IH.
Qed.

Lemma pretty_parse_ws v : parse_ws (pretty v) = Some v.
Proof. apply ser_lo_parse_ws. exact pretty_ws_layout. Qed.
Lemma compact_parse_ws v : parse_ws (serialise v) = Some v.
Proof. rewrite <- (ser_lo_compact v 0). apply ser_lo_parse_ws. exact compact_ws_layout. Qed.

Lemma ws_scalar w : forallb is_ws w = true -> forallb scalar w = true.
Proof.
  induction w as [|c t IH]; [reflexivity|]. cbn [forallb]. intro H. apply andb_prop in H. destruct H as [Hc Ht].
  rewrite (IH Ht), andb_true_r. apply ascii_scalar.
  unfold is_ws in Hc. repeat (apply orb_prop in Hc; destruct Hc as [Hc|Hc]); apply Z.eqb_eq in Hc; lia.
Qed.

Lemma ser_lo_scalar L : ws_layout L -> forall v, jscalar v = true -> forall d, forallb scalar (ser_lo L d v) = true.
Proof.
  intros (Hopen & Hcomma & Hclose & Hcolon). induction v using json_ind'; intros Hv d; try reflexivity.
  - destruct b; reflexivity.
  - apply ser_num_scalar.
  - apply ser_str_scalar. exact Hv.
  - assert (G : forallb scalar (lo_elems L (ser_lo L (S d)) d l) = true).
    { cbn [jscalar] in Hv. induction H as [|x t Hx _ IH]; [reflexivity|]. cbn [forallb] in Hv. apply andb_prop in Hv. destruct Hv as [Hx' Ht'].
      cbn [lo_elems]. apply forallb_app'; [exact (Hx Hx' (S d))|]. destruct t as [|y t'].
      - apply forallb_app'; [apply ws_scalar, Hclose|reflexivity].
      - cbn [forallb]. apply forallb_app'; [apply ws_scalar, Hcomma|exact (IH Ht')]. }
    cbn [ser_lo]. destruct l; [reflexivity|]. cbn [forallb]. apply forallb_app'; [apply ws_scalar, Hopen|exact G].
  - assert (G : forallb scalar (lo_members L (ser_lo L (S d)) d l) = true).
    { cbn [jscalar] in Hv. induction H as [|[k x] t Hx _ IH]; [reflexivity|]. cbn [forallb] in Hv. apply andb_prop in Hv. destruct Hv as [Hx' Ht'].
      apply andb_prop in Hx'. destruct Hx' as [Hk Hx']. cbn [lo_members]. apply forallb_app'; [apply ser_str_scalar; exact Hk|].
      cbn [forallb]. apply forallb_app'; [apply ws_scalar, Hcolon|]. apply forallb_app'; [exact (Hx Hx' (S d))|]. destruct t as [|y t'].
      - apply forallb_app'; [apply ws_scalar, Hclose|reflexivity].
      - cbn [forallb]. apply forallb_app'; [apply ws_scalar, Hcomma|exact (IH Ht')]. }
    cbn [ser_lo]. destruct l; [reflexivity|]. cbn [forallb]. apply forallb_app'; [apply ws_scalar, Hopen|exact G].
Qed.

Lemma pretty_scalar v : jscalar v = true -> forallb scalar (pretty v) = true.
Proof. intro H. exact (ser_lo_scalar PRETTY pretty_ws_layout v H 0%nat). Qed.
Lemma serialise_scalar v : jscalar v = true -> forallb scalar (serialise v) = true.
Proof. intro H. rewrite <- (ser_lo_compact v 0). exact (ser_lo_scalar COMPACT compact_ws_layout v H 0%nat). Qed.

Lemma report_bytes_utf8 v : jscalar v = true ->
  utf8_decode (length (utf8 (serialise v))) (utf8 (serialise v)) = Some (serialise v).
Proof. intro H. apply decode_encode; [apply utf8_len|apply serialise_scalar; exact H]. Qed.
Lemma pretty_bytes_utf8 v : jscalar v = true ->
  utf8_decode (length (utf8 (pretty v))) (utf8 (pretty v)) = Some (pretty v).
Proof. intro H. apply decode_encode; [apply utf8_len|apply pretty_scalar; exact H]. Qed.

(* the first character of anything parse_val accepts is not whitespace: on each of the four whitespace characters it fails *)
Lemma parse_val_head f c r v rest : parse_val f (c :: r) = Some (v, rest) -> is_ws c = false.
Proof.
  destruct f as [|f]; [discriminate|]. intro H. destruct (is_ws c) eqn:W; [exfalso|reflexivity]. unfold is_ws in W.
  repeat (apply orb_prop in W; destruct W as [W|W]); apply Z.eqb_eq in W; subst c; cbv in H; discriminate H.
Qed.

Lemma skip_ws_val f s v rest : parse_val f s = Some (v, rest) -> skip_ws s = s.
Proof.
  destruct s as [|c r]; [reflexivity|]. intro H. apply skip_ws_head. eapply parse_val_head. exact H.
Qed.

(* with the same fuel [pw_*] accepts what [parse_*] accepts: wherever [pw_*] skips whitespace, the next character is one that
   [parse_*] has just tested and accepted (the head of a value, a quote, a colon, a comma, a closing bracket), none of which is
   whitespace, so every [skip_ws] leaves the input as it is *)
Lemma pw_accepts_parsed : forall f,
  (forall s v rest, parse_val f s = Some (v, rest) -> pw_val f s = Some (v, rest)) /\
  (forall s l rest, parse_elems f s = Some (l, rest) -> pw_elems f s = Some (l, rest)) /\
  (forall s l rest, parse_members f s = Some (l, rest) -> pw_members f s = Some (l, rest)).
Proof.
  induction f as [|f (IHv & IHe & IHm)]; [repeat split; intros; discriminate|]. repeat split.
  - intros s v rest H. pose proof (skip_ws_val _ _ _ _ H) as Hs. cbn [pw_val]. rewrite Hs.
    destruct s as [|c r]; [discriminate H|]. cbn [parse_val] in H.
    destruct (c =? 110); [exact H|]. destruct (c =? 116); [exact H|]. destruct (c =? 102); [exact H|]. destruct (c =? 34); [exact H|].
    destruct (c =? 91).
    { destruct r as [|c2 r']; [discriminate H|]. destruct (c2 =? 93) eqn:E93.
      - apply Z.eqb_eq in E93. subst c2. rewrite skip_ws_head by reflexivity. exact H.
      - destruct (parse_elems f (c2 :: r')) as [[l rest']|] eqn:PE; [|discriminate H].
        assert (W : is_ws c2 = false).
        { destruct f as [|f']; [discriminate PE|]. cbn [parse_elems] in PE.
          destruct (parse_val f' (c2 :: r')) as [[v0 r0]|] eqn:PV; [|discriminate PE]. eapply parse_val_head. exact PV. }
        rewrite (skip_ws_head c2 r' W), E93, (IHe _ _ _ PE). exact H. }
    destruct (c =? 123).
    { destruct r as [|c2 r']; [discriminate H|]. destruct (c2 =? 125) eqn:E125.
      - apply Z.eqb_eq in E125. subst c2. rewrite skip_ws_head by reflexivity. exact H.
      - destruct (parse_members f (c2 :: r')) as [[l rest']|] eqn:PM; [|discriminate H].
        assert (W : is_ws c2 = false).
        { destruct f as [|f']; [discriminate PM|]. cbn [parse_members] in PM.
          destruct (c2 =? 34) eqn:E34; [apply Z.eqb_eq in E34; subst; reflexivity|discriminate PM]. }
        rewrite (skip_ws_head c2 r' W), E125, (IHm _ _ _ PM). exact H. }
    exact H.
  - intros s l rest H. cbn [parse_elems] in H. cbn [pw_elems].
    destruct (parse_val f s) as [[v r0]|] eqn:PV; [|discriminate H]. rewrite (IHv _ _ _ PV).
    destruct r0 as [|c r]; [discriminate H|].
    destruct (c =? 44) eqn:E44.
    + apply Z.eqb_eq in E44. subst c. rewrite skip_ws_head by reflexivity. change (44 =? 44) with true. cbn iota.
      destruct (parse_elems f r) as [[l' rest']|] eqn:PE; [|discriminate H]. rewrite (IHe _ _ _ PE). exact H.
    + destruct (c =? 93) eqn:E93; [|discriminate H]. apply Z.eqb_eq in E93. subst c. rewrite skip_ws_head by reflexivity. exact H.
  - intros s l rest H. cbn [parse_members] in H. cbn [pw_members].
    destruct s as [|c r]; [discriminate H|]. destruct (c =? 34) eqn:E34; [|discriminate H].
    apply Z.eqb_eq in E34. subst c. rewrite skip_ws_head by reflexivity. change (34 =? 34) with true. cbn iota.
    destruct (parse_str r) as [[k r1]|]; [|discriminate H]. destruct r1 as [|c1 r1']; [discriminate H|].
    destruct (c1 =? 58) eqn:E58; [|discriminate H]. apply Z.eqb_eq in E58. subst c1. rewrite skip_ws_head by reflexivity.
    change (58 =? 58) with true. cbn iota.
    destruct (parse_val f r1') as [[v r2]|] eqn:PV; [|discriminate H]. rewrite (IHv _ _ _ PV).
    destruct r2 as [|c2 r2']; [discriminate H|].
    destruct (c2 =? 44) eqn:E44.
    + apply Z.eqb_eq in E44. subst c2. rewrite skip_ws_head by reflexivity. change (44 =? 44) with true. cbn iota.
      destruct (parse_members f r2') as [[l' rest']|] eqn:PM; [|discriminate H]. rewrite (IHm _ _ _ PM). exact H.
    + destruct (c2 =? 125) eqn:E125; [|discriminate H]. apply Z.eqb_eq in E125. subst c2. rewrite skip_ws_head by reflexivity. exact H.
Qed.

Lemma parse_ws_extends s v : parse s = Some v -> parse_ws s = Some v.
Proof.
  unfold parse, parse_ws. destruct (parse_val (S (length s)) s) as [[v' rest]|] eqn:P; [|discriminate].
  destruct rest; [|discriminate]. intro H. rewrite (proj1 (pw_accepts_parsed _) _ _ _ P). exact H.
Qed.
