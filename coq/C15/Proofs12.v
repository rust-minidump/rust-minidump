(* C15/Proofs12.v — basename: the text after the last separator (rfind + slice), separators read off the source. *)
From Coq Require Import Lia.
From RM Require Import C15.Model Gen.C15Fmt.
Open Scope Z_scope.

Definition is_sep (c : Z) : bool := (c =? 47) || (c =? 92).
Lemma is_sep_table c : is_sep c = true <-> In c BASENAME_SEPARATORS.
Proof.
  unfold is_sep. change BASENAME_SEPARATORS with [47; 92]. (* the separators read off the source *) split.
  - intro H. apply orb_prop in H. destruct H as [H|H]; apply Z.eqb_eq in H; subst; cbn; auto.
  - intros [<-|[<-|[]]]; reflexivity.
Qed.

Lemma basename_aux_nosep : forall s acc, (forall c, In c s -> is_sep c = false) -> basename_aux s acc = acc.
Proof.
  induction s as [|x t IH]; intros acc H; [reflexivity|]. cbn [basename_aux].
  pose proof (H x (or_introl eq_refl)) as Hx. unfold is_sep in Hx. rewrite Hx. apply IH. intros c Hc. apply H. right. exact Hc.
Qed.
Lemma basename_aux_sep : forall a c b acc, is_sep c = true -> basename_aux (a ++ c :: b) acc = basename_aux b b.
Proof.
  induction a as [|x a IH]; intros c b acc Hc.
  - cbn [app basename_aux]. unfold is_sep in Hc. rewrite Hc. reflexivity.
  - cbn [app basename_aux]. destruct ((x =? 47) || (x =? 92)); apply IH; exact Hc.
Qed.

Lemma basename_nosep s : (forall c, In c s -> is_sep c = false) -> basename s = s.
Proof. intro H. apply basename_aux_nosep. exact H. Qed.
Lemma basename_last_sep a c b : is_sep c = true -> (forall x, In x b -> is_sep x = false) -> basename (a ++ c :: b) = b.
Proof. intros Hc Hb. unfold basename. rewrite basename_aux_sep by exact Hc. apply basename_aux_nosep. exact Hb. Qed.

(* every string has no separator or splits at its last one: the two equations above determine basename *)
Lemma last_sep_split : forall s, (forall c, In c s -> is_sep c = false) \/
  exists a c b, s = a ++ c :: b /\ is_sep c = true /\ (forall x, In x b -> is_sep x = false).
Proof.
  induction s as [|x t IH]; [left; intros c []|]. destruct IH as [N|(a & c & b & E & Hc & Hb)].
  - destruct (is_sep x) eqn:Ex.
    + right. exists [], x, t. repeat split; [exact Ex|exact N].
    + left. intros c [<-|Hc]; [exact Ex|apply N; exact Hc].
  - right. exists (x :: a), c, b. subst t. repeat split; [exact Hc|exact Hb].
Qed.
