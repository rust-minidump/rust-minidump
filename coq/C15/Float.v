(* C15/Float.v — `possible_bit_flips[].confidence`: how print_json renders the binary32 value.
   process_state.rs builds the member with `json!`, i.e. serde_json::Value::from(f32) = Number::from_f64(f as f64): the
   binary32 is WIDENED to binary64 (exact) and serde_json's writer prints it with ryu::Buffer::format_finite, the shortest
   decimal that reads back as that binary64 (ryu d2s::d2d), laid out by ryu pretty::format64.
   Everything here is exact integer arithmetic on (mantissa, binary exponent) / (decimal mantissa, decimal exponent) pairs:
     [b32_decode]    the fields of a binary32 bit pattern (agrees with Flocq's b32_of_bits: Proofs19.b32_decode_flocq);
     [in_interval]   a decimal c * 10^k lies in the round-to-nearest-even interval of the widened value, i.e. every correctly
                     rounding reader gets that binary64 back (its mantissa is even - 29 trailing zero bits - so both ends belong
                     to the interval; below a power of two the lower half-gap is half as wide);
     [render_f32]    the text: the closest of the shortest decimals of the interval (ties to even), in format64's layout;
     [json_number] / [num_value]  RFC 8259 `number` grammar and the exact value (sign, c, k) of such a text;
     [conf_text_ok]  the judgement of a printed confidence against the bits of the state, independent of [render_f32]:
                     a JSON number, reads back as the widened binary32, within [0,1], no shorter decimal reads back.
   Definitions only; proofs are in C15/Proofs19.v. *)
From RM Require Import C15.Model.
From RM Require C19.Model.
Open Scope Z_scope.

(* (negative, m, e): the value is (-1)^negative * m * 2^e; None = infinity / NaN (serde_json writes null for those) *)
Definition b32_decode (bits : Z) : option (bool * Z * Z) :=
  let sg := 2147483648 <=? bits in
  let ex := (bits / 8388608) mod 256 in
  let mn := bits mod 8388608 in
  if ex =? 255 then None
  else if ex =? 0 then Some (sg, mn, -149)
  else Some (sg, 8388608 + mn, ex - 150).

(* c * 10^k  compared with  w * 2^q  (both sides multiplied by the positive 10^max(-k,0) * 2^max(-q,0)) *)
Definition scale_cmp (c k w q : Z) : comparison :=
  Z.compare (c * 10 ^ Z.max k 0 * 2 ^ Z.max (- q) 0) (w * 2 ^ Z.max q 0 * 10 ^ Z.max (- k) 0).

(* the widened value m * 2^e as a binary64: mantissa m * 2^sh in [2^52, 2^53), exponent e - sh (a binary32 is never a binary64
   subnormal: e - sh >= -201).  In units of a quarter ulp, 2^(e - sh - 2): the value is 4 * m64, the interval reaches 2 units up
   and 2 units down, 1 unit down when m64 = 2^52 *)
Definition b64_frame (m e : Z) : Z * Z * Z :=
  let sh := 52 - Z.log2 m in
  let m64 := m * 2 ^ sh in
  (4 * m64, (if m64 =? 4503599627370496 then 1 else 2), e - sh - 2).
Definition in_interval (m e c k : Z) : bool :=
  let '(v4, dn, e4) := b64_frame m e in
  match scale_cmp c k (v4 - dn) e4 with Lt => false | _ => match scale_cmp c k (v4 + 2) e4 with Gt => false | _ => true end end.

(* floor (m * 2^e / 10^k) *)
Definition floor_scaled (m e k : Z) : Z :=
  (m * 2 ^ Z.max e 0 * 10 ^ Z.max (- k) 0) / (2 ^ Z.max (- e) 0 * 10 ^ Z.max k 0).
(* p with 10^p <= m * 2^e < 10^(p+1): a lower estimate from the binary logarithm, then at most three steps up *)
Fixpoint dec_exp_up (fuel : nat) (m e p : Z) : Z :=
  match fuel with
  | O => p
  | S f => if 1 <=? floor_scaled m e (p + 1) then dec_exp_up f m e (p + 1) else p
  end.
Definition dec_exp (m e : Z) : Z := dec_exp_up 4 m e (((Z.log2 m + e) * 30103) / 100000 - 1).

(* the n-digit decimals next to the value: lo = floor, hi = lo + 1, at exponent k = p - n + 1; the first n for which one of
   them reads back wins; both: the closer one, ties to the even mantissa (what ryu's digit-removal loop computes) *)
Fixpoint shortest (fuel : nat) (n m e p : Z) : Z * Z :=
  let k := p - n + 1 in
  let lo := floor_scaled m e k in
  let hi := lo + 1 in
  match fuel with
  | O => (lo, k)
  | S f =>
      let vl := in_interval m e lo k in
      let vh := in_interval m e hi k in
      if vl && vh then
        match scale_cmp (lo + hi) k (2 * m) e with
        | Gt => (lo, k)                    (* the midpoint is above the value: lo is closer *)
        | Lt => (hi, k)
        | Eq => if Z.even lo then (lo, k) else (hi, k)
        end
      else if vl then (lo, k) else if vh then (hi, k) else shortest f (n + 1) m e p
  end.
Fixpoint strip_zeros (fuel : nat) (c k : Z) : Z * Z :=
  match fuel with
  | O => (c, k)
  | S f => if (c mod 10 =? 0) && negb (c =? 0) then strip_zeros f (c / 10) (k + 1) else (c, k)
  end.
Definition shortest_decimal (m e : Z) : Z * Z :=
  let '(c, k) := shortest 17 1 m e (dec_exp m e) in strip_zeros 20 c k.

(* ryu pretty::format64 on decimal mantissa c (no trailing zero) and exponent k *)
Definition zeros (n : Z) : list Z := repeat 48 (Z.to_nat n).
Definition format64 (c k : Z) : list Z :=
  let ds := dec_digits c in
  let len := Z.of_nat (length ds) in
  let kk := len + k in
  let exp10 := (if kk - 1 <? 0 then [45] else []) ++ dec_digits (Z.abs (kk - 1)) in
  if (0 <=? k) && (kk <=? 16) then ds ++ zeros k ++ [46; 48]                                  (* 1234e7 -> 12340000000.0 *)
  else if (0 <? kk) && (kk <=? 16) then firstn (Z.to_nat kk) ds ++ 46 :: skipn (Z.to_nat kk) ds   (* 1234e-2 -> 12.34 *)
  else if (-5 <? kk) && (kk <=? 0) then 48 :: 46 :: zeros (- kk) ++ ds                        (* 1234e-6 -> 0.001234 *)
  else if len =? 1 then ds ++ 101 :: exp10                                                    (* 1e30 *)
  else firstn 1 ds ++ 46 :: skipn 1 ds ++ 101 :: exp10.                                       (* 1234e30 -> 1.234e33 *)

Definition render_f32 (bits : Z) : list Z :=
  match b32_decode bits with
  | None => [110; 117; 108; 108]                                          (* Number::from_f64 fails: Value::Null *)
  | Some (sg, m, e) =>
      (if sg then [45] else []) ++
      (if m =? 0 then [48; 46; 48] else let '(c, k) := shortest_decimal m e in format64 c k)
  end.

(* ------------------------------------------------------------------ judging a printed number *)
Fixpoint digit_run (s : list Z) : list Z * list Z :=
  match s with
  | c :: r => if is_digit c then let '(d, rest) := digit_run r in (c :: d, rest) else ([], s)
  | [] => ([], [])
  end.
Definition digits_value (ds : list Z) : Z := fold_left (fun a d => a * 10 + (d - 48)) ds 0.
(* RFC 8259: number = [ minus ] int [ frac ] [ exp ];  int = zero / ( digit1-9 *DIGIT );  frac = "." 1*DIGIT;
   exp = e [ minus / plus ] 1*DIGIT.   Some (negative, c, k): the text denotes (-1)^negative * c * 10^k *)
Definition num_value (s : list Z) : option (bool * Z * Z) :=
  let '(neg, s1) := match s with 45 :: r => (true, r) | _ => (false, s) end in
  let '(ip, r1) := digit_run s1 in
  let int_ok := match ip with [] => false | [_] => true | d :: _ :: _ => negb (d =? 48) end in
  if negb int_ok then None else
  let frac := match r1 with
              | 46 :: r2 => let '(fp, r3) := digit_run r2 in match fp with [] => None | _ :: _ => Some (fp, r3) end
              | _ => Some ([], r1)
              end in
  match frac with
  | None => None
  | Some (fp, r3) =>
      let c := digits_value (ip ++ fp) in
      let k0 := - Z.of_nat (length fp) in
      match r3 with
      | [] => Some (neg, c, k0)
      | x :: r4 =>
          if (x =? 101) || (x =? 69) then
            let '(eneg, r5) := match r4 with 45 :: r => (true, r) | 43 :: r => (false, r) | _ => (false, r4) end in
            let '(ep, r6) := digit_run r5 in
            match ep, r6 with
            | _ :: _, [] => Some (neg, c, k0 + (if eneg then - digits_value ep else digits_value ep))
            | _, _ => None
            end
          else None
      end
  end.
Definition json_number (s : list Z) : bool := match num_value s with Some _ => true | None => false end.

Definition digit_count (c : Z) : Z := Z.of_nat (length (dec_digits c)).
(* no decimal with fewer significant digits than c (taken without trailing zeros) reads back as m * 2^e: a decimal of n-1
   digits below / above the value that lies in the interval forces the nearest one (floor / floor + 1) into it *)
Definition no_shorter (m e c k : Z) : bool :=
  let '(c1, _) := strip_zeros 400 c k in
  let n := digit_count c1 in
  if n <=? 1 then true
  else let k1 := dec_exp m e - (n - 1) + 1 in
       let lo := floor_scaled m e k1 in
       negb (in_interval m e lo k1) && negb (in_interval m e (lo + 1) k1).

Definition conf_text_ok (bits : Z) (text : list Z) : bool :=
  match b32_decode bits, num_value text with
  | Some (sg, m, e), Some (neg, c, k) =>
      if m =? 0 then (c =? 0) && negb sg && negb neg
      else negb sg && negb neg && in_interval m e c k
           && match scale_cmp c k 1 0 with Gt => false | _ => true end          (* c * 10^k <= 1 *)
           && no_shorter m e c k
  | _, _ => false
  end.

(* ------------------------------------------------------------------ the confidence of a reported bit flip
   recomputed from the details the report prints next to it (C19's exact Flocq model of BitFlipDetails::confidence, statement list
   regenerated from the source), as bits and as the text print_json writes *)
Definition flip_details (b : flip) : C19.Model.details :=
  {| C19.Model.d_nc := bf_nc b; C19.Model.d_null := bf_null b; C19.Model.d_low := bf_low b;
     C19.Model.d_nearby := bf_nearby b; C19.Model.d_poison := bf_poison b |}.
Definition flip_conf_bits (b : flip) : Z := C19.Model.confidence_bits (flip_details b).
Definition flip_conf_text (b : flip) : list Z := render_f32 (flip_conf_bits b).
