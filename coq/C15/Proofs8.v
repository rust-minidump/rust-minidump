(* C15/Proofs8.v — the report of a state whose strings are Unicode scalar values consists of scalar values only. *)
From Coq Require Import Lia.
From RM Require Import C15.Model C15.Schema C15.Utf8 C15.Scalar C15.Proofs C15.Proofs2 C15.Proofs3 C15.Proofs5.
Open Scope Z_scope.

Lemma js_obj l : Forall (fun kv => sstr (fst kv) = true /\ jscalar (snd kv) = true) l -> jscalar (JObj l) = true.
Proof.
  intro H. cbn [jscalar]. apply forallb_forall. rewrite Forall_forall in H. intros [k v] Hin.
  destruct (H _ Hin) as [A B]. cbn [fst snd] in *. unfold sstr in A. rewrite A, B. reflexivity.
Qed.
Lemma js_arr_map {A} (f : A -> json) l : (forall a, In a l -> jscalar (f a) = true) -> jscalar (JArr (map f l)) = true.
Proof.
  intro H. cbn [jscalar]. apply forallb_forall. intros v Hv. apply in_map_iff in Hv. destruct Hv as (a & <- & Ha). exact (H a Ha).
Qed.
Lemma js_arr_or_null {A} (f : A -> json) l : (forall a, In a l -> jscalar (f a) = true) ->
  jscalar (match l with [] => JNull | a :: r => JArr (map f (a :: r)) end) = true.
Proof. intro H. destruct l; [reflexivity|]. apply js_arr_map. exact H. Qed.
Lemma js_ostr o : sostr o = true -> jscalar (jopt JStr o) = true.
Proof. destruct o; intro H; [exact H|reflexivity]. Qed.
Lemma js_onum o : jscalar (jopt JNum o) = true.
Proof. destruct o; reflexivity. Qed.

Lemma strip0_scalar l : forallb scalar l = true -> forallb scalar (strip0 l) = true.
Proof. rewrite !forallb_forall. intros H x Hx. apply H, strip0_In, Hx. Qed.
Lemma prefix_scalar l : forallb scalar l = true -> forallb scalar (48 :: 120 :: l) = true.
Proof. intro H. cbn [forallb]. rewrite H. reflexivity. Qed.
Lemma addr_scalar w x : forallb scalar (address_str w x) = true.
Proof.
  unfold address_str. apply prefix_scalar.
  destruct w; try apply hex_fixed_scalar. destruct (x <? two32); [apply hex_fixed_scalar|apply strip0_scalar, hex_fixed_scalar].
Qed.
Lemma js_hex w x : jscalar (jhex w x) = true.
Proof. apply addr_scalar. Qed.
Lemma js_ohex w o : jscalar (jopt (jhex w) o) = true.
Proof. destruct o; [apply js_hex|reflexivity]. Qed.

Lemma basename_aux_scalar : forall s acc, forallb scalar s = true -> forallb scalar acc = true -> forallb scalar (basename_aux s acc) = true.
Proof.
  induction s as [|c t IH]; intros acc Hs Ha; [exact Ha|]. cbn [forallb] in Hs. apply andb_prop in Hs. destruct Hs as [_ Ht].
  cbn [basename_aux]. destruct ((c =? 47) || (c =? 92)); apply IH; assumption.
Qed.
Lemma basename_scalar s : forallb scalar s = true -> forallb scalar (basename s) = true.
Proof. intro H. apply basename_aux_scalar; exact H. Qed.

Lemma lookup_scalar k (l : list (list Z * list Z)) : forallb (fun e : list Z * list Z => sstr (snd e)) l = true -> sostr (lookup k l) = true.
Proof.
  induction l as [|[k' v] t IH]; intro H; [reflexivity|]. cbn [forallb snd] in H. apply andb_prop in H. destruct H as [Hv Ht].
  cbn [lookup]. destruct (list_eqb k k'); [exact Hv|apply IH; exact Ht].
Qed.

Lemma nth_name_scalar tbl i : forallb sstr tbl = true -> forallb scalar (nth_name tbl i) = true.
Proof.
  intro H. unfold nth_name. destruct (nth_in_or_default (Z.to_nat i) tbl []) as [Hin|E]; [|rewrite E; reflexivity].
  rewrite forallb_forall in H. exact (H _ Hin).
Qed.
Lemma trust_scalar i : forallb scalar (trust_name i) = true.
Proof. apply nth_name_scalar. vm_compute. reflexivity. Qed.
Lemma access_scalar i : forallb scalar (access_name i) = true.
Proof. apply nth_name_scalar. vm_compute. reflexivity. Qed.
Lemma incons_scalar i : forallb scalar (inconsistency_name i) = true.
Proof. apply nth_name_scalar. vm_compute. reflexivity. Qed.
Lemma cpu_scalar i : forallb scalar (cpu_name i) = true.
Proof. apply nth_name_scalar. vm_compute. reflexivity. Qed.
Lemma os_scalar i raw : forallb scalar (os_name i raw) = true.
Proof.
  unfold os_name. destruct (i =? 8); [|apply nth_name_scalar; vm_compute; reflexivity].
  do 2 apply prefix_scalar. destruct (raw <? 16777216); [apply hex_fixed_scalar|apply strip0_scalar, hex_fixed_scalar].
Qed.

Ltac sobj := apply js_obj; repeat (apply Forall_cons || apply Forall_nil); cbn [fst snd]; (split; [reflexivity|]).
Ltac sleaf := first [ reflexivity | apply js_onum | apply js_hex | apply js_ohex | (apply js_ostr; assumption) | assumption ].

Lemma inline_scalar i : sc_inline i = true -> jscalar (json_of_inline i) = true.
Proof. unfold sc_inline. intro H. splitb. unfold json_of_inline. sobj; try sleaf. Qed.

Lemma frame_fields_s w idx f : sc_frame f = true ->
  Forall (fun kv => sstr (fst kv) = true /\ jscalar (snd kv) = true) (frame_members w idx f).
Proof.
  unfold sc_frame. intro H. splitb. unfold frame_obj, frame_members.
  repeat (apply Forall_cons || apply Forall_nil); cbn [fst snd]; (split; [reflexivity|]); try sleaf.
  - (* function_offset *) destruct (fr_function_base f); sleaf.
  - (* inlines *) apply js_arr_or_null. intros i Hi. apply inline_scalar.
    eapply forallb_In in Hi; [|eassumption]; exact Hi.
  - (* module *) destruct (fr_module f) as [[nm b]|]; [|reflexivity]. cbn [jopt jscalar fst] in *. apply basename_scalar. assumption.
  - (* module_offset *) destruct (fr_module f) as [[nm b]|]; sleaf.
  - (* trust *) apply trust_scalar.
  - (* unloaded_modules *) apply js_arr_or_null. intros e He. sobj.
    + eapply forallb_In in He; [|eassumption]; exact He.
    + apply js_arr_map. intros; apply js_hex.
Qed.
Lemma frame_scalar w idx f : sc_frame f = true -> jscalar (frame_obj w idx f) = true.
Proof. intro H. apply js_obj. exact (frame_fields_s w idx f H). Qed.

Lemma frames_scalar w l : forallb sc_frame l = true -> forall idx,
  forallb jscalar (frames_obj w idx l) = true.
Proof.
  induction l as [|f t IH]; intros H idx; [reflexivity|]. cbn [forallb] in H. splitb.
  cbn [frames_obj forallb]. rewrite frame_scalar by assumption. apply IH. assumption.
Qed.

Lemma thread_scalar w t : sc_thread t = true -> jscalar (thread_obj w t) = true.
Proof.
  unfold sc_thread. intro H. splitb. unfold thread_obj. sobj; try sleaf. cbn [jscalar]. apply frames_scalar. assumption.
Qed.

Lemma registers_scalar regs : forallb (fun r : list Z * Z * nat => sstr (fst (fst r))) regs = true -> jscalar (json_registers regs) = true.
Proof.
  intro H. unfold json_registers. cbn [jscalar]. apply forallb_forall. intros [k v] Hin. apply in_map_iff in Hin.
  destruct Hin as (r & E & Hr). inversion E; subst. rewrite forallb_forall in H. specialize (H r Hr). unfold sstr in H. rewrite H.
  cbn [andb snd]. apply (prefix_scalar (hex_fixed _ _)), hex_fixed_scalar.
Qed.

Lemma cthread_scalar w t i regs : sc_thread t = true -> jscalar regs = true ->
  jscalar (crashing_copy regs i (thread_obj w t)) = true.
Proof.
  unfold sc_thread. intros H Hr. splitb. unfold thread_obj.
  destruct (th_frames t) as [|f0 fs] eqn:E.
  - cbn [frames_obj crashing_copy]. sobj; sleaf.
  - cbn [frames_obj crashing_copy].
    match goal with H : forallb sc_frame (_ :: _) = true |- _ => cbn [forallb] in H end. splitb.
    sobj; try sleaf. cbn [jscalar forallb]. apply andb_true_iff. split; [|apply frames_scalar; assumption].
    unfold frame_obj, frame_members. cbn [add_registers]. apply js_obj.
    apply Forall_insert; [exact (frame_fields_s w 0 f0 ltac:(assumption))|]. split; [reflexivity|exact Hr].
Qed.

Lemma module_scalar w certs stats m : sc_module m = true ->
  forallb (fun e : list Z * list Z => sstr (snd e)) certs = true -> forallb sc_stat stats = true ->
  jscalar (mod_obj w certs stats m) = true.
Proof.
  unfold sc_module. intros H Hc Hs. splitb. unfold mod_obj. cbv zeta.
  assert (St : sc_stat (basename (m_file m), match lookup (basename (m_file m)) stats with Some s => s | None => default_stat end) = true).
  { clear -Hs. induction stats as [|[k v] t IH]; [reflexivity|]. cbn [forallb] in Hs. apply andb_prop in Hs. destruct Hs as [Hv Ht].
    cbn [lookup]. destruct (list_eqb (basename (m_file m)) k); [exact Hv|apply IH; exact Ht]. }
  unfold sc_stat in St. cbn [snd] in St. splitb.
  sobj; try sleaf.
  - apply js_ostr. apply lookup_scalar. exact Hc.
  - cbn [jscalar]. apply basename_scalar.
    destruct (ss_extra _) as [[a b]|]; [cbn [fst snd] in *; splitb; assumption|assumption].
  - cbn [jscalar]. destruct (ss_extra _) as [[a b]|]; [cbn [fst snd] in *; splitb; assumption|assumption].
  - cbn [jscalar]. apply basename_scalar. assumption.
Qed.

Lemma crash_scalar w c req a : match c with Some c => sc_crash c = true | None => True end -> sostr a = true ->
  jscalar (json_of_crash w c req a) = true.
Proof.
  intros Hc Ha. unfold json_of_crash. destruct c as [c|]; [unfold sc_crash in Hc; splitb|]; (sobj; try sleaf);
    try (destruct req; reflexivity).
  - (* adjusted_address *) destruct (cr_adjusted c) as [[x|x]|]; [| |reflexivity]; sobj; sleaf.
  - (* crash_inconsistencies *) cbn [jopt]. apply js_arr_map. intros; apply incons_scalar.
  - (* instruction_pointer_update *) destruct (cr_ipu c) as [[|x [|]]|]; try reflexivity; sobj; sleaf.
  - (* memory_accesses *) destruct (cr_accesses c) as [l|]; [|reflexivity]. cbn [jopt]. apply js_arr_map. intros x _. unfold json_of_access.
    destruct (a_type x <? 3); destruct (a_guard x); cbn [app]; sobj; try sleaf; apply access_scalar.
  - (* possible_bit_flips *) apply js_arr_or_null. intros b Hb. unfold json_of_flip. sobj; try sleaf. apply js_ostr.
    eapply forallb_In in Hb; [|eassumption]; exact Hb.
Qed.

Lemma sys_scalar y : sc_sys y = true -> jscalar (json_of_sys y) = true.
Proof.
  unfold sc_sys. intro H. splitb. unfold json_of_sys. sobj; try sleaf.
  - apply cpu_scalar.
  - destruct (sy_microcode y) as [n|]; [|reflexivity]. apply (prefix_scalar (strip0 _)), strip0_scalar, hex_fixed_scalar.
  - apply os_scalar.
Qed.

Lemma tail_scalar s : state_scalar s = true ->
  Forall (fun kv => sstr (fst kv) = true /\ jscalar (snd kv) = true) (tail_obj s).
Proof.
  unfold state_scalar. intro H. splitb. unfold tail_obj. cbv zeta.
  repeat (apply Forall_cons || apply Forall_nil); cbn [fst snd]; (split; [reflexivity|]); try sleaf.
  - (* handles *) destruct (s_handles s) as [l|]; [|reflexivity]. cbn [jopt]. apply js_arr_map. intros h Hh.
    eapply forallb_In in Hh; [|eassumption]. unfold sc_handle in Hh. splitb. unfold json_of_handle. sobj; sleaf.
  - (* lsb_release *) destruct (s_lsb s) as [[[[i r] c] d]|]; [|reflexivity]. cbn [jopt]. splitb. sobj; sleaf.
  - (* mac_crash_info *) destruct (s_mac_crash s) as [l|]; [|reflexivity]. cbn [jopt]. sobj; try sleaf. apply js_arr_map. intros r Hr.
    eapply forallb_In in Hr; [|eassumption]. unfold sc_macrec in Hr. splitb. unfold json_of_macrec. sobj; sleaf.
  - (* modules *) apply js_arr_map. intros m Hm. apply module_scalar; try assumption.
    eapply forallb_In in Hm; [|eassumption]; exact Hm.
  - (* proc_limits *) destruct (s_limits s) as [l|]; [|reflexivity]. cbn [jopt]. sobj. apply js_arr_map. intros x Hx. apply In_sort in Hx.
    eapply forallb_In in Hx; [|eassumption]. unfold sc_limit in Hx. splitb. unfold json_of_limit.
    sobj; try sleaf; [destruct (li_hard x)|destruct (li_soft x)]; reflexivity.
  - (* soft_errors *) destruct (s_soft s) as [v|]; [|reflexivity]. unfold soft_value. destruct (soft_ok v); [assumption|reflexivity].
  - (* system_info *) apply sys_scalar. assumption.
  - (* threads *) apply js_arr_map. intros t Ht. apply thread_scalar.
    eapply forallb_In in Ht; [|eassumption]; exact Ht.
  - (* unloaded_modules *) apply js_arr_map. intros m Hm. eapply forallb_In in Hm; [|eassumption]. unfold sc_module in Hm. splitb.
    unfold unl_obj. sobj; try sleaf. apply js_ostr, lookup_scalar. assumption.
Qed.

Lemma report_scalar s : state_scalar s = true -> jscalar (report_obj s) = true.
Proof.
  intro Hs. pose proof (tail_scalar s Hs) as T. unfold state_scalar in Hs. splitb.
  assert (Hci : sstr (fst (crash_member s)) = true /\ jscalar (snd (crash_member s)) = true).
  { split; [reflexivity|]. apply crash_scalar; [destruct (s_crash s); [assumption|exact I]|assumption]. }
  destruct (report_cases s) as [[[-> _]|(i & t & Er & Et & Ef & ->)]|[-> _]].
  - (* no crashing_thread copy *) apply js_obj. constructor; [exact Hci|exact T].
  - (* with the copy of thread i *) apply js_obj. constructor; [exact Hci|]. constructor; [|exact T]. split; [reflexivity|].
    apply cthread_scalar; [|apply registers_scalar; assumption].
    eapply (forallb_In _ _ t); [eassumption|exact (nth_error_In _ _ Et)].
  - (* requesting index out of range: no document *) reflexivity.
Qed.
