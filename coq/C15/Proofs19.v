(* C15/Proofs19.v — possible_bit_flips[].confidence.  What the integer tests of C15/Float.v mean: [scale_cmp] is the comparison of
   c * 10^k with w * 2^q as rational numbers, [in_interval] the two-sided inequality around the widened value, [b64_frame] the
   normalised binary64 mantissa (same value, 53 significant bits, in quarter ulps), and Flocq's own normalisation to binary64 gives
   that mantissa and exponent.  The binary32 decoder agrees with Flocq's; the rendering of every confidence the heuristics can
   produce (C19's exact Flocq model, all details values) is judged correct by [conf_text_ok]; a text is accepted for at most one
   non-negative bit pattern (accepted_for_one). *)
From Coq Require Import Lia QArith Qpower Lqa.
From Flocq Require Import IEEE754.BinarySingleNaN IEEE754.Binary IEEE754.Bits Core.
From RM Require Import C15.Model C15.Float C15.FloatQ.
From RM Require C19.Model C19.Proofs.
Open Scope Z_scope.

Lemma qpow_split b k : ~ (b == 0)%Q -> (Qpower b k == Qpower b (Z.max k 0) / Qpower b (Z.max (- k) 0))%Q.
Proof.
  intro Hb. destruct (Z_le_gt_dec 0 k).
  - rewrite Z.max_l by lia. rewrite Z.max_r by lia. cbn [Qpower]. field.
  - rewrite Z.max_r by lia. rewrite Z.max_l by lia.
    replace k with (- (- k)) at 1 by lia. rewrite Qpower_opp. cbn [Qpower]. field.
    apply Qpower_not_0. exact Hb.
Qed.

Lemma inject_pow b n : 0 <= n -> (inject_Z (b ^ n) == Qpower (inject_Z b) n)%Q.
Proof.
  intro H. rewrite <- (Z2Nat.id n H). generalize (Z.to_nat n). clear. intro m.
  induction m as [|m IH].
  - reflexivity.
  - rewrite Nat2Z.inj_succ, Z.pow_succ_r by lia. rewrite inject_Z_mult, IH.
    rewrite <- Z.add_1_r. rewrite Qpower_plus'. 2: lia. change (Qpower (inject_Z b) 1) with (inject_Z b). ring.
Qed.

Lemma qcompare_mult_r x y z : (0 < z)%Q -> (x * z ?= y * z)%Q = (x ?= y)%Q.
Proof.
  intro Hz. destruct (Qcompare_spec x y) as [E|L|G].
  - apply Qeq_alt. rewrite E. reflexivity.
  - apply Qlt_alt. apply Qmult_lt_r; assumption.
  - apply Qgt_alt. apply Qmult_lt_r; assumption.
Qed.

Lemma scale_cmp_spec c k w q : scale_cmp c k w q = cmp_Q c k w q.
Proof.
  unfold cmp_Q, scale_cmp, qdec, qbin.
  rewrite (qpow_split 10 k) by discriminate. rewrite (qpow_split 2 q) by discriminate.
  set (a := Z.max k 0). set (b := Z.max (- k) 0). set (x := Z.max q 0). set (y := Z.max (- q) 0).
  assert (Ha : 0 <= a) by lia. assert (Hb : 0 <= b) by lia. assert (Hx : 0 <= x) by lia. assert (Hy : 0 <= y) by lia.
  assert (P10b : (0 < Qpower 10 b)%Q) by (apply Qpower_0_lt; reflexivity).
  assert (P2y : (0 < Qpower 2 y)%Q) by (apply Qpower_0_lt; reflexivity).
  rewrite <- (qcompare_mult_r _ _ (Qpower 10 b * Qpower 2 y)).
  2:{ apply Qmult_lt_0_compat; assumption. }
  assert (E1 : (inject_Z c * (Qpower 10 a / Qpower 10 b) * (Qpower 10 b * Qpower 2 y) == inject_Z (c * 10 ^ a * 2 ^ y))%Q).
  { rewrite !inject_Z_mult, !inject_pow by assumption. change (inject_Z 10) with 10%Q. change (inject_Z 2) with 2%Q. field.
    intro E. rewrite E in P10b. discriminate. }
  assert (E2 : (inject_Z w * (Qpower 2 x / Qpower 2 y) * (Qpower 10 b * Qpower 2 y) == inject_Z (w * 2 ^ x * 10 ^ b))%Q).
  { rewrite !inject_Z_mult, !inject_pow by assumption. change (inject_Z 10) with 10%Q. change (inject_Z 2) with 2%Q. field.
    intro E. rewrite E in P2y. discriminate. }
  rewrite E1, E2. unfold Qcompare, inject_Z. cbn [Qnum Qden]. rewrite !Z.mul_1_r. reflexivity.
Qed.

Lemma in_interval_spec m e c k : in_interval m e c k = true <-> interval_Q m e c k.
Proof.
  unfold interval_Q, in_interval. destruct (b64_frame m e) as [[v4 dn] e4]. cbn [fst snd].
  rewrite !scale_cmp_spec. unfold cmp_Q.
  split.
  - intro H. destruct (qdec c k ?= qbin (v4 - dn) e4)%Q eqn:E1; try discriminate;
      destruct (qdec c k ?= qbin (v4 + 2) e4)%Q eqn:E2; try discriminate;
      (split; [apply Qge_alt; rewrite E1; discriminate|apply Qle_alt; rewrite E2; discriminate]).
  - intros [H1 H2].
    destruct (qdec c k ?= qbin (v4 - dn) e4)%Q eqn:E1;
      [| apply Qlt_alt in E1; exfalso; exact (Qlt_not_le _ _ E1 H1) |];
      (destruct (qdec c k ?= qbin (v4 + 2) e4)%Q eqn:E2; try reflexivity;
       apply Qgt_alt in E2; exfalso; exact (Qlt_not_le _ _ E2 H2)).
Qed.

Lemma qbin_shift w q a : 0 <= a -> (qbin (w * 2 ^ a) (q - a) == qbin w q)%Q.
Proof.
  intro Ha. unfold qbin. rewrite inject_Z_mult, (inject_pow 2 a Ha). change (inject_Z 2) with 2%Q.
  replace (q - a) with (q + - a) by lia. rewrite Qpower_plus by discriminate. rewrite Qpower_opp.
  assert (HA : ~ (Qpower 2 a == 0)%Q) by (apply Qpower_not_0; discriminate).
  set (A := Qpower 2 a) in *. set (B := Qpower 2 q). field. exact HA.
Qed.

(* the frame: 4 * m64 quarter-ulps of the normalised binary64 mantissa, same value *)
Lemma b64_frame_spec m e : 0 < m < 9007199254740992 -> frame_Q m e.
Proof.
  intros Hm. unfold frame_Q, b64_frame.
  pose proof (Z.log2_spec m ltac:(lia)) as [L1 L2].
  assert (Hl : 0 <= Z.log2 m) by apply Z.log2_nonneg.
  assert (Hl53 : Z.log2 m < 53).
  { apply Z.log2_lt_pow2; lia. }
  set (sh := 52 - Z.log2 m). assert (Hsh : 0 <= sh) by (unfold sh; lia).
  assert (P : 2 ^ Z.log2 m * 2 ^ sh = 4503599627370496).
  { rewrite <- Z.pow_add_r by lia. unfold sh. replace (Z.log2 m + (52 - Z.log2 m)) with 52 by lia. reflexivity. }
  assert (Psh : 0 < 2 ^ sh) by (apply Z.pow_pos_nonneg; lia).
  split; [|split].
  - replace (Z.succ (Z.log2 m)) with (Z.log2 m + 1) in L2 by lia. rewrite Z.pow_add_r in L2 by lia.
    change (2 ^ 1) with 2 in L2. nia.
  - replace (4 * (m * 2 ^ sh)) with (m * 2 ^ (sh + 2)) by (rewrite Z.pow_add_r by lia; change (2 ^ 2) with 4; ring).
    replace (e - sh - 2) with (e - (sh + 2)) by lia. apply qbin_shift. lia.
  - destruct (m * 2 ^ sh =? 4503599627370496) eqn:E; [right|left; reflexivity].
    split; [reflexivity|]. apply Z.eqb_eq in E. nia.
Qed.

(* Flocq's normalisation of m * 2^e to binary64 (round to nearest even; exact here) has the mantissa and exponent of [b64_frame] *)
Definition widen_agrees (bits : Z) : bool :=
  match b32_decode bits with
  | Some (sg, m, e) =>
      if m =? 0 then true else
      let '(v4, dn, e4) := b64_frame m e in
      match Binary.B2FF _ _ (Binary.binary_normalize 53 1024 eq_refl eq_refl mode_NE m e false) with
      | F754_finite false m64 e64 => (4 * Zpos m64 =? v4) && (e64 - 2 =? e4) && (if Zpos m64 =? 4503599627370496 then dn =? 1 else dn =? 2)
      | _ => false
      end
  | None => false
  end.
Lemma widen_classes : forallb (fun d => widen_agrees (C19.Model.confidence_bits d)) C19.Proofs.all_classes = true.
Proof. vm_compute. reflexivity. Qed.
Lemma widen_ok d : widen_agrees (C19.Model.confidence_bits d) = true.
Proof.
  unfold C19.Model.confidence_bits. rewrite C19.Proofs.confidence_clamp.
  pose proof widen_classes as H. rewrite forallb_forall in H.
  exact (H (C19.Proofs.clamp d) (C19.Proofs.clamp_in d)).
Qed.
Lemma widen_samples : forallb widen_agrees [1; 8388607; 8388608; 1056964608; 1065353216; 1052560588; 2139095039] = true.
Proof. vm_compute. reflexivity. Qed.

(* [b32_decode] reads the same sign / mantissa / exponent out of a bit pattern as Flocq's b32_of_bits, for every 32-bit pattern *)
Lemma b32_decode_flocq bits : 0 <= bits < 4294967296 ->
  match B2FF _ _ (b32_of_bits bits) with
  | F754_zero s => b32_decode bits = Some (s, 0, -149)
  | F754_finite s m e => b32_decode bits = Some (s, Zpos m, e)
  | _ => b32_decode bits = None
  end.
Proof.
  intros Hb. unfold b32_of_bits, binary_float_of_bits. rewrite B2FF_FF2B.
  unfold binary_float_of_bits_aux, split_bits, b32_decode.
  change (2 ^ 23 * 2 ^ 8) with 2147483648. change (2 ^ 23) with 8388608. change (2 ^ 8 - 1) with 255. change (2 ^ 8) with 256.
  change (SpecFloat.emin (23 + 1) (2 ^ (8 - 1))) with (-149).
  assert (Hm : 0 <= bits mod 8388608 < 8388608) by (apply Z.mod_pos_bound; lia).
  assert (He : 0 <= (bits / 8388608) mod 256 < 256) by (apply Z.mod_pos_bound; lia).
  assert (Hdiv : bits / 8388608 < 512) by (apply Z.div_lt_upper_bound; lia).
  assert (Hdiv0 : 0 <= bits / 8388608) by (apply Z.div_pos; lia).
  set (ex := (bits / 8388608) mod 256) in *. set (mn := bits mod 8388608) in *.
  destruct (Zbool.Zeq_bool ex 0) eqn:E0.
  - apply Zbool.Zeq_bool_eq in E0. rewrite E0. cbn [Z.eqb].
    destruct mn as [|p|p] eqn:Emn; try reflexivity; lia.
  - apply Zbool.Zeq_bool_neq in E0.
    assert (E0' : (ex =? 0) = false) by (apply Z.eqb_neq; exact E0).
    destruct (Zbool.Zeq_bool ex 255) eqn:E255.
    + apply Zbool.Zeq_bool_eq in E255. rewrite E255. cbn [Z.eqb Pos.eqb].
      destruct mn as [|p|p]; try reflexivity.
    + apply Zbool.Zeq_bool_neq in E255.
      assert (E255' : (ex =? 255) = false) by (apply Z.eqb_neq; exact E255).
      rewrite E255', E0'.
      destruct (mn + 8388608) as [|p|p] eqn:Ep; try lia.
      replace (8388608 + mn) with (Z.pos p) by lia. replace (ex + -149 - 1) with (ex - 150) by lia. reflexivity.
Qed.

Lemma conf_text_ok_meaning bits t : conf_text_ok bits t = true ->
  exists m e c k, b32_decode bits = Some (false, m, e) /\ num_value t = Some (false, c, k) /\ json_number t = true /\
    ((m = 0 /\ c = 0) \/
     (m <> 0 /\ in_interval m e c k = true /\ scale_cmp c k 1 0 <> Gt /\ no_shorter m e c k = true)).
Proof.
  unfold conf_text_ok, json_number. destruct (b32_decode bits) as [[[sg m] e]|]; [|discriminate].
  destruct (num_value t) as [[[neg c] k]|]; [|discriminate].
  destruct (m =? 0) eqn:Em.
  - intro H. apply andb_prop in H. destruct H as [H Hn]. apply andb_prop in H. destruct H as [Hc Hs].
    destruct sg; [discriminate|]. destruct neg; [discriminate|].
    exists m, e, c, k. repeat split; try reflexivity. left. split; [apply Z.eqb_eq; exact Em|apply Z.eqb_eq; exact Hc].
  - intro H. apply andb_prop in H. destruct H as [H Hsh]. apply andb_prop in H. destruct H as [H Hle].
    apply andb_prop in H. destruct H as [H Hin]. apply andb_prop in H. destruct H as [Hs Hn].
    destruct sg; [discriminate|]. destruct neg; [discriminate|].
    exists m, e, c, k. repeat split; try reflexivity. right. split; [apply Z.eqb_neq; exact Em|].
    split; [exact Hin|]. split; [|exact Hsh]. intro E. rewrite E in Hle. discriminate.
Qed.

(* Telling bit patterns apart.  A text accepted for a pattern denotes a number within a relative 2^-53 of the pattern's value (half a
   unit in the last place of the widened binary64); two distinct binary32 values are a relative 2^-24 apart; so a text is accepted for
   at most one pattern. *)
Definition fields_ok (m e : Z) : Prop := 0 < m < 16777216 /\ -149 <= e /\ (e = -149 \/ 8388608 <= m).

Lemma decode_fields b : 0 <= b ->
  match b32_decode b with
  | Some (sg, m, e) => sg = false ->
      b = (if m <? 8388608 then m else (e + 150) * 8388608 + (m - 8388608)) /\ (m <> 0 -> fields_ok m e)
  | None => True
  end.
Proof.
  intros Hb. unfold b32_decode, fields_ok.
  pose proof (Z.div_mod b 8388608 ltac:(lia)) as D. pose proof (Z.mod_pos_bound b 8388608 ltac:(lia)) as Hm.
  destruct ((b / 8388608) mod 256 =? 255); [exact I|].
  destruct (2147483648 <=? b) eqn:Es; [destruct ((b / 8388608) mod 256 =? 0); discriminate|].
  apply Z.leb_gt in Es.
  assert (Hq : 0 <= b / 8388608 < 256) by (split; [apply Z.div_pos; lia|apply Z.div_lt_upper_bound; lia]).
  rewrite (Z.mod_small (b / 8388608) 256 Hq).
  destruct (b / 8388608 =? 0) eqn:E0; intros _.
  - apply Z.eqb_eq in E0. assert (L : (b mod 8388608 <? 8388608) = true) by (apply Z.ltb_lt; lia). rewrite L. lia.
  - apply Z.eqb_neq in E0. assert (L : (8388608 + b mod 8388608 <? 8388608) = false) by (apply Z.ltb_ge; lia). rewrite L. lia.
Qed.

(* the value m * 2^e in units of 2^-149: an integer *)
Definition scaled (m e : Z) : Z := m * 2 ^ (e + 149).

Lemma pow2_split a b : 0 <= a <= b -> 2 ^ b = 2 ^ (b - a) * 2 ^ a /\ 0 < 2 ^ a /\ 1 <= 2 ^ (b - a) /\ (a < b -> 2 <= 2 ^ (b - a)).
Proof.
  intro H. rewrite <- Z.pow_add_r by lia. replace (b - a + a) with b by lia. split; [reflexivity|].
  split; [apply Z.pow_pos_nonneg; lia|]. split.
  - assert (0 < 2 ^ (b - a)) by (apply Z.pow_pos_nonneg; lia). lia.
  - intro L. change 2 with (2 ^ 1) at 1. apply Z.pow_le_mono_r; lia.
Qed.

(* between two distinct binary32 values lies at least one unit in the last place of the smaller: a relative gap above 2^-24 *)
Lemma scaled_gap m1 e1 m2 e2 : fields_ok m1 e1 -> fields_ok m2 e2 -> scaled m1 e1 < scaled m2 e2 ->
  scaled m1 e1 * 16777217 <= scaled m2 e2 * 16777216.
Proof.
  unfold scaled. intros (M1 & E1 & N1) (M2 & E2 & N2) L. destruct (Z_le_gt_dec e1 e2) as [Le|Gt].
  - destruct (pow2_split (e1 + 149) (e2 + 149) ltac:(lia)) as (P & G & D & _). rewrite P in *.
    set (g := 2 ^ (e1 + 149)) in *. set (d := 2 ^ (e2 + 149 - (e1 + 149))) in *.
    assert (m1 + 1 <= m2 * d) by nia. nia.
  - destruct (pow2_split (e2 + 149) (e1 + 149) ltac:(lia)) as (P & G & _ & D). specialize (D ltac:(lia)). rewrite P in *.
    set (g := 2 ^ (e2 + 149)) in *. set (d := 2 ^ (e1 + 149 - (e2 + 149))) in *.
    assert (8388608 <= m1) by lia. exfalso. assert (16777216 * g <= m1 * (d * g)) by nia. nia.
Qed.

Lemma scaled_inj m1 e1 m2 e2 : fields_ok m1 e1 -> fields_ok m2 e2 -> scaled m1 e1 = scaled m2 e2 -> m1 = m2 /\ e1 = e2.
Proof.
  assert (A : forall m1 e1 m2 e2, fields_ok m1 e1 -> fields_ok m2 e2 -> e1 <= e2 -> scaled m1 e1 = scaled m2 e2 -> m1 = m2 /\ e1 = e2).
  { clear. unfold scaled. intros m1 e1 m2 e2 (M1 & E1 & N1) (M2 & E2 & N2) Le E.
    destruct (pow2_split (e1 + 149) (e2 + 149) ltac:(lia)) as (P & G & _ & D). rewrite P in E.
    set (g := 2 ^ (e1 + 149)) in *. set (d := 2 ^ (e2 + 149 - (e1 + 149))) in *.
    assert (Em : m1 = m2 * d) by nia.
    destruct (Z.eq_dec e1 e2) as [->|Ne]; [unfold d in Em; replace (e2 + 149 - (e2 + 149)) with 0 in Em by lia; change (2 ^ 0) with 1 in Em; lia|].
    specialize (D ltac:(lia)). assert (8388608 <= m2) by lia. nia. }
  intros F1 F2 E. destruct (Z_le_gt_dec e1 e2) as [Le|Gt]; [exact (A _ _ _ _ F1 F2 Le E)|].
  destruct (A _ _ _ _ F2 F1 ltac:(lia) (eq_sym E)). split; congruence.
Qed.

(* an accepted number is within a relative 2^-53 of the value *)
Lemma accepted_near m e c k : 0 < m < 9007199254740992 -> interval_Q m e c k ->
  (qbin m e * 9007199254740991 <= qdec c k * 9007199254740992 /\ qdec c k * 9007199254740992 <= qbin m e * 9007199254740993)%Q.
Proof.
  intros Hm I. pose proof (b64_frame_spec m e Hm) as F. unfold frame_Q in F. unfold interval_Q in I.
  destruct (b64_frame m e) as [[v4 dn] e4]. cbn [fst snd] in I. destruct F as ((Lv & _) & EV & Hdn). destruct I as [Ilo Ihi].
  rewrite <- EV. unfold qbin in *. set (q := Qpower 2 e4) in *.
  assert (Hq : (0 < q)%Q) by (apply Qpower_0_lt; reflexivity).
  rewrite inject_Z_plus in Ihi. unfold Z.sub in Ilo. rewrite inject_Z_plus, inject_Z_opp in Ilo.
  assert (B : (18014398509481984 * q <= inject_Z v4 * q)%Q).
  { apply Qmult_le_compat_r; [|apply Qlt_le_weak; exact Hq]. change 18014398509481984%Q with (inject_Z 18014398509481984). rewrite <- Zle_Qle. exact Lv. }
  change (inject_Z 2) with 2%Q in *.
  destruct Hdn as [->|[-> _]]; [change (inject_Z 2) with 2%Q in *|change (inject_Z 1) with 1%Q in *]; lra.
Qed.

Lemma scaled_Q m e : -149 <= e -> (qbin m e == inject_Z (scaled m e) * Qpower 2 (-149))%Q.
Proof.
  intro H. unfold scaled. rewrite <- (qbin_shift m e (e + 149)) by lia. replace (e - (e + 149)) with (-149) by lia. reflexivity.
Qed.

(* two values a relative 2^-24 apart have no number within a relative 2^-53 of both *)
Lemma near_gap (V1 V2 x : Q) : (0 < V1 -> V1 * 16777217 <= V2 * 16777216 ->
  V2 * 9007199254740991 <= x * 9007199254740992 -> x * 9007199254740992 <= V1 * 9007199254740993 -> False)%Q.
Proof. intros. lra. Qed.

Lemma apart m1 e1 m2 e2 c k : fields_ok m1 e1 -> fields_ok m2 e2 -> scaled m1 e1 < scaled m2 e2 ->
  interval_Q m1 e1 c k -> interval_Q m2 e2 c k -> False.
Proof.
  intros F1 F2 L I1 I2. pose proof (scaled_gap _ _ _ _ F1 F2 L) as G.
  destruct (accepted_near m1 e1 c k ltac:(destruct F1; lia) I1) as [_ U1].
  destruct (accepted_near m2 e2 c k ltac:(destruct F2; lia) I2) as [L2 _].
  assert (P : (0 < Qpower 2 (-149))%Q) by (apply Qpower_0_lt; reflexivity).
  rewrite (scaled_Q m1 e1) in U1 by (destruct F1 as (_ & ? & _); assumption).
  rewrite (scaled_Q m2 e2) in L2 by (destruct F2 as (_ & ? & _); assumption).
  assert (S1 : 0 < scaled m1 e1) by (unfold scaled; destruct F1 as ((? & _) & ? & _); apply Z.mul_pos_pos; [assumption|apply Z.pow_pos_nonneg; lia]).
  rewrite Zlt_Qlt in S1. rewrite Zle_Qle, !inject_Z_mult in G. change (inject_Z 16777217) with 16777217%Q in G. change (inject_Z 16777216) with 16777216%Q in G.
  apply (Qmult_le_compat_r _ _ (Qpower 2 (-149))) in G; [|apply Qlt_le_weak; exact P].
  apply (near_gap (inject_Z (scaled m1 e1) * Qpower 2 (-149)) (inject_Z (scaled m2 e2) * Qpower 2 (-149)) (qdec c k)); try assumption; try lra.
  apply Qmult_lt_0_compat; assumption.
Qed.

(* a text is accepted for at most one non-negative bit pattern *)
Theorem accepted_for_one b1 b2 t : 0 <= b1 -> 0 <= b2 -> conf_text_ok b1 t = true -> conf_text_ok b2 t = true -> b1 = b2.
Proof.
  intros P1 P2 H1 H2.
  destruct (conf_text_ok_meaning _ _ H1) as (m1 & e1 & c & k & D1 & N1 & _ & C1).
  destruct (conf_text_ok_meaning _ _ H2) as (m2 & e2 & c' & k' & D2 & N2 & _ & C2).
  rewrite N1 in N2. assert (c' = c /\ k' = k) as [-> ->] by (split; congruence). clear N2.
  pose proof (decode_fields b1 P1) as F1. rewrite D1 in F1. destruct (F1 eq_refl) as [B1 G1].
  pose proof (decode_fields b2 P2) as F2. rewrite D2 in F2. destruct (F2 eq_refl) as [B2 G2]. clear F1 F2.
  (* zero is accepted for the zero mantissa only: every other interval lies above it *)
  assert (Z0 : forall m e, fields_ok m e -> interval_Q m e 0 k -> False).
  { intros m e F I. destruct (accepted_near m e 0 k ltac:(destruct F; lia) I) as [L _].
    assert (V : (0 < qbin m e)%Q).
    { unfold qbin. apply Qmult_lt_0_compat; [|apply Qpower_0_lt; reflexivity]. change 0%Q with (inject_Z 0). rewrite <- Zlt_Qlt. destruct F; lia. }
    unfold qdec in L. change (inject_Z 0) with 0%Q in L. lra. }
  destruct C1 as [[-> ->]|(M1 & I1 & _)], C2 as [[-> E0]|(M2 & I2 & _)].
  - rewrite B1, B2. reflexivity.
  - apply in_interval_spec in I2. destruct (Z0 m2 e2 (G2 M2) I2).
  - subst c. apply in_interval_spec in I1. destruct (Z0 m1 e1 (G1 M1) I1).
  - apply in_interval_spec in I1, I2. specialize (G1 M1). specialize (G2 M2).
    destruct (Z.lt_total (scaled m1 e1) (scaled m2 e2)) as [L|[E|L]].
    + destruct (apart _ _ _ _ _ _ G1 G2 L I1 I2).
    + destruct (scaled_inj _ _ _ _ G1 G2 E) as [-> ->]. rewrite B1, B2. reflexivity.
    + destruct (apart _ _ _ _ _ _ G2 G1 L I2 I1).
Qed.

(* every confidence the heuristics can produce is the confidence of one of C19's 80 classes (confidence_clamp) *)
Definition class_bits : list Z := nodup Z.eq_dec (map C19.Model.confidence_bits C19.Proofs.all_classes).
Lemma class_bits_in d : In (C19.Model.confidence_bits d) class_bits.
Proof.
  unfold class_bits. rewrite nodup_In. unfold C19.Model.confidence_bits. rewrite C19.Proofs.confidence_clamp.
  exact (in_map C19.Model.confidence_bits _ _ (C19.Proofs.clamp_in d)).
Qed.
(* FINITE CHECK: the rendering of each distinct confidence of the classes is judged correct *)
Lemma class_bits_rendered : forallb (fun b => (0 <=? b) && conf_text_ok b (render_f32 b)) class_bits = true.
Proof. vm_compute. reflexivity. Qed.
Lemma class_bits_spec d :
  0 <= C19.Model.confidence_bits d /\ conf_text_ok (C19.Model.confidence_bits d) (render_f32 (C19.Model.confidence_bits d)) = true.
Proof.
  pose proof (proj1 (forallb_forall _ _) class_bits_rendered _ (class_bits_in d)) as H. cbv beta in H.
  apply andb_prop in H. destruct H as [H1 H2]. split; [apply Z.leb_le; exact H1|exact H2].
Qed.

Lemma conf_render_ok d : conf_text_ok (C19.Model.confidence_bits d) (render_f32 (C19.Model.confidence_bits d)) = true.
Proof. exact (proj2 (class_bits_spec d)). Qed.

Lemma flip_conf_ok b : conf_text_ok (flip_conf_bits b) (flip_conf_text b) = true.
Proof. apply conf_render_ok. Qed.

Lemma conf_discriminates d1 d2 :
  conf_text_ok (C19.Model.confidence_bits d2) (render_f32 (C19.Model.confidence_bits d1)) = true ->
  C19.Model.confidence_bits d1 = C19.Model.confidence_bits d2.
Proof.
  intro H. destruct (class_bits_spec d1) as [P1 R1]. destruct (class_bits_spec d2) as [P2 _].
  exact (accepted_for_one _ _ _ P1 P2 R1 H).
Qed.
