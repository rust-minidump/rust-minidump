(* C15/Proofs9.v — proc_limits: the limits array is the state's HashMap content sorted by name (a permutation, in non-decreasing
   code-point order), and a numeric limit is the JSON NUMBER with exactly that value for every u64. *)
From Coq Require Import Lia Permutation Sorted.
From RM Require Import C15.Model C15.Schema C15.Proofs C15.Proofs2 C15.Proofs3.
Open Scope Z_scope.

Lemma str_leb_total : forall a b, str_leb a b = false -> str_leb b a = true.
Proof.
  induction a as [|x a IH]; intros b H; [discriminate H|]. destruct b as [|y b]; [reflexivity|].
  cbn [str_leb] in *. destruct (x <? y) eqn:E1; [discriminate H|]. destruct (y <? x) eqn:E2; [reflexivity|]. apply IH. exact H.
Qed.
Lemma str_leb_refl : forall a, str_leb a a = true.
Proof. induction a as [|x a IH]; [reflexivity|]. cbn [str_leb]. rewrite Z.ltb_irrefl. exact IH. Qed.
Lemma str_leb_trans : forall a b c, str_leb a b = true -> str_leb b c = true -> str_leb a c = true.
Proof.
  induction a as [|x a IH]; intros b c H1 H2; [reflexivity|]. destruct b as [|y b]; [discriminate H1|]. destruct c as [|z c]; [discriminate H2|].
  revert H1 H2. cbn [str_leb].
  destruct (Z.ltb_spec x y), (Z.ltb_spec y x), (Z.ltb_spec y z), (Z.ltb_spec z y), (Z.ltb_spec x z), (Z.ltb_spec z x);
    intros L R; try reflexivity; try discriminate; try lia.
  eapply IH; eassumption.
Qed.

Definition name_le (a b : limit) : Prop := str_leb (li_name a) (li_name b) = true.

Lemma insert_sorted x : forall l, StronglySorted name_le l -> StronglySorted name_le (insert_limit x l).
Proof.
  induction l as [|y t IH]; intro H; [repeat constructor|]. inversion H as [|? ? Ht Hy]; subst. cbn [insert_limit].
  destruct (str_leb (li_name x) (li_name y)) eqn:E.
  - constructor; [exact H|]. constructor; [exact E|]. rewrite Forall_forall in *. intros z Hz. unfold name_le in *.
    eapply str_leb_trans; [exact E|exact (Hy z Hz)].
  - constructor; [apply IH; exact Ht|]. apply str_leb_total in E.
    rewrite Forall_forall in *. intros z Hz. apply (Permutation_in _ (insert_perm x t)) in Hz. destruct Hz as [<-|Hz]; [exact E|exact (Hy z Hz)].
Qed.
Lemma sort_sorted : forall l, StronglySorted name_le (sort_limits l).
Proof. induction l as [|x t IH]; [constructor|]. cbn [sort_limits fold_right]. fold (sort_limits t). apply insert_sorted. exact IH. Qed.

Lemma limits_json p s l : wf_state s = true -> s_limits s = Some l ->
  exists j, json_of_state p s = Ret j /\
    jget k_proc_limits j = Some (JObj [(k_limits, JArr (map json_of_limit (sort_limits l)))]).
Proof.
  intros Hw Hl. exists (report_obj s). split; [exact (report_pure p s Hw)|].
  rewrite report_get by (reflexivity || exact (wf_state_ok s Hw)). cbn [assoc list_eqb tail_obj]. rewrite Hl. reflexivity.
Qed.
