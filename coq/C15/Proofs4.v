(* C15/Proofs4.v — every Address-valued member of the report of a well-formed state is padded to the state's pointer width;
   registers taken from a register file of the source are never named like an Address member and have 8 or 16 digits. *)
From Coq Require Import Lia.
From RM Require Import C15.Model C15.Schema C15.Widths C15.Regs C15.Proofs C15.Proofs2 C15.Proofs3.
Open Scope Z_scope.

Lemma u64b_range x : u64b x = true -> 0 <= x < two64.
Proof. unfold u64b. intro H. apply andb_prop in H. destruct H as [A B]. apply Z.leb_le in A. apply Z.ltb_lt in B. lia. Qed.

Lemma width_addr w x : u64b x = true -> width_ok w (address_str w x) = true.
Proof.
  intro H. apply u64b_range in H. unfold width_ok. rewrite hex_addr. cbn [andb].
  destruct (address_width w x H) as (A & B & _).
  destruct w; [|rewrite A by discriminate; reflexivity..].
  apply Nat.leb_le. destruct (Z_lt_ge_dec x two32) as [L|G]; [rewrite (B eq_refl L); lia|].
  unfold address_str. assert (E : (x <? two32) = false) by (apply Z.ltb_ge; lia). rewrite E, length_0x.
  pose proof (strip0_wide x ltac:(lia)). lia.
Qed.

Definition addr_key (k : list Z) : Prop := memb k ADDRESS_KEYS = true.

Lemma w_hex w k x : u64b x = true -> widths w k (jhex w x) = true.
Proof. intro H. unfold jhex. cbn [widths]. destruct (memb k ADDRESS_KEYS); [apply width_addr; exact H|reflexivity]. Qed.
Lemma w_ohex w k o : ou64b o = true -> widths w k (jopt (jhex w) o) = true.
Proof. destruct o; [apply w_hex|reflexivity]. Qed.
Lemma w_obj_soft w k l : Forall (fun kv => fst kv = k_soft_errors \/ widths w (fst kv) (snd kv) = true) l -> widths w k (JObj l) = true.
Proof.
  intro H. cbn [widths]. apply forallb_forall. rewrite Forall_forall in H. intros [k' v'] Hin.
  destruct (H _ Hin) as [E|E]; cbn [fst snd] in E; [subst k'; reflexivity|].
  destruct (list_eqb k' k_soft_errors); [reflexivity|exact E].
Qed.
Lemma w_obj w k l : Forall (fun kv => widths w (fst kv) (snd kv) = true) l -> widths w k (JObj l) = true.
Proof. intro H. apply w_obj_soft. eapply Forall_impl; [|exact H]. intros kv E. right. exact E. Qed.
Lemma w_arr_map {A} w k (f : A -> json) l : (forall a, In a l -> widths w k (f a) = true) -> widths w k (JArr (map f l)) = true.
Proof.
  intro H. cbn [widths]. apply forallb_forall. intros v Hv. apply in_map_iff in Hv. destruct Hv as (a & <- & Ha). exact (H a Ha).
Qed.
Lemma w_arr_or_null {A} w k (f : A -> json) l : (forall a, In a l -> widths w k (f a) = true) ->
  widths w k (match l with [] => JNull | a :: r => JArr (map f (a :: r)) end) = true.
Proof. intro H. destruct l; [reflexivity|]. apply w_arr_map. exact H. Qed.
Lemma w_ostr w k o : memb k ADDRESS_KEYS = false -> widths w k (jopt JStr o) = true.
Proof. intro H. destruct o; [cbn [jopt widths]; rewrite H|]; reflexivity. Qed.
Lemma w_onum w k o : widths w k (jopt JNum o) = true.
Proof. destruct o; reflexivity. Qed.

Ltac wobj := apply w_obj; repeat (apply Forall_cons || apply Forall_nil); cbn [fst snd].
Ltac wleaf := first [ reflexivity | apply w_onum | (apply w_ostr; reflexivity) | (apply w_hex; assumption) | (apply w_ohex; assumption) ].

Lemma sub_u64 a b : u64b a = true -> (0 <=? b) && (b <=? a) = true -> u64b (a - b) = true.
Proof.
  intros Ha Hb. apply u64b_range in Ha. apply andb_prop in Hb. destruct Hb as [B1 B2]. apply Z.leb_le in B1, B2.
  unfold u64b. apply andb_true_iff. split; [apply Z.leb_le|apply Z.ltb_lt]; lia.
Qed.

Lemma frame_fields_w w idx f : wf_frame f = true ->
  Forall (fun kv => widths w (fst kv) (snd kv) = true) (frame_members w idx f).
Proof.
  intro Hw. unfold wf_frame in Hw. splitb. unfold frame_obj, frame_members.
  repeat (apply Forall_cons || apply Forall_nil); cbn [fst snd]; try wleaf.
  - (* function_offset *) destruct (fr_function_base f); [apply w_hex; apply sub_u64; assumption|reflexivity].
  - (* inlines *) apply w_arr_or_null. intros a _. unfold json_of_inline. wobj; wleaf.
  - (* module *) destruct (fr_module f); reflexivity.
  - (* module_offset *) destruct (fr_module f) as [[nm b]|]; [apply w_hex; apply sub_u64; assumption|reflexivity].
  - (* unloaded_modules *) apply w_arr_or_null. intros a Ha. wobj; try wleaf. apply w_arr_map. intros o Ho. apply w_hex.
    match goal with H : forallb _ (fr_unloaded f) = true |- _ => rewrite forallb_forall in H; specialize (H a Ha); rewrite forallb_forall in H; exact (H o Ho) end.
Qed.
Lemma frame_w w k idx f : wf_frame f = true -> widths w k (frame_obj w idx f) = true.
Proof. intro H. apply (w_obj w k). exact (frame_fields_w w idx f H). Qed.

Lemma registers_widths w k regs : regs_named_ok regs = true -> widths w k (json_registers regs) = true.
Proof.
  intro H. unfold json_registers. cbn [widths]. apply forallb_forall. intros [k' v'] Hin. apply in_map_iff in Hin.
  destruct Hin as (r & E & Hr). inversion E; subst. unfold regs_named_ok in H. rewrite forallb_forall in H. specialize (H r Hr).
  cbn [widths]. apply negb_true_iff in H. rewrite H. destruct (list_eqb (fst (fst r)) k_soft_errors); reflexivity.
Qed.

Lemma frames_w w l : forallb wf_frame l = true -> forall idx,
  Forall (fun v => widths w k_frames v = true) (frames_obj w idx l).
Proof.
  induction l as [|f t IH]; intros Hw idx; [constructor|]. cbn [forallb] in Hw. splitb.
  cbn [frames_obj]. constructor; [apply frame_w; assumption|apply IH; assumption].
Qed.

Lemma thread_w w k t : wf_thread t = true -> widths w k (thread_obj w t) = true.
Proof.
  unfold wf_thread. intro H. splitb. unfold thread_obj. wobj; try wleaf.
  cbn [widths]. apply forallb_forall. apply Forall_forall. apply frames_w. assumption.
Qed.

Lemma cthread_w w k t i regs : wf_thread t = true -> regs_named_ok regs = true ->
  widths w k (crashing_copy (json_registers regs) i (thread_obj w t)) = true.
Proof.
  unfold wf_thread. intros H Hr. splitb. unfold thread_obj.
  destruct (th_frames t) as [|f0 fs] eqn:E.
  - cbn [frames_obj crashing_copy]. wobj; wleaf.
  - cbn [frames_obj crashing_copy].
    match goal with H : forallb wf_frame (_ :: _) = true |- _ => cbn [forallb] in H end. splitb.
    wobj; try wleaf. cbn [widths forallb]. apply andb_true_iff. split.
    + unfold frame_obj, frame_members. cbn [add_registers]. apply w_obj.
      apply Forall_insert; [exact (frame_fields_w w 0 f0 ltac:(assumption))|]. cbn [fst snd]. apply registers_widths. exact Hr.
    + apply forallb_forall. apply Forall_forall. apply (frames_w w fs). assumption.
Qed.

Lemma wf_module_u64 m : wf_module m = true -> u64b (m_base m) = true /\ u64b (m_base m + m_size m) = true.
Proof.
  unfold wf_module, u64b. intro H. splitb.
  repeat match goal with H : (_ <=? _) = true |- _ => apply Z.leb_le in H | H : (_ <? _) = true |- _ => apply Z.ltb_lt in H end.
  split; apply andb_true_iff; split; try apply Z.leb_le; try apply Z.ltb_lt; lia.
Qed.
Lemma module_w w k certs stats m : wf_module m = true -> widths w k (mod_obj w certs stats m) = true.
Proof. intro H. destruct (wf_module_u64 m H). unfold mod_obj. cbv zeta. wobj; wleaf. Qed.
Lemma unloaded_w w k certs m : wf_module m = true -> widths w k (unl_obj w certs m) = true.
Proof. intro H. destruct (wf_module_u64 m H). unfold unl_obj. wobj; wleaf. Qed.

Lemma crash_w w k c req a : match c with Some c => wf_crash c = true | None => True end ->
  widths w k (json_of_crash w c req a) = true.
Proof.
  intro Hc. unfold json_of_crash. destruct c as [c|]; [unfold wf_crash in Hc; splitb|]; (wobj; try wleaf);
    try (destruct req; reflexivity).
  - (* adjusted_address *) destruct (cr_adjusted c) as [[x|x]|]; [| |reflexivity]; wobj; wleaf.
  - (* crash_inconsistencies *) cbn [jopt]. apply w_arr_map. intros; reflexivity.
  - (* instruction_pointer_update *) destruct (cr_ipu c) as [[|x [|]]|]; try reflexivity; wobj; wleaf.
  - (* memory_accesses *) destruct (cr_accesses c) as [l|]; [|reflexivity]. cbn [jopt]. apply w_arr_map. intros x Hx.
    eapply forallb_In in Hx; [|eassumption]. unfold wf_access in Hx. splitb. unfold json_of_access.
    destruct (a_type x <? 3); destruct (a_guard x); cbn [app]; wobj; wleaf.
  - (* possible_bit_flips *) apply w_arr_or_null. intros x Hx. eapply forallb_In in Hx; [|eassumption]. unfold wf_flip in Hx. splitb.
    unfold json_of_flip. wobj; try wleaf.
Qed.

Lemma tail_w s : wf_state s = true ->
  Forall (fun kv => fst kv = k_soft_errors \/ widths (s_width s) (fst kv) (snd kv) = true) (tail_obj s).
Proof.
  intro Hw. unfold wf_state in Hw. splitb. unfold tail_obj. cbv zeta.
  repeat (apply Forall_cons || apply Forall_nil); cbn [fst snd]; try (left; reflexivity); right; try wleaf.
  - (* handles *) destruct (s_handles s) as [l|]; [|reflexivity]. cbn [jopt]. apply w_arr_map. intros h _. unfold json_of_handle. wobj; wleaf.
  - (* lsb_release *) destruct (s_lsb s) as [[[[i r] c] d]|]; [|reflexivity]. cbn [jopt]. wobj; wleaf.
  - (* mac_crash_info *) destruct (s_mac_crash s) as [l|]; [|reflexivity]. cbn [jopt]. splitb. wobj; try wleaf.
    apply w_arr_map. intros r Hr.
    match goal with H : forallb wf_macrec l = true |- _ => rewrite forallb_forall in H; specialize (H r Hr) end.
    unfold wf_macrec in *. splitb. unfold json_of_macrec. wobj; wleaf.
  - (* modules *) apply w_arr_map. intros m Hm. apply module_w.
    eapply forallb_In in Hm; [|eassumption]; exact Hm.
  - (* proc_limits *) destruct (s_limits s) as [l|]; [|reflexivity]. cbn [jopt]. wobj. apply w_arr_map. intros x _. unfold json_of_limit.
    wobj; try wleaf; destruct (li_hard x), (li_soft x); reflexivity.
  - (* system_info *) unfold json_of_sys. wobj; try wleaf. destruct (sy_microcode (s_sys s)); reflexivity.
  - (* threads *) apply w_arr_map. intros t Ht. apply thread_w.
    eapply forallb_In in Ht; [|eassumption]; exact Ht.
  - (* unloaded_modules *) apply w_arr_map. intros m Hm. apply unloaded_w.
    eapply forallb_In in Hm; [|eassumption]; exact Hm.
Qed.

Lemma report_widths s : wf_state s = true -> regs_named_ok (s_registers s) = true ->
  widths (s_width s) [] (report_obj s) = true.
Proof.
  intros Hw Hr. pose proof (tail_w s Hw) as T. pose proof (wf_state_ok s Hw) as Hok. unfold wf_state in Hw. splitb.
  assert (Hci : fst (crash_member s) = k_soft_errors \/ widths (s_width s) (fst (crash_member s)) (snd (crash_member s)) = true).
  { right. apply crash_w. destruct (s_crash s); [assumption|exact I]. }
  destruct (report_cases_ok s Hok) as [[-> _]|(i & t & Er & Et & Ef & ->)].
  - (* no crashing_thread copy *) apply w_obj_soft. constructor; [exact Hci|exact T].
  - (* with the copy of thread i *) apply w_obj_soft. constructor; [exact Hci|]. constructor; [|exact T].
    right. apply cthread_w; [|exact Hr]. eapply (forallb_In _ _ t); [eassumption|exact (nth_error_In _ _ Et)].
Qed.

Lemma tables_ok : forallb table_ok REGISTER_TABLES = true.
Proof. vm_compute. reflexivity. Qed.

Lemma regs_from_table_ok kind regs : regs_from_table kind regs = true ->
  regs_named_ok regs = true /\ forallb (fun r : list Z * Z * nat => (snd r <=? 16)%nat && (1 <=? snd r)%nat) regs = true.
Proof.
  unfold regs_from_table. intro H. apply existsb_exists in H. destruct H as (t & Ht & H).
  apply andb_prop in H. destruct H as [_ H]. unfold regs_in_table in H. rewrite forallb_forall in H.
  pose proof tables_ok as T. rewrite forallb_forall in T. specialize (T t Ht). unfold table_ok in T.
  apply andb_prop in T. destruct T as [T B]. apply andb_prop in T. destruct T as [T _]. rewrite forallb_forall in T.
  split.
  - unfold regs_named_ok. apply forallb_forall. intros r Hr. specialize (H r Hr). apply andb_prop in H. destruct H as [Hm _].
    apply T. apply memb_In. exact Hm.
  - apply forallb_forall. intros r Hr. specialize (H r Hr). apply andb_prop in H. destruct H as [_ Hd]. apply Z.eqb_eq in Hd.
    apply orb_prop in B. destruct B as [B|B]; apply Z.eqb_eq in B; rewrite B in Hd; apply andb_true_intro; split;
      [apply Nat.leb_le|apply Nat.leb_le|apply Nat.leb_le|apply Nat.leb_le]; lia.
Qed.
