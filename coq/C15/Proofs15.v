(* C15/Proofs15.v — every object of the report lists its members in strictly increasing order of the names; strictly sorted
   names are pairwise distinct. *)
From Coq Require Import Lia.
From RM Require Import C15.Model C15.Schema C15.KeyOrder C15.Proofs C15.Proofs2 C15.Proofs3.
Open Scope Z_scope.

Lemma ks_obj l : sorted_strict (map fst l) = true -> Forall (fun kv => keys_sorted (snd kv) = true) l -> keys_sorted (JObj l) = true.
Proof.
  intros S H. cbn [keys_sorted]. rewrite S. apply forallb_forall. rewrite Forall_forall in H. intros kv Hin. exact (H kv Hin).
Qed.
Lemma ks_arr_map {A} (f : A -> json) l : (forall a, In a l -> keys_sorted (f a) = true) -> keys_sorted (JArr (map f l)) = true.
Proof.
  intro H. cbn [keys_sorted]. apply forallb_forall. intros v Hv. apply in_map_iff in Hv. destruct Hv as (a & <- & Ha). exact (H a Ha).
Qed.
Lemma ks_arr_or_null {A} (f : A -> json) l : (forall a, In a l -> keys_sorted (f a) = true) ->
  keys_sorted (match l with [] => JNull | a :: r => JArr (map f (a :: r)) end) = true.
Proof. intro H. destruct l; [reflexivity|]. apply ks_arr_map. exact H. Qed.
Lemma ks_ostr o : keys_sorted (jopt JStr o) = true. Proof. destruct o; reflexivity. Qed.
Lemma ks_onum o : keys_sorted (jopt JNum o) = true. Proof. destruct o; reflexivity. Qed.
Lemma ks_ohex w o : keys_sorted (jopt (jhex w) o) = true. Proof. destruct o; reflexivity. Qed.

Ltac kobj := apply ks_obj; [reflexivity | repeat (apply Forall_cons || apply Forall_nil); cbn [snd]].
Ltac kleaf := first [ reflexivity | apply ks_ostr | apply ks_onum | apply ks_ohex ].

Lemma frame_fields_ks w idx f :
  Forall (fun kv => keys_sorted (snd kv) = true) (frame_members w idx f).
Proof.
  unfold frame_obj, frame_members. repeat (apply Forall_cons || apply Forall_nil); cbn [snd]; try kleaf.
  - (* function_offset *) destruct (fr_function_base f); reflexivity.
  - (* inlines *) apply ks_arr_or_null. intros i _. unfold json_of_inline. kobj; kleaf.
  - (* module *) destruct (fr_module f); reflexivity.
  - (* module_offset *) destruct (fr_module f) as [[nm b]|]; reflexivity.
  - (* unloaded_modules *) apply ks_arr_or_null. intros e _. kobj; try kleaf. apply ks_arr_map. intros; reflexivity.
Qed.
Lemma frame_ks w idx f : keys_sorted (frame_obj w idx f) = true.
Proof. apply ks_obj; [reflexivity|exact (frame_fields_ks w idx f)]. Qed.
Lemma frames_ks w l : forall idx, forallb keys_sorted (frames_obj w idx l) = true.
Proof.
  induction l as [|f t IH]; intro idx; [reflexivity|]. cbn [frames_obj forallb]. rewrite frame_ks. apply IH.
Qed.
Lemma thread_ks w t : keys_sorted (thread_obj w t) = true.
Proof. unfold thread_obj. kobj; try kleaf. cbn [keys_sorted]. apply frames_ks. Qed.

Lemma registers_ks regs : sorted_strict (map (fun r : list Z * Z * nat => fst (fst r)) regs) = true -> keys_sorted (json_registers regs) = true.
Proof.
  intro H. unfold json_registers. apply ks_obj.
  - rewrite map_map. cbn [fst]. exact H.
  - apply Forall_forall. intros kv Hin. apply in_map_iff in Hin. destruct Hin as (r & <- & _). reflexivity.
Qed.

Lemma cthread_ks w t i regs : keys_sorted regs = true -> keys_sorted (crashing_copy regs i (thread_obj w t)) = true.
Proof.
  intro Hr. unfold thread_obj. destruct (th_frames t) as [|f0 fs] eqn:E.
  - cbn [frames_obj crashing_copy]. kobj; kleaf.
  - cbn [frames_obj crashing_copy]. kobj; try kleaf.
    cbn [keys_sorted forallb]. apply andb_true_iff. split; [|apply frames_ks].
    unfold frame_obj, frame_members. cbn [add_registers]. apply ks_obj; [reflexivity|].
    apply Forall_insert; [exact (frame_fields_ks w 0 f0)|exact Hr].
Qed.

Lemma crash_ks w c req a : keys_sorted (json_of_crash w c req a) = true.
Proof.
  unfold json_of_crash. destruct c as [c|]; (kobj; try kleaf); try (destruct req; reflexivity).
  - (* adjusted_address *) destruct (cr_adjusted c) as [[x|x]|]; reflexivity.
  - (* crash_inconsistencies *) cbn [jopt]. apply ks_arr_map. intros; reflexivity.
  - (* instruction_pointer_update *) destruct (cr_ipu c) as [[|x [|]]|]; reflexivity.
  - (* memory_accesses *) destruct (cr_accesses c) as [l|]; [|reflexivity]. cbn [jopt]. apply ks_arr_map. intros a' _.
    unfold json_of_access. destruct (a_type a' <? 3), (a_guard a'); cbn [app]; kobj; kleaf.
  - (* possible_bit_flips *) apply ks_arr_or_null. intros b _. unfold json_of_flip. kobj; kleaf.
Qed.

Lemma tail_ks s : match s_soft s with Some v => keys_sorted v | None => true end = true ->
  Forall (fun kv => keys_sorted (snd kv) = true) (tail_obj s).
Proof.
  intro Hs. unfold tail_obj. cbv zeta.
  repeat (apply Forall_cons || apply Forall_nil); cbn [snd]; try kleaf.
  - (* handles *) destruct (s_handles s) as [l|]; [|reflexivity]. cbn [jopt]. apply ks_arr_map. intros h _. unfold json_of_handle. kobj; kleaf.
  - (* lsb_release *) destruct (s_lsb s) as [[[[i r] c] d]|]; reflexivity.
  - (* mac_crash_info *) destruct (s_mac_crash s) as [l|]; [|reflexivity]. cbn [jopt]. kobj; try kleaf. apply ks_arr_map. intros r _. unfold json_of_macrec. kobj; kleaf.
  - (* modules *) apply ks_arr_map. intros m _. unfold mod_obj. cbv zeta. kobj; kleaf.
  - (* proc_limits *) destruct (s_limits s) as [l|]; [|reflexivity]. cbn [jopt]. kobj. apply ks_arr_map. intros x _. unfold json_of_limit.
    kobj; try kleaf; [destruct (li_hard x)|destruct (li_soft x)]; reflexivity.
  - (* soft_errors *) destruct (s_soft s) as [v|]; [|reflexivity]. unfold soft_value. destruct (soft_ok v); [exact Hs|reflexivity].
  - (* system_info *) unfold json_of_sys. kobj; try kleaf. destruct (sy_microcode (s_sys s)); reflexivity.
  - (* threads *) apply ks_arr_map. intros; apply thread_ks.
  - (* unloaded_modules *) apply ks_arr_map. intros m _. unfold unl_obj. kobj; kleaf.
Qed.

Lemma report_keys_sorted s : keys_hyp s = true -> keys_sorted (report_obj s) = true.
Proof.
  unfold keys_hyp. intro H. apply andb_prop in H. destruct H as [Hr Hs]. pose proof (tail_ks s Hs) as T.
  destruct (report_cases s) as [[[-> _]|(i & t & Er & Et & Ef & ->)]|[-> _]].
  - (* no crashing_thread copy *) apply ks_obj; [reflexivity|]. constructor; [apply crash_ks|exact T].
  - (* with the copy of thread i *) apply ks_obj; [reflexivity|]. constructor; [apply crash_ks|]. constructor; [|exact T].
    apply cthread_ks, registers_ks, Hr.
  - (* requesting index out of range: no document *) reflexivity.
Qed.

Lemma str_ltb_irrefl : forall a, str_ltb a a = false.
Proof. induction a as [|x a IH]; [reflexivity|]. cbn [str_ltb]. rewrite Z.ltb_irrefl. exact IH. Qed.

Lemma str_ltb_trans : forall a b c, str_ltb a b = true -> str_ltb b c = true -> str_ltb a c = true.
Proof.
  induction a as [|x a IH]; intros b c H1 H2.
  - destruct b as [|y b]; [discriminate H1|]. destruct c as [|z c]; [discriminate H2|reflexivity].
  - destruct b as [|y b]; [discriminate H1|]. destruct c as [|z c]; [discriminate H2|].
    revert H1 H2. cbn [str_ltb].
    destruct (Z.ltb_spec x y), (Z.ltb_spec y x), (Z.ltb_spec y z), (Z.ltb_spec z y), (Z.ltb_spec x z), (Z.ltb_spec z x);
    intros L R; try reflexivity; try discriminate; try lia.
    eapply IH; eassumption.
Qed.

Lemma sorted_all_greater a : forall l, sorted_strict (a :: l) = true -> forall b, In b l -> str_ltb a b = true.
Proof.
  induction l as [|x t IH]; intros H b Hb; [destruct Hb|].
  cbn [sorted_strict] in H. apply andb_prop in H. destruct H as [Hax Ht]. destruct Hb as [<-|Hb]; [exact Hax|].
  apply IH; [|exact Hb]. destruct t as [|y t']; [reflexivity|].
  cbn [sorted_strict] in Ht |- *. apply andb_prop in Ht. destruct Ht as [Hxy Ht'].
  rewrite (str_ltb_trans a x y Hax Hxy). exact Ht'.
Qed.

Lemma sorted_tail a l : sorted_strict (a :: l) = true -> sorted_strict l = true.
Proof. destruct l as [|b t]; [reflexivity|]. cbn [sorted_strict]. intro H. apply andb_prop in H. exact (proj2 H). Qed.

Lemma sorted_nodup : forall l, sorted_strict l = true -> nodupb l = true.
Proof.
  induction l as [|a t IH]; intro H; [reflexivity|]. cbn [nodupb]. rewrite (IH (sorted_tail a t H)), andb_true_r.
  apply negb_true_iff. destruct (memb a t) eqn:M; [|reflexivity]. exfalso.
  pose proof (sorted_all_greater a t H a (memb_In _ _ M)) as L. rewrite str_ltb_irrefl in L. discriminate L.
Qed.
