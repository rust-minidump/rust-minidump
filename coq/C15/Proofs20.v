(* C15/Proofs20.v — modules[].version: the interpreted arms are the four-component texts; the text is made of decimal digits and dots. *)
From Coq Require Import Lia.
From RM Require Import C15.Model Gen.C15Fmt C15.Version.
Open Scope Z_scope.

Definition ver_char (c : Z) : Prop := c = 46 \/ 48 <= c <= 57.

Lemma chars_of_uint_digits u : Forall ver_char (chars_of_uint u).
Proof. induction u; cbn [chars_of_uint]; constructor; try assumption; right; lia. Qed.
Lemma join_dots_chars l : Forall ver_char (join_dots l).
Proof.
  unfold join_dots. destruct l as [|h t]; cbn [map]; [constructor|].
  apply Forall_app. split; [apply chars_of_uint_digits|].
  induction t as [|x t IH]; cbn [map flat_map]; [constructor|].
  constructor; [left; reflexivity|]. apply Forall_app. split; [apply chars_of_uint_digits|exact IH].
Qed.

Lemma module_version_chars os v t : module_version os v = Some t -> Forall ver_char t.
Proof.
  unfold module_version. destruct ((vi_sig v =? VERSION_SIGNATURE) && (vi_struct v =? VERSION_STRUCVERSION)); [|discriminate].
  intro H. inversion H. apply join_dots_chars.
Qed.

Lemma module_version_none os v : module_version os v = None <-> ~ (vi_sig v = VERSION_SIGNATURE /\ vi_struct v = VERSION_STRUCVERSION).
Proof.
  unfold module_version. destruct (vi_sig v =? VERSION_SIGNATURE) eqn:E1; destruct (vi_struct v =? VERSION_STRUCVERSION) eqn:E2; cbn [andb].
  - apply Z.eqb_eq in E1. apply Z.eqb_eq in E2. split; [discriminate|]. intro H. exfalso. apply H. split; assumption.
  - apply Z.eqb_neq in E2. split; [|reflexivity]. intros _ [_ H]. contradiction.
  - apply Z.eqb_neq in E1. split; [|reflexivity]. intros _ [H _]. contradiction.
  - apply Z.eqb_neq in E1. split; [|reflexivity]. intros _ [H _]. contradiction.
Qed.

Definition dot4 (a b c d : Z) : list Z := dec_digits a ++ 46 :: dec_digits b ++ 46 :: dec_digits c ++ 46 :: dec_digits d.

(* the two arms; the [unfold VERSION_*] / [cbn] steps below evaluate the translated tables of Gen/C15Fmt.v, so this is the proof that stops
   compiling when the source's arms change *)
Lemma module_version_arms os v :
  0 <= vi_fhi v -> 0 <= vi_flo v ->
  vi_sig v = VERSION_SIGNATURE -> vi_struct v = VERSION_STRUCVERSION ->
  module_version os v =
  Some (if (os =? 0) || (os =? 1) || (os =? 2)
        then dot4 (vi_fhi v / 65536) (vi_fhi v mod 65536) (vi_flo v / 65536) (vi_flo v mod 65536)
        else dot4 (vi_fhi v) (vi_flo v) (vi_phi v) (vi_plo v)).
Proof.
  intros H1 H2 Hs Ht. unfold module_version. rewrite Hs, Ht, !Z.eqb_refl. cbn [andb]. f_equal.
  assert (E : existsb (Z.eqb os) VERSION_SPLIT_OS = (os =? 0) || (os =? 1) || (os =? 2)).
  { unfold VERSION_SPLIT_OS. cbn [existsb]. destruct (os =? 0), (os =? 1), (os =? 2); reflexivity. }
  rewrite E. destruct ((os =? 0) || (os =? 1) || (os =? 2)).
  - unfold VERSION_ARM_SPLIT, join_dots, dot4. cbn [map ver_comp vi_field flat_map Z.eqb Pos.eqb].
    rewrite !Z.shiftr_div_pow2 by lia. change (2 ^ 16) with 65536.
    change 65535 with (Z.ones 16). rewrite !Z.land_ones by lia. change (2 ^ 16) with 65536.
    rewrite app_nil_r. cbn [app]. rewrite <- ?app_assoc. cbn [app]. reflexivity.
  - unfold VERSION_ARM_ELSE, join_dots, dot4. cbn [map ver_comp vi_field flat_map Z.eqb Pos.eqb].
    rewrite app_nil_r. cbn [app]. rewrite <- ?app_assoc. cbn [app]. reflexivity.
Qed.
