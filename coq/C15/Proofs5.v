(* C15/Proofs5.v — UTF-8: the strict decoder inverts the encoder on scalar values; the pieces of a rendering (escapes, digits,
   quoted strings) consist of scalar values. *)
From Coq Require Import Lia.
From RM Require Import C15.Model C15.Utf8 C15.Proofs.
Open Scope Z_scope.

(* splits on every [<?] / [<=?] of the goal by its specification; [lia] discards the side the context refutes *)
Ltac cases_cmp :=
  repeat match goal with
         | |- context [?a <? ?b] => let H := fresh in destruct (Z.ltb_spec a b) as [H|H]; try lia
         | |- context [?a <=? ?b] => let H := fresh in destruct (Z.leb_spec a b) as [H|H]; try lia
         end.

Lemma scalar_range c : scalar c = true -> 0 <= c < 1114112 /\ (c < 55296 \/ 57343 < c).
Proof.
  unfold scalar. intro H. apply andb_prop in H. destruct H as [H N]. apply andb_prop in H. destruct H as [A B].
  apply Z.leb_le in A. apply Z.ltb_lt in B. apply negb_true_iff in N. apply andb_false_iff in N.
  split; [lia|]. destruct N as [N|N]; [apply Z.leb_gt in N|apply Z.leb_gt in N]; lia.
Qed.

Lemma decode_char c rest f : scalar c = true ->
  utf8_decode (S f) (utf8_char c ++ rest) = match utf8_decode f rest with Some l => Some (c :: l) | None => None end.
Proof.
  intro Hs. pose proof (scalar_range c Hs) as (R & NS).
  pose proof (Z.div_mod c 64 ltac:(lia)) as E1. pose proof (Z.mod_pos_bound c 64 ltac:(lia)) as B1.
  pose proof (Z.div_mod (c / 64) 64 ltac:(lia)) as E2. pose proof (Z.mod_pos_bound (c / 64) 64 ltac:(lia)) as B2.
  pose proof (Z.div_mod (c / 64 / 64) 64 ltac:(lia)) as E3. pose proof (Z.mod_pos_bound (c / 64 / 64) 64 ltac:(lia)) as B3.
  remember (c / 64) as q1. remember (c mod 64) as r1. remember (q1 / 64) as q2. remember (q1 mod 64) as r2.
  remember (q2 / 64) as q3. remember (q2 mod 64) as r3.
  unfold utf8_char. rewrite <- Heqq1, <- Heqr1, <- Heqq2, <- Heqr2, <- Heqq3, <- Heqr3.
  destruct (Z.ltb_spec c 128) as [L1|L1]; [cbn [app utf8_decode]; cases_cmp; reflexivity|].
  destruct (Z.ltb_spec c 2048) as [L2|L2]; [|destruct (Z.ltb_spec c 65536) as [L3|L3]];
    cbn [app utf8_decode]; unfold cont; cases_cmp; cbn [andb].
  - replace ((192 + q1 - 192) * 64 + (128 + r1 - 128)) with c by lia. reflexivity.
  - replace (((224 + q2 - 224) * 64 + (128 + r2 - 128)) * 64 + (128 + r1 - 128)) with c by lia.
    rewrite Hs. cases_cmp. reflexivity.
  - replace ((((240 + q3 - 240) * 64 + (128 + r3 - 128)) * 64 + (128 + r2 - 128)) * 64 + (128 + r1 - 128)) with c by lia.
    rewrite Hs. cases_cmp. reflexivity.
Qed.

Lemma decode_encode s : forall fuel, (length s <= fuel)%nat -> forallb scalar s = true -> utf8_decode fuel (utf8 s) = Some s.
Proof.
  induction s as [|c t IH]; intros fuel Hf Hs.
  - destruct fuel; reflexivity.
  - cbn [forallb] in Hs. apply andb_prop in Hs. destruct Hs as [Hc Ht].
    destruct fuel as [|f]; [cbn [length] in Hf; lia|]. unfold utf8. cbn [flat_map]. fold (utf8 t).
    rewrite decode_char by exact Hc. rewrite IH; [reflexivity|cbn [length] in Hf; lia|exact Ht].
Qed.

Lemma utf8_char_len c : (1 <= length (utf8_char c))%nat.
Proof. unfold utf8_char. destruct (c <? 128), (c <? 2048), (c <? 65536); cbn [length]; lia. Qed.
Lemma utf8_len s : (length s <= length (utf8 s))%nat.
Proof.
  induction s as [|c t IH]; [cbn; lia|]. unfold utf8. cbn [flat_map]. fold (utf8 t). rewrite app_length. cbn [length].
  pose proof (utf8_char_len c). lia.
Qed.

Lemma ascii_scalar c : 0 <= c < 128 -> scalar c = true.
Proof. intro H. unfold scalar. cases_cmp; reflexivity. Qed.

Lemma forallb_app' {A} (f : A -> bool) a b : forallb f a = true -> forallb f b = true -> forallb f (a ++ b) = true.
Proof. intros Ha Hb. rewrite forallb_app, Ha, Hb. reflexivity. Qed.

Lemma hex_fixed_scalar n : forall x, forallb scalar (hex_fixed n x) = true.
Proof.
  induction n as [|n IH]; intro x; [reflexivity|]. cbn [hex_fixed]. apply forallb_app'; [apply IH|].
  cbn [forallb]. rewrite ascii_scalar; [reflexivity|]. unfold hex_digit. pose proof (Z.mod_pos_bound x 16 ltac:(lia)).
  destruct (x mod 16 <? 10); lia.
Qed.

Lemma esc_char_scalar c : scalar c = true -> forallb scalar (esc_char c) = true.
Proof.
  intro H. unfold esc_char.
  repeat match goal with |- context [if ?b then _ else _] => destruct b; [try reflexivity|] end.
  - cbn [app forallb]. rewrite hex_fixed_scalar. reflexivity.
  - cbn [forallb]. rewrite H. reflexivity.
Qed.
Lemma esc_str_scalar s : forallb scalar s = true -> forallb scalar (esc_str s) = true.
Proof.
  induction s as [|c t IH]; [reflexivity|]. cbn [forallb]. intro H. apply andb_prop in H. destruct H as [Hc Ht].
  unfold esc_str. cbn [flat_map]. apply forallb_app'; [apply esc_char_scalar; exact Hc|apply IH; exact Ht].
Qed.
Lemma ser_str_scalar s : forallb scalar s = true -> forallb scalar (ser_str s) = true.
Proof. intro H. unfold ser_str. cbn [forallb]. apply forallb_app'; [apply esc_str_scalar; exact H|reflexivity]. Qed.

Lemma uint_scalar u : forallb scalar (chars_of_uint u) = true.
Proof. induction u; cbn [chars_of_uint forallb]; try reflexivity; rewrite IHu; reflexivity. Qed.
Lemma ser_num_scalar n : forallb scalar (ser_num n) = true.
Proof. unfold ser_num, dec_digits. destruct (n <? 0); cbn [forallb]; rewrite uint_scalar; reflexivity. Qed.
